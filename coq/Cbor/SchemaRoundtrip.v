(** C17 - the universal round-trip theorem of the schema language: for every well-formed schema and every
    well-typed value, the decoder applied to (the normal form of) what the encoder writes returns the value. *)
From Coq Require Import ZArith List Bool String Lia.
From CB Require Import Cbor.CborCore Cbor.CborProofs Cbor.CborNorm Cbor.CborSchema Cbor.SchemaProofs Cbor.SchemaTyping.
Import ListNotations.
Local Open Scope N_scope.

Definition optP (P : schema -> Prop) (o : option schema) : Prop :=
  match o with Some u => P u | None => True end.

Section SchemaInd.
  Variable P : schema -> Prop.
  Hypothesis HUInt : forall b, P (SUInt b).
  Hypothesis HInt : forall b, P (SInt b).
  Hypothesis HBool : P SBool.
  Hypothesis HText : P SText.
  Hypothesis HBytes : P SBytes.
  Hypothesis HBytesN : forall n, P (SBytesN n).
  Hypothesis HValue : P SValue.
  Hypothesis HOption : forall s, P s -> P (SOption s).
  Hypothesis HVec : forall s, P s -> P (SVec s).
  Hypothesis HTuple : forall ss, Forall P ss -> P (STuple ss).
  Hypothesis HStruct : forall fields other, Forall (fun f => P (snd f)) fields -> P (SStruct fields other).
  Hypothesis HTag : forall t s, P s -> P (STag t s).
  Hypothesis HEnumMap : forall vs other, Forall (fun v => P (snd v)) vs -> P (SEnumMap vs other).
  Hypothesis HEnumTagged : forall vs untagged other, Forall (fun v => P (snd v)) vs ->
    optP P untagged -> P (SEnumTagged vs untagged other).
  Hypothesis HMaybe : forall s, P s -> P (SMaybeKnown s).
  Hypothesis HRefine : forall r s, P s -> P (SRefine r s).

  Fixpoint schema_ind' (s : schema) : P s :=
    match s with
    | SUInt b => HUInt b | SInt b => HInt b | SBool => HBool | SText => HText | SBytes => HBytes
    | SBytesN n => HBytesN n | SValue => HValue
    | SOption s' => HOption s' (schema_ind' s')
    | SVec s' => HVec s' (schema_ind' s')
    | STuple ss => HTuple ss (Forall_all P schema_ind' ss)
    | SStruct fields other => HStruct fields other (Forall_all _ (fun f => schema_ind' (snd f)) fields)
    | STag t s' => HTag t s' (schema_ind' s')
    | SEnumMap vs other => HEnumMap vs other (Forall_all _ (fun v => schema_ind' (snd v)) vs)
    | SEnumTagged vs untagged other =>
      HEnumTagged vs untagged other (Forall_all _ (fun v => schema_ind' (snd v)) vs)
        (match untagged as o return optP P o with
         | Some u0 => schema_ind' u0
         | None => I
         end)
    | SMaybeKnown s' => HMaybe s' (schema_ind' s')
    | SRefine r s' => HRefine r s' (schema_ind' s')
    end.
End SchemaInd.

Lemma strip_okb : forall v, value_okb v = true -> strip v = v.
Proof.
  induction v using value_ind'; intros Hok; try reflexivity.
  - apply value_okb_array in Hok. destruct Hok as (-> & _ & Hall). cbn [strip]. f_equal.
    rewrite <- (map_id l) at 2. apply map_ext_Forall.
    rewrite forallb_Forall in Hall. rewrite Forall_forall in *. intros x Hx. apply (H x Hx). apply (Hall x Hx).
  - apply value_okb_map in Hok. destruct Hok as (-> & _ & Hall). cbn [strip]. f_equal.
    rewrite <- (map_id l) at 2. apply map_ext_Forall.
    rewrite forallb_Forall in Hall. rewrite Forall_forall in *. intros [k x] Hx.
    specialize (H _ Hx). specialize (Hall _ Hx). cbn [fst snd] in *.
    apply andb_true_iff in Hall. destruct H as [Hk Hv], Hall as [Okk Okx].
    rewrite (Hk Okk), (Hv Okx). reflexivity.
  - apply value_okb_tag in Hok. destruct Hok as [_ Hok]. cbn [strip]. rewrite (IHv Hok). reflexivity.
Qed.

Lemma wf_norm_strip : forall v, value_wfb v = true -> norm v = v /\ strip v = v /\ value_okb v = true.
Proof.
  intros v H. destruct (wfb_split v H) as [A B]. split; [apply norm_sorted_id; assumption|]. split; [apply strip_okb|]; assumption.
Qed.

Definition is_plainv (v : value) : bool :=
  match v with VPos _ | VNeg _ | VBool _ | VText _ | VBytes _ | VArray _ _ | VMap _ _ => true | _ => false end.

Lemma is_plainv_norm : forall v, is_plainv (norm v) = is_plainv v.
Proof. destruct v; reflexivity. Qed.

Lemma norm_null : forall v, norm v = VNull -> v = VNull.
Proof. destruct v; cbn [norm]; intros H; try discriminate; reflexivity. Qed.

Lemma norm_single : forall i k x, norm (VMap i [(k, x)]) = VMap false [(norm k, norm x)].
Proof. reflexivity. Qed.

Lemma list_eqb_refl : forall l, list_eqb l l = true.
Proof. induction l; [reflexivity|]. cbn [list_eqb]. rewrite N.eqb_refl, IHl. reflexivity. Qed.

Lemma key_matches_refl : forall k, key_matches k (key_value k) = true.
Proof. destruct k; cbn [key_matches key_value]; [apply list_eqb_refl|apply N.eqb_refl]. Qed.

Definition is_tagv (v : value) : bool := match v with VTag _ _ => true | _ => false end.

(** what the encoding of a value of schema [s] looks like at the top *)
Definition out_kind (s : schema) (v : value) : Prop :=
  match s with
  | STag t _ | SRefine _ (STag t _) => exists w, v = VTag t w
  | SEnumTagged _ None _ => is_tagv v = true
  | SEnumTagged _ (Some u) _ => plain_out u = true -> is_tagv v || is_plainv v = true
  | _ => plain_out s = true -> is_plainv v = true
  end.

Definition RTS (s : schema) : Prop :=
  schema_wfb s = true -> forall x, typedb s x = true ->
  exists v, senc s x = Some v /\ value_okb v = true /\ out_kind s v /\ forall o mk, sdec o s mk (norm v) = Some x.

Lemma pow_le_64 : forall bits, bits <= 64 -> 2 ^ bits <= W64.
Proof. intros. change W64 with (2 ^ 64). apply N.pow_le_mono_r; lia. Qed.

Lemma rt_uint : forall bits, RTS (SUInt bits).
Proof.
  intros bits Hwf x Hty. cbn [schema_wfb] in Hwf. apply andb_true_iff in Hwf as [Hlo Hhi]. apply N.leb_le in Hlo, Hhi.
  destruct x; try discriminate. cbn [typedb] in Hty.
  exists (VPos n). cbn [senc]. rewrite Hty. split; [reflexivity|]. apply N.ltb_lt in Hty.
  pose proof (pow_le_64 bits Hhi). split; [|split; [intro; reflexivity|]].
  - cbn [value_okb]. apply N.ltb_lt. lia.
  - intros o mk. cbn [norm sdec]. unfold dec_uint, dec_unsigned.
    destruct (N.ltb_spec n (2 ^ bits)); [reflexivity|lia].
Qed.

Lemma rt_int : forall bits, RTS (SInt bits).
Proof.
  intros bits Hwf x Hty. cbn [schema_wfb] in Hwf. apply andb_true_iff in Hwf as [Hlo Hhi]. apply N.leb_le in Hlo, Hhi.
  destruct x; try discriminate. cbn [typedb] in Hty. apply andb_true_iff in Hty as [Hzlo Hzhi].
  apply Z.leb_le in Hzlo. apply Z.ltb_lt in Hzhi.
  set (P := 2 ^ (bits - 1)) in *.
  assert (HP : P <= 2 ^ 63) by (unfold P; apply N.pow_le_mono_r; lia).
  assert (HP' : 2 ^ 63 < W64) by (change (2 ^ 63) with 9223372036854775808; unfold W64; lia).
  assert (EZ : (2 ^ (Z.of_N bits - 1))%Z = Z.of_N P).
  { unfold P. rewrite N2Z.inj_pow. f_equal. lia. }
  cbn [senc]. rewrite EZ.
  assert (R : ((- Z.of_N P <=? z) && (z <? Z.of_N P))%Z = true).
  { apply andb_true_iff. split; [apply Z.leb_le|apply Z.ltb_lt]; assumption. }
  rewrite R.
  destruct (Z.leb_spec 0 z) as [Hz|Hz].
  - exists (VPos (Z.to_N z)). split; [reflexivity|]. split; [|split; [intro; reflexivity|]].
    + cbn [value_okb]. apply N.ltb_lt. lia.
    + intros o mk. cbn [norm sdec]. unfold dec_int, dec_unsigned. fold P.
      destruct (N.ltb_spec (Z.to_N z) P); [|lia]. rewrite Z2N.id by lia. reflexivity.
  - exists (VNeg (Z.to_N (-1 - z))). split; [reflexivity|]. split; [|split; [intro; reflexivity|]].
    + cbn [value_okb]. apply N.ltb_lt. lia.
    + intros o mk. cbn [norm sdec]. unfold dec_int. fold P.
      destruct (N.ltb_spec (Z.to_N (-1 - z)) P); [|lia]. rewrite Z2N.id by lia. f_equal. f_equal. lia.
Qed.

Lemma rt_bool : RTS SBool.
Proof.
  intros _ x Hty. destruct x; try discriminate. exists (VBool b). split; [reflexivity|]. split; [reflexivity|].
  split; [intro; reflexivity|]. intros; reflexivity.
Qed.

Lemma rt_text : RTS SText.
Proof.
  intros _ x Hty. destruct x; try discriminate. cbn [typedb] in Hty. exists (VText b). split; [reflexivity|].
  split; [exact Hty|]. split; [intro; reflexivity|]. intros; reflexivity.
Qed.

Lemma rt_bytes : RTS SBytes.
Proof.
  intros _ x Hty. destruct x; try discriminate. cbn [typedb] in Hty. exists (VBytes b). split; [reflexivity|].
  split; [exact Hty|]. split; [intro; reflexivity|]. intros; reflexivity.
Qed.

Lemma rt_bytesn : forall n, RTS (SBytesN n).
Proof.
  intros n Hwf x Hty. cbn [schema_wfb] in Hwf. apply N.ltb_lt in Hwf.
  destruct x; try discriminate. cbn [typedb] in Hty. apply andb_true_iff in Hty as [Hb Hlen].
  exists (VBytes b). cbn [senc]. rewrite Hlen. split; [reflexivity|]. apply N.eqb_eq in Hlen.
  split; [|split; [intro; reflexivity|]].
  - cbn [value_okb]. rewrite Hb. apply N.ltb_lt. lia.
  - intros o mk. cbn [norm sdec]. destruct (N.eqb_spec (len b) n); [reflexivity|contradiction].
Qed.

Lemma rt_value : RTS SValue.
Proof.
  intros _ x Hty. destruct x; try discriminate. cbn [typedb] in Hty.
  destruct (wf_norm_strip v Hty) as (A & B & C). exists v. split; [reflexivity|]. split; [exact C|].
  split; [intro; discriminate|]. intros o mk. cbn [sdec]. rewrite A, B. reflexivity.
Qed.

Lemma not_null_of_kind : forall s v, option_ok s = true -> out_kind s v -> v <> VNull.
Proof.
  intros s v Hok Hk E. subst v. unfold option_ok in Hok.
  destruct s; cbn [out_kind plain_out tag_out orb] in *;
    try (specialize (Hk eq_refl); discriminate); try discriminate;
    try (destruct Hk; discriminate).
  - destruct untagged as [u|]; [|discriminate]. specialize (Hk Hok). discriminate.
  - destruct s; try discriminate. destruct Hk; discriminate.
Qed.

Lemma rt_option : forall s, RTS s -> RTS (SOption s).
Proof.
  intros s IH Hwf x Hty. cbn [schema_wfb] in Hwf. apply andb_true_iff in Hwf as [Hopt Hwf].
  destruct x; try discriminate.
  - exists VNull. split; [reflexivity|]. split; [reflexivity|]. split; [intro; discriminate|]. intros; reflexivity.
  - cbn [typedb] in Hty. destruct (IH Hwf x Hty) as (v & E & Ok & Kd & D).
    exists v. split; [exact E|]. split; [exact Ok|]. split; [intro; discriminate|].
    intros o mk. pose proof (not_null_of_kind s v Hopt Kd) as NN.
    assert (NN' : norm v <> VNull) by (intro F; apply NN; apply norm_null; exact F).
    specialize (D o false). cbn [sdec]. destruct (norm v); try (rewrite D; reflexivity). contradiction.
Qed.

Lemma rt_tag : forall t s, RTS s -> RTS (STag t s).
Proof.
  intros t s IH Hwf x Hty. cbn [schema_wfb] in Hwf. apply andb_true_iff in Hwf as [Ht Hwf]. apply andb_true_iff in Ht as [Ht _].
  cbn [typedb] in Hty. destruct (IH Hwf x Hty) as (v & E & Ok & Kd & D).
  exists (VTag t v). split; [cbn [senc]; rewrite E; reflexivity|]. split; [cbn [value_okb]; rewrite Ht, Ok; reflexivity|].
  split; [exists v; reflexivity|]. intros o mk. cbn [norm sdec]. rewrite N.eqb_refl. apply D.
Qed.

Lemma senc_refine : forall r s x, senc (SRefine r s) x = if refine_ok r x then senc s x else None.
Proof. intros. destruct x; reflexivity. Qed.

Lemma rt_refine : forall r s, RTS s -> RTS (SRefine r s).
Proof.
  intros r s IH Hwf x Hty. cbn [schema_wfb] in Hwf. apply andb_true_iff in Hwf as [_ Hwf].
  cbn [typedb] in Hty. apply andb_true_iff in Hty as [Hr Hty].
  destruct (IH Hwf x Hty) as (v & E & Ok & Kd & D).
  exists v. split; [rewrite senc_refine, Hr; exact E|]. split; [exact Ok|]. split.
  - destruct s; try (intro; discriminate). exact Kd.
  - intros o mk. cbn [sdec]. rewrite (D o false), Hr. reflexivity.
Qed.

Definition enc_tuple : list schema -> list sval -> option (list value) :=
  fix go (ss : list schema) (l : list sval) : option (list value) :=
    match ss, l with
    | [], [] => Some []
    | s' :: ss', y :: r => match senc s' y, go ss' r with Some v, Some vs => Some (v :: vs) | _, _ => None end
    | _, _ => None
    end.

Definition dec_tuple (o : unknown_keys) : list schema -> list value -> option (list sval) :=
  fix go (ss : list schema) (l : list value) : option (list sval) :=
    match ss, l with
    | [], [] => Some []
    | s' :: ss', x :: r => match sdec o s' false x, go ss' r with Some y, Some ys => Some (y :: ys) | _, _ => None end
    | _, _ => None
    end.

Definition typed_tuple : list schema -> list sval -> bool :=
  fix go (ss : list schema) (l : list sval) : bool :=
    match ss, l with
    | [], [] => true
    | s' :: ss', y :: r => typedb s' y && go ss' r
    | _, _ => false
    end.

Lemma senc_tuple : forall ss l, senc (STuple ss) (XList l) = option_map (VArray false) (enc_tuple ss l).
Proof. reflexivity. Qed.
Lemma sdec_tuple : forall o ss mk l, sdec o (STuple ss) mk (VArray false l) = option_map XList (dec_tuple o ss l).
Proof. reflexivity. Qed.
Lemma typedb_tuple : forall ss l, typedb (STuple ss) (XList l) = (len l <? W64) && typed_tuple ss l.
Proof. reflexivity. Qed.

Lemma senc_vec : forall s' l,
  senc (SVec s') (XList l) = option_map (VArray false) (enc_tuple (repeat s' (List.length l)) l).
Proof.
  intros s' l. cbn [senc]. f_equal. induction l as [|y l IH]; [reflexivity|].
  cbn [repeat List.length enc_tuple]. rewrite <- IH. reflexivity.
Qed.
Lemma sdec_vec : forall o s' mk i l,
  sdec o (SVec s') mk (VArray i l) = option_map XList (dec_tuple o (repeat s' (List.length l)) l).
Proof.
  intros o s' mk i l. cbn [sdec]. f_equal. induction l as [|x l IH]; [reflexivity|].
  cbn [repeat List.length dec_tuple]. rewrite <- IH. reflexivity.
Qed.
Lemma typedb_vec : forall s' l,
  typedb (SVec s') (XList l) = (len l <? W64) && typed_tuple (repeat s' (List.length l)) l.
Proof.
  intros s' l. cbn [typedb]. f_equal. induction l as [|y l IH]; [reflexivity|].
  cbn [repeat List.length typed_tuple]. rewrite <- IH. reflexivity.
Qed.

Lemma tuple_elems : forall ss, Forall RTS ss -> forallb schema_wfb ss = true ->
  forall l, typed_tuple ss l = true ->
  exists vs, enc_tuple ss l = Some vs /\ List.length vs = List.length l /\ forallb value_okb vs = true /\
             forall o, dec_tuple o ss (map norm vs) = Some l.
Proof.
  induction 1 as [|s ss Hs Hss IHss]; intros Hwf l Ht.
  - destruct l; [|discriminate]. exists []. repeat split; reflexivity.
  - destruct l as [|y l]; [discriminate|]. cbn [typed_tuple] in Ht. fold typed_tuple in Ht. apply andb_true_iff in Ht as [Hy Hl].
    cbn [forallb] in Hwf. apply andb_true_iff in Hwf as [Hws Hwss].
    destruct (Hs Hws y Hy) as (v & E & Ok & _ & D).
    destruct (IHss Hwss l Hl) as (vs & Es & Ls & Oks & Ds).
    exists (v :: vs). cbn [enc_tuple]. fold enc_tuple. rewrite E, Es. split; [reflexivity|].
    split; [cbn [List.length]; lia|]. split; [cbn [forallb]; rewrite Ok, Oks; reflexivity|].
    intros o. cbn [map dec_tuple]. fold (dec_tuple o). rewrite (D o false), (Ds o). reflexivity.
Qed.

Lemma array_okb : forall (l : list sval) vs, (len l <? W64) = true -> List.length vs = List.length l ->
  forallb value_okb vs = true -> value_okb (VArray false vs) = true.
Proof. intros l vs H Ls Oks. cbn [value_okb negb andb]. unfold len in *. rewrite Ls, H, Oks. reflexivity. Qed.

Lemma rt_tuple : forall ss, Forall RTS ss -> RTS (STuple ss).
Proof.
  intros ss IH Hwf x Hty. cbn [schema_wfb] in Hwf. destruct x; try discriminate.
  rewrite typedb_tuple in Hty. apply andb_true_iff in Hty as [Hlen Hty].
  destruct (tuple_elems ss IH Hwf l Hty) as (vs & Es & Ls & Oks & Ds).
  exists (VArray false vs). split; [rewrite senc_tuple, Es; reflexivity|]. split; [exact (array_okb l vs Hlen Ls Oks)|].
  split; [intro; reflexivity|]. intros o mk. rewrite norm_array, sdec_tuple, Ds. reflexivity.
Qed.

Lemma rt_vec : forall s, RTS s -> RTS (SVec s).
Proof.
  intros s IH Hwf x Hty. cbn [schema_wfb] in Hwf. destruct x; try discriminate.
  rewrite typedb_vec in Hty. apply andb_true_iff in Hty as [Hlen Hty].
  destruct (tuple_elems (repeat s (List.length l))) with (l := l) as (vs & Es & Ls & Oks & Ds); [| |exact Hty|].
  { apply Forall_forall. intros s' Hs'. apply repeat_spec in Hs'. subst s'. exact IH. }
  { apply forallb_forall. intros s' Hs'. apply repeat_spec in Hs'. subst s'. exact Hwf. }
  exists (VArray false vs). split; [rewrite senc_vec, Es; reflexivity|]. split; [exact (array_okb l vs Hlen Ls Oks)|].
  split; [intro; reflexivity|]. intros o mk. rewrite norm_array, sdec_vec, map_length, Ls, Ds. reflexivity.
Qed.

Lemma forallb_nth : forall {A} (f : A -> bool) l i x, forallb f l = true -> nth_error l i = Some x -> f x = true.
Proof. intros A f l i x H Hn. rewrite forallb_forall in H. apply H. eapply nth_error_In; eassumption. Qed.

Lemma Forall_nth : forall {A} (P : A -> Prop) l i x, Forall P l -> nth_error l i = Some x -> P x.
Proof. intros A P l i x H Hn. rewrite Forall_forall in H. apply H. eapply nth_error_In; eassumption. Qed.

Lemma existsb_false_In : forall {A} (f : A -> bool) l x, existsb f l = false -> In x l -> f x = false.
Proof.
  intros A f l x H Hin. destruct (f x) eqn:E; [|reflexivity].
  assert (existsb f l = true) by (apply existsb_exists; exists x; auto). congruence.
Qed.

Lemma findi_nth : forall {K K' V B} (eqb : K' -> K' -> bool) (key : K -> K') (f : K -> V -> B) l i n k v,
  distinctb eqb (map (fun e => key (fst e)) l) = true -> eqb (key k) (key k) = true ->
  nth_error l i = Some (k, v) ->
  findi (fun k' => eqb (key k') (key k)) f l n = Some ((n + i)%nat, f k v).
Proof.
  intros K K' V B eqb key f. induction l as [|[k0 v0] l IH]; intros i n k v Hd Hr H; [destruct i; discriminate|].
  cbn [map distinctb fst] in Hd. apply andb_true_iff in Hd as [Hfresh Hd]. apply negb_true_iff in Hfresh. destruct i; cbn [nth_error] in H.
  - inversion H; subst. cbn [findi]. rewrite Hr, Nat.add_0_r. reflexivity.
  - cbn [findi].
    assert (E : eqb (key k0) (key k) = false).
    { apply (existsb_false_In _ _ _ Hfresh). apply nth_error_In in H. apply (in_map (fun e => key (fst e))) in H. exact H. }
    rewrite E, (IH i (S n) k v Hd Hr H). f_equal. f_equal. lia.
Qed.

Lemma findi_none_keys : forall {K K' V B} (p : K' -> bool) (key : K -> K') (f : K -> V -> B) l i,
  existsb p (map (fun e => key (fst e)) l) = false -> findi (fun k => p (key k)) f l i = None.
Proof.
  intros K K' V B p key f l i H. apply findi_none. intros k v Hin.
  apply (existsb_false_In p _ _ H). apply (in_map (fun e => key (fst e))) in Hin. exact Hin.
Qed.

Lemma okb_single_map : forall k x, value_okb k = true -> value_okb x = true -> value_okb (VMap false [(k, x)]) = true.
Proof. intros k x Hk Hx. cbn [value_okb forallb negb andb]. rewrite Hk, Hx. reflexivity. Qed.

Lemma senc_enum_map : forall vs other i y,
  senc (SEnumMap vs other) (XVariant i y) =
  match nth_error vs i with
  | Some (name, s') => option_map (fun v => VMap false [(VText (bytes_of_string name), v)]) (senc s' y)
  | None => None
  end.
Proof.
  intros vs other i y. destruct other; cbn [senc]; revert i;
    induction vs as [|[nm s0] vs IH]; intros [|i]; try reflexivity; apply IH.
Qed.

Lemma typedb_enum_map : forall vs other i y,
  typedb (SEnumMap vs other) (XVariant i y) = match nth_error vs i with Some (_, s') => typedb s' y | None => false end.
Proof.
  intros vs other i y. cbn [typedb]. revert i. induction vs as [|[nm s0] vs IH]; intros [|i]; try reflexivity. apply IH.
Qed.

(** an undeclared variant name: what is written is well-formed and comes back as [XOther], or as [XUnknown]
    under [CborMaybeKnown] *)
Lemma unknown_text_variant : forall (vs : list (string * schema)) b v,
  unknown_text_ok (map (fun v => bytes_of_string (fst v)) vs) b v = true ->
  value_okb (VMap false [(VText b, v)]) = true /\
  forall o other mk, sdec o (SEnumMap vs other) mk (norm (VMap false [(VText b, v)])) =
    if other then Some (XOther (VText b) v) else if mk then Some (XUnknown (VMap false [(VText b, v)])) else None.
Proof.
  intros vs b v H. unfold unknown_text_ok in H.
  apply andb_true_iff in H as [H Hnew]. apply andb_true_iff in H as [Hb Hv]. apply negb_true_iff in Hnew.
  destruct (wf_norm_strip v Hv) as (A & B & C). split.
  - exact (okb_single_map (VText b) v Hb C).
  - intros o other mk. rewrite norm_single. cbn [norm]. rewrite A, sdec_enum_map.
    rewrite (findi_none_keys (fun nm => list_eqb nm b) bytes_of_string _ vs 0 Hnew), B. reflexivity.
Qed.

Lemma rt_enum_map : forall vs other, Forall (fun v => RTS (snd v)) vs -> RTS (SEnumMap vs other).
Proof.
  intros vs other IH Hwf x Hty. cbn [schema_wfb] in Hwf. apply andb_true_iff in Hwf as [Hvs Hdist].
  destruct x; try discriminate.
  - rewrite typedb_enum_map in Hty. destruct (nth_error vs i) as [[name s']|] eqn:Hn; [|discriminate].
    pose proof (forallb_nth _ _ _ _ Hvs Hn) as W. cbn in W. apply andb_true_iff in W as [Hname Ws].
    pose proof (Forall_nth _ _ _ _ IH Hn) as R. cbn [snd] in R.
    destruct (R Ws x Hty) as (v & E & Ok & _ & D).
    exists (VMap false [(VText (bytes_of_string name), v)]).
    split; [rewrite senc_enum_map, Hn, E; reflexivity|].
    split; [exact (okb_single_map (VText (bytes_of_string name)) v Hname Ok)|].
    split; [intro; reflexivity|].
    intros o mk. rewrite norm_single. cbn [norm]. rewrite sdec_enum_map.
    rewrite (findi_nth list_eqb bytes_of_string _ vs i 0 name s' Hdist (list_eqb_refl _) Hn), (D o false). reflexivity.
  - cbn [typedb] in Hty. destruct k; try discriminate. destruct other; [|discriminate]. cbn [andb] in Hty.
    destruct (unknown_text_variant vs b v Hty) as [Ok D].
    exists (VMap false [(VText b, v)]). split; [reflexivity|]. split; [exact Ok|]. split; [intro; reflexivity|].
    intros o mk. exact (D o true mk).
Qed.

Lemma senc_enum_tagged : forall vs u other i y,
  senc (SEnumTagged vs u other) (XVariant i y) =
  match nth_error vs i with
  | Some (t, c, s') => option_map (fun v => if c then VTag t v else v) (senc s' y)
  | None => if Nat.eqb i (List.length vs) then match u with Some s' => senc s' y | None => None end else None
  end.
Proof.
  intros vs u other i y. destruct other; cbn [senc]; revert i;
    induction vs as [|[[t0 c0] s0] vs IH]; intros [|i]; try reflexivity; apply IH.
Qed.

Lemma typedb_enum_tagged : forall vs u other i y,
  typedb (SEnumTagged vs u other) (XVariant i y) =
  match nth_error vs i with
  | Some (_, _, s') => typedb s' y
  | None => if Nat.eqb i (List.length vs) then match u with Some u' => typedb u' y | None => false end else false
  end.
Proof.
  intros vs u other i y. cbn [typedb]. revert i.
  induction vs as [|[[t0 c0] s0] vs IH]; intros [|i]; try reflexivity. apply IH.
Qed.

Lemma sdec_enum_tagged_untagged : forall o vs u other mk v, is_tagv v = false ->
  sdec o (SEnumTagged vs u other) mk v =
  match u with Some s' => option_map (XVariant (List.length vs)) (sdec o s' false v) | None => None end.
Proof. intros. destruct v; try reflexivity. discriminate. Qed.

Lemma plain_kind : forall s v, plain_out s = true -> out_kind s v -> is_plainv v = true.
Proof. intros s v Hp Hk. destruct s; try discriminate; exact (Hk eq_refl). Qed.

Lemma unknown_tag_variant : forall (vs : list (N * bool * schema)) u t v,
  unknown_tag_ok (map (fun v => fst (fst v)) vs) t v = true ->
  value_okb (VTag t v) = true /\
  forall o other mk, sdec o (SEnumTagged vs u other) mk (norm (VTag t v)) =
    if other then Some (XOther (VPos t) v) else if mk then Some (XUnknown (VTag t v)) else None.
Proof.
  intros vs u t v H. unfold unknown_tag_ok in H.
  apply andb_true_iff in H as [H Hnew]. apply andb_true_iff in H as [Ht Hv]. apply negb_true_iff in Hnew.
  destruct (wf_norm_strip v Hv) as (A & B & C). split.
  - cbn [value_okb]. rewrite Ht, C. reflexivity.
  - intros o other mk. cbn [norm]. rewrite A, sdec_enum_tagged.
    rewrite (findi_none_keys (fun t' => t' =? t) fst _ vs 0 Hnew), B. reflexivity.
Qed.

Lemma rt_enum_tagged : forall vs u other, Forall (fun v => RTS (snd v)) vs -> optP RTS u -> RTS (SEnumTagged vs u other).
Proof.
  intros vs u other IH IHu Hwf x Hty. cbn [schema_wfb] in Hwf.
  apply andb_true_iff in Hwf as [Hwf Hu]. apply andb_true_iff in Hwf as [Hvs Hdist].
  assert (KindOK : forall v, is_tagv v = true -> out_kind (SEnumTagged vs u other) v).
  { intros v Hv. cbn [out_kind]. destruct u as [u'|]; [intros _; rewrite Hv; reflexivity|exact Hv]. }
  destruct x; try discriminate.
  - rewrite typedb_enum_tagged in Hty. destruct (nth_error vs i) as [[[t c] s']|] eqn:Hn.
    + pose proof (forallb_nth _ _ _ _ Hvs Hn) as W. cbn in W.
      apply andb_true_iff in W as [W Ws]. apply andb_true_iff in W as [Ht Hc].
      pose proof (Forall_nth _ _ _ _ IH Hn) as R. cbn [snd] in R.
      destruct (R Ws x Hty) as (v & E & Ok & Kd & D).
      destruct c.
      * exists (VTag t v).
        split; [rewrite senc_enum_tagged, Hn, E; reflexivity|].
        split; [cbn [value_okb]; rewrite Ht, Ok; reflexivity|].
        split; [apply KindOK; reflexivity|].
        intros o mk. cbn [norm]. rewrite sdec_enum_tagged.
        rewrite (findi_nth N.eqb fst _ vs i 0 (t, true) s' Hdist (N.eqb_refl _) Hn). cbn [snd]. rewrite (D o false). reflexivity.
      * (* peek_tag: the payload writes the tag itself *)
        cbn [orb] in Hc. destruct s'; try discriminate. apply N.eqb_eq in Hc. subst t0.
        cbn [out_kind] in Kd. destruct Kd as [w ->].
        exists (VTag t w).
        split; [rewrite senc_enum_tagged, Hn, E; reflexivity|].
        split; [exact Ok|]. split; [apply KindOK; reflexivity|].
        intros o mk. specialize (D o false). cbn [norm] in *. rewrite sdec_enum_tagged.
        rewrite (findi_nth N.eqb fst _ vs i 0 (t, false) (STag t s') Hdist (N.eqb_refl _) Hn). cbn [snd]. rewrite D. reflexivity.
    + destruct (Nat.eqb_spec i (List.length vs)) as [->|]; [|discriminate]. destruct u as [u'|]; [|discriminate].
      apply andb_true_iff in Hu as [Hplain Hwfu]. cbn [optP] in IHu.
      destruct (IHu Hwfu x Hty) as (v & E & Ok & Kd & D).
      pose proof (plain_kind _ _ Hplain Kd) as Pl.
      exists v. split; [rewrite senc_enum_tagged, Hn, Nat.eqb_refl; exact E|]. split; [exact Ok|].
      split; [cbn [out_kind]; intros _; rewrite Pl; apply orb_true_r|].
      intros o mk. rewrite sdec_enum_tagged_untagged.
      * rewrite (D o false). reflexivity.
      * pose proof (is_plainv_norm v) as Pn. rewrite Pl in Pn. destruct (norm v); try reflexivity; discriminate.
  - cbn [typedb] in Hty. destruct k; try discriminate. destruct other; [|discriminate]. cbn [andb] in Hty.
    destruct (unknown_tag_variant vs u n v Hty) as [Ok D].
    exists (VTag n v). split; [reflexivity|]. split; [exact Ok|]. split; [apply KindOK; reflexivity|].
    intros o mk. exact (D o true mk).
Qed.

Lemma rt_maybe : forall s, RTS s -> RTS (SMaybeKnown s).
Proof.
  intros s IH Hwf x Hty. cbn [schema_wfb] in Hwf. apply andb_true_iff in Hwf as [Henum Hwf].
  destruct x; try discriminate.
  - cbn [typedb] in Hty. destruct (IH Hwf x Hty) as (v & E & Ok & _ & D).
    exists v. split; [exact E|]. split; [exact Ok|]. split; [intro; discriminate|].
    intros o mk. rewrite sdec_maybe, (D o true).
    destruct s; try discriminate; destruct x; try discriminate; reflexivity.
  - cbn [typedb] in Hty. destruct s; try discriminate.
    + destruct other; [discriminate|]. destruct v; try discriminate. destruct indef; [discriminate|].
      destruct l as [|[k w] l']; try discriminate. destruct k; try discriminate. destruct l'; try discriminate.
      destruct (unknown_text_variant variants b w Hty) as [Ok D].
      exists (VMap false [(VText b, w)]). split; [reflexivity|]. split; [exact Ok|]. split; [intro; discriminate|].
      intros o mk. rewrite sdec_maybe, (D o false true). reflexivity.
    + destruct other; [discriminate|]. destruct v; try discriminate.
      destruct (unknown_tag_variant variants untagged t v Hty) as [Ok D].
      exists (VTag t v). split; [reflexivity|]. split; [exact Ok|]. split; [intro; discriminate|].
      intros o mk. rewrite sdec_maybe, (D o false true). reflexivity.
Qed.

Section Sorting.
  Context {A : Type}.
  Implicit Types (l : list (list N * A)) (x : list N * A).

  Lemma In_map_isortk : forall {B} (f : list N * A -> B) y l, In y (map f (isortk l)) <-> In y (map f l).
  Proof.
    intros B f y l. rewrite !in_map_iff. split; intros [z [Hz Hin]]; exists z; (split; [exact Hz|]); apply In_isortk; exact Hin.
  Qed.

  Variable p : list N * A -> bool.

  Lemma filter_insert_false : forall x l, p x = false -> filter p (insert_sortedk x l) = filter p l.
  Proof.
    intros x l Hx. induction l as [|y r IH]; cbn [insert_sortedk filter]; [rewrite Hx; reflexivity|].
    destruct (lex_leb (fst x) (fst y)); cbn [filter]; [rewrite Hx; reflexivity|]. rewrite IH. reflexivity.
  Qed.

  Lemma filter_isortk_app : forall l1 l2, (forall a, In a l1 -> p a = false) ->
    filter p (isortk (l1 ++ l2)) = filter p (isortk l2).
  Proof.
    induction l1 as [|x l1 IH]; intros l2 H; [reflexivity|]. cbn [app isortk fold_right]. fold (isortk (l1 ++ l2)).
    rewrite filter_insert_false by (apply H; left; reflexivity). apply IH. intros a Ha. apply H. right. exact Ha.
  Qed.
End Sorting.

Lemma nth_set_nth_same : forall {A} (l : list A) i y, (i < List.length l)%nat -> nth_error (set_nth i y l) i = Some y.
Proof.
  induction l as [|a l IH]; intros i y H; [cbn in H; lia|].
  destruct i; cbn [set_nth nth_error]; [reflexivity|]. apply IH. cbn [List.length] in H. lia.
Qed.

Lemma set_nth_length : forall {A} (l : list A) i y, List.length (set_nth i y l) = List.length l.
Proof. induction l as [|a l IH]; intros [|i] y; cbn [set_nth List.length]; try reflexivity. rewrite IH. reflexivity. Qed.

Section Fold.
  Variable o : unknown_keys.
  Variable fields : list (key * schema).
  Variable other : option okind.

  Definition entry_ok (e : value * value) : Prop :=
    is_mapkey (fst e) = true /\
    match find_field o (fst e) (snd e) fields 0 with
    | Some (_, Some _) => True
    | Some (_, None) => False
    | None => exists kind, other = Some kind /\ other_key_ok kind (fst e) = true
    end.

  Definition is_unk (e : value * value) : bool :=
    match find_field o (fst e) (snd e) fields 0 with None => true | Some _ => false end.

  Definition hit (i : nat) (e : value * value) : option sval :=
    match find_field o (fst e) (snd e) fields 0 with
    | Some (j, Some y) => if Nat.eqb j i then Some y else None
    | _ => None
    end.

  Definition hits (i : nat) (e : value * value) : bool := if hit i e then true else false.

  Definition ups (acc : list (value * value)) (e : value * value) := upsert (fst e) (strip (snd e)) acc.

  Lemma find_field_bound : forall k x fs n j r, find_field o k x fs n = Some (j, r) -> (n <= j < n + List.length fs)%nat.
  Proof. intros k x fs n j r H. apply findi_hit in H. destruct H as (_ & _ & _ & _ & _ & H). exact H. Qed.

  (** [val i] is what any entry hitting slot [i] carries: a slot that is hit ends up holding it *)
  Lemma fold_struct : forall (val : nat -> option sval) P slots oth,
    List.length slots = List.length fields -> Forall entry_ok P ->
    (forall e i y, In e P -> hit i e = Some y -> val i = Some y) ->
    exists slots', fold_left (struct_step o fields other) P (Some (slots, oth))
                   = Some (slots', fold_left ups (filter is_unk P) oth)
      /\ List.length slots' = List.length fields
      /\ forall i, nth_error slots' i = if existsb (hits i) P then Some (val i) else nth_error slots i.
  Proof.
    intros val. induction P as [|[k x] P IH]; intros slots oth Hl HP Hv.
    - exists slots. cbn. auto.
    - inversion HP as [|? ? He HP']; subst. destruct He as [Hmk Hf]. cbn [fst snd] in Hmk, Hf.
      assert (Hv' : forall e i y, In e P -> hit i e = Some y -> val i = Some y) by (intros e i y He; apply Hv; right; exact He).
      pose proof (fun i y => Hv (k, x) i y (or_introl eq_refl)) as Hv0. unfold hit in Hv0. cbn [fst snd] in Hv0.
      cbn [fold_left filter existsb]. unfold struct_step at 2. unfold is_unk at 1. unfold hits at 1, hit at 1.
      cbn [fst snd]. rewrite Hmk. cbn [negb].
      destruct (find_field o k x fields 0) as [[j [y|]]|] eqn:F; [| contradiction |].
      + pose proof (find_field_bound _ _ _ _ _ _ F) as Hj.
        destruct (IH (set_nth j (Some y) slots) oth ltac:(rewrite set_nth_length; exact Hl) HP' Hv') as (slots' & E & L & Pt).
        exists slots'. split; [exact E|]. split; [exact L|].
        intros i. rewrite (Pt i). destruct (Nat.eqb_spec j i) as [->|Hne]; cbn [orb].
        * destruct (existsb (hits i) P); [reflexivity|]. rewrite nth_set_nth_same by lia.
          rewrite (Hv0 i y) by (rewrite Nat.eqb_refl; reflexivity). reflexivity.
        * destruct (existsb (hits i) P); [reflexivity|]. apply nth_set_nth_other. exact Hne.
      + assert (Step : (match other with
                        | Some OString => match k with VText _ => Some (slots, upsert k (strip x) oth) | _ => None end
                        | Some OMapKey => Some (slots, upsert k (strip x) oth)
                        | None => match o with Fail => None | Ignore => Some (slots, oth) end
                        end) = Some (slots, upsert k (strip x) oth)).
        { destruct Hf as (kind & -> & Hk). destruct kind, k; try discriminate Hk; reflexivity. }
        rewrite Step. cbn [orb]. apply (IH slots (upsert k (strip x) oth) Hl HP' Hv').
  Qed.
End Fold.

Lemma upsert_fresh : forall k x l, (forall e, In e l -> value_eqb k (fst e) = false) -> upsert k x l = l ++ [(k, x)].
Proof.
  induction l as [|[k' x'] l IH]; intros H; [reflexivity|].
  cbn [upsert]. pose proof (H (k', x') (or_introl eq_refl)) as E. cbn [fst] in E. rewrite E. cbn [app]. f_equal. apply IH. intros; apply H; right; assumption.
Qed.

Lemma distinctb_app_mid : forall {A} (eqb : A -> A -> bool) l1 x l2,
  distinctb eqb (l1 ++ x :: l2) = true -> forall a, In a l1 -> eqb a x = false.
Proof.
  induction l1 as [|y l1 IH]; intros x l2 H a Ha; [destruct Ha|].
  cbn [app distinctb] in H. apply andb_true_iff in H. destruct H as [Hy Hr]. apply negb_true_iff in Hy.
  destruct Ha as [<-|Ha].
  - apply (existsb_false_In _ _ _ Hy). apply in_or_app. right. left. reflexivity.
  - eapply IH; eassumption.
Qed.

Lemma fold_ups_fresh : forall others acc,
  distinctb (fun a b => value_eqb b a) (map fst (acc ++ others)) = true ->
  (forall e, In e others -> strip (snd e) = snd e) ->
  fold_left ups others acc = acc ++ others.
Proof.
  induction others as [|[k x] others IH]; intros acc Hd Hs; [rewrite app_nil_r; reflexivity|].
  cbn [fold_left]. unfold ups at 2. cbn [fst snd]. pose proof (Hs (k, x) (or_introl eq_refl)) as Es. cbn [snd] in Es. rewrite Es.
  rewrite upsert_fresh.
  - rewrite IH; [rewrite <- app_assoc; reflexivity| |intros; apply Hs; right; assumption].
    rewrite <- app_assoc. exact Hd.
  - intros e He. rewrite map_app in Hd. cbn [map fst] in Hd.
    apply (distinctb_app_mid _ _ _ _ Hd (fst e)). apply in_map. exact He.
Qed.

Definition enc_fields : list (key * schema) -> list sval -> option (list (value * value)) :=
  fix go (fs : list (key * schema)) (xs : list sval) : option (list (value * value)) :=
    match fs, xs with
    | [], [] => Some []
    | (k, s') :: fs', y :: r =>
      match senc s' y, go fs' r with
      | Some v, Some es => Some (if is_null y then es else (key_value k, v) :: es)
      | _, _ => None
      end
    | _, _ => None
    end.

Definition typed_fields : list (key * schema) -> list sval -> bool :=
  fix go (fs : list (key * schema)) (xs : list sval) : bool :=
    match fs, xs with
    | [], [] => true
    | (_, s') :: fs', y :: r => typedb s' y && go fs' r
    | _, _ => false
    end.

Lemma senc_struct : forall fields other xs others,
  senc (SStruct fields other) (XStruct xs others) =
  match enc_fields fields xs with
  | Some es => match other, others with None, _ :: _ => None | _, _ => Some (VMap false (es ++ others)) end
  | None => None
  end.
Proof. reflexivity. Qed.

Lemma typedb_struct : forall fields other xs others,
  typedb (SStruct fields other) (XStruct xs others) =
  (len xs + len others <? W64) && typed_fields fields xs && others_okb fields other others.
Proof. reflexivity. Qed.

Lemma null_typed : forall s x, schema_wfb s = true -> typedb s x = true -> is_null x = true -> null_of s = Some x.
Proof.
  induction s; intros x Hwf Hty Hn; try (destruct x; try discriminate Hn; try discriminate Hty; reflexivity).
  - destruct x; try discriminate Hty. destruct v; try discriminate Hn. reflexivity.
  - (* STag: the payload is not nullable *) cbn [schema_wfb typedb] in *.
    apply andb_true_iff in Hwf as [Hwf Hws]. apply andb_true_iff in Hwf as [_ Hnn].
    pose proof (IHs _ Hws Hty Hn) as E. destruct s; discriminate.
  - cbn [schema_wfb typedb] in *. apply andb_true_iff in Hwf as [Hnn Hws]. apply andb_true_iff in Hty as [_ Hty].
    pose proof (IHs _ Hws Hty Hn) as E. destruct s; discriminate.
Qed.

(** one row per declared field: key, schema, value, what the encoder writes for the value *)
Definition row : Type := key * schema * sval * value.
Definition rk (r : row) : key := fst (fst (fst r)).
Definition rs (r : row) : schema := snd (fst (fst r)).
Definition rx (r : row) : sval := snd (fst r).
Definition rv (r : row) : value := snd r.
Definition rf (r : row) : key * schema := (rk r, rs r).

Definition row_ok (r : row) : Prop :=
  key_ok (rk r) = true /\ senc (rs r) (rx r) = Some (rv r) /\ value_okb (rv r) = true /\
  (forall o mk, sdec o (rs r) mk (norm (rv r)) = Some (rx r)) /\
  (is_null (rx r) = true -> null_of (rs r) = Some (rx r)).

Definition present (rows : list row) : list (value * value) :=
  flat_map (fun r => if is_null (rx r) then [] else [(key_value (rk r), rv r)]) rows.

Lemma rows_exist : forall fields, Forall (fun f => RTS (snd f)) fields ->
  forallb (fun f : key * schema => let '(k, s') := f in key_ok k && schema_wfb s') fields = true ->
  forall xs, typed_fields fields xs = true ->
  exists rows, map rf rows = fields /\ map rx rows = xs /\ Forall row_ok rows /\
               enc_fields fields xs = Some (present rows).
Proof.
  induction 1 as [|[k s] fields Hs Hfs IH]; intros Hwf xs Hty.
  - destruct xs; [|discriminate]. exists []. repeat split; constructor.
  - destruct xs as [|x xs]; [discriminate|]. cbn [typed_fields] in Hty. fold typed_fields in Hty. apply andb_true_iff in Hty as [Hx Hxs].
    cbn [forallb] in Hwf. apply andb_true_iff in Hwf as [Hks Hwf]. apply andb_true_iff in Hks as [Hk Hws]. cbn [snd] in Hs.
    destruct (Hs Hws x Hx) as (v & E & Ok & _ & D).
    destruct (IH Hwf xs Hxs) as (rows & Ef & Ex & Hr & Ee).
    exists ((k, s, x, v) :: rows).
    split; [cbn [map]; rewrite Ef; reflexivity|]. split; [cbn [map]; rewrite Ex; reflexivity|]. split.
    + constructor; [|exact Hr]. unfold row_ok, rk, rs, rx, rv. cbn [fst snd].
      split; [exact Hk|]. split; [exact E|]. split; [exact Ok|]. split; [exact D|].
      apply null_typed; assumption.
    + cbn [enc_fields]. fold enc_fields. rewrite E, Ee. cbn [present flat_map]. unfold rx, rk, rv. cbn [fst snd].
      destruct (is_null x); reflexivity.
Qed.

Lemma fin_spec : forall rows fields slots,
  map rf rows = fields -> Forall row_ok rows ->
  (forall i r, nth_error rows i = Some r -> nth_error slots i = Some (if is_null (rx r) then None else Some (rx r))) ->
  struct_fin fields slots = Some (map rx rows).
Proof.
  induction rows as [|r rows IH]; intros fields slots Ef Hr Hs.
  - subst fields. reflexivity.
  - subst fields. inversion Hr as [|? ? Hr0 Hr']; subst. cbn [map]. unfold rf at 1.
    pose proof (Hs O r eq_refl) as H0. destruct slots as [|sl slots]; [discriminate|]. cbn [nth_error] in H0.
    inversion H0; subst sl. cbn [struct_fin].
    rewrite (IH (map rf rows) slots eq_refl Hr' (fun i r' H => Hs (S i) r' H)).
    destruct Hr0 as (_ & _ & _ & _ & Hnull).
    destruct (is_null (rx r)) eqn:En; [rewrite (Hnull eq_refl)|]; reflexivity.
Qed.

Definition gk (kv : value * value) : list N * (value * value) :=
  let '(k, x) := kv in (encode k ++ encode x, (norm k, norm x)).

Lemma keyed_gk : forall l, keyed l = map gk l.
Proof. reflexivity. Qed.

Lemma norm_key_value : forall k, norm (key_value k) = key_value k.
Proof. destruct k; reflexivity. Qed.

Lemma In_present : forall rows e,
  In e (present rows) <-> exists r, In r rows /\ is_null (rx r) = false /\ e = (key_value (rk r), rv r).
Proof.
  intros rows e. unfold present. rewrite in_flat_map. split.
  - intros [r [Hr He]]. exists r. destruct (is_null (rx r)); [destruct He|].
    destruct He as [<-|[]]. auto.
  - intros [r [Hr [Hn ->]]]. exists r. split; [exact Hr|]. rewrite Hn. left. reflexivity.
Qed.

Lemma present_length : forall rows, (List.length (present rows) <= List.length rows)%nat.
Proof.
  induction rows as [|r rows IH]; [cbn; lia|]. cbn [present flat_map List.length]. rewrite app_length.
  fold (present rows). destruct (is_null (rx r)); cbn [List.length]; lia.
Qed.

Lemma filter_map_comm : forall {A B} (f : A -> B) (p : B -> bool) l, filter p (map f l) = map f (filter (fun a => p (f a)) l).
Proof. induction l as [|a l IH]; [reflexivity|]. cbn [map filter]. destruct (p (f a)); cbn [map]; rewrite IH; reflexivity. Qed.

Lemma filter_all_true : forall {A} (p : A -> bool) l, (forall a, In a l -> p a = true) -> filter p l = l.
Proof. induction l as [|a l IH]; intros H; [reflexivity|]. cbn [filter]. rewrite (H a (or_introl eq_refl)). f_equal. apply IH. intros; apply H; right; assumption. Qed.

Definition other_entry_ok (fields : list (key * schema)) (other : option okind) (e : value * value) : Prop :=
  (exists kind, other = Some kind /\ other_key_ok kind (fst e) = true) /\ value_wfb (snd e) = true /\
  (forall fk fs', In (fk, fs') fields -> key_matches fk (fst e) = false).

Lemma others_facts : forall fields other others, others_okb fields other others = true ->
  Forall (other_entry_ok fields other) others /\
  distinctb (fun a b => value_eqb b a) (map fst others) = true /\
  sortedb (map enc_entry others) = true.
Proof.
  intros fields other others H. unfold others_okb in H. destruct other as [kind|].
  - apply andb_true_iff in H as [H Hsorted]. apply andb_true_iff in H as [Hall Hd]. split; [|split; assumption].
    rewrite forallb_Forall in Hall. eapply Forall_impl; [|exact Hall]. intros [k v] Hkv. cbn in Hkv.
    apply andb_true_iff in Hkv as [Hkv Hf]. apply andb_true_iff in Hkv as [Hk Hv].
    unfold other_entry_ok. cbn [fst snd]. split; [exists kind; auto|]. split; [assumption|].
    intros fk fs' Hin.
    rewrite forallb_forall in Hf. specialize (Hf _ Hin). cbn [fst] in Hf. apply negb_true_iff in Hf. exact Hf.
  - destruct others; [|discriminate]. repeat split; constructor.
Qed.

Lemma other_entry_norm : forall fields other e, other_entry_ok fields other e -> snd (gk e) = e /\ strip (snd e) = snd e.
Proof.
  intros fields other [k v] ([kind [_ Hk]] & Hv & _). cbn [fst snd] in *.
  destruct (wf_norm_strip v Hv) as (A & B & _). cbn [gk snd]. rewrite A. split; [|exact B].
  destruct k; try discriminate Hk; reflexivity.
Qed.

Lemma key_value_okb : forall k, key_ok k = true -> value_okb (key_value k) = true.
Proof. destruct k; cbn [key_ok key_value]; intros H; exact H. Qed.

Lemma other_key_okb : forall kind k, other_key_ok kind k = true -> value_okb k = true /\ is_mapkey k = true.
Proof. intros kind k H. destruct k; try discriminate H; [destruct kind; try discriminate H|]; split; try reflexivity; exact H. Qed.

(** the entries of the written map in the order the decoder meets them *)
Definition nmap (rows : list row) (others : list (value * value)) : list (value * value) :=
  map snd (isortk (keyed (present rows ++ others))).

Section StructFacts.
  Variable o : unknown_keys.
  Variable fields : list (key * schema).
  Variable other : option okind.
  Hypothesis Hdist : distinctb (fun a b => key_matches a (key_value b)) (map fst fields) = true.
  Variable rows : list row.
  Variable others : list (value * value).
  Hypothesis Hrf : map rf rows = fields.
  Hypothesis Hrows : Forall row_ok rows.
  Hypothesis Hoth : forall e, In e others -> other_entry_ok fields other e.

  Lemma find_row : forall i r w, nth_error rows i = Some r ->
    find_field o (key_value (rk r)) w fields 0 = Some (i, sdec o (rs r) false w).
  Proof.
    intros i r w Hn. apply (map_nth_error rf) in Hn. rewrite Hrf in Hn.
    exact (findi_nth _ (fun fk => fk) (fun _ s' => sdec o s' false w) fields i 0 _ _ Hdist (key_matches_refl _) Hn).
  Qed.

  Lemma find_other : forall e, In e others -> find_field o (fst e) (snd e) fields 0 = None.
  Proof. intros e He. destruct (Hoth e He) as (_ & _ & H). apply findi_none. exact H. Qed.

  Lemma others_norm : map (fun e => snd (gk e)) others = others.
  Proof.
    rewrite <- (map_id others) at 2. apply map_ext_in. intros e He. apply (other_entry_norm fields other e (Hoth e He)).
  Qed.

  Lemma nmap_entries : forall e, In e (nmap rows others) <->
    (exists i r, nth_error rows i = Some r /\ is_null (rx r) = false /\ e = (key_value (rk r), norm (rv r))) \/ In e others.
  Proof.
    intros e. unfold nmap. rewrite keyed_gk, In_map_isortk, map_map, map_app, others_norm, in_app_iff, in_map_iff.
    split; (intros [H|He]; [left|right; exact He]).
    - destruct H as (x & <- & Hx). apply In_present in Hx. destruct Hx as (r & Hr & Hn & ->).
      apply In_nth_error in Hr. destruct Hr as [i Hi]. exists i, r. cbn [gk snd]. rewrite norm_key_value. auto.
    - destruct H as (i & r & Hi & Hn & ->). exists (key_value (rk r), rv r). cbn [gk snd]. rewrite norm_key_value.
      split; [reflexivity|]. apply In_present. exists r. split; [eapply nth_error_In; exact Hi|auto].
  Qed.

  Lemma hit_row : forall i i' r, nth_error rows i' = Some r ->
    hit o fields i (key_value (rk r), norm (rv r)) = if Nat.eqb i' i then Some (rx r) else None.
  Proof.
    intros i i' r Hn. unfold hit. cbn [fst snd]. rewrite (find_row i' r _ Hn).
    destruct (Forall_nth _ _ _ _ Hrows Hn) as (_ & _ & _ & D & _). rewrite (D o false). reflexivity.
  Qed.

  Lemma hit_other : forall i e, In e others -> hit o fields i e = None.
  Proof. intros i e He. unfold hit. rewrite (find_other e He). reflexivity. Qed.

  Lemma entries_ok : Forall (entry_ok o fields other) (nmap rows others).
  Proof.
    rewrite Forall_forall. intros e He. apply nmap_entries in He. unfold entry_ok.
    destruct He as [(i & r & Hn & _ & ->)|He].
    - cbn [fst snd]. split; [destruct (rk r); reflexivity|]. rewrite (find_row i r _ Hn).
      destruct (Forall_nth _ _ _ _ Hrows Hn) as (_ & _ & _ & D & _). rewrite (D o false). exact I.
    - rewrite (find_other e He). destruct (Hoth e He) as ([kind [Eo Hk]] & _ & _).
      destruct (other_key_okb _ _ Hk) as [_ Mk]. split; [exact Mk|]. exists kind. auto.
  Qed.

  Lemma unknown_entries : sortedb (map enc_entry others) = true -> filter (is_unk o fields) (nmap rows others) = others.
  Proof.
    intros Hs. unfold nmap. rewrite filter_map_comm, keyed_gk, map_app, filter_isortk_app.
    - rewrite isortk_sorted, filter_all_true, map_map; [apply others_norm| |].
      + intros a Ha. apply in_map_iff in Ha. destruct Ha as (e & <- & He).
        destruct (other_entry_norm fields other e (Hoth e He)) as [En _]. rewrite En.
        unfold is_unk. rewrite (find_other e He). reflexivity.
      + rewrite <- keyed_gk, map_fst_keyed. exact Hs.
    - intros a Ha. apply in_map_iff in Ha. destruct Ha as (e & <- & He).
      apply In_present in He. destruct He as (r & Hr & _ & ->). cbn [gk snd]. rewrite norm_key_value.
      apply In_nth_error in Hr. destruct Hr as [i Hn]. unfold is_unk. cbn [fst snd]. rewrite (find_row i r _ Hn). reflexivity.
  Qed.

  Lemma hit_only : forall e i y, In e (nmap rows others) -> hit o fields i e = Some y ->
    exists r, nth_error rows i = Some r /\ is_null (rx r) = false /\ y = rx r.
  Proof.
    intros e i y He Hh. apply nmap_entries in He.
    destruct He as [(i' & r' & Hi' & Hn' & ->)|He]; [|rewrite (hit_other i e He) in Hh; discriminate].
    rewrite (hit_row i i' r' Hi') in Hh. destruct (Nat.eqb_spec i' i) as [->|]; [|discriminate].
    exists r'. split; [exact Hi'|]. split; [exact Hn'|]. congruence.
  Qed.

  Lemma hit_value : forall e i y, In e (nmap rows others) -> hit o fields i e = Some y ->
    option_map rx (nth_error rows i) = Some y.
  Proof. intros e i y He Hh. destruct (hit_only e i y He Hh) as (r & Hr & _ & ->). rewrite Hr. reflexivity. Qed.

  Lemma slot_hit : forall i r, nth_error rows i = Some r ->
    existsb (hits o fields i) (nmap rows others) = negb (is_null (rx r)).
  Proof.
    intros i r Hn. destruct (is_null (rx r)) eqn:En; cbn [negb].
    - destruct (existsb (hits o fields i) (nmap rows others)) eqn:Ex; [|reflexivity].
      apply existsb_exists in Ex. destruct Ex as (e & He & Hh).
      unfold hits in Hh. destruct (hit o fields i e) as [y|] eqn:Hy; [|discriminate].
      destruct (hit_only e i y He Hy) as (r' & Hr' & Hn' & _). congruence.
    - apply existsb_exists. exists (key_value (rk r), norm (rv r)). split; [apply nmap_entries; left; exists i, r; auto|].
      unfold hits. rewrite (hit_row i i r Hn), Nat.eqb_refl. reflexivity.
  Qed.
End StructFacts.

Lemma rt_struct : forall fields other, Forall (fun f => RTS (snd f)) fields -> RTS (SStruct fields other).
Proof.
  intros fields other IH Hwf x Hty. cbn [schema_wfb] in Hwf. apply andb_true_iff in Hwf. destruct Hwf as [Hwf Hdist].
  destruct x as [ | | | | | | | | |xs others| | | | ]; try discriminate.
  rewrite typedb_struct in Hty. apply andb_true_iff in Hty. destruct Hty as [Hty Hoth].
  apply andb_true_iff in Hty. destruct Hty as [Hlen Htf]. apply N.ltb_lt in Hlen.
  destruct (rows_exist fields IH Hwf xs Htf) as (rows & Ef & Ex & Hrows & Eenc).
  destruct (others_facts fields other others Hoth) as (OF1 & OF2 & OF3).
  set (es := present rows ++ others).
  assert (Esenc : senc (SStruct fields other) (XStruct xs others) = Some (VMap false es)).
  { rewrite senc_struct, Eenc. destruct other; [reflexivity|]. destruct others; [reflexivity|discriminate Hoth]. }
  exists (VMap false es). split; [exact Esenc|].
  pose proof (proj1 (Forall_forall _ _) Hrows) as RowsF. pose proof (proj1 (Forall_forall _ _) OF1) as OthF.
  split.
  { apply value_okb_map. split; [reflexivity|]. split.
    - unfold es, len in *. rewrite app_length. pose proof (present_length rows).
      rewrite <- Ex, map_length in Hlen. lia.
    - rewrite forallb_forall. intros [k v] Hin. unfold es in Hin. apply in_app_or in Hin. destruct Hin as [Hin|Hin].
      + apply In_present in Hin. destruct Hin as (r & Hr & _ & E). inversion E; subst.
        destruct (RowsF r Hr) as (Kok & _ & Vok & _). rewrite (key_value_okb _ Kok), Vok. reflexivity.
      + destruct (OthF _ Hin) as ([kind [_ Hk]] & Hv & _). cbn [fst snd] in *.
        destruct (other_key_okb _ _ Hk) as [Kok _]. destruct (wf_norm_strip v Hv) as (_ & _ & Vok). rewrite Kok, Vok. reflexivity. }
  split; [intro; reflexivity|].
  intros o mk. rewrite norm_map, sdec_struct. change (map snd (isortk (keyed es))) with (nmap rows others).
  destruct (fold_struct o fields other (fun i => option_map rx (nth_error rows i)) (nmap rows others)
              (map (fun _ => None) fields) [] (map_length _ _) (entries_ok o fields other Hdist rows others Ef Hrows OthF)
              (hit_value o fields other Hdist rows others Ef Hrows OthF)) as (slots' & E & L & Pt).
  rewrite E, (unknown_entries o fields other Hdist rows others Ef OthF OF3).
  rewrite (fold_ups_fresh others []);
    [|exact OF2|intros e He; apply (other_entry_norm fields other e (OthF e He))].
  rewrite (fin_spec rows fields slots' Ef Hrows), Ex; [reflexivity|].
  intros i r Hn. rewrite (Pt i), (slot_hit o fields other Hdist rows others Ef Hrows OthF i r Hn), Hn.
  destruct (is_null (rx r)); [|reflexivity]. rewrite <- Ef. exact (map_nth_error (fun _ => None) i _ (map_nth_error rf i rows Hn)).
Qed.

Theorem schema_roundtrip_all : forall s, RTS s.
Proof.
  induction s using schema_ind'.
  - apply rt_uint. - apply rt_int. - apply rt_bool. - apply rt_text. - apply rt_bytes. - apply rt_bytesn. - apply rt_value.
  - apply rt_option; assumption. - apply rt_vec; assumption. - apply rt_tuple; assumption. - apply rt_struct; assumption.
  - apply rt_tag; assumption. - apply rt_enum_map; assumption. - apply rt_enum_tagged; assumption.
  - apply rt_maybe; assumption. - apply rt_refine; assumption.
Qed.

(** at the level of bytes: [cbor_decode (cbor_encode x) = x] at every type, under both decoding options *)
Theorem typed_roundtrip : forall s x o, schema_wfb s = true -> typedb s x = true ->
  exists bs, encode_typed s x = Some bs /\ decode_typed s o bs = Some x.
Proof.
  intros s x o Hwf Hty. destruct (schema_roundtrip_all s Hwf x Hty) as (v & E & Ok & _ & D).
  exists (encode v). unfold encode_typed, decode_typed. rewrite E. split; [reflexivity|].
  destruct (decode_encode_norm v Ok) as [a Ea]. rewrite Ea. apply D.
Qed.

(** the schema-level statement in the form "decode (encode x) = x on the normal form of the written item" *)
Theorem schema_roundtrip_norm : forall s x o mk, schema_wfb s = true -> typedb s x = true ->
  exists v, senc s x = Some v /\ value_okb v = true /\ sdec o s mk (norm v) = Some x.
Proof.
  intros s x o mk Hwf Hty. destruct (schema_roundtrip_all s Hwf x Hty) as (v & E & Ok & _ & D).
  exists v. auto.
Qed.
