(** C17 - token amounts: exact conversions preserve the denoted number, lossy ones are rejected,
    the JSON value string and the [Display] string parse back. *)
From Coq Require Import NArith List Bool Lia.
From CB Require Import Cbor.TokenAmount.
Import ListNotations.
Local Open Scope N_scope.

Lemma rescale_exact_sound : forall neg m sc d a, rescale_exact neg m sc d = Some a ->
  amt_decimals a = d /\ same_number m sc (amt_value a) d /\ (neg = false \/ m = 0).
Proof.
  intros neg m sc d a H. unfold rescale_exact in H. unfold same_number.
  destruct (28 <? d); [discriminate|].
  destruct (N.eqb_spec m 0) as [->|Hm].
  { inversion H; subst. cbn [amt_value amt_decimals]. rewrite !N.mul_0_l. auto. }
  destruct neg; [discriminate|].
  destruct (N.leb_spec sc d).
  - destruct ((M96 <=? m * 10 ^ (d - sc)) || (U64MAX <? m * 10 ^ (d - sc))); [discriminate|].
    inversion H; subst. cbn [amt_value amt_decimals]. split; [reflexivity|]. split; [|auto].
    replace d with ((d - sc) + sc) at 1 by lia. rewrite N.pow_add_r. lia.
  - destruct (N.eqb_spec (m mod 10 ^ (sc - d)) 0) as [E|]; [|discriminate]. cbn [negb] in H.
    destruct (U64MAX <? m / 10 ^ (sc - d)); [discriminate|].
    inversion H; subst. cbn [amt_value amt_decimals]. split; [reflexivity|]. split; [|auto].
    assert (K0 : 10 ^ (sc - d) <> 0) by (apply N.pow_nonzero; lia).
    pose proof (N.div_mod m (10 ^ (sc - d)) K0) as DM. rewrite E, N.add_0_r in DM.
    replace sc with ((sc - d) + d) at 2 by lia. rewrite N.pow_add_r. rewrite DM at 1. lia.
Qed.

Theorem from_str_exact_sound : forall s d a neg m sc,
  parse_decimal s = Some (neg, m, sc) -> from_str_exact s d = Some a ->
  amt_decimals a = d /\ same_number m sc (amt_value a) d /\ (neg = false \/ m = 0).
Proof.
  intros s d a neg m sc P H. unfold from_str_exact in H. rewrite P in H. apply rescale_exact_sound in H. exact H.
Qed.

Theorem from_str_exact_lossy : forall s d neg m sc,
  parse_decimal s = Some (neg, m, sc) -> d < sc -> m mod 10 ^ (sc - d) <> 0 -> from_str_exact s d = None.
Proof.
  intros s d neg m sc P Hd Hm. unfold from_str_exact. rewrite P. unfold rescale_exact.
  destruct (28 <? d); [reflexivity|].
  destruct (N.eqb_spec m 0) as [->|]. { exfalso. apply Hm. apply N.mod_0_l. apply N.pow_nonzero. lia. }
  destruct neg; [reflexivity|].
  destruct (N.leb_spec sc d); [lia|].
  destruct (N.eqb_spec (m mod 10 ^ (sc - d)) 0); [contradiction|]. reflexivity.
Qed.

Lemma of_digits_app : forall l1 l2 a, of_digits a (l1 ++ l2) = of_digits (of_digits a l1) l2.
Proof. induction l1; intros; cbn [app of_digits]; [reflexivity|]. apply IHl1. Qed.

Lemma all_digits_app : forall l1 l2, all_digits (l1 ++ l2) = all_digits l1 && all_digits l2.
Proof. induction l1; intros; cbn [app all_digits]; [reflexivity|]. rewrite IHl1, andb_assoc. reflexivity. Qed.

Lemma all_digits_cons : forall c r, all_digits (c :: r) = true -> is_digit c = true /\ all_digits r = true.
Proof. intros c r H. apply andb_true_iff. exact H. Qed.

Lemma u64_lt_m96 : forall v, v <= U64MAX -> v < M96.
Proof. intros v H. unfold M96, U64MAX in *. change (2 ^ 96) with 79228162514264337593543950336. lia. Qed.

Lemma is_digit_48 : forall n, n < 10 -> is_digit (ch_0 + n) = true /\ ch_0 + n - ch_0 = n.
Proof.
  intros n H. unfold is_digit, ch_0. split; [|lia].
  apply andb_true_iff. split; apply N.leb_le; lia.
Qed.

Lemma to_digits_spec : forall f n acc, n < 10 ^ N.of_nat (S f) ->
  exists c r, to_digits (S f) n acc = (c :: r) ++ acc /\ all_digits (c :: r) = true /\
              forall a, of_digits a (c :: r) = a * 10 ^ N.of_nat (length (c :: r)) + n.
Proof.
  assert (One : forall n acc, n < 10 -> exists c r, (ch_0 + n) :: acc = (c :: r) ++ acc /\ all_digits (c :: r) = true /\
              forall a, of_digits a (c :: r) = a * 10 ^ N.of_nat (length (c :: r)) + n).
  { intros n acc Hn. destruct (is_digit_48 n Hn) as [D E]. exists (ch_0 + n), []. cbn [app all_digits of_digits length].
    rewrite D, E. split; [reflexivity|]. split; [reflexivity|]. intros. change (10 ^ N.of_nat 1) with 10. reflexivity. }
  induction f as [|f IH]; intros n acc H.
  - change (10 ^ N.of_nat 1) with 10 in H. cbn [to_digits]. destruct (N.ltb_spec n 10); [|lia]. apply One, H.
  - remember (S f) as f1. cbn [to_digits]. destruct (N.ltb_spec n 10) as [Hn|Hn]; [apply One, Hn|].
    subst f1.
    assert (Hq : n / 10 < 10 ^ N.of_nat (S f)).
    { apply N.div_lt_upper_bound; [lia|]. replace (N.of_nat (S (S f))) with (N.succ (N.of_nat (S f))) in H by lia.
      rewrite N.pow_succ_r' in H. exact H. }
    destruct (IH (n / 10) ((ch_0 + n mod 10) :: acc) Hq) as (c & r & E & AD & V).
    assert (Hm : n mod 10 < 10) by (apply N.mod_lt; lia).
    destruct (is_digit_48 _ Hm) as [D E2].
    exists c, (r ++ [ch_0 + n mod 10]). change (c :: r ++ [ch_0 + n mod 10]) with ((c :: r) ++ [ch_0 + n mod 10]). split.
    + rewrite E, <- app_assoc. reflexivity.
    + split.
      * rewrite all_digits_app, AD. cbn [all_digits]. rewrite D. reflexivity.
      * intros a. rewrite of_digits_app, V. cbn [of_digits]. rewrite E2, app_length. cbn [length].
        replace (N.of_nat (S (length r) + 1)) with (N.succ (N.of_nat (S (length r)))) by lia.
        rewrite N.pow_succ_r'. pose proof (N.div_mod n 10 ltac:(lia)). lia.
Qed.

Lemma digits_spec : forall n, exists c r, digits n = c :: r /\ all_digits (c :: r) = true /\ of_digits 0 (c :: r) = n.
Proof.
  intros n. unfold digits.
  assert (H : n < 10 ^ N.of_nat (S (N.to_nat (N.size n)))).
  { destruct (N.eq_dec n 0) as [->|Hn]; [apply N.neq_0_lt_0; apply N.pow_nonzero; lia|].
    pose proof (N.size_gt n) as G. eapply N.lt_le_trans; [exact G|].
    replace (N.of_nat (S (N.to_nat (N.size n)))) with (N.succ (N.size n)) by lia.
    etransitivity; [apply (N.pow_le_mono_l 2 10 (N.size n)); lia|].
    apply N.pow_le_mono_r; lia. }
  destruct (to_digits_spec _ n [] H) as (c & r & E & AD & V).
  exists c, r. rewrite E, app_nil_r. split; [reflexivity|]. split; [exact AD|]. rewrite V. lia.
Qed.

Lemma of_digits_ge : forall ds a, a <= of_digits a ds.
Proof.
  induction ds as [|d r IH]; intros a; cbn [of_digits]; [lia|].
  etransitivity; [|apply IH]. lia.
Qed.

Lemma is_digit_range : forall c, is_digit c = true -> 48 <= c <= 57.
Proof. intros c H. unfold is_digit in H. apply andb_true_iff in H. destruct H as [A B]. apply N.leb_le in A, B. lia. Qed.

Theorem json_roundtrip : forall a, amount_ok a = true -> from_json (json_value a) (amt_decimals a) = Some a.
Proof.
  intros [v d] H. unfold amount_ok in H. cbn [amt_value amt_decimals] in *.
  apply andb_true_iff in H. destruct H as [Hv Hd]. apply N.ltb_lt in Hd.
  unfold from_json, json_value. cbn [amt_value amt_decimals].
  destruct (N.leb_spec 256 d); [lia|].
  destruct (digits_spec v) as (c & r & E & AD & V). rewrite E. unfold parse_u64.
  assert (Hc : (c =? ch_plus) = false).
  { destruct (all_digits_cons c r AD) as [Dc _]. apply is_digit_range in Dc. apply N.eqb_neq. unfold ch_plus. lia. }
  rewrite Hc, AD, V, Hv. reflexivity.
Qed.

(** a run of digits is consumed as a whole: before the point anywhere, after the point at the end of
    the string and with at most 28 fractional digits in all (before the point the scale is 0) *)
Lemma parse_body_digits : forall ds rest has (point : bool) m sc,
  all_digits ds = true -> of_digits m ds < M96 -> has = true \/ ds <> [] ->
  (if point then rest = [] /\ sc + N.of_nat (length ds) <= 28 else sc = 0) ->
  parse_body (ds ++ rest) has point m sc =
  parse_body rest true point (of_digits m ds) (if point then sc + N.of_nat (length ds) else 0).
Proof.
  induction ds as [|c r IH]; intros rest has point m sc AD Hb Hh Hp.
  - destruct Hh as [->|]; [|contradiction]. cbn [app of_digits length].
    destruct point; [rewrite N.add_0_r|rewrite Hp]; reflexivity.
  - destruct (all_digits_cons _ _ AD) as [Dc AD']. cbn [app parse_body]. rewrite Dc.
    assert (Hm : m * 10 + (c - ch_0) < M96).
    { eapply N.le_lt_trans; [|exact Hb]. cbn [of_digits]. apply of_digits_ge. }
    destruct (N.leb_spec M96 (m * 10 + (c - ch_0))); [lia|]. cbn [length] in Hp.
    assert (Chk : (point && (28 <=? (if point then sc + 1 else 0))
                   && negb match r ++ rest with [] => true | _ :: _ => false end) = false).
    { destruct point; [|reflexivity]. destruct Hp as [-> Hs]. rewrite app_nil_r.
      destruct r; [apply andb_false_r|]. cbn [length] in Hs. destruct (N.leb_spec 28 (sc + 1)); [lia|reflexivity]. }
    rewrite Chk, (IH rest true point _ _ AD' Hb (or_introl eq_refl)).
    + cbn [of_digits length]. destruct point; [|reflexivity]. f_equal. lia.
    + destruct point; [|reflexivity]. split; [apply Hp|lia].
Qed.

Lemma all_digits_repeat : forall n, all_digits (repeat ch_0 n) = true.
Proof. induction n; [reflexivity|]. cbn [repeat all_digits]. rewrite IHn. reflexivity. Qed.

Lemma of_digits_zeros : forall n a, a = 0 -> of_digits a (repeat ch_0 n) = 0.
Proof. induction n; intros a ->; [reflexivity|]. cbn [repeat of_digits]. apply IHn. reflexivity. Qed.

Lemma rescale_same : forall v d, v <= U64MAX -> d <= 28 -> rescale_exact false v d d = Some {| amt_value := v; amt_decimals := d |}.
Proof.
  intros v d Hv Hd. unfold rescale_exact.
  destruct (N.ltb_spec 28 d); [lia|].
  destruct (N.eqb_spec v 0) as [->|Hne]; [reflexivity|].
  destruct (N.leb_spec d d); [|lia]. rewrite N.sub_diag. change (10 ^ 0) with 1. rewrite N.mul_1_r.
  assert (E1 : (M96 <=? v) = false) by (apply N.leb_gt, u64_lt_m96, Hv).
  assert (E2 : (U64MAX <? v) = false) by (apply N.ltb_ge; exact Hv).
  rewrite E1, E2. reflexivity.
Qed.

Lemma parse_decimal_digit_first : forall c s, is_digit c = true ->
  parse_decimal (c :: s) =
  match parse_body (c :: s) false false 0 0 with Some (m, sc) => Some (false, m, sc) | None => None end.
Proof.
  intros c s D. apply is_digit_range in D. unfold parse_decimal.
  assert (Em : (c =? ch_minus) = false) by (apply N.eqb_neq; unfold ch_minus; lia).
  assert (Ep : (c =? ch_plus) = false) by (apply N.eqb_neq; unfold ch_plus; lia).
  rewrite Em, Ep. reflexivity.
Qed.

Lemma parse_decimal_digits : forall I, all_digits I = true -> I <> [] -> of_digits 0 I < M96 ->
  parse_decimal I = Some (false, of_digits 0 I, 0).
Proof.
  intros [|c I'] AD NE Hb; [contradiction|]. destruct (all_digits_cons _ _ AD) as [Dc _].
  rewrite (parse_decimal_digit_first c I' Dc).
  pose proof (parse_body_digits (c :: I') [] false false 0 0 AD Hb (or_intror NE) eq_refl) as P.
  rewrite app_nil_r in P. rewrite P. reflexivity.
Qed.

Lemma parse_decimal_point : forall I F, all_digits I = true -> all_digits F = true -> I <> [] ->
  of_digits 0 (I ++ F) < M96 -> N.of_nat (length F) <= 28 ->
  parse_decimal (I ++ ch_dot :: F) = Some (false, of_digits 0 (I ++ F), N.of_nat (length F)).
Proof.
  intros [|c I'] F ADI ADF NE Hb HF; [contradiction|]. destruct (all_digits_cons _ _ ADI) as [Dc _].
  rewrite of_digits_app in *. cbn [app]. rewrite (parse_decimal_digit_first c _ Dc).
  change (c :: I' ++ ch_dot :: F) with ((c :: I') ++ ch_dot :: F).
  rewrite (parse_body_digits (c :: I') (ch_dot :: F) false false 0 0 ADI); [|..|right; exact NE|reflexivity].
  - cbn [parse_body]. change (is_digit ch_dot) with false. change ((ch_dot =? ch_dot) && negb false) with true.
    cbv iota.
    pose proof (parse_body_digits F [] true true (of_digits 0 (c :: I')) 0 ADF Hb (or_introl eq_refl)) as PF.
    rewrite app_nil_r in PF. rewrite PF by (split; [reflexivity|lia]). reflexivity.
  - eapply N.le_lt_trans; [apply (of_digits_ge F)|exact Hb].
Qed.

(** Display output parses back: from_str (to_string a) = a whenever decimals <= 28 ... *)
Theorem display_roundtrip : forall a, amount_ok a = true -> amt_decimals a <= 28 ->
  from_str_exact (to_string a) (amt_decimals a) = Some a.
Proof.
  intros [v dec] H Hd. unfold amount_ok in H. cbn [amt_value amt_decimals] in *.
  apply andb_true_iff in H. destruct H as [Hv _]. apply N.leb_le in Hv.
  pose proof (u64_lt_m96 v Hv) as HvM.
  destruct (digits_spec v) as (c & r0 & E & AD & V).
  unfold from_str_exact, to_string. cbn [amt_value amt_decimals]. rewrite E.
  destruct (N.eqb_spec dec 0) as [->|Hne].
  - rewrite parse_decimal_digits, V; [|exact AD|discriminate|rewrite V; exact HvM].
    apply rescale_same; [exact Hv|lia].
  - set (d := N.to_nat dec). set (ds := c :: r0) in *.
    set (padded := repeat ch_0 (S d - length ds) ++ ds).
    set (k := (length padded - d)%nat).
    assert (Lp : (S d <= length padded)%nat) by (unfold padded; rewrite app_length, repeat_length; lia).
    assert (ADp : all_digits padded = true) by (unfold padded; rewrite all_digits_app, all_digits_repeat, AD; reflexivity).
    assert (Vp : of_digits 0 padded = v).
    { unfold padded. rewrite of_digits_app, (of_digits_zeros _ 0 eq_refl). exact V. }
    assert (LF : length (skipn k padded) = d) by (rewrite skipn_length; unfold k; lia).
    rewrite <- (firstn_skipn k padded), all_digits_app in ADp. apply andb_true_iff in ADp.
    rewrite <- (firstn_skipn k padded) in Vp.
    rewrite parse_decimal_point, Vp, LF; [|apply ADp|apply ADp|..|rewrite Vp; exact HvM|rewrite LF; unfold d; lia].
    + unfold d. rewrite N2Nat.id. apply rescale_same; assumption.
    + intros E0. apply (f_equal (@length N)) in E0. rewrite firstn_length_le in E0 by (unfold k; lia).
      cbn [length] in E0. unfold k in E0. lia.
Qed.

(** ... and for more than 28 decimals the string form cannot be parsed back at all (rust_decimal's
    maximal scale): a rejection, never a different amount *)
Theorem display_beyond_scale_rejected : forall s d, 28 < d -> from_str_exact s d = None.
Proof.
  intros s d H. unfold from_str_exact. destruct (parse_decimal s) as [[[neg m] sc]|]; [|reflexivity].
  unfold rescale_exact. destruct (N.ltb_spec 28 d); [reflexivity|lia].
Qed.
