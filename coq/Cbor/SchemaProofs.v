(** C17 - laws of the schema interpretation (CborSchema.v) that hold for every schema:
    missing mandatory field, undeclared field under Fail / Ignore, unknown variants under
    CborMaybeKnown, ill-typed scalars; the exponent of a token amount's CBOR form. *)
From Coq Require Import ZArith List Bool Lia.
From CB Require Import Cbor.CborCore Cbor.CborSchema Cbor.TokenSchemas.
Import ListNotations.
Local Open Scope N_scope.

(** the first entry whose key [m] accepts, with its position: the decoder's three lookup loops *)
Section Findi.
  Context {K V B : Type} (m : K -> bool) (f : K -> V -> B).

  Definition findi : list (K * V) -> nat -> option (nat * B) :=
    fix find (l : list (K * V)) (i : nat) : option (nat * B) :=
      match l with
      | [] => None
      | (k, v) :: r => if m k then Some (i, f k v) else find r (S i)
      end.

  Lemma findi_none : forall l i, (forall k v, In (k, v) l -> m k = false) -> findi l i = None.
  Proof.
    induction l as [|[k v] l IH]; intros i H; [reflexivity|].
    cbn [findi]. rewrite (H k v (or_introl eq_refl)). apply IH. intros k' v' Hin. apply (H k' v'). right. exact Hin.
  Qed.

  Lemma findi_hit : forall l i j r, findi l i = Some (j, r) ->
    exists k v, nth_error l (j - i) = Some (k, v) /\ m k = true /\ r = f k v /\ (i <= j < i + List.length l)%nat.
  Proof.
    induction l as [|[k v] l IH]; intros i j r H; cbn [findi] in H; [discriminate|].
    destruct (m k) eqn:E.
    - inversion H; subst. exists k, v. rewrite Nat.sub_diag. cbn [List.length]. repeat split; [exact E|lia..].
    - apply IH in H. destruct H as (k' & v' & N1 & M & R & Hle). exists k', v'.
      replace (j - i)%nat with (S (j - S i)) by lia. cbn [nth_error List.length]. repeat split; [exact N1|exact M|exact R|lia..].
  Qed.
End Findi.

Section Struct.
  Variable o : unknown_keys.

  Definition find_field (k x : value) : list (key * schema) -> nat -> option (nat * option sval) :=
    findi (fun fk => key_matches fk k) (fun _ s => sdec o s false x).

  Definition struct_step (fields : list (key * schema)) (other : option okind)
             (st : option (list (option sval) * list (value * value))) (kx : value * value) :=
    match st with
    | None => None
    | Some (slots, others) =>
      let '(k, x) := kx in
      if negb (is_mapkey k) then None else
      match find_field k x fields O with
      | Some (i, Some y) => Some (set_nth i (Some y) slots, others)
      | Some (_, None) => None
      | None =>
        match other with
        | Some OString => match k with VText _ => Some (slots, upsert k (strip x) others) | _ => None end
        | Some OMapKey => Some (slots, upsert k (strip x) others)
        | None => match o with Fail => None | Ignore => Some (slots, others) end
        end
      end
    end.

  Fixpoint struct_fin (fs : list (key * schema)) (sl : list (option sval)) : option (list sval) :=
    match fs, sl with
    | [], _ => Some []
    | (_, fs') :: r, Some y :: sl' => option_map (cons y) (struct_fin r sl')
    | (_, fs') :: r, None :: sl' => match null_of fs' with Some y => option_map (cons y) (struct_fin r sl') | None => None end
    | _ :: _, [] => None
    end.

  Lemma sdec_struct : forall fields other mk i entries,
    sdec o (SStruct fields other) mk (VMap i entries) =
    match fold_left (struct_step fields other) entries (Some (map (fun _ => None) fields, [])) with
    | None => None
    | Some (slots, others) => option_map (fun xs => XStruct xs others) (struct_fin fields slots)
    end.
  Proof. reflexivity. Qed.

  Lemma step_none : forall fields other l, fold_left (struct_step fields other) l None = None.
  Proof. induction l; [reflexivity|]. exact IHl. Qed.

  Lemma nth_set_nth_other : forall {A} (l : list A) i j y, i <> j -> nth_error (set_nth i y l) j = nth_error l j.
  Proof.
    induction l as [|a l IH]; intros i j y Hne; [destruct i; reflexivity|].
    destruct i, j; cbn [set_nth nth_error]; try reflexivity; try lia. apply IH. lia.
  Qed.

  Lemma slot_stays_empty : forall fields other j fk fs' entries slots others,
    nth_error fields j = Some (fk, fs') ->
    (forall kx, In kx entries -> key_matches fk (fst kx) = false) ->
    nth_error slots j = Some None ->
    match fold_left (struct_step fields other) entries (Some (slots, others)) with
    | None => True
    | Some (slots', _) => nth_error slots' j = Some None
    end.
  Proof.
    induction entries as [|[k x] entries IH]; intros slots others Hj Hno Hs; [exact Hs|].
    cbn [fold_left]. unfold struct_step at 2.
    destruct (negb (is_mapkey k)); [rewrite step_none; exact I|].
    assert (Hno' : forall kx, In kx entries -> key_matches fk (fst kx) = false) by (intros; apply Hno; right; assumption).
    destruct (find_field k x fields 0) as [[i [y|]]|] eqn:F.
    - apply IH; try assumption. rewrite nth_set_nth_other; [exact Hs|].
      intros ->. apply findi_hit in F. destruct F as (fk' & fs'' & N1 & M & _).
      rewrite Nat.sub_0_r, Hj in N1. inversion N1; subst. specialize (Hno (k, x) (or_introl eq_refl)). cbn in Hno. congruence.
    - rewrite step_none. exact I.
    - destruct other as [[|]|].
      + destruct k; try (rewrite step_none; exact I). apply IH; assumption.
      + apply IH; assumption.
      + destruct o; [rewrite step_none; exact I|apply IH; assumption].
  Qed.

  Lemma fin_empty_mandatory : forall fields slots j fk fs',
    nth_error fields j = Some (fk, fs') -> nth_error slots j = Some None -> null_of fs' = None ->
    struct_fin fields slots = None.
  Proof.
    induction fields as [|[k s] fields IH]; intros slots j fk fs' Hj Hs Hn; [destruct j; discriminate|].
    destruct slots as [|sl slots]; [destruct j; discriminate|].
    destruct j.
    - cbn in Hj, Hs. inversion Hj; inversion Hs; subst. cbn [struct_fin]. rewrite Hn. reflexivity.
    - cbn [nth_error] in Hj, Hs. cbn [struct_fin]. rewrite (IH slots j fk fs' Hj Hs Hn).
      destruct sl; [reflexivity|]. destruct (null_of s); reflexivity.
  Qed.

  Theorem struct_missing_mandatory : forall fields other i entries mk k s,
    In (k, s) fields -> null_of s = None ->
    (forall kx, In kx entries -> key_matches k (fst kx) = false) ->
    sdec o (SStruct fields other) mk (VMap i entries) = None.
  Proof.
    intros fields other i entries mk k s Hin Hnull Hno. rewrite sdec_struct.
    apply In_nth_error in Hin. destruct Hin as [j Hj].
    pose proof (slot_stays_empty fields other j k s entries (map (fun _ => None) fields) [] Hj Hno
                  (map_nth_error (fun _ => None) j fields Hj)) as Inv.
    destruct (fold_left (struct_step fields other) entries (Some (map (fun _ => None) fields, []))) as [[slots others]|];
      [|reflexivity].
    rewrite (fin_empty_mandatory fields slots j k s Hj Inv Hnull). reflexivity.
  Qed.
End Struct.

Theorem struct_unknown_key_fail : forall fields i entries mk k x,
  In (k, x) entries -> (forall fk fs, In (fk, fs) fields -> key_matches fk k = false) ->
  sdec Fail (SStruct fields None) mk (VMap i entries) = None.
Proof.
  intros fields i entries mk k x Hin Hno. rewrite sdec_struct.
  apply in_split in Hin. destruct Hin as (pre & post & ->). rewrite fold_left_app. cbn [fold_left].
  destruct (fold_left (struct_step Fail fields None) pre (Some (map (fun _ => None) fields, []))) as [[slots others]|].
  - unfold struct_step at 2. destruct (negb (is_mapkey k)); [rewrite step_none; reflexivity|].
    unfold find_field. rewrite (findi_none _ _ fields 0 Hno), step_none. reflexivity.
  - cbn. rewrite step_none. reflexivity.
Qed.

Theorem struct_unknown_key_ignored : forall fields i pre post mk k x,
  is_mapkey k = true -> (forall fk fs, In (fk, fs) fields -> key_matches fk k = false) ->
  sdec Ignore (SStruct fields None) mk (VMap i (pre ++ (k, x) :: post))
  = sdec Ignore (SStruct fields None) mk (VMap i (pre ++ post)).
Proof.
  intros fields i pre post mk k x Hk Hno. rewrite !sdec_struct, !fold_left_app. cbn [fold_left].
  destruct (fold_left (struct_step Ignore fields None) pre (Some (map (fun _ => None) fields, []))) as [[slots others]|].
  - unfold struct_step at 2. rewrite Hk. cbn [negb]. unfold find_field. rewrite (findi_none _ _ fields 0 Hno). reflexivity.
  - cbn. reflexivity.
Qed.

Section Enum.
  Variable o : unknown_keys.

  Lemma sdec_enum_map : forall variants other mk k x,
    sdec o (SEnumMap variants other) mk (VMap false [(VText k, x)]) =
    match findi (fun name => list_eqb (bytes_of_string name) k) (fun _ s => sdec o s false x) variants O with
    | Some (i, Some y) => Some (XVariant i y)
    | Some (_, None) => None
    | None =>
      if other then Some (XOther (VText k) (strip x))
      else if mk then Some (XUnknown (VMap false [(VText k, strip x)])) else None
    end.
  Proof. reflexivity. Qed.

  Lemma sdec_maybe : forall s mk v,
    sdec o (SMaybeKnown s) mk v =
    match sdec o s true v with Some (XUnknown u) => Some (XUnknown u) | Some y => Some (XKnown y) | None => None end.
  Proof. reflexivity. Qed.

  Theorem maybe_known_map_unknown : forall variants k x,
    (forall name s, In (name, s) variants -> list_eqb (bytes_of_string name) k = false) ->
    sdec o (SMaybeKnown (SEnumMap variants false)) false (VMap false [(VText k, x)])
      = Some (XUnknown (VMap false [(VText k, strip x)]))
    /\ senc (SMaybeKnown (SEnumMap variants false)) (XUnknown (VMap false [(VText k, strip x)]))
      = Some (VMap false [(VText k, strip x)]).
  Proof.
    intros variants k x H. split; [|reflexivity].
    rewrite sdec_maybe, sdec_enum_map, (findi_none _ _ variants 0 H). reflexivity.
  Qed.

  Theorem enum_map_unknown_rejected : forall variants k x,
    (forall name s, In (name, s) variants -> list_eqb (bytes_of_string name) k = false) ->
    sdec o (SEnumMap variants false) false (VMap false [(VText k, x)]) = None.
  Proof. intros variants k x H. rewrite sdec_enum_map, (findi_none _ _ variants 0 H). reflexivity. Qed.

  Lemma sdec_enum_tagged : forall variants untagged other mk t x,
    sdec o (SEnumTagged variants untagged other) mk (VTag t x) =
    match findi (fun tc : N * bool => fst tc =? t) (fun tc s => sdec o s false (if snd tc then x else VTag t x)) variants O with
    | Some (i, Some y) => Some (XVariant i y)
    | Some (_, None) => None
    | None =>
      if other then Some (XOther (VPos t) (strip x))
      else if mk then Some (XUnknown (VTag t (strip x))) else None
    end.
  Proof.
    intros. cbn [sdec]. generalize O. induction variants as [|[[t' c] s] vs IH]; intros i; [reflexivity|].
    cbn [findi fst snd]. destruct (t' =? t); [reflexivity|]. apply IH.
  Qed.

  Theorem maybe_known_tag_unknown : forall variants untagged t x,
    (forall t' c s, In (t', c, s) variants -> (t' =? t) = false) ->
    sdec o (SMaybeKnown (SEnumTagged variants untagged false)) false (VTag t x)
      = Some (XUnknown (VTag t (strip x)))
    /\ senc (SMaybeKnown (SEnumTagged variants untagged false)) (XUnknown (VTag t (strip x)))
      = Some (VTag t (strip x)).
  Proof.
    intros variants untagged t x H. split; [|reflexivity].
    rewrite sdec_maybe, sdec_enum_tagged, findi_none; [reflexivity|]. intros [t' c] s. apply H.
  Qed.

  Theorem bool_ill_typed : forall mk v, (forall b, v <> VBool b) -> sdec o SBool mk v = None.
  Proof. intros mk v H. destruct v; try reflexivity. exfalso. apply (H b). reflexivity. Qed.
End Enum.

(** the exponent of a token amount in CBOR, tag 4 [-decimals, value] *)
Definition amount_exponent (d : N) : value := if d =? 0 then VPos 0 else VNeg (d - 1).

Theorem amount_exponent_rejected : forall o e m mk v,
  sdec o s_UnsignedDecimalFraction mk v = Some (XList [XZ e; XN m]) ->
  ((e < -255)%Z \/ (0 < e)%Z) -> sdec o s_TokenAmount mk v = None.
Proof.
  intros o e m mk v H Hr.
  change (sdec o s_TokenAmount mk v) with
    (match sdec o s_UnsignedDecimalFraction false v with
     | Some x => if refine_ok RDecimals x then Some x else None | None => None end).
  assert (E : sdec o s_UnsignedDecimalFraction false v = sdec o s_UnsignedDecimalFraction mk v) by (destruct v; reflexivity).
  rewrite E, H. cbn [refine_ok].
  assert (F : ((-255 <=? e) && (e <=? 0))%Z = false).
  { apply andb_false_iff. destruct Hr; [left; apply Z.leb_gt; lia|right; apply Z.leb_gt; lia]. }
  rewrite F. reflexivity.
Qed.
