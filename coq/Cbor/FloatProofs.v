(** C17 - floats as bit patterns: the width selection of the encoder round-trips bit for bit for EVERY
    64-bit pattern (NaNs included), it narrows only to a width that represents the pattern, and every
    binary16 value goes out in two bytes. *)
From Coq Require Import NArith Bool Lia.
From CB Require Import Cbor.FloatBits.
Local Open Scope N_scope.

(** decode (encode f) = f, bit for bit, for every pattern: the encoder only narrows when widening the
    narrowed pattern gives the same 64 bits back *)
Theorem float_roundtrip : forall b, fdecode (fst (fencode b)) (snd (fencode b)) = b.
Proof.
  intros b. unfold fencode.
  destruct (N.eqb_spec (widen16 (cand16 b)) b) as [E|_]; [exact E|].
  destruct (N.eqb_spec (widen32 (cand32 b)) b) as [E|_]; [exact E|]. reflexivity.
Qed.

Theorem fencode_width : forall b, let w := fst (fencode b) in w = 2 \/ w = 4 \/ w = 8.
Proof.
  intros b. unfold fencode. destruct (widen16 (cand16 b) =? b); [left; reflexivity|].
  destruct (widen32 (cand32 b) =? b); [right; left; reflexivity|right; right; reflexivity].
Qed.

(** whatever is written in 2 (4) bytes is a double that some half (single) pattern widens to, so a double
    that is NOT such a value is never narrowed *)
Theorem fencode_narrow_only_if_representable : forall b w p, fencode b = (w, p) ->
  (w = 2 -> widen16 p = b) /\ (w = 4 -> widen32 p = b) /\ (w = 8 -> p = b).
Proof.
  intros b w p H. unfold fencode in H.
  destruct (N.eqb_spec (widen16 (cand16 b)) b) as [E|_].
  { inversion H; subst. repeat split; intros; try discriminate; exact E. }
  destruct (N.eqb_spec (widen32 (cand32 b)) b) as [E|_]; inversion H; subst; repeat split; intros; try discriminate; auto.
Qed.

(** a pattern of 1 + eb + mb bits, from its sign, exponent and mantissa fields *)
Definition pack (mb eb s e m : N) : N := N.shiftl s (mb + eb) + (N.shiftl e mb + m).

Lemma pack_fields : forall mb eb s e m, s < 2 -> e < 2 ^ eb -> m < 2 ^ mb ->
  let x := pack mb eb s e m in
  N.shiftr x (mb + eb) = s /\ N.land (N.shiftr x mb) (N.ones eb) = e /\ N.land x (N.ones mb) = m.
Proof.
  intros mb eb s e m Hs He Hm. unfold pack. cbv zeta.
  rewrite !N.land_ones, !N.shiftr_div_pow2, !N.shiftl_mul_pow2, N.pow_add_r.
  assert (A : 2 ^ mb <> 0) by (apply N.pow_nonzero; lia). assert (B : 2 ^ eb <> 0) by (apply N.pow_nonzero; lia).
  assert (D : (s * (2 ^ mb * 2 ^ eb) + (e * 2 ^ mb + m)) / 2 ^ mb = s * 2 ^ eb + e).
  { symmetry. apply (N.div_unique _ _ _ m); [exact Hm|ring]. }
  repeat split.
  - rewrite <- N.div_div, D by assumption. symmetry. apply (N.div_unique _ _ _ e); [exact He|ring].
  - rewrite D. symmetry. apply (N.mod_unique _ _ s); [exact He|ring].
  - symmetry. apply (N.mod_unique _ _ (s * 2 ^ eb + e)); [exact Hm|ring].
Qed.

Lemma fields_split : forall mb eb x, x < 2 ^ (mb + eb + 1) ->
  let s := N.shiftr x (mb + eb) in let e := N.land (N.shiftr x mb) (N.ones eb) in let m := N.land x (N.ones mb) in
  s < 2 /\ e < 2 ^ eb /\ m < 2 ^ mb /\ x = pack mb eb s e m.
Proof.
  intros mb eb x Hx. unfold pack. cbv zeta. rewrite !N.land_ones, !N.shiftr_div_pow2, !N.shiftl_mul_pow2.
  rewrite !N.pow_add_r in *. change (2 ^ 1) with 2 in Hx.
  assert (A : 2 ^ mb <> 0) by (apply N.pow_nonzero; lia). assert (B : 2 ^ eb <> 0) by (apply N.pow_nonzero; lia).
  rewrite <- N.div_div by assumption.
  repeat split; try (apply N.mod_lt; assumption).
  - apply N.div_lt_upper_bound; [lia|]. apply N.div_lt_upper_bound; [lia|]. lia.
  - rewrite (N.div_mod x (2 ^ mb) A) at 1. rewrite (N.div_mod (x / 2 ^ mb) (2 ^ eb) B) at 1. ring.
Qed.

Lemma make_fields : forall s e m, s < 2 -> e < 2048 -> m < 2 ^ 52 ->
  f64_sign (f64_make s e m) = s /\ f64_exp (f64_make s e m) = e /\ f64_man (f64_make s e m) = m.
Proof.
  intros s e m Hs He Hm. unfold f64_make. rewrite <- N.add_assoc. exact (pack_fields 52 11 s e m Hs He Hm).
Qed.

Lemma lor_lt_pow2 : forall a b n, a < 2 ^ n -> b < 2 ^ n -> N.lor a b < 2 ^ n.
Proof.
  intros a b n Ha Hb. assert (Z : 2 ^ n <> 0) by (apply N.pow_nonzero; lia). apply N.div_small_iff; [exact Z|].
  rewrite <- N.shiftr_div_pow2, N.shiftr_lor, !N.shiftr_div_pow2, !N.div_small by assumption. reflexivity.
Qed.

Lemma lor_pow2 : forall k m, m < 2 ^ (k + 1) -> N.lor (2 ^ k) m = if m <? 2 ^ k then 2 ^ k + m else m.
Proof.
  intros k m Hm. assert (Z : 2 ^ k <> 0) by (apply N.pow_nonzero; lia).
  rewrite N.pow_add_r in Hm. change (2 ^ 1) with 2 in Hm.
  destruct (N.ltb_spec m (2 ^ k)) as [L|L].
  - rewrite <- N.lxor_lor, <- N.add_nocarry_lxor; trivial; apply N.bits_inj; intros i;
      rewrite N.land_spec, N.pow2_bits_eqb, N.bits_0; destruct (N.eqb_spec k i) as [<-|_]; trivial;
      apply N.testbit_false; rewrite N.div_small by exact L; reflexivity.
  - apply N.bits_inj. intros i. rewrite N.lor_spec, N.pow2_bits_eqb. destruct (N.eqb_spec k i) as [<-|_]; [|reflexivity].
    symmetry. apply N.testbit_true. replace (m / 2 ^ k) with 1; [reflexivity|].
    apply (N.div_unique _ _ _ (m - 2 ^ k)); lia.
Qed.

Lemma cand_make : forall emax rebias mb s e M, s < 2 -> e < emax + rebias -> emax + rebias <= 2047 -> M < 2 ^ 52 ->
  cand emax rebias mb (f64_make s e M) = N.shiftl s (mb + (if mb =? 10 then 5 else 8)) +
    (if rebias <? e then N.shiftl (e - rebias) mb + N.shiftr M (52 - mb)
     else N.shiftr (P52 + M) (52 - mb + (rebias + 1 - e))).
Proof.
  intros emax rebias mb s e M Hs He Hmax HM. destruct (make_fields s e M Hs ltac:(lia) HM) as (F1 & F2 & F3).
  unfold cand. cbv zeta. rewrite F1, F2, F3.
  destruct (N.eqb_spec e 2047); [lia|]. destruct (N.leb_spec (emax + rebias) e); [lia|]. reflexivity.
Qed.

(** Narrowing the double that a pattern widens to gives the pattern back, except that a NaN comes back with
    its quiet bit set.  Normal: the exponent is re-biased both ways and the mantissa shifted left then right.
    Subnormal m with top bit k: widened to exponent k + 1 + rebias - mb and mantissa (m - 2^k) << (52 - k);
    [cand] puts the implicit bit back (P52 + that = m << (52 - k)) and shifts right by the same 52 - k. *)
Lemma cand_widen : forall emax rebias mb s e m,
  1 <= mb <= 52 -> mb <= rebias -> 0 < emax -> emax + rebias <= 2047 -> s < 2 -> e <= emax -> m < 2 ^ mb ->
  cand emax rebias mb (widen emax rebias mb s e m)
  = pack mb (if mb =? 10 then 5 else 8) s e (if (e =? emax) && negb (m =? 0) then N.lor (2 ^ (mb - 1)) m else m).
Proof.
  intros emax rebias mb s e m Hmb Hrb Hmax0 Hmax Hs He Hm. unfold widen, pack.
  assert (HM : N.shiftl m (52 - mb) < 2 ^ 52).
  { rewrite N.shiftl_mul_pow2. replace 52 with (mb + (52 - mb)) at 2 by lia. rewrite N.pow_add_r.
    apply N.mul_lt_mono_pos_r; [|exact Hm]. apply N.neq_0_lt_0, N.pow_nonzero. lia. }
  destruct (N.eqb_spec e emax) as [->|Ee]; [|destruct (N.eqb_spec e 0) as [->|E0]]; cbn [andb].
  - (* infinity and NaN *)
    assert (Hspecial : forall M, M < 2 ^ 52 -> cand emax rebias mb (f64_make s 2047 M)
      = N.shiftl s (mb + (if mb =? 10 then 5 else 8)) + (if M =? 0 then N.shiftl emax mb
          else N.shiftl emax mb + N.lor (N.shiftl 1 (mb - 1)) (N.shiftr M (52 - mb)))).
    { intros M HM'. destruct (make_fields s 2047 M Hs ltac:(lia) HM') as (F1 & F2 & F3).
      unfold cand. cbv zeta. rewrite F1, F2, F3. reflexivity. }
    destruct (N.eqb_spec m 0) as [->|M0]; cbn [negb].
    + rewrite Hspecial by reflexivity. cbn [N.eqb]. rewrite N.add_0_r. reflexivity.
    + rewrite Hspecial by (apply lor_lt_pow2; [reflexivity|exact HM]).
      destruct (N.eqb_spec (N.lor P51 (N.shiftl m (52 - mb))) 0) as [Z|_]; [apply N.lor_eq_0_iff in Z; destruct Z; discriminate|].
      rewrite N.shiftr_lor. change P51 with (N.shiftl 1 51).
      rewrite !N.shiftr_shiftl_l, N.sub_diag, N.shiftl_0_r by lia.
      replace (51 - (52 - mb)) with (mb - 1) by lia. rewrite N.shiftl_1_l, N.lor_assoc, N.lor_diag. reflexivity.
  - (* zero and subnormal *)
    rewrite N.shiftl_0_l, N.add_0_l. destruct (N.eqb_spec m 0) as [->|M0].
    + rewrite cand_make; [|assumption|lia|assumption|reflexivity]. destruct (N.ltb_spec rebias 0); [lia|].
      f_equal. rewrite N.add_0_r, N.shiftr_div_pow2. apply N.div_small. apply N.pow_lt_mono_r; lia.
    + cbv zeta. set (k := N.log2 m). destruct (N.log2_spec m ltac:(lia)) as [Lo Hi]. fold k in Lo, Hi.
      rewrite N.pow_succ_r' in Hi. assert (Hk : k < mb) by (apply N.log2_lt_pow2; lia).
      rewrite N.shiftl_1_l, N.shiftl_mul_pow2.
      assert (P : 2 ^ 52 = 2 ^ k * 2 ^ (52 - k)) by (rewrite <- N.pow_add_r; f_equal; lia).
      assert (Z : 2 ^ (52 - k) <> 0) by (apply N.pow_nonzero; lia).
      assert (E : P52 + (m - 2 ^ k) * 2 ^ (52 - k) = m * 2 ^ (52 - k)).
      { unfold P52. rewrite P, N.mul_sub_distr_r, N.add_comm, N.sub_add; [reflexivity|apply N.mul_le_mono_r; exact Lo]. }
      rewrite cand_make; [|assumption|lia|assumption|rewrite P; apply N.mul_lt_mono_pos_r; lia].
      destruct (N.ltb_spec rebias (k + 1 + rebias - mb)); [lia|].
      rewrite E. replace (52 - mb + (rebias + 1 - (k + 1 + rebias - mb))) with (52 - k) by lia.
      rewrite N.shiftr_div_pow2, N.div_mul by exact Z. reflexivity.
  - (* normal *)
    rewrite cand_make; [|assumption|lia|assumption|exact HM]. destruct (N.ltb_spec rebias (e + rebias)); [|lia].
    rewrite N.shiftr_shiftl_l, N.sub_diag, N.shiftl_0_r, N.add_sub by lia. reflexivity.
Qed.

Theorem cand_widen_pattern : forall emax rebias mb eb x,
  (if mb =? 10 then 5 else 8) = eb -> emax = N.ones eb -> 1 <= mb <= 52 -> mb <= rebias -> 0 < emax ->
  emax + rebias <= 2047 -> x < 2 ^ (mb + eb + 1) ->
  let s := N.shiftr x (mb + eb) in let e := N.land (N.shiftr x mb) (N.ones eb) in let m := N.land x (N.ones mb) in
  cand emax rebias mb (widen emax rebias mb s e m)
  = if (e =? emax) && negb (m =? 0) && (m <? 2 ^ (mb - 1)) then x + 2 ^ (mb - 1) else x.
Proof.
  intros emax rebias mb eb x Eb Emax Hmb Hrb Hmax0 Hmax Hx. destruct (fields_split mb eb x Hx) as (Hs & He & Hm & Ex).
  cbv zeta. set (s := N.shiftr x (mb + eb)) in *. set (e := N.land (N.shiftr x mb) (N.ones eb)) in *.
  set (m := N.land x (N.ones mb)) in *.
  rewrite cand_widen, Eb; try assumption; [|rewrite Emax, N.ones_equiv; lia].
  destruct ((e =? emax) && negb (m =? 0)); cbn [andb]; [|symmetry; exact Ex].
  rewrite lor_pow2 by (replace (mb - 1 + 1) with mb by lia; exact Hm).
  destruct (m <? 2 ^ (mb - 1)); [|symmetry; exact Ex]. rewrite Ex. unfold pack. lia.
Qed.

Lemma widen_quiet : forall emax rebias mb s m, 1 <= mb <= 52 -> 0 < m < 2 ^ (mb - 1) ->
  widen emax rebias mb s emax (2 ^ (mb - 1) + m) = widen emax rebias mb s emax m.
Proof.
  intros emax rebias mb s m Hmb Hm. unfold widen. rewrite N.eqb_refl.
  destruct (N.eqb_spec (2 ^ (mb - 1) + m) 0); [lia|]. destruct (N.eqb_spec m 0); [lia|]. f_equal.
  assert (P : 2 ^ (mb - 1) * 2 ^ (52 - mb) = 2 ^ 51) by (rewrite <- N.pow_add_r; f_equal; lia).
  rewrite !N.shiftl_mul_pow2, N.mul_add_distr_r, P. change P51 with (2 ^ 51).
  assert (L : m * 2 ^ (52 - mb) < 2 ^ 51).
  { rewrite <- P. apply N.mul_lt_mono_pos_r; [apply N.neq_0_lt_0, N.pow_nonzero|]; lia. }
  pose proof (lor_pow2 51 (m * 2 ^ (52 - mb)) ltac:(change (2 ^ (51 + 1)) with (2 * 2 ^ 51); lia)) as Q.
  destruct (N.ltb_spec (m * 2 ^ (52 - mb)) (2 ^ 51)); [|lia].
  rewrite <- Q, N.lor_assoc, N.lor_diag. reflexivity.
Qed.

Lemma widen_quiet_pattern : forall emax rebias mb eb x, emax = N.ones eb -> 1 <= mb <= 52 -> x < 2 ^ (mb + eb + 1) ->
  let widen_pat y := widen emax rebias mb (N.shiftr y (mb + eb)) (N.land (N.shiftr y mb) (N.ones eb)) (N.land y (N.ones mb)) in
  N.land (N.shiftr x mb) (N.ones eb) = emax -> 0 < N.land x (N.ones mb) < 2 ^ (mb - 1) ->
  widen_pat (x + 2 ^ (mb - 1)) = widen_pat x.
Proof.
  intros emax rebias mb eb x Emax Hmb Hx. cbv zeta. intros E Hm.
  destruct (fields_split mb eb x Hx) as (Hs & He & _ & Ex). rewrite E in *.
  set (s := N.shiftr x (mb + eb)) in *. set (m := N.land x (N.ones mb)) in *.
  assert (Ex' : x + 2 ^ (mb - 1) = pack mb eb s emax (2 ^ (mb - 1) + m)) by (rewrite Ex at 1; unfold pack; lia).
  assert (Hm' : 2 ^ (mb - 1) + m < 2 ^ mb).
  { replace mb with (mb - 1 + 1) at 2 by lia. rewrite N.pow_add_r. change (2 ^ 1) with 2. lia. }
  destruct (pack_fields mb eb s emax _ Hs He Hm') as (F1 & F2 & F3).
  rewrite Ex', F1, F2, F3. apply widen_quiet; assumption.
Qed.

(** Every half pattern that is not a signalling NaN is the 2-byte encoding of the double it widens
    to (so: shortest width chosen, and decode . encode . decode = decode); a signalling NaN widens to the quiet
    NaN, whose encoding is the quiet half pattern. *)
Lemma half_fencode : forall h, h < 65536 -> fencode (widen16 h) = (2, if is_snan16 h then h + 512 else h).
Proof.
  intros h Hh. unfold fencode.
  pose proof (cand_widen_pattern 31 1008 10 5 h eq_refl eq_refl ltac:(lia) ltac:(lia) ltac:(lia) ltac:(lia) Hh) as C.
  change (cand16 (widen16 h) = if is_snan16 h then h + 512 else h) in C. rewrite C.
  destruct (is_snan16 h) eqn:Sn; [|rewrite N.eqb_refl; reflexivity].
  replace (widen16 (h + 512)) with (widen16 h); [rewrite N.eqb_refl; reflexivity|].
  unfold is_snan16 in Sn. apply andb_true_iff in Sn. destruct Sn as [Sn M1]. apply andb_true_iff in Sn. destruct Sn as [E M0].
  apply N.eqb_eq in E. apply N.ltb_lt in M1. apply negb_true_iff, N.eqb_neq in M0.
  symmetry. apply (widen_quiet_pattern 31 1008 10 5 h eq_refl ltac:(lia) Hh E). change (0 < N.land h 1023 < 512). lia.
Qed.

Theorem half_shortest : forall h, h < 65536 -> is_snan16 h = false -> fencode (widen16 h) = (2, h).
Proof. intros h Hh Hs. rewrite half_fencode, Hs by exact Hh. reflexivity. Qed.

Theorem half_snan_quieted : forall h, h < 65536 -> is_snan16 h = true -> fencode (widen16 h) = (2, h + 512).
Proof. intros h Hh Hs. rewrite half_fencode, Hs by exact Hh. reflexivity. Qed.
