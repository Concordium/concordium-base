(** C17 - the CBOR decimal-fraction form of a token amount (tag 4 [exponent, mantissa]): the ranges of
    both components are enforced exactly, and the three forms (CBOR, rust_decimal, string) agree. *)
From Coq Require Import ZArith List Bool Lia.
From CB Require Import Cbor.CborCore Cbor.CborProofs Cbor.CborSchema Cbor.TokenSchemas Cbor.TokenAmount Cbor.DecimalConv
  Cbor.DecimalConvProofs Cbor.SchemaProofs Cbor.TokenAmountProofs.
Import ListNotations.
Local Open Scope N_scope.

(** negative exponent -1-k: accepted exactly when k <= 254 (decimals = k+1 is a u8) and the mantissa is a u64 *)
Theorem amount_cbor_neg_exponent : forall o mk k m,
  sdec o s_TokenAmount mk (VTag 4 (VArray false [VNeg k; VPos m])) =
  if (k <? 255) && (m <? 2 ^ 64) then Some (XList [XZ (- 1 - Z.of_N k); XN m]) else None.
Proof.
  intros o mk k m.
  cbn -[N.ltb N.pow Z.leb Z.sub Z.opp Z.of_N Z.add refine_ok N.eqb andb]. change (4 =? 4) with true. cbv iota.
  change (2 ^ (64 - 1)) with 9223372036854775808.
  destruct (N.ltb_spec k 255) as [Hk|Hk].
  - destruct (N.ltb_spec k 9223372036854775808); [|lia].
    destruct (m <? 2 ^ 64); cbn [andb option_map]; [|reflexivity]. cbn [refine_ok].
    assert (E : ((-255 <=? -1 - Z.of_N k) && (-1 - Z.of_N k <=? 0))%Z = true).
    { apply andb_true_iff. split; apply Z.leb_le; lia. }
    rewrite E. reflexivity.
  - cbn [andb]. destruct (N.ltb_spec k 9223372036854775808); cbn [option_map]; [|reflexivity].
    destruct (m <? 2 ^ 64); cbn [option_map]; [|reflexivity]. cbn [refine_ok].
    assert (E : ((-255 <=? -1 - Z.of_N k))%Z = false) by (apply Z.leb_gt; lia).
    rewrite E. reflexivity.
Qed.

(** non-negative exponent: only 0 is accepted *)
Theorem amount_cbor_pos_exponent : forall o mk n m,
  sdec o s_TokenAmount mk (VTag 4 (VArray false [VPos n; VPos m])) =
  if (n =? 0) && (m <? 2 ^ 64) then Some (XList [XZ 0; XN m]) else None.
Proof.
  intros o mk n m.
  cbn -[N.ltb N.pow Z.leb Z.sub Z.opp Z.of_N Z.add refine_ok N.eqb andb]. change (4 =? 4) with true. cbv iota.
  change (2 ^ (64 - 1)) with 9223372036854775808.
  destruct (N.eqb_spec n 0) as [->|Hn].
  - change (0 <? 9223372036854775808) with true. cbn [andb]. destruct (m <? 2 ^ 64); cbn [option_map]; reflexivity.
  - cbn [andb]. destruct (N.ltb_spec n 9223372036854775808); cbn [option_map]; [|reflexivity].
    destruct (m <? 2 ^ 64); cbn [option_map]; [|reflexivity]. cbn [refine_ok].
    assert (E : (Z.of_N n <=? 0)%Z = false) by (apply Z.leb_gt; lia).
    rewrite E, andb_false_r. reflexivity.
Qed.

Theorem amount_cbor_roundtrip : forall o v d, v < W64 -> d < 256 ->
  decode_typed s_TokenAmount o (encode (VTag 4 (VArray false [amount_exponent d; VPos v])))
  = Some (XList [XZ (- Z.of_N d); XN v]).
Proof.
  intros o v d Hv Hd.
  assert (Hv' : (v <? W64) = true) by (apply N.ltb_lt; exact Hv).
  assert (WF : value_wfb (VTag 4 (VArray false [amount_exponent d; VPos v])) = true).
  { assert (E : (d - 1 <? W64) = true) by (apply N.ltb_lt; unfold W64; lia).
    unfold value_wfb, amount_exponent. destruct (d =? 0); cbn; rewrite Hv', ?E; reflexivity. }
  destruct (decode_encode_top _ WF) as [a E]. unfold decode_typed. rewrite E.
  change W64 with (2 ^ 64) in Hv'. unfold amount_exponent. destruct (N.eqb_spec d 0) as [->|Hne].
  - rewrite amount_cbor_pos_exponent, Hv'. reflexivity.
  - assert (Ed : (d - 1 <? 255) = true) by (apply N.ltb_lt; lia).
    rewrite amount_cbor_neg_exponent, Hv', Ed. cbn [andb]. do 4 f_equal. lia.
Qed.

(** The three forms of one amount [(v, d)], [v] a u64, [d <= 28]: CBOR bytes, rust_decimal, decimal string -
    each converts back to exactly [(v, d)], i.e. [v * 10^-d] is preserved by all of them. *)
Theorem amount_three_forms : forall o v d r, v <= U64MAX -> d <= 28 ->
  let a := {| amt_value := v; amt_decimals := d |} in
  decode_typed s_TokenAmount o (encode (VTag 4 (VArray false [amount_exponent d; VPos v])))
    = Some (XList [XZ (- Z.of_N d); XN v])
  /\ (exists x, try_to_decimal a = Some x /\ d_m x = v /\ d_scale x = d /\ d_neg x = false
                /\ try_from_decimal x d r = COk a)
  /\ from_str_exact (to_string a) d = Some a.
Proof.
  intros o v d r Hv Hd a. split; [|split].
  - apply amount_cbor_roundtrip; unfold U64MAX, W64 in *; lia.
  - destruct (to_decimal_roundtrip v d r Hv Hd) as (E1 & _ & E2).
    eexists. split; [exact E1|]. repeat split. exact E2.
  - apply (display_roundtrip a); [|exact Hd].
    unfold amount_ok, a. cbn. apply andb_true_iff. split; [apply N.leb_le; exact Hv|apply N.ltb_lt; lia].
Qed.
