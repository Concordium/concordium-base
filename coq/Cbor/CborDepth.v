(** C17 - nesting depth.  The code has NO explicit depth limit ([Value::deserialize] recurses once per
    array / map / tag level); what bounds the recursion is the input: every nesting level costs at least
    one head byte.  Proved here for the model decoder: the depth of a decoded value is at most the
    number of bytes consumed - so the theorems of Props/C17.v hold at every depth (not only <= 64), and the
    recursion depth of the decoder is linear in the input length. *)
From Coq Require Import NArith PeanoNat List Bool.
From CB Require Import Cbor.CborCore Cbor.CborProofs Cbor.CborTotal.
Import ListNotations.
Local Open Scope N_scope.

Lemma progress : forall f bs v r a, dec f bs = Ok v r a -> (length r < length bs)%nat.
Proof. exact dec_shorter. Qed.

(** the depth of a decoded value is at most the number of bytes it occupies *)
Theorem decode_depth_bounded : forall bs v r a, decode_prefix bs = Ok v r a ->
  (depth v + length r <= length bs)%nat.
Proof. intros bs. apply dec_depth. Qed.

(** a chain of [d] one-element arrays around 0: depth d from d+1 bytes - the bound is tight, there is no limit *)
Fixpoint chain (d : nat) : value := match d with O => VPos 0 | S k => VArray false [chain k] end.
Lemma chain_depth : forall d, depth (chain d) = d.
Proof. induction d; cbn; [reflexivity|]. rewrite IHd. f_equal. apply Nat.max_0_r. Qed.
Lemma chain_wf : forall d, value_wfb (chain d) = true.
Proof.
  induction d; [reflexivity|]. unfold value_wfb in *. apply andb_true_iff in IHd. destruct IHd as [A B].
  cbn. rewrite A, B. reflexivity.
Qed.
Lemma chain_length : forall d, length (encode (chain d)) = S d.
Proof.
  induction d; [reflexivity|].
  change (encode (chain (S d))) with (head 4 (len [chain d]) ++ concat (map encode [chain d])).
  cbn [map concat]. rewrite app_nil_r, app_length, IHd. reflexivity.
Qed.

Theorem no_depth_limit : forall d, exists a,
  decode_top (encode (chain d)) = Ok (chain d) [] a /\ depth (chain d) = d /\ length (encode (chain d)) = S d.
Proof.
  intros d. destruct (decode_encode_top (chain d) (chain_wf d)) as [a E]. exists a.
  split; [exact E|]. split; [apply chain_depth|apply chain_length].
Qed.
