(** C17 - the header reader [CborCore.pull] and writer [Header.encode_hdr] (ciborium-ll 0.2.2 dec.rs /
    hdr.rs / enc.rs): exact accept set, exact number of consumed bytes, shortest form written, every
    non-shortest form accepted.  (The round trip for every header is [CborProofs.pull_encode_hdr].) *)
From Coq Require Import NArith List Lia.
From CB Require Import Cbor.CborCore Cbor.CborProofs Cbor.Header.
Import ListNotations.
Local Open Scope N_scope.

Lemma take_be_none : forall k acc r, take_be k acc r = None <-> (length r < k)%nat.
Proof.
  induction k; intros acc r; cbn [take_be].
  - split; [discriminate|lia].
  - destruct r as [|b r']; cbn [length]; [split; [lia|reflexivity]|]. rewrite IHk. lia.
Qed.

(** number of argument bytes *)
Definition arg_width (info : N) : nat := (head_size info - 1)%nat.

(** Exact reject set of the argument reader: reserved additional information 28..30 (and anything above 31),
    or fewer argument bytes than announced *)
Theorem pull_arg_none_iff : forall info r,
  pull_arg info r = None <->
  (28 <= info /\ info <> 31) \/ (24 <= info <= 27 /\ (length r < arg_width info)%nat).
Proof.
  intros. rewrite pull_arg_cases. fold (arg_width info).
  destruct (N.ltb_spec info 24). { split; [discriminate|lia]. }
  destruct (N.leb_spec 24 info); [|lia]. destruct (N.leb_spec info 27); cbn [andb].
  - destruct (take_be (arg_width info) 0 r) as [[n r']|] eqn:T.
    + split; [discriminate|]. intros [|[_ L]]; [lia|]. apply (proj2 (take_be_none _ 0 _)) in L. congruence.
    + apply (proj1 (take_be_none _ _ _)) in T. split; [intros _; right; lia|reflexivity].
  - destruct (N.eqb_spec info 31). { split; [discriminate|lia]. } split; [intros _; left; lia|reflexivity].
Qed.

Lemma head_size_in : forall info, In (head_size info) [1; 2; 3; 5; 9]%nat.
Proof.
  intros. unfold head_size.
  destruct (info <? 24), (info =? 24), (info =? 25), (info =? 26), (info =? 27); cbn; auto 6.
Qed.

(** Exact number of bytes consumed: 1, 2, 3, 5 or 9, determined by the additional information *)
Theorem pull_consumes : forall bs h r, pull bs = Some (h, r) ->
  exists b tl, bs = b :: tl /\ length bs = (head_size (b mod 32) + length r)%nat
  /\ In (head_size (b mod 32)) [1; 2; 3; 5; 9]%nat.
Proof.
  intros bs h r H. destruct (pull_inv bs h r H) as (b & tl & a & -> & PA & _). exists b, tl.
  apply pull_arg_consumes in PA. pose proof (head_size_in (b mod 32)) as HI.
  split; [reflexivity|]. split; [|exact HI]. cbn [length]. rewrite PA.
  destruct HI as [<-|[<-|[<-|[<-|[<-|[]]]]]]; reflexivity.
Qed.

(** The reader accepts EVERY width for every argument (no preferred-serialisation check):
    a head written with additional information 24..27 and any argument that fits is read back as that argument *)
Theorem pull_accepts_any_width : forall m info n rest h, 24 <= info <= 27 -> m < 7 ->
  n < 256 ^ N.of_nat (arg_width info) -> hdr_of m n = Some h ->
  pull (wide_head m info n ++ rest) = Some (h, rest).
Proof.
  intros m info n rest h Hi Hm Hn Hh. apply pull_wide; [exact Hi|exact Hn|exact (classify_def _ _ _ _ Hh)].
Qed.

Lemma encode_hdr_length_simple : forall n, length (encode_hdr (HSimple n)) = if n <? 24 then 1%nat else 2%nat.
Proof. intros. cbn [encode_hdr]. destruct (n <? 24); reflexivity. Qed.

Lemma classify_length : forall m info a h, classify m info a = Some h -> (forall w b, h <> HFloat w b) ->
  (length (encode_hdr h) <= match a with Some n => length (head m n) | None => 1 end)%nat.
Proof.
  intros m info a h C NF. unfold classify in C.
  destruct m as [|[[[p|p|]|[p|p|]|]|[[p|p|]|[p|p|]|]|]]; destruct a as [n|]; try discriminate C;
    try (inversion C; subst; cbn [encode_hdr len_head length]; lia).
  destruct (info <? 25).
  - inversion C; subst. rewrite encode_hdr_length_simple, head_length.
    destruct (n <? 24); [lia|]. destruct (n <? 256), (n <? 65536), (n <? 4294967296); lia.
  - exfalso. destruct (info =? 25); [inversion C; subst; eapply NF; reflexivity|].
    destruct (info =? 26); inversion C; subst; eapply NF; reflexivity.
Qed.

(** The writer emits the shortest form: no accepted head carrying the same (non-float) header is shorter *)
Theorem encode_hdr_shortest : forall bs h r, Forall (fun b => b < 256) bs -> pull bs = Some (h, r) ->
  (forall w b, h <> HFloat w b) -> (length (encode_hdr h) + length r <= length bs)%nat.
Proof.
  intros bs h r HB H NF. destruct (pull_inv bs h r H) as (b & tl & a & -> & PA & C).
  inversion HB as [|? ? _ HB']; subst. cbn [length].
  pose proof (classify_length _ _ _ _ C NF) as CL. pose proof (pull_arg_consumes _ _ _ _ PA) as LR.
  destruct a as [n|]; [|lia]. pose proof (head_shortest _ _ _ _ (b / 32) HB' PA). lia.
Qed.
