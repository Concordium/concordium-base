(** C17 - the universal schema theorem instantiated at the protocol-level-token types. *)
From Coq Require Import List.
From CB Require Import Cbor.CborSchema Cbor.SchemaTyping Cbor.SchemaRoundtrip Cbor.TokenSchemas.

Lemma token_schemas_wf : forallb (fun p => schema_wfb (snd p)) token_schemas = true.
Proof. vm_compute. reflexivity. Qed.

Lemma token_types_roundtrip : forall name s x o, In (name, s) token_schemas -> typedb s x = true ->
  exists bs, encode_typed s x = Some bs /\ decode_typed s o bs = Some x.
Proof.
  intros name s x o Hin Hty. apply typed_roundtrip; [|exact Hty].
  pose proof token_schemas_wf as W. rewrite forallb_forall in W. apply (W (name, s) Hin).
Qed.
