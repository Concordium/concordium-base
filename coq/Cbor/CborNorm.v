(** C17 - deterministic map order: [norm] (what decode . encode yields for a value whose maps are in
    arbitrary order), stability of re-encoding, a witness that the decoder is not canonical. *)
From Coq Require Import NArith List Bool Lia.
From CB Require Import Cbor.CborCore Cbor.CborProofs.
Import ListNotations.
Local Open Scope N_scope.

Lemma lex_leb_total : forall a b, lex_leb a b = false -> lex_leb b a = true.
Proof.
  induction a as [|x a IH]; intros [|y b] H; cbn [lex_leb] in *; try discriminate; try reflexivity.
  destruct (N.ltb_spec x y); [discriminate|]. destruct (N.ltb_spec y x); [reflexivity|].
  destruct (N.ltb_spec y x); [lia|]. destruct (N.ltb_spec x y); [lia|]. apply IH; assumption.
Qed.

Lemma insert_sorted_sorted : forall x l, sortedb l = true -> sortedb (insert_sorted x l) = true.
Proof.
  induction l as [|y r IH]; intros H; [reflexivity|].
  cbn [insert_sorted]. destruct (lex_leb x y) eqn:E.
  - cbn [sortedb] in *. rewrite E, H. reflexivity.
  - apply lex_leb_total in E. cbn [sortedb] in H. destruct r as [|z r'].
    + cbn. rewrite E. reflexivity.
    + apply andb_true_iff in H. destruct H as [Hyz Hr]. specialize (IH Hr).
      cbn [insert_sorted] in *. destruct (lex_leb x z) eqn:Exz.
      * cbn [sortedb] in *. rewrite E. cbn [andb]. exact IH.
      * cbn [sortedb] in *. rewrite Hyz. cbn [andb]. exact IH.
Qed.

Lemma isort_sortedb : forall l, sortedb (isort l) = true.
Proof. induction l; [reflexivity|]. cbn [isort fold_right]. apply insert_sorted_sorted. exact IHl. Qed.

Lemma isort_idem : forall l, isort (isort l) = isort l.
Proof. intros. apply isort_sorted. apply isort_sortedb. Qed.

Lemma map_fst_insert : forall {A} (x : list N * A) l,
  map fst (insert_sortedk x l) = insert_sorted (fst x) (map fst l).
Proof.
  induction l as [|y r IH]; [reflexivity|]. cbn [insert_sortedk insert_sorted map].
  destruct (lex_leb (fst x) (fst y)); cbn [map]; [reflexivity|]. rewrite IH. reflexivity.
Qed.

Lemma map_fst_isortk : forall {A} (l : list (list N * A)), map fst (isortk l) = isort (map fst l).
Proof.
  induction l; [reflexivity|]. cbn [isortk isort fold_right map].
  fold (isortk l). fold (isort (map fst l)). rewrite map_fst_insert, IHl. reflexivity.
Qed.

Lemma In_insert : forall {A} (x y : list N * A) l, In y (insert_sortedk x l) <-> y = x \/ In y l.
Proof.
  intros A x y l. induction l as [|z r IH]; cbn [insert_sortedk].
  - cbn. intuition.
  - destruct (lex_leb (fst x) (fst z)); cbn [In]; [intuition|]. rewrite IH. intuition.
Qed.

Lemma In_isortk : forall {A} (y : list N * A) l, In y (isortk l) <-> In y l.
Proof.
  intros A y l. induction l as [|x l IH]; [reflexivity|]. cbn [isortk fold_right]. fold (isortk l).
  rewrite In_insert, IH. cbn [In]. intuition.
Qed.

Lemma Forall_isortk : forall {A} (P : list N * A -> Prop) l, Forall P l -> Forall P (isortk l).
Proof. intros A P l. rewrite !Forall_forall. intros H x Hx. apply H, In_isortk, Hx. Qed.

Lemma insert_length : forall {A} (x : list N * A) l, length (insert_sortedk x l) = S (length l).
Proof.
  induction l as [|y r IH]; [reflexivity|]. cbn [insert_sortedk].
  destruct (lex_leb (fst x) (fst y)); cbn [length]; [reflexivity|]. rewrite IH. reflexivity.
Qed.

Lemma isortk_length : forall {A} (l : list (list N * A)), length (isortk l) = length l.
Proof. induction l; [reflexivity|]. cbn [isortk fold_right]. fold (isortk l). rewrite insert_length, IHl. reflexivity. Qed.

Lemma isortk_sorted : forall {A} (l : list (list N * A)), sortedb (map fst l) = true -> isortk l = l.
Proof.
  induction l as [|x r IH]; intros H; [reflexivity|].
  cbn [isortk fold_right]. fold (isortk r). cbn [map sortedb] in H. destruct r as [|y r'].
  - reflexivity.
  - cbn [map] in H. apply andb_true_iff in H. destruct H as [Hxy Hr].
    rewrite (IH Hr). cbn [insert_sortedk]. rewrite Hxy. reflexivity.
Qed.

(** the keyed list built by [norm] on a map *)
Definition keyed (l : list (value * value)) : list (list N * (value * value)) :=
  map (fun kv => let '(k, x) := kv in (encode k ++ encode x, (norm k, norm x))) l.

Lemma norm_map : forall i l, norm (VMap i l) = VMap false (map snd (isortk (keyed l))).
Proof. reflexivity. Qed.
Lemma norm_array : forall i l, norm (VArray i l) = VArray false (map norm l).
Proof. reflexivity. Qed.

Lemma map_fst_keyed : forall l, map fst (keyed l) = map enc_entry l.
Proof. induction l as [|[k x] l IH]; [reflexivity|]. unfold keyed in *. cbn [map fst enc_entry]. f_equal. exact IH. Qed.

Lemma norm_keys : forall l,
  Forall (fun kv : value * value => encode (norm (fst kv)) = encode (fst kv) /\ encode (norm (snd kv)) = encode (snd kv)) l ->
  map enc_entry (map snd (isortk (keyed l))) = isort (map enc_entry l).
Proof.
  intros l H. rewrite <- (map_fst_keyed l), <- map_fst_isortk, map_map. apply map_ext_Forall, Forall_isortk.
  induction H as [|[k x] l [Hk Hx] Hl IH]; constructor; [|exact IH].
  cbn [snd fst enc_entry] in *. rewrite Hk, Hx. reflexivity.
Qed.

Lemma keyed_length : forall l, length (map snd (isortk (keyed l))) = length l.
Proof. intros. unfold keyed. rewrite map_length, isortk_length, map_length. reflexivity. Qed.

Theorem encode_norm : forall v, encode (norm v) = encode v.
Proof.
  induction v using value_ind'; try reflexivity.
  - rewrite norm_array, !encode_array. unfold len. rewrite map_length. f_equal. f_equal.
    rewrite map_map. apply map_ext_Forall. exact H.
  - rewrite norm_map, !encode_map, (norm_keys l H), isort_idem. unfold len. rewrite keyed_length. reflexivity.
  - cbn [norm]. rewrite !encode_tag, IHv. reflexivity.
Qed.

Lemma forallb_Forall : forall {A} (f : A -> bool) l, forallb f l = true <-> Forall (fun x => f x = true) l.
Proof.
  intros. rewrite forallb_forall, Forall_forall. tauto.
Qed.

(** [norm] leaves every map sorted, whatever it is given *)
Theorem norm_sortedb : forall v, value_sortedb (norm v) = true.
Proof.
  induction v using value_ind'; try reflexivity.
  - rewrite norm_array. cbn [value_sortedb]. rewrite forallb_Forall, Forall_map. exact H.
  - rewrite norm_map, value_sortedb_map. apply andb_true_iff. split.
    + rewrite norm_keys by (apply Forall_forall; intros; split; apply encode_norm). apply isort_sortedb.
    + rewrite forallb_Forall, Forall_map. apply Forall_isortk. unfold keyed. rewrite Forall_map.
      eapply Forall_impl; [|exact H]. intros [k x] [Hk Hx]. cbn [fst snd] in *. rewrite Hk, Hx. reflexivity.
  - exact IHv.
Qed.

Theorem norm_okb : forall v, value_okb v = true -> value_okb (norm v) = true.
Proof.
  induction v using value_ind'; intros Hok; try exact Hok.
  - rewrite norm_array. apply value_okb_array in Hok. destruct Hok as (_ & Hl & Hall).
    apply value_okb_array. split; [reflexivity|]. unfold len in *. rewrite map_length. split; [exact Hl|].
    rewrite forallb_Forall in *. rewrite Forall_map. rewrite Forall_forall in *. intros x Hx. apply (H x Hx), (Hall x Hx).
  - rewrite norm_map. apply value_okb_map in Hok. destruct Hok as (_ & Hl & Hall).
    apply value_okb_map. split; [reflexivity|]. unfold len in *. rewrite keyed_length. split; [exact Hl|].
    rewrite forallb_Forall in *. rewrite Forall_map. apply Forall_isortk. unfold keyed. rewrite Forall_map. rewrite Forall_forall in *. intros [k x] Hx.
    specialize (H _ Hx). specialize (Hall _ Hx). cbn [fst snd] in *. apply andb_true_iff in Hall.
    destruct H as [Hk Hv], Hall as [Ok1 Ok2]. rewrite (Hk Ok1), (Hv Ok2). reflexivity.
  - cbn [norm]. apply value_okb_tag in Hok. destruct Hok as [Ht Hok]. apply value_okb_tag. split; [exact Ht|exact (IHv Hok)].
Qed.

Theorem decode_encode_norm : forall v, value_okb v = true -> exists a, decode_top (encode v) = Ok (norm v) [] a.
Proof.
  intros v Hok. rewrite <- encode_norm.
  apply decode_encode_top. unfold value_wfb. rewrite (norm_okb v Hok), norm_sortedb. reflexivity.
Qed.

Theorem norm_sorted_id : forall v, value_okb v = true -> value_sortedb v = true -> norm v = v.
Proof.
  induction v using value_ind'; intros Hok Hso; try reflexivity.
  - rewrite norm_array. apply value_okb_array in Hok. destruct Hok as (-> & _ & Hall).
    cbn [value_sortedb] in Hso. f_equal.
    rewrite forallb_Forall in Hall, Hso. rewrite <- (map_id l) at 2. apply map_ext_Forall.
    rewrite Forall_forall in *. intros x Hx. apply (H x Hx); auto.
  - rewrite norm_map. apply value_okb_map in Hok. destruct Hok as (-> & _ & Hall).
    rewrite value_sortedb_map in Hso. apply andb_true_iff in Hso. destruct Hso as [Hsorted Hso]. f_equal.
    rewrite isortk_sorted by (rewrite map_fst_keyed; exact Hsorted).
    unfold keyed. rewrite map_map. rewrite <- (map_id l) at 2. apply map_ext_Forall.
    rewrite forallb_Forall in Hall, Hso. rewrite Forall_forall in *. intros [k x] Hx.
    specialize (H _ Hx). specialize (Hall _ Hx). specialize (Hso _ Hx). cbn [fst snd] in *.
    apply andb_true_iff in Hall, Hso. destruct H as [Hk Hv], Hall, Hso. rewrite Hk, Hv by assumption. reflexivity.
  - apply value_okb_tag in Hok. destruct Hok as [_ Hok]. cbn [norm value_sortedb] in *. rewrite (IHv Hok Hso). reflexivity.
Qed.

(** the decoder accepts encodings that the encoder never writes *)
Lemma noncanonical_witness :
  exists bs v, bs <> encode v /\ decode_top bs = Ok v [] 0 /\ decode_top (encode v) = Ok v [] 0.
Proof. exists [24; 5], (VPos 5). split; [discriminate|]. split; reflexivity. Qed.
