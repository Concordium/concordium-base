(** C17 - proofs about the CBOR core model (CborCore.v): the header reader [pull] against the
    writers [head] and [Header.encode_hdr], round trip for every well-formed value at any nesting
    depth, shortest heads, trailing data. *)
From Coq Require Import NArith PeanoNat List Bool Lia.
From CB Require Import Cbor.CborCore Cbor.Header.
Import ListNotations.
Local Open Scope N_scope.

(* these settings reach every file that imports this one *)
Arguments N.sub : simpl never.
Arguments N.mul : simpl never.

(** [Forall Q l] from a proof of [Q] for every element; a transparent fixpoint, so that a nested
    induction principle may pass itself as [f]. *)
Definition Forall_all {A} (Q : A -> Prop) (f : forall a, Q a) : forall l, Forall Q l :=
  fix go (l : list A) : Forall Q l :=
    match l with [] => Forall_nil _ | x :: r => Forall_cons x (f x) (go r) end.

Section ValueInd.
  Variable P : value -> Prop.
  Hypothesis HPos : forall n, P (VPos n).
  Hypothesis HNeg : forall n, P (VNeg n).
  Hypothesis HBytes : forall b, P (VBytes b).
  Hypothesis HText : forall b, P (VText b).
  Hypothesis HArray : forall i l, Forall P l -> P (VArray i l).
  Hypothesis HMap : forall i l, Forall (fun kv => P (fst kv) /\ P (snd kv)) l -> P (VMap i l).
  Hypothesis HTag : forall t v, P v -> P (VTag t v).
  Hypothesis HBool : forall b, P (VBool b).
  Hypothesis HNull : P VNull.
  Hypothesis HSimple : forall n, P (VSimple n).
  Hypothesis HFloat : forall w b, P (VFloat w b).

  Fixpoint value_ind' (v : value) : P v :=
    match v with
    | VPos n => HPos n
    | VNeg n => HNeg n
    | VBytes b => HBytes b
    | VText b => HText b
    | VArray i l => HArray i l (Forall_all P value_ind' l)
    | VMap i l => HMap i l (Forall_all _ (fun kv => conj (value_ind' (fst kv)) (value_ind' (snd kv))) l)
    | VTag t x => HTag t x (value_ind' x)
    | VBool b => HBool b
    | VNull => HNull
    | VSimple n => HSimple n
    | VFloat w b => HFloat w b
    end.
End ValueInd.

Lemma be_bytes_length : forall k n, length (be_bytes k n) = k.
Proof. induction k; intros; cbn [be_bytes]; [reflexivity|]. rewrite app_length, IHk. cbn. lia. Qed.

Lemma take_be_app : forall l acc r, take_be (length l) acc (l ++ r) = Some (be_val acc l, r).
Proof. induction l; intros; cbn [length take_be be_val app]; [reflexivity|]. apply IHl. Qed.

Lemma be_val_snoc : forall l acc x, be_val acc (l ++ [x]) = be_val acc l * 256 + x.
Proof. induction l; intros; cbn [be_val app]; [reflexivity|]. apply IHl. Qed.

Lemma be_val_be_bytes : forall k n acc, n < 256 ^ N.of_nat k -> be_val acc (be_bytes k n) = acc * 256 ^ N.of_nat k + n.
Proof.
  induction k; intros n acc H.
  - cbn [be_bytes be_val]. change (N.of_nat 0) with 0 in *. rewrite N.pow_0_r in *. lia.
  - cbn [be_bytes]. rewrite be_val_snoc.
    assert (E : N.of_nat (S k) = N.succ (N.of_nat k)) by lia. rewrite E in *. rewrite N.pow_succ_r' in *.
    rewrite IHk.
    + pose proof (N.div_mod n 256 ltac:(lia)). lia.
    + apply N.div_lt_upper_bound; lia.
Qed.

Lemma take_be_be_bytes : forall k n r, n < 256 ^ N.of_nat k -> take_be k 0 (be_bytes k n ++ r) = Some (n, r).
Proof.
  intros. pose proof (take_be_app (be_bytes k n) 0 r) as T. rewrite be_bytes_length in T.
  rewrite T, be_val_be_bytes by assumption. rewrite N.mul_0_l, N.add_0_l. reflexivity.
Qed.

Lemma take_be_consumes : forall k acc bs n r, take_be k acc bs = Some (n, r) -> length bs = (k + length r)%nat.
Proof.
  induction k; intros acc bs n r H; cbn [take_be] in H.
  - inversion H; subst. reflexivity.
  - destruct bs as [|b bs']; [discriminate|]. apply IHk in H. cbn [length]. lia.
Qed.

Lemma take_be_bound : forall k acc bs n r, take_be k acc bs = Some (n, r) -> Forall (fun b => b < 256) bs ->
  n < (acc + 1) * 256 ^ N.of_nat k.
Proof.
  induction k; intros acc bs n r H HB; cbn [take_be] in H.
  - inversion H; subst. change (N.of_nat 0) with 0. rewrite N.pow_0_r. lia.
  - destruct bs as [|b bs']; [discriminate|]. inversion HB; subst.
    apply IHk in H; [|assumption].
    assert (E : N.of_nat (S k) = N.succ (N.of_nat k)) by lia. rewrite E, N.pow_succ_r'. nia.
Qed.

Lemma byte_split : forall m i, i < 32 -> (m * 32 + i) / 32 = m /\ (m * 32 + i) mod 32 = i.
Proof.
  intros. split.
  - symmetry. apply (N.div_unique _ 32 m i); lia.
  - symmetry. apply (N.mod_unique _ 32 m i); lia.
Qed.

Lemma pull_byte : forall m info tl a r h, info < 32 ->
  pull_arg info tl = Some (a, r) -> classify m info a = Some h -> pull ((m * 32 + info) :: tl) = Some (h, r).
Proof.
  intros m info tl a r h Hi PA C. unfold pull. destruct (byte_split m info Hi) as [-> ->]. rewrite PA, C. reflexivity.
Qed.

Lemma pull_inv : forall bs h r, pull bs = Some (h, r) ->
  exists b tl a, bs = b :: tl /\ pull_arg (b mod 32) tl = Some (a, r) /\ classify (b / 32) (b mod 32) a = Some h.
Proof.
  intros [|b tl] h r H; [discriminate|]. unfold pull in H.
  destruct (pull_arg (b mod 32) tl) as [[a r']|] eqn:PA; [|discriminate].
  destruct (classify (b / 32) (b mod 32) a) eqn:C; [|discriminate]. inversion H; subst. exists b, tl, a. auto.
Qed.

Lemma pull_arg_cases : forall info r,
  pull_arg info r =
  if info <? 24 then Some (Some info, r)
  else if (24 <=? info) && (info <=? 27) then
    match take_be (head_size info - 1) 0 r with Some (n, r') => Some (Some n, r') | None => None end
  else if info =? 31 then Some (None, r) else None.
Proof.
  intros. unfold pull_arg, head_size.
  destruct (N.ltb_spec info 24); [reflexivity|].
  destruct (N.eqb_spec info 24) as [->|]; [reflexivity|].
  destruct (N.eqb_spec info 25) as [->|]; [reflexivity|].
  destruct (N.eqb_spec info 26) as [->|]; [reflexivity|].
  destruct (N.eqb_spec info 27) as [->|]; [reflexivity|].
  destruct (N.leb_spec 24 info); [|lia]. destruct (N.leb_spec info 27); [lia|]. reflexivity.
Qed.

Lemma pull_arg_small : forall info r, info < 24 -> pull_arg info r = Some (Some info, r).
Proof. intros info r H. unfold pull_arg. rewrite (proj2 (N.ltb_lt _ _) H). reflexivity. Qed.

Lemma pull_arg_wide : forall info n r, 24 <= info <= 27 -> n < 256 ^ N.of_nat (head_size info - 1) ->
  pull_arg info (be_bytes (head_size info - 1) n ++ r) = Some (Some n, r).
Proof.
  intros info n r Hi Hn. rewrite pull_arg_cases.
  destruct (N.ltb_spec info 24); [lia|]. destruct (N.leb_spec 24 info); [|lia]. destruct (N.leb_spec info 27); [|lia].
  cbn [andb]. rewrite take_be_be_bytes by exact Hn. reflexivity.
Qed.

Lemma pull_arg_consumes : forall info r a r', pull_arg info r = Some (a, r') ->
  length r = (head_size info - 1 + length r')%nat.
Proof.
  intros info r a r' H. rewrite pull_arg_cases in H. destruct (info <? 24) eqn:E.
  { inversion H; subst. unfold head_size. rewrite E. reflexivity. }
  destruct ((24 <=? info) && (info <=? 27)).
  { destruct (take_be (head_size info - 1) 0 r) as [[n r'']|] eqn:T; [|discriminate]. inversion H; subst.
    exact (take_be_consumes _ _ _ _ _ T). }
  destruct (N.eqb_spec info 31) as [->|]; [|discriminate]. inversion H; subst. reflexivity.
Qed.

(** what [pull] returns for a definite head of major type [m] (0..6) with argument [n] *)
Definition hdr_of (m n : N) : option hdr :=
  match m with
  | 0 => Some (HPos n) | 1 => Some (HNeg n) | 2 => Some (HBytes (Some n)) | 3 => Some (HText (Some n))
  | 4 => Some (HArray (Some n)) | 5 => Some (HMap (Some n)) | 6 => Some (HTag n) | _ => None
  end.

Lemma classify_def : forall m n info h, hdr_of m n = Some h -> classify m info (Some n) = Some h.
Proof.
  intros m n info h H. unfold hdr_of in H.
  destruct m as [|[[[p|p|]|[p|p|]|]|[[p|p|]|[p|p|]|]|]]; cbn in H; try discriminate H; exact H.
Qed.

Lemma pull_wide : forall m info n r h, 24 <= info <= 27 -> n < 256 ^ N.of_nat (head_size info - 1) ->
  classify m info (Some n) = Some h -> pull (wide_head m info n ++ r) = Some (h, r).
Proof.
  intros m info n r h Hi Hn C.
  apply (pull_byte m info _ (Some n)); [lia|apply pull_arg_wide; assumption|exact C].
Qed.

Lemma pull_head : forall m n r h, n < W64 -> hdr_of m n = Some h -> pull (head m n ++ r) = Some (h, r).
Proof.
  intros m n r h Hn Hh. pose proof (fun info => classify_def m n info h Hh) as C. unfold head.
  destruct (N.ltb_spec n 24).
  { apply (pull_byte m n _ (Some n)); [lia|apply pull_arg_small; assumption|apply C]. }
  destruct (N.ltb_spec n 256).
  { apply (pull_byte m 24 _ (Some n)); [lia|reflexivity|apply C]. }
  destruct (N.ltb_spec n 65536); [apply (pull_wide m 25); [lia|assumption|apply C]|].
  destruct (N.ltb_spec n 4294967296); [apply (pull_wide m 26); [lia|assumption|apply C]|].
  apply (pull_wide m 27); [lia|exact Hn|apply C].
Qed.

Theorem pull_encode_hdr : forall h rest, hdr_okb h = true -> pull (encode_hdr h ++ rest) = Some (h, rest).
Proof.
  intros h rest Hok.
  assert (LH : forall m o h', opt_ok o = true ->
             (forall n, hdr_of m n = Some (h' (Some n))) -> classify m 31 None = Some (h' None) ->
             pull (len_head m o ++ rest) = Some (h' o, rest)).
  { intros m o h' Ho Hd Hc. destruct o as [n|]; cbn [len_head].
    - apply pull_head; [apply N.ltb_lt; exact Ho|apply Hd].
    - apply (pull_byte m 31 rest None); [lia|reflexivity|exact Hc]. }
  destruct h as [n|n|o|o|o|o|n|n|w bits|]; cbn [hdr_okb encode_hdr] in *.
  - apply pull_head; [apply N.ltb_lt; exact Hok|reflexivity].
  - apply pull_head; [apply N.ltb_lt; exact Hok|reflexivity].
  - apply (LH 2 o HBytes); [assumption|reflexivity|reflexivity].
  - apply (LH 3 o HText); [assumption|reflexivity|reflexivity].
  - apply (LH 4 o HArray); [assumption|reflexivity|reflexivity].
  - apply (LH 5 o HMap); [assumption|reflexivity|reflexivity].
  - apply pull_head; [apply N.ltb_lt; exact Hok|reflexivity].
  - destruct (N.ltb_spec n 24) as [Hn|_].
    + apply (pull_byte 7 n rest (Some n)); [lia|apply pull_arg_small; exact Hn|].
      unfold classify. rewrite (proj2 (N.ltb_lt n 25)) by lia. reflexivity.
    + apply (pull_byte 7 24 (n :: rest) (Some n)); [lia|reflexivity|reflexivity].
  - apply andb_true_iff in Hok. destruct Hok as [Hw Hb]. apply N.ltb_lt in Hb.
    destruct (N.eqb_spec w 2) as [->|]; [apply (pull_wide 7 25); [lia|exact Hb|reflexivity]|].
    destruct (N.eqb_spec w 4) as [->|]; [apply (pull_wide 7 26); [lia|exact Hb|reflexivity]|].
    destruct (N.eqb_spec w 8) as [->|]; [|discriminate]. apply (pull_wide 7 27); [lia|exact Hb|reflexivity].
  - reflexivity.
Qed.

Lemma head_length : forall m n, length (head m n) =
  if n <? 24 then 1%nat else if n <? 256 then 2%nat else if n <? 65536 then 3%nat
  else if n <? 4294967296 then 5%nat else 9%nat.
Proof.
  intros. unfold head. destruct (n <? 24), (n <? 256), (n <? 65536), (n <? 4294967296);
    cbn [length]; rewrite ?be_bytes_length; reflexivity.
Qed.

Lemma head_nonempty : forall m n, (1 <= length (head m n))%nat.
Proof.
  intros. rewrite head_length. destruct (n <? 24), (n <? 256), (n <? 65536), (n <? 4294967296); lia.
Qed.

Lemma len_app : forall {A} (a b : list A), len (a ++ b) = len a + len b.
Proof. intros. unfold len. rewrite app_length. lia. Qed.

Lemma take_app : forall b r, take (len b) (b ++ r) = Some (b, r).
Proof.
  intros. unfold take. rewrite len_app.
  destruct (N.leb_spec (len b) (len b + len r)); [|lia].
  unfold len. rewrite Nat2N.id. rewrite firstn_app, Nat.sub_diag, firstn_all, skipn_app, Nat.sub_diag, skipn_all.
  cbn. rewrite app_nil_r. reflexivity.
Qed.

Lemma isort_sorted : forall l, sortedb l = true -> isort l = l.
Proof.
  induction l as [|x r IH]; intros H; [reflexivity|].
  cbn [isort fold_right]. fold (isort r).
  cbn [sortedb] in H. destruct r as [|y r'].
  - reflexivity.
  - apply andb_true_iff in H. destruct H as [Hxy Hr].
    rewrite (IH Hr). cbn [insert_sorted]. rewrite Hxy. reflexivity.
Qed.

Definition enc_entry (kv : value * value) : list N := let '(k, x) := kv in encode k ++ encode x.

Lemma encode_array : forall i l, encode (VArray i l) = head 4 (len l) ++ concat (map encode l).
Proof. reflexivity. Qed.
Lemma encode_map : forall i l, encode (VMap i l) = head 5 (len l) ++ concat (isort (map enc_entry l)).
Proof. reflexivity. Qed.
Lemma encode_tag : forall t v, encode (VTag t v) = head 6 t ++ encode v.
Proof. reflexivity. Qed.
Lemma value_sortedb_map : forall i l, value_sortedb (VMap i l) =
  sortedb (map enc_entry l) && forallb (fun kv => let '(k, x) := kv in value_sortedb k && value_sortedb x) l.
Proof. reflexivity. Qed.

Lemma value_okb_array : forall i l, value_okb (VArray i l) = true <->
  i = false /\ len l < W64 /\ forallb value_okb l = true.
Proof.
  intros. cbn [value_okb]. rewrite !andb_true_iff, negb_true_iff, N.ltb_lt. tauto.
Qed.

Lemma value_okb_map : forall i l, value_okb (VMap i l) = true <->
  i = false /\ len l < W64 /\ forallb (fun kv => let '(k, x) := kv in value_okb k && value_okb x) l = true.
Proof.
  intros. cbn [value_okb]. rewrite !andb_true_iff, negb_true_iff, N.ltb_lt. tauto.
Qed.

Lemma value_okb_tag : forall t v, value_okb (VTag t v) = true <-> t < W64 /\ value_okb v = true.
Proof. intros. cbn [value_okb]. rewrite andb_true_iff, N.ltb_lt. reflexivity. Qed.

Lemma dec_S : forall f bs, dec (S f) bs =
  match pull bs with
  | None => Err 0
  | Some (h, r) =>
    match h with
    | HPos n => Ok (VPos n) r 0
    | HNeg n => Ok (VNeg n) r 0
    | HBytes (Some n) => radd (N.min n MAX_PRE) (rmap VBytes (read_seg false n r))
    | HBytes None => rmap VBytes (segs f false 1 r)
    | HText (Some n) => radd (N.min n MAX_PRE) (rmap VText (read_seg true n r))
    | HText None => rmap VText (segs f true 1 r)
    | HArray (Some n) => radd (VALUE_SIZE * N.min n cap_elems) (rmap (VArray false) (dec_elems f n r))
    | HArray None => rmap (VArray true) (dec_elems_indef f r)
    | HMap (Some n) => radd (2 * VALUE_SIZE * N.min n cap_elems) (rmap (VMap false) (dec_pairs f n r))
    | HMap None => rmap (VMap true) (dec_pairs_indef f r)
    | HTag t => rmap (VTag t) (dec f r)
    | HSimple n => Ok (simple_value n) r 0
    | HFloat w b => Ok (VFloat w b) r 0
    | HBreak => Err 0
    end
  end.
Proof. reflexivity. Qed.

(** the step of the four list loops: one more element (one more key and value), then the rest [t] *)
Definition cons_res (extra : N) (h : res value) (t : list N -> res (list value)) : res (list value) :=
  match h with
  | Ok v r a =>
    match t r with
    | Ok l r' a' => Ok (v :: l) r' (a + extra + a')
    | Err a' => Err (a + extra + a')
    | OutOfFuel => OutOfFuel
    end
  | Err a => Err a
  | OutOfFuel => OutOfFuel
  end.

Definition pair_res (h : res value) (g : list N -> res value) (t : list N -> res (list (value * value)))
  : res (list (value * value)) :=
  match h with
  | Ok k r a =>
    match g r with
    | Ok x r1 a1 =>
      match t r1 with
      | Ok l r' a' => Ok ((k, x) :: l) r' (a + a1 + 2 * VALUE_SIZE + a')
      | Err a' => Err (a + a1 + 2 * VALUE_SIZE + a')
      | OutOfFuel => OutOfFuel
      end
    | Err a1 => Err (a + a1)
    | OutOfFuel => OutOfFuel
    end
  | Err a => Err a
  | OutOfFuel => OutOfFuel
  end.

Lemma dec_elems_S : forall f n bs, dec_elems (S f) n bs =
  if n =? 0 then Ok [] bs 0 else cons_res VALUE_SIZE (dec f bs) (dec_elems f (n - 1)).
Proof. reflexivity. Qed.

Lemma dec_elems_0 : forall f bs, dec_elems f 0 bs = Ok [] bs 0.
Proof. destruct f; reflexivity. Qed.

Lemma dec_pairs_S : forall f n bs, dec_pairs (S f) n bs =
  if n =? 0 then Ok [] bs 0 else pair_res (dec f bs) (dec f) (dec_pairs f (n - 1)).
Proof. reflexivity. Qed.

Lemma dec_pairs_0 : forall f bs, dec_pairs f 0 bs = Ok [] bs 0.
Proof. destruct f; reflexivity. Qed.

Lemma dec_elems_indef_S : forall f bs, dec_elems_indef (S f) bs =
  match pull bs with
  | Some (HBreak, r) => Ok [] r 0
  | _ => cons_res VALUE_SIZE (dec f bs) (dec_elems_indef f)
  end.
Proof. reflexivity. Qed.

Lemma dec_pairs_indef_S : forall f bs, dec_pairs_indef (S f) bs =
  match pull bs with
  | Some (HBreak, r) => Ok [] r 0
  | _ => pair_res (dec f bs) (dec f) (dec_pairs_indef f)
  end.
Proof. reflexivity. Qed.

Lemma encode_nonempty : forall v, (1 <= length (encode v))%nat.
Proof.
  destruct v; try rewrite encode_array; try rewrite encode_map; try rewrite encode_tag;
    cbn [encode]; try rewrite app_length;
    try match goal with |- context [head ?m ?n] => pose proof (head_nonempty m n); lia end.
  - cbn; lia.
  - cbn; lia.
  - unfold float_head. cbn [length]. lia.
Qed.

Definition RT (v : value) : Prop :=
  value_okb v = true -> value_sortedb v = true ->
  forall f r, (2 * length (encode v) < f)%nat -> exists a, dec f (encode v ++ r) = Ok v r a.

Lemma len_cons_ne0 : forall {A} (x : A) l, (len (x :: l) =? 0) = false.
Proof. intros. unfold len. cbn [length]. destruct (N.eqb_spec (N.of_nat (S (length l))) 0); [lia|reflexivity]. Qed.
Lemma len_cons_pred : forall {A} (x : A) l, len (x :: l) - 1 = len l.
Proof. intros. unfold len. cbn [length]. lia. Qed.

Lemma rt_elems : forall l, Forall RT l -> forallb value_okb l = true -> forallb value_sortedb l = true ->
  forall f r, (2 * length (concat (map encode l)) + 1 < f)%nat ->
  exists a, dec_elems f (len l) (concat (map encode l) ++ r) = Ok l r a.
Proof.
  induction l as [|x l IH]; intros HF Hok Hso f r Hf.
  - exists 0. cbn [map concat app]. apply dec_elems_0.
  - inversion HF as [|? ? Hx Hl]; subst.
    cbn [forallb] in Hok, Hso. apply andb_true_iff in Hok, Hso. destruct Hok as [Hokx Hokl], Hso as [Hsox Hsol].
    cbn [map concat] in *. rewrite app_length in Hf. pose proof (encode_nonempty x) as Hne.
    destruct f as [|f]; [lia|].
    rewrite dec_elems_S, len_cons_ne0, len_cons_pred, <- app_assoc.
    destruct (Hx Hokx Hsox f (concat (map encode l) ++ r) ltac:(lia)) as [a Ea]. rewrite Ea. cbn [cons_res].
    destruct (IH Hl Hokl Hsol f r ltac:(lia)) as [a' Ea']. rewrite Ea'. eexists; reflexivity.
Qed.

Lemma rt_pairs : forall l, Forall (fun kv => RT (fst kv) /\ RT (snd kv)) l ->
  forallb (fun kv => let '(k, x) := kv in value_okb k && value_okb x) l = true ->
  forallb (fun kv => let '(k, x) := kv in value_sortedb k && value_sortedb x) l = true ->
  forall f r, (2 * length (concat (map enc_entry l)) + 1 < f)%nat ->
  exists a, dec_pairs f (len l) (concat (map enc_entry l) ++ r) = Ok l r a.
Proof.
  induction l as [|[k x] l IH]; intros HF Hok Hso f r Hf.
  - exists 0. cbn [map concat app]. apply dec_pairs_0.
  - inversion HF as [|? ? [Hk Hx] Hl]; subst. cbn [fst snd] in Hk, Hx.
    cbn [forallb] in Hok, Hso. apply andb_true_iff in Hok, Hso. destruct Hok as [Hokx Hokl], Hso as [Hsox Hsol].
    apply andb_true_iff in Hokx, Hsox. destruct Hokx as [Hok1 Hok2], Hsox as [Hso1 Hso2].
    cbn [map concat enc_entry] in *. rewrite !app_length in Hf.
    pose proof (encode_nonempty k) as Hne1. pose proof (encode_nonempty x) as Hne2.
    destruct f as [|f]; [lia|].
    rewrite dec_pairs_S, len_cons_ne0, len_cons_pred, <- !app_assoc.
    destruct (Hk Hok1 Hso1 f (encode x ++ concat (map enc_entry l) ++ r) ltac:(lia)) as [a Ea]. rewrite Ea. cbn [pair_res].
    destruct (Hx Hok2 Hso2 f (concat (map enc_entry l) ++ r) ltac:(lia)) as [a1 Ea1]. rewrite Ea1.
    destruct (IH Hl Hokl Hsol f r ltac:(lia)) as [a' Ea']. rewrite Ea'. eexists; reflexivity.
Qed.

Lemma head_simple : forall n, (n <? 256) = true -> head 7 n = encode_hdr (HSimple n).
Proof. intros n H. unfold head. cbn [encode_hdr]. rewrite H. destruct (n <? 24); reflexivity. Qed.

Lemma simple_value_other : forall n, in_range 20 22 n = false -> simple_value n = VSimple n.
Proof.
  intros n H. unfold in_range in H. unfold simple_value.
  destruct (N.eqb_spec n 20); [subst; discriminate|]. destruct (N.eqb_spec n 21); [subst; discriminate|].
  destruct (N.eqb_spec n 22); [subst; discriminate|]. reflexivity.
Qed.

Theorem roundtrip_all : forall v, RT v.
Proof.
  induction v using value_ind'; unfold RT; intros Hok Hso f r Hf; (destruct f as [|f]; [lia|]); rewrite dec_S.
  - change (encode (VPos n)) with (encode_hdr (HPos n)). rewrite pull_encode_hdr by exact Hok.
    eexists; reflexivity.
  - change (encode (VNeg n)) with (encode_hdr (HNeg n)). rewrite pull_encode_hdr by exact Hok. eexists; reflexivity.
  - cbn [value_okb] in Hok. apply andb_true_iff in Hok. destruct Hok as [_ Hl]. apply N.ltb_lt in Hl.
    cbn [encode]. rewrite <- app_assoc. rewrite (pull_head 2 (len b) (b ++ r) _ Hl eq_refl).
    unfold read_seg. rewrite take_app. cbn [andb rmap radd]. eexists; reflexivity.
  - cbn [value_okb] in Hok. apply andb_true_iff in Hok. destruct Hok as [Hok Hl]. apply N.ltb_lt in Hl.
    apply andb_true_iff in Hok. destruct Hok as [_ Hu].
    cbn [encode]. rewrite <- app_assoc. rewrite (pull_head 3 (len b) (b ++ r) _ Hl eq_refl).
    unfold read_seg. rewrite take_app, Hu. cbn [andb negb rmap radd]. eexists; reflexivity.
  - apply value_okb_array in Hok. destruct Hok as (-> & Hl & Hall). cbn [value_sortedb] in Hso.
    rewrite encode_array in *. rewrite <- app_assoc. rewrite (pull_head 4 (len l) _ _ Hl eq_refl).
    rewrite app_length in Hf. pose proof (head_nonempty 4 (len l)).
    destruct (rt_elems l H Hall Hso f r ltac:(lia)) as [a Ea]. rewrite Ea. cbn [rmap radd]. eexists; reflexivity.
  - apply value_okb_map in Hok. destruct Hok as (-> & Hl & Hall).
    rewrite value_sortedb_map in Hso. apply andb_true_iff in Hso. destruct Hso as [Hsorted Hso].
    rewrite encode_map in *. rewrite (isort_sorted _ Hsorted) in *.
    rewrite <- app_assoc. rewrite (pull_head 5 (len l) _ _ Hl eq_refl).
    rewrite app_length in Hf. pose proof (head_nonempty 5 (len l)).
    destruct (rt_pairs l H Hall Hso f r ltac:(lia)) as [a Ea]. rewrite Ea. cbn [rmap radd]. eexists; reflexivity.
  - apply value_okb_tag in Hok. destruct Hok as [Ht Hok]. cbn [value_sortedb] in Hso. rewrite encode_tag in *. rewrite <- app_assoc.
    rewrite (pull_head 6 t _ _ Ht eq_refl). rewrite app_length in Hf. pose proof (head_nonempty 6 t).
    destruct (IHv Hok Hso f r ltac:(lia)) as [a Ea]. rewrite Ea. cbn [rmap]. eexists; reflexivity.
  - destruct b.
    + change (encode (VBool true)) with (encode_hdr (HSimple 21)). rewrite pull_encode_hdr by reflexivity.
      eexists; reflexivity.
    + change (encode (VBool false)) with (encode_hdr (HSimple 20)). rewrite pull_encode_hdr by reflexivity.
      eexists; reflexivity.
  - change (encode VNull) with (encode_hdr (HSimple 22)). rewrite pull_encode_hdr by reflexivity.
    eexists; reflexivity.
  - cbn [value_okb] in Hok. apply andb_true_iff in Hok. destruct Hok as [Hn Hr].
    apply negb_true_iff in Hr. cbn [encode]. rewrite (head_simple n Hn), pull_encode_hdr by exact Hn.
    rewrite simple_value_other by exact Hr. eexists; reflexivity.
  - change (encode (VFloat w b)) with (encode_hdr (HFloat w b)). rewrite pull_encode_hdr by exact Hok.
    eexists; reflexivity.
Qed.

Lemma wfb_split : forall v, value_wfb v = true -> value_okb v = true /\ value_sortedb v = true.
Proof. intros v H. unfold value_wfb in H. apply andb_true_iff in H. exact H. Qed.

Theorem decode_encode_prefix : forall v rest, value_wfb v = true ->
  exists a, decode_prefix (encode v ++ rest) = Ok v rest a.
Proof.
  intros v rest H. destruct (wfb_split v H) as [Hok Hso]. unfold decode_prefix, fuel_for.
  apply (roundtrip_all v Hok Hso). rewrite app_length. lia.
Qed.

Theorem decode_encode_top : forall v, value_wfb v = true -> exists a, decode_top (encode v) = Ok v [] a.
Proof.
  intros v H. destruct (decode_encode_prefix v [] H) as [a E]. rewrite app_nil_r in E.
  exists a. unfold decode_top. rewrite E. reflexivity.
Qed.

Theorem decode_trailing_rejected : forall v b rest, value_wfb v = true ->
  exists a, decode_top (encode v ++ b :: rest) = Err a.
Proof.
  intros v b rest H. destruct (decode_encode_prefix v (b :: rest) H) as [a E].
  exists a. unfold decode_top. rewrite E. reflexivity.
Qed.

(** [cbor_decode] accepts only if the decoder consumed the whole input *)
Theorem decode_top_consumes_all : forall bs v r a, decode_top bs = Ok v r a -> r = [] /\ decode_prefix bs = Ok v [] a.
Proof.
  intros bs v r a H. unfold decode_top in H. destruct (decode_prefix bs) as [v' r' a'| |]; try discriminate.
  destruct r'; inversion H; subst. split; reflexivity.
Qed.

Theorem encode_prefix_free : forall v1 v2 r1 r2, value_wfb v1 = true -> value_wfb v2 = true ->
  encode v1 ++ r1 = encode v2 ++ r2 -> v1 = v2 /\ r1 = r2.
Proof.
  intros v1 v2 r1 r2 H1 H2 E.
  destruct (decode_encode_prefix v1 r1 H1) as [a1 E1]. destruct (decode_encode_prefix v2 r2 H2) as [a2 E2].
  rewrite E in E1. rewrite E1 in E2. inversion E2. split; reflexivity.
Qed.

Corollary encode_injective : forall v1 v2, value_wfb v1 = true -> value_wfb v2 = true ->
  encode v1 = encode v2 -> v1 = v2.
Proof.
  intros v1 v2 H1 H2 E. apply (encode_prefix_free v1 v2 [] [] H1 H2). rewrite E. reflexivity.
Qed.

Lemma head_fits : forall m n k, (k = 1 \/ k = 2 \/ k = 4 \/ k = 8)%nat -> n < 256 ^ N.of_nat k ->
  (length (head m n) <= S k)%nat.
Proof.
  intros m n k Hk Hn. rewrite head_length.
  destruct Hk as [-> | [-> | [-> | ->]]];
    [change (256 ^ N.of_nat 1) with 256 in Hn|change (256 ^ N.of_nat 2) with 65536 in Hn
    |change (256 ^ N.of_nat 4) with 4294967296 in Hn|clear Hn];
    (destruct (N.ltb_spec n 24); [lia|]); (destruct (N.ltb_spec n 256); [lia|]);
    (destruct (N.ltb_spec n 65536); [lia|]); destruct (N.ltb_spec n 4294967296); lia.
Qed.

Lemma arg_width_cases : forall info, 24 <= info <= 27 ->
  (head_size info - 1 = 1 \/ head_size info - 1 = 2 \/ head_size info - 1 = 4 \/ head_size info - 1 = 8)%nat.
Proof.
  intros info H. assert (C : info = 24 \/ info = 25 \/ info = 26 \/ info = 27) by lia.
  destruct C as [-> | [-> | [-> | ->]]]; compute; auto.
Qed.

(** any accepted head with argument [n] is at least as long as the head the encoder writes *)
Theorem head_shortest : forall info r n r' m, Forall (fun b => b < 256) r ->
  pull_arg info r = Some (Some n, r') -> (length (head m n) + length r' <= 1 + length r)%nat.
Proof.
  intros info r n r' m HB H. pose proof (pull_arg_consumes _ _ _ _ H) as LR. rewrite pull_arg_cases in H.
  destruct (N.ltb_spec info 24) as [Hi|Hi].
  { inversion H; subst. rewrite head_length, (proj2 (N.ltb_lt _ _) Hi). lia. }
  destruct (N.leb_spec 24 info); [|lia]. destruct (N.leb_spec info 27); [|destruct (info =? 31); discriminate].
  cbn [andb] in H. destruct (take_be (head_size info - 1) 0 r) as [[n' r'']|] eqn:T; [|discriminate].
  inversion H; subst. pose proof (take_be_bound _ _ _ _ _ T HB) as Bd. rewrite N.add_0_l, N.mul_1_l in Bd.
  pose proof (head_fits m n _ (arg_width_cases info ltac:(lia)) Bd). lia.
Qed.
