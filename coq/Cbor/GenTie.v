(** C17 - tie of the hand-written schema terms (TokenSchemas.v) to the Rust declarations: the terms that
    translators/gen_cbor_schemas.py regenerates from the #[derive(CborSerialize, CborDeserialize)] types on every
    run (Gen/CborSchemas.v) are equal to them, and every hand-written table entry has a generated counterpart.
    A changed key / tag / attribute / field in the Rust source changes Gen/CborSchemas.v and breaks this lemma. *)
From Coq Require Import List.
From CB Require Import Cbor.TokenSchemas Gen.CborSchemas.

Lemma gen_tie :
  map snd gen_schemas = map (fun p => schema_of (fst p)) gen_schemas
  /\ forallb (fun p => existsb (String.eqb (fst p)) (map fst gen_schemas)) token_schemas = true.
Proof. split; [reflexivity|vm_compute; reflexivity]. Qed.
