(** C17 - proofs about [DecimalConv.v]: TokenAmount <-> rust_decimal::Decimal for ALL decimals. *)
From Coq Require Import NArith Bool Lia.
From CB Require Import Cbor.TokenAmount Cbor.DecimalConv.
Local Open Scope N_scope.

Arguments N.pow : simpl never.

Lemma pow10_pos : forall j, 0 < 10 ^ j.
Proof. intros. apply N.neq_0_lt_0. apply N.pow_nonzero. lia. Qed.

Lemma pow10_S : forall j : nat, 10 ^ N.of_nat (S j) = 10 * 10 ^ N.of_nat j.
Proof. intros. replace (N.of_nat (S j)) with (N.succ (N.of_nat j)) by lia. apply N.pow_succ_r'. Qed.

Lemma down_loop_spec : forall j v rem,
  down_loop (S j) v rem = (v / 10 ^ N.of_nat (S j), (v / 10 ^ N.of_nat j) mod 10).
Proof.
  induction j; intros v rem.
  - cbn [down_loop]. change (N.of_nat 1) with 1. change (N.of_nat 0) with 0.
    rewrite N.pow_1_r, N.pow_0_r, N.div_1_r.
    destruct (N.eqb_spec v 0) as [->|]; reflexivity.
  - change (down_loop (S (S j)) v rem) with (if v =? 0 then (0, 0) else down_loop (S j) (v / 10) (v mod 10)).
    destruct (N.eqb_spec v 0) as [->|Hv].
    + rewrite !N.div_0_l by (apply N.pow_nonzero; lia). reflexivity.
    + rewrite IHj. rewrite !N.div_div by (try apply N.pow_nonzero; lia).
      rewrite <- !pow10_S. reflexivity.
Qed.

Lemma up_loop_spec : forall j v, exists i : nat,
  (i <= j)%nat /\ up_loop j v = (v * 10 ^ N.of_nat i, (j - i)%nat) /\ ((i < j)%nat -> M96 <= v * 10 ^ N.of_nat (S i)).
Proof.
  induction j; intros v.
  - exists O. split; [lia|]. split; [|lia]. cbn [up_loop]. change (N.of_nat 0) with 0. rewrite N.pow_0_r, N.mul_1_r. reflexivity.
  - cbn [up_loop]. destruct (N.ltb_spec (v * 10) M96) as [Hlt|Hge].
    + destruct (IHj (v * 10)) as (i & Hi & E & Hstop). exists (S i). split; [lia|]. split.
      * rewrite E. rewrite pow10_S. f_equal; lia.
      * intros Hlt'. rewrite (pow10_S (S i)). specialize (Hstop ltac:(lia)). lia.
    + exists O. split; [lia|]. split.
      * change (N.of_nat 0) with 0. rewrite N.pow_0_r, N.mul_1_r. reflexivity.
      * intros _. change (N.of_nat 1) with 1. rewrite N.pow_1_r. exact Hge.
Qed.

(** half-up on the first dropped digit is rounding to nearest, ties away from zero *)
Lemma half_up_digit : forall v k, 0 < k ->
  v / (10 * k) + (if 5 <=? (v / k) mod 10 then 1 else 0) = (v + 5 * k) / (10 * k).
Proof.
  intros v k Hk.
  pose proof (N.div_mod v (10 * k) ltac:(lia)) as D.
  pose proof (N.mod_lt v (10 * k) ltac:(lia)) as L.
  set (a := v / (10 * k)) in *. set (r := v mod (10 * k)) in *.
  pose proof (N.div_mod r k ltac:(lia)) as D2. pose proof (N.mod_lt r k ltac:(lia)) as L2.
  set (c := r / k) in *. set (s := r mod k) in *.
  assert (Hc : c < 10) by nia.
  assert (E1 : v / k = 10 * a + c).
  { symmetry. apply (N.div_unique v k (10 * a + c) s); [exact L2|]. lia. }
  assert (E2 : (v / k) mod 10 = c).
  { rewrite E1. symmetry. apply (N.mod_unique _ 10 a c); [exact Hc|]. lia. }
  rewrite E2. destruct (N.leb_spec 5 c).
  - apply (N.div_unique _ (10 * k) (a + 1) (r - 5 * k)); nia.
  - rewrite N.add_0_r. apply (N.div_unique _ (10 * k) a (r + 5 * k)); nia.
Qed.

Lemma round_digit : forall m (j : nat),
  m / 10 ^ N.of_nat (S j) + (if 5 <=? (m / 10 ^ N.of_nat j) mod 10 then 1 else 0) = round_half_up m (10 ^ N.of_nat (S j)).
Proof.
  intros. unfold round_half_up. rewrite pow10_S. rewrite half_up_digit by apply pow10_pos.
  f_equal. f_equal. apply (N.div_unique _ 2 _ 0); lia.
Qed.

(** the result is a nearest multiple: |q*k - m| <= k/2, and a tie goes up *)
Theorem round_half_up_nearest : forall m j, 0 < j -> let k := 10 ^ j in let q := round_half_up m k in
  2 * (q * k) <= 2 * m + k /\ 2 * m < 2 * (q * k) + k.
Proof.
  intros m j Hj k q. subst q. unfold round_half_up.
  assert (Hk : 0 < k) by apply pow10_pos.
  assert (Ev : k = 2 * (k / 2)).
  { subst k. replace j with (N.succ (N.pred j)) by lia. rewrite N.pow_succ_r'.
    replace (10 * 10 ^ N.pred j) with (2 * (5 * 10 ^ N.pred j)) by lia.
    rewrite (N.mul_comm 2), N.div_mul by lia. lia. }
  pose proof (N.div_mod (m + k / 2) k ltac:(lia)) as D.
  pose proof (N.mod_lt (m + k / 2) k ltac:(lia)) as L.
  clearbody k. set (h := k / 2) in *. set (q := (m + h) / k) in *. set (r := (m + h) mod k) in *.
  split; lia.
Qed.

Lemma round_half_up_mul : forall v k, 0 < k -> round_half_up (v * k) k = v.
Proof.
  intros v k Hk. unfold round_half_up. symmetry. apply (N.div_unique _ k _ (k / 2)); [|lia].
  apply N.div_lt_upper_bound; lia.
Qed.

Theorem round_half_up_exact : forall m k, 0 < k -> m mod k = 0 -> round_half_up m k * k = m.
Proof.
  intros m k Hk Hm. pose proof (N.div_mod m k ltac:(lia)) as D. rewrite Hm, N.add_0_r in D.
  rewrite D at 1. rewrite (N.mul_comm k), round_half_up_mul by exact Hk. lia.
Qed.

Lemma rescale_down : forall m sc new, new <= sc -> new <= MAX_SCALE ->
  rescale m sc new = (round_half_up m (10 ^ (sc - new)), new).
Proof.
  intros m sc new Hle Hn. unfold rescale.
  destruct (N.eqb_spec sc new) as [->|].
  { pose proof (round_half_up_mul m 1 ltac:(lia)) as E. rewrite N.mul_1_r in E.
    rewrite N.sub_diag, N.pow_0_r, E. reflexivity. }
  destruct (N.eqb_spec m 0) as [->|].
  { f_equal; [|lia]. symmetry. exact (round_half_up_mul 0 _ (pow10_pos _)). }
  destruct (N.ltb_spec new sc); [|lia].
  destruct (N.to_nat (sc - new)) as [|j] eqn:Ej; [lia|].
  rewrite down_loop_spec. cbv beta iota. pose proof (round_digit m j) as RD.
  replace (sc - new) with (N.of_nat (S j)) by lia. rewrite <- RD.
  destruct (5 <=? (m / 10 ^ N.of_nat j) mod 10); f_equal; lia.
Qed.

Lemma rescale_up : forall m sc new, sc <= new -> new <= MAX_SCALE -> exists i : nat,
  (N.of_nat i <= new - sc) /\ rescale m sc new = (m * 10 ^ N.of_nat i, sc + N.of_nat i)
  /\ (N.of_nat i < new - sc -> M96 <= m * 10 ^ N.of_nat (S i)).
Proof.
  intros m sc new Hle Hn. unfold rescale.
  destruct (N.eqb_spec sc new) as [->|].
  { exists O. change (N.of_nat 0) with 0. rewrite N.pow_0_r, N.mul_1_r, N.add_0_r. repeat split; lia. }
  destruct (N.eqb_spec m 0) as [->|].
  { exists (N.to_nat (new - sc)). rewrite N.mul_0_l. repeat split; [lia|f_equal; lia|lia]. }
  destruct (N.ltb_spec new sc); [lia|].
  destruct (up_loop_spec (N.to_nat (new - sc)) m) as (i & Hi & E & Hstop).
  exists i. rewrite E. split; [lia|]. split; [f_equal; lia|]. intros. apply Hstop. lia.
Qed.

Lemma rescale_up_full : forall m sc new, sc <= new -> m * 10 ^ (new - sc) < M96 -> new <= MAX_SCALE ->
  rescale m sc new = (m * 10 ^ (new - sc), new).
Proof.
  intros m sc new Hle Hfit Hn. destruct (rescale_up m sc new Hle Hn) as (i & Hi & E & Hstop). rewrite E.
  destruct (N.eq_dec (N.of_nat i) (new - sc)) as [Ei|Hne]; [rewrite Ei; f_equal; lia|exfalso].
  specialize (Hstop ltac:(lia)).
  assert (10 ^ N.of_nat (S i) <= 10 ^ (new - sc)) by (apply N.pow_le_mono_r; lia). nia.
Qed.

Lemma decimal_ok_spec : forall x, decimal_ok x = true -> d_m x < M96 /\ d_scale x <= MAX_SCALE.
Proof.
  intros x H. apply andb_true_iff in H. destruct H as [Hm Hsc]. apply N.ltb_lt in Hm. apply N.leb_le in Hsc. auto.
Qed.

(** every accepted result is in range *)
Theorem conv_ok_range : forall x d r a, try_from_decimal x d r = COk a ->
  amt_decimals a = d /\ d <= MAX_SCALE /\ amt_value a <= U64MAX.
Proof.
  intros x d r a H. unfold try_from_decimal in H.
  destruct (rescale (d_m x) (d_scale x) d) as [m1 sc1].
  destruct (N.ltb_spec MAX_SCALE d); [discriminate|].
  destruct (negb (sc1 =? d)); [discriminate|].
  destruct (d_neg x && negb (m1 =? 0)); [discriminate|]. cbn [orb] in H.
  destruct (N.ltb_spec U64MAX m1); [discriminate|].
  destruct (rescale m1 sc1 (d_scale x)) as [m2 sc2].
  destruct (negb (m2 =? d_m x) && is_exact r); [discriminate|].
  inversion H; subst. cbn. lia.
Qed.

(** AllowRounding, target scale below the decimal's scale: the result is the nearest multiple, ties away
    from zero, or ValueOverflow when that does not fit u64 / is negative and non-zero *)
Theorem conv_round_spec : forall x d, decimal_ok x = true -> d < d_scale x ->
  try_from_decimal x d AllowRounding =
  let q := round_half_up (d_m x) (10 ^ (d_scale x - d)) in
  if (d_neg x && negb (q =? 0)) || (U64MAX <? q) then CErr EValueOverflow
  else COk {| amt_value := q; amt_decimals := d |}.
Proof.
  intros [neg m sc] d Hok Hlt. destruct (decimal_ok_spec _ Hok) as [Hm Hsc]. cbn [d_m d_scale d_neg] in *.
  unfold try_from_decimal. cbn [d_m d_scale d_neg].
  rewrite rescale_down by lia. cbv zeta.
  destruct (N.ltb_spec MAX_SCALE d); [unfold MAX_SCALE in *; lia|].
  rewrite N.eqb_refl. cbn [negb].
  destruct ((neg && negb (round_half_up m (10 ^ (sc - d)) =? 0)) || (U64MAX <? round_half_up m (10 ^ (sc - d)))); [reflexivity|].
  destruct (rescale (round_half_up m (10 ^ (sc - d))) d sc) as [m2 sc2]. cbn [is_exact]. rewrite andb_false_r. reflexivity.
Qed.

(** Exact: an accepted conversion preserves the number exactly: m * 10^-scale = value * 10^-decimals,
    and the number is not negative *)
Theorem conv_exact_sound : forall x d a, decimal_ok x = true -> try_from_decimal x d Exact = COk a ->
  amt_decimals a = d /\ same_number (d_m x) (d_scale x) (amt_value a) d /\ (d_neg x = false \/ d_m x = 0).
Proof.
  intros [neg m sc] d a Hok H. destruct (decimal_ok_spec _ Hok) as [Hm Hsc]. cbn [d_m d_scale d_neg] in *.
  unfold try_from_decimal in H. cbn [d_m d_scale d_neg] in H.
  destruct (rescale m sc d) as [m1 sc1] eqn:R1.
  destruct (N.ltb_spec MAX_SCALE d) as [|Hd]; [discriminate|].
  destruct (N.eqb_spec sc1 d) as [->|]; [|discriminate]. cbn [negb] in H.
  destruct (neg && negb (m1 =? 0)) eqn:Hneg; [discriminate|]. cbn [orb] in H.
  destruct (N.ltb_spec U64MAX m1); [discriminate|].
  destruct (rescale m1 d sc) as [m2 sc2] eqn:R2. cbn [is_exact] in H. rewrite andb_true_r in H.
  destruct (N.eqb_spec m2 m) as [->|]; [|discriminate]. cbn [negb] in H. inversion H; subst a. cbn [amt_decimals amt_value].
  split; [reflexivity|].
  assert (SN : same_number m sc m1 d).
  { unfold same_number.
    destruct (N.le_gt_cases sc d) as [Hle|Hgt].
    - destruct (rescale_up m sc d Hle Hd) as (i & Hi & E & _). rewrite E in R1. inversion R1; subst m1.
      assert (Ei : N.of_nat i = d - sc) by lia. rewrite Ei.
      rewrite N.pow_add_r. ring.
    - (* scaled down: the rounded value multiplied back must be the mantissa *)
      rewrite rescale_down in R1 by lia. injection R1 as Eq.
      set (k := 10 ^ (sc - d)) in *.
      assert (Hk : 0 < k) by apply pow10_pos.
      pose proof (round_half_up_nearest m (sc - d) ltac:(lia)) as [Hhi Hlo]. fold k in Hhi, Hlo. rewrite Eq in Hhi, Hlo.
      assert (Hsplit : 10 ^ sc = k * 10 ^ d).
      { subst k. rewrite <- N.pow_add_r. f_equal. lia. }
      destruct (rescale_up m1 d sc ltac:(lia) Hsc) as (i & Hi & E & _). rewrite E in R2. injection R2 as Em Es.
      destruct (N.eq_dec (N.of_nat i) (sc - d)) as [Ei|Hne].
      + rewrite Hsplit. rewrite <- Em, Ei. fold k. ring.
      + destruct (N.eq_dec m1 0) as [->|Hm1]; [lia|exfalso].
        assert (Ht : k = 10 ^ N.of_nat i * 10 ^ (sc - d - N.of_nat i)).
        { subst k. rewrite <- N.pow_add_r. f_equal. lia. }
        assert (H10 : 10 <= 10 ^ (sc - d - N.of_nat i)).
        { replace (sc - d - N.of_nat i) with (N.succ (N.pred (sc - d - N.of_nat i))) by lia.
          rewrite N.pow_succ_r'. pose proof (pow10_pos (N.pred (sc - d - N.of_nat i))). lia. }
        pose proof (pow10_pos (N.of_nat i)).
        set (p := 10 ^ N.of_nat i) in *. set (t := 10 ^ (sc - d - N.of_nat i)) in *.
        (* m = m1*p, k = p*t, t >= 10: 2*m1*p*t <= 2*m1*p + p*t and m1 >= 1 *)
        subst m. rewrite Ht in Hhi. nia. }
  split; [exact SN|].
  destruct neg; [|left; reflexivity]. right. cbn [andb] in Hneg.
  destruct (N.eqb_spec m1 0) as [->|]; [|discriminate]. unfold same_number in SN.
  rewrite N.mul_0_l in SN. apply N.eq_mul_0 in SN. destruct SN as [|C]; [assumption|]. pose proof (pow10_pos d). lia.
Qed.

(** Exact: a decimal that needs rounding at the requested number of decimals is rejected *)
Theorem conv_exact_rejects_rounding : forall x d, decimal_ok x = true -> d < d_scale x ->
  d_m x mod 10 ^ (d_scale x - d) <> 0 -> exists e, try_from_decimal x d Exact = CErr e.
Proof.
  intros x d Hok Hlt Hmod. destruct (try_from_decimal x d Exact) as [a|e] eqn:E; [|eexists; reflexivity].
  exfalso. destruct (conv_exact_sound x d a Hok E) as (_ & SN & _). unfold same_number in SN.
  apply Hmod. assert (Hs : 10 ^ d_scale x = 10 ^ (d_scale x - d) * 10 ^ d).
  { rewrite <- N.pow_add_r. f_equal. lia. }
  rewrite Hs in SN. pose proof (pow10_pos d).
  assert (Em : d_m x = amt_value a * 10 ^ (d_scale x - d)) by nia.
  rewrite Em. apply N.mod_mul. apply N.pow_nonzero. lia.
Qed.

(** Exact is complete: every non-negative decimal whose number is [v * 10^-d] with [v] a u64 and
    [d <= 28] is converted to exactly [(v, d)] - under both rules *)
Theorem conv_exact_complete : forall x d v r, decimal_ok x = true -> d <= MAX_SCALE -> v <= U64MAX ->
  (d_neg x = false \/ d_m x = 0) -> same_number (d_m x) (d_scale x) v d ->
  try_from_decimal x d r = COk {| amt_value := v; amt_decimals := d |}.
Proof.
  intros [neg m sc] d v r Hok Hd Hv Hneg SN. destruct (decimal_ok_spec _ Hok) as [Hm Hsc]. cbn [d_m d_scale d_neg] in *.
  unfold same_number in SN.
  assert (HU : U64MAX < M96) by (vm_compute; reflexivity).
  assert (R1 : rescale m sc d = (v, d) /\ rescale v d sc = (m, sc)).
  { destruct (N.le_ge_cases sc d) as [Hle|Hge].
    - assert (Hs : 10 ^ d = 10 ^ (d - sc) * 10 ^ sc) by (rewrite <- N.pow_add_r; f_equal; lia).
      pose proof (pow10_pos sc). assert (Ev : v = m * 10 ^ (d - sc)) by (rewrite Hs in SN; nia).
      split.
      + rewrite rescale_up_full by (try lia). rewrite <- Ev. reflexivity.
      + rewrite rescale_down, Ev, round_half_up_mul by (assumption || apply pow10_pos). reflexivity.
    - assert (Hs : 10 ^ sc = 10 ^ (sc - d) * 10 ^ d) by (rewrite <- N.pow_add_r; f_equal; lia).
      pose proof (pow10_pos d). assert (Em : m = v * 10 ^ (sc - d)) by (rewrite Hs in SN; nia).
      split.
      + rewrite rescale_down, Em, round_half_up_mul by (assumption || apply pow10_pos). reflexivity.
      + rewrite rescale_up_full by (try lia). rewrite <- Em. reflexivity. }
  destruct R1 as [R1 R2]. unfold try_from_decimal. cbn [d_m d_scale d_neg]. rewrite R1.
  destruct (N.ltb_spec MAX_SCALE d); [lia|]. rewrite N.eqb_refl. cbn [negb].
  assert (Hn : neg && negb (v =? 0) = false).
  { destruct Hneg as [-> | ->]; [reflexivity|]. pose proof (pow10_pos sc). pose proof (pow10_pos d).
    assert (v = 0) by nia. subst. rewrite andb_false_r. reflexivity. }
  rewrite Hn. cbn [orb]. destruct (N.ltb_spec U64MAX v); [lia|]. rewrite R2, N.eqb_refl. reflexivity.
Qed.

(** AllowRounding and Exact agree when the target has at least as many decimals *)
Theorem conv_round_is_exact_when_no_rounding : forall x d, decimal_ok x = true -> d_scale x <= d ->
  try_from_decimal x d AllowRounding = try_from_decimal x d Exact.
Proof.
  intros [neg m sc] d Hok Hle. destruct (decimal_ok_spec _ Hok) as [Hm Hsc]. cbn [d_m d_scale d_neg] in *.
  unfold try_from_decimal. cbn [d_m d_scale d_neg].
  destruct (rescale m sc d) as [m1 sc1] eqn:R1.
  destruct (MAX_SCALE <? d) eqn:Hd; [reflexivity|]. apply N.ltb_ge in Hd.
  destruct (N.eqb_spec sc1 d) as [->|]; [|reflexivity]. cbn [negb].
  destruct ((neg && negb (m1 =? 0)) || (U64MAX <? m1)); [reflexivity|].
  destruct (rescale m1 d sc) as [m2 sc2] eqn:R2. cbn [is_exact]. rewrite andb_false_r, andb_true_r.
  assert (E : m2 = m); [|rewrite E, N.eqb_refl; reflexivity].
  destruct (rescale_up m sc d Hle Hd) as (i & Hi & E & _). rewrite E in R1. injection R1 as Em Es.
  assert (Ei : N.of_nat i = d - sc) by lia.
  rewrite rescale_down in R2 by lia. injection R2 as E2 _.
  rewrite <- E2, <- Em, Ei. apply round_half_up_mul, pow10_pos.
Qed.

(** more than 28 decimals: always RustDecimal(ScaleExceedsMaximumPrecision) *)
Theorem conv_beyond_scale : forall x d r, MAX_SCALE < d -> try_from_decimal x d r = CErr ERustDecimal.
Proof.
  intros x d r H. unfold try_from_decimal. destruct (rescale (d_m x) (d_scale x) d).
  destruct (N.ltb_spec MAX_SCALE d); [reflexivity|lia].
Qed.

Theorem to_decimal_roundtrip : forall v d r, v <= U64MAX -> d <= MAX_SCALE ->
  let x := {| d_neg := false; d_m := v; d_scale := d |} in
  try_to_decimal {| amt_value := v; amt_decimals := d |} = Some x /\ decimal_ok x = true
  /\ try_from_decimal x d r = COk {| amt_value := v; amt_decimals := d |}.
Proof.
  intros v d r Hv Hd x.
  assert (HU : U64MAX < M96) by (vm_compute; reflexivity).
  assert (Hok : decimal_ok x = true).
  { unfold decimal_ok, x. cbn. apply andb_true_iff. split; [apply N.ltb_lt; lia|apply N.leb_le; exact Hd]. }
  split; [|split; [exact Hok|]].
  - unfold try_to_decimal. cbn [amt_decimals amt_value].
    destruct (N.ltb_spec MAX_SCALE d); [lia|]. destruct (N.leb_spec M96 v); [lia|]. reflexivity.
  - apply conv_exact_complete; try assumption; [left; reflexivity|]. unfold same_number, x. cbn. reflexivity.
Qed.

Theorem to_decimal_beyond_scale : forall a, MAX_SCALE < amt_decimals a -> try_to_decimal a = None.
Proof. intros a H. unfold try_to_decimal. destruct (N.ltb_spec MAX_SCALE (amt_decimals a)); [reflexivity|lia]. Qed.

(** at a fixed number of decimals the value is determined by the number *)
Theorem amount_number_unique : forall v1 v2 d, same_number v1 d v2 d -> v1 = v2.
Proof. intros v1 v2 d H. unfold same_number in H. pose proof (pow10_pos d). nia. Qed.
