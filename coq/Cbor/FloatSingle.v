(** C17 - binary32: every NORMAL single pattern is the 4-byte (or shorter) encoding of the double it widens
    to: [cand32 (widen32 x) = x], hence [fencode (widen32 x)] never uses 8 bytes. *)
From Coq Require Import NArith Bool Lia.
From CB Require Import Cbor.FloatBits Cbor.FloatProofs.
Local Open Scope N_scope.

Theorem single_normal_candidate : forall x, x < 2 ^ 32 ->
  let e := N.land (N.shiftr x 23) 255 in 1 <= e <= 254 -> cand32 (widen32 x) = x.
Proof.
  intros x Hx e He.
  pose proof (cand_widen_pattern 255 896 23 8 x eq_refl eq_refl ltac:(lia) ltac:(lia) ltac:(lia) ltac:(lia) Hx) as C.
  change (cand32 (widen32 x) = if (e =? 255) && negb (N.land x 8388607 =? 0) && (N.land x 8388607 <? 2 ^ (23 - 1)) then x + 2 ^ (23 - 1) else x) in C.
  destruct (N.eqb_spec e 255); [lia|exact C].
Qed.

(** so the double a normal single widens to is never written in 8 bytes, and when it is written in 4 the payload is the single *)
Theorem single_normal_not_wide : forall x, x < 2 ^ 32 -> 1 <= N.land (N.shiftr x 23) 255 <= 254 ->
  fst (fencode (widen32 x)) = 2 \/ fencode (widen32 x) = (4, x).
Proof.
  intros x Hx He. pose proof (single_normal_candidate x Hx He) as C. unfold fencode.
  destruct (widen16 (cand16 (widen32 x)) =? widen32 x); [left; reflexivity|].
  rewrite C, N.eqb_refl. right. reflexivity.
Qed.
