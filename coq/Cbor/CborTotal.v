(** C17 - the decoder is total (fuel = a function of the input length never runs out), makes
    progress, and its ghost allocation counter is bounded linearly in the input length - on the
    success path and on every error path; the nesting depth of a decoded value is at most the
    number of bytes it occupies.  One invariant ([res_spec]) and one induction on the fuel. *)
From Coq Require Import NArith List Bool Lia.
From CB Require Import Cbor.CborCore Cbor.CborProofs.
Import ListNotations.
Local Open Scope N_scope.

Definition K : N := 8256.        (* 2 * MAX_PRE + 2 * VALUE_SIZE *)
Definition L (bs : list N) : N := N.of_nat (length bs).

Lemma pull_shorter : forall bs h r, pull bs = Some (h, r) -> (length r < length bs)%nat.
Proof.
  intros bs h r H. destruct (pull_inv bs h r H) as (b & tl & a & -> & PA & _).
  apply pull_arg_consumes in PA. cbn [length]. lia.
Qed.

Lemma take_spec : forall n bs d r, take n bs = Some (d, r) -> bs = d ++ r /\ L d = n.
Proof.
  intros n bs d r H. unfold take in H. destruct (N.leb_spec n (len bs)); [|discriminate].
  inversion H; subst. split; [symmetry; apply firstn_skipn|].
  unfold L. rewrite firstn_length. unfold len in *. lia.
Qed.

(** The invariant of a result of running on [bs] with fuel [f]: on success the rest is shorter by
    at least [s] bytes, the allocation plus [e] is at most [K] per consumed byte and the depth [d] of
    the result is at most the number of consumed bytes; an error has allocated at most [K] per input
    byte plus one chunk; the fuel runs out only if it is at most twice the input length plus [sl].
    A data item has [s = 1], [e = VALUE_SIZE] (its slot in the enclosing vector), [sl = 0]; a
    sequence of items has [e = 0], [sl = 1], and [s = 1] if it ends with a break byte. *)
Definition res_spec {A} (d : A -> nat) (s : nat) (e : N) (sl : nat) (f : nat) (bs : list N) (x : res A) : Prop :=
  match x with
  | Ok v r a => (length r + s <= length bs)%nat /\ a + e <= K * (L bs - L r) /\ (d v + length r <= length bs)%nat
  | Err a => a + e <= K * L bs + 4096
  | OutOfFuel => (f <= 2 * length bs + sl)%nat
  end.

Definition depth_elems (l : list value) : nat := fold_right (fun x d => Nat.max (depth x) d) O l.
Definition depth_pairs (l : list (value * value)) : nat :=
  fold_right (fun kv d => let '(k, x) := kv in Nat.max (Nat.max (depth k) (depth x)) d) O l.

Definition item_spec := res_spec depth 1 VALUE_SIZE 0.
Definition bytes_spec := res_spec (fun _ : list N => O).

(** a result for the rest [r] of [bs], wrapped into one item: the head byte pays for [e'] *)
Lemma rmap_spec : forall {A B} (d : A -> nat) (d' : B -> nat) s e sl f bs r (F : A -> B) e' x,
  (length r < length bs)%nat -> (sl <= 1)%nat -> e' <= K -> (forall v, d' (F v) <= S (d v))%nat ->
  res_spec d s e sl f r x -> res_spec d' 1 e' 0 (S f) bs (rmap F x).
Proof.
  intros A B d d' s e sl f bs r F e' x Hr Hsl He HF H.
  destruct x as [v r' a|a|]; cbn in *; [specialize (HF v)|..]; unfold K, L in *; lia.
Qed.

Lemma radd_spec : forall {A} (d : A -> nat) s e e' sl f bs k x,
  k + e' <= e -> res_spec d s e sl f bs x -> res_spec d s e' sl f bs (radd k x).
Proof. intros A d s e e' sl f bs k x He H. destruct x; cbn in *; lia. Qed.

(** the loop steps: the item takes at least one byte, so the result is strict whatever the rest is *)
Lemma cons_res_spec : forall s s' f bs h t, (s' <= 1)%nat ->
  item_spec f bs h -> (forall r, res_spec depth_elems s 0 1 f r (t r)) ->
  res_spec depth_elems s' 0 1 (S f) bs (cons_res VALUE_SIZE h t).
Proof.
  intros s s' f bs h t Hs Hh Ht. destruct h as [v r a|a|]; cbn in *; [|lia|lia].
  specialize (Ht r). destruct (t r) as [l r' a'|a'|]; cbn -[depth_elems] in *; unfold K, L in *; [|lia|lia].
  change (depth_elems (v :: l)) with (Nat.max (depth v) (depth_elems l)). lia.
Qed.

Lemma pair_res_spec : forall s s' f bs h g t, (s' <= 1)%nat ->
  item_spec f bs h -> (forall r, item_spec f r (g r)) -> (forall r, res_spec depth_pairs s 0 1 f r (t r)) ->
  res_spec depth_pairs s' 0 1 (S f) bs (pair_res h g t).
Proof.
  intros s s' f bs h g t Hs Hh Hg Ht. destruct h as [k r a|a|]; cbn in *; [|lia|lia].
  specialize (Hg r). destruct (g r) as [x r1 a1|a1|]; cbn in *; [|unfold K, L in *; lia|lia].
  specialize (Ht r1). destruct (t r1) as [l r' a'|a'|]; cbn -[depth_pairs] in *; unfold K, L in *; [|lia|lia].
  change (depth_pairs ((k, x) :: l)) with (Nat.max (Nat.max (depth k) (depth x)) (depth_pairs l)). lia.
Qed.

Lemma indef_spec : forall {A} (d : list A -> nat) f bs (step : res (list A)), d [] = O ->
  res_spec d 1 0 1 f bs step ->
  res_spec d 1 0 1 f bs match pull bs with Some (HBreak, r) => Ok [] r 0 | _ => step end.
Proof.
  intros A d f bs step Hd H. destruct (pull bs) as [[h r]|] eqn:P; [|exact H].
  destruct h; try exact H. apply pull_shorter in P. cbn. rewrite Hd. unfold K, L. lia.
Qed.

Lemma read_seg_spec : forall txt n f r, bytes_spec 0 0 1 f r (read_seg txt n r).
Proof.
  intros. unfold read_seg. destruct (take n r) as [[d r']|] eqn:T.
  - apply take_spec in T. destruct T as [-> Ld].
    destruct (txt && negb (utf8_valid d)); cbn; unfold K, L in *; rewrite app_length; lia.
  - cbn. unfold MAX_PRE, K, L, len. lia.
Qed.

Definition seg_step (f : nat) (txt : bool) (nested : N) (r : list N) (o : option N) : res (list N) :=
  match o with
  | None => segs f txt (nested + 1) r
  | Some n =>
    match read_seg txt n r with
    | Ok d r' a =>
      match segs f txt nested r' with
      | Ok ds r'' a' => Ok (d ++ ds) r'' (a + a')
      | Err a' => Err (a + a')
      | OutOfFuel => OutOfFuel
      end
    | Err a => Err a
    | OutOfFuel => OutOfFuel
    end
  end.

Lemma segs_S : forall f txt nested bs, segs (S f) txt nested bs =
  match pull bs with
  | None => Err 0
  | Some (h, r) =>
    match h with
    | HBreak => if nested <=? 1 then Ok [] r 0 else segs f txt (nested - 1) r
    | HBytes o => if txt then Err 0 else seg_step f txt nested r o
    | HText o => if txt then seg_step f txt nested r o else Err 0
    | _ => Err 0
    end
  end.
Proof. reflexivity. Qed.

Lemma segs_spec : forall f txt nested bs, bytes_spec 1 0 1 f bs (segs f txt nested bs).
Proof.
  induction f as [|f IH]; intros; [cbn; lia|].
  rewrite segs_S. destruct (pull bs) as [[h r]|] eqn:P; [|cbn; lia].
  apply pull_shorter in P.
  assert (Hseg : forall o, bytes_spec 1 0 1 (S f) bs (seg_step f txt nested r o)).
  { intros [n|]; unfold seg_step.
    - pose proof (read_seg_spec txt n f r) as RS. destruct (read_seg txt n r) as [d r' a|a|]; cbn in *; unfold K, L in *; [|lia|lia].
      specialize (IH txt nested r'). destruct (segs f txt nested r'); cbn in *; unfold K, L in *; lia.
    - specialize (IH txt (nested + 1) r). destruct (segs f txt (nested + 1) r); cbn in *; unfold K, L in *; lia. }
  destruct h; try (cbn; lia).
  - destruct txt; [cbn; lia|apply Hseg].
  - destruct txt; [apply Hseg|cbn; lia].
  - destruct (nested <=? 1).
    + cbn. unfold K, L. lia.
    + specialize (IH txt (nested - 1) r). destruct (segs f txt (nested - 1) r); cbn in *; unfold K, L in *; lia.
Qed.

Lemma simple_value_depth : forall n, depth (simple_value n) = O.
Proof. intros. unfold simple_value. destruct (n =? 20), (n =? 21), (n =? 22); reflexivity. Qed.

(** one head byte pays for the slot of the item and for what is reserved on reading the head:
    a string chunk, or the capped capacity of a vector of values or of pairs *)
Lemma head_pays : VALUE_SIZE <= K /\ (forall n, N.min n MAX_PRE + VALUE_SIZE <= K) /\
  (forall n, VALUE_SIZE * N.min n cap_elems + VALUE_SIZE <= K) /\
  (forall n, 2 * VALUE_SIZE * N.min n cap_elems + VALUE_SIZE <= K).
Proof. unfold VALUE_SIZE, MAX_PRE, K. change cap_elems with 128. repeat split; intros; lia. Qed.

Definition all_spec (f : nat) : Prop :=
  (forall bs, item_spec f bs (dec f bs)) /\
  (forall n bs, res_spec depth_elems 0 0 1 f bs (dec_elems f n bs)) /\
  (forall bs, res_spec depth_elems 1 0 1 f bs (dec_elems_indef f bs)) /\
  (forall n bs, res_spec depth_pairs 0 0 1 f bs (dec_pairs f n bs)) /\
  (forall bs, res_spec depth_pairs 1 0 1 f bs (dec_pairs_indef f bs)).

Lemma all_spec_holds : forall f, all_spec f.
Proof.
  induction f as [|f (IHd & IHe & IHei & IHp & IHpi)].
  { repeat split; intros; cbn; try lia; destruct (n =? 0); cbn; lia. }
  repeat split.
  - intros bs. rewrite dec_S. destruct (pull bs) as [[h r]|] eqn:P; [|cbn; unfold K, L, VALUE_SIZE; lia].
    apply pull_shorter in P. destruct head_pays as (P0 & P1 & P2 & P3). pose proof (N.le_refl K) as PK.
    unfold item_spec.
    destruct h as [n|n|[n|]|[n|]|[n|]|[n|]|t|n|w b|];
      try (cbn -[simple_value]; rewrite ?simple_value_depth; unfold K, L, VALUE_SIZE; lia);
      try (apply (radd_spec _ _ K); [auto|]).
    + apply (rmap_spec (fun _ => O) depth 0 0 1 f bs r); auto. apply read_seg_spec.
    + apply (rmap_spec (fun _ => O) depth 1 0 1 f bs r); auto. apply segs_spec.
    + apply (rmap_spec (fun _ => O) depth 0 0 1 f bs r); auto. apply read_seg_spec.
    + apply (rmap_spec (fun _ => O) depth 1 0 1 f bs r); auto. apply segs_spec.
    + apply (rmap_spec depth_elems depth 0 0 1 f bs r); auto.
    + apply (rmap_spec depth_elems depth 1 0 1 f bs r); auto.
    + apply (rmap_spec depth_pairs depth 0 0 1 f bs r); auto.
    + apply (rmap_spec depth_pairs depth 1 0 1 f bs r); auto.
    + apply (rmap_spec depth depth 1 VALUE_SIZE 0 f bs r); auto. apply IHd.
  - intros n bs. rewrite dec_elems_S. destruct (n =? 0); [cbn; lia|]. apply (cons_res_spec 0); auto.
  - intros bs. rewrite dec_elems_indef_S. apply indef_spec; [reflexivity|]. apply (cons_res_spec 1); auto.
  - intros n bs. rewrite dec_pairs_S. destruct (n =? 0); [cbn; lia|]. apply (pair_res_spec 0); auto.
  - intros bs. rewrite dec_pairs_indef_S. apply indef_spec; [reflexivity|]. apply (pair_res_spec 1); auto.
Qed.

Lemma dec_spec : forall f bs, item_spec f bs (dec f bs).
Proof. intros f. apply (all_spec_holds f). Qed.

Theorem dec_total : forall bs, decode_prefix bs <> OutOfFuel.
Proof.
  intros bs H. pose proof (dec_spec (fuel_for bs) bs) as Hd. unfold decode_prefix in H. rewrite H in Hd.
  unfold fuel_for in Hd. cbn in Hd. lia.
Qed.

Theorem decode_top_total : forall bs, decode_top bs <> OutOfFuel.
Proof.
  intros bs H. unfold decode_top in H. pose proof (dec_total bs).
  destruct (decode_prefix bs) as [v [|b r] a|a|]; try discriminate. contradiction.
Qed.

Lemma dec_shorter : forall f bs v r a, dec f bs = Ok v r a -> (length r < length bs)%nat.
Proof. intros f bs v r a H. pose proof (dec_spec f bs) as Hd. rewrite H in Hd. cbn in Hd. lia. Qed.

Theorem dec_progress : forall bs v r a, decode_prefix bs = Ok v r a -> (length r < length bs)%nat.
Proof. intros bs. apply dec_shorter. Qed.

Theorem decode_alloc_bounded : forall bs, alloc_of (decode_top bs) <= K * L bs + 4096.
Proof.
  intros bs. unfold decode_top, decode_prefix. pose proof (dec_spec (fuel_for bs) bs) as Hd.
  destruct (dec (fuel_for bs) bs) as [v [|b r] a|a|]; cbn in *; lia.
Qed.

(** on the success path the bound is in terms of the consumed bytes only *)
Theorem decode_alloc_consumed : forall bs v r a, decode_prefix bs = Ok v r a -> a + 32 <= K * (L bs - L r).
Proof.
  intros bs v r a H. pose proof (dec_spec (fuel_for bs) bs) as Hd. unfold decode_prefix in H. rewrite H in Hd.
  apply Hd.
Qed.

Lemma dec_depth : forall f bs v r a, dec f bs = Ok v r a -> (depth v + length r <= length bs)%nat.
Proof. intros f bs v r a H. pose proof (dec_spec f bs) as Hd. rewrite H in Hd. apply Hd. Qed.
