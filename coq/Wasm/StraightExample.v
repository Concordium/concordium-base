(** A concrete straight-line sequence satisfying the hypotheses of
    [compile_straightline_correct_partial]: it exercises the preservation copy of [local.set] (local 0 is
    on the provider stack twice when it is overwritten), re-use of the freed reserve register,
    constant pooling (the constant 5 is used twice and stored once) and the short-circuited
    [local.set] (the multiplication writes directly into local 1). *)
From Coq Require Import ZArith NArith List.
From CB Require Import Wasm.Syntax Wasm.Compile.
Import ListNotations.
Local Open Scope Z_scope.

Definition ex_cx : cctx := {| cx_func_type := fun _ => None; cx_type := fun _ => None; cx_return := Some T_i32 |}.
Definition ex_bs : list binstr :=
  [BLocalGet 0; BLocalGet 0; BConst T_i32 5; BLocalSet 0; BBinop T_i32 Add; BConst T_i32 5; BBinop T_i32 Mul;
   BLocalSet 1; BLocalGet 1; BConst T_i32 7; BBinop T_i32 Sub].

(** with memory instructions: a store, a sign-extending packed load, memory.grow *)
Definition ex_bs_mem : list binstr :=
  [BConst T_i32 16; BLocalGet 0; BStore T_i32 None 4; BConst T_i32 16; BLoad T_i32 (Some (P8, SX_S)) 4;
   BConst T_i32 1; BMemoryGrow; BBinop T_i32 Add; BLocalTee 1; BUnop T_i32 Extend8S].
