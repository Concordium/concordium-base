(** * [blocks_ok_dead] / [blocks_ok_r_dead] WIDEN [blocks_ok] / [blocks_ok_r]: a body they accept
    has no dead code ([strip] is the identity on it), so the dead-code theorems cover it. *)
From Coq Require Import ZArith NArith List Lia Bool.
From CB Require Import Wasm.Syntax Wasm.Compile Wasm.SyntaxProofs Wasm.StraightProofs Wasm.BlockSim Wasm.BlockTheorem Wasm.BlockDead
     Wasm.BlockDeadTheorem.
Import ListNotations.
Local Open Scope Z_scope.

Lemma lvl_split nl cx : forall a b v, lvl nl cx (a ++ b) v = true -> vinv v ->
  exists v1, lvl nl cx a v = true /\ lvl nl cx b v1 = true /\ vinv v1.
Proof.
  induction a as [|op a IH]; intros b v H Hi; cbn [app lvl] in *.
  - exists v. auto.
  - apply andb_true_iff in H. destruct H as [Hk H]. destruct (vstep cx v op) as [v1|] eqn:Ev; [|discriminate].
    destruct (vinv_step nl cx v op v1 Hk Ev Hi) as [Hi1 _].
    destruct (IH b v1 H Hi1) as (v2 & A & B & C0). exists v2. rewrite Hk, A. auto.
Qed.

Lemma term_unreach nl cx v b v1 : term_b b = true -> ctl_ok nl cx v (OBasic b) = true -> v_unreach v = None ->
  vstep cx v (OBasic b) = Some v1 -> v_unreach v1 <> None.
Proof.
  intros Ht Hk Hu H. destruct (vstep_basic_shape cx v b v1 H) as (n & w & Ep & [[_ He]|[_ Hm]]).
  - destruct (He Ht) as [-> Ec]. unfold ctl_ok in Hk. rewrite Hu, Ec in Hk. destruct (cx_return cx); discriminate Hk.
  - unfold v_mark_unreachable in Hm. destruct (v_ctrls w); [discriminate|]. inversion Hm; subst. cbn.
    destruct (v_unreach w); discriminate.
Qed.

Lemma after_delim cx v d w : (d = OEnd \/ d = OElse) -> vinv v -> vstep cx v d = Some w -> v_unreach w = None.
Proof.
  intros Hd Hi H. destruct (vstep_delim cx d v w Hd H) as (x & Ep & -> & _). apply (pop_ctrl_un v x Hi Ep).
Qed.

Lemma lvl_open nl cx op X v : opener op -> v_unreach v = None -> lvl nl cx (op :: X) v = true ->
  exists va, v_unreach va = None /\ lvl nl cx X va = true.
Proof.
  intros Ho Hu H. cbn [lvl] in H. apply andb_true_iff in H. destruct H as [_ H].
  destruct (vstep cx v op) as [va|] eqn:Ev; [|discriminate]. exists va. split; [|exact H].
  apply (open_live cx op v va Ho Hu Ev).
Qed.

Lemma lvl_body nl cx B d X va : (d = OEnd \/ d = OElse) -> v_unreach va = None -> lvl nl cx (B ++ d :: X) va = true ->
  lvl nl cx B va = true /\ exists w, v_unreach w = None /\ lvl nl cx X w = true.
Proof.
  intros Hd Hua H. destruct (lvl_split nl cx _ _ _ H (or_introl Hua)) as (vb & A & Hx & Hi). split; [exact A|].
  cbn [lvl] in Hx. apply andb_true_iff in Hx. destruct Hx as [_ Hx].
  destruct (vstep cx vb d) as [w|] eqn:Ev; [|discriminate]. exists w. split; [apply (after_delim cx vb d w Hd Hi Ev)|exact Hx].
Qed.

Lemma strip_id nl cx : forall is v, v_unreach v = None -> lvl nl cx (flatten is) v = true -> strip is = is.
Proof.
  induction is as [|b r IHr|bt body r IHb IHr|bt body r IHb IHr|bt thn els r IHt IHe IHr] using instrs_ind; intros v Hu Hl.
  - reflexivity.
  - change (flatten (Basic b :: r)) with (OBasic b :: flatten r) in Hl. cbn [lvl] in Hl.
    apply andb_true_iff in Hl. destruct Hl as [Hk Hl]. destruct (vstep cx v (OBasic b)) as [v1|] eqn:Ev; [|discriminate].
    destruct (term_b b) eqn:Et.
    + rewrite (strip_cons_term b r Et).
      rewrite (lvl_unreach_nil nl cx r v1 (term_unreach nl cx v b v1 Et Hk Hu Ev) Hl). reflexivity.
    + rewrite (strip_cons_live (Basic b) r Et). destruct (live_basic cx v b v1 Et Ev) as [Hu1 _].
      rewrite (IHr v1 ltac:(congruence) Hl). reflexivity.
  - rewrite (strip_cons_live (Block bt body) r eq_refl), strip_block. rewrite flatten_block in Hl.
    destruct (lvl_open nl cx (OBlock bt) _ v I Hu Hl) as (va & Hua & Hl1).
    destruct (lvl_body nl cx _ OEnd _ va (or_introl eq_refl) Hua Hl1) as (Hb & w & Huw & Hl2).
    rewrite (IHb va Hua Hb), (IHr w Huw Hl2). reflexivity.
  - rewrite (strip_cons_live (Loop bt body) r eq_refl), strip_loop. rewrite flatten_loop in Hl.
    destruct (lvl_open nl cx (OLoop bt) _ v I Hu Hl) as (va & Hua & Hl1).
    destruct (lvl_body nl cx _ OEnd _ va (or_introl eq_refl) Hua Hl1) as (Hb & w & Huw & Hl2).
    rewrite (IHb va Hua Hb), (IHr w Huw Hl2). reflexivity.
  - rewrite (strip_cons_live (If bt thn els) r eq_refl), strip_if. destruct els as [|e els].
    + rewrite flatten_if1 in Hl. destruct (lvl_open nl cx (OIf bt) _ v I Hu Hl) as (va & Hua & Hl1).
      destruct (lvl_body nl cx _ OEnd _ va (or_introl eq_refl) Hua Hl1) as (Hb & w & Huw & Hl2).
      rewrite (IHt va Hua Hb), (IHr w Huw Hl2). reflexivity.
    + rewrite flatten_if2 in Hl. destruct (lvl_open nl cx (OIf bt) _ v I Hu Hl) as (va & Hua & Hl1).
      destruct (lvl_body nl cx _ OElse _ va (or_intror eq_refl) Hua Hl1) as (Hb & w & Huw & Hl2).
      destruct (lvl_body nl cx _ OEnd _ w (or_introl eq_refl) Huw Hl2) as (He & w2 & Huw2 & Hl3).
      rewrite (IHt va Hua Hb), (IHe w Huw He), (IHr w2 Huw2 Hl3). reflexivity.
Qed.

Theorem blocks_ok_widen nl cx is : blocks_ok nl cx is = true -> blocks_ok_dead nl cx is = true.
Proof.
  intros H. unfold blocks_ok_dead. unfold blocks_ok in H. pose proof H as H0. apply andb_true_iff in H0. destruct H0 as [_ Hl].
  rewrite (strip_id nl cx is (init_vstate None) eq_refl Hl). exact H.
Qed.
Theorem blocks_ok_r_widen nl cx t is : blocks_ok_r nl cx t is = true -> blocks_ok_r_dead nl cx t is = true.
Proof.
  intros H. unfold blocks_ok_r_dead. unfold blocks_ok_r in H. pose proof H as H0. apply andb_true_iff in H0. destruct H0 as [_ Hl].
  unfold flatten_body in Hl. destruct (lvl_split nl cx _ _ _ Hl (or_introl eq_refl)) as (v1 & A & _).
  rewrite (strip_id nl cx is (init_vstate (Some t)) eq_refl A). exact H.
Qed.
