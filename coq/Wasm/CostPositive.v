(** Both generated schedules are positive on every instruction that can close a control-flow
    cycle (what [MeterBound] needs), and price the delimiters at 0 (what [MeterFlat] needs). *)
From Coq Require Import List.
From CB Require Import Wasm.Syntax Wasm.CostCtx Wasm.CostProofs Wasm.Meter Wasm.MeterBound Wasm.MeterFlat.
From CB Require Gen.CostV0 Gen.CostV1.

Lemma jumpy_branch b : jumpy b = true -> is_branch_or_call (OBasic b) = true.
Proof. destruct b; cbn; intro H; try discriminate; reflexivity. Qed.

Theorem flat_agree_v0_v1 : forall m m',
  (inject CostV0.cfg m = Some m' ->
   inject_flat CostV0.cfg m (map (fun f => flatten_body (f_body f)) (m_funcs m)) =
   Some (map (fun f => flatten_body (f_body f)) (m_funcs m'))) /\
  (inject CostV1.cfg m = Some m' ->
   inject_flat CostV1.cfg m (map (fun f => flatten_body (f_body f)) (m_funcs m)) =
   Some (map (fun f => flatten_body (f_body f)) (m_funcs m'))).
Proof.
  intros m m'. split; apply MeterFlat.flat_structured_agree; intro L;
    first [apply (v0_end_else L (ctx_of_module m)) | apply (v1_end_else L (ctx_of_module m))].
Qed.

Theorem schedules_positive : forall cx, positive_cfg CostV0.cfg cx /\ positive_cfg CostV1.cfg cx.
Proof.
  intro cx. split; split.
  - intros b L c H Hj. exact (v0_total _ _ _ _ H (jumpy_branch _ Hj)).
  - exact v0_branch.
  - intros b L c H Hj. exact (v1_total _ _ _ _ H (jumpy_branch _ Hj)).
  - exact v1_branch.
Qed.
