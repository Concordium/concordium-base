(** The stored-artifact record built for a compiled module ([s_artifact_of]) projects
    ([to_machine]) to exactly the machine artifact [build_artifact] builds from the same compiler
    output: the artifact whose bytes are stored and the one the C01 layers talk about are the same. *)
From Coq Require Import ZArith NArith List Bool Lia.
From CB Require Import Wasm.Syntax Wasm.Sem Wasm.Compile Wasm.Machine Wasm.ArtifactCodec Wasm.ArtifactView.
Local Open Scope Z_scope.

Lemma wrap_signed M h z : 0 < M -> (if z mod M <? h then z mod M else z mod M - M) mod M = z mod M.
Proof.
  intro HM. destruct (z mod M <? h); [apply Z.mod_mod; lia|].
  rewrite <- (Z.mod_add (z mod M - M) 1 M) by lia. replace (z mod M - M + 1 * M) with (z mod M) by lia.
  apply Z.mod_mod. lia.
Qed.

Lemma map_id_ext {A} (f : A -> A) l : (forall x, In x l -> f x = x) -> map f l = l.
Proof.
  induction l as [|a l IH]; intros H; [reflexivity|]. cbn [map].
  rewrite H by (left; reflexivity). rewrite IH; [reflexivity|]. intros x Hx. apply H. right. exact Hx.
Qed.

Lemma map_combine_snd {A B} (l1 : list A) (l2 : list B) :
  length l1 = length l2 -> map snd (combine l1 l2) = l2.
Proof.
  revert l2. induction l1 as [|a l1 IH]; intros [|b l2] H; try discriminate; [reflexivity|].
  cbn [combine map snd]. rewrite IH by (inversion H; reflexivity). reflexivity.
Qed.

Lemma func_view_s_func_of locals f : 0 <= cf_num_registers f -> func_view (s_func_of locals f) = f.
Proof.
  intros H. destruct f as [ti ps nl rt nr cs code]. unfold func_view, s_func_of. cbn in *.
  rewrite !Nat2N.id, Z2N.id by exact H. reflexivity.
Qed.

Lemma signed32_small n : (n < 2147483648)%N -> Z.to_N (signed32 (Z.of_N n)) = n.
Proof.
  intros H. unfold signed32. cbv zeta.
  assert (E : Z.of_N n mod 4294967296 = Z.of_N n) by (apply Z.mod_small; lia).
  rewrite E. destruct (Z.ltb_spec (Z.of_N n) 2147483648); [apply N2Z.id | lia].
Qed.

Theorem to_machine_s_artifact_of_thm : forall cm m elem_shift names exports code sa,
  view_okb cm m names code = true ->
  s_artifact_of cm m elem_shift names exports code = Some sa ->
  build_artifact cm m elem_shift code = Some (to_machine sa).
Proof.
  intros cm m sh names exports code sa Hok Hs.
  unfold view_okb in Hok. rewrite !andb_true_iff in Hok. destruct Hok as [[[Hn Hc] Hr] Hd].
  apply Nat.eqb_eq in Hn. apply Nat.eqb_eq in Hc.
  rewrite forallb_forall in Hr. rewrite forallb_forall in Hd.
  unfold s_artifact_of in Hs.
  destruct (build_artifact cm m sh code) as [art|] eqn:Hb; [|discriminate].
  inversion Hs; subst sa; clear Hs. f_equal.
  unfold build_artifact in Hb.
  destruct (init_table _ _) as [tbl|]; [|discriminate]. inversion Hb; subst art; clear Hb.
  unfold to_machine. cbn [sa_imports sa_types sa_table sa_memory sa_globals sa_code
                          a_imports a_types a_table a_memory a_globals a_code].
  f_equal.
  - (* imports *)
    rewrite map_map. cbn [si_ty].
    change (fun x : list N * list N * functype => snd x) with (@snd (list N * list N) functype).
    symmetry. apply map_combine_snd. rewrite map_length. exact Hn.
  - (* table *)
    rewrite map_map. symmetry. apply map_id_ext. intros [i|] _; [rewrite Nat2N.id|]; reflexivity.
  - (* memory *)
    destruct (m_mem m) as [l|]; [|reflexivity]. cbn [sm_init sm_max sm_data]. f_equal. f_equal.
    rewrite map_map. symmetry. apply map_id_ext. intros [off bs] Hin. cbn [sd_offset sd_init fst snd].
    specialize (Hd _ Hin). cbn [fst snd] in Hd. apply andb_true_iff in Hd. destruct Hd as [Ho Hbs].
    apply N.ltb_lt in Ho. rewrite signed32_small by exact Ho. f_equal.
    rewrite map_map. apply map_id_ext. intros b Hb. rewrite forallb_forall in Hbs.
    specialize (Hbs _ Hb). apply Z.leb_le in Hbs. apply Z2N.id. exact Hbs.
  - (* globals *)
    rewrite map_map. apply map_ext. intros g. destruct (g_init g); cbn [ginit_reg]; symmetry;
      [apply (wrap_signed two32) | apply (wrap_signed two64)]; reflexivity.
  - (* code *)
    symmetry. rewrite map_map.
    transitivity (map snd (combine (map (fun fd : nat * list valtype * list opcode => snd (fst fd)) (cm_funcs cm)) code)).
    + apply map_ext_in. intros [ls f] Hin. cbn [fst snd]. apply func_view_s_func_of.
      apply Z.leb_le. apply Hr. eapply in_combine_r. exact Hin.
    + apply map_combine_snd. rewrite map_length. symmetry. exact Hc.
Qed.
