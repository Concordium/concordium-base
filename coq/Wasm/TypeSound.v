(** * Wasm/TypeSound — type soundness of the reference semantics ([Wasm/Sem.v]) with respect
    to the declarative typing ([Wasm/Typing.v]): executing well-typed code from a well-typed
    state never yields [RStuck] (progress) and every result is typed (preservation).
    The interpreter is big-step with fuel, so both are proved together by induction on fuel. *)
From Coq Require Import ZArith List Bool Lia FMapPositive.
From CB Require Import Wasm.Syntax Wasm.Sem Wasm.SemProofs Wasm.Typing Wasm.Imports.
Import ListNotations.

Notation tys := (map type_of_val).

Lemma tys_app a b : tys (a ++ b) = tys a ++ tys b.
Proof. apply map_app. Qed.
Lemma tys_cons_inv vs t ts : tys vs = t :: ts -> exists v r, vs = v :: r /\ type_of_val v = t /\ tys r = ts.
Proof. destruct vs as [|v r]; cbn; [discriminate|]. intros E; inversion E; eauto. Qed.
Lemma tys_app_inv : forall ts1 vs ts2, tys vs = ts1 ++ ts2 ->
  exists v1 v2, vs = v1 ++ v2 /\ tys v1 = ts1 /\ tys v2 = ts2.
Proof.
  induction ts1 as [|t r IH]; intros vs ts2 E.
  - exists [], vs. auto.
  - cbn in E. apply tys_cons_inv in E. destruct E as (v & vr & -> & <- & E).
    destruct (IH _ _ E) as (v1 & v2 & -> & <- & <-). exists (v :: v1), v2. auto.
Qed.
Lemma i32_inv v : type_of_val v = T_i32 -> exists z, v = VI32 z.
Proof. destruct v; cbn; [eauto|discriminate]. Qed.
Lemma tys_i32_inv vs ts : tys vs = T_i32 :: ts -> exists z r, vs = VI32 z :: r /\ tys r = ts.
Proof. intro E. apply tys_cons_inv in E. destruct E as (v & r & -> & Hv & E). apply i32_inv in Hv. destruct Hv as [z ->]. eauto. Qed.
Lemma i64_inv v : type_of_val v = T_i64 -> exists z, v = VI64 z.
Proof. destruct v; cbn; [discriminate|eauto]. Qed.
Lemma payload_typed t v : type_of_val v = t -> exists z, payload t v = Some z.
Proof. destruct v, t; cbn; try discriminate; eauto. Qed.
Lemma tys_payload_inv vs t ts : tys vs = t :: ts -> exists v x r, vs = v :: r /\ payload t v = Some x /\ tys r = ts.
Proof. intro E. apply tys_cons_inv in E. destruct E as (v & r & -> & Hv & E). destruct (payload_typed _ _ Hv). eauto 6. Qed.
Lemma mkval_type t z : type_of_val (mkval t z) = t.
Proof. destruct t; reflexivity. Qed.

Lemma nth_map2 {A B C} (f : A -> C) (g : B -> C) : forall (l : list A) (l' : list B) i y,
  map f l = map g l' -> nth_error l' i = Some y -> exists x, nth_error l i = Some x /\ f x = g y.
Proof.
  induction l as [|a l IH]; intros [|b l'] i y E; cbn in E; try discriminate.
  - destruct i; discriminate.
  - inversion E. destruct i; cbn.
    + intros H; inversion H; subst. eauto.
    + apply IH; auto.
Qed.
Lemma set_nth_typed {C} (f : val -> C) : forall (l : list val) i y x,
  nth_error l i = Some y -> f x = f y -> exists l', set_nth l i x = Some l' /\ map f l' = map f l.
Proof.
  induction l as [|a l IH]; intros [|i] y x H E; cbn in H; try discriminate.
  - inversion H; subst. cbn. eexists. split; [reflexivity|]. cbn. now rewrite E.
  - cbn. destruct (IH _ _ _ H E) as (l' & -> & M). eexists. split; [reflexivity|]. cbn. now rewrite M.
Qed.

Section TS.
Variable host : nat -> list val -> option memory -> host_result.
Variable page_cap : N.
Variable m : module.

Definition dummy_ft : functype := {| ft_params := []; ft_result := None |}.
Definition ftypes : list functype :=
  map (fun ti => nth ti (m_types m) dummy_ft) (m_imports m ++ map f_type (m_funcs m)).
Definition gtypes : list (valtype * bool) :=
  map (fun g => (type_of_val (g_init g), g_mut g)) (m_globals m).
Definition has_mem : bool := match m_mem m with Some _ => true | None => false end.
Definition has_table : bool := match m_table m with Some _ => true | None => false end.

(** [C] is a typing context of module [m] (any locals, labels and return type) *)
Definition ctx_for (C : tctx) : Prop :=
  tc_types C = m_types m /\ tc_funcs C = ftypes /\ tc_globals C = gtypes /\
  (tc_memory C = true -> has_mem = true).

Definition store_ok (s : store) : Prop :=
  (has_mem = true -> s_mem s <> None) /\
  tys (s_globals s) = map fst gtypes /\
  Forall (fun e => match e with Some fi => func_type m fi <> None | None => True end) (s_table s).

Lemma ctx_for_push C bt : ctx_for C -> ctx_for (push_label C bt).
Proof. intros H. exact H. Qed.

Definition simple (b : binstr) : bool :=
  match b with
  | BBr _ | BBrIf _ | BBrTable _ _ | BReturn | BCall _ | BCallIndirect _ => false
  | _ => true
  end.

Ltac fin := cbv beta iota delta [ok trap stuck with_mem set_mem set_globals s_mem s_globals s_table]; repeat split; auto;
  cbn [map type_of_val cvt_to]; rewrite ?mkval_type; try discriminate; try congruence.

(** straight-line instructions: progress and preservation *)
Lemma exec_simple_safe C b t1 t2 s locals stack :
  basic_ok C b t1 t2 -> simple b = true -> ctx_for C -> store_ok s ->
  tys locals = tc_locals C -> tys stack = t1 ->
  match exec_simple page_cap b s locals stack with
  | inl true => True
  | inl false => False
  | inr (s', l', st') => store_ok s' /\ tys l' = tc_locals C /\ tys st' = t2
  end.
Proof.
  intros HB HS (CT & CF & CG & CM) (SM & SG & ST) HL HK.
  destruct HB; cbn in HS; try discriminate; cbn [exec_simple].
  - destruct stack; exact I.
  - subst rest. destruct stack; repeat split; auto.
  - apply tys_cons_inv in HK. destruct HK as (v & r & -> & _ & HK). repeat split; auto.
  - apply tys_i32_inv in HK. destruct HK as (c & r & -> & HK).
    apply tys_cons_inv in HK. destruct HK as (v2 & r2 & -> & H2 & HK).
    apply tys_cons_inv in HK. destruct HK as (v1 & r3 & -> & H1 & HK). rewrite H1, H2.
    replace (valtype_eqb t t) with true by (destruct t; reflexivity).
    cbn. repeat split; auto. cbn.  destruct (c =? 0)%Z; congruence.
  - subst rest.
    destruct (nth_map2 type_of_val (fun x => x) locals (tc_locals C) i t) as (v & Hv & Ht);
      [now rewrite map_id|auto|].
    unfold nth_opt. destruct stack; rewrite Hv; cbn; repeat split; auto; cbn; congruence.
  - apply tys_cons_inv in HK. destruct HK as (v & r & -> & Hv & HK).
    destruct (nth_map2 type_of_val (fun x => x) locals (tc_locals C) i t) as (v0 & Hv0 & Ht0);
      [now rewrite map_id|auto|].
    destruct (set_nth_typed type_of_val locals i v0 v Hv0) as (l' & -> & M); [congruence|].
    cbn. repeat split; auto. congruence.
  - apply tys_cons_inv in HK. destruct HK as (v & r & -> & Hv & HK).
    destruct (nth_map2 type_of_val (fun x => x) locals (tc_locals C) i t) as (v0 & Hv0 & Ht0);
      [now rewrite map_id|auto|].
    destruct (set_nth_typed type_of_val locals i v0 v Hv0) as (l' & -> & M); [congruence|].
    cbn. repeat split; auto. congruence. cbn. congruence.
  - subst rest.
    rewrite CG in H.
    destruct (nth_map2 type_of_val fst (s_globals s) gtypes i (t, mu) SG H) as (v & Hv & Ht). cbn in Ht.
    unfold nth_opt. destruct stack; rewrite Hv; cbn; repeat split; auto; cbn; congruence.
  - apply tys_cons_inv in HK. destruct HK as (v & r & -> & Hv & HK). rewrite CG in H.
    destruct (nth_map2 type_of_val fst (s_globals s) gtypes i (t, true) SG H) as (v0 & Hv0 & Ht0).
    destruct (set_nth_typed type_of_val (s_globals s) i v0 v Hv0) as (g' & -> & M); [cbn in Ht0; congruence|].
    cbn. repeat split; auto. cbn.  congruence.
  - apply tys_i32_inv in HK. destruct HK as (a & r & -> & HK).
    destruct (s_mem s) as [mm|] eqn:EM; [|exfalso; apply (SM (CM H)); reflexivity].
    destruct pk as [[p sg]|].
    + destruct (mem_load mm _ (pack_bytes p)); [|exact I]. fin.
    + destruct (mem_load mm _ (type_bytes t)); [|exact I]. fin.
  - apply tys_payload_inv in HK. destruct HK as (v & x & r & -> & -> & HK).
    apply tys_i32_inv in HK. destruct HK as (a & r2 & -> & HK).
    destruct (s_mem s) as [mm|] eqn:EM; [|exfalso; apply (SM (CM H)); reflexivity].
    destruct (mem_store mm _ _ x); [|exact I]. fin.
  - subst rest.
    destruct (s_mem s) as [mm|] eqn:EM; [|exfalso; apply (SM (CM H)); reflexivity].
    destruct stack; fin.
  - apply tys_i32_inv in HK. destruct HK as (a & r & -> & HK).
    destruct (s_mem s) as [mm|] eqn:EM; [|exfalso; apply (SM (CM H)); reflexivity].
    destruct (mem_grow page_cap mm a) as [mm' rr]. fin.
  - subst rest.
    destruct stack; fin.
  - apply tys_payload_inv in HK. destruct HK as (v & x & r & -> & -> & HK).
    destruct op; cbn [app_unop]; try fin.
    cbn in H. subst t. fin.
  - apply tys_payload_inv in HK. destruct HK as (v2 & y & r & -> & -> & HK).
    apply tys_payload_inv in HK. destruct HK as (v1 & x & r2 & -> & -> & HK).
    destruct (app_binop t op x y); [|exact I]. fin.
  - apply tys_payload_inv in HK. destruct HK as (v & x & r & -> & -> & HK). fin.
  - apply tys_payload_inv in HK. destruct HK as (v2 & y & r & -> & -> & HK).
    apply tys_payload_inv in HK. destruct HK as (v1 & x & r2 & -> & -> & HK). fin.
  - apply tys_cons_inv in HK. destruct HK as (v & r & -> & Hv & HK).
    destruct op; cbn in Hv.
    + apply i64_inv in Hv. destruct Hv as [z ->]. fin.
    + apply i32_inv in Hv. destruct Hv as [z ->]. fin.
    + apply i32_inv in Hv. destruct Hv as [z ->]. fin.
Qed.


Definition res_ok (C : tctx) (t2 : list valtype) (r : res) : Prop :=
  match r with
  | RNormal s' l' st' => store_ok s' /\ tys l' = tc_locals C /\ tys st' = t2
  | RBr l s' l' st' =>
      store_ok s' /\ tys l' = tc_locals C /\
      exists bt vs rest, nth_error (tc_labels C) l = Some bt /\ st' = vs ++ rest /\ tys vs = bt_list bt
  | RReturn s' st' =>
      store_ok s' /\ exists vs rest, st' = vs ++ rest /\ tys vs = bt_list (tc_return C)
  | RTrap | RFuel => True
  | RStuck => False
  end.

Definition result_ok (ft : functype) (r : option val) : Prop :=
  match ft_result ft, r with
  | None, None => True
  | Some t, Some v => type_of_val v = t
  | _, _ => False
  end.
Definition inv_ok (ft : functype) (r : sum res (store * option val)) : Prop :=
  match r with
  | inr (s', v) => store_ok s' /\ result_ok ft v
  | inl RTrap | inl RFuel => True
  | inl _ => False
  end.

Definition fctx (ft : functype) (fn : func) : tctx :=
  {| tc_types := m_types m; tc_funcs := ftypes; tc_globals := gtypes;
     tc_locals := ft_params ft ++ f_locals fn; tc_memory := has_mem; tc_table := has_table;
     tc_labels := []; tc_return := ft_result ft |}.

Record module_ok : Prop := {
  mo_indices : Forall (fun ti => ti < length (m_types m))%nat (m_imports m ++ map f_type (m_funcs m));
  mo_bodies : forall fn ft, In fn (m_funcs m) -> nth_error (m_types m) (f_type fn) = Some ft ->
              body_ok (fctx ft fn) (f_body fn)
}.

(** imported functions return values of their declared result type and do not remove the memory *)
Definition host_ok : Prop :=
  forall fi args mem ft, nth_error ftypes fi = Some ft -> tys args = ft_params ft ->
    match host fi args mem with
    | HostOk mm r => (mem <> None -> mm <> None) /\ result_ok ft r
    | HostTrap => True
    end.

Hypothesis MOK : module_ok.
Hypothesis HOK : host_ok.

Lemma func_type_ftypes fi : func_type m fi = nth_error ftypes fi.
Proof.
  pose proof (mo_indices MOK) as IDX. unfold func_type, ftypes, nth_opt.
  rewrite nth_error_map.
  assert (G : forall ti, (ti < length (m_types m))%nat -> nth_error (m_types m) ti = Some (nth ti (m_types m) dummy_ft)).
  { intros ti H. apply nth_error_nth'. exact H. }
  rewrite Forall_forall in IDX.
  destruct (Nat.ltb_spec fi (length (m_imports m))) as [L|L].
  - rewrite nth_error_app1 by exact L. destruct (nth_error (m_imports m) fi) as [ti|] eqn:E; cbn; [|reflexivity].
    apply G, IDX. apply in_or_app. left. eapply nth_error_In; eauto.
  - rewrite nth_error_app2 by exact L. rewrite nth_error_map.
    destruct (nth_error (m_funcs m) (fi - length (m_imports m))) as [fn|] eqn:E; cbn; [|reflexivity].
    apply G, IDX. apply in_or_app. right. apply in_map. eapply nth_error_In; eauto.
Qed.

Lemma functype_eqb_eq a b : functype_eqb a b = true -> a = b.
Proof.
  destruct a as [pa ra], b as [pb rb]. unfold functype_eqb. cbn. intros H. apply andb_true_iff in H.
  destruct H as [H1 H2]. apply valtypes_eqb_eq in H1. subst. f_equal.
  destruct ra as [[]|], rb as [[]|]; cbn in H2; congruence.
Qed.

Lemma take_args_gen : forall ra st acc, take_args (length ra) (ra ++ st) acc = Some (rev ra ++ acc, st).
Proof.
  induction ra as [|v r IH]; intros st acc; cbn; [reflexivity|].
  rewrite IH. now rewrite <- app_assoc.
Qed.
Lemma take_args_spec ps stack rest : tys stack = rev ps ++ rest ->
  exists args st, take_args (length ps) stack [] = Some (args, st) /\ tys args = ps /\ tys st = rest.
Proof.
  intros H. apply tys_app_inv in H. destruct H as (ra & st & -> & H1 & H2).
  exists (rev ra), st. split.
  - replace (length ps) with (length ra).
    + rewrite take_args_gen. now rewrite app_nil_r.
    + rewrite <- (map_length type_of_val ra), H1. apply rev_length.
  - split; auto. rewrite map_rev, H1. apply rev_involutive.
Qed.

Lemma firstn_bt_all bt (vs : list val) : tys vs = bt_list bt -> firstn (arity bt) vs = vs.
Proof. destruct bt as [tt|]; destruct vs as [|v0 [|w r]]; cbn; try discriminate; auto. Qed.
Lemma firstn_bt_app bt (vs rest : list val) : tys vs = bt_list bt -> firstn (arity bt) (vs ++ rest) = vs.
Proof. destruct bt as [tt|]; destruct vs as [|v0 [|w r]]; cbn; try discriminate; auto. Qed.

Lemma res_ok_other C t t' r : (forall s l st, r <> RNormal s l st) -> res_ok C t r -> res_ok C t' r.
Proof. destruct r; cbn; auto. intros H. exfalso. eapply H; reflexivity. Qed.

Lemma exec_instr_simple f b s l st : simple b = true ->
  exec_instr host page_cap m (S f) s l st (Basic b) =
  match exec_simple page_cap b s l st with
  | inr (s', l', st') => RNormal s' l' st'
  | inl true => RTrap
  | inl false => RStuck
  end.
Proof. destruct b; cbn [simple]; try discriminate; reflexivity. Qed.

Definition P_seq (f : nat) : Prop := forall C is t1 t2 s l st,
  ctx_for C -> seq_ok C is t1 t2 -> store_ok s -> tys l = tc_locals C -> tys st = t1 ->
  res_ok C t2 (exec_seq host page_cap m f s l st is).
Definition P_instr (f : nat) : Prop := forall C i t1 t2 s l st,
  ctx_for C -> instr_ok C i t1 t2 -> store_ok s -> tys l = tc_locals C -> tys st = t1 ->
  res_ok C t2 (exec_instr host page_cap m f s l st i).
Definition P_inv (f : nat) : Prop := forall s fi args ft,
  store_ok s -> nth_error ftypes fi = Some ft -> tys args = ft_params ft ->
  inv_ok ft (invoke host page_cap m f s fi args).

Lemma P_seq_step f : P_seq f -> P_instr f -> P_seq (S f).
Proof.
  intros IS II C is t1 t2 s l st HC HT HS HL HK. rewrite eseq_S.
  inversion HT; subst.
  - cbn. auto.
  - pose proof (II _ _ _ _ _ _ _ HC H HS HL eq_refl) as R.
    destruct (exec_instr host page_cap m f s l st i) as [s' l' st'| | | | |] eqn:E; cbn in R |- *; auto.
    destruct R as (R1 & R2 & R3). eapply IS; eauto.
Qed.

Lemma call_result C ft rest s' r locals st :
  store_ok s' -> result_ok ft r -> tys locals = tc_locals C -> tys st = rest ->
  res_ok C (bt_list (ft_result ft) ++ rest)
    (RNormal s' locals (match r with Some v => v :: st | None => st end)).
Proof.
  intros HS HR HL HK. cbn. split; auto. split; auto. unfold result_ok in HR.
  destruct (ft_result ft), r; cbn; try contradiction; congruence.
Qed.

Lemma invoke_res_ok C ft rest (x : sum res (store * option val)) locals st :
  inv_ok ft x -> tys locals = tc_locals C -> tys st = rest ->
  res_ok C (bt_list (ft_result ft) ++ rest)
    (match x with
     | inr (s', r) => RNormal s' locals (match r with Some v => v :: st | None => st end)
     | inl r => r
     end).
Proof.
  intros R HL HK. destruct x as [r|[s' r]]; cbn in R.
  - destruct r; cbn; auto; contradiction.
  - destruct R as [R1 R2]. apply call_result; auto.
Qed.

Ltac getK st :=
  match goal with
  | H : _ = map type_of_val st |- _ => symmetry in H; rename H into HK
  | H : map type_of_val st = _ |- _ => rename H into HK
  end.

Lemma P_instr_step f : P_seq f -> P_instr f -> P_inv f -> P_instr (S f).
Proof.
  intros IS II IV C i t1 t2 s l st HC HT HS HL HK. subst t1.
  inversion HT; subst.
  - destruct (simple b) eqn:SB.
    { rewrite exec_instr_simple by exact SB.
      pose proof (exec_simple_safe _ _ _ _ s l st H SB HC HS HL eq_refl) as R.
      destruct (exec_simple page_cap b s l st) as [[]|[[s' l'] st']]; cbn; auto. }
    destruct HC as (CT & CF & CG & CM).
    destruct b; cbn in SB; try discriminate; rewrite einstr_S; inversion H; subst; getK st.
    + apply tys_app_inv in HK. destruct HK as (vs & rest & -> & V1 & V2).
      cbn. split; auto. split; auto. eauto 7.
    + apply tys_i32_inv in HK. destruct HK as (c & r & -> & HK).
      destruct (c =? 0)%Z; cbn; [auto|]. split; auto. split; auto.
      apply tys_app_inv in HK. destruct HK as (vs & rest' & -> & V1 & V2). eauto 7.
    + apply tys_i32_inv in HK. destruct HK as (c & r & -> & HK).
      cbn. split; auto. split; auto.
      apply tys_app_inv in HK. destruct HK as (vs & rest' & -> & V1 & V2).
      exists bt, vs, rest'. split; [|auto].
      match goal with X : Forall _ ls |- _ => rename X into HF end.
      destruct (c <? Z.of_nat (length ls))%Z; [|auto].
      unfold nth_opt. destruct (nth_error ls (Z.to_nat c)) as [l0|] eqn:E; [|auto].
      rewrite Forall_forall in HF. apply HF. eapply nth_error_In; eauto.
    + apply tys_app_inv in HK. destruct HK as (vs & rest & -> & V1 & V2).
      cbn. split; auto. eauto.
    + match goal with X : nth_error (tc_funcs C) _ = Some _ |- _ => rename X into HFT end.
      rewrite func_type_ftypes, <- CF, HFT.
      destruct (take_args_spec _ _ _ HK) as (args & st' & -> & A1 & A2).
      rewrite CF in HFT.
      exact (invoke_res_ok C ft _ _ l st' (IV s f0 args ft HS HFT A1) HL A2).
    + match goal with X : nth_error (tc_types C) _ = Some _ |- _ => rename X into HTY end.
      apply tys_i32_inv in HK. destruct HK as (c & r & -> & HK).
      unfold nth_opt. rewrite <- CT, HTY.
      destruct HS as (SM & SG & ST).
      destruct (if (c <? Z.of_nat (length (s_table s)))%Z then nth_error (s_table s) (Z.to_nat c) else None) as [[fi|]|] eqn:ET; cbn; auto.
      assert (TI : func_type m fi <> None).
      { destruct (c <? Z.of_nat (length (s_table s)))%Z; [|discriminate].
        rewrite Forall_forall in ST. apply (ST (Some fi)). eapply nth_error_In; eauto. }
      destruct (func_type m fi) as [ft'|] eqn:EF; [|congruence].
      destruct (functype_eqb ft ft') eqn:EQ; cbn; auto.
      apply functype_eqb_eq in EQ. subst ft'.
      destruct (take_args_spec _ _ _ HK) as (args & st' & -> & A1 & A2).
      rewrite func_type_ftypes in EF.
      exact (invoke_res_ok C ft _ _ l st' (IV s fi args ft (conj SM (conj SG ST)) EF A1) HL A2).
  - rewrite einstr_S.
    match goal with X : seq_ok _ body _ _ |- _ => rename X into HB end.
    pose proof (IS _ _ _ _ s l [] (ctx_for_push _ bt HC) HB HS HL eq_refl) as R.
    destruct (exec_seq host page_cap m f s l [] body) as [s' l' vs|k s' l' vs| | | |] eqn:E; cbn in R; auto.
    + destruct R as (R1 & R2 & R3). rewrite (firstn_bt_all _ _ R3). cbn. split; [exact R1|]. split; [exact R2|].
      now rewrite map_app, R3.
    + destruct R as (R1 & R2 & bt' & vs0 & rest' & RL & -> & RV).
      destruct k as [|k]; cbn in RL.
      * inversion RL; subst bt'. rewrite (firstn_bt_app _ _ _ RV). cbn. split; [exact R1|]. split; [exact R2|]. now rewrite map_app, RV.
      * cbn. split; [exact R1|]. split; [exact R2|]. eauto 7.
  - rewrite einstr_S.
    match goal with X : seq_ok _ body _ _ |- _ => rename X into HB end.
    pose proof (IS _ _ _ _ s l [] (ctx_for_push _ None HC) HB HS HL eq_refl) as R.
    destruct (exec_seq host page_cap m f s l [] body) as [s' l' vs|k s' l' vs| | | |] eqn:E; cbn in R; auto.
    + destruct R as (R1 & R2 & R3). rewrite (firstn_bt_all _ _ R3). cbn. split; [exact R1|]. split; [exact R2|].
      now rewrite map_app, R3.
    + destruct R as (R1 & R2 & bt' & vs0 & rest' & RL & -> & RV).
      destruct k as [|k]; cbn in RL.
      * apply (II C (Loop bt body) (tys st) (bt_list bt ++ tys st)); auto.
      * cbn. split; [exact R1|]. split; [exact R2|]. eauto 7.
  - rewrite einstr_S. getK st.
    apply tys_i32_inv in HK. destruct HK as (c & r & -> & HK). subst rest.
    apply (II C (Block bt (if (c =? 0)%Z then els else thn)) (tys r) (bt_list bt ++ tys r)); auto.
    constructor. destruct (c =? 0)%Z; auto.
Qed.

Lemma fin_ok ft s' vs rest : store_ok s' -> tys vs = bt_list (ft_result ft) ->
  inv_ok ft (match ft_result ft with
             | None => inr (s', None)
             | Some _ => match vs ++ rest with v :: _ => inr (s', Some v) | [] => inl RStuck end
             end).
Proof.
  intros HS HV. destruct (ft_result ft) as [tr|] eqn:ER; destruct vs as [|v0 [|w0 r0]]; cbn in HV; try discriminate;
    cbn; (split; [exact HS|]); unfold result_ok; rewrite ER; [congruence|exact I].
Qed.

Lemma P_inv_step f : P_seq f -> P_inv (S f).
Proof.
  intros IS s fi args ft HS HF HA. rewrite inv_S. cbv zeta.
  destruct (Nat.ltb_spec fi (length (m_imports m))) as [L|L].
  - rewrite func_type_ftypes, HF.
    pose proof (HOK fi args (s_mem s) ft HF HA) as R.
    destruct (host fi args (s_mem s)) as [mm r|]; cbn; auto.
    destruct R as [R1 R2]. split; auto. destruct HS as (SM & SG & ST). repeat split; auto.
  - pose proof HF as HF'. rewrite <- func_type_ftypes in HF'. unfold func_type in HF'.
    rewrite (proj2 (Nat.ltb_ge _ _) L) in HF'. unfold nth_opt in *.
    destruct (nth_error (m_funcs m) (fi - length (m_imports m))) as [fn|] eqn:EFN; [|discriminate].
    rewrite HF'.
    pose proof (mo_bodies MOK fn ft (nth_error_In _ _ EFN) HF') as HB. unfold body_ok in HB.
    assert (HC : ctx_for (push_label (fctx ft fn) (tc_return (fctx ft fn)))) by (repeat split; auto).
    assert (HLc : tys (args ++ map zero_of (f_locals fn)) = tc_locals (push_label (fctx ft fn) (tc_return (fctx ft fn)))).
    { cbn. rewrite map_app, HA. f_equal. rewrite map_map. rewrite <- (map_id (f_locals fn)) at 2.
      apply map_ext. intros []; reflexivity. }
    pose proof (IS _ _ _ _ s _ [] HC HB HS HLc eq_refl) as R.
    destruct (exec_seq host page_cap m f s (args ++ map zero_of (f_locals fn)) [] (f_body fn))
      as [s' l' vs|k s' l' vs|s' vs| | |] eqn:E; cbn in R; try contradiction; try exact I.
    + destruct R as (R1 & R2 & R3). rewrite <- (app_nil_r vs). exact (fin_ok ft s' vs [] R1 R3).
    + destruct R as (R1 & R2 & bt' & vs0 & rest' & RL & -> & RV).
      destruct k as [|k]; cbn in RL; [|destruct k; discriminate].
      inversion RL; subst bt'. exact (fin_ok ft s' vs0 rest' R1 RV).
    + destruct R as (R1 & vs0 & rest' & -> & RV). exact (fin_ok ft s' vs0 rest' R1 RV).
Qed.

Lemma type_sound_all f : P_seq f /\ P_instr f /\ P_inv f.
Proof.
  induction f as [|f (IS & II & IV)].
  - repeat split; intros; cbn; exact I.
  - split; [apply P_seq_step; auto|]. split; [apply P_instr_step; auto|apply P_inv_step; auto].
Qed.

End TS.

Section Run.
Variable host : nat -> list val -> option memory -> host_result.
Variable page_cap : N.
Variable m : module.

(** element and data segments fit (what validation guarantees; the specification fails
    instantiation otherwise) and element entries are existing functions *)
Definition segments_ok : Prop :=
  (forall off fs, In (off, fs) (m_elems m) ->
     exists n, m_table m = Some n /\ (N.to_nat off + length fs <= N.to_nat n)%nat /\
               Forall (fun fi => func_type m fi <> None) fs) /\
  match m_mem m with
  | Some l => forall off bs, In (off, bs) (m_data m) -> (off + N.of_nat (length bs) <= l_min l * page_size)%N
  | None => m_data m = []
  end.

Definition entry_ok (e : option nat) : Prop :=
  match e with Some fi => func_type m fi <> None | None => True end.

Lemma set_nth_len {A} (P : A -> Prop) : forall (l : list A) i x, (i < length l)%nat ->
  exists l', set_nth l i x = Some l' /\ length l' = length l /\ (Forall P l -> P x -> Forall P l').
Proof.
  induction l as [|a l IH]; intros i x H; cbn in H; [lia|].
  destruct i as [|i]; cbn.
  - eexists. split; [reflexivity|]. split; [reflexivity|]. intros F Px. inversion F; subst. constructor; auto.
  - destruct (IH i x ltac:(lia)) as (l' & -> & L & F). eexists. split; [reflexivity|]. split; [cbn; lia|].
    intros Fa Px. inversion Fa; subst. constructor; auto.
Qed.

Lemma write_elems_ok : forall fs t off, (off + length fs <= length t)%nat ->
  Forall entry_ok t -> Forall (fun fi => func_type m fi <> None) fs ->
  exists t', write_elems t off fs = Some t' /\ length t' = length t /\ Forall entry_ok t'.
Proof.
  induction fs as [|fi r IH]; intros t off HL HT HF; cbn [write_elems].
  - eauto.
  - cbn in HL. inversion HF; subst.
    destruct (set_nth_len entry_ok t off (Some fi) ltac:(lia)) as (t1 & -> & L1 & F1).
    destruct (IH t1 (S off)) as (t' & E & L & F); [lia|auto|auto|].
    exists t'. split; auto. split; [lia|auto].
Qed.

Lemma init_table_ok n : forall es t, length t = n ->
  (forall off fs, In (off, fs) es -> (N.to_nat off + length fs <= n)%nat /\ Forall (fun fi => func_type m fi <> None) fs) ->
  Forall entry_ok t -> exists t', init_table t es = Some t' /\ Forall entry_ok t'.
Proof.
  induction es as [|[off fs] r IH]; intros t HL HE HT; cbn [init_table]; [eauto|].
  destruct (HE off fs (or_introl eq_refl)) as [B V].
  destruct (write_elems_ok fs t (N.to_nat off)) as (t1 & -> & L1 & F1); [lia|auto|auto|].
  apply IH; auto; [lia|]. intros o f Hin. apply HE. now right.
Qed.

Lemma init_data_ok : forall ds mm, (forall off bs, In (off, bs) ds -> (off + N.of_nat (length bs) <= mem_len mm)%N) ->
  exists mm', init_data mm ds = Some mm'.
Proof.
  induction ds as [|[off bs] r IH]; intros mm H; cbn [init_data]; [eauto|].
  unfold in_bounds. rewrite (proj2 (N.leb_le _ _) (H off bs (or_introl eq_refl))).
  apply IH. intros o b Hin. rewrite mem_write_len. apply H. now right.
Qed.

Lemma instantiate_ok : segments_ok -> exists s, instantiate m = Some s /\ store_ok m s.
Proof.
  intros [HE HD]. unfold instantiate.
  set (t0 := match m_table m with Some n => repeat (@None nat) (N.to_nat n) | None => @nil (option nat) end).
  assert (T0 : (match m_table m with Some n => Some (repeat None (N.to_nat n)) | None => Some [] end) = Some t0)
    by (unfold t0; destruct (m_table m); reflexivity).
  rewrite T0.
  destruct (init_table_ok (length t0) (m_elems m) t0 eq_refl) as (t & -> & FT).
  { intros off fs Hin. destruct (HE _ _ Hin) as (n & En & B & V). split; auto.
    unfold t0. rewrite En, repeat_length. exact B. }
  { unfold t0. destruct (m_table m); [|constructor]. apply Forall_forall. intros e He. apply repeat_spec in He. subst. exact I. }
  unfold store_ok, has_mem, gtypes.
  destruct (m_mem m) as [l|] eqn:EM.
  - destruct (init_data_ok (m_data m) {| mem_pages := l_min l; mem_max := l_max l; mem_data := PositiveMap.empty Z |}) as (mm & ->).
    { intros off bs Hin. unfold mem_len. cbn. apply HD. exact Hin. }
    eexists. split; [reflexivity|]. cbn. split; [discriminate|]. split; [|exact FT].
    rewrite !map_map. reflexivity.
  - rewrite HD. eexists. split; [reflexivity|]. cbn. split; [discriminate|]. split; [|exact FT].
    rewrite !map_map. reflexivity.
Qed.

Theorem invoke_safe fuel s fi args ft :
  module_ok m -> host_ok host m -> store_ok m s ->
  nth_error (ftypes m) fi = Some ft -> tys args = ft_params ft ->
  inv_ok m ft (invoke host page_cap m fuel s fi args).
Proof.
  intros MOK HOK HS HF HA. destruct (type_sound_all host page_cap m MOK HOK fuel) as (_ & _ & IV). apply IV; auto.
Qed.

Theorem run_never_stuck_thm fuel fi args ft :
  module_ok m -> segments_ok -> host_ok host m ->
  nth_error (ftypes m) fi = Some ft -> tys args = ft_params ft ->
  run host page_cap m fuel fi args <> Stuck.
Proof.
  intros MOK SEG HOK HF HA. unfold run. destruct (instantiate_ok SEG) as (s & -> & HS).
  pose proof (invoke_safe fuel s fi args ft MOK HOK HS HF HA) as R.
  destruct (invoke host page_cap m fuel s fi args) as [r|[s' r]]; [|discriminate].
  destruct r; cbn in R; try contradiction; discriminate.
Qed.
End Run.
