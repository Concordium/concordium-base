(** Proofs about the reference interpreter [Wasm/Sem.v]: more fuel never changes an outcome
    that did not run out of fuel; memory store/load round trips and bounds. *)
From Coq Require Import ZArith NArith List Lia Bool FMapPositive.
From CB Require Import Common.IntN Common.IntNProofs Wasm.Syntax Wasm.Sem.
Import ListNotations.
Local Open Scope Z_scope.

Section Mono.
Variable host : nat -> list val -> option memory -> host_result.
Variable cap : N.
Variable m : module.

Notation eseq := (exec_seq host cap m).
Notation einstr := (exec_instr host cap m).
Notation inv := (invoke host cap m).

Definition mono_seq (f : nat) : Prop :=
  forall f' s l st is, (f <= f')%nat -> eseq f s l st is <> RFuel -> eseq f' s l st is = eseq f s l st is.
Definition mono_instr (f : nat) : Prop :=
  forall f' s l st i, (f <= f')%nat -> einstr f s l st i <> RFuel -> einstr f' s l st i = einstr f s l st i.
Definition mono_inv (f : nat) : Prop :=
  forall f' s fi args, (f <= f')%nat -> inv f s fi args <> inl RFuel -> inv f' s fi args = inv f s fi args.

Lemma eseq_S f s l st is :
  eseq (S f) s l st is =
  match is with
  | [] => RNormal s l st
  | i :: rest => match einstr f s l st i with
                 | RNormal s' l' st' => eseq f s' l' st' rest
                 | r => r
                 end
  end.
Proof. reflexivity. Qed.

(** the [S] branch of [exec_instr] verbatim; [reflexivity] fails if Sem.v changes *)
Lemma einstr_S f s locals stack i :
  einstr (S f) s locals stack i =
      match i with
      | Block bt body =>
          match eseq f s locals [] body with
          | RNormal s' l' vs => RNormal s' l' (firstn (arity bt) vs ++ stack)
          | RBr O s' l' vs => RNormal s' l' (firstn (arity bt) vs ++ stack)
          | RBr (S k) s' l' vs => RBr k s' l' vs
          | r => r
          end
      | Loop bt body =>
          match eseq f s locals [] body with
          | RNormal s' l' vs => RNormal s' l' (firstn (arity bt) vs ++ stack)
          | RBr O s' l' _ => einstr f s' l' stack (Loop bt body)
          | RBr (S k) s' l' vs => RBr k s' l' vs
          | r => r
          end
      | If bt thn els =>
          match stack with
          | VI32 c :: st => einstr f s locals st (Block bt (if c =? 0 then els else thn))
          | _ => RStuck
          end
      | Basic (BBr l) => RBr l s locals stack
      | Basic (BBrIf l) =>
          match stack with
          | VI32 c :: st => if c =? 0 then RNormal s locals st else RBr l s locals st
          | _ => RStuck
          end
      | Basic (BBrTable ls d) =>
          match stack with
          | VI32 c :: st =>
              RBr (if c <? Z.of_nat (length ls)
                   then match nth_opt ls (Z.to_nat c) with Some l => l | None => d end
                   else d) s locals st
          | _ => RStuck
          end
      | Basic BReturn => RReturn s stack
      | Basic (BCall fi) =>
          match func_type m fi with
          | Some ft =>
              match take_args (length (ft_params ft)) stack [] with
              | Some (args, st) =>
                  match inv f s fi args with
                  | inr (s', r) => RNormal s' locals (match r with Some v => v :: st | None => st end)
                  | inl r => r
                  end
              | None => RStuck
              end
          | None => RStuck
          end
      | Basic (BCallIndirect ti) =>
          match stack, nth_opt (m_types m) ti with
          | VI32 c :: st0, Some ft =>
              match (if c <? Z.of_nat (length (s_table s)) then nth_opt (s_table s) (Z.to_nat c) else None) with
              | Some (Some fi) =>
                  match func_type m fi with
                  | Some ft' =>
                      if functype_eqb ft ft' then
                        match take_args (length (ft_params ft)) st0 [] with
                        | Some (args, st) =>
                            match inv f s fi args with
                            | inr (s', r) => RNormal s' locals (match r with Some v => v :: st | None => st end)
                            | inl r => r
                            end
                        | None => RStuck
                        end
                      else RTrap
                  | None => RStuck
                  end
              | _ => RTrap
              end
          | _, _ => RStuck
          end
      | Basic b =>
          match exec_simple cap b s locals stack with
          | inr (s', l', st') => RNormal s' l' st'
          | inl true => RTrap
          | inl false => RStuck
          end
      end.
Proof. reflexivity. Qed.

(** the [S] branch of [invoke] verbatim; [reflexivity] fails if Sem.v changes *)
Lemma inv_S f s fi args :
  inv (S f) s fi args =
      let ni := length (m_imports m) in
      if (fi <? ni)%nat then
        match func_type m fi with
        | Some ft =>
            match host fi args (s_mem s) with
            | HostOk mm r => inr (set_mem s mm, r)
            | HostTrap => inl RTrap
            end
        | None => inl RStuck
        end
      else
        match nth_opt (m_funcs m) (fi - ni) with
        | Some fn =>
            match nth_opt (m_types m) (f_type fn) with
            | Some ft =>
                let locals := args ++ map zero_of (f_locals fn) in
                let fin (s' : store) (vs : list val) : sum res (store * option val) :=
                  match ft_result ft with
                  | None => inr (s', None)
                  | Some _ => match vs with v :: _ => inr (s', Some v) | [] => inl RStuck end
                  end in
                match eseq f s locals [] (f_body fn) with
                | RNormal s' _ vs => fin s' vs
                | RBr O s' _ vs => fin s' vs
                | RReturn s' vs => fin s' vs
                | RBr (S _) _ _ _ => inl RStuck
                | r => inl r
                end
            | None => inl RStuck
            end
        | None => inl RStuck
        end.
Proof. reflexivity. Qed.

Lemma mono_seq_step f : mono_seq f -> mono_instr f -> mono_seq (S f).
Proof.
  intros IHs IHi f' s l st is Hle Hne. destruct f' as [|f']; [lia|]. assert (Hle' : (f <= f')%nat) by lia.
  rewrite !eseq_S in *. destruct is as [|i rest]; [reflexivity|].
  destruct (einstr f s l st i) eqn:E;
    (rewrite (IHi f' s l st i Hle') by (rewrite E; try discriminate; exact Hne)); rewrite E; try reflexivity.
  apply IHs; auto.
Qed.

Lemma call_result_mono f f' s fi args :
  mono_inv f -> (f <= f')%nat -> inv f s fi args <> inl RFuel -> inv f' s fi args = inv f s fi args.
Proof. intros H; apply H. Qed.

Lemma mono_instr_step f : mono_seq f -> mono_instr f -> mono_inv f -> mono_instr (S f).
Proof.
  intros IHs IHi IHv f' s l st i Hle Hne. destruct f' as [|f']; [lia|]. assert (Hle' : (f <= f')%nat) by lia.
  destruct i as [b|bt body|bt body|bt thn els].
  - destruct b; try reflexivity.
    + rewrite !einstr_S in *.
      destruct (func_type m f0) as [ft|]; [|reflexivity].
      destruct (take_args (length (ft_params ft)) st []) as [[args st']|]; [|reflexivity].
      destruct (inv f s f0 args) eqn:E;
        (rewrite (IHv f' s f0 args Hle') by (rewrite E; intro X; inversion X; subst; apply Hne; reflexivity));
        rewrite E; reflexivity.
    + rewrite !einstr_S in *.
      destruct st as [|[c|c] st0]; try reflexivity.
      destruct (nth_opt (m_types m) ty) as [ft|]; [|reflexivity].
      destruct (if (c <? Z.of_nat (length (s_table s)))%Z then nth_opt (s_table s) (Z.to_nat c) else None) as [[fi|]|]; try reflexivity.
      destruct (func_type m fi) as [ft'|]; [|reflexivity].
      destruct (functype_eqb ft ft'); [|reflexivity].
      destruct (take_args (length (ft_params ft)) st0 []) as [[args st']|]; [|reflexivity].
      destruct (inv f s fi args) eqn:E;
        (rewrite (IHv f' s fi args Hle') by (rewrite E; intro X; inversion X; subst; apply Hne; reflexivity));
        rewrite E; reflexivity.
  - rewrite !einstr_S in *.
    destruct (eseq f s l [] body) eqn:E;
      (rewrite (IHs f' s l [] body Hle') by (rewrite E; try discriminate; exact Hne)); rewrite E; reflexivity.
  - rewrite !einstr_S in *.
    destruct (eseq f s l [] body) eqn:E;
      (rewrite (IHs f' s l [] body Hle') by (rewrite E; try discriminate; exact Hne)); rewrite E; try reflexivity.
    destruct l0; [|reflexivity]. apply IHi; auto.
  - rewrite !einstr_S in *. destruct st as [|[c|c] st0]; try reflexivity. apply IHi; auto.
Qed.

Lemma mono_inv_step f : mono_seq f -> mono_inv (S f).
Proof.
  intros IHs f' s fi args Hle Hne. destruct f' as [|f']; [lia|]. assert (Hle' : (f <= f')%nat) by lia.
  rewrite !inv_S in *; cbv zeta in *.
  destruct (fi <? length (m_imports m))%nat; [reflexivity|].
  destruct (nth_opt (m_funcs m) (fi - length (m_imports m))) as [fn|]; [|reflexivity].
  destruct (nth_opt (m_types m) (f_type fn)) as [ft|]; [|reflexivity].
  destruct (eseq f s (args ++ map zero_of (f_locals fn)) [] (f_body fn)) eqn:E;
    (rewrite (IHs f' s _ [] (f_body fn) Hle') by (rewrite E; try discriminate; intro X; apply Hne; reflexivity));
    rewrite E; reflexivity.
Qed.

Lemma mono_all f : mono_seq f /\ mono_instr f /\ mono_inv f.
Proof.
  induction f as [|f (IHs & IHi & IHv)].
  - repeat split; intros f' *; intros _ H; exfalso; apply H; reflexivity.
  - repeat split.
    + apply mono_seq_step; auto.
    + apply mono_instr_step; auto.
    + apply mono_inv_step; auto.
Qed.

Theorem run_fuel_monotone f f' fi args :
  (f <= f')%nat -> run host cap m f fi args <> OutOfFuel -> run host cap m f' fi args = run host cap m f fi args.
Proof.
  intros Hle Hne. unfold run in *. destruct (instantiate m) as [s|]; [|reflexivity].
  destruct (mono_all f) as (_ & _ & Hv).
  rewrite (Hv f' s fi args Hle); [reflexivity|].
  intro E. rewrite E in Hne. apply Hne. reflexivity.
Qed.
End Mono.

(** ** memory *)
Lemma mem_get_set_same mm a b : mem_get (mem_set mm a b) a = b.
Proof. unfold mem_get, mem_set; cbn. rewrite PositiveMap.gss. reflexivity. Qed.
Lemma mem_key_inj a b : mem_key a = mem_key b -> a = b.
Proof.
  unfold mem_key. intros H. apply N.succ_inj. rewrite <- !N.succ_pos_spec. rewrite H. reflexivity.
Qed.
Lemma mem_get_set_other mm a a' b : a <> a' -> mem_get (mem_set mm a b) a' = mem_get mm a'.
Proof.
  intros H. unfold mem_get, mem_set; cbn. rewrite PositiveMap.gso; [reflexivity|].
  intro E. apply H. symmetry. apply mem_key_inj. exact E.
Qed.
Lemma mem_set_pages mm a b : mem_pages (mem_set mm a b) = mem_pages mm. Proof. reflexivity. Qed.
Lemma mem_write_pages bs : forall mm a, mem_pages (mem_write mm a bs) = mem_pages mm.
Proof. induction bs; intros; cbn [mem_write]; auto. rewrite IHbs. reflexivity. Qed.
Lemma mem_write_len mm a bs : mem_len (mem_write mm a bs) = mem_len mm.
Proof. unfold mem_len. rewrite mem_write_pages. reflexivity. Qed.

Lemma mem_write_get_before bs : forall mm a a', (a' < a)%N -> mem_get (mem_write mm a bs) a' = mem_get mm a'.
Proof.
  induction bs as [|b r IH]; intros mm a a' H; cbn [mem_write]; [reflexivity|].
  rewrite IH by lia. apply mem_get_set_other. lia.
Qed.
Lemma mem_read_write bs : forall mm a, mem_read (mem_write mm a bs) a (length bs) = bs.
Proof.
  induction bs as [|b r IH]; intros mm a; cbn [mem_write mem_read length]; [reflexivity|].
  rewrite IH. f_equal. rewrite mem_write_get_before by lia. apply mem_get_set_same.
Qed.
Lemma mem_write_get_outside bs : forall mm a a', (a' < a \/ a + N.of_nat (length bs) <= a')%N ->
  mem_get (mem_write mm a bs) a' = mem_get mm a'.
Proof.
  induction bs as [|b r IH]; intros mm a a' H; cbn [mem_write]; [reflexivity|].
  cbn [length] in H. rewrite IH by lia. apply mem_get_set_other. lia.
Qed.

(** a store followed by a load of the same width at the same address returns the stored value
    truncated to the width; both trap exactly when the access exceeds the memory length *)
Theorem store_load_roundtrip mm ea k x mm' :
  (0 <= x)%Z -> mem_store mm ea k x = Some mm' ->
  mem_load mm' ea k = Some (x mod 256 ^ Z.of_nat k)%Z.
Proof.
  intros Hx. unfold mem_store, mem_load, in_bounds. destruct (N.leb_spec (ea + N.of_nat k) (mem_len mm)); [|discriminate].
  intros E; inversion E; subst; clear E. rewrite mem_write_len.
  destruct (N.leb_spec (ea + N.of_nat k) (mem_len mm)); [|lia].
  f_equal. pose proof (mem_read_write (bytes_of k x) mm ea) as R. rewrite bytes_of_length in R. rewrite R.
  apply of_bytes_bytes_of. exact Hx.
Qed.
Theorem load_store_bounds mm ea k x :
  (mem_load mm ea k = None <-> (mem_len mm < ea + N.of_nat k)%N) /\
  (mem_store mm ea k x = None <-> (mem_len mm < ea + N.of_nat k)%N).
Proof.
  unfold mem_load, mem_store, in_bounds.
  destruct (N.leb_spec (ea + N.of_nat k) (mem_len mm)); split; split; intros; try discriminate; try lia; reflexivity.
Qed.
Theorem store_frame mm ea k x mm' a :
  mem_store mm ea k x = Some mm' -> (a < ea \/ ea + N.of_nat k <= a)%N ->
  mem_get mm' a = mem_get mm a /\ mem_pages mm' = mem_pages mm.
Proof.
  unfold mem_store. destruct (in_bounds mm ea k); [|discriminate]. intros E H; inversion E; subst.
  split; [|apply mem_write_pages]. apply mem_write_get_outside. rewrite bytes_of_length. exact H.
Qed.

(** memory.grow: never shrinks, fails with -1 exactly when the limit would be exceeded *)
Theorem mem_grow_spec cap mm n :
  let '(mm', r) := mem_grow cap mm n in
  ((mem_pages mm + Z.to_N n <= grow_limit cap mm)%N ->
     mem_pages mm' = (mem_pages mm + Z.to_N n)%N /\ r = Z.of_N (mem_pages mm) /\ mem_data mm' = mem_data mm) /\
  ((grow_limit cap mm < mem_pages mm + Z.to_N n)%N -> mm' = mm /\ r = 4294967295%Z).
Proof.
  unfold mem_grow. destruct (N.leb_spec (mem_pages mm + Z.to_N n) (grow_limit cap mm)); cbn; split; intros; try lia; auto.
Qed.
