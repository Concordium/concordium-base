(** The parser model ([Wasm/Parse.v]) is total (fuel is never exhausted), allocates at most
    linearly in the input, and accepts only skeletons whose non-custom sections have strictly
    increasing ids. *)
From Coq Require Import NArith List Bool Lia Sorted.
From CB Require Import Wasm.Syntax Gen.Limits Wasm.Leb128 Wasm.Leb128Proofs Wasm.Parse.
Import ListNotations.
Local Open Scope N_scope.

Notation L x := (N.of_nat (length x)).

(** [good K p]: [p] never runs out of fuel, returns a suffix of its input and allocates at most
    [K] bytes per consumed input byte.  [strict p]: success consumes at least one byte. *)
Definition good {A} (K : N) (p : parser A) : Prop :=
  forall bs, p bs <> PFuel /\
    forall x r a, p bs = POk x r a -> (length r <= length bs)%nat /\ a <= K * (L bs - L r).
Definition strict {A} (p : parser A) : Prop :=
  forall bs x r a, p bs = POk x r a -> (length r < length bs)%nat.

(* A stage that is never out of fuel either fails or succeeds with its postcondition. *)
Inductive pres_spec {A} (X : pres A) (P : A -> list N -> N -> Prop) : pres A -> Prop :=
| PS_err e : pres_spec X P (PErr e)
| PS_ok x r a : X = POk x r a -> P x r a -> pres_spec X P (POk x r a).
Lemma pres_cases {A} {X : pres A} {P : A -> list N -> N -> Prop} :
  X <> PFuel /\ (forall x r a, X = POk x r a -> P x r a) -> pres_spec X P X.
Proof.
  intros [F B]. destruct X as [x r a|e|] eqn:E; [|constructor|congruence].
  constructor; [reflexivity|apply B; reflexivity].
Qed.

Lemma good_mono {A} K K' (p : parser A) : good K p -> K <= K' -> good K' p.
Proof.
  intros G HK bs. destruct (G bs) as [G1 G2]. split; auto. intros x r a E. destruct (G2 _ _ _ E) as [H1 H2].
  split; auto. etransitivity; [exact H2|]. apply N.mul_le_mono_r. exact HK.
Qed.
Lemma good_ret {A} K (x : A) : good K (pret x).
Proof. intros bs. split; [discriminate|]. intros y r a E. inversion E; subst. split; [lia|lia]. Qed.
Lemma good_fail {A} K e : good K (@pfail A e).
Proof. intros bs. split; discriminate. Qed.
Lemma good_if {A} K (c : bool) (p q : parser A) : good K p -> good K q -> good K (if c then p else q).
Proof. destruct c; auto. Qed.
Lemma good_guard K b e : good K (pguard b e).
Proof. apply good_if; [apply good_ret|apply good_fail]. Qed.

Lemma good_bind {A B} K (p : parser A) (f : A -> parser B) :
  good K p -> (forall x, good K (f x)) -> good K (pbind p f).
Proof.
  intros GP GF bs. unfold pbind.
  destruct (pres_cases (GP bs)) as [e|x r a _ (H1 & H2)]; [split; discriminate|].
  destruct (pres_cases (GF x r)) as [e|y r' a' _ (H3 & H4)]; [split; discriminate|].
  split; [discriminate|].
  intros y0 r0 a0 E. inversion E; subst. split; [lia|].
  replace (L bs - L r0) with ((L bs - L r) + (L r - L r0)) by lia. rewrite N.mul_add_distr_l. lia.
Qed.
Lemma strict_bind_l {A B} K (p : parser A) (f : A -> parser B) :
  strict p -> (forall x, good K (f x)) -> strict (pbind p f).
Proof.
  intros SP GF bs y r a. unfold pbind. destruct (p bs) as [x r1 a1| |] eqn:EP; try discriminate.
  destruct (f x r1) as [y1 r2 a2| |] eqn:EF; try discriminate. intros E; inversion E; subst.
  pose proof (SP _ _ _ _ EP). destruct (GF x r1) as [_ F2]. destruct (F2 _ _ _ EF). lia.
Qed.
Lemma strict_bind_r {A B} K (p : parser A) (f : A -> parser B) :
  good K p -> (forall x, strict (f x)) -> strict (pbind p f).
Proof.
  intros GP SF bs y r a. unfold pbind. destruct (p bs) as [x r1 a1| |] eqn:EP; try discriminate.
  destruct (f x r1) as [y1 r2 a2| |] eqn:EF; try discriminate. intros E; inversion E; subst.
  destruct (GP bs) as [_ P2]. destruct (P2 _ _ _ EP). pose proof (SF _ _ _ _ _ EF). lia.
Qed.

Lemma good_strict_bind {A B} K (p : parser A) (f : A -> parser B) :
  good K p -> strict p -> (forall x, good K (f x)) -> good K (pbind p f) /\ strict (pbind p f).
Proof. intros G S H. split; [apply good_bind; auto|eapply strict_bind_l; eauto]. Qed.

Lemma good_byte K : good K pbyte.
Proof. intros [|b r]; cbn; split; try discriminate. intros x r0 a E; inversion E; subst. cbn. split; lia. Qed.
Lemma strict_byte : strict pbyte.
Proof. intros [|b r] x r0 a; cbn; intros E; inversion E; subst. cbn. lia. Qed.
Lemma good_expect K b : good K (pexpect b).
Proof. apply good_bind; [apply good_byte|intros; apply good_guard]. Qed.
Lemma strict_expect b : strict (pexpect b).
Proof. eapply strict_bind_l; [apply strict_byte|intros; apply (good_guard 0)]. Qed.

Lemma of_dec_good {A} K (d : list N -> option (A * list N)) :
  (forall bs v r, d bs = Some (v, r) -> exists pre, bs = pre ++ r /\ (1 <= length pre)%nat) ->
  good K (of_dec d) /\ strict (of_dec d).
Proof.
  intros H. split.
  - intros bs. unfold of_dec. destruct (d bs) as [[v r]|] eqn:E; split; try discriminate.
    intros x r0 a E0; inversion E0; subst. destruct (H _ _ _ E) as (pre & -> & HL). rewrite app_length. split; lia.
  - intros bs x r a. unfold of_dec. destruct (d bs) as [[v r0]|] eqn:E; [|discriminate].
    intros E0; inversion E0; subst. destruct (H _ _ _ E) as (pre & -> & HL). rewrite app_length. lia.
Qed.
Lemma u32_dec bs v r : decode_u32 bs = Some (v, r) -> exists pre, bs = pre ++ r /\ (1 <= length pre)%nat.
Proof. intros E. destruct (decode_u32_bounded _ _ _ E) as (_ & pre & -> & H). exists pre. split; auto. lia. Qed.
Lemma s32_dec bs v r : decode_s32 bs = Some (v, r) -> exists pre, bs = pre ++ r /\ (1 <= length pre)%nat.
Proof. intros E. destruct (decode_s32_bounded _ _ _ E) as (_ & pre & -> & H). exists pre. split; auto. lia. Qed.
Lemma s64_dec bs v r : decode_s64 bs = Some (v, r) -> exists pre, bs = pre ++ r /\ (1 <= length pre)%nat.
Proof. intros E. destruct (decode_s64_bounded _ _ _ E) as (pre & -> & H). exists pre. split; auto. lia. Qed.
Lemma good_u32 K : good K pu32. Proof. apply of_dec_good, u32_dec. Qed.
Lemma strict_u32 : strict pu32. Proof. apply (of_dec_good 0), u32_dec. Qed.
Lemma good_s32 K : good K ps32. Proof. apply of_dec_good, s32_dec. Qed.
Lemma good_s64 K : good K ps64. Proof. apply of_dec_good, s64_dec. Qed.

Lemma good_take K n : good K (ptake n).
Proof.
  intros bs. unfold ptake. destruct (n <=? L bs) eqn:E; split; try discriminate.
  intros x r a E0; inversion E0; subst. rewrite skipn_length. split; lia.
Qed.
Lemma good_pbytes K : good K pbytes.
Proof. apply good_bind; [apply good_u32|intros; apply good_take]. Qed.
Lemma strict_pbytes : strict pbytes.
Proof. eapply strict_bind_l; [apply strict_u32|intros; apply (good_take 0)]. Qed.

Lemma prealloc_le esize n : prealloc esize n <= MAX_PREALLOCATED_BYTES.
Proof.
  unfold prealloc. destruct (N.eq_dec esize 0) as [->|NZ]; [rewrite N.mul_0_r; apply N.le_0_l|].
  etransitivity; [apply N.mul_le_mono_r, N.le_min_r|].
  replace (N.max 1 esize) with esize by lia. rewrite N.mul_comm. apply N.mul_div_le. exact NZ.
Qed.

Lemma pvec_go_good {A} Ki (item : parser A) esize :
  good Ki item -> strict item ->
  forall fuel count bs, (length bs < fuel)%nat ->
    pvec_go item esize fuel count bs <> PFuel /\
    forall xs r a, pvec_go item esize fuel count bs = POk xs r a ->
      (length r <= length bs)%nat /\ a <= (Ki + esize) * (L bs - L r).
Proof.
  intros GI SI. induction fuel as [|f IH]; intros count bs HL; [lia|].
  cbn [pvec_go]. destruct (count =? 0).
  { split; [discriminate|]. intros xs r a E; inversion E; subst. split; lia. }
  destruct (pres_cases (GI bs)) as [e|x r1 a1 EI (H1 & H2)]; [split; discriminate|].
  pose proof (SI _ _ _ _ EI) as HS.
  destruct (pres_cases (IH (count - 1) r1 ltac:(lia))) as [e|xs r2 a2 _ (H3 & H4)]; [split; discriminate|].
  split; [discriminate|].
  intros xs0 r0 a0 E; inversion E; subst. split; [lia|].
  replace (L bs - L r0) with ((L bs - L r1) + (L r1 - L r0)) by lia.
  assert (1 <= L bs - L r1) by lia. nia.
Qed.

Lemma good_pvec {A} Ki K (item : parser A) esize :
  good Ki item -> strict item -> MAX_PREALLOCATED_BYTES <= K -> Ki + esize <= K ->
  good K (pvec item esize) /\ strict (pvec item esize).
Proof.
  intros GI SI HM HK. split.
  - intros bs. unfold pvec.
    destruct (pres_cases (good_u32 0 bs)) as [e|n r a0 EU (H1 & H2)]; [split; discriminate|].
    pose proof (strict_u32 _ _ _ _ EU) as HS.
    destruct (pres_cases (pvec_go_good Ki item esize GI SI (S (length r)) n r ltac:(lia)))
      as [e|xs r' a _ (H3 & H4)]; [split; discriminate|].
    split; [discriminate|].
    intros xs0 r0 a1 E; inversion E; subst. split; [lia|].
    pose proof (prealloc_le esize n). assert (a0 = 0) by lia. subst a0.
    replace (L bs - L r0) with ((L bs - L r) + (L r - L r0)) by lia.
    assert (1 <= L bs - L r) by lia. nia.
  - intros bs xs r a. unfold pvec. destruct (pu32 bs) as [n r1 a0| |] eqn:EU; try discriminate.
    pose proof (strict_u32 _ _ _ _ EU) as HS.
    destruct (pvec_go_good Ki item esize GI SI (S (length r1)) n r1 ltac:(lia)) as [V1 V2].
    destruct (pvec_go item esize (S (length r1)) n r1) as [xs1 r' a1| |] eqn:EV; try discriminate.
    intros E; inversion E; subst. destruct (V2 _ _ _ eq_refl). lia.
Qed.

Definition KA : N := MAX_PREALLOCATED_BYTES.
Definition KB : N := MAX_PREALLOCATED_BYTES + esz_max.
Lemma KA_big : esz_max <= KA /\ 1 <= KA /\ KA <= KB.
Proof. vm_compute. repeat split; discriminate. Qed.

Ltac good_step :=
  first
    [ apply good_ret | apply good_fail | apply good_guard | apply good_byte | apply good_expect
    | apply good_u32 | apply good_s32 | apply good_s64 | apply good_take | apply good_pbytes
    | match goal with |- good _ (pbind _ _) => apply good_bind; [|intros] end
    | apply good_if
    | match goal with |- good _ (match ?x with _ => _ end) => destruct x end ].
Ltac good_auto := repeat good_step.

Lemma good_name K : 1 <= K -> good K pname.
Proof.
  intros HK bs. unfold pname.
  destruct (pres_cases (good_pbytes 0 bs)) as [e|nm r a EB (H1 & H2)]; [split; discriminate|].
  destruct ((L nm <=? MAX_NAME_SIZE) && forallb (fun b => b <? 128) nm); split; try discriminate.
  intros x r0 a0 E; inversion E; subst. split; [lia|].
  (* the name is a prefix of what was consumed after the length *)
  unfold pbytes, pbind in EB. destruct (pu32 bs) as [n r1 a1| |] eqn:EU; try discriminate.
  unfold ptake in EB. destruct (n <=? L r1) eqn:EN; [|discriminate]. inversion EB; subst.
  rewrite firstn_length, skipn_length. apply N.leb_le in EN.
  pose proof (strict_u32 _ _ _ _ EU). assert (a1 = 0) by (destruct (good_u32 0 bs) as [_ U]; destruct (U _ _ _ EU); lia).
  subst. rewrite skipn_length in *. nia.
Qed.
Lemma strict_name : strict pname.
Proof.
  intros bs x r a. unfold pname. destruct (pbytes bs) as [nm r1 a1| |] eqn:EB; try discriminate.
  destruct (_ && _); [|discriminate]. intros E; inversion E; subst. eapply strict_pbytes; eauto.
Qed.

Lemma valtype_good K : good K pvaltype /\ strict pvaltype.
Proof. apply good_strict_bind; [apply good_byte|apply strict_byte|intros; good_auto]. Qed.
Lemma good_blocktype K : good K pblocktype. Proof. unfold pblocktype. good_auto. Qed.
Lemma limits_good K : good K plimits /\ strict plimits.
Proof. apply good_strict_bind; [apply good_byte|apply strict_byte|intros; good_auto]. Qed.
Lemma local_good K : good K plocal /\ strict plocal.
Proof. apply good_strict_bind; [apply good_u32|apply strict_u32|intros; good_auto; apply valtype_good]. Qed.

Lemma good_vec_valtype : good KA (pvec pvaltype esz_valtype).
Proof. destruct KA_big as (A & B & C). apply (good_pvec 0); [apply valtype_good|apply (valtype_good 0)|apply N.le_refl|]. vm_compute. discriminate. Qed.
Lemma functype_good : good KA pfunctype /\ strict pfunctype.
Proof.
  apply good_strict_bind; [apply good_expect|apply strict_expect|intros _].
  apply good_bind; [apply good_vec_valtype|intros ps]. apply good_bind; [apply good_vec_valtype|intros rs].
  good_auto.
Qed.
Lemma tabletype_good K : good K ptabletype /\ strict ptabletype.
Proof. apply good_strict_bind; [apply good_expect|apply strict_expect|intros; good_auto; apply limits_good]. Qed.
Lemma memtype_good K : good K pmemtype /\ strict pmemtype.
Proof. apply good_strict_bind; [apply limits_good|apply (limits_good 0)|intros; good_auto]. Qed.

Lemma good_vec_u32 : good KA (pvec pu32 esz_u32).
Proof. apply (good_pvec 0); [apply good_u32|apply strict_u32|apply N.le_refl|vm_compute; discriminate]. Qed.
Lemma strict_vec_u32 : strict (pvec pu32 esz_u32).
Proof. apply (good_pvec 0 KA); [apply good_u32|apply strict_u32|apply N.le_refl|vm_compute; discriminate]. Qed.

Lemma decode_good cap sx : good KA (decode_opcode cap sx) /\ strict (decode_opcode cap sx).
Proof.
  unfold decode_opcode, pmemarg. apply good_strict_bind; [apply good_byte|apply strict_byte|intros b].
  repeat first
    [ apply good_if | apply good_ret | apply good_fail | apply good_blocktype | apply good_vec_u32
    | apply good_u32 | apply good_s32 | apply good_s64 | apply good_expect
    | match goal with |- good _ (pbind _ _) => apply good_bind; [|intros] end
    | match goal with |- good _ (match ?x with _ => _ end) => destruct x end ].
Qed.
Definition good_decode cap sx := proj1 (decode_good cap sx).
Definition strict_decode cap sx := proj2 (decode_good cap sx).

Lemma pops_good cap sx : forall fuel bs, (length bs < fuel)%nat ->
  pops cap sx fuel bs <> PFuel /\
  forall os r a, pops cap sx fuel bs = POk os r a -> r = [] /\ a <= (KA + esz_big) * L bs.
Proof.
  induction fuel as [|f IH]; intros bs HL; [lia|]. cbn [pops]. destruct bs as [|b0 bt].
  { split; [discriminate|]. intros os r a E; inversion E; subst. split; [reflexivity|lia]. }
  set (bs := b0 :: bt) in *.
  destruct (pres_cases (good_decode cap sx bs)) as [e|o r1 a1 ED (H1 & H2)]; [split; discriminate|].
  pose proof (strict_decode cap sx _ _ _ _ ED) as HS.
  destruct (pres_cases (IH r1 ltac:(lia))) as [e|os r2 a2 _ (-> & H4)]; [split; discriminate|].
  split; [discriminate|].
  intros os0 r0 a0 E; inversion E; subst. split; [reflexivity|].
  assert (1 <= L bs - L r1) by lia. replace (L bs) with ((L bs - L r1) + L r1) by lia. nia.
Qed.

Lemma constexpr_good cap sx ty gs : good KA (pconstexpr cap sx ty gs) /\ strict (pconstexpr cap sx ty gs).
Proof.
  unfold pconstexpr. apply good_strict_bind; [apply good_decode|apply strict_decode|intros o].
  apply good_bind; [|intros; apply good_bind; [apply good_expect|intros; apply good_ret]].
  destruct (fst o) as [| | | | |b]; try apply good_fail. destruct b; try apply good_fail.
  - destruct gs as [gs|]; [|apply good_fail]. destruct (nth_error gs i) as [[[t mu] z]|]; [|apply good_fail].
    destruct (valtype_eqb t ty && negb mu); [apply good_ret|apply good_fail].
  - destruct (valtype_eqb t ty); [apply good_ret|apply good_fail].
Qed.
Definition good_constexpr cap sx ty gs := proj1 (constexpr_good cap sx ty gs).
Lemma strict_constexpr cap sx ty gs : strict (pconstexpr cap sx ty gs).
Proof. apply constexpr_good. Qed.

Lemma import_good : good KA pimport_p /\ strict pimport_p.
Proof.
  destruct KA_big as (_ & H1 & _). unfold pimport_p.
  apply good_strict_bind; [apply good_name; exact H1|apply strict_name|intros m].
  apply good_bind; [apply good_name; exact H1|intros n]. good_auto.
Qed.
Lemma export_good : good KA pexport_p /\ strict pexport_p.
Proof.
  destruct KA_big as (_ & H1 & _). unfold pexport_p.
  apply good_strict_bind; [apply good_name; exact H1|apply strict_name|intros m]. good_auto.
Qed.
Lemma global_good cap sx : good KA (pglobal cap sx) /\ strict (pglobal cap sx).
Proof.
  unfold pglobal. apply good_strict_bind; [apply valtype_good|apply (valtype_good 0)|intros t].
  apply good_bind; [apply good_byte|intros mu].
  apply good_bind; [apply good_guard|intros _]. apply good_bind; [apply good_constexpr|intros v]. apply good_ret.
Qed.
Lemma good_vec_byte : good KA (pvec pbyte esz_byte).
Proof. apply (good_pvec 0); [apply good_byte|apply strict_byte|apply N.le_refl|vm_compute; discriminate]. Qed.
(** element and data segments: table or memory index, offset expression, then a vector read by [pv] *)
Lemma segment_good cap sx gs (pv : parser (list N)) :
  good KA pv ->
  let p := pbind pu32 (fun ti => pbind (pguard (ti =? 0) E_multi) (fun _ =>
           pbind (pconstexpr cap sx T_i32 gs) (fun off => pbind pv (fun v => pret (off, v))))) in
  good KA p /\ strict p.
Proof.
  intros G p. apply good_strict_bind; [apply good_u32|apply strict_u32|intros ti].
  apply good_bind; [apply good_guard|intros _].
  apply good_bind; [apply good_constexpr|intros off]. apply good_bind; [exact G|intros]. apply good_ret.
Qed.
Definition element_good cap sx gs : good KA (pelement cap sx gs) /\ strict (pelement cap sx gs) :=
  segment_good cap sx gs _ good_vec_u32.
Definition data_good cap sx gs : good KA (pdata cap sx gs) /\ strict (pdata cap sx gs) :=
  segment_good cap sx gs _ good_vec_byte.
Lemma good_start K : good K pstart.
Proof. unfold pstart. apply good_bind; [apply good_u32|intros; apply good_fail]. Qed.

Lemma good_vec_local : good KA (pvec plocal esz_local) /\ strict (pvec plocal esz_local).
Proof. apply (good_pvec 0); [apply local_good|apply (local_good 0)|apply N.le_refl|vm_compute; discriminate]. Qed.

Lemma pcode_good : good KA pcode /\ strict pcode /\
  forall bs ls body r a, pcode bs = POk (ls, body) r a -> (length body + length r <= length bs)%nat.
Proof.
  destruct good_vec_local as [GL SL].
  assert (M : forall bs, pcode bs <> PFuel /\ forall ls body r a, pcode bs = POk (ls, body) r a ->
             (length r < length bs)%nat /\ a <= KA * (L bs - L r) /\ (length body + length r <= length bs)%nat).
  { intros bs. unfold pcode.
    destruct (pres_cases (good_u32 0 bs)) as [e|size r1 a0 EU (H1 & H2)]; [split; discriminate|].
    pose proof (strict_u32 _ _ _ _ EU) as HS.
    destruct (pres_cases (GL r1)) as [e|ls r2 a1 _ (H3 & H4)]; [split; discriminate|].
    destruct (size <? N.of_nat (length r1 - length r2)); [split; discriminate|].
    unfold ptake. destruct (size - N.of_nat (length r1 - length r2) <=? L r2) eqn:ET; [|split; discriminate].
    split; [discriminate|]. intros ls0 body r a E; inversion E; subst.
    rewrite firstn_length, skipn_length. apply N.leb_le in ET. split; [lia|]. split; [|lia].
    assert (a0 = 0) by lia. subst a0. cbn [N.add].
    etransitivity; [exact H4|]. apply N.mul_le_mono_l. lia. }
  split; [|split].
  - intros bs. destruct (M bs) as [M1 M2]. split; auto. intros [ls body] r a E. destruct (M2 _ _ _ _ E) as (A & B & C). split; [lia|auto].
  - intros bs [ls body] r a E. destruct (M bs) as [_ M2]. destruct (M2 _ _ _ _ E) as (A & _). exact A.
  - intros bs ls body r a E. destruct (M bs) as [_ M2]. destruct (M2 _ _ _ _ E) as (_ & _ & C). exact C.
Qed.

Definition sec_id (s : section) : N := fst (fst s).
Definition sec_body (s : section) : list N := snd (fst s).
Definition noncustom_ids (ss : list section) : list N :=
  filter (fun i => negb (i =? 0)) (map sec_id ss).
Fixpoint sum_bodies (ss : list section) : nat :=
  match ss with [] => O | s :: r => (length (sec_body s) + sum_bodies r)%nat end.

Lemma psection_good bs : psection bs <> PFuel /\
  forall s r a, psection bs = POk s r a ->
    (length (sec_body s) + length r < length bs)%nat /\ a = 0 /\ sec_id s <= 11.
Proof.
  unfold psection. destruct bs as [|id r0]; cbn [pbyte]; [split; discriminate|].
  destruct (11 <? id) eqn:EI; [split; discriminate|]. apply N.ltb_ge in EI.
  destruct (pres_cases (good_pbytes 0 r0)) as [e|body r1 a1 EB _]; [split; discriminate|].
  split; [discriminate|]. intros s r a E; inversion E; subst. cbn [sec_body sec_id fst snd].
  split; [|split; auto].
  unfold pbytes, pbind in EB. destruct (pu32 r0) as [n r2 a2| |] eqn:EU; try discriminate.
  pose proof (strict_u32 _ _ _ _ EU). unfold ptake in EB. destruct (n <=? L r2) eqn:EN; [|discriminate].
  inversion EB; subst. apply N.leb_le in EN. rewrite firstn_length, skipn_length. cbn [length]. lia.
Qed.

Lemma pskel_go_good : forall fuel last bs, (length bs < fuel)%nat ->
  pskel_go fuel last bs <> PFuel /\
  forall ss r a, pskel_go fuel last bs = POk ss r a ->
    r = [] /\ a = 0 /\ (sum_bodies ss <= length bs)%nat /\
    StronglySorted N.lt (noncustom_ids ss) /\ Forall (fun i => last < i <= 11) (noncustom_ids ss).
Proof.
  induction fuel as [|f IH]; intros last bs HL; [lia|]. cbn [pskel_go]. destruct bs as [|b0 bt].
  { split; [discriminate|]. intros ss r a E; inversion E; subst. cbn. repeat split; auto; constructor. }
  set (bs := b0 :: bt) in *.
  destruct (pres_cases (psection_good bs)) as [e|s r1 a1 _ (H1 & -> & H3)]; [split; discriminate|].
  change (fst (fst s)) with (sec_id s).
  destruct ((sec_id s =? 0) || (last <? sec_id s)) eqn:EO; [|split; discriminate].
  destruct (pres_cases (IH (if sec_id s =? 0 then last else sec_id s) r1 ltac:(lia)))
    as [e|ss r2 a2 _ (-> & -> & HB & HSo & HF)]; [split; discriminate|].
  split; [discriminate|].
  intros ss0 r0 a0 E; inversion E; subst. split; [reflexivity|]. split; [reflexivity|].
  split; [cbn [sum_bodies]; lia|].
  unfold noncustom_ids. cbn [map filter]. fold (noncustom_ids ss).
  destruct (N.eqb_spec (sec_id s) 0) as [Z|NZ]; cbn [negb].
  - split; auto.
  - cbn [orb] in EO. apply N.ltb_lt in EO. split.
    + constructor; [exact HSo|]. eapply Forall_impl; [|exact HF]. intros i Hi. cbn in Hi. apply Hi.
    + constructor; [lia|]. eapply Forall_impl; [|exact HF]. intros i Hi. cbn in Hi. lia.
Qed.

Lemma parse_skeleton_good bs : parse_skeleton bs <> PFuel /\
  forall ss r a, parse_skeleton bs = POk ss r a ->
    r = [] /\ a = 0 /\ (sum_bodies ss <= length bs)%nat /\
    StronglySorted N.lt (noncustom_ids ss) /\ Forall (fun i => 0 < i <= 11) (noncustom_ids ss).
Proof.
  unfold parse_skeleton.
  repeat (match goal with |- context [if ?c then _ else _] => destruct c; [split; discriminate|] end).
  destruct (pskel_go_good (S (length bs)) 0 (skipn 8 bs)) as [K1 K2]; [rewrite skipn_length; lia|].
  split; auto. intros ss r a E. destruct (K2 _ _ _ E) as (A & B & C & D). rewrite skipn_length in C.
  repeat split; auto; try apply D. lia.
Qed.

(** Props/C09 [parse_sections_ordered] *)
Theorem parse_sections_ordered_thm bs ss r a :
  parse_skeleton bs = POk ss r a -> StronglySorted N.lt (noncustom_ids ss) /\ Forall (fun i => 0 < i <= 11) (noncustom_ids ss).
Proof. intros E. apply (proj2 (parse_skeleton_good bs) _ _ _ E). Qed.

Lemma find_section_le id ss body : find_section id ss = Some body -> (length body <= sum_bodies ss)%nat.
Proof.
  unfold find_section. induction ss as [|s r IH]; cbn [find sum_bodies]; [discriminate|].
  destruct (fst (fst s) =? id).
  - intros E; inversion E; subst. unfold sec_body. lia.
  - intros E. specialize (IH E). lia.
Qed.

Lemma psec_good {A} K (p : parser A) dflt o :
  good K p -> psec p dflt o <> PFuel /\
  forall x r a, psec p dflt o = POk x r a ->
    r = [] /\ a <= K * match o with Some body => L body | None => 0 end.
Proof.
  intros G. unfold psec. destruct o as [body|].
  - destruct (pres_cases (G body)) as [e|x r a _ (H1 & H2)]; [split; discriminate|].
    destruct r; split; try discriminate.
    intros x0 r0 a0 E0; inversion E0; subst. split; auto. cbn [length] in H2. rewrite N.sub_0_r in H2. exact H2.
  - split; [discriminate|]. intros x r a E; inversion E; subst. split; auto. lia.
Qed.

Lemma good_pone {A} (item : parser A) : good KA item /\ strict item -> good KB (pone item).
Proof.
  intros [G S]. unfold pone. apply good_bind.
  - apply (good_pvec KA); auto; unfold KB, KA; [vm_compute; discriminate|apply N.le_refl].
  - intros l. destruct l as [|x [|y r]]; [apply good_ret|apply good_ret|apply good_fail].
Qed.
Lemma good_vec_big {A} (item : parser A) : good KA item /\ strict item -> good KB (pvec item esz_big).
Proof. intros [G S]. apply (good_pvec KA); auto; unfold KB, KA; [vm_compute; discriminate|apply N.le_refl]. Qed.

Fixpoint sum_code (cs : list (list (N * valtype) * list N)) : nat :=
  match cs with [] => O | c :: r => (length (snd c) + sum_code r)%nat end.

Lemma pvec_go_code : forall fuel count bs cs r a,
  pvec_go pcode esz_big fuel count bs = POk cs r a -> (sum_code cs + length r <= length bs)%nat.
Proof.
  destruct pcode_good as (_ & _ & HM).
  induction fuel as [|f IH]; intros count bs cs r a; cbn [pvec_go]; destruct (count =? 0).
  - intros E; inversion E; subst. cbn. lia.
  - discriminate.
  - intros E; inversion E; subst. cbn. lia.
  - destruct (pcode bs) as [[ls body] r1 a1| |] eqn:EC; try discriminate.
    destruct (pvec_go pcode esz_big f (count - 1) r1) as [xs r2 a2| |] eqn:EV; try discriminate.
    intros E; inversion E; subst. specialize (IH _ _ _ _ _ EV). specialize (HM _ _ _ _ _ EC). cbn [sum_code snd]. lia.
Qed.
Lemma pvec_code_sum bs cs r a : pvec pcode esz_big bs = POk cs r a -> (sum_code cs <= length bs)%nat.
Proof.
  unfold pvec. destruct (pu32 bs) as [n r1 a0| |] eqn:EU; try discriminate.
  pose proof (strict_u32 _ _ _ _ EU).
  destruct (pvec_go pcode esz_big (S (length r1)) n r1) as [xs r' a1| |] eqn:EV; try discriminate.
  intros E; inversion E; subst. pose proof (pvec_go_code _ _ _ _ _ _ EV). lia.
Qed.

Lemma pbodies_good cap sx : forall cs, pbodies cap sx cs <> PFuel /\
  forall bs r a, pbodies cap sx cs = POk bs r a -> a <= (KA + esz_big) * N.of_nat (sum_code cs).
Proof.
  induction cs as [|[ls body] rest IH]; cbn [pbodies].
  - split; [discriminate|]. intros bs r a E; inversion E; subst. lia.
  - destruct (pres_cases (pops_good cap sx (S (length body)) body ltac:(lia)))
      as [e|ops r1 a1 _ (_ & H2)]; [split; discriminate|].
    destruct (pres_cases IH) as [e|bs r2 a2 _ I2]; [split; discriminate|].
    split; [discriminate|]. intros bs0 r a E; inversion E; subst.
    cbn [sum_code snd]. rewrite Nat2N.inj_add. lia.
Qed.

Lemma pcustoms_good : forall ss, pcustoms ss <> PFuel /\
  forall x r a, pcustoms ss = POk x r a -> a <= KB * N.of_nat (sum_bodies ss).
Proof.
  destruct KA_big as (_ & H1 & H2).
  induction ss as [|[[id body] len] rest IH]; cbn [pcustoms].
  - split; [discriminate|]. intros x r a E; inversion E; subst. lia.
  - destruct IH as [I1 I2]. cbn [sum_bodies]. unfold sec_body at 1. cbn [fst snd].
    destruct (id =? 0).
    + destruct (pres_cases (good_name KB ltac:(lia) body)) as [e|nm r1 a1 _ (H3 & H4)]; [split; discriminate|].
      destruct (pres_cases (conj I1 I2)) as [e|u r2 a2 _ I3]; [split; discriminate|].
      split; [discriminate|]. intros x r a E; inversion E; subst.
      rewrite Nat2N.inj_add. assert (a1 <= KB * L body) by (etransitivity; [exact H4|apply N.mul_le_mono_l; lia]). lia.
    + split; auto. intros x r a E. specialize (I2 _ _ _ E). rewrite Nat2N.inj_add. lia.
Qed.

Lemma psec_total {A} K (p : parser A) dflt id ss bs r0 a0 :
  good K p -> parse_skeleton bs = POk ss r0 a0 ->
  psec p dflt (find_section id ss) <> PFuel /\
  forall x r a, psec p dflt (find_section id ss) = POk x r a -> a <= K * L bs.
Proof.
  intros G ES. destruct (psec_good K p dflt (find_section id ss) G) as [F B]. split; [exact F|].
  intros x r a E. destruct (B _ _ _ E) as [_ HB].
  destruct (parse_skeleton_good bs) as [_ S]. destruct (S _ _ _ ES) as (_ & _ & HS & _).
  destruct (find_section id ss) as [body|] eqn:EF.
  - pose proof (find_section_le _ _ _ EF). etransitivity; [exact HB|]. apply N.mul_le_mono_l. lia.
  - lia.
Qed.

Lemma code_sum_bound id ss bs code r a r0 a0 :
  parse_skeleton bs = POk ss r0 a0 -> psec (pvec pcode esz_big) [] (find_section id ss) = POk code r a ->
  (sum_code code <= length bs)%nat.
Proof.
  intros ES E. destruct (parse_skeleton_good bs) as [_ S]. destruct (S _ _ _ ES) as (_ & _ & HS & _).
  unfold psec in E. destruct (find_section id ss) as [body|] eqn:EF.
  - pose proof (find_section_le _ _ _ EF). destruct (pvec pcode esz_big body) as [cs r1 a1| |] eqn:EV; try discriminate.
    destruct r1; [|discriminate]. inversion E; subst. pose proof (pvec_code_sum _ _ _ _ EV). lia.
  - inversion E; subst. cbn. lia.
Qed.

(** [stage LEM]: [LEM : X <> PFuel /\ forall x r a, X = POk x r a -> P x r a] for the next stage [X] of the
    parser: on success continue with [P x r a], otherwise the whole parser fails, not out of fuel *)
Ltac stage LEM :=
  let x := fresh "x" in let r := fresh "r" in let a := fresh "a" in let E := fresh "E" in let B := fresh "B" in
  destruct (pres_cases LEM) as [?|x r a E B]; cbn [pres_bind]; [split; [discriminate|intros; discriminate]|].

Theorem parse_module_good cfg bs :
  parse_module cfg bs <> PFuel /\
  forall p r a, parse_module cfg bs = POk p r a -> a <= 14 * KB * L bs.
Proof.
  destruct KA_big as (K1 & K2 & K3).
  assert (GB : forall A (p : parser A), good KA p -> good KB p) by (intros; eapply good_mono; eauto).
  unfold parse_module.
  set (cap := L bs). set (sx := cfg_signext cfg).
  stage (parse_skeleton_good bs). rename x into ss. destruct B as (_ & -> & HS & _).
  pose (sec := fun A (p : parser A) dflt id G => psec_total KB p dflt id ss bs r 0 G E).
  stage (pcustoms_good ss).
  stage (sec _ (pvec pfunctype esz_big) [] 1 (good_vec_big _ functype_good)).
  stage (sec _ (pvec pimport_p esz_big) [] 2 (good_vec_big _ import_good)).
  stage (sec _ (pone ptabletype) None 4 (good_pone _ (tabletype_good KA))).
  stage (sec _ (pone pmemtype) None 5 (good_pone _ (memtype_good KA))).
  stage (sec _ (pvec (pglobal cap sx) esz_big) [] 6 (good_vec_big _ (global_good cap sx))).
  stage (sec _ pstart tt 8 (good_start KB)).
  stage (sec _ (pvec pu32 esz_u32) [] 3 (GB _ _ good_vec_u32)).
  stage (sec _ (pvec pcode esz_big) [] 10 (good_vec_big _ (conj (proj1 pcode_good) (proj1 (proj2 pcode_good))))).
  rename x7 into code.
  stage (pbodies_good cap sx code).
  stage (sec _ (pvec pexport_p esz_big) [] 7 (good_vec_big _ export_good)).
  set (gctx := if cfg_globals_in_init cfg then Some x4 else None).
  stage (sec _ (pvec (pelement cap sx gctx) esz_big) [] 9 (good_vec_big _ (element_good cap sx gctx))).
  stage (sec _ (pvec (pdata cap sx gctx) esz_big) [] 11 (good_vec_big _ (data_good cap sx gctx))).
  split; [discriminate|]. intros p r' a' EQ. inversion EQ; subst; clear EQ.
  (* the fourteen contributions: customs and code bodies are bounded through the skeleton *)
  assert (C' : a <= KB * L bs) by (etransitivity; [exact B|apply N.mul_le_mono_l; lia]).
  pose proof (code_sum_bound _ _ _ _ _ _ _ _ E E8) as CS.
  assert (PB' : a8 <= KB * L bs) by (etransitivity; [exact B8|]; unfold KB; change esz_big with esz_max; apply N.mul_le_mono_l; lia).
  lia.
Qed.

Theorem parse_total_thm cfg bs : parse_module cfg bs <> PFuel /\ parse_skeleton bs <> PFuel.
Proof. split; [apply parse_module_good|apply parse_skeleton_good]. Qed.

(** ghost allocation: at most [14 * (MAX_PREALLOCATED_BYTES + 64)] bytes per input byte *)
Theorem parse_alloc_bounded_thm cfg bs p r a :
  parse_module cfg bs = POk p r a -> a <= 14 * (MAX_PREALLOCATED_BYTES + esz_max) * L bs.
Proof. apply parse_module_good. Qed.
