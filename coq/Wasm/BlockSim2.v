(** * Stage B: simulation of block / loop / if / else / end / br / br_if / return by the compiled
    register code; frames may carry a result in a reserved register. *)
From Coq Require Import ZArith List Lia Bool FMapPositive.
From CB Require Import Wasm.Syntax Wasm.Sem Wasm.Compile Wasm.Machine
     Wasm.MachineLemmas Wasm.CompileLemmas Wasm.SemProofs Wasm.SyntaxProofs Wasm.StraightProofs
     Wasm.BlockProofs Wasm.BlockInv Wasm.BlockSim.
Import ListNotations.
Local Open Scope Z_scope.

(** a compile state that fixes only what [rel] reads: the code offset and the provider stack *)
Definition at_pc (pc : Z) (stk : list provider) : cstate :=
  {| c_out := repeat 0%N (Z.to_nat pc); c_bp := []; c_stack := stk; c_next := 0; c_reuse := []; c_consts := []; c_last := None |}.
Lemma cur_off_at_pc pc stk : 0 <= pc -> cur_off (at_pc pc stk) = pc.
Proof. intros H. unfold cur_off, at_pc. cbn. rewrite repeat_length. lia. Qed.

Section Sim.
Variable art : artifact.
Variable mhost : nat -> list Z -> option (option Z).
Variable codes : list (code_map * list Z).
Variable fidx : nat.
Variable c : code_map.
Variable consts : list Z.
Hypothesis Hcode : nth_error codes fidx = Some (c, consts).
Variable nl : Z.
Variable NR : Z.
Hypothesis NR_small : NR < 2147483648.
Variable cap : N.
Variable host : nat -> list val -> option memory -> host_result.
Variable m : module.
Variable cx : cctx.
Variable F : list N.                      (* the final code of the function *)
Hypothesis HF : code_at c 0 F.
Hypothesis HFlen : Z.of_nat (length F) < 4294967296.

Notation mstep := (step art mhost codes).
Notation nsteps := (nsteps art mhost codes).
Notation rel := (rel art fidx consts nl NR cap).

Lemma byte_F p : (p < length F)%nat -> byte_at c (Z.of_nat p) = Z.of_N (nth p F 0%N).
Proof. intros H. apply (HF p H). Qed.

Lemma code_from_F s1 pre t post :
  matches F s1 -> c_out s1 = pre ++ t ++ post ->
  (forall j, (j < length t)%nat -> ~ pending s1 (length pre + j)) ->
  code_at c (Z.of_nat (length pre)) t.
Proof.
  intros [L Hm] E Hn j Hj.
  assert (Hlt : (length pre + j < length (c_out s1))%nat) by (rewrite E, !app_length; lia).
  rewrite <- Nat2Z.inj_add, byte_F by lia. rewrite (Hm _ Hlt (Hn j Hj)), E.
  rewrite app_nth2 by lia. rewrite app_nth1 by lia. do 2 f_equal. lia.
Qed.

Lemma target_from_F s1 loc T :
  resolved s1 loc T -> matches F s1 -> 0 <= T < 4294967296 -> get_u32 c loc = T.
Proof.
  intros (H0 & H1 & H2) [L Hm] HT. apply code_at_u32; [exact HT|]. intros j Hj. rewrite u32_bytes_length in Hj.
  destruct (H2 j Hj) as [Hb Hp].
  replace (loc + Z.of_nat j) with (Z.of_nat (Z.to_nat loc + j)) by lia.
  rewrite byte_F by lia. rewrite (Hm (Z.to_nat loc + j)%nat ltac:(lia) Hp), Hb. reflexivity.
Qed.

(** ** label environments: for every open frame, the target all its [br] jumps will have in the
    final code; the second component excludes the [if]'s own jump (which lies before it) *)
Definition lenv1 (j : jump_target) (e : Z * Z * option provider) : Prop :=
  (exists locs, j = JUnknown locs (snd e) /\ forall loc, In loc locs -> snd (fst e) <= loc -> get_u32 c loc = fst (fst e))
  \/ (j = JKnown (fst (fst e)) /\ snd e = None).
Definition lenv (s : cstate) (rho : list (Z * Z * option provider)) : Prop := Forall2 lenv1 (c_bp s) rho.
Definition lows (rho : list (Z * Z * option provider)) (s : cstate) : Prop :=
  Forall (fun e => snd (fst e) <= cur_off s /\ 0 <= fst (fst e) < 4294967296) rho.

Lemma lenv_sub bp s s' rho : c_bp s = bp -> bp_sub bp (c_bp s') -> lenv s' rho -> lenv s rho.
Proof.
  unfold lenv. intros -> H. revert rho. induction H as [|j j' b b' Hj]; intros rho H2;
    inversion H2 as [|? e ? rho' He]; subst; constructor; auto.
  destruct Hj as [(locs & add & res & -> & ->)|(pos & -> & ->)]; [|exact He].
  destruct He as [(l2 & E & Hl)|[E _]]; [|discriminate E].
  inversion E; subst. left. exists locs. split; [reflexivity|]. intros loc Hin Hlo. apply Hl; auto. apply in_or_app; auto.
Qed.
Lemma lows_mono rho s s' : lows rho s -> cur_off s <= cur_off s' -> lows rho s'.
Proof. unfold lows. intros H Hle. eapply Forall_impl; [|exact H]. cbn. intros; lia. Qed.
Lemma lows_nth rho s k e : lows rho s -> nth_error rho k = Some e -> snd (fst e) <= cur_off s /\ 0 <= fst (fst e) < 4294967296.
Proof. unfold lows. intros H E. rewrite Forall_forall in H. apply H. eapply nth_error_In; eauto. Qed.

(** at the function's own label only the result (register 0), globals and memory matter: local 0 has
    been overwritten by the result *)
Definition wrel (pc : Z) (st : store) (v : val) (M : mstate) : Prop :=
  ms_idx M = fidx /\ ms_pc M = pc /\ Forall2 repr (ms_globals M) (s_globals st) /\ mem_rel art cap (ms_mem M) (s_mem st)
  /\ repr (reg M 0) v.
(** arrival at a label: nothing on the operand stack for a result-less label, the branch value in the
    reserved register otherwise *)
Definition arrive (e : Z * Z * option provider) (st : store) (l vs : list val) (M : mstate) : Prop :=
  match snd e with
  | None => rel (at_pc (fst (fst e)) []) st l [] M
  | Some (PDyn d) => exists v vs0, vs = v :: vs0 /\ rel (at_pc (fst (fst e)) [PDyn d]) st l [v] M
  | Some _ => exists v vs0, vs = v :: vs0 /\ wrel (fst (fst e)) st v M
  end.

Definition sim_res (rho : list (Z * Z * option provider)) (M : mstate) (s1 : cstate) (r : res) : Prop :=
  match r with
  | RNormal st' l' vs' => exists n M', nsteps n M = SNext M' /\ rel s1 st' l' vs' M' /\ frame_eq M M'
  | RBr k st' l' vs' => exists e n M', nth_error rho k = Some e /\ 0 <= fst (fst e) /\ nsteps n M = SNext M'
                                     /\ arrive e st' l' vs' M' /\ frame_eq M M'
  | RTrap => exists n e, nsteps n M = STrap e
  | RReturn st' vs' => exists n M', nsteps n M = SNext M' /\ frame_eq M M' /\ ms_idx M' = fidx
                                /\ code_at c (ms_pc M') [IReturn]
                                /\ Forall2 repr (ms_globals M') (s_globals st') /\ mem_rel art cap (ms_mem M') (s_mem st')
                                /\ match cx_return cx with
                                   | Some _ => exists v vs0, vs' = v :: vs0 /\ repr (reg M' 0) v
                                   | None => True
                                   end
  | _ => True
  end.

Lemma sim_res_compose rho M M1 s1 n1 r :
  nsteps n1 M = SNext M1 -> frame_eq M M1 -> sim_res rho M1 s1 r -> sim_res rho M s1 r.
Proof.
  intros Hn Fq H. destruct r; cbn in *; auto.
  - destruct H as (n & M' & A & B & C0). exists (n1 + n)%nat, M'. rewrite (nsteps_app _ _ _ _ _ _ _ Hn).
    split; [exact A|split; [exact B|eapply frame_eq_trans; eauto]].
  - destruct H as (e & n & M' & A0 & A1 & A & B & C0). exists e, (n1 + n)%nat, M'. rewrite (nsteps_app _ _ _ _ _ _ _ Hn).
    split; [exact A0|split; [exact A1|split; [exact A|split; [exact B|eapply frame_eq_trans; eauto]]]].
  - destruct H as (n & M' & A & B & C0). exists (n1 + n)%nat, M'. rewrite (nsteps_app _ _ _ _ _ _ _ Hn).
    split; [exact A|split; [eapply frame_eq_trans; eauto|exact C0]].
  - destruct H as (n & e & A). exists (n1 + n)%nat, e. rewrite (nsteps_app _ _ _ _ _ _ _ Hn). exact A.
Qed.

Lemma rel_transfer s s2 st l vs M :
  rel s st l vs M -> c_stack s2 = c_stack s -> cur_off s2 = cur_off s -> rel s2 st l vs M.
Proof. intros R Es Eo. destruct R. constructor; auto; try congruence. Qed.

Lemma rel_jump s s2 st l vs M pc :
  rel s st l vs M -> c_stack s2 = [] -> cur_off s2 = pc -> rel s2 st l [] (set_pc M pc).
Proof.
  intros R Es Eo. destruct R. constructor; cbn [set_pc ms_idx ms_pc ms_regs ms_base ms_globals ms_mem]; auto.
  rewrite Es. constructor.
Qed.
Lemma frame_eq_set_pc M pc : frame_eq M (set_pc M pc).
Proof. repeat split. Qed.

Lemma mstep_br2 M : ms_idx M = fidx -> code_at c (ms_pc M) [IBr] ->
  mstep M = SNext (set_pc M (get_u32 c (ms_pc M + 1))).
Proof.
  intros Hi Hc. apply code_at_cons in Hc. destruct Hc as [H0 _].
  rewrite (mstep_at art mhost codes fidx c consts Hcode M Hi), H0, N2Z.id. reflexivity.
Qed.
Lemma mstep_br_if2 M a : ms_idx M = fidx -> code_at c (ms_pc M) [IBrIf] -> code_at c (ms_pc M + 5) (i32_bytes a) ->
  -2147483648 <= a < 2147483648 ->
  mstep M = SNext (set_pc M (if as_i32 (get_local consts M a) =? 0 then ms_pc M + 9 else get_u32 c (ms_pc M + 1))).
Proof.
  intros Hi Hc H2 Ha. apply code_at_cons in Hc. destruct Hc as [H0 _].
  rewrite (mstep_at art mhost codes fidx c consts Hcode M Hi), H0, N2Z.id.
  change (exec_op art mhost c consts M (ms_pc M + 1) IBrIf) with
    (let tgt := get_u32 c (ms_pc M + 1) in
     let cond := get_local consts M (get_i32 c (ms_pc M + 1 + 4)) in
     SNext (set_pc M (if as_i32 cond =? 0 then ms_pc M + 1 + 8 else tgt))).
  cbv zeta. replace (ms_pc M + 1 + 4) with (ms_pc M + 5) by lia. rewrite (code_at_i32 c _ a Ha H2).
  replace (ms_pc M + 1 + 8) with (ms_pc M + 9) by lia. reflexivity.
Qed.
Lemma mstep_if2 M a : ms_idx M = fidx -> code_at c (ms_pc M) (IIf :: i32_bytes a) ->
  -2147483648 <= a < 2147483648 ->
  mstep M = SNext (set_pc M (if as_i32 (get_local consts M a) =? 0 then get_u32 c (ms_pc M + 5) else ms_pc M + 9)).
Proof.
  intros Hi Hc Ha. apply code_at_cons in Hc. destruct Hc as [H0 H1].
  rewrite (mstep_at art mhost codes fidx c consts Hcode M Hi), H0, N2Z.id.
  change (exec_op art mhost c consts M (ms_pc M + 1) IIf) with
    (let cond := get_local consts M (get_i32 c (ms_pc M + 1)) in
     let tgt := get_u32 c (ms_pc M + 1 + 4) in
     SNext (set_pc M (if as_i32 cond =? 0 then tgt else ms_pc M + 1 + 8))).
  cbv zeta. rewrite (code_at_i32 c _ a Ha H1).
  replace (ms_pc M + 1 + 4) with (ms_pc M + 5) by lia. replace (ms_pc M + 1 + 8) with (ms_pc M + 9) by lia. reflexivity.
Qed.

Lemma cond_repr r cv : repr r (VI32 cv) -> (as_i32 r =? 0) = (cv =? 0).
Proof. intros H. rewrite (as_i32_eqb0 mhost fidx consts). unfold repr in H. rewrite H. reflexivity. Qed.

Notation exec_seq := (exec_seq host cap m).
Notation exec_instr := (exec_instr host cap m).

Lemma exec_prefix bs tl : forall fuel st l vs, forallb straight_ok bs = true ->
  exec_seq fuel st l vs (map Basic bs ++ tl) = RFuel \/
  exec_seq fuel st l vs (map Basic bs ++ tl) =
  match straight_sem cap bs st l vs with
  | inr (st', l', vs') => exec_seq (fuel - length bs) st' l' vs' tl
  | inl true => RTrap
  | inl false => RStuck
  end.
Proof.
  induction bs as [|b r IH]; intros fuel st l vs Hok.
  - right. cbn. rewrite Nat.sub_0_r. reflexivity.
  - cbn [forallb] in Hok. apply andb_true_iff in Hok. destruct Hok as [Hb Hr].
    destruct fuel as [|f]; [left; reflexivity|]. cbn [map app]. rewrite (eseq_S host cap m).
    destruct f as [|f']; [left; reflexivity|].
    rewrite (exec_instr_basic _ _ _ _ _ _ _ _ Hb). cbn [straight_sem length]. destruct (exec_simple cap b st l vs) as [[|]|[[st1 l1] vs1]]; auto.
    replace (S (S f') - S (length r))%nat with (S f' - length r)%nat by lia. apply IH. exact Hr.
Qed.

Lemma lenv1_u l res e : lenv1 (JUnknown l res) e -> forall loc, In loc l -> snd (fst e) <= loc -> get_u32 c loc = fst (fst e).
Proof. intros [(l0 & E & H)|[E _]]; [inversion E; subst; exact H|discriminate E]. Qed.

Lemma byte_at_nonneg p : 0 <= byte_at c p.
Proof. unfold byte_at. destruct (PositiveMap.find _ c); lia. Qed.
Lemma get_u32_nonneg p : 0 <= get_u32 c p.
Proof. unfold get_u32. pose proof (byte_at_nonneg p). pose proof (byte_at_nonneg (p + 1)). pose proof (byte_at_nonneg (p + 2)). pose proof (byte_at_nonneg (p + 3)). lia. Qed.

Lemma rel_pc s s2 st l vs vs2 M pc :
  rel s st l vs M -> Forall2 (fun p v => repr (denote consts M p) v) (c_stack s2) vs2 -> cur_off s2 = pc ->
  rel s2 st l vs2 (set_pc M pc).
Proof.
  intros R Hs Eo. destruct R. constructor; cbn [set_pc ms_idx ms_pc ms_regs ms_base ms_globals ms_mem]; auto.
Qed.

Lemma pwf_idx s p : small NR s -> cwf nl s -> pwf nl s p -> -2147483648 <= provider_idx p < 2147483648.
Proof. intros S W P. apply (idx_ok_of_pwf nl NR NR_small s p S (w_next _ _ W) P). Qed.

Lemma no_new_pending s s1 q : bpwf s -> c_bp s1 = c_bp s -> (length (c_out s) <= q)%nat -> ~ pending s1 q.
Proof.
  intros B E Hq. apply (pres_pending_new s s1 (-10)); auto; [|unfold in_win; lia]. intros y Hy. right. rewrite <- E. exact Hy.
Qed.

Lemma sim_unreachable s v v1 s1 rho st l vs M :
  inv nl s v -> v_unreach v = None -> vstep cx v (OBasic BUnreachable) = Some v1 ->
  handle_opcode cx s v1 Reachable (OBasic BUnreachable) = Some s1 ->
  matches F s1 -> rel s st l vs M -> sim_res rho M s1 RTrap.
Proof.
  intros I Hu Ev Eh Hm R.
  destruct (op_unreachable nl cx s v v1 s1 I Hu Ev Eh) as (O1 & O2 & O3 & O4 & O5 & O6 & I1 & Hu1 & X1).
  assert (Hc : code_at c (cur_off s) [IUnreachable]).
  { apply (code_from_F s1 (c_out s) [IUnreachable] [] Hm); [rewrite app_nil_r; exact O1|].
    intros j Hj. apply (no_new_pending s s1); auto; [apply (i_bp I)|lia]. }
  apply code_at_cons in Hc. destruct Hc as [H0 _]. rewrite <- (r_pc _ _ _ _ _ _ _ _ _ _ _ R) in H0.
  cbn. exists 1%nat, TUnreachable. cbn.
  rewrite (mstep_at art mhost codes fidx c consts Hcode M (r_idx _ _ _ _ _ _ _ _ _ _ _ R)), H0, N2Z.id. reflexivity.
Qed.

Definition holds (r : provider) (st : store) (l : list val) (v : val) (M : mstate) : Prop :=
  match r with
  | PDyn d => forall s2, c_stack s2 = [PDyn d] -> cur_off s2 = ms_pc M -> rel s2 st l [v] M
  | _ => wrel (ms_pc M) st v M
  end.

Lemma sim_copy s p r rest st l v vs M :
  rel s st l (v :: vs) M -> c_stack s = p :: rest -> pwf nl s p -> cwf nl s -> small NR s -> res_ok nl (c_next s) r ->
  code_at c (cur_off s) (copy_res p r) ->
  exists k M1, nsteps k M = SNext M1 /\ frame_eq M M1
    /\ ms_pc M1 = cur_off s + Z.of_nat (length (copy_res p r)) /\ holds r st l v M1.
Proof.
  intros R Es Pp W Sm Hr Hc.
  pose proof (r_stack _ _ _ _ _ _ _ _ _ _ _ R) as Hst. rewrite Es in Hst.
  assert (Hp : repr (denote consts M p) v) by (inversion Hst; auto). clear Hst.
  pose proof (w_next _ _ W) as Hnl. pose proof Sm as [Sn Sc].
  unfold copy_res in *. destruct (provider_eqb p r) eqn:Eq.
  - apply provider_eqb_eq in Eq. subst p. exists O, M. split; [reflexivity|]. split; [apply frame_eq_refl|].
    cbn [length]. split; [rewrite (r_pc _ _ _ _ _ _ _ _ _ _ _ R); lia|].
    destruct r as [d|i|k0]; cbn [holds res_ok] in *; [|destruct Hr as [-> _]|contradiction].
    + intros s2 E2 Ec2. destruct R. constructor; auto. rewrite E2. constructor; [exact Hp|constructor].
    + destruct R. repeat split; auto.
  - pose proof (pwf_idx s p Sm W Pp) as Hidx.
    assert (Hr0 : 0 <= provider_idx r < NR) by (destruct r as [d|i|k0]; cbn in Hr |- *; lia).
    assert (Hdi : idx_ok (provider_idx r)) by (unfold idx_ok; lia).
    pose proof (mstep_copy art mhost codes fidx c consts Hcode M (provider_idx p) (provider_idx r) (r_idx _ _ _ _ _ _ _ _ _ _ _ R)) as Hstep.
    rewrite (r_pc _ _ _ _ _ _ _ _ _ _ _ R) in Hstep. specialize (Hstep Hc Hidx Hdi).
    change (get_local consts M (provider_idx p)) with (denote consts M p) in Hstep.
    set (x := denote consts M p) in *. set (pc' := cur_off s + 9) in *.
    exists 1%nat, (set_pc (set_reg M (provider_idx r) x) pc'). split; [cbn; rewrite Hstep; reflexivity|].
    split; [apply (frame_eq_write _ _ _ _ _ (mupd_refl M))|].
    split; [cbn [length]; rewrite app_length, !i32_bytes_length; cbn; unfold pc'; lia|].
    pose proof (reg_in_range _ _ _ _ _ _ _ _ _ _ _ (provider_idx r) R Hr0) as Hrange.
    assert (Hw : repr (get_local consts (set_pc (set_reg M (provider_idx r) x) pc') (provider_idx r)) v).
    { rewrite get_local_set_pc, get_local_set_reg by (auto; lia). rewrite Z.eqb_refl. exact Hp. }
    assert (Hs : Forall2 (fun q w => repr (get_local consts (set_pc (set_reg M (provider_idx r) x) pc') (provider_idx q)) w) [r] [v])
      by (constructor; [exact Hw|constructor]).
    destruct r as [d|i|k0]; cbn [holds res_ok provider_idx] in *; [|destruct Hr as [-> _]|contradiction].
    + intros s2 E2 Ec2.
      eapply (rel_after_write art fidx consts nl NR cap s s2 st st l l (v :: vs) [v] M M d x pc' [PDyn d]); auto.
      * apply mupd_refl.
      * apply (r_nl _ _ _ _ _ _ _ _ _ _ _ R).
      * apply (locals_kept art mhost fidx consts nl NR cap s st l (v :: vs) M M d x pc' R (mupd_refl M)); lia.
      * apply (r_globals _ _ _ _ _ _ _ _ _ _ _ R).
      * apply (r_mem _ _ _ _ _ _ _ _ _ _ _ R).
    + destruct R. repeat split; auto.
Qed.

Lemma holds_arrive e r st l v vs M : snd e = Some r -> holds r st l v M -> 0 <= ms_pc M -> 0 <= fst (fst e) ->
  arrive e st l (v :: vs) (set_pc M (fst (fst e))).
Proof.
  intros Er H Hpc H0. unfold arrive. rewrite Er. destruct r as [d|i|k0]; cbn [holds] in H; exists v, vs; (split; [reflexivity|]).
  - pose proof (H (at_pc (ms_pc M) [PDyn d]) eq_refl (cur_off_at_pc _ _ Hpc)) as R1.
    eapply rel_pc; [exact R1|apply (r_stack _ _ _ _ _ _ _ _ _ _ _ R1)|apply cur_off_at_pc; exact H0].
  - destruct H as (W1 & W2 & W3 & W4 & W5). repeat split; auto.
  - destruct H as (W1 & W2 & W3 & W4 & W5). repeat split; auto.
Qed.

Lemma code_from_F2 s1 base t :
  matches F s1 -> (base + length t <= length (c_out s1))%nat ->
  (forall j, (j < length t)%nat -> nth (base + j) (c_out s1) 0%N = nth j t 0%N /\ ~ pending s1 (base + j)) ->
  code_at c (Z.of_nat base) t.
Proof.
  intros [L Hm] Hlen Hn j Hj. destruct (Hn j Hj) as [E Np].
  rewrite <- Nat2Z.inj_add, byte_F by lia. rewrite (Hm (base + j)%nat ltac:(lia) Np), E. reflexivity.
Qed.

Lemma jump_in_F s s1 k j x rho pre post :
  matches F s1 -> lenv s1 rho -> lows rho s -> cur_off s <= x ->
  nth_error (c_bp s1) k = Some (jadd j x) ->
  c_out s1 = pre ++ u32_bytes (jpos j) ++ post -> Z.of_nat (length pre) = x ->
  bpwf s -> (forall y, In y (all_locs (c_bp s1)) -> (y = x /\ j <> JKnown (jpos j)) \/ In y (all_locs (c_bp s))) ->
  (exists e, nth_error rho k = Some e /\ snd e = jres j /\ get_u32 c x = fst (fst e) /\ 0 <= fst (fst e))
  /\ forall q, (length (c_out s) <= q)%nat -> ~ in_win x q -> ~ pending s1 q.
Proof.
  intros Hm Hle Hlo Hx Enth1 Eo Ex B Hnew.
  assert (Hold : forall y, In y (all_locs (c_bp s1)) -> (y = x /\ j <> JKnown (jpos j)) \/ y + 4 <= cur_off s).
  { intros y Hy. destruct (Hnew y Hy) as [Hy'|Hy']; [left; exact Hy'|right; apply (bw_range _ B y Hy')]. }
  split; [|intros q Hq Hw (y & Hy & Hwy); destruct (Hold y Hy) as [[-> _]|Hy']; [contradiction|unfold in_win, cur_off in *; lia]].
  destruct j as [pos|locs res]; cbn [jadd jpos jres] in *.
  - destruct (Forall2_nth_error _ _ _ _ _ Hle Enth1) as (e & Ee & [(l0 & E0 & _)|[E0 Er]]); [discriminate E0|].
    injection E0 as Epos. symmetry in Epos.
    destruct (lows_nth _ _ _ _ Hlo Ee) as [_ Hr]. rewrite Epos in Hr.
    exists e. rewrite Epos. splits; auto; [|lia]. subst x. apply code_at_u32; [exact Hr|].
    apply (code_from_F s1 pre (u32_bytes pos) post Hm Eo). intros q Hq (y & Hy & Hw). rewrite u32_bytes_length in Hq.
    destruct (Hold y Hy) as [[_ Hn]|Hy']; [apply Hn; reflexivity|unfold in_win in Hw; lia].
  - destruct (Forall2_nth_error _ _ _ _ _ Hle Enth1) as (e & Ee & He). pose proof (lenv1_u _ _ _ He) as Hu.
    destruct He as [(l0 & E0 & _)|[E0 _]]; [injection E0 as _ Er|discriminate E0].
    destruct (lows_nth _ _ _ _ Hlo Ee) as [Hlo_e _].
    assert (Ht : get_u32 c x = fst (fst e)) by (apply Hu; [apply in_or_app; right; left; reflexivity|lia]).
    exists e. splits; auto. rewrite <- Ht. apply get_u32_nonneg.
Qed.

Lemma sim_br k j s v v1 s1 rho st l vs M :
  inv nl s v -> v_unreach v = None -> nth_error (c_bp s) k = Some j ->
  vstep cx v (OBasic (BBr k)) = Some v1 ->
  handle_opcode cx s v1 Reachable (OBasic (BBr k)) = Some s1 ->
  matches F s1 -> lenv s1 rho -> lows rho s -> small NR s1 -> rel s st l vs M ->
  sim_res rho M s1 (RBr k st l vs).
Proof.
  intros I Hu Enth Ev Eh Hm Hle Hlo Sm R.
  destruct (op_br nl cx s v v1 s1 k j I Hu Enth Ev Eh) as (cp & Hcp & O1 & O2 & O2' & O3 & O4 & O5 & O6 & I1 & Hu1 & X1 & Hbs).
  set (x := cur_off s + Z.of_nat (length cp) + 1) in *.
  destruct (jump_in_F s s1 k j x rho (c_out s ++ cp ++ [IBr]) [] Hm Hle Hlo) as ((e & Ee & Er & Ht & H0) & Hpend);
    [unfold x; lia|exact O2|rewrite O1, app_nil_r, <- !app_assoc; reflexivity
    |rewrite !app_length; cbn [length]; unfold x, cur_off; lia|apply (i_bp I)|exact O2'|].
  assert (Sm0 : small NR s) by (eapply small_of_mono; [exact Sm|apply mono_eq; auto]).
  assert (Hc : code_at c (cur_off s) (cp ++ [IBr])).
  { apply (code_from_F s1 (c_out s) (cp ++ [IBr]) (u32_bytes (jpos j)) Hm); [rewrite O1, <- app_assoc; reflexivity|].
    intros q Hq. rewrite app_length in Hq. cbn [length] in Hq. apply Hpend; [lia|unfold in_win, x, cur_off; lia]. }
  apply code_at_app in Hc. destruct Hc as [Hc1 Hc2].
  (* moving the result, if the label has one *)
  assert (Hmv : exists k1 M1, nsteps k1 M = SNext M1 /\ frame_eq M M1 /\ ms_pc M1 = cur_off s + Z.of_nat (length cp)
                 /\ arrive e st l vs (set_pc M1 (fst (fst e)))).
  { rewrite <- Er in Hcp. destruct (snd e) as [r|] eqn:Ese.
    - destruct Hcp as (p & rest & Es & Pp & Hr & ->).
      destruct vs as [|v0 vs0]; [pose proof (r_stack _ _ _ _ _ _ _ _ _ _ _ R) as Hst; rewrite Es in Hst; inversion Hst|].
      destruct (sim_copy s p r rest st l v0 vs0 M R Es Pp (i_cwf I) Sm0 Hr Hc1) as (k1 & M1 & Hn1 & Fq1 & Hpc1 & Hh).
      exists k1, M1. splits; auto. apply (holds_arrive e r); auto. rewrite Hpc1. unfold cur_off. lia.
    - subst cp. exists O, M. split; [reflexivity|]. split; [apply frame_eq_refl|].
      split; [rewrite (r_pc _ _ _ _ _ _ _ _ _ _ _ R); cbn; lia|].
      unfold arrive. rewrite Ese. eapply rel_jump; [exact R|reflexivity|apply cur_off_at_pc; exact H0]. }
  destruct Hmv as (k1 & M1 & Hn1 & Fq1 & Hpc1 & Harr).
  assert (Hidx1 : ms_idx M1 = fidx) by (destruct Fq1 as (E & _); rewrite E; apply (r_idx _ _ _ _ _ _ _ _ _ _ _ R)).
  rewrite <- Hpc1 in Hc2. fold x in Ht. replace x with (ms_pc M1 + 1) in Ht by (unfold x; lia).
  cbn. exists e, (k1 + 1)%nat, (set_pc M1 (fst (fst e))).
  split; [exact Ee|]. split; [exact H0|]. split.
  - rewrite (nsteps_app _ _ _ _ _ _ _ Hn1). cbn. rewrite (mstep_br2 M1 Hidx1 Hc2), Ht. reflexivity.
  - split; [exact Harr|exact Fq1].
Qed.

Lemma sim_br_if k j s v v1 s1 rho st l cv vs M :
  inv nl s v -> v_unreach v = None -> nth_error (c_bp s) k = Some j -> jres j = None ->
  vstep cx v (OBasic (BBrIf k)) = Some v1 ->
  handle_opcode cx s v1 Reachable (OBasic (BBrIf k)) = Some s1 ->
  matches F s1 -> lenv s1 rho -> lows rho s -> small NR s1 -> rel s st l (VI32 cv :: vs) M ->
  exists M1, nsteps 1 M = SNext M1 /\ frame_eq M M1 /\
    if cv =? 0 then rel s1 st l vs M1
    else exists e, nth_error rho k = Some e /\ 0 <= fst (fst e) /\ arrive e st l vs M1.
Proof.
  intros I Hu Enth Hnr Ev Eh Hm Hle Hlo Sm R.
  destruct (op_br_if nl cx s v v1 s1 k j I Hu Enth Hnr Ev Eh) as (p & rest & Es & Pp & O1 & O2 & O2' & O3 & O4 & O5 & O6 & I1 & Hu1 & X1 & Hbs).
  set (x := cur_off s + 1) in *.
  destruct (jump_in_F s s1 k j x rho (c_out s ++ [IBrIf]) (i32_bytes (provider_idx p)) Hm Hle Hlo) as ((e & Ee & Er & Ht & H0) & Hpend);
    [unfold x; lia|exact O2|rewrite O1, <- !app_assoc; reflexivity
    |rewrite app_length; cbn [length]; unfold x, cur_off; lia|apply (i_bp I)|exact O2'|].
  assert (Hc : code_at c (cur_off s) [IBrIf]).
  { apply (code_from_F s1 (c_out s) [IBrIf] (u32_bytes (jpos j) ++ i32_bytes (provider_idx p)) Hm O1). intros q Hq. cbn in Hq.
    apply Hpend; [lia|unfold in_win, x, cur_off; lia]. }
  assert (Hc2 : code_at c (cur_off s + 5) (i32_bytes (provider_idx p))).
  { assert (E : c_out s1 = (c_out s ++ IBrIf :: u32_bytes (jpos j)) ++ i32_bytes (provider_idx p) ++ []).
    { rewrite O1, app_nil_r, <- app_assoc. reflexivity. }
    pose proof (code_from_F s1 _ _ _ Hm E) as Hx. rewrite app_length in Hx. cbn [length] in Hx. rewrite !u32_bytes_length in Hx.
    replace (cur_off s + 5) with (Z.of_nat (length (c_out s) + 5)) by (unfold cur_off; lia). apply Hx.
    intros q Hq. apply Hpend; [lia|unfold in_win, x, cur_off; lia]. }
  pose proof (r_stack _ _ _ _ _ _ _ _ _ _ _ R) as Hst. rewrite Es in Hst. inversion Hst as [|? ? ? ? Hp Hrest]; subst.
  assert (Sm0 : small NR s) by (eapply small_of_mono; [exact Sm|apply mono_eq; auto]).
  pose proof (pwf_idx s p Sm0 (i_cwf I) Pp) as Hidx.
  pose proof (mstep_br_if2 M (provider_idx p) (r_idx _ _ _ _ _ _ _ _ _ _ _ R)) as Hstep.
  rewrite (r_pc _ _ _ _ _ _ _ _ _ _ _ R) in Hstep. specialize (Hstep Hc Hc2 Hidx).
  change (get_local consts M (provider_idx p)) with (denote consts M p) in Hstep. rewrite (cond_repr _ _ Hp) in Hstep.
  assert (Ecur : cur_off s1 = cur_off s + 9).
  { unfold cur_off. rewrite O1, app_length. cbn [length]. rewrite app_length, u32_bytes_length, i32_bytes_length. lia. }
  eexists. split; [cbn; rewrite Hstep; reflexivity|]. split; [apply frame_eq_set_pc|].
  destruct (cv =? 0).
  - eapply rel_pc; [exact R|exact Hrest|exact Ecur].
  - exists e. split; [exact Ee|]. split; [exact H0|]. fold x. rewrite Ht. unfold arrive. rewrite Er, Hnr.
    eapply rel_jump; [exact R|reflexivity|apply cur_off_at_pc; exact H0].
Qed.

Lemma sim_return s v v1 s1 rho st l vs M :
  inv nl s v -> v_unreach v = None ->
  match cx_return cx, last (map (fun f => Some (vf_label f)) (v_ctrls v)) None with
  | None, Some None | Some _, Some (Some _) => True
  | _, _ => False
  end ->
  vstep cx v (OBasic BReturn) = Some v1 ->
  handle_opcode cx s v1 Reachable (OBasic BReturn) = Some s1 ->
  matches F s1 -> small NR s1 -> rel s st l vs M -> sim_res rho M s1 (RReturn st vs).
Proof.
  intros I Hu Hok Ev Eh Hm Sm R.
  destruct (op_return nl cx s v v1 s1 I Hu Hok Ev Eh) as (cp & Hcp & O1 & O2 & O3 & O4 & O5 & O6 & I1 & Hu1 & X1).
  assert (Sm0 : small NR s) by (eapply small_of_mono; [exact Sm|apply mono_eq; auto]).
  assert (Hc : code_at c (cur_off s) (cp ++ [IReturn])).
  { apply (code_from_F s1 (c_out s) (cp ++ [IReturn]) [] Hm); [rewrite app_nil_r; exact O1|].
    intros j Hj. apply (no_new_pending s s1); auto; [apply (i_bp I)|lia]. }
  apply code_at_app in Hc. destruct Hc as [Hc1 Hc2]. cbn [sim_res].
  destruct (cx_return cx) as [t'|].
  - destruct Hcp as (p & rest & Es & Pp & Hpos & ->).
    destruct vs as [|v0 vs0]; [pose proof (r_stack _ _ _ _ _ _ _ _ _ _ _ R) as Hst; rewrite Es in Hst; inversion Hst|].
    destruct (sim_copy s p (PLocal 0) rest st l v0 vs0 M R Es Pp (i_cwf I) Sm0 (conj eq_refl Hpos) Hc1)
      as (k1 & M1 & Hn1 & Fq1 & Hpc1 & W1 & _ & W3 & W4 & W5).
    rewrite <- Hpc1 in Hc2. exists k1, M1. splits; auto. exists v0, vs0. auto.
  - subst cp. exists O, M. split; [reflexivity|]. split; [apply frame_eq_refl|]. split; [apply (r_idx _ _ _ _ _ _ _ _ _ _ _ R)|].
    split; [rewrite (r_pc _ _ _ _ _ _ _ _ _ _ _ R); cbn [length Z.of_nat] in Hc2; rewrite Z.add_0_r in Hc2; exact Hc2|].
    split; [apply (r_globals _ _ _ _ _ _ _ _ _ _ _ R)|]. split; [apply (r_mem _ _ _ _ _ _ _ _ _ _ _ R)|exact Logic.I].
Qed.

Definition blk (bt : blocktype) (r : res) : res :=
  match r with
  | RNormal s1 l1 vs1 => RNormal s1 l1 (firstn (arity bt) vs1 ++ [])
  | RBr O s1 l1 vs1 => RNormal s1 l1 (firstn (arity bt) vs1 ++ [])
  | RBr (S k) s1 l1 vs1 => RBr k s1 l1 vs1
  | r => r
  end.

Lemma sim_after_body f B bt res rho T lo sb sk s' M rb rest :
  bres nl B bt res -> sim_res ((T, lo, res) :: rho) M sb rb ->
  c_stack sk = ostack res -> cur_off sk = T ->
  (forall st1 l1 vs1 M1, rb = RNormal st1 l1 vs1 -> rel sb st1 l1 vs1 M1 ->
     length vs1 = arity bt /\ exists n M2, nsteps n M1 = SNext M2 /\ frame_eq M1 M2 /\ rel sk st1 l1 vs1 M2) ->
  (forall st1 l1 vs1 M1, rel sk st1 l1 vs1 M1 -> sim_res rho M1 s' (exec_seq f st1 l1 vs1 rest)) ->
  sim_res rho M s' (match blk bt rb with RNormal s1 l1 st1 => exec_seq f s1 l1 st1 rest | r => r end).
Proof.
  intros Hres Hb Esk Ecur Hbridge Hrest. destruct rb as [st1 l1 vs1|k st1 l1 vs1| | | |]; cbn [blk sim_res] in *; auto.
  - destruct Hb as (n & M1 & Hn & R1 & Fq).
    destruct (Hbridge _ _ _ _ eq_refl R1) as (Hlen & n2 & M2 & Hn2 & Fq2 & R2).
    rewrite <- Hlen, firstn_all, app_nil_r.
    eapply sim_res_compose; [exact Hn|exact Fq|]. eapply sim_res_compose; [exact Hn2|exact Fq2|]. apply Hrest. exact R2.
  - destruct Hb as (e & n & M1 & Ee & H0 & Hn & R1 & Fq). destruct k as [|k].
    + cbn in Ee. inversion Ee; subst e. unfold arrive in R1. cbn [fst snd] in *.
      eapply sim_res_compose; [exact Hn|exact Fq|]. apply Hrest.
      destruct bt as [t|]; cbn [bres] in Hres.
      * destruct Hres as (d & -> & _). destruct R1 as (v & vs0 & -> & R1). cbn [arity firstn app].
        eapply rel_transfer; [exact R1|rewrite Esk; reflexivity|rewrite Ecur, cur_off_at_pc by exact H0; reflexivity].
      * subst res. cbn [arity firstn app].
        eapply rel_transfer; [exact R1|rewrite Esk; reflexivity|rewrite Ecur, cur_off_at_pc by exact H0; reflexivity].
    + cbn in Ee. cbn [sim_res]. exists e, n, M1. auto.
Qed.

(** a sequence whose last instruction is br / unreachable / return never finishes normally *)
Lemma no_normal_term b : is_term b = true -> forall pre fuel st l vs st' l' vs',
  exec_seq fuel st l vs (pre ++ [Basic b]) = RNormal st' l' vs' -> False.
Proof.
  intros Hb. induction pre as [|i pre IH]; intros fuel st l vs st' l' vs' H.
  - destruct fuel as [|f]; [discriminate|]. cbn [app] in H. rewrite (eseq_S host cap m) in H.
    destruct f as [|f2]; [discriminate|].
    destruct b; try discriminate Hb; rewrite (einstr_S host cap m) in H; discriminate.
  - destruct fuel as [|f]; [discriminate|]. cbn [app] in H. rewrite (eseq_S host cap m) in H.
    destruct (exec_instr f st l vs i) as [s1 l1 vs1| | | | |]; try discriminate. eapply IH; eauto.
Qed.
Lemma term_no_normal is s v v' s' fuel st l vs st' l' vs' :
  compile_ops cx (flatten is) v s = Some (v', s') -> lvl nl cx (flatten is) v = true -> v_unreach v = None ->
  v_unreach v' <> None -> exec_seq fuel st l vs is = RNormal st' l' vs' -> False.
Proof.
  intros Hc Hl Hu Hu' H. destruct (term_last nl cx is v s v' s' Hc Hl Hu Hu') as (pre & b & -> & Hb).
  eapply no_normal_term; eauto.
Qed.

Lemma sim_if bt s v va sa st l x vs M :
  inv nl s v -> v_unreach v = None -> v_opds v = 1%nat -> vstep cx v (OIf bt) = Some va ->
  handle_opcode cx s va Reachable (OIf bt) = Some sa ->
  matches F sa -> small NR sa -> rel s st l (x :: vs) M ->
  vs = [] /\
  forall cv, x = VI32 cv ->
  exists M1, nsteps 1 M = SNext M1 /\ frame_eq M M1 /\
    if cv =? 0 then forall s2, c_stack s2 = [] -> cur_off s2 = get_u32 c (cur_off s + 5) -> rel s2 st l [] M1
    else rel sa st l [] M1.
Proof.
  intros I Hu H1 Ev Eh Hm Sm R.
  destruct (op_if nl cx s v va sa bt I Hu H1 Ev Eh) as (p & res & Es & Pp & Hres & A1 & A2 & A3 & Ma & A6 & Ia & Hua & Xa).
  pose proof (r_stack _ _ _ _ _ _ _ _ _ _ _ R) as Hst. rewrite Es in Hst. inversion Hst as [|? ? ? ? Hp Hrest]; subst.
  inversion Hrest; subst. split; [reflexivity|]. intros cv ->.
  assert (Hc : code_at c (cur_off s) (IIf :: i32_bytes (provider_idx p))).
  { apply (code_from_F sa (c_out s) (IIf :: i32_bytes (provider_idx p)) (u32_bytes 0) Hm).
    - rewrite A1. reflexivity.
    - intros j Hj. cbn [length] in Hj. rewrite i32_bytes_length in Hj.
      apply (pres_pending_new s sa (cur_off s + 5)); [apply (i_bp I)| |lia|unfold in_win, cur_off; lia].
      intros y Hy. rewrite A2 in Hy. cbn in Hy. destruct Hy; auto. }
  assert (Sm0 : small NR s) by (eapply small_of_mono; [exact Sm|exact Ma]).
  pose proof (pwf_idx s p Sm0 (i_cwf I) Pp) as Hidx.
  pose proof (mstep_if2 M (provider_idx p) (r_idx _ _ _ _ _ _ _ _ _ _ _ R)) as Hstep.
  rewrite (r_pc _ _ _ _ _ _ _ _ _ _ _ R) in Hstep. specialize (Hstep Hc Hidx).
  change (get_local consts M (provider_idx p)) with (denote consts M p) in Hstep. rewrite (cond_repr _ _ Hp) in Hstep.
  eexists. split; [cbn; rewrite Hstep; reflexivity|]. split; [apply frame_eq_set_pc|].
  destruct (cv =? 0).
  - intros s2 E2 Ec2. eapply rel_jump; [exact R|exact E2|exact Ec2].
  - eapply rel_jump; [exact R|exact A3|].
    unfold cur_off. rewrite A1, app_length. cbn [length]. rewrite app_length, i32_bytes_length, u32_bytes_length. lia.
Qed.

Definition SIM (fuel : nat) : Prop := forall is s v v' s' rho st l vs M, syn is = true ->
  compile_ops cx (flatten is) v s = Some (v', s') -> lvl nl cx (flatten is) v = true ->
  inv nl s v -> v_unreach v = None -> ready s is ->
  matches F s' -> lenv s' rho -> lows rho s -> small NR s' -> consts_ok consts s' ->
  rel s st l vs M -> sim_res rho M s' (exec_seq fuel st l vs is).

Lemma T_range s1 : matches F s1 -> 0 <= cur_off s1 < 4294967296.
Proof. intros [L _]. unfold cur_off. lia. Qed.

Lemma lenv_end sb sc locs res rho lo :
  c_bp sb = JUnknown locs res :: c_bp sc -> (forall loc, In loc locs -> resolved sc loc (cur_off sc)) ->
  matches F sc -> lenv sc rho -> lenv sb ((cur_off sc, lo, res) :: rho).
Proof.
  intros E Rs Hm Hl. unfold lenv. rewrite E. constructor; [|exact Hl].
  left. exists locs. split; [reflexivity|]. intros loc Hin _. cbn [fst].
  apply (target_from_F sc loc (cur_off sc) (Rs loc Hin) Hm). apply T_range. exact Hm.
Qed.

Lemma rel_nil_stack s st l vs M : rel s st l vs M -> c_stack s = [] -> vs = [].
Proof. intros R E. pose proof (r_stack _ _ _ _ _ _ _ _ _ _ _ R) as H. rewrite E in H. inversion H. reflexivity. Qed.

Lemma lows_cons T lo rr rho s sa : lows rho s -> cur_off s <= cur_off sa -> lo <= cur_off sa -> 0 <= T < 4294967296 ->
  lows ((T, lo, rr) :: rho) sa.
Proof. intros H Hle Hlo HT. constructor; [split; [exact Hlo|exact HT]|]. eapply lows_mono; eauto. Qed.

Lemma sim_end_fall B bt res sb vb sc tc st1 l1 vs1 M1 :
  bres nl B bt res -> inv nl sb vb -> small NR sb -> matches F sc ->
  c_stack sc = ostack res -> cur_off sc = cur_off sb + Z.of_nat (length tc) ->
  (forall j, (j < length tc)%nat -> nth (length (c_out sb) + j) (c_out sc) 0%N = nth j tc 0%N /\ ~ pending sc (length (c_out sb) + j)) ->
  match res, v_unreach vb with
  | Some r, None => exists p, c_stack sb = [p] /\ pwf nl sb p /\ res_ok nl (c_next sb) r /\ tc = copy_res p r
  | _, _ => c_stack sb = [] /\ tc = []
  end ->
  (res <> None -> v_unreach vb = None) -> rel sb st1 l1 vs1 M1 ->
  length vs1 = arity bt /\ exists n M2, nsteps n M1 = SNext M2 /\ frame_eq M1 M2 /\ rel sc st1 l1 vs1 M2.
Proof.
  intros Hres Ib Sb Mc E3 Ecur Hnth Hcase Hub R1. destruct bt as [t|]; cbn [bres] in Hres.
  - destruct Hres as (d & -> & _). rewrite (Hub ltac:(discriminate)) in Hcase. destruct Hcase as (p & Esb & Pp & Hd & ->).
    pose proof (r_stack _ _ _ _ _ _ _ _ _ _ _ R1) as Hst. rewrite Esb in Hst.
    inversion Hst as [|? v1 ? vs1' Hp1 Hr1]; subst. inversion Hr1; subst. clear Hst Hr1. split; [reflexivity|].
    assert (Hcc : code_at c (cur_off sb) (copy_res p (PDyn d))).
    { unfold cur_off. apply (code_from_F2 sc (length (c_out sb)) (copy_res p (PDyn d)) Mc); [|exact Hnth].
      unfold cur_off in Ecur. lia. }
    destruct (sim_copy sb p (PDyn d) [] st1 l1 v1 [] M1 R1 Esb Pp (i_cwf Ib) Sb Hd Hcc) as (k1 & M2 & Hn1 & Fq1 & Hpc1 & Hbld).
    exists k1, M2. split; [exact Hn1|]. split; [exact Fq1|]. apply Hbld; [exact E3|]. rewrite Hpc1, Ecur. reflexivity.
  - subst res. cbn in Hcase. destruct Hcase as [Esb ->].
    pose proof (rel_nil_stack _ _ _ _ _ R1 Esb). subst vs1. split; [reflexivity|].
    exists O, M1. split; [reflexivity|]. split; [apply frame_eq_refl|].
    eapply rel_transfer; [exact R1|rewrite E3, Esb; reflexivity|rewrite Ecur; cbn; lia].
Qed.

Lemma sim_else_fall B bt res sb vb sc se tc st1 l1 vs1 M1 :
  bres nl B bt res -> inv nl sb vb -> small NR sb -> matches F sc ->
  cur_off sc = cur_off sb + Z.of_nat (length tc) + 5 ->
  (forall j, (j < length (tc ++ [IBr]))%nat ->
     nth (length (c_out sb) + j) (c_out sc) 0%N = nth j (tc ++ [IBr]) 0%N /\ ~ pending sc (length (c_out sb) + j)) ->
  match res with
  | Some r => exists p, c_stack sb = [p] /\ pwf nl sb p /\ res_ok nl (c_next sb) r /\ tc = copy_res p r
  | None => c_stack sb = [] /\ tc = []
  end ->
  get_u32 c (cur_off sb + Z.of_nat (length tc) + 1) = cur_off se -> c_stack se = ostack res ->
  rel sb st1 l1 vs1 M1 ->
  length vs1 = arity bt /\ exists n M2, nsteps n M1 = SNext M2 /\ frame_eq M1 M2 /\ rel se st1 l1 vs1 M2.
Proof.
  intros Hres Ib Sb Mc Ecur Hnth Hcase Htgt Ese R1.
  assert (Hcall : code_at c (cur_off sb) (tc ++ [IBr])).
  { unfold cur_off. apply (code_from_F2 sc (length (c_out sb)) (tc ++ [IBr]) Mc); [|exact Hnth].
    rewrite app_length. cbn [length]. unfold cur_off in Ecur. lia. }
  apply code_at_app in Hcall. destruct Hcall as [Hc1 Hc2].
  destruct bt as [t|]; cbn [bres] in Hres.
  - destruct Hres as (d & -> & _). destruct Hcase as (p & Esb & Pp & Hd & ->).
    pose proof (r_stack _ _ _ _ _ _ _ _ _ _ _ R1) as Hst. rewrite Esb in Hst.
    inversion Hst as [|? v1 ? vs1' Hp1 Hr1]; subst. inversion Hr1; subst. clear Hst Hr1. split; [reflexivity|].
    destruct (sim_copy sb p (PDyn d) [] st1 l1 v1 [] M1 R1 Esb Pp (i_cwf Ib) Sb Hd Hc1) as (k1 & M3 & Hn3 & Fq3 & Hpc3 & Hbld).
    assert (Hidx3 : ms_idx M3 = fidx) by (destruct Fq3 as (E & _); rewrite E; apply (r_idx _ _ _ _ _ _ _ _ _ _ _ R1)).
    rewrite <- Hpc3 in Hc2, Htgt.
    assert (Hpc0 : 0 <= ms_pc M3) by (rewrite Hpc3; unfold cur_off; lia).
    pose proof (Hbld (at_pc (ms_pc M3) [PDyn d]) eq_refl (cur_off_at_pc _ _ Hpc0)) as R3.
    exists (k1 + 1)%nat, (set_pc M3 (cur_off se)). split.
    + rewrite (nsteps_app _ _ _ _ _ _ _ Hn3). cbn. rewrite (mstep_br2 M3 Hidx3 Hc2), Htgt. reflexivity.
    + split; [exact Fq3|]. eapply rel_pc; [exact R3|rewrite Ese; apply (r_stack _ _ _ _ _ _ _ _ _ _ _ R3)|reflexivity].
  - subst res. destruct Hcase as [Esb ->]. cbn [length Z.of_nat] in *. rewrite Z.add_0_r in *.
    pose proof (rel_nil_stack _ _ _ _ _ R1 Esb). subst vs1. split; [reflexivity|].
    exists 1%nat, (set_pc M1 (cur_off se)). split.
    + cbn. rewrite (mstep_br2 M1 (r_idx _ _ _ _ _ _ _ _ _ _ _ R1)); rewrite (r_pc _ _ _ _ _ _ _ _ _ _ _ R1); [rewrite Htgt; reflexivity|exact Hc2].
    + split; [apply frame_eq_set_pc|]. eapply rel_jump; [exact R1|exact Ese|reflexivity].
Qed.

Lemma pres_ctx s s' v' rho : pres nl s s' v' -> matches F s' -> lenv s' rho -> small NR s' ->
  matches F s /\ lenv s rho /\ small NR s.
Proof.
  intros P Hm Hle Sm. split; [eapply matches_ext; [apply (p_ext P)|exact Hm]|].
  split; [eapply lenv_sub; [reflexivity|apply (p_bp P)|exact Hle]|eapply small_of_mono; [exact Sm|apply (p_mono P)]].
Qed.

Lemma inner_frame_ctx sa sb sc s' vb :
  pres nl sa sb vb -> ext sb sc -> c_next sc = c_next sb -> c_consts sc = c_consts sb ->
  matches F sc -> mono sc s' -> small NR s' ->
  matches F sb /\ matches F sa /\ mono sb s' /\ mono sa s' /\ small NR sb /\ small NR sa /\ cur_off sa <= cur_off sb.
Proof.
  intros Pb X3 E5 E6 Mc Moc Sm.
  assert (Mb : matches F sb) by (eapply matches_ext; [exact X3|exact Mc]).
  assert (Mob : mono sb s') by (eapply mono_trans; [apply (mono_eq sb sc); auto|exact Moc]).
  assert (Moa : mono sa s') by (eapply mono_trans; [apply (p_mono Pb)|exact Mob]).
  split; [exact Mb|]. split; [eapply matches_ext; [apply (p_ext Pb)|exact Mb]|]. split; [exact Mob|]. split; [exact Moa|].
  split; [eapply small_of_mono; [exact Sm|exact Mob]|]. split; [eapply small_of_mono; [exact Sm|exact Moa]|].
  apply ext_off; apply (p_ext Pb).
Qed.

Lemma closed_frame_ctx sa sb sc s' vb v' locs res rho :
  pres nl sa sb vb -> c_bp sb = JUnknown locs res :: c_bp sc -> ext sb sc -> c_next sc = c_next sb -> c_consts sc = c_consts sb ->
  (forall loc, In loc locs -> resolved sc loc (cur_off sc)) ->
  pres nl sc s' v' -> matches F s' -> lenv s' rho -> small NR s' ->
  matches F sc /\ matches F sb /\ matches F sa /\ mono sb s' /\ mono sa s' /\ small NR sb /\ small NR sa
  /\ lenv sc rho /\ 0 <= cur_off sc < 4294967296 /\ (forall lo, lenv sb ((cur_off sc, lo, res) :: rho))
  /\ cur_off sa <= cur_off sb.
Proof.
  intros Pb Ebp X3 E5 E6 Rs Pr Hm Hle Sm.
  destruct (pres_ctx sc s' v' rho Pr Hm Hle Sm) as (Mc & Lc & _).
  destruct (inner_frame_ctx sa sb sc s' vb Pb X3 E5 E6 Mc (p_mono Pr) Sm) as (Mb & Ma & Mob & Moa & Sb & Sa & Ob).
  assert (HT : 0 <= cur_off sc < 4294967296) by (apply T_range; exact Mc).
  assert (Lb : forall lo, lenv sb ((cur_off sc, lo, res) :: rho)) by (intros lo; eapply lenv_end; eauto).
  repeat (split; [assumption|]). assumption.
Qed.

Section Cases.
Variable n : nat.
Hypothesis Hsim : forall f', (f' < n)%nat -> SIM f'.

Lemma case_block f bt body rest s v v' s' rho st l vs M :
  (f < n)%nat -> syn (Block bt body :: rest) = true ->
  compile_ops cx (flatten (Block bt body :: rest)) v s = Some (v', s') ->
  lvl nl cx (flatten (Block bt body :: rest)) v = true ->
  inv nl s v -> v_unreach v = None ->
  matches F s' -> lenv s' rho -> lows rho s -> small NR s' -> consts_ok consts s' ->
  rel s st l vs M ->
  sim_res rho M s' (match exec_instr f st l vs (Block bt body) with
                    | RNormal s1 l1 st1 => exec_seq f s1 l1 st1 rest | r => r end).
Proof.
  intros Hf Hs Hc Hl I Hu Hm Hle Hlo Sm Co R.
  destruct (syn_cons _ _ Hs) as [Hsb Hsr]. rewrite syn_block in Hsb.
  rewrite flatten_block in Hc, Hl.
  destruct (open_split nl cx _ _ _ _ _ _ Hc Hl) as (va & sa & Ev & Eh & Hk & Hc' & Hl').
  destruct (close_split nl cx _ _ _ _ _ _ _ Hc' Hl') as (vb & sb & vc & sc & Hcb & Hlb & Evc & Ehc & _ & Hcr & Hlr).
  rewrite (reach_of_none v Hu) in Eh. unfold ctl_ok in Hk. rewrite Hu in Hk. apply Nat.eqb_eq in Hk.
  destruct (op_block nl cx s v va sa bt I Hu Hk Ev Eh) as (res & Hres & A1 & A2 & A3 & Ma & A7 & Ia & Hua).
  assert (Pb : pres nl sa sb vb) by (eapply (pure_seq nl cx body); eauto; left; exact A7).
  pose proof (p_bp Pb) as Hb0. rewrite A2 in Hb0. destruct (bp_sub_head_val _ _ _ _ Hb0) as (add & b'' & Ebp & Hb').
  destruct (op_end nl cx sb vb vc sc _ res b'' (p_inv Pb) Ebp Evc Ehc)
    as (tc & E2 & E3 & E5 & E6 & E7 & X3 & Ecur & Rs & Hnth & Ic & Huc & Hcase).
  pose proof (Ic (bres_nolocal _ _ _ _ Hres)) as Ic'.
  assert (Pr : pres nl sc s' v') by (eapply (pure_seq nl cx rest); eauto; left; exact E7).
  assert (Es : c_stack s = []) by (destruct (c_stack s) eqn:E; [reflexivity|pose proof (i_len I) as L; rewrite E, Hk in L; discriminate]).
  pose proof (rel_nil_stack _ _ _ _ _ R Es) as Evs. subst vs.
  destruct f as [|f2]; [cbn; exact Logic.I|]. rewrite (einstr_S host cap m); cbv match.
  match goal with |- sim_res _ _ _ ?rr =>
    replace rr with (match blk bt (exec_seq f2 st l [] body) with
                    | RNormal s1 l1 st1 => exec_seq (S f2) s1 l1 st1 rest | r0 => r0 end)
      by (destruct (exec_seq f2 st l [] body) as [? ? ?|[|?] ? ? ?| | | |]; reflexivity) end.
  rewrite <- E2 in Ebp.
  destruct (closed_frame_ctx sa sb sc s' vb v' _ res rho Pb Ebp X3 E5 E6 Rs Pr Hm Hle Sm)
    as (Mc & Mb & Mfa & Mob & Moa & Sb & Sa & Lc & HT & Lb & Ob). specialize (Lb 0).
  assert (Oa : cur_off sa = cur_off s) by (unfold cur_off; rewrite A1; reflexivity).
  eapply (sim_after_body (S f2) _ bt res rho (cur_off sc) 0 sb sc s'); [exact Hres| |exact E3|reflexivity| |].
  - eapply (Hsim f2 ltac:(lia) body sa va vb sb); eauto.
    + left. exact A7.
    + apply (lows_cons _ _ _ _ s); auto; try lia. unfold cur_off. lia.
    + eapply consts_ok_of_mono; [exact Co|exact Mob].
    + eapply rel_transfer; [exact R|rewrite A3; reflexivity|exact Oa].
  - intros st1 l1 vs1 M1 Erb R1. eapply (sim_end_fall _ bt res sb vb sc tc); eauto; [apply Pb|].
    intros _. destruct (v_unreach vb) eqn:Hub; [|reflexivity].
    exfalso. eapply (term_no_normal body sa va vb sb); eauto. rewrite Hub. discriminate.
  - intros st1 l1 vs1 M1 R1. eapply (Hsim (S f2) Hf rest sc vc v' s'); eauto.
    + left. exact E7.
    + eapply lows_mono; [exact Hlo|]. lia.
Qed.

Lemma case_if f bt thn els rest s v v' s' rho st l vs M :
  (f < n)%nat -> syn (If bt thn els :: rest) = true ->
  compile_ops cx (flatten (If bt thn els :: rest)) v s = Some (v', s') ->
  lvl nl cx (flatten (If bt thn els :: rest)) v = true ->
  inv nl s v -> v_unreach v = None ->
  matches F s' -> lenv s' rho -> lows rho s -> small NR s' -> consts_ok consts s' ->
  rel s st l vs M ->
  sim_res rho M s' (match exec_instr f st l vs (If bt thn els) with
                    | RNormal s1 l1 st1 => exec_seq f s1 l1 st1 rest | r => r end).
Proof.
  intros Hf Hs Hc Hl I Hu Hm Hle Hlo Sm Co R.
  destruct (syn_cons _ _ Hs) as [Hsi Hsr]. rewrite syn_if in Hsi.
  assert (Hsi' : syn thn = true /\ syn els = true).
  { destruct bt, els; try discriminate Hsi; apply andb_true_iff in Hsi; exact Hsi. }
  destruct Hsi' as [Hsyt Hsye].
  rewrite flatten_if in Hc, Hl.
  destruct (open_split nl cx _ _ _ _ _ _ Hc Hl) as (va & sa & Ev & Eh & Hk & Hc' & Hl').
  rewrite (reach_of_none v Hu) in Eh. unfold ctl_ok in Hk. rewrite Hu in Hk. apply Nat.eqb_eq in Hk.
  destruct (op_if nl cx s v va sa bt I Hu Hk Ev Eh) as (p & res & Es & Pp & Hres & A1 & A2 & A3 & Ma0 & A6 & Ia & Hua & Xa).
  assert (Oa9 : cur_off sa = cur_off s + 9).
  { unfold cur_off. rewrite A1, app_length. cbn [length]. rewrite app_length, i32_bytes_length, u32_bytes_length. lia. }
  pose proof (r_stack _ _ _ _ _ _ _ _ _ _ _ R) as Hst. rewrite Es in Hst. inversion Hst as [|? x ? ? _ Hvs]. inversion Hvs. subst. clear Hst Hvs.
  destruct f as [|f2]; [cbn; exact Logic.I|].
  destruct x as [cv|cv]; [|cbn; exact Logic.I].
  rewrite (einstr_S host cap m); cbv match. destruct f2 as [|f3]; [cbn; exact Logic.I|]. rewrite (einstr_S host cap m); cbv match.
  match goal with |- sim_res _ _ _ ?rr =>
    replace rr with (match blk bt (exec_seq f3 st l [] (if cv =? 0 then els else thn)) with
                    | RNormal s1 l1 st1 => exec_seq (S (S f3)) s1 l1 st1 rest | r0 => r0 end)
      by (destruct (exec_seq f3 st l [] (if cv =? 0 then els else thn)) as [? ? ?|[|?] ? ? ?| | | |]; reflexivity) end.
  destruct els as [|e els].
  -
    destruct bt; [discriminate|]. cbn [bres] in Hres.
    destruct (close_split nl cx _ _ _ _ _ _ _ Hc' Hl') as (vb & sb & vc & sc & Hcb & Hlb & Evc & Ehc & _ & Hcr & Hlr).
    assert (Pb : pres nl sa sb vb) by (eapply (pure_seq nl cx thn); eauto; left; exact A6).
    pose proof (p_bp Pb) as Hb0. rewrite A2 in Hb0. destruct (bp_sub_head_val _ _ _ _ Hb0) as (add & b'' & Ebp & Hb').
    destruct (op_end nl cx sb vb vc sc _ res b'' (p_inv Pb) Ebp Evc Ehc)
      as (tc & E2 & E3 & E5 & E6 & E7 & X3 & Ecur & Rs & Hnth & Ic & Huc & Hcase).
    pose proof (Ic (bres_nolocal nl (c_next sa) None res Hres)) as Ic'.
    assert (Pr : pres nl sc s' v') by (eapply (pure_seq nl cx rest); eauto; left; exact E7).
    rewrite <- E2 in Ebp.
    destruct (closed_frame_ctx sa sb sc s' vb v' _ res rho Pb Ebp X3 E5 E6 Rs Pr Hm Hle Sm)
      as (Mc & Mb & Ma & Mob & Moa & Sb & Sa & Lc & HT & Lb & Ob). specialize (Lb 0).
    destruct (sim_if None s v va sa st l (VI32 cv) [] M I Hu Hk Ev Eh Ma Sa R) as [_ Hstep].
    destruct (Hstep cv eq_refl) as (M1 & Hn1 & Fq1 & Hcasev).
    eapply sim_res_compose; [exact Hn1|exact Fq1|].
    assert (Hrest : forall st1 l1 vs1 M2, rel sc st1 l1 vs1 M2 -> sim_res rho M2 s' (exec_seq (S (S f3)) st1 l1 vs1 rest)).
    { intros st1 l1 vs1 M2 R2. eapply (Hsim (S (S f3)) Hf rest sc vc v' s'); eauto.
      - left. exact E7.
      - eapply lows_mono; [exact Hlo|]. lia. }
    subst res. cbn [ostack] in E3.
    destruct (cv =? 0).
    + destruct f3 as [|f4]; [cbn; exact Logic.I|]. rewrite (eseq_S host cap m). cbn [blk arity firstn app].
      apply Hrest. apply Hcasev; [exact E3|].
      rewrite (target_from_F sc _ (cur_off sc) (Rs _ ltac:(left; reflexivity)) Mc HT). reflexivity.
    + eapply (sim_after_body (S (S f3)) (c_next sa) None None rho (cur_off sc) 0 sb sc s'); [reflexivity| |exact E3|reflexivity| |exact Hrest].
      * eapply (Hsim f3 ltac:(lia) thn sa va vb sb); eauto.
        -- left. exact A6.
        -- apply (lows_cons _ _ _ _ s); auto; try lia. unfold cur_off. lia.
        -- eapply consts_ok_of_mono; [exact Co|exact Mob].
      * intros st1 l1 vs1 M2 Erb R2. eapply (sim_end_fall (c_next sa) None None sb vb sc tc); eauto; [reflexivity|apply Pb|].
        intros X. contradiction.
  -
    destruct (close_split nl cx _ _ _ _ _ _ _ Hc' Hl') as (vb & sb & vc & sc & Hcb & Hlb & Evc & Ehc & Hke & Hcr & Hlr).
    destruct (close_split nl cx _ _ _ _ _ _ _ Hcr Hlr) as (vd & sd & ve & se & Hcd & Hld & Eve & Ehe & _ & Hcr' & Hlr').
    assert (Pb : pres nl sa sb vb) by (eapply (pure_seq nl cx thn); eauto; left; exact A6).
    pose proof (p_bp Pb) as Hb0. rewrite A2 in Hb0. destruct (bp_sub_head_val _ _ _ _ Hb0) as (add & b'' & Ebp & Hb').
    assert (Hub : res <> None -> v_unreach vb = None).
    { destruct res as [r0|]; [intros _|intros X; contradiction]. eapply (val_top_reachable nl cx sb vb); eauto. apply Pb. }
    destruct (op_else nl cx sb vb vc sc _ res b'' (p_inv Pb) Ebp Hub Evc Ehc)
      as (first & more & tc2 & El & E2 & Hnth & E5 & E6n & E6c & E8 & Ecur & X3 & Rs & Ic & Huc & Hcase2).
    cbn [app] in El. inversion El; subst first add. clear El.
    assert (Pd : pres nl sc sd vd) by (eapply (pure_seq nl cx (e :: els)); eauto; left; exact E8).
    pose proof (p_bp Pd) as Hd0. rewrite E2 in Hd0. destruct (bp_sub_head_val _ _ _ _ Hd0) as (add2 & b3 & Ebp2 & Hb2).
    destruct (op_end nl cx sd vd ve se _ res b3 (p_inv Pd) Ebp2 Eve Ehe)
      as (tc & G2 & G3 & G5 & G6 & G7 & X5 & Gcur & Rs' & Gnth & Ie & Hue & Hcase).
    pose proof (Ie (bres_nolocal _ _ _ _ Hres)) as Ie'.
    assert (Pr : pres nl se s' v') by (eapply (pure_seq nl cx rest); eauto; left; exact G7).
    rewrite <- G2 in Ebp2.
    destruct (closed_frame_ctx sc sd se s' vd v' _ res rho Pd Ebp2 X5 G5 G6 Rs' Pr Hm Hle Sm)
      as (Me & Md & Mc & Mod & Moc & Sd & Sc & Le & HT & Ld & Od). specialize (Ld 0).
    destruct (inner_frame_ctx sa sb sc s' vb Pb X3 E6n E6c Mc Moc Sm) as (Mb & Ma & Mob & Moa & Sb & Sa & Ob).
    assert (Lc : lenv sc ((cur_off se, 0, res) :: rho)) by (eapply lenv_sub; [reflexivity|apply (p_bp Pd)|exact Ld]).
    pose proof Lc as Lc'. unfold lenv in Lc'. rewrite E2 in Lc'. inversion Lc' as [|? ? ? ? He Htl]; subst. pose proof (lenv1_u _ _ _ He) as Hl2. clear Lc'.
    cbn [fst snd] in Hl2.
    assert (Lb : lenv sb ((cur_off se, cur_off sa, res) :: rho)).
    { unfold lenv. rewrite Ebp. constructor; [|exact Htl]. left. eexists. split; [reflexivity|]. cbn [fst snd]. intros loc Hin Hge.
      apply Hl2; [|unfold cur_off in *; lia]. cbn [app] in Hin. destruct Hin as [<-|Hin]; [lia|apply in_or_app; left; exact Hin]. }
    destruct (sim_if bt s v va sa st l (VI32 cv) [] M I Hu Hk Ev Eh Ma Sa R) as [_ Hstep].
    destruct (Hstep cv eq_refl) as (M1 & Hn1 & Fq1 & Hcasev).
    eapply sim_res_compose; [exact Hn1|exact Fq1|].
    assert (Hrest : forall st1 l1 vs1 M2, rel se st1 l1 vs1 M2 -> sim_res rho M2 s' (exec_seq (S (S f3)) st1 l1 vs1 rest)).
    { intros st1 l1 vs1 M2 R2. eapply (Hsim (S (S f3)) Hf rest se ve v' s'); eauto.
      - left. exact G7.
      - eapply lows_mono; [exact Hlo|]. lia. }
    destruct (cv =? 0).
    +
      assert (Rc : rel sc st l [] M1).
      { apply Hcasev; [exact E5|].
        rewrite (target_from_F sc (cur_off s + 5) (cur_off sc) Rs Mc); [reflexivity|]. apply T_range. exact Mc. }
      eapply (sim_after_body (S (S f3)) _ bt res rho (cur_off se) 0 sd se s'); [exact Hres| |exact G3|reflexivity| |exact Hrest].
      * eapply (Hsim f3 ltac:(lia) (e :: els) sc vc vd sd); eauto.
        -- left. exact E8.
        -- apply (lows_cons _ _ _ _ s); auto; try lia. unfold cur_off. lia.
        -- eapply consts_ok_of_mono; [exact Co|exact Mod].
      * intros st1 l1 vs1 M2 Erb R2. eapply (sim_end_fall _ bt res sd vd se tc); eauto; [apply Pd|].
        intros _. destruct (v_unreach vd) eqn:Hud; [|reflexivity].
        exfalso. eapply (term_no_normal (e :: els) sc vc vd sd); eauto. rewrite Hud. discriminate.
    + (* then branch: move the result, jump over the else branch *)
      eapply (sim_after_body (S (S f3)) _ bt res rho (cur_off se) (cur_off sa) sb se s'); [exact Hres| |exact G3|reflexivity| |exact Hrest].
      * eapply (Hsim f3 ltac:(lia) thn sa va vb sb); eauto.
        -- left. exact A6.
        -- apply (lows_cons _ _ _ _ s); auto; lia.
        -- eapply consts_ok_of_mono; [exact Co|exact Mob].
      * intros st1 l1 vs1 M2 Erb R2. eapply (sim_else_fall _ bt res sb vb sc se tc2); eauto; [apply Pb|].
        apply Hl2; [apply in_or_app; right; left; reflexivity|unfold cur_off; lia].
Qed.

Lemma case_loop f bt body rest s v v' s' rho st l vs M :
  (f < n)%nat -> syn (Loop bt body :: rest) = true ->
  compile_ops cx (flatten (Loop bt body :: rest)) v s = Some (v', s') ->
  lvl nl cx (flatten (Loop bt body :: rest)) v = true ->
  inv nl s v -> v_unreach v = None ->
  matches F s' -> lenv s' rho -> lows rho s -> small NR s' -> consts_ok consts s' ->
  rel s st l vs M ->
  sim_res rho M s' (match exec_instr f st l vs (Loop bt body) with
                    | RNormal s1 l1 st1 => exec_seq f s1 l1 st1 rest | r => r end).
Proof.
  intros Hf Hs Hc Hl I Hu Hm Hle Hlo Sm Co R.
  destruct (syn_cons _ _ Hs) as [Hsb Hsr]. rewrite syn_loop in Hsb.
  rewrite flatten_loop in Hc, Hl.
  destruct (open_split nl cx _ _ _ _ _ _ Hc Hl) as (va & sa & Ev & Eh & Hk & Hc' & Hl').
  destruct (close_split nl cx _ _ _ _ _ _ _ Hc' Hl') as (vb & sb & vc & sc & Hcb & Hlb & Evc & Ehc & _ & Hcr & Hlr).
  rewrite (reach_of_none v Hu) in Eh.
  destruct bt; [discriminate|]. unfold ctl_ok in Hk. rewrite Hu in Hk. apply Nat.eqb_eq in Hk.
  destruct (op_loop nl cx s v va sa I Hu Hk Ev Eh) as (A1 & A2 & (A3 & A4 & A5 & A6) & A7 & Ia & Hua).
  assert (Pb : pres nl sa sb vb) by (eapply (pure_seq nl cx body); eauto; left; exact A7).
  pose proof (p_bp Pb) as Hb0. rewrite A2 in Hb0. destruct (bp_sub_head_k _ _ _ Hb0) as (b'' & E1 & Hb').
  destruct (op_end_loop nl cx sb vb vc sc _ b'' (p_inv Pb) E1 Evc Ehc) as (E2 & E3 & E4 & E5 & E6 & E7 & E8 & X3 & Ic & Huc).
  assert (Pr : pres nl sc s' v') by (eapply (pure_seq nl cx rest); eauto; left; exact E7).
  assert (Es : c_stack s = []) by (destruct (c_stack s) eqn:E; [reflexivity|pose proof (i_len I) as L; rewrite E, Hk in L; discriminate]).
  pose proof (rel_nil_stack _ _ _ _ _ R Es) as Evs. subst vs.
  destruct (pres_ctx sc s' v' rho Pr Hm Hle Sm) as (Mc & Lc & _).
  destruct (inner_frame_ctx sa sb sc s' vb Pb X3 E5 E6 Mc (p_mono Pr) Sm) as (Mb & Ma & Mob & _ & Sb & _ & Ob).
  assert (Oa : cur_off sa = cur_off s) by (unfold cur_off; rewrite A1; reflexivity).
  assert (Lb : lenv sb ((cur_off s, 0, None) :: rho)).
  { unfold lenv. rewrite E1. constructor; [right; split; reflexivity|]. unfold lenv in Lc. rewrite E2 in Lc. exact Lc. }
  assert (Hlo' : lows ((cur_off s, 0, None) :: rho) sa).
  { apply (lows_cons _ _ _ _ s); auto; try lia; [unfold cur_off; lia|]. rewrite <- Oa. apply T_range. exact Ma. }
  assert (Hrest : forall st1 l1 M2, rel sc st1 l1 [] M2 -> sim_res rho M2 s' (exec_seq f st1 l1 [] rest)).
  { intros st1 l1 M2 R2. eapply (Hsim f Hf rest sc vc v' s'); eauto.
    - left. exact E7.
    - eapply lows_mono; [exact Hlo|]. lia. }
  assert (Ra : rel sa st l [] M) by (eapply rel_transfer; [exact R|rewrite A3; reflexivity|exact Oa]).
  clear R. revert st l M Ra.
  assert (G : forall g, (g <= f)%nat -> forall st l M, rel sa st l [] M ->
            sim_res rho M s' (match exec_instr g st l [] (Loop None body) with
                              | RNormal s1 l1 st1 => exec_seq f s1 l1 st1 rest | r => r end)).
  { induction g as [|g2 IHg]; intros Hg st l M Ra; [cbn; exact Logic.I|].
    rewrite (einstr_S host cap m); cbv match.
    assert (Hb : sim_res ((cur_off s, 0, None) :: rho) M sb (exec_seq g2 st l [] body)).
    { eapply (Hsim g2 ltac:(lia) body sa va vb sb); eauto.
      - left. exact A7.
      - eapply consts_ok_of_mono; [exact Co|exact Mob]. }
    destruct (exec_seq g2 st l [] body) as [st1 l1 vs1|[|k] st1 l1 vs1| | | |]; cbn [sim_res] in Hb |- *; auto.
    - destruct Hb as (n1 & M1 & Hn & R1 & Fq).
      pose proof (rel_nil_stack _ _ _ _ _ R1 E3) as Ev1. subst vs1. cbn [arity firstn app].
      eapply sim_res_compose; [exact Hn|exact Fq|]. apply Hrest.
      eapply rel_transfer; [exact R1|rewrite E3, E4; reflexivity|exact E8].
    - destruct Hb as (e & n1 & M1 & Ee & H0 & Hn & R1 & Fq). cbn in Ee. inversion Ee; subst e. cbn [fst] in *.
      eapply sim_res_compose; [exact Hn|exact Fq|]. apply IHg; [lia|].
      eapply rel_transfer; [exact R1|rewrite A3, Es; reflexivity|rewrite Oa, cur_off_at_pc by exact H0; reflexivity]. }
  intros st l M Ra. apply G; auto.
Qed.
End Cases.

Lemma sim_all fuel : SIM fuel.
Proof.
  induction fuel as [fuel IH] using lt_wf_ind.
  assert (CF : forall fuel', (fuel' <= fuel)%nat -> forall is s v v' s' rho st l vs M, ctl_first is -> syn is = true ->
            compile_ops cx (flatten is) v s = Some (v', s') -> lvl nl cx (flatten is) v = true ->
            inv nl s v -> v_unreach v = None ->
            matches F s' -> lenv s' rho -> lows rho s -> small NR s' -> consts_ok consts s' ->
            rel s st l vs M -> sim_res rho M s' (exec_seq fuel' st l vs is)).
  { intros fuel' Hf' is s v v' s' rho st l vs M Hcf Hs Hc Hl I Hu Hm Hle Hlo Sm Co R.
    destruct fuel' as [|f]; [cbn; exact Logic.I|].
    destruct is as [|i rest].
    - rewrite (eseq_S host cap m). cbn in Hc. inversion Hc; subst. cbn. exists O, M. split; [reflexivity|]. split; [exact R|apply frame_eq_refl].
    - destruct (syn_cons _ _ Hs) as [Hsi Hsr]. rewrite (eseq_S host cap m). destruct i as [b|bt body|bt body|bt thn els].
      + cbn in Hcf. change (flatten (Basic b :: rest)) with (OBasic b :: flatten rest) in Hc, Hl.
        destruct (compile_cons _ _ _ _ _ _ _ Hc) as (v1 & s1 & Ev & Eh & Hc').
        rewrite (reach_of_none v Hu) in Eh. destruct (lvl_cons _ _ _ _ _ _ Hl Ev) as [Hk Hl'].
        destruct f as [|f2]; [cbn; exact Logic.I|].
        destruct b; try (unfold ctl_ok in Hk; rewrite Hu in Hk; rewrite Hcf in Hk; discriminate).
        *
          destruct (op_unreachable nl cx s v v1 s1 I Hu Ev Eh) as (O1 & O2 & O3 & O4 & O5 & O6 & I1 & Hu1 & X1).
          destruct (term_ends nl cx rest v1 s1 v' s' Hu1 Hl' Hc') as [-> ->].
          rewrite (einstr_S host cap m); cbv match.
          exact (sim_unreachable s v v1 s1 rho st l vs M I Hu Ev Eh Hm R).
        *
          destruct (br_frame nl cx s v l0 v1 I Ev) as (j & Enth).
          destruct (op_br nl cx s v v1 s1 l0 j I Hu Enth Ev Eh) as (cp & _ & O1 & O2 & _ & O3 & O4 & O5 & O6 & I1 & Hu1 & X1 & Hbs).
          destruct (term_ends nl cx rest v1 s1 v' s' Hu1 Hl' Hc') as [-> ->].
          rewrite (einstr_S host cap m); cbv match.
          exact (sim_br l0 j s v v1 s1 rho st l vs M I Hu Enth Ev Eh Hm Hle Hlo Sm R).
        *
          assert (Hbi : exists p st0, c_last s1 = None /\ ext s s1 /\ inv nl s1 v1 /\ v_unreach v1 = None /\ c_stack s = p :: st0 /\
                   forall cv vs0, vs = VI32 cv :: vs0 -> matches F s1 -> lenv s1 rho -> small NR s1 ->
                   exists Mx, nsteps 1 M = SNext Mx /\ frame_eq M Mx /\
                     if cv =? 0 then rel s1 st l vs0 Mx
                     else exists e, nth_error rho l0 = Some e /\ 0 <= fst (fst e) /\ arrive e st l vs0 Mx).
          { destruct (br_if_frame nl cx s v l0 v1 I Hu Hk Ev) as (j & Enth & Hnr).
            destruct (op_br_if nl cx s v v1 s1 l0 j I Hu Enth Hnr Ev Eh) as (p & st0 & Es & Pp & O1 & O2 & _ & O3 & O4 & O5 & O6 & I1 & Hu1 & X1 & Hbs).
            exists p, st0. splits; auto. intros cv vs0 -> Hm1 Hl1 Hs1.
            exact (sim_br_if l0 j s v v1 s1 rho st l cv vs0 M I Hu Enth Hnr Ev Eh Hm1 Hl1 Hlo Hs1 R). }
          destruct Hbi as (p & st0 & O6 & X1 & I1 & Hu1 & Es & Hstep).
          assert (P2 : pres nl s1 s' v') by (eapply (pure_seq nl cx rest); eauto; left; exact O6).
          destruct (pres_ctx s1 s' v' rho P2 Hm Hle Sm) as (M1' & L1 & S1).
          destruct vs as [|[cv|cv] vs]; try (cbn; exact Logic.I). rewrite (einstr_S host cap m); cbv match.
          destruct (Hstep cv vs eq_refl M1' L1 S1) as (Mx & Hn & Fq & Hcase).
          destruct (cv =? 0).
          -- eapply sim_res_compose; [exact Hn|exact Fq|].
             eapply (IH (S f2) ltac:(lia) rest s1 v1 v' s'); eauto.
             ++ left. exact O6.
             ++ eapply lows_mono; [exact Hlo|apply ext_off; exact X1].
          -- destruct Hcase as (e & Ee & H0 & Re). cbn. exists e, 1%nat, Mx. auto.
        *
          pose proof (return_frame nl cx v Hu Hk) as Hok.
          destruct (op_return nl cx s v v1 s1 I Hu Hok Ev Eh) as (cp & _ & O1 & O2 & O3 & O4 & O5 & O6 & I1 & Hu1 & X1).
          destruct (term_ends nl cx rest v1 s1 v' s' Hu1 Hl' Hc') as [-> ->].
          rewrite (einstr_S host cap m); cbv match.
          exact (sim_return s v v1 s1 rho st l vs M I Hu Hok Ev Eh Hm Sm R).
      + eapply (case_block fuel IH f bt body rest s v v' s'); eauto; lia.
      + eapply (case_loop fuel IH f bt body rest s v v' s'); eauto; lia.
      + eapply (case_if fuel IH f bt thn els rest s v v' s'); eauto; lia. }
  unfold SIM. intros is s v v' s' rho st l vs M Hs Hc Hl I Hu Hr Hm Hle Hlo Sm Co R.
  destruct (span is) as [bs tl] eqn:Esp. destruct (span_spec _ _ _ Esp) as (Eis & Hok & Hcf).
  destruct bs as [|b0 bs0].
  { cbn in Eis. subst is. apply (CF fuel (le_n _) tl s v v' s'); auto. }
  assert (Hlast : c_last s = None).
  { destruct Hr as [H|H]; auto. rewrite Eis in H. cbn in H. cbn [forallb] in Hok. rewrite H in Hok. discriminate. }
  set (bs := b0 :: bs0) in *. rewrite Eis in Hc, Hl, Hs |- *. rewrite syn_app in Hs. apply andb_true_iff in Hs. destruct Hs as [_ Hst]. rewrite flatten_app, flatten_basics in Hc, Hl.
  destruct (compile_app_inv _ _ _ _ _ _ _ Hc) as (v1 & s1 & Hc1 & Hc2).
  rewrite (lvl_app nl cx _ _ _ _ _ _ Hc1) in Hl. apply andb_true_iff in Hl. destruct Hl as [Hl1 Hl2].
  destruct (seg_facts nl cx bs s v v1 s1 ltac:(discriminate) Hok Hc1 Hl1 I Hu Hlast) as (I1 & Hu1 & Ebp & Mo & t & Eo).
  assert (P2 : pres nl s1 s' v') by (eapply (pure_seq nl cx tl); eauto; right; exact Hcf).
  destruct (pres_ctx s1 s' v' rho P2 Hm Hle Sm) as (M1' & _ & S1).
  assert (C1 : consts_ok consts s1) by (eapply consts_ok_of_mono; [exact Co|apply (p_mono P2)]).
  assert (Hcode' : code_at c (cur_off s) t).
  { apply (code_from_F s1 (c_out s) t [] M1'); [rewrite app_nil_r; exact Eo|].
    intros j Hj. apply (no_new_pending s s1); [apply (i_bp I)|exact Ebp|lia]. }
  pose proof (straight_main art mhost codes fidx c consts Hcode nl NR NR_small cap cx bs s v v1 s1 st l vs M t
                Hok Hc1 Hu (i_cwf I) S1 C1 (safe_last_none s bs Hlast) R Eo Hcode') as Hsr.
  destruct (exec_prefix bs tl fuel st l vs Hok) as [E|E]; rewrite E; [cbn; exact Logic.I|].
  unfold sim_result in Hsr. destruct (straight_sem cap bs st l vs) as [[|]|[[st1 l1] vs1]].
  - exact Hsr.
  - cbn. exact Logic.I.
  - destruct Hsr as (W1 & n1 & M1 & Hn1 & R1 & Fq1).
    eapply sim_res_compose; [exact Hn1|exact Fq1|].
    apply (CF (fuel - length bs)%nat ltac:(lia) tl s1 v1 v' s'); auto.
    eapply lows_mono; [exact Hlo|]. unfold cur_off. rewrite Eo, app_length. lia.
Qed.
End Sim.
