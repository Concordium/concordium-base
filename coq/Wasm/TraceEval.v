(** * Wasm/TraceEval — fuel-free ("for all sufficiently large fuel") evaluation judgements for the
    instrumented interpreter [SemTrace], with the composition rules of a big-step semantics.
    [ES is s l st T r]: there is a fuel bound from which on [texec_seq] returns exactly [(T, r)].
    The judgements are upward closed by definition, so composing them needs no monotonicity lemma.
    In the other direction [instr_body_shape] inverts one interpreter step into the cases of the rules [EI_*]. *)
From Coq Require Import ZArith List Lia.
From CB Require Import Wasm.Syntax Wasm.Sem Wasm.Meter Wasm.SemTrace Wasm.SemTraceProofs.
Import ListNotations.
Local Open Scope Z_scope.

Section Eval.
Variable host : nat -> list val -> option memory -> host_result.
Variable cap : N.
Variable m : module.
Variable afs : list afunc.

Notation tseq := (texec_seq host cap m afs).
Notation tinstr := (texec_instr host cap m afs).
Notation tinv := (tinvoke host cap m afs).

Definition ES (is : list ainstr) (s : store) (l st : list val) (T : list event) (r : res) : Prop :=
  exists f0, forall f, (f0 <= f)%nat -> tseq f s l st is = (T, r).
Definition EI (i : ainstr) (s : store) (l st : list val) (T : list event) (r : res) : Prop :=
  exists f0, forall f, (f0 <= f)%nat -> tinstr f s l st i = (T, r).
Definition EV (s : store) (fi : nat) (args : list val) (T : list event) (r : sum res (store * option val)) : Prop :=
  exists f0, forall f, (f0 <= f)%nat -> tinv f s fi args = (T, r).

Definition is_normal (r : res) : bool := match r with RNormal _ _ _ => true | _ => false end.

Lemma ES_nil s l st : ES [] s l st [] (RNormal s l st).
Proof. exists 1%nat. intros f Hf. destruct f; [lia|]. reflexivity. Qed.

Lemma ES_cons_normal i rest s l st T1 s1 l1 st1 T2 r :
  EI i s l st T1 (RNormal s1 l1 st1) -> ES rest s1 l1 st1 T2 r -> ES (i :: rest) s l st (T1 ++ T2) r.
Proof.
  intros [f1 H1] [f2 H2]. exists (S (Nat.max f1 f2)). intros f Hf. destruct f as [|f]; [lia|].
  rewrite tseq_S. cbn [seq_body]. rewrite H1 by lia. rewrite H2 by lia. reflexivity.
Qed.

Lemma ES_cons_stop i rest s l st T r :
  EI i s l st T r -> is_normal r = false -> ES (i :: rest) s l st T r.
Proof.
  intros [f1 H1] Hn. exists (S f1). intros f Hf. destruct f as [|f]; [lia|].
  rewrite tseq_S. cbn [seq_body]. rewrite H1 by lia. destruct r; try reflexivity. discriminate.
Qed.

Definition blk_res (bt : blocktype) (stack : list val) (r : res) : res :=
  match r with
  | RNormal s' l' vs => RNormal s' l' (firstn (arity bt) vs ++ stack)
  | RBr O s' l' vs => RNormal s' l' (firstn (arity bt) vs ++ stack)
  | RBr (S k) s' l' vs => RBr k s' l' vs
  | r => r
  end.

Lemma instr_body_block rs ri rv o bt body s l st :
  instr_body cap m afs rs ri rv s l st (ABlock o bt body) =
  (ev_work o ++ fst (rs s l [] body), blk_res bt st (snd (rs s l [] body))).
Proof. cbn [instr_body]. destruct (rs s l [] body) as [t r]. reflexivity. Qed.

Lemma EI_block o bt body s l st T r :
  ES body s l [] T r -> EI (ABlock o bt body) s l st (ev_work o ++ T) (blk_res bt st r).
Proof.
  intros [f1 H1]. exists (S f1). intros f Hf. destruct f as [|f]; [lia|].
  rewrite tinstr_S, instr_body_block, H1 by lia. reflexivity.
Qed.

Definition is_br0 (r : res) : bool := match r with RBr O _ _ _ => true | _ => false end.

Lemma EI_loop_exit o bt body s l st T r :
  ES body s l [] T r -> is_br0 r = false -> EI (ALoop o bt body) s l st (ev_work o ++ T) (blk_res bt st r).
Proof.
  intros [f1 H1] Hn. exists (S f1). intros f Hf. destruct f as [|f]; [lia|].
  rewrite tinstr_S. cbn [instr_body]. rewrite H1 by lia.
  destruct r as [| [|k] | | | |]; try reflexivity. discriminate.
Qed.

Lemma EI_loop_again o bt body s l st T s' l' vs T2 r2 :
  ES body s l [] T (RBr O s' l' vs) -> EI (ALoop OInj bt body) s' l' st T2 r2 ->
  EI (ALoop o bt body) s l st (ev_work o ++ T ++ T2) r2.
Proof.
  intros [f1 H1] [f2 H2]. exists (S (Nat.max f1 f2)). intros f Hf. destruct f as [|f]; [lia|].
  rewrite tinstr_S. cbn [instr_body]. rewrite H1 by lia. rewrite H2 by lia. reflexivity.
Qed.

Lemma EI_if o bt thn els s l c st T r :
  EI (ABlock OInj bt (if c =? 0 then els else thn)) s l st T r ->
  EI (AIf o bt thn els) s l (VI32 c :: st) (ev_work o ++ T) r.
Proof.
  intros [f1 H1]. exists (S f1). intros f Hf. destruct f as [|f]; [lia|].
  rewrite tinstr_S. cbn [instr_body]. rewrite H1 by lia. reflexivity.
Qed.

Definition call_res (l st : list val) (r : sum res (store * option val)) : res :=
  match r with
  | inr (s', rv) => RNormal s' l (match rv with Some v => v :: st | None => st end)
  | inl r0 => r0
  end.

Lemma call_body_eval rv o s l fi args st T r :
  rv s fi args = (T, r) ->
  call_body m rv o s l fi args st = (ev_work o ++ ev_call m fi ++ T, call_res l st r).
Proof. intro H. unfold call_body. rewrite H. destruct r as [r0|[s' rv0]]; reflexivity. Qed.

Lemma EI_call o fi s l stack ft args st T r :
  afunc_type m afs fi = Some ft -> take_args (length (ft_params ft)) stack [] = Some (args, st) ->
  EV s fi args T r ->
  EI (ABasic o (BCall fi)) s l stack (ev_work o ++ ev_call m fi ++ T) (call_res l st r).
Proof.
  intros Hft Hta [f1 H1]. exists (S f1). intros f Hf. destruct f as [|f]; [lia|].
  rewrite tinstr_S. cbn [instr_body]. rewrite Hft, Hta. apply call_body_eval. apply H1; lia.
Qed.

Lemma EI_call_indirect o ti s l c st0 ft fi ft' args st T r :
  nth_opt (m_types m) ti = Some ft ->
  (if c <? Z.of_nat (length (s_table s)) then nth_opt (s_table s) (Z.to_nat c) else None) = Some (Some fi) ->
  afunc_type m afs fi = Some ft' -> functype_eqb ft ft' = true ->
  take_args (length (ft_params ft)) st0 [] = Some (args, st) ->
  EV s fi args T r ->
  EI (ABasic o (BCallIndirect ti)) s l (VI32 c :: st0) (ev_work o ++ ev_call m fi ++ T) (call_res l st r).
Proof.
  intros Hty Htab Hft Heq Hta [f1 H1]. exists (S f1). intros f Hf. destruct f as [|f]; [lia|].
  rewrite tinstr_S. cbn [instr_body]. rewrite Hty, Htab, Hft, Heq, Hta. apply call_body_eval. apply H1; lia.
Qed.

Definition inv_res (ft : functype) (r : res) : list event * sum res (store * option val) :=
  match r with
  | RNormal s' _ vs => fin_result ft s' vs
  | RBr O s' _ vs => fin_result ft s' vs
  | RReturn s' vs => fin_result ft s' vs
  | RBr (S _) _ _ _ => ([], inl RStuck)
  | r => ([], inl r)
  end.

Lemma inv_body_shape rs s fi args T r :
  inv_body host m afs rs s fi args = (T, r) ->
  (T = [] /\ r = inl RStuck) \/
  ((fi <? length (m_imports m))%nat = true /\ (exists ft, afunc_type m afs fi = Some ft) /\ T = [EvHost fi args] /\
   r = match host fi args (s_mem s) with HostOk mm v => inr (set_mem s mm, v) | HostTrap => inl RTrap end) \/
  (exists fn ft t r1,
     (fi <? length (m_imports m))%nat = false /\ nth_opt afs (fi - length (m_imports m)) = Some fn /\
     nth_opt (m_types m) (af_type fn) = Some ft /\
     rs s (args ++ map zero_of (af_locals fn)) [] (af_body fn) = (t, r1) /\
     T = EvWork (af_entry fn) :: t ++ fst (inv_res ft r1) /\ r = snd (inv_res ft r1)).
Proof.
  unfold inv_body. destruct (fi <? length (m_imports m))%nat.
  - destruct (afunc_type m afs fi) as [ft|]; intro H; inversion H; subst; [right; left; eauto|auto].
  - destruct (nth_opt afs _) as [fn|] eqn:Efn; [|intro H; inversion H; auto].
    destruct (nth_opt (m_types m) _) as [ft|] eqn:Eft; [|intro H; inversion H; auto].
    destruct (rs s _ [] (af_body fn)) as [t r1] eqn:E. intro H. right. right. exists fn, ft, t, r1.
    assert (HH : (T, r) = (EvWork (af_entry fn) :: t ++ fst (inv_res ft r1), snd (inv_res ft r1))).
    { rewrite <- H. unfold inv_res. destruct r1 as [| [|k] | | | |]; try reflexivity;
        destruct (fin_result _ _ _); reflexivity. }
    inversion HH. repeat split; auto.
Qed.

Lemma inv_res_cases ft r :
  (exists x, inv_res ft r = ([EvRet], inr x) /\
             match r with RNormal _ _ _ | RBr O _ _ _ | RReturn _ _ => True | _ => False end) \/
  (exists r0, inv_res ft r = ([], inl r0) /\ (r0 = RStuck \/ r0 = r /\ (r = RTrap \/ r = RFuel))).
Proof.
  destruct r as [s' l' vs|[|k] s' l' vs|s' vs| | |]; cbn [inv_res]; eauto 7;
    unfold fin_result; destruct (ft_result ft); [destruct vs| | destruct vs| | destruct vs|]; eauto 7.
Qed.

Lemma EV_local s fi args fn ft T r :
  (fi <? length (m_imports m))%nat = false ->
  nth_opt afs (fi - length (m_imports m)) = Some fn -> nth_opt (m_types m) (af_type fn) = Some ft ->
  ES (af_body fn) s (args ++ map zero_of (af_locals fn)) [] T r ->
  EV s fi args (EvWork (af_entry fn) :: T ++ fst (inv_res ft r)) (snd (inv_res ft r)).
Proof.
  intros Hl Hfn Hft [f1 H1]. exists (S f1). intros f Hf. destruct f as [|f]; [lia|].
  rewrite tinv_S. unfold inv_body. rewrite Hl, Hfn, Hft. rewrite H1 by lia.
  unfold inv_res. destruct r as [| [|k] | | | |]; try reflexivity;
    match goal with |- context [fin_result ?a ?b ?c] => destruct (fin_result a b c) end; reflexivity.
Qed.

Lemma EV_host s fi args ft :
  (fi <? length (m_imports m))%nat = true -> afunc_type m afs fi = Some ft ->
  EV s fi args [EvHost fi args]
     (match host fi args (s_mem s) with HostOk mm r => inr (set_mem s mm, r) | HostTrap => inl RTrap end).
Proof.
  intros Hl Hft. exists 1%nat. intros f Hf. destruct f as [|f]; [lia|].
  rewrite tinv_S. unfold inv_body. rewrite Hl, Hft. reflexivity.
Qed.

(** ** evaluation of a short prefix [pre] followed by any continuation *)
Definition EP (pre : list ainstr) (s : store) (l st : list val) (T : list event) (r : res) : Prop :=
  match r with
  | RNormal s' l' st' =>
      forall tail T2 r2, ES tail s' l' st' T2 r2 -> ES (pre ++ tail) s l st (T ++ T2) r2
  | _ => forall tail, ES (pre ++ tail) s l st T r
  end.

Lemma EP1 i s l st T r : EI i s l st T r -> EP [i] s l st T r.
Proof.
  intro H. destruct r; cbn [EP app]; intros; first [eapply ES_cons_normal; eassumption | apply ES_cons_stop; auto].
Qed.

Lemma EP2n i1 i2 s l st T1 s1 l1 st1 T2 r :
  EI i1 s l st T1 (RNormal s1 l1 st1) -> EI i2 s1 l1 st1 T2 r -> EP [i1; i2] s l st (T1 ++ T2) r.
Proof.
  intros H1 H2. destruct r; cbn [EP app]; intros; rewrite <- ?app_assoc;
    (eapply ES_cons_normal; [exact H1|]);
    first [eapply ES_cons_normal; eassumption | apply ES_cons_stop; auto].
Qed.

Lemma EP2s i1 i2 s l st T r :
  EI i1 s l st T r -> is_normal r = false -> EP [i1; i2] s l st T r.
Proof.
  intros H Hn. destruct r; try discriminate; cbn [EP app]; intros; apply ES_cons_stop; auto.
Qed.

Lemma EP_stop pre s l st T r tail : EP pre s l st T r -> is_normal r = false -> ES (pre ++ tail) s l st T r.
Proof. destruct r; try discriminate; cbn [EP]; auto. Qed.

Definition simple_b (b : binstr) : bool :=
  match b with
  | BBr _ | BBrIf _ | BBrTable _ _ | BReturn | BCall _ | BCallIndirect _ => false
  | _ => true
  end.
Definition res_of_step (x : step_result) : res :=
  match x with inr (s', l', st') => RNormal s' l' st' | inl true => RTrap | inl false => RStuck end.
Definition simple_events (o : origin) (b : binstr) : list event :=
  match b with BTick n => EvTick n :: ev_work o | _ => ev_work o end.

Lemma instr_body_simple rs ri rv o b s l st :
  simple_b b = true ->
  instr_body cap m afs rs ri rv s l st (ABasic o b) =
  (simple_events o b, res_of_step (exec_simple cap b s l st)).
Proof. destruct b; try discriminate; reflexivity. Qed.

Lemma EI_simple o b s l st :
  simple_b b = true -> EI (ABasic o b) s l st (simple_events o b) (res_of_step (exec_simple cap b s l st)).
Proof.
  intro Hb. exists 1%nat. intros f Hf. destruct f as [|f]; [lia|]. rewrite tinstr_S. apply instr_body_simple; exact Hb.
Qed.

(** an invocation never returns a branch or a normal [res] on the left *)
Lemma tinv_inl_shape f s fi args T r0 :
  tinv f s fi args = (T, inl r0) -> r0 = RTrap \/ r0 = RStuck \/ r0 = RFuel.
Proof.
  destruct f as [|f]; [intro H; inversion H; auto|]. rewrite tinv_S. intro H.
  destruct (inv_body_shape _ _ _ _ _ _ H) as [[_ E]|[(_ & _ & _ & E)|(fn & ft & t & r1 & _ & _ & _ & _ & _ & E)]].
  - inversion E; auto.
  - destruct (host fi args (s_mem s)); inversion E; auto.
  - destruct (inv_res_cases ft r1) as [(x & Ex & _)|(r2 & Ex & Hr)]; rewrite Ex in E; inversion E; subst.
    destruct Hr as [->|[-> [->| ->]]]; auto.
Qed.

Lemma EI_br o k s l st : EI (ABasic o (BBr k)) s l st (ev_work o) (RBr k s l st).
Proof. exists 1%nat. intros f Hf. destruct f as [|f]; [lia|]. reflexivity. Qed.
Lemma EI_return o s l st : EI (ABasic o BReturn) s l st (ev_work o) (RReturn s st).
Proof. exists 1%nat. intros f Hf. destruct f as [|f]; [lia|]. reflexivity. Qed.
Lemma EI_brif o k s l c st :
  EI (ABasic o (BBrIf k)) s l (VI32 c :: st)
     (if c =? 0 then ev_work o else ev_work o ++ ev_taken o)
     (if c =? 0 then RNormal s l st else RBr k s l st).
Proof.
  exists 1%nat. intros f Hf. destruct f as [|f]; [lia|]. rewrite tinstr_S. cbn [instr_body].
  destruct (c =? 0); reflexivity.
Qed.
Lemma EI_brtable o ls d s l c st :
  EI (ABasic o (BBrTable ls d)) s l (VI32 c :: st) (ev_work o)
     (RBr (if c <? Z.of_nat (length ls)
           then match nth_opt ls (Z.to_nat c) with Some k => k | None => d end
           else d) s l st).
Proof. exists 1%nat. intros f Hf. destruct f as [|f]; [lia|]. reflexivity. Qed.

Lemma EI_call_indirect_undef o ti s l c st0 ft :
  nth_opt (m_types m) ti = Some ft ->
  match (if c <? Z.of_nat (length (s_table s)) then nth_opt (s_table s) (Z.to_nat c) else None) with
  | Some (Some _) => False | _ => True end ->
  EI (ABasic o (BCallIndirect ti)) s l (VI32 c :: st0) (ev_work o) RTrap.
Proof.
  intros Hty Htab. exists 1%nat. intros f Hf. destruct f as [|f]; [lia|].
  rewrite tinstr_S. cbn [instr_body]. rewrite Hty.
  destruct (if c <? Z.of_nat (length (s_table s)) then nth_opt (s_table s) (Z.to_nat c) else None) as [[fi|]|];
    [contradiction|reflexivity|reflexivity].
Qed.
Lemma EI_call_indirect_mismatch o ti s l c st0 ft fi ft' :
  nth_opt (m_types m) ti = Some ft ->
  (if c <? Z.of_nat (length (s_table s)) then nth_opt (s_table s) (Z.to_nat c) else None) = Some (Some fi) ->
  afunc_type m afs fi = Some ft' -> functype_eqb ft ft' = false ->
  EI (ABasic o (BCallIndirect ti)) s l (VI32 c :: st0) (ev_work o ++ ev_call m fi) RTrap.
Proof.
  intros Hty Htab Hft Heq. exists 1%nat. intros f Hf. destruct f as [|f]; [lia|].
  rewrite tinstr_S. cbn [instr_body]. rewrite Hty, Htab, Hft, Heq. reflexivity.
Qed.

Section Shape.
Variable rs : store -> list val -> list val -> list ainstr -> tr res.
Variable ri : store -> list val -> list val -> ainstr -> tr res.
Variable rv : store -> nat -> list val -> tr (sum res (store * option val)).

Definition origin_of (i : ainstr) : origin :=
  match i with ABasic o _ | ABlock o _ _ | ALoop o _ _ | AIf o _ _ _ => o end.
Notation tab_at s c := (if c <? Z.of_nat (length (s_table s)) then nth_opt (s_table s) (Z.to_nat c) else None).

(** what one step of the interpreter on [i] can be: the cases are those of the rules [EI_*] *)
Inductive IB (s : store) (l st : list val) : ainstr -> list event -> res -> Prop :=
| IB_stuck i : IB s l st i (ev_work (origin_of i)) RStuck
| IB_simple o b : simple_b b = true ->
    IB s l st (ABasic o b) (simple_events o b) (res_of_step (exec_simple cap b s l st))
| IB_br o k : IB s l st (ABasic o (BBr k)) (ev_work o) (RBr k s l st)
| IB_brif o k c st0 : st = VI32 c :: st0 ->
    IB s l st (ABasic o (BBrIf k)) (if c =? 0 then ev_work o else ev_work o ++ ev_taken o)
       (if c =? 0 then RNormal s l st0 else RBr k s l st0)
| IB_brtable o ls d c st0 : st = VI32 c :: st0 ->
    IB s l st (ABasic o (BBrTable ls d)) (ev_work o)
       (RBr (if c <? Z.of_nat (length ls) then match nth_opt ls (Z.to_nat c) with Some k => k | None => d end else d) s l st0)
| IB_return o : IB s l st (ABasic o BReturn) (ev_work o) (RReturn s st)
| IB_call o fi ft args st' t x :
    afunc_type m afs fi = Some ft -> take_args (length (ft_params ft)) st [] = Some (args, st') ->
    rv s fi args = (t, x) ->
    IB s l st (ABasic o (BCall fi)) (ev_work o ++ ev_call m fi ++ t) (call_res l st' x)
| IB_call_indirect o ti c st0 ft fi ft' args st' t x : st = VI32 c :: st0 ->
    nth_opt (m_types m) ti = Some ft -> tab_at s c = Some (Some fi) ->
    afunc_type m afs fi = Some ft' -> functype_eqb ft ft' = true ->
    take_args (length (ft_params ft)) st0 [] = Some (args, st') -> rv s fi args = (t, x) ->
    IB s l st (ABasic o (BCallIndirect ti)) (ev_work o ++ ev_call m fi ++ t) (call_res l st' x)
| IB_call_indirect_mismatch o ti c st0 ft fi ft' : st = VI32 c :: st0 ->
    nth_opt (m_types m) ti = Some ft -> tab_at s c = Some (Some fi) ->
    afunc_type m afs fi = Some ft' -> functype_eqb ft ft' = false ->
    IB s l st (ABasic o (BCallIndirect ti)) (ev_work o ++ ev_call m fi) RTrap
| IB_call_indirect_undef o ti c st0 ft : st = VI32 c :: st0 ->
    nth_opt (m_types m) ti = Some ft ->
    match tab_at s c with Some (Some _) => False | _ => True end ->
    IB s l st (ABasic o (BCallIndirect ti)) (ev_work o) RTrap
| IB_block o bt body t r : rs s l [] body = (t, r) ->
    IB s l st (ABlock o bt body) (ev_work o ++ t) (blk_res bt st r)
| IB_loop_exit o bt body t r : rs s l [] body = (t, r) -> is_br0 r = false ->
    IB s l st (ALoop o bt body) (ev_work o ++ t) (blk_res bt st r)
| IB_loop_again o bt body t s' l' vs t2 r2 : rs s l [] body = (t, RBr O s' l' vs) ->
    ri s' l' st (ALoop OInj bt body) = (t2, r2) ->
    IB s l st (ALoop o bt body) (ev_work o ++ t ++ t2) r2
| IB_if o bt thn els c st0 t r : st = VI32 c :: st0 ->
    ri s l st0 (ABlock OInj bt (if c =? 0 then els else thn)) = (t, r) ->
    IB s l st (AIf o bt thn els) (ev_work o ++ t) r.

Lemma instr_body_shape s l st i T r : instr_body cap m afs rs ri rv s l st i = (T, r) -> IB s l st i T r.
Proof.
  intro H.
  assert (St : (ev_work (origin_of i), RStuck) = (T, r) -> IB s l st i T r) by (intro E; inversion E; constructor).
  destruct i as [o b|o bt body|o bt body|o bt thn els]; cbn [origin_of] in St.
  - destruct (simple_b b) eqn:Eb.
    { rewrite instr_body_simple in H by exact Eb. inversion H; subst. apply IB_simple, Eb. }
    destruct b; try discriminate Eb; cbn [instr_body] in H.
    + inversion H; subst. constructor.
    + destruct st as [|[c|c] st0]; try exact (St H).
      pose proof (IB_brif s l _ o l0 c st0 eq_refl) as X. destruct (c =? 0); inversion H; subst; exact X.
    + destruct st as [|[c|c] st0]; try exact (St H). inversion H; subst. apply IB_brtable. reflexivity.
    + inversion H; subst. constructor.
    + destruct (afunc_type m afs f) as [ft|] eqn:Eft; [|exact (St H)].
      destruct (take_args _ st []) as [[args st']|] eqn:Eta; [|exact (St H)].
      destruct (rv s f args) as [t x] eqn:Ev. rewrite (call_body_eval _ _ _ _ _ _ _ _ _ Ev) in H. inversion H; subst.
      eapply IB_call; eassumption.
    + destruct st as [|[c|c] st0]; try exact (St H).
      destruct (nth_opt (m_types m) ty) as [ft|] eqn:Ety; [|exact (St H)].
      destruct (tab_at s c) as [[fi|]|] eqn:Etab;
        try (inversion H; subst; eapply IB_call_indirect_undef; [reflexivity|exact Ety|rewrite Etab; exact I]).
      destruct (afunc_type m afs fi) as [ft'|] eqn:Eft; [|exact (St H)].
      destruct (functype_eqb ft ft') eqn:Eeq;
        [|inversion H; subst; eapply IB_call_indirect_mismatch; [reflexivity|eassumption..]].
      destruct (take_args _ st0 []) as [[args st']|] eqn:Eta; [|exact (St H)].
      destruct (rv s fi args) as [t x] eqn:Ev. rewrite (call_body_eval _ _ _ _ _ _ _ _ _ Ev) in H. inversion H; subst.
      eapply IB_call_indirect; [reflexivity|eassumption..].
  - rewrite instr_body_block in H. destruct (rs s l [] body) as [t r0] eqn:E. inversion H; subst. apply IB_block, E.
  - cbn [instr_body] in H. destruct (rs s l [] body) as [t r0] eqn:E. destruct (is_br0 r0) eqn:Eb.
    + destruct r0 as [|[|k] s' l' vs| | | |]; try discriminate Eb.
      destruct (ri s' l' st (ALoop OInj bt body)) as [t2 r2] eqn:E2. inversion H; subst.
      eapply IB_loop_again; eassumption.
    + assert (HH : (T, r) = (ev_work o ++ t, blk_res bt st r0))
        by (rewrite <- H; destruct r0 as [|[|k]| | | |]; try reflexivity; discriminate Eb).
      inversion HH; subst. apply IB_loop_exit; assumption.
  - cbn [instr_body] in H. destruct st as [|[c|c] st0]; try exact (St H).
    destruct (ri s l st0 _) as [t r0] eqn:E. inversion H; subst. eapply IB_if; [reflexivity|exact E].
Qed.
End Shape.

End Eval.
