(** [structure_body] inverts [flatten_body]: the nesting of a structured body is recovered
    exactly from its flat opcode sequence. *)
From Coq Require Import ZArith NArith List Lia Bool.
From CB Require Import Wasm.Syntax.
Import ListNotations.

Fixpoint isize (i : instr) : nat :=
  let ls := fix ls (l : list instr) : nat := match l with [] => O | x :: r => (isize x + ls r)%nat end in
  match i with
  | Basic _ => 1
  | Block _ b | Loop _ b => S (ls b)
  | If _ t e => S (ls t + ls e)
  end.
Fixpoint lsize (l : list instr) : nat := match l with [] => O | x :: r => (isize x + lsize r)%nat end.

Lemma isize_block bt b : isize (Block bt b) = S (lsize b).
Proof. reflexivity. Qed.
Lemma isize_loop bt b : isize (Loop bt b) = S (lsize b).
Proof. reflexivity. Qed.
Lemma isize_if bt t e : isize (If bt t e) = S (lsize t + lsize e).
Proof. reflexivity. Qed.

Definition delim_of (d : bool) : opcode := if d then OElse else OEnd.

Lemma flatten_cons i is : flatten (i :: is) = flatten_instr i ++ flatten is.
Proof. reflexivity. Qed.
Lemma flatten_app a b : flatten (a ++ b) = flatten a ++ flatten b.
Proof. unfold flatten. apply flat_map_app. Qed.

(** Induction over instruction lists that also reaches the nested bodies. *)
Lemma instrs_ind (P : list instr -> Prop) :
  P [] ->
  (forall b r, P r -> P (Basic b :: r)) ->
  (forall bt body r, P body -> P r -> P (Block bt body :: r)) ->
  (forall bt body r, P body -> P r -> P (Loop bt body :: r)) ->
  (forall bt thn els r, P thn -> P els -> P r -> P (If bt thn els :: r)) ->
  forall is, P is.
Proof.
  intros Hnil Hbasic Hblock Hloop Hif.
  assert (Hcons : forall i r, P r -> P (i :: r)).
  { fix IHi 1. intros i r Hr.
    pose (all := fix all (l : list instr) : P l := match l with [] => Hnil | x :: t => IHi x t (all t) end).
    destruct i as [b|bt body|bt body|bt thn els].
    - exact (Hbasic b r Hr).
    - exact (Hblock bt body r (all body) Hr).
    - exact (Hloop bt body r (all body) Hr).
    - exact (Hif bt thn els r (all thn) (all els) Hr). }
  induction is as [|i r IHr]; [exact Hnil|exact (Hcons i r IHr)].
Qed.

Lemma flatten_open_app o body r X :
  (o :: flatten body ++ [OEnd]) ++ flatten r ++ X = o :: flatten body ++ delim_of false :: flatten r ++ X.
Proof. cbn [app]. rewrite <- app_assoc. reflexivity. Qed.
Lemma flatten_else_app o thn els r X :
  (o :: flatten thn ++ OElse :: flatten els ++ [OEnd]) ++ flatten r ++ X
  = o :: flatten thn ++ delim_of true :: flatten els ++ delim_of false :: flatten r ++ X.
Proof. cbn [app]. rewrite <- !app_assoc. cbn [app]. rewrite <- app_assoc. reflexivity. Qed.

Lemma parse_flatten : forall is fuel d rest,
  (length (flatten is) < fuel)%nat ->
  parse_seq fuel (flatten is ++ delim_of d :: rest) = Some (is, d, rest).
Proof.
  induction is as [|b r IHr|bt body r IHb IHr|bt body r IHb IHr|bt thn els r IHt IHe IHr] using instrs_ind;
    intros fuel d rest Hf; (destruct fuel as [|f]; [inversion Hf|]).
  - destruct d; reflexivity.
  - change (flatten (Basic b :: r)) with (OBasic b :: flatten r) in *. cbn [length] in Hf. cbn [app parse_seq].
    rewrite IHr by lia. reflexivity.
  - rewrite flatten_cons, app_length in Hf. rewrite flatten_cons, <- app_assoc.
    cbn [flatten_instr] in *. fold (flatten body) in *. rewrite flatten_open_app. cbn [length] in Hf. rewrite app_length in Hf.
    cbn [parse_seq]. rewrite IHb by lia. rewrite IHr by lia. reflexivity.
  - rewrite flatten_cons, app_length in Hf. rewrite flatten_cons, <- app_assoc.
    cbn [flatten_instr] in *. fold (flatten body) in *. rewrite flatten_open_app. cbn [length] in Hf. rewrite app_length in Hf.
    cbn [parse_seq]. rewrite IHb by lia. rewrite IHr by lia. reflexivity.
  - rewrite flatten_cons, app_length in Hf. rewrite flatten_cons, <- app_assoc.
    cbn [flatten_instr] in *. fold (flatten thn) in *. fold (flatten els) in *.
    cbn [length] in Hf. rewrite app_length in Hf.
    destruct els as [|e els'].
    + rewrite flatten_open_app. cbn [parse_seq]. rewrite IHt by lia. rewrite IHr by lia. reflexivity.
    + cbn [length] in Hf. rewrite app_length in Hf. rewrite flatten_else_app.
      cbn [parse_seq]. rewrite IHt by lia. rewrite IHe by lia. rewrite IHr by lia. reflexivity.
Qed.

Theorem structure_flatten is : structure_body (flatten_body is) = Some is.
Proof.
  unfold structure_body, flatten_body.
  change [OEnd] with (delim_of false :: []).
  rewrite (parse_flatten is _ false []); [reflexivity|].
  rewrite app_length. cbn [length]. lia.
Qed.
