(** * Wasm/ValidateProofs — soundness of the validation algorithm ([Wasm/Validate.v]) with
    respect to the declarative typing of the specification ([Wasm/Typing.v]): for function bodies
    ([validate_sound_thm], with the unguarded statement refuted by KF-C09-1 in
    [validate_sound_refuted_thm]), alignment hints ([validate_alignment]) and whole modules
    ([validate_module_sound_thm]), with a non-vacuity example. *)
From Coq Require Import ZArith List Bool Lia.
From CB Require Import Wasm.Syntax Gen.Limits Wasm.Validate Wasm.Typing Wasm.Imports.
Import ListNotations.

Definition mk_match (m : mk) (t : valtype) : Prop :=
  match m with Unknown => True | Known t' => t' = t end.

(** [conc o u ts]: the concrete stack type [ts] is described by the frame-local abstract
    stack [o]; in an unreachable frame ([u = true]) anything may lie below. *)
Definition conc (o : list mk) (u : bool) (ts : list valtype) : Prop :=
  exists ts1 ts2, ts = ts1 ++ ts2 /\ Forall2 mk_match o ts1 /\ (u = false -> ts2 = []).

Lemma conc_nil u : conc [] u [].
Proof. exists [], []. repeat split; auto. Qed.
Lemma conc_nil_true ts : conc [] true ts.
Proof. exists [], ts. repeat split; auto. discriminate. Qed.
Lemma conc_nil_false ts : conc [] false ts -> ts = [].
Proof. intros (a & b & -> & F & H). inversion F; subst. cbn. auto. Qed.
Lemma conc_cons m o u t ts : mk_match m t -> conc o u ts -> conc (m :: o) u (t :: ts).
Proof. intros M (a & b & -> & F & H). exists (t :: a), b. repeat split; auto. Qed.
Lemma conc_cons_inv m o u ts' : conc (m :: o) u ts' -> exists t ts, ts' = t :: ts /\ mk_match m t /\ conc o u ts.
Proof.
  intros (a & b & -> & F & H). inversion F; subst. eexists _, _. split; [reflexivity|]. split; auto.
  eexists _, _. eauto.
Qed.
Lemma conc_known_inv t o u ts' : conc (Known t :: o) u ts' -> exists ts, ts' = t :: ts /\ conc o u ts.
Proof. intros H. apply conc_cons_inv in H. destruct H as (t' & ts & -> & M & C). cbn in M. subst. eauto. Qed.
Lemma conc_pop_empty t ts : conc [] true ts -> conc [] true (t :: ts).
Proof. intros _. apply conc_nil_true. Qed.
Lemma conc_inhabited o u : exists ts, conc o u ts.
Proof.
  induction o as [|m o [ts IH]]; [exists []; apply conc_nil|].
  exists (match m with Known t => t | Unknown => T_i32 end :: ts). apply conc_cons; auto. destruct m; cbn; auto.
Qed.
Lemma conc_bt_inv bt o u ts' : conc (match bt with Some t => Known t :: o | None => o end) u ts' ->
  exists ts, ts' = bt_list bt ++ ts /\ conc o u ts.
Proof. destruct bt; cbn; [apply conc_known_inv|eauto]. Qed.

Definition shape (F F' : frame) : Prop :=
  fr_is_if F' = fr_is_if F /\ fr_label F' = fr_label F /\ fr_end F' = fr_end F.
Definition same (F F' : frame) : Prop := shape F F' /\ fr_unreachable F' = fr_unreachable F.
Lemma shape_refl F : shape F F. Proof. repeat split. Qed.
Lemma same_refl F : same F F. Proof. repeat split. Qed.
Lemma shape_trans A B C : shape A B -> shape B C -> shape A C.
Proof. unfold shape. intuition congruence. Qed.
Lemma same_shape A B : same A B -> shape A B. Proof. now intros []. Qed.

Notation unr := fr_unreachable.
Notation opds := fr_opds.

Section Prims.
Variables (F : frame) (K : list frame).

Lemma pop_opd_spec s m s' : vs_ctrls s = F :: K -> pop_opd s = Some (m, s') ->
  exists F', vs_ctrls s' = F' :: K /\ shape F F' /\ unr F' = unr F /\
    forall ts t, conc (opds F') (unr F') ts -> mk_match m t -> conc (opds F) (unr F) (t :: ts).
Proof.
  intros HC. unfold pop_opd. rewrite HC. destruct (opds F) as [|m0 o] eqn:EO.
  - destruct (unr F) eqn:EU; [|discriminate]. intros E; inversion E; subst. exists F. rewrite EO, EU.
    repeat split; auto. intros. apply conc_nil_true.
  - intros E; inversion E; subst. eexists. split; [reflexivity|]. repeat split.
    cbn. intros. apply conc_cons; auto.
Qed.

Lemma pop_expect_spec e s r s' : vs_ctrls s = F :: K -> pop_expect e s = Some (r, s') ->
  exists F', vs_ctrls s' = F' :: K /\ shape F F' /\ unr F' = unr F /\
    forall ts t, conc (opds F') (unr F') ts -> mk_match r t -> conc (opds F) (unr F) (t :: ts) /\ mk_match e t.
Proof.
  intros HC. unfold pop_expect. destruct (pop_opd s) as [[a s1]|] eqn:EP; [|discriminate].
  destruct (pop_opd_spec _ _ _ HC EP) as (F' & HC' & HS & HU & HP). intro E.
  (* the result is the more precise of the popped [a] and the expected [e] *)
  assert (M : s' = s1 /\ forall t, mk_match r t -> mk_match a t /\ mk_match e t).
  { destruct a as [|ta], e as [|te]; cbn [mk_is_unknown mk_eqb] in E; try (inversion E; subst; cbn; auto; fail).
    destruct (valtype_eqb ta te) eqn:EQ; [|discriminate]. inversion E; subst.
    assert (ta = te) by (destruct ta, te; cbn in EQ; congruence). subst. auto. }
  destruct M as [-> M]. exists F'. split; [exact HC'|]. split; [exact HS|]. split; [exact HU|].
  intros ts t Hts Hm. destruct (M t Hm). split; [apply HP; assumption|assumption].
Qed.

Lemma pop_known_spec t s s' : vs_ctrls s = F :: K -> pop_known t s = Some s' ->
  exists F', vs_ctrls s' = F' :: K /\ shape F F' /\ unr F' = unr F /\
    forall ts, conc (opds F') (unr F') ts -> conc (opds F) (unr F) (t :: ts).
Proof.
  intros HC. unfold pop_known. destruct (pop_expect (Known t) s) as [[r s1]|] eqn:EP; [|discriminate].
  intros E; inversion E; subst.
  destruct (pop_expect_spec _ _ _ _ HC EP) as (F' & HC' & HS & HU & HP).
  exists F'. split; [exact HC'|]. split; [exact HS|]. split; [exact HU|]. intros ts Hts.
  destruct r as [|tr].
  - apply (HP ts t); cbn; auto.
  - destruct (HP ts tr Hts eq_refl) as [H1 H2]. cbn in H2. subst. auto.
Qed.

Lemma push_opd_ctrls m s : vs_ctrls s = F :: K -> vs_ctrls (push_opd m s) = with_opds F (m :: opds F) :: K.
Proof. intros HC. unfold push_opd. rewrite HC. destruct (unr F); reflexivity. Qed.

Lemma push_opds_ctrls bt s : vs_ctrls s = F :: K ->
  vs_ctrls (push_opds bt s) = with_opds F (match bt with Some t => Known t :: opds F | None => opds F end) :: K.
Proof.
  intros HC. destruct bt; cbn [push_opds]; [apply push_opd_ctrls; auto|].
  rewrite HC. destruct F; reflexivity.
Qed.

Lemma mark_unreachable_spec s s' : vs_ctrls s = F :: K -> mark_unreachable s = Some s' ->
  exists F', vs_ctrls s' = F' :: K /\ shape F F' /\ opds F' = [] /\ unr F' = true.
Proof.
  intros HC. unfold mark_unreachable. rewrite HC. intros E; inversion E; subst.
  eexists. split; [reflexivity|]. repeat split.
Qed.
End Prims.

Lemma with_opds_same F o : same F (with_opds F o).
Proof. repeat split. Qed.

Lemma pop_params_spec ps : forall F K s s', vs_ctrls s = F :: K -> pop_params ps s = Some s' ->
  exists F', vs_ctrls s' = F' :: K /\ shape F F' /\ unr F' = unr F /\
    forall ts, conc (opds F') (unr F') ts -> conc (opds F) (unr F) (ps ++ ts).
Proof.
  induction ps as [|t r IH]; intros F K s s' HC; cbn [pop_params app].
  - intros E; inversion E; subst. exists F. repeat split; auto.
  - destruct (pop_known t s) as [s1|] eqn:EP; [|discriminate]. intros E.
    destruct (pop_known_spec _ _ _ _ _ HC EP) as (F1 & HC1 & HS1 & HU1 & HP1).
    destruct (IH _ _ _ _ HC1 E) as (F2 & HC2 & HS2 & HU2 & HP2).
    exists F2. split; auto. split; [eapply shape_trans; eauto|]. split; [congruence|].
    intros ts Hts. apply HP1, HP2, Hts.
Qed.

Definition dummy_ft : functype := {| ft_params := []; ft_result := None |}.
Definition mkC (c : vctx) (labels : list blocktype) : tctx :=
  {| tc_types := vc_types c;
     tc_funcs := map (fun ti => nth ti (vc_types c) dummy_ft) (vc_funcs c);
     tc_globals := vc_globals c; tc_locals := vc_locals c;
     tc_memory := vc_memory c; tc_table := vc_table c;
     tc_labels := labels; tc_return := last labels None |}.

Lemma get_func_tc c L f ft : get_func c f = Some ft -> nth_error (tc_funcs (mkC c L)) f = Some ft.
Proof.
  unfold get_func, get_type. destruct (nth_error (vc_funcs c) f) as [ti|] eqn:E; [|discriminate].
  intros H. cbn [mkC tc_funcs]. rewrite (map_nth_error _ _ _ E). f_equal. now apply nth_error_nth.
Qed.

Lemma get_label_map s l : get_label s l = nth_error (map fr_label (vs_ctrls s)) l.
Proof.
  unfold get_label. generalize (vs_ctrls s). intros cs. revert l.
  induction cs as [|f r IH]; intros [|l]; cbn; auto.
Qed.

Lemma outermost_label s f : outermost s = Some f -> last (map fr_label (vs_ctrls s)) None = fr_label f.
Proof.
  unfold outermost. generalize (vs_ctrls s). intros cs.
  induction cs as [|a r IH]; cbn [map last]; [discriminate|].
  destruct r as [|b r']; cbn [map] in *; [intros E; inversion E; reflexivity|]. exact IH.
Qed.
Lemma outermost_some s F K : vs_ctrls s = F :: K -> exists f, outermost s = Some f.
Proof.
  unfold outermost. intros ->. generalize F. induction K as [|a r IH]; intros G; cbn [map last]; eauto.
  apply (IH a).
Qed.

Lemma guard_true b u : guard b = Some u -> b = true.
Proof. destruct b; [auto|discriminate]. Qed.

Ltac bind H :=
  match type of H with
  | obind ?x _ = Some _ =>
      let E := fresh "E" in destruct x eqn:E; [cbn [obind] in H|discriminate H]
  end.

Lemma shape_with_opds F F' o : shape F F' -> shape F (with_opds F' o).
Proof. intros (A & B & C). repeat split; auto. Qed.

Definition fixed_sig (b : binstr) : bool :=
  match b with BDrop | BSelect | BLocalTee _ | BTick _ => false | _ => true end.

(** [sig_of c s al b = Some (ps, out)]: [b] is accepted in state [s] exactly when the operands [ps]
    (top first) can be popped; it then pushes [rs] ([out = Some rs]) or marks the frame unreachable
    ([out = None]).  [drop], [select] and [local.tee] are left out ([fixed_sig]): what they push
    depends on the [mk] they pop.  The guards are those of [vstep_basic], in the same order. *)
Definition sig_of (c : vctx) (s : vstate) (al : N) (b : binstr) : option (list valtype * option blocktype) :=
  match b with
  | BNop => Some ([], Some None)
  | BUnreachable => Some ([], None)
  | BBr l => do lt <- get_label s l; Some (bt_list lt, None)
  | BBrIf l => do lt <- get_label s l; Some (T_i32 :: bt_list lt, Some lt)
  | BBrTable ls d =>
      do _ <- guard (N.of_nat (length ls) <=? MAX_SWITCH_SIZE)%N;
      do dlt <- get_label s d;
      do _ <- guard (forallb (fun l => match get_label s l with
                                       | Some lt => blocktype_eqb dlt lt | None => false end) ls);
      Some (T_i32 :: bt_list dlt, None)
  | BReturn => do f <- outermost s; Some (bt_list (fr_label f), None)
  | BCall f => do ft <- get_func c f; Some (rev (ft_params ft), Some (ft_result ft))
  | BCallIndirect ti =>
      do _ <- guard (vc_table c); do ft <- get_type c ti; Some (T_i32 :: rev (ft_params ft), Some (ft_result ft))
  | BLocalGet i => do t <- nth_error (vc_locals c) i; Some ([], Some (Some t))
  | BLocalSet i => do t <- nth_error (vc_locals c) i; Some ([t], Some None)
  | BGlobalGet i => do g <- nth_error (vc_globals c) i; Some ([], Some (Some (fst g)))
  | BGlobalSet i => do g <- nth_error (vc_globals c) i; do _ <- guard (snd g); Some ([fst g], Some None)
  | BLoad t pk _ =>
      do _ <- guard (vc_memory c);
      do _ <- guard (match pk with Some (p, _) => pack_ok t p | None => true end);
      do _ <- guard (al <=? max_align (load_width t pk))%N;
      Some ([T_i32], Some (Some t))
  | BStore t pk _ =>
      do _ <- guard (vc_memory c);
      do _ <- guard (match pk with Some p => pack_ok t p | None => true end);
      do _ <- guard (al <=? max_align (store_width t pk))%N;
      Some ([t; T_i32], Some None)
  | BMemorySize => do _ <- guard (vc_memory c); Some ([], Some (Some T_i32))
  | BMemoryGrow => do _ <- guard (vc_memory c); Some ([T_i32], Some (Some T_i32))
  | BConst t _ => Some ([], Some (Some t))
  | BUnop t op => do _ <- guard (unop_ok c t op); Some ([t], Some (Some t))
  | BBinop t _ => Some ([t; t], Some (Some t))
  | BEqz t => Some ([t], Some (Some T_i32))
  | BRelop t _ => Some ([t; t], Some (Some T_i32))
  | BCvt op => Some ([fst (cvt_types op)], Some (Some (snd (cvt_types op))))
  | BDrop | BSelect | BLocalTee _ | BTick _ => None
  end.

Lemma pop_params_bt bt s : pop_params (bt_list bt) s = pop_opds bt s.
Proof. destruct bt; cbn; [destruct (pop_known v s)|]; reflexivity. Qed.

Lemma sig_step c s F K b al : vs_ctrls s = F :: K -> fixed_sig b = true ->
  vstep_basic c s b al =
  do sg <- sig_of c s al b; do s1 <- pop_params (fst sg) s;
  match snd sg with Some rs => Some (push_opds rs s1) | None => mark_unreachable s1 end.
Proof.
  (* a finite table: after the shared guards and lookups both sides run the same pops, nested
     differently; every [pop_known] is split until the two sides coincide *)
  intros HC. destruct (outermost_some _ _ _ HC) as [f Hf].
  destruct b; try discriminate; intros _; cbn [vstep_basic sig_of]; rewrite ?Hf.
  all: repeat match goal with |- obind ?o _ = obind (obind ?o _) _ => destruct o; cbn [obind]; [|reflexivity] end.
  all: cbn [obind fst snd pop_params push_opds]; try reflexivity.
  all: repeat match goal with |- context [pop_known ?t ?s] => destruct (pop_known t s); cbn [obind] end.
  all: rewrite ?pop_params_bt; reflexivity.
Qed.

Lemma sig_typed c s F K al b ps o : vs_ctrls s = F :: K -> sig_of c s al b = Some (ps, o) ->
  forall rest t2, basic_ok (mkC c (map fr_label (F :: K))) b (ps ++ rest)
                    (match o with Some rs => bt_list rs ++ rest | None => t2 end).
Proof.
  intros HC H rest t2. pose proof (get_label_map s) as GL. rewrite HC in GL.
  destruct b; cbn [sig_of] in H; try discriminate H.
  all: repeat bind H; inversion H; subst; clear H; cbn [app bt_list].
  all: repeat match goal with E : guard _ = Some _ |- _ => apply guard_true in E end.
  all: try (constructor; auto; fail).
  - constructor. cbn [mkC tc_labels]. rewrite <- GL. exact E.
  - constructor. cbn [mkC tc_labels]. rewrite <- GL. exact E.
  - constructor; cbn [mkC tc_labels]; rewrite <- ?GL; [exact E0|].
    apply Forall_forall. intros l Hl. rewrite forallb_forall in E1. specialize (E1 _ Hl).
    rewrite <- GL. destruct (get_label s l) as [lt|]; [|discriminate]. apply blocktype_eqb_eq in E1. congruence.
  - pose proof (outermost_label _ _ E) as OL. rewrite HC in OL. rewrite <- OL. constructor.
  - constructor. apply get_func_tc. exact E.
  - destruct p as [gt gm]. econstructor. exact E.
  - destruct p as [gt gm]. cbn [fst snd] in *. subst. constructor. exact E.
  - constructor; auto. destruct pk as [[[] ?]|]; cbn; auto. destruct t; cbn in E0; congruence.
  - constructor; auto. destruct pk as [[]|]; cbn; auto. destruct t; cbn in E0; congruence.
  - constructor. unfold unop_ok in E. apply andb_true_iff in E. destruct E as [_ E].
    destruct op; cbn; auto. destruct t; [discriminate|auto].
  - destruct op; constructor.
Qed.

Lemma vstep_basic_sound c s F K b al s' :
  vs_ctrls s = F :: K -> vstep_basic c s b al = Some s' ->
  exists F', vs_ctrls s' = F' :: K /\ shape F F' /\
    forall ts', conc (opds F') (unr F') ts' ->
      exists ts, conc (opds F) (unr F) ts /\ basic_ok (mkC c (map fr_label (F :: K))) b ts ts'.
Proof.
  intros HC H. destruct (fixed_sig b) eqn:FS.
  - rewrite (sig_step _ _ _ _ _ _ HC FS) in H. bind H. destruct p as [ps o]. cbn [fst snd] in H. bind H.
    destruct (pop_params_spec _ _ _ _ _ HC E0) as (F1 & HC1 & HS1 & HU1 & HP1).
    destruct o as [rs|].
    + inversion H; subst; clear H.
      eexists. split; [apply push_opds_ctrls; eauto|]. split; [apply shape_with_opds; auto|].
      cbn [with_opds fr_opds fr_unreachable]. intros ts' Hts'. apply conc_bt_inv in Hts'. destruct Hts' as (ts & -> & Hts).
      exists (ps ++ ts). split; [auto|]. apply (sig_typed _ _ _ _ _ _ _ _ HC E ts ts).
    + destruct (mark_unreachable_spec _ _ _ _ HC1 H) as (F' & HC' & HS & HO & HU).
      exists F'. split; auto. split; [eapply shape_trans; eauto|]. intros ts' _.
      destruct (conc_inhabited (opds F1) (unr F1)) as [ts1 Hts1].
      exists (ps ++ ts1). split; [auto|]. apply (sig_typed _ _ _ _ _ _ _ _ HC E ts1 ts').
  - destruct b; try discriminate FS; cbn [vstep_basic] in H.
    + bind H. destruct p as [m s1]. inversion H; subst; clear H. cbn [snd].
      destruct (pop_opd_spec _ _ _ _ _ HC E) as (F1 & HC1 & HS1 & HU1 & HP1).
      exists F1. split; auto. split; auto. intros ts' Hts'.
      exists ((match m with Known t => t | Unknown => T_i32 end) :: ts'). split; [|constructor].
      apply HP1; auto. destruct m; cbn; auto.
    + bind H. bind H. destruct p as [m1 s2]. cbn [fst snd] in H. bind H. destruct p as [m2 s3]. cbn [fst snd] in H.
      inversion H; subst; clear H.
      destruct (pop_known_spec _ _ _ _ _ HC E) as (F1 & HC1 & HS1 & HU1 & HP1).
      destruct (pop_opd_spec _ _ _ _ _ HC1 E0) as (F2 & HC2 & HS2 & HU2 & HP2).
      destruct (pop_expect_spec _ _ _ _ _ _ HC2 E1) as (F3 & HC3 & HS3 & HU3 & HP3).
      eexists. split; [apply push_opd_ctrls; eauto|].
      split; [apply shape_with_opds; eapply shape_trans; [|eauto]; eapply shape_trans; eauto|].
      cbn [with_opds fr_opds fr_unreachable]. intros ts' Hts'. apply conc_cons_inv in Hts'.
      destruct Hts' as (t & ts & -> & Hm & Hts). destruct (HP3 _ _ Hts Hm) as [Q1 Q2].
      exists (T_i32 :: t :: t :: ts). split; [auto|]. constructor.
    + bind H. bind H. destruct p as [r s1]. cbn [fst snd] in H. inversion H; subst; clear H.
      destruct (pop_expect_spec _ _ _ _ _ _ HC E0) as (F1 & HC1 & HS1 & HU1 & HP1).
      eexists. split; [apply push_opd_ctrls; eauto|]. split; [apply shape_with_opds; auto|].
      cbn [with_opds fr_opds fr_unreachable]. intros ts' Hts'. apply conc_cons_inv in Hts'.
      destruct Hts' as (t & ts & -> & Hm & Hts). destruct (HP1 _ _ Hts Hm) as [Q1 Q2]. cbn in Q2. subst.
      exists (t :: ts). split; auto. constructor. exact E.
    + discriminate.
Qed.

Lemma pop_ctrl_spec F K s res isif s2 : vs_ctrls s = F :: K -> pop_ctrl s = Some (res, isif, s2) ->
  res = fr_end F /\ isif = fr_is_if F /\ vs_ctrls s2 = K /\ conc (opds F) (unr F) (bt_list (fr_end F)).
Proof.
  intros HC. unfold pop_ctrl. rewrite HC, <- pop_params_bt. destruct (pop_params _ s) as [s1|] eqn:E; [|discriminate].
  destruct (pop_params_spec _ _ _ _ _ HC E) as (F1 & HC1 & HS1 & HU1 & HP1). rewrite HC1.
  destruct (opds F1) eqn:EO; [|discriminate]. intros H; inversion H; subst. repeat split; auto.
  specialize (HP1 []). rewrite app_nil_r in HP1. apply HP1. apply conc_nil.
Qed.

Lemma vrun_strict_cons c s F K o r sf : vs_ctrls s = F :: K -> vrun_strict c s (o :: r) = Some sf ->
  exists s1, vstep c s o = Some s1 /\ vrun_strict c s1 r = Some sf.
Proof.
  intros HC. cbn [vrun_strict]. rewrite HC. destruct (vstep c s o) as [s1|]; [|discriminate]. eauto.
Qed.

Lemma end_step c s F0 K' dl s3 : vs_ctrls s = F0 :: K' -> fst dl = OEnd -> vstep c s dl = Some s3 ->
  exists s2, vs_ctrls s2 = K' /\ s3 = push_opds (fr_end F0) s2 /\
    conc (opds F0) (unr F0) (bt_list (fr_end F0)) /\ (fr_is_if F0 = true -> fr_end F0 = None).
Proof.
  intros HC HD. unfold vstep. rewrite HD. intros H. bind H. destruct p as [[res isif] s2].
  destruct (pop_ctrl_spec _ _ _ _ _ _ HC E) as (-> & -> & HC2 & HCn). bind H. apply guard_true in E0. inversion H; subst.
  exists s2. repeat split; auto. intros HI. rewrite HI in E0. cbn in E0. now apply blocktype_eqb_eq in E0.
Qed.

Lemma else_step c s F0 K' dl s3 : vs_ctrls s = F0 :: K' -> fst dl = OElse -> vstep c s dl = Some s3 ->
  fr_is_if F0 = true /\ exists s2, vs_ctrls s2 = K' /\ s3 = push_ctrl false (fr_end F0) (fr_end F0) s2 /\
    conc (opds F0) (unr F0) (bt_list (fr_end F0)).
Proof.
  intros HC HD. unfold vstep. rewrite HD. intros H. bind H. destruct p as [[res isif] s2].
  destruct (pop_ctrl_spec _ _ _ _ _ _ HC E) as (-> & -> & HC2 & HCn). bind H. apply guard_true in E0. inversion H; subst.
  split; auto. exists s2. repeat split; auto.
Qed.

Lemma map_label_shape F F' K : shape F F' -> map fr_label (F' :: K) = map fr_label (F :: K).
Proof. intros (_ & H & _). cbn. now rewrite H. Qed.

Definition new_frame (is_if : bool) (l e : blocktype) : frame :=
  {| fr_is_if := is_if; fr_label := l; fr_end := e; fr_unreachable := false; fr_opds := [] |}.

Lemma parse_seq_basic f b rest : parse_seq (S f) (OBasic b :: rest) =
  match parse_seq f rest with Some (is, d, r) => Some (Basic b :: is, d, r) | None => None end.
Proof. reflexivity. Qed.
Lemma parse_seq_block f bt rest : parse_seq (S f) (OBlock bt :: rest) =
  match parse_seq f rest with
  | Some (body, false, r) =>
      match parse_seq f r with Some (is, d, r') => Some (Block bt body :: is, d, r') | None => None end
  | _ => None
  end.
Proof. reflexivity. Qed.
Lemma parse_seq_loop f bt rest : parse_seq (S f) (OLoop bt :: rest) =
  match parse_seq f rest with
  | Some (body, false, r) =>
      match parse_seq f r with Some (is, d, r') => Some (Loop bt body :: is, d, r') | None => None end
  | _ => None
  end.
Proof. reflexivity. Qed.
Lemma parse_seq_if f bt rest : parse_seq (S f) (OIf bt :: rest) =
  match parse_seq f rest with
  | Some (thn, false, r) =>
      match parse_seq f r with Some (is, d, r') => Some (If bt thn [] :: is, d, r') | None => None end
  | Some (thn, true, r) =>
      match parse_seq f r with
      | Some (els, false, r2) =>
          match parse_seq f r2 with Some (is, d, r') => Some (If bt thn els :: is, d, r') | None => None end
      | _ => None
      end
  | None => None
  end.
Proof. reflexivity. Qed.

(** [flat_res c n ops F K sf]: the run of [ops] from a state with frames [F :: K] to [sf] parses, with fuel [S n],
    into a well-typed sequence up to the [end]/[else] that closes [F] *)
Definition flat_res c n (ops : list (opcode * N)) F K sf : Prop :=
  exists is d rest s' F' dl,
    parse_seq (S n) (map fst ops) = Some (is, d, map fst rest) /\
    vs_ctrls s' = F' :: K /\ shape F F' /\
    (forall ts', conc (opds F') (unr F') ts' ->
       exists ts, conc (opds F) (unr F) ts /\ seq_ok (mkC c (map fr_label (F :: K))) is ts ts') /\
    fst dl = (if d then OElse else OEnd) /\ vrun_strict c s' (dl :: rest) = Some sf /\
    length rest < length ops.
Definition flat_sound_upto c n : Prop := forall ops s F K sf,
  length ops <= n -> vs_ctrls s = F :: K -> vrun_strict c s ops = Some sf -> vs_ctrls sf = [] ->
  flat_res c n ops F K sf.

(** [block] and [loop]: [o] opens a frame with label [lbl] and result [bt]; [I] builds the instruction *)
Lemma closed_frame_sound c n o al lbl bt (I : list instr -> instr) rest s F K sf :
  flat_sound_upto c n -> length rest <= n -> vs_ctrls s = F :: K ->
  vrun_strict c (push_ctrl false lbl bt s) rest = Some sf -> vs_ctrls sf = [] ->
  (forall f r, parse_seq (S f) (o :: r) =
     match parse_seq f r with
     | Some (body, false, r1) =>
         match parse_seq f r1 with Some (is, d, r') => Some (I body :: is, d, r') | None => None end
     | _ => None
     end) ->
  (forall C body ts, seq_ok (push_label C lbl) body [] (bt_list bt) -> instr_ok C (I body) ts (bt_list bt ++ ts)) ->
  flat_res c (S n) ((o, al) :: rest) F K sf.
Proof.
  intros IH HL' HC HR1 HF HP HT.
  assert (HC1 : vs_ctrls (push_ctrl false lbl bt s) = new_frame false lbl bt :: F :: K) by (cbn; now rewrite HC).
  destruct (IH _ _ _ _ _ HL' HC1 HR1 HF) as (is1 & d1 & rest1 & s1' & F0' & dl1 & P1 & HC1' & HS1 & HT1 & HD1 & HR1' & HL1).
  destruct (vrun_strict_cons _ _ _ _ _ _ _ HC1' HR1') as (s3 & EV2 & HR2).
  destruct d1.
  { destruct (else_step _ _ _ _ _ _ HC1' HD1 EV2) as [HI _]. destruct HS1 as (HS1 & _). rewrite HS1 in HI. discriminate. }
  destruct (end_step _ _ _ _ _ _ HC1' HD1 EV2) as (s2 & HC2 & -> & HCn & _).
  pose proof HS1 as (_ & _ & HE). cbn in HE. rewrite HE in *.
  pose proof (push_opds_ctrls _ _ bt _ HC2) as HC3.
  assert (HL1' : length rest1 <= n) by lia.
  destruct (IH _ _ _ _ _ HL1' HC3 HR2 HF) as (is2 & d2 & rest2 & s' & F' & dl2 & P2 & HC' & HS2 & HT2 & HD2 & HR' & HL2).
  exists (I is1 :: is2), d2, rest2, s', F', dl2.
  split. { cbn [map fst]. rewrite HP, P1, P2. reflexivity. }
  split; auto. split. { eapply shape_trans; [|exact HS2]. apply shape_with_opds, shape_refl. }
  split.
  { intros ts' Hts'. destruct (HT2 _ Hts') as (ts3 & Hts3 & HSeq). cbn [with_opds fr_opds fr_unreachable] in Hts3.
    apply conc_bt_inv in Hts3. destruct Hts3 as (ts0 & -> & Hts0). exists ts0. split; auto.
    econstructor; [|exact HSeq]. apply HT.
    destruct (HT1 _ HCn) as (tsb & Hb & HSb). cbn in Hb. apply conc_nil_false in Hb. subst. exact HSb. }
  split; auto. split; auto. cbn [length]. lia.
Qed.

Lemma flat_sound c n : flat_sound_upto c n.
Proof.
  induction n as [|n IH]; intros ops s F K sf HL HC HR HF; unfold flat_res.
  { destruct ops; [|cbn in HL; lia]. cbn in HR. inversion HR; subst. congruence. }
  destruct ops as [|o rest]; [cbn in HR; inversion HR; subst; congruence|].
  cbn [length] in HL. assert (HL' : length rest <= n) by lia.
  destruct (vrun_strict_cons _ _ _ _ _ _ _ HC HR) as (s1 & EV & HR1).
  destruct o as [op al]. destruct op as [| |bt|bt|bt|b].
  - exists [], false, rest, s, F, (OEnd, al). cbn [map fst parse_seq]. repeat split; auto using shape_refl.
    intros ts' Hts. exists ts'. split; auto. constructor.
  - exists [], true, rest, s, F, (OElse, al). cbn [map fst parse_seq]. repeat split; auto using shape_refl.
    intros ts' Hts. exists ts'. split; auto. constructor.
  - cbn in EV. inversion EV; subst s1; clear EV.
    exact (closed_frame_sound c n (OBlock bt) al bt bt (Block bt) rest s F K sf IH HL' HC HR1 HF
             (fun f r => parse_seq_block f bt r) (fun C body ts => T_Block C bt body ts)).
  - cbn in EV. inversion EV; subst s1; clear EV.
    exact (closed_frame_sound c n (OLoop bt) al None bt (Loop bt) rest s F K sf IH HL' HC HR1 HF
             (fun f r => parse_seq_loop f bt r) (fun C body ts => T_Loop C bt body ts)).
  - cbn in EV. bind EV. rename v into s0. inversion EV; subst s1; clear EV.
    destruct (pop_known_spec _ _ _ _ _ HC E) as (Fp & HCp & HSp & HUp & HPp).
    assert (HC1 : vs_ctrls (push_ctrl true bt bt s0) = new_frame true bt bt :: Fp :: K) by (cbn; now rewrite HCp).
    destruct (IH _ _ _ _ _ HL' HC1 HR1 HF) as (is1 & d1 & rest1 & s1' & F0' & dl1 & P1 & HC1' & HS1 & HT1 & HD1 & HR1' & HL1).
    destruct (vrun_strict_cons _ _ _ _ _ _ _ HC1' HR1') as (s3 & EV2 & HR2).
    pose proof HS1 as (HI1 & _ & HE). cbn in HE, HI1.
    pose proof HSp as (_ & HLp & _). cbn [map] in HT1. rewrite HLp in HT1.
    assert (HL1' : length rest1 <= n) by lia.
    destruct d1.
    + destruct (else_step _ _ _ _ _ _ HC1' HD1 EV2) as (_ & s2 & HC2 & -> & HCn). rewrite HE in *.
      assert (HC3 : vs_ctrls (push_ctrl false bt bt s2) = new_frame false bt bt :: Fp :: K) by (cbn; now rewrite HC2).
      destruct (IH _ _ _ _ _ HL1' HC3 HR2 HF) as (is2 & d2 & rest2 & s3' & Fe' & dl2 & P2 & HC3' & HS3 & HT3 & HD2 & HR3' & HL2).
      destruct (vrun_strict_cons _ _ _ _ _ _ _ HC3' HR3') as (s5 & EV4 & HR4).
      cbn [map] in HT3. rewrite HLp in HT3.
      destruct d2.
      { destruct (else_step _ _ _ _ _ _ HC3' HD2 EV4) as [HI _]. destruct HS3 as (HS3 & _). rewrite HS3 in HI. discriminate. }
      destruct (end_step _ _ _ _ _ _ HC3' HD2 EV4) as (s4 & HC4 & -> & HCn2 & _).
      pose proof HS3 as (_ & _ & HE3). cbn in HE3. rewrite HE3 in *.
      pose proof (push_opds_ctrls _ _ bt _ HC4) as HC5.
      assert (HL2' : length rest2 <= n) by lia.
      destruct (IH _ _ _ _ _ HL2' HC5 HR4 HF) as (is3 & d3 & rest3 & s' & F' & dl3 & P3 & HC' & HS5 & HT5 & HD3 & HR' & HL3).
      exists (If bt is1 is2 :: is3), d3, rest3, s', F', dl3.
      split. { cbn [map fst]. rewrite parse_seq_if, P1, P2, P3. reflexivity. }
      split; auto. split. { eapply shape_trans; [exact HSp|]. eapply shape_trans; [|exact HS5]. apply shape_with_opds, shape_refl. }
      split.
      { intros ts' Hts'. destruct (HT5 _ Hts') as (ts5 & Hts5 & HSeq). cbn [with_opds fr_opds fr_unreachable] in Hts5.
        apply conc_bt_inv in Hts5. destruct Hts5 as (ts0 & -> & Hts0). exists (T_i32 :: ts0). split; auto.
        econstructor; [|cbn [map with_opds fr_label] in HSeq; rewrite HLp in HSeq; exact HSeq]. constructor.
        - destruct (HT1 _ HCn) as (tsb & Hb & HSb). cbn in Hb. apply conc_nil_false in Hb. subst. exact HSb.
        - destruct (HT3 _ HCn2) as (tsb & Hb & HSb). cbn in Hb. apply conc_nil_false in Hb. subst. exact HSb. }
      split; auto. split; auto. cbn [length]. lia.
    + (* no else: the result type must be empty *)
      destruct (end_step _ _ _ _ _ _ HC1' HD1 EV2) as (s2 & HC2 & -> & HCn & HN). rewrite HE in *.
      specialize (HN HI1). rewrite HN in *. clear HN. cbn [push_opds] in HR2.
      destruct (IH _ _ _ _ _ HL1' HC2 HR2 HF) as (is2 & d2 & rest2 & s' & F' & dl2 & P2 & HC' & HS2 & HT2 & HD2 & HR' & HL2).
      exists (If None is1 [] :: is2), d2, rest2, s', F', dl2.
      split. { cbn [map fst]. rewrite parse_seq_if, P1, P2. reflexivity. }
      split; auto. split. { eapply shape_trans; eauto. }
      split.
      { intros ts' Hts'. destruct (HT2 _ Hts') as (ts3 & Hts3 & HSeq). exists (T_i32 :: ts3). split; auto.
        econstructor; [|cbn [map with_opds fr_label] in HSeq; rewrite HLp in HSeq; exact HSeq].
        apply (T_If _ None is1 [] ts3).
        - destruct (HT1 _ HCn) as (tsb & Hb & HSb). cbn in Hb. apply conc_nil_false in Hb. subst. exact HSb.
        - constructor. }
      split; auto. split; auto. cbn [length]. lia.
  - cbn in EV. destruct (vstep_basic_sound _ _ _ _ _ _ _ HC EV) as (F1 & HC1 & HS1 & HT1).
    destruct (IH _ _ _ _ _ HL' HC1 HR1 HF) as (is1 & d1 & rest1 & s' & F' & dl1 & P1 & HC' & HS2 & HT2 & HD1 & HR' & HL1).
    exists (Basic b :: is1), d1, rest1, s', F', dl1.
    split. { cbn [map fst]. rewrite parse_seq_basic, P1. reflexivity. }
    split; auto. split. { eapply shape_trans; eauto. }
    split.
    { intros ts' Hts'. destruct (HT2 _ Hts') as (ts2 & Hts2 & HSeq). destruct (HT1 _ Hts2) as (ts & Hts & HB).
      exists ts. split; auto. econstructor; [constructor; exact HB|].
      rewrite (map_label_shape _ _ _ HS1) in HSeq. exact HSeq. }
    split; auto. split; auto. cbn [length]. lia.
Qed.

Definition tctx_of (c : vctx) : tctx :=
  {| tc_types := vc_types c;
     tc_funcs := map (fun ti => nth ti (vc_types c) dummy_ft) (vc_funcs c);
     tc_globals := vc_globals c; tc_locals := vc_locals c;
     tc_memory := vc_memory c; tc_table := vc_table c;
     tc_labels := []; tc_return := vc_return c |}.

Lemma push_opds_nil bt s : vs_ctrls s = [] -> vs_ctrls (push_opds bt s) = [].
Proof. intros H. destruct bt; cbn [push_opds]; auto. unfold push_opd. rewrite H. reflexivity. Qed.

Theorem validate_strict_sound c ops h :
  validate_func_strict c ops = Some h ->
  exists is, structure_body (map fst ops) = Some is /\ body_ok (tctx_of c) is.
Proof.
  unfold validate_func_strict. destruct (vrun_strict c (vinit c) ops) as [sf|] eqn:HR; [|discriminate].
  destruct (vs_ctrls sf) eqn:HF; [|discriminate]. intros _.
  assert (HC : vs_ctrls (vinit c) = new_frame false (vc_return c) (vc_return c) :: []) by reflexivity.
  destruct (flat_sound c (length ops) ops _ _ _ _ (le_n _) HC HR HF)
    as (is & d & rest & s' & F' & dl & P & HC' & HS & HT & HD & HR' & HL).
  destruct (vrun_strict_cons _ _ _ _ _ _ _ HC' HR') as (s3 & EV & HR2).
  destruct d.
  { destruct (else_step _ _ _ _ _ _ HC' HD EV) as [HI _]. destruct HS as (HS & _). rewrite HS in HI. discriminate. }
  destruct (end_step _ _ _ _ _ _ HC' HD EV) as (s2 & HC2 & -> & HCn & _).
  pose proof (push_opds_nil (fr_end F') _ HC2) as HC3.
  destruct rest as [|o r]; [|cbn [vrun_strict] in HR2; rewrite HC3 in HR2; discriminate].
  exists is. split.
  - unfold structure_body. rewrite map_length, P. reflexivity.
  - destruct (HT _ HCn) as (ts & Hts & HSeq). cbn in Hts. apply conc_nil_false in Hts. subst ts.
    destruct HS as (_ & _ & HE). cbn in HE. rewrite HE in HSeq. exact HSeq.
Qed.

Lemma vrun_strict_of_vrun c : forall ops s sf,
  vrun c s ops = Some sf -> ends_early_from c s ops = false -> vrun_strict c s ops = Some sf.
Proof.
  induction ops as [|o r IH]; intros s sf; cbn [vrun ends_early_from vrun_strict]; auto.
  destruct (vs_ctrls s); [discriminate|]. destruct (vstep c s o) as [s1|]; [|discriminate]. apply IH.
Qed.

(** [validate_sound]: an accepted body that does not continue after the end of the function is an
    expression, well typed in the function's context. *)
Theorem validate_sound_thm c ops h :
  validate_func c ops = Some h -> ends_early c ops = false ->
  exists is, structure_body (map fst ops) = Some is /\ body_ok (tctx_of c) is.
Proof.
  unfold validate_func, ends_early. destruct (vrun c (vinit c) ops) as [sf|] eqn:HR; [|discriminate].
  destruct (vs_ctrls sf) eqn:HF; [|discriminate]. intros _ HE.
  apply (validate_strict_sound c ops (vs_max sf)). unfold validate_func_strict.
  rewrite (vrun_strict_of_vrun _ _ _ _ HR HE), HF. reflexivity.
Qed.

(** The faithful model accepts the body [end; nop] (as the implementation does): it is not an
    expression of the binary grammar. *)
Definition kf_ctx : vctx :=
  {| vc_types := []; vc_funcs := []; vc_globals := []; vc_locals := []; vc_memory := false;
     vc_table := false; vc_return := None; vc_signext := true |}.
Theorem validate_sound_refuted_thm :
  exists c ops h, validate_func c ops = Some h /\ structure_body (map fst ops) = None /\ ends_early c ops = true.
Proof. exists kf_ctx, [(OEnd, 0%N); (OBasic BNop, 0%N)], O. vm_compute. auto. Qed.

(** alignment of every memory instruction of an accepted body is at most the natural one *)
Definition vop_align_ok (o : opcode * N) : bool :=
  match fst o with
  | OBasic (BLoad t pk _) => (snd o <=? max_align (load_width t pk))%N
  | OBasic (BStore t pk _) => (snd o <=? max_align (store_width t pk))%N
  | _ => true
  end.
Lemma vstep_align c s o s' : vstep c s o = Some s' -> vop_align_ok o = true.
Proof.
  destruct o as [op al]. unfold vstep, vop_align_ok. cbn [fst snd]. destruct op as [| | | | |b]; auto.
  destruct b; auto; cbn [vstep_basic]; intros H.
  - bind H. bind H. bind H. apply guard_true in E1. exact E1.
  - bind H. bind H. bind H. apply guard_true in E1. exact E1.
Qed.
Theorem validate_alignment c ops h : validate_func c ops = Some h -> forallb vop_align_ok ops = true.
Proof.
  unfold validate_func. destruct (vrun c (vinit c) ops) as [sf|] eqn:HR; [|discriminate]. intros _.
  revert HR. generalize (vinit c). induction ops as [|o r IH]; intros s; cbn [vrun forallb]; auto.
  destruct (vstep c s o) as [s1|] eqn:EV; [|discriminate]. intros HR.
  rewrite (vstep_align _ _ _ _ EV). cbn. eauto.
Qed.

Theorem validate_module_sound_thm signext m :
  validate_module signext m = true ->
  forall f, In f (vm_funcs m) ->
  exists ft locals h,
    nth_error (vm_types m) (mf_type f) = Some ft /\
    make_locals (ft_params ft) (mf_locals f) = Some locals /\
    validate_func (func_ctx signext m ft locals) (mf_body f) = Some h /\
    (N.of_nat (length locals) + N.of_nat h <= MAX_ALLOWED_STACK_HEIGHT)%N /\
    forallb vop_align_ok (mf_body f) = true /\
    (ends_early (func_ctx signext m ft locals) (mf_body f) = false ->
     exists is, structure_body (map fst (mf_body f)) = Some is /\
                body_ok (tctx_of (func_ctx signext m ft locals)) is).
Proof.
  intros H f Hin. unfold validate_module in H. rewrite !andb_true_iff in H.
  destruct H as [[[[[[[[[_ _] _] _] Hfun] _] _] _] _] _].
  rewrite forallb_forall in Hfun. specialize (Hfun _ Hin).
  unfold validate_mfunc, obind in Hfun.
  destruct (nth_error (vm_types m) (mf_type f)) as [ft|] eqn:ET; [|discriminate].
  destruct (make_locals (ft_params ft) (mf_locals f)) as [locals|] eqn:EL; [|discriminate].
  destruct (validate_func _ _) as [h|] eqn:EV; [|discriminate].
  unfold guard in Hfun.
  destruct (N.leb_spec (N.of_nat (length locals) + N.of_nat h) MAX_ALLOWED_STACK_HEIGHT); [|discriminate].
  exists ft, locals, h. split; [reflexivity|]. split; [exact EL|]. split; [exact EV|]. split; [assumption|]. split.
  - eapply validate_alignment; eauto.
  - intros HE. eapply validate_sound_thm; eauto.
Qed.

(** non-vacuity: a body with nested control, a branch with a value and dead code *)
Definition ex_ctx : vctx :=
  {| vc_types := [ {| ft_params := [T_i32]; ft_result := Some T_i32 |} ]; vc_funcs := [O];
     vc_globals := [(T_i64, true)]; vc_locals := [T_i32; T_i64]; vc_memory := true;
     vc_table := false; vc_return := Some T_i32; vc_signext := true |}.
Definition ex_body : list (opcode * N) :=
  [ (OBlock (Some T_i32), 0); (OBasic (BLocalGet 0), 0); (OIf None, 0);
    (OBasic (BConst T_i32 7), 0); (OBasic (BBr 1), 0); (OBasic BSelect, 0); (OBasic BDrop, 0);
    (OElse, 0); (OBasic (BGlobalGet 0), 0); (OBasic (BLocalSet 1), 0); (OEnd, 0);
    (OBasic (BConst T_i32 0), 0); (OBasic (BLoad T_i32 None 4), 2); (OEnd, 0);
    (OBasic (BCall 0), 0); (OEnd, 0) ]%N.
Example validate_sound_nonvacuous :
  validate_func ex_ctx ex_body = Some 1%nat /\ ends_early ex_ctx ex_body = false.
Proof. vm_compute. auto. Qed.
