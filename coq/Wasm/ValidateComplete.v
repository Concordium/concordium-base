(** * Wasm/ValidateComplete — completeness of the validation algorithm on the reachable-code
    fragment: a well-typed body in which the stack-polymorphic instructions ([unreachable], [br],
    [br_table], [return]) occur only as the LAST instruction of an instruction sequence (so no
    instruction is validated in the unreachable state of a frame) and which respects the chain
    restrictions that typing does not express (switch size, sign-extension opcodes only when the
    parser admits them) is accepted by [validate_func]. *)
From Coq Require Import NArith List Bool.
From CB Require Import Wasm.Syntax Gen.Limits Wasm.Validate Wasm.Typing Wasm.ValidateProofs.
Import ListNotations.

Definition is_term (i : instr) : bool :=
  match i with
  | Basic BUnreachable | Basic (BBr _) | Basic (BBrTable _ _) | Basic BReturn => true
  | _ => false
  end.
Definition basic_cond (signext : bool) (b : binstr) : bool :=
  match b with
  | BBrTable ls _ => (N.of_nat (length ls) <=? MAX_SWITCH_SIZE)%N
  | BUnop _ op => negb (is_signext op) || signext
  | _ => true
  end.
Section Cond.
Variable signext : bool.
Fixpoint instr_cond (i : instr) : bool :=
  let seq := fix go (l : list instr) : bool :=
    match l with
    | [] => true
    | x :: r => instr_cond x && (match r with [] => true | _ :: _ => negb (is_term x) end) && go r
    end in
  match i with
  | Basic b => basic_cond signext b
  | Block _ body | Loop _ body => seq body
  | If _ thn els => seq thn && seq els
  end.
Definition seq_cond (l : list instr) : bool := instr_cond (Block None l).
Lemma seq_cond_nil : seq_cond [] = true. Proof. reflexivity. Qed.
Lemma seq_cond_cons x r : seq_cond (x :: r) =
  instr_cond x && (match r with [] => true | _ :: _ => negb (is_term x) end) && seq_cond r.
Proof. reflexivity. Qed.
Lemma instr_cond_block bt body : instr_cond (Block bt body) = seq_cond body.
Proof. reflexivity. Qed.
Lemma instr_cond_loop bt body : instr_cond (Loop bt body) = seq_cond body.
Proof. reflexivity. Qed.
Lemma instr_cond_if bt thn els : instr_cond (If bt thn els) = seq_cond thn && seq_cond els.
Proof. reflexivity. Qed.
End Cond.

Notation w0 := (map (fun o : opcode => (o, 0%N))).
Lemma w0_app (a b : list opcode) : w0 (a ++ b) = w0 a ++ w0 b. Proof. apply map_app. Qed.

Lemma vrun_app c : forall a b s, vrun c s (a ++ b) = match vrun c s a with Some s' => vrun c s' b | None => None end.
Proof. induction a as [|o a IH]; intros b s; cbn [app vrun]; [reflexivity|]. destruct (vstep c s o); auto. Qed.

Lemma valtype_eqb_refl t : valtype_eqb t t = true. Proof. destruct t; reflexivity. Qed.
Lemma blocktype_eqb_refl b : blocktype_eqb b b = true. Proof. destruct b as [[]|]; reflexivity. Qed.

Notation kn := (map Known).

(** outcome of a sequence in a reachable frame *)
Definition reach (F : frame) (ts : list valtype) : Prop := unr F = false /\ opds F = kn ts.
Definition dead (F : frame) : Prop := unr F = true /\ opds F = [].
Definition out (F : frame) (ts : list valtype) : Prop := reach F ts \/ dead F.

Lemma pop_known_fwd s F K t o : vs_ctrls s = F :: K -> opds F = Known t :: o ->
  pop_known t s = Some (set_top s (with_opds F o) K).
Proof.
  intros HC HO. unfold pop_known, pop_expect, pop_opd. rewrite HC, HO. cbn. now rewrite valtype_eqb_refl.
Qed.
Lemma pop_params_fwd : forall ps s F K o, vs_ctrls s = F :: K -> opds F = kn ps ++ o ->
  exists s', pop_params ps s = Some s' /\ vs_ctrls s' = with_opds F o :: K.
Proof.
  induction ps as [|t r IH]; intros s F K o HC HO; cbn in *.
  - exists s. split; auto. rewrite HC. destruct F; cbn in *; subst; reflexivity.
  - rewrite (pop_known_fwd _ _ _ _ _ HC HO). apply (IH _ (with_opds F (kn r ++ o)) K o); reflexivity.
Qed.
Lemma mark_fwd s F K : vs_ctrls s = F :: K ->
  exists s' F', mark_unreachable s = Some s' /\ vs_ctrls s' = F' :: K /\ shape F F' /\ dead F'.
Proof.
  intros HC. unfold mark_unreachable. rewrite HC. eexists _, _. split; [reflexivity|]. split; [reflexivity|].
  split; repeat split.
Qed.
Lemma shape_wo F o : shape F (with_opds F o). Proof. repeat split. Qed.

Lemma get_label_mkC c s F K l bt : vs_ctrls s = F :: K ->
  nth_error (tc_labels (mkC c (map fr_label (F :: K)))) l = Some bt -> get_label s l = Some bt.
Proof. intros HC H. rewrite get_label_map, HC. exact H. Qed.

Section Complete.
Variable c : vctx.
Hypothesis FV : Forall (fun ti => ti < length (vc_types c))%nat (vc_funcs c).

Lemma get_func_of_tc L f ft : nth_error (tc_funcs (mkC c L)) f = Some ft -> get_func c f = Some ft.
Proof.
  cbn [mkC tc_funcs]. rewrite nth_error_map. unfold get_func, get_type.
  destruct (nth_error (vc_funcs c) f) as [ti|] eqn:E; cbn; [|discriminate].
  intros H; inversion H; subst. apply nth_error_nth'.
  rewrite Forall_forall in FV. apply FV. eapply nth_error_In; eauto.
Qed.

Definition is_term_b (b : binstr) : bool := is_term (Basic b).

Lemma sig_complete b t1 t2 s F K :
  basic_ok (mkC c (map fr_label (F :: K))) b t1 t2 -> basic_cond (vc_signext c) b = true ->
  vs_ctrls s = F :: K -> fixed_sig b = true ->
  exists ps o rest, sig_of c s 0 b = Some (ps, o) /\ t1 = ps ++ rest /\
    match o with Some rs => t2 = bt_list rs ++ rest /\ is_term_b b = false | None => is_term_b b = true end.
Proof.
  intros HB HCd HC FS. destruct HB; try discriminate FS; cbn [sig_of].
  all: try (eexists _, _, _; repeat split; fail).
  - rewrite (get_label_mkC _ _ _ _ _ _ HC H). eexists _, _, _; repeat split.
  - rewrite (get_label_mkC _ _ _ _ _ _ HC H). eexists _, _, _; repeat split.
  - cbn [basic_cond] in HCd. rewrite HCd, (get_label_mkC _ _ _ _ _ _ HC H). cbn [guard obind].
    assert (G : forallb (fun l => match get_label s l with Some lt => blocktype_eqb bt lt | None => false end) ls = true).
    { apply forallb_forall. intros l Hl. rewrite Forall_forall in H0.
      rewrite (get_label_mkC _ _ _ _ _ _ HC (H0 _ Hl)). apply blocktype_eqb_refl. }
    rewrite G. eexists _, _, _; repeat split.
  - destruct (outermost_some _ _ _ HC) as [f Hf]. rewrite Hf.
    pose proof (outermost_label _ _ Hf) as OL. rewrite HC in OL. cbn [mkC tc_return]. rewrite OL.
    eexists _, _, _; repeat split.
  - rewrite (get_func_of_tc _ _ _ H). eexists _, _, _; repeat split.
  - cbn [mkC tc_table tc_types] in H, H0. unfold get_type. rewrite H, H0. eexists _, _, _; repeat split.
  - cbn [mkC tc_locals] in H. rewrite H. eexists _, _, _; repeat split.
  - cbn [mkC tc_locals] in H. rewrite H. eexists _, _, _; repeat split.
  - cbn [mkC tc_globals] in H. rewrite H. eexists _, _, _; repeat split.
  - cbn [mkC tc_globals] in H. rewrite H. eexists _, _, _; repeat split.
  - cbn [mkC tc_memory] in H. rewrite H.
    assert (G : (match pk with Some (p, _) => pack_ok t p | None => true end) = true).
    { destruct pk as [[[] ?]|]; cbn in *; subst; try destruct t; reflexivity. }
    rewrite G, (proj2 (N.leb_le 0 _) (N.le_0_l _)). eexists _, _, _; repeat split.
  - cbn [mkC tc_memory] in H. rewrite H.
    assert (G : (match pk with Some p => pack_ok t p | None => true end) = true).
    { destruct pk as [[]|]; cbn in *; subst; try destruct t; reflexivity. }
    rewrite G, (proj2 (N.leb_le 0 _) (N.le_0_l _)). eexists _, _, _; repeat split.
  - cbn [mkC tc_memory] in H. rewrite H. eexists _, _, _; repeat split.
  - cbn [mkC tc_memory] in H. rewrite H. eexists _, _, _; repeat split.
  - assert (G : unop_ok c t op = true).
    { unfold unop_ok. cbn [basic_cond] in HCd. rewrite HCd. cbn. destruct t, op; auto; cbn in H; discriminate. }
    rewrite G. eexists _, _, _; repeat split.
  - destruct op; eexists _, _, _; repeat split.
Qed.

Lemma vstep_basic_complete b t1 t2 s F K :
  basic_ok (mkC c (map fr_label (F :: K))) b t1 t2 -> basic_cond (vc_signext c) b = true ->
  vs_ctrls s = F :: K -> reach F t1 ->
  exists s' F', vstep_basic c s b 0%N = Some s' /\ vs_ctrls s' = F' :: K /\ shape F F' /\
    (if is_term_b b then dead F' else reach F' t2).
Proof.
  intros HB HCd HC [HU HO]. destruct (fixed_sig b) eqn:FS.
  - destruct (sig_complete _ _ _ _ _ _ HB HCd HC FS) as (ps & o & rest & E & -> & Ho).
    rewrite (sig_step _ _ _ _ _ _ HC FS), E. cbn [obind fst snd]. rewrite map_app in HO.
    destruct (pop_params_fwd _ _ _ _ _ HC HO) as (s1 & -> & HC1). cbn [obind]. destruct o as [rs|].
    + destruct Ho as [-> ->]. eexists _, _. split; [reflexivity|]. split; [apply push_opds_ctrls; exact HC1|].
      split; [repeat split|]. split; [exact HU|]. cbn. rewrite map_app. destruct rs; reflexivity.
    + rewrite Ho. destruct (mark_fwd _ _ _ HC1) as (s' & F' & E' & HC' & HS & HD).
      exists s', F'. split; [exact E'|]. split; [exact HC'|]. split; [exact (shape_trans _ _ _ (shape_wo _ _) HS)|exact HD].
  - destruct HB; try discriminate FS; cbn [vstep_basic is_term_b is_term].
    + unfold pop_opd. rewrite HC, HO. cbn. eexists _, _. split; [reflexivity|]. repeat split; auto.
    + cbn [map] in HO. rewrite (pop_known_fwd _ _ _ _ _ HC HO). cbn [obind].
      unfold pop_opd at 1. cbn. unfold pop_expect, pop_opd. cbn. rewrite valtype_eqb_refl. cbn.
      eexists _, _. split; [reflexivity|]. rewrite HU. cbn. repeat split; auto.
    + cbn [mkC tc_locals] in H. rewrite H. cbn [obind]. cbn [map] in HO.
      unfold pop_expect, pop_opd. rewrite HC, HO. cbn. rewrite valtype_eqb_refl. cbn. rewrite HU.
      eexists _, _. split; [reflexivity|]. cbn. repeat split; auto.
Qed.

Lemma pop_ctrl_fwd s F0 R : vs_ctrls s = F0 :: R -> out F0 (bt_list (fr_end F0)) ->
  exists s2, pop_ctrl s = Some (fr_end F0, fr_is_if F0, s2) /\ vs_ctrls s2 = R.
Proof.
  intros HC HO. unfold pop_ctrl. rewrite HC.
  rewrite <- pop_params_bt.
  assert (G : exists s1 F1, pop_params (bt_list (fr_end F0)) s = Some s1 /\ vs_ctrls s1 = F1 :: R /\ opds F1 = []).
  { destruct HO as [[HU HO]|[HU HO]].
    - destruct (pop_params_fwd (bt_list (fr_end F0)) s F0 R [] HC) as (s1 & E & HC1); [now rewrite app_nil_r|].
      exists s1, (with_opds F0 []). auto.
    - exists s, F0. split; [|auto]. destruct (fr_end F0) as [t|]; cbn; [|reflexivity].
      unfold pop_known, pop_expect, pop_opd. rewrite HC, HO, HU. reflexivity. }
  destruct G as (s1 & F1 & -> & HC1 & HO1). rewrite HC1, HO1. eexists. split; reflexivity.
Qed.

Lemma end_fwd s F0 F K : vs_ctrls s = F0 :: F :: K -> out F0 (bt_list (fr_end F0)) ->
  (fr_is_if F0 = true -> fr_end F0 = None) ->
  exists s', vstep c s (OEnd, 0%N) = Some s' /\
    vs_ctrls s' = with_opds F (kn (bt_list (fr_end F0)) ++ opds F) :: K.
Proof.
  intros HC HO HI. unfold vstep. cbn [fst].
  destruct (pop_ctrl_fwd _ _ _ HC HO) as (s2 & -> & HC2). cbn [obind].
  assert (G : negb (fr_is_if F0) || blocktype_eqb (fr_end F0) None = true).
  { destruct (fr_is_if F0); [|reflexivity]. rewrite HI by reflexivity. reflexivity. }
  rewrite G. cbn [guard obind]. eexists. split; [reflexivity|].
  rewrite (push_opds_ctrls _ _ _ _ HC2). destruct (fr_end F0); reflexivity.
Qed.
Lemma else_fwd s F0 R : vs_ctrls s = F0 :: R -> out F0 (bt_list (fr_end F0)) -> fr_is_if F0 = true ->
  exists s', vstep c s (OElse, 0%N) = Some s' /\
    vs_ctrls s' = new_frame false (fr_end F0) (fr_end F0) :: R.
Proof.
  intros HC HO HI. unfold vstep. cbn [fst].
  destruct (pop_ctrl_fwd _ _ _ HC HO) as (s2 & -> & HC2). cbn [obind]. rewrite HI. cbn [guard obind].
  eexists. split; [reflexivity|]. cbn. now rewrite HC2.
Qed.
Lemma end_top s F0 : vs_ctrls s = [F0] -> out F0 (bt_list (fr_end F0)) -> fr_is_if F0 = false ->
  exists s', vstep c s (OEnd, 0%N) = Some s' /\ vs_ctrls s' = [].
Proof.
  intros HC HO HI. unfold vstep. cbn [fst].
  destruct (pop_ctrl_fwd _ _ _ HC HO) as (s2 & -> & HC2). cbn [obind]. rewrite HI. cbn [guard obind].
  eexists. split; [reflexivity|]. now apply push_opds_nil.
Qed.

Scheme instr_ok_min := Minimality for instr_ok Sort Prop
  with seq_ok_min := Minimality for seq_ok Sort Prop.
Combined Scheme typing_mutind from instr_ok_min, seq_ok_min.

Notation cond_i := (instr_cond (vc_signext c)).
Notation cond_s := (seq_cond (vc_signext c)).

Definition P_i (C : tctx) (i : instr) (t1 t2 : list valtype) : Prop :=
  cond_i i = true -> forall s F K, vs_ctrls s = F :: K -> C = mkC c (map fr_label (F :: K)) -> reach F t1 ->
  exists s' F', vrun c s (w0 (flatten_instr i)) = Some s' /\ vs_ctrls s' = F' :: K /\ shape F F' /\
    (if is_term i then dead F' else reach F' t2).
Definition P_s (C : tctx) (is : list instr) (t1 t2 : list valtype) : Prop :=
  cond_s is = true -> forall s F K, vs_ctrls s = F :: K -> C = mkC c (map fr_label (F :: K)) -> reach F t1 ->
  exists s' F', vrun c s (w0 (flatten is)) = Some s' /\ vs_ctrls s' = F' :: K /\ shape F F' /\ out F' t2.

Lemma reach_new is_if l e : reach (new_frame is_if l e) []. Proof. split; reflexivity. Qed.

(** [block] and [loop]: the opcode [o] opens a frame with label [lbl] and result [bt] *)
Lemma closed_frame_fwd o lbl bt body rest s F K :
  vstep c s (o, 0%N) = Some (push_ctrl false lbl bt s) ->
  P_s (push_label (mkC c (map fr_label (F :: K))) lbl) body [] (bt_list bt) -> cond_s body = true ->
  vs_ctrls s = F :: K -> reach F rest ->
  exists s' F', vrun c s (w0 (o :: flatten body ++ [OEnd])) = Some s' /\ vs_ctrls s' = F' :: K /\ shape F F' /\
    reach F' (bt_list bt ++ rest).
Proof.
  intros EO IH HCd HC HR.
  change (o :: flatten body ++ [OEnd]) with ([o] ++ flatten body ++ [OEnd]).
  rewrite !w0_app, vrun_app. cbn [map vrun]. rewrite EO, vrun_app.
  assert (HC1 : vs_ctrls (push_ctrl false lbl bt s) = new_frame false lbl bt :: F :: K) by (cbn; now rewrite HC).
  destruct (IH HCd _ _ _ HC1 eq_refl (reach_new _ _ _)) as (s2 & F0' & -> & HC2 & HS2 & HO2).
  pose proof HS2 as (HI & _ & HE). cbn in HI, HE.
  destruct (end_fwd s2 F0' F K HC2) as (s3 & E3 & HC3); [rewrite HE; exact HO2|rewrite HI; discriminate|].
  cbn [map vrun]. rewrite E3. exists s3, (with_opds F (kn (bt_list (fr_end F0')) ++ opds F)). split; [reflexivity|]. split; [exact HC3|].
  split; [apply shape_wo|]. destruct HR as [HU HO]. split; [exact HU|]. cbn. rewrite HE, HO, map_app. reflexivity.
Qed.

Lemma complete_all :
  (forall C i t1 t2, instr_ok C i t1 t2 -> P_i C i t1 t2) /\
  (forall C is t1 t2, seq_ok C is t1 t2 -> P_s C is t1 t2).
Proof.
  apply typing_mutind.
  - intros C b t1 t2 HB HCd s F K HC -> HR. cbn [flatten_instr map vrun]. unfold vstep. cbn [fst snd].
    destruct (vstep_basic_complete b t1 t2 s F K HB HCd HC HR) as (s' & F' & -> & HC' & HS & HO).
    exists s', F'. auto.
  - intros C bt body rest HB IH HCd s F K HC -> HR. rewrite instr_cond_block in HCd.
    exact (closed_frame_fwd (OBlock bt) bt bt body rest s F K eq_refl IH HCd HC HR).
  - intros C bt body rest HB IH HCd s F K HC -> HR. rewrite instr_cond_loop in HCd.
    exact (closed_frame_fwd (OLoop bt) None bt body rest s F K eq_refl IH HCd HC HR).
  - intros C bt thn els rest HT IHT HEl IHE HCd s F K HC -> HR. rewrite instr_cond_if in HCd.
    apply andb_true_iff in HCd. destruct HCd as [CdT CdE].
    destruct HR as [HU HO]. cbn [map] in HO.
    assert (HCp : vs_ctrls (set_top s (with_opds F (kn rest)) K) = with_opds F (kn rest) :: K) by reflexivity.
    assert (HC1 : vs_ctrls (push_ctrl true bt bt (set_top s (with_opds F (kn rest)) K)) = new_frame true bt bt :: with_opds F (kn rest) :: K) by reflexivity.
    destruct (IHT CdT _ _ _ HC1 eq_refl (reach_new _ _ _)) as (s2 & F0' & ET & HC2 & HS2 & HO2).
    pose proof HS2 as (HI & _ & HE). cbn in HI, HE.
    cbn [flatten_instr]. destruct els as [|e0 els'].
    + (* no else: the typing of the empty else branch forces an empty result *)
      assert (bt = None) as -> by (inversion HEl; destruct bt; [discriminate|reflexivity]).
      change (OIf None :: flat_map flatten_instr thn ++ [OEnd]) with ([OIf None] ++ flatten thn ++ [OEnd]).
      rewrite !w0_app, vrun_app. cbn [map vrun vstep fst]. rewrite ?vrun_app.
      rewrite (pop_known_fwd _ _ _ _ _ HC HO). cbn [obind]. rewrite ?vrun_app, ET.
      destruct (end_fwd s2 F0' _ K HC2) as (s3 & E3 & HC3); [rewrite HE; exact HO2|intros _; exact HE|].
      cbn [map vrun]. rewrite E3. eexists s3, _. split; [reflexivity|]. split; [exact HC3|].
      split; [repeat split|]. cbn [is_term]. split; [exact HU|]. cbn. rewrite HE. reflexivity.
    + change (OIf bt :: flat_map flatten_instr thn ++ OElse :: flat_map flatten_instr (e0 :: els') ++ [OEnd])
        with ([OIf bt] ++ flatten thn ++ [OElse] ++ flatten (e0 :: els') ++ [OEnd]).
      rewrite !w0_app, vrun_app. cbn [map vrun vstep fst]. rewrite ?vrun_app.
      rewrite (pop_known_fwd _ _ _ _ _ HC HO). cbn [obind]. rewrite ?vrun_app, ET.
      destruct (else_fwd s2 F0' _ HC2) as (s3 & E3 & HC3); [rewrite HE; exact HO2|exact HI|].
      cbn [map vrun]. rewrite ?vrun_app. cbn [map vrun]. rewrite E3. rewrite ?vrun_app. rewrite HE in HC3.
      destruct (IHE CdE _ _ _ HC3 eq_refl (reach_new _ _ _)) as (s4 & F1' & -> & HC4 & HS4 & HO4).
      pose proof HS4 as (HI4 & _ & HE4). cbn in HI4, HE4.
      destruct (end_fwd s4 F1' _ K HC4) as (s5 & E5 & HC5); [rewrite HE4; exact HO4|rewrite HI4; discriminate|].
      cbn [map vrun]. rewrite E5. eexists s5, _. split; [reflexivity|]. split; [exact HC5|].
      split; [repeat split|]. cbn [is_term]. split; [exact HU|]. cbn. rewrite HE4, map_app. reflexivity.
  - intros C ts _ s F K HC -> HR. exists s, F. cbn. repeat split; auto. now left.
  - intros C i is t1 t2 t3 HI IHI HS IHS HCd s F K HC -> HR. rewrite seq_cond_cons in HCd.
    apply andb_true_iff in HCd. destruct HCd as [HCd CdS]. apply andb_true_iff in HCd. destruct HCd as [CdI CdT].
    change (flatten (i :: is)) with (flatten_instr i ++ flatten is). rewrite w0_app, vrun_app.
    destruct (IHI CdI _ _ _ HC eq_refl HR) as (s1 & F1 & -> & HC1 & HS1 & HO1).
    destruct is as [|j is'].
    + cbn [flatten flat_map map vrun]. exists s1, F1. split; [reflexivity|]. split; [exact HC1|]. split; [exact HS1|].
      inversion HS; subst. destruct (is_term i); [now right|now left].
    + apply negb_true_iff in CdT. rewrite CdT in HO1.
      destruct (IHS CdS _ _ _ HC1) as (s2 & F2 & E2 & HC2 & HS2 & HO2);
        [now rewrite (map_label_shape _ _ _ HS1)|exact HO1|].
      exists s2, F2. split; [exact E2|]. split; [exact HC2|]. split; [eapply shape_trans; eauto|exact HO2].
Qed.

Theorem validate_complete_partial_thm is :
  body_ok (tctx_of c) is -> cond_s is = true ->
  exists h, validate_func c (w0 (flatten_body is)) = Some h.
Proof.
  intros HB HCd. unfold validate_func, flatten_body. rewrite w0_app, vrun_app.
  assert (HC : vs_ctrls (vinit c) = [new_frame false (vc_return c) (vc_return c)]) by reflexivity.
  destruct (proj2 complete_all _ _ _ _ HB HCd _ _ _ HC eq_refl (reach_new _ _ _)) as (s1 & F1 & -> & HC1 & HS1 & HO1).
  pose proof HS1 as (HI & _ & HE). cbn in HI, HE. cbn [map vrun].
  destruct (end_top s1 F1 HC1) as (s2 & -> & HC2); [rewrite HE; exact HO1|exact HI|].
  rewrite HC2. eauto.
Qed.
End Complete.
