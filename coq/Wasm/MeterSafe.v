(** * Wasm/MeterSafe — metering is PREPAID and EXACT on every run of a metered module.

    For every module whose functions are outputs of the structured transformer ([Meter.mseq]) and
    whose function 0 is an import (as in [Meter.inject]), every fuel, every host, every store and
    arguments: along the event trace of [SemTrace.tinvoke] the balance
        (sum of ticks so far) - (sum of the work executed so far)
    never becomes negative ([bal 0 T = Some b]), and it is 0 whenever the invocation returns.
    Work = the annotations the transformer put on the instructions it copied from the source
    (cost of the source instruction in its source context, [branch] for a taken [br_if],
    [invoke_after] per entered function).

    The proof has a static and a dynamic half: [mseq_prepaid] shows that the transformer's output
    satisfies the credit discipline [PS]; [safe_all] shows, by induction on the fuel, that the
    interpreter keeps the balance of [PS] code non-negative ([instr_body_ok] and its companions are one
    interpreter step over arbitrary callees that keep the invariant). *)
From Coq Require Import ZArith List Lia.
From CB Require Import Wasm.Syntax Wasm.Sem Wasm.CostCtx Wasm.Meter Wasm.SemTrace Wasm.MeterProofs Wasm.SemTraceProofs Wasm.TraceEval.
Import ListNotations.
Local Open Scope N_scope.

Lemma bal_app b t1 t2 :
  bal b (t1 ++ t2) = match bal b t1 with Some b1 => bal b1 t2 | None => None end.
Proof.
  revert b. induction t1 as [|e t IH]; intro b; [reflexivity|].
  destruct e; cbn [app bal]; try apply IH. destruct (c <=? b); [apply IH|reflexivity].
Qed.

Lemma bal_add b t b' x : bal b t = Some b' -> bal (b + x) t = Some (b' + x).
Proof.
  revert b. induction t as [|e t IH]; intro b; cbn [bal].
  - intro H; inversion H; reflexivity.
  - destruct e; try apply IH.
    + intro H. replace (b + x + n) with (b + n + x) by lia. apply IH; exact H.
    + destruct (c <=? b) eqn:E; [|discriminate]. apply N.leb_le in E.
      replace (c <=? b + x) with true by (symmetry; apply N.leb_le; lia).
      intro H. replace (b + x - c) with (b - c + x) by lia. apply IH; exact H.
Qed.

(** conservation: what was paid is either consumed or still there *)
Lemma bal_conserve b t b' : bal b t = Some b' -> b' + work t = b + ticks t.
Proof.
  revert b. induction t as [|e t IH]; intro b; cbn [bal work ticks].
  - intro H; inversion H; lia.
  - destruct e; try apply IH.
    + intro H. apply IH in H. lia.
    + destruct (c <=? b) eqn:E; [|discriminate]. apply N.leb_le in E. intro H. apply IH in H. lia.
Qed.

(** every prefix of a trace with non-negative balance has non-negative balance:
    at every point, work so far <= credit + ticks so far *)
Lemma bal_prefix b p q b' : bal b (p ++ q) = Some b' -> work p <= b + ticks p.
Proof.
  rewrite bal_app. destruct (bal b p) as [b1|] eqn:E; [|discriminate]. intros _.
  apply bal_conserve in E. lia.
Qed.

Definition settled (r : res) : bool :=
  match r with RNormal _ _ _ | RBr _ _ _ _ | RReturn _ _ => true | _ => false end.

Definition block_res (bt : blocktype) (stack : list val) (r : res) : res :=
  match r with
  | RNormal s' l' vs => RNormal s' l' (firstn (arity bt) vs ++ stack)
  | RBr O s' l' vs => RNormal s' l' (firstn (arity bt) vs ++ stack)
  | RBr (S k) s' l' vs => RBr k s' l' vs
  | r => r
  end.
Lemma block_res_settled bt st r : settled (block_res bt st r) = settled r.
Proof. destruct r as [| [|k] | | | |]; reflexivity. Qed.

Definition cost_of (o : origin) : N := match o with OSrc c _ => c | OInj => 0 end.
Lemma bal_ev_work o b t : bal (cost_of o + b) (ev_work o ++ t) = bal b t.
Proof.
  destruct o as [c tk|]; cbn [ev_work cost_of app bal]; [|f_equal; lia].
  replace (c <=? c + b) with true by (symmetry; apply N.leb_le; lia). f_equal. lia.
Qed.

(** ** what the transformer's output looks like, as far as credit is concerned

    [PI h x i]: instruction [i] is started with credit [h], leaves credit [x] when it completes normally
    and 0 when it branches or returns.  [PS h is]: the sequence [is] is started with credit [h] and ends
    with 0.  A tick is recorded before the work its annotation stands for. *)
Definition brif1_if (c b : N) : ainstr :=
  AIf (OSrc c 0) (Some T_i32) [ABasic OInj (BTick b); ABasic OInj (BConst T_i32 1%Z)]
      [ABasic OInj (BConst T_i32 0%Z)].

Inductive PI : N -> N -> ainstr -> Prop :=
| PI_keep c x b : kind_of b = KPending \/ b = BMemoryGrow -> PI (c + x) x (ABasic (OSrc c 0) b)
| PI_tick o x n y : x + n = cost_of o + y -> PI x y (ABasic o (BTick n))
| PI_call0 x : PI x x (ABasic OInj (BCall fn_idx_memory_alloc))
| PI_flush c b : kind_of b = KFlushKeep \/ (exists idx, b = BCall idx) -> PI c 0 (ABasic (OSrc c 0) b)
| PI_block o bt body h : PS h body -> PI (cost_of o + h) 0 (ABlock o bt body)
| PI_loop o bt body : PS 0 body -> PI (cost_of o) 0 (ALoop o bt body)
| PI_if c bt thn els : PS 0 thn -> PS 0 els -> PI c 0 (AIf (OSrc c 0) bt thn els)
with PS : N -> list ainstr -> Prop :=
| PS_nil : PS 0 []
| PS_cons h x i k : PI h x i -> PS x k -> PS h (i :: k)
(* the credit after [brif1_if] depends on the value it leaves on the stack: [b] with 1, 0 with 0 *)
| PS_brif1 c b idx k : PS 0 k -> PS c (brif1_if c b :: ABasic (OSrc 0 b) (BBrIf idx) :: k).

Lemma PS_tick_opt h k : PS h k -> PS 0 (tick_opt h ++ k).
Proof.
  intro H. unfold tick_opt. destruct (N.ltb_spec 0 h) as [Hh|Hh]; cbn [app].
  - apply PS_cons with (x := h); [apply PI_tick; reflexivity|exact H].
  - replace 0 with h by lia. exact H.
Qed.

Section Prepaid.
Variable cfg : cost_cfg.
Variable cx : cost_ctx.

Lemma mseq_prepaid : forall is L h is', mseq cfg cx L is = Some (h, is') -> PS h is'.
Proof.
  apply (instrs_ind2
           (fun i => forall L hj pre fl, mi cfg cx L i = Some (hj, pre, fl) ->
                     forall x k, PS x k -> (fl = true -> x = 0) -> PS (hj + x) (pre ++ k))
           (fun is => forall L h is', mseq cfg cx L is = Some (h, is') -> PS h is')).
  - intros b L hj pre fl H x k Hk Hx. rewrite mi_eq in H. obind_inv H. destruct (kind_of b) eqn:Ek.
    + inversion H; subst. exact (PS_cons _ _ _ _ (PI_keep _ _ _ (or_introl Ek)) Hk).
    + inversion H; subst. specialize (Hx eq_refl). subst x. rewrite N.add_0_r.
      exact (PS_cons _ _ _ _ (PI_flush _ _ (or_introl Ek)) Hk).
    + inversion H; subst. specialize (Hx eq_refl). subst x. rewrite N.add_0_r.
      exact (PS_cons _ _ _ _ (PI_flush _ _ (or_intror (ex_intro _ _ eq_refl))) Hk).
    + obind_inv H. inversion H; subst. specialize (Hx eq_refl). subst x. rewrite N.add_0_r.
      destruct (brif_rewrite_inv _ _ _ _ _ E1) as [_ [[_ ->]|[_ ->]]].
      * refine (PS_cons _ _ _ _ (PI_if _ _ _ _ _ PS_nil) Hk).
        refine (PS_cons _ _ _ _ (PI_tick OInj 0 _ _ eq_refl) _).
        exact (PS_cons _ _ _ _ (PI_flush _ (BBr _) (or_introl eq_refl)) PS_nil).
      * exact (PS_brif1 _ _ _ _ Hk).
    + inversion H; subst. refine (PS_cons _ _ _ _ (PI_call0 _) (PS_cons _ _ _ _ (PI_keep _ _ _ _) Hk)).
      right. destruct b; try discriminate Ek. reflexivity.
    + discriminate.
  - intros bt body IH L hj pre fl H x k Hk Hx. rewrite mi_eq in H. obind_inv H. inversion H; subst.
    specialize (Hx eq_refl). subst x. rewrite N.add_0_r. exact (PS_cons _ _ _ _ (PI_block (OSrc _ 0) _ _ _ (IH _ _ _ E0)) Hk).
  - intros bt body IH L hj pre fl H x k Hk Hx. rewrite mi_eq in H. obind_inv H. inversion H; subst.
    specialize (Hx eq_refl). subst x. rewrite N.add_0_r.
    exact (PS_cons _ _ _ _ (PI_loop (OSrc _ 0) _ _ (PS_tick_opt _ _ (IH _ _ _ E0))) Hk).
  - intros bt t e IHt IHe L hj pre fl H x k Hk Hx. rewrite mi_eq in H. obind_inv H. inversion H; subst.
    specialize (Hx eq_refl). subst x. rewrite N.add_0_r.
    exact (PS_cons _ _ _ _ (PI_if _ _ _ _ (PS_tick_opt _ _ (IHt _ _ _ E0)) (PS_tick_opt _ _ (IHe _ _ _ E1))) Hk).
  - intros L h is' H. inversion H. constructor.
  - intros i r IHi IHr L h is' H.
    destruct (mseq_cons_inv _ _ _ _ _ _ _ H) as (hr & r' & hj & pre & fl & Er & Ei & Hc).
    destruct fl.
    + destruct Hc as (_ & -> & ->). rewrite <- (N.add_0_r hj).
      exact (IHi _ _ _ _ Ei _ _ (PS_tick_opt _ _ (IHr _ _ _ Er)) (fun _ => eq_refl)).
    + destruct Hc as (-> & ->). apply (IHi _ _ _ _ Ei _ _ (IHr _ _ _ Er)). discriminate.
Qed.

Lemma ameter_body_prepaid nl result body b : ameter_body cfg cx nl result body = Some b -> PS 0 b.
Proof.
  unfold ameter_body. destruct (mseq cfg cx [result] body) as [[h body']|] eqn:Em; [|discriminate].
  cbn [obind]. destruct (seg_ok _); [|discriminate]. intro H; inversion H; subst.
  apply mseq_prepaid in Em. destruct (N.ltb_spec 0 (c_invoke_after cfg nl + h)) as [Hh|Hh]; cbn [app].
  - refine (PS_cons _ _ _ _ (PI_tick _ _ _ _ _) Em). cbn [cost_of]. lia.
  - replace 0 with h by lia. exact Em.
Qed.
End Prepaid.

Section Safe.
Variable host : nat -> list val -> option memory -> host_result.
Variable cap : N.
Variable m : module.
Variable afs : list afunc.

Notation tseq := (texec_seq host cap m afs).
Notation tinstr := (texec_instr host cap m afs).
Notation tinv := (tinvoke host cap m afs).

(** function 0 (the target of the injected [Call 0]) is an import *)
Hypothesis Himp : (0 < length (m_imports m))%nat.
Definition metered_fn (fn : afunc) : Prop := PS 0 (af_body fn) /\ af_entry fn = 0.
Hypothesis Hafs : Forall metered_fn afs.

Definition Paid (h x : N) (T : list event) (r : res) : Prop :=
  exists b, bal h T = Some b /\
            match r with RNormal _ _ _ => b = x | RBr _ _ _ _ | RReturn _ _ => b = 0 | _ => True end.
Definition PaidV (T : list event) (r : sum res (store * option val)) : Prop :=
  exists b, bal 0 T = Some b /\ match r with inr _ => b = 0 | inl r0 => settled r0 = false end.

Definition SeqOK (rs : store -> list val -> list val -> list ainstr -> tr res) (h : N) (is : list ainstr) :=
  forall s l st T r, rs s l st is = (T, r) -> Paid h 0 T r.
Definition InstrOK (ri : store -> list val -> list val -> ainstr -> tr res) (h x : N) (i : ainstr) :=
  forall s l st T r, ri s l st i = (T, r) -> Paid h x T r.
Definition InvOK (rv : store -> nat -> list val -> tr (sum res (store * option val))) :=
  forall s fi args T r, rv s fi args = (T, r) -> PaidV T r.

Lemma Paid_unsettled h x T b r : bal h T = Some b -> settled r = false -> Paid h x T r.
Proof. intros Hb Hr. exists b. split; [exact Hb|]. destruct r; try discriminate; exact I. Qed.
Lemma Paid_zero h T r : bal h T = Some 0 -> Paid h 0 T r.
Proof. intro Hb. exists 0. split; [exact Hb|]. destruct r; auto. Qed.
Lemma Paid_work o h x t r : Paid h x t r -> Paid (cost_of o + h) x (ev_work o ++ t) r.
Proof. intros [b [Hb Hr]]. exists b. rewrite bal_ev_work. auto. Qed.
Lemma bal_work1 c x : bal (c + x) [EvWork c] = Some x.
Proof. cbn [bal]. replace (c <=? c + x) with true by (symmetry; apply N.leb_le; lia). f_equal. lia. Qed.

Section Bodies.
Variable rs : store -> list val -> list val -> list ainstr -> tr res.
Variable ri : store -> list val -> list val -> ainstr -> tr res.
Variable rv : store -> nat -> list val -> tr (sum res (store * option val)).
Hypothesis HS : forall h is, PS h is -> SeqOK rs h is.
Hypothesis HI : forall h x i, PI h x i -> InstrOK ri h x i.
Hypothesis HV : InvOK rv.

Lemma seq_nil_ok : SeqOK (seq_body rs ri) 0 [].
Proof. intros s l st T r H. inversion H; subst. exists 0. split; reflexivity. Qed.

Lemma seq_cons_ok h x i k : InstrOK ri h x i -> SeqOK rs x k -> SeqOK (seq_body rs ri) h (i :: k).
Proof.
  intros Hi Hk s l st T r H. cbn [seq_body] in H.
  destruct (ri s l st i) as [t1 r1] eqn:E1. destruct (Hi _ _ _ _ _ E1) as [b [Hb Hr]].
  destruct r1 as [s' l' st'| | | | |]; try (inversion H; subst T r; exists b; split; [exact Hb|exact Hr]).
  destruct (rs s' l' st' k) as [t2 r2] eqn:E2. inversion H; subst T r.
  destruct (Hk _ _ _ _ _ E2) as [b2 [Hb2 Hr2]]. exists b2. rewrite bal_app, Hb, Hr. auto.
Qed.

Lemma call_ok o h x s l fi args st t r0 :
  h = cost_of o + x -> rv s fi args = (t, r0) -> (is_local m fi = true -> x = 0) ->
  Paid h x (ev_work o ++ ev_call m fi ++ t) (call_res l st r0).
Proof.
  intros -> E Hx. destruct (HV _ _ _ _ _ E) as [b [Hb Hr]]. apply (bal_add _ _ _ x) in Hb. rewrite N.add_0_l in Hb.
  assert (Hc : bal x (ev_call m fi ++ t) = Some (b + x)) by (unfold ev_call; destruct (is_local m fi); exact Hb).
  apply Paid_work. destruct r0 as [r0|[s' v]]; cbn [call_res].
  - apply Paid_unsettled with (b := b + x); assumption.
  - exists (b + x). split; [exact Hc|lia].
Qed.

Lemma Paid_flush c t r : bal 0 t = Some 0 -> Paid c 0 (EvWork c :: t) r.
Proof. intro Ht. apply Paid_zero. cbn [bal]. rewrite N.leb_refl, N.sub_diag. exact Ht. Qed.

Local Opaque exec_simple.
Lemma instr_body_ok h x i : PI h x i -> InstrOK (instr_body cap m afs rs ri rv) h x i.
Proof.
  intros HP s l st T r H. destruct HP as [c x b Hk|o x n y Hn|x|c b Hk|o bt body h Hb|o bt body Hb|c bt thn els Ht He].
  - assert (Hs : simple_b b = true) by (destruct Hk as [Hk| ->]; [destruct b; try discriminate Hk|]; reflexivity).
    rewrite instr_body_simple in H by exact Hs. inversion H; subst.
    assert (E : simple_events (OSrc c 0) b = [EvWork c])
      by (destruct Hk as [Hk| ->]; [destruct b; try discriminate Hk|]; reflexivity).
    rewrite E. exists x. split; [apply bal_work1|].
    destruct (exec_simple cap b s l st) as [[|]|[[? ?] ?]]; cbn; auto.
  - rewrite instr_body_simple in H by reflexivity. inversion H; subst.
    exists y. cbn [simple_events bal]. rewrite Hn. split; [rewrite <- (app_nil_r (ev_work o)); apply bal_ev_work|].
    destruct (exec_simple cap (BTick n) s l st) as [[|]|[[? ?] ?]]; cbn; auto.
  - apply instr_body_shape in H. inversion H; subst; [exists x; split; [reflexivity|exact I]|discriminate|].
    eapply (call_ok OInj x x); [reflexivity|eassumption|].
    unfold is_local, fn_idx_memory_alloc. destruct (length (m_imports m)); [lia|discriminate].
  - apply instr_body_shape in H.
    inversion H; subst; cbn [origin_of ev_work]; try (apply (Paid_flush c []); reflexivity).
    + destruct b; try discriminate; destruct Hk as [Hk|[? Hk]]; try discriminate. apply (Paid_flush c []). reflexivity.
    + destruct Hk as [Hk|[? Hk]]; discriminate.
    + eapply (call_ok (OSrc c 0) c 0); [cbn; lia|eassumption|reflexivity].
    + eapply (call_ok (OSrc c 0) c 0); [cbn; lia|eassumption|reflexivity].
    + apply (Paid_flush c (ev_call m fi)). unfold ev_call. destruct (is_local m fi); reflexivity.
  - rewrite instr_body_block in H. destruct (rs s l [] body) as [t r1] eqn:E. inversion H; subst.
    destruct (HS _ _ Hb _ _ _ _ _ E) as [b [Hbal Hr]]. apply Paid_work. exists b. split; [exact Hbal|].
    destruct r1 as [| [|k] | | | |]; exact Hr.
  - (* loop: the next iteration is the same loop, without the work of entering it *)
    cbn [instr_body] in H. destruct (rs s l [] body) as [t r1] eqn:E.
    destruct (HS _ _ Hb _ _ _ _ _ E) as [b [Hbal Hr]].
    rewrite <- (N.add_0_r (cost_of o)).
    destruct r1 as [s' l' vs|[|k] s' l' vs|s' vs| | |];
      try (inversion H; subst T r; apply Paid_work; exists b; split; [exact Hbal|exact Hr]).
    destruct (ri s' l' st (ALoop OInj bt body)) as [t2 r2] eqn:E2. inversion H; subst T r.
    apply Paid_work. destruct (HI _ _ _ (PI_loop OInj bt body Hb) _ _ _ _ _ E2) as [b2 [Hb2 Hr2]].
    exists b2. rewrite bal_app, Hbal, Hr. auto.
  - cbn [instr_body ev_work] in H. rewrite <- (N.add_0_r c).
    destruct st as [|[z|z] st]; try (inversion H; subst; apply Paid_zero, bal_work1).
    destruct (ri s l st (ABlock OInj bt (if (z =? 0)%Z then els else thn))) as [t r1] eqn:E. inversion H; subst.
    apply (Paid_work (OSrc c 0)).
    refine (HI _ _ _ (PI_block OInj bt _ 0 _) _ _ _ _ _ E). destruct (z =? 0)%Z; assumption.
Qed.
Local Transparent exec_simple.

Lemma inv_body_ok : InvOK (inv_body host m afs rs).
Proof.
  intros s fi args T r H.
  destruct (inv_body_shape _ _ _ _ _ _ _ _ _ H) as [[-> ->]|[(_ & _ & -> & ->)|(fn & ft & t & r1 & _ & Efn & _ & E & -> & ->)]].
  - exists 0. split; reflexivity.
  - exists 0. split; [reflexivity|]. destruct (host fi args (s_mem s)); reflexivity.
  - assert (Hfn : metered_fn fn) by (rewrite Forall_forall in Hafs; apply Hafs; eapply nth_error_In; exact Efn).
    destruct Hfn as [Hb ->]. destruct (HS _ _ Hb _ _ _ _ _ E) as [b [Hbal Hr]].
    exists b. cbn [bal]. rewrite N.leb_refl, N.sub_0_r, bal_app, Hbal.
    destruct (inv_res_cases ft r1) as [(x & -> & Hx)|(r0 & -> & Hr0)]; cbn [fst snd bal].
    + split; [reflexivity|]. destruct r1 as [|[|k]| | | |]; try contradiction; exact Hr.
    + split; [reflexivity|]. destruct Hr0 as [->|[-> [->| ->]]]; reflexivity.
Qed.
End Bodies.

(** ** the rewriting of [br_if] to a label with a value: the credit after [brif1_if] depends on the
    stack, so it is followed through the interpreter *)
Definition SafeSeq (f : nat) (h : N) (is : list ainstr) : Prop := SeqOK (tseq f) h is.

Ltac crunch H :=
  repeat (match type of H with
          | context [texec_instr _ _ _ _ (S _) _ _ _ _] =>
              rewrite tinstr_S in H; cbn [instr_body exec_simple ok mkval ev_work app] in H
          | context [texec_seq _ _ _ _ (S _) _ _ _ _] =>
              rewrite tseq_S in H; cbn [seq_body app] in H
          | context [texec_instr _ _ _ _ ?f _ _ _ _] => is_var f; destruct f as [|f]
          | context [texec_seq _ _ _ _ ?f _ _ _ _] => is_var f; destruct f as [|f]
          end).

Lemma brif1_if_shape f c b s l st T r :
  tinstr f s l st (brif1_if c b) = (T, r) ->
  (exists st', r = RNormal s l (VI32 1 :: st') /\ T = [EvWork c; EvTick b]) \/
  (exists st', r = RNormal s l (VI32 0 :: st') /\ T = [EvWork c]) \/
  (settled r = false /\ (T = [] \/ T = [EvWork c] \/ T = [EvWork c; EvTick b])).
Proof.
  unfold brif1_if. intro H.
  destruct f as [|f]; [inversion H; subst; right; right; split; auto|].
  rewrite tinstr_S in H. cbn [instr_body ev_work] in H.
  destruct st as [|[z|z] st0]; try (inversion H; subst; right; right; split; auto; fail).
  destruct (z =? 0)%Z.
  - crunch H; inversion H; subst; cbn [firstn arity app];
      first [ right; left; eexists; split; reflexivity | right; right; split; auto ].
  - crunch H; inversion H; subst; cbn [firstn arity app];
      first [ left; eexists; split; reflexivity | right; right; split; auto ].
Qed.

Lemma brif1_safe f c b idx k :
  (forall f', (f' < f)%nat -> SafeSeq f' 0 k) ->
  SafeSeq f c (brif1_if c b :: ABasic (OSrc 0 b) (BBrIf idx) :: k).
Proof.
  intros Hk s l st T r H. destruct f as [|f]; [inversion H; subst; exists c; split; [reflexivity|exact I]|].
  rewrite tseq_S in H. cbn [seq_body] in H.
  destruct (tinstr f s l st (brif1_if c b)) as [t1 r1] eqn:E1.
  assert (Wc : forall t', bal c (EvWork c :: t') = bal 0 t').
  { intro t'. cbn [bal]. rewrite N.leb_refl, N.sub_diag. reflexivity. }
  destruct (brif1_if_shape _ _ _ _ _ _ _ _ E1) as [[st' [Hr Ht]]|[[st' [Hr Ht]]|[Hs Ht]]]; subst.
  - (* then-branch: balance b, br_if taken *)
    destruct f as [|f]; [inversion H; subst; eexists; split; [rewrite Wc; reflexivity|exact I]|].
    rewrite tseq_S in H. cbn [seq_body] in H.
    destruct f as [|f]; [inversion H; subst; eexists; split; [rewrite Wc; reflexivity|exact I]|].
    rewrite tinstr_S in H. cbn [instr_body ev_work ev_taken app Z.eqb] in H. inversion H; subst.
    exists 0. split; [|reflexivity]. rewrite Wc. cbn [app bal]. rewrite N.add_0_l.
    replace (0 <=? b) with true by (symmetry; apply N.leb_le; lia).
    rewrite N.sub_0_r, N.leb_refl, N.sub_diag. reflexivity.
  - (* else-branch: balance 0, br_if not taken *)
    destruct f as [|f]; [inversion H; subst; eexists; split; [rewrite Wc; reflexivity|exact I]|].
    rewrite tseq_S in H. cbn [seq_body] in H.
    destruct f as [|f]; [inversion H; subst; eexists; split; [rewrite Wc; reflexivity|exact I]|].
    rewrite tinstr_S in H. cbn [instr_body ev_work ev_taken app Z.eqb] in H.
    destruct (tseq (S f) s l st' k) as [t2 r2] eqn:E2. inversion H; subst; clear H.
    destruct (Hk (S f) ltac:(lia) _ _ _ _ _ E2) as [b2 [Hb2 Hs2]].
    exists b2. split; [|exact Hs2]. rewrite Wc. cbn. exact Hb2.
  - (* the rewriting itself did not complete *)
    destruct r1; try discriminate; inversion H; subst;
      (destruct Ht as [Ht|[Ht|Ht]]; subst; eexists; (split; [first [reflexivity | rewrite Wc; reflexivity]|exact I])).
Qed.

Definition SafeAll (f : nat) : Prop :=
  (forall h is, PS h is -> SeqOK (tseq f) h is) /\ (forall h x i, PI h x i -> InstrOK (tinstr f) h x i) /\ InvOK (tinv f).

Theorem safe_all : forall f, SafeAll f.
Proof.
  induction f as [f IH] using lt_wf_ind. destruct f as [|f].
  - split; [|split]; unfold SeqOK, InstrOK, InvOK; intros;
      match goal with H : _ = (_, _) |- _ => inversion H end; eexists; (split; [reflexivity|exact I || reflexivity]).
  - destruct (IH f (Nat.lt_succ_diag_r f)) as (HS & HI & HV). split; [|split].
    + intros h is HP. change (tseq (S f)) with (seq_body (tseq f) (tinstr f)).
      destruct HP as [|h x i k Hi Hk|c b idx k Hk].
      * apply seq_nil_ok.
      * exact (seq_cons_ok _ _ _ _ _ _ (HI _ _ _ Hi) (HS _ _ Hk)).
      * exact (brif1_safe (S f) c b idx k (fun f' Hf => proj1 (IH f' Hf) _ _ Hk)).
    + intros h x i HP. exact (instr_body_ok _ _ _ HS HI HV _ _ _ HP).
    + exact (inv_body_ok _ HS).
Qed.

End Safe.

Lemma inject_imports cfg m m' : inject cfg m = Some m' -> (0 < length (m_imports m'))%nat.
Proof. intro H. rewrite (proj2 (inject_types_imports _ _ _ H)). cbn. lia. Qed.

Lemma ameter_funcs_metered cfg m afs : ameter_funcs cfg m = Some afs -> Forall metered_fn afs.
Proof.
  intro H. eapply omap_list_forall; [exact H|]. intros f fn Hf. unfold ameter_func in Hf.
  destruct (nth_error (m_types m) (f_type f)) as [ft|]; [|discriminate].
  destruct (ameter_body _ _ _ _ _) as [b|] eqn:Eb; [|discriminate]. inversion Hf; subst.
  split; [exact (ameter_body_prepaid _ _ _ _ _ _ Eb)|reflexivity].
Qed.

Theorem metered_run_prepaid_exact cfg m m' afs host cap fuel fi args T o :
  inject cfg m = Some m' -> ameter_funcs cfg m = Some afs ->
  trun host cap m' afs fuel fi args = (T, o) ->
  (forall p q, T = p ++ q -> work p <= ticks p) /\
  (forall r mem g, o = Done r mem g -> ticks T = work T).
Proof.
  intros Hi Ha H. unfold trun in H. destruct (instantiate m') as [s|].
  - destruct (tinvoke host cap m' afs fuel s fi args) as [t r0] eqn:E.
    destruct (safe_all host cap m' afs (inject_imports _ _ _ Hi) (ameter_funcs_metered _ _ _ Ha) fuel) as [_ [_ HI]].
    destruct (HI _ _ _ _ _ E) as [b [Hb Hr]].
    assert (T = t) by (destruct r0 as [[]|[? ?]]; inversion H; reflexivity). subst t.
    split.
    + intros p q Hpq. subst T. apply bal_prefix in Hb. lia.
    + intros r mem g Ho. destruct r0 as [r0|[s' rv]].
      * destruct r0; inversion H; subst; discriminate.
      * subst b. apply bal_conserve in Hb. lia.
  - inversion H; subst. split; [intros p q Hpq; destruct p; [cbn; lia|discriminate]|discriminate].
Qed.

(** the module [inject] builds is the erasure of the annotated functions the theorems are about *)
Lemma inject_erase cfg m m' afs :
  inject cfg m = Some m' -> ameter_funcs cfg m = Some afs -> m_funcs m' = map erase_func afs.
Proof. intros Hi Ha. destruct (inject_funcs _ _ _ Hi) as (afs' & Ha' & E). congruence. Qed.

Lemma works_le_work t : N.of_nat (length (works t)) <= work t.
Proof.
  induction t as [|e t IH]; cbn [works work length]; [lia|].
  destruct e; try exact IH. destruct (0 <? c) eqn:E; cbn [length].
  - apply N.ltb_lt in E. lia.
  - lia.
Qed.

(** instructions of non-zero cost executed so far never outnumber the energy ticked so far *)
Theorem costed_steps : forall cfg m m' afs host cap fuel fi args T o,
  inject cfg m = Some m' -> ameter_funcs cfg m = Some afs ->
  trun host cap m' afs fuel fi args = (T, o) ->
  forall p q, T = p ++ q -> N.of_nat (length (works p)) <= ticks p.
Proof.
  intros cfg m m' afs host cap fuel fi args T o Hi Ha H p q Hpq.
  destruct (metered_run_prepaid_exact _ _ _ _ _ _ _ _ _ _ _ Hi Ha H) as [Hp _].
  specialize (Hp p q Hpq). pose proof (works_le_work p). eapply N.le_trans; eassumption.
Qed.

Theorem run_is_sem_run : forall cfg m m' afs host cap fuel fi args,
  inject cfg m = Some m' -> ameter_funcs cfg m = Some afs ->
  snd (trun host cap m' afs fuel fi args) = run host cap m' fuel fi args.
Proof. intros. apply trun_erase. eapply inject_erase; eassumption. Qed.
