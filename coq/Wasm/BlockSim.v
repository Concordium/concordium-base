(** * Stage B: the accepted fragment as a boolean ([ctl_ok], [lvl], [syn]) and what compiling a
    whole instruction sequence of the fragment preserves ([pure_seq]), without the machine. *)
From Coq Require Import ZArith List Lia Bool .
From CB Require Import Wasm.Syntax Wasm.Compile Wasm.CompileLemmas Wasm.SyntaxProofs Wasm.StraightProofs
     Wasm.BlockProofs Wasm.BlockInv.
Import ListNotations.
Local Open Scope Z_scope.

Lemma compile_ops_app cx : forall a b v s,
  compile_ops cx (a ++ b) v s =
  match compile_ops cx a v s with Some (v1, s1) => compile_ops cx b v1 s1 | None => None end.
Proof.
  induction a as [|op a IH]; intros b v s; cbn [app compile_ops]; [reflexivity|].
  destruct (vstep cx v op) as [v1|]; [|reflexivity].
  destruct (handle_opcode cx s v1 (v_reachability v) op) as [s1|]; [|reflexivity]. apply IH.
Qed.

(** ** the accepted constructs, checked while replaying the validator's height computation *)
Definition ctl_ok (nl : Z) (cx : cctx) (v : vstate) (op : opcode) : bool :=
  match op with
  | OEnd => true
  | OElse =>    (* the then-branch of a value-typed if must reach its else *)
      match v_ctrls v with
      | f :: _ => match vf_end f, v_unreach v with Some _, Some _ => false | _, _ => true end
      | [] => true
      end
  | OBlock _ => match v_unreach v with None => (v_opds v =? 0)%nat | Some _ => false end
  | OIf _ => match v_unreach v with None => (v_opds v =? 1)%nat | Some _ => false end
  | OLoop None => match v_unreach v with None => (v_opds v =? 0)%nat | Some _ => false end
  | OBasic (BBr _) | OBasic BUnreachable => match v_unreach v with None => true | Some _ => false end
  | OBasic (BBrIf l) => match v_unreach v, label_type v l with None, Some None => true | _, _ => false end
  | OBasic BReturn => match v_unreach v, cx_return cx, last (map (fun f => Some (vf_label f)) (v_ctrls v)) None with
                      | None, None, Some None => true
                      | None, Some _, Some (Some _) => true      (* return with a value *)
                      | _, _, _ => false end
  | OBasic b => match v_unreach v with None => straight_ok b && locals_in nl b | Some _ => false end
  | _ => false
  end.
Fixpoint lvl (nl : Z) (cx : cctx) (ops : list opcode) (v : vstate) : bool :=
  match ops with
  | [] => true
  | op :: r => ctl_ok nl cx v op && match vstep cx v op with Some v1 => lvl nl cx r v1 | None => false end
  end.

Lemma lvl_app nl cx : forall a b v v1 s s1,
  compile_ops cx a v s = Some (v1, s1) -> lvl nl cx (a ++ b) v = lvl nl cx a v && lvl nl cx b v1.
Proof.
  induction a as [|op a IH]; intros b v v1 s s1 H; cbn [app lvl compile_ops] in *.
  - inversion H; subst. reflexivity.
  - destruct (vstep cx v op) as [v2|]; [|discriminate].
    destruct (handle_opcode cx s v2 (v_reachability v) op) as [s2|]; [|discriminate].
    rewrite (IH b v2 v1 s2 s1 H). rewrite andb_assoc. reflexivity.
Qed.

Lemma ctl_ok_straight nl cx v b : v_unreach v = None -> straight_ok b = true -> ctl_ok nl cx v (OBasic b) = true ->
  locals_in nl b = true.
Proof.
  intros Hu Hs H. unfold ctl_ok in H. rewrite Hu in H.
  destruct b; try reflexivity; try (apply andb_true_iff in H; tauto); discriminate Hs.
Qed.

Lemma seg_pure nl cx : forall bs s v v' sf,
  forallb straight_ok bs = true -> compile_ops cx (map OBasic bs) v s = Some (v', sf) ->
  lvl nl cx (map OBasic bs) v = true -> v_unreach v = None -> cwf nl s ->
  c_bp sf = c_bp s /\ cwf nl sf /\ v_ctrls v' = v_ctrls v /\ v_unreach v' = None
  /\ (bs <> [] -> length (c_stack sf) = v_opds v').
Proof.
  induction bs as [|b r IH]; intros s v v' sf Hok Hc Hl Hu W.
  - cbn in Hc. inversion Hc; subst. splits; auto. intros X; contradiction.
  - cbn [forallb] in Hok. apply andb_true_iff in Hok. destruct Hok as [Hb Hr].
    cbn [map compile_ops lvl] in Hc, Hl. apply andb_true_iff in Hl. destruct Hl as [Hl1 Hl2].
    rewrite (reach_of_none v Hu) in Hc.
    destruct (vstep cx v (OBasic b)) as [v1|] eqn:Ev; [|discriminate].
    destruct (handle_opcode cx s v1 Reachable (OBasic b)) as [s1|] eqn:Eh; [|discriminate].
    pose proof (straight_ok_straight b Hb) as Hst.
    destruct (handle_score cx s v1 b s1 Hst Eh) as [Hsc Hlen].
    pose proof (straight_vstep cx v b v1 Hst Hu Ev) as Hu1.
    pose proof (proj2 (straight_vstep_frame cx v b v1 Hst Ev)) as Hc1.
    pose proof (score_cwf nl (c_last s) s b s1 Hst (ctl_ok_straight nl cx v b Hu Hb Hl1) W Hsc) as W1.
    destruct (score_frame _ _ _ _ Hst Hsc) as [Hbp _]. cbn [set_last c_bp] in Hbp.
    destruct (IH s1 v1 v' sf Hr Hc Hl2 Hu1 W1) as (A & B & C & D & E).
    splits; try congruence; auto. intros _. destruct r as [|b2 r']; [|apply E; discriminate].
    cbn in Hc. inversion Hc; subst. exact Hlen.
Qed.

Record pres (nl : Z) (s s' : cstate) (v' : vstate) : Prop := {
  p_ext : ext s s';
  p_mono : mono s s';
  p_inv : inv nl s' v';
  p_bp : bp_sub (c_bp s) (c_bp s')
}.
Arguments p_ext {nl s s' v'} _.
Arguments p_mono {nl s s' v'} _.
Arguments p_inv {nl s s' v'} _.
Arguments p_bp {nl s s' v'} _.
Lemma ext_off s s' : ext s s' -> cur_off s <= cur_off s'.
Proof. intros [H _]. unfold cur_off. lia. Qed.
Lemma pres_refl nl s v : inv nl s v -> pres nl s s v.
Proof. intros I. constructor; auto. apply ext_refl. apply mono_refl. eapply bp_sub_refl. apply (i_frames I). Qed.
Lemma pres_trans nl a b d vb vd : pres nl a b vb -> pres nl b d vd -> pres nl a d vd.
Proof.
  intros [A1 A2 A3 A4] [B1 B2 B3 B4]. constructor; auto.
  eapply ext_trans; eauto. eapply mono_trans; eauto. eapply bp_sub_trans; eauto.
Qed.

Lemma pres_frame nl s sa sb sc s' v' :
  ext s sa -> mono s sa -> ext sa sb -> mono sa sb -> ext sb sc -> mono sb sc ->
  bp_sub (c_bp s) (c_bp sc) -> pres nl sc s' v' -> pres nl s s' v'.
Proof.
  intros Xa Ma Xb Mb Xc Mc Hb Pr. constructor.
  - eapply ext_trans; [exact Xa|]. eapply ext_trans; [exact Xb|]. eapply ext_trans; [exact Xc|apply (p_ext Pr)].
  - eapply mono_trans; [exact Ma|]. eapply mono_trans; [exact Mb|]. eapply mono_trans; [exact Mc|apply (p_mono Pr)].
  - apply (p_inv Pr).
  - eapply bp_sub_trans; [exact Hb|apply (p_bp Pr)].
Qed.

Lemma compile_cons cx op r v s v' s' : compile_ops cx (op :: r) v s = Some (v', s') ->
  exists v1 s1, vstep cx v op = Some v1 /\ handle_opcode cx s v1 (v_reachability v) op = Some s1
                /\ compile_ops cx r v1 s1 = Some (v', s').
Proof.
  cbn [compile_ops]. intros H. destruct (vstep cx v op) as [v1|] eqn:E1; [|discriminate].
  destruct (handle_opcode cx s v1 (v_reachability v) op) as [s1|] eqn:E2; [|discriminate]. exists v1, s1. repeat split; auto.
Qed.
Lemma compile_app_inv cx a b v s v' s' : compile_ops cx (a ++ b) v s = Some (v', s') ->
  exists v1 s1, compile_ops cx a v s = Some (v1, s1) /\ compile_ops cx b v1 s1 = Some (v', s').
Proof.
  rewrite compile_ops_app. intros H. destruct (compile_ops cx a v s) as [[v1 s1]|] eqn:E; [|discriminate]. exists v1, s1. auto.
Qed.
Lemma lvl_cons nl cx op r v v1 : lvl nl cx (op :: r) v = true -> vstep cx v op = Some v1 ->
  ctl_ok nl cx v op = true /\ lvl nl cx r v1 = true.
Proof. cbn [lvl]. intros H E. rewrite E in H. apply andb_true_iff in H. exact H. Qed.

Lemma open_split nl cx op r v s v' s' :
  compile_ops cx (op :: r) v s = Some (v', s') -> lvl nl cx (op :: r) v = true ->
  exists va sa, vstep cx v op = Some va /\ handle_opcode cx s va (v_reachability v) op = Some sa /\ ctl_ok nl cx v op = true
    /\ compile_ops cx r va sa = Some (v', s') /\ lvl nl cx r va = true.
Proof.
  intros Hc Hl. destruct (compile_cons _ _ _ _ _ _ _ Hc) as (va & sa & Ev & Eh & Hc').
  destruct (lvl_cons _ _ _ _ _ _ Hl Ev) as [Hk Hl']. exists va, sa. auto.
Qed.
Lemma close_split nl cx body cl X v s v' s' :
  compile_ops cx (body ++ cl :: X) v s = Some (v', s') -> lvl nl cx (body ++ cl :: X) v = true ->
  exists vb sb vc sc, compile_ops cx body v s = Some (vb, sb) /\ lvl nl cx body v = true
    /\ vstep cx vb cl = Some vc /\ handle_opcode cx sb vc (v_reachability vb) cl = Some sc /\ ctl_ok nl cx vb cl = true
    /\ compile_ops cx X vc sc = Some (v', s') /\ lvl nl cx X vc = true.
Proof.
  intros Hc Hl. destruct (compile_app_inv _ _ _ _ _ _ _ Hc) as (vb & sb & Hcb & Hc').
  rewrite (lvl_app nl cx _ _ _ _ _ _ Hcb) in Hl. apply andb_true_iff in Hl. destruct Hl as [Hlb Hl'].
  destruct (open_split nl cx _ _ _ _ _ _ Hc' Hl') as (vc & sc & Evc & Ehc & Hk & Hcr & Hlr).
  exists vb, sb, vc, sc. auto 8.
Qed.

Lemma flatten_basics bs : flatten (map Basic bs) = map OBasic bs.
Proof. induction bs; cbn; auto. f_equal. exact IHbs. Qed.
Lemma flatten_block bt body rest : flatten (Block bt body :: rest) = OBlock bt :: flatten body ++ OEnd :: flatten rest.
Proof. unfold flatten. cbn [flat_map flatten_instr]. cbn [app]. rewrite <- app_assoc. reflexivity. Qed.
Lemma flatten_loop bt body rest : flatten (Loop bt body :: rest) = OLoop bt :: flatten body ++ OEnd :: flatten rest.
Proof. unfold flatten. cbn [flat_map flatten_instr]. cbn [app]. rewrite <- app_assoc. reflexivity. Qed.
Lemma flatten_if1 bt thn rest : flatten (If bt thn [] :: rest) = OIf bt :: flatten thn ++ OEnd :: flatten rest.
Proof. unfold flatten. cbn [flat_map flatten_instr]. cbn [app]. rewrite <- app_assoc. reflexivity. Qed.
Lemma flatten_if2 bt thn e els rest :
  flatten (If bt thn (e :: els) :: rest) = OIf bt :: flatten thn ++ OElse :: flatten (e :: els) ++ OEnd :: flatten rest.
Proof.
  unfold flatten. cbn [flat_map flatten_instr]. cbn [app]. rewrite <- !app_assoc. cbn [app]. rewrite <- !app_assoc. reflexivity.
Qed.
Lemma flatten_if bt thn els rest : flatten (If bt thn els :: rest) =
  OIf bt :: flatten thn ++ match els with [] => OEnd :: flatten rest | _ => OElse :: flatten els ++ OEnd :: flatten rest end.
Proof. destruct els; [apply flatten_if1|apply flatten_if2]. Qed.

Definition ctl_first (is : list instr) : Prop :=
  match is with Basic b :: _ => straight_ok b = false | _ => True end.
Fixpoint span (is : list instr) : list binstr * list instr :=
  match is with
  | Basic b :: r => if straight_ok b then let '(bs, tl) := span r in (b :: bs, tl) else ([], is)
  | _ => ([], is)
  end.
Lemma span_spec : forall is bs tl, span is = (bs, tl) ->
  is = map Basic bs ++ tl /\ forallb straight_ok bs = true /\ ctl_first tl.
Proof.
  induction is as [|i r IH]; intros bs tl H; cbn in H.
  - inversion H; subst. cbn. auto.
  - destruct i; try (inversion H; subst; cbn; auto; fail).
    destruct (straight_ok b) eqn:Eb.
    + destruct (span r) as [bs' tl'] eqn:Es. inversion H; subst. destruct (IH bs' tl eq_refl) as (A & B & C).
      cbn. rewrite Eb, B. subst r. auto.
    + inversion H; subst. cbn. auto.
Qed.
Lemma lsize_app a b : lsize (a ++ b) = (lsize a + lsize b)%nat.
Proof. induction a; cbn [app lsize]; auto. rewrite IHa. lia. Qed.
Lemma lsize_basics bs : lsize (map Basic bs) = length bs.
Proof. induction bs; cbn; auto. Qed.

Lemma lvl_unreach_nil nl cx is v : v_unreach v <> None -> lvl nl cx (flatten is) v = true -> is = [].
Proof.
  intros Hu H. destruct is as [|i r]; [reflexivity|exfalso].
  destruct (v_unreach v) eqn:E; [|contradiction].
  destruct i as [b|bt body|bt body|bt thn els]; [change (flatten (Basic b :: r)) with (OBasic b :: flatten r) in H
    |rewrite flatten_block in H| |destruct els; [rewrite flatten_if1 in H|rewrite flatten_if2 in H]];
    cbn [lvl] in H; try (apply andb_true_iff in H; destruct H as [H _]; unfold ctl_ok in H; rewrite E in H).
  - destruct b; discriminate.
  - destruct bt; discriminate.
  - destruct bt; discriminate.
  - destruct bt; discriminate.
  - destruct bt; discriminate.
Qed.

Lemma term_ends nl cx is v s v' s' : v_unreach v <> None -> lvl nl cx (flatten is) v = true ->
  compile_ops cx (flatten is) v s = Some (v', s') -> v' = v /\ s' = s.
Proof.
  intros Hu Hl Hc. rewrite (lvl_unreach_nil nl cx is v Hu Hl) in Hc. cbn in Hc. inversion Hc. split; reflexivity.
Qed.

(** ** the one syntactic restriction: an [if] with a result has an [else] (the validator rejects the
    other form, the height-only replay of it used here does not) *)
Fixpoint syn_i (i : instr) : bool :=
  let sl := fix sl (l : list instr) : bool := match l with [] => true | x :: r => syn_i x && sl r end in
  match i with
  | Basic _ => true
  | Block _ b | Loop _ b => sl b
  | If bt t e => match bt, e with Some _, [] => false | _, _ => sl t && sl e end
  end.
Fixpoint syn (l : list instr) : bool := match l with [] => true | x :: r => syn_i x && syn r end.
Lemma syn_block bt b : syn_i (Block bt b) = syn b. Proof. reflexivity. Qed.
Lemma syn_loop bt b : syn_i (Loop bt b) = syn b. Proof. reflexivity. Qed.
Lemma syn_if bt t e : syn_i (If bt t e) = match bt, e with Some _, [] => false | _, _ => syn t && syn e end.
Proof. reflexivity. Qed.
Lemma syn_app a b : syn (a ++ b) = syn a && syn b.
Proof. induction a; cbn [app syn]; auto. rewrite IHa, andb_assoc. reflexivity. Qed.
Lemma syn_cons i r : syn (i :: r) = true -> syn_i i = true /\ syn r = true.
Proof. cbn [syn]. intros H. apply andb_true_iff in H. exact H. Qed.

Lemma val_top_reachable nl cx s v locs r bp' op :
  inv nl s v -> c_bp s = JUnknown locs (Some r) :: bp' -> op = OElse -> ctl_ok nl cx v op = true ->
  v_unreach v = None.
Proof.
  intros I Ebp Hop Hk. pose proof (i_frames I) as Fr.
  destruct (v_ctrls v) as [|f rr] eqn:Ec; [inversion Fr; subst; rewrite Ebp in *; discriminate|].
  destruct (target_label_any _ _ _ _ O f _ _ Fr eq_refl ltac:(rewrite Ebp; reflexivity)) as (t0 & Fl & _).
  destruct (frames_cons _ _ _ _ _ Fr) as (_ & Fe & _). rewrite Fl in Fe.
  subst op; unfold ctl_ok in Hk; rewrite Ec, Fe in Hk; destruct (v_unreach v); auto; discriminate.
Qed.

(** the back-patch frame a [br] / [br_if] of the fragment targets, and the result convention [return] needs *)
Lemma br_frame nl cx s v l v1 : inv nl s v -> vstep cx v (OBasic (BBr l)) = Some v1 -> exists j, nth_error (c_bp s) l = Some j.
Proof.
  intros I Ev. destruct (br_target _ _ _ _ Ev) as (fk & Ek).
  destruct (bp_target nl s v l fk I Ek) as [(locs & rr & E)|(pos & E)]; eauto.
Qed.
Lemma br_if_frame nl cx s v l v1 : inv nl s v -> v_unreach v = None -> ctl_ok nl cx v (OBasic (BBrIf l)) = true ->
  vstep cx v (OBasic (BBrIf l)) = Some v1 -> exists j, nth_error (c_bp s) l = Some j /\ jres j = None.
Proof.
  intros I Hu Hk Ev. destruct (br_if_target _ _ _ _ Ev) as (fk & Ek).
  destruct (bp_target nl s v l fk I Ek) as [(locs & [rr|] & Enth)|(pos & Enth)]; eauto. exfalso.
  destruct (target_label_any _ _ _ _ l fk locs rr (i_frames I) Ek Enth) as (t0 & Fl & _).
  unfold ctl_ok in Hk. rewrite Hu in Hk. unfold label_type in Hk. rewrite Ek, Fl in Hk. discriminate.
Qed.
Lemma return_frame nl cx v : v_unreach v = None -> ctl_ok nl cx v (OBasic BReturn) = true ->
  match cx_return cx, last (map (fun f => Some (vf_label f)) (v_ctrls v)) None with
  | None, Some None | Some _, Some (Some _) => True | _, _ => False end.
Proof.
  intros Hu Hk. unfold ctl_ok in Hk. rewrite Hu in Hk.
  destruct (cx_return cx), (last (map (fun f => Some (vf_label f)) (v_ctrls v)) None) as [[?|]|]; try discriminate; exact I.
Qed.

(** ** the validation state alone: a terminated state only arises right after br / unreachable / return *)
Definition vinv (v : vstate) : Prop :=
  v_unreach v = None \/ (v_unreach v = Some (length (v_ctrls v) - 1)%nat /\ v_ctrls v <> []).
Definition is_term (b : binstr) : bool := match b with BBr _ | BUnreachable | BReturn => true | _ => false end.

Lemma pop_ctrl_un v x : vinv v -> v_pop_ctrl v = Some x -> v_unreach (snd x) = None.
Proof.
  intros Hi H. unfold v_pop_ctrl in H. destruct (v_ctrls v) as [|f rest] eqn:Ec; [discriminate|].
  destruct (v_popn (bt_arity (vf_end f)) v) as [w|] eqn:Ep; [|discriminate].
  destruct (v_popn_frame _ _ _ Ep) as [Eu _].
  destruct (v_opds w =? vf_height f)%nat; [|discriminate]. inversion H; subst x; clear H. cbn [snd v_unreach].
  rewrite Eu. destruct Hi as [->|[-> _]]; [reflexivity|]. rewrite Ec. cbn [length].
  replace (S (length rest) - 1)%nat with (length rest) by lia. rewrite Nat.eqb_refl. reflexivity.
Qed.
Lemma mark_vinv w w' : v_unreach w = None -> v_mark_unreachable w = Some w' -> vinv w'.
Proof.
  intros Hu H. unfold v_mark_unreachable in H. destruct (v_ctrls w) as [|f rest]; [discriminate|]. rewrite Hu in H.
  inversion H; subst. right. cbn. split; [f_equal; lia|discriminate].
Qed.

Lemma vinv_step nl cx v op v1 :
  ctl_ok nl cx v op = true -> vstep cx v op = Some v1 -> vinv v ->
  vinv v1 /\ (v_unreach v1 <> None -> exists b, op = OBasic b /\ is_term b = true).
Proof.
  intros Hk Hv Hi.
  assert (Done : v_unreach v1 = None -> vinv v1 /\ (v_unreach v1 <> None -> exists b, op = OBasic b /\ is_term b = true)).
  { intros E. split; [left; exact E|intros X; contradiction]. }
  pose proof Hv as Hv0. destruct op as [| |bt|bt|bt|b]; cbn [vstep] in Hv.
  - destruct (v_pop_ctrl v) as [[[res isif] v2]|] eqn:Ep; [|discriminate]. inversion Hv; subst. apply Done.
    rewrite (proj1 (v_pushn_frame _ _)). apply (pop_ctrl_un v _ Hi Ep).
  - destruct (v_pop_ctrl v) as [[[res [|]] v2]|] eqn:Ep; try discriminate. inversion Hv; subst. apply Done. cbn.
    apply (pop_ctrl_un v _ Hi Ep).
  - unfold ctl_ok in Hk. destruct (v_unreach v) eqn:Hu; [discriminate|]. inversion Hv; subst. apply Done. exact Hu.
  - unfold ctl_ok in Hk. destruct bt; [discriminate|]. destruct (v_unreach v) eqn:Hu; [discriminate|]. inversion Hv; subst. apply Done. exact Hu.
  - unfold ctl_ok in Hk. destruct (v_unreach v) eqn:Hu; [discriminate|].
    destruct (v_pop v) as [w|] eqn:Ep; [|discriminate]. inversion Hv; subst. apply Done. cbn. destruct (v_pop_frame _ _ Ep) as [A _]. congruence.
  - assert (Hu : v_unreach v = None).
    { unfold ctl_ok in Hk. destruct (v_unreach v); [|reflexivity]. destruct b; discriminate. }
    assert (Term : forall w, v_unreach w = None -> v_mark_unreachable w = Some v1 -> is_term b = true ->
                     vinv v1 /\ (v_unreach v1 <> None -> exists b0, OBasic b = OBasic b0 /\ is_term b0 = true)).
    { intros w Hw Hm Ht. split; [eapply mark_vinv; eauto|]. intros _. exists b. auto. }
    assert (Hst : straight_ok b = true -> vinv v1 /\ (v_unreach v1 <> None -> exists b0, OBasic b = OBasic b0 /\ is_term b0 = true)).
    { intros Hs. apply Done. exact (straight_vstep cx v b v1 (straight_ok_straight b Hs) Hu Hv0). }
    clear Hv0.
    destruct b; try (apply Hst; unfold ctl_ok in Hk; rewrite Hu in Hk; apply andb_true_iff in Hk; tauto); clear Hst.
    + cbn [vstep] in Hv. eapply Term; eauto.
    + cbn [vstep] in Hv. match type of Hv with context [label_type v ?x] => destruct (label_type v x) as [lt|]; [|discriminate] end.
      destruct (v_popn (bt_arity lt) v) as [w|] eqn:Ep; [|discriminate]. destruct (v_popn_frame _ _ _ Ep) as [A _].
      eapply (Term w); eauto. congruence.
    + cbn [vstep] in Hv. match type of Hv with context [label_type v ?x] => destruct (label_type v x) as [lt|]; [|discriminate] end.
      destruct (v_pop v) as [w|] eqn:Ep; [|discriminate]. destruct (v_popn (bt_arity lt) w) as [w2|] eqn:Ep2; [|discriminate].
      inversion Hv; subst. apply Done. rewrite (proj1 (v_pushn_frame _ _)). destruct (v_popn_frame _ _ _ Ep2) as [A _]. destruct (v_pop_frame _ _ Ep) as [B _]. congruence.
    + cbn [vstep] in Hv. destruct (last (map (fun f => Some (vf_label f)) (v_ctrls v)) None) as [lt|].
      * destruct (v_popn (bt_arity lt) v) as [w|] eqn:Ep; [|discriminate]. destruct (v_popn_frame _ _ _ Ep) as [A _].
        eapply (Term w); eauto. congruence.
      * inversion Hv; subst. apply Done. exact Hu.
Qed.

Lemma term_last_ops nl cx : forall ops v s v' s',
  compile_ops cx ops v s = Some (v', s') -> lvl nl cx ops v = true -> vinv v -> ops <> [] -> v_unreach v' <> None ->
  exists pre b, ops = pre ++ [OBasic b] /\ is_term b = true.
Proof.
  induction ops as [|op r IH]; intros v s v' s' Hc Hl Hi Hne Hu; [contradiction|].
  destruct (compile_cons _ _ _ _ _ _ _ Hc) as (v1 & s1 & Ev & Eh & Hc'). destruct (lvl_cons _ _ _ _ _ _ Hl Ev) as [Hk Hl'].
  destruct (vinv_step nl cx v op v1 Hk Ev Hi) as [Hi1 Ht].
  destruct r as [|op2 r'].
  - cbn in Hc'. inversion Hc'; subst. destruct (Ht Hu) as (b & -> & Hb). exists [], b. auto.
  - destruct (IH v1 s1 v' s' Hc' Hl' Hi1 ltac:(discriminate) Hu) as (pre & b & E & Hb). exists (op :: pre), b. rewrite E. auto.
Qed.

Lemma flatten_instr_last i : (exists b, i = Basic b) \/ exists front, flatten_instr i = front ++ [OEnd].
Proof.
  destruct i as [b|bt body|bt body|bt thn els].
  - left. eauto.
  - right. cbn. exists (OBlock bt :: flat_map flatten_instr body). reflexivity.
  - right. cbn. exists (OLoop bt :: flat_map flatten_instr body). reflexivity.
  - right. cbn. destruct els as [|e els].
    + exists (OIf bt :: flat_map flatten_instr thn). rewrite app_comm_cons. reflexivity.
    + exists (OIf bt :: flat_map flatten_instr thn ++ OElse :: flat_map flatten_instr (e :: els)).
      cbn [app]. f_equal. rewrite <- app_assoc. cbn [app]. reflexivity.
Qed.

Lemma term_last nl cx is v s v' s' :
  compile_ops cx (flatten is) v s = Some (v', s') -> lvl nl cx (flatten is) v = true -> v_unreach v = None ->
  v_unreach v' <> None -> exists pre b, is = pre ++ [Basic b] /\ is_term b = true.
Proof.
  intros Hc Hl Hu Hu'.
  destruct is as [|i0 r0] eqn:Eis; [cbn in Hc; inversion Hc; subst; contradiction|]. rewrite <- Eis in *.
  assert (Hne : is <> []) by (rewrite Eis; discriminate).
  destruct (exists_last Hne) as (pre & x & Ex).
  assert (Hfn : flatten is <> []).
  { rewrite Ex, flatten_app. destruct x; cbn; intros X; apply app_eq_nil in X; destruct X; discriminate. }
  destruct (term_last_ops nl cx (flatten is) v s v' s' Hc Hl (or_introl Hu) Hfn Hu') as (po & b & E & Hb).
  exists pre, b. split; [|exact Hb]. rewrite Ex. f_equal. f_equal.
  rewrite Ex, flatten_app in E. cbn [flatten flat_map] in E. rewrite app_nil_r in E.
  destruct (flatten_instr_last x) as [(b' & ->)|(front & Ef)].
  - cbn in E. apply app_inj_tail in E. destruct E as [_ E]. inversion E. reflexivity.
  - rewrite Ef, app_assoc in E. apply app_inj_tail in E. destruct E as [_ E]. discriminate.
Qed.

Definition ready (s : cstate) (is : list instr) : Prop := c_last s = None \/ ctl_first is.

Lemma bp_sub_head_val l res b0 b1 : bp_sub (JUnknown l res :: b0) b1 ->
  exists add b1', b1 = JUnknown (l ++ add) res :: b1' /\ bp_sub b0 b1'.
Proof.
  intros H. inversion H as [|? j1 ? b1' [(locs & add & r0 & E1 & E2)|(pos & E1 & E2)] Ht]; subst; [|discriminate E1].
  inversion E1; subst. exists add, b1'. auto.
Qed.

Lemma bp_sub_head_k pos bp0 bp1 : bp_sub (JKnown pos :: bp0) bp1 -> exists bp1', bp1 = JKnown pos :: bp1' /\ bp_sub bp0 bp1'.
Proof.
  intros H. inversion H as [|? j1 ? b1' [(l0 & add & r0 & E1 & E2)|(p0 & E1 & E2)] Ht]; subst; [discriminate E1|].
  inversion E1; subst. exists b1'. auto.
Qed.

Lemma seg_facts nl cx bs s v v1 s1 :
  bs <> [] -> forallb straight_ok bs = true -> compile_ops cx (map OBasic bs) v s = Some (v1, s1) ->
  lvl nl cx (map OBasic bs) v = true -> inv nl s v -> v_unreach v = None -> c_last s = None ->
  inv nl s1 v1 /\ v_unreach v1 = None /\ c_bp s1 = c_bp s /\ mono s s1 /\ exists t, c_out s1 = c_out s ++ t.
Proof.
  intros Hne Hok Hc1 Hl1 I Hu Hlast.
  destruct (seg_pure nl cx bs s v v1 s1 Hok Hc1 Hl1 Hu (i_cwf I)) as (Ebp & W1 & Ectrl & Hu1 & Hlen).
  destruct (compile_grows cx bs s v v1 s1 Hok Hc1 Hu (safe_last_none s bs Hlast)) as [(t & Eo) Mo].
  assert (X1 : ext s s1) by (eapply ext_append; eauto).
  splits; auto; [|exists t; exact Eo].
  constructor; auto.
  - eapply bpwf_same_locs; [apply (i_bp I)|rewrite Ebp; reflexivity|apply ext_off; exact X1].
  - rewrite Ectrl, Ebp. eapply frames_mono; [apply Mo|apply (i_frames I)].
  - left. exact Hu1.
Qed.

Lemma pure_seq nl cx is : syn is = true -> forall s v v' s',
  compile_ops cx (flatten is) v s = Some (v', s') -> lvl nl cx (flatten is) v = true ->
  inv nl s v -> v_unreach v = None -> ready s is -> pres nl s s' v'.
Proof.
  induction is as [is IH] using (induction_ltof1 _ lsize). unfold ltof in IH.
  intros Hs s v v' s' Hc Hl I Hu Hr.
  destruct is as [|i rest]; [cbn in Hc; inversion Hc; subst; apply pres_refl; exact I|].
  destruct (syn_cons _ _ Hs) as [Hsi Hsr].
  destruct i as [b|bt body|bt body|bt thn els].
  -
    destruct (straight_ok b) eqn:Eb.
    + destruct Hr as [Hlast|Hcf]; [|cbn in Hcf; congruence].
      destruct (span (Basic b :: rest)) as [bs tl] eqn:Esp. destruct (span_spec _ _ _ Esp) as (Eis & Hok & Hcf).
      assert (Hne : bs <> []).
      { cbn in Esp. rewrite Eb in Esp. destruct (span rest). inversion Esp. discriminate. }
      rewrite Eis in Hc, Hl, IH, Hs. rewrite flatten_app, flatten_basics in Hc, Hl.
      rewrite syn_app in Hs. apply andb_true_iff in Hs. destruct Hs as [_ Hst].
      destruct (compile_app_inv _ _ _ _ _ _ _ Hc) as (v1 & s1 & Hc1 & Hc2).
      rewrite (lvl_app nl cx _ _ _ _ _ _ Hc1) in Hl. apply andb_true_iff in Hl. destruct Hl as [Hl1 Hl2].
      destruct (seg_facts nl cx bs s v v1 s1 Hne Hok Hc1 Hl1 I Hu Hlast) as (I1 & Hu1 & Ebp & Mo & t & Eo).
      assert (P1 : pres nl s s1 v1).
      { constructor; auto; [eapply ext_append; eauto|]. rewrite Ebp. eapply bp_sub_refl. apply (i_frames I). }
      eapply pres_trans; [exact P1|]. rewrite lsize_app, lsize_basics in IH.
      eapply (IH tl); eauto. { destruct bs; [contradiction|cbn; lia]. } right. exact Hcf.
    + change (flatten (Basic b :: rest)) with (OBasic b :: flatten rest) in Hc, Hl.
      destruct (compile_cons _ _ _ _ _ _ _ Hc) as (v1 & s1 & Ev & Eh & Hc').
      rewrite (reach_of_none v Hu) in Eh. destruct (lvl_cons _ _ _ _ _ _ Hl Ev) as [Hk Hl'].
      destruct b; try (unfold ctl_ok in Hk; rewrite Hu in Hk; rewrite Eb in Hk; discriminate).
      *
        destruct (op_unreachable nl cx s v v1 s1 I Hu Ev Eh) as (O1 & O2 & O3 & O4 & O5 & O6 & I1 & Hu1 & X1).
        destruct (term_ends nl cx rest v1 s1 v' s' Hu1 Hl' Hc') as [-> ->].
        constructor; auto. apply mono_eq; auto. rewrite O2. eapply bp_sub_refl. apply (i_frames I).
      *
        destruct (br_frame nl cx s v l v1 I Ev) as (j & Enth).
        destruct (op_br nl cx s v v1 s1 l j I Hu Enth Ev Eh) as (cp & _ & O1 & O2 & _ & O3 & O4 & O5 & O6 & I1 & Hu1 & X1 & Hbs).
        destruct (term_ends nl cx rest v1 s1 v' s' Hu1 Hl' Hc') as [-> ->].
        constructor; auto. apply mono_eq; auto.
      *
        destruct (br_if_frame nl cx s v l v1 I Hu Hk Ev) as (j & Enth & Hnr).
        destruct (op_br_if nl cx s v v1 s1 l j I Hu Enth Hnr Ev Eh) as (p & st & Es & Pp & O1 & O2 & _ & O3 & O4 & O5 & O6 & I1 & Hu1 & X1 & Hbs).
        assert (P1 : pres nl s s1 v1) by (constructor; auto; apply mono_eq; auto).
        eapply pres_trans; [exact P1|]. eapply (IH rest); eauto. left. exact O6.
      *
        pose proof (return_frame nl cx v Hu Hk) as Hok.
        destruct (op_return nl cx s v v1 s1 I Hu Hok Ev Eh) as (cp & _ & O1 & O2 & O3 & O4 & O5 & O6 & I1 & Hu1 & X1).
        destruct (term_ends nl cx rest v1 s1 v' s' Hu1 Hl' Hc') as [-> ->].
        constructor; auto. apply mono_eq; auto. rewrite O2. eapply bp_sub_refl. apply (i_frames I).
  -
    rewrite syn_block in Hsi. rewrite flatten_block in Hc, Hl.
    destruct (open_split nl cx _ _ _ _ _ _ Hc Hl) as (va & sa & Ev & Eh & Hk & Hc' & Hl').
    destruct (close_split nl cx _ _ _ _ _ _ _ Hc' Hl') as (vb & sb & vc & sc & Hcb & Hlb & Evc & Ehc & _ & Hcr & Hlr).
    rewrite (reach_of_none v Hu) in Eh. unfold ctl_ok in Hk. rewrite Hu in Hk. apply Nat.eqb_eq in Hk.
    cbn [lsize] in IH. rewrite isize_block in IH.
    destruct (op_block nl cx s v va sa bt I Hu Hk Ev Eh) as (res & Hres & A1 & A2 & A3 & Ma & A7 & Ia & Hua).
    assert (Pb : pres nl sa sb vb) by (eapply (IH body); eauto; [lia|left; exact A7]).
    pose proof (p_bp Pb) as Hb. rewrite A2 in Hb. destruct (bp_sub_head_val _ _ _ _ Hb) as (add & b'' & Ebp & Hb').
    destruct (op_end nl cx sb vb vc sc _ res b'' (p_inv Pb) Ebp Evc Ehc)
      as (tc & E2 & E3 & E5 & E6 & E7 & X3 & Ecur & Rs & Hnth & Ic & Huc & Hcase).
    assert (Pr : pres nl sc s' v') by (eapply (IH rest); eauto; [lia|apply Ic; eapply bres_nolocal; eauto|left; exact E7]).
    apply (pres_frame nl s sa sb sc s' v'); auto; try apply Pb; [|apply mono_eq; auto|rewrite E2; exact Hb'].
    eapply (ext_same_locs s sa []); [rewrite app_nil_r; exact A1|rewrite A2; reflexivity].
  -
    rewrite syn_loop in Hsi. rewrite flatten_loop in Hc, Hl.
    destruct (open_split nl cx _ _ _ _ _ _ Hc Hl) as (va & sa & Ev & Eh & Hk & Hc' & Hl').
    destruct (close_split nl cx _ _ _ _ _ _ _ Hc' Hl') as (vb & sb & vc & sc & Hcb & Hlb & Evc & Ehc & _ & Hcr & Hlr).
    rewrite (reach_of_none v Hu) in Eh.
    destruct bt; [discriminate|]. unfold ctl_ok in Hk. rewrite Hu in Hk. apply Nat.eqb_eq in Hk.
    destruct (op_loop nl cx s v va sa I Hu Hk Ev Eh) as (A1 & A2 & (A3 & A4 & A5 & A6) & A7 & Ia & Hua).
    cbn [lsize] in IH. rewrite isize_loop in IH.
    assert (Pb : pres nl sa sb vb) by (eapply (IH body); eauto; [lia|left; exact A7]).
    pose proof (p_bp Pb) as Hb. rewrite A2 in Hb. destruct (bp_sub_head_k _ _ _ Hb) as (b'' & Ebp & Hb').
    destruct (op_end_loop nl cx sb vb vc sc _ b'' (p_inv Pb) Ebp Evc Ehc) as (E2 & E3 & E4 & E5 & E6 & E7 & E8 & X3 & Ic & Huc).
    assert (Pr : pres nl sc s' v') by (eapply (IH rest); eauto; [lia|left; exact E7]).
    apply (pres_frame nl s sa sb sc s' v'); auto; try apply Pb; try (apply mono_eq; auto); [|rewrite E2; exact Hb'].
    eapply (ext_same_locs s sa []); [rewrite app_nil_r; exact A1|rewrite A2; reflexivity].
  -
    rewrite syn_if in Hsi. cbn [lsize] in IH. rewrite isize_if in IH.
    rewrite flatten_if in Hc, Hl.
    destruct (open_split nl cx _ _ _ _ _ _ Hc Hl) as (va & sa & Ev & Eh & Hk & Hc' & Hl').
    rewrite (reach_of_none v Hu) in Eh. unfold ctl_ok in Hk. rewrite Hu in Hk. apply Nat.eqb_eq in Hk.
    destruct (op_if nl cx s v va sa bt I Hu Hk Ev Eh) as (p & res & Es & Pp & Hres & A1 & A2 & A3 & Ma & A6 & Ia & Hua & Xa).
    destruct els as [|e els].
    + destruct bt; [discriminate|]. apply andb_true_iff in Hsi. destruct Hsi as [Hst Hse].
      destruct (close_split nl cx _ _ _ _ _ _ _ Hc' Hl') as (vb & sb & vc & sc & Hcb & Hlb & Evc & Ehc & _ & Hcr & Hlr).
      cbn [lsize] in IH.
      assert (Pb : pres nl sa sb vb) by (eapply (IH thn); eauto; [lia|left; exact A6]).
      pose proof (p_bp Pb) as Hb. rewrite A2 in Hb. destruct (bp_sub_head_val _ _ _ _ Hb) as (add & b'' & Ebp & Hb').
      destruct (op_end nl cx sb vb vc sc _ res b'' (p_inv Pb) Ebp Evc Ehc)
        as (tc & E2 & E3 & E5 & E6 & E7 & X3 & Ecur & Rs & Hnth & Ic & Huc & Hcase).
      assert (Pr : pres nl sc s' v') by (eapply (IH rest); eauto; [lia|apply Ic; eapply bres_nolocal; eauto|left; exact E7]).
      apply (pres_frame nl s sa sb sc s' v'); auto; try apply Pb; [apply mono_eq; auto|rewrite E2; exact Hb'].
    + assert (Hsi' : syn thn = true /\ syn (e :: els) = true) by (destruct bt; apply andb_true_iff in Hsi; exact Hsi).
      destruct Hsi' as [Hst Hse].
      destruct (close_split nl cx _ _ _ _ _ _ _ Hc' Hl') as (vb & sb & vc & sc & Hcb & Hlb & Evc & Ehc & Hke & Hcr & Hlr).
      destruct (close_split nl cx _ _ _ _ _ _ _ Hcr Hlr) as (vd & sd & ve & se & Hcd & Hld & Eve & Ehe & _ & Hcr' & Hlr').
      assert (Pb : pres nl sa sb vb) by (eapply (IH thn); eauto; [lia|left; exact A6]).
      pose proof (p_bp Pb) as Hb. rewrite A2 in Hb. destruct (bp_sub_head_val _ _ _ _ Hb) as (add & b'' & Ebp & Hb').
      assert (Hub : res <> None -> v_unreach vb = None).
      { destruct res as [r0|]; [intros _|intros X; contradiction]. eapply (val_top_reachable nl cx sb vb); eauto. apply Pb. }
      destruct (op_else nl cx sb vb vc sc _ res b'' (p_inv Pb) Ebp Hub Evc Ehc)
        as (first & more & tc & El & E2 & Hnth & E5 & E6n & E6c & E8 & Ecur & X3 & Rs & Ic & Huc & Hcase).
      assert (Pd : pres nl sc sd vd) by (eapply (IH (e :: els)); eauto; [lia|left; exact E8]).
      pose proof (p_bp Pd) as Hd0. rewrite E2 in Hd0. destruct (bp_sub_head_val _ _ _ _ Hd0) as (add2 & b3 & Ebp2 & Hb2).
      destruct (op_end nl cx sd vd ve se _ res b3 (p_inv Pd) Ebp2 Eve Ehe)
        as (tc2 & G2 & G3 & G5 & G6 & G7 & X5 & Gcur & Rs' & Gnth & Ie & Hue & Hcase2).
      assert (Pr : pres nl se s' v') by (eapply (IH rest); eauto; [lia|apply Ie; eapply bres_nolocal; eauto|left; exact G7]).
      apply (pres_frame nl s sa sd se s' v'); auto; [| |apply mono_eq; auto|rewrite G2; eapply bp_sub_trans; eauto].
      * eapply ext_trans; [apply (p_ext Pb)|]. eapply ext_trans; [exact X3|apply (p_ext Pd)].
      * eapply mono_trans; [apply (p_mono Pb)|]. eapply mono_trans; [apply (mono_eq sb sc); auto|apply (p_mono Pd)].
Qed.
