(** * Wasm/MeterProofs — syntactic facts about the metering transformation ([Wasm/Meter.v]): unfolding and
    inversion of the structured transformer, and that every [memory.grow] of its output is announced. *)
From Coq Require Import ZArith List Bool.
From CB Require Import Wasm.Syntax Wasm.CostCtx Wasm.Meter Wasm.SemTrace.
Import ListNotations.
Local Open Scope N_scope.

Section InstrInd.
Variable P : instr -> Prop.
Variable Q : list instr -> Prop.
Hypothesis HB : forall b, P (Basic b).
Hypothesis HBl : forall bt body, Q body -> P (Block bt body).
Hypothesis HL : forall bt body, Q body -> P (Loop bt body).
Hypothesis HI : forall bt t e, Q t -> Q e -> P (If bt t e).
Hypothesis Hnil : Q [].
Hypothesis Hcons : forall i r, P i -> Q r -> Q (i :: r).
Fixpoint instr_ind2 (i : instr) : P i :=
  let go := fix go (l : list instr) : Q l :=
    match l with [] => Hnil | x :: r => Hcons x r (instr_ind2 x) (go r) end in
  match i with
  | Basic b => HB b
  | Block bt body => HBl bt body (go body)
  | Loop bt body => HL bt body (go body)
  | If bt t e => HI bt t e (go t) (go e)
  end.
Fixpoint instrs_ind2 (l : list instr) : Q l :=
  match l with [] => Hnil | x :: r => Hcons x r (instr_ind2 x) (instrs_ind2 r) end.
End InstrInd.

(** [obind_inv H]: [H : obind o k = Some _] (nested, with [let '(_,_)] and [if]): name the intermediate
    results, discard the failing branches *)
Ltac obind_inv H :=
  repeat match type of H with
         | obind ?o _ = Some _ => let E := fresh "E" in destruct o eqn:E; [cbn [obind] in H|discriminate H]
         | (let '(_, _) := ?p in _) = Some _ => destruct p
         | (if ?c then _ else _) = Some _ => let E := fresh "E" in destruct c eqn:E; [|discriminate H]
         end.

Section WithConfig.
Variable cfg : cost_cfg.
Variable cx : cost_ctx.
Notation mi := (mi cfg cx).
Notation mseq := (mseq cfg cx).

Lemma mseq_nil L : mseq L [] = Some (0, []).
Proof. reflexivity. Qed.
Lemma mseq_cons L j r :
  mseq L (j :: r) = match mseq L r, mi L j with
                    | Some (hr, r'), Some x => mcombine x hr r'
                    | _, _ => None
                    end.
Proof. reflexivity. Qed.

Lemma mi_eq L i :
  mi L i =
  match i with
  | Basic b =>
      obind (c_cost cfg (OBasic b) L cx) (fun c =>
      match kind_of b with
      | KPending => Some (c, [ABasic (OSrc c 0) b], false)
      | KMemGrow => Some (c, [ABasic OInj (BCall fn_idx_memory_alloc); ABasic (OSrc c 0) b], false)
      | KFlushKeep => Some (c, [ABasic (OSrc c 0) b], true)
      | KCall idx => Some (c, [ABasic (OSrc c 0) (BCall (idx + num_added_functions)%nat)], true)
      | KBrIf idx =>
          obind (lookup_label L idx) (fun a =>
          obind (brif_rewrite cfg c a idx) (fun rw => Some (c, rw, true)))
      | KTick => None
      end)
  | Block bt body =>
      obind (c_cost cfg (OBlock bt) L cx) (fun c =>
      obind (mseq (bt :: L) body) (fun '(hb, body') =>
      Some (c + hb, [ABlock (OSrc c 0) bt body'], true)))
  | Loop bt body =>
      obind (c_cost cfg (OLoop bt) L cx) (fun c =>
      obind (mseq (None :: L) body) (fun '(hb, body') =>
      if seg_ok hb then Some (c, [ALoop (OSrc c 0) bt (tick_opt hb ++ body')], true) else None))
  | If bt thn els =>
      obind (c_cost cfg (OIf bt) L cx) (fun c =>
      obind (mseq (bt :: L) thn) (fun '(ht, thn') =>
      obind (mseq (bt :: L) els) (fun '(he, els') =>
      if seg_ok ht && seg_ok he
      then Some (c, [AIf (OSrc c 0) bt (tick_opt ht ++ thn') (tick_opt he ++ els')], true)
      else None)))
  end.
Proof.
  assert (E : forall is L',
    (fix mseq_in (L' : list blocktype) (is : list instr) {struct is} : option (N * list ainstr) :=
       match is with
       | [] => Some (0, [])
       | j :: r => match mseq_in L' r, mi L' j with
                   | Some (hr, r'), Some x => mcombine x hr r'
                   | _, _ => None
                   end
       end) L' is = mseq L' is).
  { induction is as [|j r IH]; intro L'; [reflexivity|].
    change (mseq L' (j :: r)) with (match mseq L' r, mi L' j with
                                    | Some (hr, r'), Some x => mcombine x hr r'
                                    | _, _ => None
                                    end).
    cbv beta iota fix. rewrite IH. reflexivity. }
  destruct i; cbn [Meter.mi]; try reflexivity; rewrite ?E; reflexivity.
Qed.

Lemma mseq_cons_inv L j r h is' :
  mseq L (j :: r) = Some (h, is') ->
  exists hr r' hj pre fl, mseq L r = Some (hr, r') /\ mi L j = Some (hj, pre, fl) /\
    if fl then seg_ok hr = true /\ h = hj /\ is' = pre ++ tick_opt hr ++ r'
    else h = hj + hr /\ is' = pre ++ r'.
Proof.
  rewrite mseq_cons. destruct (mseq L r) as [[hr r']|]; [|discriminate].
  destruct (mi L j) as [[[hj pre] fl]|]; [|discriminate]. intro H. exists hr, r', hj, pre, fl.
  split; [reflexivity|]. split; [reflexivity|]. cbn [mcombine] in H.
  destruct fl; [destruct (seg_ok hr); [|discriminate]|]; inversion H; auto.
Qed.

Lemma brif_rewrite_inv c a idx rw :
  brif_rewrite cfg c a idx = Some rw ->
  let b := c_branch cfg a in
  fits_u32 b = true /\
  (a = 0 /\ rw = [AIf (OSrc c 0) None [ABasic OInj (BTick b); ABasic (OSrc b 0) (BBr (idx + 1)%nat)] []] \/
   a = 1 /\ rw = [AIf (OSrc c 0) (Some T_i32) [ABasic OInj (BTick b); ABasic OInj (BConst T_i32 1%Z)]
                                              [ABasic OInj (BConst T_i32 0%Z)];
                  ABasic (OSrc 0 b) (BBrIf idx)]).
Proof.
  unfold brif_rewrite. destruct (fits_u32 (c_branch cfg a)); [|discriminate]. cbn [negb].
  destruct (N.eqb_spec a 0) as [->|_]; [intro H; inversion H; auto|].
  destruct (N.eqb_spec a 1) as [->|_]; [intro H; inversion H; auto|discriminate].
Qed.

Inductive Announced : list instr -> Prop :=
| A_nil : Announced []
| A_grow r : Announced r -> Announced (Basic (BCall fn_idx_memory_alloc) :: Basic BMemoryGrow :: r)
| A_basic b r : b <> BMemoryGrow -> Announced r -> Announced (Basic b :: r)
| A_block bt body r : Announced body -> Announced r -> Announced (Block bt body :: r)
| A_loop bt body r : Announced body -> Announced r -> Announced (Loop bt body :: r)
| A_if bt t e r : Announced t -> Announced e -> Announced r -> Announced (If bt t e :: r).

Lemma announced_app a b : Announced a -> Announced b -> Announced (a ++ b).
Proof. induction 1; intros; cbn; try constructor; auto. Qed.

Lemma announced_tick h : Announced (erase_seq (tick_opt h)).
Proof. unfold tick_opt. destruct (0 <? h); cbn; repeat constructor; discriminate. Qed.

Lemma erase_seq_app a b : erase_seq (a ++ b) = erase_seq a ++ erase_seq b.
Proof. apply map_app. Qed.

Lemma announced_brif c a idx rw : brif_rewrite cfg c a idx = Some rw -> Announced (erase_seq rw).
Proof.
  intro H. destruct (brif_rewrite_inv _ _ _ _ H) as [_ [[_ ->]|[_ ->]]]; cbn; repeat constructor; discriminate.
Qed.

Lemma memgrow_announced_seq :
  forall is L h is', mseq L is = Some (h, is') -> Announced (erase_seq is').
Proof.
  apply (instrs_ind2
           (fun i => forall L h pre fl, mi L i = Some (h, pre, fl) -> Announced (erase_seq pre))
           (fun is => forall L h is', mseq L is = Some (h, is') -> Announced (erase_seq is'))).
  - intros b L h pre fl H. rewrite mi_eq in H. obind_inv H.
    destruct b; cbn [kind_of] in H;
      try (inversion H; subst; cbn; repeat constructor; discriminate).
    obind_inv H. inversion H; subst. eapply announced_brif; eassumption.
  - intros bt body IH L h pre fl H. rewrite mi_eq in H. obind_inv H. inversion H; subst.
    cbn. constructor; [eapply IH; eassumption|constructor].
  - intros bt body IH L h pre fl H. rewrite mi_eq in H. obind_inv H. inversion H; subst.
    cbn. constructor; [|constructor]. fold (erase_seq (tick_opt n0 ++ l)). rewrite erase_seq_app.
    apply announced_app; [apply announced_tick|eapply IH; eassumption].
  - intros bt t e IHt IHe L h pre fl H. rewrite mi_eq in H. obind_inv H. inversion H; subst.
    cbn. constructor; [| |constructor].
    + fold (erase_seq (tick_opt n0 ++ l)). rewrite erase_seq_app.
      apply announced_app; [apply announced_tick|eapply IHt; eassumption].
    + fold (erase_seq (tick_opt n1 ++ l0)). rewrite erase_seq_app.
      apply announced_app; [apply announced_tick|eapply IHe; eassumption].
  - intros L h is' H. inversion H; subst. constructor.
  - intros i r IHi IHr L h is' H.
    destruct (mseq_cons_inv _ _ _ _ _ H) as (hr & r' & hj & pre & fl & Er & Ei & Hc).
    destruct fl; [destruct Hc as (_ & _ & ->)|destruct Hc as (_ & ->)]; rewrite !erase_seq_app;
      repeat apply announced_app; eauto using announced_tick.
Qed.

Lemma memgrow_announced_body nl result body b :
  meter_body cfg cx nl result body = Some b -> Announced b.
Proof.
  unfold meter_body, ameter_body. destruct (mseq [result] body) as [[h body']|] eqn:E; [|discriminate].
  cbn [obind]. destruct (seg_ok _); [|discriminate]. intro H; inversion H; subst.
  rewrite erase_seq_app. apply announced_app; [|eapply memgrow_announced_seq; eassumption].
  destruct (0 <? _); cbn; repeat constructor; discriminate.
Qed.
End WithConfig.

Lemma omap_list_forall {A B} (f : A -> option B) (P : B -> Prop) l l' :
  omap_list f l = Some l' -> (forall x y, f x = Some y -> P y) -> Forall P l'.
Proof.
  revert l'. induction l as [|x r IH]; intros l' H HP; cbn in H.
  - inversion H; constructor.
  - destruct (f x) eqn:Ex; [|discriminate]. destruct (omap_list f r) eqn:Er; [|discriminate].
    inversion H; subst. constructor; eauto.
Qed.

Lemma omap_list_option_map {A B C} (f : A -> option B) (g : B -> C) l :
  omap_list (fun x => option_map g (f x)) l = option_map (map g) (omap_list f l).
Proof.
  induction l as [|x r IH]; [reflexivity|]. cbn [omap_list]. rewrite IH.
  destruct (f x); [destruct (omap_list f r)|]; reflexivity.
Qed.
Lemma omap_list_ext {A B} (f g : A -> option B) l : (forall x, f x = g x) -> omap_list f l = omap_list g l.
Proof. intro H. induction l as [|x r IH]; [reflexivity|]. cbn [omap_list]. rewrite H, IH. reflexivity. Qed.

Lemma meter_func_erase cfg m f : meter_func cfg m f = option_map erase_func (ameter_func cfg m f).
Proof.
  unfold meter_func, meter_body, ameter_func. destruct (nth_error (m_types m) (f_type f)); [|reflexivity].
  destruct (ameter_body _ _ _ _ _); reflexivity.
Qed.
Lemma inject_types_imports cfg m m' : inject cfg m = Some m' ->
  m_types m' = m_types m ++ [account_memory_type] /\ m_imports m' = length (m_types m) :: m_imports m.
Proof.
  unfold inject. destruct (omap_list (meter_func cfg m) (m_funcs m)); [|discriminate].
  intro H; inversion H. split; reflexivity.
Qed.

Lemma inject_funcs cfg m m' :
  inject cfg m = Some m' -> exists afs, ameter_funcs cfg m = Some afs /\ m_funcs m' = map erase_func afs.
Proof.
  unfold inject, ameter_funcs. rewrite (omap_list_ext _ _ _ (meter_func_erase cfg m)), omap_list_option_map.
  destruct (omap_list (ameter_func cfg m) (m_funcs m)) as [afs|]; [|discriminate].
  intro H; inversion H. exists afs. auto.
Qed.

Lemma memgrow_announced_module cfg m m' :
  inject cfg m = Some m' -> Forall (fun f => Announced (f_body f)) (m_funcs m').
Proof.
  unfold inject. destruct (omap_list (meter_func cfg m) (m_funcs m)) as [fs|] eqn:E; [|discriminate].
  intro H; inversion H; subst; cbn. eapply omap_list_forall; [eassumption|].
  intros f f' Hf. unfold meter_func in Hf. destruct (nth_error _ _); [|discriminate].
  destruct (meter_body _ _ _ _ _) eqn:Eb; [|discriminate]. inversion Hf; subst; cbn.
  eapply memgrow_announced_body; eassumption.
Qed.

Definition sum_charges (cs : list N) : N := fold_right N.add 0 cs.
