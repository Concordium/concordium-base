(** Lemmas about [Wasm/Compile.v] for straight-line code: well-formedness of the
    register-allocation state ([cwf]: dynamic locations on the stack are outside the
    reusable pool, the pool is sorted and within range, constants are numbered by position),
    the effect of [handle_opcode] on basic instructions without control flow ([score]), what each
    helper of the compiler leaves unchanged (the lemmas ending in _frame, [same_out]), that compiling only
    extends the output, the constants and the location counter ([mono], [grows]), and what the
    validator part [vstep] does on straight-line instructions. *)
From Coq Require Import ZArith NArith List Lia Bool.
From CB Require Import Wasm.Syntax Wasm.Compile.
Import ListNotations.
Local Open Scope Z_scope.
Global Arguments i32_bytes : simpl never.
Global Arguments u32_bytes : simpl never.
Global Arguments u16_bytes : simpl never.

Ltac splits := repeat match goal with |- _ /\ _ => split end.

Lemma Forall2_nth_error {A B} (R : A -> B -> Prop) l1 l2 k a :
  Forall2 R l1 l2 -> nth_error l1 k = Some a -> exists b, nth_error l2 k = Some b /\ R a b.
Proof.
  intros H. revert k. induction H as [|x y l1 l2 Hxy H IH]; intros [|k] E; cbn in E; try discriminate.
  - inversion E; subst. exists y. split; [reflexivity|exact Hxy].
  - exact (IH k E).
Qed.

Lemma provider_eqb_eq a b : provider_eqb a b = true <-> a = b.
Proof.
  destruct a, b; cbn; split; intros H; try discriminate; try (apply Z.eqb_eq in H; subst; reflexivity);
    try (inversion H; apply Z.eqb_refl).
Qed.
Lemma existsb_provider p st : existsb (provider_eqb p) st = true <-> In p st.
Proof.
  rewrite existsb_exists. split.
  - intros (x & Hx & E). apply provider_eqb_eq in E. subst. exact Hx.
  - intros H. exists p. split; auto. apply provider_eqb_eq. reflexivity.
Qed.

Fixpoint sorted_lt (l : list Z) : Prop :=
  match l with [] => True | x :: r => Forall (Z.lt x) r /\ sorted_lt r end.

Lemma insert_sorted_in x l y : In y (insert_sorted x l) <-> y = x \/ In y l.
Proof.
  induction l as [|a r IH]; cbn [insert_sorted].
  - cbn. intuition.
  - destruct (Z.ltb_spec x a); [cbn; intuition|]. destruct (Z.eqb_spec x a).
    + subst. cbn. intuition.
    + cbn [In]. rewrite IH. intuition.
Qed.
Lemma insert_sorted_sorted x l : sorted_lt l -> sorted_lt (insert_sorted x l).
Proof.
  induction l as [|a r IH]; cbn [insert_sorted sorted_lt]; intros H.
  - split; [constructor|exact I].
  - destruct H as [Ha Hr]. destruct (Z.ltb_spec x a).
    + cbn [sorted_lt]. split; [|split; auto]. constructor; auto.
      eapply Forall_impl; [|exact Ha]. cbn. intros; lia.
    + destruct (Z.eqb_spec x a); [cbn [sorted_lt]; auto|]. cbn [sorted_lt]. split; [|apply IH; auto].
      apply Forall_forall. intros y Hy. apply insert_sorted_in in Hy. destruct Hy as [->|Hy]; [lia|].
      rewrite Forall_forall in Ha. apply Ha. exact Hy.
Qed.
Lemma sorted_head_notin x r : sorted_lt (x :: r) -> ~ In x r.
Proof. intros [H _] Hin. rewrite Forall_forall in H. specialize (H x Hin). lia. Qed.

(** ** well-formed allocation state; [nl] = number of locals (registers [0, nl)) *)
Definition pwf (nl : Z) (s : cstate) (p : provider) : Prop :=
  match p with
  | PDyn r => nl <= r < c_next s /\ ~ In r (c_reuse s)
  | PLocal i => 0 <= i < nl
  | PConst c => c < 0 /\ exists v, nth_error (c_consts s) (Z.to_nat (- (c + 1))) = Some (v, c)
  end.
Record cwf (nl : Z) (s : cstate) : Prop := {
  w_next : 0 <= nl <= c_next s;
  w_stack : Forall (pwf nl s) (c_stack s);
  w_reuse : Forall (fun r => nl <= r < c_next s) (c_reuse s);
  w_sorted : sorted_lt (c_reuse s);
  w_consts : forall k v idx, nth_error (c_consts s) k = Some (v, idx) -> idx = - Z.of_nat k - 1
}.

(** [same_alloc s s']: same stack / dynamic locations / constants (only output, back-patch
    stack or last_provide_loc differ) *)
Definition same_alloc (s s' : cstate) : Prop :=
  c_stack s' = c_stack s /\ c_next s' = c_next s /\ c_reuse s' = c_reuse s /\ c_consts s' = c_consts s.
Lemma cwf_same nl s s' : same_alloc s s' -> cwf nl s -> cwf nl s'.
Proof.
  intros (E1 & E2 & E3 & E4) [H1 H2 H3 H4 H5]. constructor; rewrite ?E1, ?E2, ?E3, ?E4; auto.
  eapply Forall_impl; [|exact H2]. intros p Hp. destruct p; cbn in *; rewrite ?E2, ?E3, ?E4; auto.
Qed.
Lemma same_alloc_refl s : same_alloc s s. Proof. repeat split. Qed.
Lemma same_alloc_emit s bs : same_alloc s (emit s bs). Proof. repeat split. Qed.
Lemma same_alloc_set_last s l : same_alloc s (set_last s l). Proof. repeat split. Qed.
Lemma same_alloc_set_out s o : same_alloc s (set_out s o). Proof. repeat split. Qed.
Lemma same_alloc_trans a b c : same_alloc a b -> same_alloc b c -> same_alloc a c.
Proof. intros (A1 & A2 & A3 & A4) (B1 & B2 & B3 & B4). repeat split; congruence. Qed.

Lemma pwf_ext nl s s' p :
  c_next s' = c_next s -> c_reuse s' = c_reuse s -> c_consts s' = c_consts s -> pwf nl s p -> pwf nl s' p.
Proof. intros E1 E2 E3. destruct p; cbn; rewrite ?E1, ?E2, ?E3; auto. Qed.
Lemma cwf_set_stack nl s st : cwf nl s -> Forall (pwf nl s) st -> cwf nl (set_stack s st).
Proof.
  intros [W1 W2 W3 W4 W5] H. constructor; cbn; auto.
Qed.

(** unchanged apart from the allocation part: output, back-patch stack, [c_last] *)
Definition same_out (s s' : cstate) : Prop := c_out s' = c_out s /\ c_bp s' = c_bp s /\ c_last s' = c_last s.

Lemma consume_spec nl s p s' :
  consume s = Some (p, s') -> cwf nl s ->
  c_stack s = p :: c_stack s' /\ same_out s s' /\ c_next s' = c_next s /\ c_consts s' = c_consts s
  /\ cwf nl s' /\ pwf nl s p.
Proof.
  unfold consume. destruct (c_stack s) as [|q st] eqn:Es; [discriminate|].
  intros H W. pose proof W as W0. destruct W as [W1 W2 W3 W4 W5]. rewrite Es in W2. inversion W2 as [|? ? Wq Wst]; subst.
  destruct (existsb (provider_eqb q) st) eqn:Ex; cbn [negb] in H; inversion H; subst; clear H.
  - cbn. splits; auto; try (unfold same_out; cbn; tauto). apply cwf_set_stack; auto.
  - assert (Hn : ~ In p st) by (intro Hin; apply existsb_provider in Hin; congruence).
    destruct p as [r|i|c]; cbn [dyn_reuse set_dyn set_stack c_stack c_out c_bp c_last c_next c_consts c_reuse].
    + cbn in Wq. splits; auto; try (unfold same_out; cbn; tauto). constructor; cbn; auto.
      * apply Forall_forall. intros q Hq. rewrite Forall_forall in Wst. specialize (Wst q Hq).
        destruct q as [r'|i'|c']; cbn in *; auto. destruct Wst as [B N]. split; auto.
        intro Hin. apply insert_sorted_in in Hin. destruct Hin as [->|]; [apply Hn; exact Hq|contradiction].
      * apply Forall_forall. intros y Hy. apply insert_sorted_in in Hy. destruct Hy as [->|Hy]; [tauto|].
        rewrite Forall_forall in W3. apply W3. exact Hy.
      * apply insert_sorted_sorted. auto.
    + splits; auto; try (unfold same_out; cbn; tauto). apply cwf_set_stack; auto.
    + splits; auto; try (unfold same_out; cbn; tauto). apply cwf_set_stack; auto.
Qed.

Lemma dyn_get_spec nl s r s' :
  dyn_get s = (r, s') -> cwf nl s ->
  nl <= r < c_next s' /\ ~ In r (c_reuse s') /\ ~ In (PDyn r) (c_stack s)
  /\ c_stack s' = c_stack s /\ same_out s s' /\ c_consts s' = c_consts s
  /\ c_next s <= c_next s' <= c_next s + 1
  /\ (forall y, In y (c_reuse s') -> In y (c_reuse s))
  /\ cwf nl s'.
Proof.
  unfold dyn_get. intros H [W1 W2 W3 W4 W5]. destruct (c_reuse s) as [|x rs] eqn:Er; inversion H; subst; clear H;
    cbn [set_dyn c_stack c_out c_bp c_last c_next c_consts c_reuse].
  - splits; auto; try lia; try (unfold same_out; cbn; tauto).
    + intro Hin. rewrite Forall_forall in W2. specialize (W2 _ Hin). cbn in W2. lia.
    + constructor; cbn; auto; try lia. eapply Forall_impl; [|exact W2]. intros p Hp.
      destruct p; cbn in *; rewrite ?Er in *; auto. destruct Hp. split; [lia|auto].
  - inversion W3 as [|? ? Wx Wrs]; subst. pose proof (sorted_head_notin _ _ W4) as Hnot. destruct W4 as [_ W4'].
    splits; auto; try lia; try (unfold same_out; cbn; tauto).
    all: try (intro Hin; rewrite Forall_forall in W2; specialize (W2 _ Hin); cbn in W2; rewrite Er in W2; apply (proj2 W2); left; reflexivity).
    all: try (intros y Hy; right; exact Hy).
    constructor; cbn; auto. eapply Forall_impl; [|exact W2]. intros p Hp.
    destruct p; cbn in *; rewrite ?Er in *; auto. destruct Hp as [B N]. split; auto. intro; apply N; right; auto.
Qed.

Lemma cwf_push_dyn nl s r :
  cwf nl s -> nl <= r < c_next s -> ~ In r (c_reuse s) -> cwf nl (set_stack s (PDyn r :: c_stack s)).
Proof.
  intros [W1 W2 W3 W4 W5] B N. constructor; cbn; auto;
    try (constructor; [cbn; auto|]; eapply Forall_impl; [|exact W2]; intros p Hp; destruct p; cbn in *; auto).
Qed.
Lemma cwf_push_local nl s i :
  cwf nl s -> 0 <= i < nl -> cwf nl (provide_existing s (PLocal i)).
Proof.
  intros [W1 W2 W3 W4 W5] B. constructor; cbn; auto;
    try (constructor; [cbn; auto|]; eapply Forall_impl; [|exact W2]; intros p Hp; destruct p; cbn in *; auto).
Qed.

Lemma remove_z_sub x : forall l y, In y (remove_z x l) -> In y l.
Proof. induction l as [|a r IH]; cbn; intros y H; auto. destruct (x =? a); [right; exact H|]. destruct H; [left; auto|right; auto]. Qed.
Lemma remove_z_sorted x : forall l, sorted_lt l -> sorted_lt (remove_z x l).
Proof.
  induction l as [|a r IH]; cbn [remove_z sorted_lt]; intros H; auto. destruct H as [H1 H2].
  destruct (x =? a); [exact H2|]. cbn [sorted_lt]. split; [|auto].
  apply Forall_forall. intros y Hy. rewrite Forall_forall in H1. apply H1. eapply remove_z_sub; eauto.
Qed.
Lemma remove_z_notin x : forall l, sorted_lt l -> ~ In x (remove_z x l).
Proof.
  induction l as [|a r IH]; cbn [remove_z sorted_lt]; intros H; [intros []|]. destruct H as [H1 H2].
  destruct (Z.eqb_spec x a) as [->|Hne].
  - intros Hin. rewrite Forall_forall in H1. specialize (H1 a Hin). lia.
  - intros [E|Hin]; [congruence|]. exact (IH H2 Hin).
Qed.

Lemma cwf_provide_dyn nl s d : cwf nl s -> nl <= d < c_next s -> cwf nl (provide_existing s (PDyn d)).
Proof.
  intros [W1 W2 W3 W4 W5] Hd. unfold provide_existing.
  constructor; cbn [set_dyn set_stack c_stack c_next c_reuse c_consts]; auto.
  - constructor.
    + cbn. split; [exact Hd|]. apply remove_z_notin. exact W4.
    + eapply Forall_impl; [|exact W2]. intros p Hp. destruct p as [r| |]; cbn in *; auto.
      destruct Hp as [Hr Hn]. split; [exact Hr|]. intros Hin. apply Hn. eapply remove_z_sub; eauto.
  - apply Forall_forall. intros y Hy. rewrite Forall_forall in W3. apply W3. eapply remove_z_sub; eauto.
  - apply remove_z_sorted. exact W4.
Qed.

Lemma push_constant_spec nl s c :
  cwf nl s ->
  exists idx, c_stack (push_constant s c) = PConst idx :: c_stack s
  /\ same_out s (push_constant s c) /\ c_next (push_constant s c) = c_next s
  /\ c_reuse (push_constant s c) = c_reuse s
  /\ (exists ext, c_consts (push_constant s c) = c_consts s ++ ext)
  /\ idx < 0 /\ nth_error (c_consts (push_constant s c)) (Z.to_nat (- (idx + 1))) = Some (c, idx)
  /\ cwf nl (push_constant s c).
Proof.
  intros [W1 W2 W3 W4 W5]. unfold push_constant.
  destruct (find (fun e => fst e =? c) (c_consts s)) as [[v idx]|] eqn:F.
  - apply find_some in F. destruct F as [Hin Hc]. cbn in Hc. apply Z.eqb_eq in Hc. subst v.
    apply In_nth_error in Hin. destruct Hin as [k Hk]. pose proof (W5 _ _ _ Hk) as Ei.
    exists idx. cbn. splits; auto; try lia; try (unfold same_out; cbn; tauto).
    + exists []. rewrite app_nil_r. reflexivity.
    + subst idx. replace (Z.to_nat (- (- Z.of_nat k - 1 + 1))) with k by lia. exact Hk.
    + constructor; cbn; auto. constructor; auto. cbn. split; [lia|]. exists c.
      subst idx. replace (Z.to_nat (- (- Z.of_nat k - 1 + 1))) with k by lia. exact Hk.
  - set (idx := - Z.of_nat (length (c_consts s)) - 1).
    assert (Hn : nth_error (c_consts s ++ [(c, idx)]) (Z.to_nat (- (idx + 1))) = Some (c, idx)).
    { unfold idx. replace (Z.to_nat (- (- Z.of_nat (length (c_consts s)) - 1 + 1))) with (length (c_consts s)) by lia.
      rewrite nth_error_app2 by lia. rewrite Nat.sub_diag. reflexivity. }
    assert (F1 : Forall (pwf nl (set_stack (set_consts s (c_consts s ++ [(c, idx)])) (PConst idx :: c_stack s)))
                        (PConst idx :: c_stack s)).
    { constructor; [cbn; split; [unfold idx; lia|exists c; exact Hn]|].
      eapply Forall_impl; [|exact W2]. intros p Hp. destruct p; cbn in *; auto.
      destruct Hp as [Hneg (v & Hv)]. split; auto. exists v. rewrite nth_error_app1; auto.
      apply nth_error_Some. congruence. }
    assert (F2 : forall k v i, nth_error (c_consts s ++ [(c, idx)]) k = Some (v, i) -> i = - Z.of_nat k - 1).
    { intros k v i Hk. destruct (Nat.lt_ge_cases k (length (c_consts s))).
      - rewrite nth_error_app1 in Hk by lia. eapply W5; eauto.
      - rewrite nth_error_app2 in Hk by lia. destruct (k - length (c_consts s))%nat eqn:E.
        + cbn in Hk. inversion Hk. unfold idx. lia.
        + cbn in Hk. destruct n; discriminate. }
    exists idx. cbn. splits; auto; try (unfold idx; lia); try (unfold same_out; cbn; tauto).
    + exists [(c, idx)]. reflexivity.
    + constructor; cbn; auto.
Qed.

Definition set_tee (lp : option Z) (s : cstate) (i : nat) (is_set : bool) : option cstate :=
  let idx := Z.of_nat i in
  let '(st', s1, reserve) := preserve_local idx (c_stack s) s None in
  let s2 := set_stack s1 st' in
  let s3 := match reserve with
            | Some rp => push_loc (emit (push_op s2 ICopy) (i32_bytes idx)) rp
            | None => s2
            end in
  let short := match lp, reserve with Some bl, None => Some bl | _, _ => None end in
  match short with
  | Some back_loc =>
      match consume (back_patch s3 back_loc idx) with
      | Some (_, s4) => Some (if is_set then s4 else provide_existing s4 (PLocal idx))
      | None => None
      end
  | None =>
      match push_consume (push_op s3 ICopy) with
      | Some (_, s4) =>
          let s5 := emit s4 (i32_bytes idx) in
          Some (if is_set then s5 else provide_existing s5 (PLocal idx))
      | None => None
      end
  end.

Definition const_i64 (t : valtype) (z : Z) : Z :=
  match t with
  | T_i32 => if z <? 2147483648 then z else z - 4294967296
  | T_i64 => if z <? 9223372036854775808 then z else z - 18446744073709551616
  end.

(** instructions of the shape  opcode, immediate bytes, k consumed operands, [provided result] *)
Definition emit_imm (s : cstate) (imm : list N) : cstate := match imm with [] => s | _ => emit s imm end.
Definition gi (s : cstate) (opc : N) (imm : list N) (k : nat) (prov : bool) : option cstate :=
  match push_consume_n k (emit_imm (push_op s opc) imm) with
  | Some s1 => Some (if prov then push_provide s1 else s1)
  | None => None
  end.
Definition gi_shape (b : binstr) : option (N * list N * nat * bool) :=
  match b with
  | BSelect => Some (ISelect, [], 3%nat, true)
  | BGlobalGet i => Some (IGlobalGet, u16_bytes (Z.of_nat i), 0%nat, true)
  | BGlobalSet i => Some (IGlobalSet, u16_bytes (Z.of_nat i), 1%nat, false)
  | BLoad t pk off => Some (load_opcode t pk, u32_bytes (Z.of_N off), 1%nat, true)
  | BStore t pk off => Some (store_opcode t pk, u32_bytes (Z.of_N off), 2%nat, false)
  | BMemorySize => Some (IMemorySize, [], 0%nat, true)
  | BMemoryGrow => Some (IMemoryGrow, [], 1%nat, true)
  | BUnop t o => Some (unop_opcode t o, [], 1%nat, true)
  | BBinop t o => Some (binop_opcode t o, [], 2%nat, true)
  | BEqz t => Some (eqz_opcode t, [], 1%nat, true)
  | BRelop t o => Some (relop_opcode t o, [], 2%nat, true)
  | BCvt o => Some (cvt_opcode o, [], 1%nat, true)
  | _ => None
  end.

(** [score lp s b]: what [handle_opcode] does for the basic instruction [b] in reachable code,
    [s] being the state with [last_provide_loc] already taken ([lp]) *)
Definition score (lp : option Z) (s : cstate) (b : binstr) : option cstate :=
  match b with
  | BNop => Some s
  | BDrop => match consume s with Some (_, s1) => Some s1 | None => None end
  | BLocalGet i => Some (provide_existing s (PLocal (Z.of_nat i)))
  | BLocalSet i => set_tee lp s i true
  | BLocalTee i => set_tee lp s i false
  | BConst t z => Some (push_constant s (const_i64 t z))
  | _ => match gi_shape b with
         | Some (opc, imm, k, prov) => gi s opc imm k prov
         | None => None
         end
  end.

Definition straight (b : binstr) : bool :=
  match b with
  | BNop | BDrop | BLocalGet _ | BLocalSet _ | BLocalTee _ | BConst _ _ => true
  | _ => match gi_shape b with Some _ => true | None => false end
  end.

Lemma handle_eq cx s v b :
  straight b = true ->
  handle_opcode cx s v Reachable (OBasic b) =
  match score (c_last s) (set_last s None) b with
  | Some x => if (length (c_stack x) =? v_opds v)%nat then Some x else None
  | None => None
  end.
Proof.
  intros Hs. destruct b; try discriminate Hs; try reflexivity.
  all: repeat match goal with
              | x : option _ |- _ => destruct x
              | x : (_ * _)%type |- _ => destruct x
              | x : packsize |- _ => destruct x
              | x : sx |- _ => destruct x
              | x : valtype |- _ => destruct x
              end; try reflexivity.
  all: unfold handle_opcode; cbv beta iota zeta; unfold score, gi, gi_shape, emit_imm, push_nary;
       unfold u16_bytes, u32_bytes; cbn [push_consume_n le_bytes];
       repeat match goal with
              | |- context [match push_consume ?X with _ => _ end] => destruct (push_consume X) as [[? ?]|]
              | |- context [match push_consume_n ?k ?X with _ => _ end] => destruct (push_consume_n k X)
              end; try reflexivity.
Qed.

Lemma handle_score cx s v b s' :
  straight b = true -> handle_opcode cx s v Reachable (OBasic b) = Some s' ->
  score (c_last s) (set_last s None) b = Some s' /\ length (c_stack s') = v_opds v.
Proof.
  intros Hs H. rewrite (handle_eq cx s v b Hs) in H.
  destruct (score (c_last s) (set_last s None) b) as [x|]; [|discriminate].
  destruct (Nat.eqb_spec (length (c_stack x)) (v_opds v)); [|discriminate].
  inversion H; subst. auto.
Qed.

Lemma v_pushn_frame n : forall w, v_unreach (v_pushn n w) = v_unreach w /\ v_ctrls (v_pushn n w) = v_ctrls w.
Proof. induction n; intros; cbn [v_pushn]; auto. apply (IHn (v_push w)). Qed.
Lemma v_pop_frame w w' : v_pop w = Some w' -> v_unreach w' = v_unreach w /\ v_ctrls w' = v_ctrls w.
Proof.
  unfold v_pop. destruct (v_ctrls w) eqn:E; [discriminate|].
  destruct (v_opds w =? vf_height v)%nat; [destruct (vf_unreachable v)|]; intros E1; inversion E1; subst; cbn; auto.
Qed.
Lemma v_popn_frame n : forall w w', v_popn n w = Some w' -> v_unreach w' = v_unreach w /\ v_ctrls w' = v_ctrls w.
Proof.
  induction n; intros w w' E; cbn in E; [inversion E; auto|].
  destruct (v_pop w) eqn:E1; [|discriminate]. destruct (IHn _ _ E) as [A B]. destruct (v_pop_frame _ _ E1) as [C D].
  split; congruence.
Qed.
Lemma straight_vstep_frame cx v b v' :
  straight b = true -> vstep cx v (OBasic b) = Some v' -> v_unreach v' = v_unreach v /\ v_ctrls v' = v_ctrls v.
Proof.
  intros Hs H. destruct b; try discriminate Hs; cbn [vstep] in H;
    destruct (pops_pushes _) as [po pu]; destruct (v_popn po v) eqn:E; try discriminate;
    inversion H; destruct (v_pushn_frame pu v0) as [A B]; destruct (v_popn_frame _ _ _ E) as [C D]; split; congruence.
Qed.
Lemma straight_vstep cx v b v' :
  straight b = true -> v_unreach v = None -> vstep cx v (OBasic b) = Some v' -> v_unreach v' = None.
Proof. intros Hs Hu H. rewrite (proj1 (straight_vstep_frame cx v b v' Hs H)). exact Hu. Qed.

Definition loc_bytes (ps : list provider) : list N := flat_map (fun p => i32_bytes (provider_idx p)) ps.

Lemma consume_frame s p s' : consume s = Some (p, s') ->
  c_out s' = c_out s /\ c_bp s' = c_bp s /\ c_next s' = c_next s /\ c_consts s' = c_consts s
  /\ c_last s' = c_last s /\ c_stack s = p :: c_stack s'.
Proof.
  unfold consume. destruct (c_stack s) as [|q st0]; [discriminate|].
  destruct (negb (existsb (provider_eqb q) st0)); intros H; inversion H; subst; clear H; [destruct p|]; cbn; repeat split.
Qed.

Lemma push_consume_n_frame k : forall s s', push_consume_n k s = Some s' ->
  exists ps, c_stack s = ps ++ c_stack s' /\ length ps = k /\ c_out s' = c_out s ++ loc_bytes ps
  /\ c_bp s' = c_bp s /\ c_next s' = c_next s /\ c_consts s' = c_consts s /\ c_last s' = c_last s.
Proof.
  induction k as [|k IH]; intros s s' H; cbn [push_consume_n] in H.
  - inversion H; subst. exists []. cbn. rewrite app_nil_r. repeat split.
  - unfold push_consume in H. destruct (consume s) as [[p s1]|] eqn:E; [|discriminate].
    destruct (consume_frame _ _ _ E) as (A1 & A2 & A3 & A4 & A5 & A6).
    destruct (IH _ _ H) as (ps & B0 & B1 & B2 & B3 & B4 & B5 & B6).
    cbn [push_loc emit set_out c_stack c_out c_bp c_next c_consts c_last] in B0, B2, B3, B4, B5, B6.
    exists (p :: ps). rewrite A6, B0, B2, A1. cbn [length loc_bytes flat_map app]. rewrite B1, app_assoc.
    repeat split; congruence.
Qed.

Lemma push_consume_n_cwf nl k : forall s s', push_consume_n k s = Some s' -> cwf nl s -> cwf nl s'.
Proof.
  induction k as [|k IH]; intros s s' H W; cbn [push_consume_n] in H; [inversion H; subst; exact W|].
  unfold push_consume in H. destruct (consume s) as [[p s1]|] eqn:E; [|discriminate].
  destruct (consume_spec nl s p s1 E W) as (_ & _ & _ & _ & W1 & _).
  apply (IH _ _ H). eapply cwf_same; [|exact W1]. apply same_alloc_emit.
Qed.

Lemma push_provide_spec nl s :
  cwf nl s ->
  exists r, c_stack (push_provide s) = PDyn r :: c_stack s
  /\ c_out (push_provide s) = c_out s ++ i32_bytes r
  /\ c_last (push_provide s) = Some (cur_off s) /\ c_bp (push_provide s) = c_bp s
  /\ c_consts (push_provide s) = c_consts s
  /\ c_next s <= c_next (push_provide s) <= c_next s + 1
  /\ nl <= r < c_next (push_provide s) /\ ~ In (PDyn r) (c_stack s)
  /\ cwf nl (push_provide s).
Proof.
  intros W. unfold push_provide, provide. destruct (dyn_get s) as [r s1] eqn:E.
  destruct (dyn_get_spec nl s r s1 E W) as (B & N & Nst & Es & (O1 & O2 & O3) & Ec & Bn & Sub & W1).
  assert (C : cwf nl (set_last (emit (set_stack s1 (PDyn r :: c_stack s1)) (i32_bytes r))
                               (Some (cur_off (set_stack s1 (PDyn r :: c_stack s1)))))).
  { eapply cwf_same; [|apply (cwf_push_dyn nl s1 r W1 B N)]. repeat split. }
  exists r. cbn [c_stack c_out c_last c_bp c_consts c_next set_last emit set_out set_stack].
  unfold cur_off in *. cbn [c_out set_stack] in *. rewrite Es, O1 in *. splits; auto; try lia.
Qed.

Definition is_local (idx : Z) (p : provider) : bool := match p with PLocal l => l =? idx | _ => false end.
Definition has_local (idx : Z) (st : list provider) : bool := existsb (is_local idx) st.
Definition subst_local (idx : Z) (rp : provider) (p : provider) : provider := if is_local idx p then rp else p.

Lemma map_subst_nolocal idx rp r : has_local idx r = false -> map (subst_local idx rp) r = r.
Proof.
  induction r as [|q r IH]; cbn [has_local existsb map]; intros H; [reflexivity|].
  apply orb_false_iff in H. destruct H as [H1 H2]. unfold subst_local at 1. rewrite H1. f_equal. apply IH. exact H2.
Qed.

Lemma preserve_local_spec idx st : forall s res,
  preserve_local idx st s res =
  if has_local idx st then
    match res with
    | Some rp => (map (subst_local idx rp) st, s, Some rp)
    | None => let '(d, s2) := dyn_get s in (map (subst_local idx (PDyn d)) st, s2, Some (PDyn d))
    end
  else (st, s, res).
Proof.
  induction st as [|p r IH]; intros s res; cbn [preserve_local has_local existsb map].
  - reflexivity.
  - rewrite IH. fold (has_local idx r).
    destruct (is_local idx p) eqn:Ep; cbn [orb].
    + destruct p as [d|l|c]; cbn [is_local] in Ep; try discriminate. rewrite Ep.
      assert (Sp : forall rp, subst_local idx rp (PLocal l) = rp) by (intros; unfold subst_local; cbn [is_local]; rewrite Ep; reflexivity).
      destruct (has_local idx r) eqn:Hr.
      * destruct res as [rp|].
        -- rewrite Sp. reflexivity.
        -- destruct (dyn_get s) as [d s2]. rewrite Sp. reflexivity.
      * destruct res as [rp|].
        -- rewrite Sp, map_subst_nolocal by exact Hr. reflexivity.
        -- destruct (dyn_get s) as [d s2]. rewrite Sp, map_subst_nolocal by exact Hr. reflexivity.
    + assert (Sp : forall rp, subst_local idx rp p = p) by (intros; unfold subst_local; rewrite Ep; reflexivity).
      destruct (has_local idx r) eqn:Hr.
      * destruct res as [rp|].
        -- rewrite Sp. destruct p as [d|l|c]; cbn [is_local] in Ep; try rewrite Ep; reflexivity.
        -- destruct (dyn_get s) as [d s2]. rewrite Sp. destruct p as [d'|l|c]; cbn [is_local] in Ep; try rewrite Ep; reflexivity.
      * destruct p as [d|l|c]; cbn [is_local] in Ep; try rewrite Ep; reflexivity.
Qed.

(** ** growth of the compiler state, and what each primitive leaves alone.  Nothing here
    assumes anything about the state, so these facts are available before [cwf] is. *)
Definition mono (s s1 : cstate) : Prop := c_next s <= c_next s1 /\ exists ext, c_consts s1 = c_consts s ++ ext.
Definition grows (s s1 : cstate) : Prop := (exists t, c_out s1 = c_out s ++ t) /\ mono s s1.

Lemma mono_same s s1 : c_next s <= c_next s1 -> c_consts s1 = c_consts s -> mono s s1.
Proof. intros Hn Hc. split; [exact Hn|]. exists []. rewrite app_nil_r. exact Hc. Qed.
Lemma mono_refl s : mono s s. Proof. apply mono_same; [lia|reflexivity]. Qed.
Lemma mono_trans a b d : mono a b -> mono b d -> mono a d.
Proof.
  intros [A1 (e1 & A2)] [B1 (e2 & B2)]. split; [lia|]. exists (e1 ++ e2). rewrite B2, A2, app_assoc. reflexivity.
Qed.
Lemma grows_refl s : grows s s.
Proof. split; [exists []; rewrite app_nil_r; reflexivity|apply mono_refl]. Qed.
Lemma grows_trans a b d : grows a b -> grows b d -> grows a d.
Proof.
  intros [(t1 & E1) M1] [(t2 & E2) M2]. split; [exists (t1 ++ t2); rewrite E2, E1, app_assoc; reflexivity|].
  eapply mono_trans; eauto.
Qed.

Lemma dyn_get_frame s r s' : dyn_get s = (r, s') ->
  c_out s' = c_out s /\ c_bp s' = c_bp s /\ c_consts s' = c_consts s /\ c_last s' = c_last s
  /\ c_stack s' = c_stack s /\ c_next s <= c_next s' <= c_next s + 1.
Proof. unfold dyn_get. destruct (c_reuse s); intros H; inversion H; subst; cbn; repeat split; lia. Qed.

Lemma push_provide_frame s : exists r,
  c_stack (push_provide s) = PDyn r :: c_stack s /\ c_out (push_provide s) = c_out s ++ i32_bytes r
  /\ c_last (push_provide s) = Some (cur_off s) /\ c_bp (push_provide s) = c_bp s
  /\ c_consts (push_provide s) = c_consts s /\ c_next s <= c_next (push_provide s) <= c_next s + 1.
Proof.
  unfold push_provide, provide. destruct (dyn_get s) as [r s1] eqn:E.
  destruct (dyn_get_frame _ _ _ E) as (D1 & D2 & D3 & D4 & D5 & D6).
  exists r. unfold cur_off. cbn [c_stack c_out c_last c_bp c_consts c_next set_last emit set_out set_stack].
  rewrite D1, D2, D3, D5. repeat split; lia.
Qed.

Lemma emit_imm_out s imm : c_out (emit_imm s imm) = c_out s ++ imm /\ same_alloc s (emit_imm s imm)
  /\ c_bp (emit_imm s imm) = c_bp s /\ c_last (emit_imm s imm) = c_last s.
Proof. destruct imm; cbn; rewrite ?app_nil_r; repeat split; auto. Qed.

Lemma gi_frame s opc imm k prov s1 : gi s opc imm k prov = Some s1 ->
  exists ps rest, c_stack s = ps ++ rest /\ length ps = k /\ c_consts s1 = c_consts s /\ c_bp s1 = c_bp s
  /\ c_next s <= c_next s1 <= c_next s + 1
  /\ if prov then
       exists r, c_stack s1 = PDyn r :: rest /\ c_out s1 = (c_out s ++ opc :: imm ++ loc_bytes ps) ++ i32_bytes r
                 /\ c_last s1 = Some (Z.of_nat (length (c_out s ++ opc :: imm ++ loc_bytes ps)))
     else c_stack s1 = rest /\ c_out s1 = c_out s ++ opc :: imm ++ loc_bytes ps /\ c_last s1 = c_last s.
Proof.
  unfold gi. intros H.
  destruct (emit_imm_out (push_op s opc) imm) as (Eo & (Sa1 & Sa2 & _ & Sa4) & Eb & El).
  destruct (push_consume_n k (emit_imm (push_op s opc) imm)) as [s2|] eqn:E; [|discriminate].
  destruct (push_consume_n_frame _ _ _ E) as (ps & Es & Lps & Eo2 & Eb2 & En2 & Ec2 & El2).
  cbn [c_out c_bp c_last c_stack c_next c_consts push_op emit set_out] in Eo, Eb, El, Sa1, Sa2, Sa4.
  rewrite Eo, <- !app_assoc in Eo2. cbn [app] in Eo2.
  exists ps, (c_stack s2). rewrite Sa1 in Es.
  destruct prov; inversion H; subst; clear H.
  - destruct (push_provide_frame s2) as (r & Ps & Po & Pl & Pb & Pc & Pn).
    splits; try congruence; try lia. exists r. unfold cur_off in Pl. rewrite Po, Pl, Eo2. splits; auto.
  - splits; try congruence; lia.
Qed.

Lemma gi_cwf nl s opc imm k prov s1 : cwf nl s -> gi s opc imm k prov = Some s1 ->
  cwf nl s1 /\ forall r rest, prov = true -> c_stack s1 = PDyn r :: rest -> ~ In (PDyn r) rest.
Proof.
  unfold gi. intros W H.
  assert (W0 : cwf nl (emit_imm (push_op s opc) imm)).
  { eapply cwf_same; [|exact W]. eapply same_alloc_trans; [|apply emit_imm_out]. apply same_alloc_emit. }
  destruct (push_consume_n k (emit_imm (push_op s opc) imm)) as [s2|] eqn:E; [|discriminate].
  pose proof (push_consume_n_cwf nl k _ _ E W0) as W2.
  destruct prov; inversion H; subst; clear H.
  - destruct (push_provide_spec nl s2 W2) as (r' & Ps & _ & _ & _ & _ & _ & _ & Pnin & Pw).
    split; [exact Pw|]. intros r rest _ Es. rewrite Ps in Es. inversion Es; subst. exact Pnin.
  - split; [exact W2|]. intros r rest X. discriminate X.
Qed.

(** the tail of local.set / local.tee: a Copy from the consumed operand into local [idx] *)
Lemma copy_to_local_frame s3 idx (b : bool) s1 :
  match push_consume (push_op s3 ICopy) with
  | Some (_, s4) => Some (if b then emit s4 (i32_bytes idx) else provide_existing (emit s4 (i32_bytes idx)) (PLocal idx))
  | None => None
  end = Some s1 ->
  (exists t, c_out s1 = c_out s3 ++ t) /\ c_next s1 = c_next s3 /\ c_consts s1 = c_consts s3
  /\ c_bp s1 = c_bp s3 /\ c_last s1 = c_last s3.
Proof.
  unfold push_consume. destruct (consume (push_op s3 ICopy)) as [[p s4]|] eqn:E; [|discriminate].
  destruct (consume_frame _ _ _ E) as (A1 & A2 & A3 & A4 & A5 & _).
  cbn [push_op emit set_out c_out c_bp c_next c_consts c_last] in A1, A2, A3, A4, A5.
  intros H. destruct b; inversion H; subst; clear H;
    cbn [c_out c_bp c_next c_consts c_last emit push_loc set_out set_stack provide_existing];
    rewrite A1, A2, A3, A4, A5; (split; [|repeat split]);
    exists (ICopy :: i32_bytes (provider_idx p) ++ i32_bytes idx); rewrite <- !app_assoc; reflexivity.
Qed.

Definition is_set_tee (b : binstr) : option (nat * bool) :=
  match b with BLocalSet i => Some (i, true) | BLocalTee i => Some (i, false) | _ => None end.

(** local.set / local.tee extend the output unless they patch the previous instruction's
    target ([lp] set and no preservation copy needed) *)
Lemma set_tee_frame lp s i b s1 : set_tee lp s i b = Some s1 ->
  c_bp s1 = c_bp s /\ c_last s1 = c_last s /\ mono s s1
  /\ (lp = None \/ has_local (Z.of_nat i) (c_stack s) = true -> exists t, c_out s1 = c_out s ++ t).
Proof.
  unfold set_tee. rewrite preserve_local_spec. intros H.
  destruct (has_local (Z.of_nat i) (c_stack s)) eqn:Hl.
  - destruct (dyn_get s) as [d s0'] eqn:Ed. destruct (dyn_get_frame _ _ _ Ed) as (D1 & D2 & D3 & D4 & D5 & D6).
    eassert (Ht : match push_consume (push_op _ ICopy) with
                  | Some (_, s4) => Some (if b then emit s4 (i32_bytes (Z.of_nat i))
                                          else provide_existing (emit s4 (i32_bytes (Z.of_nat i))) (PLocal (Z.of_nat i)))
                  | None => None
                  end = Some s1) by (destruct lp; exact H).
    destruct (copy_to_local_frame _ _ _ _ Ht) as ((t & T1) & T2 & T3 & T4 & T5).
    cbn [c_out c_bp c_next c_consts c_last push_loc emit push_op set_out set_stack] in T1, T2, T3, T4, T5.
    splits; try congruence.
    + apply mono_same; [lia|congruence].
    + intros _. exists (ICopy :: i32_bytes (Z.of_nat i) ++ i32_bytes d ++ t). rewrite T1, D1, <- !app_assoc. reflexivity.
  - destruct lp as [off|].
    + destruct (consume (back_patch (set_stack s (c_stack s)) off (Z.of_nat i))) as [[p s4]|] eqn:E; [|discriminate].
      destruct (consume_frame _ _ _ E) as (A1 & A2 & A3 & A4 & A5 & _).
      cbn [back_patch set_out set_stack c_out c_bp c_next c_consts c_last] in A2, A3, A4, A5.
      splits; try (destruct b; inversion H; subst; cbn; congruence).
      * apply mono_same; destruct b; inversion H; subst; cbn; rewrite ?A3, ?A4; try lia; reflexivity.
      * intros [X|X]; discriminate X.
    + destruct (copy_to_local_frame _ _ _ _ H) as (T1 & T2 & T3 & T4 & T5).
      cbn [c_out c_bp c_next c_consts c_last set_stack] in T1, T2, T3, T4, T5.
      splits; auto. apply mono_same; [lia|exact T3].
Qed.

Lemma score_frame lp s b s1 : straight b = true -> score lp s b = Some s1 ->
  c_bp s1 = c_bp s /\ mono s s1
  /\ (c_last s1 = c_last s \/ exists opc imm k, gi_shape b = Some (opc, imm, k, true))
  /\ (match is_set_tee b with
      | Some (i, _) => lp = None \/ has_local (Z.of_nat i) (c_stack s) = true
      | None => True
      end -> exists t, c_out s1 = c_out s ++ t).
Proof.
  intros Hs H.
  assert (GI : forall opc imm k prov, gi_shape b = Some (opc, imm, k, prov) -> gi s opc imm k prov = Some s1 ->
               c_bp s1 = c_bp s /\ mono s s1
               /\ (c_last s1 = c_last s \/ exists opc imm k, gi_shape b = Some (opc, imm, k, true))
               /\ exists t, c_out s1 = c_out s ++ t).
  { intros opc imm k prov Hsh Hgi. destruct (gi_frame _ _ _ _ _ _ Hgi) as (ps & rest & _ & _ & Ec & Eb & Bn & Hp).
    split; [exact Eb|]. split; [apply mono_same; [lia|exact Ec]|]. destruct prov.
    - destruct Hp as (r & _ & Eo & _). split; [right; eauto|]. rewrite <- app_assoc in Eo. eauto.
    - destruct Hp as (_ & Eo & El). split; [left; exact El|]. eauto. }
  assert (G0 : exists t, c_out s = c_out s ++ t) by (exists []; rewrite app_nil_r; reflexivity).
  destruct b; try discriminate Hs; cbn [score] in H; cbn [is_set_tee];
    try (cbn [gi_shape] in H; destruct (GI _ _ _ _ eq_refl H) as (A & B & C & D); splits; auto).
  - inversion H; subst. splits; auto. apply mono_refl.
  - destruct (consume s) as [[p s']|] eqn:E; [|discriminate]. inversion H; subst.
    destruct (consume_frame _ _ _ E) as (A1 & A2 & A3 & A4 & A5 & _).
    splits; auto; [apply mono_same; [lia|exact A4]|]. intros _. exists []. rewrite app_nil_r. exact A1.
  - inversion H; subst. splits; auto. apply mono_same; [cbn; lia|reflexivity].
  - destruct (set_tee_frame _ _ _ _ _ H) as (A & B & C & D). splits; auto.
  - destruct (set_tee_frame _ _ _ _ _ H) as (A & B & C & D). splits; auto.
  - inversion H; subst. unfold push_constant. destruct (find _ _) as [[? ?]|]; cbn; splits; auto.
    + apply mono_same; [cbn; lia|reflexivity].
    + split; [cbn; lia|eexists; reflexivity].
Qed.

Lemma overwrite_at : forall (a l bs : list N), overwrite (a ++ l) (length a) bs = a ++ bs ++ skipn (length bs) l.
Proof. induction a as [|x a IH]; intros l bs; cbn [app length overwrite]; [destruct l; reflexivity|]. rewrite IH. reflexivity. Qed.
Lemma overwrite_end a b b' : length b' = length b -> overwrite (a ++ b) (length a) b' = a ++ b'.
Proof. intros H. rewrite overwrite_at, H, skipn_all, app_nil_r. reflexivity. Qed.

Lemma pair_frame s s1 s2 opc imm k i b :
  gi s opc imm k true = Some s1 -> has_local (Z.of_nat i) (c_stack s1) = false ->
  set_tee (c_last s1) (set_last s1 None) i b = Some s2 -> grows s s2 /\ c_bp s2 = c_bp s /\ c_last s2 = None.
Proof.
  intros Hgi Hl H. destruct (gi_frame _ _ _ _ _ _ Hgi) as (ps & rest & _ & _ & Ec & Eb & Bn & r & _ & Eo & El).
  unfold set_tee in H. rewrite preserve_local_spec in H. change (c_stack (set_last s1 None)) with (c_stack s1) in H.
  rewrite Hl, El in H.
  set (pre := c_out s ++ opc :: imm ++ loc_bytes ps) in *.
  set (sb := back_patch (set_stack (set_last s1 None) (c_stack s1)) (Z.of_nat (length pre)) (Z.of_nat i)) in *.
  destruct (consume sb) as [[p s4]|] eqn:Ecs; [|discriminate].
  destruct (consume_frame _ _ _ Ecs) as (A1 & A2 & A3 & A4 & A5 & _).
  assert (Eob : c_out sb = pre ++ i32_bytes (Z.of_nat i)).
  { unfold sb, back_patch. cbn [c_out set_out set_stack set_last]. rewrite Eo, Nat2Z.id. apply overwrite_end. reflexivity. }
  change (c_bp sb) with (c_bp s1) in A2. change (c_next sb) with (c_next s1) in A3.
  change (c_consts sb) with (c_consts s1) in A4. change (c_last sb) with (@None Z) in A5.
  assert (F : c_out s2 = c_out sb /\ c_bp s2 = c_bp s1 /\ c_next s2 = c_next s1 /\ c_consts s2 = c_consts s1 /\ c_last s2 = None).
  { destruct b; inversion H; subst; cbn; rewrite ?A1, ?A2, ?A3, ?A4, ?A5; auto. }
  destruct F as (F1 & F2 & F3 & F4 & F5). split; [|split; congruence]. split.
  - exists ((opc :: imm ++ loc_bytes ps) ++ i32_bytes (Z.of_nat i)). rewrite F1, Eob. unfold pre. rewrite <- !app_assoc. reflexivity.
  - apply mono_same; [lia|congruence].
Qed.

Lemma score_gi lp s b opc imm k prov : gi_shape b = Some (opc, imm, k, prov) -> score lp s b = gi s opc imm k prov.
Proof. destruct b; cbn [gi_shape]; intros E; try discriminate E; cbn [score gi_shape]; inversion E; reflexivity. Qed.
Lemma is_set_tee_eq b i is_set : is_set_tee b = Some (i, is_set) -> b = if is_set then BLocalSet i else BLocalTee i.
Proof. destruct b; cbn; intros E; try discriminate E; inversion E; reflexivity. Qed.

Lemma has_local_subst idx rp l : is_local idx rp = false -> has_local idx (map (subst_local idx rp) l) = false.
Proof.
  intros Hr. induction l as [|q r IH]; cbn; [reflexivity|]. fold (has_local idx (map (subst_local idx rp) r)). rewrite IH.
  unfold subst_local. destruct (is_local idx q) eqn:E; rewrite ?Hr, ?E; reflexivity.
Qed.

Lemma has_local_in idx l : has_local idx l = true -> In (PLocal idx) l.
Proof.
  unfold has_local. rewrite existsb_exists. intros (q & Hq & E). destruct q as [r|k|cc]; cbn in E; try discriminate.
  apply Z.eqb_eq in E. subst. exact Hq.
Qed.

Lemma reserve_cwf nl s i d s' :
  cwf nl s -> dyn_get s = (d, s') ->
  let s3 := push_loc (emit (push_op (set_stack s' (map (subst_local (Z.of_nat i) (PDyn d)) (c_stack s))) ICopy)
                           (i32_bytes (Z.of_nat i))) (PDyn d) in
  cwf nl s3 /\ has_local (Z.of_nat i) (c_stack s3) = false
  /\ c_out s3 = c_out s ++ ICopy :: i32_bytes (Z.of_nat i) ++ i32_bytes d.
Proof.
  intros W Hd s3.
  destruct (dyn_get_spec nl s d s' Hd W) as (B & N & _ & Es & (O1 & _) & _ & _ & _ & W').
  assert (Fst : Forall (pwf nl s') (map (subst_local (Z.of_nat i) (PDyn d)) (c_stack s))).
  { pose proof (w_stack _ _ W') as F. rewrite Es in F. apply Forall_forall. intros q Hq. apply in_map_iff in Hq.
    destruct Hq as (q0 & <- & Hq0). unfold subst_local. destruct (is_local (Z.of_nat i) q0).
    - cbn. split; [lia|exact N].
    - rewrite Forall_forall in F. apply F. exact Hq0. }
  splits.
  - eapply cwf_same; [|apply (cwf_set_stack nl s' _ W' Fst)]. repeat split.
  - apply has_local_subst. reflexivity.
  - unfold s3. cbn [c_out push_loc emit push_op set_out set_stack]. rewrite O1, <- !app_assoc. reflexivity.
Qed.

Lemma copy_to_local_cwf nl s3 idx (b : bool) s1 : cwf nl s3 -> 0 <= idx < nl ->
  match push_consume (push_op s3 ICopy) with
  | Some (_, s4) => Some (if b then emit s4 (i32_bytes idx) else provide_existing (emit s4 (i32_bytes idx)) (PLocal idx))
  | None => None
  end = Some s1 -> cwf nl s1.
Proof.
  intros W Hi H. unfold push_consume in H.
  destruct (consume (push_op s3 ICopy)) as [[p s4]|] eqn:E; [|discriminate].
  assert (W0 : cwf nl (push_op s3 ICopy)) by (eapply cwf_same; [|exact W]; repeat split).
  destruct (consume_spec nl _ p s4 E W0) as (_ & _ & _ & _ & W4 & _).
  assert (W5 : cwf nl (emit (push_loc s4 p) (i32_bytes idx))) by (eapply cwf_same; [|exact W4]; repeat split).
  destruct b; inversion H; subst; [exact W5|]. exact (cwf_push_local nl _ idx W5 Hi).
Qed.

Lemma set_tee_cwf nl lp s i b s1 :
  cwf nl s -> 0 <= Z.of_nat i < nl -> set_tee lp s i b = Some s1 -> cwf nl s1.
Proof.
  intros W Hi H. unfold set_tee in H. rewrite preserve_local_spec in H.
  destruct (has_local (Z.of_nat i) (c_stack s)) eqn:Hl.
  - destruct (dyn_get s) as [d s0'] eqn:Ed. destruct (reserve_cwf nl s i d s0' W Ed) as (W3 & _).
    apply (copy_to_local_cwf nl _ (Z.of_nat i) b s1 W3 Hi). destruct lp; exact H.
  - assert (W2 : cwf nl (set_stack s (c_stack s))) by (eapply cwf_same; [|exact W]; repeat split).
    destruct lp as [off|]; [|exact (copy_to_local_cwf nl _ (Z.of_nat i) b s1 W2 Hi H)].
    destruct (consume (back_patch (set_stack s (c_stack s)) off (Z.of_nat i))) as [[p s4]|] eqn:E; [|discriminate].
    assert (Wb : cwf nl (back_patch (set_stack s (c_stack s)) off (Z.of_nat i))) by (eapply cwf_same; [|exact W2]; repeat split).
    destruct (consume_spec nl _ p s4 E Wb) as (_ & _ & _ & _ & W4 & _).
    destruct b; inversion H; subst; [exact W4|]. exact (cwf_push_local nl _ (Z.of_nat i) W4 Hi).
Qed.

Lemma score_cwf nl lp s b s1 :
  straight b = true ->
  match b with BLocalGet i | BLocalSet i | BLocalTee i => Z.of_nat i <? nl | _ => true end = true ->
  cwf nl s -> score lp (set_last s None) b = Some s1 -> cwf nl s1.
Proof.
  intros Hs Hl W H. assert (W0 : cwf nl (set_last s None)) by (eapply cwf_same; [|exact W]; repeat split).
  destruct b; try discriminate Hs; cbn [score] in H;
    try (cbn [gi_shape] in H; exact (proj1 (gi_cwf nl _ _ _ _ _ _ W0 H))).
  - inversion H; subst. exact W0.
  - destruct (consume (set_last s None)) as [[p s']|] eqn:E; [|discriminate]. inversion H; subst.
    destruct (consume_spec nl _ p s1 E W0) as (_ & _ & _ & _ & W4 & _). exact W4.
  - inversion H; subst. apply Z.ltb_lt in Hl. exact (cwf_push_local nl _ (Z.of_nat i) W0 ltac:(lia)).
  - apply Z.ltb_lt in Hl. eapply set_tee_cwf; eauto. lia.
  - apply Z.ltb_lt in Hl. eapply set_tee_cwf; eauto. lia.
  - inversion H; subst.
    destruct (push_constant_spec nl (set_last s None) (const_i64 t z) W0) as (idx & _ & _ & _ & _ & _ & _ & _ & W1). exact W1.
Qed.
