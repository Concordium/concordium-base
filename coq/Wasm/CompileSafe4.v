(** * Wasm/CompileSafe4 — [handle_opcode] on every opcode, the fold over a function
    body, and [compile_output_safe_partial] for [compile_function]. *)
From Coq Require Import ZArith NArith List Lia Bool.
From CB Require Import Wasm.Syntax Wasm.Compile Wasm.MachineLemmas Wasm.CompileLemmas Wasm.BlockProofs Wasm.CompileSafe Wasm.CompileSafe2
     Wasm.CompileSafe3.
Import ListNotations.
Local Open Scope Z_scope.

Definition op_locals (n : Z) (op : opcode) : bool :=
  match op with OBasic b => locals_in n b | _ => true end.

Section Safe4.
Variable nl : Z.
Variable cx : cctx.
Hypothesis Hret : cx_return cx <> None -> 0 < nl.
Notation L := (L nl).
Notation Iv := (Iv nl).
Notation post := (post nl cx).

Lemma skip_safe bs s0 fl : Iv bs s0 fl -> post bs fl (set_last s0 None).
Proof.
  intros H. destruct (Iv_start nl _ _ _ H) as (H1 & _).
  apply post_same, H1.
Qed.

Lemma block_safe bs s fl (ty : blocktype) s' :
  Iv bs s fl ->
  match ty with
  | Some _ => let '(r, s1) := dyn_get s in Some (set_bp s1 (JUnknown [] (Some (PDyn r)) :: c_bp s1))
  | None => Some (set_bp s (JUnknown [] None :: c_bp s))
  end = Some s' -> post bs fl s'.
Proof.
  intros H E. apply post_same. destruct ty as [t|].
  - destruct (dyn_get s) as [r s1] eqn:Ed. inversion E; subst; clear E.
    destruct (L_dyn_get nl _ _ _ _ _ _ H Ed) as (H1 & Br & B1 & _).
    assert (H1' : L bs (all_locs (c_bp s1)) s1 fl) by (rewrite B1; exact H1).
    exact (L_push_bp nl _ _ _ _ (JUnknown [] (Some (PDyn r))) H1' Br).
  - inversion E; subst; clear E. exact (L_push_bp nl _ _ _ _ (JUnknown [] None) H Logic.I).
Qed.

Lemma loop_safe bs s fl : Iv bs s fl -> post bs fl (set_bp s (JKnown (cur_off s) :: c_bp s)).
Proof.
  intros H. exists fl, [], (off fl :: bs). rewrite app_nil_r. splits; auto using shaped_nil.
  - assert (H1 : L (off fl :: bs) (all_locs (c_bp s)) s fl) by (eapply (L_bs nl); [exact H|apply incl_tl, incl_refl]).
    apply (L_push_bp nl _ _ _ _ (JKnown (cur_off s)) H1). left. symmetry. eapply cur_off_off; eauto.
  - apply incl_tl, incl_refl.
  - intros b [<-|Hb]; auto.
Qed.

Lemma fixed_one o imm : fixed_shape o = Some (length imm, 0%nat, false) ->
  shaped cx (FOp o :: match imm with [] => [] | _ => [FImm imm] end).
Proof.
  intros Hs. apply shaped_one.
  pose proof (sh_fixed cx o (length imm) 0 false imm Hs eq_refl) as X. cbn [repeat dst_opt app] in X. rewrite app_nil_r in X.
  destruct imm; exact X.
Qed.

Lemma unreachable_safe bs s fl n s' :
  Iv bs s fl -> c_last s = None -> truncate (push_op s IUnreachable) n = Some s' -> post bs fl s'.
Proof.
  intros H Hl E. pose proof (L_op nl _ _ _ _ IUnreachable H Hl) as H1.
  destruct (L_truncate_n nl _ _ _ _ _ _ H1 E) as (H2 & L2 & B2 & N2).
  apply (post_simple nl cx bs fl [FOp IUnreachable]).
  - eapply (Iv_of_L nl bs s); [exact H2|exact B2].
  - apply (fixed_one IUnreachable [] eq_refl).
Qed.

Lemma tick_safe bs s fl n :
  Iv bs s fl -> c_last s = None -> post bs fl (emit (push_op s ITickEnergy) (u32_bytes (Z.of_N n))).
Proof.
  intros H Hl. pose proof (L_op nl _ _ _ _ ITickEnergy H Hl) as H1.
  pose proof (L_imm nl _ _ _ _ (u32_bytes (Z.of_N n)) H1 Hl) as H2. napp H2.
  apply (post_simple nl cx bs fl [FOp ITickEnergy; FImm (u32_bytes (Z.of_N n))]).
  - exact H2.
  - apply shaped_one. apply (sh_fixed cx ITickEnergy 4 0 false (u32_bytes (Z.of_N n))); [reflexivity|apply u32_bytes_length].
Qed.

Lemma return_safe bs s fl n s' :
  Iv bs s fl -> c_last s = None ->
  match (match cx_return cx with
         | Some _ => match consume s with Some (top, s1) => Some (copy_if_needed s1 top RETURN_VALUE_LOCATION) | None => None end
         | None => Some s end) with
  | Some s1 => truncate (push_op s1 IReturn) n
  | None => None end = Some s' -> post bs fl s'.
Proof.
  intros H Hl E.
  match type of E with match ?X with _ => _ end = _ => destruct X as [s1|] eqn:E1; [|discriminate] end.
  assert (C : exists ext, L bs (all_locs (c_bp s)) s1 (fl ++ ext) /\ shaped cx ext /\ c_last s1 = None /\ c_bp s1 = c_bp s).
  { destruct (cx_return cx) as [t|] eqn:Er.
    - destruct (consume s) as [[top s2]|] eqn:Ec; [|discriminate]. inversion E1; subst; clear E1.
      assert (Hr : res_ok nl (c_next s) RETURN_VALUE_LOCATION) by (unfold res_ok, RETURN_VALUE_LOCATION; assert (0 < nl) by (apply Hret; congruence); lia).
      destruct (L_carry nl _ _ _ _ _ _ RETURN_VALUE_LOCATION H Hl Ec Hr) as (H4 & L4 & B4 & _).
      exists (copy_fields top RETURN_VALUE_LOCATION). splits; auto using copy_shaped.
    - inversion E1; subst. exists []. rewrite app_nil_r. splits; auto using shaped_nil. }
  destruct C as (ext & H2 & S2 & L2 & B2).
  pose proof (L_op nl _ _ _ _ IReturn H2 L2) as H3. napp H3.
  destruct (L_truncate_n nl _ _ _ _ _ _ H3 E) as (H4 & L4 & B4 & N4).
  apply (post_simple nl cx bs fl (ext ++ [FOp IReturn])).
  - eapply (Iv_of_L nl bs s); [exact H4|]. rewrite B4. exact B2.
  - apply shaped_app; auto. apply (fixed_one IReturn [] eq_refl).
Qed.

Lemma br_safe bs s fl l n s' :
  Iv bs s fl -> c_last s = None ->
  match push_br_jump s true l with Some s1 => truncate s1 n | None => None end = Some s' -> post bs fl s'.
Proof.
  intros H Hl E. destruct (push_br_jump s true l) as [s1|] eqn:E1; [|discriminate].
  destruct (br_jump_safe nl cx _ _ _ _ _ _ H Hl E1) as (ext & H1 & S1 & L1).
  destruct (L_truncate_n nl _ _ _ _ _ _ H1 E) as (H2 & L2 & B2 & N2).
  apply (post_simple nl cx bs fl ext); auto. eapply (Iv_of_L nl bs s1); [exact H2|exact B2].
Qed.

Lemma handle_safe bs s0 fl v reach op s' :
  Iv bs s0 fl -> op_locals nl op = true ->
  handle_opcode cx s0 v reach op = Some s' -> post bs fl s'.
Proof.
  intros H Hloc E. destruct (Iv_start nl _ _ _ H) as (H1 & Hl).
  assert (Skip : Some (set_last s0 None) = Some s' -> post bs fl s').
  { intros X. inversion X; subst. apply skip_safe. exact H. }
  destruct reach.
  - destruct op as [| |ty|ty|ty|b].
    + unfold handle_opcode in E. cbv beta iota zeta in E. apply checked, proj1 in E.
      exact (end_safe nl cx bs (set_last s0 None) fl true v s' H1 Hl E).
    + unfold handle_opcode in E. cbv beta iota zeta in E. apply checked, proj1 in E.
      exact (else_safe nl cx bs (set_last s0 None) fl true s' H1 Hl E).
    + unfold handle_opcode in E. cbv beta iota zeta in E. apply checked, proj1 in E.
      exact (block_safe bs (set_last s0 None) fl ty s' H1 E).
    + unfold handle_opcode in E. cbv beta iota zeta in E.
      match type of E with (if ?c then _ else _) = _ => destruct c; [|discriminate] end.
      injection E as <-. exact (loop_safe bs (set_last s0 None) fl H1).
    + unfold handle_opcode in E. cbv beta iota zeta in E. apply checked, proj1 in E.
      exact (if_safe nl cx bs (set_last s0 None) fl ty s' H1 Hl E).
    + destruct (straight b) eqn:Hs.
      * destruct (handle_score cx s0 v b s' Hs E) as (Esc & _). exact (score_safe nl cx bs s0 fl b s' H Hs Hloc Esc).
      * destruct b; try discriminate Hs;
          unfold handle_opcode in E; cbv beta iota zeta in E;
          first [apply checked, proj1 in E | match type of E with (if ?c then _ else _) = _ => destruct c; [|discriminate] end];
          first [ exact (unreachable_safe bs (set_last s0 None) fl _ s' H1 Hl E)
                | exact (br_safe bs (set_last s0 None) fl _ _ s' H1 Hl E)
                | exact (br_if_safe nl cx bs (set_last s0 None) fl _ s' H1 Hl E)
                | exact (br_table_safe nl cx bs (set_last s0 None) fl v _ _ s' H1 Hl E)
                | exact (return_safe bs (set_last s0 None) fl _ s' H1 Hl E)
                | exact (call_safe nl cx bs (set_last s0 None) fl _ s' H1 Hl E)
                | exact (calli_safe nl cx bs (set_last s0 None) fl _ s' H1 Hl E)
                | (injection E as <-; exact (tick_safe bs (set_last s0 None) fl _ H1 Hl)) ].
  - destruct op as [| |ty|ty|ty|b]; try (apply Skip; exact E).
    + unfold handle_opcode in E. cbv beta iota zeta in E. apply checked, proj1 in E.
      exact (end_safe nl cx bs (set_last s0 None) fl false v s' H1 Hl E).
    + unfold handle_opcode in E. cbv beta iota zeta in E. apply checked, proj1 in E.
      exact (else_safe nl cx bs (set_last s0 None) fl false s' H1 Hl E).
  - apply Skip. destruct op; exact E.
Qed.

(** ** level 2: jump targets are instruction starts *)
Definition starts (fl : list field) (b : Z) : Prop :=
  exists pre post, fl = pre ++ post /\ off pre = b /\ shaped cx pre /\ shaped cx post.
Record J (bs : list Z) (s : cstate) (fl : list field) : Prop := {
  j_iv : Iv bs s fl; j_sh : shaped cx fl; j_bs : Forall (starts fl) bs
}.

Lemma post_J bs s fl s' : J bs s fl -> post bs fl s' -> exists bs' fl', J bs' s' fl'.
Proof.
  intros [A1 A2 A3] (fl1 & ext & bs' & K & H & S & Hin & Hb).
  assert (S1 : shaped cx fl1) by (eapply shaped_kinds; [symmetry; exact K|exact A2]).
  exists bs', (fl1 ++ ext). constructor; auto.
  - apply shaped_app; auto.
  - apply Forall_forall. intros b Hbin. destruct (Hb b Hbin) as [Hold|[->| ->]].
    + rewrite Forall_forall in A3. destruct (A3 b Hold) as (pre & po & E & O & P1 & P2). subst fl.
      destruct (kinds_split fl1 pre po K) as (a' & b' & E1 & Ka & Kb). subst fl1.
      exists a', (b' ++ ext). splits.
      * rewrite app_assoc. reflexivity.
      * rewrite <- O. apply off_kinds. exact Ka.
      * eapply shaped_kinds; [symmetry; exact Ka|exact P1].
      * apply shaped_app; auto. eapply shaped_kinds; [symmetry; exact Kb|exact P2].
    + exists fl1, ext. splits; auto. apply off_kinds. exact K.
    + exists (fl1 ++ ext), []. rewrite app_nil_r. splits; auto using shaped_nil. apply shaped_app; auto.
Qed.

Lemma compile_ops_safe : forall ops v s v' s' bs fl,
  J bs s fl -> Forall (fun op => op_locals nl op = true) ops ->
  compile_ops cx ops v s = Some (v', s') -> exists bs' fl', J bs' s' fl'.
Proof.
  induction ops as [|op ops IH]; intros v s v' s' bs fl HJ Hc E; cbn [compile_ops] in E.
  - inversion E; subst. eauto.
  - inversion Hc as [|? ? C2 Hc']; subst.
    destruct (vstep cx v op) as [v1|]; [|discriminate].
    destruct (handle_opcode cx s v1 (v_reachability v) op) as [s1|] eqn:Eh; [|discriminate].
    destruct (post_J _ _ _ _ HJ (handle_safe _ _ _ _ _ _ _ (j_iv _ _ _ HJ) C2 Eh)) as (bs1 & fl1 & HJ1).
    eapply IH; eauto.
Qed.

End Safe4.

Definition code_safe (cx : cctx) (nregs nconsts : Z) (code : list N) : Prop :=
  exists fl, code = enc fl /\ shaped cx fl /\ Forall (fok nregs nconsts) fl
    /\ (forall pre t post, fl = pre ++ FTgt t :: post -> starts cx fl t /\ 0 <= t <= Z.of_nat (length code)).

Lemma locals_in_mono n n' b : n <= n' -> locals_in n b = true -> locals_in n' b = true.
Proof. intros Hn. destruct b; cbn; auto; intros H; apply Z.ltb_lt in H; apply Z.ltb_lt; lia. Qed.

Theorem compile_output_safe_partial_proof cx ti ft nd ops cf :
  cx_return cx = ft_result ft ->
  Forall (fun op => op_locals (Z.of_nat (length (ft_params ft) + nd)) op = true) ops ->
  compile_function cx ti ft nd ops = Some cf ->
  0 <= cf_num_registers cf /\ Z.of_nat (length (ft_params ft) + nd) <= cf_num_registers cf
  /\ code_safe cx (cf_num_registers cf) (Z.of_nat (length (cf_constants cf))) (cf_code cf).
Proof.
  intros Hr Hc E. unfold compile_function in E.
  set (num_locals := (length (ft_params ft) + nd)%nat) in *.
  set (next := match num_locals, ft_result ft with O, Some _ => 1 | _, _ => Z.of_nat num_locals end) in *.
  assert (Hn : Z.of_nat num_locals <= next) by (unfold next; destruct num_locals, (ft_result ft); lia).
  assert (Hres : ft_result ft <> None -> 0 < next).
  { unfold next. destruct num_locals, (ft_result ft); try lia; intros X; contradiction X; reflexivity. }
  match type of E with match compile_ops _ _ ?V ?S with _ => _ end = _ =>
    set (v0 := V) in *; set (s0 := S) in *; destruct (compile_ops cx ops v0 s0) as [[v s]|] eqn:Ec; [|discriminate] end.
  destruct (v_ctrls v); [|discriminate]. destruct (c_bp s) eqn:Ebp; [|discriminate]. inversion E; subst cf; clear E.
  cbn [cf_num_registers cf_constants cf_code].
  assert (W0 : cwf next s0).
  { constructor; cbn; auto; try lia. intros k v1 idx Hk. destruct k; discriminate. }
  assert (J0 : J next cx [] s0 []).
  { constructor; [|constructor|constructor]. constructor; auto.
    - intros pre t post X. destruct pre; discriminate.
    - intros q [].
    - cbn. constructor; [|constructor]. destruct (ft_result ft) eqn:Ef; [|exact Logic.I].
      unfold jt_ok, res_ok, RETURN_VALUE_LOCATION. assert (0 < next) by (apply Hres; discriminate). lia.
    - cbn. discriminate. }
  assert (Hc' : Forall (fun op => op_locals next op = true) ops).
  { eapply Forall_impl; [|exact Hc]. intros op B. destruct op; auto. cbn in *. eapply locals_in_mono; eauto. }
  assert (Hret : cx_return cx <> None -> 0 < next) by (rewrite Hr; exact Hres).
  destruct (compile_ops_safe next cx Hret ops v0 s0 v s [] [] J0 Hc' Ec) as (bs & fl & [Hiv Hsh Hbs]).
  pose proof (w_next _ _ (l_cwf _ _ _ _ _ Hiv)) as Wn.
  splits; try lia.
  pose proof (fixed_one cx IReturn [] eq_refl) as Sret.
  exists (fl ++ [FOp IReturn]). splits.
  - rewrite enc_app, (l_out _ _ _ _ _ Hiv). reflexivity.
  - apply shaped_app; auto.
  - apply Forall_app. split; [|constructor; [exact Logic.I|constructor]].
    pose proof (l_ops _ _ _ _ _ Hiv) as X. unfold ncon in X. rewrite map_length. exact X.
  - intros pre t post X.
    assert (St : starts cx (fl ++ [FOp IReturn]) t).
    { apply split_last in X. destruct X as [(_ & X & _)|(m & X & _)]; [discriminate|].
      destruct (l_tgt _ _ _ _ _ Hiv _ _ _ X) as [Hin|Hin]; [|rewrite Ebp in Hin; destruct Hin].
      rewrite Forall_forall in Hbs. destruct (Hbs t Hin) as (p1 & p2 & E1 & O & P1 & P2).
      exists p1, (p2 ++ [FOp IReturn]). splits; auto. rewrite E1, app_assoc. reflexivity. apply shaped_app; auto. }
    split; auto. destruct St as (p1 & p2 & E1 & O & _). rewrite <- O.
    change (Z.of_nat (length (c_out s ++ [IReturn]))) with (Z.of_nat (length (c_out s ++ enc [FOp IReturn]))).
    rewrite (l_out _ _ _ _ _ Hiv), <- enc_app, E1. fold (off (p1 ++ p2)). rewrite off_app. pose proof (off_nonneg p1). pose proof (off_nonneg p2). lia.
Qed.
