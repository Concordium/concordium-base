(** * Wasm/MeterFlat — the two presentations of the metering transformation agree:
    the line-by-line transcription of [InstrSeqTransformer::run] on the flat opcode stream
    ([Meter.trun] / [inject_accounting_flat]) produces exactly the flattening of the structured
    transformer's output ([Meter.mseq] / [meter_body]) on every well-nested body, provided the
    delimiters [End]/[Else] cost 0 (true in both generated schedules: [CostProofs.v0_end_else],
    [v1_end_else]).  (The structured transformer is not defined on a source [TickEnergy].) *)
From Coq Require Import NArith List Lia.
From CB Require Import Wasm.Syntax Wasm.SyntaxProofs Wasm.CostCtx Wasm.Meter Wasm.MeterProofs.
Import ListNotations.
Local Open Scope N_scope.

Section Flat.
Variable cfg : cost_cfg.
Variable cx : cost_ctx.
Hypothesis Hend : forall L, c_cost cfg OEnd L cx = Some 0.
Hypothesis Helse : forall L, c_cost cfg OElse L cx = Some 0.

Notation mseq := (mseq cfg cx).
Notation mi := (mi cfg cx).
Notation tstep := (tstep cfg cx).
Notation tloop := (tloop cfg cx).

Definition mk (L : list blocktype) (new : list opcode) (e : N) (p : list opcode) : tstate :=
  {| ts_labels := L; ts_new := new; ts_energy := e; ts_pending := p |}.
Definition ftick (x : N) : list opcode := if 0 <? x then [OBasic (BTick x)] else [].

Lemma flatten_tick_opt h : flatten (erase_seq (tick_opt h)) = ftick h.
Proof. unfold tick_opt, ftick. destruct (0 <? h); reflexivity. Qed.

Lemma tloop_cons st o k : tloop st (o :: k) = obind (tstep st o) (fun s => tloop s k).
Proof. reflexivity. Qed.
Lemma tloop_app st a b : tloop st (a ++ b) = obind (tloop st a) (fun s => tloop s b).
Proof.
  revert st. induction a as [|o a IH]; intro st; [reflexivity|].
  cbn [app]. rewrite !tloop_cons. destruct (tstep st o); cbn [obind]; [apply IH|reflexivity].
Qed.

Lemma flush_mk L new e p :
  fits_u32 e = true ->
  account_energy_push_pending (mk L new e p) = Some (mk L (new ++ ftick e ++ p) 0 []).
Proof.
  intro Hf. unfold account_energy_push_pending, account_energy, mk, ftick. cbn [ts_energy ts_labels ts_new ts_pending].
  destruct (0 <? e) eqn:E.
  - rewrite Hf. cbn [ts_energy ts_labels ts_new ts_pending]. rewrite <- app_assoc. reflexivity.
  - apply N.ltb_ge in E. assert (e = 0) by lia. subst e. reflexivity.
Qed.

Lemma tstep_pending L new e p b c :
  kind_of b = KPending -> c_cost cfg (OBasic b) L cx = Some c ->
  tstep (mk L new e p) (OBasic b) = Some (mk L new (e + c) (p ++ [OBasic b])).
Proof.
  intros Hk Hc. unfold Meter.tstep. cbn [ts_labels mk]. rewrite Hc. cbn [obind].
  destruct b; cbn [kind_of] in Hk; try discriminate Hk; reflexivity.
Qed.

Lemma tstep_memgrow L new e p c :
  c_cost cfg (OBasic BMemoryGrow) L cx = Some c ->
  tstep (mk L new e p) (OBasic BMemoryGrow) =
  Some (mk L new (e + c) (p ++ [OBasic (BCall fn_idx_memory_alloc); OBasic BMemoryGrow])).
Proof.
  intros Hc. unfold Meter.tstep. cbn [ts_labels mk]. rewrite Hc. cbn [obind].
  unfold add_to_pending, add_energy, mk. cbn [ts_energy ts_labels ts_new ts_pending]. rewrite <- app_assoc. reflexivity.
Qed.

Lemma tstep_flush L new e p b c :
  kind_of b = KFlushKeep -> c_cost cfg (OBasic b) L cx = Some c -> fits_u32 (e + c) = true ->
  tstep (mk L new e p) (OBasic b) = Some (mk L (new ++ ftick (e + c) ++ p ++ [OBasic b]) 0 []).
Proof.
  intros Hk Hc Hf. unfold Meter.tstep. cbn [ts_labels mk]. rewrite Hc. cbn [obind].
  assert (E : add_energy (mk L new e p) c = mk L new (e + c) p) by reflexivity.
  change {| ts_labels := L; ts_new := new; ts_energy := e; ts_pending := p |} with (mk L new e p).
  destruct b; cbn [kind_of] in Hk; try discriminate Hk; cbv zeta; rewrite E;
    unfold add_instr_account_energy; rewrite (flush_mk _ _ _ _ Hf); cbn [obind];
    unfold add_to_new, mk; cbn [ts_energy ts_labels ts_new ts_pending]; rewrite <- !app_assoc; reflexivity.
Qed.

Lemma tstep_call L new e p idx c :
  c_cost cfg (OBasic (BCall idx)) L cx = Some c -> fits_u32 (e + c) = true ->
  tstep (mk L new e p) (OBasic (BCall idx)) =
  Some (mk L (new ++ ftick (e + c) ++ p ++ [OBasic (BCall (idx + num_added_functions))]) 0 []).
Proof.
  intros Hc Hf. unfold Meter.tstep. change (ts_labels (mk L new e p)) with L. rewrite Hc. cbn [obind]. cbv zeta.
  change (add_energy (mk L new e p) c) with (mk L new (e + c) p).
  unfold add_instr_account_energy. rewrite (flush_mk _ _ _ _ Hf).
  unfold add_to_new, mk; cbn [ts_energy ts_labels ts_new ts_pending]; rewrite <- !app_assoc; reflexivity.
Qed.

Lemma tstep_brif L new e p idx c a rw :
  c_cost cfg (OBasic (BBrIf idx)) L cx = Some c -> fits_u32 (e + c) = true ->
  lookup_label L idx = Some a -> brif_rewrite cfg c a idx = Some rw ->
  tstep (mk L new e p) (OBasic (BBrIf idx)) =
  Some (mk L (new ++ ftick (e + c) ++ p ++ flatten (erase_seq rw)) 0 []).
Proof.
  intros Hc Hf Hl Hrw. unfold Meter.tstep. change (ts_labels (mk L new e p)) with L. rewrite Hc. cbn [obind]. cbv zeta.
  change (add_energy (mk L new e p) c) with (mk L new (e + c) p).
  rewrite (flush_mk _ _ _ _ Hf). cbn [obind]. change (ts_labels (mk L (new ++ ftick (e + c) ++ p) 0 [])) with L. rewrite Hl. cbn [obind].
  destruct (brif_rewrite_inv _ _ _ _ _ Hrw) as [Eb [[-> ->]|[-> ->]]]; cbn [N.eqb Pos.eqb];
    unfold account_energy, add_to_new, mk; cbn [ts_energy ts_labels ts_new ts_pending];
    rewrite Eb; cbn [obind ts_energy ts_labels ts_new ts_pending]; cbn; rewrite <- !app_assoc; reflexivity.
Qed.

Lemma tstep_block L new e p bt c :
  c_cost cfg (OBlock bt) L cx = Some c ->
  tstep (mk L new e p) (OBlock bt) = Some (mk (bt :: L) new (e + c) (p ++ [OBlock bt])).
Proof. intros Hc. unfold Meter.tstep. cbn [ts_labels mk]. rewrite Hc. reflexivity. Qed.

Lemma tstep_loop L new e p bt c :
  c_cost cfg (OLoop bt) L cx = Some c -> fits_u32 (e + c) = true ->
  tstep (mk L new e p) (OLoop bt) = Some (mk (None :: L) (new ++ ftick (e + c) ++ p ++ [OLoop bt]) 0 []).
Proof.
  intros Hc Hf. unfold Meter.tstep. change (ts_labels (mk L new e p)) with L. rewrite Hc. cbn [obind]. cbv zeta.
  change (add_energy (mk L new e p) c) with (mk L new (e + c) p).
  rewrite (flush_mk _ _ _ _ Hf). cbn [obind].
  unfold add_to_new, set_labels, mk; cbn [ts_energy ts_labels ts_new ts_pending]; rewrite <- !app_assoc; reflexivity.
Qed.

Lemma tstep_if L new e p bt c :
  c_cost cfg (OIf bt) L cx = Some c -> fits_u32 (e + c) = true ->
  tstep (mk L new e p) (OIf bt) = Some (mk (bt :: L) (new ++ ftick (e + c) ++ p ++ [OIf bt]) 0 []).
Proof.
  intros Hc Hf. unfold Meter.tstep. change (ts_labels (mk L new e p)) with L. rewrite Hc. cbn [obind]. cbv zeta.
  change (add_energy (mk L new e p) c) with (mk L new (e + c) p).
  rewrite (flush_mk _ _ _ _ Hf). cbn [obind].
  unfold add_to_new, set_labels, mk; cbn [ts_energy ts_labels ts_new ts_pending]; rewrite <- !app_assoc; reflexivity.
Qed.

Lemma tstep_end L new e p :
  fits_u32 e = true ->
  tstep (mk L new e p) OEnd = Some (mk (tl L) (new ++ ftick e ++ p ++ [OEnd]) 0 []).
Proof.
  intros Hf. unfold Meter.tstep. change (ts_labels (mk L new e p)) with L. rewrite Hend. cbn [obind]. cbv zeta.
  change (add_energy (mk L new e p) 0) with (mk L new (e + 0) p).
  rewrite N.add_0_r. rewrite (flush_mk _ _ _ _ Hf). cbn [obind].
  unfold add_to_new, set_labels, mk; cbn [ts_energy ts_labels ts_new ts_pending]; rewrite <- !app_assoc; reflexivity.
Qed.

Lemma tstep_else bt L new e p :
  fits_u32 e = true ->
  tstep (mk (bt :: L) new e p) OElse = Some (mk (bt :: L) (new ++ ftick e ++ p ++ [OElse]) 0 []).
Proof.
  intros Hf. unfold Meter.tstep. change (ts_labels (mk (bt :: L) new e p)) with (bt :: L). rewrite Helse. cbn [obind]. cbv zeta.
  change (add_energy (mk (bt :: L) new e p) 0) with (mk (bt :: L) new (e + 0) p).
  rewrite N.add_0_r. rewrite (flush_mk _ _ _ _ Hf). cbn [obind]. change (ts_labels (mk (bt :: L) (new ++ ftick e ++ p) 0 [])) with (bt :: L). cbv iota.
  unfold add_to_new, mk; cbn [ts_energy ts_labels ts_new ts_pending]; rewrite <- !app_assoc; reflexivity.
Qed.

Definition after_instr (L : list blocktype) (new : list opcode) (e : N) (p : list opcode)
  (hj : N) (pre : list ainstr) (fl : bool) : tstate :=
  if fl then mk L (new ++ ftick (e + hj) ++ p ++ flatten (erase_seq pre)) 0 []
  else mk L new (e + hj) (p ++ flatten (erase_seq pre)).

Definition P_instr (j : instr) : Prop :=
  forall L hj pre fl, mi L j = Some (hj, pre, fl) ->
  forall new e p k, fits_u32 (e + hj) = true ->
  tloop (mk L new e p) (flatten_instr j ++ k) = tloop (after_instr L new e p hj pre fl) k.

Inductive term_ok : opcode -> list blocktype -> list blocktype -> Prop :=
| term_end L : term_ok OEnd L (tl L)
| term_else bt L : term_ok OElse (bt :: L) (bt :: L).

Definition Q_seq (is : list instr) : Prop :=
  forall L h is', mseq L is = Some (h, is') ->
  forall term L' new e p k, term_ok term L L' -> fits_u32 (e + h) = true ->
  tloop (mk L new e p) (flatten is ++ term :: k) =
  tloop (mk L' (new ++ ftick (e + h) ++ p ++ flatten (erase_seq is') ++ [term]) 0 []) k.

Lemma tstep_term term L L' new e p :
  term_ok term L L' -> fits_u32 e = true ->
  tstep (mk L new e p) term = Some (mk L' (new ++ ftick e ++ p ++ [term]) 0 []).
Proof. intros [L0|bt L0] Hf; [apply tstep_end|apply tstep_else]; exact Hf. Qed.

Lemma mseq_nonempty : forall is L h is', mseq L is = Some (h, is') -> is <> [] -> is' <> [].
Proof.
  intros [|j r] L h is' H Hn; [congruence|].
  destruct (mseq_cons_inv _ _ _ _ _ _ _ H) as (hr & r' & hj & pre & fl & _ & Ej & Hc).
  assert (pre <> []).
  { rewrite mi_eq in Ej. destruct j.
    - obind_inv Ej. destruct (kind_of b); try (inversion Ej; subst; discriminate); try discriminate Ej.
      obind_inv Ej. inversion Ej; subst. destruct (brif_rewrite_inv _ _ _ _ _ E1) as [_ [[_ ->]|[_ ->]]]; discriminate.
    - obind_inv Ej. inversion Ej; subst; discriminate.
    - obind_inv Ej. inversion Ej; subst; discriminate.
    - obind_inv Ej. inversion Ej; subst; discriminate. }
  destruct fl; [destruct Hc as (_ & _ & ->)|destruct Hc as (_ & ->)]; destruct pre; congruence || discriminate.
Qed.

Lemma fits_le a b : fits_u32 b = true -> a <= b -> fits_u32 a = true.
Proof. unfold fits_u32. intros H Hl. apply N.leb_le in H. apply N.leb_le. lia. Qed.

Theorem flat_seq : forall is, Q_seq is.
Proof.
  apply (instrs_ind2 P_instr Q_seq).
  - intros b L hj pre fl Hmi new e p k Hf. rewrite mi_eq in Hmi. obind_inv Hmi.
    cbn [flatten_instr app]. rewrite tloop_cons.
    destruct (kind_of b) eqn:Ek.
    + inversion Hmi; subst hj pre fl. rewrite (tstep_pending _ _ _ _ _ _ Ek E). reflexivity.
    + inversion Hmi; subst hj pre fl. rewrite (tstep_flush _ _ _ _ _ _ Ek E Hf). reflexivity.
    + inversion Hmi; subst hj pre fl.
      destruct b; cbn [kind_of] in Ek; try discriminate Ek. inversion Ek; subst idx.
      rewrite (tstep_call _ _ _ _ _ _ E Hf). reflexivity.
    + obind_inv Hmi. inversion Hmi; subst hj pre fl.
      destruct b; cbn [kind_of] in Ek; try discriminate Ek. inversion Ek; subst idx.
      rewrite (tstep_brif _ _ _ _ _ _ _ _ E Hf E0 E1). reflexivity.
    + inversion Hmi; subst hj pre fl.
      destruct b; cbn [kind_of] in Ek; try discriminate Ek.
      rewrite (tstep_memgrow _ _ _ _ _ E). reflexivity.
    + discriminate Hmi.
  - intros bt body IH L hj pre fl Hmi new e p k Hf. rewrite mi_eq in Hmi. obind_inv Hmi.
    inversion Hmi; subst hj pre fl; clear Hmi.
    cbn [flatten_instr app]. rewrite tloop_cons, (tstep_block _ _ _ _ _ _ E). cbn [obind].
    change (flat_map flatten_instr body) with (flatten body). rewrite <- app_assoc. cbn [app].
    rewrite (IH _ _ _ E0 OEnd (tl (bt :: L)) _ _ _ k (term_end _)) by (rewrite <- N.add_assoc; exact Hf).
    unfold after_instr. cbn [tl erase_seq map erase flatten flat_map flatten_instr].
    rewrite N.add_assoc, !app_nil_r, <- !app_assoc. reflexivity.
  - intros bt body IH L hj pre fl Hmi new e p k Hf. rewrite mi_eq in Hmi. obind_inv Hmi.
    inversion Hmi; subst hj pre fl; clear Hmi.
    cbn [flatten_instr app]. rewrite tloop_cons, (tstep_loop _ _ _ _ _ _ E Hf). cbn [obind].
    change (flat_map flatten_instr body) with (flatten body). rewrite <- app_assoc. cbn [app].
    rewrite (IH _ _ _ E0 OEnd (tl (None :: L)) _ _ _ k (term_end _)) by (rewrite N.add_0_l; exact E1).
    unfold after_instr. cbn [tl erase_seq map erase flatten flat_map flatten_instr].
    fold (erase_seq (tick_opt n0 ++ l)). rewrite erase_seq_app. change (flat_map flatten_instr) with flatten.
    rewrite flatten_app, flatten_tick_opt, N.add_0_l, !app_nil_r. cbn [app]. rewrite <- !app_assoc. reflexivity.
  - intros bt thn els IHt IHe L hj pre fl Hmi new e p k Hf. rewrite mi_eq in Hmi. obind_inv Hmi.
    apply andb_prop in E2. destruct E2 as [Eht Ehe].
    inversion Hmi; subst hj pre fl; clear Hmi.
    cbn [flatten_instr app]. rewrite tloop_cons, (tstep_if _ _ _ _ _ _ E Hf). cbn [obind].
    change (flat_map flatten_instr thn) with (flatten thn). change (flat_map flatten_instr els) with (flatten els).
    unfold after_instr. cbn [erase_seq map erase flatten flat_map flatten_instr].
    fold (erase_seq (tick_opt n0 ++ l)). fold (erase_seq (tick_opt n1 ++ l0)).
    change (flat_map flatten_instr) with flatten. rewrite !erase_seq_app, !flatten_app, !flatten_tick_opt, !app_nil_r.
    destruct els as [|e0 els].
    + inversion E1; subst n1 l0. cbn [tick_opt erase_seq map app].
      replace (tick_opt 0) with (@nil ainstr) by reflexivity. cbn [erase_seq map app].
      rewrite <- app_assoc. cbn [app].
      rewrite (IHt _ _ _ E0 OEnd (tl (bt :: L)) _ _ _ k (term_end _)) by (rewrite N.add_0_l; exact Eht).
      cbn [tl]. rewrite N.add_0_l. cbn [app]. rewrite <- !app_assoc. reflexivity.
    + assert (Hne : erase_seq (tick_opt n1) ++ erase_seq l0 <> []).
      { intro Hc. apply app_eq_nil in Hc. destruct Hc as [_ Hc].
        apply (mseq_nonempty _ _ _ _ E1); [discriminate|]. destruct l0; [reflexivity|discriminate]. }
      destruct (erase_seq (tick_opt n1) ++ erase_seq l0) as [|x xs] eqn:Ex; [congruence|]. clear Ex Hne x xs.
      rewrite <- !app_assoc. cbn [app].
      rewrite (IHt _ _ _ E0 OElse (bt :: L) _ _ _ _ (term_else _ _)) by (rewrite N.add_0_l; exact Eht).
      change (flat_map flatten_instr (e0 :: els)) with (flatten (e0 :: els)).
      rewrite <- (app_assoc (flatten (e0 :: els))). cbn [app].
      rewrite (IHe _ _ _ E1 OEnd (tl (bt :: L)) _ _ _ k (term_end _)) by (rewrite N.add_0_l; exact Ehe).
      cbn [tl]. rewrite !N.add_0_l. cbn [app]. rewrite <- !app_assoc. cbn [app]. rewrite <- ?app_assoc. reflexivity.
  - intros L h is' Hm term L' new e p k Ht Hf. inversion Hm; subst. cbn [flatten flat_map app].
    rewrite tloop_cons. rewrite N.add_0_r in *. rewrite (tstep_term _ _ _ _ _ _ Ht Hf). reflexivity.
  - intros j r IHj IHr L h is' Hm term L' new e p k Ht Hf.
    destruct (mseq_cons_inv _ _ _ _ _ _ _ Hm) as (hr & r' & hj & pre & fl & Er & Ej & Hc).
    change (flatten (j :: r)) with (flatten_instr j ++ flatten r). rewrite <- app_assoc.
    destruct fl.
    + destruct Hc as (Es & -> & ->).
      rewrite (IHj _ _ _ _ Ej _ _ _ _ Hf). unfold after_instr.
      rewrite (IHr _ _ _ Er term L' _ _ _ k Ht) by (rewrite N.add_0_l; exact Es).
      rewrite N.add_0_l, !erase_seq_app, !flatten_app, flatten_tick_opt. cbn [app]. rewrite <- !app_assoc. reflexivity.
    + destruct Hc as (-> & ->).
      assert (Hf1 : fits_u32 (e + hj) = true) by (apply (fits_le (e + hj) (e + (hj + hr)) Hf); lia).
      rewrite (IHj _ _ _ _ Ej _ _ _ _ Hf1). unfold after_instr.
      rewrite (IHr _ _ _ Er term L' _ _ _ k Ht) by (rewrite <- N.add_assoc; exact Hf).
      rewrite N.add_assoc, !erase_seq_app, !flatten_app. rewrite <- !app_assoc. reflexivity.
Qed.

Theorem flat_structured_agree_body nl result body b :
  meter_body cfg cx nl result body = Some b ->
  inject_accounting_flat cfg cx nl result (flatten_body body) = Some (flatten_body b).
Proof.
  unfold meter_body, ameter_body. destruct (mseq [result] body) as [[h body']|] eqn:Em; [|discriminate].
  cbn [obind]. destruct (seg_ok (c_invoke_after cfg nl + h)) eqn:Es; [|discriminate].
  intro H; inversion H; subst b; clear H.
  unfold inject_accounting_flat, trun, flatten_body.
  change {| ts_labels := [result]; ts_new := []; ts_energy := c_invoke_after cfg nl; ts_pending := [] |}
    with (mk [result] [] (c_invoke_after cfg nl) []).
  rewrite (flat_seq body [result] h body' Em OEnd (tl [result]) [] _ [] [] (term_end _) Es).
  cbn [Meter.tloop obind ts_pending mk ts_new app tl].
  f_equal. rewrite erase_seq_app, flatten_app. rewrite <- !app_assoc. f_equal.
  unfold ftick. destruct (0 <? c_invoke_after cfg nl + h); reflexivity.
Qed.

End Flat.

(** the whole module: the flat transcription applied to the flattened bodies of [m] gives the
    flattened bodies of [inject cfg m] *)
Theorem flat_structured_agree cfg m m' :
  (forall L, c_cost cfg OEnd L (ctx_of_module m) = Some 0) ->
  (forall L, c_cost cfg OElse L (ctx_of_module m) = Some 0) ->
  inject cfg m = Some m' ->
  inject_flat cfg m (map (fun f => flatten_body (f_body f)) (m_funcs m)) =
  Some (map (fun f => flatten_body (f_body f)) (m_funcs m')).
Proof.
  intros He Hl. unfold inject, inject_flat.
  destruct (omap_list (meter_func cfg m) (m_funcs m)) as [fs|] eqn:E; [|discriminate].
  intro H; inversion H; subst m'; clear H. cbn [m_funcs].
  revert fs E. induction (m_funcs m) as [|f r IH]; intros fs E; cbn [omap_list map combine] in *.
  - inversion E; reflexivity.
  - destruct (meter_func cfg m f) as [f'|] eqn:Ef; [|discriminate].
    destruct (omap_list (meter_func cfg m) r) as [fs'|] eqn:Er; [|discriminate].
    inversion E; subst fs; clear E. cbn [fst snd map]. rewrite (IH fs' eq_refl).
    unfold meter_func in Ef. destruct (nth_error (m_types m) (f_type f)) as [ft|]; [|discriminate].
    destruct (meter_body cfg (ctx_of_module m) _ _ _) as [b|] eqn:Eb; [|discriminate].
    inversion Ef; subst f'; clear Ef. cbn [f_body].
    rewrite (flat_structured_agree_body cfg (ctx_of_module m) He Hl _ _ _ _ Eb). reflexivity.
Qed.
