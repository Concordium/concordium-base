(** * Stage B: structured control (block / loop / if / else / end, br, br_if, return, unreachable) on top
    of the straight-line simulation.  This file: the invariant [inv] between the compiler state and the
    validator state, and what each control opcode does to it.  [blocks_ok] (BlockTheorem.v) names the accepted
    constructs. *)
From Coq Require Import ZArith List Lia .
From CB Require Import Wasm.Syntax Wasm.Compile Wasm.MachineLemmas Wasm.CompileLemmas Wasm.BlockProofs.
Import ListNotations.
Local Open Scope Z_scope.

(** the reserved result register of a value-typed frame is a dynamic location below the bound [B] *)
Definition res_ok (nl B : Z) (r : provider) : Prop :=
  match r with
  | PDyn d => nl <= d < B
  | PLocal i => i = 0 /\ 0 < B     (* the function's own label: RETURN_VALUE_LOCATION *)
  | PConst _ => False
  end.
Definition resv (nl B : Z) (lbl : blocktype) (res : option provider) : Prop :=
  match lbl, res with
  | None, None => True
  | Some _, Some r => res_ok nl B r
  | _, _ => False
  end.
Definition jt_ok (nl B : Z) (f : vframe) (j : jump_target) : Prop :=
  (exists locs res, j = JUnknown locs res /\ (vf_is_if f = true -> locs <> []) /\ resv nl B (vf_label f) res)
  \/ (exists pos, j = JKnown pos /\ vf_is_if f = false /\ vf_label f = None).   (* a loop: the target is its start *)
Definition frame_ok (nl B : Z) (f : vframe) (j : jump_target) : Prop :=
  vf_height f = 0%nat /\ vf_end f = vf_label f /\ jt_ok nl B f j.
Definition no_res (j : jump_target) : Prop := match j with JUnknown _ (Some _) => False | _ => True end.

Definition vmode (v : vstate) : Prop :=
  v_unreach v = None \/
  (v_unreach v = Some (length (v_ctrls v) - 1)%nat /\ v_ctrls v <> [] /\ v_opds v = 0%nat).

Record inv (nl : Z) (s : cstate) (v : vstate) : Prop := {
  i_cwf : cwf nl s;
  i_bp : bpwf s;
  i_len : length (c_stack s) = v_opds v;
  i_frames : Forall2 (frame_ok nl (c_next s)) (v_ctrls v) (c_bp s);
  i_mode : vmode v
}.
Arguments i_cwf {nl s v} _.
Arguments i_bp {nl s v} _.
Arguments i_len {nl s v} _.
Arguments i_frames {nl s v} _.
Arguments i_mode {nl s v} _.

Definition jt_sub (j j' : jump_target) : Prop :=
  (exists locs add res, j = JUnknown locs res /\ j' = JUnknown (locs ++ add) res) \/ (exists pos, j = JKnown pos /\ j' = JKnown pos).
Definition bp_sub (b b' : list jump_target) : Prop := Forall2 jt_sub b b'.
Lemma jt_sub_refl nl B f j : frame_ok nl B f j -> jt_sub j j.
Proof.
  intros (_ & _ & [(locs & res & -> & _)|(pos & -> & _)]); [left; exists locs, [], res; rewrite app_nil_r; auto|right; exists pos; auto].
Qed.
Lemma resv_mono nl B B' lbl res : B <= B' -> resv nl B lbl res -> resv nl B' lbl res.
Proof. intros H. unfold resv, res_ok. destruct lbl, res as [[d|i|]|]; auto; lia. Qed.
Lemma frames_mono nl B B' ctrls bp : B <= B' -> Forall2 (frame_ok nl B) ctrls bp -> Forall2 (frame_ok nl B') ctrls bp.
Proof.
  intros H F. induction F as [|f j ? ? Hf]; constructor; auto.
  destruct Hf as (A & E & [(locs & res & -> & X & R)|(pos & -> & X)]); repeat split; auto.
  - left. exists locs, res. repeat split; auto. eapply resv_mono; eauto.
  - right. exists pos. auto.
Qed.

Lemma bp_sub_refl nl B ctrls bp : Forall2 (frame_ok nl B) ctrls bp -> bp_sub bp bp.
Proof.
  induction 1 as [|f j ? ? Hf]; constructor; auto. eapply jt_sub_refl; eauto.
Qed.
Lemma bp_sub_trans a b d : bp_sub a b -> bp_sub b d -> bp_sub a d.
Proof.
  intros H. revert d. induction H as [|j j' ? ? Hj]; intros d H2; inversion H2 as [|? j'' ? ? Hj2]; subst.
  - constructor.
  - constructor; [|apply IHForall2; assumption].
    destruct Hj as [(locs & add & res & -> & ->)|(pos & -> & ->)], Hj2 as [(l2 & a2 & res2 & E & ->)|(pos2 & E & ->)]; try discriminate E.
    + inversion E; subst. left. exists locs, (add ++ a2), res2. rewrite app_assoc. auto.
    + right. exists pos. auto.
Qed.
Lemma bp_sub_update nl B ctrls : forall bp k locs res x,
  Forall2 (frame_ok nl B) ctrls bp -> nth_error bp k = Some (JUnknown locs res) ->
  bp_sub bp (update_nth bp k (JUnknown (locs ++ [x]) res)).
Proof.
  intros bp k locs res x H. revert k. induction H as [|f j ? ? Hf]; intros [|k] E; cbn in E; try discriminate.
  - inversion E; subst. cbn. constructor; [left; exists locs, [x], res; auto|eapply bp_sub_refl; eauto].
  - cbn. constructor; [|apply IHForall2; exact E]. eapply jt_sub_refl; eauto.
Qed.
Lemma frames_update nl B ctrls : forall bp k locs res x,
  Forall2 (frame_ok nl B) ctrls bp -> nth_error bp k = Some (JUnknown locs res) ->
  Forall2 (frame_ok nl B) ctrls (update_nth bp k (JUnknown (locs ++ [x]) res)).
Proof.
  intros bp k locs res x H. revert k. induction H as [|f j ? ? Hf]; intros [|k] E; cbn in E |- *; try discriminate; constructor; auto.
  inversion E; subst. destruct Hf as (A & C & [(l0 & r0 & E0 & _ & R)|(pos & E0 & _)]); [|discriminate E0]. inversion E0; subst.
  repeat split; auto. left. exists (l0 ++ [x]), r0. repeat split; auto. intros _. destruct l0; discriminate.
Qed.

Lemma mono_eq s s1 : c_next s1 = c_next s -> c_consts s1 = c_consts s -> mono s s1.
Proof. intros A B. apply mono_same; [lia|exact B]. Qed.

Lemma truncate_n_spec nl : forall k s s', truncate_n k s = Some s' -> cwf nl s ->
  same_out s s' /\ c_next s' = c_next s /\ c_consts s' = c_consts s /\ cwf nl s'
  /\ length (c_stack s') = (length (c_stack s) - k)%nat.
Proof.
  induction k as [|k IH]; intros s s' H W; cbn in H.
  - inversion H; subst. unfold same_out. splits; auto. lia.
  - destruct (consume s) as [[p s1]|] eqn:E; [|discriminate].
    destruct (consume_spec nl s p s1 E W) as (Es & (O1 & O2 & O3) & En & Ec & W1 & _).
    destruct (IH s1 s' H W1) as ((P1 & P2 & P3) & Pn & Pc & W2 & Pl).
    unfold same_out. splits; try congruence. rewrite Pl, Es. cbn. lia.
Qed.

Lemma pres_pending_new s s1 x p :
  bpwf s -> (forall y, In y (all_locs (c_bp s1)) -> y = x \/ In y (all_locs (c_bp s))) ->
  (length (c_out s) <= p)%nat -> ~ in_win x p -> ~ pending s1 p.
Proof.
  intros W H Hp Hx (y & Hy & Hw). destruct (H y Hy) as [->|Hy']; [contradiction|].
  destruct (bw_range _ W y Hy'). unfold in_win, cur_off in *. lia.
Qed.

Lemma frames_nth nl B ctrls bp k f : Forall2 (frame_ok nl B) ctrls bp -> nth_error ctrls k = Some f ->
  (exists locs res, nth_error bp k = Some (JUnknown locs res) /\ resv nl B (vf_label f) res)
  \/ (exists pos, nth_error bp k = Some (JKnown pos) /\ vf_label f = None).
Proof.
  intros H E. destruct (Forall2_nth_error _ _ _ _ _ H E) as (j & Ej & _ & _ & [(locs & res & -> & _ & R)|(pos & -> & _ & L)]);
    [left; exists locs, res|right; exists pos]; auto.
Qed.
Lemma target_label_none nl B ctrls bp k f j : Forall2 (frame_ok nl B) ctrls bp -> nth_error ctrls k = Some f ->
  nth_error bp k = Some j -> no_res j -> vf_label f = None.
Proof.
  intros H E Ej Hn. destruct (frames_nth nl B ctrls bp k f H E) as [(locs & res & E1 & R)|(pos & E1 & L)]; auto.
  rewrite E1 in Ej. inversion Ej; subst j. destruct res; [contradiction|]. unfold resv in R. destruct (vf_label f); [contradiction|reflexivity].
Qed.
Lemma target_label_any nl B ctrls bp k f locs r : Forall2 (frame_ok nl B) ctrls bp -> nth_error ctrls k = Some f ->
  nth_error bp k = Some (JUnknown locs (Some r)) -> exists t, vf_label f = Some t /\ res_ok nl B r.
Proof.
  intros H E Ej. destruct (frames_nth nl B ctrls bp k f H E) as [(l0 & res & E1 & R)|(pos & E1 & L)]; [|congruence].
  rewrite E1 in Ej. inversion Ej; subst. unfold resv in R. destruct (vf_label f) as [t|]; [|contradiction].
  exists t. split; [reflexivity|exact R].
Qed.

Lemma reach_of_none v : v_unreach v = None -> v_reachability v = Reachable.
Proof. intros H. unfold v_reachability. rewrite H. reflexivity. Qed.
Lemma reach_of_mode v : vmode v -> v_reachability v <> UnreachableFrame.
Proof.
  intros [H|(H & Hn & _)]; unfold v_reachability; rewrite H; [discriminate|].
  destruct (v_ctrls v) as [|f r]; [contradiction|]. cbn [length].
  destruct (Nat.ltb_spec (S (length r) - 1 + 1) (S (length r))); [lia|discriminate].
Qed.

Lemma checked2 v x s' :
  (if (length (c_stack x) =? v_opds v)%nat then Some x else None) = Some s' -> x = s' /\ length (c_stack s') = v_opds v.
Proof. destruct (Nat.eqb_spec (length (c_stack x)) (v_opds v)); [|discriminate]. intros H; inversion H; subst; auto. Qed.

Lemma frames_cons nl B f r bp : Forall2 (frame_ok nl B) (f :: r) bp ->
  vf_height f = 0%nat /\ vf_end f = vf_label f /\
  exists j bp', bp = j :: bp' /\ Forall2 (frame_ok nl B) r bp' /\ jt_ok nl B f j.
Proof. intros H. inversion H as [|? j ? bp' (A & C & D) Fr']; subst. splits; auto. exists j, bp'. auto. Qed.
Lemma frames_cons_unknown nl B f r locs res bp' : Forall2 (frame_ok nl B) (f :: r) (JUnknown locs res :: bp') ->
  vf_height f = 0%nat /\ vf_end f = vf_label f /\ Forall2 (frame_ok nl B) r bp'
  /\ resv nl B (vf_label f) res /\ (vf_is_if f = true -> locs <> []).
Proof.
  intros H. inversion H as [|? ? ? ? (A & C & [(l0 & r0 & E0 & Hne & R)|(pos & E0 & _)]) Fr']; subst; [|discriminate E0].
  inversion E0; subst. auto.
Qed.
Definition bres (nl B : Z) (bt : blocktype) (res : option provider) : Prop :=
  match bt with None => res = None | Some _ => exists d, res = Some (PDyn d) /\ nl <= d < B end.
Lemma bres_nolocal nl B bt res : bres nl B bt res -> forall i, res <> Some (PLocal i).
Proof. destruct bt; [intros (d & -> & _)|intros ->]; discriminate. Qed.

Lemma bres_resv nl B bt res : bres nl B bt res -> resv nl B bt res.
Proof. destruct bt; [intros (d & -> & H); exact H|intros ->; exact Logic.I]. Qed.

Lemma op_block nl cx s v v1 s1 bt :
  inv nl s v -> v_unreach v = None -> v_opds v = 0%nat ->
  vstep cx v (OBlock bt) = Some v1 -> handle_opcode cx s v1 Reachable (OBlock bt) = Some s1 ->
  exists res, bres nl (c_next s1) bt res /\ c_out s1 = c_out s /\ c_bp s1 = JUnknown [] res :: c_bp s
  /\ c_stack s1 = c_stack s /\ mono s s1 /\ c_last s1 = None /\ inv nl s1 v1 /\ v_unreach v1 = None.
Proof.
  intros I Hu H0 Hv Hh. cbn [vstep] in Hv. inversion Hv; subst v1; clear Hv. destruct I as [W B L Fr Md].
  unfold handle_opcode in Hh. cbv beta iota zeta in Hh.
  assert (W0 : cwf nl (set_last s None)) by (eapply cwf_same; [|exact W]; unfold same_alloc; cbn; tauto).
  (* the state [s2] in which the frame is pushed: after the allocation of the result slot, if any *)
  assert (Hs2 : exists res s2, bres nl (c_next s2) bt res /\ s1 = set_bp s2 (JUnknown [] res :: c_bp s2)
                 /\ c_out s2 = c_out s /\ c_bp s2 = c_bp s /\ c_stack s2 = c_stack s /\ c_next s <= c_next s2
                 /\ c_consts s2 = c_consts s /\ c_last s2 = None /\ cwf nl s2
                 /\ length (c_stack s2) = v_opds (v_push_ctrl false bt bt v)).
  { destruct bt as [t|]; cbv beta iota zeta in Hh.
    - destruct (dyn_get (set_last s None)) as [d s2] eqn:Ed.
      destruct (dyn_get_spec nl _ d s2 Ed W0) as (Hd & Hnr & _ & Es & (O1 & O2 & O3) & Ec & Hn & _ & W2).
      cbn [set_last c_out c_bp c_stack c_next c_consts c_last] in Es, O1, O2, O3, Ec, Hn.
      apply checked2 in Hh. destruct Hh as [<- Hl]. exists (Some (PDyn d)), s2. splits; auto; try lia. exists d. split; [reflexivity|lia].
    - apply checked2 in Hh. destruct Hh as [<- Hl]. exists None, (set_last s None). cbn. splits; auto; lia. }
  destruct Hs2 as (res & s2 & Hres & -> & O1 & O2 & O3 & Hn & Ec & Ol & W2 & Hl).
  cbn [set_bp c_out c_bp c_stack c_next c_reuse c_consts c_last v_push_ctrl v_unreach v_opds v_ctrls] in *.
  exists res. splits; auto.
  - rewrite O2. reflexivity.
  - split; [exact Hn|exists []; rewrite app_nil_r; exact Ec].
  - constructor; cbn [set_bp c_out c_bp c_stack c_next c_reuse c_consts c_last v_push_ctrl v_unreach v_opds v_ctrls]; auto.
    + eapply cwf_same; [|exact W2]. unfold same_alloc; cbn; tauto.
    + eapply (bpwf_same_locs s); [exact B|cbn; rewrite O2; reflexivity|unfold cur_off; cbn; rewrite O1; lia].
    + constructor.
      * repeat split; cbn; auto. left. exists [], res. repeat split; try discriminate. apply bres_resv. exact Hres.
      * rewrite O2. eapply frames_mono; [exact Hn|exact Fr].
    + left. exact Hu.
Qed.

Lemma op_if nl cx s v v1 s1 bt :
  inv nl s v -> v_unreach v = None -> v_opds v = 1%nat ->
  vstep cx v (OIf bt) = Some v1 -> handle_opcode cx s v1 Reachable (OIf bt) = Some s1 ->
  exists p res, c_stack s = [p] /\ pwf nl s p /\ bres nl (c_next s1) bt res
  /\ c_out s1 = c_out s ++ IIf :: i32_bytes (provider_idx p) ++ u32_bytes 0
  /\ c_bp s1 = JUnknown [cur_off s + 5] res :: c_bp s /\ c_stack s1 = [] /\ mono s s1
  /\ c_last s1 = None /\ inv nl s1 v1 /\ v_unreach v1 = None /\ ext s s1.
Proof.
  intros I Hu H1 Hv Hh. destruct I as [W B L Fr Md].
  cbn [vstep] in Hv. unfold v_pop in Hv. destruct (v_ctrls v) as [|f r] eqn:Ec; [discriminate|].
  destruct (frames_cons _ _ _ _ _ Fr) as (Fh & _).
  rewrite H1, Fh in Hv. cbn in Hv. inversion Hv; subst v1; clear Hv.
  unfold handle_opcode in Hh. cbv beta iota zeta in Hh. apply checked in Hh. destruct Hh as [Hh Hl].
  unfold push_consume in Hh.
  assert (W0 : cwf nl (push_op (set_last s None) IIf)) by (eapply cwf_same; [|exact W]; unfold same_alloc; cbn; tauto).
  destruct (consume (push_op (set_last s None) IIf)) as [[p s2]|] eqn:Econs; [|discriminate].
  destruct (consume_spec nl _ p s2 Econs W0) as (Es & (O1 & O2 & O3) & En & Ecs & W2 & Pp).
  cbn [push_op emit set_out set_last c_out c_bp c_stack c_next c_reuse c_consts c_last] in Es, O1, O2, O3, En, Ecs.
  assert (Est : c_stack s2 = []).
  { rewrite Es in L. rewrite H1 in L. cbn in L. destruct (c_stack s2); [reflexivity|cbn in L; lia]. }
  assert (W3 : cwf nl (push_loc s2 p)) by (eapply cwf_same; [|exact W2]; unfold same_alloc; cbn; tauto).
  (* the state [s3] in which the frame is pushed: after the condition's location, and the result slot if any *)
  assert (Hs3 : exists res s3, bres nl (c_next s3) bt res
                  /\ s1 = emit (set_bp s3 (JUnknown [cur_off s3] res :: c_bp s3)) (u32_bytes 0)
                  /\ c_out s3 = c_out s2 ++ i32_bytes (provider_idx p) /\ c_bp s3 = c_bp s2 /\ c_stack s3 = []
                  /\ c_next s <= c_next s3 /\ c_consts s3 = c_consts s /\ c_last s3 = None /\ cwf nl s3).
  { destruct bt as [t|]; cbv beta iota zeta in Hh.
    - destruct (dyn_get (push_loc s2 p)) as [d s3] eqn:Ed.
      destruct (dyn_get_spec nl _ d s3 Ed W3) as (Hd & _ & _ & Es3 & (P1 & P2 & P3) & Pc & Pn & _ & W4).
      cbn [push_loc emit set_out c_out c_bp c_stack c_next c_consts c_last] in Es3, P1, P2, P3, Pc, Pn.
      injection Hh as <-. exists (Some (PDyn d)), s3. splits; auto; try congruence; try lia. exists d. split; [reflexivity|lia].
    - injection Hh as <-. exists None, (push_loc s2 p). cbn [push_loc emit set_out c_out c_bp c_stack c_next c_consts c_last].
      splits; auto; try congruence; try lia. }
  destruct Hs3 as (res & s3 & Hres & -> & P1 & P2 & P3 & Pn & Pc & Pl & W4). clear Hh.
  assert (Eoff : cur_off s3 = cur_off s + 5).
  { unfold cur_off. rewrite P1, O1, !app_length, i32_bytes_length. cbn [length]. lia. }
  cbn [emit set_out set_bp c_out c_bp c_stack c_next c_reuse c_consts c_last] in *. rewrite Eoff in *.
  set (s1 := emit (set_bp s3 (JUnknown [cur_off s + 5] res :: c_bp s3)) (u32_bytes 0)).
  assert (F1 : c_out s1 = c_out s ++ IIf :: i32_bytes (provider_idx p) ++ u32_bytes 0).
  { unfold s1. cbn. rewrite P1, O1, <- !app_assoc. reflexivity. }
  assert (F2 : c_bp s1 = JUnknown [cur_off s + 5] res :: c_bp s) by (unfold s1; cbn; rewrite P2, O2; reflexivity).
  assert (Eco : cur_off s1 = cur_off s + 9).
  { unfold cur_off. rewrite F1, !app_length. cbn [length]. rewrite app_length, i32_bytes_length, u32_bytes_length. lia. }
  assert (Eal : all_locs (c_bp s1) = [] ++ (cur_off s + 5) :: all_locs (c_bp s)) by (rewrite F2; reflexivity).
  exists p, res. rewrite Est in Es.
  split; [exact Es|]. split; [destruct p; cbn in Pp |- *; auto|]. split; [exact Hres|]. split; [exact F1|]. split; [exact F2|].
  split; [exact P3|]. split; [split; [exact Pn|exists []; rewrite app_nil_r; exact Pc]|]. split; [exact Pl|]. split; [|split; [exact Hu|]].
  - constructor.
    + eapply cwf_same; [|exact W4]. unfold same_alloc. repeat split.
    + eapply (bpwf_add s s1 (cur_off s + 5) [] (all_locs (c_bp s))); auto; lia.
    + cbn. rewrite P3. reflexivity.
    + rewrite F2. constructor.
      * repeat split; cbn; auto. left. exists [cur_off s + 5], res. repeat split; try discriminate. apply bres_resv. exact Hres.
      * eapply frames_mono; [exact Pn|exact Fr].
    + left. exact Hu.
  - eapply (ext_add s s1 _ (cur_off s + 5) [] (all_locs (c_bp s))); eauto; lia.
Qed.

Lemma reach_term v : v_unreach v = Some (length (v_ctrls v) - 1)%nat -> v_ctrls v <> [] ->
  v_reachability v = UnreachableInstruction.
Proof.
  intros H Hn. unfold v_reachability. rewrite H. destruct (v_ctrls v) as [|f r]; [contradiction|]. cbn [length].
  destruct (Nat.ltb_spec (S (length r) - 1 + 1) (S (length r))); [lia|reflexivity].
Qed.

Lemma handle_end cx s v reach locs bp' :
  reach = Reachable \/ reach = UnreachableInstruction -> c_bp s = JUnknown locs None :: bp' ->
  handle_opcode cx s v reach OEnd =
  let s1 := fold_left (fun acc l => back_patch acc l (cur_off s)) locs (set_bp (set_last s None) bp') in
  if (length (c_stack s1) =? v_opds v)%nat then Some s1 else None.
Proof.
  intros [->| ->] E; unfold handle_opcode; cbv beta iota zeta; cbn [set_last c_bp]; rewrite E; reflexivity.
Qed.

Lemma mode_reach v : vmode v -> v_reachability v = Reachable \/ v_reachability v = UnreachableInstruction.
Proof. intros [H|(H & Hn & _)]; [left; apply reach_of_none; auto|right; apply reach_term; auto]. Qed.

Lemma pop_ctrl_inv nl B v f r bp :
  vmode v -> v_ctrls v = f :: r -> Forall2 (frame_ok nl B) (f :: r) bp -> vf_label f = None ->
  forall x, v_pop_ctrl v = Some x ->
  v_opds v = 0%nat /\ x = (None, vf_is_if f, {| v_opds := 0; v_ctrls := r; v_unreach := None |}).
Proof.
  intros Md Ec Fr Fl x H. destruct (frames_cons _ _ _ _ _ Fr) as (Fh & Fe & _). rewrite Fl in Fe.
  unfold v_pop_ctrl in H. rewrite Ec, Fe in H. cbn [bt_arity v_popn] in H. rewrite Fh in H.
  destruct (Nat.eqb_spec (v_opds v) 0) as [E0|]; [|discriminate]. split; [exact E0|].
  inversion H; subst x; clear H. rewrite E0. do 3 f_equal.
  destruct Md as [->|(Hu & _ & _)]; [reflexivity|]. rewrite Hu, Ec. cbn [length].
  replace (S (length r) - 1)%nat with (length r) by lia. rewrite Nat.eqb_refl. reflexivity.
Qed.

Lemma handle_end_known cx s v reach pos bp' :
  reach = Reachable \/ reach = UnreachableInstruction -> c_bp s = JKnown pos :: bp' -> v_opds v = 0%nat ->
  handle_opcode cx s v reach OEnd =
  if (length (c_stack s) =? 0)%nat then Some (set_bp (set_last s None) bp') else None.
Proof.
  intros [->| ->] E H0; unfold handle_opcode; cbv beta iota zeta; cbn [set_last c_bp]; rewrite E;
    cbn [set_bp c_stack negb andb]; rewrite H0;
    replace (length (c_stack s) <? 0)%nat with false by (symmetry; apply Nat.ltb_ge; lia); reflexivity.
Qed.

Lemma op_end_loop nl cx s v v1 s1 pos bp' :
  inv nl s v -> c_bp s = JKnown pos :: bp' ->
  vstep cx v OEnd = Some v1 -> handle_opcode cx s v1 (v_reachability v) OEnd = Some s1 ->
  c_bp s1 = bp' /\ c_stack s = [] /\ c_stack s1 = []
  /\ c_next s1 = c_next s /\ c_consts s1 = c_consts s /\ c_last s1 = None /\ cur_off s1 = cur_off s /\ ext s s1
  /\ inv nl s1 v1 /\ v_unreach v1 = None.
Proof.
  intros I Ebp Hv Hh. destruct I as [W B L Fr Md].
  cbn [vstep] in Hv. destruct (v_pop_ctrl v) as [[[res isif] v2]|] eqn:Ep; [|discriminate].
  destruct (v_ctrls v) as [|f r] eqn:Ec; [unfold v_pop_ctrl in Ep; rewrite Ec in Ep; discriminate|].
  destruct (frames_cons _ _ _ _ _ Fr) as (_ & _ & j & bp0 & Ebp0 & Fr' & Hjt).
  rewrite Ebp in Ebp0. inversion Ebp0; subst j bp0; clear Ebp0.
  assert (Fl : vf_label f = None) by (destruct Hjt as [(l0 & r0 & E0 & _)|(p0 & _ & _ & Fl)]; [discriminate E0|exact Fl]).
  destruct (pop_ctrl_inv nl _ v f r (c_bp s) Md Ec Fr Fl _ Ep) as [E0 Ex]. inversion Ex; subst res isif v2; clear Ex.
  cbn [bt_arity v_pushn] in Hv. inversion Hv; subst v1; clear Hv.
  assert (Est : c_stack s = []) by (destruct (c_stack s); [reflexivity|cbn in L; lia]).
  rewrite (handle_end_known cx s {| v_opds := 0; v_ctrls := r; v_unreach := None |} _ pos bp' (mode_reach v Md) Ebp eq_refl) in Hh. rewrite Est in Hh. cbn in Hh.
  inversion Hh; subst s1; clear Hh. cbn [set_bp set_last c_out c_bp c_stack c_next c_reuse c_consts c_last].
  splits; auto.
  - apply (ext_same_locs s _ []); cbn; [rewrite app_nil_r; reflexivity|rewrite Ebp; reflexivity].
  - constructor; cbn [v_opds v_ctrls v_unreach set_bp set_last c_out c_bp c_stack c_next c_reuse c_consts c_last]; auto.
    + eapply cwf_same; [|exact W]. unfold same_alloc. cbn. auto.
    + eapply (bpwf_same_locs s); [exact B|cbn; rewrite Ebp; reflexivity|unfold cur_off; cbn; lia].
    + rewrite Est. reflexivity.
    + left. reflexivity.
Qed.

Lemma op_loop nl cx s v v1 s1 :
  inv nl s v -> v_unreach v = None -> v_opds v = 0%nat ->
  vstep cx v (OLoop None) = Some v1 -> handle_opcode cx s v1 Reachable (OLoop None) = Some s1 ->
  c_out s1 = c_out s /\ c_bp s1 = JKnown (cur_off s) :: c_bp s /\ same_alloc s s1 /\ c_last s1 = None
  /\ inv nl s1 v1 /\ v_unreach v1 = None.
Proof.
  intros I Hu H0 Hv Hh. cbn [vstep] in Hv. inversion Hv; subst v1; clear Hv.
  unfold handle_opcode in Hh. cbv beta iota zeta in Hh. apply checked2 in Hh. destruct Hh as [Hh Hl].
  subst s1. cbn [set_bp set_last c_out c_bp c_stack c_next c_reuse c_consts c_last v_push_ctrl v_unreach v_opds v_ctrls] in *.
  change (cur_off (set_last s None)) with (cur_off s).
  splits; auto; try (unfold same_alloc; cbn; tauto).
  destruct I as [W B L Fr Md]. constructor; cbn; auto.
  - eapply cwf_same; [|exact W]. unfold same_alloc; cbn; tauto.
  - destruct B as [B1 B2 B3]. constructor; cbn; auto.
  - constructor; auto. repeat split; cbn; auto. right. eexists; repeat split; reflexivity.
  - left. exact Hu.
Qed.

Lemma frames_mark nl B f r bp : Forall2 (frame_ok nl B) (f :: r) bp ->
  Forall2 (frame_ok nl B) ({| vf_is_if := vf_is_if f; vf_label := vf_label f; vf_end := vf_end f; vf_height := vf_height f;
                       vf_unreachable := true |} :: r) bp.
Proof. intros H. inversion H as [|? j ? bp' (A & C & D) Fr']; subst. constructor; auto. repeat split; auto. Qed.

Lemma overwrite_app : forall (a b : list N) pos bs, (pos + length bs <= length a)%nat ->
  overwrite (a ++ b) pos bs = overwrite a pos bs ++ b.
Proof.
  induction a as [|x a IH]; intros b pos bs H.
  - cbn in H. assert (pos = O) by lia. assert (length bs = O) by lia. destruct bs; [|discriminate]. subst. cbn.
    destruct b; reflexivity.
  - destruct pos as [|pos]; cbn [overwrite app].
    + rewrite <- app_assoc. f_equal. change (x :: a ++ b) with ((x :: a) ++ b). rewrite skipn_app.
      replace (length bs - length (x :: a))%nat with O by lia. cbn [skipn]. reflexivity.
    + f_equal. apply IH. cbn in H. lia.
Qed.

Lemma handle_else cx s v reach locs bp' :
  reach = Reachable \/ reach = UnreachableInstruction -> c_bp s = JUnknown locs None :: bp' ->
  handle_opcode cx s v reach OElse =
  let s1 := emit (set_bp (push_op (set_last s None) IBr) (JUnknown (locs ++ [cur_off s + 1]) None :: bp')) (u32_bytes 0) in
  let r := match locs ++ [cur_off s + 1] with
           | first :: rest => Some (back_patch (set_bp s1 (JUnknown rest None :: bp')) first (cur_off s + 5))
           | [] => None
           end in
  match r with Some s' => if (length (c_stack s') =? v_opds v)%nat then Some s' else None | None => None end.
Proof.
  assert (E1 : cur_off (push_op (set_last s None) IBr) = cur_off s + 1).
  { unfold cur_off. cbn. rewrite app_length. cbn. lia. }
  assert (E2 : forall A, cur_off (emit (set_bp (push_op (set_last s None) IBr) A) (u32_bytes 0)) = cur_off s + 5).
  { intros A. unfold cur_off. cbn [emit set_out set_bp push_op set_last c_out]. rewrite !app_length, u32_bytes_length. cbn [length]. lia. }
  intros [->| ->] E; unfold handle_opcode; cbv beta iota zeta; unfold push_br_jump; cbn [set_last c_bp nth_error]; rewrite E;
    unfold insert_jump_location; cbn [push_op emit set_out c_bp set_last nth_error]; rewrite E;
    fold (push_op (set_last s None) IBr); rewrite E1;
    cbn [emit set_out set_bp c_bp update_nth];
    destruct (locs ++ [cur_off s + 1]) as [|first rest] eqn:El; try reflexivity; rewrite E2; reflexivity.
Qed.

Lemma bp_target nl s v k f : inv nl s v -> nth_error (v_ctrls v) k = Some f ->
  (exists locs res, nth_error (c_bp s) k = Some (JUnknown locs res)) \/ (exists pos, nth_error (c_bp s) k = Some (JKnown pos)).
Proof.
  intros I E. destruct (frames_nth _ _ _ _ k f (i_frames I) E) as [(locs & res & H & _)|(pos & H & _)]; [left; eauto|right; eauto].
Qed.

Lemma br_target cx v k v1 : vstep cx v (OBasic (BBr k)) = Some v1 -> exists f, nth_error (v_ctrls v) k = Some f.
Proof. cbn [vstep]. unfold label_type. destruct (nth_error (v_ctrls v) k); [eauto|discriminate]. Qed.
Lemma br_if_target cx v k v1 : vstep cx v (OBasic (BBrIf k)) = Some v1 -> exists f, nth_error (v_ctrls v) k = Some f.
Proof. cbn [vstep]. unfold label_type. destruct (nth_error (v_ctrls v) k); [eauto|discriminate]. Qed.

Lemma terminated_state nl s f r s2 s1 (t : list N) :
  bpwf s -> Forall2 (frame_ok nl (c_next s)) (f :: r) (c_bp s) ->
  c_out s2 = c_out s ++ t -> c_bp s2 = c_bp s -> c_last s2 = None -> c_next s2 = c_next s -> c_consts s2 = c_consts s ->
  cwf nl s2 -> truncate_n (length (c_stack s2) - vf_height f) s2 = Some s1 ->
  length (c_stack s1) = vf_height f ->
  c_out s1 = c_out s ++ t /\ c_bp s1 = c_bp s /\ c_stack s1 = [] /\ c_next s1 = c_next s /\ c_consts s1 = c_consts s
  /\ c_last s1 = None
  /\ inv nl s1 {| v_opds := vf_height f;
                  v_ctrls := {| vf_is_if := vf_is_if f; vf_label := vf_label f; vf_end := vf_end f;
                                vf_height := vf_height f; vf_unreachable := true |} :: r;
                  v_unreach := Some (length r) |}
  /\ ext s s1.
Proof.
  intros B Fr S1 S2 S3 S4 S5 W2 Hh Hl.
  destruct (truncate_n_spec nl _ s2 s1 Hh W2) as ((O1 & O2 & O3) & En & Ecs & W1 & Ln).
  destruct (frames_cons _ _ _ _ _ Fr) as (Fh & _).
  assert (Est : c_stack s1 = []) by (destruct (c_stack s1); [reflexivity|cbn in Hl; rewrite Fh in Hl; discriminate]).
  assert (X : ext s s1) by (eapply ext_append; [rewrite O1; exact S1|congruence]).
  splits; auto; try congruence.
  constructor; cbn [v_opds v_ctrls v_unreach]; auto.
  - eapply bpwf_same_locs; [exact B|rewrite O2, S2; reflexivity|destruct X as [Hle _]; unfold cur_off; lia].
  - rewrite O2, S2, En, S4. apply frames_mark. exact Fr.
  - right. cbn [v_unreach v_ctrls v_opds length]. splits; auto; try discriminate. f_equal. lia.
Qed.

Lemma op_unreachable nl cx s v v1 s1 :
  inv nl s v -> v_unreach v = None ->
  vstep cx v (OBasic BUnreachable) = Some v1 -> handle_opcode cx s v1 Reachable (OBasic BUnreachable) = Some s1 ->
  c_out s1 = c_out s ++ [IUnreachable] /\ c_bp s1 = c_bp s
  /\ c_stack s1 = [] /\ c_next s1 = c_next s /\ c_consts s1 = c_consts s /\ c_last s1 = None
  /\ inv nl s1 v1 /\ v_unreach v1 <> None /\ ext s s1.
Proof.
  intros I Hu Hv Hh. destruct I as [W B L Fr Md].
  cbn [vstep] in Hv. unfold v_mark_unreachable in Hv. destruct (v_ctrls v) as [|f r] eqn:Ec; [discriminate|]. rewrite Hu in Hv.
  inversion Hv; subst v1; clear Hv.
  unfold handle_opcode in Hh. cbv beta iota zeta in Hh. apply checked in Hh. destruct Hh as [Hh Hl].
  cbn [v_opds] in Hh, Hl. unfold truncate in Hh.
  set (s2 := push_op (set_last s None) IUnreachable) in *.
  assert (W2 : cwf nl s2) by (eapply cwf_same; [|exact W]; unfold same_alloc; cbn; tauto).
  destruct (terminated_state nl s f r s2 s1 [IUnreachable] B Fr eq_refl eq_refl eq_refl eq_refl eq_refl W2 Hh Hl)
    as (A1 & A2 & A3 & A4 & A5 & A6 & A7 & A8).
  splits; auto. cbn. discriminate.
Qed.

Definition copy_res (p r : provider) : list N :=
  if provider_eqb p r then [] else ICopy :: i32_bytes (provider_idx p) ++ i32_bytes (provider_idx r).
Definition copy_bytes (p : provider) (d : Z) : list N :=
  if provider_eqb p (PDyn d) then [] else ICopy :: i32_bytes (provider_idx p) ++ i32_bytes d.
Lemma copy_if_needed_out s p r : c_out (copy_if_needed s p r) = c_out s ++ copy_res p r
  /\ c_bp (copy_if_needed s p r) = c_bp s /\ same_alloc s (copy_if_needed s p r)
  /\ c_last (copy_if_needed s p r) = c_last s.
Proof.
  unfold copy_if_needed, copy_res. destruct (provider_eqb p r).
  - rewrite app_nil_r. unfold same_alloc. repeat split; auto.
  - cbn [push_loc push_op emit set_out c_out c_bp c_last]. rewrite <- !app_assoc. unfold same_alloc. cbn. repeat split; auto.
Qed.

(** closing a value-typed frame: [sm] is the state after the result has been moved into the reserved
    register; the pending jumps of the frame are then patched to the offset after that move *)
Lemma end_val_tail s sm s1 locs res bp' t :
  bpwf s -> c_bp s = JUnknown locs res :: bp' -> c_bp sm = bp' -> c_last sm = None -> c_out sm = c_out s ++ t ->
  s1 = fold_left (fun acc l => back_patch acc l (cur_off sm)) locs sm ->
  c_bp s1 = bp' /\ c_stack s1 = c_stack sm /\ c_next s1 = c_next sm /\ c_reuse s1 = c_reuse sm /\ c_consts s1 = c_consts sm
  /\ c_last s1 = None /\ cur_off s1 = cur_off s + Z.of_nat (length t) /\ bpwf s1 /\ ext s s1
  /\ (forall loc, In loc locs -> resolved s1 loc (cur_off s1))
  /\ (forall j, (j < length t)%nat -> nth (length (c_out s) + j) (c_out s1) 0%N = nth j t 0%N
                                     /\ ~ pending s1 (length (c_out s) + j)).
Proof.
  intros B Ebp Em El Eo Hs1.
  set (sx := set_bp sm (JUnknown locs res :: bp')).
  assert (Esm : sm = set_bp sx bp').
  { unfold sx. destruct sm. cbn in *. subst. reflexivity. }
  assert (Ecx : cur_off sx = cur_off s + Z.of_nat (length t)).
  { unfold cur_off, sx. cbn [set_bp c_out]. rewrite Eo, app_length. lia. }
  assert (Bx : bpwf sx).
  { eapply (bpwf_same_locs s); [exact B|unfold sx; cbn [set_bp c_bp]; rewrite Ebp; reflexivity|lia]. }
  assert (Xx : ext s sx) by (eapply (ext_append s sx t); [exact Eo|unfold sx; cbn [set_bp c_bp]; rewrite Ebp; reflexivity]).
  rewrite Esm in Hs1. change (cur_off (set_bp sx bp')) with (cur_off sx) in Hs1.
  destruct (end_patch sx locs bp' _ s1 Bx eq_refl Hs1) as (A1 & A2 & A3 & A4 & A5 & A6 & A7 & A8 & A9 & A10).
  change (c_last sx) with (c_last sm) in A6. rewrite El in A6.
  splits; auto; try lia.
  - eapply ext_trans; eauto.
  - intros loc Hl. rewrite A7. apply A10. exact Hl.
  - intros j Hj. destruct A9 as [_ A9].
    assert (Hq : (length (c_out s) + j < length (c_out sx))%nat) by (unfold sx; cbn [set_bp c_out]; rewrite Eo, app_length; lia).
    assert (Hnp : ~ pending sx (length (c_out s) + j)).
    { intros (loc & Hl & Hw). unfold sx in Hl. cbn [set_bp c_bp] in Hl. rewrite <- Ebp in Hl.
      destruct (bw_range _ B loc Hl). unfold in_win, cur_off in *. lia. }
    destruct (A9 _ Hq Hnp) as [E1 N1]. split; [|exact N1].
    rewrite E1. unfold sx. cbn [set_bp c_out]. rewrite Eo, app_nth2 by lia. f_equal. lia.
Qed.

Lemma handle_end_val_r cx s v locs res bp' :
  c_bp s = JUnknown locs (Some res) :: bp' ->
  handle_opcode cx s v Reachable OEnd =
  match consume (set_bp (set_last s None) bp') with
  | Some (p, s2) =>
      let s3 := provide_existing (copy_if_needed s2 p res) res in
      let s4 := fold_left (fun acc l => back_patch acc l (cur_off s3)) locs s3 in
      if (length (c_stack s4) =? v_opds v)%nat then Some s4 else None
  | None => None
  end.
Proof.
  intros E. unfold handle_opcode. cbv beta iota zeta. cbn [set_last c_bp]. rewrite E.
  destruct (consume (set_bp (set_last s None) bp')) as [[p s2]|]; reflexivity.
Qed.
Lemma handle_end_val_u cx s v locs res bp' :
  c_bp s = JUnknown locs (Some res) :: bp' -> length (c_stack s) <> v_opds v ->
  handle_opcode cx s v UnreachableInstruction OEnd =
  let s3 := provide_existing (set_bp (set_last s None) bp') res in
  let s4 := fold_left (fun acc l => back_patch acc l (cur_off s3)) locs s3 in
  if (length (c_stack s4) =? v_opds v)%nat then Some s4 else None.
Proof.
  intros E Hn. unfold handle_opcode. cbv beta iota zeta. cbn [set_last c_bp]. rewrite E.
  change (c_stack (set_bp (set_last s None) bp')) with (c_stack s). apply Nat.eqb_neq in Hn. rewrite Hn. reflexivity.
Qed.

Definition ostack (res : option provider) : list provider := match res with Some r => [r] | None => [] end.

Lemma provide_existing_fields s p :
  c_out (provide_existing s p) = c_out s /\ c_bp (provide_existing s p) = c_bp s /\ c_stack (provide_existing s p) = p :: c_stack s
  /\ c_next (provide_existing s p) = c_next s /\ c_consts (provide_existing s p) = c_consts s /\ c_last (provide_existing s p) = c_last s.
Proof. destruct p; cbn; repeat split. Qed.

Lemma op_end nl cx s v v1 s1 locs res bp' :
  inv nl s v -> c_bp s = JUnknown locs res :: bp' ->
  vstep cx v OEnd = Some v1 -> handle_opcode cx s v1 (v_reachability v) OEnd = Some s1 ->
  exists t, c_bp s1 = bp' /\ c_stack s1 = ostack res
  /\ c_next s1 = c_next s /\ c_consts s1 = c_consts s /\ c_last s1 = None /\ ext s s1
  /\ cur_off s1 = cur_off s + Z.of_nat (length t)
  /\ (forall loc, In loc locs -> resolved s1 loc (cur_off s1))
  /\ (forall j, (j < length t)%nat -> nth (length (c_out s) + j) (c_out s1) 0%N = nth j t 0%N
                                     /\ ~ pending s1 (length (c_out s) + j))
  /\ ((forall i, res <> Some (PLocal i)) -> inv nl s1 v1) /\ v_unreach v1 = None
  /\ match res, v_unreach v with
     | Some r, None => exists p, c_stack s = [p] /\ pwf nl s p /\ res_ok nl (c_next s) r /\ t = copy_res p r
     | _, _ => c_stack s = [] /\ t = []
     end.
Proof.
  intros I Ebp Hv Hh. destruct I as [W B L Fr Md].
  destruct (v_ctrls v) as [|f r] eqn:Ec; [cbn [vstep] in Hv; unfold v_pop_ctrl in Hv; rewrite Ec in Hv; discriminate|].
  destruct (frames_cons_unknown nl (c_next s) f r locs res bp') as (Fh & Fe & Fr' & Hres & _); [rewrite <- Ebp; exact Fr|].
  assert (W0 : cwf nl (set_bp (set_last s None) bp')) by (eapply cwf_same; [|exact W]; unfold same_alloc; cbn; tauto).
  assert (Tail : forall sm t, c_bp sm = bp' -> c_last sm = None -> c_out sm = c_out s ++ t -> c_stack sm = ostack res ->
            c_next sm = c_next s -> c_consts sm = c_consts s -> ((forall i, res <> Some (PLocal i)) -> cwf nl sm) ->
            s1 = fold_left (fun acc l => back_patch acc l (cur_off sm)) locs sm ->
            v1 = {| v_opds := length (ostack res); v_ctrls := r; v_unreach := None |} ->
            c_bp s1 = bp' /\ c_stack s1 = ostack res /\ c_next s1 = c_next s /\ c_consts s1 = c_consts s /\ c_last s1 = None /\ ext s s1
            /\ cur_off s1 = cur_off s + Z.of_nat (length t)
            /\ (forall loc, In loc locs -> resolved s1 loc (cur_off s1))
            /\ (forall j, (j < length t)%nat -> nth (length (c_out s) + j) (c_out s1) 0%N = nth j t 0%N /\ ~ pending s1 (length (c_out s) + j))
            /\ ((forall i, res <> Some (PLocal i)) -> inv nl s1 v1) /\ v_unreach v1 = None).
  { intros sm t Em El Eo Es En Ecs Wm Hs1 ->.
    destruct (end_val_tail s sm s1 locs res bp' t B Ebp Em El Eo Hs1) as (A1 & A2 & A3 & A4 & A5 & A6 & A7 & A8 & A9 & A10 & A11).
    splits; auto; try congruence.
    intros Hnl. constructor; cbn [v_opds v_ctrls v_unreach]; auto.
    - eapply cwf_same; [|exact (Wm Hnl)]. unfold same_alloc. auto.
    - rewrite A2, Es. reflexivity.
    - rewrite A1, A3, En. exact Fr'.
    - left. reflexivity. }
  unfold resv in Hres. destruct (vf_label f) as [t0|] eqn:Fl; destruct res as [r0|]; try contradiction; cbn [ostack length] in Tail.
  -
    assert (Hv1 : v1 = {| v_opds := 1; v_ctrls := r; v_unreach := None |} /\
                  ((v_unreach v = None /\ v_opds v = 1%nat) \/ (v_unreach v <> None /\ v_opds v = 0%nat))).
    { cbn [vstep] in Hv. unfold v_pop_ctrl in Hv. rewrite Ec, Fe in Hv. cbn [bt_arity v_popn] in Hv.
      unfold v_pop in Hv. rewrite Ec, Fh in Hv.
      destruct Md as [Hu|(Hu & _ & H0)].
      - destruct (Nat.eqb_spec (v_opds v) 0) as [E0|Hne].
        + (* nothing to consume: the compiler fails *)
          exfalso. rewrite (reach_of_none v Hu) in Hh. rewrite (handle_end_val_r cx s v1 locs r0 bp' Ebp) in Hh.
          unfold consume in Hh. cbn [set_bp set_last c_stack] in Hh.
          destruct (c_stack s); [discriminate|]. cbn in L. lia.
        + cbn [v_opds v_ctrls v_unreach] in Hv.
          destruct (Nat.eqb_spec (pred (v_opds v)) 0); [|discriminate]. rewrite Hu in Hv.
          cbn [bt_arity v_pushn v_push v_opds v_ctrls v_unreach] in Hv. rewrite e in Hv. inversion Hv. split; [reflexivity|]. left. split; [exact Hu|lia].
      - rewrite H0 in Hv. cbn [Nat.eqb] in Hv. destruct (vf_unreachable f); [|discriminate]. rewrite H0 in Hv. cbn [Nat.eqb] in Hv.
        rewrite Hu, Ec in Hv. cbn [length] in Hv. replace (S (length r) - 1)%nat with (length r) in Hv by lia.
        rewrite Nat.eqb_refl in Hv. cbn [bt_arity v_pushn v_push v_opds v_ctrls v_unreach] in Hv. inversion Hv.
        split; [reflexivity|]. right. split; [rewrite Hu; discriminate|exact H0]. }
    destruct Hv1 as [Ev1 Hcase]. clear Hv.
    assert (Wd : forall sx, cwf nl sx -> c_next sx = c_next s -> (forall i, Some r0 <> Some (PLocal i)) -> cwf nl (provide_existing sx r0)).
    { intros sx Wx Ex Hnl. destruct r0 as [d|i|k0]; [|exfalso; apply (Hnl i); reflexivity|destruct Hres].
      apply cwf_provide_dyn; [exact Wx|rewrite Ex; exact Hres]. }
    destruct Hcase as [[Hu H1]|[Hu H0]].
    + rewrite (reach_of_none v Hu) in Hh. rewrite (handle_end_val_r cx s _ locs r0 bp' Ebp) in Hh.
      destruct (consume (set_bp (set_last s None) bp')) as [[p s2]|] eqn:Econs; [|discriminate].
      destruct (consume_spec nl _ p s2 Econs W0) as (Es & (O1 & O2 & O3) & En & Ecs & W2 & Pp).
      cbn [set_bp set_last c_out c_bp c_stack c_next c_reuse c_consts c_last] in Es, O1, O2, O3, En, Ecs.
      cbv zeta in Hh. apply checked2 in Hh. destruct Hh as [Hs1 _]. symmetry in Hs1.
      assert (Est : c_stack s2 = []).
      { rewrite Es in L. rewrite H1 in L. cbn in L. destruct (c_stack s2); [reflexivity|cbn in L; lia]. }
      destruct (copy_if_needed_out s2 p r0) as (C1 & C2 & (C3 & C4 & C5 & C6) & C7).
      set (sc := copy_if_needed s2 p r0) in *.
      assert (Wc : cwf nl sc) by (eapply cwf_same; [|exact W2]; unfold same_alloc; auto).
      destruct (provide_existing_fields sc r0) as (Q1 & Q2 & Q3 & Q4 & Q5 & Q6).
      assert (T1 : c_bp (provide_existing sc r0) = bp') by congruence.
      assert (T2 : c_last (provide_existing sc r0) = None) by congruence.
      assert (T3 : c_out (provide_existing sc r0) = c_out s ++ copy_res p r0) by congruence.
      assert (T4 : c_stack (provide_existing sc r0) = [r0]) by congruence.
      assert (T5 : c_next (provide_existing sc r0) = c_next s) by congruence.
      assert (T6 : c_consts (provide_existing sc r0) = c_consts s) by congruence.
      assert (Wm : (forall i, Some r0 <> Some (PLocal i)) -> cwf nl (provide_existing sc r0)) by (apply Wd; [exact Wc|congruence]).
      destruct (Tail _ _ T1 T2 T3 T4 T5 T6 Wm Hs1 Ev1) as (A1 & A2 & A3 & A4 & A5 & A6 & A7 & A8 & A9 & A10 & A11).
      exists (copy_res p r0). splits; auto. rewrite Hu. exists p. rewrite Est in Es. splits; auto.
    + assert (Hreach : v_reachability v = UnreachableInstruction).
      { destruct Md as [Hm|(Hm & Hn & _)]; [contradiction|]. apply reach_term; auto. }
      rewrite Hreach in Hh.
      assert (Est : c_stack s = []) by (destruct (c_stack s); [reflexivity|cbn in L; lia]).
      rewrite (handle_end_val_u cx s _ locs r0 bp' Ebp) in Hh by (rewrite Est, Ev1; cbn; discriminate).
      cbv zeta in Hh. apply checked2 in Hh. destruct Hh as [Hs1 _]. symmetry in Hs1.
      destruct (provide_existing_fields (set_bp (set_last s None) bp') r0) as (Q1 & Q2 & Q3 & Q4 & Q5 & Q6).
      assert (T3 : c_out (provide_existing (set_bp (set_last s None) bp') r0) = c_out s ++ []) by (rewrite Q1, app_nil_r; reflexivity).
      assert (T4 : c_stack (provide_existing (set_bp (set_last s None) bp') r0) = [r0]) by (rewrite Q3; cbn [set_bp set_last c_stack]; rewrite Est; reflexivity).
      destruct (Tail _ _ Q2 Q6 T3 T4 Q4 Q5 (Wd _ W0 eq_refl) Hs1 Ev1) as (A1 & A2 & A3 & A4 & A5 & A6 & A7 & A8 & A9 & A10 & A11).
      exists []. splits; auto. destruct (v_unreach v); [auto|contradiction].
  -
    cbn [vstep] in Hv. destruct (v_pop_ctrl v) as [[[res isif] v2]|] eqn:Ep; [|discriminate].
    destruct (pop_ctrl_inv nl _ v f r (c_bp s) Md Ec Fr Fl _ Ep) as [E0 Ex]. inversion Ex; subst res isif v2; clear Ex.
    cbn [bt_arity v_pushn] in Hv. inversion Hv as [Ev1]; clear Hv.
    assert (Est : c_stack s = []) by (destruct (c_stack s); [reflexivity|cbn in L; lia]).
    rewrite (handle_end cx s _ _ locs bp' (mode_reach v Md) Ebp) in Hh. cbv zeta in Hh. apply checked2 in Hh.
    destruct Hh as [Hs1 _]. symmetry in Hs1.
    assert (T3 : c_out (set_bp (set_last s None) bp') = c_out s ++ []) by (cbn; rewrite app_nil_r; reflexivity).
    destruct (Tail (set_bp (set_last s None) bp') [] eq_refl eq_refl T3 Est eq_refl eq_refl (fun _ => W0) Hs1 (eq_sym Ev1))
      as (A1 & A2 & A3 & A4 & A5 & A6 & A7 & A8 & A9 & A10 & A11).
    exists []. rewrite Ev1. splits; auto.
Qed.

Lemma copy_bytes_length p d : length (copy_bytes p d) = if provider_eqb p (PDyn d) then 0%nat else 9%nat.
Proof. unfold copy_bytes. destruct (provider_eqb p (PDyn d)); [reflexivity|]. cbn [length]. rewrite app_length, !i32_bytes_length. reflexivity. Qed.

Definition jpos (j : jump_target) : Z := match j with JKnown pos => pos | JUnknown _ _ => 0 end.
Definition jres (j : jump_target) : option provider := match j with JKnown _ => None | JUnknown _ res => res end.
Definition jadd (j : jump_target) (x : Z) : jump_target :=
  match j with JKnown pos => JKnown pos | JUnknown locs res => JUnknown (locs ++ [x]) res end.

Lemma nth_error_update_nth {A} : forall (bp : list A) k j x, nth_error bp k = Some j -> nth_error (update_nth bp k x) k = Some x.
Proof. induction bp as [|y r IH]; intros [|k] j x H; cbn in *; try discriminate; eauto. Qed.
Lemma update_nth_same {A} : forall (bp : list A) k j, nth_error bp k = Some j -> update_nth bp k j = bp.
Proof. induction bp as [|y r IH]; intros [|k] j H; cbn in *; try discriminate; [inversion H; reflexivity|f_equal; eauto]. Qed.

Lemma insert_jump nl B ctrls s sc opc k j s3 t :
  bpwf s -> Forall2 (frame_ok nl B) ctrls (c_bp s) -> nth_error (c_bp s) k = Some j ->
  c_bp sc = c_bp s -> c_out sc = c_out s ++ t ->
  insert_jump_location (push_op sc opc) k = Some s3 ->
  c_out s3 = c_out sc ++ opc :: u32_bytes (jpos j) /\ c_bp s3 = update_nth (c_bp s) k (jadd j (cur_off sc + 1))
  /\ c_stack s3 = c_stack sc /\ c_next s3 = c_next sc /\ c_reuse s3 = c_reuse sc /\ c_consts s3 = c_consts sc /\ c_last s3 = c_last sc
  /\ (forall y, In y (all_locs (c_bp s3)) -> (y = cur_off sc + 1 /\ j <> JKnown (jpos j)) \/ In y (all_locs (c_bp s)))
  /\ bp_sub (c_bp s) (c_bp s3)
  /\ forall s1 t1, c_out s1 = c_out s3 ++ t1 -> c_bp s1 = c_bp s3 ->
       bpwf s1 /\ ext s s1 /\ Forall2 (frame_ok nl B) ctrls (c_bp s1).
Proof.
  intros Bw Fr Enth Eb Eo Hi. set (x := cur_off sc + 1).
  unfold insert_jump_location in Hi. change (c_bp (push_op sc opc)) with (c_bp sc) in Hi. rewrite Eb, Enth in Hi.
  assert (Ex : cur_off (push_op sc opc) = x) by (unfold x, cur_off; cbn; rewrite app_length; cbn; lia).
  assert (Hle : cur_off s <= cur_off sc) by (unfold cur_off; rewrite Eo, app_length; lia).
  destruct j as [pos|locs res]; cbn [jpos jadd].
  - injection Hi as Hs3.
    assert (F1 : c_out s3 = c_out sc ++ opc :: u32_bytes pos) by (subst s3; cbn; rewrite <- app_assoc; reflexivity).
    assert (F2 : c_bp s3 = c_bp s) by (subst s3; cbn; exact Eb).
    rewrite (update_nth_same _ _ _ Enth). splits; auto; try (subst s3; reflexivity).
    + intros y Hy. right. rewrite <- F2. exact Hy.
    + rewrite F2. eapply bp_sub_refl; eauto.
    + intros s1 t1 E1 Eb1.
      assert (X : ext s s1) by (eapply (ext_append s s1 (t ++ opc :: u32_bytes pos ++ t1)); [rewrite E1, F1, Eo, <- !app_assoc; reflexivity|congruence]).
      splits; auto.
      * eapply bpwf_same_locs; [exact Bw|rewrite Eb1, F2; reflexivity|destruct X as [Hl _]; unfold cur_off; lia].
      * rewrite Eb1, F2. exact Fr.
  - rewrite Ex in Hi. injection Hi as Hs3.
    assert (F1 : c_out s3 = c_out sc ++ opc :: u32_bytes 0) by (subst s3; cbn; rewrite <- app_assoc; reflexivity).
    assert (F2 : c_bp s3 = update_nth (c_bp s) k (JUnknown (locs ++ [x]) res)) by (subst s3; reflexivity).
    destruct (all_locs_update (c_bp s) k locs res x Enth) as (A & Bl & EA & EB). rewrite <- F2 in EB.
    splits; auto; try (subst s3; reflexivity).
    + intros y Hy. rewrite EB in Hy. rewrite EA. apply in_app_iff in Hy. cbn in Hy. rewrite in_app_iff.
      destruct Hy as [Hy|[<-|Hy]]; auto. left. split; [reflexivity|discriminate].
    + rewrite F2. eapply bp_sub_update; eauto.
    + intros s1 t1 E1 Eb1. rewrite <- Eb1 in EB.
      assert (Eo1 : c_out s1 = c_out s ++ t ++ opc :: u32_bytes 0 ++ t1) by (rewrite E1, F1, Eo, <- !app_assoc; reflexivity).
      assert (Ecur : x + 4 <= cur_off s1).
      { unfold x, cur_off. rewrite Eo1, Eo, !app_length. cbn [length]. rewrite app_length, u32_bytes_length. lia. }
      splits.
      * eapply (bpwf_add s s1 x A Bl); auto; unfold x; lia.
      * eapply (ext_add s s1 _ x A Bl); eauto. unfold x. lia.
      * rewrite Eb1, F2. eapply frames_update; eauto.
Qed.

Lemma op_br_if nl cx s v v1 s1 k j :
  inv nl s v -> v_unreach v = None -> nth_error (c_bp s) k = Some j -> jres j = None ->
  vstep cx v (OBasic (BBrIf k)) = Some v1 -> handle_opcode cx s v1 Reachable (OBasic (BBrIf k)) = Some s1 ->
  exists p rest, c_stack s = p :: rest /\ pwf nl s p
  /\ c_out s1 = c_out s ++ IBrIf :: u32_bytes (jpos j) ++ i32_bytes (provider_idx p)
  /\ nth_error (c_bp s1) k = Some (jadd j (cur_off s + 1))
  /\ (forall y, In y (all_locs (c_bp s1)) -> (y = cur_off s + 1 /\ j <> JKnown (jpos j)) \/ In y (all_locs (c_bp s)))
  /\ c_stack s1 = rest /\ c_next s1 = c_next s /\ c_consts s1 = c_consts s /\ c_last s1 = None
  /\ inv nl s1 v1 /\ v_unreach v1 = None /\ ext s s1 /\ bp_sub (c_bp s) (c_bp s1).
Proof.
  intros I Hu Enth Hnr Hv Hh. destruct I as [W B L Fr Md].
  cbn [vstep] in Hv. unfold label_type in Hv. destruct (nth_error (v_ctrls v) k) as [fk|] eqn:Ek; [|discriminate].
  assert (Fl : vf_label fk = None).
  { apply (target_label_none _ _ _ _ k fk j Fr Ek Enth). destruct j as [pos|locs [r|]]; cbn; auto. discriminate Hnr. }
  rewrite Fl in Hv.
  destruct (v_pop v) as [v2|] eqn:Epop; [|discriminate]. cbn [bt_arity v_popn v_pushn] in Hv. inversion Hv; subst v2; clear Hv.
  unfold handle_opcode in Hh. cbv beta iota zeta in Hh. apply checked in Hh. destruct Hh as [Hh Hl].
  assert (W0 : cwf nl (set_last s None)) by (eapply cwf_same; [|exact W]; unfold same_alloc; cbn; tauto).
  destruct (consume (set_last s None)) as [[p s2]|] eqn:Econs; [|discriminate].
  destruct (consume_spec nl _ p s2 Econs W0) as (Es & (O1 & O2 & O3) & En & Ecs & W2 & Pp).
  cbn [set_last c_out c_bp c_stack c_next c_reuse c_consts c_last] in Es, O1, O2, O3, En, Ecs.
  unfold push_br_if_jump in Hh. rewrite O2, Enth in Hh.
  assert (Hi : exists s3, insert_jump_location (push_op s2 IBrIf) k = Some s3 /\ s1 = push_loc s3 p).
  { destruct j as [pos|locs [r|]]; [|discriminate Hnr|];
      (destruct (insert_jump_location (push_op s2 IBrIf) k) as [s3|]; [|discriminate]); inversion Hh; eauto. }
  destruct Hi as (s3 & Hi & Hs1). clear Hh.
  assert (Eo2 : c_out s2 = c_out s ++ []) by (rewrite app_nil_r; exact O1).
  destruct (insert_jump nl _ _ s s2 IBrIf k j s3 [] B Fr Enth O2 Eo2 Hi) as (J1 & J2 & J3 & J4 & J5 & J6 & J7 & J8 & J9 & J10).
  assert (Eco : cur_off s2 = cur_off s) by (unfold cur_off; rewrite O1; reflexivity). rewrite Eco in J2, J8.
  destruct (J10 s1 (i32_bytes (provider_idx p))) as (B1 & X1 & Fr1); [subst s1; reflexivity|subst s1; reflexivity|].
  assert (Ev : v_unreach v1 = None /\ v_ctrls v1 = v_ctrls v /\ vmode v1).
  { unfold v_pop in Epop. destruct (v_ctrls v) as [|f r] eqn:Ec; [discriminate|].
    destruct (v_opds v =? vf_height f)%nat; [destruct (vf_unreachable f); [|discriminate]|];
      inversion Epop; subst v1; cbn; rewrite ?Ec; splits; auto; left; auto. }
  destruct Ev as (Ev1 & Ev2 & Ev3).
  assert (F1 : c_out s1 = c_out s ++ IBrIf :: u32_bytes (jpos j) ++ i32_bytes (provider_idx p)).
  { subst s1. cbn [push_loc emit set_out c_out]. rewrite J1, O1, <- app_assoc. reflexivity. }
  assert (F2 : c_bp s1 = c_bp s3) by (subst s1; reflexivity).
  assert (F3 : c_stack s1 = c_stack s2) by (subst s1; cbn; exact J3).
  assert (F4 : c_next s1 = c_next s) by (subst s1; cbn; congruence).
  assert (F5 : c_consts s1 = c_consts s) by (subst s1; cbn; congruence).
  assert (F6 : c_last s1 = None) by (subst s1; cbn; congruence).
  assert (F7 : c_reuse s1 = c_reuse s2) by (subst s1; cbn; exact J5).
  clear Hs1.
  exists p, (c_stack s2). splits; auto; try congruence.
  - rewrite F2, J2. eapply nth_error_update_nth; eauto.
  - intros y Hy. rewrite F2 in Hy. exact (J8 y Hy).
  - constructor; auto.
    + eapply cwf_same; [|exact W2]. unfold same_alloc. splits; congruence.
    + rewrite Ev2, F4. exact Fr1.
Qed.

Lemma op_br nl cx s v v1 s1 k j :
  inv nl s v -> v_unreach v = None -> nth_error (c_bp s) k = Some j ->
  vstep cx v (OBasic (BBr k)) = Some v1 -> handle_opcode cx s v1 Reachable (OBasic (BBr k)) = Some s1 ->
  exists cp,
    match jres j with
    | Some r => exists p rest, c_stack s = p :: rest /\ pwf nl s p /\ res_ok nl (c_next s) r /\ cp = copy_res p r
    | None => cp = []
    end
    /\ c_out s1 = c_out s ++ cp ++ IBr :: u32_bytes (jpos j)
    /\ nth_error (c_bp s1) k = Some (jadd j (cur_off s + Z.of_nat (length cp) + 1))
    /\ (forall y, In y (all_locs (c_bp s1)) ->
          (y = cur_off s + Z.of_nat (length cp) + 1 /\ j <> JKnown (jpos j)) \/ In y (all_locs (c_bp s)))
    /\ c_stack s1 = [] /\ c_next s1 = c_next s /\ c_consts s1 = c_consts s /\ c_last s1 = None
    /\ inv nl s1 v1 /\ v_unreach v1 <> None /\ ext s s1 /\ bp_sub (c_bp s) (c_bp s1).
Proof.
  intros I Hu Enth Hv Hh. destruct I as [W B L Fr Md].
  cbn [vstep] in Hv. unfold label_type in Hv. destruct (nth_error (v_ctrls v) k) as [fk|] eqn:Ek; [|discriminate].
  assert (Hlab : match jres j with
                 | Some r => (exists t0, vf_label fk = Some t0) /\ res_ok nl (c_next s) r
                 | None => vf_label fk = None
                 end).
  { destruct (frames_nth _ _ _ _ k fk Fr Ek) as [(locs & res & E1 & R)|(pos & E1 & Lb)]; rewrite E1 in Enth; inversion Enth; subst j; cbn [jres].
    - unfold resv in R. destruct (vf_label fk), res; try contradiction; eauto.
    - exact Lb. }
  destruct (v_ctrls v) as [|f r0] eqn:Ec; [destruct k; discriminate|].
  assert (Hv1 : v1 = {| v_opds := vf_height f;
                        v_ctrls := {| vf_is_if := vf_is_if f; vf_label := vf_label f; vf_end := vf_end f;
                                      vf_height := vf_height f; vf_unreachable := true |} :: r0;
                        v_unreach := Some (length r0) |}).
  { destruct (jres j) as [r|]; [destruct Hlab as [(t0 & Fl) _]; rewrite Fl in Hv|rewrite Hlab in Hv]; cbn [bt_arity v_popn] in Hv.
    - unfold v_pop in Hv. rewrite Ec in Hv.
      destruct (v_opds v =? vf_height f)%nat; [destruct (vf_unreachable f); [|discriminate]|];
        unfold v_mark_unreachable in Hv; cbn [v_ctrls v_unreach] in Hv; rewrite ?Ec, Hu in Hv; inversion Hv; reflexivity.
    - unfold v_mark_unreachable in Hv. rewrite Ec, Hu in Hv. inversion Hv; reflexivity. }
  subst v1. clear Hv. destruct (frames_cons _ _ _ _ _ Fr) as (Fh & _).
  unfold handle_opcode in Hh. cbv beta iota zeta in Hh. apply checked in Hh. destruct Hh as [Hh Hl].
  cbn [v_opds] in Hh, Hl.
  unfold push_br_jump in Hh. cbn [set_last c_bp] in Hh. rewrite Enth in Hh.
  assert (W0 : cwf nl (set_last s None)) by (eapply cwf_same; [|exact W]; unfold same_alloc; cbn; tauto).
  assert (Fin : forall sc cp, c_out sc = c_out s ++ cp -> c_bp sc = c_bp s -> c_next sc = c_next s -> c_consts sc = c_consts s ->
            c_last sc = None -> cwf nl sc ->
            match insert_jump_location (push_op sc IBr) k with Some s2 => truncate s2 (vf_height f) | None => None end = Some s1 ->
            c_out s1 = c_out s ++ cp ++ IBr :: u32_bytes (jpos j)
            /\ nth_error (c_bp s1) k = Some (jadd j (cur_off s + Z.of_nat (length cp) + 1))
            /\ (forall y, In y (all_locs (c_bp s1)) ->
                  (y = cur_off s + Z.of_nat (length cp) + 1 /\ j <> JKnown (jpos j)) \/ In y (all_locs (c_bp s)))
            /\ c_stack s1 = [] /\ c_next s1 = c_next s /\ c_consts s1 = c_consts s /\ c_last s1 = None
            /\ inv nl s1 {| v_opds := vf_height f;
                            v_ctrls := {| vf_is_if := vf_is_if f; vf_label := vf_label f; vf_end := vf_end f;
                                          vf_height := vf_height f; vf_unreachable := true |} :: r0;
                            v_unreach := Some (length r0) |}
            /\ Some (length r0) <> None /\ ext s s1 /\ bp_sub (c_bp s) (c_bp s1)).
  { intros sc cp Eo Eb En Ecs El Wsc Ht.
    destruct (insert_jump_location (push_op sc IBr) k) as [s3|] eqn:Ei; [|discriminate].
    destruct (insert_jump nl _ _ s sc IBr k j s3 cp B Fr Enth Eb Eo Ei) as (J1 & J2 & J3 & J4 & J5 & J6 & J7 & J8 & J9 & J10).
    assert (W3 : cwf nl s3) by (eapply cwf_same; [|exact Wsc]; unfold same_alloc; auto).
    unfold truncate in Ht. destruct (truncate_n_spec nl _ s3 s1 Ht W3) as ((T1 & T2 & T3) & Tn & Tc & W1 & Ln).
    assert (Est : c_stack s1 = []) by (destruct (c_stack s1); [reflexivity|cbn in Hl; rewrite Fh in Hl; discriminate]).
    assert (Ecs' : cur_off sc = cur_off s + Z.of_nat (length cp)) by (unfold cur_off; rewrite Eo, app_length; lia).
    destruct (J10 s1 [] ltac:(rewrite app_nil_r; exact T1) T2) as (B1 & X1 & Fr1).
    splits; try congruence; try discriminate.
    - rewrite T1, J1, Eo, <- app_assoc. reflexivity.
    - rewrite T2, J2, <- Ecs'. eapply nth_error_update_nth; eauto.
    - intros y Hy. rewrite T2 in Hy. rewrite <- Ecs'. exact (J8 y Hy).
    - constructor; cbn [v_opds v_ctrls v_unreach]; auto.
      + rewrite Tn, J4, En. apply frames_mark. exact Fr1.
      + right. cbn [v_unreach v_ctrls v_opds length]. splits; auto; try discriminate. f_equal. lia. }
  destruct j as [pos|locs [r|]]; cbn [jres] in Hlab |- *.
  - exists []. split; [reflexivity|]. apply (Fin (set_last s None) []); auto. cbn. rewrite app_nil_r. reflexivity.
  - destruct (consume (set_last s None)) as [[p s2]|] eqn:Econs; [|discriminate].
    destruct (consume_spec nl _ p s2 Econs W0) as (Es & (O1 & O2 & O3) & En & Ecs & W2 & Pp).
    cbn [set_last c_out c_bp c_stack c_next c_reuse c_consts c_last] in Es, O1, O2, O3, En, Ecs.
    destruct (copy_if_needed_out s2 p r) as (C1 & C2 & (C3 & C4 & C5 & C6) & C7).
    exists (copy_res p r). split.
    + exists p, (c_stack s2). split; [exact Es|]. split; [destruct p; cbn in Pp |- *; auto|]. split; [apply Hlab|reflexivity].
    + apply (Fin (copy_if_needed s2 p r)); try congruence.
      eapply cwf_same; [|exact W2]. unfold same_alloc. auto.
  - exists []. split; [reflexivity|]. apply (Fin (set_last s None) []); auto. cbn. rewrite app_nil_r. reflexivity.
Qed.

Lemma else_tail sc first more res bp' s1 :
  bpwf sc -> c_bp sc = JUnknown (first :: more) res :: bp' ->
  s1 = back_patch (set_bp (emit (set_bp (push_op sc IBr) (JUnknown ((first :: more) ++ [cur_off sc + 1]) res :: bp')) (u32_bytes 0))
                          (JUnknown (more ++ [cur_off sc + 1]) res :: bp')) first (cur_off sc + 5) ->
  exists pre, length pre = length (c_out sc) /\ c_out s1 = pre ++ IBr :: u32_bytes 0
    /\ c_bp s1 = JUnknown (more ++ [cur_off sc + 1]) res :: bp' /\ same_alloc sc s1 /\ c_last s1 = c_last sc
    /\ cur_off s1 = cur_off sc + 5 /\ bpwf s1 /\ ext sc s1 /\ resolved s1 first (cur_off sc + 5).
Proof.
  intros B Ebp Hs1.
  (* [sy]: [first] patched before the jump is emitted; the two steps commute *)
  set (sy := back_patch (set_bp sc (JUnknown more res :: bp')) first (cur_off sc + 5)).
  destruct (end_patch sc [first] (JUnknown more res :: bp') (cur_off sc + 5) sy B ltac:(rewrite Ebp; reflexivity) eq_refl)
    as (A1 & _ & _ & _ & _ & _ & A7 & By & Xy & Ry).
  destruct (bw_range _ B first) as [Hf0 Hf1]; [rewrite Ebp; left; reflexivity|].
  assert (F1 : c_out s1 = c_out sy ++ IBr :: u32_bytes 0).
  { subst s1. cbn [sy back_patch set_out set_bp emit push_op c_out]. rewrite <- app_assoc. cbn [app].
    apply overwrite_app. rewrite u32_bytes_length. unfold cur_off in Hf1. lia. }
  assert (F2 : c_bp s1 = JUnknown (more ++ [cur_off sc + 1]) res :: bp') by (subst s1; reflexivity).
  assert (F3 : same_alloc sc s1) by (subst s1; unfold same_alloc; cbn; auto).
  assert (F6 : c_last s1 = c_last sc) by (subst s1; reflexivity).
  clear Hs1.
  assert (Hall1 : all_locs (c_bp s1) = more ++ (cur_off sc + 1) :: all_locs bp').
  { rewrite F2. cbn [all_locs flat_map locs_of]. rewrite <- app_assoc. reflexivity. }
  assert (Ecur : cur_off s1 = cur_off sc + 5).
  { rewrite <- A7. unfold cur_off. rewrite F1, app_length. cbn [length]. rewrite u32_bytes_length. lia. }
  assert (X1 : ext sy s1) by (eapply (ext_add sy s1 _ (cur_off sc + 1) more (all_locs bp')); eauto; lia).
  exists (c_out sy). splits; auto.
  - unfold cur_off in A7. lia.
  - eapply (bpwf_add sy s1 (cur_off sc + 1) more (all_locs bp')); eauto; lia.
  - eapply ext_trans; eauto.
  - eapply resolved_ext; [apply Ry; left; reflexivity|exact X1].
Qed.

Lemma op_else nl cx s v v1 s1 locs res bp' :
  inv nl s v -> c_bp s = JUnknown locs res :: bp' -> (res <> None -> v_unreach v = None) ->
  vstep cx v OElse = Some v1 -> handle_opcode cx s v1 (v_reachability v) OElse = Some s1 ->
  exists first more t,
    locs = first :: more
    /\ c_bp s1 = JUnknown (more ++ [cur_off s + Z.of_nat (length t) + 1]) res :: bp'
    /\ (forall j, (j < length (t ++ [IBr]))%nat ->
          nth (length (c_out s) + j) (c_out s1) 0%N = nth j (t ++ [IBr]) 0%N /\ ~ pending s1 (length (c_out s) + j))
    /\ c_stack s1 = [] /\ c_next s1 = c_next s /\ c_consts s1 = c_consts s /\ c_last s1 = None
    /\ cur_off s1 = cur_off s + Z.of_nat (length t) + 5
    /\ ext s s1 /\ resolved s1 first (cur_off s1) /\ inv nl s1 v1 /\ v_unreach v1 = None
    /\ match res with
       | Some r => exists p, c_stack s = [p] /\ pwf nl s p /\ res_ok nl (c_next s) r /\ t = copy_res p r
       | None => c_stack s = [] /\ t = []
       end.
Proof.
  intros I Ebp Hur Hv Hh. destruct I as [W B L Fr Md].
  destruct (v_ctrls v) as [|f r] eqn:Ec; [cbn [vstep] in Hv; unfold v_pop_ctrl in Hv; rewrite Ec in Hv; discriminate|].
  destruct (frames_cons_unknown nl (c_next s) f r locs res bp') as (Fh & Fe & Fr' & Hres & Hne); [rewrite <- Ebp; exact Fr|].
  (* [sc]: the state in which the jump over the else branch is emitted; [t]: the bytes emitted since [s] *)
  assert (Common : forall sc t, vf_is_if f = true -> c_out sc = c_out s ++ t -> c_bp sc = c_bp s -> c_stack sc = [] ->
            c_next sc = c_next s -> c_consts sc = c_consts s -> c_last sc = None -> cwf nl sc ->
            (forall first more, locs = first :: more ->
               s1 = back_patch (set_bp (emit (set_bp (push_op sc IBr) (JUnknown ((first :: more) ++ [cur_off sc + 1]) res :: bp')) (u32_bytes 0))
                          (JUnknown (more ++ [cur_off sc + 1]) res :: bp')) first (cur_off sc + 5)) ->
            v1 = v_push_ctrl false (vf_label f) (vf_label f) {| v_opds := 0; v_ctrls := r; v_unreach := None |} ->
            exists first more, locs = first :: more
              /\ c_bp s1 = JUnknown (more ++ [cur_off s + Z.of_nat (length t) + 1]) res :: bp'
              /\ (forall j, (j < length (t ++ [IBr]))%nat ->
                    nth (length (c_out s) + j) (c_out s1) 0%N = nth j (t ++ [IBr]) 0%N /\ ~ pending s1 (length (c_out s) + j))
              /\ c_stack s1 = [] /\ c_next s1 = c_next s /\ c_consts s1 = c_consts s /\ c_last s1 = None
              /\ cur_off s1 = cur_off s + Z.of_nat (length t) + 5
              /\ ext s s1 /\ resolved s1 first (cur_off s1) /\ inv nl s1 v1 /\ v_unreach v1 = None).
  { intros sc t Eif Eosc Ebsc0 Essc Ensc Ecsc0 Elsc Wsc Hs1 ->.
    destruct locs as [|first more]; [exfalso; apply (Hne Eif); reflexivity|]. specialize (Hs1 first more eq_refl).
    assert (Ebsc : c_bp sc = JUnknown (first :: more) res :: bp') by (rewrite Ebsc0; exact Ebp).
    assert (Ecsc : cur_off sc = cur_off s + Z.of_nat (length t)) by (unfold cur_off; rewrite Eosc, app_length; lia).
    assert (Bsc : bpwf sc) by (eapply (bpwf_same_locs s); [exact B|rewrite Ebsc, Ebp; reflexivity|lia]).
    assert (Xsc : ext s sc) by (eapply (ext_append s sc _ Eosc); exact Ebsc0).
    destruct (else_tail sc first more res bp' s1 Bsc Ebsc Hs1) as (pre & Lp & F1 & F2 & (F3 & F4 & F5 & F6) & F7 & Ecur & B1 & X1 & Rs).
    exists first, more. split; [reflexivity|]. split; [rewrite F2, Ecsc; reflexivity|]. split.
    { intros j Hj. rewrite app_length in Hj. cbn [length] in Hj.
      assert (Hpend1 : forall q, (length (c_out s) <= q)%nat -> ~ in_win (cur_off sc + 1) q -> ~ pending s1 q).
      { intros q Hq Hw (y & Hy & Hwy). rewrite F2 in Hy. cbn [all_locs flat_map locs_of] in Hy. rewrite <- app_assoc in Hy.
        apply in_app_iff in Hy. cbn in Hy.
        assert (Hold : In y (all_locs (c_bp s)) -> False).
        { intros Hin. destruct (bw_range _ B y Hin). unfold in_win, cur_off in *. lia. }
        destruct Hy as [Hy|[<-|Hy]]; [apply Hold; rewrite Ebp; cbn; right; apply in_or_app; auto|contradiction|
          apply Hold; rewrite Ebp; cbn; right; apply in_or_app; auto]. }
      split; [|apply Hpend1; [lia|unfold in_win, cur_off in *; rewrite Eosc, app_length; lia]].
      destruct (Nat.lt_ge_cases j (length t)) as [Hlt|Hge].
      - destruct X1 as [_ X1].
        assert (Hq : (length (c_out s) + j < length (c_out sc))%nat) by (rewrite Eosc, app_length; lia).
        assert (Hnp : ~ pending sc (length (c_out s) + j)).
        { intros (y & Hy & Hwy). rewrite Ebsc, <- Ebp in Hy. destruct (bw_range _ B y Hy). unfold in_win, cur_off in *. lia. }
        destruct (X1 _ Hq Hnp) as [E _]. rewrite E, Eosc, app_nth2 by lia. rewrite app_nth1 by lia. f_equal. lia.
      - assert (j = length t) by lia. subst j. rewrite F1.
        replace (length (c_out s) + length t)%nat with (length pre) by (rewrite Lp, Eosc, app_length; reflexivity).
        rewrite app_nth2 by lia. rewrite Nat.sub_diag. rewrite app_nth2 by lia. rewrite Nat.sub_diag. reflexivity. }
    split; [rewrite F3; exact Essc|]. split; [rewrite F4; exact Ensc|]. split; [rewrite F6; exact Ecsc0|].
    split; [rewrite F7; exact Elsc|]. split; [rewrite Ecur, Ecsc; lia|].
    split; [eapply ext_trans; eauto|]. split; [rewrite Ecur; exact Rs|]. split; [|reflexivity].
    constructor; cbn [v_push_ctrl v_opds v_ctrls v_unreach]; auto.
    - eapply cwf_same; [|exact Wsc]. unfold same_alloc. repeat split; congruence.
    - rewrite F3, Essc. reflexivity.
    - rewrite F2, F4, Ensc. constructor; [|exact Fr']. repeat split; cbn; auto. left.
      exists (more ++ [cur_off sc + 1]), res. repeat split; try discriminate; auto.
    - left. reflexivity. }
  assert (W0 : cwf nl (set_last s None)) by (eapply cwf_same; [|exact W]; unfold same_alloc; cbn; tauto).
  unfold resv in Hres. destruct (vf_label f) as [t0|] eqn:Fl; destruct res as [r0|]; try contradiction.
  - (* with a result: reachable by assumption *)
    pose proof (Hur ltac:(discriminate)) as Hu. rewrite (reach_of_none v Hu) in Hh.
    unfold handle_opcode in Hh. cbv beta iota zeta in Hh. apply checked in Hh. destruct Hh as [Hh Hl].
    unfold push_br_jump in Hh. cbn [set_last c_bp nth_error] in Hh. rewrite Ebp in Hh.
    destruct (consume (set_last s None)) as [[p s2]|] eqn:Econs; [|discriminate].
    destruct (consume_spec nl _ p s2 Econs W0) as (Es & (O1 & O2 & O3) & En & Ecs & W2 & Pp).
    cbn [set_last c_out c_bp c_stack c_next c_reuse c_consts c_last] in Es, O1, O2, O3, En, Ecs.
    assert (Hv1 : v1 = v_push_ctrl false (Some t0) (Some t0) {| v_opds := 0; v_ctrls := r; v_unreach := None |}
                  /\ v_opds v = 1%nat /\ vf_is_if f = true).
    { cbn [vstep] in Hv. unfold v_pop_ctrl in Hv. rewrite Ec, Fe in Hv. cbn [bt_arity v_popn] in Hv.
      unfold v_pop in Hv. rewrite Ec, Fh in Hv.
      destruct (Nat.eqb_spec (v_opds v) 0) as [E0|Hne0]; [exfalso; rewrite Es in L; cbn in L; lia|].
      cbn [v_opds v_ctrls v_unreach] in Hv. destruct (Nat.eqb_spec (pred (v_opds v)) 0); [|discriminate]. rewrite Hu in Hv.
      destruct (vf_is_if f); [|discriminate]. inversion Hv. rewrite e. repeat split; auto. lia. }
    destruct Hv1 as (Ev1 & H1 & Eif). clear Hv.
    assert (Est : c_stack s2 = []).
    { rewrite Es in L. rewrite H1 in L. cbn in L. destruct (c_stack s2); [reflexivity|cbn in L; lia]. }
    destruct (copy_if_needed_out s2 p r0) as (C1 & C2 & (C3 & C4 & C5 & C6) & C7).
    set (sc := copy_if_needed s2 p r0) in *.
    destruct (Common sc (copy_res p r0) Eif) as (first & more & K); try congruence.
    { eapply cwf_same; [|exact W2]. unfold same_alloc. auto. }
    { intros first more ->. unfold insert_jump_location in Hh. change (c_bp (push_op sc IBr)) with (c_bp sc) in Hh. rewrite C2, O2, Ebp in Hh.
      cbn [nth_error update_nth] in Hh.
      assert (E1 : cur_off (push_op sc IBr) = cur_off sc + 1).
      { unfold cur_off. cbn [push_op emit set_out c_out]. rewrite app_length. cbn [length]. lia. }
      assert (E2 : forall A, cur_off (emit (set_bp (push_op sc IBr) A) (u32_bytes 0)) = cur_off sc + 5).
      { intros A. unfold cur_off. cbn [emit set_out set_bp push_op c_out]. rewrite !app_length, u32_bytes_length. cbn [length]. lia. }
      rewrite E1 in Hh. cbn [emit set_out set_bp c_bp app] in Hh.
      rewrite <- (E2 (JUnknown ((first :: more) ++ [cur_off sc + 1]) (Some r0) :: bp')). inversion Hh. reflexivity. }
    exists first, more, (copy_res p r0). destruct K as (K1 & K2 & K3 & K4 & K5 & K6 & K7 & K8 & K9 & K10 & K11 & K12).
    splits; auto. exists p. rewrite Est in Es. splits; auto.
  -
    cbn [vstep] in Hv. destruct (v_pop_ctrl v) as [[[res isif] v2]|] eqn:Ep; [|discriminate].
    destruct (pop_ctrl_inv nl _ v f r (c_bp s) Md Ec Fr Fl _ Ep) as [E0 Ex]. inversion Ex; subst res isif v2; clear Ex.
    destruct (vf_is_if f) eqn:Eif; [|discriminate]. inversion Hv as [Ev1]; clear Hv.
    assert (Est : c_stack s = []) by (destruct (c_stack s); [reflexivity|cbn in L; lia]).
    destruct (Common (set_last s None) [] eq_refl) as (first & more & K); auto.
    { cbn. rewrite app_nil_r. reflexivity. }
    { intros first more ->. rewrite (handle_else cx s _ _ (first :: more) bp' (mode_reach v Md) Ebp) in Hh. cbv zeta in Hh.
      cbn [app] in Hh. apply checked2 in Hh. destruct Hh as [Hs1 _]. symmetry. exact Hs1. }
    exists first, more, []. destruct K as (K1 & K2 & K3 & K4 & K5 & K6 & K7 & K8 & K9 & K10 & K11 & K12). rewrite Ev1. splits; auto.
Qed.

Definition copy_ret (p : provider) : list N :=
  if provider_eqb p (PLocal 0) then [] else ICopy :: i32_bytes (provider_idx p) ++ i32_bytes 0.
Lemma copy_ret_length p : length (copy_ret p) = if provider_eqb p (PLocal 0) then 0%nat else 9%nat.
Proof. unfold copy_ret. destruct (provider_eqb p (PLocal 0)); [reflexivity|]. cbn [length]. rewrite app_length, !i32_bytes_length. reflexivity. Qed.

Lemma last_label_pos nl B ctrls bp t : Forall2 (frame_ok nl B) ctrls bp -> 0 <= nl ->
  last (map (fun f => Some (vf_label f)) ctrls) None = Some (Some t) -> 0 < B.
Proof.
  induction 1 as [|f j r b Hf Hr IH]; intros Hnl Hl; [discriminate|].
  destruct r as [|g r']; cbn [map last] in Hl.
  - inversion Hl as [Fl]. destruct Hf as (_ & _ & [(locs & res & -> & _ & R)|(pos & _ & _ & L)]); [|congruence].
    unfold resv, res_ok in R. rewrite Fl in R. destruct res as [[d|i|]|]; try contradiction; lia.
  - apply IH; auto.
Qed.

Lemma op_return nl cx s v v1 s1 :
  inv nl s v -> v_unreach v = None ->
  match cx_return cx, last (map (fun f => Some (vf_label f)) (v_ctrls v)) None with
  | None, Some None | Some _, Some (Some _) => True
  | _, _ => False
  end ->
  vstep cx v (OBasic BReturn) = Some v1 -> handle_opcode cx s v1 Reachable (OBasic BReturn) = Some s1 ->
  exists cp,
    match cx_return cx with
    | Some _ => exists p rest, c_stack s = p :: rest /\ pwf nl s p /\ 0 < c_next s /\ cp = copy_res p (PLocal 0)
    | None => cp = []
    end
    /\ c_out s1 = c_out s ++ cp ++ [IReturn] /\ c_bp s1 = c_bp s
    /\ c_stack s1 = [] /\ c_next s1 = c_next s /\ c_consts s1 = c_consts s /\ c_last s1 = None
    /\ inv nl s1 v1 /\ v_unreach v1 <> None /\ ext s s1.
Proof.
  intros I Hu Hok Hv Hh. destruct I as [W B L Fr Md].
  destruct (cx_return cx) as [t'|] eqn:Hret; destruct (last (map (fun f => Some (vf_label f)) (v_ctrls v)) None) as [[t|]|] eqn:Hne;
    try contradiction.
  - pose proof (last_label_pos _ _ _ _ _ Fr (proj1 (w_next _ _ W)) Hne) as Hpos.
    cbn [vstep] in Hv. rewrite Hne in Hv. cbn [bt_arity v_popn] in Hv.
    destruct (v_ctrls v) as [|f r] eqn:Ec; [unfold v_pop in Hv; rewrite Ec in Hv; discriminate|].
    assert (Hv1 : v1 = {| v_opds := vf_height f;
                          v_ctrls := {| vf_is_if := vf_is_if f; vf_label := vf_label f; vf_end := vf_end f;
                                        vf_height := vf_height f; vf_unreachable := true |} :: r;
                          v_unreach := Some (length r) |}).
    { unfold v_pop in Hv. rewrite Ec in Hv.
      destruct (v_opds v =? vf_height f)%nat; [destruct (vf_unreachable f); [|discriminate]|];
        unfold v_mark_unreachable in Hv; cbn [v_ctrls v_unreach] in Hv; rewrite ?Ec, Hu in Hv; inversion Hv; reflexivity. }
    subst v1. clear Hv.
    unfold handle_opcode in Hh. cbv beta iota zeta in Hh. apply checked in Hh. destruct Hh as [Hh Hl].
    rewrite Hret in Hh. cbn [v_opds] in Hh, Hl.
    assert (W0 : cwf nl (set_last s None)) by (eapply cwf_same; [|exact W]; unfold same_alloc; cbn; tauto).
    destruct (consume (set_last s None)) as [[p s2]|] eqn:Econs; [|discriminate].
    destruct (consume_spec nl _ p s2 Econs W0) as (Es & (O1 & O2 & O3) & En & Ecs & W2 & Pp).
    cbn [set_last c_out c_bp c_stack c_next c_reuse c_consts c_last] in Es, O1, O2, O3, En, Ecs.
    unfold RETURN_VALUE_LOCATION in Hh.
    destruct (copy_if_needed_out s2 p (PLocal 0)) as (C1 & C2 & (C3 & C4 & C5 & C6) & C7).
    set (sc := copy_if_needed s2 p (PLocal 0)) in *. unfold truncate in Hh.
    set (s3 := push_op sc IReturn) in *.
    assert (W3 : cwf nl s3) by (eapply cwf_same; [|exact W2]; unfold same_alloc; cbn; auto).
    assert (S1 : c_out s3 = c_out s ++ copy_res p (PLocal 0) ++ [IReturn]) by (subst s3; cbn; rewrite C1, O1, <- app_assoc; reflexivity).
    assert (S2 : c_bp s3 = c_bp s) by (subst s3; cbn; rewrite C2; exact O2).
    assert (S3 : c_last s3 = None) by (subst s3; cbn; rewrite C7; exact O3).
    assert (S4 : c_next s3 = c_next s) by (subst s3; cbn; rewrite C4; exact En).
    assert (S5 : c_consts s3 = c_consts s) by (subst s3; cbn; rewrite C6; exact Ecs).
    destruct (terminated_state nl s f r s3 s1 _ B Fr S1 S2 S3 S4 S5 W3 Hh Hl) as (A1 & A2 & A3 & A4 & A5 & A6 & A7 & A8).
    exists (copy_res p (PLocal 0)). split; [exists p, (c_stack s2); splits; auto; destruct p; cbn in Pp |- *; auto|].
    splits; auto. cbn. discriminate.
  - cbn [vstep] in Hv. rewrite Hne in Hv. cbn [bt_arity v_popn] in Hv.
    unfold v_mark_unreachable in Hv. destruct (v_ctrls v) as [|f r] eqn:Ec; [discriminate|]. rewrite Hu in Hv.
    inversion Hv; subst v1; clear Hv.
    unfold handle_opcode in Hh. cbv beta iota zeta in Hh. apply checked in Hh. destruct Hh as [Hh Hl].
    rewrite Hret in Hh. cbn [v_opds] in Hh, Hl. unfold truncate in Hh.
    set (s2 := push_op (set_last s None) IReturn) in *.
    assert (W2 : cwf nl s2) by (eapply cwf_same; [|exact W]; unfold same_alloc; cbn; tauto).
    destruct (terminated_state nl s f r s2 s1 [IReturn] B Fr eq_refl eq_refl eq_refl eq_refl eq_refl W2 Hh Hl)
      as (A1 & A2 & A3 & A4 & A5 & A6 & A7 & A8).
    exists []. split; [reflexivity|]. splits; auto. cbn. discriminate.
Qed.
