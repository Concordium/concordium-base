(** * Stage B, extension 1: the fragment for function bodies with DEAD CODE after [br] / [return] /
    [unreachable] (and [br_table]) is [blocks_ok] / [blocks_ok_r] of the body with the dead instructions
    removed ([strip]).  The simulation for the ORIGINAL body ([compile_dead_code_correct_partial] in
    Props/C01.v) follows from that of the stripped body by [strip_compile_body] and [exec_strip_block]. *)
From Coq Require Import ZArith NArith List Lia Bool.
From CB Require Import Wasm.Syntax Wasm.Sem Wasm.Compile Wasm.StraightProofs Wasm.BlockTheorem Wasm.BlockDead.
Import ListNotations.
Local Open Scope Z_scope.

Definition blocks_ok_dead (nl : Z) (cx : cctx) (is : list instr) : bool := blocks_ok nl cx (strip is).
Definition blocks_ok_r_dead (nl : Z) (cx : cctx) (t : valtype) (is : list instr) : bool := blocks_ok_r nl cx t (strip is).

Lemma init_vstate_ok ret : v_unreach (init_vstate ret) = None /\ (0 < clen (init_vstate ret))%nat.
Proof. split; [reflexivity|cbn; lia]. Qed.

(** ** non-vacuity: dead code after [br] (incl. stack-polymorphic pops from the empty stack and a whole dead
    nested frame), after [return] and after [unreachable]; a dead [br_if] to a value-typed label *)
Definition dead_cx : cctx := {| cx_func_type := fun _ => None; cx_type := fun _ => None; cx_return := None |}.
Definition dead_body : list instr :=
  [ Block None
      [ Basic (BConst T_i32 1); Basic (BLocalSet 0); Basic (BBr 0);
        Basic (BBinop T_i32 Add); Basic (BLocalSet 0);
        Block (Some T_i32) [ Basic (BConst T_i32 8); Basic (BLocalGet 1); Basic (BBrIf 0); Basic BUnreachable; Basic BDrop ];
        Basic (BLocalSet 1); Basic BReturn ];
    Basic (BLocalGet 1);
    If None [ Basic (BConst T_i32 5); Basic (BLocalSet 1); Basic BReturn; Basic (BConst T_i32 6); Basic (BLocalSet 1) ]
            [ Basic BUnreachable; Basic (BLocalGet 0); Basic (BBr 1) ];
    Basic (BLocalGet 0); Basic (BLocalSet 1) ].

Definition dead_fn_cx : cctx := {| cx_func_type := fun _ => None; cx_type := fun _ => None; cx_return := Some T_i32 |}.
Definition dead_fn_body : list instr :=
  [ Basic (BLocalGet 0);
    If None [ Basic (BConst T_i32 7); Basic (BBr 1); Basic (BConst T_i32 9); Basic BReturn ] [];
    Basic (BLocalGet 1); Basic BReturn; Basic BDrop; Basic (BConst T_i32 3) ].

