(** The parser combinators of [Wasm/ArtifactCodec.v]: round trip of the primitive readers (the pieces
    from which [Wasm/ArtifactNormalForm.v] assembles the round trip of the whole format), the boolean
    well-formedness check, the suffix property and the zero-copy view. *)
From Coq Require Import ZArith NArith List Bool Lia.
From CB Require Import Wasm.Syntax Wasm.Leb128 Wasm.Leb128Proofs Wasm.Leb128Signed Wasm.ArtifactCodec.
Import ListNotations.
Local Open Scope N_scope.

(** [RT o d P]: [d] inverts [o] on values satisfying [P], whatever follows *)
Definition RT {A} (o : A -> list N) (d : dec A) (P : A -> Prop) : Prop :=
  forall a rest, P a -> d (o a ++ rest) = Some (a, rest).

Lemma RT_weaken {A} (o : A -> list N) d (P Q : A -> Prop) :
  (forall a, Q a -> P a) -> RT o d P -> RT o d Q.
Proof. intros H R a rest W. apply R. auto. Qed.

Fixpoint iter_nat {S : Type} (n : nat) (step : S -> option S) (s : S) : option S :=
  match n with
  | O => Some s
  | S k => match step s with Some s' => iter_nat k step s' | None => None end
  end.
Lemma iter_nat_add {S} a b (step : S -> option S) : forall s,
  iter_nat (a + b) step s = match iter_nat a step s with Some s' => iter_nat b step s' | None => None end.
Proof.
  induction a as [|a IH]; intros s; cbn [iter_nat plus]; [reflexivity|].
  destruct (step s); auto.
Qed.
Lemma iter_pos_nat {S} p (step : S -> option S) : forall s,
  iter_pos p step s = iter_nat (Pos.to_nat p) step s.
Proof.
  induction p as [p IH|p IH|]; intros s; cbn [iter_pos].
  - rewrite Pos2Nat.inj_xI. cbn [iter_nat]. destruct (step s) as [s0|]; [|reflexivity].
    replace (2 * Pos.to_nat p)%nat with (Pos.to_nat p + Pos.to_nat p)%nat by lia.
    rewrite iter_nat_add, <- IH. destruct (iter_pos p step s0); auto.
  - rewrite Pos2Nat.inj_xO.
    replace (2 * Pos.to_nat p)%nat with (Pos.to_nat p + Pos.to_nat p)%nat by lia.
    rewrite iter_nat_add, <- IH. destruct (iter_pos p step s); auto.
  - rewrite Pos2Nat.inj_1. cbn [iter_nat]. destruct (step s); reflexivity.
Qed.
Lemma iter_many_nat {A} (d : dec A) n : forall acc bs,
  iter_nat n (many_step d) (acc, bs) =
  match p_many_nat d n bs with Some (l, r) => Some (rev l ++ acc, r) | None => None end.
Proof.
  induction n as [|n IH]; intros acc bs; cbn [iter_nat p_many_nat]; [reflexivity|].
  unfold many_step at 1. cbn [fst snd]. destruct (d bs) as [[x r]|]; [|reflexivity].
  rewrite IH. destruct (p_many_nat d n r) as [[l r']|]; [|reflexivity].
  cbn [rev]. rewrite <- app_assoc. reflexivity.
Qed.
Theorem p_many_eq_nat {A} (d : dec A) n bs : p_many d n bs = p_many_nat d (N.to_nat n) bs.
Proof.
  destruct n as [|p]; [reflexivity|]. unfold p_many. rewrite iter_pos_nat, iter_many_nat.
  cbn [N.to_nat]. destruct (p_many_nat d (Pos.to_nat p) bs) as [[l r]|]; [|reflexivity].
  rewrite app_nil_r, rev_append_rev, app_nil_r, rev_involutive. reflexivity.
Qed.

Lemma RT_many_nat {A} (o : A -> list N) d P : RT o d P ->
  forall l rest, Forall P l -> p_many_nat d (length l) (out_list o l ++ rest) = Some (l, rest).
Proof.
  intros R. induction l as [|x l IH]; intros rest F; [reflexivity|].
  inversion F as [|? ? Px Fl]; subst. unfold out_list. cbn [length flat_map p_many_nat].
  rewrite <- app_assoc. rewrite (R x _ Px). fold (out_list o l). rewrite (IH _ Fl). reflexivity.
Qed.
Lemma RT_many {A} (o : A -> list N) d P : RT o d P ->
  forall l rest, Forall P l -> p_many d (N.of_nat (length l)) (out_list o l ++ rest) = Some (l, rest).
Proof. intros R l rest F. rewrite p_many_eq_nat, Nat2N.id. apply RT_many_nat with (P := P); auto. Qed.

Theorem leb_u16_roundtrip_thm n rest : n < 2 ^ 16 -> decode_u16 (uenc 3 n ++ rest) = Some (n, rest).
Proof.
  intros H. unfold decode_u16. rewrite (uread_uenc_top 2 16) by (discriminate || exact H).
  rewrite (proj2 (N.ltb_lt n (2 ^ 16)) H). reflexivity.
Qed.
Theorem decode_u16_bounded bs v r : decode_u16 bs = Some (v, r) ->
  v < 2 ^ 16 /\ exists pre, bs = pre ++ r /\ (1 <= length pre <= 3)%nat.
Proof. apply uread_narrow_bounded. Qed.

Lemma RT_u16 : RT out_u16 decode_u16 wf_u16.
Proof. exact leb_u16_roundtrip_thm. Qed.
Lemma RT_u32 : RT out_u32 decode_u32 wf_u32.
Proof. exact leb_u32_roundtrip_thm. Qed.
Lemma RT_i32 : RT out_i32 decode_s32 wf_i32.
Proof. exact leb_s32_roundtrip_thm. Qed.
Lemma RT_i64 : RT out_i64 decode_s64 wf_i64.
Proof. exact leb_s64_roundtrip_thm. Qed.

Lemma bind_ok {A B} (d : dec A) (f : A -> dec B) bs a r : d bs = Some (a, r) -> bind d f bs = f a r.
Proof. intros H. unfold bind. rewrite H. reflexivity. Qed.

(** [rt L]: the goal is [bind d f (o a ++ r) = _] and [L : RT o d P]; leaves [f a r = _] and, unless
    [auto] proves it, [P a] *)
Ltac rt L :=
  rewrite <- ?app_assoc;
  match goal with
  | |- bind ?d ?f (?o ?a ++ ?r) = _ => rewrite (bind_ok d f (o a ++ r) a r); [cbv beta | apply L; auto]
  end.

Lemma firstn_length_app {A} (l r : list A) : firstn (length l) (l ++ r) = l.
Proof. induction l as [|x l IH]; cbn [length firstn app]; [destruct r; reflexivity|]. rewrite IH. reflexivity. Qed.
Lemma skipn_length_app {A} (l r : list A) : skipn (length l) (l ++ r) = r.
Proof. induction l as [|x l IH]; cbn [length skipn app]; auto. Qed.

Lemma RT_option {A} (o : A -> list N) d P : RT o d P -> RT (out_option o) (p_option d) (wf_opt P).
Proof.
  intros R [v|] rest W; unfold p_option, out_option; cbn [app]; unfold bind at 1, p_byte.
  - change (1 =? 0) with false. change (1 =? 1) with true. cbv iota.
    rewrite (bind_ok _ _ _ _ _ (R v rest W)). reflexivity.
  - reflexivity.
Qed.

Lemma valtype_of_byte_byte t : valtype_of_byte (valtype_byte t) = Some t.
Proof. destruct t; reflexivity. Qed.
Lemma RT_valtype : RT out_valtype p_valtype (fun _ => True).
Proof. intros t rest _. destruct t; reflexivity. Qed.
Lemma RT_blocktype : RT out_blocktype p_blocktype (fun _ => True).
Proof. intros [[|]|] rest _; reflexivity. Qed.

Lemma valtypes_of_bytes_map ts : valtypes_of_bytes (map valtype_byte ts) = Some ts.
Proof.
  induction ts as [|t ts IH]; [reflexivity|]. cbn [map valtypes_of_bytes].
  rewrite valtype_of_byte_byte, IH. reflexivity.
Qed.
Lemma forallb_iff {A} (p : A -> bool) (P : A -> Prop) :
  (forall x, p x = true <-> P x) -> forall l, forallb p l = true <-> Forall P l.
Proof.
  intros H. induction l as [|x l IH]; cbn [forallb].
  - split; auto.
  - rewrite andb_true_iff, H, IH. split.
    + intros [? ?]. constructor; auto.
    + intros F. inversion F; auto.
Qed.
Lemma name_ok_iff l : name_ok l = true <-> wf_name l.
Proof.
  unfold name_ok, wf_name. rewrite andb_true_iff, Nat.leb_le.
  rewrite (forallb_iff _ (fun b => b < 128)); [reflexivity|]. intros x. apply N.ltb_lt.
Qed.
Lemma wf_name_len l : wf_name l -> wf_len l.
Proof. intros [L _]. unfold wf_len. change (2 ^ 32) with 4294967296. lia. Qed.
Lemma ins_last x : forall l, Forall (fun y => lex_lt (fst y) (fst x) = true) l -> ins x l = Some (l ++ [x]).
Proof.
  induction l as [|y l IH]; intros F; [reflexivity|].
  inversion F as [|? ? Hy Fl]; subst. cbn [ins app]. rewrite Hy, (IH Fl). reflexivity.
Qed.
Lemma normalise_from_sorted : forall l acc,
  (forall y, In y acc -> Forall (fun x => lex_lt (fst y) (fst x) = true) l) -> sorted_names l ->
  fold_left (fun a x => match a with Some m => ins x m | None => None end) l (Some acc) = Some (acc ++ l).
Proof.
  induction l as [|x l IH]; intros acc Hacc Hs; cbn [fold_left].
  - rewrite app_nil_r. reflexivity.
  - destruct Hs as [Hx Hl]. rewrite ins_last.
    + rewrite IH; [rewrite <- app_assoc; reflexivity| |exact Hl].
      intros y Hy. apply in_app_or in Hy. destruct Hy as [Hy|[<-|[]]]; [|exact Hx].
      specialize (Hacc y Hy). inversion Hacc; assumption.
    + apply Forall_forall. intros y Hy. specialize (Hacc y Hy). inversion Hacc; assumption.
Qed.
Lemma normalise_sorted l : sorted_names l -> normalise l = Some l.
Proof. intros H. unfold normalise. rewrite normalise_from_sorted; auto. intros y []. Qed.

Lemma sorted_names_FOP l :
  sorted_names l <-> ForallOrdPairs (fun x y => lex_lt (fst x) (fst y) = true) l.
Proof.
  induction l as [|x l IH]; cbn [sorted_names].
  - split; [constructor|auto].
  - rewrite IH. split.
    + intros [? ?]. constructor; assumption.
    + intros F. inversion F; subst. split; assumption.
Qed.

Lemma u16b_iff n : u16b n = true <-> wf_u16 n. Proof. apply N.ltb_lt. Qed.
Lemma u32b_iff n : u32b n = true <-> wf_u32 n. Proof. apply N.ltb_lt. Qed.
Lemma i32b_iff z : i32b z = true <-> wf_i32 z.
Proof. unfold i32b, wf_i32. rewrite andb_true_iff, Z.leb_le, Z.ltb_lt. reflexivity. Qed.
Lemma i64b_iff z : i64b z = true <-> wf_i64 z.
Proof. unfold i64b, wf_i64. rewrite andb_true_iff, Z.leb_le, Z.ltb_lt. reflexivity. Qed.
Lemma lenb_iff {A} (l : list A) : lenb l = true <-> wf_len l. Proof. apply N.ltb_lt. Qed.
Lemma bytesb_iff l : bytesb l = true <-> wf_bytes l.
Proof.
  unfold bytesb, wf_bytes. rewrite andb_true_iff, lenb_iff.
  rewrite (forallb_iff _ (fun b => b < 256)); [reflexivity|]. intros x. apply N.ltb_lt.
Qed.
Lemma functypeb_iff t : functypeb t = true <-> wf_functype t. Proof. apply lenb_iff. Qed.
Lemma importb_iff i : importb i = true <-> wf_import i.
Proof. unfold importb, wf_import. rewrite !andb_true_iff, !name_ok_iff, functypeb_iff. reflexivity. Qed.
Lemma localb_iff l : localb l = true <-> wf_local l. Proof. apply u16b_iff. Qed.
Lemma funcb_iff f : funcb f = true <-> wf_func f.
Proof.
  unfold funcb, wf_func. rewrite !andb_true_iff, !u32b_iff, !lenb_iff, bytesb_iff.
  rewrite (forallb_iff _ _ localb_iff), (forallb_iff _ _ i64b_iff). reflexivity.
Qed.
Lemma ginitb_iff g : ginitb g = true <-> wf_ginit g.
Proof. destruct g; [apply i32b_iff|apply i64b_iff]. Qed.
Lemma datab_iff d : datab d = true <-> wf_data d.
Proof. unfold datab, wf_data. rewrite andb_true_iff, i32b_iff, bytesb_iff. reflexivity. Qed.
Lemma memoryb_iff m : memoryb m = true <-> wf_memory m.
Proof.
  unfold memoryb, wf_memory. rewrite !andb_true_iff, !u32b_iff, lenb_iff, (forallb_iff _ _ datab_iff).
  reflexivity.
Qed.
Lemma optb_iff {A} (p : A -> bool) (P : A -> Prop) : (forall x, p x = true <-> P x) ->
  forall o, optb p o = true <-> wf_opt P o.
Proof. intros H [x|]; cbn [optb wf_opt]; [apply H|split; auto]. Qed.
Lemma exportb_iff e : exportb e = true <-> wf_export e.
Proof. unfold exportb, wf_export. rewrite andb_true_iff, name_ok_iff, u32b_iff. reflexivity. Qed.
Lemma sorted_namesb_iff l : sorted_namesb l = true <-> sorted_names l.
Proof.
  induction l as [|x l IH]; cbn [sorted_namesb sorted_names]; [split; auto|].
  rewrite andb_true_iff, IH.
  rewrite (forallb_iff _ (fun y => lex_lt (fst x) (fst y) = true)); [reflexivity|]. intros y. reflexivity.
Qed.
Theorem wf_artifactb_iff a : wf_artifactb a = true <-> wf_artifact a.
Proof.
  unfold wf_artifactb, wf_artifact.
  rewrite !andb_true_iff, !lenb_iff, u16b_iff, sorted_namesb_iff.
  rewrite (forallb_iff _ _ importb_iff), (forallb_iff _ _ functypeb_iff),
          (forallb_iff _ _ (optb_iff _ _ u32b_iff)), (optb_iff _ _ memoryb_iff),
          (forallb_iff _ _ ginitb_iff), (forallb_iff _ _ exportb_iff), (forallb_iff _ _ funcb_iff).
  reflexivity.
Qed.

(** The parser is not byte-canonical on arbitrary input: the import count 0 written over-long as
    [0x80; 0x00] is accepted and re-serialises to the short form.  Canonicity (re-serialisation is
    byte-identical) therefore holds for serialised artifacts, not for every accepted byte string. *)
Definition empty_artifact : s_artifact :=
  {| sa_imports := []; sa_types := []; sa_table := []; sa_memory := None; sa_globals := [];
     sa_exports := []; sa_code := [] |}.
Example artifact_overlong_accepted_ex :
  let bs := [255; 0x80; 0x00; 0; 0; 0; 0; 0; 0] in
  parse_artifact bs = Some (empty_artifact, []) /\ output_artifact empty_artifact <> bs
  /\ output_artifact empty_artifact = [255; 0; 0; 0; 0; 0; 0; 0].
Proof. cbv zeta. split; [vm_compute; reflexivity|]. split; [vm_compute; discriminate|vm_compute; reflexivity]. Qed.

(** a declared element count of 2^32 - 1 on a short input fails at the first missing element; the
    count is neither materialised nor used to allocate *)
Example artifact_huge_count_ex :
  parse_artifact [255; 0; 255; 255; 255; 255; 15] = None /\
  parse_artifact [255; 0; 0; 0; 0; 0; 0; 255; 255; 255; 255; 15; 1] = None.
Proof. split; vm_compute; reflexivity. Qed.

(** non-vacuity: a non-trivial well-formed artifact *)
Definition sample_artifact : s_artifact :=
  {| sa_imports := [ {| si_mod := [99; 111; 110; 99; 111; 114; 100; 105; 117; 109];
                        si_item := [103; 101; 116];
                        si_ty := {| ft_params := [T_i32; T_i64]; ft_result := Some T_i32 |} |} ];
     sa_types := [ {| ft_params := []; ft_result := None |};
                   {| ft_params := [T_i64; T_i32; T_i32]; ft_result := Some T_i64 |} ];
     sa_table := [Some 1; None; Some 4294967295];
     sa_memory := Some {| sm_init := 1; sm_max := 32;
                          sm_data := [ {| sd_offset := (-8)%Z; sd_init := [0; 255; 128; 7] |} ] |};
     sa_globals := [GI32 (-1)%Z; GI64 (-9223372036854775808)%Z; GI32 2147483647%Z; GI64 64%Z];
     sa_exports := [ ([105; 110; 105; 116], 1); ([105; 110; 105; 116; 95; 97], 300) ];
     sa_code := [ {| sf_type_idx := 1; sf_return := Some T_i64; sf_params := [T_i64; T_i32; T_i32];
                     sf_num_locals := 5;
                     sf_locals := [ {| sl_mult := 3; sl_ty := T_i32 |}; {| sl_mult := 65535; sl_ty := T_i64 |} ];
                     sf_num_registers := 200;
                     sf_constants := [(-3)%Z; 9223372036854775807%Z; (-65)%Z; 0%Z];
                     sf_code := [1; 0; 200; 255; 11] |} ] |}.
Example artifact_nonvacuous_ex :
  wf_artifact sample_artifact /\
  parse_artifact (output_artifact sample_artifact) = Some (sample_artifact, []) /\
  (length (output_artifact sample_artifact) = 131)%nat.
Proof.
  split; [apply wf_artifactb_iff; vm_compute; reflexivity|]. split; vm_compute; reflexivity.
Qed.

(** The zero-copy view: parsing into slices of the input and reading the slices back is parsing.
    Every parser leaves a suffix of its input ([Sfx]), so at every point the remaining bytes [bs]
    satisfy [input = pre ++ bs], the position is [length input - length bs] and
    [input[pos .. pos + n]] is [firstn n bs]. *)
Definition Sfx {A} (d : dec A) : Prop := forall bs a r, d bs = Some (a, r) -> exists pre, bs = pre ++ r.

Lemma Sfx_ret {A} (a : A) : Sfx (ret a).
Proof. intros bs a' r H. inversion H; subst. exists []. reflexivity. Qed.
Lemma Sfx_fail {A} : Sfx (@fail A).
Proof. intros bs a r H. discriminate. Qed.
Lemma Sfx_bind {A B} (d : dec A) (k : A -> dec B) : Sfx d -> (forall a, Sfx (k a)) -> Sfx (bind d k).
Proof.
  intros Hd Hk bs b r. unfold bind. destruct (d bs) as [[a r1]|] eqn:E; [|discriminate]. intros H.
  destruct (Hd _ _ _ E) as [p1 ->]. destruct (Hk _ _ _ _ H) as [p2 ->].
  exists (p1 ++ p2). rewrite <- app_assoc. reflexivity.
Qed.
Lemma Sfx_byte : Sfx p_byte.
Proof. intros [|b t] a r H; inversion H; subst. exists [a]. reflexivity. Qed.
Lemma Sfx_u16 : Sfx decode_u16.
Proof. intros bs a r H. destruct (decode_u16_bounded _ _ _ H) as (_ & pre & -> & _). exists pre. reflexivity. Qed.
Lemma Sfx_u32 : Sfx decode_u32.
Proof. intros bs a r H. destruct (decode_u32_bounded _ _ _ H) as (_ & pre & -> & _). exists pre. reflexivity. Qed.
Lemma Sfx_s32 : Sfx decode_s32.
Proof. intros bs a r H. destruct (decode_s32_bounded _ _ _ H) as (_ & pre & -> & _). exists pre. reflexivity. Qed.
Lemma Sfx_s64 : Sfx decode_s64.
Proof. intros bs a r H. destruct (decode_s64_bounded _ _ _ H) as (pre & -> & _). exists pre. reflexivity. Qed.
Lemma Sfx_many_nat {A} (d : dec A) : Sfx d -> forall n, Sfx (p_many_nat d n).
Proof.
  intros Hd. induction n as [|n IH]; intros bs l r; cbn [p_many_nat].
  - intros H. inversion H; subst. exists []. reflexivity.
  - destruct (d bs) as [[x r1]|] eqn:E; [|discriminate].
    destruct (p_many_nat d n r1) as [[l' r2]|] eqn:E2; [|discriminate].
    intros H. inversion H; subst. destruct (Hd _ _ _ E) as [p1 ->]. destruct (IH _ _ _ E2) as [p2 ->].
    exists (p1 ++ p2). rewrite <- app_assoc. reflexivity.
Qed.
Lemma Sfx_many {A} (d : dec A) n : Sfx d -> Sfx (p_many d n).
Proof. intros H bs l r. rewrite p_many_eq_nat. apply Sfx_many_nat. exact H. Qed.
Lemma Sfx_vec {A} (d : dec A) : Sfx d -> Sfx (p_vec d).
Proof. intros H. unfold p_vec. apply Sfx_bind; [apply Sfx_u32|intros n; apply Sfx_many; exact H]. Qed.
Lemma Sfx_take n : Sfx (p_take n).
Proof.
  intros bs a r. unfold p_take. destruct (n <=? N.of_nat (length bs)); [|discriminate].
  intros H. inversion H; subst. exists (firstn (N.to_nat n) bs). symmetry. apply firstn_skipn.
Qed.
#[local] Hint Resolve Sfx_byte Sfx_u16 Sfx_u32 Sfx_s32 Sfx_s64 Sfx_many Sfx_vec Sfx_take : sfx.

Ltac sfx_tac :=
  repeat first
    [ apply Sfx_ret | apply Sfx_fail | assumption | solve [auto with sfx]
    | match goal with |- Sfx (if ?c then _ else _) => destruct c end
    | match goal with |- Sfx (match ?x with _ => _ end) => destruct x end
    | apply Sfx_bind; [|intros ?] ].

Lemma Sfx_bytes : Sfx p_bytes. Proof. unfold p_bytes. sfx_tac. Qed.
#[local] Hint Resolve Sfx_bytes : sfx.
Lemma Sfx_option {A} (d : dec A) : Sfx d -> Sfx (p_option d). Proof. intros H. unfold p_option. sfx_tac. Qed.
Lemma Sfx_valtype : Sfx p_valtype. Proof. unfold p_valtype. sfx_tac. Qed.
Lemma Sfx_blocktype : Sfx p_blocktype. Proof. unfold p_blocktype. sfx_tac. Qed.
#[local] Hint Resolve Sfx_option Sfx_valtype Sfx_blocktype : sfx.
Lemma Sfx_valtypes : Sfx p_valtypes. Proof. unfold p_valtypes. sfx_tac. Qed.
Lemma Sfx_functype : Sfx p_functype. Proof. unfold p_functype. sfx_tac. Qed.
Lemma Sfx_name : Sfx p_name. Proof. unfold p_name. sfx_tac. Qed.
#[local] Hint Resolve Sfx_valtypes Sfx_functype Sfx_name : sfx.
Lemma Sfx_import : Sfx p_import. Proof. unfold p_import. sfx_tac. Qed.
Lemma Sfx_local : Sfx p_local. Proof. unfold p_local. sfx_tac. Qed.
Lemma Sfx_data : Sfx p_data. Proof. unfold p_data. sfx_tac. Qed.
#[local] Hint Resolve Sfx_import Sfx_local Sfx_data : sfx.
Lemma Sfx_memory : Sfx p_memory. Proof. unfold p_memory. sfx_tac. Qed.
Lemma Sfx_ginit : Sfx p_ginit. Proof. unfold p_ginit. sfx_tac. Qed.
Lemma Sfx_export : Sfx p_export. Proof. unfold p_export. sfx_tac. Qed.
Lemma Sfx_func : Sfx p_func. Proof. unfold p_func. sfx_tac. Qed.
#[local] Hint Resolve Sfx_memory Sfx_ginit Sfx_export Sfx_func : sfx.
(** in particular the whole parser consumes a prefix and returns the rest unchanged *)
Theorem parse_artifact_suffix_thm : Sfx parse_artifact.
Proof. unfold parse_artifact. sfx_tac. Qed.

Definition suffix (input bs : list N) : Prop := exists pre, input = pre ++ bs.
(** [View input f db d]: on every suffix of [input], [db] followed by [f] is [d] *)
Definition View {A B} (input : list N) (f : B -> A) (db : dec B) (d : dec A) : Prop :=
  forall bs, suffix input bs -> option_map (fun '(b, r) => (f b, r)) (db bs) = d bs.

Lemma suffix_step input bs pre r : suffix input bs -> bs = pre ++ r -> suffix input r.
Proof. intros [p ->] ->. exists (p ++ pre). rewrite <- app_assoc. reflexivity. Qed.

Lemma View_ret {A B} input (f : B -> A) b a : f b = a -> View input f (ret b) (ret a).
Proof. intros <- bs _. reflexivity. Qed.
Lemma View_fail {A B} input (f : B -> A) : View input f fail fail.
Proof. intros bs _. reflexivity. Qed.
Lemma View_bind {A1 B1 A2 B2} input (f1 : B1 -> A1) (f2 : B2 -> A2) db d kb k :
  View input f1 db d -> Sfx d -> (forall b, View input f2 (kb b) (k (f1 b))) ->
  View input f2 (bind db kb) (bind d k).
Proof.
  intros H1 Hs H2 bs Hb. unfold bind. specialize (H1 bs Hb).
  destruct (db bs) as [[b r]|]; cbn [option_map] in H1; rewrite <- H1; [|reflexivity].
  apply H2. destruct (Hs _ _ _ (eq_sym H1)) as [pre E]. eapply suffix_step; eauto.
Qed.
Lemma View_bind_same {A1 A2 B2} input (f2 : B2 -> A2) (d : dec A1) kb k :
  Sfx d -> (forall a, View input f2 (kb a) (k a)) -> View input f2 (bind d kb) (bind d k).
Proof.
  intros Hs H2. apply (View_bind input (fun x => x) f2 d d kb k); auto.
  intros bs _. destruct (d bs) as [[a r]|]; reflexivity.
Qed.
Lemma View_ext {A B} input (f : B -> A) db d d' :
  (forall bs, d bs = d' bs) -> View input f db d' -> View input f db d.
Proof. intros E H bs Hb. rewrite E. apply H. exact Hb. Qed.
Lemma bind_assoc {A B C} (d : dec A) (k1 : A -> dec B) (k2 : B -> dec C) bs :
  bind (bind d k1) k2 bs = bind d (fun a => bind (k1 a) k2) bs.
Proof. unfold bind. destruct (d bs) as [[a r]|]; reflexivity. Qed.

Lemma View_many_nat {A B} input (f : B -> A) db d : View input f db d -> Sfx d ->
  forall n, View input (map f) (p_many_nat db n) (p_many_nat d n).
Proof.
  intros H Hs. induction n as [|n IH]; intros bs Hb; cbn [p_many_nat]; [reflexivity|].
  pose proof (H bs Hb) as E. destruct (db bs) as [[b r]|]; cbn [option_map] in E; rewrite <- E; [|reflexivity].
  destruct (Hs _ _ _ (eq_sym E)) as [pre Ep].
  pose proof (IH r (suffix_step _ _ _ _ Hb Ep)) as E2.
  destruct (p_many_nat db n r) as [[l r']|]; cbn [option_map] in E2; rewrite <- E2; reflexivity.
Qed.
Lemma View_vec {A B} input (f : B -> A) db d : View input f db d -> Sfx d ->
  View input (map f) (p_vec db) (p_vec d).
Proof.
  intros H Hs. unfold p_vec. apply View_bind_same; [apply Sfx_u32|]. intros n bs Hb.
  rewrite !p_many_eq_nat. exact (View_many_nat input f db d H Hs (N.to_nat n) bs Hb).
Qed.

Lemma slice_suffix input bs n : suffix input bs ->
  slice input (N.of_nat (length input) - N.of_nat (length bs), n) = firstn (N.to_nat n) bs.
Proof.
  intros [pre ->]. unfold slice. cbn [fst snd].
  rewrite app_length, Nat2N.inj_add, N.add_sub, Nat2N.id, skipn_length_app. reflexivity.
Qed.

Lemma View_slice input :
  View input (slice input) (p_slice (N.of_nat (length input))) p_bytes.
Proof.
  unfold p_slice, p_bytes. apply View_bind_same; [apply Sfx_u32|]. intros n bs Hb.
  unfold p_slice_raw, p_take. destruct (n <=? N.of_nat (length bs)); [|reflexivity].
  cbn [option_map]. cbv beta iota. rewrite slice_suffix by exact Hb. reflexivity.
Qed.
Lemma View_valtype_slice input :
  View input (slice_valtypes input) (p_valtype_slice (N.of_nat (length input))) p_valtypes.
Proof.
  unfold p_valtype_slice, p_valtypes, p_bytes.
  eapply View_ext; [intros bs; apply bind_assoc|].
  apply View_bind_same; [apply Sfx_u32|]. intros n bs Hb.
  unfold p_valtype_slice_raw, bind, p_take. destruct (n <=? N.of_nat (length bs)); [|reflexivity].
  destruct (valtypes_of_bytes (firstn (N.to_nat n) bs)) as [ts|] eqn:E; [|reflexivity].
  cbn [option_map]. cbv beta iota. unfold slice_valtypes. rewrite slice_suffix by exact Hb.
  rewrite E. reflexivity.
Qed.

Lemma View_func input : View input (resolve_func input) (p_func_b (N.of_nat (length input))) p_func.
Proof.
  unfold p_func_b, p_func.
  apply View_bind_same; [sfx_tac|intros ti].
  apply View_bind_same; [sfx_tac|intros rt].
  apply (View_bind input (slice_valtypes input)); [apply View_valtype_slice|sfx_tac|intros ps].
  apply View_bind_same; [sfx_tac|intros nl].
  apply View_bind_same; [sfx_tac|intros ls].
  apply View_bind_same; [sfx_tac|intros nr].
  apply View_bind_same; [sfx_tac|intros cs].
  apply (View_bind input (slice input)); [apply View_slice|sfx_tac|intros code].
  apply View_ret. reflexivity.
Qed.

Lemma View_artifact input :
  View input (resolve input) (parse_artifact_b (N.of_nat (length input))) parse_artifact.
Proof.
  unfold parse_artifact_b, parse_artifact.
  apply View_bind_same; [sfx_tac|intros v]. destruct (v =? 255); [|apply View_fail].
  apply View_bind_same; [sfx_tac|intros ni].
  apply View_bind_same; [sfx_tac|intros imports].
  apply View_bind_same; [sfx_tac|intros types].
  apply View_bind_same; [sfx_tac|intros table].
  apply View_bind_same; [sfx_tac|intros memory].
  apply View_bind_same; [sfx_tac|intros globals].
  apply View_bind_same; [sfx_tac|intros raw].
  destruct (normalise raw) as [exports|]; [|apply View_fail].
  apply (View_bind input (map (resolve_func input))); [|sfx_tac|intros code; apply View_ret; reflexivity].
  apply View_vec; [apply View_func|sfx_tac].
Qed.

Theorem borrowed_view_eq_thm : forall bs,
  option_map (fun '(b, r) => (resolve bs b, r)) (parse_artifact_borrowed bs) = parse_artifact bs.
Proof. intros bs. unfold parse_artifact_borrowed. apply View_artifact. exists []. reflexivity. Qed.

Example borrowed_nonvacuous_ex :
  match parse_artifact_borrowed (output_artifact sample_artifact ++ [7; 7]) with
  | Some (b, r) => map bf_params (ba_code b) = [(97, 3)] /\ map bf_code (ba_code b) = [(126, 5)] /\ r = [7; 7]
  | None => False
  end.
Proof. vm_compute. repeat split; reflexivity. Qed.
