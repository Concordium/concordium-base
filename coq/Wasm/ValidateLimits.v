(** Accepted modules obey every chain limit (from Gen/Limits.v). *)
From Coq Require Import NArith List Bool Lia.
From CB Require Import Wasm.Syntax Gen.Limits Wasm.Validate.
Import ListNotations.
Local Open Scope N_scope.

(** Consistency of the generated constants with the representation choices of the
    interpreter (these are the "relied upon by the interpreter" remarks of constants.rs):
    global indices and switch sizes fit a u16, the initial memory fits the preallocated
    [MAX_NUM_PAGES * PAGE_SIZE] bytes, and [MAX_INIT_MEMORY_SIZE * PAGE_SIZE] fits a u32. *)
Lemma limits_consistent :
  MAX_NUM_GLOBALS <= 2 ^ 16 /\ MAX_SWITCH_SIZE < 2 ^ 16 /\
  MAX_INIT_MEMORY_SIZE <= MAX_NUM_PAGES /\ MAX_NUM_PAGES * PAGE_SIZE < 2 ^ 32 /\
  MAX_INIT_MEMORY_SIZE * PAGE_SIZE <= u32_max /\ PAGE_SIZE = page_size /\
  ALLOWED_LOCALS <= MAX_ALLOWED_STACK_HEIGHT /\ MAX_NUM_PAGES <= 65536.
Proof. vm_compute. repeat split; congruence. Qed.

Record module_limits (m : vmodule) : Prop := {
  ml_table : forall sz, vm_table m = Some sz -> sz <= MAX_INIT_TABLE_SIZE;
  ml_mem_min : forall mn mx, vm_mem m = Some (mn, mx) -> mn <= MAX_INIT_MEMORY_SIZE /\ mn <= MAX_NUM_PAGES;
  ml_mem_max : forall mn mx, vm_mem m = Some (mn, Some mx) -> mn <= mx /\ mx <= 65536;
  ml_globals : N.of_nat (length (vm_globals m)) <= MAX_NUM_GLOBALS;
  ml_exports : N.of_nat (length (vm_exports m)) <= MAX_NUM_EXPORTS;
  ml_elems : forall off inits sz, In (off, inits) (vm_elems m) -> vm_table m = Some sz ->
             off + N.of_nat (length inits) <= sz /\
             Forall (fun i => i < N.of_nat (length (vm_imports m) + length (vm_funcs m))) inits;
  ml_elems_table : vm_elems m <> [] -> vm_table m <> None;
  ml_data : forall off len mn mx, In (off, len) (vm_data m) -> vm_mem m = Some (mn, mx) ->
            off + len <= mn * PAGE_SIZE /\ off + len <= MAX_NUM_PAGES * PAGE_SIZE;
  ml_data_mem : vm_data m <> [] -> vm_mem m <> None;
  ml_funcs : forall f, In f (vm_funcs m) -> forall signext nl h, validate_mfunc signext m f = Some (nl, h) ->
             N.of_nat nl <= ALLOWED_LOCALS /\ N.of_nat nl + N.of_nat h <= MAX_ALLOWED_STACK_HEIGHT
}.

Lemma make_locals_length params ls locals :
  make_locals params ls = Some locals -> N.of_nat (length locals) <= ALLOWED_LOCALS.
Proof.
  unfold make_locals. destruct (N.leb_spec (sum_mult ls (N.of_nat (length params))) ALLOWED_LOCALS); [|discriminate].
  intros E; inversion E; subst; clear E.
  assert (G : forall ls acc, N.of_nat (length (flat_map (fun '(n, t) => repeat t (N.to_nat n)) ls)) + acc = sum_mult ls acc).
  { induction ls0 as [|[n t] r IH]; intros acc; cbn [flat_map sum_mult length]; [reflexivity|].
    rewrite app_length, repeat_length, Nat2N.inj_add, N2Nat.id, <- IH. lia. }
  rewrite app_length, Nat2N.inj_add. specialize (G ls (N.of_nat (length params))). lia.
Qed.

Lemma switch_size_checked c s ls d al s' :
  vstep_basic c s (BBrTable ls d) al = Some s' -> N.of_nat (length ls) <= MAX_SWITCH_SIZE.
Proof.
  cbn [vstep_basic]. unfold obind, guard.
  destruct (N.leb_spec (N.of_nat (length ls)) MAX_SWITCH_SIZE); [auto|discriminate].
Qed.

Theorem validate_module_limits_thm signext m : validate_module signext m = true -> module_limits m.
Proof.
  intros H. unfold validate_module in H. rewrite !andb_true_iff in H.
  destruct H as [[[[[[[[[Himp Htab] Hmem] Hglob] Hfun] Hexpn] Hnodup] Hexp] Helem] Hdata].
  pose proof limits_consistent as (LC1 & LC2 & LC3 & LC4 & LC5 & LC6 & LC7 & LC8).
  assert (MEM : forall mn mx, vm_mem m = Some (mn, mx) ->
                mn <= MAX_INIT_MEMORY_SIZE /\ match mx with Some x => mn <= x /\ x <= 65536 | None => mn <= 65536 end).
  { intros mn mx E. rewrite E in Hmem. cbn [mem_limits_ok] in Hmem. apply andb_true_iff in Hmem. destruct Hmem as [M1 M2].
    apply N.leb_le in M1. split; [exact M1|]. destruct mx.
    - apply andb_true_iff in M2. destruct M2 as [M2 M3]. apply N.leb_le in M2, M3. auto.
    - apply N.leb_le in M2. auto. }
  constructor.
  - intros sz E. rewrite E in Htab. now apply N.leb_le.
  - intros mn mx E. destruct (MEM _ _ E). split; [auto|lia].
  - intros mn mx E. now destruct (MEM _ _ E).
  - now apply N.leb_le.
  - now apply N.leb_le.
  - intros off inits sz Hin E. rewrite forallb_forall in Helem. specialize (Helem _ Hin).
    cbn [elem_ok] in Helem. rewrite E in Helem. rewrite !andb_true_iff in Helem.
    destruct Helem as [[E1 [E2 E3]] E4]. apply N.leb_le in E3. split; [exact E3|].
    apply Forall_forall. intros i Hi. rewrite forallb_forall in E4. apply N.ltb_lt. auto.
  - intros NE E. destruct (vm_elems m) as [|[off inits] r] eqn:EL; [congruence|].
    cbn [forallb elem_ok] in Helem. rewrite E in Helem. rewrite !andb_true_iff in Helem.
    destruct Helem as [[[_ F] _] _]. discriminate.
  - intros off len mn mx Hin E. rewrite E in Hdata. rewrite forallb_forall in Hdata. specialize (Hdata _ Hin).
    cbn [data_ok] in Hdata. rewrite !andb_true_iff in Hdata. destruct Hdata as [[D1 D2] D3]. apply N.leb_le in D3. split; [exact D3|].
    destruct (MEM _ _ E) as [M1 _]. etransitivity; [exact D3|]. apply N.mul_le_mono_r. lia.
  - intros NE E. rewrite E in Hdata. destruct (vm_data m); congruence.
  - intros f Hin sx nl h E. unfold validate_mfunc, obind in E.
    destruct (nth_error (vm_types m) (mf_type f)) as [ft|]; [|discriminate].
    destruct (make_locals (ft_params ft) (mf_locals f)) as [locals|] eqn:ML; [|discriminate].
    destruct (validate_func _ _) as [h'|]; [|discriminate].
    unfold guard in E. destruct (N.leb_spec (N.of_nat (length locals) + N.of_nat h') MAX_ALLOWED_STACK_HEIGHT); [|discriminate].
    inversion E; subst. split; [eapply make_locals_length; eauto|auto].
Qed.

(** The memory bound handed to the interpreter ([Module::compile], artifact.rs):
    [max_size = limits.max.map(|x| min(x, MAX_NUM_PAGES)).unwrap_or(MAX_NUM_PAGES)].
    The interpreter preallocates [MAX_NUM_PAGES * PAGE_SIZE] bytes and [memory.grow] only
    checks against [max_size], so [max_size <= MAX_NUM_PAGES] is what keeps [set_len] inside
    the allocation. *)
Definition artifact_max_memory (mm : N * option N) : N :=
  match snd mm with Some x => N.min x MAX_NUM_PAGES | None => MAX_NUM_PAGES end.
Definition artifact_memory (m : vmodule) : option (N * N) :=
  match vm_mem m with Some mm => Some (fst mm, artifact_max_memory mm) | None => None end.

Theorem artifact_memory_bounded_thm signext m init mx :
  validate_module signext m = true -> artifact_memory m = Some (init, mx) ->
  init <= mx /\ mx <= MAX_NUM_PAGES /\ mx * PAGE_SIZE <= MAX_NUM_PAGES * PAGE_SIZE /\ MAX_NUM_PAGES * PAGE_SIZE < 2 ^ 32.
Proof.
  intros V E. pose proof (validate_module_limits_thm _ _ V) as ML.
  pose proof limits_consistent as (_ & _ & LC3 & LC4 & _).
  unfold artifact_memory in E. destruct (vm_mem m) as [[mn mxo]|] eqn:EM; [|discriminate].
  inversion E; subst; clear E. cbn [fst]. unfold artifact_max_memory. cbn [snd].
  destruct (ml_mem_min _ ML _ _ EM) as [M1 M2].
  assert (B : match mxo with Some x => N.min x MAX_NUM_PAGES | None => MAX_NUM_PAGES end <= MAX_NUM_PAGES)
    by (destruct mxo; [apply N.le_min_r|apply N.le_refl]).
  split; [|split; [exact B|split; [apply N.mul_le_mono_r; exact B|exact LC4]]].
  destruct mxo as [x|]; [|exact M2].
  destruct (ml_mem_max _ ML _ _ EM) as [M3 _]. apply N.min_glb; auto.
Qed.
