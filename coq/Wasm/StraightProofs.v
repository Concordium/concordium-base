(** * compile_straightline_correct — the compiler model [Compile.v] followed by the machine
    model [Machine.v] simulates the reference semantics [Sem.v] on straight-line code.

    Setting: a function body fragment [bs] of basic instructions without control flow
    ([straight_ok]); the compiler state before it is well formed ([cwf]); the machine runs the
    emitted bytes (found in the code map at the current offset) from a state related to the
    specification state by [rel]: every provider on the compile-time stack denotes the value at
    the same position of the operand stack, registers [0,nl) hold the locals, globals and memory
    agree.  Then the specification's result and the machine's are related again / both trap. *)
From Coq Require Import ZArith NArith List Lia Bool FMapPositive.
From CB Require Import Common.IntN Common.IntNProofs Wasm.Syntax Wasm.Sem Wasm.Compile Wasm.Machine
     Wasm.MachineLemmas Wasm.CompileLemmas Wasm.NumOpsProofs Wasm.SemProofs.
Import ListNotations.
Local Open Scope Z_scope.

(** a register pattern represents a value: only the low 32 bits matter for i32 *)
Definition repr (r : Z) (v : val) : Prop :=
  match v with VI32 z => low32 r = z | VI64 z => as_u64 r = z end.

Lemma repr_i32_range r z : repr r (VI32 z) -> IntNProofs.in_range 32 z.
Proof. cbn. intros <-. unfold IntNProofs.in_range. change (modulus 32) with 4294967296. apply low32_range. Qed.
Lemma repr_i64_range r z : repr r (VI64 z) -> IntNProofs.in_range 64 z.
Proof. cbn. intros <-. unfold IntNProofs.in_range. change (modulus 64) with 18446744073709551616. apply as_u64_range. Qed.

Section Straight.
Variable art : artifact.
Variable mhost : nat -> list Z -> option (option Z).
Variable codes : list (code_map * list Z).
Variable fidx : nat.
Variable c : code_map.
Variable consts : list Z.
Hypothesis Hcode : nth_error codes fidx = Some (c, consts).
Variable nl : Z.                       (* registers [0, nl) are the locals *)
Variable NR : Z.                       (* registers of the frame: num_registers *)
Hypothesis NR_small : NR < 2147483648.
Variable cap : N.                      (* page cap of the specification's memory.grow *)

Notation mstep := (step art mhost codes).
Fixpoint nsteps (n : nat) (M : mstate) : step_res :=
  match n with
  | O => SNext M
  | S k => match mstep M with SNext M' => nsteps k M' | r => r end
  end.
Lemma nsteps_app n m M M' : nsteps n M = SNext M' -> nsteps (n + m) M = nsteps m M'.
Proof.
  revert M. induction n; intros M H; cbn in *.
  - inversion H; reflexivity.
  - destruct (mstep M); try discriminate. apply IHn. exact H.
Qed.

Definition denote (M : mstate) (p : provider) : Z := get_local consts M (provider_idx p).

(** same frame: everything but pc, registers' contents, memory, globals *)
Definition frame_eq (M M' : mstate) : Prop :=
  ms_idx M' = ms_idx M /\ ms_frames M' = ms_frames M /\ ms_ret M' = ms_ret M /\ ms_base M' = ms_base M
  /\ length (ms_regs M') = length (ms_regs M) /\ ms_energy M' = ms_energy M.
Lemma frame_eq_refl M : frame_eq M M. Proof. repeat split. Qed.
Lemma frame_eq_trans A B C : frame_eq A B -> frame_eq B C -> frame_eq A C.
Proof. unfold frame_eq. intuition congruence. Qed.

Definition max_memory : Z := match a_memory art with Some (_, mx, _) => Z.of_N mx | None => 0 end.
Definition mem_rel (mm : option memory) (sm : option memory) : Prop :=
  match mm, sm with
  | None, None => True
  | Some a, Some b => mem_pages a = mem_pages b /\ mem_data a = mem_data b /\ Z.of_N (grow_limit cap b) = max_memory
                      /\ (mem_pages b <= 65536)%N /\ (forall a, 0 <= mem_get b a < 256)
  | _, _ => False
  end.

Definition consts_ok (s : cstate) : Prop :=
  forall k v idx, nth_error (c_consts s) k = Some (v, idx) -> nth k consts 0 = v.
Definition small (s : cstate) : Prop := c_next s <= NR /\ Z.of_nat (length (c_consts s)) < 2147483648.

Record rel (s : cstate) (st : store) (locals vs : list val) (M : mstate) : Prop := {
  r_idx : ms_idx M = fidx;
  r_pc : ms_pc M = cur_off s;
  r_regs : (ms_base M + Z.to_nat NR <= length (ms_regs M))%nat;
  r_stack : Forall2 (fun p v => repr (denote M p) v) (c_stack s) vs;
  r_nl : Z.of_nat (length locals) = nl;
  r_locals : forall i v, nth_error locals i = Some v -> repr (reg M (Z.of_nat i)) v;
  r_globals : Forall2 repr (ms_globals M) (s_globals st);
  r_mem : mem_rel (ms_mem M) (s_mem st)
}.

Lemma reg_set_reg_same M d x : (ms_base M + Z.to_nat d < length (ms_regs M))%nat ->
  reg (set_reg M d x) d = x.
Proof. intros H. unfold reg, set_reg. cbn. apply nth_list_set_same. exact H. Qed.
Lemma reg_set_reg_other M d x i : 0 <= d -> 0 <= i -> i <> d -> reg (set_reg M d x) i = reg M i.
Proof. intros H0 H1 H. unfold reg, set_reg. cbn. apply nth_list_set_other. lia. Qed.
Lemma get_local_set_reg M d x i : 0 <= d -> (ms_base M + Z.to_nat d < length (ms_regs M))%nat ->
  get_local consts (set_reg M d x) i = if i =? d then x else get_local consts M i.
Proof.
  intros H0 H. unfold get_local. destruct (Z.leb_spec 0 i).
  - destruct (Z.eqb_spec i d) as [->|Hne]; [apply reg_set_reg_same; auto|apply reg_set_reg_other; auto].
  - destruct (Z.eqb_spec i d); [lia|reflexivity].
Qed.
Lemma get_local_set_pc M pc i : get_local consts (set_pc M pc) i = get_local consts M i.
Proof. reflexivity. Qed.

Lemma idx_ok_of_pwf s p : small s -> 0 <= nl <= c_next s -> pwf nl s p -> -2147483648 <= provider_idx p < 2147483648.
Proof.
  intros [S1 S2] Hnl H. pose proof NR_small. destruct p as [r|i|k]; cbn [pwf provider_idx] in *.
  - destruct H as [[? ?] _]. lia.
  - lia.
  - destruct H as [Hneg (v & Hv)]. assert (Z.to_nat (- (k + 1)) < length (c_consts s))%nat by (apply nth_error_Some; congruence). lia.
Qed.

Lemma code_at_locs ps : forall pc,
  code_at c pc (loc_bytes ps) -> Forall (fun p => -2147483648 <= provider_idx p < 2147483648) ps ->
  forall j p, nth_error ps j = Some p -> get_i32 c (pc + 4 * Z.of_nat j) = provider_idx p.
Proof.
  induction ps as [|q r IH]; intros pc H F j p Hj; [destruct j; discriminate|].
  unfold loc_bytes in H. cbn [flat_map] in H. apply code_at_app in H. destruct H as [H1 H2].
  rewrite i32_bytes_length in H2. inversion F; subst.
  destruct j as [|j]; cbn in Hj.
  - inversion Hj; subst. rewrite Z.add_0_r. apply code_at_i32; auto.
  - replace (pc + 4 * Z.of_nat (S j)) with (pc + 4 + 4 * Z.of_nat j) by lia. apply IH; auto.
Qed.
Lemma loc_bytes_length ps : length (loc_bytes ps) = (4 * length ps)%nat.
Proof. induction ps; cbn; auto. unfold loc_bytes in *. cbn [flat_map]. rewrite app_length, i32_bytes_length, IHps. lia. Qed.

Lemma mstep_at M : ms_idx M = fidx -> mstep M = exec_op art mhost c consts M (ms_pc M + 1) (Z.to_N (byte_at c (ms_pc M))).
Proof. intros E. unfold step. rewrite E, Hcode. reflexivity. Qed.

Definition grow_result (M : mstate) (v : Z) : (Z -> Z) * mstate :=
  let n := as_u32 v in
  let sz := mlen M / 65536 in
  if sz + n >? max_memory then (fun old => set_short old (-1), M)
  else (fun old => set_short old sz,
        match ms_mem M with
        | Some mm => if n =? 0 then M else
                     set_mmem M {| mem_pages := Z.to_N (sz + n); mem_max := mem_max mm; mem_data := mem_data mm |}
        | None => M
        end).

Definition load_width (t : valtype) (pk : option (packsize * sx)) : nat :=
  match pk with None => type_bytes t | Some (p, _) => pack_bytes p end.
Definition load_conv (t : valtype) (pk : option (packsize * sx)) (raw : Z) : Z :=
  match t, pk with
  | T_i32, None => from_i32 raw
  | T_i64, None => from_i64 raw
  | T_i32, Some (P8, SX_S) => from_i32 (sext 8 raw)
  | T_i32, Some (P16, SX_S) => from_i32 (sext 16 raw)
  | T_i32, Some (_, _) => from_i32 raw
  | T_i64, Some (P8, SX_S) => from_i64 (sext 8 raw)
  | T_i64, Some (P16, SX_S) => from_i64 (sext 16 raw)
  | T_i64, Some (P32, SX_S) => from_i64 (sext 32 raw)
  | T_i64, Some (_, SX_U) => from_i64 raw
  end.
Definition load_result (t : valtype) (pk : option (packsize * sx)) (off : N) (base : Z) (M : mstate)
  : sum trap_reason ((Z -> Z) * mstate) :=
  let pos := as_u32 base + Z.of_N off in
  match ms_mem M with
  | Some mm => if pos + Z.of_nat (load_width t pk) <=? mlen M
               then inr (fun _ : Z => load_conv t pk (of_bytes (mem_read mm (Z.to_N pos) (load_width t pk))), M)
               else inl TMemory
  | None => inl TMemory
  end.
Definition load_valid (t : valtype) (pk : option (packsize * sx)) : bool :=
  match t, pk with T_i32, Some (P32, _) => false | _, _ => true end.

(** the part of a register that a value of type [t] occupies (unsigned and signed reading),
    writing it, and the machine's operators by type *)
Definition uview (t : valtype) (r : Z) : Z := match t with T_i32 => low32 r | T_i64 => as_u64 r end.
Definition sview (t : valtype) (r : Z) : Z := match t with T_i32 => as_i32 r | T_i64 => as_i64 r end.
Definition set_t (t : valtype) : Z -> Z -> Z := match t with T_i32 => set_short | T_i64 => set_long end.
Definition rs_unop (t : valtype) : unop -> Z -> Z := match t with T_i32 => rs_unop32 | T_i64 => rs_unop64 end.
Definition rs_eqz (t : valtype) : Z -> Z := match t with T_i32 => rs_eqz32 | T_i64 => rs_eqz64 end.
Definition cvt_dst (o : cvtop) : valtype := match o with WrapI64 => T_i32 | _ => T_i64 end.

Definition gi_val (b : binstr) (srcs : list Z) (M : mstate) : option (sum trap_reason ((Z -> Z) * mstate)) :=
  match b, srcs with
  | BUnop t o, [s] => Some (inr (fun old => set_t t old (rs_unop t o s), M))
  | BEqz t, [s] => Some (inr (fun old => set_short old (rs_eqz t s), M))
  | BCvt o, [s] => Some (inr (fun old => set_t (cvt_dst o) old (rs_cvt o s), M))
  | BBinop t o, [r; l] =>
      Some (match rs_binop (bits t) o (sview t l) (sview t r) (uview t l) (uview t r) with
            | inr x => inr (fun old => set_t t old x, M) | inl e => inl e end)
  | BRelop t o, [r; l] =>
      Some (inr (fun old => set_short old (rs_relop o (sview t l) (sview t r) (uview t l) (uview t r)), M))
  | BSelect, [top; t2; t1] => Some (inr (fun _ => if as_i32 top =? 0 then t2 else t1, M))
  | BGlobalGet i, [] => Some (inr (fun _ => nth i (ms_globals M) 0, M))
  | BMemorySize, [] => Some (inr (fun _ => from_i32 (mlen M / 65536), M))
  | BMemoryGrow, [v] => Some (inr (grow_result M v))
  | BLoad t pk off, [base] => Some (load_result t pk off base M)
  | _, _ => None
  end.

(** the instruction classes covered by the simulation theorem *)
Definition sim_gi (b : binstr) : bool :=
  match b with
  | BUnop T_i32 Extend32S => false
  | BBinop _ RemS => false          (* finding F3: rem_s(MIN,-1) *)
  | BGlobalGet i => Z.of_nat i <? 65536
  | BLoad t pk off => (off <? 4294967296)%N && load_valid t pk
  | BUnop _ _ | BEqz _ | BCvt _ | BBinop _ _ | BRelop _ _ | BSelect | BMemorySize | BMemoryGrow => true
  | _ => false
  end.

Definition idx_ok (x : Z) : Prop := -2147483648 <= x < 2147483648.

Lemma args_at pc ps d :
  code_at c pc (loc_bytes ps ++ i32_bytes d) -> Forall (fun p => idx_ok (provider_idx p)) ps -> idx_ok d ->
  (forall j p, nth_error ps j = Some p -> get_i32 c (pc + 4 * Z.of_nat j) = provider_idx p)
  /\ get_i32 c (pc + 4 * Z.of_nat (length ps)) = d.
Proof.
  intros H F Hd. apply code_at_app in H. destruct H as [H1 H2]. rewrite loc_bytes_length in H2. split.
  - apply (code_at_locs ps); auto.
  - apply code_at_i32; auto. replace (pc + 4 * Z.of_nat (length ps)) with (pc + Z.of_nat (4 * length ps)) by lia. exact H2.
Qed.

Lemma unary_at M pc f p d :
  code_at c pc (loc_bytes [p] ++ i32_bytes d) -> idx_ok (provider_idx p) -> idx_ok d ->
  unary c consts M pc f = SNext (set_pc (set_reg M d (f (denote M p) (reg M d))) (pc + 8)).
Proof.
  intros H Hp Hd. unfold loc_bytes in H. cbn [flat_map] in H. rewrite app_nil_r in H.
  apply code_at_app in H. destruct H as [H1 H2]. rewrite i32_bytes_length in H2.
  unfold unary. rewrite (code_at_i32 c pc _ Hp H1), (code_at_i32 c (pc + 4) d Hd H2). reflexivity.
Qed.
Lemma binary_at M pc f pr pl d :
  code_at c pc (loc_bytes [pr; pl] ++ i32_bytes d) -> idx_ok (provider_idx pr) -> idx_ok (provider_idx pl) -> idx_ok d ->
  binary c consts M pc f = match f (denote M pl) (denote M pr) (reg M d) with
                           | inr x => SNext (set_pc (set_reg M d x) (pc + 12))
                           | inl e => STrap e
                           end.
Proof.
  intros H Hr Hl Hd. unfold loc_bytes in H. cbn [flat_map] in H. rewrite app_nil_r in H.
  apply code_at_app in H. destruct H as [H12 H3]. apply code_at_app in H12. destruct H12 as [H1 H2].
  rewrite app_length, !i32_bytes_length in H3. rewrite i32_bytes_length in H2.
  unfold binary. rewrite (code_at_i32 c pc _ Hr H1), (code_at_i32 c (pc + 4) _ Hl H2), (code_at_i32 c (pc + 8) d Hd H3).
  reflexivity.
Qed.

Lemma exec_unop M pc t o : (t = T_i32 -> o <> Extend32S) ->
  exec_op art mhost c consts M pc (unop_opcode t o) = unary c consts M pc (fun src old => set_t t old (rs_unop t o src)).
Proof. intros H. destruct t, o; try reflexivity. contradiction (H eq_refl eq_refl). Qed.
Lemma exec_eqz M pc t : exec_op art mhost c consts M pc (eqz_opcode t)
  = unary c consts M pc (fun src old => set_short old (rs_eqz t src)).
Proof. destruct t; reflexivity. Qed.
Lemma exec_cvt M pc o : exec_op art mhost c consts M pc (cvt_opcode o)
  = unary c consts M pc (fun src old => set_t (cvt_dst o) old (rs_cvt o src)).
Proof. destruct o; reflexivity. Qed.
Lemma exec_binop M pc t o : exec_op art mhost c consts M pc (binop_opcode t o)
  = binary c consts M pc (fun l r old =>
      match rs_binop (bits t) o (sview t l) (sview t r) (uview t l) (uview t r) with
      | inr x => inr (set_t t old x) | inl e => inl e end).
Proof. destruct t, o; reflexivity. Qed.
Lemma exec_relop M pc t o : exec_op art mhost c consts M pc (relop_opcode t o)
  = binary c consts M pc (fun l r old =>
      inr (set_short old (rs_relop o (sview t l) (sview t r) (uview t l) (uview t r)))).
Proof. destruct t, o; reflexivity. Qed.

Lemma exec_load M pc t pk : load_valid t pk = true ->
  exec_op art mhost c consts M pc (load_opcode t pk) = do_load c consts M pc (load_width t pk) (load_conv t pk).
Proof. destruct t, pk as [[[] []]|]; try discriminate; reflexivity. Qed.

Lemma gi_machine b opc imm k ps d M :
  gi_shape b = Some (opc, imm, k, true) -> sim_gi b = true -> length ps = k ->
  ms_idx M = fidx -> code_at c (ms_pc M) (opc :: imm ++ loc_bytes ps ++ i32_bytes d) ->
  Forall (fun p => idx_ok (provider_idx p)) ps -> idx_ok d ->
  exists res, gi_val b (map (denote M) ps) M = Some res /\
    mstep M = match res with
              | inr (w, Mm) => SNext (set_pc (set_reg Mm d (w (reg Mm d)))
                                             (ms_pc M + 1 + Z.of_nat (length imm) + 4 * Z.of_nat k + 4))
              | inl e => STrap e
              end.
Proof.
  intros Hsh Hsim Hlen Hidx Hcode' Fps Hd.
  apply code_at_cons in Hcode'. destruct Hcode' as [Hop Hc]. apply code_at_app in Hc. destruct Hc as [Himm Hargs].
  destruct (args_at _ ps d Hargs Fps Hd) as (Hsrc & Hdst).
  rewrite (mstep_at M Hidx), Hop, N2Z.id.
  destruct b; try discriminate Hsim; cbn [gi_shape] in Hsh; injection Hsh as Eo Ei Ek; subst opc imm k;
    cbn [length Z.of_nat Pos.of_succ_nat Pos.succ] in *; rewrite ?Z.add_0_r in *.
  - destruct ps as [|p1 [|p2 [|p3 [|? ?]]]]; try discriminate.
    pose proof (Hsrc 0%nat p1 eq_refl) as E1. pose proof (Hsrc 1%nat p2 eq_refl) as E2. pose proof (Hsrc 2%nat p3 eq_refl) as E3.
    cbn [length Z.of_nat Pos.of_succ_nat Pos.succ] in *. rewrite ?Z.add_0_r, ?Z.mul_0_r in *.
    eexists; split; [reflexivity|]. cbn [map].
    change (exec_op art mhost c consts M (ms_pc M + 1) ISelect) with
      (let top := get_local consts M (get_i32 c (ms_pc M + 1)) in
       let t2 := get_local consts M (get_i32 c (ms_pc M + 1 + 4)) in
       let t1 := get_local consts M (get_i32 c (ms_pc M + 1 + 8)) in
       SNext (set_pc (set_reg M (get_i32 c (ms_pc M + 1 + 12)) (if as_i32 top =? 0 then t2 else t1)) (ms_pc M + 1 + 16))).
    cbv zeta. replace (ms_pc M + 1 + 4) with (ms_pc M + 1 + 4 * 1) by lia. replace (ms_pc M + 1 + 8) with (ms_pc M + 1 + 4 * 2) by lia.
    replace (ms_pc M + 1 + 12) with (ms_pc M + 1 + 4 * 3) by lia.
    rewrite E1, E2, E3, Hdst. unfold denote. do 2 f_equal; try lia.
  - destruct ps; try discriminate. apply Z.ltb_lt in Hsim.
    rewrite u16_bytes_length in *. cbn [length Z.of_nat Pos.of_succ_nat Pos.succ] in *. rewrite ?Z.mul_0_r, ?Z.add_0_r in *.
    pose proof (code_at_u16 c (ms_pc M + 1) (Z.of_nat i) ltac:(lia) Himm) as Eg.
    eexists; split; [reflexivity|].
    change (exec_op art mhost c consts M (ms_pc M + 1) IGlobalGet) with
      (let g := nth (Z.to_nat (get_u16 c (ms_pc M + 1))) (ms_globals M) 0 in
       SNext (set_pc (set_reg M (get_i32 c (ms_pc M + 1 + 2)) g) (ms_pc M + 1 + 6))).
    cbv zeta. rewrite Eg, Hdst, Nat2Z.id. do 2 f_equal; try lia.
  - destruct ps as [|p1 [|? ?]]; try discriminate.
    apply andb_true_iff in Hsim. destruct Hsim as [Hoff Hval]. apply N.ltb_lt in Hoff.
    rewrite u32_bytes_length in *. pose proof (Hsrc 0%nat p1 eq_refl) as E1.
    cbn [length Z.of_nat Pos.of_succ_nat Pos.succ] in *. rewrite ?Z.mul_0_r, ?Z.add_0_r in *.
    pose proof (code_at_u32 c (ms_pc M + 1) (Z.of_N offset) ltac:(lia) Himm) as Eo'.
    rewrite (exec_load M _ t pk Hval). unfold do_load. rewrite Eo', E1.
    replace (ms_pc M + 1 + 8) with (ms_pc M + 1 + 4 + 4 * 1) by lia. rewrite Hdst.
    eexists; split; [reflexivity|]. cbn [map]. unfold load_result, denote.
    destruct (ms_mem M); [|reflexivity].
    destruct (as_u32 (get_local consts M (provider_idx p1)) + Z.of_N offset + Z.of_nat (load_width t pk) <=? mlen M); [|reflexivity].
    do 2 f_equal; try lia.
  - destruct ps; try discriminate. cbn [length Z.of_nat] in *. rewrite ?Z.mul_0_r, ?Z.add_0_r in *.
    eexists; split; [reflexivity|].
    change (exec_op art mhost c consts M (ms_pc M + 1) IMemorySize) with
      (SNext (set_pc (set_reg M (get_i32 c (ms_pc M + 1)) (from_i32 (mlen M / 65536))) (ms_pc M + 1 + 4))).
    rewrite Hdst. do 2 f_equal; try lia.
  - destruct ps as [|p1 [|? ?]]; try discriminate.
    pose proof (Hsrc 0%nat p1 eq_refl) as E1. cbn [length Z.of_nat Pos.of_succ_nat] in *. rewrite ?Z.mul_0_r, ?Z.add_0_r in *.
    eexists; split; [reflexivity|]. cbn [map]. unfold grow_result.
    change (exec_op art mhost c consts M (ms_pc M + 1) IMemoryGrow) with
      (let v := get_local consts M (get_i32 c (ms_pc M + 1)) in
       let t := get_i32 c (ms_pc M + 1 + 4) in
       let n := as_u32 v in
       let sz := mlen M / 65536 in
       if sz + n >? max_memory then SNext (set_pc (set_reg M t (set_short (reg M t) (-1))) (ms_pc M + 1 + 8))
       else
         let st1 := match ms_mem M with
                    | Some mm => if n =? 0 then M else
                                 set_mmem M {| mem_pages := Z.to_N (sz + n); mem_max := mem_max mm; mem_data := mem_data mm |}
                    | None => M
                    end in
         SNext (set_pc (set_reg st1 t (set_short (reg M t) sz)) (ms_pc M + 1 + 8))).
    cbv zeta. replace (ms_pc M + 1 + 4) with (ms_pc M + 1 + 4 * 1) by lia. rewrite E1, Hdst. unfold denote.
    destruct (mlen M / 65536 + as_u32 (get_local consts M (provider_idx p1)) >? max_memory).
    + do 2 f_equal; try lia.
    + destruct (ms_mem M); [destruct (as_u32 (get_local consts M (provider_idx p1)) =? 0)|]; do 2 f_equal; try lia.
  - destruct ps as [|p1 [|? ?]]; try discriminate.
    rewrite exec_unop by (intros -> ->; discriminate Hsim). rewrite (unary_at M _ _ p1 d Hargs (Forall_inv Fps) Hd).
    eexists; split; [reflexivity|]. cbv beta iota. do 2 f_equal. lia.
  - destruct ps as [|p1 [|p2 [|? ?]]]; try discriminate.
    rewrite exec_binop, (binary_at M _ _ p1 p2 d Hargs (Forall_inv Fps) (Forall_inv (Forall_inv_tail Fps)) Hd).
    eexists; split; [reflexivity|]. cbn [map]. destruct (rs_binop (bits t) op _ _ _ _); [reflexivity|]. do 2 f_equal. lia.
  - destruct ps as [|p1 [|? ?]]; try discriminate.
    rewrite exec_eqz, (unary_at M _ _ p1 d Hargs (Forall_inv Fps) Hd).
    eexists; split; [reflexivity|]. cbv beta iota. do 2 f_equal. lia.
  - destruct ps as [|p1 [|p2 [|? ?]]]; try discriminate.
    rewrite exec_relop, (binary_at M _ _ p1 p2 d Hargs (Forall_inv Fps) (Forall_inv (Forall_inv_tail Fps)) Hd).
    eexists; split; [reflexivity|]. cbv beta iota. do 2 f_equal. lia.
  - destruct ps as [|p1 [|? ?]]; try discriminate.
    rewrite exec_cvt, (unary_at M _ _ p1 d Hargs (Forall_inv Fps) Hd).
    eexists; split; [reflexivity|]. cbv beta iota. do 2 f_equal. lia.
Qed.

Lemma low32_idem r : low32 (low32 r) = low32 r.
Proof. unfold low32, two32. apply Z.mod_mod. lia. Qed.
Lemma as_u64_idem r : as_u64 (as_u64 r) = as_u64 r.
Proof. unfold as_u64, two64. apply Z.mod_mod. lia. Qed.
Lemma range32_low r : IntNProofs.in_range 32 (low32 r).
Proof. unfold IntNProofs.in_range. change (modulus 32) with 4294967296. apply low32_range. Qed.
Lemma range64_u64 r : IntNProofs.in_range 64 (as_u64 r).
Proof. unfold IntNProofs.in_range. change (modulus 64) with 18446744073709551616. apply as_u64_range. Qed.
Lemma as_i32_repr r : as_i32 r = signed 32 (low32 r).
Proof. rewrite as_i32_low. apply as_i32_signed. apply range32_low. Qed.
Lemma as_i64_repr r : as_i64 r = signed 64 (as_u64 r).
Proof. rewrite as_i64_low. apply as_i64_signed. apply range64_u64. Qed.
Lemma as_i32_eqb0 r : (as_i32 r =? 0) = (low32 r =? 0).
Proof.
  rewrite as_i32_repr. pose proof (signed_eq0 32 (low32 r) ltac:(lia) (range32_low r)) as E.
  destruct (Z.eqb_spec (signed 32 (low32 r)) 0), (Z.eqb_spec (low32 r) 0); tauto.
Qed.
Lemma rs_unop_low t o s : rs_unop t o s = rs_unop t o (uview t s).
Proof.
  destruct t; cbn [rs_unop uview].
  - assert (A : as_i32 (low32 s) = as_i32 s) by (symmetry; apply as_i32_low).
    assert (B : as_u32 (low32 s) = as_u32 s) by (unfold as_u32; apply low32_idem).
    destruct o; cbn [rs_unop32]; rewrite ?A, ?B; reflexivity.
  - assert (A : as_i64 (as_u64 s) = as_i64 s) by (symmetry; apply as_i64_low).
    assert (B : as_u64 (as_u64 s) = as_u64 s) by apply as_u64_idem.
    destruct o; cbn [rs_unop64]; rewrite ?A, ?B; reflexivity.
Qed.
Lemma rs_unop_agrees t o x : IntNProofs.in_range (bits t) x -> (t = T_i32 -> o <> Extend32S) ->
  app_unop t o x = Some (rs_unop t o x mod 2 ^ bits t).
Proof. intros Hx Ho. destruct t; [apply rs_unop32_agrees; auto|apply rs_unop64_agrees; auto]. Qed.
Lemma rs_eqz_view t s : rs_eqz t s = ieqz (bits t) (uview t s).
Proof.
  destruct (rs_eqz_agrees (uview t s)) as [E32 E64]. destruct t; cbn [rs_eqz uview bits] in *.
  - rewrite <- E32 by apply range32_low. unfold rs_eqz32. rewrite (as_i32_low s). reflexivity.
  - rewrite <- E64 by apply range64_u64. unfold rs_eqz64. rewrite (as_i64_low s). reflexivity.
Qed.

Lemma uview_range t r : IntNProofs.in_range (bits t) (uview t r).
Proof. destruct t; [apply range32_low|apply range64_u64]. Qed.
Lemma sview_signed t r : sview t r = signed (bits t) (uview t r).
Proof. destruct t; [apply as_i32_repr|apply as_i64_repr]. Qed.
Lemma payload_repr t v x r : payload t v = Some x -> repr r v -> v = mkval t x /\ uview t r = x.
Proof. destruct t, v; cbn; intros E R; inversion E; subst; auto. Qed.

Definition mupd (M Mm : mstate) : Prop :=
  ms_pc Mm = ms_pc M /\ ms_idx Mm = ms_idx M /\ ms_frames Mm = ms_frames M /\ ms_ret Mm = ms_ret M
  /\ ms_regs Mm = ms_regs M /\ ms_base Mm = ms_base M /\ ms_globals Mm = ms_globals M /\ ms_energy Mm = ms_energy M.
Lemma mupd_refl M : mupd M M. Proof. repeat split. Qed.

Lemma repr_short old x z : x mod 4294967296 = z -> repr (set_short old x) (VI32 z).
Proof. intros <-. cbn. apply low32_set_short. Qed.
Lemma repr_long old x z : x mod 18446744073709551616 = z -> repr (set_long old x) (VI64 z).
Proof. intros <-. cbn. apply as_u64_set_long. Qed.
Lemma repr_set t old x z : x mod 2 ^ bits t = z -> repr (set_t t old x) (mkval t z).
Proof. destruct t; [apply repr_short|apply repr_long]. Qed.

Lemma mem_get_ext a b x : mem_data a = mem_data b -> mem_get a x = mem_get b x.
Proof. intros E. unfold mem_get. rewrite E. reflexivity. Qed.
Lemma mem_read_ext a b : mem_data a = mem_data b -> forall k x, mem_read a x k = mem_read b x k.
Proof. intros E k. induction k; intros x; cbn; auto. rewrite IHk, (mem_get_ext a b x E). reflexivity. Qed.
Lemma mem_read_range mm : (forall a, 0 <= mem_get mm a < 256) -> forall k x, Forall (fun b => 0 <= b < 256) (mem_read mm x k).
Proof. intros H k. induction k; intros x; cbn; constructor; auto. Qed.
Lemma of_bytes_range bs : Forall (fun b => 0 <= b < 256) bs -> 0 <= of_bytes bs < 256 ^ Z.of_nat (length bs).
Proof.
  induction 1 as [|b r Hb Hr IH]; cbn [of_bytes length]; [cbn; lia|].
  rewrite Nat2Z.inj_succ, Z.pow_succ_r by lia. lia.
Qed.
Lemma mem_read_length mm : forall k x, length (mem_read mm x k) = k.
Proof. induction k; intros; cbn; auto. Qed.

Lemma in_bounds_rel M mm sm i off w : ms_mem M = Some mm -> mem_pages mm = mem_pages sm -> 0 <= i ->
  (i + Z.of_N off + Z.of_nat w <=? mlen M) = in_bounds sm (Z.to_N i + off) w.
Proof.
  intros Em Hp Hi.
  assert (Eml : mlen M = Z.of_N (mem_len sm)) by (unfold mlen; rewrite Em; unfold mem_len; rewrite Hp; reflexivity).
  unfold in_bounds. rewrite Eml.
  destruct (Z.leb_spec (i + Z.of_N off + Z.of_nat w) (Z.of_N (mem_len sm))), (N.leb_spec (Z.to_N i + off + N.of_nat w) (mem_len sm)); auto; lia.
Qed.

Lemma load_conv_agree t pk raw :
  load_valid t pk = true -> 0 <= raw < 256 ^ Z.of_nat (load_width t pk) ->
  repr (load_conv t pk raw)
       (mkval t (match pk with
                 | None => raw
                 | Some (p, SX_U) => iextend_u (8 * Z.of_nat (pack_bytes p)) (bits t) raw
                 | Some (p, SX_S) => iextend_s (8 * Z.of_nat (pack_bytes p)) (bits t) raw
                 end)).
Proof.
  intros Hv Hr.
  assert (S8 : forall x, 0 <= x < 256 -> sext 8 x = signed 8 x) by (intros x Hx; rewrite sext_signed, Z.mod_small by (change (2 ^ 8) with 256; lia); reflexivity).
  assert (S16 : forall x, 0 <= x < 65536 -> sext 16 x = signed 16 x) by (intros x Hx; rewrite sext_signed, Z.mod_small by (change (2 ^ 16) with 65536; lia); reflexivity).
  assert (S32 : forall x, 0 <= x < 4294967296 -> sext 32 x = signed 32 x) by (intros x Hx; rewrite sext_signed, Z.mod_small by (change (2 ^ 32) with 4294967296; lia); reflexivity).
  destruct t, pk as [[[] []]|]; try discriminate Hv; cbn [load_width load_conv type_bytes pack_bytes mkval repr bits Z.of_nat Pos.of_succ_nat Pos.succ Z.mul] in *;
    unfold iextend_u, iextend_s, unsigned, wrap, modulus, from_i32, from_i64, low32, as_u64, two32, two64;
    rewrite ?Z.mod_mod by lia.
  all: try (change (256 ^ 1) with 256 in Hr); try (change (256 ^ 2) with 65536 in Hr);
       try (change (256 ^ 4) with 4294967296 in Hr); try (change (256 ^ 8) with 18446744073709551616 in Hr).
  all: try (apply Z.mod_small; lia).
  all: try (rewrite S8 by lia; reflexivity); try (rewrite S16 by lia; reflexivity); try (rewrite S32 by lia; reflexivity).
Qed.

Definition gi_post (M : mstate) (res : sum trap_reason ((Z -> Z) * mstate)) (st' : store) (v' : val) : Prop :=
  exists w Mm, res = inr (w, Mm) /\ (forall old, repr (w old) v')
               /\ mupd M Mm /\ Forall2 repr (ms_globals Mm) (s_globals st') /\ mem_rel (ms_mem Mm) (s_mem st').

Lemma gi_sem b srcs M res st locals tops vs :
  sim_gi b = true -> gi_val b srcs M = Some res -> Forall2 repr srcs tops ->
  Forall2 repr (ms_globals M) (s_globals st) -> mem_rel (ms_mem M) (s_mem st) ->
  match exec_simple cap b st locals (tops ++ vs) with
  | inr (st', l', vs') => exists v', l' = locals /\ vs' = v' :: vs /\ gi_post M res st' v'
  | inl true => exists e, res = inl e
  | inl false => True
  end.
Proof.
  intros Hsim Hv Hrep Hg Hm.
  assert (POST : forall w v', (forall old, repr (w old) v') ->
                 exists v0, locals = locals /\ v' :: vs = v0 :: vs /\ gi_post M (inr (w, M)) st v0).
  { intros w v' Hw. exists v'. split; [reflexivity|]. split; [reflexivity|]. exists w, M. repeat split; auto. }
  destruct b; try discriminate Hsim; cbn [gi_val] in Hv.
  - destruct srcs as [|top [|t2 [|t1 [|? ?]]]]; try discriminate. inversion Hv; subst; clear Hv.
    inversion Hrep as [|? vc ? ? Rc Hr1]; subst. inversion Hr1 as [|? v2 ? ? R2 Hr2]; subst.
    inversion Hr2 as [|? v1 ? ? R1 Hr3]; subst. inversion Hr3; subst. cbn [app].
    destruct vc as [cz|cz]; cbn [exec_simple]; [|exact I].
    destruct (valtype_eqb (type_of_val v1) (type_of_val v2)); [|exact I]. cbn [ok].
    apply POST. intros _.
    rewrite as_i32_eqb0. cbn in Rc. rewrite Rc. destruct (cz =? 0); assumption.
  - destruct srcs; try discriminate. inversion Hv; subst; clear Hv. inversion Hrep; subst. cbn [app exec_simple].
    unfold nth_opt. destruct (nth_error (s_globals st) i) as [v|] eqn:E; [|exact I]. cbn [ok].
    apply POST. intros _.
    clear - Hg E. revert i E. induction Hg; intros [|i] E; cbn in *; try discriminate.
    + inversion E; subst. assumption.
    + apply IHHg. exact E.
  - destruct srcs as [|base [|? ?]]; try discriminate. inversion Hv; subst; clear Hv.
    inversion Hrep as [|? v ? ? R1 Hr1]; subst. inversion Hr1; subst. cbn [app].
    apply andb_true_iff in Hsim. destruct Hsim as [Hoff Hval].
    destruct v as [i|i]; cbn [exec_simple]; [|exact I].
    destruct (s_mem st) as [sm|] eqn:Es; [|exact I].
    unfold mem_rel in Hm. destruct (ms_mem M) as [mm|] eqn:Em; [|contradiction]. destruct Hm as (Hp & Hd & Hl & Hb & Hby).
    cbn in R1. assert (Hi : 0 <= i < 4294967296) by (rewrite <- R1; apply low32_range).
    unfold load_result. rewrite Em. unfold as_u32. rewrite R1.
    set (w := load_width t pk).
    assert (Ew : match pk with None => type_bytes t | Some (p, _) => pack_bytes p end = w) by reflexivity.
    pose proof (in_bounds_rel M mm sm i offset w Em Hp (proj1 Hi)) as Eb.
    assert (Eraw : of_bytes (mem_read mm (Z.to_N (i + Z.of_N offset)) w) = of_bytes (mem_read sm (Z.to_N i + offset) w)).
    { rewrite (mem_read_ext mm sm Hd). f_equal. f_equal. lia. }
    assert (Rraw : 0 <= of_bytes (mem_read sm (Z.to_N i + offset) w) < 256 ^ Z.of_nat w).
    { rewrite <- (mem_read_length sm w (Z.to_N i + offset)) at 3. apply of_bytes_range. apply mem_read_range. exact Hby. }
    rewrite Eb, Eraw.
    assert (SEM : forall k, k = w -> mem_load sm (Z.to_N i + offset) k =
                  if in_bounds sm (Z.to_N i + offset) w then Some (of_bytes (mem_read sm (Z.to_N i + offset) w)) else None).
    { intros k ->. reflexivity. }
    pose proof (load_conv_agree t pk _ Hval Rraw) as CA.
    destruct pk as [[p sg]|]; rewrite (SEM _ Ew); destruct (in_bounds sm (Z.to_N i + offset) w).
    + cbn [ok]. apply POST. intros _. destruct sg; exact CA.
    + eexists; reflexivity.
    + cbn [ok]. apply POST. intros _. exact CA.
    + eexists; reflexivity.
  - destruct srcs; try discriminate. inversion Hv; subst; clear Hv. inversion Hrep; subst. cbn [app exec_simple].
    destruct (s_mem st) as [sm|] eqn:Es; [|exact I]. cbn [ok].
    apply POST. intros _.
    unfold mem_rel in Hm. destruct (ms_mem M) as [mm|] eqn:Em; [|contradiction]. destruct Hm as (Hp & Hd & Hl & Hb & Hby).
    cbn. unfold mlen. rewrite Em. unfold mem_len, page_size. rewrite Hp. unfold from_i32, low32, two32.
    rewrite N2Z.inj_mul. change (Z.of_N 65536) with 65536. rewrite Z.div_mul by lia. rewrite Z.mod_mod by lia.
    apply Z.mod_small. lia.
  - destruct srcs as [|s1 [|? ?]]; try discriminate. inversion Hv; subst; clear Hv.
    inversion Hrep as [|? v ? ? R1 Hr1]; subst. inversion Hr1; subst. cbn [app].
    destruct v as [n|n]; cbn [exec_simple]; [|exact I].
    destruct (s_mem st) as [sm|] eqn:Es; [|exact I]. pose proof Hm as Hm0.
    unfold mem_rel in Hm. destruct (ms_mem M) as [mm|] eqn:Em; [|contradiction]. destruct Hm as (Hp & Hd & Hl & Hb & Hby).
    cbn in R1. assert (Hn : 0 <= n < 4294967296) by (rewrite <- R1; apply low32_range).
    unfold mem_grow, grow_result. unfold as_u32. rewrite R1.
    assert (Esz : mlen M / 65536 = Z.of_N (mem_pages sm)).
    { unfold mlen. rewrite Em. unfold mem_len, page_size. rewrite Hp, N2Z.inj_mul. change (Z.of_N 65536) with 65536.
      apply Z.div_mul. lia. }
    rewrite Esz. rewrite <- Hl.
    destruct (N.leb_spec (mem_pages sm + Z.to_N n) (grow_limit cap sm)) as [Hle|Hgt].
    + destruct (Z.gtb_spec (Z.of_N (mem_pages sm) + n) (Z.of_N (grow_limit cap sm))) as [G|G]; [lia|].
      cbn [ok]. eexists; split; [reflexivity|split; [reflexivity|]].
      eexists _, _. split; [reflexivity|]. split.
      * intros old. apply repr_short. apply Z.mod_small.
        assert (grow_limit cap sm <= 65536)%N by (unfold grow_limit; lia). lia.
      * rewrite Em. assert (L : (grow_limit cap sm <= 65536)%N) by (unfold grow_limit; lia).
        destruct (Z.eqb_spec n 0) as [->|Hn0].
        -- split; [apply mupd_refl|]. split; [exact Hg|]. rewrite Em. cbn. rewrite N.add_0_r. destruct sm; exact Hm0.
        -- split; [repeat split|]. split; [exact Hg|]. unfold with_mem, set_mem; cbn [s_mem ms_mem set_mmem].
           repeat split; cbn; auto; try lia; try (apply (proj1 (Hby _))); try (apply (proj2 (Hby _))).
    + destruct (Z.gtb_spec (Z.of_N (mem_pages sm) + n) (Z.of_N (grow_limit cap sm))) as [G|G]; [|lia].
      cbn [ok]. eexists; split; [reflexivity|split; [reflexivity|]].
      eexists _, M. split; [reflexivity|]. split; [intros old; apply repr_short; reflexivity|].
      split; [apply mupd_refl|]. split; [exact Hg|]. rewrite Em. exact Hm0.
  - destruct srcs as [|s1 [|? ?]]; try discriminate. inversion Hv; subst; clear Hv.
    inversion Hrep as [|? v ? ? R1 Hr1]; subst. inversion Hr1; subst. cbn [app exec_simple].
    destruct (payload t v) as [z|] eqn:Ep; [|exact I]. destruct (payload_repr _ _ _ _ Ep R1) as [-> Ez].
    rewrite (rs_unop_agrees t op z); [|rewrite <- Ez; apply uview_range|intros -> ->; discriminate Hsim]. cbn [ok].
    apply POST. intros old. apply repr_set.
    rewrite rs_unop_low, Ez. reflexivity.
  - destruct srcs as [|r [|l [|? ?]]]; try discriminate. inversion Hv; subst; clear Hv.
    inversion Hrep as [|? v2 ? ? R2 Hr1]; subst. inversion Hr1 as [|? v1 ? ? R1 Hr2]; subst. inversion Hr2; subst.
    cbn [app exec_simple].
    assert (Hop : op <> RemS) by (intro; subst; destruct t; discriminate).
    destruct (payload t v1) as [x|] eqn:E1; [|exact I]. destruct (payload t v2) as [y|] eqn:E2; [|exact I].
    destruct (payload_repr _ _ _ _ E1 R1) as [-> Ex]. destruct (payload_repr _ _ _ _ E2 R2) as [-> Ey].
    pose proof (rs_binop_agrees_all t op x y ltac:(rewrite <- Ex; apply uview_range)
                  ltac:(rewrite <- Ey; apply uview_range) ltac:(intros; contradiction)) as A.
    rewrite !sview_signed, Ex, Ey.
    destruct (rs_binop (bits t) op (signed (bits t) x) (signed (bits t) y) x y) as [e|q]; rewrite A.
    + eexists; reflexivity.
    + cbn [ok]. apply POST. intros old.
      apply repr_set. reflexivity.
  - destruct srcs as [|s1 [|? ?]]; try discriminate. inversion Hv; subst; clear Hv.
    inversion Hrep as [|? v ? ? R1 Hr1]; subst. inversion Hr1; subst. cbn [app exec_simple].
    destruct (payload t v) as [z|] eqn:Ep; [|exact I]. destruct (payload_repr _ _ _ _ Ep R1) as [-> Ez]. cbn [ok].
    apply POST. intros old. apply repr_short.
    rewrite rs_eqz_view, Ez. unfold ieqz, bool_to_Z. destruct (z =? 0); reflexivity.
  - destruct srcs as [|r [|l [|? ?]]]; try discriminate. inversion Hv; subst; clear Hv.
    inversion Hrep as [|? v2 ? ? R2 Hr1]; subst. inversion Hr1 as [|? v1 ? ? R1 Hr2]; subst. inversion Hr2; subst.
    cbn [app exec_simple].
    destruct (payload t v1) as [x|] eqn:E1; [|exact I]. destruct (payload t v2) as [y|] eqn:E2; [|exact I].
    destruct (payload_repr _ _ _ _ E1 R1) as [-> Ex]. destruct (payload_repr _ _ _ _ E2 R2) as [-> Ey]. cbn [ok].
    apply POST. intros old. apply repr_short.
    rewrite !sview_signed, Ex, Ey.
    rewrite (rs_relop_all t op x y) by (rewrite <- ?Ex, <- ?Ey; apply uview_range).
    apply Z.mod_small. unfold app_relop, ieq, ine, ilt_s, ilt_u, igt_s, igt_u, ile_s, ile_u, ige_s, ige_u, bool_to_Z.
    destruct op; match goal with |- context [if ?b then _ else _] => destruct b end; lia.
  - destruct srcs as [|s1 [|? ?]]; try discriminate. inversion Hv; subst; clear Hv.
    inversion Hrep as [|? v ? ? R1 Hr1]; subst. inversion Hr1; subst. cbn [app].
    destruct (rs_cvt_agrees (match v with VI32 z | VI64 z => z end)) as (C1 & C2 & C3).
    destruct op, v as [z|z]; cbn [exec_simple set_t cvt_dst]; try exact I; cbn in R1; cbn [ok].
    + apply POST. intros old. apply repr_short.
      rewrite <- C1 by (rewrite <- R1; apply range64_u64). cbn [rs_cvt]. rewrite as_i64_low, R1. reflexivity.
    + apply POST. intros old. apply repr_long.
      rewrite <- C2 by (rewrite <- R1; apply range32_low). cbn [rs_cvt]. rewrite as_i32_low, R1. reflexivity.
    + apply POST. intros old. apply repr_long.
      rewrite <- C3 by (rewrite <- R1; apply range32_low). cbn [rs_cvt]. unfold as_u32. rewrite R1.
      rewrite <- R1. unfold as_u32. rewrite low32_idem. reflexivity.
Qed.

Lemma gi_compile s opc imm k prov s1 :
  cwf nl s -> gi (set_last s None) opc imm k prov = Some s1 ->
  exists ps rest, c_stack s = ps ++ rest /\ length ps = k /\ Forall (pwf nl s) ps
  /\ c_consts s1 = c_consts s /\ c_bp s1 = c_bp s /\ cwf nl s1 /\ c_next s <= c_next s1 <= c_next s + 1
  /\ if prov then
       exists r, c_stack s1 = PDyn r :: rest /\ nl <= r < c_next s1 /\ ~ In (PDyn r) rest
                 /\ c_out s1 = c_out s ++ opc :: imm ++ loc_bytes ps ++ i32_bytes r
                 /\ c_last s1 = Some (cur_off s + 1 + Z.of_nat (length imm) + 4 * Z.of_nat k)
     else c_stack s1 = rest /\ c_out s1 = c_out s ++ opc :: imm ++ loc_bytes ps /\ c_last s1 = None.
Proof.
  intros W H. destruct (gi_frame _ _ _ _ _ _ H) as (ps & rest & Es & Lps & Ec & Eb & Bn & Hp).
  destruct (gi_cwf nl _ _ _ _ _ _ (cwf_same nl s (set_last s None) (same_alloc_set_last s None) W) H) as (W1 & Hfresh).
  cbn [c_stack c_consts c_bp c_next c_out c_last set_last] in Es, Ec, Eb, Bn, Hp.
  exists ps, rest. splits; auto; try apply Bn.
  - pose proof (w_stack _ _ W) as F. rewrite Es in F. apply Forall_app in F. apply F.
  - destruct prov; [|exact Hp]. destruct Hp as (r & Es1 & Eo & El). exists r.
    pose proof (w_stack _ _ W1) as F1. rewrite Es1 in F1. apply Forall_inv in F1.
    splits; auto; try apply F1.
    + rewrite Eo, <- app_assoc. cbn [app]. rewrite <- app_assoc. reflexivity.
    + rewrite El. unfold cur_off. rewrite app_length. cbn [length]. rewrite app_length, loc_bytes_length. f_equal. lia.
Qed.

Lemma get_local_mupd M Mm i : mupd M Mm -> get_local consts Mm i = get_local consts M i.
Proof. intros (_ & _ & _ & _ & Er & Eb & _). unfold get_local, reg. rewrite Er, Eb. reflexivity. Qed.

Lemma denote_write M Mm d x pc q :
  mupd M Mm -> 0 <= d -> (ms_base M + Z.to_nat d < length (ms_regs M))%nat -> provider_idx q <> d ->
  denote (set_pc (set_reg Mm d x) pc) q = denote M q.
Proof.
  intros U H0 Hl Hne. unfold denote. rewrite get_local_set_pc.
  destruct U as (U1 & U2 & U3 & U4 & Er & Eb & U5). rewrite get_local_set_reg by (rewrite ?Er, ?Eb; auto).
  destruct (Z.eqb_spec (provider_idx q) d); [contradiction|]. apply get_local_mupd. repeat split; auto; tauto.
Qed.
Lemma denote_write_same M Mm d x pc :
  mupd M Mm -> 0 <= d -> (ms_base M + Z.to_nat d < length (ms_regs M))%nat ->
  get_local consts (set_pc (set_reg Mm d x) pc) d = x.
Proof.
  intros U H0 Hl. rewrite get_local_set_pc. destruct U as (U1 & U2 & U3 & U4 & Er & Eb & U5).
  rewrite get_local_set_reg by (rewrite ?Er, ?Eb; auto). rewrite Z.eqb_refl. reflexivity.
Qed.

Lemma pwf_idx_ne_dyn s q r : 0 <= nl -> pwf nl s q -> nl <= r -> q <> PDyn r -> provider_idx q <> r.
Proof.
  intros Hnl H Hr Hne E. destruct q as [r'|i|k]; cbn in *.
  - subst. apply Hne; reflexivity.
  - lia.
  - destruct H. lia.
Qed.

Lemma frame_eq_write M Mm d x pc : mupd M Mm -> frame_eq M (set_pc (set_reg Mm d x) pc).
Proof.
  intros (U1 & U2 & U3 & U4 & Er & Eb & U5 & U6). unfold frame_eq. cbn. rewrite list_set_length, Er. repeat split; auto.
Qed.

Definition sim_result (M : mstate) (s1 : cstate) (r : step_result) : Prop :=
  match r with
  | inr (st', l', vs') => cwf nl s1 /\ exists n M', nsteps n M = SNext M' /\ rel s1 st' l' vs' M' /\ frame_eq M M'
  | inl true => exists n e, nsteps n M = STrap e
  | inl false => True
  end.

Lemma Forall2_map_l {A B C} (f : A -> B) (R : B -> C -> Prop) l l' :
  Forall2 (fun a c => R (f a) c) l l' -> Forall2 R (map f l) l'.
Proof. induction 1; cbn; constructor; auto. Qed.
Lemma Forall2_impl_in {A B} (R R' : A -> B -> Prop) l l' :
  Forall2 R l l' -> (forall a b, In a l -> R a b -> R' a b) -> Forall2 R' l l'.
Proof. induction 1; intros H'; constructor; [apply H'; cbn; auto|apply IHForall2; intros; apply H'; cbn; auto]. Qed.

Lemma small_idx_ok s ps : cwf nl s -> small s -> Forall (pwf nl s) ps -> Forall (fun p => idx_ok (provider_idx p)) ps.
Proof.
  intros W S F. eapply Forall_impl; [|exact F]. intros p Hp. eapply idx_ok_of_pwf; eauto. apply W.
Qed.

Lemma gi_core b opc imm k s ps rest st locals vs M d :
  gi_shape b = Some (opc, imm, k, true) -> sim_gi b = true -> cwf nl s -> small s ->
  c_stack s = ps ++ rest -> length ps = k -> rel s st locals vs M -> idx_ok d ->
  code_at c (cur_off s) (opc :: imm ++ loc_bytes ps ++ i32_bytes d) ->
  exists tops restv, vs = tops ++ restv /\ Forall2 (fun p v => repr (denote M p) v) rest restv /\
  match exec_simple cap b st locals vs with
  | inr (st', l', vs') =>
      exists v' w Mm, l' = locals /\ vs' = v' :: restv
        /\ mstep M = SNext (set_pc (set_reg Mm d (w (reg Mm d))) (cur_off s + 1 + Z.of_nat (length imm) + 4 * Z.of_nat k + 4))
        /\ (forall old, repr (w old) v') /\ mupd M Mm
        /\ Forall2 repr (ms_globals Mm) (s_globals st') /\ mem_rel (ms_mem Mm) (s_mem st')
  | inl true => exists e, mstep M = STrap e
  | inl false => True
  end.
Proof.
  intros Hsh Hsim W S Es Lps R Hd Hc.
  pose proof (r_stack _ _ _ _ _ R) as RS. rewrite Es in RS.
  apply Forall2_app_inv_l in RS. destruct RS as (tops & restv & Rt & Rr & Evs).
  exists tops, restv. split; [exact Evs|]. split; [exact Rr|].
  assert (Fps : Forall (pwf nl s) ps).
  { pose proof (w_stack _ _ W) as F. rewrite Es in F. apply Forall_app in F. tauto. }
  rewrite <- (r_pc _ _ _ _ _ R) in Hc.
  destruct (gi_machine b opc imm k ps d M Hsh Hsim Lps (r_idx _ _ _ _ _ R) Hc (small_idx_ok s ps W S Fps) Hd) as (res & Hval & Hstep).
  pose proof (gi_sem b (map (denote M) ps) M res st locals tops restv Hsim Hval (Forall2_map_l _ _ _ _ Rt)
                (r_globals _ _ _ _ _ R) (r_mem _ _ _ _ _ R)) as HS.
  rewrite <- Evs in HS.
  destruct (exec_simple cap b st locals vs) as [[|]|[[st' l'] vs']].
  - destruct HS as (e & ->). exists e. exact Hstep.
  - exact I.
  - destruct HS as (v' & El & Ev & (w & Mm & Eres & Hw & U & Gl & Me)). subst res.
    exists v', w, Mm. rewrite (r_pc _ _ _ _ _ R) in Hstep. splits; auto.
Qed.

Lemma rel_after_write s s1 st st' locals locals' vs vs1 M Mm d x pc stack1 :
  rel s st locals vs M -> mupd M Mm -> c_stack s1 = stack1 -> cur_off s1 = pc ->
  Forall2 (fun p v => repr (get_local consts (set_pc (set_reg Mm d x) pc) (provider_idx p)) v) stack1 vs1 ->
  Z.of_nat (length locals') = nl ->
  (forall i v, nth_error locals' i = Some v -> repr (get_local consts (set_pc (set_reg Mm d x) pc) (Z.of_nat i)) v) ->
  Forall2 repr (ms_globals Mm) (s_globals st') -> mem_rel (ms_mem Mm) (s_mem st') ->
  rel s1 st' locals' vs1 (set_pc (set_reg Mm d x) pc).
Proof.
  intros R U Es Ep Hs Hn Hl Hg Hm.
  destruct U as (U1 & U2 & U3 & U4 & Er & Eb & U5 & U6).
  constructor; cbn [ms_idx ms_pc ms_regs ms_base ms_globals ms_mem set_pc set_reg]; auto.
  - rewrite U2. apply (r_idx _ _ _ _ _ R).
  - rewrite list_set_length, Er, Eb. apply (r_regs _ _ _ _ _ R).
  - rewrite Es. exact Hs.
  - intros i v Hi. specialize (Hl i v Hi). unfold get_local in Hl.
    destruct (Z.leb_spec 0 (Z.of_nat i)); [exact Hl|lia].
Qed.

Lemma get_local_nonneg M i : 0 <= i -> get_local consts M i = reg M i.
Proof. intros H. unfold get_local. destruct (Z.leb_spec 0 i); [reflexivity|lia]. Qed.

Lemma reg_in_range s st locals vs M d : rel s st locals vs M -> 0 <= d < NR ->
  (ms_base M + Z.to_nat d < length (ms_regs M))%nat.
Proof. intros R Hd. pose proof (r_regs _ _ _ _ _ R). lia. Qed.

Lemma locals_kept s st locals vs M Mm d x pc :
  rel s st locals vs M -> mupd M Mm -> nl <= d < NR ->
  forall i v, nth_error locals i = Some v ->
    repr (get_local consts (set_pc (set_reg Mm d x) pc) (Z.of_nat i)) v.
Proof.
  intros R U Hd i v Hi.
  assert (Z.of_nat i < nl).
  { rewrite <- (r_nl _ _ _ _ _ R). apply inj_lt. apply nth_error_Some. congruence. }
  change (get_local consts (set_pc (set_reg Mm d x) pc) (Z.of_nat i))
    with (denote (set_pc (set_reg Mm d x) pc) (PLocal (Z.of_nat i))).
  rewrite (denote_write M Mm d x pc (PLocal (Z.of_nat i)) U); try lia.
  - unfold denote. cbn [provider_idx]. rewrite get_local_nonneg by lia. apply (r_locals _ _ _ _ _ R). exact Hi.
  - eapply reg_in_range; eauto. lia.
  - cbn. lia.
Qed.

Lemma stack_kept s st locals vs M Mm d x pc rest restv :
  rel s st locals vs M -> mupd M Mm -> 0 <= d < NR ->
  Forall2 (fun p v => repr (denote M p) v) rest restv ->
  (forall q, In q rest -> provider_idx q <> d) ->
  Forall2 (fun p v => repr (get_local consts (set_pc (set_reg Mm d x) pc) (provider_idx p)) v) rest restv.
Proof.
  intros R U Hd F Hne. eapply Forall2_impl_in; [exact F|]. intros q v Hq Hr.
  change (get_local consts (set_pc (set_reg Mm d x) pc) (provider_idx q)) with (denote (set_pc (set_reg Mm d x) pc) q).
  rewrite (denote_write M Mm d x pc q U); auto; try lia. eapply reg_in_range; eauto.
Qed.

Lemma small_mono s s1 : small s1 -> c_next s <= c_next s1 -> c_consts s1 = c_consts s -> small s.
Proof. intros [A B] Hn Hc. split; [lia|rewrite <- Hc; exact B]. Qed.

Definition step_ok (s s1 : cstate) (M : mstate) (r : step_result) : Prop :=
  exists tail, c_out s1 = c_out s ++ tail /\ (code_at c (cur_off s) tail -> sim_result M s1 r).

Lemma step_gi_prov b opc imm k s s1 st locals vs M :
  gi_shape b = Some (opc, imm, k, true) -> sim_gi b = true -> cwf nl s -> small s1 ->
  gi (set_last s None) opc imm k true = Some s1 -> rel s st locals vs M ->
  step_ok s s1 M (exec_simple cap b st locals vs).
Proof.
  intros Hsh Hsim W S1 Hgi R.
  destruct (gi_compile s opc imm k true s1 W Hgi) as (ps & rest & Es & Lps & Fps & Ec & Eb & W1 & Bn & (r & Es1 & Br & Nin & Eo & El)).
  exists (opc :: imm ++ loc_bytes ps ++ i32_bytes r). split; [exact Eo|]. intros Hc.
  assert (S : small s) by (eapply small_mono; eauto; lia).
  assert (Hnl : 0 <= nl) by apply W.
  assert (Hr : idx_ok r) by (destruct S1; unfold idx_ok; lia).
  destruct (gi_core b opc imm k s ps rest st locals vs M r Hsh Hsim W S Es Lps R Hr Hc) as (tops & restv & Evs & Rr & HS).
  unfold sim_result. destruct (exec_simple cap b st locals vs) as [[|]|[[st' l'] vs']].
  - destruct HS as (e & He). exists 1%nat, e. cbn. rewrite He. reflexivity.
  - exact I.
  - destruct HS as (v' & w & Mm & -> & -> & Hstep & Hw & U & Gl & Me).
    split; [exact W1|].
    eexists 1%nat, _. split; [cbn; rewrite Hstep; reflexivity|]. split; [|apply frame_eq_write; exact U].
    assert (Hr' : 0 <= r < NR) by (destruct S1; lia).
    eapply (rel_after_write s s1 st st' locals locals vs); eauto.
    + unfold cur_off. rewrite Eo, app_length. cbn [length]. rewrite !app_length, loc_bytes_length, i32_bytes_length. lia.
    + constructor.
      * cbn [provider_idx]. rewrite (denote_write_same M Mm r _ _ U); [apply Hw|lia|eapply reg_in_range; eauto].
      * eapply stack_kept; eauto. intros q Hq. eapply (pwf_idx_ne_dyn s); eauto; try lia.
        -- pose proof (w_stack _ _ W) as F. rewrite Es in F. rewrite Forall_forall in F. apply F. apply in_or_app. right; exact Hq.
        -- intro E; subst q. contradiction.
    + apply (r_nl _ _ _ _ _ R).
    + eapply locals_kept; eauto. lia.
Qed.

Lemma rel_same s s' st locals vs M :
  c_stack s' = c_stack s -> c_out s' = c_out s -> rel s st locals vs M -> rel s' st locals vs M.
Proof.
  intros Es Eo R. destruct R. constructor; auto.
  - unfold cur_off. rewrite Eo. exact r_pc0.
  - rewrite Es. exact r_stack0.
Qed.
Lemma cwf_last s l : cwf nl s -> cwf nl (set_last s l).
Proof. apply cwf_same. repeat split. Qed.

Lemma step_nop s st locals vs M :
  cwf nl s -> rel s st locals vs M ->
  step_ok s (set_last s None) M (exec_simple cap BNop st locals vs).
Proof.
  intros W R. exists []. split; [cbn; rewrite app_nil_r; reflexivity|].
  intros _. cbn. split; [apply cwf_last; exact W|]. exists O, M. split; [reflexivity|]. split; [|apply frame_eq_refl].
  eapply rel_same; [| |exact R]; reflexivity.
Qed.

Lemma step_drop s s1 p st locals vs M :
  cwf nl s -> rel s st locals vs M -> consume (set_last s None) = Some (p, s1) ->
  step_ok s s1 M (exec_simple cap BDrop st locals vs).
Proof.
  intros W R H. destruct (consume_spec nl _ p s1 H (cwf_last s None W)) as (Es & (O1 & O2 & O3) & En & Ec & W1 & Wp).
  cbn [c_stack c_out c_last c_next c_consts set_last] in *.
  exists []. split; [rewrite app_nil_r; exact O1|].
  intros _. pose proof (r_stack _ _ _ _ _ R) as RS. rewrite Es in RS. inversion RS as [|? v ? vs' Rp Rr]; subst.
  cbn. split; [exact W1|]. exists O, M. split; [reflexivity|]. split; [|apply frame_eq_refl].
  destruct R. constructor; auto. unfold cur_off. rewrite O1. exact r_pc0.
Qed.

Lemma step_local_get s i st locals vs M :
  cwf nl s -> rel s st locals vs M ->
  step_ok s (provide_existing (set_last s None) (PLocal (Z.of_nat i))) M (exec_simple cap (BLocalGet i) st locals vs).
Proof.
  intros W R. exists []. split; [cbn; rewrite app_nil_r; reflexivity|].
  intros _. cbn [exec_simple]. unfold nth_opt. destruct (nth_error locals i) as [v|] eqn:E; [|exact I]. cbn [ok sim_result].
  assert (Hi : 0 <= Z.of_nat i < nl).
  { rewrite <- (r_nl _ _ _ _ _ R). split; [lia|]. apply inj_lt. apply nth_error_Some. congruence. }
  split; [apply cwf_push_local; [apply cwf_last; exact W|exact Hi]|].
  exists O, M. split; [reflexivity|]. split; [|apply frame_eq_refl].
  destruct R. constructor; auto. cbn. constructor; [|exact r_stack0].
  unfold denote. cbn [provider_idx]. rewrite get_local_nonneg by lia. apply r_locals0. exact E.
Qed.

Lemma const_repr t z cst :
  0 <= z < 2 ^ bits t -> cst = const_i64 t z -> repr (from_i64 cst) (mkval t z).
Proof.
  intros Hz ->. unfold from_i64, two64, const_i64. destruct t; cbn [bits mkval repr] in *.
  - change (2 ^ 32) with 4294967296 in Hz. unfold low32, two32.
    destruct (Z.ltb_spec z 2147483648).
    + rewrite (Z.mod_small z 18446744073709551616) by lia. apply Z.mod_small; lia.
    + replace ((z - 4294967296) mod 18446744073709551616) with (z - 4294967296 + 18446744073709551616).
      * replace (z - 4294967296 + 18446744073709551616) with (z + 4294967295 * 4294967296) by lia.
        rewrite Z.mod_add by lia. apply Z.mod_small; lia.
      * symmetry. replace (z - 4294967296) with ((z - 4294967296 + 18446744073709551616) + (-1) * 18446744073709551616) at 1 by lia.
        rewrite Z.mod_add by lia. apply Z.mod_small; lia.
  - change (2 ^ 64) with 18446744073709551616 in Hz. unfold as_u64, two64. rewrite Z.mod_mod by lia.
    destruct (Z.ltb_spec z 9223372036854775808).
    + apply Z.mod_small; lia.
    + replace (z - 18446744073709551616) with (z + (-1) * 18446744073709551616) by lia.
      rewrite Z.mod_add by lia. apply Z.mod_small; lia.
Qed.

Lemma step_const s t z st locals vs M :
  cwf nl s -> rel s st locals vs M -> 0 <= z < 2 ^ bits t ->
  consts_ok (push_constant (set_last s None) (const_i64 t z)) ->
  step_ok s (push_constant (set_last s None) (const_i64 t z)) M (exec_simple cap (BConst t z) st locals vs).
Proof.
  intros W R Hz CO.
  destruct (push_constant_spec nl (set_last s None) (const_i64 t z) (cwf_last s None W))
    as (idx & Es & (O1 & O2 & O3) & En & Er & (ext & Ec) & Hneg & Hnth & W1).
  cbn [c_stack c_out c_last c_next c_consts c_reuse set_last] in *.
  exists []. split; [rewrite app_nil_r; exact O1|].
  intros _. cbn [exec_simple ok]. split; [exact W1|]. exists O, M. split; [reflexivity|]. split; [|apply frame_eq_refl].
  destruct R. constructor; auto.
  - unfold cur_off. rewrite O1. exact r_pc0.
  - rewrite Es. constructor; [|exact r_stack0].
    unfold denote, get_local. cbn [provider_idx]. destruct (Z.leb_spec 0 idx); [lia|].
    rewrite (CO _ _ _ Hnth). apply const_repr; auto.
Qed.

Lemma mstep_copy M a d :
  ms_idx M = fidx -> code_at c (ms_pc M) (ICopy :: i32_bytes a ++ i32_bytes d) -> idx_ok a -> idx_ok d ->
  mstep M = SNext (set_pc (set_reg M d (get_local consts M a)) (ms_pc M + 9)).
Proof.
  intros Hi Hc Ha Hd. apply code_at_cons in Hc. destruct Hc as [H0 Hc]. apply code_at_app in Hc. destruct Hc as [H1 H2].
  rewrite i32_bytes_length in H2. rewrite (mstep_at M Hi), H0, N2Z.id.
  change (exec_op art mhost c consts M (ms_pc M + 1) ICopy) with
    (let src := get_local consts M (get_i32 c (ms_pc M + 1)) in
     SNext (set_pc (set_reg M (get_i32 c (ms_pc M + 1 + 4)) src) (ms_pc M + 1 + 8))).
  cbv zeta. rewrite (code_at_i32 c (ms_pc M + 1) a Ha H1).
  replace (ms_pc M + 1 + 4) with (ms_pc M + 1 + Z.of_nat 4) by lia. rewrite (code_at_i32 c _ d Hd H2).
  do 2 f_equal. lia.
Qed.

Lemma mstep_global_set M i a :
  ms_idx M = fidx -> code_at c (ms_pc M) (IGlobalSet :: u16_bytes (Z.of_nat i) ++ i32_bytes a) ->
  Z.of_nat i < 65536 -> idx_ok a ->
  mstep M = SNext (set_pc (set_mglobals M (list_set (ms_globals M) i (get_local consts M a))) (ms_pc M + 7)).
Proof.
  intros Hi Hc Hb Ha. apply code_at_cons in Hc. destruct Hc as [H0 Hc]. apply code_at_app in Hc. destruct Hc as [H1 H2].
  rewrite u16_bytes_length in H2. rewrite (mstep_at M Hi), H0, N2Z.id.
  change (exec_op art mhost c consts M (ms_pc M + 1) IGlobalSet) with
    (let v := get_local consts M (get_i32 c (ms_pc M + 1 + 2)) in
     SNext (set_pc (set_mglobals M (list_set (ms_globals M) (Z.to_nat (get_u16 c (ms_pc M + 1))) v)) (ms_pc M + 1 + 6))).
  cbv zeta. rewrite (code_at_u16 c (ms_pc M + 1) (Z.of_nat i) ltac:(lia) H1), Nat2Z.id.
  replace (ms_pc M + 1 + 2) with (ms_pc M + 1 + Z.of_nat 2) by lia. rewrite (code_at_i32 c _ a Ha H2).
  do 2 f_equal. lia.
Qed.

Lemma set_nth_spec {A} (l : list A) : forall i x l', set_nth l i x = Some l' ->
  (i < length l)%nat /\ length l' = length l /\
  forall j, nth_error l' j = if Nat.eqb j i then Some x else nth_error l j.
Proof.
  induction l as [|a r IH]; intros [|i] x l' H; cbn in H; try discriminate.
  - inversion H; subst. cbn. repeat split; try lia. intros [|j]; reflexivity.
  - destruct (set_nth r i x) as [r'|] eqn:E; [|discriminate]. inversion H; subst.
    destruct (IH _ _ _ E) as (H1 & H2 & H3). cbn. repeat split; try lia.
    intros [|j]; cbn; [reflexivity|apply H3].
Qed.

Lemma Forall2_list_set (l : list Z) (g g' : list val) i x v :
  Forall2 repr l g -> set_nth g i v = Some g' -> repr x v -> Forall2 repr (list_set l i x) g'.
Proof.
  intros F. revert i g'. induction F as [|a b l g Hab F IH]; intros [|i] g' H Hr; cbn in H; try discriminate.
  - inversion H; subst. cbn. constructor; auto.
  - destruct (set_nth g i v) as [r'|] eqn:E; [|discriminate]. inversion H; subst. cbn. constructor; auto.
Qed.

Lemma no_local_idx idx q s : is_local idx q = false -> pwf nl s q -> 0 <= idx < nl -> provider_idx q <> idx.
Proof.
  intros H Hp Hi E. destruct q as [r|l|k]; cbn in *.
  - lia.
  - subst. rewrite Z.eqb_refl in H. discriminate.
  - destruct Hp. lia.
Qed.

Lemma existsb_false_in {A} (f : A -> bool) l q : existsb f l = false -> In q l -> f q = false.
Proof.
  induction l as [|a r IH]; cbn; intros H Hq; [contradiction|]. apply orb_false_iff in H. destruct H as [H1 H2].
  destruct Hq as [->|Hq]; auto.
Qed.

Lemma rel_write_local s s0 s1 st st' locals locals' vs restv rest M Mm i x v pc (is_set : bool) :
  rel s st locals vs M -> cwf nl s1 -> small s1 -> mupd M Mm ->
  Forall2 (fun p w => repr (denote M p) w) rest restv -> Forall (pwf nl s0) rest -> has_local (Z.of_nat i) rest = false ->
  set_nth locals i v = Some locals' -> repr x v ->
  c_stack s1 = (if is_set then rest else PLocal (Z.of_nat i) :: rest) -> cur_off s1 = pc ->
  Forall2 repr (ms_globals Mm) (s_globals st') -> mem_rel (ms_mem Mm) (s_mem st') ->
  rel s1 st' locals' (if is_set then restv else v :: restv) (set_pc (set_reg Mm (Z.of_nat i) x) pc).
Proof.
  intros R W1 S1 U Fr Fp Hl Hs Hx Es Ep Hg Hm.
  destruct (set_nth_spec locals i v locals' Hs) as (Hi & Hlen & Hnth).
  assert (Hidx : 0 <= Z.of_nat i < nl) by (rewrite <- (r_nl _ _ _ _ _ R); lia).
  assert (HNR : 0 <= Z.of_nat i < NR) by (destruct S1; destruct W1 as [[? ?] _ _ _ _]; lia).
  assert (Hrest : Forall2 (fun p w => repr (get_local consts (set_pc (set_reg Mm (Z.of_nat i) x) pc) (provider_idx p)) w) rest restv).
  { eapply stack_kept; eauto. intros q Hq. rewrite Forall_forall in Fp.
    apply (no_local_idx (Z.of_nat i) q s0); [exact (existsb_false_in _ _ _ Hl Hq)|exact (Fp q Hq)|exact Hidx]. }
  assert (Hsame : get_local consts (set_pc (set_reg Mm (Z.of_nat i) x) pc) (Z.of_nat i) = x).
  { apply (denote_write_same M Mm); auto; try lia. eapply reg_in_range; eauto. }
  eapply (rel_after_write s s1 st st' locals locals' vs); eauto.
  - destruct is_set; [exact Hrest|constructor; [cbn [provider_idx]; rewrite Hsame; exact Hx|exact Hrest]].
  - rewrite Hlen. apply (r_nl _ _ _ _ _ R).
  - intros j w Hj. rewrite Hnth in Hj. destruct (Nat.eqb_spec j i) as [->|Hne].
    + inversion Hj; subst. rewrite Hsame. exact Hx.
    + change (get_local consts (set_pc (set_reg Mm (Z.of_nat i) x) pc) (Z.of_nat j))
        with (denote (set_pc (set_reg Mm (Z.of_nat i) x) pc) (PLocal (Z.of_nat j))).
      rewrite (denote_write M Mm _ x pc (PLocal (Z.of_nat j)) U); try lia.
      * unfold denote. cbn [provider_idx]. rewrite get_local_nonneg by lia. apply (r_locals _ _ _ _ _ R). exact Hj.
      * eapply reg_in_range; eauto.
      * cbn. lia.
Qed.

(** local.set / local.tee once the machine has written [x] to register [i]: [sa] is the compile
    state once the operand is consumed *)
Lemma set_tee_finish sa s st st' locals vs rest restv M Mm i (is_set : bool) x v pc :
  rel s st locals vs M -> mupd M Mm -> (0 <= Z.of_nat i < nl -> mstep M = SNext (set_pc (set_reg Mm (Z.of_nat i) x) pc)) ->
  Forall2 (fun p w => repr (denote M p) w) rest restv -> repr x v ->
  Forall2 repr (ms_globals Mm) (s_globals st') -> mem_rel (ms_mem Mm) (s_mem st') ->
  cwf nl sa -> c_stack sa = rest -> has_local (Z.of_nat i) rest = false -> cur_off sa = pc ->
  small (if is_set then sa else provide_existing sa (PLocal (Z.of_nat i))) ->
  sim_result M (if is_set then sa else provide_existing sa (PLocal (Z.of_nat i)))
             (exec_simple cap (if is_set then BLocalSet i else BLocalTee i) st' locals (v :: restv)).
Proof.
  intros R U Hstep Rr Hx Hg Hm Wa Es Hl Ep S1.
  assert (Hsem : exec_simple cap (if is_set then BLocalSet i else BLocalTee i) st' locals (v :: restv)
                 = match set_nth locals i v with
                   | Some l' => inr (st', l', if is_set then restv else v :: restv)
                   | None => inl false end).
  { destruct is_set; cbn [exec_simple]; destruct (set_nth locals i v); reflexivity. }
  rewrite Hsem. destruct (set_nth locals i v) as [l'|] eqn:Esn; [|exact I]. cbn [sim_result].
  destruct (set_nth_spec locals i v l' Esn) as (Hi & _ & _).
  assert (Hidx : 0 <= Z.of_nat i < nl) by (rewrite <- (r_nl _ _ _ _ _ R); lia).
  assert (W1 : cwf nl (if is_set then sa else provide_existing sa (PLocal (Z.of_nat i)))).
  { destruct is_set; [exact Wa|]. exact (cwf_push_local nl sa (Z.of_nat i) Wa Hidx). }
  split; [exact W1|].
  eexists 1%nat, _. split; [cbn; rewrite (Hstep Hidx); reflexivity|]. split; [|apply frame_eq_write; exact U].
  pose proof (w_stack _ _ Wa) as Frest. rewrite Es in Frest.
  apply (rel_write_local s sa _ st st' locals l' vs restv rest M Mm i x v pc is_set R W1 S1 U Rr Frest Hl Esn Hx); auto.
  - destruct is_set; cbn [c_stack provide_existing set_stack]; rewrite Es; reflexivity.
  - destruct is_set; exact Ep.
Qed.

Lemma step_global_set s s1 i st locals vs M :
  cwf nl s -> small s1 -> Z.of_nat i < 65536 -> rel s st locals vs M ->
  gi (set_last s None) IGlobalSet (u16_bytes (Z.of_nat i)) 1 false = Some s1 ->
  step_ok s s1 M (exec_simple cap (BGlobalSet i) st locals vs).
Proof.
  intros W S1 Hi R Hgi.
  destruct (gi_compile s _ _ _ false s1 W Hgi) as (ps & rest & Es & Lps & Fps & Ec & Eb & W1 & Bn & (Es1 & Eo & El)).
  destruct ps as [|p [|? ?]]; try discriminate Lps.
  exists (IGlobalSet :: u16_bytes (Z.of_nat i) ++ loc_bytes [p]). split; [exact Eo|]. intros Hc.
  assert (S : small s) by (eapply small_mono; eauto; lia).
  pose proof (r_stack _ _ _ _ _ R) as RS. rewrite Es in RS. cbn [app] in RS.
  inversion RS as [|? v ? restv Rp Rr]; subst. cbn [exec_simple].
  destruct (set_nth (s_globals st) i v) as [g'|] eqn:Eg; [|exact I]. cbn [ok sim_result].
  split; [exact W1|].
  assert (Hp : idx_ok (provider_idx p)).
  { inversion Fps; subst. eapply idx_ok_of_pwf; eauto. apply W. }
  unfold loc_bytes in Hc. cbn [flat_map] in Hc. rewrite app_nil_r in Hc. rewrite <- (r_pc _ _ _ _ _ R) in Hc.
  pose proof (mstep_global_set M i (provider_idx p) (r_idx _ _ _ _ _ R) Hc Hi Hp) as Hstep.
  eexists 1%nat, _. split; [cbn; rewrite Hstep; reflexivity|]. split; [|repeat split].
  destruct R. constructor; cbn [ms_idx ms_pc ms_regs ms_base ms_globals ms_mem set_pc set_mglobals]; auto.
  - unfold cur_off. rewrite Eo, app_length. cbn [length]. rewrite app_length, u16_bytes_length.
    unfold loc_bytes. cbn [flat_map]. rewrite app_nil_r, i32_bytes_length. unfold cur_off in r_pc0. lia.
  - cbn [set_globals s_globals]. eapply Forall2_list_set; eauto.
Qed.

Definition set_tee_tail (s3 : cstate) (idx : Z) (is_set : bool) : option cstate :=
  match push_consume (push_op s3 ICopy) with
  | Some (_, s4) => let s5 := emit s4 (i32_bytes idx) in
                    Some (if is_set then s5 else provide_existing s5 (PLocal idx))
  | None => None
  end.

Lemma step_tee_tail s3 s1 i is_set :
  cwf nl s3 -> small s1 -> has_local (Z.of_nat i) (c_stack s3) = false ->
  set_tee_tail s3 (Z.of_nat i) is_set = Some s1 ->
  exists tail, c_out s1 = c_out s3 ++ tail /\
    forall st locals vs M, rel s3 st locals vs M -> code_at c (cur_off s3) tail ->
      sim_result M s1 (exec_simple cap (if is_set then BLocalSet i else BLocalTee i) st locals vs).
Proof.
  intros W S1 Hl H. unfold set_tee_tail, push_consume in H.
  destruct (consume (push_op s3 ICopy)) as [[p s4]|] eqn:E; [|discriminate].
  assert (W0 : cwf nl (push_op s3 ICopy)) by (eapply cwf_same; [|exact W]; repeat split).
  destruct (consume_spec nl _ p s4 E W0) as (Es & (O1 & O2 & O3) & En & Ec & W4 & Wp).
  cbn [c_stack c_out c_last c_next c_consts c_bp push_op emit set_out] in Es, O1, O2, O3, En, Ec.
  set (s5 := emit (push_loc s4 p) (i32_bytes (Z.of_nat i))) in *.
  assert (W5 : cwf nl s5) by (eapply cwf_same; [|exact W4]; repeat split).
  assert (Eo5 : c_out s5 = c_out s3 ++ ICopy :: i32_bytes (provider_idx p) ++ i32_bytes (Z.of_nat i)).
  { unfold s5. cbn [c_out emit push_loc set_out]. rewrite O1. rewrite <- !app_assoc. reflexivity. }
  assert (Eoff : cur_off s5 = cur_off s3 + 9).
  { unfold cur_off. rewrite Eo5, app_length. cbn [length]. rewrite app_length, !i32_bytes_length. lia. }
  assert (Hs1 : c_out s1 = c_out s5 /\ c_next s1 = c_next s3 /\ c_consts s1 = c_consts s3).
  { destruct is_set; inversion H; subst; cbn; rewrite ?En, ?Ec; repeat split; auto. }
  destruct Hs1 as (Eo1 & En1 & Ec1).
  exists (ICopy :: i32_bytes (provider_idx p) ++ i32_bytes (Z.of_nat i)).
  split; [rewrite Eo1; exact Eo5|].
  intros st locals vs M R Hc.
  pose proof (r_stack _ _ _ _ _ R) as RS. rewrite Es in RS. inversion RS as [|? v ? restv Rp Rr]; subst.
  assert (S3 : small s3) by (eapply small_mono; eauto; lia).
  assert (Hl4 : has_local (Z.of_nat i) (c_stack s4) = false).
  { unfold has_local in *. rewrite Es in Hl. cbn [existsb] in Hl. apply orb_false_iff in Hl. tauto. }
  assert (E1 : s1 = if is_set then s5 else provide_existing s5 (PLocal (Z.of_nat i))) by (destruct is_set; inversion H; reflexivity).
  subst s1.
  apply (set_tee_finish s5 s3 st st locals (v :: restv) (c_stack s4) restv M M i is_set (denote M p) v (ms_pc M + 9)); auto.
  - apply mupd_refl.
  - intros Hidx.
    assert (Hp : idx_ok (provider_idx p)) by (eapply idx_ok_of_pwf; [exact S3| |exact Wp]; apply W).
    assert (Hd : idx_ok (Z.of_nat i)) by (pose proof NR_small; destruct S3; destruct W as [[? ?] _ _ _ _]; unfold idx_ok; lia).
    rewrite <- (r_pc _ _ _ _ _ R) in Hc.
    exact (mstep_copy M (provider_idx p) (Z.of_nat i) (r_idx _ _ _ _ _ R) Hc Hp Hd).
  - apply (r_globals _ _ _ _ _ R).
  - apply (r_mem _ _ _ _ _ R).
  - rewrite (r_pc _ _ _ _ _ R). exact Eoff.
Qed.

Lemma Forall2_map_subst {A} (R R' : provider -> A -> Prop) f l vs :
  Forall2 R l vs -> (forall q w, In q l -> R q w -> R' (f q) w) -> Forall2 R' (map f l) vs.
Proof. induction 1; intros H'; cbn; constructor; [apply H'; cbn; auto|apply IHForall2; intros; apply H'; cbn; auto]. Qed.

Lemma step_reserve s0 i d s0' st locals vs M :
  cwf nl s0 -> c_next s0' <= NR ->
  has_local (Z.of_nat i) (c_stack s0) = true -> dyn_get s0 = (d, s0') ->
  rel s0 st locals vs M ->
  let s3 := push_loc (emit (push_op (set_stack s0' (map (subst_local (Z.of_nat i) (PDyn d)) (c_stack s0))) ICopy)
                           (i32_bytes (Z.of_nat i))) (PDyn d) in
  cwf nl s3 /\ has_local (Z.of_nat i) (c_stack s3) = false
  /\ c_out s3 = c_out s0 ++ ICopy :: i32_bytes (Z.of_nat i) ++ i32_bytes d
  /\ (code_at c (cur_off s0) (ICopy :: i32_bytes (Z.of_nat i) ++ i32_bytes d) ->
      exists M1, mstep M = SNext M1 /\ rel s3 st locals vs M1 /\ frame_eq M M1).
Proof.
  intros W Hnr Hl Hd R s3.
  destruct (dyn_get_spec nl s0 d s0' Hd W) as (B & N & Nst & Es & (O1 & O2 & O3) & Ec & Bn & Sub & W').
  destruct (reserve_cwf nl s0 i d s0' W Hd) as (W3 & Hl3 & Eo3). fold s3 in W3, Hl3, Eo3.
  pose proof (has_local_in _ _ Hl) as Hin.
  assert (Hidx : 0 <= Z.of_nat i < nl).
  { pose proof (w_stack _ _ W) as F. rewrite Forall_forall in F. apply (F _ Hin). }
  splits; auto.
  - intros Hc. rewrite <- (r_pc _ _ _ _ _ R) in Hc.
    assert (Hdi : idx_ok d) by (unfold idx_ok; pose proof NR_small; lia).
    assert (Hii : idx_ok (Z.of_nat i)) by (unfold idx_ok; pose proof NR_small; destruct W' as [[? ?] _ _ _ _]; lia).
    pose proof (mstep_copy M (Z.of_nat i) d (r_idx _ _ _ _ _ R) Hc Hii Hdi) as Hstep.
    eexists. split; [exact Hstep|]. split; [|apply frame_eq_write; apply mupd_refl].
    assert (HdNR : 0 <= d < NR) by lia.
    eapply (rel_after_write s0 s3 st st locals locals vs vs M M); eauto.
    + apply mupd_refl.
    + unfold s3, cur_off. cbn [c_out push_loc emit push_op set_out set_stack]. rewrite O1, (r_pc _ _ _ _ _ R).
      rewrite !app_length. cbn [length]. rewrite !i32_bytes_length. unfold cur_off. lia.
    + unfold s3. cbn [c_stack push_loc emit push_op set_out set_stack].
      eapply Forall2_map_subst; [apply (r_stack _ _ _ _ _ R)|]. intros q w Hq Hr.
      unfold subst_local. destruct (is_local (Z.of_nat i) q) eqn:E.
      * destruct q as [r|l|k]; cbn in E; try discriminate. apply Z.eqb_eq in E. subst l.
        cbn [provider_idx]. rewrite (denote_write_same M M d _ _ (mupd_refl M)); [|lia|eapply reg_in_range; eauto].
        exact Hr.
      * change (get_local consts (set_pc (set_reg M d (get_local consts M (Z.of_nat i))) (ms_pc M + 9)) (provider_idx q))
          with (denote (set_pc (set_reg M d (get_local consts M (Z.of_nat i))) (ms_pc M + 9)) q).
        rewrite (denote_write M M d _ _ q (mupd_refl M)); auto; try lia; [eapply reg_in_range; eauto|].
        eapply (pwf_idx_ne_dyn s0); eauto; try lia.
        -- pose proof (w_stack _ _ W) as F. rewrite Forall_forall in F. apply F. exact Hq.
        -- intro E'; subst q. contradiction.
    + apply (r_nl _ _ _ _ _ R).
    + eapply locals_kept; eauto. apply mupd_refl. lia.
    + apply (r_globals _ _ _ _ _ R).
    + apply (r_mem _ _ _ _ _ R).
Qed.

Lemma sim_compose M M1 sf n1 r :
  nsteps n1 M = SNext M1 -> frame_eq M M1 -> sim_result M1 sf r -> sim_result M sf r.
Proof.
  intros Hn F H. unfold sim_result in *. destruct r as [[|]|[[st' l'] vs']].
  - destruct H as (n & e & Hn2). exists (n1 + n)%nat, e. rewrite (nsteps_app _ _ _ _ Hn). exact Hn2.
  - exact I.
  - destruct H as (W & n & M' & Hn2 & R & F2). split; [exact W|]. exists (n1 + n)%nat, M'.
    split; [rewrite (nsteps_app _ _ _ _ Hn); exact Hn2|]. split; [exact R|eapply frame_eq_trans; eauto].
Qed.

Lemma step_set_tee s lp s1 i is_set st locals vs M :
  cwf nl s -> small s1 -> (lp = None \/ has_local (Z.of_nat i) (c_stack s) = true) ->
  rel s st locals vs M -> set_tee lp (set_last s None) i is_set = Some s1 ->
  step_ok s s1 M (exec_simple cap (if is_set then BLocalSet i else BLocalTee i) st locals vs).
Proof.
  intros W S1 Hlp R H. set (s0 := set_last s None) in *.
  assert (W0 : cwf nl s0) by (apply cwf_last; exact W).
  assert (R0 : rel s0 st locals vs M) by (eapply rel_same; [| |exact R]; reflexivity).
  unfold set_tee in H. rewrite preserve_local_spec in H.
  change (c_stack s0) with (c_stack s) in H.
  destruct (has_local (Z.of_nat i) (c_stack s)) eqn:Hl.
  - destruct (dyn_get s0) as [d s0'] eqn:Ed.
    set (s3 := push_loc (emit (push_op (set_stack s0' (map (subst_local (Z.of_nat i) (PDyn d)) (c_stack s0))) ICopy)
                              (i32_bytes (Z.of_nat i))) (PDyn d)) in *.
    assert (Ht : set_tee_tail s3 (Z.of_nat i) is_set = Some s1) by (destruct lp; exact H).
    destruct (copy_to_local_frame _ _ _ _ Ht) as (_ & En1 & _).
    assert (Hnr : c_next s0' <= NR) by (change (c_next s0') with (c_next s3); rewrite <- En1; apply S1).
    destruct (step_reserve s0 i d s0' st locals vs M W0 Hnr Hl Ed R0) as (W3 & Hl3 & Eo3 & Hm).
    fold s3 in W3, Hl3, Eo3, Hm.
    destruct (step_tee_tail s3 s1 i is_set W3 S1 Hl3 Ht) as (t2 & Eo1 & Hsim).
    exists ((ICopy :: i32_bytes (Z.of_nat i) ++ i32_bytes d) ++ t2).
    split; [rewrite Eo1, Eo3; change (c_out s0) with (c_out s); rewrite <- !app_assoc; reflexivity|].
    intros Hc. apply code_at_app in Hc. destruct Hc as [Hc1 Hc2].
    destruct (Hm Hc1) as (M1 & Hst & R3 & F1).
    assert (Eoff : cur_off s3 = cur_off s + Z.of_nat (length (ICopy :: i32_bytes (Z.of_nat i) ++ i32_bytes d))).
    { unfold cur_off. rewrite Eo3, app_length. change (c_out s0) with (c_out s). lia. }
    rewrite <- Eoff in Hc2.
    apply (sim_compose M M1 s1 1); [cbn; rewrite Hst; reflexivity|exact F1|exact (Hsim st locals vs M1 R3 Hc2)].
  - destruct Hlp as [->|Hx]; [|discriminate].
    set (s2 := set_stack s0 (c_stack s)) in *.
    assert (Ht : set_tee_tail s2 (Z.of_nat i) is_set = Some s1) by exact H.
    assert (W2 : cwf nl s2) by (eapply cwf_same; [|exact W0]; repeat split).
    assert (R2 : rel s2 st locals vs M) by (eapply rel_same; [| |exact R]; reflexivity).
    destruct (step_tee_tail s2 s1 i is_set W2 S1 Hl Ht) as (t2 & Eo1 & Hsim).
    exists t2. split; [exact Eo1|]. intros Hc. apply (Hsim st locals vs M R2 Hc).
Qed.

Lemma tail_assoc {A} (a : list A) x i l d : a ++ x :: i ++ l ++ d = (a ++ x :: i ++ l) ++ d.
Proof. rewrite <- app_assoc. cbn [app]. rewrite <- !app_assoc. reflexivity. Qed.

Lemma step_pair b opc imm k s s1 s2 i is_set st locals vs M :
  gi_shape b = Some (opc, imm, k, true) -> sim_gi b = true -> cwf nl s -> small s2 ->
  Z.of_nat i < 2147483648 ->
  gi (set_last s None) opc imm k true = Some s1 ->
  has_local (Z.of_nat i) (c_stack s1) = false ->
  set_tee (c_last s1) (set_last s1 None) i is_set = Some s2 ->
  rel s st locals vs M ->
  step_ok s s2 M (match exec_simple cap b st locals vs with
                  | inr (st', l', vs') => exec_simple cap (if is_set then BLocalSet i else BLocalTee i) st' l' vs'
                  | inl x => inl x
                  end).
Proof.
  intros Hsh Hsim W S2 Hi31 Hgi Hl H R.
  destruct (gi_compile s opc imm k true s1 W Hgi) as (ps & rest & Es & Lps & Fps & Ec & Eb & W1 & Bn & (r & Es1 & Br & Nin & Eo & El)).
  unfold set_tee in H. rewrite preserve_local_spec in H. change (c_stack (set_last s1 None)) with (c_stack s1) in H.
  rewrite Hl, El in H.
  set (off := cur_off s + 1 + Z.of_nat (length imm) + 4 * Z.of_nat k) in *.
  set (sb := back_patch (set_stack (set_last s1 None) (c_stack s1)) off (Z.of_nat i)) in *.
  assert (Wb : cwf nl sb) by (eapply cwf_same; [|exact W1]; repeat split).
  destruct (consume sb) as [[p s4]|] eqn:Ecs; [|discriminate].
  destruct (consume_spec nl sb p s4 Ecs Wb) as (Esb & (O1 & O2 & O3) & En4 & Ec4 & W4 & Wp).
  change (c_stack sb) with (c_stack s1) in Esb. rewrite Es1 in Esb. inversion Esb as [[Ep Er4]]. subst p.
  assert (Eob : c_out sb = c_out s ++ opc :: imm ++ loc_bytes ps ++ i32_bytes (Z.of_nat i)).
  { unfold sb, back_patch. cbn [c_out set_out set_stack set_last]. rewrite Eo.
    rewrite tail_assoc.
    replace (Z.to_nat off) with (length (c_out s ++ opc :: imm ++ loc_bytes ps)).
    - rewrite overwrite_end by (rewrite u32_bytes_length, i32_bytes_length; reflexivity).
      rewrite (tail_assoc (c_out s) opc imm (loc_bytes ps) (i32_bytes (Z.of_nat i))). reflexivity.
    - unfold off, cur_off. rewrite app_length. cbn [length]. rewrite app_length, loc_bytes_length. lia. }
  assert (Hs2 : c_out s2 = c_out sb /\ c_next s2 = c_next s1 /\ c_consts s2 = c_consts s1).
  { change (c_next sb) with (c_next s1) in En4. change (c_consts sb) with (c_consts s1) in Ec4.
    destruct is_set; inversion H; subst; cbn; rewrite ?En4, ?Ec4, ?O1; repeat split; auto. }
  destruct Hs2 as (Eo2 & En2 & Ec2).
  exists (opc :: imm ++ loc_bytes ps ++ i32_bytes (Z.of_nat i)).
  split; [rewrite Eo2; exact Eob|]. intros Hc.
  assert (S : small s) by (eapply small_mono; [exact S2|lia|congruence]).
  assert (Hii : idx_ok (Z.of_nat i)) by (unfold idx_ok; lia).
  destruct (gi_core b opc imm k s ps rest st locals vs M (Z.of_nat i) Hsh Hsim W S Es Lps R Hii Hc) as (tops & restv & Evs & Rr & HS).
  unfold sim_result. destruct (exec_simple cap b st locals vs) as [[|]|[[st' l'] vs']].
  - destruct HS as (e & He). exists 1%nat, e. cbn. rewrite He. reflexivity.
  - exact I.
  - destruct HS as (v' & w & Mm & -> & -> & Hstep & Hw & U & Gl & Me).
    assert (E2 : s2 = if is_set then s4 else provide_existing s4 (PLocal (Z.of_nat i))) by (destruct is_set; inversion H; reflexivity).
    assert (Hlr : has_local (Z.of_nat i) rest = false).
    { unfold has_local in *. rewrite Es1 in Hl. cbn [existsb] in Hl. apply orb_false_iff in Hl. tauto. }
    rewrite E2 in S2 |- *.
    apply (set_tee_finish s4 s st st' locals vs rest restv M Mm i is_set (w (reg Mm (Z.of_nat i))) v'
             (cur_off s + 1 + Z.of_nat (length imm) + 4 * Z.of_nat k + 4) R U (fun _ => Hstep) Rr (Hw _) Gl Me W4 (eq_sym Er4) Hlr); auto.
    unfold cur_off. rewrite O1, Eob, app_length. cbn [length]. rewrite !app_length, loc_bytes_length, i32_bytes_length. lia.
Qed.

Definition store_valid (t : valtype) (pk : option packsize) : bool :=
  match t, pk with T_i32, Some P32 => false | _, _ => true end.
Definition store_width (t : valtype) (pk : option packsize) : nat :=
  match pk with None => type_bytes t | Some p => pack_bytes p end.

Definition straight_ok (b : binstr) : bool :=
  match b with
  | BNop | BDrop => true
  | BLocalGet i | BLocalSet i | BLocalTee i => Z.of_nat i <? 2147483648
  | BConst t z => (0 <=? z) && (z <? 2 ^ bits t)
  | BGlobalSet i => Z.of_nat i <? 65536
  | BStore t pk off => (off <? 4294967296)%N && store_valid t pk
  | _ => sim_gi b
  end.

Fixpoint straight_sem (bs : list binstr) (st : store) (locals vs : list val) : step_result :=
  match bs with
  | [] => inr (st, locals, vs)
  | b :: r => match exec_simple cap b st locals vs with
              | inr (st', l', vs') => straight_sem r st' l' vs'
              | inl x => inl x
              end
  end.

Lemma small_of_mono s sf : small sf -> mono s sf -> small s.
Proof.
  intros [A B] [M1 (e & M2)]. split; [lia|]. rewrite M2, app_length in B. lia.
Qed.
Lemma consts_ok_of_mono s sf : consts_ok sf -> mono s sf -> consts_ok s.
Proof.
  intros CO [_ (e & M2)] k v idx Hk. apply (CO k v idx). rewrite M2. rewrite nth_error_app1; auto.
  apply nth_error_Some. congruence.
Qed.
Lemma cur_off_app s s1 t : c_out s1 = c_out s ++ t -> cur_off s1 = cur_off s + Z.of_nat (length t).
Proof. intros E. unfold cur_off. rewrite E, app_length. lia. Qed.

Lemma exec_store M pc t pk : store_valid t pk = true ->
  exec_op art mhost c consts M pc (store_opcode t pk) = do_store c consts M pc (store_width t pk).
Proof. destruct t, pk as [[]|]; try discriminate; reflexivity. Qed.

Lemma bytes_of_mod k : forall j x, (k <= j)%nat -> bytes_of k (x mod 256 ^ Z.of_nat j) = bytes_of k x.
Proof.
  induction k as [|k IH]; intros j x H; cbn [bytes_of]; [reflexivity|].
  destruct j as [|j]; [lia|]. rewrite Nat2Z.inj_succ, Z.pow_succ_r by lia.
  f_equal.
  - rewrite Z.rem_mul_r by lia. rewrite (Z.mul_comm 256), Z.mod_add by lia. apply Z.mod_mod. lia.
  - rewrite Z.rem_mul_r by lia. rewrite (Z.mul_comm 256), Z.div_add by lia.
    rewrite (Z.div_small (x mod 256) 256) by (apply Z.mod_pos_bound; lia). rewrite Z.add_0_l. apply IH. lia.
Qed.

Lemma mem_write_data_ext bs : forall a b x, mem_data a = mem_data b -> mem_data (mem_write a x bs) = mem_data (mem_write b x bs).
Proof.
  induction bs as [|y r IH]; intros a b x E; cbn [mem_write]; [exact E|]. apply IH. unfold mem_set. cbn. rewrite E. reflexivity.
Qed.
Lemma mem_write_max bs : forall a x, mem_max (mem_write a x bs) = mem_max a.
Proof. induction bs; intros; cbn [mem_write]; auto. rewrite IHbs. reflexivity. Qed.
Lemma mem_write_bytes_ok bs : forall mm x, (forall a, 0 <= mem_get mm a < 256) -> Forall (fun b => 0 <= b < 256) bs ->
  forall a, 0 <= mem_get (mem_write mm x bs) a < 256.
Proof.
  induction bs as [|y r IH]; intros mm x H F a; cbn [mem_write]; [apply H|].
  inversion F; subst. apply IH; auto. intros a'. destruct (N.eq_dec x a') as [->|Hne].
  - rewrite SemProofs.mem_get_set_same. assumption.
  - rewrite SemProofs.mem_get_set_other by exact Hne. apply H.
Qed.

Lemma step_store s s1 t pk off st locals vs M :
  cwf nl s -> small s1 -> (off <? 4294967296)%N = true -> store_valid t pk = true -> rel s st locals vs M ->
  gi (set_last s None) (store_opcode t pk) (u32_bytes (Z.of_N off)) 2 false = Some s1 ->
  step_ok s s1 M (exec_simple cap (BStore t pk off) st locals vs).
Proof.
  intros W S1 Hoff Hval R Hgi. apply N.ltb_lt in Hoff.
  destruct (gi_compile s _ _ _ false s1 W Hgi) as (ps & rest & Es & Lps & Fps & Ec & Eb & W1 & Bn & (Es1 & Eo & El)).
  destruct ps as [|pv [|pb [|? ?]]]; try discriminate Lps.
  exists (store_opcode t pk :: u32_bytes (Z.of_N off) ++ loc_bytes [pv; pb]). split; [exact Eo|]. intros Hc.
  assert (S : small s) by (eapply small_mono; eauto; lia).
  pose proof (r_stack _ _ _ _ _ R) as RS. rewrite Es in RS. cbn [app] in RS.
  inversion RS as [|? v ? vs1 Rv RS1]; subst. inversion RS1 as [|? vb ? restv Rb Rr]; subst.
  assert (Hpv : idx_ok (provider_idx pv)) by (inversion Fps; subst; eapply idx_ok_of_pwf; eauto; apply W).
  assert (Hpb : idx_ok (provider_idx pb)).
  { inversion Fps as [|? ? ? F2]; subst. inversion F2; subst. eapply idx_ok_of_pwf; eauto. apply W. }
  rewrite <- (r_pc _ _ _ _ _ R) in Hc.
  apply code_at_cons in Hc. destruct Hc as [H0 Hc]. apply code_at_app in Hc. destruct Hc as [H1 H2].
  rewrite u32_bytes_length in H2. unfold loc_bytes in H2. cbn [flat_map] in H2. rewrite app_nil_r in H2.
  apply code_at_app in H2. destruct H2 as [H2 H3]. rewrite i32_bytes_length in H3.
  pose proof (code_at_u32 c _ (Z.of_N off) ltac:(lia) H1) as Eoff.
  pose proof (code_at_i32 c _ _ Hpv H2) as Ev. pose proof (code_at_i32 c _ _ Hpb H3) as Ebs.
  assert (Hstep : mstep M = do_store c consts M (ms_pc M + 1) (store_width t pk)).
  { rewrite (mstep_at M (r_idx _ _ _ _ _ R)), H0, N2Z.id. apply exec_store. exact Hval. }
  unfold do_store in Hstep. rewrite Eoff in Hstep.
  replace (ms_pc M + 1 + 4) with (ms_pc M + 1 + Z.of_nat 4) in Hstep by lia. rewrite Ev in Hstep.
  replace (ms_pc M + 1 + 8) with (ms_pc M + 1 + Z.of_nat 4 + Z.of_nat 4) in Hstep by lia. rewrite Ebs in Hstep.
  fold (denote M pv) in Hstep. fold (denote M pb) in Hstep.
  destruct vb as [i|i]; cbn [exec_simple]; [|destruct v; exact I].
  destruct (s_mem st) as [sm|] eqn:Esm; [|exact I].
  destruct (payload t v) as [x|] eqn:Epl; [|exact I].
  pose proof (r_mem _ _ _ _ _ R) as Hm. rewrite Esm in Hm. unfold mem_rel in Hm.
  destruct (ms_mem M) as [mm|] eqn:Em; [|contradiction]. destruct Hm as (Hp & Hd & Hl & Hb & Hby).
  cbn in Rb. assert (Hi : 0 <= i < 4294967296) by (rewrite <- Rb; apply low32_range).
  set (w := store_width t pk) in *.
  assert (Ew : match pk with None => type_bytes t | Some p => pack_bytes p end = w) by reflexivity.
  rewrite Ew. unfold as_u32 in Hstep. rewrite Rb in Hstep.
  pose proof (in_bounds_rel M mm sm i off w Em Hp (proj1 Hi)) as Ebd.
  rewrite Ebd in Hstep. unfold mem_store.
  destruct (in_bounds sm (Z.to_N i + off) w).
  - cbn [ok sim_result]. split; [exact W1|].
    eexists 1%nat, _. split; [cbn; rewrite Hstep; reflexivity|]. split; [|repeat split].
    assert (Ebytes : bytes_of w (denote M pv) = bytes_of w x).
    { destruct t, v as [z|z]; cbn in Epl; try discriminate; inversion Epl; subst x; cbn in Rv; rewrite <- Rv.
      - unfold low32, two32. change 4294967296 with (256 ^ Z.of_nat 4). symmetry. apply bytes_of_mod.
        unfold w, store_width. destruct pk as [[]|]; try discriminate Hval; cbn; lia.
      - unfold as_u64, two64. change 18446744073709551616 with (256 ^ Z.of_nat 8). symmetry. apply bytes_of_mod.
        unfold w, store_width. destruct pk as [[]|]; cbn; lia. }
    destruct R. constructor; cbn [ms_idx ms_pc ms_regs ms_base ms_globals ms_mem set_pc set_mmem]; auto.
    + unfold cur_off. rewrite Eo, app_length. cbn [length]. rewrite app_length, u32_bytes_length.
      unfold loc_bytes. cbn [flat_map]. rewrite app_nil_r, app_length, !i32_bytes_length. unfold cur_off in r_pc0. lia.
    + cbn [with_mem set_mem s_mem]. rewrite Ebytes. replace (Z.to_N (i + Z.of_N off)) with (Z.to_N i + off)%N by lia.
      repeat split.
      * rewrite !SemProofs.mem_write_pages. exact Hp.
      * apply mem_write_data_ext. exact Hd.
      * unfold grow_limit. rewrite mem_write_max. exact Hl.
      * rewrite SemProofs.mem_write_pages. exact Hb.
      * apply mem_write_bytes_ok; auto. apply bytes_of_range.
      * apply mem_write_bytes_ok; auto. apply bytes_of_range.
  - cbn [sim_result]. exists 1%nat, TMemory. cbn. rewrite Hstep. reflexivity.
Qed.

Lemma straight_ok_straight b : straight_ok b = true -> straight b = true.
Proof. destruct b; cbn; try discriminate; auto; try (destruct t; try destruct op; cbn; auto; discriminate). Qed.

Lemma straight_ok_prov b opc imm k : straight_ok b = true -> gi_shape b = Some (opc, imm, k, true) -> sim_gi b = true.
Proof. destruct b; cbn; intros H E; try discriminate E; exact H. Qed.

(** growth needs no invariant: the output only grows (apart from the 4 bytes patched by a
    short-circuited local.set, hence the side condition), locations and constants grow *)
Lemma score_grows lp s b s1 :
  straight_ok b = true -> score lp (set_last s None) b = Some s1 ->
  (match is_set_tee b with Some (i, _) => lp = None \/ has_local (Z.of_nat i) (c_stack s) = true | None => True end) ->
  grows s s1 /\ (sim_gi b = true \/ c_last s1 = None).
Proof.
  intros Hok H Hsafe. destruct (score_frame _ _ _ _ (straight_ok_straight b Hok) H) as (_ & Mo & Hl & Ho).
  split; [split; [exact (Ho Hsafe)|exact Mo]|].
  destruct Hl as [E|(opc & imm & k & E)]; [right; exact E|left; exact (straight_ok_prov _ _ _ _ Hok E)].
Qed.

Lemma sim_gi_shape b : sim_gi b = true -> exists opc imm k, gi_shape b = Some (opc, imm, k, true).
Proof. destruct b; cbn; try discriminate; intros; eauto. Qed.

(** a machine state related to any well-formed compile state *)
Lemma rel_dummy s : 0 <= nl -> 0 <= NR -> exists st locals vs M, rel s st locals vs M.
Proof.
  intros Hnl Hnr.
  set (M := {| ms_pc := cur_off s; ms_idx := fidx; ms_frames := []; ms_ret := None; ms_mem := None;
               ms_regs := repeat 0 (Z.to_nat NR); ms_base := O; ms_globals := []; ms_energy := 0%N |}).
  exists {| s_mem := None; s_globals := []; s_table := [] |}, (repeat (VI64 0) (Z.to_nat nl)),
         (map (fun p => VI64 (as_u64 (denote M p))) (c_stack s)), M.
  constructor; cbn; auto.
  - rewrite repeat_length. lia.
  - induction (c_stack s); cbn; constructor; auto. cbn. reflexivity.
  - rewrite repeat_length. lia.
  - intros i v Hi. assert (v = VI64 0).
    { apply nth_error_In in Hi. apply repeat_spec in Hi. exact Hi. }
    subst v. cbn. unfold reg. cbn. assert (E : nth (Z.to_nat (Z.of_nat i)) (repeat 0 (Z.to_nat NR)) 0 = 0).
    { destruct (nth_in_or_default (Z.to_nat (Z.of_nat i)) (repeat 0 (Z.to_nat NR)) 0) as [Hin|E]; auto.
      apply repeat_spec in Hin. exact Hin. }
    rewrite E. reflexivity.
Qed.

Definition safe (s : cstate) (bs : list binstr) : Prop :=
  match bs with
  | b :: _ => match is_set_tee b with
              | Some (i, _) => c_last s = None \/ has_local (Z.of_nat i) (c_stack s) = true
              | None => True
              end
  | [] => True
  end.

Lemma step_one cx b s v1 s1 st locals vs M :
  straight_ok b = true -> handle_opcode cx s v1 Reachable (OBasic b) = Some s1 ->
  cwf nl s -> small s1 -> consts_ok s1 -> safe s [b] -> rel s st locals vs M ->
  step_ok s s1 M (exec_simple cap b st locals vs).
Proof.
  intros Hok H W S1 CO Hsafe R.
  destruct (handle_score cx s v1 b s1 (straight_ok_straight b Hok) H) as [Hsc _].
  assert (GI : sim_gi b = true -> step_ok s s1 M (exec_simple cap b st locals vs)).
  { intros Hg. destruct (sim_gi_shape b Hg) as (opc & imm & k & Hsh).
    rewrite (score_gi _ _ _ _ _ _ _ Hsh) in Hsc.
    exact (step_gi_prov b opc imm k s s1 st locals vs M Hsh Hg W S1 Hsc R). }
  destruct b; cbn [straight_ok] in Hok; try (apply GI; exact Hok); try discriminate Hok; cbn [score] in Hsc.
  - inversion Hsc; subst. exact (step_nop s st locals vs M W R).
  - destruct (consume (set_last s None)) as [[p s']|] eqn:E; [|discriminate]. inversion Hsc; subst.
    exact (step_drop s s1 p st locals vs M W R E).
  - inversion Hsc; subst. exact (step_local_get s i st locals vs M W R).
  - exact (step_set_tee s (c_last s) s1 i true st locals vs M W S1 Hsafe R Hsc).
  - exact (step_set_tee s (c_last s) s1 i false st locals vs M W S1 Hsafe R Hsc).
  - apply Z.ltb_lt in Hok. cbn [gi_shape] in Hsc.
    exact (step_global_set s s1 i st locals vs M W S1 Hok R Hsc).
  - apply andb_true_iff in Hok. destruct Hok as [Ho Hv]. cbn [gi_shape] in Hsc.
    exact (step_store s s1 t pk offset st locals vs M W S1 Ho Hv R Hsc).
  - apply andb_true_iff in Hok. destruct Hok as [H0 H1]. apply Z.leb_le in H0. apply Z.ltb_lt in H1.
    inversion Hsc; subst. exact (step_const s t z st locals vs M W R (conj H0 H1) CO).
Qed.

Lemma sem_bind_assoc (r : step_result) (f g : store -> list val -> list val -> step_result) :
  match r return step_result with
  | inr (st', l', vs') =>
      match f st' l' vs' return step_result with inr (st2, l2, vs2) => g st2 l2 vs2 | inl x => inl x end
  | inl x => inl x
  end
  = match (match r return step_result with inr (st', l', vs') => f st' l' vs' | inl x => inl x end) return step_result with
    | inr (st2, l2, vs2) => g st2 l2 vs2
    | inl x => inl x
    end.
Proof. destruct r as [?|[[? ?] ?]]; reflexivity. Qed.

Lemma step_then s s1 sf M r1 next tail :
  step_ok s s1 M r1 -> grows s1 sf -> c_out sf = c_out s ++ tail -> code_at c (cur_off s) tail ->
  (forall t2 st' l' vs' M1, c_out sf = c_out s1 ++ t2 -> cwf nl s1 -> rel s1 st' l' vs' M1 ->
                            code_at c (cur_off s1) t2 -> sim_result M1 sf (next st' l' vs')) ->
  sim_result M sf (match r1 with inr (st', l', vs') => next st' l' vs' | inl x => inl x end).
Proof.
  intros (t1 & E1 & Hsim) [(t2 & E2) _] Et Hc Hnext.
  assert (Etail : tail = t1 ++ t2).
  { rewrite E2, E1, <- app_assoc in Et. apply app_inv_head in Et. symmetry; exact Et. }
  subst tail. apply code_at_app in Hc. destruct Hc as [Hc1 Hc2].
  specialize (Hsim Hc1). unfold sim_result in Hsim. destruct r1 as [[|]|[[st1 l1] vs1]].
  - exact Hsim.
  - exact I.
  - destruct Hsim as (W1 & n1 & M1 & Hn1 & R1 & F1).
    apply (sim_compose M M1 sf n1 _ Hn1 F1). apply (Hnext t2 st1 l1 vs1 M1 E2 W1 R1).
    rewrite (cur_off_app s s1 t1 E1). exact Hc2.
Qed.

(** classification of the next step: a providing instruction followed by a short-circuited
    local.set / local.tee is handled as one unit *)
Lemma next_case b1 rest s1 :
  (exists b2 rest' i is_set, rest = b2 :: rest' /\ sim_gi b1 = true /\ is_set_tee b2 = Some (i, is_set)
                            /\ has_local (Z.of_nat i) (c_stack s1) = false)
  \/ (sim_gi b1 = true \/ c_last s1 = None -> safe s1 rest).
Proof.
  destruct rest as [|b2 rest']; [right; intros; exact I|].
  destruct (is_set_tee b2) as [[i is_set]|] eqn:Est; [|right; intros; cbn; rewrite Est; exact I].
  destruct (sim_gi b1) eqn:Hg.
  - destruct (has_local (Z.of_nat i) (c_stack s1)) eqn:Hl.
    + right. intros _. cbn. rewrite Est. right. exact Hl.
    + left. exists b2, rest', i, is_set. auto.
  - right. intros [X|X]; [discriminate|]. cbn. rewrite Est. left. exact X.
Qed.

Lemma safe_last_none s bs : c_last s = None -> safe s bs.
Proof. intros H. destruct bs as [|b r]; cbn; auto. destruct (is_set_tee b) as [[i ?]|]; auto. Qed.

(** how [compile_ops] walks over straight-line code: instruction by instruction, except that a
    providing instruction and a local.set / local.tee patching its target form one unit *)
Lemma compile_straight_ind cx (P : list binstr -> cstate -> cstate -> Prop) :
  (forall s, P [] s s) ->
  (forall b rest s v1 s1 sf, straight_ok b = true -> handle_opcode cx s v1 Reachable (OBasic b) = Some s1 ->
     safe s [b] -> grows s s1 -> P rest s1 sf -> P (b :: rest) s sf) ->
  (forall b opc imm k i is_set rest s s1 s2 sf, gi_shape b = Some (opc, imm, k, true) -> sim_gi b = true ->
     gi (set_last s None) opc imm k true = Some s1 -> has_local (Z.of_nat i) (c_stack s1) = false ->
     set_tee (c_last s1) (set_last s1 None) i is_set = Some s2 -> Z.of_nat i < 2147483648 ->
     grows s s2 -> P rest s2 sf -> P (b :: (if is_set then BLocalSet i else BLocalTee i) :: rest) s sf) ->
  forall bs s v v' sf, forallb straight_ok bs = true ->
    compile_ops cx (map OBasic bs) v s = Some (v', sf) -> v_unreach v = None -> safe s bs -> P bs s sf.
Proof.
  intros Pnil Pone Ppair bs. induction bs as [bs IH] using (induction_ltof1 _ (@length binstr)). unfold ltof in IH.
  intros s v v' sf Hok Hc Hu Hsafe.
  destruct bs as [|b1 rest]; [cbn in Hc; inversion Hc; subst; apply Pnil|].
  cbn [forallb] in Hok. apply andb_true_iff in Hok. destruct Hok as [Hok1 Hokr].
  cbn [map compile_ops] in Hc.
  assert (Hreach : v_reachability v = Reachable) by (unfold v_reachability; rewrite Hu; reflexivity).
  rewrite Hreach in Hc.
  destruct (vstep cx v (OBasic b1)) as [v1|] eqn:Ev1; [|discriminate].
  destruct (handle_opcode cx s v1 Reachable (OBasic b1)) as [s1|] eqn:Eh1; [|discriminate].
  pose proof (straight_vstep cx v b1 v1 (straight_ok_straight b1 Hok1) Hu Ev1) as Hu1.
  destruct (handle_score cx s v1 b1 s1 (straight_ok_straight b1 Hok1) Eh1) as [Hsc1 _].
  destruct (next_case b1 rest s1) as [(b2 & rest' & i & is_set & -> & Hg & Est & Hl)|Hsafe1].
  - cbn [forallb] in Hokr. apply andb_true_iff in Hokr. destruct Hokr as [Hok2 Hokr'].
    cbn [map compile_ops] in Hc.
    assert (Hreach1 : v_reachability v1 = Reachable) by (unfold v_reachability; rewrite Hu1; reflexivity).
    rewrite Hreach1 in Hc.
    destruct (vstep cx v1 (OBasic b2)) as [v2|] eqn:Ev2; [|discriminate].
    destruct (handle_opcode cx s1 v2 Reachable (OBasic b2)) as [s2|] eqn:Eh2; [|discriminate].
    pose proof (straight_vstep cx v1 b2 v2 (straight_ok_straight b2 Hok2) Hu1 Ev2) as Hu2.
    destruct (handle_score cx s1 v2 b2 s2 (straight_ok_straight b2 Hok2) Eh2) as [Hsc2 _].
    destruct (sim_gi_shape b1 Hg) as (opc & imm & k & Hsh). rewrite (score_gi _ _ _ _ _ _ _ Hsh) in Hsc1.
    rewrite (is_set_tee_eq b2 i is_set Est) in *.
    assert (Hst : set_tee (c_last s1) (set_last s1 None) i is_set = Some s2) by (destruct is_set; exact Hsc2).
    assert (Hi : Z.of_nat i < 2147483648) by (destruct is_set; apply Z.ltb_lt; exact Hok2).
    destruct (pair_frame _ s1 s2 opc imm k i is_set Hsc1 Hl Hst) as (G12 & _ & L2).
    apply (Ppair b1 opc imm k i is_set rest' s s1 s2 sf Hsh Hg Hsc1 Hl Hst Hi G12).
    apply (IH rest') with (v := v2) (v' := v'); auto. { cbn. lia. } apply safe_last_none. exact L2.
  - destruct (score_grows (c_last s) s b1 s1 Hok1 Hsc1 Hsafe) as (G1 & Hn1).
    apply (Pone b1 rest s v1 s1 sf Hok1 Eh1 Hsafe G1).
    apply (IH rest) with (v := v1) (v' := v'); auto.
Qed.

Lemma compile_grows cx : forall bs s v v' sf, forallb straight_ok bs = true ->
  compile_ops cx (map OBasic bs) v s = Some (v', sf) -> v_unreach v = None -> safe s bs ->
  grows s sf.
Proof.
  apply (compile_straight_ind cx (fun _ s sf => grows s sf)).
  - apply grows_refl.
  - intros. eapply grows_trans; eauto.
  - intros. eapply grows_trans; eauto.
Qed.

Lemma straight_steps cx : forall bs s v v' sf, forallb straight_ok bs = true ->
  compile_ops cx (map OBasic bs) v s = Some (v', sf) -> v_unreach v = None -> safe s bs ->
  grows s sf /\
  forall tail st locals vs M, c_out sf = c_out s ++ tail -> cwf nl s -> small sf -> consts_ok sf ->
    rel s st locals vs M -> code_at c (cur_off s) tail -> sim_result M sf (straight_sem bs st locals vs).
Proof.
  apply (compile_straight_ind cx (fun bs s sf => grows s sf /\
    forall tail st locals vs M, c_out sf = c_out s ++ tail -> cwf nl s -> small sf -> consts_ok sf ->
      rel s st locals vs M -> code_at c (cur_off s) tail -> sim_result M sf (straight_sem bs st locals vs))).
  - intros s. split; [apply grows_refl|]. intros tail st locals vs M _ W _ _ R _.
    cbn. split; [exact W|]. exists O, M. split; [reflexivity|]. split; [exact R|apply frame_eq_refl].
  - intros b1 rest s v1 s1 sf Hok1 Eh1 Hsafe G1 [G2 Hsim2]. split; [exact (grows_trans _ _ _ G1 G2)|].
    intros tail st locals vs M Et W Sf COf R Hcode'.
    assert (S1 : small s1) by (eapply small_of_mono; [exact Sf|apply G2]).
    assert (CO1 : consts_ok s1) by (eapply consts_ok_of_mono; [exact COf|apply G2]).
    pose proof (step_one cx b1 s v1 s1 st locals vs M Hok1 Eh1 W S1 CO1 Hsafe R) as Hstep.
    apply (step_then s s1 sf M _ (straight_sem rest) tail Hstep G2 Et Hcode').
    intros t2 st1 l1 vs1 M1 E2 W1 R1 Hc2. exact (Hsim2 t2 st1 l1 vs1 M1 E2 W1 Sf COf R1 Hc2).
  - intros b1 opc imm k i is_set rest' s s1 s2 sf Hsh Hg Hgi Hl Hst Hi G12 [G2 Hsim2].
    split; [exact (grows_trans _ _ _ G12 G2)|].
    intros tail st locals vs M Et W Sf COf R Hcode'.
    assert (S2 : small s2) by (eapply small_of_mono; [exact Sf|apply G2]).
    pose proof (step_pair b1 opc imm k s s1 s2 i is_set st locals vs M Hsh Hg W S2 Hi Hgi Hl Hst R) as Hstep.
    cbn [straight_sem].
    rewrite (sem_bind_assoc (exec_simple cap b1 st locals vs) (exec_simple cap (if is_set then BLocalSet i else BLocalTee i))
               (straight_sem rest')).
    apply (step_then s s2 sf M _ (straight_sem rest') tail Hstep G2 Et Hcode').
    intros t2 st2 l2 vs2 M1 E2 W2 R2 Hc2. exact (Hsim2 t2 st2 l2 vs2 M1 E2 W2 Sf COf R2 Hc2).
Qed.

Lemma straight_main cx : forall bs s v v' sf st locals vs M tail, forallb straight_ok bs = true ->
  compile_ops cx (map OBasic bs) v s = Some (v', sf) -> v_unreach v = None ->
  cwf nl s -> small sf -> consts_ok sf -> safe s bs ->
  rel s st locals vs M -> c_out sf = c_out s ++ tail -> code_at c (cur_off s) tail ->
  sim_result M sf (straight_sem bs st locals vs).
Proof.
  intros bs s v v' sf st locals vs M tail Hok Hc Hu W Sf COf Hsafe R Et Hcode'.
  exact (proj2 (straight_steps cx bs s v v' sf Hok Hc Hu Hsafe) tail st locals vs M Et W Sf COf R Hcode').
Qed.

End Straight.

(** compilation from an empty provider stack: the entry states of [compile_straightline_correct_partial] (Props/C01.v) *)
Definition init_cstate (next : Z) : cstate :=
  {| c_out := []; c_bp := []; c_stack := []; c_next := next; c_reuse := []; c_consts := []; c_last := None |}.
Definition init_vstate (ret : blocktype) : vstate :=
  v_push_ctrl false ret ret {| v_opds := 0; v_ctrls := []; v_unreach := None |}.

Lemma cwf_init nl next : 0 <= nl <= next -> cwf nl (init_cstate next).
Proof.
  intros H. constructor; cbn; auto.
  - intros k v idx Hk. destruct k; discriminate.
Qed.

Lemma consts_ok_fst s : consts_ok (map fst (c_consts s)) s.
Proof.
  intros k v idx Hk. rewrite (nth_indep _ 0 (fst (v, idx))). 2:{ rewrite map_length. apply nth_error_Some. congruence. }
  rewrite map_nth. erewrite nth_error_nth; [|exact Hk]. reflexivity.
Qed.

Lemma exec_instr_basic host cap m b f st l vs : straight_ok b = true ->
  exec_instr host cap m (S f) st l vs (Basic b) =
  match exec_simple cap b st l vs with
  | inr (s', l', st') => RNormal s' l' st'
  | inl true => RTrap
  | inl false => RStuck
  end.
Proof. intros H. destruct b; try discriminate H; reflexivity. Qed.

Lemma exec_seq_straight host cap m bs : forall fuel s locals vs,
  forallb straight_ok bs = true -> (length bs + 2 <= fuel)%nat ->
  exec_seq host cap m fuel s locals vs (map Basic bs) =
  match straight_sem cap bs s locals vs with
  | inr (s', l', vs') => RNormal s' l' vs'
  | inl true => RTrap
  | inl false => RStuck
  end.
Proof.
  induction bs as [|b r IH]; intros fuel s locals vs Hok Hf.
  - destruct fuel; [cbn in Hf; lia|]. reflexivity.
  - cbn [forallb] in Hok. apply andb_true_iff in Hok. destruct Hok as [Hb Hr].
    destruct fuel as [|[|f]]; try (cbn in Hf; lia).
    cbn [map straight_sem]. rewrite eseq_S, (exec_instr_basic _ _ _ _ _ _ _ _ Hb).
    destruct (exec_simple cap b s locals vs) as [[|]|[[s' l'] vs']]; try reflexivity.
    apply IH; auto. cbn in Hf. lia.
Qed.
