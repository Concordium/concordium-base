(** * Wasm/SemTraceProofs — the instrumented interpreter is the reference interpreter:
    forgetting the event trace and the annotations, [SemTrace.texec_*] computes exactly [Sem.exec_*]
    (same fuel, same result). *)
From Coq Require Import ZArith List.
From CB Require Import Wasm.Syntax Wasm.Sem Wasm.SemProofs Wasm.Meter Wasm.SemTrace.
Import ListNotations.

Section Erase.
Variable host : nat -> list val -> option memory -> host_result.
Variable cap : N.
Variable m : module.
Variable afs : list afunc.
Hypothesis Hm : m_funcs m = map erase_func afs.

Notation tseq := (texec_seq host cap m afs).
Notation tinstr := (texec_instr host cap m afs).
Notation tinv := (tinvoke host cap m afs).
Notation eseq := (exec_seq host cap m).
Notation einstr := (exec_instr host cap m).
Notation einv := (invoke host cap m).

Lemma afunc_type_eq fi : afunc_type m afs fi = func_type m fi.
Proof.
  unfold afunc_type, func_type. destruct (fi <? length (m_imports m))%nat; [reflexivity|].
  rewrite Hm. unfold nth_opt. rewrite nth_error_map. destruct (nth_error afs _); reflexivity.
Qed.

Lemma tseq_S f s l st is : tseq (S f) s l st is = seq_body (tseq f) (tinstr f) s l st is.
Proof. reflexivity. Qed.
Lemma tinstr_S f s l st i :
  tinstr (S f) s l st i = instr_body cap m afs (tseq f) (tinstr f) (tinv f) s l st i.
Proof. reflexivity. Qed.
Lemma tinv_S f s fi args : tinv (S f) s fi args = inv_body host m afs (tseq f) s fi args.
Proof. reflexivity. Qed.

Definition P_seq (f : nat) := forall s l st is, snd (tseq f s l st is) = eseq f s l st (erase_seq is).
Definition P_instr (f : nat) := forall s l st i, snd (tinstr f s l st i) = einstr f s l st (erase i).
Definition P_inv (f : nat) := forall s fi args, snd (tinv f s fi args) = einv f s fi args.

Lemma P_seq_step f : P_seq f -> P_instr f -> P_seq (S f).
Proof.
  intros IHs IHi s l st is. destruct is as [|i rest]; [reflexivity|].
  rewrite tseq_S, eseq_S. cbn [seq_body erase_seq map]. rewrite <- IHi.
  destruct (tinstr f s l st i) as [t1 r1]; cbn [snd].
  destruct r1; try reflexivity.
  specialize (IHs s0 locals stack rest). destruct (tseq f s0 locals stack rest) as [t2 r2]; cbn [snd] in *.
  exact IHs.
Qed.

Lemma P_inv_step f : P_seq f -> P_inv (S f).
Proof.
  intros IHs s fi args. rewrite tinv_S, inv_S. unfold inv_body. cbv zeta.
  destruct (fi <? length (m_imports m))%nat.
  - rewrite afunc_type_eq. destruct (func_type m fi); [|reflexivity]. cbn [snd]. reflexivity.
  - rewrite Hm. unfold nth_opt at 1 3. rewrite nth_error_map.
    destruct (nth_error afs (fi - length (m_imports m))) as [fn|]; [|reflexivity].
    cbn [option_map erase_func f_type f_locals f_body].
    destruct (nth_opt (m_types m) (af_type fn)) as [ft|]; [|reflexivity].
    specialize (IHs s (args ++ map zero_of (af_locals fn)) [] (af_body fn)).
    destruct (tseq f s (args ++ map zero_of (af_locals fn)) [] (af_body fn)) as [t r]; cbn [snd] in IHs.
    rewrite <- IHs.
    destruct r as [s' l' vs|k s' l' vs|s' vs| | |]; try reflexivity.
    + unfold fin_result. destruct (ft_result ft); [destruct vs|]; reflexivity.
    + destruct k; [|reflexivity]. unfold fin_result. destruct (ft_result ft); [destruct vs|]; reflexivity.
    + unfold fin_result. destruct (ft_result ft); [destruct vs|]; reflexivity.
Qed.

Lemma P_instr_step f : P_seq f -> P_instr f -> P_inv f -> P_instr (S f).
Proof.
  intros IHs IHi IHv s l st i. destruct i as [o b|o bt body|o bt body|o bt thn els].
  - rewrite tinstr_S, einstr_S. destruct b; cbn [instr_body erase]; try reflexivity.
    + destruct st as [|[c|c] st]; try reflexivity. destruct (c =? 0)%Z; reflexivity.
    + destruct st as [|[c|c] st]; reflexivity.
    + rewrite afunc_type_eq. destruct (func_type m f0) as [ft|]; [|reflexivity].
      destruct (take_args (length (ft_params ft)) st []) as [[args st']|]; [|reflexivity].
      unfold call_body. specialize (IHv s f0 args). destruct (tinv f s f0 args) as [t [r|[s' r]]]; cbn [snd] in *; rewrite <- IHv; reflexivity.
    + destruct st as [|[c|c] st0]; try reflexivity.
      destruct (nth_opt (m_types m) ty) as [ft|]; [|reflexivity].
      destruct (if (c <? Z.of_nat (length (s_table s)))%Z then nth_opt (s_table s) (Z.to_nat c) else None) as [[fi|]|]; try reflexivity.
      rewrite afunc_type_eq. destruct (func_type m fi) as [ft'|]; [|reflexivity].
      destruct (functype_eqb ft ft'); [|reflexivity].
      destruct (take_args (length (ft_params ft)) st0 []) as [[args st']|]; [|reflexivity].
      unfold call_body. specialize (IHv s fi args). destruct (tinv f s fi args) as [t [r|[s' r]]]; cbn [snd] in *; rewrite <- IHv; reflexivity.
  - rewrite tinstr_S, einstr_S. cbn [instr_body erase]. fold (erase_seq body). rewrite <- IHs.
    destruct (tseq f s l [] body) as [t r]; destruct r as [? ? ?|[|?] ? ? ?|? ?| | |]; reflexivity.
  - rewrite tinstr_S, einstr_S. cbn [instr_body erase]. fold (erase_seq body). rewrite <- IHs.
    destruct (tseq f s l [] body) as [t r]; cbn [snd].
    destruct r as [s' l' vs|k s' l' vs|s' vs| | |]; try reflexivity.
    destruct k; [|reflexivity].
    specialize (IHi s' l' st (ALoop OInj bt body)). cbn [erase] in IHi. fold (erase_seq body) in IHi.
    destruct (tinstr f s' l' st (ALoop OInj bt body)) as [t2 r2]; cbn [snd] in *. exact IHi.
  - rewrite tinstr_S, einstr_S. cbn [instr_body erase]. destruct st as [|[c|c] st]; try reflexivity.
    specialize (IHi s l st (ABlock OInj bt (if (c =? 0)%Z then els else thn))). cbn [erase] in IHi.
    destruct (tinstr f s l st (ABlock OInj bt (if (c =? 0)%Z then els else thn))) as [t r]; cbn [snd] in *.
    rewrite IHi. destruct (c =? 0)%Z; reflexivity.
Qed.

Theorem texec_erase : forall f, P_seq f /\ P_instr f /\ P_inv f.
Proof.
  induction f as [|f [IHs [IHi IHv]]].
  - repeat split; intro; intros; reflexivity.
  - repeat split; [apply P_seq_step|apply P_instr_step|apply P_inv_step]; assumption.
Qed.

Theorem trun_erase fuel fi args :
  snd (trun host cap m afs fuel fi args) = run host cap m fuel fi args.
Proof.
  unfold trun, run. destruct (instantiate m) as [s|]; [|reflexivity].
  destruct (texec_erase fuel) as [_ [_ Hv]]. specialize (Hv s fi args).
  destruct (tinvoke host cap m afs fuel s fi args) as [t [r|[s' r]]]; cbn [snd] in *; rewrite <- Hv; [destruct r|]; reflexivity.
Qed.
End Erase.
