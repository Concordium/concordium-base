(** * Wasm/MeterRunProofs — the energy budget ([InterpreterEnergy], [MeterRun.pay]): paying a list of
    charges succeeds exactly when their sum fits the budget. *)
From Coq Require Import NArith List Lia.
From CB Require Import Wasm.MeterRun Wasm.MeterProofs.
Import ListNotations.
Local Open Scope N_scope.

Lemma pay_spec : forall cs B,
  (sum_charges cs <= B -> pay B cs = (true, B - sum_charges cs)) /\
  (B < sum_charges cs -> pay B cs = (false, 0)).
Proof.
  induction cs as [|c r IH]; intro B; cbn [pay sum_charges fold_right].
  - split; intro H; [f_equal; lia|lia].
  - unfold tick_energy. destruct (c <=? B) eqn:E.
    + apply N.leb_le in E. destruct (IH (B - c)) as [I1 I2]. split; intro H.
      * rewrite I1 by (unfold sum_charges; lia). f_equal. unfold sum_charges. lia.
      * apply I2. unfold sum_charges. lia.
    + apply N.leb_gt in E. split; intro H; [lia|reflexivity].
Qed.

Lemma budget_monotone_pay cs B B' rem :
  pay B cs = (true, rem) -> B <= B' -> pay B' cs = (true, rem + (B' - B)).
Proof.
  intros H Hle. destruct (pay_spec cs B) as [P1 P2].
  destruct (N.le_gt_cases (sum_charges cs) B) as [Hs|Hs].
  - rewrite P1 in H by assumption. inversion H; subst.
    destruct (pay_spec cs B') as [Q1 _]. rewrite Q1 by lia. f_equal. lia.
  - rewrite P2 in H by assumption. discriminate.
Qed.

Lemma out_of_energy_iff cs B : fst (pay B cs) = false <-> B < sum_charges cs.
Proof.
  destruct (pay_spec cs B) as [P1 P2]. destruct (N.le_gt_cases (sum_charges cs) B) as [Hs|Hs].
  - rewrite P1 by assumption. cbn. split; [discriminate|lia].
  - rewrite P2 by assumption. cbn. split; auto.
Qed.
