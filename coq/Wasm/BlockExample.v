(** A concrete function body satisfying the hypotheses of [compile_block_correct_partial] (Props/C01.v): two nested
    blocks, a [br_if] out of both, an if/else whose then-branch ends with a [br] out of the [if]
    and of both blocks, straight-line code between the constructs, and a one-armed [if]. *)
From Coq Require Import ZArith NArith List.
From CB Require Import Wasm.Syntax Wasm.Compile.
Import ListNotations.
Local Open Scope Z_scope.

Definition blk_cx : cctx := {| cx_func_type := fun _ => None; cx_type := fun _ => None; cx_return := None |}.
Definition blk_body : list instr :=
  [ Block None
      [ Block None
          [ Basic (BLocalGet 0); Basic (BBrIf 1);
            Basic (BLocalGet 1);
            If None [ Basic (BConst T_i32 7); Basic (BLocalSet 0); Basic (BBr 2) ]
                    [ Basic (BConst T_i32 9); Basic (BLocalSet 0) ];
            Basic (BLocalGet 0); Basic (BConst T_i32 1); Basic (BBinop T_i32 Add); Basic (BLocalSet 1) ];
        Basic (BConst T_i32 3); Basic (BLocalSet 0) ];
    Basic (BLocalGet 1);
    If None [ Basic (BConst T_i32 5); Basic (BLocalSet 1) ] [] ].

(** a counting loop: local 1 += local 0, local 0 -= 1, until local 0 = 0 (back edge [br 0], exit
    [br_if 1] out of the loop and the block); then a guarded [return] and a guarded [unreachable] *)
Definition loop_body : list instr :=
  [ Block None
      [ Loop None
          [ Basic (BLocalGet 0); Basic (BEqz T_i32); Basic (BBrIf 1);
            Basic (BLocalGet 1); Basic (BLocalGet 0); Basic (BBinop T_i32 Add); Basic (BLocalSet 1);
            Basic (BLocalGet 0); Basic (BConst T_i32 1); Basic (BBinop T_i32 Sub); Basic (BLocalSet 0);
            Basic (BBr 0) ] ];
    Basic (BLocalGet 1); Basic (BConst T_i32 6); Basic (BRelop T_i32 Eq);
    If None [ Basic BReturn ] [];
    Basic (BLocalGet 1); Basic (BConst T_i32 100); Basic (BRelop T_i32 GtU);
    If None [ Basic BUnreachable ] [] ].

(** a block with a result: reached by fall-through (constant 22) or by a [br 1] carrying 11 out of a
    nested [if]; the result is consumed by [local.set 1]; an if-else with a result; a second value block
    nested in a loop body *)
Definition val_body : list instr :=
  [ Block (Some T_i32)
      [ Basic (BLocalGet 0);
        If None [ Basic (BConst T_i32 11); Basic (BBr 1) ] [];
        Basic (BConst T_i32 22) ];
    Basic (BLocalSet 1);
    Basic (BLocalGet 0);
    If (Some T_i32) [ Basic (BLocalGet 1); Basic (BConst T_i32 1); Basic (BBinop T_i32 Add) ]
                    [ Basic (BLocalGet 1); Basic (BConst T_i32 2); Basic (BBinop T_i32 Add) ];
    Basic (BLocalSet 1);
    Block None
      [ Loop None
          [ Basic (BLocalGet 0); Basic (BEqz T_i32); Basic (BBrIf 1);
            Block (Some T_i32) [ Basic (BLocalGet 1); Basic (BLocalGet 0); Basic (BBinop T_i32 Add) ];
            Basic (BLocalSet 1);
            Basic (BLocalGet 0); Basic (BConst T_i32 1); Basic (BBinop T_i32 Sub); Basic (BLocalSet 0);
            Basic (BBr 0) ] ] ].

(** a function with a result: the value reaches the final [end] by a [br 1] to the function's own label
    (carrying 7 out of an [if]) or by fall-through (local 1 + 1); a [return] with the value 42 *)
Definition fn_cx : cctx := {| cx_func_type := fun _ => None; cx_type := fun _ => None; cx_return := Some T_i32 |}.
Definition fn_body : list instr :=
  [ Basic (BLocalGet 0);
    If None [ Basic (BConst T_i32 7); Basic (BBr 1) ] [];
    Basic (BLocalGet 1); Basic (BConst T_i32 9); Basic (BRelop T_i32 Eq);
    If None [ Basic (BConst T_i32 42); Basic BReturn ] [];
    Basic (BLocalGet 1); Basic (BConst T_i32 1); Basic (BBinop T_i32 Add) ].

(** bodies that end with a jump: a value-typed block whose body ends with a [br] carrying the value, and a
    function body that ends with [return] (the final [end] is compiled as unreachable) *)
Definition fn_body2 : list instr :=
  [ Block (Some T_i32) [ Basic (BLocalGet 0); Basic (BBr 0) ];
    Basic (BLocalGet 1); Basic (BBinop T_i32 Add); Basic BReturn ].

