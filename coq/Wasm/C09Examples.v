(** Concrete instances showing that the hypotheses of the C09 theorems are satisfiable. *)
From Coq Require Import ZArith List.
From CB Require Import Wasm.Syntax Wasm.Validate Wasm.Typing Wasm.ValidateProofs Wasm.ValidateComplete
  Wasm.Sem Wasm.TypeSound Wasm.Accepted Wasm.Parse Wasm.ParseProofs.
Import ListNotations.

Definition vm_ex : vmodule :=
  {| vm_types := [ {| ft_params := [T_i32]; ft_result := Some T_i32 |} ];
     vm_imports := [];
     vm_funcs := [ {| mf_type := 0; mf_locals := [(1%N, T_i64)]; mf_body := ex_body |} ];
     vm_table := None;
     vm_mem := Some (1%N, Some 2%N);
     vm_globals := [(T_i64, true)];
     vm_exports := [(0%N, 0%N, 0%N); (1%N, 2%N, 0%N)];
     vm_elems := [];
     vm_data := [(65532%N, 4%N)] |}.

Definition is_ex : list instr :=
  match structure_body (map fst ex_body) with Some is => is | None => [] end.

Definition m_ex : module :=
  {| m_types := [ {| ft_params := [T_i32]; ft_result := Some T_i32 |} ];
     m_imports := [];
     m_funcs := [ {| f_type := 0; f_locals := [T_i64]; f_body := is_ex |} ];
     m_table := None;
     m_elems := [];
     m_mem := Some {| l_min := 1%N; l_max := Some 2%N |};
     m_data := [(65532%N, [1; 2; 3; 4]%Z)];
     m_globals := [ {| g_mut := true; g_init := VI64 5 |} ] |}.

Example accepted_never_stuck_hypotheses :
  validate_module true vm_ex = true /\ no_trailing true vm_ex /\ corresponds vm_ex m_ex /\
  host_ok no_host m_ex /\
  nth_error (ftypes m_ex) 0 = Some {| ft_params := [T_i32]; ft_result := Some T_i32 |}.
Proof.
  split; [vm_compute; reflexivity|]. split.
  { intros vf ft locals [<-|[]] HT HL. cbn in HT. inversion HT; subst.
    vm_compute in HL. inversion HL; subst. vm_compute. reflexivity. }
  split.
  { constructor; try reflexivity.
    - constructor; [|constructor]. repeat split.
    - cbn. auto. }
  split; [|reflexivity].
  intros fi args mem ft _ _. exact I.
Qed.

(** a body without dead code: block (result i32) local.get 0; i32.const 1; i32.add end; call 0;
    if (result i32) i32.const 2 else i32.const 3; br 0 end; end *)
Definition ops_live : list (opcode * N) :=
  [ (OBlock (Some T_i32), 0); (OBasic (BLocalGet 0), 0); (OBasic (BConst T_i32 1), 0);
    (OBasic (BBinop T_i32 Add), 0); (OEnd, 0); (OBasic (BCall 0), 0);
    (OIf (Some T_i32), 0); (OBasic (BConst T_i32 2), 0); (OElse, 0); (OBasic (BConst T_i32 3), 0);
    (OBasic (BBr 0), 0); (OEnd, 0); (OEnd, 0) ]%N.
Definition is_live : list instr :=
  match structure_body (map fst ops_live) with Some is => is | None => [] end.

Example validate_complete_hypotheses :
  body_ok (tctx_of ex_ctx) is_live /\ seq_cond true is_live = true /\ length is_live = 3%nat /\
  Forall (fun ti => ti < length (vc_types ex_ctx))%nat (vc_funcs ex_ctx).
Proof.
  split.
  - destruct (validate_sound_thm ex_ctx ops_live 2%nat) as (is & SB & BO); [vm_compute; reflexivity|vm_compute; reflexivity|].
    vm_compute in SB. inversion SB; subst. exact BO.
  - split; [vm_compute; reflexivity|]. split; [vm_compute; reflexivity|]. repeat constructor.
Qed.

(** a complete module in binary form: type () -> (), one function, exported as "f0", body = end *)
Definition bytes_ex : list N :=
  [0x00; 0x61; 0x73; 0x6d; 0x01; 0x00; 0x00; 0x00;
   0x01; 0x04; 0x01; 0x60; 0x00; 0x00;
   0x03; 0x02; 0x01; 0x00;
   0x00; 0x05; 0x04; 0x6e; 0x61; 0x6d; 0x65;
   0x07; 0x06; 0x01; 0x02; 0x66; 0x30; 0x00; 0x00;
   0x0a; 0x04; 0x01; 0x02; 0x00; 0x0b]%N.
Example parse_example :
  accepts cfg_v1 bytes_ex = true /\ accepts cfg_v0 bytes_ex = true /\
  (exists ss r a, parse_skeleton bytes_ex = POk ss r a /\ noncustom_ids ss = [1; 3; 7; 10]%N) /\
  accepts cfg_v1 (bytes_ex ++ [0x03; 0x02; 0x01; 0x00]%N) = false.
Proof.
  split; [vm_compute; reflexivity|]. split; [vm_compute; reflexivity|]. split; [|vm_compute; reflexivity].
  vm_compute. eexists _, _, _. split; reflexivity.
Qed.
