(** Interrupted-and-resumed execution equals direct execution: for any step machine whose captured
    configuration, resumed with a response, is the live state answered directly ([drive_eq_direct]);
    the [RunConfig] of machine.rs is such a machine ([capture_resume_machine]); and the direct run
    with a stateless, memory-preserving host is [Machine.mrun] ([direct_refines_machine_thm]). *)
From Coq Require Import ZArith List Lia FMapPositive.
From CB Require Import Wasm.Syntax Wasm.Machine Wasm.Resume.
Import ListNotations.

Section GenericProofs.
Variables St K Q L A R Out H Ev : Type.
Variable gstep : St -> gres St Q L Out.
Variable gev : St -> list Ev.
Variable gapply : St -> A -> St.
Variable gdirect : St -> L -> R -> St.
Variable gcapture : St -> L -> K.
Variable gresume : K -> L -> R -> St.
Variable hcall : H -> nat -> Q -> H * option (A * R).
(** the captured configuration is the live state: resuming it with a response is answering directly *)
Hypothesis capture_resume : forall s l r, gresume (gcapture s l) l r = gdirect s l r.

Let rd := run_direct St Q L A R Out H Ev gstep gev gapply gdirect hcall.
Let rc := run_config St K Q L A R Out H Ev gstep gev gapply gdirect gcapture hcall.
Let dr := drive St K Q L A R Out H Ev gstep gev gapply gdirect gcapture gresume hcall.

Lemma run_config_spec : forall choose fuel h n tr s,
  match rc choose fuel h n tr s with
  | RCDone _ _ _ _ _ _ _ res => rd fuel h n tr s = res
  | RCInterrupted _ _ _ _ _ _ _ q l r k h' n' tr' f' =>
      (f' < fuel)%nat /\ rd fuel h n tr s = rd f' h' n' tr' (gresume k l r)
  end.
Proof.
  unfold rc, rd. intros choose. induction fuel as [|f IH]; intros h n tr s.
  - reflexivity.
  - cbn [run_config run_direct]. destruct (gstep s) as [s'|o|q s' l].
    + specialize (IH h n (tr ++ gev s) s').
      destruct (run_config St K Q L A R Out H Ev gstep gev gapply gdirect gcapture hcall choose f h n (tr ++ gev s) s').
      * exact IH.
      * destruct IH as [Hlt Heq]. split; [lia | exact Heq].
    + reflexivity.
    + destruct (hcall h n q) as [h' [[a r]|]].
      * destruct (choose n q).
        -- split; [lia|]. rewrite capture_resume. reflexivity.
        -- specialize (IH h' (S n) (tr ++ gev s) (gdirect (gapply s' a) l r)).
           destruct (run_config St K Q L A R Out H Ev gstep gev gapply gdirect gcapture hcall choose f h' (S n) (tr ++ gev s) (gdirect (gapply s' a) l r)).
           ++ exact IH.
           ++ destruct IH as [Hlt Heq]. split; [lia | exact Heq].
      * reflexivity.
Qed.

Theorem drive_eq_direct : forall choose rounds fuel h n tr s,
  (fuel <= rounds)%nat -> dr choose rounds fuel h n tr s = rd fuel h n tr s.
Proof.
  intros choose. induction rounds as [|rdn IH]; intros fuel h n tr s Hle.
  - unfold dr. cbn [drive]. pose proof (run_config_spec choose fuel h n tr s) as Hs. unfold rc in Hs.
    destruct (run_config St K Q L A R Out H Ev gstep gev gapply gdirect gcapture hcall choose fuel h n tr s).
    + symmetry. exact Hs.
    + destruct Hs as [Hlt _]. lia.
  - unfold dr. cbn [drive]. pose proof (run_config_spec choose fuel h n tr s) as Hs. unfold rc in Hs.
    destruct (run_config St K Q L A R Out H Ev gstep gev gapply gdirect gcapture hcall choose fuel h n tr s).
    + symmetry. exact Hs.
    + destruct Hs as [Hlt Heq]. rewrite Heq. apply IH. lia.
Qed.

(** the schedule is not observable *)
Corollary drive_schedule_independent : forall c1 c2 rounds fuel h n tr s,
  (fuel <= rounds)%nat -> dr c1 rounds fuel h n tr s = dr c2 rounds fuel h n tr s.
Proof. intros. rewrite !drive_eq_direct by assumption. reflexivity. Qed.

Lemma drive_count_fst : forall choose rounds fuel h n tr s acc,
  fst (drive_count St K Q L A R Out H Ev gstep gev gapply gdirect gcapture gresume hcall choose rounds fuel h n tr s acc)
  = dr choose rounds fuel h n tr s.
Proof.
  unfold dr. intros choose. induction rounds as [|rdn IH]; intros; cbn [drive drive_count];
    destruct (run_config St K Q L A R Out H Ev gstep gev gapply gdirect gcapture hcall choose fuel h n tr s);
    try reflexivity. apply IH.
Qed.
End GenericProofs.

Lemma restore_capture st l : restore (capture st l) = st.
Proof. destruct st; reflexivity. Qed.

Lemma push_value_capture st l v :
  restore (push_value (capture st (Some l)) v) = set_reg st l v.
Proof. destruct st; reflexivity. Qed.

Lemma capture_resume_machine : forall st l r, resume_with (capture st l) l r = direct_answer st l r.
Proof.
  intros st [l|] [v|]; cbn [resume_with direct_answer].
  - apply push_value_capture.
  - apply restore_capture.
  - apply restore_capture.
  - apply restore_capture.
Qed.

(** a configuration captured with a DIFFERENT result location does not have the property
    (what a stale [return_value_loc] would do): non-vacuity of the hypothesis *)
Example stale_return_value_loc_differs :
  let st := {| ms_pc := 0; ms_idx := O; ms_frames := []; ms_ret := None; ms_mem := None;
               ms_regs := [0; 0]%Z; ms_base := O; ms_globals := []; ms_energy := 0%N |} in
  resume_with (capture st (Some 0%Z)) (Some 1%Z) (Some 7%Z) <> direct_answer st (Some 1%Z) (Some 7%Z).
Proof. cbv. discriminate. Qed.

Theorem resume_equiv_thm : forall (H : Type) (art : artifact) (hc : H -> nat -> hquery -> H * option (heffect * hresponse))
    (choose : nat -> hquery -> bool) (rounds fuel : nat) (h : H) (st : mstate),
  (fuel <= rounds)%nat ->
  m_drive H art hc choose rounds fuel h st = m_run_direct H art hc fuel h st.
Proof.
  intros. unfold m_drive, m_run_direct. apply drive_eq_direct; [exact capture_resume_machine | assumption].
Qed.

Theorem schedule_independent_thm : forall (H : Type) art hc c1 c2 rounds fuel (h : H) st,
  (fuel <= rounds)%nat -> m_drive H art hc c1 rounds fuel h st = m_drive H art hc c2 rounds fuel h st.
Proof. intros. rewrite !resume_equiv_thm by assumption. reflexivity. Qed.

(** energy is host state: whatever is charged, it is charged once - the remaining energy (and every
    other part of the result) after an interrupted run equals that of the direct run *)
Theorem energy_no_double_charge_thm : forall (H : Type) art (cost : hquery -> N) hc choose rounds fuel (e : N) (h : H) st,
  (fuel <= rounds)%nat ->
  fst (r_host (m_drive (N * H) art (metered_host cost hc) choose rounds fuel (e, h) st))
  = fst (r_host (m_run_direct (N * H) art (metered_host cost hc) fuel (e, h) st)).
Proof. intros. rewrite resume_equiv_thm by assumption. reflexivity. Qed.

Lemma m_drive_count_fst : forall (H : Type) art hc choose rounds fuel (h : H) st,
  fst (m_drive_count H art hc choose rounds fuel h st) = m_drive H art hc choose rounds fuel h st.
Proof. intros. unfold m_drive_count, m_drive. apply drive_count_fst. Qed.

Section Decompose.
Variable art : artifact.
Variable codes : list (code_map * list Z).
Variable mhost : nat -> list Z -> option (option Z).

Definition host_step (st : mstate) (x : nat * functype * list Z * option Z * Z) : step_res :=
  let '(fidx, ft, args, loc, pc') := x in
  match loc with
  | Some l => match mhost fidx args with Some (Some r) => SNext (set_pc (set_reg st l r) pc') | _ => STrap THost end
  | None => match mhost fidx args with Some _ => SNext (set_pc st pc') | None => STrap THost end
  end.

(* [call_function] asks the host exactly where [import_call] recognises a call of an import, and
   the result location is absent exactly when the import has no result. *)
Lemma call_function_decompose c consts st pc fidx check :
  call_function art mhost c consts st pc fidx check =
  match import_call art c consts st pc fidx check with
  | Some x => host_step st x
  | None => call_function art no_host c consts st pc fidx check
  end
  /\ match import_call art c consts st pc fidx check with
     | Some (f, ft, args, loc, pc') => loc = None <-> ft_result ft = None
     | None => True
     end.
Proof.
  unfold call_function, import_call, host_step.
  destruct (fidx <? length (a_imports art))%nat; [|now split].
  destruct (nth_error (a_imports art) fidx) as [ft|]; [|now split].
  destruct (check ft O); [|now split].
  destruct (read_args c consts st pc (length (ft_params ft)) []) as [args pc1].
  destruct (ft_result ft) eqn:Hr; rewrite Hr; (split; [reflexivity|split; intros; (discriminate || reflexivity)]).
Qed.

Lemma step_decompose st :
  step art mhost codes st =
  match host_call_at art codes st with
  | Some x => host_step st x
  | None => step art no_host codes st
  end
  /\ match host_call_at art codes st with
     | Some (f, ft, args, loc, pc') => loc = None <-> ft_result ft = None
     | None => True
     end.
Proof.
  unfold step, host_call_at.
  destruct (nth_error codes (ms_idx st)) as [[c consts]|]; [|now split].
  unfold exec_op. cbv zeta.
  destruct (Z.to_N (byte_at c (ms_pc st)) =? 0)%N; [now split|].
  destruct (Z.to_N (byte_at c (ms_pc st)) =? 1)%N; [now split|].
  destruct (Z.to_N (byte_at c (ms_pc st)) =? 2)%N; [now split|].
  destruct (Z.to_N (byte_at c (ms_pc st)) =? 3)%N; [now split|].
  destruct (Z.to_N (byte_at c (ms_pc st)) =? 4)%N; [now split|].
  destruct (Z.to_N (byte_at c (ms_pc st)) =? 5)%N; [now split|].
  destruct (Z.to_N (byte_at c (ms_pc st)) =? 100)%N; [now split|].
  destruct (Z.to_N (byte_at c (ms_pc st)) =? 6)%N; [now split|].
  destruct (Z.to_N (byte_at c (ms_pc st)) =? 8)%N; [now split|].
  destruct (Z.to_N (byte_at c (ms_pc st)) =? 7)%N.
  { apply call_function_decompose. }
  destruct (Z.to_N (byte_at c (ms_pc st)) =? 9)%N; [|now split].
  destruct (nth_error (a_types art) (Z.to_nat (get_u32 c (ms_pc st + 1)))) as [ty|]; [|now split].
  match goal with |- context [if (?a <? ?b)%Z then nth_error (a_table art) ?i else None] =>
    destruct (if (a <? b)%Z then nth_error (a_table art) i else None) as [[fidx|]|] end;
    try now split.
  apply call_function_decompose.
Qed.

Lemma set_reg_set_pc st l r pc : set_reg (set_pc st pc) l r = set_pc (set_reg st l r) pc.
Proof. destruct st; reflexivity. Qed.

(** the interruptible model with a stateless memory-preserving host takes exactly the steps of
    [Machine.run_steps] *)
Lemma direct_refines_steps entry : forall fuel st n tr,
  finish art entry
    (r_out (run_direct mstate hquery (option Z) heffect hresponse ioutcome unit N
              (istep art codes) (tick_of art codes) apply_effect direct_answer (lift_host mhost) fuel tt n tr st))
  = match run_steps art mhost codes fuel st with
    | inl o => o
    | inr st' => finish art entry (OHalt (inr st'))
    end.
Proof.
  induction fuel as [|f IH]; intros st n tr.
  - reflexivity.
  - cbn [run_direct run_steps]. unfold istep. destruct (step_decompose st) as [-> Hloc].
    destruct (host_call_at art codes st) as [[[[[fidx ft] args] loc] pc']|].
    + unfold host_step, lift_host.
      destruct loc as [l|]; destruct (ft_result ft) as [rt|] eqn:Hr.
      * destruct (mhost fidx args) as [[r|]|]; cbn [r_out finish].
        -- cbn [apply_effect direct_answer]. rewrite set_reg_set_pc. apply IH.
        -- reflexivity.
        -- reflexivity.
      * exfalso. destruct Hloc as [_ Hx]. specialize (Hx eq_refl). discriminate.
      * exfalso. destruct Hloc as [Hx _]. specialize (Hx eq_refl). discriminate.
      * destruct (mhost fidx args) as [[r|]|]; cbn [r_out finish apply_effect direct_answer];
          try reflexivity; apply IH.
    + destruct (step art no_host codes st) as [s'|s'|r].
      * apply IH.
      * reflexivity.
      * reflexivity.
Qed.
End Decompose.

Theorem direct_refines_machine_thm : forall art mhost fuel entry args,
  mrun art mhost fuel entry args =
  match init_state art entry args with
  | None => MTrap TBadCode
  | Some st0 => finish art entry (r_out (m_run_direct unit art (lift_host mhost) fuel tt st0))
  end.
Proof.
  intros art mhost fuel entry args. unfold mrun, init_state, m_run_direct.
  destruct (nth_error (a_code art) entry) as [f|] eqn:Hf; [|reflexivity].
  cbv zeta. rewrite direct_refines_steps.
  match goal with |- context [run_steps ?a ?b ?c ?d ?e] => destruct (run_steps a b c d e) as [o|st'] end.
  - reflexivity.
  - unfold finish. rewrite Hf. reflexivity.
Qed.
