(** * Wasm/MeterBound — a finite budget bounds execution.

    For annotated code in which every instruction that can close a control-flow cycle (br, taken
    br_if, br_table, call, call_indirect) carries work >= 1 ("well costed": true for the output of the
    metering transformation under a schedule with positive branch/call costs), for every run of the
    instrumented interpreter, whatever its outcome (also when it is cut off by lack of fuel):
    - #events(T) <= size + 2 M work(T)          (every executed source instruction emits an event)
    - if the run ran out of FUEL then  fuel <= size + 2 M work(T)
    (the two halves of [Bd], proved together in [bd_all])
    where [M] bounds the size of every function body.  With [MeterSafe] (work <= ticks) this gives:
    with energy budget B the metered run stops - success, trap or out of energy - within
    M (1 + 2B) events, and fuel M (1 + 2B) + 1 is enough for it to do so. *)
From Coq Require Import ZArith List Bool Lia.
From CB Require Import Wasm.Syntax Wasm.Sem Wasm.CostCtx Wasm.Meter Wasm.SemTrace Wasm.MeterProofs Wasm.SemTraceProofs Wasm.TraceEval Wasm.MeterSafe.
Import ListNotations.
Local Open Scope N_scope.
Local Arguments N.add : simpl never.

Fixpoint sz_i (i : ainstr) : N :=
  let sz_in := fix sz_in (l : list ainstr) : N := match l with [] => 1 | x :: r => 1 + sz_i x + sz_in r end in
  match i with
  | ABasic _ _ => 2
  | ABlock _ _ body => 2 + sz_in body
  | ALoop _ _ body => 2 + sz_in body
  | AIf _ _ t e => 3 + sz_in t + sz_in e
  end.
Fixpoint sz_s (l : list ainstr) : N := match l with [] => 1 | x :: r => 1 + sz_i x + sz_s r end.

Definition taken_of (o : origin) : N := match o with OSrc _ t => t | OInj => 0 end.
Definition wc_b (o : origin) (b : binstr) : bool :=
  match b with
  | BBr _ | BBrTable _ _ | BCallIndirect _ => 1 <=? cost_of o
  | BCall fi => (1 <=? cost_of o) || Nat.eqb fi 0   (* function 0 of a metered module is an import *)
  | BBrIf _ => 1 <=? cost_of o + taken_of o
  | _ => true
  end.
Fixpoint wc_i (i : ainstr) : bool :=
  let wc_in := fix wc_in (l : list ainstr) : bool := match l with [] => true | x :: r => wc_i x && wc_in r end in
  match i with
  | ABasic o b => wc_b o b
  | ABlock _ _ body => wc_in body
  | ALoop _ _ body => wc_in body
  | AIf _ _ t e => wc_in t && wc_in e
  end.
Fixpoint wc_s (l : list ainstr) : bool := match l with [] => true | x :: r => wc_i x && wc_s r end.

Lemma sz_i_eq i :
  sz_i i = match i with
           | ABasic _ _ => 2
           | ABlock _ _ body => 2 + sz_s body
           | ALoop _ _ body => 2 + sz_s body
           | AIf _ _ t e => 3 + sz_s t + sz_s e
           end.
Proof.
  assert (E : forall l, (fix sz_in (l : list ainstr) : N := match l with [] => 1 | x :: r => 1 + sz_i x + sz_in r end) l = sz_s l).
  { induction l as [|x r IH]; [reflexivity|]. cbn [sz_s]. cbv beta iota fix. rewrite IH. reflexivity. }
  destruct i; cbn [sz_i]; rewrite ?E; reflexivity.
Qed.
Lemma wc_i_eq i :
  wc_i i = match i with
           | ABasic o b => wc_b o b
           | ABlock _ _ body => wc_s body
           | ALoop _ _ body => wc_s body
           | AIf _ _ t e => wc_s t && wc_s e
           end.
Proof.
  assert (E : forall l, (fix wc_in (l : list ainstr) : bool := match l with [] => true | x :: r => wc_i x && wc_in r end) l = wc_s l).
  { induction l as [|x r IH]; [reflexivity|]. cbn [wc_s]. cbv beta iota fix. rewrite IH. reflexivity. }
  destruct i; cbn [wc_i]; rewrite ?E; reflexivity.
Qed.
Lemma wc_s_app a b : wc_s (a ++ b) = wc_s a && wc_s b.
Proof. induction a as [|x a IH]; [reflexivity|]. cbn [app wc_s]. rewrite IH, andb_assoc. reflexivity. Qed.
Lemma sz_s_pos l : 1 <= sz_s l.
Proof. destruct l; cbn [sz_s]; lia. Qed.

Definition evs (T : list event) : N := N.of_nat (length T).
Lemma evs_app a b : evs (a ++ b) = evs a + evs b.
Proof. unfold evs. rewrite app_length. lia. Qed.
Lemma work_app a b : work (a ++ b) = work a + work b.
Proof. induction a as [|e a IH]; [cbn; lia|]. destruct e; cbn [app work]; rewrite ?IH; lia. Qed.
Lemma evs_ev_work o : evs (ev_work o) <= 1.
Proof. destruct o; cbn; lia. Qed.
Lemma work_ev_work o : work (ev_work o) = cost_of o.
Proof. destruct o; cbn; lia. Qed.
Lemma evs_ev_taken o : evs (ev_taken o) <= 1.
Proof. destruct o; cbn; lia. Qed.
Lemma work_ev_taken o : work (ev_taken o) = taken_of o.
Proof. destruct o; cbn; lia. Qed.

Section Bound.
Variable host : nat -> list val -> option memory -> host_result.
Variable cap : N.
Variable m : module.
Variable afs : list afunc.
Variable M : N.
Hypothesis HM1 : 1 <= M.
Hypothesis Himp : (0 < length (m_imports m))%nat.
Hypothesis Hfn : Forall (fun fn => wc_s (af_body fn) = true /\ sz_s (af_body fn) + 2 <= M) afs.

Notation tseq := (texec_seq host cap m afs).
Notation tinstr := (texec_instr host cap m afs).
Notation tinv := (tinvoke host cap m afs).

(** [W T] = 2 M work(T): the number of events the work in [T] pays for *)
Definition W (T : list event) : N := 2 * M * work T.
Lemma W_app a b : W (a ++ b) = W a + W b.
Proof. unfold W. rewrite work_app. lia. Qed.
Lemma W_ev_work o : W (ev_work o) = 2 * M * cost_of o.
Proof. unfold W. rewrite work_ev_work. reflexivity. Qed.
Lemma W_ge c : 1 <= c -> 2 * M <= 2 * M * c.
Proof. intro H. nia. Qed.

Definition brk (r : res) : N := match r with RBr _ _ _ _ => M | _ => 0 end.
Lemma brk_blk bt st r : brk (blk_res bt st r) <= brk r.
Proof. destruct r as [| [|k] | | | |]; cbn; lia. Qed.

(** what a run with [f] units of fuel over code of size [sz] satisfies: events are paid for by the size
    and the work done, and a run that ran out of fuel has used up the fuel in the same way *)
Definition Bd (f : nat) (sz : N) (T : list event) (r : res) : Prop :=
  evs T + brk r <= sz + W T /\ (r = RFuel -> N.of_nat f <= sz + W T).

Definition BdSeq (f : nat) : Prop :=
  forall is s l st T r, tseq f s l st is = (T, r) -> wc_s is = true -> sz_s is <= M -> Bd f (sz_s is) T r.
Definition BdInstr (f : nat) : Prop :=
  forall i s l st T r, tinstr f s l st i = (T, r) -> wc_i i = true -> sz_i i <= M -> Bd f (sz_i i) T r.
Definition BdInv (f : nat) : Prop :=
  forall s fi args T r, tinv f s fi args = (T, r) ->
  evs T <= M + W T /\ (r = inl RFuel -> N.of_nat f <= M + W T).

Lemma Bd_plain f sz T r : brk r = 0 -> r <> RFuel -> evs T <= sz + W T -> Bd f sz T r.
Proof. intros Hb Hf HT. split; [lia|intro E; contradiction]. Qed.

Lemma bd_seq_step f : BdSeq f -> BdInstr f -> BdSeq (S f).
Proof.
  intros IHs IHi is s l st T r H Hwc Hsz. rewrite tseq_S in H. destruct is as [|i rest]; cbn [seq_body] in H.
  - inversion H; subst. apply Bd_plain; [reflexivity|discriminate|cbn; lia].
  - cbn [wc_s] in Hwc. apply andb_prop in Hwc. destruct Hwc as [Hwi Hwr]. cbn [sz_s] in Hsz |- *.
    destruct (tinstr f s l st i) as [t1 r1] eqn:E1.
    destruct (IHi _ _ _ _ _ _ E1 Hwi ltac:(lia)) as [B1 F1].
    destruct r1 as [s1 l1 st1| | | | |];
      try (inversion H; subst; split; [lia|intro Hf; first [discriminate Hf|specialize (F1 Hf); lia]]).
    destruct (tseq f s1 l1 st1 rest) as [t2 r2] eqn:E2. inversion H; subst.
    destruct (IHs _ _ _ _ _ _ E2 Hwr ltac:(lia)) as [B2 F2]. cbn [brk] in B1.
    unfold Bd. rewrite evs_app, W_app. split; [lia|intro Hf; specialize (F2 Hf); lia].
Qed.

Lemma evs_ev_call fi : evs (ev_call m fi) <= 1 /\ W (ev_call m fi) = 0.
Proof. unfold ev_call, W; destruct (is_local m fi); cbn; lia. Qed.

Lemma call_bd f o s l fi args st t x :
  BdInv f -> 1 <= cost_of o -> tinv f s fi args = (t, x) ->
  Bd (S f) 2 (ev_work o ++ ev_call m fi ++ t) (call_res l st x).
Proof.
  intros HI Hc E. destruct (HI _ _ _ _ _ E) as [B F]. destruct (evs_ev_call fi) as [Hc1 Hc0].
  pose proof (evs_ev_work o). pose proof (W_ge _ Hc).
  unfold Bd. rewrite !evs_app, !W_app, W_ev_work, Hc0. destruct x as [r0|[s' v]]; cbn [call_res brk].
  - destruct (tinv_inl_shape _ _ _ _ _ _ _ _ _ _ E) as [-> | [-> | ->]]; cbn [brk];
      (split; [lia|intro Hf; first [discriminate Hf|specialize (F eq_refl); lia]]).
  - split; [lia|discriminate].
Qed.

(** the injected call of import 0 carries no work, and takes one step *)
Lemma call0_bd f o s l args st t x :
  tinv f s 0%nat args = (t, x) -> Bd (S f) 2 (ev_work o ++ ev_call m 0 ++ t) (call_res l st x).
Proof.
  intro E.
  assert (E0 : ev_call m 0 = []) by (unfold ev_call, is_local; destruct (length (m_imports m)); [lia|reflexivity]).
  rewrite E0. cbn [app]. unfold Bd. rewrite evs_app, W_app. pose proof (evs_ev_work o).
  destruct f as [|f]; [inversion E; subst; unfold W, evs in *; cbn; lia|].
  rewrite tinv_S in E.
  destruct (inv_body_shape _ _ _ _ _ _ _ _ _ E) as [[-> ->]|[(_ & _ & -> & ->)|(fn & ft & t' & r1 & Hl & _)]].
  - unfold W, evs in *. cbn. split; [lia|discriminate].
  - unfold W, evs in *. destruct (host 0%nat args (s_mem s)); cbn; (split; [lia|discriminate]).
  - apply Nat.ltb_ge in Hl. lia.
Qed.

Lemma bd_blk f o bt st sz t r : Bd f sz t r -> Bd (S f) (2 + sz) (ev_work o ++ t) (blk_res bt st r).
Proof.
  intros [B F]. pose proof (brk_blk bt st r). pose proof (evs_ev_work o). unfold Bd. rewrite evs_app, W_app.
  split; [lia|]. destruct r as [|[|k]| | | |]; try discriminate. intros _. specialize (F eq_refl). lia.
Qed.

Lemma bd_instr_step f : BdSeq f -> BdInstr f -> BdInv f -> BdInstr (S f).
Proof.
  intros IHs IHi IHv i s l st T r H Hwc Hsz. rewrite tinstr_S in H. apply instr_body_shape in H.
  rewrite wc_i_eq in Hwc. rewrite sz_i_eq in Hsz |- *.
  pose proof (evs_ev_work (origin_of i)) as Ho. unfold Bd.
  destruct H as [i|o b Hb|o k|o k c st0 _|o ls d c st0 _|o|o fi ft args st' t x _ _ Hv
                |o ti c st0 ft fi ft' args st' t x _ _ _ _ _ _ Hv|o ti c st0 ft fi ft' _ _ _ _ _|o ti c st0 ft _ _ _
                |o bt body t r Hb|o bt body t r Hb _|o bt body t s' l' vs t2 r2 Hb Hi|o bt thn els c st0 t r _ Hi];
    cbn [origin_of wc_b] in Ho, Hwc.
  - apply Bd_plain; [reflexivity|discriminate|destruct i; lia].
  - apply Bd_plain; try (destruct (exec_simple cap b s l st) as [[|]|[[? ?] ?]]; (reflexivity || discriminate)).
    assert (evs (simple_events o b) <= 2)
      by (unfold simple_events; destruct b; try exact (N.le_trans _ _ _ Ho ltac:(lia));
          unfold evs in *; cbn [length]; lia).
    lia.
  - apply N.leb_le in Hwc. pose proof (W_ge _ Hwc). split; [cbn [brk]; rewrite W_ev_work; lia|discriminate].
  - pose proof (evs_ev_taken o) as Hk.
    destruct (c =? 0)%Z; (split; [cbn [brk]|discriminate]); [lia|].
    apply N.leb_le in Hwc. rewrite evs_app, W_app, W_ev_work. unfold W at 1. rewrite work_ev_taken.
    assert (2 * M <= 2 * M * cost_of o + 2 * M * taken_of o) by nia. lia.
  - apply N.leb_le in Hwc. pose proof (W_ge _ Hwc). split; [cbn [brk]; rewrite W_ev_work; lia|discriminate].
  - apply Bd_plain; [reflexivity|discriminate|lia].
  - apply orb_prop in Hwc. destruct Hwc as [Hwc|Hwc].
    + apply N.leb_le in Hwc. exact (call_bd f o s l fi args st' t x IHv Hwc Hv).
    + apply Nat.eqb_eq in Hwc. subst fi. exact (call0_bd f o s l args st' t x Hv).
  - apply N.leb_le in Hwc. exact (call_bd f o s l fi args st' t x IHv Hwc Hv).
  - apply Bd_plain; [reflexivity|discriminate|]. rewrite evs_app. pose proof (proj1 (evs_ev_call fi)). lia.
  - apply Bd_plain; [reflexivity|discriminate|lia].
  - exact (bd_blk f o bt st _ _ _ (IHs _ _ _ _ _ _ Hb Hwc ltac:(lia))).
  - exact (bd_blk f o bt st _ _ _ (IHs _ _ _ _ _ _ Hb Hwc ltac:(lia))).
  - (* the next iteration: this one did work, which pays for the step *)
    destruct (IHs _ _ _ _ _ _ Hb Hwc ltac:(lia)) as [B F].
    assert (Hwl : wc_i (ALoop OInj bt body) = true) by (rewrite wc_i_eq; exact Hwc).
    assert (Hsl : sz_i (ALoop OInj bt body) <= M) by (rewrite sz_i_eq; exact Hsz).
    destruct (IHi _ _ _ _ _ _ Hi Hwl Hsl) as [B2 F2]. rewrite sz_i_eq in B2, F2. cbn [brk] in B.
    rewrite !evs_app, !W_app. split; [lia|intro Hf; specialize (F2 Hf); lia].
  - apply andb_prop in Hwc. destruct Hwc as [Hwt Hwe].
    assert (Hw : wc_i (ABlock OInj bt (if (c =? 0)%Z then els else thn)) = true)
      by (rewrite wc_i_eq; destruct (c =? 0)%Z; assumption).
    pose proof (sz_s_pos thn). pose proof (sz_s_pos els).
    assert (Hs : sz_i (ABlock OInj bt (if (c =? 0)%Z then els else thn)) <= M)
      by (rewrite sz_i_eq; destruct (c =? 0)%Z; lia).
    destruct (IHi _ _ _ _ _ _ Hi Hw Hs) as [B F]. rewrite sz_i_eq in B, F.
    rewrite evs_app, W_app. split; [|intro Hf; specialize (F Hf)]; destruct (c =? 0)%Z; lia.
Qed.

Lemma bd_inv_step f : BdSeq f -> BdInv (S f).
Proof.
  intros IHs s fi args T r H. rewrite tinv_S in H.
  destruct (inv_body_shape _ _ _ _ _ _ _ _ _ H) as [[-> ->]|[(_ & _ & -> & ->)|(fn & ft & t & r1 & _ & Efn & _ & E & -> & ->)]].
  - split; [cbn; lia|discriminate].
  - split; [unfold evs; cbn; lia|destruct (host fi args (s_mem s)); discriminate].
  - assert (Hf : wc_s (af_body fn) = true /\ sz_s (af_body fn) + 2 <= M).
    { rewrite Forall_forall in Hfn. apply Hfn. eapply nth_error_In. exact Efn. }
    destruct Hf as [Hw Hs]. destruct (IHs _ _ _ _ _ _ E Hw ltac:(lia)) as [B F].
    change (EvWork (af_entry fn) :: t ++ fst (inv_res ft r1)) with ([EvWork (af_entry fn)] ++ t ++ fst (inv_res ft r1)).
    rewrite !evs_app, !W_app. unfold evs at 1. cbn [length].
    destruct (inv_res_cases ft r1) as [(x & -> & _)|(r0 & -> & Hr)]; cbn [fst snd].
    + split; [unfold evs at 2; cbn [length]; lia|discriminate].
    + split; [unfold evs at 2; cbn [length]; lia|]. intro Hf. inversion Hf; subst r0.
      destruct Hr as [Hr|[<- _]]; [discriminate Hr|]. specialize (F eq_refl). lia.
Qed.

Theorem bd_all : forall f, BdSeq f /\ BdInstr f /\ BdInv f.
Proof.
  induction f as [|f [IHs [IHi IHv]]].
  - split; [|split]; intro; intros; inversion H; subst; unfold Bd, W, evs; cbn [length work brk N.of_nat].
    + pose proof (sz_s_pos is). lia.
    + rewrite sz_i_eq. destruct i; lia.
    + lia.
  - split; [|split]; [apply bd_seq_step|apply bd_instr_step|apply bd_inv_step]; assumption.
Qed.

End Bound.

Definition jumpy (b : binstr) : bool :=
  match b with BBr _ | BBrIf _ | BBrTable _ _ | BCall _ | BCallIndirect _ => true | _ => false end.

Section WellCosted.
Variable cfg : cost_cfg.
Variable cx : cost_ctx.
Hypothesis Hjump : forall b L c, c_cost cfg (OBasic b) L cx = Some c -> jumpy b = true -> 1 <= c.
Hypothesis Hbranch : forall a, 1 <= c_branch cfg a.

Lemma wc_tick_opt h : wc_s (tick_opt h) = true.
Proof. unfold tick_opt. destruct (0 <? h); reflexivity. Qed.

Lemma mseq_wc : forall is L h is', mseq cfg cx L is = Some (h, is') -> wc_s is' = true.
Proof.
  apply (instrs_ind2
           (fun i => forall L h pre fl, mi cfg cx L i = Some (h, pre, fl) -> wc_s pre = true)
           (fun is => forall L h is', mseq cfg cx L is = Some (h, is') -> wc_s is' = true)).
  - intros b L h pre fl H. rewrite mi_eq in H. obind_inv H.
    destruct (kind_of b) eqn:Ek.
    + inversion H; subst. cbn [wc_s]. rewrite wc_i_eq. destruct b; cbn [kind_of] in Ek; try discriminate Ek; reflexivity.
    + inversion H; subst. cbn [wc_s]. rewrite wc_i_eq, andb_true_r.
      destruct b; cbn [kind_of] in Ek; try discriminate Ek; try reflexivity; cbn [wc_b cost_of];
        apply N.leb_le; eapply Hjump; try eassumption; reflexivity.
    + inversion H; subst. cbn [wc_s]. rewrite wc_i_eq, andb_true_r. cbn [wc_b cost_of].
      destruct b; cbn [kind_of] in Ek; try discriminate Ek.
      apply orb_true_intro. left. apply N.leb_le. eapply Hjump; [eassumption|reflexivity].
    + obind_inv H. inversion H; subst. pose proof (Hbranch n0).
      destruct (brif_rewrite_inv _ _ _ _ _ E1) as [_ [[_ ->]|[_ ->]]]; cbn [wc_s]; rewrite !wc_i_eq; cbn [wc_s];
        rewrite !wc_i_eq; cbn [wc_b cost_of taken_of andb]; rewrite !andb_true_r; apply N.leb_le; lia.
    + inversion H; subst. cbn [wc_s]. rewrite !wc_i_eq. cbn [wc_b]. rewrite orb_true_r.
      destruct b; cbn [kind_of] in Ek; try discriminate Ek. reflexivity.
    + discriminate H.
  - intros bt body IH L h pre fl H. rewrite mi_eq in H. obind_inv H. inversion H; subst.
    cbn [wc_s]. rewrite wc_i_eq, andb_true_r. eapply IH; eassumption.
  - intros bt body IH L h pre fl H. rewrite mi_eq in H. obind_inv H. inversion H; subst.
    cbn [wc_s]. rewrite wc_i_eq, andb_true_r, wc_s_app, wc_tick_opt. eapply IH; eassumption.
  - intros bt t e IHt IHe L h pre fl H. rewrite mi_eq in H. obind_inv H. inversion H; subst.
    cbn [wc_s]. rewrite wc_i_eq, andb_true_r, !wc_s_app, !wc_tick_opt. cbn [andb].
    rewrite (IHt _ _ _ E0), (IHe _ _ _ E1). reflexivity.
  - intros L h is' H. inversion H; reflexivity.
  - intros i r IHi IHr L h is' H.
    destruct (mseq_cons_inv _ _ _ _ _ _ _ H) as (hr & r' & hj & pre & fl & Er & Ei & Hc).
    destruct fl; [destruct Hc as (_ & _ & ->)|destruct Hc as (_ & ->)];
      rewrite !wc_s_app, ?wc_tick_opt, (IHi _ _ _ _ Ei), (IHr _ _ _ Er); reflexivity.
Qed.

Lemma ameter_body_wc nl result body b : ameter_body cfg cx nl result body = Some b -> wc_s b = true.
Proof.
  unfold ameter_body. destruct (mseq cfg cx [result] body) as [[h body']|] eqn:E; [|discriminate].
  cbn [obind]. destruct (seg_ok _); [|discriminate]. intro H; inversion H; subst.
  rewrite wc_s_app, (mseq_wc _ _ _ _ E), andb_true_r. destruct (0 <? _); reflexivity.
Qed.
End WellCosted.

Definition module_bound (afs : list afunc) : N :=
  fold_right (fun fn acc => N.max (sz_s (af_body fn) + 2) acc) 1 afs.

Lemma module_bound_ge1 afs : 1 <= module_bound afs.
Proof. induction afs as [|fn r IH]; cbn [module_bound fold_right]; lia. Qed.
Lemma module_bound_fn afs fn : In fn afs -> sz_s (af_body fn) + 2 <= module_bound afs.
Proof.
  induction afs as [|x r IH]; [intros []|]. intros [->|Hin]; cbn [module_bound fold_right].
  - lia.
  - specialize (IH Hin). unfold module_bound in IH. lia.
Qed.

Definition positive_cfg (cfg : cost_cfg) (cx : cost_ctx) : Prop :=
  (forall b L c, c_cost cfg (OBasic b) L cx = Some c -> jumpy b = true -> 1 <= c) /\
  (forall a, 1 <= c_branch cfg a).

Lemma ameter_funcs_wc cfg m afs :
  positive_cfg cfg (ctx_of_module m) -> ameter_funcs cfg m = Some afs ->
  Forall (fun fn => wc_s (af_body fn) = true /\ sz_s (af_body fn) + 2 <= module_bound afs) afs.
Proof.
  intros [Hj Hb] H. apply Forall_forall. intros fn Hin. split; [|apply module_bound_fn; exact Hin].
  pose proof (omap_list_forall _ (fun fn => wc_s (af_body fn) = true) _ _ H) as F.
  rewrite Forall_forall in F. apply F; [|exact Hin]. intros f y Hy. unfold ameter_func in Hy.
  destruct (nth_error (m_types m) (f_type f)); [|discriminate].
  destruct (ameter_body cfg (ctx_of_module m) _ _ _) as [b|] eqn:Eb; [|discriminate]. inversion Hy; subst. cbn.
  eapply ameter_body_wc; eassumption.
Qed.

(** the number of events of a metered run (any fuel, any outcome) is bounded linearly by the energy
    ticked; if the run was cut off by lack of fuel, then the fuel was at most M (1 + 2 ticks). *)
Theorem metered_run_bounds cfg m m' afs host cap fuel fi args T o :
  positive_cfg cfg (ctx_of_module m) ->
  inject cfg m = Some m' -> ameter_funcs cfg m = Some afs ->
  trun host cap m' afs fuel fi args = (T, o) ->
  let M := module_bound afs in
  evs T <= M * (1 + 2 * ticks T) /\ (o = OutOfFuel -> N.of_nat fuel <= M * (1 + 2 * ticks T)).
Proof.
  intros Hpos Hinj Hm H M.
  pose proof (module_bound_ge1 afs) as HM1. fold M in HM1.
  pose proof (inject_imports _ _ _ Hinj) as Himp.
  pose proof (ameter_funcs_wc _ _ _ Hpos Hm) as Hfn. fold M in Hfn.
  destruct (metered_run_prepaid_exact _ _ _ _ _ _ _ _ _ _ _ Hinj Hm H) as [Hp _].
  specialize (Hp T [] (eq_sym (app_nil_r T))).
  unfold trun in H. destruct (instantiate m') as [s|].
  - destruct (tinvoke host cap m' afs fuel s fi args) as [t rv] eqn:E.
    assert (T = t) by (destruct rv as [[]|[? ?]]; inversion H; reflexivity). subst t.
    destruct (bd_all host cap m' afs M HM1 Himp Hfn fuel) as [_ [_ HS]].
    destruct (HS _ _ _ _ _ E) as [B HF]. unfold W in B, HF.
    split; [nia|]. intro Ho.
    assert (rv = inl RFuel).
    { destruct rv as [r0|[s' v]]; [|inversion H; subst; discriminate].
      destruct r0; inversion H; subst; try discriminate. reflexivity. }
    subst rv. specialize (HF eq_refl). nia.
  - inversion H; subst. split; [cbn; nia|discriminate].
Qed.

Theorem terminates_within : forall cfg m m' afs host cap fuel fi args T B,
  positive_cfg cfg (ctx_of_module m) ->
  inject cfg m = Some m' -> ameter_funcs cfg m = Some afs ->
  module_bound afs * (1 + 2 * B) < N.of_nat fuel ->
  trun host cap m' afs fuel fi args = (T, OutOfFuel) -> B < ticks T.
Proof.
  intros cfg m m' afs host cap fuel fi args T B Hp Hi Hm Hf H.
  destruct (metered_run_bounds cfg m m' afs host cap fuel fi args T OutOfFuel Hp Hi Hm H) as [_ HF].
  specialize (HF eq_refl). pose proof (module_bound_ge1 afs).
  destruct (N.lt_ge_cases B (ticks T)) as [Hlt|Hge]; [exact Hlt|]. exfalso.
  assert (module_bound afs * (1 + 2 * ticks T) <= module_bound afs * (1 + 2 * B)) by (apply N.mul_le_mono_l; lia).
  lia.
Qed.

Theorem bounds_steps : forall cfg m m' afs host cap fuel fi args T o,
  positive_cfg cfg (ctx_of_module m) ->
  inject cfg m = Some m' -> ameter_funcs cfg m = Some afs ->
  trun host cap m' afs fuel fi args = (T, o) ->
  evs T <= module_bound afs * (1 + 2 * ticks T).
Proof.
  intros cfg m m' afs host cap fuel fi args T o Hp Hi Hm H.
  destruct (metered_run_bounds cfg m m' afs host cap fuel fi args T o Hp Hi Hm H) as [HA _]. exact HA.
Qed.
