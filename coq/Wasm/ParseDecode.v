(** * Wasm/ParseDecode — from the parsed module ([Wasm/Parse.v]) to the module of the reference
    semantics: [decode_module] structures every flat body and expands the locals; the result
    [corresponds] ([Wasm/Accepted.v]) to the module handed to the validator, so that
    [accepted_never_stuck] applies to byte strings. *)
From Coq Require Import ZArith NArith List Bool Arith Lia.
From CB Require Import Common.IntN Wasm.Syntax Wasm.Opcodes Gen.Limits Wasm.Validate Wasm.Leb128 Wasm.Parse
  Wasm.Typing Wasm.ValidateProofs Wasm.Sem Wasm.TypeSound Wasm.Accepted.
Import ListNotations.

Definition mkv (t : valtype) (z : Z) : val := match t with T_i32 => VI32 z | T_i64 => VI64 z end.

Definition decode_func (cap : N) (x : N * (list (N * valtype) * list (opcode * N))) : option func :=
  match structure_body (map fst (snd (snd x))) with
  | Some is => Some {| f_type := idx cap (fst x); f_locals := expand_locals (fst (snd x)); f_body := is |}
  | None => None
  end.
Fixpoint decode_funcs (cap : N) (l : list (N * (list (N * valtype) * list (opcode * N)))) : option (list func) :=
  match l with
  | [] => Some []
  | x :: r =>
      match decode_func cap x, decode_funcs cap r with
      | Some f, Some fs => Some (f :: fs)
      | _, _ => None
      end
  end.

Definition decode_module (cap : N) (p : pmodule) : option module :=
  match decode_funcs cap (combine (pm_functypes p) (pm_code p)) with
  | Some funcs =>
      Some {| m_types := pm_types p;
              m_imports := map (fun i => idx cap (pi_type i)) (pm_imports p);
              m_funcs := funcs;
              m_table := pm_table p;
              m_elems := map (fun e => (u32_of_i32 (fst e), map N.to_nat (snd e))) (pm_elems p);
              m_mem := match pm_mem p with Some (mn, mx) => Some {| l_min := mn; l_max := mx |} | None => None end;
              m_data := map (fun d => (Z.to_N (fst d), map Z.of_N (snd d))) (pm_data p);
              m_globals := map (fun g => {| g_mut := snd (fst g); g_init := mkv (fst (fst g)) (snd g) |}) (pm_globals p) |}
  | None => None
  end.

Lemma decode_funcs_rel cap : forall l fs, decode_funcs cap l = Some fs ->
  Forall2 (fun vf f => f_type f = mf_type vf /\ f_locals f = expand_locals (mf_locals vf) /\
                       structure_body (map fst (mf_body vf)) = Some (f_body f))
          (map (fun '(ti, (ls, ops)) => {| mf_type := idx cap ti; mf_locals := ls; mf_body := ops |}) l) fs.
Proof.
  induction l as [|[ti [ls ops]] r IH]; intros fs; cbn [decode_funcs map].
  - intros E; inversion E; constructor.
  - unfold decode_func. cbn [fst snd].
    destruct (structure_body (map fst ops)) as [is|] eqn:ES; [|discriminate].
    destruct (decode_funcs cap r) as [fs'|]; [|discriminate]. intros E; inversion E; subst.
    constructor; [|apply IH; reflexivity]. cbn. auto.
Qed.

Theorem decode_corresponds cap p vm m :
  to_vmodule cap p = Some vm -> decode_module cap p = Some m -> corresponds vm m.
Proof.
  unfold to_vmodule, decode_module.
  destruct (negb _); [discriminate|]. destruct (existsb _ _); [discriminate|].
  intros EV; inversion EV; subst; clear EV.
  destruct (decode_funcs cap _) as [funcs|] eqn:EF; [|discriminate]. intros EM; inversion EM; subst; clear EM.
  constructor; cbn.
  - reflexivity.
  - reflexivity.
  - apply decode_funcs_rel. exact EF.
  - rewrite map_map. apply map_ext. intros [[t mu] z]. cbn. destruct t; reflexivity.
  - reflexivity.
  - destruct (pm_mem p) as [[mn mx]|]; cbn; auto.
  - rewrite map_map. apply map_ext. intros [off fs]. cbn. f_equal.
    rewrite map_map. rewrite <- (map_id fs) at 2. apply map_ext. intros x. apply N2Nat.id.
  - rewrite map_map. apply map_ext. intros [off bs]. cbn. now rewrite map_length.
Qed.

(** Props/C09 [accepted_bytes_never_stuck]: for a byte string that the parser model parses and the
    validation model accepts (outside KF-C09-1), the decoded module never gets stuck. *)
Theorem accepted_bytes_never_stuck_thm cfg bs p r a vm m host page_cap fuel fi args ft :
  parse_module cfg bs = POk p r a ->
  to_vmodule (N.of_nat (length bs)) p = Some vm ->
  validate_module (cfg_signext cfg) vm = true -> no_trailing (cfg_signext cfg) vm ->
  decode_module (N.of_nat (length bs)) p = Some m ->
  host_ok host m ->
  nth_error (ftypes m) fi = Some ft -> map type_of_val args = ft_params ft ->
  run host page_cap m fuel fi args <> Stuck.
Proof.
  intros _ TV VAL NT DM HOK HF HA.
  eapply accepted_never_stuck_thm; eauto. eapply decode_corresponds; eauto.
Qed.

(** an accepted module always decodes (its bodies are well nested), outside KF-C09-1 *)
Theorem accepted_decodes cfg bs p r a vm :
  parse_module cfg bs = POk p r a ->
  to_vmodule (N.of_nat (length bs)) p = Some vm ->
  validate_module (cfg_signext cfg) vm = true -> no_trailing (cfg_signext cfg) vm ->
  exists m, decode_module (N.of_nat (length bs)) p = Some m.
Proof.
  intros _ TV VAL NT. unfold decode_module.
  assert (G : exists fs, decode_funcs (N.of_nat (length bs)) (combine (pm_functypes p) (pm_code p)) = Some fs).
  { unfold to_vmodule in TV. destruct (negb _); [discriminate|]. destruct (existsb _ _); [discriminate|].
    inversion TV; subst; clear TV.
    assert (H : forall vf, In vf (map (fun '(ti, (ls, ops)) => {| mf_type := idx (N.of_nat (length bs)) ti; mf_locals := ls; mf_body := ops |})
                                   (combine (pm_functypes p) (pm_code p))) ->
                exists is, structure_body (map fst (mf_body vf)) = Some is).
    { intros vf Hin. destruct (validate_module_sound_thm _ _ VAL vf Hin) as (ft & locals & h & T & ML & _ & _ & _ & HB).
      destruct (HB (NT _ _ _ Hin T ML)) as (is & SB & _). eauto. }
    revert H. generalize (combine (pm_functypes p) (pm_code p)). intros l.
    induction l as [|[ti [ls ops]] rest IH]; intros H; cbn [decode_funcs]; [eauto|].
    unfold decode_func. cbn [fst snd].
    destruct (H {| mf_type := idx (N.of_nat (length bs)) ti; mf_locals := ls; mf_body := ops |}) as [is ES]; [left; reflexivity|].
    cbn in ES. rewrite ES. destruct IH as [fs ->]; [intros vf Hin; apply H; right; exact Hin|]. eauto. }
  destruct G as [fs ->]. eauto.
Qed.
