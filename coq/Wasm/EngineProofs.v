(** The faithful model of the engine ([Compile.v] + [Machine.v]) reproduces the findings
    F1-F3: on the witness modules it disagrees with the specification [Sem.run]. *)
From Coq Require Import ZArith List Lia.
From CB Require Import Common.IntN Wasm.Syntax Wasm.Sem Wasm.Machine Wasm.Engine Wasm.Witnesses.
Import ListNotations.
Local Open Scope Z_scope.

Definition spec_obs (m : module) (fuel : nat) (args : list val) : option observation :=
  observe_spec (run no_host 512%N m fuel 0 args).
Definition engine_obs (m : module) (fuel : nat) (args : list val) : option observation :=
  match engine_run m fuel 0 args with
  | Some o => observe_engine (global_types m) o
  | None => None
  end.

Definition disagree (m : module) (args : list val) : Prop :=
  exists a b, spec_obs m 100 args = Some a /\ engine_obs m 100 args = Some b /\ a <> b.

Lemma f1a_disagree : disagree w_f1a [VI32 0] /\ known_class w_f1a = (true, false).
Proof.
  split; [|vm_compute; reflexivity].
  exists (ObsDone (Some (VI32 1)) 0 [] []), (ObsDone (Some (VI32 2)) 0 [] []).
  split; [vm_compute; reflexivity|]. split; [vm_compute; reflexivity|]. discriminate.
Qed.
Lemma f1b_disagree : disagree w_f1b [VI32 1] /\ known_class w_f1b = (true, false).
Proof.
  split; [|vm_compute; reflexivity].
  exists (ObsDone (Some (VI32 0)) 0 [] []), (ObsDone (Some (VI32 42)) 0 [] []).
  split; [vm_compute; reflexivity|]. split; [vm_compute; reflexivity|]. discriminate.
Qed.
Lemma f2a_disagree : disagree w_f2a [VI32 7; VI32 0] /\ known_class w_f2a = (false, true).
Proof.
  split; [|vm_compute; reflexivity].
  exists (ObsDone (Some (VI32 7)) 0 [] []), (ObsDone (Some (VI32 0)) 0 [] []).
  split; [vm_compute; reflexivity|]. split; [vm_compute; reflexivity|]. discriminate.
Qed.
Lemma f2b_disagree : disagree w_f2b [VI32 0] /\ known_class w_f2b = (false, true).
Proof.
  split; [|vm_compute; reflexivity].
  exists (ObsDone (Some (VI32 0)) 0 [] []), (ObsDone (Some (VI32 2)) 0 [] []).
  split; [vm_compute; reflexivity|]. split; [vm_compute; reflexivity|]. discriminate.
Qed.
Lemma f3_disagree :
  spec_obs w_f3 100 [VI32 2147483648; VI32 4294967295] = Some (ObsDone (Some (VI32 0)) 0 [] [])
  /\ engine_run w_f3 100 0 [VI32 2147483648; VI32 4294967295] = Some (MTrap TRemSOverflow)
  /\ known_class w_f3 = (false, false).
Proof. repeat split; vm_compute; reflexivity. Qed.

(** outside the classes the two agree on this (non-vacuity example for the guarded claims) *)
Lemma plain_agree :
  known_class w_plain = (false, false)
  /\ spec_obs w_plain 100 [VI32 3; VI32 4] = engine_obs w_plain 100 [VI32 3; VI32 4]
  /\ spec_obs w_plain 100 [VI32 3; VI32 4] = Some (ObsDone (Some (VI32 49)) 0 [] []).
Proof. repeat split; vm_compute; reflexivity. Qed.

(** rem_s: the machine's operator differs from the specification's at (MIN, -1); nowhere else:
    [NumOpsProofs.rs_binop_agrees_all] *)
Lemma rem_s_machine_vs_spec_i32 :
  rs_binop 32 RemS (as_i32 2147483648) (as_i32 4294967295) 2147483648 4294967295 = inl TRemSOverflow
  /\ irem_s 32 2147483648 4294967295 = Some 0.
Proof. split; vm_compute; reflexivity. Qed.
Lemma rem_s_machine_vs_spec_i64 :
  rs_binop 64 RemS (as_i64 9223372036854775808) (as_i64 18446744073709551615) 9223372036854775808 18446744073709551615
    = inl TRemSOverflow
  /\ irem_s 64 9223372036854775808 18446744073709551615 = Some 0.
Proof. split; vm_compute; reflexivity. Qed.
