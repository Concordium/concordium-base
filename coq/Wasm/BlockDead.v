(** * Stage B, extension 1: DEAD CODE.  [br] / [br_table] / [return] / [unreachable] may be followed by
    further instructions in the same body.  The compiler ([handle_opcode] with
    [UnreachableInstruction] / [UnreachableFrame]) skips them; the validator's state after them differs
    only in the operand height, which the closing [end] / [else] resets.  Hence compiling a body equals
    compiling the body with the instructions after the first terminator removed ([strip], applied
    recursively to nested bodies in live position), and the reference interpreter never executes them.
    The simulation theorems of [BlockTheorem] therefore carry over to every body whose [strip] is in
    the fragment. *)
From Coq Require Import ZArith NArith List Lia Bool.
From CB Require Import Wasm.Syntax Wasm.Sem Wasm.Compile Wasm.CompileLemmas Wasm.SemProofs Wasm.SyntaxProofs Wasm.BlockSim.
Import ListNotations.
Local Open Scope Z_scope.

Definition term_b (b : binstr) : bool :=
  match b with BBr _ | BBrTable _ _ | BUnreachable | BReturn => true | _ => false end.
Definition term_i (i : instr) : bool := match i with Basic b => term_b b | _ => false end.

Fixpoint strip_i (i : instr) : instr :=
  let sl := fix sl (l : list instr) : list instr :=
              match l with [] => [] | x :: r => if term_i x then [strip_i x] else strip_i x :: sl r end in
  match i with
  | Basic b => Basic b
  | Block bt b => Block bt (sl b)
  | Loop bt b => Loop bt (sl b)
  | If bt t e => If bt (sl t) (sl e)
  end.
Fixpoint strip (l : list instr) : list instr :=
  match l with [] => [] | x :: r => if term_i x then [strip_i x] else strip_i x :: strip r end.

Lemma strip_block bt b : strip_i (Block bt b) = Block bt (strip b). Proof. reflexivity. Qed.
Lemma strip_loop bt b : strip_i (Loop bt b) = Loop bt (strip b). Proof. reflexivity. Qed.
Lemma strip_if bt t e : strip_i (If bt t e) = If bt (strip t) (strip e). Proof. reflexivity. Qed.
Lemma strip_cons_term b r : term_b b = true -> strip (Basic b :: r) = [Basic b].
Proof. intros H. cbn. rewrite H. reflexivity. Qed.
Lemma strip_cons_live i r : term_i i = false -> strip (i :: r) = strip_i i :: strip r.
Proof. intros H. cbn [strip]. rewrite H. reflexivity. Qed.
Lemma strip_nil_iff l : strip l = [] <-> l = [].
Proof. split; [|intros ->; reflexivity]. destruct l as [|x r]; [reflexivity|]. cbn. destruct (term_i x); discriminate. Qed.

Section SemDead.
Variable host : nat -> list val -> option memory -> host_result.
Variable cap : N.
Variable m : module.
Notation exec_seq := (exec_seq host cap m).
Notation exec_instr := (exec_instr host cap m).

Lemma exec_term f st l vs b : term_b b = true ->
  match exec_instr f st l vs (Basic b) with RNormal _ _ _ => False | _ => True end.
Proof.
  intros H. destruct f as [|f]; [exact I|]. destruct b; try discriminate H; cbn; auto.
  destruct vs as [|[c|c] vs]; exact I.
Qed.

Lemma exec_strip : forall fuel,
  (forall st l vs is, exec_seq fuel st l vs (strip is) = exec_seq fuel st l vs is)
  /\ (forall st l vs i, exec_instr fuel st l vs (strip_i i) = exec_instr fuel st l vs i).
Proof.
  induction fuel as [|f [IHs IHi]]; [split; reflexivity|]. split.
  - intros st l vs is. destruct is as [|i r]; [reflexivity|].
    destruct (term_i i) eqn:Et.
    + destruct i as [b| | |]; try discriminate Et. cbn [term_i] in Et.
      rewrite (strip_cons_term b r Et). rewrite !(eseq_S host cap m).
      pose proof (exec_term f st l vs b Et) as Hx.
      destruct (exec_instr f st l vs (Basic b)); try reflexivity. contradiction.
    + rewrite (strip_cons_live i r Et). rewrite !(eseq_S host cap m). rewrite IHi.
      destruct (exec_instr f st l vs i); try reflexivity. apply IHs.
  - intros st l vs i. destruct i as [b|bt body|bt body|bt thn els].
    + reflexivity.
    + rewrite strip_block, !(einstr_S host cap m), IHs. reflexivity.
    + rewrite strip_loop, !(einstr_S host cap m), IHs.
      destruct (Sem.exec_seq host cap m f st l [] body) as [| [|k] s' l' vs'| | | |]; try reflexivity.
      rewrite <- strip_loop. apply IHi.
    + rewrite strip_if. destruct vs as [|[cv|cv] vs]; try reflexivity. rewrite !(einstr_S host cap m).
      rewrite <- (IHi st l vs (Block bt (if cv =? 0 then els else thn))). rewrite strip_block.
      destruct (cv =? 0); reflexivity.
Qed.

Lemma exec_strip_block fuel st l vs bt is :
  exec_instr fuel st l vs (Block bt (strip is)) = exec_instr fuel st l vs (Block bt is).
Proof. rewrite <- strip_block. apply (proj2 (exec_strip fuel)). Qed.
End SemDead.

Definition clen (v : vstate) : nat := length (v_ctrls v).
(** terminated state of the body of frame [top] *)
Definition tstate (v : vstate) : Prop :=
  exists top r, v_ctrls v = top :: r /\ v_unreach v = Some (length r) /\ vf_unreachable top = true /\ v_opds v = vf_height top.
(** same frames and same unreachable mark: what [v_pop], [v_popn], [v_pushn] preserve *)
Definition deadrel (vt vd : vstate) : Prop := v_unreach vd = v_unreach vt /\ v_ctrls vd = v_ctrls vt.
(** inside dead code: [k] frames opened after the terminator *)
Definition DI (top : vframe) (r : list vframe) (k : nat) (v : vstate) : Prop :=
  exists inner, length inner = k /\ v_ctrls v = inner ++ top :: r /\ v_unreach v = Some (length r).

Lemma pushn_same n v : deadrel v (v_pushn n v).
Proof. exact (v_pushn_frame n v). Qed.
Lemma clen_same v w : deadrel v w -> clen w = clen v.
Proof. intros [_ E]. unfold clen. rewrite E. reflexivity. Qed.
Lemma DI_same top r k v w : deadrel v w -> DI top r k v -> DI top r k w.
Proof. intros [E1 E2] (inner & A & B & C). exists inner. rewrite E1, E2. auto. Qed.

Lemma last_label_none (fs : list vframe) : last (map (fun f => Some (vf_label f)) fs) None = None -> fs = [].
Proof.
  destruct fs as [|f rest]; [reflexivity|]. revert f. induction rest as [|g rest IHr]; intros f El; cbn in El; [discriminate|].
  discriminate (IHr g El).
Qed.

(** every plain instruction pops some operands and then either pushes some or marks the frame unreachable *)
Definition basic_shape (b : binstr) (v v1 : vstate) : Prop :=
  exists n w, v_popn n v = Some w
    /\ ((exists m, v1 = v_pushn m w) /\ (term_b b = true -> b = BReturn /\ v_ctrls v = [])
        \/ term_b b = true /\ v_mark_unreachable w = Some v1).

Lemma shape_plain b v v1 n m : match v_popn n v with Some w => Some (v_pushn m w) | None => None end = Some v1 ->
  term_b b = false -> basic_shape b v v1.
Proof.
  intros E Ht. destruct (v_popn n v) as [w|] eqn:Ep; [|discriminate]. inversion E. exists n, w. split; [exact Ep|].
  left. split; [exists m; reflexivity|]. rewrite Ht. discriminate.
Qed.
Lemma shape_mark b v v1 n : match v_popn n v with Some w => v_mark_unreachable w | None => None end = Some v1 ->
  term_b b = true -> basic_shape b v v1.
Proof. intros E Ht. destruct (v_popn n v) as [w|] eqn:Ep; [|discriminate]. exists n, w. auto. Qed.

Lemma vstep_basic_shape cx v b v1 : vstep cx v (OBasic b) = Some v1 -> basic_shape b v v1.
Proof.
  intros H.
  destruct b as [ | |l|l|ls d| |f|ty| | |i|i|i|i|i|t pk off|t pk off| | |t z|t op|t op|t|t op|op|k];
    cbn [vstep] in H; try (destruct (pops_pushes _) as [po pu]; eapply shape_plain; [exact H|reflexivity]).
  - exact (shape_mark BUnreachable v v1 O H eq_refl).
  - destruct (label_type v l) as [lt|]; [|discriminate]. exact (shape_mark (BBr l) v v1 _ H eq_refl).
  - destruct (label_type v l) as [lt|]; [|discriminate]. apply (shape_plain (BBrIf l) v v1 (S (bt_arity lt)) (bt_arity lt)); [|reflexivity].
    cbn [v_popn]. destruct (v_pop v); [exact H|discriminate].
  - destruct (label_type v d) as [lt|]; [|discriminate]. apply (shape_mark (BBrTable ls d) v v1 (S (bt_arity lt))); [|reflexivity].
    cbn [v_popn]. destruct (v_pop v); [exact H|discriminate].
  - destruct (last (map (fun f => Some (vf_label f)) (v_ctrls v)) None) as [lt|] eqn:El; [exact (shape_mark BReturn v v1 _ H eq_refl)|].
    inversion H; subst v1. exists O, v. split; [reflexivity|]. left. split; [exists O; reflexivity|].
    intros _. split; [reflexivity|apply (last_label_none _ El)].
  - destruct (cx_func_type cx f) as [ft|]; [|discriminate]. exact (shape_plain (BCall f) v v1 _ _ H eq_refl).
  - destruct (cx_type cx ty) as [ft|]; [|discriminate]. exact (shape_plain (BCallIndirect ty) v v1 _ _ H eq_refl).
Qed.

Lemma frame_eta top : vf_unreachable top = true ->
  {| vf_is_if := vf_is_if top; vf_label := vf_label top; vf_end := vf_end top; vf_height := vf_height top; vf_unreachable := true |} = top.
Proof. destruct top; cbn; intros ->; reflexivity. Qed.
Lemma DI_mark top r k v v1 : vf_unreachable top = true -> v_mark_unreachable v = Some v1 -> DI top r k v -> DI top r k v1.
Proof.
  intros Ht H (inner & A & B & C). unfold v_mark_unreachable in H. rewrite B, C in H.
  destruct inner as [|f inner']; cbn [app] in H; inversion H; subst v1; clear H.
  - exists []. cbn. rewrite (frame_eta top Ht). splits; auto. f_equal. lia.
  - eexists (_ :: inner'). cbn [length app v_ctrls v_unreach]. splits; [exact A|reflexivity|].
    f_equal. rewrite app_length. cbn [length]. lia.
Qed.
Lemma DI_push_ctrl top r k v b l e : DI top r k v -> DI top r (S k) (v_push_ctrl b l e v).
Proof. intros (inner & A & B & C). eexists (_ :: inner). cbn. rewrite A, B. splits; auto. Qed.
Lemma DI_pop_ctrl top r k v x : DI top r (S k) v -> v_pop_ctrl v = Some x -> DI top r k (snd x).
Proof.
  intros (inner & A & B & C) H. destruct inner as [|f inner']; [discriminate A|]. cbn in A. injection A as A.
  unfold v_pop_ctrl in H. rewrite B in H. cbn [app] in H.
  destruct (v_popn (bt_arity (vf_end f)) v) as [w|] eqn:Ep; [|discriminate].
  destruct (v_popn_frame _ _ _ Ep) as [Eu _].
  destruct (v_opds w =? vf_height f)%nat; [|discriminate]. inversion H; subst x; clear H. cbn [snd].
  exists inner'. cbn. splits; auto. rewrite Eu, C.
  destruct (Nat.eqb_spec (length r) (length (inner' ++ top :: r))) as [E|]; [|reflexivity].
  rewrite app_length in E. cbn in E. lia.
Qed.

Lemma DI_basic cx top r k v b v1 : vf_unreachable top = true ->
  vstep cx v (OBasic b) = Some v1 -> DI top r k v -> DI top r k v1.
Proof.
  intros Ht H D. destruct (vstep_basic_shape cx v b v1 H) as (n & w & Ep & [[(m & ->) _]|[_ Hm]]).
  - apply (DI_same top r k w _ (pushn_same m w)), (DI_same top r k v w (v_popn_frame _ _ _ Ep)), D.
  - apply (DI_mark top r k w v1 Ht Hm), (DI_same top r k v w (v_popn_frame _ _ _ Ep)), D.
Qed.

Lemma DI_reach top r k v : DI top r k v ->
  v_reachability v = match k with O => UnreachableInstruction | S _ => UnreachableFrame end.
Proof.
  intros (inner & A & B & C). unfold v_reachability. rewrite C, B, app_length. cbn [length].
  destruct k; destruct (Nat.ltb_spec (length r + 1) (length inner + S (length r))); auto; lia.
Qed.

(** nesting depth after [op], starting from depth [k]; [None] if [op] closes a frame that the sequence did not open *)
Definition depth_step (k : nat) (op : opcode) : option nat :=
  match op with
  | OBasic _ => Some k
  | OBlock _ | OLoop _ | OIf _ => Some (S k)
  | OEnd => match k with S k' => Some k' | O => None end
  | OElse => match k with S _ => Some k | O => None end
  end.
Fixpoint depth (k : nat) (ops : list opcode) : option nat :=
  match ops with
  | [] => Some k
  | op :: r => match depth_step k op with Some k1 => depth k1 r | None => None end
  end.
Lemma depth_app : forall a b k, depth k (a ++ b) = match depth k a with Some k1 => depth k1 b | None => None end.
Proof. induction a as [|op a IH]; intros b k; cbn [app depth]; [reflexivity|]. destruct (depth_step k op); [apply IH|reflexivity]. Qed.
Lemma depth_flatten : forall is k, depth k (flatten is) = Some k.
Proof.
  induction is as [|b r IHr|bt body r IHb IHr|bt body r IHb IHr|bt thn els r IHt IHe IHr] using instrs_ind; intros k.
  - reflexivity.
  - apply IHr.
  - rewrite flatten_block. cbn [depth depth_step]. rewrite depth_app, IHb. apply IHr.
  - rewrite flatten_loop. cbn [depth depth_step]. rewrite depth_app, IHb. apply IHr.
  - destruct els as [|e els].
    + rewrite flatten_if1. cbn [depth depth_step]. rewrite depth_app, IHt. apply IHr.
    + rewrite flatten_if2. cbn [depth depth_step]. rewrite depth_app, IHt. cbn [depth depth_step]. rewrite depth_app, IHe. apply IHr.
Qed.

(** in dead code every opcode is skipped: the compiler only clears [c_last] *)
Lemma DI_step cx top r k op k1 v v1 s : vf_unreachable top = true ->
  DI top r k v -> depth_step k op = Some k1 -> vstep cx v op = Some v1 ->
  DI top r k1 v1 /\ handle_opcode cx s v1 (v_reachability v) op = Some (set_last s None).
Proof.
  intros Ht D Hk Ev. rewrite (DI_reach _ _ _ _ D). destruct op as [| |bt|bt|bt|b]; cbn [vstep depth_step] in Ev, Hk.
  - destruct k as [|k']; inversion Hk; subst k1. split; [|reflexivity].
    destruct (v_pop_ctrl v) as [[[res isif] v2]|] eqn:Ep; [|discriminate]. inversion Ev; subst v1.
    apply (DI_same top r k' v2 _ (pushn_same _ v2)), (DI_pop_ctrl top r k' v _ D Ep).
  - destruct k as [|k']; inversion Hk; subst k1. split; [|reflexivity].
    destruct (v_pop_ctrl v) as [[[res [|]] v2]|] eqn:Ep; try discriminate. inversion Ev; subst v1.
    apply DI_push_ctrl, (DI_pop_ctrl top r k' v _ D Ep).
  - inversion Hk; inversion Ev; subst k1 v1. split; [apply DI_push_ctrl, D|destruct k; reflexivity].
  - inversion Hk; inversion Ev; subst k1 v1. split; [apply DI_push_ctrl, D|destruct k; reflexivity].
  - destruct (v_pop v) as [w|] eqn:Ep; [|discriminate]. inversion Hk; inversion Ev; subst k1 v1.
    split; [apply DI_push_ctrl, (DI_same top r k v w (v_pop_frame _ _ Ep)), D|destruct k; reflexivity].
  - inversion Hk; subst k1. split; [apply (DI_basic cx top r k v b v1 Ht Ev D)|destruct k; reflexivity].
Qed.

Lemma dead_ops cx top r (Ht : vf_unreachable top = true) : forall ops k k' v s v' s',
  depth k ops = Some k' -> DI top r k v -> compile_ops cx ops v s = Some (v', s') ->
  DI top r k' v' /\ set_last s' None = set_last s None.
Proof.
  induction ops as [|op ops IH]; intros k k' v s v' s' Hd D Hc.
  - cbn in Hd, Hc. inversion Hd; inversion Hc; subst. auto.
  - cbn [depth] in Hd. destruct (depth_step k op) as [k1|] eqn:Ek; [|discriminate].
    destruct (compile_cons _ _ _ _ _ _ _ Hc) as (v1 & s1 & Ev & Eh & Hc').
    destruct (DI_step cx top r k op k1 v v1 s Ht D Ek Ev) as [D1 Eh']. rewrite Eh' in Eh. inversion Eh; subst s1.
    destruct (IH k1 k' v1 _ v' s' Hd D1 Hc') as [D' E]. split; [exact D'|]. rewrite E. reflexivity.
Qed.

Lemma mark_tstate v w : v_unreach v = None -> v_mark_unreachable v = Some w -> tstate w /\ clen w = clen v.
Proof.
  intros Hu H. unfold v_mark_unreachable in H. destruct (v_ctrls v) as [|f rest] eqn:Ec; [discriminate|]. rewrite Hu in H.
  inversion H; subst w; clear H. split; [|unfold clen; cbn; rewrite Ec; reflexivity].
  eexists _, rest. cbn. splits; reflexivity.
Qed.

Lemma live_basic cx v b v1 : term_b b = false -> vstep cx v (OBasic b) = Some v1 -> deadrel v v1.
Proof.
  intros Ht H. destruct (vstep_basic_shape cx v b v1 H) as (n & w & Ep & [[(m & ->) _]|[Ht' _]]); [|congruence].
  destruct (v_popn_frame _ _ _ Ep) as [E1 E2]. destruct (pushn_same m w) as [E3 E4]. split; congruence.
Qed.

Lemma term_basic cx v b v1 : term_b b = true -> v_unreach v = None -> (0 < clen v)%nat -> vstep cx v (OBasic b) = Some v1 ->
  tstate v1 /\ clen v1 = clen v.
Proof.
  intros Ht Hu Hl H. destruct (vstep_basic_shape cx v b v1 H) as (n & w & Ep & [[_ He]|[_ Hm]]).
  - unfold clen in Hl. rewrite (proj2 (He Ht)) in Hl. inversion Hl.
  - destruct (v_popn_frame _ _ _ Ep) as [E1 E2]. destruct (mark_tstate w v1 ltac:(congruence) Hm) as [T L].
    split; [exact T|]. rewrite L. apply (clen_same v w (conj E1 E2)).
Qed.

Definition opener (op : opcode) : Prop := match op with OBlock _ | OLoop _ | OIf _ => True | _ => False end.
Lemma open_live cx op v va : opener op -> v_unreach v = None -> vstep cx v op = Some va ->
  v_unreach va = None /\ clen va = S (clen v).
Proof.
  intros Ho Hu Ev. destruct op as [| |bt|bt|bt|b]; try contradiction; cbn [vstep] in Ev.
  - inversion Ev; subst va. split; [exact Hu|reflexivity].
  - inversion Ev; subst va. split; [exact Hu|reflexivity].
  - destruct (v_pop v) as [w|] eqn:Ep; [|discriminate]. inversion Ev; subst va. destruct (v_pop_frame _ _ Ep) as [E1 E2].
    unfold clen. cbn [v_push_ctrl v_ctrls v_unreach length]. rewrite E2. split; [congruence|reflexivity].
Qed.

Definition srel (v' : vstate) (s' : cstate) (v'' : vstate) (s'' : cstate) : Prop :=
  (v'' = v' /\ s'' = s' /\ v_unreach v' = None)
  \/ (tstate v'' /\ deadrel v'' v' /\ set_last s' None = set_last s'' None).

Lemma popn_stay n v top r : v_ctrls v = top :: r -> vf_unreachable top = true -> v_opds v = vf_height top -> v_popn n v = Some v.
Proof.
  intros A B C. induction n; [reflexivity|]. cbn [v_popn]. unfold v_pop. rewrite A, C, Nat.eqb_refl, B. exact IHn.
Qed.

Lemma pop_ctrl_dead vt vd x : tstate vt -> deadrel vt vd -> v_pop_ctrl vd = Some x ->
  v_pop_ctrl vt = Some x /\ v_unreach (snd x) = None /\ S (clen (snd x)) = clen vt.
Proof.
  intros (top & r & A & B & C & D) [E2 E1] H. unfold v_pop_ctrl in *. rewrite E1, A in H. rewrite A.
  rewrite (popn_stay _ vt top r A C D). cbv beta iota. rewrite D, Nat.eqb_refl, B, Nat.eqb_refl.
  destruct (v_popn (bt_arity (vf_end top)) vd) as [w|] eqn:Ep; [|discriminate].
  destruct (v_popn_frame _ _ _ Ep) as [Eu _].
  destruct (Nat.eqb_spec (v_opds w) (vf_height top)) as [Eo|]; [|discriminate].
  inversion H; subst x; clear H. cbn [snd v_unreach v_ctrls]. rewrite Eu, E2, B, Eo, Nat.eqb_refl.
  splits; auto. unfold clen. cbn. rewrite A. reflexivity.
Qed.

Lemma pop_ctrl_live v x : v_unreach v = None -> v_pop_ctrl v = Some x -> v_unreach (snd x) = None /\ S (clen (snd x)) = clen v.
Proof.
  intros Hu H. split; [apply (pop_ctrl_un v x (or_introl Hu) H)|].
  unfold v_pop_ctrl in H. destruct (v_ctrls v) as [|f rest] eqn:Ec; [discriminate|].
  destruct (v_popn (bt_arity (vf_end f)) v) as [w|]; [|discriminate].
  destruct (v_opds w =? vf_height f)%nat; [|discriminate]. inversion H; subst x. unfold clen. cbn. rewrite Ec. reflexivity.
Qed.

Lemma reach_dead vt vd : deadrel vt vd -> v_reachability vd = v_reachability vt.
Proof. intros [B A]. unfold v_reachability. rewrite A, B. reflexivity. Qed.

Lemma handle_delim_last cx a b w reach d : (d = OEnd \/ d = OElse) -> set_last a None = set_last b None ->
  handle_opcode cx a w reach d = handle_opcode cx b w reach d.
Proof.
  intros [-> | ->] H; unfold handle_opcode; cbv beta iota zeta; rewrite H; reflexivity.
Qed.

(** number of frames before a delimiter, from the number after it *)
Definition before (d : opcode) (j : nat) : nat := match d with OEnd => S j | _ => j end.

(** a delimiter looks at the validation state only through [v_pop_ctrl] *)
Lemma vstep_delim cx d v w : (d = OEnd \/ d = OElse) -> vstep cx v d = Some w ->
  exists x, v_pop_ctrl v = Some x /\ v_unreach w = v_unreach (snd x) /\ before d (clen w) = S (clen (snd x))
            /\ forall v2, v_pop_ctrl v2 = Some x -> vstep cx v2 d = Some w.
Proof.
  intros [-> | ->] H; cbn [vstep] in H.
  - destruct (v_pop_ctrl v) as [[[res isif] v2]|]; [|discriminate]. inversion H; subst w. eexists. split; [reflexivity|].
    destruct (pushn_same (bt_arity res) v2) as [E1 E2]. splits; [exact E1|cbn; unfold clen; rewrite E2; reflexivity|].
    intros v3 E. cbn [vstep]. rewrite E. reflexivity.
  - destruct (v_pop_ctrl v) as [[[res [|]] v2]|]; try discriminate. inversion H; subst w. eexists. split; [reflexivity|].
    splits; [reflexivity|reflexivity|]. intros v3 E. cbn [vstep]. rewrite E. reflexivity.
Qed.

Lemma close_delim cx d v' s' v'' s'' w s3 : (d = OEnd \/ d = OElse) -> srel v' s' v'' s'' ->
  vstep cx v' d = Some w -> handle_opcode cx s' w (v_reachability v') d = Some s3 ->
  vstep cx v'' d = Some w /\ handle_opcode cx s'' w (v_reachability v'') d = Some s3
  /\ v_unreach w = None /\ before d (clen w) = clen v'.
Proof.
  intros Hd Sr Ev Eh. destruct (vstep_delim cx d v' w Hd Ev) as (x & Ep & -> & -> & Hx).
  destruct Sr as [(-> & -> & Hu)|(T & Dr & El)].
  - destruct (pop_ctrl_live v' x Hu Ep) as [Hux Hlx]. auto.
  - destruct (pop_ctrl_dead v'' v' x T Dr Ep) as (Ep' & Hux & Hlx).
    rewrite <- (reach_dead _ _ Dr), <- (handle_delim_last cx s' s'' w _ d Hd El), Hlx.
    splits; auto. symmetry. apply (clen_same _ _ Dr).
Qed.

(** ** compiling a body = compiling its stripped form (up to the dead tail's effect on the validation
    state, which the closing delimiter removes).  [strips cx j X X2]: from a live state with more than [j]
    frames, compiling [X] ends [j] frames lower, and compiling [X2] ends in a state related by [srel]. *)
Definition strips (cx : cctx) (j : nat) (X X2 : list opcode) : Prop := forall v s v' s',
  v_unreach v = None -> (j < clen v)%nat -> compile_ops cx X v s = Some (v', s') ->
  (clen v' + j)%nat = clen v /\ exists v'' s'', compile_ops cx X2 v s = Some (v'', s'') /\ srel v' s' v'' s''.

Lemma strips_nil cx : strips cx 0 [] [].
Proof. intros v s v' s' Hu _ Hc. inversion Hc; subst. split; [lia|]. exists v', s'. split; [reflexivity|]. left. auto. Qed.

Lemma strips_step cx j j1 op Y Y2 :
  (forall v va, v_unreach v = None -> vstep cx v op = Some va -> v_unreach va = None /\ (clen va + j = clen v + j1)%nat) ->
  strips cx j1 Y Y2 -> strips cx j (op :: Y) (op :: Y2).
Proof.
  intros Hop HY v s v' s' Hu Hl Hc. destruct (compile_cons _ _ _ _ _ _ _ Hc) as (va & sa & Ev & Eh & Hc').
  destruct (Hop v va Hu Ev) as [Hua Hla].
  destruct (HY va sa v' s' Hua ltac:(lia) Hc') as (A & v'' & s'' & B & C0). split; [lia|].
  exists v'', s''. split; [|exact C0]. cbn [compile_ops]. rewrite Ev, Eh. exact B.
Qed.

Lemma strips_live cx j b Y Y2 : term_b b = false -> strips cx j Y Y2 -> strips cx j (OBasic b :: Y) (OBasic b :: Y2).
Proof.
  intros Ht. apply strips_step. intros v va Hu Ev. pose proof (live_basic cx v b va Ht Ev) as Dr.
  rewrite (clen_same _ _ Dr). destruct Dr as [E _]. split; [congruence|reflexivity].
Qed.

Lemma strips_open cx j op Y Y2 : opener op -> strips cx (S j) Y Y2 -> strips cx j (op :: Y) (op :: Y2).
Proof.
  intros Ho. apply strips_step. intros v va Hu Ev. destruct (open_live cx op v va Ho Hu Ev) as [Hua Hla].
  split; [exact Hua|lia].
Qed.

Lemma strips_term cx b R : term_b b = true -> depth 0 R = Some O -> strips cx 0 (OBasic b :: R) [OBasic b].
Proof.
  intros Ht Hd v s v' s' Hu Hl Hc. destruct (compile_cons _ _ _ _ _ _ _ Hc) as (v1 & s1 & Ev & Eh & Hc').
  destruct (term_basic cx v b v1 Ht Hu Hl Ev) as [T L1].
  pose proof T as (top & r & A & B & C0 & D).
  assert (D0 : DI top r 0 v1) by (exists []; cbn; auto).
  destruct (dead_ops cx top r C0 R 0%nat 0%nat v1 s1 v' s' Hd D0 Hc') as [(inner & Li & A' & B') El].
  destruct inner; [|discriminate Li]. cbn [app] in A'.
  split; [unfold clen in *; rewrite A'; rewrite A in L1; lia|].
  exists v1, s1. split; [cbn [compile_ops]; rewrite Ev, Eh; reflexivity|].
  right. split; [exact T|]. split; [split; congruence|exact El].
Qed.

Lemma strips_delim cx d j B B2 Y Y2 : (d = OEnd \/ d = OElse) ->
  strips cx 0 B B2 -> strips cx j Y Y2 -> strips cx (before d j) (B ++ d :: Y) (B2 ++ d :: Y2).
Proof.
  intros Hd HB HY v s v' s' Hu Hl Hc.
  destruct (compile_app_inv _ _ _ _ _ _ _ Hc) as (vb & sb & Hcb & Hc').
  destruct (HB v s vb sb Hu ltac:(lia) Hcb) as (Lb & vb2 & sb2 & Hcb2 & Srb).
  destruct (compile_cons _ _ _ _ _ _ _ Hc') as (w & s3 & Ev & Eh & Hcr).
  destruct (close_delim cx d vb sb vb2 sb2 w s3 Hd Srb Ev Eh) as (Ev2 & Eh2 & Huw & Lw).
  assert (Hj : (j < clen w)%nat) by (destruct Hd as [-> | ->]; cbn [before] in *; lia).
  destruct (HY w s3 v' s' Huw Hj Hcr) as (A & v'' & s'' & Hc2 & Sr).
  split; [destruct Hd as [-> | ->]; cbn [before] in *; lia|].
  exists v'', s''. split; [|exact Sr]. rewrite compile_ops_app, Hcb2. cbn [compile_ops]. rewrite Ev2, Eh2. exact Hc2.
Qed.

Lemma flatten_if_else bt thn els rest : els <> [] ->
  flatten (If bt thn els :: rest) = OIf bt :: flatten thn ++ OElse :: flatten els ++ OEnd :: flatten rest.
Proof. destruct els; [contradiction|]. intros _. apply flatten_if2. Qed.

Lemma strip_compile cx : forall is, strips cx 0 (flatten is) (flatten (strip is)).
Proof.
  induction is as [|b r IHr|bt body r IHb IHr|bt body r IHb IHr|bt thn els r IHt IHe IHr] using instrs_ind.
  - apply strips_nil.
  - change (flatten (Basic b :: r)) with (OBasic b :: flatten r). destruct (term_b b) eqn:Et.
    + rewrite (strip_cons_term b r Et). apply (strips_term cx b _ Et (depth_flatten r 0%nat)).
    + rewrite (strip_cons_live (Basic b) r Et). apply (strips_live cx 0 b _ _ Et IHr).
  - rewrite (strip_cons_live (Block bt body) r eq_refl), strip_block, !flatten_block.
    apply (strips_open cx 0 (OBlock bt) _ _ I), (strips_delim cx OEnd 0 _ _ _ _ (or_introl eq_refl) IHb IHr).
  - rewrite (strip_cons_live (Loop bt body) r eq_refl), strip_loop, !flatten_loop.
    apply (strips_open cx 0 (OLoop bt) _ _ I), (strips_delim cx OEnd 0 _ _ _ _ (or_introl eq_refl) IHb IHr).
  - rewrite (strip_cons_live (If bt thn els) r eq_refl), strip_if. destruct els as [|e els].
    + rewrite !flatten_if1. apply (strips_open cx 0 (OIf bt) _ _ I), (strips_delim cx OEnd 0 _ _ _ _ (or_introl eq_refl) IHt IHr).
    + rewrite !flatten_if_else by (rewrite ?strip_nil_iff; discriminate).
      apply (strips_open cx 0 (OIf bt) _ _ I), (strips_delim cx OElse 1 _ _ _ _ (or_intror eq_refl) IHt).
      apply (strips_delim cx OEnd 0 _ _ _ _ (or_introl eq_refl) IHe IHr).
Qed.

(** whole function body incl. the final [end]: identical compilation result *)
Theorem strip_compile_body cx is v s v' s' :
  v_unreach v = None -> (0 < clen v)%nat ->
  compile_ops cx (flatten_body is) v s = Some (v', s') ->
  compile_ops cx (flatten_body (strip is)) v s = Some (v', s').
Proof.
  intros Hu Hl Hc. unfold flatten_body in *.
  destruct (compile_app_inv _ _ _ _ _ _ _ Hc) as (vb & sb & Hcb & Hc').
  destruct (strip_compile cx is v s vb sb Hu Hl Hcb) as (_ & vb2 & sb2 & Hcb2 & Sr).
  destruct (compile_cons _ _ _ _ _ _ _ Hc') as (w & s3 & Ev & Eh & Hcr). cbn in Hcr. inversion Hcr; subst w s3; clear Hcr.
  destruct (close_delim cx OEnd vb sb vb2 sb2 v' s' (or_introl eq_refl) Sr Ev Eh) as (Ev2 & Eh2 & _).
  rewrite compile_ops_app, Hcb2. cbn [compile_ops]. rewrite Ev2, Eh2. reflexivity.
Qed.
