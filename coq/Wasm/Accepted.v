(** * Wasm/Accepted — accepted modules never get stuck on the reference semantics:
    [validate_module] (model of validate.rs) + [validate_sound] + type soundness of [Wasm/Sem.v]. *)
From Coq Require Import ZArith NArith List Bool Arith Lia.
From CB Require Import Wasm.Syntax Wasm.Validate Wasm.ValidateLimits
  Wasm.ValidateProofs Wasm.Sem Wasm.TypeSound.
Import ListNotations.

Definition expand_locals (ls : list (N * valtype)) : list valtype :=
  flat_map (fun '(n, t) => repeat t (N.to_nat n)) ls.

(** [m] is the decoded form of the validated module [vm]: same index spaces, bodies = the
    structured form of the flat code, declared locals expanded. *)
Record corresponds (vm : vmodule) (m : module) : Prop := {
  co_types : m_types m = vm_types vm;
  co_imports : m_imports m = vm_imports vm;
  co_funcs : Forall2 (fun vf f => f_type f = mf_type vf /\ f_locals f = expand_locals (mf_locals vf) /\
                                  structure_body (map fst (mf_body vf)) = Some (f_body f))
                     (vm_funcs vm) (m_funcs m);
  co_globals : map (fun g => (type_of_val (g_init g), g_mut g)) (m_globals m) = vm_globals vm;
  co_table : m_table m = vm_table vm;
  co_mem : match m_mem m, vm_mem vm with
           | Some l, Some (mn, mx) => l_min l = mn /\ l_max l = mx
           | None, None => True
           | _, _ => False
           end;
  co_elems : map (fun '(off, fs) => (off, map N.of_nat fs)) (m_elems m) = vm_elems vm;
  co_data : map (fun '(off, bs) => (off, N.of_nat (length bs))) (m_data m) = vm_data vm
}.

(** no function continues after the [end] that closes it (the class KF-C09-1) *)
Definition no_trailing (signext : bool) (vm : vmodule) : Prop :=
  forall vf ft locals, In vf (vm_funcs vm) -> nth_error (vm_types vm) (mf_type vf) = Some ft ->
    make_locals (ft_params ft) (mf_locals vf) = Some locals ->
    ends_early (func_ctx signext vm ft locals) (mf_body vf) = false.

Lemma Forall2_in_r {A B} (R : A -> B -> Prop) l1 l2 y : Forall2 R l1 l2 -> In y l2 -> exists x, In x l1 /\ R x y.
Proof.
  induction 1 as [|a b l1 l2 Hab HF IH]; cbn; [tauto|]. intros [<-|H]; [eauto|].
  destruct (IH H) as (x & Hx & Hr). eauto.
Qed.
Lemma Forall2_map_eq {A B C} (f : A -> C) (g : B -> C) l1 l2 :
  Forall2 (fun a b => g b = f a) l1 l2 -> map f l1 = map g l2.
Proof. induction 1; cbn; congruence. Qed.

Section Acc.
Variables (signext : bool) (vm : vmodule) (m : module).
Hypothesis VAL : validate_module signext vm = true.
Hypothesis NT : no_trailing signext vm.
Hypothesis CO : corresponds vm m.

Lemma co_ftypes : map mf_type (vm_funcs vm) = map f_type (m_funcs m).
Proof. pose proof (co_funcs _ _ CO) as H. induction H as [|vf f l1 l2 (E & _) _ IH]; cbn; congruence. Qed.

Lemma accepted_indices : Forall (fun ti => ti < length (m_types m))%nat (m_imports m ++ map f_type (m_funcs m)).
Proof.
  pose proof VAL as H. unfold validate_module in H. rewrite !andb_true_iff in H.
  destruct H as [[[[[[[[[Himp _] _] _] Hfun] _] _] _] _] _].
  rewrite (co_types _ _ CO), (co_imports _ _ CO), <- co_ftypes. apply Forall_app. split.
  - apply Forall_forall. intros ti Hin. rewrite forallb_forall in Himp. specialize (Himp _ Hin).
    apply nth_error_Some. destruct (nth_error (vm_types vm) ti); congruence.
  - apply Forall_forall. intros ti Hin. apply in_map_iff in Hin. destruct Hin as (vf & <- & Hin).
    rewrite forallb_forall in Hfun. specialize (Hfun _ Hin). unfold validate_mfunc, obind in Hfun.
    apply nth_error_Some. destruct (nth_error (vm_types vm) (mf_type vf)); congruence.
Qed.

Lemma make_locals_eq params ls locals : make_locals params ls = Some locals -> locals = params ++ expand_locals ls.
Proof. unfold make_locals. destruct (_ <=? _)%N; [|discriminate]. intros E; inversion E; reflexivity. Qed.

Lemma accepted_module_ok : module_ok m.
Proof.
  constructor; [exact accepted_indices|].
  intros fn ft Hin HT.
  destruct (Forall2_in_r _ _ _ _ (co_funcs _ _ CO) Hin) as (vf & Hvf & E1 & E2 & E3).
  destruct (validate_module_sound_thm _ _ VAL vf Hvf) as (ft' & locals & h & T & ML & _ & _ & _ & HB).
  rewrite (co_types _ _ CO), E1, T in HT. inversion HT; subst ft'.
  destruct (HB (NT _ _ _ Hvf T ML)) as (is & SB & BO). rewrite E3 in SB. inversion SB; subst is.
  replace (fctx m ft fn) with (tctx_of (func_ctx signext vm ft locals)); [exact BO|].
  unfold tctx_of, fctx, func_ctx, ftypes, gtypes, has_mem, has_table. cbn.
  rewrite (co_types _ _ CO), (co_imports _ _ CO), co_ftypes, (co_globals _ _ CO), (co_table _ _ CO), E2.
  rewrite (make_locals_eq _ _ _ ML).
  pose proof (co_mem _ _ CO) as CM.
  destruct (m_mem m), (vm_mem vm) as [[]|]; try contradiction; reflexivity.
Qed.

Lemma accepted_segments_ok : segments_ok m.
Proof.
  pose proof (validate_module_limits_thm _ _ VAL) as ML.
  pose proof accepted_module_ok as MOK.
  split.
  - intros off fs Hin.
    assert (Hin' : In (off, map N.of_nat fs) (vm_elems vm)).
    { rewrite <- (co_elems _ _ CO). apply (in_map (fun '(off, fs) => (off, map N.of_nat fs)) _ _ Hin). }
    destruct (vm_table vm) as [sz|] eqn:ET.
    2:{ exfalso. apply (ml_elems_table _ ML); [intros E; rewrite E in Hin'; exact Hin'|exact ET]. }
    destruct (ml_elems _ ML _ _ _ Hin' ET) as [B V]. exists sz. split; [rewrite (co_table _ _ CO); exact ET|].
    rewrite map_length in B. split; [lia|].
    apply Forall_forall. intros fi Hfi. rewrite func_type_ftypes by exact MOK.
    rewrite Forall_forall in V. specialize (V (N.of_nat fi) (in_map _ _ _ Hfi)).
    apply nth_error_Some. unfold ftypes. rewrite map_length, app_length, map_length.
    rewrite (co_imports _ _ CO). rewrite <- (map_length f_type), <- co_ftypes, map_length. lia.
  - pose proof (co_mem _ _ CO) as CM.
    destruct (m_mem m) as [l|] eqn:EM; destruct (vm_mem vm) as [[mn mx]|] eqn:EV; try contradiction.
    + destruct CM as [C1 C2]. intros off bs Hin.
      assert (Hin' : In (off, N.of_nat (length bs)) (vm_data vm)).
      { rewrite <- (co_data _ _ CO). apply (in_map (fun '(off, bs) => (off, N.of_nat (length bs))) _ _ Hin). }
      destruct (ml_data _ ML _ _ _ _ Hin' EV) as [B _].
      pose proof limits_consistent as (_ & _ & _ & _ & _ & LC6 & _). rewrite LC6 in B. rewrite C1. exact B.
    + destruct (vm_data vm) eqn:ED.
      * pose proof (co_data _ _ CO) as CD. rewrite ED in CD. destruct (m_data m); [reflexivity|discriminate].
      * exfalso. apply (ml_data_mem _ ML); [rewrite ED; discriminate|exact EV].
Qed.
End Acc.

(** Props/C09 [accepted_never_stuck]: a module accepted by the validation model (and outside KF-C09-1)
    instantiates, and invoking any of its functions with arguments of the parameter types never
    reaches the [Stuck] outcome of the reference semantics, for every fuel, every embedder page
    cap and every host whose functions respect their declared types. *)
Theorem accepted_never_stuck_thm signext vm m host page_cap fuel fi args ft :
  validate_module signext vm = true -> no_trailing signext vm -> corresponds vm m ->
  host_ok host m ->
  nth_error (ftypes m) fi = Some ft -> map type_of_val args = ft_params ft ->
  run host page_cap m fuel fi args <> Stuck.
Proof.
  intros VAL NT CO HOK HF HA.
  eapply run_never_stuck_thm; eauto.
  - eapply accepted_module_ok; eauto.
  - eapply accepted_segments_ok; eauto.
Qed.
