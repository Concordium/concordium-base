(** What [parse_artifact] accepts, and the exact normal form.

    [parse_artifact] ([Wasm/ArtifactCodec.v]) accepts more byte strings than [output_artifact]
    produces: LEB128 numbers may be over-long (within the byte budget) and the export list may be
    in any order (it is inserted into a [BTreeMap]).  These are the only two sources of
    non-canonicity: the strict parser, which differs in exactly these two points, accepts exactly
    the serialisations of well-formed artifacts.

    To state "the same parser except ..." without copying it, the parser is written once more with
    its four LEB128 readers and the export normaliser as arguments ([g_artifact]);
    [g_artifact_loose] shows that instantiating it with the readers of parse.rs gives
    [parse_artifact] back (by computation), and [parse_artifact_strict] is the instance with the
    strict readers.  Each property of the format is one pass over [g_artifact] with the readers as
    variables. *)
From Coq Require Import NArith List Bool Lia.
From CB Require Import Wasm.Syntax Wasm.Leb128 Wasm.Leb128Proofs Wasm.Leb128Signed
                       Wasm.ArtifactCodec Wasm.ArtifactCodecProofs.
Import ListNotations.
Local Open Scope N_scope.

Definition bytes_ok (bs : list N) : Prop := Forall (fun b => b < 256) bs.

Section Gen.
  Variables (du16 du32 : dec N) (ds32 ds64 : dec Z).
  Variable norm : list (list N * N) -> option (list (list N * N)).

  Definition g_vec {A} (d : dec A) : dec (list A) := do n <- du32; p_many d n.
  Definition g_bytes : dec (list N) := do n <- du32; p_take n.
  Definition g_valtypes : dec (list valtype) :=
    do bs <- g_bytes; match valtypes_of_bytes bs with Some ts => ret ts | None => fail end.
  Definition g_functype : dec functype :=
    do b <- p_byte;
    if b =? 0x60 then
      do ps <- g_vec p_valtype;
      do rs <- g_vec p_valtype;
      match rs with
      | [] => ret {| ft_params := ps; ft_result := None |}
      | [t] => ret {| ft_params := ps; ft_result := Some t |}
      | _ => fail
      end
    else fail.
  Definition g_name : dec (list N) := do l <- g_bytes; if name_ok l then ret l else fail.
  Definition g_import : dec s_import :=
    do m <- g_name; do i <- g_name; do t <- g_functype;
    ret {| si_mod := m; si_item := i; si_ty := t |}.
  Definition g_local : dec s_local :=
    do m <- du16; do t <- p_valtype; ret {| sl_mult := m; sl_ty := t |}.
  Definition g_data : dec s_data :=
    do o <- ds32; do i <- g_bytes; ret {| sd_offset := o; sd_init := i |}.
  Definition g_memory : dec s_memory :=
    do i <- du32; do m <- du32; do d <- g_vec g_data;
    ret {| sm_init := i; sm_max := m; sm_data := d |}.
  Definition g_ginit : dec s_ginit :=
    do t <- p_byte;
    if t =? 0 then (do z <- ds32; ret (GI32 z))
    else if t =? 1 then (do z <- ds64; ret (GI64 z)) else fail.
  Definition g_export : dec (list N * N) := do n <- g_name; do i <- du32; ret (n, i).
  Definition g_func : dec s_func :=
    do ti <- du32; do rt <- p_blocktype; do ps <- g_valtypes;
    do nl <- du32; do ls <- g_vec g_local;
    do nr <- du32; do cs <- g_vec ds64; do code <- g_bytes;
    ret {| sf_type_idx := ti; sf_return := rt; sf_params := ps; sf_num_locals := nl;
           sf_locals := ls; sf_num_registers := nr; sf_constants := cs; sf_code := code |}.
  Definition g_artifact : dec s_artifact :=
    do v <- p_byte;
    if v =? 255 then
      do ni <- du16;
      do imports <- p_many g_import ni;
      do types <- g_vec g_functype;
      do table <- g_vec (p_option du32);
      do memory <- p_option g_memory;
      do globals <- g_vec g_ginit;
      do raw <- g_vec g_export;
      match norm raw with
      | Some exports =>
          do code <- g_vec g_func;
          ret {| sa_imports := imports; sa_types := types; sa_table := table; sa_memory := memory;
                 sa_globals := globals; sa_exports := exports; sa_code := code |}
      | None => fail
      end
    else fail.
End Gen.

(** with the readers of parse.rs this is [parse_artifact], definitionally *)
Lemma g_artifact_loose :
  g_artifact decode_u16 decode_u32 decode_s32 decode_s64 normalise = parse_artifact.
Proof. reflexivity. Qed.

Fixpoint prefixb (p bs : list N) : bool :=
  match p, bs with
  | [], _ => true
  | x :: p', y :: bs' => (x =? y) && prefixb p' bs'
  | _ :: _, [] => false
  end.
(** [strict d o]: read with [d], and require the input to start with the canonical encoding [o a]
    of the value read *)
Definition strict {A} (d : dec A) (o : A -> list N) : dec A := fun bs =>
  match d bs with
  | Some (a, r) => if prefixb (o a) bs then Some (a, r) else None
  | None => None
  end.
Definition strict_u16 : dec N := strict decode_u16 out_u16.
Definition strict_u32 : dec N := strict decode_u32 out_u32.
Definition strict_s32 : dec Z := strict decode_s32 out_i32.
Definition strict_s64 : dec Z := strict decode_s64 out_i64.
(** the export list must already be in map order *)
Definition norm_strict (l : list (list N * N)) : option (list (list N * N)) :=
  if sorted_namesb l then Some l else None.

Definition parse_artifact_strict : list N -> option (s_artifact * list N) :=
  g_artifact strict_u16 strict_u32 strict_s32 strict_s64 norm_strict.

Definition Refines {A} (ds d : dec A) : Prop := forall bs x, ds bs = Some x -> d bs = Some x.

Lemma Refines_refl {A} (d : dec A) : Refines d d.
Proof. intros bs x H. exact H. Qed.
Lemma Refines_fail_l {A} (d : dec A) : Refines fail d.
Proof. intros bs x H. discriminate. Qed.
Lemma Refines_bind {A B} (ds d : dec A) (ks k : A -> dec B) :
  Refines ds d -> (forall a, Refines (ks a) (k a)) -> Refines (bind ds ks) (bind d k).
Proof.
  intros H1 H2 bs x. unfold bind. destruct (ds bs) as [[a r]|] eqn:E; [|discriminate].
  rewrite (H1 _ _ E). apply H2.
Qed.
Lemma Refines_strict {A} (d : dec A) o : Refines (strict d o) d.
Proof.
  intros bs x. unfold strict. destruct (d bs) as [[a r]|]; [|discriminate].
  destruct (prefixb (o a) bs); [auto|discriminate].
Qed.
Lemma Refines_many_nat {A} (ds d : dec A) : Refines ds d -> forall n, Refines (p_many_nat ds n) (p_many_nat d n).
Proof.
  intros H. induction n as [|n IH]; intros bs x; cbn [p_many_nat]; [auto|].
  destruct (ds bs) as [[a r]|] eqn:E; [|discriminate]. rewrite (H _ _ E).
  destruct (p_many_nat ds n r) as [[l r']|] eqn:E2; [|discriminate]. rewrite (IH _ _ E2). auto.
Qed.
Lemma Refines_many {A} (ds d : dec A) n : Refines ds d -> Refines (p_many ds n) (p_many d n).
Proof. intros H bs x. rewrite !p_many_eq_nat. apply Refines_many_nat. exact H. Qed.
Lemma Refines_option {A} (ds d : dec A) : Refines ds d -> Refines (p_option ds) (p_option d).
Proof.
  intros H. unfold p_option. apply Refines_bind; [apply Refines_refl|]. intros t.
  destruct (t =? 0); [apply Refines_refl|]. destruct (t =? 1); [|apply Refines_refl].
  apply Refines_bind; [exact H|]. intros v. apply Refines_refl.
Qed.

Ltac ref_tac :=
  repeat first
    [ assumption | apply Refines_refl | solve [auto with refdb]
    | match goal with |- Refines (if ?c then _ else _) _ => destruct c end
    | match goal with |- Refines (match ?x with _ => _ end) _ => destruct x end
    | apply Refines_bind; [|intros ?] ].

Section Sound.
  Variables (su16 su32 : dec N) (ss32 ss64 : dec Z) (norm_s : list (list N * N) -> option (list (list N * N))).
  Variables (lu16 lu32 : dec N) (ls32 ls64 : dec Z) (norm_l : list (list N * N) -> option (list (list N * N))).
  Hypothesis H16 : Refines su16 lu16.
  Hypothesis H32 : Refines su32 lu32.
  Hypothesis Hs32 : Refines ss32 ls32.
  Hypothesis Hs64 : Refines ss64 ls64.
  Hypothesis Hnorm : forall l e, norm_s l = Some e -> norm_l l = Some e.

  Lemma gR_vec {A} (ds d : dec A) : Refines ds d -> Refines (g_vec su32 ds) (g_vec lu32 d).
  Proof. intros H. unfold g_vec. apply Refines_bind; [exact H32|]. intros n. apply Refines_many. exact H. Qed.
  Lemma gR_bytes : Refines (g_bytes su32) (g_bytes lu32).
  Proof. unfold g_bytes. ref_tac. Qed.
  Hint Resolve gR_vec gR_bytes Refines_option Refines_many : refdb.
  Lemma gR_valtypes : Refines (g_valtypes su32) (g_valtypes lu32).
  Proof. unfold g_valtypes. ref_tac. Qed.
  Lemma gR_functype : Refines (g_functype su32) (g_functype lu32).
  Proof. unfold g_functype. ref_tac. Qed.
  Lemma gR_name : Refines (g_name su32) (g_name lu32).
  Proof. unfold g_name. ref_tac. Qed.
  Hint Resolve gR_valtypes gR_functype gR_name : refdb.
  Lemma gR_import : Refines (g_import su32) (g_import lu32).
  Proof. unfold g_import. ref_tac. Qed.
  Lemma gR_local : Refines (g_local su16) (g_local lu16).
  Proof. unfold g_local. ref_tac. Qed.
  Lemma gR_data : Refines (g_data su32 ss32) (g_data lu32 ls32).
  Proof. unfold g_data. ref_tac. Qed.
  Hint Resolve gR_import gR_local gR_data : refdb.
  Lemma gR_memory : Refines (g_memory su32 ss32) (g_memory lu32 ls32).
  Proof. unfold g_memory. ref_tac. Qed.
  Lemma gR_ginit : Refines (g_ginit ss32 ss64) (g_ginit ls32 ls64).
  Proof. unfold g_ginit. ref_tac. Qed.
  Lemma gR_export : Refines (g_export su32) (g_export lu32).
  Proof. unfold g_export. ref_tac. Qed.
  Lemma gR_func : Refines (g_func su16 su32 ss64) (g_func lu16 lu32 ls64).
  Proof. unfold g_func. ref_tac. Qed.
  Hint Resolve gR_memory gR_ginit gR_export gR_func : refdb.

  Lemma gR_artifact :
    Refines (g_artifact su16 su32 ss32 ss64 norm_s) (g_artifact lu16 lu32 ls32 ls64 norm_l).
  Proof.
    unfold g_artifact.
    apply Refines_bind; [apply Refines_refl|intros v]. destruct (v =? 255); [|apply Refines_refl].
    apply Refines_bind; [exact H16|intros ni].
    apply Refines_bind; [ref_tac|intros imports].
    apply Refines_bind; [ref_tac|intros types].
    apply Refines_bind; [ref_tac|intros table].
    apply Refines_bind; [ref_tac|intros memory].
    apply Refines_bind; [ref_tac|intros globals].
    apply Refines_bind; [ref_tac|intros raw].
    destruct (norm_s raw) as [e|] eqn:E; [rewrite (Hnorm _ _ E)|apply Refines_fail_l].
    ref_tac.
  Qed.
End Sound.

Lemma norm_strict_normalise l e : norm_strict l = Some e -> normalise l = Some e.
Proof.
  unfold norm_strict. destruct (sorted_namesb l) eqn:S; [|discriminate]. intros H. inversion H; subst.
  apply normalise_sorted. apply sorted_namesb_iff. exact S.
Qed.

Theorem strict_sound_thm : forall bs x, parse_artifact_strict bs = Some x -> parse_artifact bs = Some x.
Proof.
  intros bs x. rewrite <- g_artifact_loose. unfold parse_artifact_strict.
  apply gR_artifact; try apply Refines_strict. exact norm_strict_normalise.
Qed.

(** round trip for any readers that invert the canonical encoders *)
Section Complete.
  Variables (du16 du32 : dec N) (ds32 ds64 : dec Z) (norm : list (list N * N) -> option (list (list N * N))).
  Hypothesis R16 : RT out_u16 du16 wf_u16.
  Hypothesis R32 : RT out_u32 du32 wf_u32.
  Hypothesis Rs32 : RT out_i32 ds32 wf_i32.
  Hypothesis Rs64 : RT out_i64 ds64 wf_i64.
  Hypothesis Rnorm : forall l, sorted_names l -> norm l = Some l.

  Lemma gRT_vec {A} (o : A -> list N) d P : RT o d P -> RT (out_vec o) (g_vec du32 d) (fun l => wf_len l /\ Forall P l).
  Proof.
    intros R l rest [L F]. unfold g_vec, out_vec. rt R32. apply RT_many with (P := P); auto.
  Qed.
  Lemma gRT_bytes : RT out_bytes (g_bytes du32) wf_len.
  Proof.
    intros l rest L. unfold g_bytes, out_bytes. rt R32. unfold p_take.
    rewrite (proj2 (N.leb_le _ _)) by (rewrite app_length; lia).
    rewrite Nat2N.id, firstn_length_app, skipn_length_app. reflexivity.
  Qed.
  Lemma gRT_valtypes : RT out_valtypes (g_valtypes du32) wf_len.
  Proof.
    intros ts rest L. unfold g_valtypes, out_valtypes.
    rt gRT_bytes; [|unfold wf_len; rewrite map_length; exact L].
    rewrite valtypes_of_bytes_map. reflexivity.
  Qed.
  Lemma gRT_functype : RT out_functype (g_functype du32) wf_functype.
  Proof.
    intros [ps r] rest W. unfold wf_functype in W. cbn [ft_params] in W.
    unfold g_functype, out_functype. cbn [ft_params ft_result app].
    unfold bind at 1, p_byte. rewrite N.eqb_refl.
    rt (gRT_vec out_valtype p_valtype (fun _ => True) RT_valtype);
      [|split; [exact W|apply Forall_forall; auto]].
    destruct r as [t|].
    - change (out_option out_valtype (Some t) ++ rest) with (out_vec out_valtype [t] ++ rest).
      rt (gRT_vec out_valtype p_valtype (fun _ => True) RT_valtype); [reflexivity|].
      split; [reflexivity|auto].
    - change (out_option out_valtype None ++ rest) with (out_vec out_valtype (@nil valtype) ++ rest).
      rt (gRT_vec out_valtype p_valtype (fun _ => True) RT_valtype); [reflexivity|].
      split; [reflexivity|auto].
  Qed.
  Lemma gRT_name : RT out_name (g_name du32) wf_name.
  Proof.
    intros l rest W. unfold g_name, out_name. rt gRT_bytes; [|apply wf_name_len; exact W].
    rewrite (proj2 (name_ok_iff l) W). reflexivity.
  Qed.
  Lemma gRT_import : RT out_import (g_import du32) wf_import.
  Proof.
    intros [m i t] rest (Wm & Wi & Wt). cbn [si_mod si_item si_ty] in *.
    unfold g_import, out_import. cbn [si_mod si_item si_ty].
    rt gRT_name. rt gRT_name. rt gRT_functype. reflexivity.
  Qed.
  Lemma gRT_local : RT out_local (g_local du16) wf_local.
  Proof.
    intros [m t] rest W. unfold wf_local in W. cbn [sl_mult] in W.
    unfold g_local, out_local. cbn [sl_mult sl_ty].
    rt R16. cbn [app]. unfold bind. rewrite (RT_valtype t rest I : p_valtype (valtype_byte t :: rest) = _). reflexivity.
  Qed.
  Lemma gRT_data : RT out_data (g_data du32 ds32) wf_data.
  Proof.
    intros [o i] rest (Wo & Wi & _). cbn [sd_offset sd_init] in *.
    unfold g_data, out_data. cbn [sd_offset sd_init].
    rt Rs32. rt gRT_bytes. reflexivity.
  Qed.
  Lemma gRT_memory : RT out_memory (g_memory du32 ds32) wf_memory.
  Proof.
    intros [i m d] rest (Wi & Wm & Wl & Wd). cbn [sm_init sm_max sm_data] in *.
    unfold g_memory, out_memory. cbn [sm_init sm_max sm_data].
    rt R32. rt R32. rt (gRT_vec _ _ _ gRT_data). reflexivity.
  Qed.
  Lemma gRT_ginit : RT out_ginit (g_ginit ds32 ds64) wf_ginit.
  Proof.
    intros [z|z] rest W; unfold g_ginit, out_ginit; cbn [app wf_ginit] in *; unfold bind at 1, p_byte.
    - change (0 =? 0) with true. cbv iota. rt Rs32. reflexivity.
    - change (1 =? 0) with false. change (1 =? 1) with true. cbv iota. rt Rs64. reflexivity.
  Qed.
  Lemma gRT_export : RT out_export (g_export du32) wf_export.
  Proof.
    intros [n i] rest (Wn & Wi). cbn [fst snd] in *.
    unfold g_export, out_export. cbn [fst snd].
    rt gRT_name. rt R32. reflexivity.
  Qed.
  Lemma gRT_func : RT out_func (g_func du16 du32 ds64) wf_func.
  Proof.
    intros [ti rt ps nl ls nr cs code] rest (W1 & W2 & W3 & W4 & W5 & W6 & W7 & _).
    cbn [sf_type_idx sf_return sf_params sf_num_locals sf_locals sf_num_registers sf_constants sf_code] in *.
    unfold g_func, out_func.
    cbn [sf_type_idx sf_return sf_params sf_num_locals sf_locals sf_num_registers sf_constants sf_code].
    rt R32. rt RT_blocktype. rt gRT_valtypes. rt R32. rt (gRT_vec _ _ _ gRT_local).
    rt R32. rt (gRT_vec _ _ _ Rs64). rt gRT_bytes. reflexivity.
  Qed.
  Lemma gRT_artifact : RT output_artifact (g_artifact du16 du32 ds32 ds64 norm) wf_artifact.
  Proof.
    intros [imports types table memory globals exports code] rest
           ((Wi1 & Wi2) & Wt & Wtab & Wmem & Wg & (We1 & We2 & We3) & Wc).
    cbn [sa_imports sa_types sa_table sa_memory sa_globals sa_exports sa_code] in *.
    unfold g_artifact, output_artifact.
    cbn [sa_imports sa_types sa_table sa_memory sa_globals sa_exports sa_code app].
    unfold bind at 1, p_byte. rewrite N.eqb_refl.
    rt R16.
    rewrite <- ?app_assoc. rewrite (bind_ok _ _ _ _ _ (RT_many _ _ _ gRT_import imports _ Wi2)). cbv beta.
    rt (gRT_vec _ _ _ gRT_functype).
    rt (gRT_vec _ _ _ (RT_option _ _ _ R32)).
    rt (RT_option _ _ _ gRT_memory).
    rt (gRT_vec _ _ _ gRT_ginit).
    rt (gRT_vec _ _ _ gRT_export).
    rewrite (Rnorm _ We3).
    rt (gRT_vec _ _ _ gRT_func). reflexivity.
  Qed.
End Complete.

Theorem artifact_roundtrip_thm : forall a rest,
  wf_artifact a -> parse_artifact (output_artifact a ++ rest) = Some (a, rest).
Proof. exact (gRT_artifact _ _ _ _ _ RT_u16 RT_u32 RT_i32 RT_i64 normalise_sorted). Qed.

Theorem artifact_reserialise_identical_thm : forall a rest, wf_artifact a ->
  exists a', parse_artifact (output_artifact a ++ rest) = Some (a', rest) /\ output_artifact a' = output_artifact a.
Proof. intros a rest W. exists a. split; [apply artifact_roundtrip_thm; exact W|reflexivity]. Qed.

Theorem artifact_output_injective_thm : forall a b,
  wf_artifact a -> wf_artifact b -> output_artifact a = output_artifact b -> a = b.
Proof.
  intros a b Wa Wb E.
  pose proof (artifact_roundtrip_thm a [] Wa) as Ha. pose proof (artifact_roundtrip_thm b [] Wb) as Hb.
  rewrite E, Hb in Ha. inversion Ha. reflexivity.
Qed.

Corollary borrowed_roundtrip_thm : forall a rest, wf_artifact a ->
  option_map (fun '(b, r) => (resolve (output_artifact a ++ rest) b, r))
             (parse_artifact_borrowed (output_artifact a ++ rest)) = Some (a, rest).
Proof. intros a rest W. rewrite borrowed_view_eq_thm. apply artifact_roundtrip_thm. exact W. Qed.

Lemma prefixb_app p r : prefixb p (p ++ r) = true.
Proof. induction p as [|x p IH]; [reflexivity|]. cbn [prefixb app]. rewrite N.eqb_refl, IH. reflexivity. Qed.
Lemma prefixb_true p : forall bs, prefixb p bs = true -> exists r, bs = p ++ r.
Proof.
  induction p as [|x p IH]; intros bs H; [exists bs; reflexivity|].
  destruct bs as [|y bs]; [discriminate|]. cbn [prefixb] in H. apply andb_true_iff in H.
  destruct H as [E H]. apply N.eqb_eq in E. subst y. destruct (IH _ H) as [r ->]. exists r. reflexivity.
Qed.
Lemma RT_strict {A} (o : A -> list N) d P : RT o d P -> RT o (strict d o) P.
Proof. intros R a rest W. unfold strict. rewrite (R a rest W), prefixb_app. reflexivity. Qed.
Lemma norm_strict_sorted l : sorted_names l -> norm_strict l = Some l.
Proof. intros H. unfold norm_strict. rewrite (proj2 (sorted_namesb_iff l) H). reflexivity. Qed.

Theorem strict_complete_thm : forall a rest,
  wf_artifact a -> parse_artifact_strict (output_artifact a ++ rest) = Some (a, rest).
Proof.
  unfold parse_artifact_strict. apply gRT_artifact.
  - apply RT_strict, RT_u16.
  - apply RT_strict, RT_u32.
  - apply RT_strict, RT_i32.
  - apply RT_strict, RT_i64.
  - exact norm_strict_sorted.
Qed.

(** a parser all of whose readers are canonical is canonical *)
Definition Canon {A} (o : A -> list N) (d : dec A) : Prop :=
  forall bs a r, d bs = Some (a, r) -> bs = o a ++ r.
(** the same with the bytes already consumed, [pre], in front *)
Definition Canon' {A} (pre : list N) (d : dec A) (o : A -> list N) : Prop :=
  forall bs a r, d bs = Some (a, r) -> pre ++ bs = o a ++ r.

Lemma bind_inv {A B} (d : dec A) (k : A -> dec B) bs x :
  bind d k bs = Some x -> exists a r, d bs = Some (a, r) /\ k a r = Some x.
Proof. unfold bind. destruct (d bs) as [[a r]|]; [|discriminate]. intros H. exists a, r. auto. Qed.

Lemma Canon_of' {A} (o : A -> list N) d : Canon' [] d o -> Canon o d.
Proof. intros H bs a r E. exact (H bs a r E). Qed.
Lemma Canon'_bind {A B} pre (d : dec A) o1 (k : A -> dec B) o :
  Canon o1 d -> (forall a, Canon' (pre ++ o1 a) (k a) o) -> Canon' pre (bind d k) o.
Proof.
  intros H1 H2 bs b r H. apply bind_inv in H. destruct H as (a & r1 & E & H).
  apply H1 in E. subst bs. rewrite app_assoc. exact (H2 a r1 b r H).
Qed.
Lemma Canon'_ret {A} pre (x : A) o : pre = o x -> Canon' pre (ret x) o.
Proof. intros -> bs a r H. inversion H; subst. reflexivity. Qed.
Lemma Canon'_fail {A} pre (o : A -> list N) : Canon' pre fail o.
Proof. intros bs a r H. discriminate. Qed.

Lemma Canon_byte : Canon (fun b => [b]) p_byte.
Proof. intros [|b t] a r H; inversion H; subst. reflexivity. Qed.

Lemma many_nat_canon {A} (o : A -> list N) d : Canon o d -> forall n bs l r,
  p_many_nat d n bs = Some (l, r) -> bs = out_list o l ++ r /\ length l = n.
Proof.
  intros C. induction n as [|n IH]; intros bs l r; cbn [p_many_nat].
  - intros H. inversion H; subst. split; reflexivity.
  - destruct (d bs) as [[x r1]|] eqn:E; [|discriminate].
    destruct (p_many_nat d n r1) as [[l' r2]|] eqn:E2; [|discriminate].
    intros H. inversion H; subst. apply C in E. destruct (IH _ _ _ E2) as [-> <-]. subst bs.
    unfold out_list. cbn [flat_map length]. rewrite <- app_assoc. split; reflexivity.
Qed.
Lemma many_nat_length {A} (d : dec A) : forall n bs l r, p_many_nat d n bs = Some (l, r) -> length l = n.
Proof.
  induction n as [|n IH]; intros bs l r; cbn [p_many_nat].
  - intros H. inversion H; subst. reflexivity.
  - destruct (d bs) as [[x r1]|]; [|discriminate].
    destruct (p_many_nat d n r1) as [[l' r2]|] eqn:E2; [|discriminate].
    intros H. inversion H; subst. cbn [length]. f_equal. eapply IH; eauto.
Qed.
Lemma Canon'_bind_many {A B} pre (d : dec A) o1 n (k : list A -> dec B) o :
  Canon o1 d -> (forall l, length l = N.to_nat n -> Canon' (pre ++ out_list o1 l) (k l) o) ->
  Canon' pre (bind (p_many d n) k) o.
Proof.
  intros H1 H2 bs b r H. apply bind_inv in H. destruct H as (l & r1 & E & H).
  rewrite p_many_eq_nat in E. destruct (many_nat_canon _ _ H1 _ _ _ _ E) as [-> L].
  rewrite app_assoc. exact (H2 l L r1 b r H).
Qed.

Lemma valtype_of_byte_inv b t : valtype_of_byte b = Some t -> b = valtype_byte t.
Proof.
  unfold valtype_of_byte. destruct (N.eqb_spec b 0x7F) as [->|]; [intros H; inversion H; reflexivity|].
  destruct (N.eqb_spec b 0x7E) as [->|]; [intros H; inversion H; reflexivity|discriminate].
Qed.
Lemma valtypes_of_bytes_inv : forall l ts, valtypes_of_bytes l = Some ts -> l = map valtype_byte ts.
Proof.
  induction l as [|b l IH]; intros ts; cbn [valtypes_of_bytes].
  - intros H. inversion H. reflexivity.
  - destruct (valtype_of_byte b) as [t|] eqn:E; [|discriminate].
    destruct (valtypes_of_bytes l) as [ts'|]; [|discriminate]. intros H. inversion H; subst.
    cbn [map]. rewrite (valtype_of_byte_inv _ _ E), (IH _ eq_refl). reflexivity.
Qed.

Lemma Canon_valtype : Canon out_valtype p_valtype.
Proof.
  apply Canon_of'. unfold p_valtype. eapply Canon'_bind; [apply Canon_byte|intros b].
  destruct (valtype_of_byte b) as [t|] eqn:E; [|apply Canon'_fail].
  apply Canon'_ret. cbn [app]. rewrite (valtype_of_byte_inv _ _ E). reflexivity.
Qed.
Lemma Canon_blocktype : Canon out_blocktype p_blocktype.
Proof.
  apply Canon_of'. unfold p_blocktype. eapply Canon'_bind; [apply Canon_byte|intros b].
  destruct (N.eqb_spec b 0x40) as [->|]; [apply Canon'_ret; reflexivity|].
  destruct (N.eqb_spec b 0x7F) as [->|]; [apply Canon'_ret; reflexivity|].
  destruct (N.eqb_spec b 0x7E) as [->|]; [apply Canon'_ret; reflexivity|apply Canon'_fail].
Qed.
Lemma Canon_option {A} (o : A -> list N) d : Canon o d -> Canon (out_option o) (p_option d).
Proof.
  intros C. apply Canon_of'. unfold p_option. eapply Canon'_bind; [apply Canon_byte|intros t].
  destruct (N.eqb_spec t 0) as [->|]; [apply Canon'_ret; reflexivity|].
  destruct (N.eqb_spec t 1) as [->|]; [|apply Canon'_fail].
  eapply Canon'_bind; [exact C|intros v]. apply Canon'_ret. reflexivity.
Qed.

(** one step of a [do]: find the canonicity fact of the first parser among the hints *)
Ltac can_bind := eapply Canon'_bind; [solve [eauto with candb]|intros ?].
Ltac can_ret := apply Canon'_ret; cbn [app]; rewrite <- ?app_assoc; reflexivity.

Section Canonical.
  Variables (du16 du32 : dec N) (ds32 ds64 : dec Z) (norm : list (list N * N) -> option (list (list N * N))).
  Hypothesis C16 : Canon out_u16 du16.
  Hypothesis C32 : Canon out_u32 du32.
  Hypothesis Cs32 : Canon out_i32 ds32.
  Hypothesis Cs64 : Canon out_i64 ds64.
  Hypothesis Cnorm : forall l e, norm l = Some e -> e = l.

  Lemma gC_vec {A} (o : A -> list N) d : Canon o d -> Canon (out_vec o) (g_vec du32 d).
  Proof.
    intros C bs l r H. unfold g_vec in H. apply bind_inv in H. destruct H as (n & r1 & E & H).
    apply C32 in E. subst bs. rewrite p_many_eq_nat in H.
    destruct (many_nat_canon _ _ C _ _ _ _ H) as [-> L].
    unfold out_vec. rewrite L, N2Nat.id, <- app_assoc. reflexivity.
  Qed.
  Lemma gC_bytes : Canon out_bytes (g_bytes du32).
  Proof.
    intros bs l r H. unfold g_bytes in H. apply bind_inv in H. destruct H as (n & r1 & E & H).
    apply C32 in E. subst bs. unfold p_take in H.
    destruct (N.leb_spec n (N.of_nat (length r1))); [|discriminate]. inversion H; subst; clear H.
    unfold out_bytes. rewrite firstn_length_le by lia. rewrite N2Nat.id, <- app_assoc, firstn_skipn. reflexivity.
  Qed.
  Hint Resolve C16 C32 Cs32 Cs64 gC_vec gC_bytes Canon_valtype Canon_blocktype Canon_option Canon_byte : candb.

  Lemma gC_valtypes : Canon out_valtypes (g_valtypes du32).
  Proof.
    apply Canon_of'. unfold g_valtypes. can_bind.
    destruct (valtypes_of_bytes a) as [ts|] eqn:E; [|apply Canon'_fail].
    apply Canon'_ret. cbn [app]. unfold out_valtypes. rewrite (valtypes_of_bytes_inv _ _ E). reflexivity.
  Qed.
  Lemma gC_functype : Canon out_functype (g_functype du32).
  Proof.
    apply Canon_of'. unfold g_functype. eapply Canon'_bind; [apply Canon_byte|intros b].
    destruct (N.eqb_spec b 0x60) as [->|]; [|apply Canon'_fail].
    can_bind. can_bind. destruct a0 as [|t [|? ?]]; [| |apply Canon'_fail];
      apply Canon'_ret; cbn [app]; unfold out_functype; cbn [ft_params ft_result];
      rewrite <- ?app_assoc; reflexivity.
  Qed.
  Lemma gC_name : Canon out_name (g_name du32).
  Proof.
    apply Canon_of'. unfold g_name. can_bind. destruct (name_ok a); [|apply Canon'_fail]. can_ret.
  Qed.
  Hint Resolve gC_valtypes gC_functype gC_name : candb.
  Lemma gC_import : Canon out_import (g_import du32).
  Proof. apply Canon_of'. unfold g_import. can_bind. can_bind. can_bind. can_ret. Qed.
  Lemma gC_local : Canon out_local (g_local du16).
  Proof. apply Canon_of'. unfold g_local. can_bind. can_bind. can_ret. Qed.
  Lemma gC_data : Canon out_data (g_data du32 ds32).
  Proof. apply Canon_of'. unfold g_data. can_bind. can_bind. can_ret. Qed.
  Hint Resolve gC_import gC_local gC_data : candb.
  Lemma gC_memory : Canon out_memory (g_memory du32 ds32).
  Proof. apply Canon_of'. unfold g_memory. can_bind. can_bind. can_bind. can_ret. Qed.
  Lemma gC_ginit : Canon out_ginit (g_ginit ds32 ds64).
  Proof.
    apply Canon_of'. unfold g_ginit. eapply Canon'_bind; [apply Canon_byte|intros t].
    destruct (N.eqb_spec t 0) as [->|]; [can_bind; can_ret|].
    destruct (N.eqb_spec t 1) as [->|]; [can_bind; can_ret|apply Canon'_fail].
  Qed.
  Lemma gC_export : Canon out_export (g_export du32).
  Proof. apply Canon_of'. unfold g_export. can_bind. can_bind. can_ret. Qed.
  Lemma gC_func : Canon out_func (g_func du16 du32 ds64).
  Proof. apply Canon_of'. unfold g_func. do 8 can_bind. can_ret. Qed.
  Hint Resolve gC_memory gC_ginit gC_export gC_func : candb.

  Lemma gC_artifact : Canon output_artifact (g_artifact du16 du32 ds32 ds64 norm).
  Proof.
    apply Canon_of'. unfold g_artifact. eapply Canon'_bind; [apply Canon_byte|intros v].
    destruct (N.eqb_spec v 255) as [->|]; [|apply Canon'_fail].
    can_bind. rename a into ni.
    apply Canon'_bind_many with (o1 := out_import); [exact gC_import|intros imports Hlen].
    do 5 can_bind.
    destruct (norm a3) as [e|] eqn:E; [apply Cnorm in E; subst e|apply Canon'_fail].
    can_bind. apply Canon'_ret. cbn [app]. unfold output_artifact.
    cbn [sa_imports sa_types sa_table sa_memory sa_globals sa_exports sa_code].
    rewrite Hlen, N2Nat.id. rewrite <- ?app_assoc. reflexivity.
  Qed.
End Canonical.

Lemma Canon_strict {A} (o : A -> list N) d (P : A -> Prop) :
  RT o d P -> (forall bs a r, d bs = Some (a, r) -> P a) -> Canon o (strict d o).
Proof.
  intros R B bs a r. unfold strict. destruct (d bs) as [[a' r']|] eqn:E; [|discriminate].
  destruct (prefixb (o a') bs) eqn:Pf; [|discriminate]. intros H. inversion H; subst.
  destruct (prefixb_true _ _ Pf) as [r2 ->]. rewrite (R a r2 (B _ _ _ E)) in E. inversion E. reflexivity.
Qed.
Lemma norm_strict_id l e : norm_strict l = Some e -> e = l.
Proof. unfold norm_strict. destruct (sorted_namesb l); [|discriminate]. intros H. inversion H. reflexivity. Qed.

(** the strict parser is byte-canonical (on any input, bytes or not) *)
Theorem strict_canonical_gen_thm : forall bs a rest,
  parse_artifact_strict bs = Some (a, rest) -> bs = output_artifact a ++ rest.
Proof.
  unfold parse_artifact_strict. apply gC_artifact.
  - apply (Canon_strict _ _ _ RT_u16). intros bs a r H. apply (decode_u16_bounded _ _ _ H).
  - apply (Canon_strict _ _ _ RT_u32). intros bs a r H. apply (decode_u32_bounded _ _ _ H).
  - apply (Canon_strict _ _ _ RT_i32). intros bs a r H. apply (decode_s32_bounded _ _ _ H).
  - apply (Canon_strict _ _ _ RT_i64). intros bs a r H. apply (decode_s64_range _ _ _ H).
  - exact norm_strict_id.
Qed.

Theorem strict_canonical_thm : forall bs a rest,
  bytes_ok bs -> parse_artifact_strict bs = Some (a, rest) -> bs = output_artifact a ++ rest.
Proof. intros bs a rest _. apply strict_canonical_gen_thm. Qed.

Definition Inv {A} (d : dec A) (Q : A -> Prop) : Prop :=
  forall bs a r, bytes_ok bs -> d bs = Some (a, r) -> Q a /\ bytes_ok r.

Lemma Inv_bind {A B} (d : dec A) Q1 (k : A -> dec B) Q :
  Inv d Q1 -> (forall a, Q1 a -> Inv (k a) Q) -> Inv (bind d k) Q.
Proof.
  intros H1 H2 bs b r Hb H. apply bind_inv in H. destruct H as (a & r1 & E & H).
  destruct (H1 _ _ _ Hb E) as [Qa Hr1]. exact (H2 a Qa r1 b r Hr1 H).
Qed.
Lemma Inv_ret {A} (x : A) (Q : A -> Prop) : Q x -> Inv (ret x) Q.
Proof. intros Qx bs a r Hb H. inversion H; subst. auto. Qed.
Lemma Inv_fail {A} (Q : A -> Prop) : Inv fail Q.
Proof. intros bs a r Hb H. discriminate. Qed.
Lemma Inv_weaken {A} (d : dec A) (Q Q' : A -> Prop) : Inv d Q -> (forall a, Q a -> Q' a) -> Inv d Q'.
Proof. intros H W bs a r Hb E. destruct (H _ _ _ Hb E). auto. Qed.
Lemma Inv_of_Sfx {A} (d : dec A) (Q : A -> Prop) :
  Sfx d -> (forall bs a r, d bs = Some (a, r) -> Q a) -> Inv d Q.
Proof.
  intros S H bs a r Hb E. split; [eauto|]. destruct (S _ _ _ E) as [pre ->].
  unfold bytes_ok in *. apply Forall_app in Hb. tauto.
Qed.
Lemma Inv_byte : Inv p_byte (fun b => b < 256).
Proof. intros [|b t] a r Hb H; inversion H; subst. inversion Hb; subst. auto. Qed.
Lemma Inv_take n : Inv (p_take n) (fun l => length l = N.to_nat n /\ bytes_ok l).
Proof.
  intros bs l r Hb. unfold p_take. destruct (N.leb_spec n (N.of_nat (length bs))) as [Hle|]; [|discriminate].
  intros E. inversion E; subst; clear E. rewrite <- (firstn_skipn (N.to_nat n) bs) in Hb.
  unfold bytes_ok in *. apply Forall_app in Hb. destruct Hb. rewrite firstn_length_le by lia. auto.
Qed.
Lemma Inv_many_nat {A} (d : dec A) Q : Inv d Q -> forall n, Inv (p_many_nat d n) (fun l => length l = n /\ Forall Q l).
Proof.
  intros H. induction n as [|n IH]; intros bs l r Hb; cbn [p_many_nat].
  - intros E. inversion E; subst. auto.
  - destruct (d bs) as [[x r1]|] eqn:E; [|discriminate].
    destruct (p_many_nat d n r1) as [[l' r2]|] eqn:E2; [|discriminate].
    intros E3. inversion E3; subst. destruct (H _ _ _ Hb E) as [Qx Hr1].
    destruct (IH _ _ _ Hr1 E2) as [[L F] Hr]. cbn [length]. auto.
Qed.
Lemma Inv_many {A} (d : dec A) Q n : Inv d Q -> Inv (p_many d n) (fun l => length l = N.to_nat n /\ Forall Q l).
Proof. intros H bs l r Hb. rewrite p_many_eq_nat. apply Inv_many_nat; auto. Qed.
Lemma Inv_option {A} (d : dec A) Q : Inv d Q -> Inv (p_option d) (wf_opt Q).
Proof.
  intros H. unfold p_option. eapply Inv_bind; [apply Inv_byte|intros t _].
  destruct (t =? 0); [apply Inv_ret; exact I|]. destruct (t =? 1); [|apply Inv_fail].
  eapply Inv_bind; [exact H|intros v Qv]. apply Inv_ret. exact Qv.
Qed.
Lemma Inv_valtype : Inv p_valtype (fun _ => True).
Proof. apply Inv_of_Sfx; [apply Sfx_valtype|auto]. Qed.
Lemma Inv_blocktype : Inv p_blocktype (fun _ => True).
Proof. apply Inv_of_Sfx; [apply Sfx_blocktype|auto]. Qed.

Ltac inv_bind :=
  eapply Inv_bind;
  [solve [eauto with invdb]|let a := fresh "a" in let H := fresh "H" in intros a H; cbv beta in H].

Section WF.
  Variables (du16 du32 : dec N) (ds32 ds64 : dec Z) (norm : list (list N * N) -> option (list (list N * N))).
  Hypothesis I16 : Inv du16 wf_u16.
  Hypothesis I32 : Inv du32 wf_u32.
  Hypothesis Is32 : Inv ds32 wf_i32.
  Hypothesis Is64 : Inv ds64 wf_i64.
  Hypothesis Inorm : forall l e, norm l = Some e ->
    length e = length l /\ (forall P : list N * N -> Prop, Forall P l -> Forall P e) /\ sorted_names e.

  (* a list read after its u32 length has a length that fits a u32 *)
  Lemma Inv_counted {A} (k : N -> dec (list A)) (Q : list A -> Prop) :
    (forall n, Inv (k n) (fun l => length l = N.to_nat n /\ Q l)) ->
    Inv (bind du32 k) (fun l => wf_len l /\ Q l).
  Proof.
    intros H. eapply Inv_bind; [exact I32|intros n Wn].
    eapply Inv_weaken; [apply H|]. intros l [L F]. split; [|exact F].
    unfold wf_len. rewrite L, N2Nat.id. exact Wn.
  Qed.
  Lemma gI_vec {A} (d : dec A) Q : Inv d Q -> Inv (g_vec du32 d) (fun l => wf_len l /\ Forall Q l).
  Proof. intros H. apply Inv_counted. intros n. apply Inv_many. exact H. Qed.
  Lemma gI_bytes : Inv (g_bytes du32) wf_bytes.
  Proof. apply Inv_counted, Inv_take. Qed.
  Hint Resolve I16 I32 Is32 Is64 gI_vec gI_bytes Inv_byte Inv_option Inv_valtype Inv_blocktype : invdb.
  Lemma gI_valtypes : Inv (g_valtypes du32) wf_len.
  Proof.
    unfold g_valtypes. inv_bind. destruct (valtypes_of_bytes a) as [ts|] eqn:E; [|apply Inv_fail].
    apply Inv_ret. apply valtypes_of_bytes_inv in E. subst a. destruct H as [L _].
    unfold wf_len in *. rewrite map_length in L. exact L.
  Qed.
  Lemma gI_functype : Inv (g_functype du32) wf_functype.
  Proof.
    unfold g_functype. inv_bind. destruct (a =? 0x60); [|apply Inv_fail]. inv_bind. inv_bind.
    destruct a1 as [|t [|? ?]]; [| |apply Inv_fail]; apply Inv_ret; unfold wf_functype; cbn [ft_params]; tauto.
  Qed.
  Lemma gI_name : Inv (g_name du32) wf_name.
  Proof.
    unfold g_name. inv_bind. destruct (name_ok a) eqn:E; [|apply Inv_fail].
    apply Inv_ret. apply name_ok_iff. exact E.
  Qed.
  Hint Resolve gI_valtypes gI_functype gI_name : invdb.
  Lemma gI_import : Inv (g_import du32) wf_import.
  Proof.
    unfold g_import. do 3 inv_bind. apply Inv_ret. unfold wf_import. cbn [si_mod si_item si_ty]. tauto.
  Qed.
  Lemma gI_local : Inv (g_local du16) wf_local.
  Proof. unfold g_local. do 2 inv_bind. apply Inv_ret. unfold wf_local. cbn [sl_mult]. assumption. Qed.
  Lemma gI_data : Inv (g_data du32 ds32) wf_data.
  Proof. unfold g_data. do 2 inv_bind. apply Inv_ret. unfold wf_data. cbn [sd_offset sd_init]. tauto. Qed.
  Hint Resolve gI_import gI_local gI_data : invdb.
  Lemma gI_memory : Inv (g_memory du32 ds32) wf_memory.
  Proof.
    unfold g_memory. do 3 inv_bind. apply Inv_ret. unfold wf_memory. cbn [sm_init sm_max sm_data]. tauto.
  Qed.
  Lemma gI_ginit : Inv (g_ginit ds32 ds64) wf_ginit.
  Proof.
    unfold g_ginit. inv_bind. destruct (a =? 0); [inv_bind; apply Inv_ret; assumption|].
    destruct (a =? 1); [inv_bind; apply Inv_ret; assumption|apply Inv_fail].
  Qed.
  Lemma gI_export : Inv (g_export du32) wf_export.
  Proof. unfold g_export. do 2 inv_bind. apply Inv_ret. unfold wf_export. cbn [fst snd]. tauto. Qed.
  Lemma gI_func : Inv (g_func du16 du32 ds64) wf_func.
  Proof.
    unfold g_func. do 8 inv_bind. apply Inv_ret. unfold wf_func.
    cbn [sf_type_idx sf_return sf_params sf_num_locals sf_locals sf_num_registers sf_constants sf_code].
    tauto.
  Qed.
  Hint Resolve gI_memory gI_ginit gI_export gI_func : invdb.

  Lemma gI_artifact : Inv (g_artifact du16 du32 ds32 ds64 norm) wf_artifact.
  Proof.
    unfold g_artifact. inv_bind. destruct (a =? 255); [|apply Inv_fail].
    inv_bind. rename a0 into ni.
    eapply Inv_bind; [apply Inv_many; exact gI_import|intros imports [Li Fi]].
    do 5 inv_bind.
    destruct (norm a4) as [e|] eqn:E; [|apply Inv_fail].
    destruct (Inorm _ _ E) as (Le & Fe & Se). destruct H5 as [Lraw Fraw].
    inv_bind. apply Inv_ret. unfold wf_artifact.
    cbn [sa_imports sa_types sa_table sa_memory sa_globals sa_exports sa_code].
    assert (wf_u16 (N.of_nat (length imports))) by (rewrite Li, N2Nat.id; assumption).
    assert (wf_len e) by (unfold wf_len in *; rewrite Le; exact Lraw).
    pose proof (Fe _ Fraw). tauto.
  Qed.
End WF.

Lemma lex_lt_trans : forall a b c, lex_lt a b = true -> lex_lt b c = true -> lex_lt a c = true.
Proof.
  induction a as [|x a IH]; intros [|y b] [|z c]; cbn [lex_lt]; try discriminate; auto.
  destruct (N.ltb_spec x y), (N.ltb_spec y x), (N.ltb_spec y z), (N.ltb_spec z y),
           (N.ltb_spec x z), (N.ltb_spec z x);
    try discriminate; try lia; auto; intros; eauto.
Qed.
Lemma lex_lt_irrefl : forall a, lex_lt a a = false.
Proof. induction a as [|x a IH]; cbn [lex_lt]; [reflexivity|]. rewrite N.ltb_irrefl. exact IH. Qed.

Lemma ins_spec x : forall l l', ins x l = Some l' ->
  length l' = S (length l)
  /\ (forall P : list N * N -> Prop, P x -> Forall P l -> Forall P l')
  /\ (sorted_names l -> sorted_names l').
Proof.
  induction l as [|y l IH]; intros l'; cbn [ins].
  - intros H. inversion H; subst. cbn [length sorted_names]. repeat split; auto.
  - destruct (lex_lt (fst y) (fst x)) eqn:Lyx.
    + destruct (ins x l) as [t'|] eqn:E; [|discriminate]. intros H. inversion H; subst.
      destruct (IH _ eq_refl) as (L & F & S). cbn [length sorted_names]. split; [congruence|]. split.
      * intros P Px Fl. inversion Fl; subst. constructor; auto.
      * intros [Fy Sl]. split; [|auto]. apply F; assumption.
    + destruct (lex_lt (fst x) (fst y)) eqn:Lxy; [|discriminate]. intros H. inversion H; subst.
      cbn [length]. split; [reflexivity|]. split.
      * intros P Px Fl. constructor; assumption.
      * intros Syl. cbn [sorted_names]. split; [|exact Syl]. constructor; [exact Lxy|].
        destruct Syl as [Fy _]. eapply Forall_impl; [|exact Fy].
        intros z Hz. cbv beta in Hz. eapply lex_lt_trans; eauto.
Qed.
Lemma fold_ins_none l :
  fold_left (fun a x => match a with Some m => ins x m | None => None end) l None = None.
Proof. induction l as [|x l IH]; cbn [fold_left]; auto. Qed.
Lemma fold_ins_spec : forall l acc e,
  fold_left (fun a x => match a with Some m => ins x m | None => None end) l (Some acc) = Some e ->
  length e = (length acc + length l)%nat
  /\ (forall P : list N * N -> Prop, Forall P acc -> Forall P l -> Forall P e)
  /\ (sorted_names acc -> sorted_names e).
Proof.
  induction l as [|x l IH]; intros acc e; cbn [fold_left].
  - intros H. inversion H; subst. cbn [length]. repeat split; auto.
  - destruct (ins x acc) as [acc'|] eqn:E; [|rewrite fold_ins_none; discriminate].
    intros H. destruct (ins_spec _ _ _ E) as (L1 & F1 & S1). destruct (IH _ _ H) as (L2 & F2 & S2).
    cbn [length]. split; [lia|]. split.
    + intros P Fa Fl. inversion Fl; subst. apply F2; auto.
    + auto.
Qed.
Lemma normalise_spec l e : normalise l = Some e ->
  length e = length l /\ (forall P : list N * N -> Prop, Forall P l -> Forall P e) /\ sorted_names e.
Proof.
  unfold normalise. intros H. destruct (fold_ins_spec _ _ _ H) as (L & F & S).
  split; [exact L|]. split; [|apply S; exact I]. intros P Fl. apply F; auto.
Qed.

Theorem parse_wf_thm : forall bs a rest,
  bytes_ok bs -> parse_artifact bs = Some (a, rest) -> wf_artifact a /\ bytes_ok rest.
Proof.
  intros bs a rest. rewrite <- g_artifact_loose. apply gI_artifact.
  - apply Inv_of_Sfx; [apply Sfx_u16|]. intros b v r H. apply (decode_u16_bounded _ _ _ H).
  - apply Inv_of_Sfx; [apply Sfx_u32|]. intros b v r H. apply (decode_u32_bounded _ _ _ H).
  - apply Inv_of_Sfx; [apply Sfx_s32|]. intros b v r H. apply (decode_s32_bounded _ _ _ H).
  - apply Inv_of_Sfx; [apply Sfx_s64|]. intros b v r H. apply (decode_s64_range _ _ _ H).
  - exact normalise_spec.
Qed.

Theorem parse_output_normal_form_thm : forall bs a rest,
  bytes_ok bs -> parse_artifact bs = Some (a, rest) ->
  parse_artifact (output_artifact a ++ rest) = Some (a, rest).
Proof.
  intros bs a rest Hb H. apply artifact_roundtrip_thm. apply (parse_wf_thm _ _ _ Hb H).
Qed.
Theorem reserialise_idempotent_strong_thm : forall bs a rest,
  bytes_ok bs -> parse_artifact bs = Some (a, rest) ->
  forall a' r', parse_artifact (output_artifact a) = Some (a', r') -> a' = a /\ r' = [].
Proof.
  intros bs a rest Hb H a' r' H'.
  pose proof (artifact_roundtrip_thm a [] (proj1 (parse_wf_thm _ _ _ Hb H))) as R.
  rewrite app_nil_r in R. rewrite R in H'. inversion H'. auto.
Qed.
Theorem reserialise_idempotent_thm : forall bs a rest,
  bytes_ok bs -> parse_artifact bs = Some (a, rest) ->
  forall a', parse_artifact (output_artifact a) = Some (a', []) -> output_artifact a' = output_artifact a.
Proof.
  intros bs a rest Hb H a' H'. destruct (reserialise_idempotent_strong_thm _ _ _ Hb H _ _ H') as [-> _].
  reflexivity.
Qed.
(** ... and never fails: the hypothesis of [reserialise_idempotent_thm] is always met *)
Theorem reserialise_parses_thm : forall bs a rest,
  bytes_ok bs -> parse_artifact bs = Some (a, rest) -> parse_artifact (output_artifact a) = Some (a, []).
Proof.
  intros bs a rest Hb H. rewrite <- (app_nil_r (output_artifact a)).
  apply artifact_roundtrip_thm. apply (parse_wf_thm _ _ _ Hb H).
Qed.

(** an accepted input is its own re-serialisation exactly when the strict
    parser accepts it, i.e. when no LEB128 number is over-long and the exports are sorted *)
Theorem noncanonical_iff_not_strict_thm : forall bs a rest,
  bytes_ok bs -> parse_artifact bs = Some (a, rest) ->
  (bs = output_artifact a ++ rest <-> parse_artifact_strict bs = Some (a, rest)).
Proof.
  intros bs a rest Hb H. split.
  - intros E. rewrite E. apply strict_complete_thm. apply (parse_wf_thm _ _ _ Hb H).
  - apply strict_canonical_gen_thm.
Qed.
(** the strict parser accepts exactly the serialisations of well-formed artifacts *)
Theorem strict_accepts_iff_thm : forall bs a rest, bytes_ok bs ->
  (parse_artifact_strict bs = Some (a, rest) <-> wf_artifact a /\ bs = output_artifact a ++ rest).
Proof.
  intros bs a rest Hb. split.
  - intros H. split; [|apply strict_canonical_gen_thm; exact H].
    apply (parse_wf_thm bs a rest Hb). apply strict_sound_thm. exact H.
  - intros [W ->]. apply strict_complete_thm. exact W.
Qed.

(** over-long import count: accepted, not strictly *)
Example strict_rejects_overlong_ex :
  let bs := [255; 0x80; 0x00; 0; 0; 0; 0; 0; 0] in
  parse_artifact bs = Some (empty_artifact, []) /\ parse_artifact_strict bs = None
  /\ parse_artifact_strict (output_artifact empty_artifact) = Some (empty_artifact, []).
Proof. cbv zeta. repeat split; vm_compute; reflexivity. Qed.

(** two exports "b" -> 1, "a" -> 2 in descending name order: accepted, the map order is "a", "b";
    the strict parser rejects the input and accepts the re-serialisation, which has them swapped *)
Definition two_exports (l : list (list N * N)) : s_artifact :=
  {| sa_imports := []; sa_types := []; sa_table := []; sa_memory := None; sa_globals := [];
     sa_exports := l; sa_code := [] |}.
Example strict_rejects_unsorted_ex :
  let bs := [255; 0; 0; 0; 0; 0; 2; 1; 98; 1; 1; 97; 2; 0] in
  let a := two_exports [([97], 2); ([98], 1)] in
  parse_artifact bs = Some (a, []) /\ parse_artifact_strict bs = None
  /\ output_artifact a = [255; 0; 0; 0; 0; 0; 2; 1; 97; 2; 1; 98; 1; 0]
  /\ parse_artifact_strict (output_artifact a) = Some (a, []).
Proof. cbv zeta. repeat split; vm_compute; reflexivity. Qed.
(** a duplicate export name is rejected by the parser, hence ([strict_sound_thm]) by the strict one *)
Example duplicate_export_rejected_ex :
  parse_artifact [255; 0; 0; 0; 0; 0; 2; 1; 97; 1; 1; 97; 2; 0] = None.
Proof. vm_compute. reflexivity. Qed.
