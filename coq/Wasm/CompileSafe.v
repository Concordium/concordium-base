(** * Wasm/CompileSafe — static well-formedness of the code emitted by [Wasm/Compile.v] (property C09,
    for the COMPILED register-machine code).  The emitted byte string is described by a ghost list of
    FIELDS (opcode byte, raw immediate, source operand, written register, jump target); the invariant [L]
    relates a compiler state to such a list, and every case of [Handler::handle_opcode] preserves it
    ([CompileSafe4.handle_safe]). *)
From Coq Require Import ZArith NArith List Lia Bool.
From CB Require Import Wasm.Compile Wasm.MachineLemmas Wasm.CompileLemmas.
Import ListNotations.
Local Open Scope Z_scope.

Inductive field := FOp (o : N) | FImm (bs : list N) | FSrc (p : Z) | FDst (r : Z) | FTgt (t : Z).
Inductive kind := KOp (o : N) | KImm (bs : list N) | KSrc | KDst | KTgt.
Definition kind_of (f : field) : kind :=
  match f with FOp o => KOp o | FImm bs => KImm bs | FSrc _ => KSrc | FDst _ => KDst | FTgt _ => KTgt end.
Definition enc_f (f : field) : list N :=
  match f with
  | FOp o => [o] | FImm bs => bs | FSrc p => i32_bytes p | FDst r => i32_bytes r | FTgt t => u32_bytes t
  end.
Definition enc (fl : list field) : list N := flat_map enc_f fl.
Definition off (fl : list field) : Z := Z.of_nat (length (enc fl)).
Definition klen (k : kind) : nat :=
  match k with KOp _ => 1%nat | KImm bs => length bs | _ => 4%nat end.

Lemma enc_app a b : enc (a ++ b) = enc a ++ enc b.
Proof. unfold enc. apply flat_map_app. Qed.
Lemma enc_f_len f : length (enc_f f) = klen (kind_of f).
Proof. destruct f; cbn; auto using i32_bytes_length, u32_bytes_length. Qed.
Lemma off_app a b : off (a ++ b) = off a + off b.
Proof. unfold off. rewrite enc_app, app_length. lia. Qed.
Lemma off_nonneg a : 0 <= off a. Proof. unfold off. lia. Qed.
Lemma off_kinds : forall a b, map kind_of a = map kind_of b -> off a = off b.
Proof.
  induction a as [|x a IH]; destruct b as [|y b]; cbn [map]; intros H; try discriminate; auto.
  inversion H. change (x :: a) with ([x] ++ a). change (y :: b) with ([y] ++ b). rewrite !off_app.
  rewrite (IH b) by assumption. unfold off. cbn [enc flat_map]. rewrite !app_nil_r, !enc_f_len. congruence.
Qed.
Lemma off_cons f a : off (f :: a) = Z.of_nat (klen (kind_of f)) + off a.
Proof. change (f :: a) with ([f] ++ a). rewrite off_app. unfold off at 1. cbn [enc flat_map]. rewrite app_nil_r, enc_f_len. lia. Qed.

Definition four (f : field) : Prop := klen (kind_of f) = 4%nat.

(** a 4-byte field is determined by its offset *)
Lemma split_unique : forall pre pre' f f' post post',
  pre ++ f :: post = pre' ++ f' :: post' -> off pre = off pre' -> four f -> four f' ->
  pre = pre' /\ f = f' /\ post = post'.
Proof.
  induction pre as [|x pre IH]; intros [|y pre'] f f' post post' E O F F'; cbn [app] in E.
  - inversion E; auto.
  - inversion E; subst. rewrite off_cons in O. unfold four in F. pose proof (off_nonneg pre'). unfold off at 1 in O. cbn in O. lia.
  - inversion E; subst. rewrite off_cons in O. unfold four in F'. pose proof (off_nonneg pre). unfold off at 2 in O. cbn in O. lia.
  - inversion E; subst. rewrite !off_cons in O. destruct (IH pre' f f' post post') as (A & B & C); auto; try lia. subst. auto.
Qed.

Lemma split3 {A} : forall (pre : list A) f post p0 x q0,
  pre ++ f :: post = p0 ++ x :: q0 ->
  (p0 = pre /\ x = f /\ q0 = post)
  \/ (exists m, pre = p0 ++ x :: m /\ q0 = m ++ f :: post)
  \/ (exists m, p0 = pre ++ f :: m /\ post = m ++ x :: q0).
Proof.
  induction pre as [|a pre IH]; intros f post [|b p0] x q0 E; cbn [app] in E.
  - inversion E; auto.
  - inversion E; subst. right. right. exists p0. auto.
  - inversion E; subst. right. left. exists pre. auto.
  - inversion E; subst. destruct (IH _ _ _ _ _ H1) as [(A1 & A2 & A3)|[(m & A1 & A2)|(m & A1 & A2)]]; subst.
    + left; auto.
    + right; left. exists m. auto.
    + right; right. exists m. auto.
Qed.
Lemma split_last {A} (fl : list A) f p0 x q0 :
  fl ++ [f] = p0 ++ x :: q0 -> (p0 = fl /\ x = f /\ q0 = []) \/ (exists m, fl = p0 ++ x :: m /\ q0 = m ++ [f]).
Proof.
  intros E. destruct (split3 fl f [] p0 x q0 E) as [(A1 & A2 & A3)|[(m & A1 & A2)|(m & A1 & A2)]]; auto.
  - right. exists m. auto.
  - destruct m; discriminate.
Qed.

Lemma overwrite_field pre f post v :
  four f -> overwrite (enc (pre ++ f :: post)) (Z.to_nat (off pre)) (u32_bytes v) = enc pre ++ u32_bytes v ++ enc post.
Proof.
  intros F. unfold off. rewrite Nat2Z.id, enc_app. cbn [enc flat_map]. rewrite overwrite_at. f_equal. f_equal.
  rewrite u32_bytes_length. fold (enc post). unfold four in F. rewrite <- (enc_f_len f) in F.
  rewrite <- F. rewrite skipn_app, skipn_all, Nat.sub_diag. reflexivity.
Qed.

Section Safe.
Variable nl : Z.     (* registers [0, nl): locals (and the return-value location) *)

Definition fok (nx nc : Z) (f : field) : Prop :=
  match f with FSrc p => - nc <= p < nx | FDst r => 0 <= r < nx | _ => True end.
Definition res_ok (nx : Z) (r : provider) : Prop :=
  match r with PDyn d => nl <= d < nx | PLocal i => 0 <= i < nl | PConst _ => False end.
Definition ncon (s : cstate) : Z := Z.of_nat (length (c_consts s)).
(** a pending frame: a known target is an instruction start on record, a result location is a register *)
Definition jt_ok (bs : list Z) (nx : Z) (j : jump_target) : Prop :=
  match j with JKnown pos => In pos bs | JUnknown _ (Some r) => res_ok nx r | JUnknown _ None => True end.

Record L (bs pl : list Z) (s : cstate) (fl : list field) : Prop := {
  l_cwf : cwf nl s;
  l_out : c_out s = enc fl;
  l_ops : Forall (fok (c_next s) (ncon s)) fl;
  l_tgt : forall pre t post, fl = pre ++ FTgt t :: post -> In t bs \/ In (off pre) pl;
  l_pend : forall q, In q pl -> exists pre t post, fl = pre ++ FTgt t :: post /\ off pre = q;
  l_bp : Forall (jt_ok bs (c_next s)) (c_bp s);
  l_last : forall q, c_last s = Some q -> exists pre r, fl = pre ++ [FDst r] /\ off pre = q
}.

Lemma fok_mono nx nc nx' nc' f : nx <= nx' -> nc <= nc' -> fok nx nc f -> fok nx' nc' f.
Proof. destruct f; cbn; lia. Qed.
Lemma res_ok_mono nx nx' r : nx <= nx' -> res_ok nx r -> res_ok nx' r.
Proof. destruct r; cbn; lia. Qed.
Lemma jt_ok_mono bs bs' nx nx' j : incl bs bs' -> nx <= nx' -> jt_ok bs nx j -> jt_ok bs' nx' j.
Proof. intros Hi Hn. destruct j as [pos|locs [r|]]; cbn; auto. apply res_ok_mono, Hn. Qed.

Lemma pwf_fok s p : cwf nl s -> pwf nl s p -> fok (c_next s) (ncon s) (FSrc (provider_idx p)).
Proof.
  intros W H. destruct W as [W1 _ _ _ _]. destruct p as [r|i|c]; cbn in *; unfold ncon; try lia.
  destruct H as [Hn (v & Hv)]. assert (Z.to_nat (- (c + 1)) < length (c_consts s))%nat by (apply nth_error_Some; congruence). lia.
Qed.
Lemma res_ok_fok s r : cwf nl s -> res_ok (c_next s) r -> fok (c_next s) (ncon s) (FDst (provider_idx r)).
Proof. intros [W1 _ _ _ _] H. destruct r; cbn in *; try lia. Qed.

Lemma L_alloc bs pl s s' fl :
  L bs pl s fl -> cwf nl s' -> c_out s' = c_out s -> c_bp s' = c_bp s -> c_last s' = c_last s ->
  c_next s <= c_next s' -> ncon s <= ncon s' -> L bs pl s' fl.
Proof.
  intros [A1 A2 A3 A4 A5 A6 A7] W Eo Eb El Hn Hc. constructor; auto; try congruence.
  - eapply Forall_impl; [|exact A3]. intros f. apply fok_mono; auto.
  - rewrite Eb. eapply Forall_impl; [|exact A6]. intros j. apply jt_ok_mono; [apply incl_refl|exact Hn].
  - rewrite El. exact A7.
Qed.
Lemma L_bs bs bs' pl s fl : L bs pl s fl -> incl bs bs' -> L bs' pl s fl.
Proof.
  intros [A1 A2 A3 A4 A5 A6 A7] Hi. constructor; auto.
  - intros pre t post E. destruct (A4 _ _ _ E); auto.
  - eapply Forall_impl; [|exact A6]. intros j. apply jt_ok_mono; [exact Hi|lia].
Qed.
Lemma L_pl bs pl pl' s fl : L bs pl s fl -> (forall q, In q pl <-> In q pl') -> L bs pl' s fl.
Proof.
  intros [A1 A2 A3 A4 A5 A6 A7] Hi. constructor; auto.
  - intros pre t post E. destruct (A4 _ _ _ E); auto. right. apply Hi. auto.
  - intros q Hq. apply A5. apply Hi. auto.
Qed.
Lemma L_set_bp bs pl s fl bp : L bs pl s fl -> Forall (jt_ok bs (c_next s)) bp -> L bs pl (set_bp s bp) fl.
Proof.
  intros [A1 A2 A3 A4 A5 A6 A7] H1. constructor; auto.
  eapply cwf_same; [|exact A1]. repeat split.
Qed.
Lemma L_push_bp bs pl s fl j : L bs pl s fl -> jt_ok bs (c_next s) j -> L bs pl (set_bp s (j :: c_bp s)) fl.
Proof. intros H Hj. apply L_set_bp; [exact H|]. constructor; [exact Hj|apply (l_bp _ _ _ _ H)]. Qed.
Lemma L_pop_bp bs pl s fl j bp' : L bs pl s fl -> c_bp s = j :: bp' -> L bs pl (set_bp s bp') fl /\ jt_ok bs (c_next s) j.
Proof.
  intros H Eb. pose proof (l_bp _ _ _ _ H) as F. rewrite Eb in F. inversion F; subst. split; [|assumption].
  apply L_set_bp; assumption.
Qed.
Lemma L_target bs pl s fl l j : L bs pl s fl -> nth_error (c_bp s) l = Some j -> jt_ok bs (c_next s) j.
Proof. intros H En. pose proof (l_bp _ _ _ _ H) as F. rewrite Forall_forall in F. apply F. eapply nth_error_In; eauto. Qed.
Lemma L_set_last_none bs pl s fl : L bs pl s fl -> L bs pl (set_last s None) fl.
Proof.
  intros [A1 A2 A3 A4 A5 A6 A7]. constructor; auto.
  - eapply cwf_same; [|exact A1]. repeat split.
  - cbn. discriminate.
Qed.

Lemma L_app bs pl s s' fl f :
  L bs pl s fl -> cwf nl s' -> c_out s' = c_out s ++ enc_f f -> c_bp s' = c_bp s ->
  c_next s <= c_next s' -> ncon s <= ncon s' -> fok (c_next s') (ncon s') f ->
  (forall t, f = FTgt t -> In t bs) ->
  (c_last s' = None \/ (c_last s' = Some (off fl) /\ exists r, f = FDst r)) ->
  L bs pl s' (fl ++ [f]).
Proof.
  intros [A1 A2 A3 A4 A5 A6 A7] W Eo Eb Hn Hc Hf Ht Hl. constructor; auto.
  - rewrite Eo, A2, enc_app. cbn [enc flat_map]. rewrite app_nil_r. reflexivity.
  - apply Forall_app. split; [|constructor; auto]. eapply Forall_impl; [|exact A3]. intros g. apply fok_mono; auto.
  - intros pre t post E. apply split_last in E. destruct E as [(E1 & E2 & E3)|(m & E1 & E2)].
    + left. apply Ht. auto.
    + eapply A4; eauto.
  - intros q Hq. destruct (A5 q Hq) as (pre & t & post & E & O). exists pre, t, (post ++ [f]). split; auto.
    rewrite E, <- app_assoc. reflexivity.
  - rewrite Eb. eapply Forall_impl; [|exact A6]. intros j. apply jt_ok_mono; [apply incl_refl|exact Hn].
  - intros q Hq. destruct Hl as [Hl|(Hl & r & ->)]; [congruence|]. exists fl, r. split; auto. congruence.
Qed.

Lemma L_app_pend bs pl s s' fl :
  L bs pl s fl -> cwf nl s' -> c_out s' = c_out s ++ enc_f (FTgt 0) -> Forall (jt_ok bs (c_next s')) (c_bp s') ->
  c_next s' = c_next s -> ncon s' = ncon s -> c_last s' = None ->
  L bs (off fl :: pl) s' (fl ++ [FTgt 0]).
Proof.
  intros [A1 A2 A3 A4 A5 A6 A7] W Eo Ebp Hn Hc Hl. constructor; auto.
  - rewrite Eo, A2, enc_app. cbn [enc flat_map]. rewrite app_nil_r. reflexivity.
  - rewrite Hn, Hc. apply Forall_app. split; auto. constructor; cbn; auto.
  - intros pre t post E. apply split_last in E. destruct E as [(E1 & E2 & E3)|(m & E1 & E2)].
    + subst. right. left. reflexivity.
    + destruct (A4 _ _ _ E1); auto. right. right. auto.
  - intros q [<-|Hq].
    + exists fl, 0, []. auto.
    + destruct (A5 q Hq) as (pre & t & post & E & O). exists pre, t, (post ++ [FTgt 0]). split; auto.
      rewrite E, <- app_assoc. reflexivity.
  - congruence.
Qed.

(** replacing a 4-byte field by a field of the same kind (back-patching) *)
Lemma L_replace bs pl pl' s fl pre f f' post v :
  L bs pl s fl -> fl = pre ++ f :: post -> kind_of f' = kind_of f -> four f -> enc_f f' = u32_bytes v ->
  c_last s = None -> fok (c_next s) (ncon s) f' -> (forall t, f' = FTgt t -> In t bs) ->
  (forall q, In q pl -> q = off pre \/ In q pl') -> (forall q, In q pl' -> In q pl) ->
  L bs pl' (back_patch s (off pre) v) (pre ++ f' :: post).
Proof.
  intros [A1 A2 A3 A4 A5 A6 A7] E K F Ev Hl Hf Ht Hp Hp'.
  assert (Ooff : forall m, off (pre ++ f' :: m) = off (pre ++ f :: m)).
  { intros m. apply off_kinds. rewrite !map_app. cbn [map]. rewrite K. reflexivity. }
  constructor; auto.
  - eapply cwf_same; [|exact A1]. repeat split.
  - unfold back_patch. cbn [c_out set_out]. rewrite A2, E, overwrite_field by exact F.
    rewrite enc_app. cbn [enc flat_map]. rewrite Ev. reflexivity.
  - cbn [back_patch c_next c_consts set_out ncon]. unfold ncon in *. cbn. subst fl. apply Forall_app in A3. destruct A3 as [B1 B2].
    inversion B2; subst. apply Forall_app. split; auto.
  - intros p0 t q0 E0. apply split3 in E0. destruct E0 as [(E1 & E2 & E3)|[(m & E1 & E2)|(m & E1 & E2)]].
    + left. apply Ht. auto.
    + subst. destruct (A4 p0 t (m ++ f :: post)) as [H|H]; [rewrite <- app_assoc; reflexivity|auto|].
      destruct (Hp _ H) as [Hq|Hq]; auto. exfalso.
      destruct (split_unique p0 (p0 ++ FTgt t :: m) (FTgt t) f (m ++ f :: post) post) as (X & _); auto.
      * rewrite <- app_assoc. reflexivity.
      * reflexivity.
      * apply (f_equal (@length _)) in X. rewrite app_length in X. cbn in X. lia.
    + subst. destruct (A4 (pre ++ f :: m) t q0) as [H|H]; [rewrite <- app_assoc; reflexivity|auto|].
      rewrite Ooff. destruct (Hp _ H) as [Hq|Hq]; auto. exfalso.
      destruct (split_unique (pre ++ f :: m) pre (FTgt t) f q0 (m ++ FTgt t :: q0)) as (X & _); auto.
      * rewrite <- app_assoc. reflexivity.
      * reflexivity.
      * apply (f_equal (@length _)) in X. rewrite app_length in X. cbn in X. lia.
  - intros q Hq. apply Hp' in Hq. destruct (A5 q Hq) as (p0 & t & q0 & E0 & O). rewrite E in E0. apply split3 in E0.
    destruct E0 as [(E1 & E2 & E3)|[(m & E1 & E2)|(m & E1 & E2)]].
    + subst p0 q0 f. destruct f' as [| | | |t']; try discriminate K. exists pre, t', post. auto.
    + subst. exists p0, t, (m ++ f' :: post). split; auto. rewrite <- app_assoc. reflexivity.
    + subst. exists (pre ++ f' :: m), t, q0. split; [rewrite <- app_assoc; reflexivity|]. apply Ooff.
  - cbn. intros q Hq. congruence.
Qed.

End Safe.
