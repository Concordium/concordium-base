(** C13 end to end in the model: an artifact that was serialised and
    parsed again (owned or borrowed view), run with any interrupt schedule, behaves as the fresh
    artifact run without interruption. *)
From Coq Require Import List.
From CB Require Import Wasm.Machine Wasm.ArtifactCodec Wasm.ArtifactNormalForm Wasm.ArtifactView
  Wasm.ArtifactViewProofs Wasm.Resume Wasm.ResumeProofs.
Import ListNotations.

(** the reloaded record IS the stored record, hence every function of it agrees: [Machine.mrun],
    the direct and the interrupted runs *)
Theorem reloaded_behaves_equal_thm : forall a rest a' rest',
  wf_artifact a -> parse_artifact (output_artifact a ++ rest) = Some (a', rest') ->
  a' = a /\ rest' = rest
  /\ (forall mhost fuel entry args,
        mrun (to_machine a') mhost fuel entry args = mrun (to_machine a) mhost fuel entry args)
  /\ (forall (H : Type) hc choose rounds fuel (h : H) st,
        m_drive H (to_machine a') hc choose rounds fuel h st = m_drive H (to_machine a) hc choose rounds fuel h st).
Proof.
  intros a rest a' rest' W P. rewrite (artifact_roundtrip_thm a rest W) in P. inversion P; subst.
  repeat split; reflexivity.
Qed.

(** same through the zero-copy view: slices into the stored bytes resolve to the stored record *)
Theorem borrowed_behaves_equal_thm : forall a rest b rest',
  wf_artifact a -> parse_artifact_borrowed (output_artifact a ++ rest) = Some (b, rest') ->
  resolve (output_artifact a ++ rest) b = a /\ rest' = rest
  /\ (forall mhost fuel entry args,
        mrun (to_machine (resolve (output_artifact a ++ rest) b)) mhost fuel entry args
        = mrun (to_machine a) mhost fuel entry args).
Proof.
  intros a rest b rest' W P. pose proof (borrowed_roundtrip_thm a rest W) as Hb. rewrite P in Hb.
  change (Some (resolve (output_artifact a ++ rest) b, rest') = Some (a, rest)) in Hb.
  assert (Hr : resolve (output_artifact a ++ rest) b = a) by congruence.
  assert (Hrest : rest' = rest) by congruence.
  rewrite Hr. repeat split; try assumption; reflexivity.
Qed.

(** headline: store, reload, run with ANY interrupt schedule against a stateless host
    = [Machine.mrun] of the fresh artifact *)
Theorem stored_and_resumed_equiv_thm : forall a mhost choose rounds fuel entry args,
  wf_artifact a -> (fuel <= rounds)%nat ->
  match parse_artifact (output_artifact a) with
  | Some (a', []) =>
      match init_state (to_machine a') entry args with
      | Some st0 => finish (to_machine a') entry
                      (r_out (m_drive unit (to_machine a') (lift_host mhost) choose rounds fuel tt st0))
      | None => MTrap TBadCode
      end = mrun (to_machine a) mhost fuel entry args
  | _ => False
  end.
Proof.
  intros a mhost choose rounds fuel entry args W Hle.
  pose proof (artifact_roundtrip_thm a [] W) as P. rewrite app_nil_r in P. rewrite P.
  rewrite direct_refines_machine_thm.
  destruct (init_state (to_machine a) entry args) as [st0|]; [|reflexivity].
  rewrite resume_equiv_thm by exact Hle. reflexivity.
Qed.

(** the same for the artifact of a compiled module: the stored record [s_artifact_of] and the machine
    artifact [build_artifact] of C01 are the same object ([to_machine_s_artifact_of_thm]), so: compile,
    serialise, parse, run under any interrupt schedule = [Machine.mrun] on the artifact C01's layers
    (i)/(ii) tie to the implementation *)
Theorem compiled_stored_resumed_equiv_thm : forall cm m elem_shift names exports code sa art mhost choose rounds fuel entry args,
  view_okb cm m names code = true ->
  s_artifact_of cm m elem_shift names exports code = Some sa ->
  wf_artifact sa -> (fuel <= rounds)%nat ->
  build_artifact cm m elem_shift code = Some art ->
  match parse_artifact (output_artifact sa) with
  | Some (sa', []) =>
      match init_state (to_machine sa') entry args with
      | Some st0 => finish (to_machine sa') entry
                      (r_out (m_drive unit (to_machine sa') (lift_host mhost) choose rounds fuel tt st0))
      | None => MTrap TBadCode
      end = mrun art mhost fuel entry args
  | _ => False
  end.
Proof.
  intros cm m sh names exports code sa art mhost choose rounds fuel entry args Hok Hs W Hle Hb.
  rewrite (to_machine_s_artifact_of_thm _ _ _ _ _ _ _ Hok Hs) in Hb. inversion Hb; subst art.
  apply stored_and_resumed_equiv_thm; assumption.
Qed.
