(** * Wasm/Meter — model of the metering transformation
    (smart-contracts/wasm-transform/src/metering_transformation.rs).

    Two presentations, tied to each other by [MeterFlat.flat_structured_agree] and both tied to
    the implementation by the C02 correspondence check:

    - [trun]/[inject_accounting_flat]: a line-by-line transcription of
      [InstrSeqTransformer::run] over the flat opcode sequence, with the accumulator [energy],
      the [pending_instructions], the label stack and the output sequence;
    - [mseq]/[meter_body]: the same transformation as a compositional function on structured code
      ([Syntax.instr]), which is what the semantic theorems are proved about: [mseq] returns the
      cost [h] of the *head segment* of the sequence (the instructions executed unconditionally
      before the first flush point) and the transformed sequence WITHOUT the tick for that head
      segment - the caller merges [h] into the tick it emits before.

    [inject] is [Module::inject_metering]: new type appended, [account_memory] imported at function
    index 0, every element-segment entry and (not part of [Syntax.module]: see [inject_exports])
    every exported function index shifted by one, every function body metered.

    The cost configuration is a parameter ([CostCtx.cost_cfg]); the two instances are generated
    ([Gen/CostV0.v], [Gen/CostV1.v]).  Definitions only. *)
From Coq Require Import ZArith NArith List Bool.
From CB Require Import Wasm.Syntax Wasm.CostCtx.
Import ListNotations.
Local Open Scope N_scope.

(** [FN_IDX_MEMORY_ALLOC], [NUM_ADDED_FUNCTIONS] *)
Definition fn_idx_memory_alloc : nat := 0%nat.
Definition num_added_functions : nat := 1%nat.

(** [account_energy]: [TickEnergy(e.try_into()?)] - the amount must fit u32. *)
Definition u32_max : N := 4294967295.
Definition fits_u32 (e : N) : bool := e <=? u32_max.

(** ** Annotated instructions (see section 2) *)
Inductive origin := OSrc (c : N) (taken : N) | OInj.
Inductive ainstr :=
| ABasic (o : origin) (b : binstr)
| ABlock (o : origin) (bt : blocktype) (body : list ainstr)
| ALoop (o : origin) (bt : blocktype) (body : list ainstr)
| AIf (o : origin) (bt : blocktype) (thn els : list ainstr).

Fixpoint erase (a : ainstr) : instr :=
  match a with
  | ABasic _ b => Basic b
  | ABlock _ bt body => Block bt (map erase body)
  | ALoop _ bt body => Loop bt (map erase body)
  | AIf _ bt thn els => If bt (map erase thn) (map erase els)
  end.
Definition erase_seq (is : list ainstr) : list instr := map erase is.

Definition obind {A B} (o : option A) (f : A -> option B) : option B :=
  match o with Some x => f x | None => None end.

Section WithConfig.
Variable cfg : cost_cfg.
Variable cx : cost_ctx.

(** ** 1. Flat transcription of [InstrSeqTransformer] *)
Record tstate := {
  ts_labels : list blocktype;     (* innermost first, see CostCtx *)
  ts_new : list opcode;           (* new_seq *)
  ts_energy : N;                  (* energy *)
  ts_pending : list opcode        (* pending_instructions *)
}.

Definition account_energy (st : tstate) (e : N) : option tstate :=
  if fits_u32 e then
    Some {| ts_labels := ts_labels st; ts_new := ts_new st ++ [OBasic (BTick e)];
            ts_energy := ts_energy st; ts_pending := ts_pending st |}
  else None.

Definition account_energy_push_pending (st : tstate) : option tstate :=
  match (if 0 <? ts_energy st
         then match account_energy st (ts_energy st) with
              | Some s => Some {| ts_labels := ts_labels s; ts_new := ts_new s; ts_energy := 0;
                                  ts_pending := ts_pending s |}
              | None => None
              end
         else Some st) with
  | Some s => Some {| ts_labels := ts_labels s; ts_new := ts_new s ++ ts_pending s;
                      ts_energy := ts_energy s; ts_pending := [] |}
  | None => None
  end.

Definition add_to_new (st : tstate) (o : opcode) : tstate :=
  {| ts_labels := ts_labels st; ts_new := ts_new st ++ [o]; ts_energy := ts_energy st;
     ts_pending := ts_pending st |}.
Definition add_to_pending (st : tstate) (o : opcode) : tstate :=
  {| ts_labels := ts_labels st; ts_new := ts_new st; ts_energy := ts_energy st;
     ts_pending := ts_pending st ++ [o] |}.
Definition set_labels (st : tstate) (l : list blocktype) : tstate :=
  {| ts_labels := l; ts_new := ts_new st; ts_energy := ts_energy st; ts_pending := ts_pending st |}.
Definition add_energy (st : tstate) (e : N) : tstate :=
  {| ts_labels := ts_labels st; ts_new := ts_new st; ts_energy := ts_energy st + e;
     ts_pending := ts_pending st |}.

Definition add_instr_account_energy (st : tstate) (o : opcode) : option tstate :=
  match account_energy_push_pending st with
  | Some s => Some (add_to_new s o)
  | None => None
  end.

(** one iteration of the [for instr in input_instructions] loop of [run] *)
Definition tstep (st0 : tstate) (instr : opcode) : option tstate :=
  obind (c_cost cfg instr (ts_labels st0) cx) (fun c =>
  let st := add_energy st0 c in
  match instr with
  | OBlock bt => Some (add_to_pending (set_labels st (bt :: ts_labels st)) instr)
  | OLoop _ =>
      obind (account_energy_push_pending st) (fun s =>
      Some (add_to_new (set_labels s (None :: ts_labels s)) instr))
  | OIf ty =>
      obind (account_energy_push_pending st) (fun s =>
      Some (add_to_new (set_labels s (ty :: ts_labels s)) instr))
  | OBasic BReturn =>
      obind (account_energy_push_pending st) (fun s => Some (add_to_new s instr))
  | OEnd =>
      obind (account_energy_push_pending st) (fun s =>
      Some (add_to_new (set_labels s (tl (ts_labels s))) instr))
  | OElse =>
      obind (account_energy_push_pending st) (fun s =>
      match ts_labels s with
      | [] => None       (* "Else branch that does not have a label" *)
      | _ :: _ => Some (add_to_new s instr)
      end)
  | OBasic BMemoryGrow =>
      Some (add_to_pending (add_to_pending st (OBasic (BCall fn_idx_memory_alloc))) instr)
  | OBasic BUnreachable => add_instr_account_energy st instr
  | OBasic (BBr _) => add_instr_account_energy st instr
  | OBasic (BBrIf idx) =>
      obind (account_energy_push_pending st) (fun s =>
      obind (lookup_label (ts_labels s) idx) (fun label_arity =>
      if label_arity =? 0 then
        let s1 := add_to_new s (OIf None) in
        obind (account_energy s1 (c_branch cfg label_arity)) (fun s2 =>
        Some (add_to_new (add_to_new s2 (OBasic (BBr (idx + 1)%nat))) OEnd))
      else if label_arity =? 1 then
        let s1 := add_to_new s (OIf (Some T_i32)) in
        obind (account_energy s1 (c_branch cfg label_arity)) (fun s2 =>
        Some (add_to_new (add_to_new (add_to_new (add_to_new (add_to_new s2
               (OBasic (BConst T_i32 1%Z))) OElse) (OBasic (BConst T_i32 0%Z))) OEnd) (OBasic (BBrIf idx))))
      else None))
  | OBasic (BBrTable _ _) => add_instr_account_energy st instr
  | OBasic (BCall idx) => add_instr_account_energy st (OBasic (BCall (idx + num_added_functions)%nat))
  | OBasic (BCallIndirect _) => add_instr_account_energy st instr
  | _ => Some (add_to_pending st instr)
  end).

Fixpoint tloop (st : tstate) (ops : list opcode) : option tstate :=
  match ops with
  | [] => Some st
  | o :: r => obind (tstep st o) (fun s => tloop s r)
  end.

(** [InstrSeqTransformer::run] *)
Definition trun (st : tstate) (ops : list opcode) : option tstate :=
  obind (tloop st ops) (fun s =>
  match ts_pending s with
  | [] => Some s
  | _ :: _ => account_energy_push_pending s
  end).

(** [inject_accounting]: [num_declared_locals] = [function.num_locals - num_params];
    [result] = the function's result type; [ops] = the body including its final [End]. *)
Definition inject_accounting_flat (num_declared_locals : N) (result : blocktype) (ops : list opcode)
  : option (list opcode) :=
  let st := {| ts_labels := [result]; ts_new := []; ts_energy := c_invoke_after cfg num_declared_locals;
               ts_pending := [] |} in
  match trun st ops with Some s => Some (ts_new s) | None => None end.

(** ** 2. Structured presentation

    The structured transformer produces ANNOTATED instructions: every instruction of the output
    records whether it stems from a source instruction ([OSrc c tk]: [c] = the cost [get_cost]
    gives that source instruction in its source context; [tk] = the additional cost [branch] of
    a taken [br_if]) or was injected by the transformation ([OInj]).  [erase] forgets the
    annotation; the annotation only drives the event trace of [Wasm/SemTrace.v]. *)
Definition tick_opt (h : N) : list ainstr := if 0 <? h then [ABasic OInj (BTick h)] else [].
(** a segment of cost [h] can only be emitted if [h] fits u32 *)
Definition seg_ok (h : N) : bool := fits_u32 h.

(** the replacement of [br_if idx] (target label of arity 0 / 1); [c] = cost of the [br_if] *)
Definition brif_rewrite (c : N) (arity : N) (idx : nat) : option (list ainstr) :=
  let b := c_branch cfg arity in
  if negb (fits_u32 b) then None
  else if arity =? 0 then
    Some [AIf (OSrc c 0) None [ABasic OInj (BTick b); ABasic (OSrc b 0) (BBr (idx + 1)%nat)] []]
  else if arity =? 1 then
    Some [AIf (OSrc c 0) (Some T_i32) [ABasic OInj (BTick b); ABasic OInj (BConst T_i32 1%Z)]
                                      [ABasic OInj (BConst T_i32 0%Z)];
          ABasic (OSrc 0 b) (BBrIf idx)]
  else None.

(** how [run] treats a basic instruction *)
Inductive bkind := KPending | KFlushKeep | KCall (idx : nat) | KBrIf (idx : nat) | KMemGrow | KTick.
Definition kind_of (b : binstr) : bkind :=
  match b with
  | BUnreachable | BBr _ | BBrTable _ _ | BCallIndirect _ | BReturn => KFlushKeep
  | BCall idx => KCall idx
  | BBrIf idx => KBrIf idx
  | BMemoryGrow => KMemGrow
  | BTick _ => KTick   (* never in a parsed module; the structured presentation is not defined on it *)
  | _ => KPending
  end.

(** [mi L i] = [Some (h, pre, fl)]: the transformed form [pre] of the single instruction [i]
    (one or two instructions), the cost [h] that [i] contributes to the segment it is the head of, and
    whether the straight-line segment ends with [i] ([fl] = true: the instructions after [i] start a new
    segment and get their own tick).
    [mseq L is] = [Some (h, is')]: [h] = cost of the head segment of [is], [is'] = transformed
    sequence without the tick of the head segment.  The delimiters [End]/[Else] cost 0 in both
    schedules ([cost_positive]); [MeterFlat.flat_structured_agree] has that as hypothesis. *)
Definition mcombine (r : N * list ainstr * bool) (hr : N) (rest' : list ainstr) : option (N * list ainstr) :=
  let '(h, pre, fl) := r in
  if fl then (if seg_ok hr then Some (h, pre ++ tick_opt hr ++ rest') else None)
  else Some (h + hr, pre ++ rest').

Fixpoint mi (L : list blocktype) (i : instr) {struct i} : option (N * list ainstr * bool) :=
  let mseq_in := fix mseq_in (L' : list blocktype) (is : list instr) {struct is} : option (N * list ainstr) :=
    match is with
    | [] => Some (0, [])
    | j :: r =>
        match mseq_in L' r, mi L' j with
        | Some (hr, r'), Some x => mcombine x hr r'
        | _, _ => None
        end
    end in
  match i with
  | Basic b =>
      obind (c_cost cfg (OBasic b) L cx) (fun c =>
      match kind_of b with
      | KPending => Some (c, [ABasic (OSrc c 0) b], false)
      | KMemGrow => Some (c, [ABasic OInj (BCall fn_idx_memory_alloc); ABasic (OSrc c 0) b], false)
      | KFlushKeep => Some (c, [ABasic (OSrc c 0) b], true)
      | KCall idx => Some (c, [ABasic (OSrc c 0) (BCall (idx + num_added_functions)%nat)], true)
      | KBrIf idx =>
          obind (lookup_label L idx) (fun a =>
          obind (brif_rewrite c a idx) (fun rw => Some (c, rw, true)))
      | KTick => None
      end)
  | Block bt body =>
      obind (c_cost cfg (OBlock bt) L cx) (fun c =>
      obind (mseq_in (bt :: L) body) (fun '(hb, body') =>
      Some (c + hb, [ABlock (OSrc c 0) bt body'], true)))
  | Loop bt body =>
      obind (c_cost cfg (OLoop bt) L cx) (fun c =>
      obind (mseq_in (None :: L) body) (fun '(hb, body') =>
      if seg_ok hb then Some (c, [ALoop (OSrc c 0) bt (tick_opt hb ++ body')], true) else None))
  | If bt thn els =>
      obind (c_cost cfg (OIf bt) L cx) (fun c =>
      obind (mseq_in (bt :: L) thn) (fun '(ht, thn') =>
      obind (mseq_in (bt :: L) els) (fun '(he, els') =>
      if seg_ok ht && seg_ok he
      then Some (c, [AIf (OSrc c 0) bt (tick_opt ht ++ thn') (tick_opt he ++ els')], true)
      else None)))
  end.

Fixpoint mseq (L : list blocktype) (is : list instr) : option (N * list ainstr) :=
  match is with
  | [] => Some (0, [])
  | j :: r =>
      match mseq L r, mi L j with
      | Some (hr, r'), Some x => mcombine x hr r'
      | _, _ => None
      end
  end.

(** metered body of a function with [nl] declared locals and result type [result]:
    returns the amount of the entry tick's [invoke_after] part and the annotated body *)
Definition ameter_body (nl : N) (result : blocktype) (body : list instr) : option (list ainstr) :=
  obind (mseq [result] body) (fun '(h, body') =>
  let ia := c_invoke_after cfg nl in
  let e := ia + h in
  if seg_ok e then Some ((if 0 <? e then [ABasic (OSrc ia 0) (BTick e)] else []) ++ body') else None).

Definition meter_body (nl : N) (result : blocktype) (body : list instr) : option (list instr) :=
  match ameter_body nl result body with Some b => Some (erase_seq b) | None => None end.

(** the source program annotated with its own costs (what "work" means) *)
Fixpoint annot_instr (L : list blocktype) (i : instr) {struct i} : option ainstr :=
  let annot_in := fix annot_in (L' : list blocktype) (is : list instr) {struct is} : option (list ainstr) :=
    match is with
    | [] => Some []
    | j :: r => match annot_instr L' j, annot_in L' r with
                | Some a, Some r' => Some (a :: r')
                | _, _ => None
                end
    end in
  match i with
  | Basic b =>
      obind (c_cost cfg (OBasic b) L cx) (fun c =>
      match b with
      | BBrIf idx => obind (lookup_label L idx) (fun a => Some (ABasic (OSrc c (c_branch cfg a)) b))
      | _ => Some (ABasic (OSrc c 0) b)
      end)
  | Block bt body =>
      obind (c_cost cfg (OBlock bt) L cx) (fun c =>
      obind (annot_in (bt :: L) body) (fun body' => Some (ABlock (OSrc c 0) bt body')))
  | Loop bt body =>
      obind (c_cost cfg (OLoop bt) L cx) (fun c =>
      obind (annot_in (None :: L) body) (fun body' => Some (ALoop (OSrc c 0) bt body')))
  | If bt thn els =>
      obind (c_cost cfg (OIf bt) L cx) (fun c =>
      obind (annot_in (bt :: L) thn) (fun thn' =>
      obind (annot_in (bt :: L) els) (fun els' => Some (AIf (OSrc c 0) bt thn' els'))))
  end.
Fixpoint annot_seq (L : list blocktype) (is : list instr) : option (list ainstr) :=
  match is with
  | [] => Some []
  | j :: r => match annot_instr L j, annot_seq L r with
              | Some a, Some r' => Some (a :: r')
              | _, _ => None
              end
  end.

End WithConfig.

(** ** 3. [Module::inject_metering] *)
Definition account_memory_type : functype := {| ft_params := [T_i32]; ft_result := Some T_i32 |}.

Fixpoint omap_list {A B} (f : A -> option B) (l : list A) : option (list B) :=
  match l with
  | [] => Some []
  | x :: r => match f x, omap_list f r with Some y, Some r' => Some (y :: r') | _, _ => None end
  end.

Definition meter_func (cfg : cost_cfg) (m : module) (f : func) : option func :=
  match nth_error (m_types m) (f_type f) with
  | Some ft =>
      match meter_body cfg (ctx_of_module m) (N.of_nat (length (f_locals f))) (ft_result ft) (f_body f) with
      | Some b => Some {| f_type := f_type f; f_locals := f_locals f; f_body := b |}
      | None => None
      end
  | None => None
  end.

Definition shift_elems (es : list (N * list nat)) : list (N * list nat) :=
  map (fun e => (fst e, map (fun i => (i + num_added_functions)%nat) (snd e))) es.

Definition inject (cfg : cost_cfg) (m : module) : option module :=
  match omap_list (meter_func cfg m) (m_funcs m) with
  | Some fs =>
      Some {| m_types := m_types m ++ [account_memory_type];
              m_imports := length (m_types m) :: m_imports m;
              m_funcs := fs;
              m_table := m_table m;
              m_elems := shift_elems (m_elems m);
              m_mem := m_mem m;
              m_data := m_data m;
              m_globals := m_globals m |}
  | None => None
  end.

(** exported function indices ([Syntax.module] has no export section: an export is the function
    index the embedder invokes) *)
Definition inject_exports (es : list nat) : list nat := map (fun i => (i + num_added_functions)%nat) es.

(** flat form of a whole module's metered code, as the implementation stores it
    ([Module.code.impls[i].expr.instrs]) *)
Definition inject_flat (cfg : cost_cfg) (m : module) (bodies : list (list opcode)) : option (list (list opcode)) :=
  omap_list (fun fb : func * list opcode =>
    match nth_error (m_types m) (f_type (fst fb)) with
    | Some ft => inject_accounting_flat cfg (ctx_of_module m) (N.of_nat (length (f_locals (fst fb))))
                   (ft_result ft) (snd fb)
    | None => None
    end) (combine (m_funcs m) bodies).
