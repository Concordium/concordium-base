(** The LEB128 readers of [Wasm/Leb128.v]: bytes consumed, value ranges, round trip of the
    canonical unsigned encoding, and what is rejected. *)
From Coq Require Import ZArith NArith List Bool Lia.
From CB Require Import Wasm.Leb128.
Import ListNotations.
Local Open Scope N_scope.

(** the readers consume a non-empty prefix of at most [maxb] bytes *)
Lemma uread_bounded : forall maxb bs shift acc v r,
  uread maxb bs shift acc = Some (v, r) ->
  exists pre, bs = pre ++ r /\ (1 <= length pre <= maxb)%nat.
Proof.
  induction maxb as [|k IH]; intros bs shift acc v r; cbn [uread]; [discriminate|].
  destruct bs as [|b t]; [discriminate|].
  destruct ((shift =? 63) && negb (b =? 0) && negb (b =? 1)); [discriminate|].
  destruct (b <? 128).
  - intros E; inversion E; subst. exists [b]. cbn. split; auto. lia.
  - intros E. destruct (IH _ _ _ _ _ E) as (pre & -> & L). exists (b :: pre). cbn. split; auto. lia.
Qed.
Lemma sread_bounded : forall maxb bs shift acc v r,
  sread maxb bs shift acc = Some (v, r) ->
  exists pre, bs = pre ++ r /\ (1 <= length pre <= maxb)%nat.
Proof.
  induction maxb as [|k IH]; intros bs shift acc v r; cbn [sread]; [discriminate|].
  destruct bs as [|b t]; [discriminate|].
  destruct ((shift =? 63) && negb (b =? 0) && negb (b =? 127)); [discriminate|].
  destruct (b <? 128).
  - destruct ((shift + 7 <? 64) && (64 <=? b mod 128)); intros E; inversion E; subst; exists [b]; cbn; split; auto; lia.
  - intros E. destruct (IH _ _ _ _ _ E) as (pre & -> & L). exists (b :: pre). cbn. split; auto. lia.
Qed.

(** [decode_u32] (and [decode_u16] of the artifact format) read at full width and then narrow *)
Lemma uread_narrow_bounded maxb B bs v r :
  match uread maxb bs 0 0 with Some (v, r) => if v <? B then Some (v, r) else None | None => None end = Some (v, r) ->
  v < B /\ exists pre, bs = pre ++ r /\ (1 <= length pre <= maxb)%nat.
Proof.
  destruct (uread maxb bs 0 0) as [[v' r']|] eqn:E; [|discriminate].
  destruct (N.ltb_spec v' B); [|discriminate]. intros H'; inversion H'; subst.
  split; auto. eapply uread_bounded; eauto.
Qed.
Theorem decode_u32_bounded bs v r : decode_u32 bs = Some (v, r) ->
  v < 2 ^ 32 /\ exists pre, bs = pre ++ r /\ (1 <= length pre <= 5)%nat.
Proof. apply uread_narrow_bounded. Qed.
Theorem decode_u64_bounded bs v r : decode_u64 bs = Some (v, r) ->
  exists pre, bs = pre ++ r /\ (1 <= length pre <= 10)%nat.
Proof. apply uread_bounded. Qed.
Theorem decode_s32_bounded bs v r : decode_s32 bs = Some (v, r) ->
  (- 2 ^ 31 <= v < 2 ^ 31)%Z /\ exists pre, bs = pre ++ r /\ (1 <= length pre <= 5)%nat.
Proof.
  unfold decode_s32. destruct (sread 5 bs 0 0) as [[v' r']|] eqn:E; [|discriminate].
  destruct ((- 2 ^ 31 <=? v')%Z && (v' <? 2 ^ 31)%Z) eqn:B; [|discriminate]. intros H'; inversion H'; subst.
  apply andb_true_iff in B. destruct B as [B1 B2]. apply Z.leb_le in B1. apply Z.ltb_lt in B2.
  split; [split; assumption|]. eapply sread_bounded; eauto.
Qed.
Theorem decode_s64_bounded bs v r : decode_s64 bs = Some (v, r) ->
  exists pre, bs = pre ++ r /\ (1 <= length pre <= 10)%nat.
Proof. apply sread_bounded. Qed.

Lemma uenc_S f n : uenc (S f) n = if n <? 128 then [n] else (n mod 128 + 128) :: uenc f (n / 128).
Proof. reflexivity. Qed.
Lemma uread_S k b r shift acc : uread (S k) (b :: r) shift acc =
  if (shift =? 63) && negb (b =? 0) && negb (b =? 1) then None
  else if b <? 128 then Some (acc + (b mod 128) * 2 ^ shift, r)
       else uread k r (shift + 7) (acc + (b mod 128) * 2 ^ shift).
Proof. reflexivity. Qed.

Lemma uread_uenc : forall k n rest shift acc,
  n < 2 ^ (7 * N.of_nat (S k)) -> n * 2 ^ shift < 2 ^ 64 -> shift <= 63 ->
  uread (S k) (uenc (S k) n ++ rest) shift acc = Some (acc + n * 2 ^ shift, rest).
Proof.
  induction k as [|k IH]; intros n rest shift acc Hn Hs Hsh;
  rewrite uenc_S; destruct (N.ltb_spec n 128) as [Hlt|Hge].
  1, 3: cbn [app]; rewrite uread_S; rewrite (proj2 (N.ltb_lt n 128) Hlt);
    assert (G : (shift =? 63) && negb (n =? 0) && negb (n =? 1) = false)
      by (destruct (N.eqb_spec shift 63) as [->|]; [|reflexivity]; cbn [andb];
          assert (n < 2) by (change (2 ^ 64) with (2 * 2 ^ 63) in Hs; nia);
          destruct (N.eqb_spec n 0); [reflexivity|]; destruct (N.eqb_spec n 1); [reflexivity|]; lia);
    rewrite G; rewrite (N.mod_small n 128) by lia; reflexivity.
  - exfalso. change (2 ^ (7 * N.of_nat 1)) with 128 in Hn. lia.
  - rewrite <- app_comm_cons, uread_S. set (b := n mod 128 + 128).
    assert (Hb : b <? 128 = false) by (apply N.ltb_ge; unfold b; apply N.le_add_l).
    assert (Hm : b mod 128 = n mod 128).
    { unfold b. replace (n mod 128 + 128) with (n mod 128 + 1 * 128) by lia. rewrite N.mod_add by lia. apply N.mod_mod. lia. }
    assert (G : (shift =? 63) && negb (b =? 0) && negb (b =? 1) = false).
    { destruct (N.eqb_spec shift 63) as [->|]; [|reflexivity]. exfalso.
      change (2 ^ 64) with (2 * 2 ^ 63) in Hs. nia. }
    rewrite G, Hb, Hm.
    assert (Hp : 2 ^ (shift + 7) = 2 ^ shift * 128) by (rewrite N.pow_add_r; reflexivity).
    pose proof (N.div_mod n 128 ltac:(lia)) as DM.
    pose proof (N.mod_lt n 128 ltac:(lia)) as ML.
    assert (Hsh' : shift + 7 <= 63).
    { destruct (N.le_gt_cases (shift + 7) 63); auto. exfalso.
      assert (2 ^ 57 <= 2 ^ shift) by (apply N.pow_le_mono_r; lia).
      assert (2 ^ 64 <= n * 2 ^ shift). { change (2 ^ 64) with (128 * 2 ^ 57). nia. } lia. }
    rewrite IH.
    + f_equal. f_equal. rewrite Hp. nia.
    + replace (7 * N.of_nat (S (S k))) with (7 * N.of_nat (S k) + 7) in Hn by lia.
      rewrite N.pow_add_r in Hn. change (2 ^ 7) with 128 in Hn.
      apply N.div_lt_upper_bound; lia.
    + rewrite Hp. apply N.le_lt_trans with (n * 2 ^ shift); [|exact Hs].
      replace (n / 128 * (2 ^ shift * 128)) with ((n / 128 * 128) * 2 ^ shift) by ring.
      apply N.mul_le_mono_r. rewrite N.mul_comm. apply N.mul_div_le. discriminate.
    + exact Hsh'.
Qed.

Lemma uread_uenc_top k w n rest : w <= 7 * N.of_nat (S k) -> w <= 64 -> n < 2 ^ w ->
  uread (S k) (uenc (S k) n ++ rest) 0 0 = Some (n, rest).
Proof.
  intros Hk Hw Hn. rewrite uread_uenc.
  - rewrite N.pow_0_r, N.mul_1_r. reflexivity.
  - eapply N.lt_le_trans; [exact Hn|apply N.pow_le_mono_r; [discriminate|exact Hk]].
  - rewrite N.pow_0_r, N.mul_1_r. eapply N.lt_le_trans; [exact Hn|apply N.pow_le_mono_r; [discriminate|exact Hw]].
  - discriminate.
Qed.

Theorem leb_u32_roundtrip_thm n rest : n < 2 ^ 32 -> decode_u32 (uenc 5 n ++ rest) = Some (n, rest).
Proof.
  intros H. unfold decode_u32. rewrite (uread_uenc_top 4 32) by (discriminate || exact H).
  rewrite (proj2 (N.ltb_lt n (2 ^ 32)) H). reflexivity.
Qed.
Theorem leb_u64_roundtrip_thm n rest : n < 2 ^ 64 -> decode_u64 (uenc 10 n ++ rest) = Some (n, rest).
Proof. intros H. apply (uread_uenc_top 9 64); [discriminate|discriminate|exact H]. Qed.

(** non-minimal encodings within the length bound are accepted (the specification allows them);
    a sixth byte, or a set unused bit in the fifth byte, is rejected *)
Example leb_overlong_accepted : decode_u32 [0x80; 0x80; 0x00; 0x07] = Some (0, [0x07]).
Proof. reflexivity. Qed.
Theorem leb_u32_too_long_thm b1 b2 b3 b4 b5 r :
  128 <= b1 -> 128 <= b2 -> 128 <= b3 -> 128 <= b4 -> 128 <= b5 ->
  decode_u32 (b1 :: b2 :: b3 :: b4 :: b5 :: r) = None.
Proof.
  intros H1 H2 H3 H4 H5. unfold decode_u32. cbn [uread].
  repeat match goal with |- context [?b <? 128] => rewrite (proj2 (N.ltb_ge b 128)) by assumption end.
  cbn [N.eqb N.add andb]. reflexivity.
Qed.
(** the unused bits of the fifth byte: value bits 32..34 must be zero (unsigned) / equal to the sign (signed) *)
Example leb_u32_unused_bits :
  decode_u32 [0x80; 0x80; 0x80; 0x80; 0x10] = None /\
  decode_u32 [0x80; 0x80; 0x80; 0x80; 0x0f] = Some (4026531840, []) /\
  decode_s32 [0x80; 0x80; 0x80; 0x80; 0x08] = None /\
  decode_s32 [0x80; 0x80; 0x80; 0x80; 0x78] = Some ((-2147483648)%Z, []) /\
  decode_s32 [0x80; 0x80; 0x80; 0x80; 0x38] = None /\
  decode_s64 [0x80; 0x80; 0x80; 0x80; 0x80; 0x80; 0x80; 0x80; 0x80; 0x7f] = Some ((-9223372036854775808)%Z, []) /\
  decode_s64 [0x80; 0x80; 0x80; 0x80; 0x80; 0x80; 0x80; 0x80; 0x80; 0x7e] = None /\
  decode_u64 [0xff; 0xff; 0xff; 0xff; 0xff; 0xff; 0xff; 0xff; 0xff; 0x01] = Some (18446744073709551615, []) /\
  decode_u64 [0xff; 0xff; 0xff; 0xff; 0xff; 0xff; 0xff; 0xff; 0xff; 0x02] = None.
Proof. vm_compute. repeat split; reflexivity. Qed.
