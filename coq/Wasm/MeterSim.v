(** * Wasm/MeterSim — metering is TRANSPARENT: the metered module simulates the source module.

    For a source module [m] with [inject cfg m = Some m'], every run of a function of [m]
    (annotated with its own costs: [annot_funcs]) that neither runs out of fuel nor gets stuck is
    matched, for all sufficiently large fuel, by the run of the same function (index + 1) of [m']
    under the host [mhost h]:
    - same result, memory and globals (the table differs by the index shift only),
    - the same sequence of observable events: calls of the module's imports with the same
      arguments (the [account_memory] calls and the ticks erased), function entries/returns, and the
      same non-zero WORK items in the same order - i.e. the annotations that
      [MeterSafe.metered_run_prepaid_exact] sums on the metered trace are exactly the costs of the
      instructions the SOURCE run executes ([get_cost] per instruction, [branch] per taken br_if,
      [invoke_after] per entered function). *)
From Coq Require Import ZArith List Lia.
From CB Require Import Wasm.Syntax Wasm.Sem Wasm.CostCtx Wasm.Meter Wasm.SemTrace Wasm.MeterProofs Wasm.SemTraceProofs Wasm.TraceEval Wasm.MeterSafe.
Import ListNotations.
Local Open Scope Z_scope.

(** ** stores of the metered module: function indices in the table are shifted by one *)
Definition sh (s : store) : store :=
  {| s_mem := s_mem s; s_globals := s_globals s; s_table := map (option_map S) (s_table s) |}.
Definition sh_step (x : step_result) : step_result :=
  match x with inr (s', l', st') => inr (sh s', l', st') | inl b => inl b end.

Lemma exec_simple_sh cap b s l st : exec_simple cap b (sh s) l st = sh_step (exec_simple cap b s l st).
Proof.
  unfold exec_simple, ok, trap, stuck, with_mem, set_mem, set_globals, sh_step.
  destruct b; cbn [s_mem s_globals sh];
  repeat (match goal with
          | |- context [match ?x with _ => _ end] =>
              match x with
              | context [match _ with _ => _ end] => fail 1
              | _ => destruct x eqn:?
              end
          end; cbn [s_mem s_globals s_table sh]); try reflexivity.
Qed.

Lemma sh_set_mem s mm : set_mem (sh s) mm = sh (set_mem s mm).
Proof. reflexivity. Qed.
Lemma set_mem_same s : set_mem s (s_mem s) = s.
Proof. destruct s; reflexivity. Qed.

Definition pm (e : event) : option event :=
  match e with
  | EvTick _ => None
  | EvWork c => if (0 <? c)%N then Some (EvWork c) else None
  | EvHost O _ => None
  | EvHost (S j) a => Some (EvHost j a)
  | EvCall fi => Some (EvCall (pred fi))
  | EvRet => Some EvRet
  end.
Definition ps (e : event) : option event :=
  match e with
  | EvTick _ => None
  | EvWork c => if (0 <? c)%N then Some (EvWork c) else None
  | e => Some e
  end.
Fixpoint omapf {A B} (f : A -> option B) (l : list A) : list B :=
  match l with [] => [] | x :: r => match f x with Some y => y :: omapf f r | None => omapf f r end end.
Definition obs_m := omapf pm.
Definition obs_s := omapf ps.
Lemma omapf_app {A B} (f : A -> option B) a b : omapf f (a ++ b) = omapf f a ++ omapf f b.
Proof. induction a as [|x a IH]; [reflexivity|]. cbn. destruct (f x); cbn; rewrite IH; reflexivity. Qed.
Lemma obs_m_app a b : obs_m (a ++ b) = obs_m a ++ obs_m b. Proof. apply omapf_app. Qed.
Lemma obs_s_app a b : obs_s (a ++ b) = obs_s a ++ obs_s b. Proof. apply omapf_app. Qed.

Lemma obs_work o : obs_m (ev_work o) = obs_s (ev_work o).
Proof. destruct o; reflexivity. Qed.
Lemma obs_m_tick_opt h : obs_m (match tick_opt h with [] => [] | _ => [EvTick h] end) = [].
Proof. destruct (tick_opt h); reflexivity. Qed.

(** ** result relation (source result, metered result) in label context [L] *)
Definition RR (L : list blocktype) (r r' : res) : Prop :=
  match r, r' with
  | RNormal s l st, RNormal s' l' st' => s' = sh s /\ l' = l /\ st' = st
  | RBr k s l vs, RBr k' s' l' vs' =>
      k' = k /\ s' = sh s /\ l' = l /\
      (forall bt, nth_error L k = Some bt -> firstn (arity bt) vs' = firstn (arity bt) vs)
  | RReturn s vs, RReturn s' vs' => s' = sh s /\ vs' = vs
  | RTrap, RTrap => True
  | _, _ => False
  end.
Definition good (r : res) : bool := match r with RFuel | RStuck => false | _ => true end.

Lemma RR_blk bt L st r r' : RR (bt :: L) r r' -> RR L (blk_res bt st r) (blk_res bt st r').
Proof.
  destruct r as [s l vs|k s l vs|s vs| | |], r' as [s' l' vs'|k' s' l' vs'|s' vs'| | |]; cbn; try tauto.
  - intros [-> [-> ->]]. auto.
  - intros [-> [-> [-> H]]]. destruct k as [|k]; cbn.
    + rewrite (H bt eq_refl). auto.
    + repeat split; auto.
Qed.
Lemma RR_normal_inv L s l st r' : RR L (RNormal s l st) r' -> r' = RNormal (sh s) l st.
Proof. destruct r'; cbn; try tauto. intros [-> [-> ->]]. reflexivity. Qed.
Lemma good_blk bt st r : good (blk_res bt st r) = good r.
Proof. destruct r as [| [|k] | | | |]; reflexivity. Qed.

Section Annot.
Variable cfg : cost_cfg.
Variable cx : cost_ctx.
Lemma annot_seq_cons L j r :
  annot_seq cfg cx L (j :: r) = match annot_instr cfg cx L j, annot_seq cfg cx L r with
                                | Some a, Some r' => Some (a :: r')
                                | _, _ => None
                                end.
Proof. reflexivity. Qed.
Lemma annot_instr_eq L i :
  annot_instr cfg cx L i =
  match i with
  | Basic b =>
      obind (c_cost cfg (OBasic b) L cx) (fun c =>
      match b with
      | BBrIf idx => obind (lookup_label L idx) (fun a => Some (ABasic (OSrc c (c_branch cfg a)) b))
      | _ => Some (ABasic (OSrc c 0) b)
      end)
  | Block bt body =>
      obind (c_cost cfg (OBlock bt) L cx) (fun c =>
      obind (annot_seq cfg cx (bt :: L) body) (fun body' => Some (ABlock (OSrc c 0) bt body')))
  | Loop bt body =>
      obind (c_cost cfg (OLoop bt) L cx) (fun c =>
      obind (annot_seq cfg cx (None :: L) body) (fun body' => Some (ALoop (OSrc c 0) bt body')))
  | If bt thn els =>
      obind (c_cost cfg (OIf bt) L cx) (fun c =>
      obind (annot_seq cfg cx (bt :: L) thn) (fun thn' =>
      obind (annot_seq cfg cx (bt :: L) els) (fun els' => Some (AIf (OSrc c 0) bt thn' els'))))
  end.
Proof.
  assert (E : forall is L',
    (fix annot_in (L' : list blocktype) (is : list instr) {struct is} : option (list ainstr) :=
       match is with
       | [] => Some []
       | j :: r => match annot_instr cfg cx L' j, annot_in L' r with
                   | Some a, Some r' => Some (a :: r')
                   | _, _ => None
                   end
       end) L' is = annot_seq cfg cx L' is).
  { induction is as [|j r IH]; intro L'; [reflexivity|].
    rewrite annot_seq_cons. cbv beta iota fix. rewrite IH. reflexivity. }
  destruct i; cbn [annot_instr]; try reflexivity; rewrite ?E; reflexivity.
Qed.
End Annot.

Lemma omap_list_nth {A B} (g : A -> option B) l l' k x :
  omap_list g l = Some l' -> nth_error l k = Some x -> exists y, nth_error l' k = Some y /\ g x = Some y.
Proof.
  revert l' k. induction l as [|a l IH]; intros l' k H Hk; [destruct k; discriminate|].
  cbn in H. destruct (g a) eqn:Ea; [|discriminate]. destruct (omap_list g l) eqn:El; [|discriminate].
  inversion H; subst. destruct k; cbn in *.
  - inversion Hk; subst. eauto.
  - eapply IH; eauto.
Qed.
Lemma omap_list_nth_inv {A B} (g : A -> option B) l l' k y :
  omap_list g l = Some l' -> nth_error l' k = Some y -> exists x, nth_error l k = Some x /\ g x = Some y.
Proof.
  revert l' k. induction l as [|a l IH]; intros l' k H Hk; cbn in H.
  - inversion H; subst. destruct k; discriminate.
  - destruct (g a) eqn:Ea; [|discriminate]. destruct (omap_list g l) eqn:El; [|discriminate].
    inversion H; subst. destruct k; cbn in *.
    + inversion Hk; subst. eauto.
    + eapply IH; eauto.
Qed.

Section Sim.
Variable cfg : cost_cfg.
Variable m m' : module.
Variable afs_s afs_m : list afunc.
Variable h : nat -> list val -> option memory -> host_result.
Variable cap : N.
Hypothesis Hinj : inject cfg m = Some m'.
Hypothesis Hs : annot_funcs cfg m = Some afs_s.
Hypothesis Hm : ameter_funcs cfg m = Some afs_m.
Notation cx := (ctx_of_module m).

Notation X_seq := (texec_seq h cap m afs_s).
Notation X_instr := (texec_instr h cap m afs_s).
Notation X_inv := (tinvoke h cap m afs_s).
Notation ESm := (ES (mhost h) cap m' afs_m).
Notation EIm := (EI (mhost h) cap m' afs_m).
Notation EVm := (EV (mhost h) cap m' afs_m).
Notation mseq := (mseq cfg cx).
Notation mi := (mi cfg cx).
Notation annot_seq := (annot_seq cfg cx).
Notation annot_instr := (annot_instr cfg cx).

Lemma types' : m_types m' = m_types m ++ [account_memory_type].
Proof. exact (proj1 (inject_types_imports _ _ _ Hinj)). Qed.
Lemma imports' : m_imports m' = length (m_types m) :: m_imports m.
Proof. exact (proj2 (inject_types_imports _ _ _ Hinj)). Qed.

Lemma nth_types' ti ft : nth_opt (m_types m) ti = Some ft -> nth_opt (m_types m') ti = Some ft.
Proof.
  unfold nth_opt. intro H. rewrite types'. rewrite nth_error_app1; [exact H|].
  apply nth_error_Some. congruence.
Qed.

Definition entry_tick (ia h0 : N) : list ainstr :=
  if (0 <? ia + h0)%N then [ABasic (OSrc ia 0) (BTick (ia + h0))] else [].

Lemma func_pair k fs :
  nth_opt afs_s k = Some fs ->
  exists f ft sa h0 body',
    nth_error (m_types m) (f_type f) = Some ft /\
    annot_seq [ft_result ft] (f_body f) = Some sa /\
    mseq [ft_result ft] (f_body f) = Some (h0, body') /\
    let ia := c_invoke_after cfg (N.of_nat (length (f_locals f))) in
    fs = {| af_type := f_type f; af_locals := f_locals f; af_entry := ia; af_body := sa |} /\
    nth_opt afs_m k = Some {| af_type := f_type f; af_locals := f_locals f; af_entry := 0%N;
                              af_body := entry_tick ia h0 ++ body' |}.
Proof.
  intro Hk. pose proof Hs as Hs'. pose proof Hm as Hm'. unfold annot_funcs in Hs'. unfold ameter_funcs in Hm'.
  destruct (omap_list_nth_inv _ _ _ _ _ Hs' Hk) as [f [Hf Hfs]].
  destruct (omap_list_nth _ _ _ _ _ Hm' Hf) as [fm [Hfm Hmf]].
  unfold annot_func in Hfs. unfold ameter_func, ameter_body in Hmf.
  destruct (nth_error (m_types m) (f_type f)) as [ft|] eqn:Eft;
    rewrite ?Eft in Hfs, Hmf; [|discriminate Hfs].
  match type of Hfs with context [Meter.annot_seq ?a ?b ?c ?d] =>
    destruct (Meter.annot_seq a b c d) as [sa|] eqn:Esa; [|discriminate Hfs] end.
  match type of Hmf with context [Meter.mseq ?a ?b ?c ?d] =>
    destruct (Meter.mseq a b c d) as [[h0 body']|] eqn:Ems; cbn [obind] in Hmf; [|discriminate Hmf] end.
  destruct (seg_ok _); [|discriminate Hmf].
  inversion Hfs; inversion Hmf; subst.
  exists f, ft, sa, h0, body'. repeat split; auto.
Qed.

Lemma atype_shift fi ft : afunc_type m afs_s fi = Some ft -> afunc_type m' afs_m (S fi) = Some ft.
Proof.
  unfold afunc_type. rewrite imports'. cbn [length].
  change (S fi <? S (length (m_imports m)))%nat with (fi <? length (m_imports m))%nat.
  destruct (fi <? length (m_imports m))%nat.
  - cbn [nth_opt nth_error]. unfold nth_opt. destruct (nth_error (m_imports m) fi) as [ti|]; [|discriminate].
    apply nth_types'.
  - cbn [Nat.sub]. destruct (nth_opt afs_s (fi - length (m_imports m))) as [fs|] eqn:E; [|discriminate].
    destruct (func_pair _ _ E) as [f [ft0 [sa [h0 [body' [Hft [_ [_ [Hfs Hfm]]]]]]]]].
    rewrite Hfm. subst fs. cbn [af_type]. apply nth_types'.
Qed.

Lemma is_local_shift fi : is_local m' (S fi) = is_local m fi.
Proof. unfold is_local. rewrite imports'. reflexivity. Qed.
Lemma obs_ev_call fi : obs_m (ev_call m' (S fi)) = obs_s (ev_call m fi).
Proof. unfold ev_call. rewrite is_local_shift. destruct (is_local m fi); reflexivity. Qed.

(** ** the simulation statements (source fuel [f]; the metered side holds for all large fuel) *)
Definition shv (r : sum res (store * option val)) : sum res (store * option val) :=
  match r with inr (s', v) => inr (sh s', v) | inl r0 => inl r0 end.
Definition goodv (r : sum res (store * option val)) : bool :=
  match r with inl r0 => good r0 | inr _ => true end.

Definition SimA (f : nat) : Prop :=
  forall L is h0 is' sa, mseq L is = Some (h0, is') -> annot_seq L is = Some sa ->
  forall s l st W r, X_seq f s l st sa = (W, r) -> good r = true ->
  exists T r', ESm is' (sh s) l st T r' /\ RR L r r' /\ obs_m T = obs_s W.
Definition SimInv (f : nat) : Prop :=
  forall s fi args W r, X_inv f s fi args = (W, r) -> goodv r = true ->
  exists T, EVm (sh s) (S fi) args T (shv r) /\ obs_m T = obs_s W.
Definition SimLoop (f : nat) : Prop :=
  forall L body hb body' sbody o bt,
  mseq (None :: L) body = Some (hb, body') -> annot_seq (None :: L) body = Some sbody ->
  forall s l st W r, X_instr f s l st (ALoop o bt sbody) = (W, r) -> good r = true ->
  exists T r', EIm (ALoop o bt (tick_opt hb ++ body')) (sh s) l st T r' /\ RR L r r' /\ obs_m T = obs_s W.

(** a source step that is neither stuck nor out of fuel is one interpreter step, in the cases of [IB] *)
Lemma src_step f s l st a t r : X_instr f s l st a = (t, r) -> good r = true ->
  exists f', f = S f' /\ IB cap m afs_s (X_seq f') (X_instr f') (X_inv f') s l st a t r.
Proof.
  intros H Hg. destruct f as [|f]; [inversion H; subst; discriminate|].
  exists f. split; [reflexivity|]. apply instr_body_shape. exact H.
Qed.

Lemma EI_tick o n s l st : EIm (ABasic o (BTick n)) s l st (EvTick n :: ev_work o) (RNormal s l st).
Proof. apply (EI_simple (mhost h) cap m' afs_m o (BTick n) s l st eq_refl). Qed.

Lemma ES_tick_opt hh is' s l st T r :
  ESm is' s l st T r -> exists T', ESm (tick_opt hh ++ is') s l st T' r /\ obs_m T' = obs_m T.
Proof.
  intro H. unfold tick_opt. destruct (0 <? hh)%N.
  - exists ((EvTick hh :: ev_work OInj) ++ T). split; [|reflexivity].
    eapply (ES_cons_normal (mhost h) cap m' afs_m); [apply EI_tick|exact H].
  - exists T. split; [exact H|reflexivity].
Qed.

Lemma RR_good L r r' : RR L r r' -> good r = true.
Proof. destruct r, r'; cbn; tauto. Qed.
Lemma RR_normal_iff L r r' : RR L r r' -> is_normal r' = is_normal r.
Proof. destruct r, r'; cbn; tauto. Qed.

Lemma fin_result_sh ft s' vs vs' :
  firstn (arity (ft_result ft)) vs' = firstn (arity (ft_result ft)) vs ->
  fin_result ft (sh s') vs' = (fst (fin_result ft s' vs), shv (snd (fin_result ft s' vs))).
Proof.
  unfold fin_result. destruct (ft_result ft); cbn [arity]; [|reflexivity].
  destruct vs, vs'; cbn [firstn]; intro H; try discriminate; try reflexivity. inversion H; reflexivity.
Qed.

Lemma inv_res_sh ft r r' :
  RR [ft_result ft] r r' ->
  inv_res ft r' = (fst (inv_res ft r), shv (snd (inv_res ft r))).
Proof.
  destruct r as [s1 l1 vs|k s1 l1 vs|s1 vs| | |], r' as [s2 l2 vs'|k' s2 l2 vs'|s2 vs'| | |]; cbn [RR]; try tauto.
  - intros [-> [-> ->]]. cbn [inv_res]. apply fin_result_sh. reflexivity.
  - intros [-> [-> [-> H]]]. destruct k; cbn [inv_res]; [|reflexivity]. apply fin_result_sh. apply H. reflexivity.
  - intros [-> ->]. cbn [inv_res]. apply fin_result_sh. reflexivity.
Qed.

Lemma simInv_step f : (forall f', (f' < f)%nat -> SimA f') -> SimInv f.
Proof.
  intros HA s fi args W r H Hg. destruct f as [|f]; [inversion H; subst; discriminate|].
  rewrite tinv_S in H.
  destruct (inv_body_shape _ _ _ _ _ _ _ _ _ H) as [[-> ->]|[(Eimp & (ft & Eft) & -> & ->)|(fs & ft & t & r1 & Eimp & Efs & Hft' & Et & -> & ->)]].
  - discriminate Hg.
  - exists [EvHost (S fi) args]. split; [|reflexivity].
    assert (El : (S fi <? length (m_imports m'))%nat = true) by (rewrite imports'; exact Eimp).
    pose proof (EV_host (mhost h) cap m' afs_m (sh s) (S fi) args ft El (atype_shift _ _ Eft)) as E.
    cbn [mhost s_mem sh] in E. destruct (h fi args (s_mem s)); exact E.
  - destruct (func_pair _ _ Efs) as [fn [ft0 [sa [h0 [body' [Hft [Hsa [Hms [Hfs Hfm]]]]]]]]].
    subst fs. cbn [af_type af_locals af_body af_entry] in *.
    unfold nth_opt in Hft'. rewrite Hft in Hft'. inversion Hft'; subst ft0; clear Hft'.
    assert (Hg1 : good r1 = true).
    { destruct r1 as [| [|k] | | | |]; try reflexivity; cbn in Hg; discriminate Hg. }
    destruct (HA f (Nat.lt_succ_diag_r f) [ft_result ft] (f_body fn) h0 body' sa Hms Hsa _ _ _ _ _ Et Hg1)
      as [T [r1' [HES [HRR Hobs]]]].
    set (ia := c_invoke_after cfg (N.of_nat (length (f_locals fn)))) in *.
    assert (HB : exists T', ESm (entry_tick ia h0 ++ body') (sh s) (args ++ map zero_of (f_locals fn)) [] T' r1'
                            /\ obs_m T' = obs_s [EvWork ia] ++ obs_m T).
    { unfold entry_tick. destruct (0 <? ia + h0)%N eqn:E0.
      - exists ((EvTick (ia + h0) :: ev_work (OSrc ia 0)) ++ T). split.
        + eapply (ES_cons_normal (mhost h) cap m' afs_m); [apply EI_tick|exact HES].
        + rewrite obs_m_app. apply f_equal2; [cbn; destruct (0 <? ia)%N; reflexivity|reflexivity].
      - exists T. split; [exact HES|]. apply N.ltb_ge in E0. assert (ia = 0%N) by lia.
        replace ia with 0%N. reflexivity. }
    destruct HB as [T' [HES' Hobs']].
    assert (El : (S fi <? length (m_imports m'))%nat = false) by (rewrite imports'; exact Eimp).
    assert (Hn : nth_opt afs_m (S fi - length (m_imports m')) =
                 Some {| af_type := f_type fn; af_locals := f_locals fn; af_entry := 0%N;
                         af_body := entry_tick ia h0 ++ body' |}) by (rewrite imports'; exact Hfm).
    pose proof (EV_local (mhost h) cap m' afs_m (sh s) (S fi) args _ ft T' r1' El Hn (nth_types' _ _ Hft) HES') as E.
    cbn [af_entry] in E. rewrite (inv_res_sh ft r1 r1' HRR) in E. cbn [fst snd] in E.
    eexists. split; [exact E|].
    change (EvWork 0%N :: T' ++ fst (inv_res ft r1)) with ([EvWork 0%N] ++ T' ++ fst (inv_res ft r1)).
    change (EvWork ia :: t ++ fst (inv_res ft r1)) with ([EvWork ia] ++ t ++ fst (inv_res ft r1)).
    rewrite !obs_m_app, !obs_s_app, Hobs', Hobs.
    change (obs_m [EvWork 0%N]) with (@nil event). cbn [app]. rewrite <- app_assoc. do 2 f_equal.
    destruct (inv_res_cases ft r1) as [(x & -> & _)|(r0 & -> & _)]; reflexivity.
Qed.

Lemma RR_loop bt L st r r' :
  RR (None :: L) r r' -> is_br0 r = false -> RR L (blk_res bt st r) (blk_res bt st r').
Proof.
  destruct r as [s1 l1 vs|k s1 l1 vs|s1 vs| | |], r' as [s2 l2 vs'|k' s2 l2 vs'|s2 vs'| | |]; cbn; try tauto.
  - intros [-> [-> ->]] _. auto.
  - intros [-> [-> [-> H]]]. destruct k as [|k]; [discriminate|]. intros _. cbn. repeat split; auto.
Qed.

Lemma simLoop_step f :
  (forall f', (f' < f)%nat -> SimA f') -> (forall f', (f' < f)%nat -> SimLoop f') -> SimLoop f.
Proof.
  intros HA HL L body hb body' sbody o bt Hms Hsa s l st W r H Hg.
  destruct (src_step _ _ _ _ _ _ _ H Hg) as (f' & -> & HB). inversion HB; subst; [discriminate Hg| |].
  - (* the loop is left *)
    rewrite good_blk in Hg.
    edestruct (HA f' (Nat.lt_succ_diag_r f')) as [T1 [r1' [HES [HRR Hobs]]]]; [exact Hms|exact Hsa|eassumption|exact Hg|].
    destruct (ES_tick_opt hb _ _ _ _ _ _ HES) as [T1' [HES' Hobs']].
    exists (ev_work o ++ T1'), (blk_res bt st r1'). split; [|split].
    + apply (EI_loop_exit (mhost h) cap m' afs_m); [exact HES'|].
      destruct r0 as [|[|k]| | | |], r1'  as [|[|k']| | | |]; cbn in HRR; try tauto; try reflexivity; try discriminate.
      destruct HRR as [HH _]; discriminate.
    + apply RR_loop; assumption.
    + rewrite !obs_m_app, !obs_s_app, obs_work, Hobs', Hobs. reflexivity.
  - (* the body branches back: next iteration *)
    edestruct (HA f' (Nat.lt_succ_diag_r f')) as [T1 [r1' [HES [HRR Hobs]]]]; [exact Hms|exact Hsa|eassumption|reflexivity|].
    destruct (ES_tick_opt hb _ _ _ _ _ _ HES) as [T1' [HES' Hobs']].
    destruct r1' as [|k' s2 l2 vs'| | | |]; try (cbn in HRR; tauto). destruct HRR as [-> [-> [-> _]]].
    edestruct (HL f' (Nat.lt_succ_diag_r f') L body hb body' sbody OInj bt Hms Hsa) as [T2 [r2' [HEI [HRR2 Hobs2]]]];
      [eassumption|exact Hg|].
    exists (ev_work o ++ T1' ++ T2), r2'. split; [|split; [exact HRR2|]].
    + eapply (EI_loop_again (mhost h) cap m' afs_m); eassumption.
    + rewrite !obs_m_app, !obs_s_app, obs_work, Hobs', Hobs, Hobs2. reflexivity.
Qed.

Notation EPm := (EP (mhost h) cap m' afs_m).

Definition InstrSim (f : nat) : Prop :=
  forall L j hj pre fl a, mi L j = Some (hj, pre, fl) -> annot_instr L j = Some a ->
  forall s l st t1 r1, X_instr f s l st a = (t1, r1) -> good r1 = true ->
  exists T1 r1', EPm pre (sh s) l st T1 r1' /\ RR L r1 r1' /\ obs_m T1 = obs_s t1.

Lemma RR_step L x : good (res_of_step x) = true -> RR L (res_of_step x) (res_of_step (sh_step x)).
Proof. destruct x as [[|]|[[s' l'] st']]; cbn; auto; discriminate. Qed.

Lemma sim_simple f L c b s l st t1 r1 :
  simple_b b = true ->
  X_instr f s l st (ABasic (OSrc c 0) b) = (t1, r1) -> good r1 = true ->
  exists T1 r1', EIm (ABasic (OSrc c 0) b) (sh s) l st T1 r1' /\ RR L r1 r1' /\ obs_m T1 = obs_s t1.
Proof.
  intros Hb H Hg. destruct f as [|f]; [inversion H; subst; discriminate|].
  rewrite tinstr_S, instr_body_simple in H by exact Hb. inversion H; subst; clear H.
  exists (simple_events (OSrc c 0) b), (res_of_step (exec_simple cap b (sh s) l st)).
  split; [apply EI_simple; exact Hb|]. rewrite exec_simple_sh. split; [apply RR_step; exact Hg|].
  destruct b; reflexivity.
Qed.

Lemma table_sh s c :
  (if c <? Z.of_nat (length (s_table (sh s))) then nth_opt (s_table (sh s)) (Z.to_nat c) else None) =
  option_map (option_map S)
    (if c <? Z.of_nat (length (s_table s)) then nth_opt (s_table s) (Z.to_nat c) else None).
Proof.
  cbn [sh s_table]. rewrite map_length. destruct (c <? _); [|reflexivity]. unfold nth_opt. apply nth_error_map.
Qed.

Lemma table_sh_some s c fi :
  (if c <? Z.of_nat (length (s_table s)) then nth_opt (s_table s) (Z.to_nat c) else None) = Some (Some fi) ->
  (if c <? Z.of_nat (length (s_table (sh s))) then nth_opt (s_table (sh s)) (Z.to_nat c) else None) = Some (Some (S fi)).
Proof. intro E. rewrite table_sh, E. reflexivity. Qed.
Lemma table_sh_undef s c :
  match (if c <? Z.of_nat (length (s_table s)) then nth_opt (s_table s) (Z.to_nat c) else None) with
  | Some (Some _) => False | _ => True end ->
  match (if c <? Z.of_nat (length (s_table (sh s))) then nth_opt (s_table (sh s)) (Z.to_nat c) else None) with
  | Some (Some _) => False | _ => True end.
Proof. rewrite table_sh. destruct (if c <? _ then _ else _) as [[fi|]|]; auto. Qed.

Lemma atype0 : afunc_type m' afs_m 0 = Some account_memory_type.
Proof.
  unfold afunc_type. rewrite imports'. cbn [length Nat.ltb Nat.leb nth_opt nth_error].
  unfold nth_opt. rewrite types'. rewrite nth_error_app2 by lia. rewrite Nat.sub_diag. reflexivity.
Qed.

Lemma sim_callres f0 L s fi args t rv l st :
  SimInv f0 ->
  X_inv f0 s fi args = (t, rv) -> good (call_res l st rv) = true ->
  exists T, EVm (sh s) (S fi) args T (shv rv) /\ obs_m T = obs_s t /\
            RR L (call_res l st rv) (call_res l st (shv rv)).
Proof.
  intros HI H Hg.
  assert (Hgv : goodv rv = true) by (destruct rv as [r0|[s' v]]; [exact Hg|reflexivity]).
  destruct (HI _ _ _ _ _ H Hgv) as [T [HEV Hobs]]. exists T. repeat split; auto.
  destruct rv as [r0|[s' v]]; cbn.
  - destruct (tinv_inl_shape _ _ _ _ _ _ _ _ _ _ H) as [-> | [-> | ->]]; cbn; auto; discriminate.
  - auto.
Qed.

Lemma kind_pending b : kind_of b = KPending ->
  simple_b b = true /\ (forall n, b <> BTick n) /\ (forall idx, b <> BBrIf idx).
Proof. destruct b; cbn; intro H; try discriminate; repeat split; intros; discriminate. Qed.

Lemma label_arity0 L idx bt : lookup_label L idx = Some 0%N -> nth_error L idx = Some bt -> arity bt = 0%nat.
Proof. unfold lookup_label. intros H E. rewrite E in H. destruct bt; [discriminate|reflexivity]. Qed.

Lemma obs_pre o T t : obs_m T = obs_s t -> obs_m (ev_work o ++ T) = obs_s (ev_work o ++ t).
Proof. intro H. rewrite obs_m_app, obs_s_app, obs_work, H. reflexivity. Qed.

Lemma obs_call o fi T t : obs_m T = obs_s t ->
  obs_m (ev_work o ++ ev_call m' (S fi) ++ T) = obs_s (ev_work o ++ ev_call m fi ++ t).
Proof. intro H. rewrite !obs_m_app, !obs_s_app, obs_ev_call, obs_work, H. reflexivity. Qed.

Lemma sim_call f L c idx s l st t1 r1 :
  (forall f', (f' < f)%nat -> SimInv f') ->
  X_instr f s l st (ABasic (OSrc c 0) (BCall idx)) = (t1, r1) -> good r1 = true ->
  exists T1 r1', EIm (ABasic (OSrc c 0) (BCall (idx + num_added_functions))) (sh s) l st T1 r1' /\
                 RR L r1 r1' /\ obs_m T1 = obs_s t1.
Proof.
  intros HI H Hg. destruct (src_step _ _ _ _ _ _ _ H Hg) as (f' & -> & HB). inversion HB; subst; try discriminate.
  edestruct (sim_callres f' L) as [T [HEV [Hobs HRR]]]; [exact (HI f' (Nat.lt_succ_diag_r f'))|eassumption|exact Hg|].
  replace (idx + num_added_functions)%nat with (S idx) by (unfold num_added_functions; lia).
  eexists. eexists. split; [eapply (EI_call (mhost h) cap m' afs_m); [apply atype_shift; eassumption|eassumption|exact HEV]|].
  split; [exact HRR|]. apply (obs_call (OSrc c 0)); exact Hobs.
Qed.

Lemma sim_call_indirect f L c ti s l st t1 r1 :
  (forall f', (f' < f)%nat -> SimInv f') ->
  X_instr f s l st (ABasic (OSrc c 0) (BCallIndirect ti)) = (t1, r1) -> good r1 = true ->
  exists T1 r1', EIm (ABasic (OSrc c 0) (BCallIndirect ti)) (sh s) l st T1 r1' /\
                 RR L r1 r1' /\ obs_m T1 = obs_s t1.
Proof.
  intros HI H Hg. destruct (src_step _ _ _ _ _ _ _ H Hg) as (f' & -> & HB). inversion HB; subst; try discriminate.
  - edestruct (sim_callres f' L) as [T [HEV [Hobs HRR]]]; [exact (HI f' (Nat.lt_succ_diag_r f'))|eassumption|exact Hg|].
    eexists. eexists.
    split; [eapply (EI_call_indirect (mhost h) cap m' afs_m);
            [apply nth_types'; eassumption|apply table_sh_some; eassumption|apply atype_shift; eassumption
            |eassumption|eassumption|exact HEV]|].
    split; [exact HRR|]. apply (obs_call (OSrc c 0)); exact Hobs.
  - eexists. exists RTrap.
    split; [eapply (EI_call_indirect_mismatch (mhost h) cap m' afs_m);
            [apply nth_types'; eassumption|apply table_sh_some; eassumption|apply atype_shift; eassumption
            |eassumption]|].
    split; [exact I|]. pose proof (obs_call (OSrc c 0) fi [] [] eq_refl) as Ho. rewrite !app_nil_r in Ho. exact Ho.
  - eexists. exists RTrap.
    split; [eapply (EI_call_indirect_undef (mhost h) cap m' afs_m); [apply nth_types'; eassumption|apply table_sh_undef; assumption]|].
    split; [exact I|reflexivity].
Qed.

(** memory.grow: the injected call of import 0 returns its argument and leaves the store alone *)
Lemma sim_memgrow f L c s l st t1 r1 :
  X_instr f s l st (ABasic (OSrc c 0) BMemoryGrow) = (t1, r1) -> good r1 = true ->
  exists T1 r1', EPm [ABasic OInj (BCall fn_idx_memory_alloc); ABasic (OSrc c 0) BMemoryGrow] (sh s) l st T1 r1'
                 /\ RR L r1 r1' /\ obs_m T1 = obs_s t1.
Proof.
  intros H Hg.
  destruct (sim_simple f L c BMemoryGrow s l st t1 r1 eq_refl H Hg) as [T [r' [HEI [HRR Hobs]]]].
  destruct f as [|f]; [inversion H; subst; discriminate|].
  rewrite tinstr_S, instr_body_simple in H by reflexivity. inversion H; subst t1 r1; clear H.
  destruct st as [|[n|n] st0]; try discriminate Hg.
  assert (HC : EIm (ABasic OInj (BCall fn_idx_memory_alloc)) (sh s) l (VI32 n :: st0)
                   (ev_work OInj ++ ev_call m' 0 ++ [EvHost 0%nat [VI32 n]]) (RNormal (sh s) l (VI32 n :: st0))).
  { assert (El : (0 <? length (m_imports m'))%nat = true) by (rewrite imports'; reflexivity).
    pose proof (EV_host (mhost h) cap m' afs_m (sh s) 0%nat [VI32 n] _ El atype0) as EV0.
    cbn [mhost] in EV0. rewrite set_mem_same in EV0.
    exact (EI_call (mhost h) cap m' afs_m OInj 0%nat (sh s) l (VI32 n :: st0) account_memory_type
             [VI32 n] st0 _ _ atype0 eq_refl EV0). }
  eexists. exists r'. split; [eapply (EP2n (mhost h) cap m' afs_m); [exact HC|exact HEI]|].
  split; [exact HRR|]. rewrite obs_m_app, Hobs.
  assert (E0 : ev_call m' 0 = []) by (unfold ev_call, is_local; rewrite imports'; reflexivity).
  rewrite E0. reflexivity.
Qed.

(** br_if, target label without value *)
Lemma sim_brif0 f L c idx s l st t1 r1 :
  lookup_label L idx = Some 0%N ->
  X_instr f s l st (ABasic (OSrc c (c_branch cfg 0)) (BBrIf idx)) = (t1, r1) -> good r1 = true ->
  exists T1 r1',
    EIm (AIf (OSrc c 0) None [ABasic OInj (BTick (c_branch cfg 0)); ABasic (OSrc (c_branch cfg 0) 0) (BBr (idx + 1))] [])
        (sh s) l st T1 r1' /\ RR L r1 r1' /\ obs_m T1 = obs_s t1.
Proof.
  intros Hl H Hg. destruct (src_step _ _ _ _ _ _ _ H Hg) as (f' & -> & HB). inversion HB; subst; try discriminate.
  set (b := c_branch cfg 0) in *.
  destruct (c0 =? 0) eqn:Ev.
  - pose proof (EI_block (mhost h) cap m' afs_m OInj None [] (sh s) l st0 _ _ (ES_nil _ _ _ _ _ _ _)) as EB.
    eexists. eexists. split; [apply (EI_if (mhost h) cap m' afs_m); rewrite Ev; exact EB|].
    split; [cbn; auto|reflexivity].
  - assert (ESb : ESm [ABasic OInj (BTick b); ABasic (OSrc b 0) (BBr (idx + 1))] (sh s) l []
                      ((EvTick b :: ev_work OInj) ++ ev_work (OSrc b 0)) (RBr (idx + 1) (sh s) l [])).
    { eapply (ES_cons_normal (mhost h) cap m' afs_m); [apply EI_tick|].
      apply (ES_cons_stop (mhost h) cap m' afs_m); [apply EI_br|reflexivity]. }
    pose proof (EI_block (mhost h) cap m' afs_m OInj None _ (sh s) l st0 _ _ ESb) as EB.
    eexists. eexists. split; [apply (EI_if (mhost h) cap m' afs_m); rewrite Ev; exact EB|].
    split.
    + replace (idx + 1)%nat with (S idx) by lia. cbn. repeat split; auto.
      intros bt Hbt. rewrite (label_arity0 _ _ _ Hl Hbt). reflexivity.
    + cbn. destruct (0 <? c)%N, (0 <? b)%N; reflexivity.
Qed.

(** br_if, target label with a value *)
Lemma sim_brif1 f L c idx s l st t1 r1 :
  X_instr f s l st (ABasic (OSrc c (c_branch cfg 1)) (BBrIf idx)) = (t1, r1) -> good r1 = true ->
  exists T1 r1',
    EPm [AIf (OSrc c 0) (Some T_i32) [ABasic OInj (BTick (c_branch cfg 1)); ABasic OInj (BConst T_i32 1)]
                                     [ABasic OInj (BConst T_i32 0)];
         ABasic (OSrc 0 (c_branch cfg 1)) (BBrIf idx)]
        (sh s) l st T1 r1' /\ RR L r1 r1' /\ obs_m T1 = obs_s t1.
Proof.
  intros H Hg. destruct (src_step _ _ _ _ _ _ _ H Hg) as (f' & -> & HB). inversion HB; subst; try discriminate.
  set (b := c_branch cfg 1) in *.
  destruct (c0 =? 0) eqn:Ev.
  - assert (ESb : ESm [ABasic OInj (BConst T_i32 0)] (sh s) l [] (simple_events OInj (BConst T_i32 0) ++ [])
                      (RNormal (sh s) l [VI32 0])).
    { eapply (ES_cons_normal (mhost h) cap m' afs_m);
        [exact (EI_simple (mhost h) cap m' afs_m OInj (BConst T_i32 0) (sh s) l [] eq_refl)|apply ES_nil]. }
    pose proof (EI_block (mhost h) cap m' afs_m OInj (Some T_i32) _ (sh s) l st0 _ _ ESb) as EB.
    cbn [blk_res arity firstn app] in EB.
    pose proof (EI_brif (mhost h) cap m' afs_m (OSrc 0 b) idx (sh s) l 0 st0) as EBR. cbn [Z.eqb] in EBR.
    eexists. eexists. split; [eapply (EP2n (mhost h) cap m' afs_m); [apply (EI_if (mhost h) cap m' afs_m); rewrite Ev; exact EB|exact EBR]|].
    split; [cbn; auto|]. cbn. destruct (0 <? c)%N; reflexivity.
  - assert (ESb : ESm [ABasic OInj (BTick b); ABasic OInj (BConst T_i32 1)] (sh s) l []
                      ((EvTick b :: ev_work OInj) ++ simple_events OInj (BConst T_i32 1) ++ [])
                      (RNormal (sh s) l [VI32 1])).
    { eapply (ES_cons_normal (mhost h) cap m' afs_m); [apply EI_tick|].
      eapply (ES_cons_normal (mhost h) cap m' afs_m);
        [exact (EI_simple (mhost h) cap m' afs_m OInj (BConst T_i32 1) (sh s) l [] eq_refl)|apply ES_nil]. }
    pose proof (EI_block (mhost h) cap m' afs_m OInj (Some T_i32) _ (sh s) l st0 _ _ ESb) as EB.
    cbn [blk_res arity firstn app] in EB.
    pose proof (EI_brif (mhost h) cap m' afs_m (OSrc 0 b) idx (sh s) l 1 st0) as EBR. cbn [Z.eqb] in EBR.
    eexists. eexists. split; [eapply (EP2n (mhost h) cap m' afs_m); [apply (EI_if (mhost h) cap m' afs_m); rewrite Ev; exact EB|exact EBR]|].
    split; [cbn; repeat split; auto|]. cbn. destruct (0 <? c)%N, (0 <? b)%N; reflexivity.
Qed.


Lemma block_instr_eq o bt body s l st f :
  X_instr (S f) s l st (ABlock o bt body) =
  (ev_work o ++ fst (X_seq f s l [] body), blk_res bt st (snd (X_seq f s l [] body))).
Proof. rewrite tinstr_S. apply instr_body_block. Qed.

(** a block, with ([tk = true]) or without the tick for its body *)
Lemma sim_block f L bt body hb body' sbody o (tk : bool) st s l t1 r1 :
  (forall f', (f' < f)%nat -> SimA f') ->
  mseq (bt :: L) body = Some (hb, body') -> annot_seq (bt :: L) body = Some sbody ->
  X_instr f s l st (ABlock o bt sbody) = (t1, r1) -> good r1 = true ->
  exists T r', EIm (ABlock o bt (tick_opt (if tk then hb else 0) ++ body')) (sh s) l st T r' /\ RR L r1 r' /\
               obs_m T = obs_s t1.
Proof.
  intros HA Hms Hsa H Hg. destruct f as [|f]; [inversion H; subst; discriminate|].
  rewrite block_instr_eq in H. destruct (X_seq f s l [] sbody) as [t r0] eqn:EX. cbn [fst snd] in H.
  inversion H; subst t1 r1; clear H. rewrite good_blk in Hg.
  destruct (HA f (Nat.lt_succ_diag_r f) _ _ _ _ _ Hms Hsa _ _ _ _ _ EX Hg) as [T [r0' [HES [HRR Hobs]]]].
  destruct (ES_tick_opt (if tk then hb else 0) _ _ _ _ _ _ HES) as [T' [HES' Hobs']].
  eexists. eexists. split; [apply (EI_block (mhost h) cap m' afs_m); exact HES'|].
  split; [apply RR_blk; exact HRR|]. apply (obs_pre o). congruence.
Qed.

Lemma sim_EP1 L i s l st t1 r1 :
  (exists T r', EIm i (sh s) l st T r' /\ RR L r1 r' /\ obs_m T = obs_s t1) ->
  exists T r', EPm [i] (sh s) l st T r' /\ RR L r1 r' /\ obs_m T = obs_s t1.
Proof. intros (T & r' & HEI & HR). exists T, r'. split; [apply EP1; exact HEI|exact HR]. Qed.

Lemma instr_sim f :
  (forall f', (f' < f)%nat -> SimA f') -> (forall f', (f' < f)%nat -> SimInv f') -> SimLoop f -> InstrSim f.
Proof.
  intros HA HI HL L j hj pre fl a Hmi Ha s l st t1 r1 H Hg.
  rewrite mi_eq in Hmi. rewrite annot_instr_eq in Ha.
  destruct j as [b|bt body|bt body|bt thn els].
  - destruct (c_cost cfg (OBasic b) L cx) as [c|] eqn:Ec; [|discriminate Hmi]. cbn [obind] in Hmi, Ha.
    destruct (kind_of b) eqn:Ek.
    + destruct (kind_pending b Ek) as [Hsb [_ Hnb]].
      assert (a = ABasic (OSrc c 0) b)
        by (destruct b; try (inversion Ha; reflexivity); exfalso; eapply Hnb; reflexivity).
      subst a. inversion Hmi; subst hj pre fl; clear Hmi.
      exact (sim_EP1 _ _ _ _ _ _ _ (sim_simple f L c b s l st t1 r1 Hsb H Hg)).
    + inversion Hmi; subst hj pre fl; clear Hmi.
      destruct b; cbn [kind_of] in Ek; try discriminate Ek; inversion Ha; subst a; clear Ha.
      * exact (sim_EP1 _ _ _ _ _ _ _ (sim_simple f L c BUnreachable s l st t1 r1 eq_refl H Hg)).
      * destruct (src_step _ _ _ _ _ _ _ H Hg) as (f' & -> & HB). inversion HB; subst; try discriminate.
        eexists. eexists. split; [apply EP1; apply EI_br|]. split; [cbn; repeat split; auto|reflexivity].
      * destruct (src_step _ _ _ _ _ _ _ H Hg) as (f' & -> & HB). inversion HB; subst; try discriminate.
        eexists. eexists. split; [apply EP1; apply EI_brtable|]. split; [cbn; repeat split; auto|reflexivity].
      * destruct (src_step _ _ _ _ _ _ _ H Hg) as (f' & -> & HB). inversion HB; subst; try discriminate.
        eexists. eexists. split; [apply EP1; apply EI_return|]. split; [cbn; auto|reflexivity].
      * exact (sim_EP1 _ _ _ _ _ _ _ (sim_call_indirect f L c ty s l st t1 r1 HI H Hg)).
    + inversion Hmi; subst hj pre fl; clear Hmi.
      destruct b; cbn [kind_of] in Ek; try discriminate Ek; inversion Ek; subst idx; inversion Ha; subst a; clear Ha.
      exact (sim_EP1 _ _ _ _ _ _ _ (sim_call f L c f0 s l st t1 r1 HI H Hg)).
    + destruct b; cbn [kind_of] in Ek; try discriminate Ek; inversion Ek; subst idx; clear Ek.
      destruct (lookup_label L l0) as [a0|] eqn:El; [|discriminate Hmi]. cbn [obind] in Hmi, Ha.
      inversion Ha; subst a; clear Ha.
      destruct (brif_rewrite cfg c a0 l0) as [rw|] eqn:Erw; [|discriminate Hmi]. cbn [obind] in Hmi.
      inversion Hmi; subst hj pre fl; clear Hmi.
      destruct (brif_rewrite_inv _ _ _ _ _ Erw) as [_ [[-> ->]|[-> ->]]].
      * exact (sim_EP1 _ _ _ _ _ _ _ (sim_brif0 f L c l0 s l st t1 r1 El H Hg)).
      * exact (sim_brif1 f L c l0 s l st t1 r1 H Hg).
    + inversion Hmi; subst hj pre fl; clear Hmi.
      destruct b; cbn [kind_of] in Ek; try discriminate Ek. inversion Ha; subst a; clear Ha.
      exact (sim_memgrow f L c s l st t1 r1 H Hg).
    + discriminate Hmi.
  - obind_inv Hmi. obind_inv Ha. inversion Hmi; subst hj pre fl; clear Hmi. inversion Ha; subst a; clear Ha.
    repeat match goal with HH : Some _ = Some _ |- _ => inversion HH; subst; clear HH end.
    exact (sim_EP1 _ _ _ _ _ _ _ (sim_block f L bt body _ _ _ _ false st s l t1 r1 HA ltac:(eassumption) ltac:(eassumption) H Hg)).
  - obind_inv Hmi. obind_inv Ha. inversion Hmi; subst hj pre fl; clear Hmi. inversion Ha; subst a; clear Ha.
    repeat match goal with HH : Some _ = Some _ |- _ => inversion HH; subst; clear HH end.
    exact (sim_EP1 _ _ _ _ _ _ _ (HL L body _ _ _ _ bt ltac:(eassumption) ltac:(eassumption) _ _ _ _ _ H Hg)).
  - obind_inv Hmi. obind_inv Ha. inversion Hmi; subst hj pre fl; clear Hmi. inversion Ha; subst a; clear Ha.
    repeat match goal with HH : Some _ = Some _ |- _ => inversion HH; subst; clear HH end.
    destruct (src_step _ _ _ _ _ _ _ H Hg) as (f' & -> & HB). inversion HB; subst; [discriminate Hg|].
    assert (HA' : forall f0, (f0 < f')%nat -> SimA f0) by (intros; apply HA; lia).
    destruct (c =? 0) eqn:Ev.
    + destruct (sim_block f' L bt els _ _ _ OInj true st0 s l t r1 HA' ltac:(eassumption) ltac:(eassumption) ltac:(eassumption) Hg)
        as [T [r' [HEI [HRR Hobs]]]].
      eexists. exists r'. split; [apply EP1; apply (EI_if (mhost h) cap m' afs_m); rewrite Ev; exact HEI|].
      split; [exact HRR|]. apply (obs_pre (OSrc _ 0)); exact Hobs.
    + destruct (sim_block f' L bt thn _ _ _ OInj true st0 s l t r1 HA' ltac:(eassumption) ltac:(eassumption) ltac:(eassumption) Hg)
        as [T [r' [HEI [HRR Hobs]]]].
      eexists. exists r'. split; [apply EP1; apply (EI_if (mhost h) cap m' afs_m); rewrite Ev; exact HEI|].
      split; [exact HRR|]. apply (obs_pre (OSrc _ 0)); exact Hobs.
Qed.

Lemma simA_step f :
  (forall f', (f' < f)%nat -> SimA f') -> (forall f', (f' < f)%nat -> SimInv f') ->
  (forall f', (f' < f)%nat -> SimLoop f') -> SimA f.
Proof.
  intros HA HI HL L is h0 is' sa Hms Hsa s l st W r H Hg.
  destruct f as [|f]; [inversion H; subst; discriminate|].
  rewrite tseq_S in H.
  destruct is as [|j rest].
  - inversion Hms; subst. inversion Hsa; subst. cbn [seq_body] in H. inversion H; subst.
    exists [], (RNormal (sh s) l st). split; [apply ES_nil|]. split; [cbn; auto|reflexivity].
  - destruct (mseq_cons_inv _ _ _ _ _ _ _ Hms) as (hr & r' & hj & pre & fl & Er & Ej & Hc).
    rewrite annot_seq_cons in Hsa.
    destruct (annot_instr L j) as [a|] eqn:Ea; [|discriminate].
    destruct (annot_seq L rest) as [sa'|] eqn:Esa; [|discriminate].
    inversion Hsa; subst sa; clear Hsa. cbn [seq_body] in H.
    assert (HIS : InstrSim f).
    { apply instr_sim; [intros; apply HA; lia|intros; apply HI; lia|apply HL; lia]. }
    destruct (X_instr f s l st a) as [t1 r1] eqn:E1.
    assert (Htail : forall T2 r2 s1 l1 st1, ESm r' s1 l1 st1 T2 r2 ->
              exists T2', ESm (if fl then tick_opt hr ++ r' else r') s1 l1 st1 T2' r2 /\ obs_m T2' = obs_m T2).
    { intros T2 r2 s1 l1 st1 HE. destruct fl; [apply ES_tick_opt; exact HE|exists T2; auto]. }
    assert (His' : is' = pre ++ (if fl then tick_opt hr ++ r' else r')) by (destruct fl; apply Hc).
    subst is'.
    destruct (is_normal r1) eqn:En.
    + destruct r1 as [s1 l1 st1| | | | |]; try discriminate En.
      destruct (X_seq f s1 l1 st1 sa') as [t2 r2] eqn:E2. inversion H; subst W r; clear H.
      destruct (HIS L j hj pre fl a Ej Ea _ _ _ _ _ E1 eq_refl) as [T1 [r1' [HEP [HRR1 Hobs1]]]].
      apply RR_normal_inv in HRR1. subst r1'.
      destruct (HA f (Nat.lt_succ_diag_r f) L rest hr r' sa' Er Esa _ _ _ _ _ E2 Hg) as [T2 [r2' [HES2 [HRR2 Hobs2]]]].
      destruct (Htail _ _ _ _ _ HES2) as [T2' [HES2' Hobs2']].
      exists (T1 ++ T2'), r2'. split; [apply HEP; exact HES2'|]. split; [exact HRR2|].
      rewrite obs_m_app, obs_s_app. congruence.
    + assert (HW : (W, r) = (t1, r1)) by (rewrite <- H; destruct r1; try reflexivity; discriminate En).
      inversion HW; subst W r; clear HW H.
      destruct (HIS L j hj pre fl a Ej Ea _ _ _ _ _ E1 Hg) as [T1 [r1' [HEP [HRR1 Hobs1]]]].
      exists T1, r1'. split; [|auto]. apply (EP_stop (mhost h) cap m' afs_m); [exact HEP|].
      rewrite (RR_normal_iff _ _ _ HRR1). exact En.
Qed.

Theorem sim_all : forall f, SimA f /\ SimInv f /\ SimLoop f.
Proof.
  induction f as [f IH] using lt_wf_ind.
  assert (HA : SimA f) by (apply simA_step; intros f' Hl; apply IH; exact Hl).
  split; [exact HA|]. split.
  - apply simInv_step. intros f' Hl; apply IH; exact Hl.
  - apply simLoop_step; intros f' Hl; apply IH; exact Hl.
Qed.

End Sim.

(** ** instantiation of the metered module: the table entries are shifted *)
Lemma set_nth_map {A B} (g : A -> B) t i x :
  set_nth (map g t) i (g x) = option_map (map g) (set_nth t i x).
Proof.
  revert i. induction t as [|y t IH]; intro i; [reflexivity|].
  destruct i; cbn [map set_nth]; [reflexivity|]. rewrite IH. destruct (set_nth t i x); reflexivity.
Qed.

Lemma write_elems_sh t off fs :
  write_elems (map (option_map S) t) off (map (fun i => (i + num_added_functions)%nat) fs) =
  option_map (map (option_map S)) (write_elems t off fs).
Proof.
  revert t off. induction fs as [|fi fs IH]; intros t off; [reflexivity|].
  cbn [map write_elems]. replace (fi + num_added_functions)%nat with (S fi) by (unfold num_added_functions; lia).
  change (Some (S fi)) with (option_map S (Some fi)). rewrite set_nth_map.
  destruct (set_nth t off (Some fi)) as [t'|]; [|reflexivity]. cbn [option_map]. apply IH.
Qed.

Lemma init_table_sh t es :
  init_table (map (option_map S) t) (shift_elems es) = option_map (map (option_map S)) (init_table t es).
Proof.
  revert t. induction es as [|[off fs] es IH]; intro t; [reflexivity|].
  cbn [shift_elems map init_table fst snd]. rewrite write_elems_sh.
  destruct (write_elems t (N.to_nat off) fs) as [t'|]; [|reflexivity]. cbn [option_map]. apply IH.
Qed.

Lemma map_repeat_none k : map (option_map S) (repeat (@None nat) k) = repeat None k.
Proof. induction k as [|k IH]; [reflexivity|]. cbn [repeat map option_map]. f_equal. exact IH. Qed.

Lemma instantiate_inject cfg m m' s :
  inject cfg m = Some m' -> instantiate m = Some s -> instantiate m' = Some (sh s).
Proof.
  unfold inject. destruct (omap_list _ _) as [fs|]; [|discriminate]. intro H; inversion H; subst m'; clear H.
  unfold instantiate. cbn [m_table m_elems m_mem m_data m_globals].
  set (t0 := match m_table m with Some n => repeat (@None nat) (N.to_nat n) | None => @nil (option nat) end).
  assert (E0 : match m_table m with Some n => Some (repeat (@None nat) (N.to_nat n)) | None => Some [] end = Some t0)
    by (unfold t0; destruct (m_table m); reflexivity).
  rewrite E0.
  assert (Et : map (option_map S) t0 = t0).
  { unfold t0. destruct (m_table m) as [n|]; [apply map_repeat_none|reflexivity]. }
  intro Hsrc. replace (init_table t0 (shift_elems (m_elems m)))
    with (option_map (map (option_map S)) (init_table t0 (m_elems m)))
    by (rewrite <- init_table_sh, Et; reflexivity).
  destruct (init_table t0 (m_elems m)) as [t|]; [|discriminate]. cbn [option_map].
  destruct (match m_mem m with
            | Some l => Some {| mem_pages := l_min l; mem_max := l_max l; mem_data := FMapPositive.PositiveMap.empty Z |}
            | None => None
            end) as [x|].
  - destruct (init_data x (m_data m)); [|discriminate]. inversion Hsrc; reflexivity.
  - destruct (m_data m); [|discriminate]. inversion Hsrc; reflexivity.
Qed.

Theorem metered_run_simulates cfg m m' afs_s afs_m h cap fuel fi args W o :
  inject cfg m = Some m' -> annot_funcs cfg m = Some afs_s -> ameter_funcs cfg m = Some afs_m ->
  trun h cap m afs_s fuel fi args = (W, o) -> o <> OutOfFuel -> o <> Stuck ->
  exists f0 T, (forall f, (f0 <= f)%nat -> trun (mhost h) cap m' afs_m f (S fi) args = (T, o)) /\
               obs_m T = obs_s W.
Proof.
  intros Hinj Hs Hm H Hnf Hns. unfold trun in H.
  destruct (instantiate m) as [s|] eqn:Ei; [|inversion H; subst; congruence].
  destruct (tinvoke h cap m afs_s fuel s fi args) as [W0 rv] eqn:Ev.
  assert (Hgv : goodv rv = true).
  { destruct rv as [r0|x]; [|reflexivity]. destruct r0; try reflexivity; inversion H; subst; congruence. }
  destruct (sim_all cfg m m' afs_s afs_m h cap Hinj Hs Hm fuel) as [_ [HI _]].
  destruct (HI _ _ _ _ _ Ev Hgv) as [T [[f0 HEV] Hobs]].
  assert (HW : W = W0) by (destruct rv as [[]|[? ?]]; inversion H; reflexivity). subst W0.
  exists f0, T. split; [|exact Hobs]. intros f Hf. unfold trun.
  rewrite (instantiate_inject _ _ _ _ Hinj Ei). rewrite (HEV f Hf).
  destruct rv as [r0|[s' rv]]; cbn [shv].
  - destruct r0; inversion H; reflexivity.
  - inversion H; reflexivity.
Qed.

(** ** the annotated source program is the source program; metering succeeds only on annotatable code *)
Section AnnotFacts.
Variable cfg : cost_cfg.
Variable cx : cost_ctx.

Lemma annot_erase_seq : forall is L sa, annot_seq cfg cx L is = Some sa -> erase_seq sa = is.
Proof.
  apply (instrs_ind2
           (fun i => forall L a, annot_instr cfg cx L i = Some a -> erase a = i)
           (fun is => forall L sa, annot_seq cfg cx L is = Some sa -> erase_seq sa = is)).
  - intros b L a H. rewrite annot_instr_eq in H. obind_inv H.
    destruct b; try (inversion H; reflexivity). obind_inv H. inversion H; reflexivity.
  - intros bt body IH L a H. rewrite annot_instr_eq in H. obind_inv H. inversion H; subst. cbn [erase].
    f_equal. eapply IH; eassumption.
  - intros bt body IH L a H. rewrite annot_instr_eq in H. obind_inv H. inversion H; subst. cbn [erase].
    f_equal. eapply IH; eassumption.
  - intros bt t e IHt IHe L a H. rewrite annot_instr_eq in H. obind_inv H. inversion H; subst. cbn [erase].
    f_equal; [eapply IHt|eapply IHe]; eassumption.
  - intros L sa H. inversion H; reflexivity.
  - intros i r IHi IHr L sa H. rewrite annot_seq_cons in H.
    destruct (annot_instr cfg cx L i) as [a|] eqn:Ea; [|discriminate].
    destruct (annot_seq cfg cx L r) as [r'|] eqn:Er; [|discriminate]. inversion H; subst. cbn [erase_seq map].
    f_equal; [eapply IHi; eassumption|eapply IHr; eassumption].
Qed.

Lemma annot_of_mseq : forall is L x, Meter.mseq cfg cx L is = Some x -> exists sa, annot_seq cfg cx L is = Some sa.
Proof.
  apply (instrs_ind2
           (fun i => forall L x, Meter.mi cfg cx L i = Some x -> exists a, annot_instr cfg cx L i = Some a)
           (fun is => forall L x, Meter.mseq cfg cx L is = Some x -> exists sa, annot_seq cfg cx L is = Some sa)).
  - intros b L x H. rewrite mi_eq in H. rewrite annot_instr_eq. obind_inv H. cbn [obind].
    destruct b; try (eexists; reflexivity). cbn [kind_of] in H. obind_inv H. cbn [obind]. eexists; reflexivity.
  - intros bt body IH L x H. rewrite mi_eq in H. rewrite annot_instr_eq. obind_inv H. cbn [obind].
    destruct (IH _ _ E0) as [sa Hsa]. rewrite Hsa. cbn [obind]. eexists; reflexivity.
  - intros bt body IH L x H. rewrite mi_eq in H. rewrite annot_instr_eq. obind_inv H. cbn [obind].
    destruct (IH _ _ E0) as [sa Hsa]. rewrite Hsa. cbn [obind]. eexists; reflexivity.
  - intros bt t e IHt IHe L x H. rewrite mi_eq in H. rewrite annot_instr_eq. obind_inv H. cbn [obind].
    destruct (IHt _ _ E0) as [st Hst]. destruct (IHe _ _ E1) as [se Hse]. rewrite Hst, Hse. cbn [obind].
    eexists; reflexivity.
  - intros L x H. eexists; reflexivity.
  - intros i r IHi IHr L x H. rewrite mseq_cons in H. rewrite annot_seq_cons.
    destruct (Meter.mseq cfg cx L r) as [[hr r']|] eqn:Er; [|discriminate].
    destruct (Meter.mi cfg cx L i) as [y|] eqn:Ei; [|discriminate].
    destruct (IHi _ _ Ei) as [a Ha]. destruct (IHr _ _ Er) as [sa Hsa]. rewrite Ha, Hsa. eexists; reflexivity.
Qed.
End AnnotFacts.

Lemma omap_list_some {A B C} (g : A -> option B) (g' : A -> option C) l l' :
  omap_list g l = Some l' -> (forall x y, g x = Some y -> exists y', g' x = Some y') -> exists l'', omap_list g' l = Some l''.
Proof.
  revert l'. induction l as [|x r IH]; intros l' H Hg; [eexists; reflexivity|].
  cbn in H. destruct (g x) eqn:Ex; [|discriminate]. destruct (omap_list g r) eqn:Er; [|discriminate].
  destruct (Hg _ _ Ex) as [y' Hy]. destruct (IH _ eq_refl Hg) as [l'' Hl]. cbn. rewrite Hy, Hl. eexists; reflexivity.
Qed.

Lemma inject_ameter cfg m m' : inject cfg m = Some m' -> exists afs, ameter_funcs cfg m = Some afs.
Proof. intro H. destruct (inject_funcs _ _ _ H) as (afs & Ha & _). eauto. Qed.

Lemma ameter_annot cfg m afs : ameter_funcs cfg m = Some afs -> exists afs_s, annot_funcs cfg m = Some afs_s.
Proof.
  unfold ameter_funcs, annot_funcs. intro H. eapply omap_list_some; [exact H|].
  intros f f' Hf. unfold ameter_func, ameter_body in Hf. unfold annot_func. revert Hf.
  destruct (nth_error (m_types m) (f_type f)) as [ft|]; [|discriminate].
  match goal with |- context [Meter.mseq ?a ?b ?c ?d] => destruct (Meter.mseq a b c d) as [x|] eqn:E end;
    [|cbn [obind]; discriminate].
  intros _. destruct (annot_of_mseq _ _ _ _ _ E) as [sa Hsa].
  match goal with |- context [annot_seq ?a ?b ?c ?d] => replace (annot_seq a b c d) with (Some sa) end.
  eexists; reflexivity.
Qed.

Lemma annot_funcs_erase cfg m afs_s : annot_funcs cfg m = Some afs_s -> m_funcs m = map erase_func afs_s.
Proof.
  unfold annot_funcs. revert afs_s. induction (m_funcs m) as [|f r IH]; intros afs_s H; cbn [omap_list] in H.
  - inversion H; reflexivity.
  - destruct (annot_func cfg m f) as [af|] eqn:Ea; [|discriminate].
    destruct (omap_list (annot_func cfg m) r) as [afs'|] eqn:Er; [|discriminate].
    inversion H; subst. cbn [map]. f_equal; [|apply IH; reflexivity].
    unfold annot_func in Ea. destruct (nth_error (m_types m) (f_type f)) as [ft|]; [|discriminate].
    destruct (annot_seq cfg (ctx_of_module m) [ft_result ft] (f_body f)) as [sa|] eqn:Es; [|discriminate].
    inversion Ea; subst. unfold erase_func; cbn [af_type af_locals af_body]. rewrite (annot_erase_seq _ _ _ _ _ Es). destruct f; reflexivity.
Qed.

(** ** what the observation equality says about work and host calls *)
Definition wk (e : event) : option N := match e with EvWork c => Some c | _ => None end.
Definition hostcall (e : event) : option (nat * list val) := match e with EvHost i a => Some (i, a) | _ => None end.

Lemma works_obs_m T : works T = omapf wk (obs_m T).
Proof.
  induction T as [|e T IH]; [reflexivity|]. destruct e as [n|c|[|j] a|fi|]; cbn [works obs_m omapf pm]; try exact IH.
  destruct (0 <? c)%N; cbn [omapf wk]; [f_equal|]; exact IH.
Qed.
Lemma works_obs_s T : works T = omapf wk (obs_s T).
Proof.
  induction T as [|e T IH]; [reflexivity|]. destruct e as [n|c|i a|fi|]; cbn [works obs_s omapf ps]; try exact IH.
  destruct (0 <? c)%N; cbn [omapf wk]; [f_equal|]; exact IH.
Qed.
Lemma work_works T : work T = fold_right N.add 0%N (works T).
Proof.
  induction T as [|e T IH]; [reflexivity|]. destruct e; cbn [work works]; try exact IH.
  destruct (0 <? c)%N eqn:E; cbn [fold_right]; [rewrite IH; reflexivity|].
  apply N.ltb_ge in E. rewrite IH. lia.
Qed.

(** host calls of the metered trace other than [account_memory], re-indexed to the source imports *)
Fixpoint src_hostcalls (T : list event) : list (nat * list val) :=
  match T with
  | [] => []
  | EvHost (S j) a :: r => (j, a) :: src_hostcalls r
  | _ :: r => src_hostcalls r
  end.
Fixpoint hostcalls (T : list event) : list (nat * list val) :=
  match T with
  | [] => []
  | EvHost i a :: r => (i, a) :: hostcalls r
  | _ :: r => hostcalls r
  end.
Lemma src_hostcalls_obs T : src_hostcalls T = omapf hostcall (obs_m T).
Proof.
  induction T as [|e T IH]; [reflexivity|]. destruct e as [n|c|[|j] a|fi|]; cbn [src_hostcalls obs_m omapf pm]; try exact IH.
  - destruct (0 <? c)%N; cbn [omapf hostcall]; exact IH.
  - cbn [omapf hostcall]. f_equal. exact IH.
Qed.
Lemma hostcalls_obs T : hostcalls T = omapf hostcall (obs_s T).
Proof.
  induction T as [|e T IH]; [reflexivity|]. destruct e as [n|c|i a|fi|]; cbn [hostcalls obs_s omapf ps]; try exact IH.
  - destruct (0 <? c)%N; cbn [omapf hostcall]; exact IH.
  - cbn [omapf hostcall]. f_equal. exact IH.
Qed.

(** ** meter_transparent on the reference semantics *)
Theorem meter_transparent_sem cfg m m' h cap fuel fi args o :
  inject cfg m = Some m' ->
  run h cap m fuel fi args = o -> o <> OutOfFuel -> o <> Stuck ->
  exists f0, forall f, (f0 <= f)%nat -> run (mhost h) cap m' f (S fi) args = o.
Proof.
  intros Hinj Hrun Hnf Hns.
  destruct (inject_ameter _ _ _ Hinj) as [afs_m Hm]. destruct (ameter_annot _ _ _ Hm) as [afs_s Hs].
  pose proof (trun_erase h cap m afs_s (annot_funcs_erase _ _ _ Hs) fuel fi args) as Es.
  destruct (trun h cap m afs_s fuel fi args) as [W o0] eqn:Et. cbn [snd] in Es. rewrite Hrun in Es. subst o0.
  destruct (metered_run_simulates _ _ _ _ _ _ _ _ _ _ _ _ Hinj Hs Hm Et Hnf Hns) as [f0 [T [HT _]]].
  exists f0. intros f Hf.
  rewrite <- (trun_erase (mhost h) cap m' afs_m (MeterSafe.inject_erase _ _ _ _ Hinj Hm) f (S fi) args).
  rewrite (HT f Hf). reflexivity.
Qed.

(** the work summed on the metered trace is the work of the source run; same host calls *)
Theorem metered_work_is_source_work cfg m m' afs_s afs_m h cap fuel fi args W o :
  inject cfg m = Some m' -> annot_funcs cfg m = Some afs_s -> ameter_funcs cfg m = Some afs_m ->
  trun h cap m afs_s fuel fi args = (W, o) -> o <> OutOfFuel -> o <> Stuck ->
  exists f0 T, (forall f, (f0 <= f)%nat -> trun (mhost h) cap m' afs_m f (S fi) args = (T, o)) /\
               works T = works W /\ work T = work W /\ src_hostcalls T = hostcalls W.
Proof.
  intros Hinj Hs Hm H Hnf Hns.
  destruct (metered_run_simulates _ _ _ _ _ _ _ _ _ _ _ _ Hinj Hs Hm H Hnf Hns) as [f0 [T [HT Hobs]]].
  exists f0, T. split; [exact HT|].
  assert (Hw : works T = works W) by (rewrite works_obs_m, works_obs_s, Hobs; reflexivity).
  split; [exact Hw|]. split; [rewrite !work_works, Hw; reflexivity|].
  rewrite src_hostcalls_obs, hostcalls_obs, Hobs. reflexivity.
Qed.

Theorem exact_wrt_source : forall cfg m m' afs_s afs_m h cap fuel fi args W r mem g,
  inject cfg m = Some m' -> annot_funcs cfg m = Some afs_s -> ameter_funcs cfg m = Some afs_m ->
  trun h cap m afs_s fuel fi args = (W, Done r mem g) ->
  exists f0 T, (forall f, (f0 <= f)%nat -> trun (mhost h) cap m' afs_m f (S fi) args = (T, Done r mem g)) /\
               ticks T = work W.
Proof.
  intros cfg m m' afs_s afs_m h cap fuel fi args W r mem g Hi Hs Hm H.
  assert (N1 : Done r mem g <> OutOfFuel) by discriminate. assert (N2 : Done r mem g <> Stuck) by discriminate.
  destruct (metered_work_is_source_work _ _ _ _ _ _ _ _ _ _ _ _ Hi Hs Hm H N1 N2)
    as [f0 [T [HT [_ [Hw _]]]]].
  exists f0, T. split; [exact HT|].
  destruct (metered_run_prepaid_exact _ _ _ _ _ _ _ _ _ _ _ Hi Hm (HT f0 (le_n _))) as [_ He].
  rewrite (He r mem g eq_refl). exact Hw.
Qed.
