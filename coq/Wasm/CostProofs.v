(** Facts about the generated cost schedules [Gen/CostV0.v], [Gen/CostV1.v]: finite case analysis
    over the tables, re-checked whenever the translator output changes. *)
From Coq Require Import ZArith Bool Lia.
From CB Require Import Wasm.Syntax.
From CB Require Gen.CostV0 Gen.CostV1.
Local Open Scope N_scope.
Local Arguments N.add : simpl never.

(** opcodes that are pure structure (delimiters, the trap, the metering pseudo-instruction) *)
Definition structural (o : opcode) : bool :=
  match o with
  | OEnd | OElse | OBlock _ | OLoop _ => true
  | OBasic BUnreachable | OBasic (BTick _) => true
  | _ => false
  end.

(** opcodes for which the register-machine compiler (artifact.rs) emits no instruction of its own:
    constants become constant-pool operands, [drop] and the local accesses only move the
    compile-time provider stack *)
Definition erased (o : opcode) : bool :=
  match o with
  | OBasic (BConst _ _) | OBasic BDrop
  | OBasic (BLocalGet _) | OBasic (BLocalSet _) | OBasic (BLocalTee _) => true
  | _ => false
  end.

Definition is_branch_or_call (o : opcode) : bool :=
  match o with
  | OBasic (BBr _) | OBasic (BBrIf _) | OBasic (BBrTable _ _) | OBasic BReturn
  | OBasic (BCall _) | OBasic (BCallIndirect _) | OIf _ => true
  | _ => false
  end.

Lemma branch_or_call_charged o : is_branch_or_call o = true -> structural o = false /\ erased o = false.
Proof.
  destruct o as [| |bt|bt|bt|b]; try discriminate; try (split; reflexivity).
  destruct b; try discriminate; split; reflexivity.
Qed.

(* Splits a hypothesis [get_cost o L cx = Some c] into one case per table row. *)
Ltac crush_cost :=
  repeat match goal with
         | H : match ?x with _ => _ end = Some _ |- _ => destruct x eqn:?; try discriminate H
         | H : Some _ = Some _ |- _ => inversion H; subst; clear H
         | H : None = Some _ |- _ => discriminate H
         | p : (N * N)%type |- _ => destruct p
         end.

Section V0.
Import CostV0.
Lemma v0_table : forall o L cx c, get_cost o L cx = Some c ->
  (structural o = true -> c = 0) /\ (structural o = false -> 1 <= c).
Proof.
  intros o L cx c H.
  destruct o as [| |bt|bt|bt|b];
    [ | | | | | destruct b ];
    cbn in H; crush_cost; cbn;
    (split; intros; try discriminate; try reflexivity;
     cbv [NOP BR_IF IF_STATEMENT TEST JUMP DROP SELECT copy_stack GET_LOCAL SET_LOCAL TEE_LOCAL GET_GLOBAL SET_GLOBAL
          LOAD_WORD BOUNDS MEMSIZE MEMGROW CONST SIMPLE_UNOP SIMPLE_BINOP UNOP BINOP MUL DIV REM read_stack write_stack
          branch br_table invoke_before call_indirect type_check FUNC_FRAME_BASE]; lia).
Qed.
Lemma v0_branch : forall a, 1 <= cfg_branch a.
Proof. intro a. cbv [cfg_branch branch JUMP copy_stack]. lia. Qed.
Lemma v0_end_else : forall L cx, get_cost OEnd L cx = Some 0 /\ get_cost OElse L cx = Some 0.
Proof. intros; split; reflexivity. Qed.
Lemma v0_total : forall o L cx c, get_cost o L cx = Some c -> is_branch_or_call o = true -> 1 <= c.
Proof.
  intros o L cx c H Hb. apply (v0_table o L cx c H). apply (branch_or_call_charged o Hb).
Qed.
End V0.

Section V1.
Import CostV1.
Ltac Zify.zify_post_hook ::= Z.div_mod_to_equations.
Lemma v1_table : forall o L cx c, get_cost o L cx = Some c ->
  (structural o || erased o = true -> c = 0) /\ (structural o || erased o = false -> 1 <= c).
Proof.
  intros o L cx c H.
  destruct o as [| |bt|bt|bt|b];
    [ | | | | | destruct b ];
    cbn in H; crush_cost; cbn;
    (split; intros; try discriminate; try reflexivity;
     cbv [NOP BR_IF IF_STATEMENT TEST JUMP DROP SELECT copy_stack GET_LOCAL SET_LOCAL TEE_LOCAL GET_GLOBAL SET_GLOBAL
          LOAD_WORD BOUNDS MEMSIZE MEMGROW CONST SIMPLE_UNOP SIMPLE_BINOP UNOP BINOP MUL DIV REM read_source write_result
          br_table invoke_before call_indirect type_check FUNC_FRAME_BASE]; lia).
Qed.
Lemma v1_branch : forall a, 1 <= cfg_branch a.
Proof. intro a. cbv [cfg_branch JUMP]. lia. Qed.
Lemma v1_end_else : forall L cx, get_cost OEnd L cx = Some 0 /\ get_cost OElse L cx = Some 0.
Proof. intros; split; reflexivity. Qed.
Lemma v1_total : forall o L cx c, get_cost o L cx = Some c -> is_branch_or_call o = true -> 1 <= c.
Proof.
  intros o L cx c H Hb. apply (v1_table o L cx c H).
  destruct (branch_or_call_charged o Hb) as [-> ->]. reflexivity.
Qed.
End V1.
