(** * Wasm/CompileSafe2 — the invariant [L] of [CompileSafe.v] through the building blocks of
    [Handler::handle_opcode] (consume / provide / push_consume / push_provide / copy /
    insert_jump_location / truncate), and the instruction grammar [shaped] of the emitted
    code (the decode table of machine.rs). *)
From Coq Require Import ZArith NArith List Lia Bool.
From CB Require Import Wasm.Syntax Wasm.Compile Wasm.CompileLemmas Wasm.BlockProofs Wasm.CompileSafe.
Import ListNotations.
Local Open Scope Z_scope.

(** ** instruction grammar: what the decoder of machine.rs reads after each opcode byte *)
(** opcodes with a fixed layout: (immediate bytes, source operands, has a written register) *)
Definition fixed_shape (o : N) : option (nat * nat * bool) :=
  if (o =? 0)%N || (o =? 6)%N then Some (0, 0, false)%nat
  else if (o =? 8)%N then Some (4, 0, false)%nat
  else if (o =? 10)%N then Some (0, 3, true)%nat
  else if (o =? 11)%N then Some (2, 0, true)%nat
  else if (o =? 12)%N then Some (2, 1, false)%nat
  else if (13 <=? o)%N && (o <=? 24)%N then Some (4, 1, true)%nat
  else if (25 <=? o)%N && (o <=? 31)%N then Some (4, 2, false)%nat
  else if (o =? 32)%N then Some (0, 0, true)%nat
  else if (o =? 33)%N then Some (0, 1, true)%nat
  else if (o =? 34)%N || (o =? 45)%N || ((56 <=? o)%N && (o <=? 58)%N) || ((74 <=? o)%N && (o <=? 76)%N)
          || ((92 <=? o)%N && (o <=? 100)%N) then Some (0, 1, true)%nat
  else if ((35 <=? o)%N && (o <=? 44)%N) || ((46 <=? o)%N && (o <=? 55)%N) || ((59 <=? o)%N && (o <=? 73)%N)
          || ((77 <=? o)%N && (o <=? 91)%N) then Some (0, 2, true)%nat
  else None.

Definition dst_opt (b : bool) : list kind := if b then [KDst] else [].
Definition res_flag (bt : blocktype) : bool := match bt with Some _ => true | None => false end.

Inductive oshape (cx : cctx) : N -> list kind -> Prop :=
| sh_fixed o ni ns d imm : fixed_shape o = Some (ni, ns, d) -> length imm = ni ->
    oshape cx o ((match ni with O => [] | _ => [KImm imm] end) ++ repeat KSrc ns ++ dst_opt d)
| sh_if : oshape cx IIf [KSrc; KTgt]
| sh_br : oshape cx IBr [KTgt]
| sh_brif : oshape cx IBrIf [KTgt; KSrc]
| sh_brtable imm tail : length imm = 2%nat -> Forall (fun k => k = KDst \/ k = KTgt) tail ->
    oshape cx IBrTable (KSrc :: KImm imm :: tail)
| sh_brtablecarry imm tail : length imm = 2%nat -> Forall (fun k => k = KDst \/ k = KTgt) tail ->
    oshape cx IBrTableCarry (KSrc :: KSrc :: KImm imm :: tail)
| sh_call f ft : cx_func_type cx f = Some ft ->
    oshape cx ICall (KImm (u32_bytes (Z.of_nat f)) :: repeat KSrc (length (ft_params ft)) ++ dst_opt (res_flag (ft_result ft)))
| sh_calli ti ft : cx_type cx ti = Some ft ->
    oshape cx ICallIndirect (KImm (u32_bytes (Z.of_nat ti)) :: KSrc :: repeat KSrc (length (ft_params ft))
                             ++ dst_opt (res_flag (ft_result ft))).

Inductive shapedk (cx : cctx) : list kind -> Prop :=
| shk_nil : shapedk cx []
| shk_cons o args rest : oshape cx o args -> shapedk cx rest -> shapedk cx (KOp o :: args ++ rest).
Definition shaped (cx : cctx) (fl : list field) : Prop := shapedk cx (map kind_of fl).

Lemma shapedk_app cx a b : shapedk cx a -> shapedk cx b -> shapedk cx (a ++ b).
Proof.
  induction 1; intros Hb; [exact Hb|]. cbn [app]. rewrite <- app_assoc. constructor; auto.
Qed.
Lemma shaped_app cx a b : shaped cx a -> shaped cx b -> shaped cx (a ++ b).
Proof. unfold shaped. rewrite map_app. apply shapedk_app. Qed.
Lemma shaped_nil cx : shaped cx []. Proof. constructor. Qed.
Lemma shaped_one cx o args : oshape cx o (map kind_of args) -> shaped cx (FOp o :: args).
Proof.
  intros H. unfold shaped. cbn [map kind_of]. rewrite <- (app_nil_r (map kind_of args)). constructor; auto. constructor.
Qed.
Lemma map_kind_src ps : map kind_of (map FSrc ps) = repeat KSrc (length ps).
Proof. induction ps; cbn; congruence. Qed.

(** field lists grow by [++ [f]]: bring [(fl ++ [a]) ++ [b]] to the form [fl ++ [a; b]] *)
Ltac napp H := rewrite <- ?app_assoc in H; cbn [app] in H.

Section Safe2.
Variable nl : Z.
Notation L := (L nl).
Definition Iv (bs : list Z) (s : cstate) (fl : list field) : Prop := L bs (all_locs (c_bp s)) s fl.

Lemma cur_off_off bs pl s fl : L bs pl s fl -> cur_off s = off fl.
Proof. intros H. unfold cur_off, off. rewrite (l_out _ _ _ _ _ H). reflexivity. Qed.

Lemma L_emit bs pl s fl f :
  L bs pl s fl -> c_last s = None -> fok (c_next s) (ncon s) f -> (forall t, f = FTgt t -> In t bs) ->
  L bs pl (emit s (enc_f f)) (fl ++ [f]).
Proof.
  intros H Hl Hf Ht. eapply (L_app nl); eauto; try reflexivity; try (cbn; lia).
  all: try (eapply cwf_same; [|apply (l_cwf _ _ _ _ _ H)]; apply same_alloc_emit).
  all: try (unfold ncon; cbn; lia).
Qed.

Lemma L_op bs pl s fl o : L bs pl s fl -> c_last s = None -> L bs pl (push_op s o) (fl ++ [FOp o]).
Proof. intros H Hl. apply (L_emit bs pl s fl (FOp o) H Hl Logic.I). discriminate. Qed.
Lemma L_imm bs pl s fl imm : L bs pl s fl -> c_last s = None -> L bs pl (emit s imm) (fl ++ [FImm imm]).
Proof. intros H Hl. apply (L_emit bs pl s fl (FImm imm) H Hl Logic.I). discriminate. Qed.

Lemma L_consume bs pl s fl p s' :
  L bs pl s fl -> consume s = Some (p, s') ->
  L bs pl s' fl /\ fok (c_next s') (ncon s') (FSrc (provider_idx p)) /\ c_last s' = c_last s /\ c_bp s' = c_bp s
  /\ c_next s' = c_next s /\ c_stack s = p :: c_stack s' /\ c_consts s' = c_consts s.
Proof.
  intros H E. destruct (consume_spec nl s p s' E (l_cwf _ _ _ _ _ H)) as (Es & (O1 & O2 & O3) & En & Ec & W & Wp).
  assert (Hc : ncon s' = ncon s) by (unfold ncon; rewrite Ec; reflexivity).
  splits; auto.
  - eapply (L_alloc nl); eauto; lia.
  - rewrite En, Hc. apply (pwf_fok nl); auto. apply (l_cwf _ _ _ _ _ H).
Qed.

Lemma L_push_consume bs pl s fl p s' :
  L bs pl s fl -> c_last s = None -> push_consume s = Some (p, s') ->
  L bs pl s' (fl ++ [FSrc (provider_idx p)]) /\ c_last s' = None /\ c_bp s' = c_bp s /\ c_next s' = c_next s
  /\ c_stack s = p :: c_stack s'.
Proof.
  intros H Hl E. unfold push_consume in E. destruct (consume s) as [[q s1]|] eqn:Ec; [|discriminate]. inversion E; subst; clear E.
  destruct (L_consume _ _ _ _ _ _ H Ec) as (H1 & F1 & L1 & B1 & N1 & S1 & _).
  splits; auto; try (cbn; congruence).
  apply (L_emit bs pl s1 fl (FSrc (provider_idx p))); auto. congruence. discriminate.
Qed.

Lemma L_push_consume_n bs pl k : forall s fl s',
  L bs pl s fl -> c_last s = None -> push_consume_n k s = Some s' ->
  exists ps, length ps = k /\ L bs pl s' (fl ++ map FSrc ps) /\ c_last s' = None /\ c_bp s' = c_bp s /\ c_next s' = c_next s
  /\ (length (c_stack s) = k + length (c_stack s'))%nat.
Proof.
  induction k as [|k IH]; intros s fl s' H Hl E; cbn [push_consume_n] in E.
  - inversion E; subst. exists []. cbn [map]. rewrite app_nil_r. splits; auto.
  - destruct (push_consume s) as [[p s1]|] eqn:Ep; [|discriminate].
    destruct (L_push_consume _ _ _ _ _ _ H Hl Ep) as (H1 & L1 & B1 & N1 & S1).
    destruct (IH _ _ _ H1 L1 E) as (ps & Lp & H2 & L2 & B2 & N2 & S2).
    exists (provider_idx p :: ps). cbn [map length]. splits; auto; try congruence.
    + rewrite <- app_assoc in H2. exact H2.
    + rewrite S1. cbn [length]. lia.
Qed.

Lemma L_push_provide bs pl s fl :
  L bs pl s fl ->
  exists r, L bs pl (push_provide s) (fl ++ [FDst r]) /\ c_bp (push_provide s) = c_bp s
  /\ c_next s <= c_next (push_provide s) /\ length (c_stack (push_provide s)) = S (length (c_stack s)).
Proof.
  intros H. destruct (push_provide_spec nl s (l_cwf _ _ _ _ _ H)) as (r & Es & Eo & El & Eb & Ec & Bn & Br & _ & W).
  exists r. splits; auto; try lia.
  - eapply (L_app nl); eauto; try lia.
    + unfold ncon. rewrite Ec. lia.
    + destruct W as [W1 _ _ _ _]. cbn. lia.
    + discriminate.
    + right. split; [|eauto]. rewrite El. f_equal. eapply cur_off_off; eauto.
  - rewrite Es. reflexivity.
Qed.

Lemma L_dyn_get bs pl s fl r s' :
  L bs pl s fl -> dyn_get s = (r, s') ->
  L bs pl s' fl /\ nl <= r < c_next s' /\ c_bp s' = c_bp s /\ c_last s' = c_last s /\ c_next s <= c_next s'
  /\ c_stack s' = c_stack s /\ c_out s' = c_out s.
Proof.
  intros H E. destruct (dyn_get_spec nl s r s' E (l_cwf _ _ _ _ _ H)) as (B & N & Nst & Es & (O1 & O2 & O3) & Ec & Bn & Sub & W).
  splits; auto; try lia. eapply (L_alloc nl); eauto; try lia. unfold ncon. rewrite Ec. lia.
Qed.

Lemma L_provide_existing bs pl s fl r :
  L bs pl s fl -> res_ok nl (c_next s) r ->
  L bs pl (provide_existing s r) fl /\ c_bp (provide_existing s r) = c_bp s /\ c_last (provide_existing s r) = c_last s
  /\ c_next (provide_existing s r) = c_next s /\ c_stack (provide_existing s r) = r :: c_stack s
  /\ c_out (provide_existing s r) = c_out s /\ c_consts (provide_existing s r) = c_consts s.
Proof.
  intros H Hr. assert (W : cwf nl (provide_existing s r)).
  { destruct r as [d|i|c]; cbn in Hr; [apply cwf_provide_dyn|apply cwf_push_local|contradiction]; auto; apply (l_cwf _ _ _ _ _ H). }
  assert (E : c_bp (provide_existing s r) = c_bp s /\ c_last (provide_existing s r) = c_last s
              /\ c_next (provide_existing s r) = c_next s /\ c_stack (provide_existing s r) = r :: c_stack s
              /\ c_out (provide_existing s r) = c_out s /\ c_consts (provide_existing s r) = c_consts s)
    by (destruct r; cbn; repeat split; reflexivity).
  destruct E as (E1 & E2 & E3 & E4 & E5 & E6). splits; auto.
  eapply (L_alloc nl); eauto; try lia. unfold ncon. rewrite E6. lia.
Qed.

Definition copy_fields (p res : provider) : list field :=
  if provider_eqb p res then [] else [FOp ICopy; FSrc (provider_idx p); FDst (provider_idx res)].
Lemma copy_instr_shaped cx p d : shaped cx [FOp ICopy; FSrc p; FDst d].
Proof. apply shaped_one. apply (sh_fixed cx ICopy 0 1 true []); reflexivity. Qed.
Lemma copy_shaped cx p res : shaped cx (copy_fields p res).
Proof. unfold copy_fields. destruct (provider_eqb p res); [constructor|apply copy_instr_shaped]. Qed.

Lemma L_copy bs pl s fl p res :
  L bs pl s fl -> c_last s = None -> fok (c_next s) (ncon s) (FSrc (provider_idx p)) -> res_ok nl (c_next s) res ->
  L bs pl (copy_if_needed s p res) (fl ++ copy_fields p res) /\ c_last (copy_if_needed s p res) = None
  /\ c_bp (copy_if_needed s p res) = c_bp s /\ c_next (copy_if_needed s p res) = c_next s
  /\ c_stack (copy_if_needed s p res) = c_stack s /\ c_consts (copy_if_needed s p res) = c_consts s.
Proof.
  intros H Hl Hp Hr. unfold copy_if_needed, copy_fields. destruct (provider_eqb p res).
  - rewrite app_nil_r. splits; auto.
  - pose proof (L_op _ _ _ _ ICopy H Hl) as H1.
    pose proof (L_emit _ _ _ _ (FSrc (provider_idx p)) H1 Hl Hp ltac:(discriminate)) as H2.
    assert (Hd : fok (c_next s) (ncon s) (FDst (provider_idx res))) by (apply (res_ok_fok nl); auto; apply (l_cwf _ _ _ _ _ H)).
    pose proof (L_emit _ _ _ _ (FDst (provider_idx res)) H2 Hl Hd ltac:(discriminate)) as H3.
    rewrite <- !app_assoc in H3. splits; auto.
Qed.

(** the top of the stack is consumed and copied to a result location *)
Lemma L_carry bs pl s fl p s1 res :
  L bs pl s fl -> c_last s = None -> consume s = Some (p, s1) -> res_ok nl (c_next s) res ->
  L bs pl (copy_if_needed s1 p res) (fl ++ copy_fields p res) /\ c_last (copy_if_needed s1 p res) = None
  /\ c_bp (copy_if_needed s1 p res) = c_bp s /\ c_next (copy_if_needed s1 p res) = c_next s
  /\ c_consts (copy_if_needed s1 p res) = c_consts s.
Proof.
  intros H Hl Ec Hr. destruct (L_consume _ _ _ _ _ _ H Ec) as (H1 & F1 & L1 & B1 & N1 & _ & C1).
  destruct (L_copy _ _ _ _ p res H1 ltac:(congruence) F1 ltac:(rewrite N1; exact Hr)) as (H2 & L2 & B2 & N2 & _ & C2).
  splits; auto; congruence.
Qed.

Lemma L_truncate_n bs pl k : forall s fl s',
  L bs pl s fl -> truncate_n k s = Some s' ->
  L bs pl s' fl /\ c_last s' = c_last s /\ c_bp s' = c_bp s /\ c_next s' = c_next s.
Proof.
  induction k as [|k IH]; intros s fl s' H E; cbn [truncate_n] in E.
  - inversion E; subst. auto.
  - destruct (consume s) as [[p s1]|] eqn:Ec; [|discriminate].
    destruct (L_consume _ _ _ _ _ _ H Ec) as (H1 & _ & L1 & B1 & N1 & _).
    destruct (IH _ _ _ H1 E) as (H2 & L2 & B2 & N2). splits; auto; congruence.
Qed.

Lemma in_update_nth {A} : forall (bp : list A) l y z, In z (update_nth bp l y) -> z = y \/ In z bp.
Proof.
  induction bp as [|j bp IH]; intros [|l] y z H; cbn in H; auto.
  - destruct H; auto. right; right; auto.
  - destruct H as [H|H]; [right; left; auto|]. destruct (IH _ _ _ H); auto. right; right; auto.
Qed.

Lemma I_insert_jump bs s fl l s' :
  Iv bs s fl -> c_last s = None -> insert_jump_location s l = Some s' ->
  exists t, Iv bs s' (fl ++ [FTgt t]) /\ c_last s' = None /\ c_next s' = c_next s /\ c_stack s' = c_stack s
  /\ length (c_bp s') = length (c_bp s) /\ c_consts s' = c_consts s.
Proof.
  intros H Hl E. unfold insert_jump_location in E. destruct (nth_error (c_bp s) l) as [[pos|locs res]|] eqn:En; [| |discriminate].
  - inversion E; subst; clear E. exists pos. splits; auto.
    apply (L_emit bs _ s fl (FTgt pos)); auto. cbn; auto.
    intros t Et. inversion Et; subst. apply (L_target nl _ _ _ _ _ _ H En).
  - inversion E; subst; clear E. exists 0.
    set (s1 := set_bp s (update_nth (c_bp s) l (JUnknown (locs ++ [cur_off s]) res))).
    assert (Hlen : forall (bp : list jump_target) k y, length (update_nth bp k y) = length bp).
    { induction bp as [|j bp IH]; intros [|k] y; cbn; auto. }
    splits; auto; [|cbn; apply Hlen].
    unfold Iv. eapply (L_pl nl).
    + eapply (L_app_pend nl bs (all_locs (c_bp s)) s (emit s1 (u32_bytes 0)) fl H); try reflexivity.
      * eapply cwf_same; [|apply (l_cwf _ _ _ _ _ H)]. repeat split.
      * cbn [emit s1 set_out set_bp c_bp c_next]. apply Forall_forall. intros j Hj. apply in_update_nth in Hj.
        destruct Hj as [->|Hj]; [exact (L_target nl _ _ _ _ _ _ H En)|].
        pose proof (l_bp _ _ _ _ _ H) as F. rewrite Forall_forall in F. apply F, Hj.
      * cbn. exact Hl.
    + intros q. cbn [emit s1 set_out set_bp c_bp].
      destruct (all_locs_update _ _ _ _ (cur_off s) En) as (A & B & E1 & E2).
      rewrite E1, E2, (cur_off_off _ _ _ _ H). cbn [In]. rewrite !in_app_iff. cbn [In]. intuition.
Qed.

End Safe2.
