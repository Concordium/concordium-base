(** The machine's numeric operators ([Machine.rs_binop] etc., transcribed from the Rust integer
    methods used in machine.rs) agree with the specification's ([IntN]) on every operator,
    comparison, test and conversion, except rem_s at (MIN,-1), where the machine traps. *)
From Coq Require Import ZArith Lia.
From CB Require Import Common.IntN Common.IntNProofs Wasm.Syntax Wasm.Sem Wasm.Machine.
Local Open Scope Z_scope.

Lemma bits_pos t : 0 < bits t. Proof. destruct t; cbn; lia. Qed.

Lemma signed_cong n x : 0 <= n -> signed n x mod modulus n = x mod modulus n.
Proof.
  intros Hn. unfold signed. pose proof (modulus_pos n Hn). destruct (x <? half_modulus n); [reflexivity|].
  replace (x - modulus n) with (x + (-1) * modulus n) by lia. apply Z.mod_add. lia.
Qed.

Lemma as_i32_signed x : in_range 32 x -> as_i32 x = signed 32 x.
Proof.
  intros Hx. unfold as_i32, low32. rewrite (Z.mod_small x two32 Hx). reflexivity.
Qed.
Lemma as_i64_signed x : in_range 64 x -> as_i64 x = signed 64 x.
Proof.
  intros Hx. unfold as_i64. rewrite (Z.mod_small x two64 Hx). reflexivity.
Qed.

Lemma rs_relop_agrees t op x y :
  rs_relop op (signed (bits t) x) (signed (bits t) y) x y = app_relop t op x y
  \/ (op = Eq \/ op = Ne).
Proof.
  destruct op; try (left; reflexivity); right; auto.
Qed.
Lemma rs_relop_all t op x y : in_range (bits t) x -> in_range (bits t) y ->
  rs_relop op (signed (bits t) x) (signed (bits t) y) x y = app_relop t op x y.
Proof.
  intros Hx Hy. pose proof (bits_pos t) as Hn.
  assert (E : (signed (bits t) x =? signed (bits t) y) = (x =? y)).
  { destruct (Z.eqb_spec x y) as [->|Hne]; [apply Z.eqb_refl|].
    apply Z.eqb_neq. intro H. apply Hne.
    rewrite <- (unsigned_signed (bits t) x Hn Hx), <- (unsigned_signed (bits t) y Hn Hy), H. reflexivity. }
  destruct op; try reflexivity; unfold rs_relop, app_relop, ieq, ine, bool_to_Z; rewrite E; reflexivity.
Qed.

Lemma signed_eq0 n y : 0 < n -> in_range n y -> (signed n y = 0 <-> y = 0).
Proof.
  intros Hn [H0 H1]. unfold signed. pose proof (half_modulus_pos n Hn). destruct (Z.ltb_spec y (half_modulus n)); lia.
Qed.
Lemma signed_eqb0 n y : 0 < n -> in_range n y -> (signed n y =? 0) = (y =? 0).
Proof.
  intros Hn Hy. pose proof (signed_eq0 n y Hn Hy).
  destruct (Z.eqb_spec (signed n y) 0), (Z.eqb_spec y 0); try reflexivity; tauto.
Qed.

Lemma quot_overflow_iff h sx sy : 1 <= h -> - h <= sx < h -> - h <= sy < h -> sy <> 0 ->
  (Z.quot sx sy = h <-> sx = - h /\ sy = -1).
Proof.
  intros Hh Hx Hy Hne. split.
  - intros Hq.
    pose proof (Z.quot_rem' sx sy) as E. rewrite Hq in E.
    pose proof (Z.rem_bound_abs sx sy Hne) as B.
    assert (Rn : 0 <= sx -> 0 <= Z.rem sx sy) by (intros; apply Z.rem_nonneg; lia).
    assert (Rp : sx <= 0 -> Z.rem sx sy <= 0) by (intros; apply Z.rem_nonpos; lia).
    set (r := Z.rem sx sy) in *.
    destruct (Z_le_gt_dec 1 sy) as [Hp|Hn].
    + exfalso. destruct (Z_le_gt_dec 0 sx).
      * specialize (Rn ltac:(lia)). nia.
      * specialize (Rp ltac:(lia)). assert (- sy < r) by lia. nia.
    + assert (sy <= -1) by lia. destruct (Z.eq_dec sy (-1)) as [->|].
      * split; [|reflexivity]. assert (r = 0) by lia. lia.
      * exfalso. assert (sy <= -2) by lia. destruct (Z_le_gt_dec 0 sx).
        -- specialize (Rn ltac:(lia)). assert (r < - sy) by lia. nia.
        -- specialize (Rp ltac:(lia)). nia.
  - intros [-> ->]. change (-1) with (- (1)). rewrite Z.quot_opp_opp by lia. apply Z.quot_1_r.
Qed.

(* A bitwise operation that maps two clear bits to a clear bit keeps its operands' width:
   every bit of the result from [n] upwards is clear. *)
Lemma bitwise_range f fb n a b :
  (forall x y k, Z.testbit (f x y) k = fb (Z.testbit x k) (Z.testbit y k)) -> fb false false = false ->
  0 <= n -> 0 <= a < 2 ^ n -> 0 <= b < 2 ^ n -> f a b mod 2 ^ n = f a b.
Proof.
  intros Hf H0 Hn Ha Hb. apply Z.bits_inj'. intros k Hk. destruct (Z.ltb_spec k n).
  - apply Z.mod_pow2_bits_low. lia.
  - rewrite Z.mod_pow2_bits_high, Hf by lia.
    rewrite <- (Z.mod_small a (2 ^ n)), <- (Z.mod_small b (2 ^ n)) by lia.
    rewrite !Z.mod_pow2_bits_high by lia. symmetry. exact H0.
Qed.

Lemma irotr_range n x k : 0 < n -> in_range n x -> in_range n (irotr n x k).
Proof.
  intros Hn Hx. assert (Hk : 0 <= k mod n < n) by (apply Z.mod_pos_bound; lia).
  replace (irotr n x k) with (irotr n x (k mod n)) by (unfold irotr; rewrite Z.mod_mod by lia; reflexivity).
  rewrite irotr_formula by auto. set (j := k mod n) in *.
  destruct Hx as [H0 H1]. unfold in_range, modulus in *.
  assert (Pj : 0 < 2 ^ j) by (apply Z.pow_pos_nonneg; lia).
  assert (Pn : 0 < 2 ^ (n - j)) by (apply Z.pow_pos_nonneg; lia).
  assert (En : 2 ^ n = 2 ^ j * 2 ^ (n - j)) by (rewrite <- Z.pow_add_r by lia; f_equal; lia).
  pose proof (Z.mod_pos_bound x (2 ^ j) Pj). pose proof (Z.div_pos x (2 ^ j) H0 Pj).
  assert (x / 2 ^ j < 2 ^ (n - j)) by (apply Z.div_lt_upper_bound; lia).
  split; [nia|]. rewrite En. nia.
Qed.

Definition f3_operands (n x y : Z) : Prop := signed n x = - half_modulus n /\ signed n y = -1.

Lemma rs_binop_agrees_all t op x y :
  in_range (bits t) x -> in_range (bits t) y -> (op = RemS -> ~ f3_operands (bits t) x y) ->
  match rs_binop (bits t) op (signed (bits t) x) (signed (bits t) y) x y with
  | inr r => app_binop t op x y = Some (r mod 2 ^ bits t)
  | inl _ => app_binop t op x y = None
  end.
Proof.
  intros Hx Hy HF3.
  pose proof (bits_pos t) as Hn. set (n := bits t) in *.
  assert (Hn0 : 0 <= n) by lia. pose proof (modulus_pos n Hn0) as HM.
  pose proof (signed_cong n x Hn0) as Sx. pose proof (signed_cong n y Hn0) as Sy. unfold modulus in Sx, Sy, HM.
  pose proof (signed_range n x Hn Hx) as Rx. pose proof (signed_range n y Hn Hy) as Ry.
  pose proof (half_modulus_pos n Hn) as Hh.
  assert (Hmin : min_int n = - half_modulus n) by reflexivity.
  assert (Hk : 0 <= y mod n < n) by (apply Z.mod_pos_bound; lia).
  destruct op; cbn [rs_binop app_binop]; fold n.
  - (* add *) unfold iadd, wrap, modulus. f_equal. rewrite (Z.add_mod x y), (Z.add_mod (signed n x)) by lia.
    rewrite Sx, Sy. reflexivity.
  - (* sub *) rewrite isub_spec by lia. f_equal. rewrite (Zminus_mod x y), (Zminus_mod (signed n x)).
    rewrite Sx, Sy. reflexivity.
  - (* mul *) unfold imul, wrap, modulus. f_equal. rewrite (Z.mul_mod x y), (Z.mul_mod (signed n x)) by lia.
    rewrite Sx, Sy. reflexivity.
  - (* div_s *)
    unfold idiv_s. rewrite (signed_eqb0 n y Hn Hy). destruct (Z.eqb_spec y 0) as [->|Hy0]; [reflexivity|].
    assert (Hs : signed n y <> 0) by (rewrite (signed_eq0 n y Hn Hy); exact Hy0).
    pose proof (quot_overflow_iff (half_modulus n) (signed n x) (signed n y) ltac:(lia) Rx Ry Hs) as Q.
    rewrite Hmin.
    destruct (Z.eqb_spec (Z.quot (signed n x) (signed n y)) (half_modulus n)),
      (Z.eqb_spec (signed n x) (- half_modulus n)), (Z.eqb_spec (signed n y) (-1));
      cbn [andb]; try reflexivity; tauto.
  - (* div_u *) unfold idiv_u. destruct (y =? 0) eqn:E; [reflexivity|]. f_equal. symmetry. apply Z.mod_small.
    apply (idiv_u_range n x y); auto. unfold idiv_u. rewrite E. reflexivity.
  - (* rem_s *)
    unfold irem_s. rewrite (signed_eqb0 n y Hn Hy). destruct (y =? 0); [reflexivity|].
    rewrite Hmin.
    destruct (Z.eqb_spec (signed n x) (- half_modulus n)) as [Ex|Ex];
      destruct (Z.eqb_spec (signed n y) (-1)) as [Ey|Ey]; cbn [andb]; try reflexivity.
    exfalso. apply (HF3 eq_refl). split; assumption.
  - (* rem_u *) unfold irem_u. destruct (y =? 0) eqn:E; [reflexivity|]. f_equal. symmetry. apply Z.mod_small.
    apply (irem_u_range n x y); auto. unfold irem_u. rewrite E. reflexivity.
  - (* and *) unfold iand. f_equal. symmetry. apply (bitwise_range Z.land andb); auto using Z.land_spec.
  - (* or *) unfold ior. f_equal. symmetry. apply (bitwise_range Z.lor orb); auto using Z.lor_spec.
  - (* xor *) unfold ixor. f_equal. symmetry. apply (bitwise_range Z.lxor xorb); auto using Z.lxor_spec.
  - (* shl *) unfold ishl, wrap, modulus. f_equal. rewrite Z.shiftl_mul_pow2; [reflexivity|].
    apply Z.mod_pos_bound. lia.
  - (* shr_s *) unfold ishr_s, unsigned, wrap, modulus. f_equal. rewrite Z.shiftr_div_pow2 by lia. reflexivity.
  - (* shr_u *) unfold ishr_u. f_equal. rewrite Z.shiftr_div_pow2 by (apply Z.mod_pos_bound; lia).
    symmetry. apply Z.mod_small. apply (ishr_u_range n x y Hn Hx).
  - (* rotl *)
    pose proof (irotl_range n x y Hn Hx) as R. unfold irotl in *. unfold rs_rotl.
    rewrite Z.shiftl_mul_pow2, Z.shiftr_div_pow2 by lia. f_equal. unfold wrap, modulus in *.
    symmetry. apply Z.mod_small. exact R.
  - (* rotr *)
    pose proof (irotr_range n x y Hn Hx) as R. unfold irotr in *. unfold rs_rotr.
    rewrite Z.shiftl_mul_pow2, Z.shiftr_div_pow2 by lia. f_equal. unfold wrap, modulus in *.
    symmetry. apply Z.mod_small. exact R.
Qed.

Lemma pos_tz_ctz p : pos_tz p = pos_ctz p. Proof. induction p; cbn; auto; try (rewrite IHp; reflexivity). Qed.
Lemma pos_ones_popcnt p : pos_ones p = pos_popcnt p.
Proof. induction p; cbn; auto; try (rewrite IHp; reflexivity). Qed.

Lemma as_u32_id x : in_range 32 x -> as_u32 x = x.
Proof. exact (Z.mod_small x two32). Qed.
Lemma as_u64_id x : in_range 64 x -> as_u64 x = x.
Proof. exact (Z.mod_small x two64). Qed.

Lemma sext_signed k v : sext k v = signed k (v mod 2 ^ k).
Proof. reflexivity. Qed.

Lemma signed_low_bits n k x : 0 <= k <= n -> signed n x mod 2 ^ k = x mod 2 ^ k.
Proof.
  intros Hk. unfold signed. destruct (x <? half_modulus n); [reflexivity|].
  unfold modulus. replace n with (k + (n - k)) at 1 by lia. rewrite Z.pow_add_r by lia.
  replace (x - 2 ^ k * 2 ^ (n - k)) with (x + (- 2 ^ (n - k)) * 2 ^ k) by ring.
  apply Z.mod_add. apply Z.pow_nonzero; lia.
Qed.

Lemma rs_unop_agrees t op x :
  in_range (bits t) x -> (op = Extend32S -> t = T_i64) ->
  app_unop t op x =
  Some (match op with
        | Clz => rs_leading_zeros (bits t) x
        | Ctz => rs_trailing_zeros (bits t) x
        | Popcnt => rs_count_ones x
        | Extend8S => sext 8 (signed (bits t) x)
        | Extend16S => sext 16 (signed (bits t) x)
        | Extend32S => sext 32 (signed (bits t) x)
        end mod 2 ^ bits t).
Proof.
  intros Hx Hop. pose proof (bits_pos t) as Hn.
  assert (H16 : 16 <= bits t) by (destruct t; cbn; lia).
  assert (Hext : forall k, 0 <= k <= bits t ->
            iextendM_s k (bits t) x = sext k (signed (bits t) x) mod 2 ^ bits t).
  { intros k Hk. unfold iextendM_s, iextend_s, unsigned, wrap, modulus.
    rewrite sext_signed, (signed_low_bits (bits t) k x) by lia. reflexivity. }
  pose proof (Z.pow_gt_lin_r 2 (bits t) ltac:(lia) ltac:(lia)) as Hp.
  destruct op; cbn [app_unop].
  - pose proof (iclz_range (bits t) x Hn Hx).
    replace (rs_leading_zeros (bits t) x) with (iclz (bits t) x)
      by (unfold iclz, bitlen, rs_leading_zeros; destruct x; lia).
    rewrite Z.mod_small by lia. reflexivity.
  - pose proof (ictz_range (bits t) x Hn Hx).
    replace (rs_trailing_zeros (bits t) x) with (ictz (bits t) x)
      by (unfold ictz, rs_trailing_zeros; destruct x; auto; symmetry; apply pos_tz_ctz).
    rewrite Z.mod_small by lia. reflexivity.
  - pose proof (ipopcnt_range (bits t) x Hn Hx).
    replace (rs_count_ones x) with (ipopcnt (bits t) x)
      by (unfold ipopcnt, rs_count_ones; destruct x; auto; symmetry; apply pos_ones_popcnt).
    rewrite Z.mod_small by lia. reflexivity.
  - rewrite Hext by lia. reflexivity.
  - rewrite Hext by lia. reflexivity.
  - specialize (Hop eq_refl). subst t. rewrite Hext by (cbn; lia). reflexivity.
Qed.

Lemma rs_unop32_agrees op x : in_range 32 x -> op <> Extend32S ->
  app_unop T_i32 op x = Some (rs_unop32 op x mod 2 ^ 32).
Proof.
  intros Hx Hop. rewrite (rs_unop_agrees T_i32 op x Hx) by (intros ->; contradiction).
  destruct op; try contradiction; cbn [rs_unop32 bits];
    rewrite ?(as_u32_id x Hx), ?(as_i32_signed x Hx); reflexivity.
Qed.

Lemma rs_unop64_agrees op x : in_range 64 x ->
  app_unop T_i64 op x = Some (rs_unop64 op x mod 2 ^ 64).
Proof.
  intros Hx. rewrite (rs_unop_agrees T_i64 op x Hx) by reflexivity.
  destruct op; cbn [rs_unop64 bits]; rewrite ?(as_u64_id x Hx), ?(as_i64_signed x Hx); reflexivity.
Qed.

Lemma rs_eqz_agrees x :
  (in_range 32 x -> rs_eqz32 x = ieqz 32 x) /\ (in_range 64 x -> rs_eqz64 x = ieqz 64 x).
Proof.
  split; intros Hx; unfold rs_eqz32, rs_eqz64, ieqz, bool_to_Z.
  - rewrite (as_i32_signed x Hx), signed_eqb0 by (auto; lia). reflexivity.
  - rewrite (as_i64_signed x Hx), signed_eqb0 by (auto; lia). reflexivity.
Qed.

Lemma rs_cvt_agrees x :
  (in_range 64 x -> rs_cvt WrapI64 x mod 2 ^ 32 = iwrap 64 32 x)
  /\ (in_range 32 x -> rs_cvt ExtendI32S x mod 2 ^ 64 = iextend_s 32 64 x)
  /\ (in_range 32 x -> rs_cvt ExtendI32U x mod 2 ^ 64 = iextend_u 32 64 x).
Proof.
  repeat split; intros Hx; cbn [rs_cvt].
  - rewrite (as_i64_signed x Hx). unfold iwrap, wrap, modulus. apply (signed_low_bits 64 32 x). lia.
  - rewrite (as_i32_signed x Hx). reflexivity.
  - rewrite (as_u32_id x Hx). unfold iextend_u. destruct Hx as [H0 H1]. change (modulus 32) with 4294967296 in H1.
    apply Z.mod_small. lia.
Qed.
