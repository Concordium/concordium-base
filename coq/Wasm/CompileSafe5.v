(** * Wasm/CompileSafe5 — link of the field description of the emitted code to the decoder
    functions of [Wasm/Machine.v]: reading the decoded code map at the offset of an operand
    field with [get_i32] (what machine.rs' [get_local]/[get_local_mut] callers do) returns the
    field's value, which is a register below [num_registers] or a constant inside the table. *)
From Coq Require Import ZArith NArith List Lia Bool FMapPositive.
From CB Require Import Wasm.Syntax Wasm.Compile Wasm.Machine Wasm.MachineLemmas Wasm.CompileLemmas
     Wasm.CompileSafe Wasm.CompileSafe2 Wasm.CompileSafe4.
Import ListNotations.
Local Open Scope Z_scope.

Lemma field_code_at pre f post :
  code_at (build_code (enc (pre ++ f :: post)) xH (PositiveMap.empty N)) (off pre) (enc_f f).
Proof.
  pose proof (build_code_at (enc (pre ++ f :: post))) as H.
  assert (E : enc (pre ++ f :: post) = enc pre ++ enc_f f ++ enc post) by (rewrite enc_app; reflexivity).
  rewrite E in H at 2. apply code_at_app in H.
  destruct H as [_ H]. apply code_at_app in H. destruct H as [H _]. exact H.
Qed.

Theorem machine_operands_in_bounds_proof cx ti ft nd ops cf :
  cx_return cx = ft_result ft ->
  Forall (fun op => op_locals (Z.of_nat (length (ft_params ft) + nd)) op = true) ops ->
  compile_function cx ti ft nd ops = Some cf ->
  cf_num_registers cf <= 2147483648 -> Z.of_nat (length (cf_constants cf)) <= 2147483648 ->
  Z.of_nat (length (cf_code cf)) < 4294967296 ->
  let c := build_code (cf_code cf) xH (PositiveMap.empty N) in
  exists fl, cf_code cf = enc fl /\ shaped cx fl /\
    (forall pre p post, fl = pre ++ FSrc p :: post ->
       get_i32 c (off pre) = p /\ - Z.of_nat (length (cf_constants cf)) <= p < cf_num_registers cf) /\
    (forall pre r post, fl = pre ++ FDst r :: post ->
       get_i32 c (off pre) = r /\ 0 <= r < cf_num_registers cf) /\
    (forall pre t post, fl = pre ++ FTgt t :: post ->
       get_u32 c (off pre) = t /\ starts cx fl t /\ 0 <= t <= Z.of_nat (length (cf_code cf))).
Proof.
  intros Hr Hl E B1 B2 B3 c.
  destruct (compile_output_safe_partial_proof cx ti ft nd ops cf Hr Hl E) as (_ & _ & fl & Ec & Sh & Fo & Tg).
  assert (At : forall pre f post, fl = pre ++ f :: post ->
            fok (cf_num_registers cf) (Z.of_nat (length (cf_constants cf))) f /\ code_at c (off pre) (enc_f f)).
  { intros pre f post Ef. split.
    - rewrite Forall_forall in Fo. apply Fo. rewrite Ef. apply in_or_app. right. left. reflexivity.
    - subst c. rewrite Ec, Ef. apply field_code_at. }
  exists fl. splits; auto.
  - intros pre p post Ef. destruct (At _ _ _ Ef) as [Hp Hc]. cbn in Hp. split; [apply code_at_i32; [lia|exact Hc]|exact Hp].
  - intros pre r post Ef. destruct (At _ _ _ Ef) as [Hp Hc]. cbn in Hp. split; [apply code_at_i32; [lia|exact Hc]|exact Hp].
  - intros pre t post Ef. destruct (At _ _ _ Ef) as [_ Hc]. destruct (Tg _ _ _ Ef) as (St & Bt).
    splits; auto; try lia. apply code_at_u32; [lia|exact Hc].
Qed.
