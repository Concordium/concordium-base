(** * Wasm/CompileSafe3 — every case of [Handler::handle_opcode] preserves the invariant of
    [CompileSafe.v] and emits whole instructions of the grammar [shaped]. *)
From Coq Require Import ZArith NArith List Lia Bool.
From CB Require Import Wasm.Syntax Wasm.Compile Wasm.MachineLemmas Wasm.CompileLemmas Wasm.BlockProofs Wasm.CompileSafe Wasm.CompileSafe2.
Import ListNotations.
Local Open Scope Z_scope.

Section Safe3.
Variable nl : Z.
Variable cx : cctx.
Notation L := (L nl).
Notation Iv := (Iv nl).

(** result of one opcode: the old fields keep their kinds (only back-patched values change),
    whole instructions [ext] are appended, new jump targets are the old or the new end of code *)
Definition post (bs : list Z) (fl : list field) (s' : cstate) : Prop :=
  exists fl1 ext bs', map kind_of fl1 = map kind_of fl /\ Iv bs' s' (fl1 ++ ext) /\ shaped cx ext /\ incl bs bs'
    /\ (forall b, In b bs' -> In b bs \/ b = off fl \/ b = off (fl1 ++ ext)).

Lemma post_simple bs fl ext s' : Iv bs s' (fl ++ ext) -> shaped cx ext -> post bs fl s'.
Proof. intros H S. exists fl, ext, bs. splits; auto. apply incl_refl. Qed.
Lemma post_same bs fl s' : Iv bs s' fl -> post bs fl s'.
Proof. intros H. apply (post_simple bs fl []); [rewrite app_nil_r; exact H|apply shaped_nil]. Qed.
Lemma Iv_of_L bs s0 s fl : L bs (all_locs (c_bp s0)) s fl -> c_bp s = c_bp s0 -> Iv bs s fl.
Proof. intros H E. unfold CompileSafe2.Iv. rewrite E. exact H. Qed.

Lemma gi_safe bs s fl opc imm k prov s' :
  Iv bs s fl -> c_last s = None -> gi s opc imm k prov = Some s' ->
  fixed_shape opc = Some (length imm, k, prov) -> post bs fl s'.
Proof.
  intros H Hl E Hs. unfold gi in E.
  destruct (push_consume_n k (emit_imm (push_op s opc) imm)) as [s2|] eqn:E2; [|discriminate].
  pose proof (L_op nl _ _ _ _ opc H Hl) as H1.
  set (immf := match imm with [] => [] | _ => [FImm imm] end).
  assert (H1' : L bs (all_locs (c_bp s)) (emit_imm (push_op s opc) imm) ((fl ++ [FOp opc]) ++ immf)
                /\ c_last (emit_imm (push_op s opc) imm) = None /\ c_bp (emit_imm (push_op s opc) imm) = c_bp s).
  { subst immf. destruct imm as [|b imm']; cbn [emit_imm].
    - rewrite app_nil_r. auto.
    - split; auto. apply (L_imm nl _ _ _ _ (b :: imm') H1 Hl). }
  destruct H1' as (H1' & Hl1 & Hb1).
  destruct (L_push_consume_n nl _ _ _ _ _ _ H1' Hl1 E2) as (ps & Lp & H2 & L2 & B2 & N2 & _).
  assert (Ko : oshape cx opc (map kind_of (immf ++ map FSrc ps) ++ dst_opt prov)).
  { rewrite map_app, map_kind_src, Lp, <- app_assoc.
    replace (map kind_of immf) with (match length imm with O => [] | _ => [KImm imm] end) by (subst immf; destruct imm; reflexivity).
    eapply sh_fixed; eauto. }
  destruct prov; inversion E; subst; clear E.
  - destruct (L_push_provide nl _ _ _ _ H2) as (r & H3 & B3 & _).
    apply (post_simple bs fl (FOp opc :: immf ++ map FSrc ps ++ [FDst r])).
    + eapply (Iv_of_L bs s); [|congruence]. rewrite <- !app_assoc in H3. cbn [app] in H3. exact H3.
    + apply shaped_one. rewrite app_assoc, map_app. exact Ko.
  - apply (post_simple bs fl (FOp opc :: immf ++ map FSrc ps)).
    + eapply (Iv_of_L bs s); [|congruence]. rewrite <- !app_assoc in H2. cbn [app] in H2. exact H2.
    + apply shaped_one. cbn [dst_opt] in Ko. rewrite app_nil_r in Ko. exact Ko.
Qed.

Lemma kinds_split : forall (P a b : list field), map kind_of P = map kind_of (a ++ b) ->
  exists a' b', P = a' ++ b' /\ map kind_of a' = map kind_of a /\ map kind_of b' = map kind_of b.
Proof.
  intros P a b E. exists (firstn (length a) P), (skipn (length a) P). rewrite firstn_skipn. split; auto.
  rewrite map_app in E. rewrite <- firstn_map, <- skipn_map, E. rewrite <- (map_length kind_of a).
  rewrite firstn_app, Nat.sub_diag, firstn_all, skipn_app, Nat.sub_diag, skipn_all. cbn. rewrite app_nil_r. auto.
Qed.
Lemma shaped_kinds a b : map kind_of a = map kind_of b -> shaped cx a -> shaped cx b.
Proof. unfold shaped. intros ->. auto. Qed.

(** the state at the start of [handle_opcode] *)
Lemma Iv_start bs s0 fl : Iv bs s0 fl -> Iv bs (set_last s0 None) fl /\ c_last (set_last s0 None) = None.
Proof. intros H. split; [|reflexivity]. apply (L_set_last_none nl). exact H. Qed.

Lemma tee_tail_safe bs pl s3 fl idx (is_set : bool) s' :
  L bs pl s3 fl -> c_last s3 = None -> 0 <= idx < nl ->
  match push_consume (push_op s3 ICopy) with
  | Some (_, s4) => let s5 := emit s4 (i32_bytes idx) in Some (if is_set then s5 else provide_existing s5 (PLocal idx))
  | None => None end = Some s' ->
  exists p, L bs pl s' (fl ++ [FOp ICopy; FSrc p; FDst idx]) /\ c_bp s' = c_bp s3.
Proof.
  intros H Hl Hi E. destruct (push_consume (push_op s3 ICopy)) as [[p s4]|] eqn:Ep; [|discriminate].
  pose proof (L_op nl _ _ _ _ ICopy H Hl) as H1.
  destruct (L_push_consume nl _ _ _ _ _ _ H1 Hl Ep) as (H2 & L2 & B2 & N2 & _).
  assert (Hd : fok (c_next s4) (ncon s4) (FDst idx)).
  { pose proof (w_next _ _ (l_cwf _ _ _ _ _ H2)). cbn. lia. }
  pose proof (L_emit nl _ _ _ _ (FDst idx) H2 L2 Hd ltac:(discriminate)) as H3. napp H3.
  exists (provider_idx p). destruct is_set; inversion E; subst; clear E.
  - split; auto.
  - destruct (L_provide_existing nl _ _ _ _ (PLocal idx) H3 Hi) as (H4 & B4 & _). split; auto; try (rewrite B4; exact B2).
Qed.

Lemma set_tee_safe bs s0 fl i (is_set : bool) s' :
  Iv bs s0 fl -> 0 <= Z.of_nat i < nl -> set_tee (c_last s0) (set_last s0 None) i is_set = Some s' -> post bs fl s'.
Proof.
  intros H0 Hi E. destruct (Iv_start _ _ _ H0) as (H & Hl). set (s := set_last s0 None) in *.
  unfold set_tee in E. rewrite preserve_local_spec in E. destruct (has_local (Z.of_nat i) (c_stack s)) eqn:Hh.
  - destruct (dyn_get s) as [d s2] eqn:Ed.
    destruct (L_dyn_get nl _ _ _ _ _ _ H Ed) as (H1 & Bd & B1 & L1 & N1 & S1 & _).
    destruct (dyn_get_spec nl s d s2 Ed (l_cwf _ _ _ _ _ H)) as (_ & Nr & _ & Es & _ & _ & _ & _ & W').
    assert (Fst : Forall (pwf nl s2) (map (subst_local (Z.of_nat i) (PDyn d)) (c_stack s))).
    { pose proof (w_stack _ _ W') as F. rewrite Es in F. apply Forall_forall. intros q Hq. apply in_map_iff in Hq.
      destruct Hq as (q0 & <- & Hq0). unfold subst_local. destruct (is_local (Z.of_nat i) q0).
      - cbn. split; [lia|exact Nr].
      - rewrite Forall_forall in F. apply F. exact Hq0. }
    set (st' := map (subst_local (Z.of_nat i) (PDyn d)) (c_stack s)) in *.
    assert (H2 : L bs (all_locs (c_bp s)) (set_stack s2 st') fl).
    { eapply (L_alloc nl); [exact H1|apply cwf_set_stack; auto| | | | |]; try reflexivity; try lia. }
    assert (L2 : c_last (set_stack s2 st') = None) by (cbn; congruence).
    pose proof (L_op nl _ _ _ _ ICopy H2 L2) as H3.
    assert (Hs : fok (c_next s2) (ncon s2) (FSrc (Z.of_nat i))).
    { pose proof (w_next _ _ W'). cbn. unfold ncon. lia. }
    pose proof (L_emit nl _ _ _ _ (FSrc (Z.of_nat i)) H3 L2 Hs ltac:(discriminate)) as H4.
    assert (Hdd : fok (c_next s2) (ncon s2) (FDst d)) by (pose proof (w_next _ _ W'); cbn; lia).
    pose proof (L_emit nl _ _ _ _ (FDst d) H4 L2 Hdd ltac:(discriminate)) as H5. napp H5.
    assert (E' : match push_consume (push_op (push_loc (emit (push_op (set_stack s2 st') ICopy) (i32_bytes (Z.of_nat i))) (PDyn d)) ICopy) with
                 | Some (_, s4) => let s5 := emit s4 (i32_bytes (Z.of_nat i)) in
                                   Some (if is_set then s5 else provide_existing s5 (PLocal (Z.of_nat i)))
                 | None => None end = Some s') by (destruct (c_last s0); exact E).
    destruct (tee_tail_safe _ _ _ _ _ _ _ H5 L2 Hi E') as (p & H6 & B6). napp H6.
    apply (post_simple bs fl [FOp ICopy; FSrc (Z.of_nat i); FDst d; FOp ICopy; FSrc p; FDst (Z.of_nat i)]).
    + eapply (Iv_of_L bs s); [exact H6|]. rewrite B6. cbn. exact B1.
    + apply (shaped_app cx [_; _; _] [_; _; _]); apply copy_instr_shaped.
  - assert (H2 : L bs (all_locs (c_bp s)) (set_stack s (c_stack s)) fl).
    { eapply (L_alloc nl); [exact H|eapply cwf_same; [|apply (l_cwf _ _ _ _ _ H)]; repeat split| | | | |]; try reflexivity; try lia. }
    assert (L2 : c_last (set_stack s (c_stack s)) = None) by exact Hl.
    destruct (c_last s0) as [q|] eqn:Elast.
    + destruct (l_last _ _ _ _ _ H0 q Elast) as (pre & r & Efl & Oq).
      destruct (consume (back_patch (set_stack s (c_stack s)) q (Z.of_nat i))) as [[p s4]|] eqn:Ec; [|discriminate].
      assert (Hd : fok (c_next (set_stack s (c_stack s))) (ncon (set_stack s (c_stack s))) (FDst (Z.of_nat i))).
      { pose proof (w_next _ _ (l_cwf _ _ _ _ _ H)) as X. unfold s in *. cbn in X |- *. lia. }
      pose proof (L_replace nl bs _ (all_locs (c_bp s)) _ fl pre (FDst r) (FDst (Z.of_nat i)) [] (Z.of_nat i) H2 Efl
                    eq_refl eq_refl eq_refl L2 Hd ltac:(discriminate) ltac:(auto) ltac:(auto)) as H3.
      rewrite Oq in H3.
      destruct (L_consume nl _ _ _ _ _ _ H3 Ec) as (H4 & _ & L4 & B4 & N4 & _).
      assert (K : map kind_of (pre ++ [FDst (Z.of_nat i)]) = map kind_of fl) by (rewrite Efl, !map_app; reflexivity).
      exists (pre ++ [FDst (Z.of_nat i)]), [], bs. rewrite app_nil_r. splits; auto; try apply incl_refl; try apply shaped_nil.
      destruct is_set; inversion E; subst; clear E.
      * eapply (Iv_of_L bs s); [exact H4|]. rewrite B4. reflexivity.
      * destruct (L_provide_existing nl _ _ _ _ (PLocal (Z.of_nat i)) H4 Hi) as (H5 & B5 & _).
        eapply (Iv_of_L bs s); [exact H5|]. cbn in B5, B4 |- *; congruence.
    + destruct (tee_tail_safe _ _ _ _ _ _ _ H2 L2 Hi E) as (p & H6 & B6).
      apply (post_simple bs fl [FOp ICopy; FSrc p; FDst (Z.of_nat i)]).
      * eapply (Iv_of_L bs s); [exact H6|]. rewrite B6. reflexivity.
      * apply copy_instr_shaped.
Qed.

Lemma score_safe bs s0 fl b s' :
  Iv bs s0 fl -> straight b = true -> locals_in nl b = true ->
  score (c_last s0) (set_last s0 None) b = Some s' -> post bs fl s'.
Proof.
  intros H0 Hs Hi E. destruct (Iv_start _ _ _ H0) as (H & Hl).
  destruct b; try discriminate Hs; cbn [score] in E; cbn [locals_in] in Hi;
    try (cbn [gi_shape] in E; eapply gi_safe; eauto;
         repeat match goal with
                | x : option _ |- _ => destruct x | x : (_ * _)%type |- _ => destruct x
                | x : packsize |- _ => destruct x | x : sx |- _ => destruct x
                | x : valtype |- _ => destruct x | x : unop |- _ => destruct x | x : binop |- _ => destruct x
                | x : relop |- _ => destruct x | x : cvtop |- _ => destruct x end; reflexivity).
  - inversion E; subst. apply post_same, H.
  - destruct (consume (set_last s0 None)) as [[p s1]|] eqn:Ec; [|discriminate]. inversion E; subst.
    destruct (L_consume nl _ _ _ _ _ _ H Ec) as (H1 & _ & _ & B1 & _).
    apply post_same. eapply (Iv_of_L bs (set_last s0 None)); eauto.
  - inversion E; subst. apply Z.ltb_lt in Hi.
    assert (Hr : res_ok nl (c_next (set_last s0 None)) (PLocal (Z.of_nat i))) by (unfold res_ok; lia).
    destruct (L_provide_existing nl _ _ _ _ (PLocal (Z.of_nat i)) H Hr) as (H1 & B1 & _).
    apply post_same. eapply (Iv_of_L bs (set_last s0 None)); eauto.
  - apply Z.ltb_lt in Hi. apply (set_tee_safe bs s0 fl i true s' H0); [lia|exact E].
  - apply Z.ltb_lt in Hi. apply (set_tee_safe bs s0 fl i false s' H0); [lia|exact E].
  - inversion E; subst.
    destruct (push_constant_spec nl (set_last s0 None) (const_i64 t z) (l_cwf _ _ _ _ _ H))
      as (idx & Es & (O1 & O2 & O3) & En & Er & (ext & Ec) & _ & _ & W).
    apply post_same.
    eapply (Iv_of_L bs (set_last s0 None)); [|exact O2].
    eapply (L_alloc nl); eauto; try lia. unfold ncon. rewrite Ec, app_length. lia.
Qed.

Lemma L_patch_all bs pos : forall locs pl' s fl,
  L bs (locs ++ pl') s fl -> c_last s = None -> In pos bs ->
  exists fl1, map kind_of fl1 = map kind_of fl
    /\ L bs pl' (fold_left (fun acc l => back_patch acc l pos) locs s) fl1
    /\ c_bp (fold_left (fun acc l => back_patch acc l pos) locs s) = c_bp s.
Proof.
  induction locs as [|a locs IH]; intros pl' s fl H Hl Hp; cbn [fold_left app] in *.
  - exists fl. auto.
  - destruct (l_pend _ _ _ _ _ H a (or_introl eq_refl)) as (pre & t & post & E & O).
    assert (H1 : L bs (locs ++ pl') (back_patch s (off pre) pos) (pre ++ FTgt pos :: post)).
    { apply (L_replace nl bs (a :: locs ++ pl') (locs ++ pl') s fl pre (FTgt t) (FTgt pos) post pos H E); auto; try reflexivity.
      - intros t0 Et. inversion Et; subst. exact Hp.
      - intros q [<-|Hq]; [left; symmetry; exact O|right; exact Hq].
      - intros q Hq. right. exact Hq. }
    rewrite O in H1. destruct (IH pl' _ _ H1 Hl Hp) as (fl1 & K & H2 & B). exists fl1. splits; auto.
    rewrite K, E, !map_app. reflexivity.
Qed.

Lemma post_patched bs fl ext P s' pos :
  map kind_of P = map kind_of (fl ++ ext) -> shaped cx ext -> pos = off (fl ++ ext) ->
  Iv (pos :: bs) s' P -> post bs fl s'.
Proof.
  intros K S Ep H. destruct (kinds_split P fl ext K) as (a' & b' & EP & Ka & Kb). subst P.
  exists a', b', (pos :: bs). splits; auto.
  - eapply shaped_kinds; [symmetry; exact Kb|exact S].
  - apply incl_tl, incl_refl.
  - intros b [<-|Hb]; auto. right. right. rewrite Ep. apply off_kinds. symmetry. exact K.
Qed.

Lemma end_safe bs s fl (ir : bool) (v : vstate) s' :
  Iv bs s fl -> c_last s = None ->
  match c_bp s with
  | [] => None
  | JKnown _ :: bp' =>
      let s1 := set_bp s bp' in
      if negb ir && (length (c_stack s1) <? v_opds v)%nat then Some (snd (provide s1)) else Some s1
  | JUnknown locs result :: bp' =>
      let s1 := set_bp s bp' in
      let s2 :=
        match result with
        | Some res =>
            if ir then
              match consume s1 with
              | Some (p, s2) => Some (provide_existing (copy_if_needed s2 p res) res)
              | None => None
              end
            else
              let s2 := if (length (c_stack s1) =? v_opds v)%nat
                        then match consume s1 with Some (_, x) => Some x | None => None end
                        else Some s1 in
              match s2 with Some s2 => Some (provide_existing s2 res) | None => None end
        | None => Some s1
        end in
      match s2 with
      | Some s2 => let pos := cur_off s2 in Some (fold_left (fun acc l => back_patch acc l pos) locs s2)
      | None => None
      end
  end = Some s' -> post bs fl s'.
Proof.
  intros H Hl E. destruct (c_bp s) as [|[pos|locs result] bp'] eqn:Eb; [discriminate| |].
  - destruct (L_pop_bp nl _ _ _ _ _ _ H Eb) as [H1 _]. rewrite Eb in H1. change (L bs (all_locs bp') (set_bp s bp') fl) in H1.
    cbv zeta in E. destruct (negb ir && (length (c_stack (set_bp s bp')) <? v_opds v)%nat); inversion E; subst; clear E.
    + unfold provide. destruct (dyn_get (set_bp s bp')) as [r s2] eqn:Ed. cbn [snd].
      destruct (L_dyn_get nl _ _ _ _ _ _ H1 Ed) as (H2 & Br & B2 & L2 & N2 & S2 & _).
      destruct (dyn_get_spec nl _ r s2 Ed (l_cwf _ _ _ _ _ H1)) as (_ & Nr & _ & _ & _ & _ & _ & _ & W').
      apply post_same.
      eapply (Iv_of_L bs (set_bp s bp')); [|cbn; exact B2].
      eapply (L_alloc nl); [exact H2|apply cwf_push_dyn; auto| | | | |]; try reflexivity; try lia.
    + apply post_same, H1.
  - set (pl := locs ++ all_locs bp').
    destruct (L_pop_bp nl _ _ _ _ _ _ H Eb) as [H1 Hj]. rewrite Eb in H1. change (L bs pl (set_bp s bp') fl) in H1.
    assert (L1 : c_last (set_bp s bp') = None) by exact Hl.
    cbv zeta in E.
    match type of E with match ?X with _ => _ end = _ => destruct X as [s2|] eqn:E2; [|discriminate] end.
    inversion E; subst; clear E.
    assert (C : exists ext, L bs pl s2 (fl ++ ext) /\ shaped cx ext /\ c_last s2 = None /\ c_bp s2 = bp').
    { destruct result as [res|].
      - assert (Hr : res_ok nl (c_next s) res) by exact Hj.
        destruct ir.
        + destruct (consume (set_bp s bp')) as [[p s3]|] eqn:Ec; [|discriminate]. inversion E2; subst; clear E2.
          destruct (L_carry nl _ _ _ _ _ _ res H1 L1 Ec Hr) as (H4 & L4 & B4 & N4 & _).
          destruct (L_provide_existing nl _ _ _ _ res H4 ltac:(rewrite N4; exact Hr)) as (H5 & B5 & L5 & _).
          exists (copy_fields p res). splits; auto using copy_shaped; cbn [set_bp c_bp c_next c_last] in *; congruence.
        + assert (C0 : exists s3, L bs pl s3 fl /\ c_last s3 = None /\ c_bp s3 = bp' /\ c_next s3 = c_next s
                                  /\ s2 = provide_existing s3 res).
          { destruct (length (c_stack (set_bp s bp')) =? v_opds v)%nat.
            - destruct (consume (set_bp s bp')) as [[p s3]|] eqn:Ec; [|discriminate]. inversion E2; subst; clear E2.
              destruct (L_consume nl _ _ _ _ _ _ H1 Ec) as (H3 & F3 & L3 & B3 & N3 & _). exists s3. splits; auto; cbn [set_bp c_bp c_next c_last] in *; congruence.
            - inversion E2; subst. exists (set_bp s bp'). splits; auto. }
          destruct C0 as (s3 & H3 & L3 & B3 & N3 & ->).
          destruct (L_provide_existing nl _ _ _ _ res H3 ltac:(rewrite N3; exact Hr)) as (H5 & B5 & L5 & _).
          exists []. rewrite app_nil_r. splits; auto using shaped_nil; cbn [set_bp c_bp c_next c_last] in *; congruence.
      - inversion E2; subst. exists []. rewrite app_nil_r. splits; auto using shaped_nil. }
    destruct C as (ext & H2 & S2 & L2 & B2).
    assert (Ep : cur_off s2 = off (fl ++ ext)) by (eapply cur_off_off; eauto).
    assert (H2' : L (cur_off s2 :: bs) (locs ++ all_locs bp') s2 (fl ++ ext)) by (eapply (L_bs nl); [exact H2|apply incl_tl, incl_refl]).
    destruct (L_patch_all (cur_off s2 :: bs) (cur_off s2) locs (all_locs bp') s2 (fl ++ ext) H2' L2 (or_introl eq_refl))
      as (P & K & H3 & B3).
    apply (post_patched bs fl ext P _ (cur_off s2) K S2 Ep).
    unfold CompileSafe2.Iv. rewrite B3, B2. exact H3.
Qed.

Lemma if_safe bs s fl (ty : blocktype) s' :
  Iv bs s fl -> c_last s = None ->
  match push_consume (push_op s IIf) with
  | Some (_, s1) =>
      let '(res, s2) :=
        match ty with
        | Some _ => let '(r, s2) := dyn_get s1 in (Some (PDyn r), s2)
        | None => (None, s1)
        end in
      let s3 := set_bp s2 (JUnknown [cur_off s2] res :: c_bp s2) in
      Some (emit s3 (u32_bytes 0))
  | None => None
  end = Some s' -> post bs fl s'.
Proof.
  intros H Hl E. destruct (push_consume (push_op s IIf)) as [[p s1]|] eqn:Ep; [|discriminate].
  pose proof (L_op nl _ _ _ _ IIf H Hl) as H1.
  destruct (L_push_consume nl _ _ _ _ _ _ H1 Hl Ep) as (H2 & L2 & B2 & N2 & _). napp H2.
  set (flx := fl ++ [FOp IIf; FSrc (provider_idx p)]) in *.
  assert (C : exists res s2, (match ty with
        | Some _ => let '(r, s2) := dyn_get s1 in (Some (PDyn r), s2)
        | None => (None, s1) end) = (res, s2) /\ L bs (all_locs (c_bp s)) s2 flx /\ c_last s2 = None /\ c_bp s2 = c_bp s
        /\ jt_ok nl bs (c_next s2) (JUnknown [cur_off s2] res)).
  { destruct ty as [t|].
    - destruct (dyn_get s1) as [r s2] eqn:Ed. destruct (L_dyn_get nl _ _ _ _ _ _ H2 Ed) as (H3 & Br & B3 & L3 & _).
      exists (Some (PDyn r)), s2. splits; auto; try (cbn [push_op emit set_out c_bp c_last] in *; congruence).
    - exists None, s1. splits; auto; try (cbn [push_op emit set_out c_bp c_last] in *; congruence). exact Logic.I. }
  destruct C as (res & s2 & Eq & H3 & L3 & B3 & R3). rewrite Eq in E. inversion E; subst; clear E.
  pose proof (L_push_bp nl _ _ _ _ _ H3 R3) as H4.
  pose proof (L_app_pend nl bs _ _ (emit (set_bp s2 (JUnknown [cur_off s2] res :: c_bp s2)) (u32_bytes 0)) flx H4) as H5.
  apply (post_simple bs fl [FOp IIf; FSrc (provider_idx p); FTgt 0]).
  - unfold CompileSafe2.Iv. cbn [emit set_out set_bp c_bp all_locs flat_map locs_of app]. fold (all_locs (c_bp s2)).
    eapply (L_pl nl).
    + subst flx. rewrite <- app_assoc in H5. cbn [app] in H5. apply H5; auto; try reflexivity.
      * eapply cwf_same; [|apply (l_cwf _ _ _ _ _ H3)]. repeat split.
      * exact (l_bp _ _ _ _ _ H4).
    + intros q. rewrite B3. rewrite (cur_off_off nl _ _ _ _ H3). subst flx. rewrite <- ?app_assoc. cbn [app In]. intuition.
  - apply shaped_one. apply sh_if.
Qed.

Lemma br_jump_safe bs s fl (ir : bool) l s1 :
  Iv bs s fl -> c_last s = None -> push_br_jump s ir l = Some s1 ->
  exists ext, Iv bs s1 (fl ++ ext) /\ shaped cx ext /\ c_last s1 = None.
Proof.
  intros H Hl E. unfold push_br_jump in E. destruct (nth_error (c_bp s) l) as [tgt|] eqn:En; [|discriminate].
  match type of E with match ?X with _ => _ end = _ => destruct X as [s2|] eqn:E1; [|discriminate] end.
  assert (C : exists ext, L bs (all_locs (c_bp s)) s2 (fl ++ ext) /\ shaped cx ext /\ c_last s2 = None /\ c_bp s2 = c_bp s).
  { assert (D : s2 = s \/ exists res lo p s3, tgt = JUnknown lo (Some res) /\ consume s = Some (p, s3) /\ s2 = copy_if_needed s3 p res).
    { destruct ir; [|inversion E1; auto]. destruct tgt as [pos|lo [res|]]; try (inversion E1; auto; fail).
      destruct (consume s) as [[p s3]|] eqn:Ec; [|discriminate]. inversion E1; subst. right. exists res, lo, p, s3. auto. }
    destruct D as [->|(res & lo & p & s3 & -> & Ec & ->)].
    - exists []. rewrite app_nil_r. splits; auto using shaped_nil.
    - destruct (L_carry nl _ _ _ _ _ _ res H Hl Ec (L_target nl _ _ _ _ _ _ H En)) as (H4 & L4 & B4 & _).
      exists (copy_fields p res). splits; auto using copy_shaped. }
  destruct C as (ext & H2 & S2 & L2 & B2).
  pose proof (L_op nl _ _ _ _ IBr H2 L2) as H3.
  assert (H3' : Iv bs (push_op s2 IBr) ((fl ++ ext) ++ [FOp IBr])) by (eapply (Iv_of_L bs s); [exact H3|exact B2]).
  destruct (I_insert_jump nl _ _ _ _ _ H3' L2 E) as (t & H4 & L4 & _).
  exists (ext ++ [FOp IBr; FTgt t]). splits; auto.
  - napp H4. exact H4.
  - apply shaped_app; auto. apply shaped_one. apply sh_br.
Qed.

Lemma else_safe bs s fl (ir : bool) s' :
  Iv bs s fl -> c_last s = None ->
  match push_br_jump s ir 0 with
  | Some s1 =>
      match c_bp s1 with
      | JUnknown (first :: rest) res :: bp' =>
          let pos := cur_off s1 in
          Some (back_patch (set_bp s1 (JUnknown rest res :: bp')) first pos)
      | _ => None
      end
  | None => None
  end = Some s' -> post bs fl s'.
Proof.
  intros H Hl E. destruct (push_br_jump s ir 0) as [s1|] eqn:E1; [|discriminate].
  destruct (br_jump_safe _ _ _ _ _ _ H Hl E1) as (ext & H1 & S1 & L1).
  destruct (c_bp s1) as [|[pos|[|first rest] res] bp'] eqn:Eb; try discriminate. inversion E; subst; clear E.
  unfold CompileSafe2.Iv in H1. rewrite Eb in H1. cbn [all_locs flat_map locs_of] in H1. fold (all_locs bp') in H1.
  destruct (L_pop_bp nl _ _ _ _ _ _ H1 Eb) as [H2' Hj].
  pose proof (L_push_bp nl _ _ (set_bp s1 bp') _ (JUnknown rest res) H2' Hj) as H2.
  change (L bs ((first :: rest) ++ all_locs bp') (set_bp s1 (JUnknown rest res :: bp')) (fl ++ ext)) in H2.
  assert (H3 : L (cur_off s1 :: bs) ((first :: rest) ++ all_locs bp') (set_bp s1 (JUnknown rest res :: bp')) (fl ++ ext))
    by (eapply (L_bs nl); [exact H2|apply incl_tl, incl_refl]).
  destruct (l_pend _ _ _ _ _ H3 first (or_introl eq_refl)) as (pre & t & po & Ef & O).
  assert (H4 : L (cur_off s1 :: bs) (rest ++ all_locs bp')
                 (back_patch (set_bp s1 (JUnknown rest res :: bp')) (off pre) (cur_off s1)) (pre ++ FTgt (cur_off s1) :: po)).
  { apply (L_replace nl (cur_off s1 :: bs) ((first :: rest) ++ all_locs bp') (rest ++ all_locs bp') _ (fl ++ ext) pre (FTgt t)
             (FTgt (cur_off s1)) po (cur_off s1) H3 Ef); auto; try reflexivity.
    - intros t0 Et. inversion Et; subst. left. reflexivity.
    - intros q [<-|Hq]; [left; symmetry; exact O|right; exact Hq].
    - intros q Hq. right. exact Hq. }
  rewrite O in H4.
  apply (post_patched bs fl ext (pre ++ FTgt (cur_off s1) :: po) _ (cur_off s1)); auto.
  - rewrite Ef, !map_app. reflexivity.
  - unfold cur_off. rewrite (l_out _ _ _ _ _ H1). reflexivity.
Qed.

Lemma br_if_safe bs s fl l s' :
  Iv bs s fl -> c_last s = None ->
  match consume s with
  | Some (cond, s1) => match push_br_if_jump s1 l with Some s2 => Some (push_loc s2 cond) | None => None end
  | None => None
  end = Some s' -> post bs fl s'.
Proof.
  intros H Hl E. destruct (consume s) as [[cond s1]|] eqn:Ec; [|discriminate].
  destruct (push_br_if_jump s1 l) as [s2|] eqn:Ej; [|discriminate]. inversion E; subst; clear E.
  destruct (L_consume nl _ _ _ _ _ _ H Ec) as (H1 & F1 & L1 & B1 & N1 & _).
  assert (C : exists ext s3, L bs (all_locs (c_bp s)) s3 (fl ++ ext) /\ shaped cx ext /\ c_last s3 = None /\ c_bp s3 = c_bp s
              /\ c_next s3 = c_next s1 /\ c_consts s3 = c_consts s1 /\ insert_jump_location (push_op s3 IBrIf) l = Some s2).
  { unfold push_br_if_jump in Ej.
    assert (D : insert_jump_location (push_op s1 IBrIf) l = Some s2 \/
                exists lo res p s1', nth_error (c_bp s1) l = Some (JUnknown lo (Some res)) /\ consume s1 = Some (p, s1')
                  /\ insert_jump_location (push_op (provide_existing (copy_if_needed s1' p res) res) IBrIf) l = Some s2).
    { destruct (nth_error (c_bp s1) l) as [[pos|lo [res|]]|] eqn:En; try discriminate; auto.
      destruct (consume s1) as [[p s1']|] eqn:Ec2; [|discriminate]. right. exists lo, res, p, s1'. auto. }
    destruct D as [D|(lo & res & p & s1' & En & Ec2 & D)].
    - exists [], s1. rewrite app_nil_r. splits; auto using shaped_nil; congruence.
    - pose proof (L_target nl _ _ _ _ _ _ H1 En) as Hr.
      destruct (L_carry nl _ _ _ _ _ _ res H1 ltac:(congruence) Ec2 Hr) as (H4 & L4 & B4 & N4 & C4).
      destruct (L_provide_existing nl _ _ _ _ res H4 ltac:(rewrite N4; exact Hr)) as (H5 & B5 & L5 & N5 & _ & _ & C5).
      exists (copy_fields p res), (provide_existing (copy_if_needed s1' p res) res).
      splits; auto using copy_shaped; congruence. }
  destruct C as (ext & s3 & H3 & S3 & L3 & B3 & N3 & C3 & Ej3).
  pose proof (L_op nl _ _ _ _ IBrIf H3 L3) as H4.
  assert (H4' : Iv bs (push_op s3 IBrIf) ((fl ++ ext) ++ [FOp IBrIf])) by (eapply (Iv_of_L bs s); [exact H4|exact B3]).
  destruct (I_insert_jump nl _ _ _ _ _ H4' L3 Ej3) as (t & H5 & L5 & N5 & _ & _ & C5).
  cbn [push_op emit set_out c_consts c_next] in C5, N5.
  assert (Fc : fok (c_next s2) (ncon s2) (FSrc (provider_idx cond))).
  { unfold ncon in *. rewrite N5, N3, C5, C3. exact F1. }
  pose proof (L_emit nl _ _ _ _ (FSrc (provider_idx cond)) H5 L5 Fc ltac:(discriminate)) as H6. napp H6.
  apply (post_simple bs fl (ext ++ [FOp IBrIf; FTgt t; FSrc (provider_idx cond)])).
  - exact H6.
  - apply shaped_app; auto. apply shaped_one. apply sh_brif.
Qed.

Lemma provide_opt bs pl s fl (bt : blocktype) :
  L bs pl s fl -> c_last s = None ->
  exists d, L bs pl (match bt with Some _ => push_provide s | None => s end) (fl ++ d)
    /\ map kind_of d = dst_opt (res_flag bt)
    /\ c_bp (match bt with Some _ => push_provide s | None => s end) = c_bp s.
Proof.
  intros H Hl. destruct bt as [t|].
  - destruct (L_push_provide nl _ _ _ _ H) as (r & H1 & B1 & _). exists [FDst r]. auto.
  - exists []. rewrite app_nil_r. auto.
Qed.

Lemma call_safe bs s fl f s' :
  Iv bs s fl -> c_last s = None ->
  match cx_func_type cx f with
  | Some ft =>
      match push_consume_n (length (ft_params ft)) (emit (push_op s ICall) (u32_bytes (Z.of_nat f))) with
      | Some s1 => Some (match ft_result ft with Some _ => push_provide s1 | None => s1 end)
      | None => None
      end
  | None => None
  end = Some s' -> post bs fl s'.
Proof.
  intros H Hl E. destruct (cx_func_type cx f) as [ft|] eqn:Ef; [|discriminate].
  destruct (push_consume_n _ _) as [s1|] eqn:Ep; [|discriminate]. inversion E; subst; clear E.
  pose proof (L_op nl _ _ _ _ ICall H Hl) as H1.
  pose proof (L_imm nl _ _ _ _ (u32_bytes (Z.of_nat f)) H1 Hl) as H2.
  destruct (L_push_consume_n nl _ _ _ _ _ _ H2 Hl Ep) as (ps & Lp & H3 & L3 & B3 & N3 & _).
  destruct (provide_opt _ _ _ _ (ft_result ft) H3 L3) as (d & H4 & Kd & B4).
  napp H4.
  apply (post_simple bs fl (FOp ICall :: FImm (u32_bytes (Z.of_nat f)) :: map FSrc ps ++ d)).
  - eapply (Iv_of_L bs s); [exact H4|]. rewrite B4, B3. reflexivity.
  - apply shaped_one. cbn [map kind_of]. rewrite map_app, map_kind_src, Lp, Kd. apply sh_call. exact Ef.
Qed.

Lemma calli_safe bs s fl ti s' :
  Iv bs s fl -> c_last s = None ->
  match push_consume (emit (push_op s ICallIndirect) (u32_bytes (Z.of_nat ti))) with
  | Some (_, s1) =>
      match cx_type cx ti with
      | Some ft =>
          match push_consume_n (length (ft_params ft)) s1 with
          | Some s2 => Some (match ft_result ft with Some _ => push_provide s2 | None => s2 end)
          | None => None
          end
      | None => None
      end
  | None => None
  end = Some s' -> post bs fl s'.
Proof.
  intros H Hl E. destruct (push_consume _) as [[p s1]|] eqn:Ep1; [|discriminate].
  destruct (cx_type cx ti) as [ft|] eqn:Ef; [|discriminate].
  destruct (push_consume_n _ _) as [s2|] eqn:Ep; [|discriminate]. inversion E; subst; clear E.
  pose proof (L_op nl _ _ _ _ ICallIndirect H Hl) as H1.
  pose proof (L_imm nl _ _ _ _ (u32_bytes (Z.of_nat ti)) H1 Hl) as H2.
  destruct (L_push_consume nl _ _ _ _ _ _ H2 Hl Ep1) as (H2' & L2 & B2 & N2 & _).
  destruct (L_push_consume_n nl _ _ _ _ _ _ H2' L2 Ep) as (ps & Lp & H3 & L3 & B3 & N3 & _).
  destruct (provide_opt _ _ _ _ (ft_result ft) H3 L3) as (d & H4 & Kd & B4).
  napp H4.
  apply (post_simple bs fl (FOp ICallIndirect :: FImm (u32_bytes (Z.of_nat ti)) :: FSrc (provider_idx p) :: map FSrc ps ++ d)).
  - eapply (Iv_of_L bs s); [exact H4|]. rewrite B4, B3, B2. reflexivity.
  - apply shaped_one. cbn [map kind_of]. rewrite map_app, map_kind_src, Lp, Kd. apply sh_calli. exact Ef.
Qed.

Definition dt (k : kind) : Prop := k = KDst \/ k = KTgt.
Lemma table_jump_safe bs s fl l s' :
  Iv bs s fl -> c_last s = None -> push_br_table_jump s l = Some s' ->
  exists ext, Iv bs s' (fl ++ ext) /\ Forall dt (map kind_of ext) /\ c_last s' = None.
Proof.
  intros H Hl E. unfold push_br_table_jump in E.
  assert (D : insert_jump_location s l = Some s' \/
              exists lo res, nth_error (c_bp s) l = Some (JUnknown lo (Some res)) /\ insert_jump_location (push_loc s res) l = Some s').
  { destruct (nth_error (c_bp s) l) as [[pos|lo [res|]]|] eqn:En; try discriminate; auto. right. eauto. }
  destruct D as [D|(lo & res & En & D)].
  - destruct (I_insert_jump nl _ _ _ _ _ H Hl D) as (t & H1 & L1 & _). exists [FTgt t]. splits; auto.
    constructor; [right; reflexivity|constructor].
  - assert (Hr : res_ok nl (c_next s) res) by exact (L_target nl _ _ _ _ _ _ H En).
    pose proof (L_emit nl _ _ _ _ (FDst (provider_idx res)) H Hl (res_ok_fok nl _ _ (l_cwf _ _ _ _ _ H) Hr) ltac:(discriminate)) as H1.
    assert (H1' : Iv bs (push_loc s res) (fl ++ [FDst (provider_idx res)])) by exact H1.
    destruct (I_insert_jump nl _ _ _ _ _ H1' Hl D) as (t & H2 & L2 & _). napp H2.
    exists [FDst (provider_idx res); FTgt t]. splits; auto.
    constructor; [left; reflexivity|constructor; [right; reflexivity|constructor]].
Qed.
Lemma table_jumps_safe bs : forall ls s fl s',
  Iv bs s fl -> c_last s = None -> push_br_table_jumps s ls = Some s' ->
  exists ext, Iv bs s' (fl ++ ext) /\ Forall dt (map kind_of ext) /\ c_last s' = None.
Proof.
  induction ls as [|l ls IH]; intros s fl s' H Hl E; cbn [push_br_table_jumps] in E.
  - inversion E; subst. exists []. rewrite app_nil_r. splits; auto. constructor.
  - destruct (push_br_table_jump s l) as [s1|] eqn:E1; [|discriminate].
    destruct (table_jump_safe _ _ _ _ _ H Hl E1) as (e1 & H1 & F1 & L1).
    destruct (IH _ _ _ H1 L1 E) as (e2 & H2 & F2 & L2). exists (e1 ++ e2). rewrite app_assoc. splits; auto.
    rewrite map_app. apply Forall_app. auto.
Qed.

Lemma br_table_safe bs s fl (v : vstate) ls d s' :
  Iv bs s fl -> c_last s = None ->
  match nth_error (v_ctrls v) d with
  | Some tf =>
      let s1 :=
        match vf_label tf with
        | None => match push_consume (push_op s IBrTable) with Some (_, x) => Some x | None => None end
        | Some _ => push_consume_n 2 (push_op s IBrTableCarry)
        end in
      match s1 with
      | Some s1 =>
          let s2 := emit s1 (u16_bytes (Z.of_nat (length ls))) in
          match push_br_table_jump s2 d with
          | Some s3 =>
              match push_br_table_jumps s3 ls with
              | Some s4 => truncate s4 (v_opds v)
              | None => None
              end
          | None => None
          end
      | None => None
      end
  | None => None
  end = Some s' -> post bs fl s'.
Proof.
  intros H Hl E. destruct (nth_error (v_ctrls v) d) as [tf|]; [|discriminate]. cbv zeta in E.
  match type of E with match ?X with _ => _ end = _ => destruct X as [s1|] eqn:E1; [|discriminate] end.
  destruct (push_br_table_jump _ d) as [s3|] eqn:E3; [|discriminate].
  destruct (push_br_table_jumps s3 ls) as [s4|] eqn:E4; [|discriminate].
  assert (C : exists o srcs, Iv bs s1 (fl ++ FOp o :: srcs) /\ c_last s1 = None /\
              forall imm tail, length imm = 2%nat -> Forall dt tail -> oshape cx o (map kind_of srcs ++ KImm imm :: tail)).
  { destruct (vf_label tf).
    - pose proof (L_op nl _ _ _ _ IBrTableCarry H Hl) as H1.
      destruct (L_push_consume_n nl _ _ _ _ _ _ H1 Hl E1) as (ps & Lp & H2 & L2 & B2 & _). napp H2.
      exists IBrTableCarry, (map FSrc ps). splits; auto.
      + eapply (Iv_of_L bs s); [exact H2|exact B2].
      + intros imm tail Hi Ht. destruct ps as [|a [|b [|c ps]]]; try discriminate Lp. cbn. apply sh_brtablecarry; auto.
    - destruct (push_consume (push_op s IBrTable)) as [[p x]|] eqn:Ep; [|discriminate]. inversion E1; subst.
      pose proof (L_op nl _ _ _ _ IBrTable H Hl) as H1.
      destruct (L_push_consume nl _ _ _ _ _ _ H1 Hl Ep) as (H2 & L2 & B2 & _). napp H2.
      exists IBrTable, [FSrc (provider_idx p)]. splits; auto.
      + eapply (Iv_of_L bs s); [exact H2|exact B2].
      + intros imm tail Hi Ht. cbn. apply sh_brtable; auto. }
  destruct C as (o & srcs & H1 & L1 & Sh).
  pose proof (L_imm nl _ _ _ _ (u16_bytes (Z.of_nat (length ls))) H1 L1) as H2.
  assert (H2' : Iv bs (emit s1 (u16_bytes (Z.of_nat (length ls)))) ((fl ++ FOp o :: srcs) ++ [FImm (u16_bytes (Z.of_nat (length ls)))])) by exact H2.
  destruct (table_jump_safe _ _ _ _ _ H2' L1 E3) as (e1 & H3 & F3 & L3).
  destruct (table_jumps_safe _ _ _ _ _ H3 L3 E4) as (e2 & H4 & F4 & L4).
  destruct (L_truncate_n nl _ _ _ _ _ _ H4 E) as (H5 & L5 & B5 & N5).
  napp H5.
  apply (post_simple bs fl (FOp o :: srcs ++ FImm (u16_bytes (Z.of_nat (length ls))) :: e1 ++ e2)).
  - eapply (Iv_of_L bs s4); [exact H5|exact B5].
  - apply shaped_one. rewrite map_app. cbn [map kind_of]. apply Sh; [apply u16_bytes_length|].
    rewrite map_app. apply Forall_app. auto.
Qed.

End Safe3.
