(** * Stage B, closed form: a whole function body built from the accepted constructs
    ([blocks_ok], [blocks_ok_r]) is simulated by its compiled code, from the function entry to the position
    of the final [Return].  Accepted (see [ctl_ok]): straight-line instructions accepted by [straight_ok];
    [block] / [if-else] with or without a result, [loop] and one-armed [if] without, all entered at an empty
    operand stack; [br], [unreachable] and [return] as last instruction of their body; [br_if] to result-less
    labels.  Calls, br_table and loops with a result are not covered. *)
From Coq Require Import ZArith List Lia Bool FMapPositive.
From CB Require Import Wasm.Syntax Wasm.Sem Wasm.Compile Wasm.Machine
     Wasm.MachineLemmas Wasm.CompileLemmas Wasm.SyntaxProofs Wasm.StraightProofs
     Wasm.BlockProofs Wasm.BlockInv Wasm.BlockSim Wasm.BlockSim2.
Import ListNotations.
Local Open Scope Z_scope.

Definition init_fstate (next : Z) : cstate :=
  {| c_out := []; c_bp := [JUnknown [] None]; c_stack := []; c_next := next; c_reuse := []; c_consts := []; c_last := None |}.

(** the accepted constructs (see [ctl_ok]): checked on the flat opcode sequence while replaying the
    validator's operand-height computation *)
Definition blocks_ok (nl : Z) (cx : cctx) (is : list instr) : bool :=
  syn is && lvl nl cx (flatten is) (init_vstate None).

(** Functions with a result: the value reaches the final [end] by fall-through or by a [br] to the
    function's own label; it is moved to register 0 (RETURN_VALUE_LOCATION), where the final Return
    instruction expects it.  Local 0 is overwritten by that move, so only register 0, globals and memory are
    related at the end. *)
Definition init_fstate_r (next : Z) : cstate :=
  {| c_out := []; c_bp := [JUnknown [] (Some (PLocal 0))]; c_stack := []; c_next := next; c_reuse := []; c_consts := []; c_last := None |}.
Definition blocks_ok_r (nl : Z) (cx : cctx) (t : valtype) (is : list instr) : bool :=
  syn is && lvl nl cx (flatten_body is) (init_vstate (Some t)).

Definition fn_outcome (art : artifact) (mhost : nat -> list Z -> option (option Z)) (codes : list (code_map * list Z))
    (fidx : nat) (cap : N) (cx : cctx) (code : code_map) (M : mstate) (r : res)
    (normal : store -> list val -> list val -> Prop) : Prop :=
  match r with
  | RNormal st' l' vs' => normal st' l' vs'
  | RReturn st' vs' =>
      exists n M', nsteps art mhost codes n M = SNext M' /\ frame_eq M M' /\ ms_idx M' = fidx
        /\ code_at code (ms_pc M') [IReturn]
        /\ Forall2 repr (ms_globals M') (s_globals st') /\ mem_rel art cap (ms_mem M') (s_mem st')
        /\ match cx_return cx with
           | Some _ => exists v vs0, vs' = v :: vs0 /\ repr (reg M' 0) v
           | None => True
           end
  | RTrap => exists n e, nsteps art mhost codes n M = STrap e
  | RBr _ _ _ _ => False
  | _ => True
  end.

Definition fn_entry (res : option provider) (next : Z) : cstate :=
  {| c_out := []; c_bp := [JUnknown [] res]; c_stack := []; c_next := next; c_reuse := []; c_consts := []; c_last := None |}.
Definition fn_slot (next : Z) (bt : blocktype) (res : option provider) : Prop :=
  match bt, res with None, None => True | Some _, Some (PLocal 0) => 0 < next | _, _ => False end.

Lemma fn_slot_resv nl next bt res : fn_slot next bt res -> resv nl next bt res.
Proof. destruct bt, res as [[d|[|i|i]|k]|]; cbn; auto; try contradiction. Qed.

Lemma inv_entry nl next bt res : 0 <= nl <= next -> resv nl next bt res -> inv nl (fn_entry res next) (init_vstate bt).
Proof.
  intros H Hr. constructor.
  - constructor; cbn; auto. intros k v idx Hk. destruct k; discriminate.
  - constructor; cbn; [intros loc []|intros a b []|constructor].
  - reflexivity.
  - cbn. constructor; [|constructor]. repeat split; cbn; auto. left. exists [], res. repeat split; try discriminate; exact Hr.
  - left. reflexivity.
Qed.

(** where the machine stands after the final [end]: without result the compile state [sF] is related again;
    with a result only register 0, globals and memory are (local 0 has been overwritten by the result) *)
Definition fn_done (art : artifact) (fidx : nat) (consts : list Z) (nl NR : Z) (cap : N) (res : option provider)
    (sF : cstate) (st' : store) (l' vs' : list val) (M' : mstate) : Prop :=
  match res with
  | None => vs' = [] /\ rel art fidx consts nl NR cap sF st' l' [] M'
  | Some _ => exists v, vs' = [v] /\ ms_idx M' = fidx /\ ms_pc M' = cur_off sF
              /\ Forall2 repr (ms_globals M') (s_globals st') /\ mem_rel art cap (ms_mem M') (s_mem st') /\ repr (reg M' 0) v
  end.

Theorem compile_fn_correct :
  forall (art : artifact) (mhost : nat -> list Z -> option (option Z)) (cap : N)
         (host : nat -> list val -> option memory -> host_result) (m : module) (cx : cctx)
         (is : list instr) (bt : blocktype) (res : option provider) (nl next : Z) (v' : vstate) (sF : cstate) (rest_code : list N),
    syn is = true -> lvl nl cx (flatten is) (init_vstate bt) = true -> 0 <= nl <= next -> fn_slot next bt res ->
    compile_ops cx (flatten_body is) (init_vstate bt) (fn_entry res next) = Some (v', sF) ->
    c_next sF < 2147483648 -> Z.of_nat (length (c_consts sF)) < 2147483648 ->
    Z.of_nat (length (c_out sF ++ rest_code)) < 4294967296 ->
    forall (codes : list (code_map * list Z)) (fidx : nat),
      nth_error codes fidx
        = Some (build_code (c_out sF ++ rest_code) xH (PositiveMap.empty N), map fst (c_consts sF)) ->
      forall (st : store) (locals : list val) (M : mstate) (fuel : nat),
        rel art fidx (map fst (c_consts sF)) nl (c_next sF) cap (fn_entry res next) st locals [] M ->
        fn_outcome art mhost codes fidx cap cx (build_code (c_out sF ++ rest_code) xH (PositiveMap.empty N)) M
          (exec_instr host cap m fuel st locals [] (Block bt is))
          (fun st' l' vs' =>
          exists n M', nsteps art mhost codes n M = SNext M' /\ frame_eq M M'
            /\ fn_done art fidx (map fst (c_consts sF)) nl (c_next sF) cap res sF st' l' vs' M').
Proof.
  intros art mhost cap host m cx is bt res nl next v' sF rest_code Hsyn Hok Hnl Hslot Hc Hn Hcs Hlen codes fidx Hcodes st locals M fuel R.
  set (F := c_out sF ++ rest_code) in *. set (consts := map fst (c_consts sF)) in *. set (NR := c_next sF) in *.
  set (c := build_code F xH (PositiveMap.empty N)) in *.
  assert (HF : code_at c 0 F) by apply build_code_at.
  unfold flatten_body in Hc. destruct (compile_app_inv _ _ _ _ _ _ _ Hc) as (vf & sf & Hc1 & Hc2).
  pose proof (inv_entry nl next bt res Hnl (fn_slot_resv nl next bt res Hslot)) as I0.
  assert (P1 : pres nl (fn_entry res next) sf vf).
  { eapply (pure_seq nl cx is Hsyn); eauto. left. reflexivity. }
  destruct (compile_cons _ _ _ _ _ _ _ Hc2) as (vc & sc & Evc & Ehc & Hcr). cbn in Hcr. inversion Hcr; subst vc sc; clear Hcr.
  pose proof (p_bp P1) as Hb0. cbn [fn_entry c_bp] in Hb0.
  destruct (bp_sub_head_val _ _ _ _ Hb0) as (add & b'' & Ebp & Hb'). inversion Hb'; subst b''. clear Hb'.
  destruct (op_end nl cx sf vf v' sF _ res [] (p_inv P1) Ebp Evc Ehc)
    as (tc & E2 & E3 & E5 & E6 & E7 & X3 & Ecur & Rs & Hnth & Ic & Huc & Hcase).
  assert (MF : matches F sF).
  { split; [unfold F; rewrite app_length; lia|]. intros p Hp _. unfold F. rewrite app_nth1 by lia. reflexivity. }
  assert (Mf : matches F sf) by (eapply matches_ext; eauto).
  assert (HT : 0 <= cur_off sF < 4294967296) by (apply (T_range F Hlen sF); exact MF).
  assert (LF : lenv c sF []) by (unfold lenv; rewrite E2; constructor).
  assert (Lf : lenv c sf [(cur_off sF, 0, res)]) by (eapply (lenv_end c F HF Hlen); eauto; rewrite Ebp, E2; reflexivity).
  assert (Mo : mono sf sF) by (apply mono_eq; auto).
  assert (SmF : small NR sF) by (split; [unfold NR; lia|exact Hcs]).
  assert (Smf : small NR sf) by (eapply small_of_mono; eauto).
  pose proof (consts_ok_fst sF : consts_ok consts sF) as CoF.
  assert (Hlo : lows [(cur_off sF, 0, res)] (fn_entry res next)).
  { constructor; [|constructor]. split; [cbn; lia|exact HT]. }
  destruct fuel as [|f]; [cbn; exact I|].
  pose proof (sim_all art mhost codes fidx c consts Hcodes nl NR Hn cap host m cx F HF Hlen f
                is (fn_entry res next) (init_vstate bt) vf sf [(cur_off sF, 0, res)] st locals [] M Hsyn Hc1 Hok I0 eq_refl
                (or_introl eq_refl) Mf Lf Hlo Smf (consts_ok_of_mono consts sf sF CoF Mo) R) as Hsim.
  rewrite (SemProofs.einstr_S host cap m).
  destruct (exec_seq host cap m f st locals [] is) as [st1 l1 vs1|[|k] st1 l1 vs1| | | |] eqn:Eex; cbn [sim_res] in Hsim; auto.
  - (* the body falls through to the final end *)
    destruct Hsim as (n & M1 & Hn1 & R1 & Fq).
    destruct bt as [t|], res as [[d|[|i|i]|k0]|]; cbn in Hslot; try contradiction; cbn [arity fn_done].
    + destruct (v_unreach vf) eqn:Huf.
      { exfalso. eapply (term_no_normal nl cap host m cx is (fn_entry (Some (PLocal 0)) next) (init_vstate (Some t)) vf sf); eauto.
        rewrite Huf. discriminate. }
      destruct Hcase as (p & Esf & Pp & Hr & ->).
      pose proof (r_stack _ _ _ _ _ _ _ _ _ _ _ R1) as Hst. rewrite Esf in Hst.
      inversion Hst as [|? v1 ? vs1' Hp1 Hr1]; subst. inversion Hr1; subst. clear Hst Hr1.
      assert (Hcc : code_at c (cur_off sf) (copy_res p (PLocal 0))).
      { unfold cur_off. apply (code_from_F2 c F HF sF (length (c_out sf)) (copy_res p (PLocal 0)) MF); [|exact Hnth].
        unfold cur_off in Ecur. lia. }
      destruct (sim_copy art mhost codes fidx c consts Hcodes nl NR Hn cap F sf p (PLocal 0) [] st1 l1 v1 [] M1 R1 Esf Pp
                  (i_cwf (p_inv P1)) Smf Hr Hcc) as (k1 & M2 & Hn2 & Fq2 & Hpc2 & W1 & _ & W3 & W4 & W5).
      exists (n + k1)%nat, M2. rewrite (nsteps_app _ _ _ _ _ _ _ Hn1).
      split; [exact Hn2|]. split; [eapply frame_eq_trans; eauto|]. exists v1. rewrite Ecur, <- Hpc2. repeat split; auto.
    + cbn in Hcase. destruct Hcase as [Esf ->]. pose proof (rel_nil_stack _ _ _ _ _ _ _ _ _ _ _ R1 Esf). subst vs1.
      exists n, M1. split; [exact Hn1|]. split; [exact Fq|]. split; [reflexivity|].
      eapply rel_transfer; [exact R1|rewrite E3, Esf; reflexivity|rewrite Ecur; cbn; lia].
  - (* a br to the function's own label *)
    destruct Hsim as (e & n & M1 & Ee & H0 & Hn1 & Arr & Fq). cbn in Ee. inversion Ee; subst e. unfold arrive in Arr. cbn [fst snd] in Arr.
    exists n, M1. split; [exact Hn1|]. split; [exact Fq|].
    destruct bt as [t|], res as [[d|[|i|i]|k0]|]; cbn in Hslot; try contradiction; cbn [arity fn_done].
    + destruct Arr as (v1 & vs0 & -> & W). exists v1. split; [reflexivity|exact W].
    + split; [reflexivity|]. eapply rel_transfer; [exact Arr|rewrite E3; reflexivity|rewrite (cur_off_at_pc _ []) by lia; reflexivity].
  - destruct Hsim as (e & n & M' & Ee & _). destruct k; discriminate.
Qed.
