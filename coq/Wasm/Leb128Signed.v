(** The signed LEB128 reader [sread] of [Wasm/Leb128.v]: round trip of the canonical
    encoding [senc] (= [leb128::write::signed], crate leb128 0.2.5), and the 64-bit range of what it returns. *)
From Coq Require Import ZArith NArith List Bool Lia.
From CB Require Import Wasm.Leb128.
Import ListNotations.
Local Open Scope Z_scope.

Lemma signed64_congr (x : N) (t : Z) :
  - 2 ^ 63 <= t < 2 ^ 63 -> Z.of_N x mod 2 ^ 64 = t mod 2 ^ 64 -> signed64 x = t.
Proof.
  intros R E. unfold signed64.
  assert (Y : Z.of_N (x mod 2 ^ 64) = t mod 2 ^ 64).
  { rewrite N2Z.inj_mod. rewrite <- E. reflexivity. }
  assert (B : 0 <= Z.of_N (x mod 2 ^ 64) < 2 ^ 64).
  { rewrite Y. apply Z.mod_pos_bound. reflexivity. }
  change (2 ^ 64) with 18446744073709551616 in *.
  change (2 ^ 63) with 9223372036854775808 in *.
  change (2 ^ 64)%N with 18446744073709551616%N in *.
  change (2 ^ 63)%N with 9223372036854775808%N in *.
  destruct (Z.ltb_spec t 0) as [Neg|Pos].
  - assert (M : t mod 18446744073709551616 = t + 18446744073709551616).
    { rewrite <- (Z.mod_add t 1) by lia. apply Z.mod_small. lia. }
    destruct (N.ltb_spec (x mod 18446744073709551616) 9223372036854775808); lia.
  - assert (M : t mod 18446744073709551616 = t) by (apply Z.mod_small; lia).
    destruct (N.ltb_spec (x mod 18446744073709551616) 9223372036854775808); lia.
Qed.

Lemma senc_S f z : senc (S f) z =
  if (-64 <=? z) && (z <? 64) then [Z.to_N (z mod 128)]
  else (Z.to_N (z mod 128) + 128)%N :: senc f (z / 128).
Proof. reflexivity. Qed.
Lemma sread_S k b r shift acc : sread (S k) (b :: r) shift acc =
  if ((shift =? 63) && negb (b =? 0) && negb (b =? 127))%N then None
  else if (b <? 128)%N then
         if ((shift + 7 <? 64) && (64 <=? b mod 128))%N
         then Some (Z.of_N ((acc + (b mod 128) * 2 ^ shift) mod 2 ^ 64) - 2 ^ Z.of_N (shift + 7), r)
         else Some (signed64 ((acc + (b mod 128) * 2 ^ shift) mod 2 ^ 64), r)
       else sread k r (shift + 7) ((acc + (b mod 128) * 2 ^ shift) mod 2 ^ 64).
Proof. reflexivity. Qed.

(* The arithmetic of one step of the loop: the digit [z mod 128] enters [acc] at [shift]. *)
Lemma leb_step z shift acc :
  z = 128 * (z / 128) + z mod 128 /\ 0 <= z mod 128 < 128 /\
  Z.of_N (Z.to_N (z mod 128)) = z mod 128 /\ (Z.to_N (z mod 128) mod 128 = Z.to_N (z mod 128))%N /\
  Z.of_N (2 ^ shift) = 2 ^ Z.of_N shift /\ 0 < 2 ^ Z.of_N shift /\
  2 ^ Z.of_N (shift + 7) = 128 * 2 ^ Z.of_N shift /\ (2 ^ (shift + 7) = 128 * 2 ^ shift)%N /\
  Z.of_N (acc + Z.to_N (z mod 128) * 2 ^ shift) = Z.of_N acc + z mod 128 * 2 ^ Z.of_N shift.
Proof.
  pose proof (Z.mod_pos_bound z 128 ltac:(lia)) as MB.
  assert (HP : Z.of_N (2 ^ shift) = 2 ^ Z.of_N shift) by apply N2Z.inj_pow.
  assert (Hb : Z.of_N (Z.to_N (z mod 128)) = z mod 128) by (apply Z2N.id; lia).
  repeat split; try assumption; try apply MB.
  - apply Z.div_mod. lia.
  - apply N.mod_small. lia.
  - apply Z.pow_pos_nonneg; lia.
  - rewrite N2Z.inj_add, Z.pow_add_r by lia. change (2 ^ Z.of_N 7) with 128. ring.
  - rewrite N.pow_add_r. change (2 ^ 7)%N with 128%N. ring.
  - rewrite N2Z.inj_add, N2Z.inj_mul, HP, Hb. reflexivity.
Qed.

Lemma sread_last k z rest shift acc :
  -64 <= z < 64 -> (acc < 2 ^ shift)%N -> (shift <= 63)%N ->
  - 2 ^ 63 <= Z.of_N acc + z * 2 ^ Z.of_N shift < 2 ^ 63 ->
  sread (S k) (Z.to_N (z mod 128) :: rest) shift acc = Some (Z.of_N acc + z * 2 ^ Z.of_N shift, rest).
Proof.
  intros Hz Hacc Hsh Htot.
  destruct (leb_step z shift acc) as (DM & MB & Hb & Hbm & HP & Ppos & HP7 & HP7n & HX).
  set (q := z / 128) in *. set (b := z mod 128) in *.
  rewrite sread_S, Hbm.
  assert (G : ((shift =? 63) && negb (Z.to_N b =? 0) && negb (Z.to_N b =? 127))%N = false).
  { destruct (N.eqb_spec shift 63) as [E|]; [|reflexivity]. cbn [andb].
    assert (P63 : 2 ^ Z.of_N shift = 2 ^ 63) by (rewrite E; reflexivity). rewrite P63 in *. change (2 ^ 63) with 9223372036854775808 in *.
    assert (Hacc' : Z.of_N acc < 9223372036854775808) by (subst shift; change (2 ^ 63)%N with 9223372036854775808%N in Hacc; lia).
    assert (z = 0 \/ z = -1) as [Z0|Z1] by lia.
    - assert (b = 0) by (unfold b; rewrite Z0; reflexivity).
      destruct (N.eqb_spec (Z.to_N b) 0); [reflexivity|lia].
    - assert (b = 127) by (unfold b; rewrite Z1; reflexivity).
      destruct (N.eqb_spec (Z.to_N b) 0); [reflexivity|]. destruct (N.eqb_spec (Z.to_N b) 127); [reflexivity|lia]. }
  rewrite G. rewrite (proj2 (N.ltb_lt (Z.to_N b) 128)) by lia.
  destruct (N.ltb_spec (shift + 7) 64) as [S7|S7]; cbn [andb].
  - assert (Hsmall : (acc + Z.to_N b * 2 ^ shift < 2 ^ 64)%N).
    { assert (2 ^ (shift + 7) <= 2 ^ 63)%N by (apply N.pow_le_mono_r; lia).
      change (2 ^ 64)%N with (2 * 2 ^ 63)%N. nia. }
    rewrite (N.mod_small _ _ Hsmall).
    destruct (N.leb_spec 64 (Z.to_N b)) as [B64|B64].
    + f_equal. f_equal. rewrite HX, HP7. assert (b = z + 128) by lia. nia.
    + f_equal. f_equal. apply signed64_congr; [exact Htot|]. rewrite HX.
      assert (b = z) by lia. congruence.
  - f_equal. f_equal. apply signed64_congr; [exact Htot|].
    rewrite N2Z.inj_mod. change (Z.of_N (2 ^ 64)) with (2 ^ 64). rewrite Z.mod_mod by discriminate.
    rewrite HX.
    assert (C : exists c, 128 * 2 ^ Z.of_N shift = c * 2 ^ 64).
    { exists (2 ^ (Z.of_N shift + 7 - 64)). rewrite <- Z.pow_add_r by lia. rewrite <- HP7. f_equal; lia. }
    destruct C as [c Hc].
    replace (Z.of_N acc + z * 2 ^ Z.of_N shift) with (Z.of_N acc + b * 2 ^ Z.of_N shift + (q * c) * 2 ^ 64).
    + rewrite Z.mod_add by discriminate. reflexivity.
    + rewrite <- Z.mul_assoc, <- Hc. rewrite DM. ring.
Qed.

(** the invariant: [acc] holds the bits already read (below [2^shift]), [z] is the value still to
    be written; the total [acc + z * 2^shift] fits in 64 bits signed. *)
Lemma sread_senc : forall k z rest shift acc,
  - 2 ^ (7 * Z.of_nat (S k) - 1) <= z < 2 ^ (7 * Z.of_nat (S k) - 1) ->
  (acc < 2 ^ shift)%N -> (shift <= 63)%N ->
  - 2 ^ 63 <= Z.of_N acc + z * 2 ^ Z.of_N shift < 2 ^ 63 ->
  sread (S k) (senc (S k) z ++ rest) shift acc = Some (Z.of_N acc + z * 2 ^ Z.of_N shift, rest).
Proof.
  induction k as [|k IH]; intros z rest shift acc Hz Hacc Hsh Htot; rewrite senc_S.
  - change (2 ^ (7 * Z.of_nat 1 - 1)) with 64 in Hz.
    rewrite (proj2 (Z.leb_le (-64) z)), (proj2 (Z.ltb_lt z 64)) by lia. cbn [andb app].
    apply sread_last; auto.
  - destruct ((-64 <=? z) && (z <? 64)) eqn:T.
    + apply andb_true_iff in T. destruct T as [T1 T2]. apply Z.leb_le in T1. apply Z.ltb_lt in T2.
      cbn [app]. apply sread_last; auto.
    + assert (Hout : z < -64 \/ 64 <= z).
      { apply andb_false_iff in T. destruct T as [T|T]; [apply Z.leb_gt in T|apply Z.ltb_ge in T]; lia. }
      destruct (leb_step z shift acc) as (DM & MB & Hb & Hbm & HP & Ppos & HP7 & HP7n & HX).
      set (q := z / 128) in *. set (b := z mod 128) in *.
      rewrite <- app_comm_cons, sread_S.
      assert (HaccZ : Z.of_N acc < 2 ^ Z.of_N shift) by (rewrite <- HP; lia).
      set (B := (Z.to_N b + 128)%N).
      assert (HBm : (B mod 128 = Z.to_N b)%N).
      { unfold B. replace (Z.to_N b + 128)%N with (Z.to_N b + 1 * 128)%N by lia.
        rewrite N.mod_add by lia. exact Hbm. }
      assert (HBl : (B <? 128)%N = false) by (apply N.ltb_ge; unfold B; lia).
      assert (Hsh' : (shift + 7 <= 63)%N).
      { destruct (N.le_gt_cases (shift + 7) 63); auto. exfalso.
        assert (2 ^ 57 <= 2 ^ Z.of_N shift) by (apply Z.pow_le_mono_r; lia).
        change (2 ^ 63) with (64 * 2 ^ 57) in Htot. nia. }
      assert (G : ((shift =? 63) && negb (B =? 0) && negb (B =? 127))%N = false)
        by (destruct (N.eqb_spec shift 63); [lia|reflexivity]).
      rewrite G, HBl, HBm.
      assert (Hsmall : (acc + Z.to_N b * 2 ^ shift < 2 ^ (shift + 7))%N) by (rewrite HP7n; nia).
      assert (Hsmall' : (acc + Z.to_N b * 2 ^ shift < 2 ^ 64)%N).
      { assert (2 ^ (shift + 7) <= 2 ^ 63)%N by (apply N.pow_le_mono_r; lia).
        change (2 ^ 64)%N with (2 * 2 ^ 63)%N. lia. }
      rewrite (N.mod_small _ _ Hsmall').
      assert (Etot : Z.of_N (acc + Z.to_N b * 2 ^ shift) + q * 2 ^ Z.of_N (shift + 7)
                     = Z.of_N acc + z * 2 ^ Z.of_N shift) by (rewrite HX, HP7, DM; ring).
      rewrite IH.
      * rewrite Etot. reflexivity.
      * replace (7 * Z.of_nat (S (S k)) - 1) with ((7 * Z.of_nat (S k) - 1) + 7) in Hz by lia.
        rewrite Z.pow_add_r in Hz by lia. change (2 ^ 7) with 128 in Hz.
        set (M := 2 ^ (7 * Z.of_nat (S k) - 1)) in *. lia.
      * exact Hsmall.
      * exact Hsh'.
      * rewrite Etot. exact Htot.
Qed.

Lemma sread_senc_top k z rest :
  - 2 ^ (7 * Z.of_nat (S k) - 1) <= z < 2 ^ (7 * Z.of_nat (S k) - 1) -> - 2 ^ 63 <= z < 2 ^ 63 ->
  sread (S k) (senc (S k) z ++ rest) 0 0 = Some (z, rest).
Proof.
  intros Hk H. assert (E : Z.of_N 0 + z * 2 ^ Z.of_N 0 = z) by (change (Z.of_N 0) with 0; ring).
  rewrite sread_senc; rewrite ?E; auto; [reflexivity|discriminate].
Qed.

Theorem leb_s32_roundtrip_thm z rest : - 2 ^ 31 <= z < 2 ^ 31 -> decode_s32 (senc 5 z ++ rest) = Some (z, rest).
Proof.
  intros [H1 H2]. unfold decode_s32.
  rewrite (sread_senc_top 4) by (change (2 ^ (7 * Z.of_nat 5 - 1)) with (2 ^ 34); lia).
  rewrite (proj2 (Z.leb_le _ _) H1), (proj2 (Z.ltb_lt _ _) H2). reflexivity.
Qed.

Theorem leb_s64_roundtrip_thm z rest : - 2 ^ 63 <= z < 2 ^ 63 -> decode_s64 (senc 10 z ++ rest) = Some (z, rest).
Proof. intros H. apply (sread_senc_top 9); [change (2 ^ (7 * Z.of_nat 10 - 1)) with (2 ^ 69); lia|exact H]. Qed.

Lemma signed64_range x : - 2 ^ 63 <= signed64 x < 2 ^ 63.
Proof.
  unfold signed64. pose proof (N.mod_lt x (2 ^ 64) ltac:(discriminate)) as B.
  set (y := (x mod 2 ^ 64)%N) in *. clearbody y.
  change (2 ^ 64)%N with 18446744073709551616%N in *. change (2 ^ 63)%N with 9223372036854775808%N.
  change (2 ^ 64) with 18446744073709551616. change (2 ^ 63) with 9223372036854775808.
  destruct (N.ltb_spec y 9223372036854775808); cbv iota; lia.
Qed.
Lemma sread_range : forall maxb bs shift acc v r,
  (acc < 2 ^ shift)%N -> sread maxb bs shift acc = Some (v, r) -> - 2 ^ 63 <= v < 2 ^ 63.
Proof.
  induction maxb as [|k IH]; intros bs shift acc v r Hacc; [discriminate|].
  destruct bs as [|b t]; [discriminate|]. rewrite sread_S.
  destruct ((shift =? 63) && negb (b =? 0) && negb (b =? 127))%N; [discriminate|].
  set (X := (acc + (b mod 128) * 2 ^ shift)%N).
  assert (HX : (X < 2 ^ (shift + 7))%N).
  { rewrite N.pow_add_r. change (2 ^ 7)%N with 128%N.
    pose proof (N.mod_lt b 128 ltac:(discriminate)). unfold X. nia. }
  assert (HXm : (X mod 2 ^ 64 <= X)%N) by (apply N.mod_le; discriminate).
  destruct (b <? 128)%N.
  - destruct ((shift + 7 <? 64) && (64 <=? b mod 128))%N eqn:C; intros H; inversion H; subst; clear H.
    + apply andb_true_iff in C. destruct C as [C1 _]. apply N.ltb_lt in C1.
      assert (E : Z.of_N (2 ^ (shift + 7)) = 2 ^ Z.of_N (shift + 7)) by apply N2Z.inj_pow.
      assert (Z.of_N (X mod 2 ^ 64) < 2 ^ Z.of_N (shift + 7)) by (rewrite <- E; lia).
      assert (2 ^ Z.of_N (shift + 7) <= 2 ^ 63) by (apply Z.pow_le_mono_r; lia).
      assert (0 < 2 ^ Z.of_N (shift + 7)) by (apply Z.pow_pos_nonneg; lia).
      pose proof (N2Z.is_nonneg (X mod 2 ^ 64)).
      lia.
    + apply signed64_range.
  - apply IH. lia.
Qed.
Theorem decode_s64_range bs v r : decode_s64 bs = Some (v, r) -> - 2 ^ 63 <= v < 2 ^ 63.
Proof. unfold decode_s64. apply sread_range. reflexivity. Qed.
