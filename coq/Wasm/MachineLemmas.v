(** Lemmas about [Wasm/Machine.v]: decoding of immediates from the byte code, the code map
    built from a byte list, register-file updates, and the dispatch of [exec_op] on the opcode
    numbers the compiler emits for straight-line code. *)
From Coq Require Import ZArith NArith List Lia Bool FMapPositive Znumtheory.
From CB Require Import Wasm.Sem Wasm.Compile Wasm.Machine.
Import ListNotations.
Local Open Scope Z_scope.

(** ** code_at: the byte code contains [bs] at position [pc] *)
Definition code_at (c : code_map) (pc : Z) (bs : list N) : Prop :=
  forall j, (j < length bs)%nat -> byte_at c (pc + Z.of_nat j) = Z.of_N (nth j bs 0%N).

Lemma code_at_app c pc a b :
  code_at c pc (a ++ b) <-> code_at c pc a /\ code_at c (pc + Z.of_nat (length a)) b.
Proof.
  unfold code_at. split.
  - intros H. split; intros j Hj.
    + rewrite H by (rewrite app_length; lia). rewrite app_nth1 by lia. reflexivity.
    + specialize (H (length a + j)%nat). rewrite app_length in H. specialize (H ltac:(lia)).
      rewrite app_nth2 in H by lia. replace (length a + j - length a)%nat with j in H by lia.
      rewrite <- H. f_equal. lia.
  - intros [Ha Hb] j Hj. rewrite app_length in Hj. destruct (Nat.lt_ge_cases j (length a)).
    + rewrite app_nth1 by lia. apply Ha; lia.
    + rewrite app_nth2 by lia. specialize (Hb (j - length a)%nat ltac:(lia)). rewrite <- Hb. f_equal. lia.
Qed.

Lemma code_at_cons c pc b bs : code_at c pc (b :: bs) <-> byte_at c pc = Z.of_N b /\ code_at c (pc + 1) bs.
Proof.
  change (b :: bs) with ([b] ++ bs). rewrite code_at_app. cbn [length]. split; intros [H1 H2]; split; auto.
  - specialize (H1 O ltac:(cbn; lia)). cbn in H1. rewrite Z.add_0_r in H1. exact H1.
  - intros j Hj. cbn in Hj. assert (j = O) by lia. subst. cbn. rewrite Z.add_0_r. exact H1.
Qed.

Lemma code_at_nil c pc : code_at c pc []. Proof. intros j Hj. cbn in Hj. lia. Qed.

Lemma le_bytes_length k x : length (le_bytes k x) = k.
Proof. revert x; induction k; intros; cbn; auto. Qed.

Lemma code_at_le4 c pc x : 0 <= x < 4294967296 -> code_at c pc (le_bytes 4 x) -> get_u32 c pc = x.
Proof.
  intros Hx H. cbn [le_bytes] in H.
  apply code_at_cons in H. destruct H as [B0 H]. apply code_at_cons in H. destruct H as [B1 H].
  apply code_at_cons in H. destruct H as [B2 H]. apply code_at_cons in H. destruct H as [B3 _].
  unfold get_u32. replace (pc + 1 + 1) with (pc + 2) in * by lia. replace (pc + 2 + 1) with (pc + 3) in * by lia.
  rewrite B0, B1, B2, B3. rewrite !Z2N.id by (apply Z.mod_pos_bound; lia).
  Z.div_mod_to_equations. lia.
Qed.

Lemma code_at_u32 c pc v : 0 <= v < 4294967296 -> code_at c pc (u32_bytes v) -> get_u32 c pc = v.
Proof. intros Hv H. unfold u32_bytes in H. rewrite Z.mod_small in H by lia. apply code_at_le4; auto. Qed.

Lemma code_at_i32 c pc v : -2147483648 <= v < 2147483648 -> code_at c pc (i32_bytes v) -> get_i32 c pc = v.
Proof.
  intros Hv H. unfold i32_bytes in H. unfold get_i32.
  rewrite (code_at_le4 c pc (v mod 4294967296)); auto; [|apply Z.mod_pos_bound; lia].
  unfold two32. destruct (Z_lt_le_dec v 0).
  - replace (v mod 4294967296) with (v + 4294967296).
    + destruct (Z.ltb_spec (v + 4294967296) 2147483648); lia.
    + symmetry. replace v with ((v + 4294967296) + (-1) * 4294967296) at 1 by lia.
      rewrite Z.mod_add by lia. apply Z.mod_small; lia.
  - rewrite Z.mod_small by lia. destruct (Z.ltb_spec v 2147483648); lia.
Qed.

Lemma code_at_u16 c pc v : 0 <= v < 65536 -> code_at c pc (u16_bytes v) -> get_u16 c pc = v.
Proof.
  intros Hv H. unfold u16_bytes in H. rewrite Z.mod_small in H by lia. cbn [le_bytes] in H.
  apply code_at_cons in H. destruct H as [B0 H]. apply code_at_cons in H. destruct H as [B1 _].
  unfold get_u16. rewrite B0, B1. rewrite !Z2N.id by (apply Z.mod_pos_bound; lia).
  Z.div_mod_to_equations. lia.
Qed.

Lemma i32_bytes_length v : length (i32_bytes v) = 4%nat. Proof. apply le_bytes_length. Qed.
Lemma u32_bytes_length v : length (u32_bytes v) = 4%nat. Proof. apply le_bytes_length. Qed.
Lemma u16_bytes_length v : length (u16_bytes v) = 2%nat. Proof. apply le_bytes_length. Qed.

(** ** the code map built from a byte list *)
Lemma build_code_find bs : forall k m p,
  PositiveMap.find p (build_code bs k m) =
  if (Pos.leb k p && (Zpos p <? Zpos k + Z.of_nat (length bs)))%bool
  then Some (nth (Z.to_nat (Zpos p - Zpos k)) bs 0%N)
  else PositiveMap.find p m.
Proof.
  induction bs as [|b r IH]; intros k m p; cbn [build_code length].
  - destruct (Pos.leb k p) eqn:E; cbn [andb]; [|reflexivity].
    destruct (Z.ltb_spec (Zpos p) (Zpos k + Z.of_nat 0)); [|reflexivity]. apply Pos.leb_le in E. lia.
  - rewrite IH. destruct (Pos.leb (Pos.succ k) p) eqn:E1.
    + apply Pos.leb_le in E1. assert (E2 : Pos.leb k p = true) by (apply Pos.leb_le; lia). rewrite E2. cbn [andb].
      replace (Zpos (Pos.succ k) + Z.of_nat (length r)) with (Zpos k + Z.of_nat (S (length r))) by lia.
      destruct (Z.ltb_spec (Zpos p) (Zpos k + Z.of_nat (S (length r)))).
      * f_equal. replace (Z.to_nat (Zpos p - Zpos k)) with (S (Z.to_nat (Zpos p - Zpos (Pos.succ k)))) by lia. reflexivity.
      * rewrite PositiveMap.gso by lia. reflexivity.
    + cbn [andb]. apply Pos.leb_gt in E1. destruct (Pos.leb k p) eqn:E2; cbn [andb].
      * apply Pos.leb_le in E2. assert (p = k) by lia. subst p. rewrite PositiveMap.gss.
        destruct (Z.ltb_spec (Zpos k) (Zpos k + Z.of_nat (S (length r)))); [|lia].
        rewrite Z.sub_diag. reflexivity.
      * apply Pos.leb_gt in E2. rewrite PositiveMap.gso by lia. reflexivity.
Qed.

Lemma build_code_at bs : code_at (build_code bs xH (PositiveMap.empty N)) 0 bs.
Proof.
  intros j Hj. unfold byte_at. rewrite build_code_find.
  assert (E : Z.to_pos (0 + Z.of_nat j + 1) = Pos.of_succ_nat j) by lia. rewrite E.
  assert (L : Pos.leb 1 (Pos.of_succ_nat j) = true) by (apply Pos.leb_le; lia). rewrite L. cbn [andb].
  destruct (Z.ltb_spec (Zpos (Pos.of_succ_nat j)) (1 + Z.of_nat (length bs))); [|lia].
  f_equal. f_equal. lia.
Qed.

Lemma code_at_prefix c pc a b : code_at c pc (a ++ b) -> code_at c pc a.
Proof. intros H. apply code_at_app in H. tauto. Qed.

(** ** register views *)
Lemma low32_set_short old v : low32 (set_short old v) = v mod two32.
Proof.
  unfold low32, set_short, two32. rewrite Z.add_comm, Z.mod_add by lia. apply Z.mod_mod. lia.
Qed.
Lemma as_u64_set_long old v : as_u64 (set_long old v) = v mod two64.
Proof. unfold as_u64, set_long, two64. apply Z.mod_mod. lia. Qed.
Lemma low32_range r : 0 <= low32 r < 4294967296. Proof. apply Z.mod_pos_bound. lia. Qed.
Lemma as_u64_range r : 0 <= as_u64 r < 18446744073709551616. Proof. apply Z.mod_pos_bound. lia. Qed.

(** the i32 views only depend on the low 32 bits, the i64 views on the low 64 *)
Lemma as_i32_low r : as_i32 r = as_i32 (low32 r).
Proof. unfold as_i32, low32, two32. rewrite Z.mod_mod by lia. reflexivity. Qed.
Lemma as_u32_low r : as_u32 r = low32 r. Proof. reflexivity. Qed.
Lemma as_i64_low r : as_i64 r = as_i64 (as_u64 r).
Proof. unfold as_i64, as_u64, two64. rewrite Z.mod_mod by lia. reflexivity. Qed.
Lemma low32_as_u64 r : low32 (as_u64 r) = low32 r.
Proof.
  unfold low32, as_u64, two32, two64. symmetry. apply Zmod_div_mod; try lia.
  exists 4294967296. reflexivity.
Qed.

(** ** list_set / nth *)
Lemma list_set_length l : forall i x, length (list_set l i x) = length l.
Proof. induction l; intros [|i] x; cbn; auto. Qed.
Lemma nth_list_set_same l : forall i x, (i < length l)%nat -> nth i (list_set l i x) 0 = x.
Proof. induction l; intros [|i] x H; cbn in *; try lia; auto. apply IHl. lia. Qed.
Lemma nth_list_set_other l : forall i j x, i <> j -> nth j (list_set l i x) 0 = nth j l 0.
Proof. induction l; intros [|i] [|j] x H; cbn; auto; try lia. Qed.
