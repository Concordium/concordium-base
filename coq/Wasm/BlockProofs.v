(** * Stage B: the back-patch stack.  Pending jump locations ([bpwf]), how later output extends earlier
    output except at pending locations ([ext]), what patching resolves ([resolved]), and the final code
    [matches] a compile state outside its pending windows. *)
From Coq Require Import ZArith List Lia .
From CB Require Import Wasm.Syntax Wasm.Compile Wasm.Machine
     Wasm.MachineLemmas Wasm.CompileLemmas Wasm.StraightProofs.
Import ListNotations.
Local Open Scope Z_scope.

Definition locals_in (nl : Z) (b : binstr) : bool :=
  match b with BLocalGet i | BLocalSet i | BLocalTee i => Z.of_nat i <? nl | _ => true end.

Definition locs_of (j : jump_target) : list Z := match j with JUnknown l _ => l | JKnown _ => [] end.
Definition all_locs (bp : list jump_target) : list Z := flat_map locs_of bp.
Definition in_win (loc : Z) (p : nat) : Prop := loc <= Z.of_nat p < loc + 4.
Definition pending (s : cstate) (p : nat) : Prop := exists loc, In loc (all_locs (c_bp s)) /\ in_win loc p.

Record bpwf (s : cstate) : Prop := {
  bw_range : forall loc, In loc (all_locs (c_bp s)) -> 0 <= loc /\ loc + 4 <= cur_off s;
  bw_sep : forall a b, In a (all_locs (c_bp s)) -> In b (all_locs (c_bp s)) -> a = b \/ a + 4 <= b \/ b + 4 <= a;
  bw_nodup : NoDup (all_locs (c_bp s))
}.

Definition ext (s s1 : cstate) : Prop :=
  (length (c_out s) <= length (c_out s1))%nat /\
  forall p, (p < length (c_out s))%nat -> ~ pending s p ->
            nth p (c_out s1) 0%N = nth p (c_out s) 0%N /\ ~ pending s1 p.
Definition matches (F : list N) (s : cstate) : Prop :=
  (length (c_out s) <= length F)%nat /\
  forall p, (p < length (c_out s))%nat -> ~ pending s p -> nth p F 0%N = nth p (c_out s) 0%N.

Lemma ext_refl s : ext s s. Proof. split; [lia|]. intros; auto. Qed.
Lemma ext_trans a b d : ext a b -> ext b d -> ext a d.
Proof.
  intros [L1 H1] [L2 H2]. split; [lia|]. intros p Hp Hn. destruct (H1 p Hp Hn) as [E1 N1].
  destruct (H2 p ltac:(lia) N1) as [E2 N2]. split; [congruence|exact N2].
Qed.
Lemma matches_ext F s s1 : ext s s1 -> matches F s1 -> matches F s.
Proof.
  intros [L1 H1] [L2 H2]. split; [lia|]. intros p Hp Hn. destruct (H1 p Hp Hn) as [E1 N1].
  rewrite (H2 p ltac:(lia) N1). exact E1.
Qed.
Lemma ext_same_locs s s1 t :
  c_out s1 = c_out s ++ t -> all_locs (c_bp s1) = all_locs (c_bp s) -> ext s s1.
Proof.
  intros Eo Eb. split; [rewrite Eo, app_length; lia|]. intros p Hp Hn. split.
  - rewrite Eo, app_nth1 by lia. reflexivity.
  - unfold pending in *. rewrite Eb. exact Hn.
Qed.
Lemma ext_append s s1 t : c_out s1 = c_out s ++ t -> c_bp s1 = c_bp s -> ext s s1.
Proof. intros Eo Eb. apply (ext_same_locs s s1 t Eo). rewrite Eb. reflexivity. Qed.

Definition win (F : list N) (loc : Z) : list N := firstn 4 (skipn (Z.to_nat loc) F).

Lemma nth_skipn' {A} (d : A) : forall k (l : list A) n, nth n (skipn k l) d = nth (k + n) l d.
Proof. induction k; intros [|x l] n; cbn; auto. destruct n; reflexivity. Qed.

Lemma nth_overwrite_other : forall (l : list N) pos bs p,
  (p < pos \/ pos + length bs <= p)%nat -> nth p (overwrite l pos bs) 0%N = nth p l 0%N.
Proof.
  induction l as [|x l IH]; intros pos bs p H.
  - destruct pos; cbn [overwrite]; [|reflexivity]. rewrite skipn_nil, app_nil_r.
    destruct H as [H|H]; [lia|]. rewrite !nth_overflow; cbn; auto; lia.
  - destruct pos as [|pos]; cbn [overwrite].
    + destruct H as [H|H]; [lia|]. rewrite app_nth2 by lia. rewrite nth_skipn'. f_equal. lia.
    + destruct p as [|p]; cbn [nth]; [reflexivity|]. apply IH. lia.
Qed.
Lemma nth_overwrite_in : forall (l : list N) pos bs p,
  (pos + length bs <= length l)%nat -> (pos <= p < pos + length bs)%nat ->
  nth p (overwrite l pos bs) 0%N = nth (p - pos) bs 0%N.
Proof.
  induction l as [|x l IH]; intros pos bs p Hl H.
  - cbn in Hl. assert (length bs = O) by lia. lia.
  - destruct pos as [|pos]; cbn [overwrite].
    + rewrite app_nth1 by lia. f_equal. lia.
    + destruct p as [|p]; [lia|]. cbn [nth]. rewrite IH by (cbn in Hl; lia). reflexivity.
Qed.
Lemma overwrite_length : forall (l : list N) pos bs, (pos + length bs <= length l)%nat -> length (overwrite l pos bs) = length l.
Proof.
  induction l as [|x l IH]; intros pos bs H.
  - cbn in H. destruct pos; cbn; [|reflexivity]. rewrite skipn_nil, app_nil_r. lia.
  - destruct pos as [|pos]; cbn [overwrite length].
    + rewrite app_length, skipn_length. cbn [length] in *. lia.
    + f_equal. apply IH. cbn in H. lia.
Qed.

Section Ctl.
Variable art : artifact.
Variable mhost : nat -> list Z -> option (option Z).
Variable codes : list (code_map * list Z).
Variable fidx : nat.
Variable c : code_map.
Variable consts : list Z.
Hypothesis Hcode : nth_error codes fidx = Some (c, consts).

Notation mstep := (step art mhost codes).

Lemma mstep_if M a tgt :
  ms_idx M = fidx -> code_at c (ms_pc M) (IIf :: i32_bytes a ++ u32_bytes tgt) -> 0 <= tgt < 4294967296 ->
  -2147483648 <= a < 2147483648 ->
  mstep M = SNext (set_pc M (if as_i32 (get_local consts M a) =? 0 then tgt else ms_pc M + 9)).
Proof.
  intros Hi Hc Ht Ha. apply code_at_cons in Hc. destruct Hc as [H0 Hc]. apply code_at_app in Hc. destruct Hc as [H1 H2].
  rewrite i32_bytes_length in H2.
  rewrite (mstep_at art mhost codes fidx c consts Hcode M Hi), H0, N2Z.id.
  change (exec_op art mhost c consts M (ms_pc M + 1) IIf) with
    (let cond := get_local consts M (get_i32 c (ms_pc M + 1)) in
     let tgt := get_u32 c (ms_pc M + 1 + 4) in
     SNext (set_pc M (if as_i32 cond =? 0 then tgt else ms_pc M + 1 + 8))).
  cbv zeta. rewrite (code_at_i32 c _ a Ha H1).
  replace (ms_pc M + 1 + 4) with (ms_pc M + 1 + Z.of_nat 4) by lia. rewrite (code_at_u32 c _ tgt Ht H2).
  replace (ms_pc M + 1 + 8) with (ms_pc M + 9) by lia. reflexivity.
Qed.
End Ctl.

Lemma all_locs_cons j r : all_locs (j :: r) = locs_of j ++ all_locs r. Proof. reflexivity. Qed.

Lemma all_locs_update : forall bp l locs res x,
  nth_error bp l = Some (JUnknown locs res) ->
  exists A B, all_locs bp = A ++ B /\ all_locs (update_nth bp l (JUnknown (locs ++ [x]) res)) = A ++ x :: B.
Proof.
  induction bp as [|j r IH]; intros [|l] locs res x H; cbn in H; try discriminate.
  - inversion H; subst. exists locs, (all_locs r). cbn [update_nth all_locs flat_map locs_of]. split; [reflexivity|].
    rewrite <- app_assoc. reflexivity.
  - destruct (IH l locs res x H) as (A & B & E1 & E2). exists (locs_of j ++ A), B.
    cbn [update_nth]. rewrite !all_locs_cons, E1, E2, <- !app_assoc. split; reflexivity.
Qed.

Lemma checked v r s' :
  match r with Some x => if (length (c_stack x) =? v_opds v)%nat then Some x else None | None => None end = Some s' ->
  r = Some s' /\ length (c_stack s') = v_opds v.
Proof.
  destruct r as [x|]; [|discriminate]. destruct (Nat.eqb_spec (length (c_stack x)) (v_opds v)); [|discriminate].
  intros H; inversion H; subst; auto.
Qed.

(** new location at the end of the output: fresh with respect to a well-formed state *)
Lemma fresh_loc s x : bpwf s -> cur_off s <= x ->
  ~ In x (all_locs (c_bp s)) /\ forall a, In a (all_locs (c_bp s)) -> a + 4 <= x.
Proof.
  intros W Hx. split.
  - intro Hin. destruct (bw_range _ W x Hin). lia.
  - intros a Ha. destruct (bw_range _ W a Ha). lia.
Qed.

(** a state whose pending locations are those of [s] plus one fresh location inside the new output *)
Lemma bpwf_add s s1 x A B :
  bpwf s -> all_locs (c_bp s) = A ++ B -> all_locs (c_bp s1) = A ++ x :: B ->
  cur_off s <= x -> x + 4 <= cur_off s1 -> bpwf s1.
Proof.
  intros W E E1 Hx Hx1. destruct (fresh_loc s x W Hx) as [Hn Hs].
  assert (Hin : forall y, In y (all_locs (c_bp s1)) <-> y = x \/ In y (all_locs (c_bp s))).
  { intros y. rewrite E1, E, !in_app_iff. cbn. intuition. }
  constructor.
  - intros loc Hl. apply Hin in Hl. destruct Hl as [->|Hl]; [unfold cur_off in *; lia|]. destruct (bw_range _ W loc Hl). lia.
  - intros a b Ha Hb. apply Hin in Ha. apply Hin in Hb. destruct Ha as [->|Ha], Hb as [->|Hb].
    + left; reflexivity.
    + right. right. apply Hs. exact Hb.
    + right. left. apply Hs. exact Ha.
    + apply (bw_sep _ W); auto.
  - rewrite E1. apply (NoDup_Add (Add_app x A B)). split; [rewrite <- E; apply (bw_nodup _ W)|rewrite <- E; exact Hn].
Qed.

Lemma ext_add s s1 t x A B :
  c_out s1 = c_out s ++ t -> all_locs (c_bp s) = A ++ B -> all_locs (c_bp s1) = A ++ x :: B ->
  cur_off s <= x -> ext s s1.
Proof.
  intros Eo E E1 Hx. split; [rewrite Eo, app_length; lia|]. intros p Hp Hn. split.
  - rewrite Eo, app_nth1 by lia. reflexivity.
  - intros (loc & Hl & Hw). rewrite E1 in Hl. apply in_app_iff in Hl. cbn in Hl.
    assert (Hc : loc = x \/ In loc (all_locs (c_bp s))) by (rewrite E, in_app_iff; intuition).
    destruct Hc as [->|Hc].
    + unfold in_win, cur_off in *. lia.
    + apply Hn. exists loc. auto.
Qed.
Lemma bpwf_same_locs s s1 : bpwf s -> all_locs (c_bp s1) = all_locs (c_bp s) -> cur_off s <= cur_off s1 -> bpwf s1.
Proof.
  intros [W1 W2 W3] E H. constructor; rewrite E; auto. intros loc Hl. destruct (W1 loc Hl). lia.
Qed.

Definition patch_all (out : list N) (locs : list Z) (pos : Z) : list N :=
  fold_left (fun o l => overwrite o (Z.to_nat l) (u32_bytes pos)) locs out.

Lemma fold_back_patch pos : forall locs s,
  let s' := fold_left (fun acc l => back_patch acc l pos) locs s in
  c_out s' = patch_all (c_out s) locs pos /\ c_bp s' = c_bp s /\ c_stack s' = c_stack s /\ c_next s' = c_next s
  /\ c_reuse s' = c_reuse s /\ c_consts s' = c_consts s /\ c_last s' = c_last s.
Proof.
  induction locs as [|a r IH]; intros s; cbn [fold_left patch_all].
  - repeat split.
  - specialize (IH (back_patch s a pos)). cbn zeta in IH. destruct IH as (A & B & C & D & E & G & H).
    unfold patch_all in *. rewrite A, B, C, D, E, G, H. repeat split.
Qed.

Definition win_ok (n : nat) (loc : Z) : Prop := 0 <= loc /\ (Z.to_nat loc + 4 <= n)%nat.
Definition sep (a b : Z) : Prop := a + 4 <= b \/ b + 4 <= a.

Lemma patch_all_length pos : forall locs out, Forall (win_ok (length out)) locs -> length (patch_all out locs pos) = length out.
Proof.
  induction locs as [|a r IH]; intros out H; cbn [patch_all fold_left]; [reflexivity|].
  inversion H as [|? ? Ha Hr]; subst. destruct Ha as [Ha0 Ha1].
  assert (L : length (overwrite out (Z.to_nat a) (u32_bytes pos)) = length out).
  { apply overwrite_length. rewrite u32_bytes_length. exact Ha1. }
  fold (patch_all (overwrite out (Z.to_nat a) (u32_bytes pos)) r pos). rewrite IH; [exact L|]. rewrite L. exact Hr.
Qed.

Lemma patch_all_other pos p : forall locs out,
  (forall loc, In loc locs -> 0 <= loc /\ ~ in_win loc p) -> nth p (patch_all out locs pos) 0%N = nth p out 0%N.
Proof.
  induction locs as [|a r IH]; intros out H; cbn [patch_all fold_left]; [reflexivity|].
  fold (patch_all (overwrite out (Z.to_nat a) (u32_bytes pos)) r pos). rewrite IH by (intros; apply H; right; auto).
  apply nth_overwrite_other. rewrite u32_bytes_length. destruct (H a (or_introl eq_refl)) as [H0 H1]. unfold in_win in H1. lia.
Qed.

Lemma patch_all_in pos p loc : forall locs out,
  In loc locs -> in_win loc p -> Forall (win_ok (length out)) locs ->
  (forall a b, In a locs -> In b locs -> a = b \/ sep a b) ->
  nth p (patch_all out locs pos) 0%N = nth (p - Z.to_nat loc) (u32_bytes pos) 0%N.
Proof.
  induction locs as [|a r IH]; intros out Hin Hw Hok Hsep; [destruct Hin|].
  cbn [patch_all fold_left]. fold (patch_all (overwrite out (Z.to_nat a) (u32_bytes pos)) r pos).
  inversion Hok as [|? ? Ha Hr]; subst. destruct Ha as [Ha0 Ha1].
  assert (L : length (overwrite out (Z.to_nat a) (u32_bytes pos)) = length out).
  { apply overwrite_length. rewrite u32_bytes_length. exact Ha1. }
  destruct (in_dec Z.eq_dec loc r) as [Hr'|Hr'].
  - apply IH; auto. { rewrite L. exact Hr. } intros; apply Hsep; right; auto.
  - destruct Hin as [->|Hin]; [|contradiction].
    rewrite patch_all_other.
    + apply nth_overwrite_in; rewrite u32_bytes_length; unfold in_win in Hw; lia.
    + intros b Hb. rewrite Forall_forall in Hr. destruct (Hr b Hb) as [Hb0 _]. split; [exact Hb0|].
      destruct (Hsep loc b (or_introl eq_refl) (or_intror Hb)) as [->|Hs]; [contradiction|].
      unfold in_win, sep in *. lia.
Qed.

(** window [loc] holds the target [T] and is no longer pending *)
Definition resolved (s : cstate) (loc T : Z) : Prop :=
  0 <= loc /\ (Z.to_nat loc + 4 <= length (c_out s))%nat /\
  forall j, (j < 4)%nat -> nth (Z.to_nat loc + j) (c_out s) 0%N = nth j (u32_bytes T) 0%N /\ ~ pending s (Z.to_nat loc + j).

Lemma pending_sub s s1 p : (forall x, In x (all_locs (c_bp s1)) -> In x (all_locs (c_bp s))) -> pending s1 p -> pending s p.
Proof. intros H (loc & Hl & Hw). exists loc. auto. Qed.

Lemma nodup_app {A} (a b : list A) : NoDup (a ++ b) -> NoDup b /\ forall x, In x a -> In x b -> False.
Proof.
  induction a as [|y a IH]; cbn; intros H; [split; [exact H|intros x []]|].
  inversion H as [|? ? Hy Hn]; subst. destruct (IH Hn) as [Hb Hd]. split; [exact Hb|].
  intros x [->|Hx] Hxb; [apply Hy; apply in_or_app; auto|eapply Hd; eauto].
Qed.

Lemma resolved_ext s s1 loc T : resolved s loc T -> ext s s1 -> resolved s1 loc T.
Proof.
  intros (H0 & H1 & H2) [L X]. split; [exact H0|]. split; [lia|]. intros j Hj. destruct (H2 j Hj) as [E Np].
  destruct (X (Z.to_nat loc + j)%nat ltac:(lia) Np) as [E1 N1]. split; [congruence|exact N1].
Qed.

(** [End] / [Else]: the pending jumps [locs] leave the back-patch stack and are patched to [T] *)
Lemma end_patch s locs bpn T s1 :
  bpwf s -> all_locs (c_bp s) = locs ++ all_locs bpn ->
  s1 = fold_left (fun acc l => back_patch acc l T) locs (set_bp s bpn) ->
  c_bp s1 = bpn /\ c_stack s1 = c_stack s /\ c_next s1 = c_next s /\ c_reuse s1 = c_reuse s /\ c_consts s1 = c_consts s
  /\ c_last s1 = c_last s /\ cur_off s1 = cur_off s /\ bpwf s1 /\ ext s s1
  /\ forall loc, In loc locs -> resolved s1 loc T.
Proof.
  intros W Hall ->. destruct (fold_back_patch T locs (set_bp s bpn)) as (A & B & C & D & E & G & H).
  cbn zeta in *. set (s1 := fold_left _ locs _) in *. cbn [set_bp c_out c_bp c_stack c_next c_reuse c_consts c_last] in *.
  assert (Hok : Forall (win_ok (length (c_out s))) locs).
  { apply Forall_forall. intros x Hx. destruct (bw_range _ W x) as [X0 X1]; [rewrite Hall; apply in_or_app; auto|].
    unfold cur_off in X1. split; lia. }
  assert (Hsep : forall a b, In a locs -> In b locs -> a = b \/ sep a b).
  { intros a b Ha Hb. apply (bw_sep _ W); rewrite Hall; apply in_or_app; auto. }
  assert (L : length (c_out s1) = length (c_out s)) by (rewrite A; apply patch_all_length; exact Hok).
  assert (Hsub : forall x, In x (all_locs (c_bp s1)) -> In x (all_locs (c_bp s))).
  { intros x Hx. rewrite B in Hx. rewrite Hall. apply in_or_app; auto. }
  assert (Hco : cur_off s1 = cur_off s) by (unfold cur_off; rewrite L; reflexivity).
  splits; auto.
  - constructor.
    + intros loc Hl. rewrite Hco. apply (bw_range _ W). auto.
    + intros a b Ha Hb. apply (bw_sep _ W); auto.
    + rewrite B. pose proof (bw_nodup _ W) as Hn. rewrite Hall in Hn. apply nodup_app in Hn. apply Hn.
  - split; [lia|]. intros p Hp Hn. split.
    + rewrite A. apply patch_all_other. intros loc Hl. split.
      * apply (bw_range _ W). rewrite Hall. apply in_or_app; auto.
      * intros Hw. apply Hn. exists loc. split; [rewrite Hall; apply in_or_app; auto|exact Hw].
    + intros Hp1. apply Hn. eapply pending_sub; eauto.
  - intros loc Hl. rewrite Forall_forall in Hok. destruct (Hok loc Hl) as [H0 H1]. split; [exact H0|]. split; [lia|].
    intros j Hj. split.
    + rewrite A. rewrite (patch_all_in T (Z.to_nat loc + j) loc locs (c_out s) Hl); auto.
      * f_equal. lia.
      * unfold in_win. lia.
      * apply Forall_forall. exact Hok.
    + intros (x & Hx & Hw). rewrite B in Hx.
      assert (Hx' : In x (all_locs (c_bp s))) by (rewrite Hall; apply in_or_app; auto).
      assert (Hl' : In loc (all_locs (c_bp s))) by (rewrite Hall; apply in_or_app; auto).
      destruct (bw_sep _ W loc x Hl' Hx') as [->|Hs].
      * pose proof (bw_nodup _ W) as Hn. rewrite Hall in Hn. apply nodup_app in Hn. destruct Hn as [_ Hn]. apply (Hn x); auto.
      * unfold in_win in Hw. lia.
Qed.
