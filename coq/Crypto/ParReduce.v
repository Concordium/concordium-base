(** C19 - rayon's [par_iter().fold(identity, f).reduce(identity, op)] as used by
    [verify_aggregate_sig], [verify_aggregate_sig_hybrid] and [verify_aggregate_sig_trusted_keys]
    (rust-src/concordium_base/src/aggregate_sig/mod.rs).

    rayon splits the slice recursively into CONSECUTIVE segments (where and how often depends on
    the thread pool, the length and work stealing - not on anything in the code); every leaf
    segment is folded sequentially starting from [identity()], the fold result is fed into the
    leaf's reduce-folder (which itself starts from [identity()]), and two finished halves are
    joined by [op left right].  The model is therefore an ARBITRARY binary tree whose leaves
    carry consecutive (possibly empty) segments:

        peval (Leaf seg)   = op id (fold_left f seg id)
        peval (Node l r)   = op (peval l) (peval r)

    [chunks_of n] (fixed chunk size n, flat reduction from the identity) and [msplit d]
    (split in the middle, d levels deep - the shape rayon produces on an idle pool) are
    instances.  The step function of all three call sites has the form
    [f acc x = op acc (g x)].

    Everything here is generic in a monoid; only associativity and the identity laws are used
    (NOT commutativity, NOT the pairing laws). *)
From Coq Require Import List Arith Lia.
Import ListNotations.

Section ParReduce.
  Variable A : Type.   (* items *)
  Variable T : Type.   (* accumulator *)
  Variable op : T -> T -> T.
  Variable e : T.
  Variable g : A -> T.

  Inductive ptree : Type :=
  | PLeaf (seg : list A)
  | PNode (l r : ptree).

  Fixpoint pflatten (t : ptree) : list A :=
    match t with
    | PLeaf seg => seg
    | PNode l r => pflatten l ++ pflatten r
    end.

  Definition pstep (acc : T) (x : A) : T := op acc (g x).
  Definition seqfold (l : list A) : T := fold_left pstep l e.

  Fixpoint peval (t : ptree) : T :=
    match t with
    | PLeaf seg => op e (seqfold seg)
    | PNode l r => op (peval l) (peval r)
    end.

  (** fixed-size chunking, flat reduction (the shape of [par_sum] in Bls.v) *)
  Fixpoint chunks_fuel (fuel n : nat) (l : list A) : list (list A) :=
    match fuel with
    | O => []
    | S fuel' => match l with
                 | [] => []
                 | _ => firstn n l :: chunks_fuel fuel' n (skipn n l)
                 end
    end.
  Definition chunks_of (n : nat) (l : list A) : list (list A) := chunks_fuel (length l) n l.
  Definition chunked_eval (n : nat) (l : list A) : T :=
    fold_left op (map seqfold (chunks_of n l)) e.

  (** a flat list of chunks as a (right-leaning) tree *)
  Fixpoint tree_of_chunks (cs : list (list A)) : ptree :=
    match cs with
    | [] => PLeaf []
    | c :: cs' => PNode (PLeaf c) (tree_of_chunks cs')
    end.

  (** split in the middle, [d] levels *)
  Fixpoint msplit (d : nat) (l : list A) : ptree :=
    match d with
    | O => PLeaf l
    | S d' => let m := Nat.div2 (length l) in PNode (msplit d' (firstn m l)) (msplit d' (skipn m l))
    end.

  (** the coded choice: sequential fold below the threshold, parallel above *)
  Definition thresh_eval (thr : nat) (split : list A -> ptree) (l : list A) : T :=
    if length l <? thr then seqfold l else peval (split l).

  Hypothesis op_assoc : forall a b c, op a (op b c) = op (op a b) c.
  Hypothesis op_e_l : forall a, op e a = a.
  Hypothesis op_e_r : forall a, op a e = a.

  Lemma fold_step_acc {X} (k : X -> T) l : forall acc,
    fold_left (fun a x => op a (k x)) l acc = op acc (fold_left (fun a x => op a (k x)) l e).
  Proof.
    induction l as [|x l IH]; intros acc; cbn [fold_left].
    - now rewrite op_e_r.
    - rewrite IH, (IH (op e (k x))). now rewrite op_e_l, op_assoc.
  Qed.

  Lemma fold_pstep_acc l acc : fold_left pstep l acc = op acc (seqfold l).
  Proof. exact (fold_step_acc g l acc). Qed.

  Lemma seqfold_app l1 l2 : seqfold (l1 ++ l2) = op (seqfold l1) (seqfold l2).
  Proof. unfold seqfold at 1. rewrite fold_left_app. apply fold_pstep_acc. Qed.

  (** every split tree computes the sequential fold of its leaves in order *)
  Lemma peval_seq t : peval t = seqfold (pflatten t).
  Proof.
    induction t as [seg|l IHl r IHr]; cbn [peval pflatten].
    - apply op_e_l.
    - now rewrite IHl, IHr, seqfold_app.
  Qed.

  Lemma fold_op_acc (xs : list T) acc : fold_left op xs acc = op acc (fold_left op xs e).
  Proof. exact (fold_step_acc (fun x => x) xs acc). Qed.

  Lemma flat_chunks_seq (cs : list (list A)) : fold_left op (map seqfold cs) e = seqfold (concat cs).
  Proof.
    induction cs as [|c cs IH]; cbn [map fold_left concat].
    - reflexivity.
    - rewrite fold_op_acc, IH, op_e_l. now rewrite seqfold_app.
  Qed.

  Lemma chunks_fuel_concat n : 0 < n -> forall fuel l, length l <= fuel -> concat (chunks_fuel fuel n l) = l.
  Proof.
    intros Hn. induction fuel as [|fuel IH]; intros l Hl.
    - destruct l; [reflexivity | cbn in Hl; lia].
    - destruct l as [|x l]; [reflexivity|]. cbn [chunks_fuel concat].
      rewrite IH; [apply firstn_skipn|]. rewrite skipn_length. cbn [length] in *. lia.
  Qed.

  Lemma chunks_of_concat n l : 0 < n -> concat (chunks_of n l) = l.
  Proof. intros Hn. apply chunks_fuel_concat; [exact Hn | lia]. Qed.

  Lemma chunks_fuel_sizes n : 0 < n -> forall fuel l c, In c (chunks_fuel fuel n l) -> 0 < length c <= n.
  Proof.
    intros Hn. induction fuel as [|fuel IH]; intros l c Hc; [contradiction|].
    destruct l as [|x l]; [contradiction|]. cbn [chunks_fuel] in Hc. destruct Hc as [<-|Hc].
    - rewrite firstn_length. cbn [length]. lia.
    - eapply IH; eassumption.
  Qed.

  (** fixed chunk size: equal to the sequential fold for EVERY chunk size and list length *)
  Lemma chunked_eval_seq n l : 0 < n -> chunked_eval n l = seqfold l.
  Proof. intros Hn. unfold chunked_eval. now rewrite flat_chunks_seq, chunks_of_concat. Qed.

  Lemma tree_of_chunks_flatten cs : pflatten (tree_of_chunks cs) = concat cs.
  Proof. induction cs as [|c cs IH]; cbn [tree_of_chunks pflatten concat]; [reflexivity | now rewrite IH]. Qed.

  Lemma msplit_flatten d : forall l, pflatten (msplit d l) = l.
  Proof.
    induction d as [|d IH]; intros l; cbn [msplit pflatten]; [reflexivity|].
    rewrite !IH. apply firstn_skipn.
  Qed.

  (** the threshold and the splitter cannot matter *)
  Lemma thresh_eval_seq thr split l : (forall l, pflatten (split l) = l) -> thresh_eval thr split l = seqfold l.
  Proof.
    intros Hs. unfold thresh_eval. destruct (length l <? thr); [reflexivity|]. now rewrite peval_seq, Hs.
  Qed.
End ParReduce.

Arguments PLeaf {A} _.
Arguments PNode {A} _ _.
