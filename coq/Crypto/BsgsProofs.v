(** C12 - correctness of baby-step giant-step: [discrete_log (x*base) = x] for every [x] below the
    bound on which multiples of [base] are pairwise distinct. *)
From Coq Require Import NArith List Lia Bool.
From CB Require Import Crypto.Chunks Crypto.Bsgs.
Import ListNotations.
Local Open Scope N_scope.

Section BsgsProofs.
  Variable G : Type.
  Variables (gzero : G) (gadd : G -> G -> G) (gopp : G -> G) (geqb : G -> G -> bool).
  Hypothesis gadd_assoc : forall a b c, gadd a (gadd b c) = gadd (gadd a b) c.
  Hypothesis gadd_comm : forall a b, gadd a b = gadd b a.
  Hypothesis gadd_0_l : forall a, gadd gzero a = a.
  Hypothesis gadd_opp : forall a, gadd a (gopp a) = gzero.
  Hypothesis geqb_spec : forall a b, geqb a b = true <-> a = b.
  Variable base : G.
  (** multiples of [base] below [bound] are pairwise distinct (the order of [base] is at least [bound]) *)
  Variable bound : N.
  Local Notation nm := (nmul G gzero gadd).
  Hypothesis base_inj : forall a b, a < bound -> b < bound -> nm a base = nm b base -> a = b.

  Lemma bs_gadd_0_r a : gadd a gzero = a.
  Proof. rewrite gadd_comm. apply gadd_0_l. Qed.
  Lemma nmul_succ n : nm (N.succ n) base = gadd (nm n base) base.
  Proof. unfold nmul. now rewrite N.iter_succ. Qed.
  Lemma nmul_succ1 n : nm (n + 1) base = gadd (nm n base) base.
  Proof. rewrite N.add_1_r. apply nmul_succ. Qed.
  Lemma nmul_add a b : nm (a + b) base = gadd (nm a base) (nm b base).
  Proof.
    induction b as [|b IH] using N.peano_ind.
    - rewrite N.add_0_r. change (nm 0 base) with gzero. now rewrite bs_gadd_0_r.
    - rewrite N.add_succ_r, !nmul_succ, IH, gadd_assoc. reflexivity.
  Qed.
  Lemma nmul_sub_step k m : gadd (nm (k + m) base) (gopp (nm m base)) = nm k base.
  Proof. rewrite nmul_add, <- gadd_assoc, gadd_opp. apply bs_gadd_0_r. Qed.

  Lemma after_steps_spec n : forall j, after_steps G gadd n base (nm j base) = nm (j + N.of_nat n) base.
  Proof.
    induction n as [|n IH]; intros j; cbn [after_steps].
    - now rewrite N.add_0_r.
    - rewrite <- nmul_succ1, IH, Nat2N.inj_succ. f_equal. lia.
  Qed.

  (** the table maps exactly the multiples j*base, j0 <= j < j0+n, to j *)
  Lemma lookup_entries n : forall j0 k, j0 + N.of_nat n <= bound -> k < bound ->
    lookup_last G geqb (table_entries G gadd n base (nm j0 base) j0) (nm k base)
    = if (j0 <=? k) && (k <? j0 + N.of_nat n) then Some k else None.
  Proof.
    induction n as [|n IH]; intros j0 k Hj Hk.
    - cbn [table_entries lookup_last]. rewrite N.add_0_r.
      destruct (N.leb_spec j0 k), (N.ltb_spec k j0); cbn [andb]; try reflexivity. lia.
    - cbn [table_entries lookup_last]. rewrite <- nmul_succ1. rewrite Nat2N.inj_succ in *.
      rewrite IH by lia.
      destruct (N.leb_spec (j0 + 1) k) as [H1|H1], (N.ltb_spec k (j0 + 1 + N.of_nat n)) as [H2|H2]; cbn [andb].
      + destruct (N.leb_spec j0 k), (N.ltb_spec k (j0 + N.succ (N.of_nat n))); cbn [andb]; try lia. reflexivity.
      + destruct (geqb (nm j0 base) (nm k base)) eqn:E.
        * apply geqb_spec, base_inj in E; lia.
        * destruct (N.leb_spec j0 k), (N.ltb_spec k (j0 + N.succ (N.of_nat n))); cbn [andb]; try lia; reflexivity.
      + destruct (geqb (nm j0 base) (nm k base)) eqn:E.
        * apply geqb_spec, base_inj in E; try lia. subst k.
          destruct (N.leb_spec j0 j0), (N.ltb_spec j0 (j0 + N.succ (N.of_nat n))); cbn [andb]; try lia. reflexivity.
        * assert (Hne : j0 <> k) by (intros ->; rewrite (proj2 (geqb_spec _ _) eq_refl) in E; discriminate).
          destruct (N.leb_spec j0 k), (N.ltb_spec k (j0 + N.succ (N.of_nat n))); cbn [andb]; try lia; reflexivity.
      + lia.
  Qed.

  Variable m : N.
  Hypothesis m_pos : 0 < m.
  Hypothesis m_le : m <= bound.
  Local Notation tb := (bsgs_new G gzero gadd gopp base m).

  Lemma bsgs_new_table : bs_table G tb = table_entries G gadd (N.to_nat m) base (nm 0 base) 0.
  Proof. reflexivity. Qed.
  Lemma bsgs_new_inverse : bs_inverse_point G tb = gopp (nm m base).
  Proof.
    cbn [bsgs_new bs_inverse_point]. change gzero with (nm 0 base) at 1.
    rewrite after_steps_spec, N2Nat.id, N.add_0_l. reflexivity.
  Qed.
  Lemma bsgs_lookup k : k < bound ->
    lookup_last G geqb (bs_table G tb) (nm k base) = if k <? m then Some k else None.
  Proof.
    intros Hk. rewrite bsgs_new_table, lookup_entries by (rewrite ?N2Nat.id; lia).
    rewrite N2Nat.id, N.add_0_l. destruct (N.leb_spec 0 k); [reflexivity|lia].
  Qed.

  (** giant step i looks at (x - i*m)*base; it hits the table exactly at i = x/m *)
  Lemma dl_go_miss x fuel i : x < bound -> i < x / m ->
    dl_go G gadd geqb (S fuel) tb (nm (x - i * m) base) i = dl_go G gadd geqb fuel tb (nm (x - (i + 1) * m) base) (i + 1).
  Proof.
    intros Hx Hi. assert (Hdm : m * (x / m) <= x) by (apply N.mul_div_le; lia).
    assert (Hi1 : (i + 1) * m <= x).
    { apply N.le_trans with ((x / m) * m); [apply N.mul_le_mono_r; lia|lia]. }
    rewrite N.mul_add_distr_r, N.mul_1_l in *.
    cbn [dl_go]. rewrite bsgs_lookup by lia. destruct (N.ltb_spec (x - i * m) m); [lia|].
    rewrite bsgs_new_inverse. replace (x - i * m) with (x - (i * m + m) + m) by lia.
    rewrite nmul_sub_step. reflexivity.
  Qed.

  Lemma dl_go_correct x : x < bound -> x < W64 ->
    forall fuel i, i <= x / m -> (N.to_nat (x / m - i) < fuel)%nat ->
    dl_go G gadd geqb fuel tb (nm (x - i * m) base) i = DlFound x.
  Proof.
    intros Hx Hx64.
    assert (Hdm : m * (x / m) <= x) by (apply N.mul_div_le; lia).
    induction fuel as [|fuel IH]; intros i Hi Hf; [lia|].
    destruct (N.eq_dec i (x / m)) as [->|Hne]; [|rewrite dl_go_miss by lia; apply IH; lia].
    cbn [dl_go]. rewrite bsgs_lookup by (apply N.le_lt_trans with x; [apply N.le_sub_l|exact Hx]). change (bs_m G tb) with m.
    assert (Hmod : x - x / m * m = x mod m) by (rewrite N.mod_eq by lia; lia).
    rewrite Hmod. pose proof (N.mod_lt x m ltac:(lia)) as Hlt.
    destruct (N.ltb_spec (x mod m) m); [|lia].
    destruct (N.leb_spec W64 (x / m * m)); [lia|].
    rewrite <- Hmod. replace (x / m * m + (x - x / m * m)) with x by lia.
    destruct (N.leb_spec W64 x); [lia|reflexivity].
  Qed.

  (** ** discrete_log (x*base) = x, found at giant step x/m (so within x/m + 1 table lookups) *)
  Theorem bsgs_discrete_log_correct x fuel :
    x < bound -> x < W64 -> (N.to_nat (x / m) < fuel)%nat ->
    discrete_log G gadd geqb fuel tb (nm x base) = DlFound x.
  Proof.
    intros Hx Hx64 Hf. unfold discrete_log.
    pose proof (dl_go_correct x Hx Hx64 fuel 0) as H. rewrite N.mul_0_l, !N.sub_0_r in H. apply H; [apply N.le_0_l|exact Hf].
  Qed.

  (** the number of giant steps is exact: with x/m or fewer lookups the loop has not returned *)
  Lemma dl_go_needs_steps x : x < bound ->
    forall fuel i, (N.of_nat fuel + i <= x / m) ->
    dl_go G gadd geqb fuel tb (nm (x - i * m) base) i = DlFuel.
  Proof.
    intros Hx. induction fuel as [|fuel IH]; intros i Hi; [reflexivity|].
    rewrite Nat2N.inj_succ in Hi. rewrite dl_go_miss by lia. apply IH. lia.
  Qed.
  Theorem bsgs_needs_steps x fuel : x < bound -> N.of_nat fuel <= x / m ->
    discrete_log G gadd geqb fuel tb (nm x base) = DlFuel.
  Proof.
    intros Hx Hf. unfold discrete_log.
    pose proof (dl_go_needs_steps x Hx fuel 0) as H. rewrite N.mul_0_l, !N.sub_0_r in H. apply H. rewrite N.add_0_r. exact Hf.
  Qed.

  (** ** Serial / Deserial round trip of the table, every table size *)
  Fixpoint keys_distinct (t : list (G * N)) : Prop :=
    match t with
    | [] => True
    | e :: t' => (forall q, In q t' -> fst q <> fst e) /\ keys_distinct t'
    end.

  Lemma existsb_key_false (acc : list (G * N)) (p : G) : (forall q, In q acc -> fst q <> p) -> existsb (fun q => geqb (fst q) p) acc = false.
  Proof.
    induction acc as [|a acc IH]; intros Hn; cbn [existsb]; [reflexivity|].
    destruct (geqb (fst a) p) eqn:E.
    - apply geqb_spec in E. exfalso. apply (Hn a); [left; reflexivity|exact E].
    - cbn. apply IH. intros q Hq. apply Hn. right. exact Hq.
  Qed.

  Lemma read_entries_all : forall (t rest acc : list (G * N)),
    keys_distinct t -> (forall e q, In e t -> In q acc -> fst q <> fst e) ->
    read_entries G geqb (length t) (t ++ rest) acc = Some (rev acc ++ t).
  Proof.
    induction t as [|[p j] t IH]; intros rest acc Hd Hacc; cbn [length read_entries app].
    - now rewrite app_nil_r.
    - destruct Hd as [Hp Hd].
      rewrite existsb_key_false by (intros q Hq; apply (Hacc (p, j) q); [left; reflexivity|exact Hq]).
      rewrite IH; [cbn [rev]; now rewrite <- app_assoc|exact Hd|].
      intros e q He [<-|Hq]; [|apply Hacc; [right; exact He|exact Hq]].
      cbn [fst]. intro E. apply (Hp e He). now symmetry.
  Qed.

  Theorem bsgs_deserial_serial_gen (b : bsgs G) :
    keys_distinct (bs_table G b) -> length (bs_table G b) = N.to_nat (bs_m G b) ->
    bsgs_deserial G geqb (bsgs_serial G b) = Some b.
  Proof.
    intros Hd Hl. destruct b as [t inv mm]. cbn [bsgs_serial bsgs_deserial bs_table bs_m bs_inverse_point] in *.
    rewrite <- Hl. rewrite <- (app_nil_r t) at 2. rewrite read_entries_all; [reflexivity|exact Hd|].
    intros e q _ [].
  Qed.

  Lemma table_entries_in n : forall j0 q, In q (table_entries G gadd n base (nm j0 base) j0) ->
    exists j, j0 <= j < j0 + N.of_nat n /\ q = (nm j base, j).
  Proof.
    induction n as [|n IH]; intros j0 q Hq; cbn [table_entries] in Hq; [contradiction|].
    rewrite Nat2N.inj_succ. destruct Hq as [<-|Hq].
    - exists j0. split; [lia|reflexivity].
    - rewrite <- nmul_succ1 in Hq. destruct (IH _ _ Hq) as (j & Hj & ->). exists j. split; [lia|reflexivity].
  Qed.
  Lemma table_entries_length n : forall cur j0, length (table_entries G gadd n base cur j0) = n.
  Proof. induction n as [|n IH]; intros cur j0; cbn [table_entries length]; [reflexivity|]. now rewrite IH. Qed.
  Lemma table_entries_distinct n : forall j0, j0 + N.of_nat n <= bound ->
    keys_distinct (table_entries G gadd n base (nm j0 base) j0).
  Proof.
    induction n as [|n IH]; intros j0 Hb; cbn [table_entries keys_distinct]; [exact I|].
    rewrite Nat2N.inj_succ in Hb. rewrite <- nmul_succ1. split; [|apply IH; lia].
    intros q Hq. destruct (table_entries_in _ _ _ Hq) as (j & Hj & ->). cbn [fst]. intro E.
    apply base_inj in E; lia.
  Qed.

  (** a freshly built table of ANY size m <= bound survives serialisation: all m entries are read back *)
  Theorem bsgs_deserial_serial : bsgs_deserial G geqb (bsgs_serial G tb) = Some tb.
  Proof.
    apply bsgs_deserial_serial_gen.
    - rewrite bsgs_new_table. apply table_entries_distinct. rewrite N2Nat.id. lia.
    - cbn [bsgs_new bs_table bs_m]. apply table_entries_length.
  Qed.
  (** ... and a stream with fewer than m entries is refused, never silently truncated *)
  Theorem bsgs_deserial_short_stream (inv : G) (stream : list (G * N)) :
    (length stream < N.to_nat m)%nat -> bsgs_deserial G geqb (m, inv, stream) = None.
  Proof.
    intros Hl. cbn [bsgs_deserial].
    assert (R : forall n s acc, (length s < n)%nat -> read_entries G geqb n s acc = None).
    { induction n as [|n IH]; intros s acc Hs; [lia|]. cbn [read_entries]. destruct s as [|[p j] s]; [reflexivity|].
      destruct (existsb _ acc); [reflexivity|]. apply IH. cbn [length] in Hs. lia. }
    now rewrite R.
  Qed.
End BsgsProofs.

(** the hypothesis [m <= bound] is a genuine precondition: in Z/5 with base 1 (order 5) a table of
    size 10 holds j and j+5 under one key, the later insertion wins, and 3*base is "decrypted" to 8 *)
Example bsgs_wrong_when_table_exceeds_order :
  let gadd := fun a b : N => (a + b) mod 5 in
  let gopp := fun a : N => (5 - a) mod 5 in
  discrete_log N gadd N.eqb 3 (bsgs_new N 0 gadd gopp 1 10) (nmul N 0 gadd 3 1) = DlFound 8.
Proof. vm_compute. reflexivity. Qed.
