(** sigma_protocols/dlog.rs: knowledge of [w] with [public = w * coeff].
    Response style: [z = c*w + rho] ([RespPlus]); reconstruction [z*coeff - c*public]. *)
From Coq Require Import NArith List String.
From CB Require Import Crypto.Alg Crypto.Transcript Crypto.TranscriptProofs Crypto.SigmaGeneric Crypto.SigmaCodec.
Import ListNotations.

Record dlog_stmt {K : FieldOps} (M : ModOps K) := mkDlog { dl_public : M; dl_coeff : M }.
Arguments mkDlog {K M} _ _. Arguments dl_public {K M} _. Arguments dl_coeff {K M} _.

Section Dlog.
  Context {K : FieldOps} {M : ModOps K} (Cd : CodecOps M).
  Local Open Scope G_scope.

  (** [fn public]: ro.append_message("public", &self.public); ro.append_message("coeff", &self.coeff) *)
  Definition dlog_public (k : tkind) (s : dlog_stmt M) : bytes :=
    msg k (str "public") (serG Cd (dl_public s)) ++ msg k (str "coeff") (serG Cd (dl_coeff s)).
  (** [compute_commit_message]: coeff * rand_scalar *)
  Definition dlog_commit (s : dlog_stmt M) (r : K) : option M := Some (r *: dl_coeff s).
  (** [compute_response]: challenge * secret + state *)
  Definition dlog_respond (s : dlog_stmt M) (w r c : K) : option K := Some (Fadd K (Fmul K c w) r).
  (** [extract_commit_message]: coeff * response - public * challenge *)
  Definition dlog_extract (s : dlog_stmt M) (c z : K) : option M :=
    Some (z *: dl_coeff s - c *: dl_public s).

  Definition dlog_proto : proto K := {|
    p_stmt := dlog_stmt M; p_wit := K; p_rand := K; p_cm := M; p_resp := K;
    p_public := dlog_public; p_commit := dlog_commit; p_respond := dlog_respond;
    p_extract := dlog_extract; p_ser_cm := serG Cd; p_ser_resp := serF Cd |}.

  Definition dlog_rel (s : dlog_stmt M) (w : K) : Prop := dl_public s = w *: dl_coeff s.
  (** recover the prover's randomness from a response (used by the correspondence check) *)
  Definition dlog_recover (s : dlog_stmt M) (w c z : K) : K := Fsub K z (Fmul K c w).

  (** the linear map: one row, one column *)
  Definition dlog_A (s : dlog_stmt M) : list (list M) := [[dl_coeff s]].
  Definition dlog_y (s : dlog_stmt M) : list M := [dl_public s].

  Context {KL : FieldLaws K} {ML : ModLaws M}.
  Add Field Kf_dlog : (@F_th K KL).

  Lemma dlog_commit_generic s r a : dlog_commit s r = Some a -> [a] = m_commit (dlog_A s) [r].
  Proof. intro E. injection E as <-. cbn. f_equal. mod_norm. Qed.
  Lemma dlog_respond_generic s w r c z :
    dlog_respond s w r c = Some z -> [z] = m_respond RespPlus c [w] [r].
  Proof. intro E. injection E as <-. cbn. f_equal. ring. Qed.
  Lemma dlog_extract_generic s c z a :
    dlog_extract s c z = Some a -> [a] = m_reconstruct RespPlus (dlog_A s) (dlog_y s) c [z].
  Proof. intro E. injection E as <-. cbn. f_equal. mod_norm. Qed.
  Lemma dlog_rel_generic s w : dlog_rel s w <-> phi (dlog_A s) [w] = dlog_y s.
  Proof.
    unfold dlog_rel, phi, dlog_A, dlog_y. cbn. rewrite Gadd_0_r. split; [intros ->; reflexivity|intro E; now injection E].
  Qed.

  (** completeness for every witness, randomness and challenge *)
  Theorem dlog_complete_ : complete dlog_proto dlog_rel (fun _ _ => True).
  Proof.
    intros s w r Hrel _. eexists. split; [reflexivity|]. intro c. eexists. split; [reflexivity|].
    cbn. unfold dlog_extract. f_equal. rewrite Hrel. mod_norm.
  Qed.

  (** special soundness, as a corollary of the generic theorem through [dlog_extract_generic] *)
  Definition dlog_extractor (s : dlog_stmt M) (c c' z z' : K) : K :=
    hd (F0 K) (m_extract RespPlus c c' [z] [z']).
  Theorem dlog_special_sound_ : special_sound dlog_proto dlog_rel dlog_extractor.
  Proof.
    intros s a c c' z z' Hc E E'. apply dlog_rel_generic.
    pose proof (dlog_extract_generic s c z a E) as G1. pose proof (dlog_extract_generic s c' z' a E') as G2.
    exact (sigma_special_sound_ RespPlus (dlog_A s) (dlog_y s) [a] c c' [z] [z'] Hc eq_refl eq_refl
             (eq_sym G1) (eq_sym G2)).
  Qed.

  (** [public] covers both fields of the statement, under both framings *)
  Context {CL : CodecLaws Cd}.
  Theorem dlog_public_prefix_free_ : forall k, public_prefix_free dlog_proto k (fun _ => True).
  Proof.
    intro k. apply (pf_iso (fun s => (dl_public s, dl_coeff s)) (pf_app (pf_msg (pf_serG Cd)) (pf_msg (pf_serG Cd)))).
    - intros [] [] [= -> ->]. reflexivity.
    - repeat split.
  Qed.
  (** the dlog frame is three labelled messages with fixed-length payloads: the hypothesis of
      [context_binding_v1_any_length_] is satisfiable (and satisfied) *)
  Definition fixed_len_schema (n : nat) : schema := fun _ p => List.length p = n.
  Lemma fixed_len_schema_pf n : schema_prefix_free (fixed_len_schema n).
  Proof. intro l. apply (fixed_length_prefix_free _ n). auto. Qed.
  Theorem dlog_frame_is_messages_ : frame_is_messages dlog_proto (fixed_len_schema (glen Cd)) 3.
  Proof.
    intros s a. exists [(str "public", serG Cd (dl_public s)); (str "coeff", serG Cd (dl_coeff s)); (str "point", serG Cd a)].
    split; [|split; [reflexivity|]].
    - repeat constructor; cbn; try apply serG_len; unfold short, W64; vm_compute; reflexivity.
    - cbn. unfold dlog_public, enc_lmsg. cbn [fst snd]. now rewrite <- !app_assoc, app_nil_r.
  Qed.
End Dlog.
