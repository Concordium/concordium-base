(** C08 - proofs about the identity pipeline model (IdPipeline.v), with the notions their statements
    are phrased in ([hide], [enc_chunks]/[dec_chunks], [complete], [self_delimiting], [same_shape]). *)
From Coq Require Import List ZArith Bool Lia Field.
From CB Require Import Crypto.Shamir Crypto.ElGamalExp Crypto.ShamirProofs Crypto.IdShamirProofs Crypto.IdPipeline Crypto.TranscriptProofs Crypto.RangeStmtProofs.
Import ListNotations.

Section Revocation.
  Variable F : Type.
  Variables (f0 f1 : F) (fadd fmul fsub : F -> F -> F) (fopp : F -> F) (fdiv : F -> F -> F) (finv_t : F -> F).
  Hypothesis Ffield : field_theory f0 f1 fadd fmul fsub fopp fdiv finv_t (@eq F).
  Variable finv : F -> option F.
  Hypothesis finv_zero : finv f0 = None.
  Hypothesis finv_nonzero : forall x, x <> f0 -> finv x = Some (finv_t x).
  Variable G : Type.
  Variables (gzero : G) (gadd : G -> G -> G) (gopp : G -> G) (smul : F -> G -> G).
  Hypothesis gadd_assoc : forall a b c, gadd a (gadd b c) = gadd (gadd a b) c.
  Hypothesis gadd_comm : forall a b, gadd a b = gadd b a.
  Hypothesis gadd_0_l : forall a, gadd gzero a = a.
  Hypothesis gadd_opp : forall a, gadd a (gopp a) = gzero.
  Hypothesis smul_add_l : forall x y a, smul (fadd x y) a = gadd (smul x a) (smul y a).
  Hypothesis smul_add_r : forall x a b, smul x (gadd a b) = gadd (smul x a) (smul x b).
  Hypothesis smul_mul : forall x y a, smul (fmul x y) a = smul x (smul y a).
  Hypothesis smul_1 : forall a, smul f1 a = a.
  Variables (g h : G).

  Let Fring : ring_theory f0 f1 fadd fmul fsub fopp (@eq F) := F_R Ffield.
  Add Field FF : Ffield.

  Local Notation evalS := (eval_share F f0 fadd fmul).
  Local Notation pointOf := (fun ac : revoker F * cipher G => ar_point F (fst ac)).
  Local Notation encOf secret coeffs a k :=
    (encrypt_exp F G gadd smul g h (ar_pk F G smul g a) (evalS secret coeffs (ar_point F a)) k).

  Lemma decrypt_share_enc secret coeffs (a : revoker F) k :
    decrypt_share F G gadd gopp smul (a, encOf secret coeffs a k)
    = (ar_point F a, smul (evalS secret coeffs (ar_point F a)) h).
  Proof.
    unfold decrypt_share, ar_pk; cbn [fst snd]. f_equal.
    eapply encrypt_exp_decrypt; eassumption.
  Qed.

  Lemma In_enc_shares secret coeffs ars : forall ks ac,
    In ac (enc_shares F f0 fadd fmul G gadd smul g h secret coeffs ars ks) ->
    exists k, snd ac = encOf secret coeffs (fst ac) k.
  Proof.
    induction ars as [|a ars IH]; intros [|k ks] ac Hin; cbn [enc_shares] in Hin; try contradiction.
    destruct Hin as [<-|Hin]; [exists k; reflexivity | eapply IH; eassumption].
  Qed.

  Lemma decrypt_sel secret coeffs : forall sel : list (revoker F * cipher G),
    (forall ac, In ac sel -> exists k, snd ac = encOf secret coeffs (fst ac) k) ->
    map (decrypt_share F G gadd gopp smul) sel
    = List.combine (map pointOf sel)
              (map (fun s => smul s h) (share F f0 fadd fmul secret coeffs (map pointOf sel))).
  Proof.
    intros sel Hsel. unfold share. rewrite map_map, combine_map_self, map_map.
    apply map_ext_in. intros [a c] Hin. destruct (Hsel _ Hin) as [k Hk]. cbn [fst snd] in Hk. subst c.
    rewrite decrypt_share_enc. reflexivity.
  Qed.

  (** Every list [sel] of (revoker, ciphertext) pairs, each ciphertext an encryption to that revoker of
      its share of [secret], at pairwise distinct points, with at least threshold
      (= [length coeffs + 1]) members, reconstructs [secret * h]. *)
  Theorem revocation_correct_any secret coeffs (sel : list (revoker F * cipher G)) :
    (forall ac, In ac sel -> exists k, snd ac = encOf secret coeffs (fst ac) k) ->
    NoDup (map pointOf sel) -> (length coeffs < length sel)%nat ->
    revoke_in_group F f1 fmul fsub finv G gzero gadd gopp smul sel = smul secret h.
  Proof.
    intros Hsel Hnd Hlen. unfold revoke_in_group. rewrite (decrypt_sel secret coeffs sel Hsel).
    eapply shamir_reveal_group_gen; try eassumption. rewrite map_length. exact Hlen.
  Qed.

  (** The form used by the pipeline: the credential carries [enc_shares] for all chosen revokers;
      any sub-collection of them (in any order) of size >= threshold reveals [secret * h]. *)
  Theorem revocation_correct_subset secret coeffs ars ks (sel : list (revoker F * cipher G)) :
    incl sel (enc_shares F f0 fadd fmul G gadd smul g h secret coeffs ars ks) ->
    NoDup (map pointOf sel) -> (length coeffs < length sel)%nat ->
    revoke_in_group F f1 fmul fsub finv G gzero gadd gopp smul sel = smul secret h.
  Proof.
    intros Hincl. apply revocation_correct_any. intros ac Hin. eapply In_enc_shares. apply Hincl, Hin.
  Qed.

  (** PRF key: the revokers decrypt their shares down to scalars; [reveal_prf_key] = [reveal]. *)
  Theorem revocation_correct_scalar secret coeffs pts :
    NoDup pts -> (length coeffs < length pts)%nat ->
    revoke_scalar F f0 f1 fadd fmul fsub finv (List.combine pts (share F f0 fadd fmul secret coeffs pts)) = secret.
  Proof. intros. unfold revoke_scalar. eapply shamir_reveal_field_gen; eassumption. Qed.

  (** A commitment to [b] minus a commitment to [a] is a commitment to [b - a] under the difference of
      the randomness: the opening that [prove_less_than_or_equal] uses. *)
  Definition hide (x rnd : F) : G := gadd (smul x g) (smul rnd h).
  Lemma smul_sub_l x y a : smul (fsub x y) a = gsub G gadd gopp (smul x a) (smul y a).
  Proof.
    replace (smul x a) with (gadd (smul (fsub x y) a) (smul y a)) by (rewrite <- smul_add_l; f_equal; ring).
    symmetry. eapply gadd_cancel_r; eassumption.
  Qed.
  Theorem commitment_difference a b ra rb :
    gsub G gadd gopp (hide b rb) (hide a ra) = hide (fsub b a) (fsub rb ra).
  Proof.
    unfold hide. rewrite !smul_sub_l. unfold gsub.
    rewrite (gopp_add G gzero gadd gopp gadd_assoc gadd_comm gadd_0_l gadd_opp).
    apply (gadd_swap4 G gadd gadd_assoc gadd_comm).
  Qed.
End Revocation.

Local Open Scope N_scope.
Lemma from_to_chunks : forall n x, x < 2 ^ (chunk_bits * N.of_nat n) -> from_chunks (to_chunks n x) = x.
Proof.
  induction n as [|n IH]; intros x Hx.
  - cbn in *. lia.
  - cbn [to_chunks from_chunks]. rewrite IH.
    + rewrite N.add_comm. symmetry. rewrite N.mul_comm. rewrite (N.mul_comm (x / _)). apply N.div_mod'.
    + apply N.div_lt_upper_bound; [apply N.pow_nonzero; discriminate|].
      rewrite <- N.pow_add_r. replace (chunk_bits + chunk_bits * N.of_nat n) with (chunk_bits * N.of_nat (S n)) by lia.
      exact Hx.
Qed.

Lemma to_chunks_bound : forall n x, Forall (fun c => c < 2 ^ chunk_bits) (to_chunks n x).
Proof.
  induction n as [|n IH]; intros x; cbn [to_chunks]; constructor; [|apply IH].
  apply N.mod_lt. apply N.pow_nonzero. discriminate.
Qed.

Lemma to_chunks_length : forall n x, length (to_chunks n x) = n.
Proof. induction n as [|n IH]; intros x; cbn [to_chunks length]; [reflexivity | f_equal; apply IH]. Qed.

Theorem prf_share_chunks_roundtrip : forall x, x < 2 ^ 256 ->
  from_chunks (prf_share_chunks x) = x /\ length (prf_share_chunks x) = 8%nat
  /\ Forall (fun c => c < 2 ^ 32) (prf_share_chunks x).
Proof.
  intros x Hx. unfold prf_share_chunks. split; [|split].
  - apply from_to_chunks. exact Hx.
  - apply to_chunks_length.
  - apply to_chunks_bound.
Qed.
Local Close Scope N_scope.

(** Each chunk is encrypted in the exponent and recovered by the discrete-log table. *)
Section ChunkDecrypt.
  Variable F : Type.
  Variables (f0 f1 : F) (fadd fmul fsub : F -> F -> F) (fopp : F -> F).
  Hypothesis Fring : ring_theory f0 f1 fadd fmul fsub fopp (@eq F).
  Variable G : Type.
  Variables (gzero : G) (gadd : G -> G -> G) (gopp : G -> G) (smul : F -> G -> G).
  Hypothesis gadd_assoc : forall a b c, gadd a (gadd b c) = gadd (gadd a b) c.
  Hypothesis gadd_comm : forall a b, gadd a b = gadd b a.
  Hypothesis gadd_0_l : forall a, gadd gzero a = a.
  Hypothesis gadd_opp : forall a, gadd a (gopp a) = gzero.
  Hypothesis smul_mul : forall x y a, smul (fmul x y) a = smul x (smul y a).
  Variables (g h : G).
  Variable dlog : G -> N.
  Hypothesis dlog_spec : forall x, (x < 2 ^ 32)%N -> dlog (smul (f_of_N F f0 f1 fadd fmul x) h) = x.

  Fixpoint enc_chunks (pk : G) (cs : list N) (ks : list F) : list (cipher G) :=
    match cs, ks with
    | c :: cs', k :: ks' => encrypt_exp F G gadd smul g h pk (f_of_N F f0 f1 fadd fmul c) k :: enc_chunks pk cs' ks'
    | _, _ => []
    end.
  Definition dec_chunks (sk : F) (cs : list (cipher G)) : list N :=
    map (decrypt_chunk F G gadd gopp smul dlog sk) cs.

  Lemma dec_enc_chunks sk : forall cs ks, length ks = length cs -> Forall (fun c => (c < 2 ^ 32)%N) cs ->
    dec_chunks sk (enc_chunks (pk_of F G smul g sk) cs ks) = cs.
  Proof.
    induction cs as [|c cs IH]; intros [|k ks] Hl Hb; try discriminate; [reflexivity|].
    inversion Hb; subst. cbn [enc_chunks dec_chunks map]. f_equal.
    - unfold decrypt_chunk. erewrite encrypt_exp_decrypt by eassumption. apply dlog_spec. assumption.
    - apply IH; [cbn in Hl; lia | assumption].
  Qed.

  (** A revoker recovers its PRF key share from the eight encrypted chunks. *)
  Theorem prf_share_decrypt sk x ks : (x < 2 ^ 256)%N -> length ks = 8%nat ->
    from_chunks (dec_chunks sk (enc_chunks (pk_of F G smul g sk) (prf_share_chunks x) ks)) = x.
  Proof.
    intros Hx Hk. destruct (prf_share_chunks_roundtrip x Hx) as (Hr & Hl & Hb).
    rewrite dec_enc_chunks; [exact Hr | lia | exact Hb].
  Qed.
End ChunkDecrypt.

Local Open Scope Z_scope.

Lemma range_stmt_mod r w a b : 0 < 2 ^ w <= r ->
  (range_stmt r w a b <-> 0 <= (b - a) mod r < 2 ^ w /\ 0 <= a mod r < 2 ^ w).
Proof.
  intros Hr. unfold range_stmt. split.
  - intros (v1 & v2 & H1 & H2 & E1 & E2).
    rewrite (Z.mod_small v1) in E1 by lia. rewrite (Z.mod_small v2) in E2 by lia. lia.
  - intros [H1 H2]. exists ((b - a) mod r), (a mod r). rewrite !Z.mod_mod by lia. auto.
Qed.

Theorem range_stmt_exact r w a b : 0 < 2 ^ w <= r ->
  - (r - 2 ^ w) <= b - a < r -> - (r - 2 ^ w) <= a < r ->
  (range_stmt r w a b <-> 0 <= b - a < 2 ^ w /\ 0 <= a < 2 ^ w).
Proof.
  intros Hr Hd Ha. rewrite range_stmt_mod by exact Hr. exact (leq_committed_iff r w a b Hr Hd Ha).
Qed.

(** For 64-bit inputs: the statement holds iff a <= b and both range-proved values fit. *)
Theorem range_stmt_u64 : forall r a b, 2 ^ 65 <= r -> 0 <= a < 2 ^ 64 -> 0 <= b < 2 ^ 64 ->
  (range_stmt r counter_width a b <-> (a <= b /\ a < 2 ^ 8 /\ b - a < 2 ^ 8)).
Proof. intros r a b Hr Ha Hb. unfold counter_width. rewrite range_stmt_exact by lia. lia. Qed.

(** For the types in the code ([cred_counter : u8], [max_accounts : u8]): exactly [counter <= max]. *)
Theorem counter_boundary_thm : forall r a b, 2 ^ 9 <= r -> 0 <= a < 2 ^ 8 -> 0 <= b < 2 ^ 8 ->
  (range_stmt r counter_width a b <-> a <= b).
Proof. intros r a b Hr Ha Hb. unfold counter_width. rewrite range_stmt_exact by lia. lia. Qed.

Theorem counter_boundary_dec : forall r a b, 2 ^ 9 <= r -> 0 <= a < 2 ^ 8 -> 0 <= b < 2 ^ 8 ->
  range_stmt_dec r a b = counter_ok a b.
Proof.
  intros r a b Hr Ha Hb. apply Bool.eq_iff_eq_true. unfold range_stmt_dec, counter_ok.
  rewrite andb_true_iff, !Z.ltb_lt, Z.leb_le, <- (counter_boundary_thm r a b) by assumption.
  rewrite range_stmt_mod by (unfold counter_width; lia).
  pose proof (Z.mod_pos_bound (b - a) r). pose proof (Z.mod_pos_bound a r). lia.
Qed.

(** The prover's checked subtraction is defined exactly when the statement is true. *)
Theorem prover_difference_defined : forall a b,
  (exists d, prover_difference_checked a b = Some d /\ d = b - a) <-> a <= b.
Proof.
  intros a b. unfold prover_difference_checked. destruct (Z.ltb_spec b a); split.
  - intros (d & E & _). discriminate.
  - lia.
  - lia.
  - intros _. eexists; split; reflexivity.
Qed.

(** Distinct non-zero 32-bit revoker identities are distinct non-zero scalars (r > 2^32). *)
Theorem ar_points_distinct : forall r x y, 2 ^ 32 <= r -> 0 < x < 2 ^ 32 -> 0 < y < 2 ^ 32 ->
  x mod r <> 0 /\ (x <> y -> x mod r <> y mod r).
Proof.
  intros r x y Hr Hx Hy. rewrite (Z.mod_small x r) by lia. rewrite (Z.mod_small y r) by lia. lia.
Qed.
Local Close Scope Z_scope.

Section SigmaComplete.
  Variable Chal : Type.
  Arguments s_rel {Chal W R M Z}. Arguments s_rok {Chal W R M Z}. Arguments s_commit {Chal W R M Z}.
  Arguments s_respond {Chal W R M Z}. Arguments s_extract {Chal W R M Z}.

  Definition complete {W R M Z} (p : sigma Chal W R M Z) : Prop :=
    forall w rho c, s_rel p w -> s_rok p rho -> s_extract p c (s_respond p w rho c) = Some (s_commit p rho).

  Lemma and_complete {W1 R1 M1 Z1 W2 R2 M2 Z2} (p : sigma Chal W1 R1 M1 Z1) (q : sigma Chal W2 R2 M2 Z2) :
    complete p -> complete q -> complete (and_adapter Chal p q).
  Proof.
    intros Hp Hq [w1 w2] [r1 r2] c [Hw1 Hw2] [Hr1 Hr2]. cbn in *.
    rewrite (Hp w1 r1 c Hw1 Hr1), (Hq w2 r2 c Hw2 Hr2). reflexivity.
  Qed.

  Lemma replicate_complete {W R M Z} (ps : list (sigma Chal W R M Z)) :
    Forall complete ps -> complete (replicate_adapter Chal ps).
  Proof.
    intros Hall. unfold complete. cbn [s_rel s_rok s_extract s_respond s_commit replicate_adapter].
    induction Hall as [|p ps Hp Hps IH]; intros ws rs c Hw Hr.
    - destruct ws, rs; cbn in *; try contradiction. reflexivity.
    - destruct ws as [|w ws], rs as [|r rs]; cbn in *; try contradiction.
      destruct Hw as [Hw Hws]. destruct Hr as [Hr Hrs].
      rewrite (Hp w r c Hw Hr). rewrite (IH ws rs c Hws Hrs). reflexivity.
  Qed.

  Variable H : list N -> list N.
  Variable chal : list N -> Chal.
  Variable bytes_eqb : list N -> list N -> bool.
  Hypothesis bytes_eqb_refl : forall x, bytes_eqb x x = true.
  Hypothesis bytes_eqb_eq : forall x y, bytes_eqb x y = true -> x = y.

  Theorem fs_complete {W R M Z} (p : sigma Chal W R M Z) prefix pub (encM : M -> list N) w rho :
    complete p -> s_rel p w -> s_rok p rho ->
    fs_verify Chal H chal bytes_eqb p prefix pub encM (fs_prove Chal H chal p prefix pub encM w rho) = true.
  Proof.
    intros Hc Hw Hr. unfold fs_verify, fs_prove; cbn [fst snd].
    rewrite (Hc w rho _ Hw Hr). apply bytes_eqb_refl.
  Qed.

  (** Acceptance pins the challenge to the hash of the transcript. *)
  Theorem fs_verify_hash {W R M Z} (p : sigma Chal W R M Z) prefix pub (encM : M -> list N) proof :
    fs_verify Chal H chal bytes_eqb p prefix pub encM proof = true ->
    exists m, s_extract p (chal (fst proof)) (snd proof) = Some m
              /\ H (fs_input prefix pub encM m) = fst proof.
  Proof.
    unfold fs_verify. destruct (s_extract p (chal (fst proof)) (snd proof)) as [m|]; [|discriminate].
    intros E. exists m. split; [reflexivity | apply bytes_eqb_eq, E].
  Qed.

  (** [verify_cdi] accepts the credential made by [create_credential]: composition of the completeness
      of the three sigma protocols (hypotheses), of the range proof for a true statement and of the
      account-ownership signatures (hypotheses). *)
  Section Cdi.
    Variables W1 R1 M1 Z1 W2 R2 M2 Z2 W3 R3 M3 Z3 : Type.
    Variable com_mult : sigma Chal W1 R1 M1 Z1.            (* reg_id = PRF(K, counter) *)
    Variable com_eq_sig : sigma Chal W2 R2 M2 Z2.          (* knowledge of the provider's signature *)
    Variable com_enc_eqs : list (sigma Chal W3 R3 M3 Z3).  (* one per revoker: share encrypted = share committed *)
    Hypothesis com_mult_complete : complete com_mult.
    Hypothesis com_eq_sig_complete : complete com_eq_sig.
    Hypothesis com_enc_eq_complete : Forall complete com_enc_eqs.
    Variables RangeProof SigT Msg : Type.
    Variable range_prove : Z -> Z -> RangeProof.
    Variable range_verify : RangeProof -> bool.
    Hypothesis range_complete : forall a b, counter_ok a b = true -> range_verify (range_prove a b) = true.
    Variable acc_sign : Msg -> SigT.
    Variable acc_verify : Msg -> SigT -> bool.
    Hypothesis acc_sig_complete : forall m, acc_verify m (acc_sign m) = true.

    Theorem cdi_complete_partial_thm :
      forall (threshold : nat) prefix pub encM (w : (W1 * W2) * list W3) (rho : (R1 * R2) * list R3)
             (counter max_accounts : Z) (msg : Msg),
        s_rel com_mult (fst (fst w)) -> s_rel com_eq_sig (snd (fst w)) -> rep_rel Chal com_enc_eqs (snd w) ->
        s_rok com_mult (fst (fst rho)) -> s_rok com_eq_sig (snd (fst rho)) -> rep_rok Chal com_enc_eqs (snd rho) ->
        (counter <= max_accounts)%Z ->
        verify_cdi_shape Chal H chal bytes_eqb threshold threshold com_mult com_eq_sig com_enc_eqs prefix pub encM
          (fs_prove Chal H chal (and_adapter Chal (and_adapter Chal com_mult com_eq_sig) (replicate_adapter Chal com_enc_eqs))
                    prefix pub encM w rho)
          (range_verify (range_prove counter max_accounts)) (acc_verify msg (acc_sign msg)) = true.
    Proof.
      intros t prefix pub encM [[w1 w2] w3] [[r1 r2] r3] counter maxa msg Hw1 Hw2 Hw3 Hr1 Hr2 Hr3 Hle.
      cbn [fst snd] in *. unfold verify_cdi_shape.
      rewrite Nat.eqb_refl. rewrite fs_complete.
      - rewrite range_complete by (unfold counter_ok; apply Z.leb_le; exact Hle).
        rewrite acc_sig_complete. reflexivity.
      - apply and_complete; [apply and_complete; assumption | apply replicate_complete; assumption].
      - cbn. tauto.
      - cbn. tauto.
    Qed.
  End Cdi.

  (** The first check of [verify_cdi]: threshold must equal the number of coefficient commitments. *)
  Lemma threshold_mismatch_rejected {W1 R1 M1 Z1 W2 R2 M2 Z2 W3 R3 M3 Z3}
      (p1 : sigma Chal W1 R1 M1 Z1) (p2 : sigma Chal W2 R2 M2 Z2) (p3 : list (sigma Chal W3 R3 M3 Z3))
      (threshold ncoeff : nat) prefix pub encM proof rg sg :
    threshold <> ncoeff ->
    verify_cdi_shape Chal H chal bytes_eqb threshold ncoeff p1 p2 p3 prefix pub encM proof rg sg = false.
  Proof.
    intros Hne. unfold verify_cdi_shape. destruct (Nat.eqb_spec threshold ncoeff); [contradiction | reflexivity].
  Qed.
End SigmaComplete.

Section TranscriptBinding.
  (** An encoder is self-delimiting when a value can be parsed off the front of a byte string in only
      one way - the property [Deserial] gives for every [Serial] type in the transcript (C05). *)
  Definition self_delimiting {A} (enc : A -> bytes) : Prop :=
    forall x y r s, enc x ++ r = enc y ++ s -> x = y /\ r = s.

  Lemma sd_list {A} (enc : A -> bytes) : self_delimiting enc ->
    forall xs ys r s, length xs = length ys ->
      concat (map enc xs) ++ r = concat (map enc ys) ++ s -> xs = ys /\ r = s.
  Proof.
    intros Hsd xs ys r s Hl.
    exact (pf_concat_n (fun _ => True) enc (length ys) (fun a a' x y _ _ => Hsd a a' x y) xs ys r s
             (conj Hl (Forall_True xs)) (conj eq_refl (Forall_True ys))).
  Qed.

  Variables Values Addr Ctx Cmm Key BSig PsKey Ciph Pk : Type.
  Variable enc_values : Values -> bytes.
  Variable enc_addr : option Addr -> bytes.
  Variable enc_ctx : Ctx -> bytes.
  Variable enc_cmm : Cmm -> bytes.
  Variable enc_key : Key -> bytes.
  Variable enc_bsig : BSig -> bytes.
  Variable enc_pskey : PsKey -> bytes.
  Variable enc_ciph : Ciph -> bytes.
  Variable enc_pk : Pk -> bytes.
  Hypothesis sd_values : self_delimiting enc_values.
  Hypothesis sd_addr : self_delimiting enc_addr.
  Hypothesis sd_ctx : self_delimiting enc_ctx.
  Hypothesis sd_cmm : self_delimiting enc_cmm.
  Hypothesis sd_key : self_delimiting enc_key.
  Hypothesis sd_bsig : self_delimiting enc_bsig.
  Hypothesis sd_pskey : self_delimiting enc_pskey.
  Hypothesis sd_ciph : self_delimiting enc_ciph.
  Hypothesis sd_pk : self_delimiting enc_pk.
  Variables (L_domain L_cred_values L_address L_global_context L_cmms L_cmm_key L_blinded_sig
             L_commitments L_ps_pub_key L_comm_key L_cipher L_commitment L_pub_key : bytes).

  Local Notation public := (cdi_public Values Addr Ctx Cmm Key BSig PsKey Ciph Pk).
  Local Notation transcript :=
    (cdi_transcript Values Addr Ctx Cmm Key BSig PsKey Ciph Pk enc_values enc_addr enc_ctx enc_cmm enc_key
       enc_bsig enc_pskey enc_ciph enc_pk L_domain L_cred_values L_address L_global_context L_cmms L_cmm_key
       L_blinded_sig L_commitments L_ps_pub_key L_comm_key L_cipher L_commitment L_pub_key).
  Local Notation ar_its := (ar_items Cmm Key Ciph Pk enc_cmm enc_key enc_ciph enc_pk L_cmm_key L_cipher L_commitment L_pub_key).

  (** The two variable-length parts (the commitments of the signature statement, the revokers) carry no
      count in the legacy framing; they are compared at equal lengths (see design/C08.md). *)
  Definition same_shape (p q : public) : Prop :=
    length (p_sig_cmms _ _ _ _ _ _ _ _ _ p) = length (p_sig_cmms _ _ _ _ _ _ _ _ _ q)
    /\ length (p_ars _ _ _ _ _ _ _ _ _ p) = length (p_ars _ _ _ _ _ _ _ _ _ q).

  Lemma ars_inj : forall (xs ys : list (Ciph * Cmm * Pk * Key)) r s, length xs = length ys ->
    flatten (concat (map ar_its xs)) ++ r = flatten (concat (map ar_its ys)) ++ s -> xs = ys /\ r = s.
  Proof.
    induction xs as [|[[[c m] k] ck] xs IH]; intros [|[[[c' m'] k'] ck'] ys] r s Hl E; try discriminate.
    - cbn in E. split; [reflexivity | exact E].
    - injection Hl as Hl. unfold flatten in E. cbn [map concat ar_items app fst snd] in E.
      repeat rewrite <- app_assoc in E. cbn [app] in E. repeat rewrite <- app_assoc in E.
      apply app_inv_head in E. destruct (sd_ciph _ _ _ _ E) as [-> E1].
      apply app_inv_head in E1. destruct (sd_cmm _ _ _ _ E1) as [-> E2].
      apply app_inv_head in E2. destruct (sd_pk _ _ _ _ E2) as [-> E3].
      apply app_inv_head in E3. destruct (sd_key _ _ _ _ E3) as [-> E4].
      destruct (IH ys r s Hl E4) as [-> ->]. split; reflexivity.
  Qed.

  Theorem cdi_transcript_injective : forall (p q : public) r s, same_shape p q ->
    transcript p ++ r = transcript q ++ s -> p = q /\ r = s.
  Proof.
    intros [v a c [[c0 c1] c2] mk bs cms psk sk ars] [v' a' c' [[c0' c1'] c2'] mk' bs' cms' psk' sk' ars'] r s [Hs1 Hs2] E.
    cbn [p_sig_cmms p_ars] in Hs1, Hs2.
    unfold cdi_transcript, cdi_items, flatten in E.
    cbn [p_values p_addr p_ctx p_cmms p_mult_key p_bsig p_sig_cmms p_pskey p_sig_key p_ars] in E.
    rewrite !map_app, !concat_app in E. cbn [map concat app fst snd] in E.
    repeat rewrite <- app_assoc in E. cbn [app] in E. repeat rewrite <- app_assoc in E.
    apply app_inv_head in E.                                   (* domain *)
    apply app_inv_head in E. destruct (sd_values _ _ _ _ E) as [-> E1].
    apply app_inv_head in E1. destruct (sd_addr _ _ _ _ E1) as [-> E2].
    apply app_inv_head in E2. destruct (sd_ctx _ _ _ _ E2) as [-> E3].
    apply app_inv_head in E3. destruct (sd_cmm _ _ _ _ E3) as [-> E4].
    destruct (sd_cmm _ _ _ _ E4) as [-> E5]. destruct (sd_cmm _ _ _ _ E5) as [-> E6].
    apply app_inv_head in E6. destruct (sd_key _ _ _ _ E6) as [-> E7].
    apply app_inv_head in E7. destruct (sd_bsig _ _ _ _ E7) as [-> E8].
    apply app_inv_head in E8. destruct (sd_list enc_cmm sd_cmm _ _ _ _ Hs1 E8) as [-> E9].
    apply app_inv_head in E9. destruct (sd_pskey _ _ _ _ E9) as [-> E10].
    apply app_inv_head in E10. destruct (sd_key _ _ _ _ E10) as [-> E11].
    fold (flatten (concat (map ar_its ars))) in E11. fold (flatten (concat (map ar_its ars'))) in E11.
    destruct (ars_inj _ _ _ _ Hs2 E11) as [-> ->]. split; reflexivity.
  Qed.

  (** Accepting two different public inputs with one challenge exhibits a hash collision: the two
      hashed strings are the transcripts followed by the ("point", first message) items. *)
  Theorem cdi_fields_bound_thm : forall (H : bytes -> bytes) (p q : public) (tail_p tail_q c : bytes),
    same_shape p q -> p <> q ->
    H (transcript p ++ tail_p) = c -> H (transcript q ++ tail_q) = c ->
    exists x y, x <> y /\ H x = H y.
  Proof.
    intros H p q tp tq c Hs Hne Hp Hq. exists (transcript p ++ tp), (transcript q ++ tq). split.
    - intros E. apply Hne. exact (proj1 (cdi_transcript_injective p q tp tq Hs E)).
    - congruence.
  Qed.
End TranscriptBinding.

(** The statement of the signature proof determines the credential's fields it is derived from. *)
Section SigStatementBinding.
  Variables Cmm Scalar : Type.
  Variable hide0 : Scalar -> Cmm.
  Hypothesis hide0_inj : forall x y, hide0 x = hide0 y -> x = y.

  Definition same_kind (a b : Scalar + Cmm) : Prop :=
    match a, b with inl _, inl _ => True | inr _, inr _ => True | _, _ => False end.

  Lemma attrs_inj : forall xs ys : list (Scalar + Cmm), Forall2 same_kind xs ys ->
    map (fun a => match a with inl v => hide0 v | inr c => c end) xs
    = map (fun a => match a with inl v => hide0 v | inr c => c end) ys -> xs = ys.
  Proof.
    induction 1 as [|x y xs ys Hk _ IH]; intros E; [reflexivity|]. cbn [map] in E.
    injection E as E1 E2. rewrite (IH E2). destruct x, y; cbn in Hk; try contradiction.
    - apply hide0_inj in E1. subst. reflexivity.
    - subst. reflexivity.
  Qed.

  Theorem sig_commitments_bind : forall c1 p1 pp1 ars1 tg1 m1 at1 c2 p2 pp2 ars2 tg2 m2 at2,
    length ars1 = length ars2 -> Forall2 same_kind at1 at2 ->
    sig_commitments Cmm Scalar hide0 c1 p1 pp1 ars1 tg1 m1 at1
    = sig_commitments Cmm Scalar hide0 c2 p2 pp2 ars2 tg2 m2 at2 ->
    c1 = c2 /\ p1 = p2 /\ pp1 = pp2 /\ ars1 = ars2 /\ tg1 = tg2 /\ m1 = m2 /\ at1 = at2.
  Proof.
    intros c1 p1 pp1 ars1 tg1 m1 at1 c2 p2 pp2 ars2 tg2 m2 at2 Hl Hk E.
    unfold sig_commitments in E. cbn [app] in E. injection E as -> -> Hpp E.
    apply app_eq_len in E; [|rewrite !map_length; exact Hl]. destruct E as [A1 A2].
    cbn [app] in A2. injection A2 as Htg -> Hat.
    apply hide0_inj in Hpp, Htg. subst pp2 tg2.
    rewrite (map_inj hide0 hide0_inj _ _ A1), (attrs_inj at1 at2 Hk Hat). repeat split; reflexivity.
  Qed.
End SigStatementBinding.
