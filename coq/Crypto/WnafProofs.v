(** Proofs about the wNAF recoding and evaluation of [GenericMultiExp] (model: Wnaf.v). *)
From Coq Require Import ZArith List Lia Bool.
From CB Require Import Crypto.Wnaf.
Import ListNotations.
Local Open Scope Z_scope.

Definition wf_limbs (ls : list Z) : Prop := Forall (fun l => 0 <= l < W64) ls.

Lemma W64_pos : 0 < W64. Proof. reflexivity. Qed.
Lemma W64_eq : W64 = 2 ^ 64. Proof. reflexivity. Qed.

Lemma limbs_val_bound ls : wf_limbs ls -> 0 <= limbs_val ls < 2 ^ (64 * Z.of_nat (length ls)).
Proof.
  induction 1 as [|l ls Hl _ IH]; cbn [limbs_val length].
  - cbn. lia.
  - replace (64 * Z.of_nat (S (length ls))) with (64 + 64 * Z.of_nat (length ls)) by lia.
    rewrite Z.pow_add_r by lia. fold W64. rewrite W64_eq in *. nia.
Qed.

Lemma limb_nil i : limb [] i = 0.
Proof. unfold limb. destruct (Z.to_nat i); reflexivity. Qed.

(** [limb ls i] is the [i]-th base-2^64 digit of [limbs_val ls] (0 beyond the end). *)
Lemma limb_spec ls : wf_limbs ls -> forall i, 0 <= i ->
  limb ls i = (limbs_val ls / 2 ^ (64 * i)) mod 2 ^ 64.
Proof.
  induction 1 as [|l ls Hl Hls IH]; intros i Hi.
  - rewrite limb_nil. cbn [limbs_val]. rewrite Z.div_0_l by (apply Z.pow_nonzero; lia). reflexivity.
  - cbn [limbs_val]. destruct (Z.eq_dec i 0) as [->|Hne].
    + unfold limb. cbn [Z.to_nat nth]. rewrite Z.mul_0_r, Z.pow_0_r, Z.div_1_r.
      rewrite W64_eq in *. replace (l + 2 ^ 64 * limbs_val ls) with (l + limbs_val ls * 2 ^ 64) by lia.
      rewrite Z.mod_add by lia. rewrite Z.mod_small; [reflexivity|lia].
    + unfold limb. replace (Z.to_nat i) with (S (Z.to_nat (i - 1))) by lia. cbn [nth].
      change (nth (Z.to_nat (i - 1)) ls 0) with (limb ls (i - 1)). rewrite IH by lia.
      replace (64 * i) with (64 + 64 * (i - 1)) by lia. rewrite Z.pow_add_r by lia.
      rewrite <- Z.div_div by (try apply Z.pow_pos_nonneg; lia).
      f_equal. f_equal. rewrite W64_eq in *.
      replace (l + 2 ^ 64 * limbs_val ls) with (limbs_val ls * 2 ^ 64 + l) by lia.
      rewrite Z.div_add_l by lia. rewrite (Z.div_small l) by lia. lia.
Qed.

Lemma limb_testbit ls i k : wf_limbs ls -> 0 <= i -> 0 <= k ->
  Z.testbit (limb ls i) k = if k <? 64 then Z.testbit (limbs_val ls) (64 * i + k) else false.
Proof.
  intros Hwf Hi Hk. rewrite (limb_spec ls Hwf i Hi).
  destruct (Z.ltb_spec k 64).
  - rewrite Z.mod_pow2_bits_low by lia. rewrite Z.div_pow2_bits by lia. f_equal. lia.
  - apply Z.mod_pow2_bits_high. lia.
Qed.

(** The window assembled by the code holds the bits [pos .. pos+w1) of the scalar. *)
Lemma bit_buf_testbit w1 ls pos n : wf_limbs ls -> 0 <= pos -> 0 < w1 < 64 -> 0 <= n < w1 ->
  Z.testbit (bit_buf w1 ls pos) n = Z.testbit (limbs_val ls) (pos + n).
Proof.
  intros Hwf Hpos Hw Hn. unfold bit_buf.
  assert (Hq : 0 <= pos / 64) by (apply Z.div_pos; lia).
  assert (Hb : 0 <= pos mod 64 < 64) by (apply Z.mod_pos_bound; lia).
  assert (Hdm : pos = 64 * (pos / 64) + pos mod 64) by (apply Z.div_mod; lia).
  set (q := pos / 64) in *. set (b := pos mod 64) in *.
  destruct (Z.ltb_spec (b + w1) 64).
  - unfold shr64. rewrite Z.shiftr_spec by lia. rewrite limb_testbit by (assumption || lia).
    destruct (Z.ltb_spec (n + b) 64); [|lia]. f_equal. lia.
  - rewrite Z.lor_spec. unfold shr64, shl64. rewrite Z.shiftr_spec by lia.
    rewrite limb_testbit by (assumption || lia). rewrite W64_eq, Z.mod_pow2_bits_low by lia.
    rewrite Z.shiftl_spec by lia.
    destruct (Z.ltb_spec (n + b) 64).
    + rewrite (Z.testbit_neg_r (limb ls (q + 1))) by lia. rewrite orb_false_r. f_equal. lia.
    + cbn [orb]. rewrite limb_testbit by (assumption || lia). destruct (Z.ltb_spec (n - (64 - b)) 64); [|lia]. f_equal. lia.
Qed.

Lemma window_val_spec w1 ls pos carry : wf_limbs ls -> 0 <= pos -> 0 < w1 < 64 ->
  window_val w1 ls pos carry = carry + (limbs_val ls / 2 ^ pos) mod 2 ^ w1.
Proof.
  intros Hwf Hpos Hw. unfold window_val. f_equal.
  replace (2 ^ w1 - 1) with (Z.ones w1) by (rewrite Z.ones_equiv; lia).
  rewrite Z.land_ones by lia.
  apply Z.bits_inj'. intros n Hn.
  destruct (Z.ltb_spec n w1).
  - rewrite !Z.mod_pow2_bits_low by lia. rewrite Z.div_pow2_bits by lia.
    rewrite bit_buf_testbit by (assumption || lia). f_equal. lia.
  - rewrite !Z.mod_pow2_bits_high by lia. reflexivity.
Qed.

(** In the cross-limb branch the left shift amount [64 - bit_idx] is below 64 (no shift overflow). *)
Lemma bit_buf_shift_in_range w1 pos : 0 <= pos -> w1 < 64 -> 64 <= pos mod 64 + w1 ->
  0 < 64 - pos mod 64 < 64.
Proof. intros. pose proof (Z.mod_pos_bound pos 64). lia. Qed.

Lemma digits_val_zeros k rest : digits_val (repeat 0 k ++ rest) = 2 ^ Z.of_nat k * digits_val rest.
Proof.
  induction k as [|k IH].
  - cbn [repeat app Z.of_nat]. lia.
  - cbn [repeat app digits_val]. rewrite IH, Nat2Z.inj_succ, Z.pow_succ_r; lia.
Qed.

Lemma digits_val_app_zeros d n rest : 1 <= n ->
  digits_val (d :: repeat 0 (Z.to_nat (n - 1)) ++ rest) = d + 2 ^ n * digits_val rest.
Proof.
  intros Hn. cbn [digits_val]. rewrite digits_val_zeros, Z2Nat.id, Z.mul_assoc, <- Z.pow_succ_r by lia.
  f_equal. f_equal. f_equal. lia.
Qed.

Lemma wrap_i64_small x : - 2 ^ 63 <= x < 2 ^ 63 -> wrap_i64 x = x.
Proof. intros H. unfold wrap_i64. rewrite Z.mod_small; lia. Qed.

Lemma land_1_even x : (Z.land x 1 =? 0) = Z.even x.
Proof.
  change 1 with (Z.ones 1). rewrite Z.land_ones by lia. change (2 ^ 1) with 2.
  rewrite Zmod_even. destruct (Z.even x); reflexivity.
Qed.

Lemma pow2_pred w : 1 <= w -> 2 ^ w = 2 * 2 ^ (w - 1).
Proof. intros Hw. rewrite <- Z.pow_succ_r by lia. f_equal. lia. Qed.

Lemma odd_half d w : 1 <= w -> Z.odd d = true -> 0 < d < 2 ^ w ->
  0 <= d / 2 < 2 ^ (w - 1) /\ 2 * (d / 2) + 1 = d.
Proof.
  intros Hw Hodd Hd. rewrite (pow2_pred w Hw) in Hd.
  pose proof (Z.div_mod d 2) as Hdm. rewrite Zmod_odd, Hodd in Hdm. lia.
Qed.

(** Arithmetic facts about the quotient [Q = V / 2^pos]. *)
Lemma div_pow2_step V pos k : 0 <= V -> 0 <= pos -> 0 <= k ->
  V / 2 ^ (pos + k) = (V / 2 ^ pos) / 2 ^ k.
Proof. intros. rewrite Z.pow_add_r by lia. rewrite Z.div_div; try apply Z.pow_pos_nonneg; lia. Qed.

Lemma div_small_pow2 V a b : 0 <= V < 2 ^ a -> 0 <= a <= b -> V / 2 ^ b = 0.
Proof.
  intros HV Hab. apply Z.div_small. split; [lia|].
  apply Z.lt_le_trans with (2 ^ a); [lia|]. apply Z.pow_le_mono_r; lia.
Qed.

Lemma even_window_step c Q : c = 0 \/ c = 1 -> Z.even (c + Q) = true ->
  c + Q = 2 * (c + Q / 2) /\ (c = 1 -> Q mod 2 = 1).
Proof.
  intros Hc Hev. apply Zeven_bool_iff, Zeven_ex_iff in Hev. destruct Hev as [m Hm].
  pose proof (Z.div_mod Q 2). pose proof (Z.mod_pos_bound Q 2). lia.
Qed.

(** An odd window value in [[P, 2P]] with [P] even lies strictly inside, so its low part [B] alone reaches [P]. *)
Lemma odd_window_high c B P : c = 0 \/ c = 1 -> B < 2 * P -> P mod 2 = 0 -> (c + B) mod 2 = 1 ->
  P <= c + B -> P <= B /\ - P < c + B - 2 * P < P.
Proof. intros. Z.div_mod_to_equations. lia. Qed.

(** The loop invariant: [carry] is a bit, and when it is set the scalar has a 1 at bit [pos - 1]. *)
Definition carry_ok (V pos carry : Z) : Prop :=
  (carry = 0 \/ carry = 1) /\ (carry = 1 -> 1 <= pos /\ (V / 2 ^ (pos - 1)) mod 2 = 1).

Lemma carry_ok_init V : carry_ok V 0 0.
Proof. split; [left; reflexivity|discriminate]. Qed.

Lemma carry_ok_beyond V a pos c : 0 <= V < 2 ^ a -> 0 <= a < pos -> carry_ok V pos c ->
  c + V / 2 ^ pos = 0.
Proof.
  intros HV Ha [Hc Hc1]. rewrite (div_small_pow2 V a pos) by lia.
  destruct Hc as [-> | ->]; [reflexivity|]. destruct (Hc1 eq_refl) as [_ Hodd].
  rewrite (div_small_pow2 V a (pos - 1)) in Hodd by lia. discriminate.
Qed.

Section Recoding.
  Variable w1 : Z.
  Variable ls : list Z.
  Hypothesis Hw1 : 2 <= w1 < 63.
  Hypothesis Hwf : wf_limbs ls.
  Let V := limbs_val ls.
  Let P := 2 ^ (w1 - 1).

  Lemma P_facts : 2 <= P /\ 2 ^ w1 = 2 * P /\ 2 ^ w1 / 2 = P /\ P mod 2 = 0 /\ 2 * P <= 2 ^ 62.
  Proof.
    unfold P. assert (E : 2 ^ w1 = 2 * 2 ^ (w1 - 1)) by (apply pow2_pred; lia).
    assert (2 ^ 1 <= 2 ^ (w1 - 1)) by (apply Z.pow_le_mono_r; lia).
    assert (2 ^ w1 <= 2 ^ 62) by (apply Z.pow_le_mono_r; lia).
    repeat split; try lia.
    - rewrite E. rewrite Z.mul_comm, Z.div_mul; lia.
    - replace (w1 - 1) with (1 + (w1 - 2)) by lia. rewrite Z.pow_add_r by lia.
      rewrite Z.mul_comm, Z.mod_mul; lia.
  Qed.

  Lemma V_nonneg : 0 <= V.
  Proof. apply limbs_val_bound; assumption. Qed.

  Lemma Q_decomp pos : 0 <= pos ->
    let Q := V / 2 ^ pos in
    let B := Q mod 2 ^ w1 in
    let H := V / 2 ^ (pos + w1) in
    0 <= B < 2 * P /\ B <= Q /\ Q = B + 2 * P * H
    /\ (P <= B -> (V / 2 ^ (pos + w1 - 1)) mod 2 = 1).
  Proof.
    intros Hpos Q B H. pose proof P_facts as (HP2 & HE & _ & _ & _). pose proof V_nonneg as HV.
    assert (HQ : 0 <= Q) by (apply Z.div_pos; [lia|apply Z.pow_pos_nonneg; lia]).
    assert (HB : 0 <= B < 2 ^ w1) by (apply Z.mod_pos_bound; apply Z.pow_pos_nonneg; lia).
    assert (HH : H = Q / 2 ^ w1) by (unfold H, Q; apply div_pow2_step; lia).
    assert (Hdm : Q = 2 ^ w1 * (Q / 2 ^ w1) + B) by (apply Z.div_mod; apply Z.pow_nonzero; lia).
    repeat split; try lia.
    - apply Z.mod_le; lia.
    - intros HPB.
      replace (pos + w1 - 1) with (pos + (w1 - 1)) by lia. rewrite div_pow2_step by lia.
      fold Q. fold P.
      (* Q = B + 2P * H with P <= B < 2P, so Q / P = 1 + 2 * H *)
      assert (EQ : Q = (1 + 2 * (Q / 2 ^ w1)) * P + (B - P)) by lia.
      rewrite EQ. rewrite Z.div_add_l by lia. rewrite (Z.div_small (B - P)) by lia.
      set (X := Q / 2 ^ w1). replace (1 + 2 * X + 0) with (1 + X * 2) by lia.
      rewrite Z.mod_add by lia. reflexivity.
  Qed.

  Variable num_bits : Z.

  Lemma wnaf_loop_done fuel pos carry : num_bits <= pos -> wnaf_loop fuel w1 ls num_bits pos carry = [].
  Proof. intros H. destruct fuel; [reflexivity|]. cbn [wnaf_loop]. destruct (Z.ltb_spec pos num_bits); [lia|reflexivity]. Qed.

  (** One iteration with a carry bit [c]: it emits a digit [d] followed by [n - 1] zeros,
      [d + 2^n * (what remains)] is what there was, and the new carry satisfies the invariant. *)
  Lemma wnaf_step fuel pos c : 0 <= pos < num_bits -> c = 0 \/ c = 1 ->
    exists d n c', 1 <= n
      /\ wnaf_loop (S fuel) w1 ls num_bits pos c
         = d :: repeat 0 (Z.to_nat (n - 1)) ++ wnaf_loop fuel w1 ls num_bits (pos + n) c'
      /\ c + V / 2 ^ pos = d + 2 ^ n * (c' + V / 2 ^ (pos + n))
      /\ (d = 0 \/ Z.odd d = true /\ - P < d < P)
      /\ (d <> 0 -> c + V / 2 ^ pos <> 0)
      /\ carry_ok V (pos + n) c'.
  Proof.
    intros Hpos Hc. pose proof P_facts as (HP2 & HE & HE2 & HPev & HP62).
    cbn [wnaf_loop]. destruct (Z.ltb_spec pos num_bits) as [_|Hge]; [|lia].
    rewrite window_val_spec, land_1_even, HE2 by (assumption || lia). fold V.
    destruct (Q_decomp pos (proj1 Hpos)) as (HB & HBQ & HQB & Htop).
    set (Q := V / 2 ^ pos) in *. set (B := Q mod 2 ^ w1) in *. set (H := V / 2 ^ (pos + w1)) in *.
    destruct (Z.even (c + B)) eqn:Hev.
    - (* even window: emit 0, keep the carry *)
      assert (HevQ : Z.even (c + Q) = true)
        by (rewrite HQB, Z.add_assoc, <- Z.mul_assoc, Z.even_add_mul_2; exact Hev).
      destruct (even_window_step c Q Hc HevQ) as [Hval Hbit].
      exists 0, 1, c. rewrite (div_pow2_step V pos 1) by (apply V_nonneg || lia). fold Q. change (2 ^ 1) with 2.
      (* [repeat split] closes the list equation itself ([eq_refl]) and introduces [c = 1] in the last goal *)
      repeat split; [lia | exact Hval | left; reflexivity | intros []; reflexivity | exact Hc | lia |].
      replace (pos + 1 - 1) with pos by lia. auto.
    - assert (Hodd : Z.odd (c + B) = true) by (rewrite <- Z.negb_even, Hev; reflexivity).
      assert (Hodd2 : (c + B) mod 2 = 1) by (rewrite Zmod_odd, Hodd; reflexivity).
      destruct (Z.ltb_spec (c + B) P) as [Hlow|Hhigh].
      + (* low odd window: digit = window value, carry cleared *)
        exists (c + B), w1, 0. rewrite HE.
        repeat split; [lia | lia | right; split; [exact Hodd|lia] | lia | left; reflexivity | discriminate | discriminate].
      + (* high odd window: digit = window value - 2^w1, carry set *)
        destruct (odd_window_high c B P Hc (proj2 HB) HPev Hodd2 Hhigh) as [HPB Hd].
        exists (c + B - 2 * P), w1, 1. rewrite wrap_i64_small, HE by lia.
        repeat split; [lia | lia | right; split; [|exact Hd] | lia | right; reflexivity | lia | auto].
        replace (c + B - 2 * P) with (c + B + 2 * (- P)) by lia. rewrite Z.odd_add_mul_2. exact Hodd.
  Qed.

  (** wnaf_sum, general form: from any state satisfying the invariant the remaining digits
      encode [carry + V / 2^pos], provided the top bit of the limb vector is clear. *)
  Lemma wnaf_loop_sum : V < 2 ^ (num_bits - 1) -> 1 <= num_bits ->
    forall fuel pos carry, 0 <= pos -> carry_ok V pos carry ->
      (Z.to_nat (num_bits - pos) <= fuel)%nat ->
      digits_val (wnaf_loop fuel w1 ls num_bits pos carry) = carry + V / 2 ^ pos.
  Proof.
    intros HVtop Hnb. pose proof V_nonneg as HV.
    assert (Hexit : forall fuel pos carry, num_bits <= pos -> carry_ok V pos carry ->
              digits_val (wnaf_loop fuel w1 ls num_bits pos carry) = carry + V / 2 ^ pos).
    { intros fuel pos carry Hge Hinv.
      rewrite wnaf_loop_done, (carry_ok_beyond V (num_bits - 1) pos carry) by (assumption || lia).
      reflexivity. }
    induction fuel as [|fuel IH]; intros pos carry Hpos Hinv Hfuel; [apply Hexit; [lia|assumption]|].
    destruct (Z.ltb_spec pos num_bits) as [Hlt|Hge]; [|apply Hexit; assumption].
    destruct (wnaf_step fuel pos carry (conj Hpos Hlt) (proj1 Hinv)) as (d & n & c' & Hn & -> & -> & _ & _ & Hinv').
    rewrite digits_val_app_zeros, IH by (assumption || lia). reflexivity.
  Qed.

  (** Every non-zero digit is odd and strictly between -2^w and 2^w (w = w1 - 1). *)
  Lemma wnaf_loop_digit_bounds : forall fuel pos carry, 0 <= pos -> (carry = 0 \/ carry = 1) ->
    Forall (fun d => d = 0 \/ (Z.odd d = true /\ - P < d < P))
           (wnaf_loop fuel w1 ls num_bits pos carry).
  Proof.
    induction fuel as [|fuel IH]; intros pos carry Hpos Hc; [constructor|].
    destruct (Z.ltb_spec pos num_bits) as [Hlt|Hge]; [|rewrite wnaf_loop_done by assumption; constructor].
    destruct (wnaf_step fuel pos carry (conj Hpos Hlt) Hc) as (d & n & c' & Hn & -> & _ & Hd & _ & Hinv').
    constructor; [exact Hd|]. apply Forall_app. split; [|apply IH; [lia|exact (proj1 Hinv')]].
    apply Forall_forall. intros x Hx. left. exact (repeat_spec _ _ _ Hx).
  Qed.

  (** wnaf_top: a non-zero digit at list index [j] (= bit position [pos + j]) implies
      [pos + j <= nb] whenever the scalar is below [2^nb]. *)
  Lemma wnaf_loop_top (nb : Z) : 0 <= nb -> V < 2 ^ nb ->
    forall fuel pos carry, 0 <= pos -> carry_ok V pos carry ->
    forall j, nth j (wnaf_loop fuel w1 ls num_bits pos carry) 0 <> 0 -> pos + Z.of_nat j <= nb.
  Proof.
    intros Hnb HVnb. pose proof V_nonneg as HV.
    induction fuel as [|fuel IH]; intros pos carry Hpos Hinv j Hj; [destruct j; contradiction|].
    destruct (Z.ltb_spec pos num_bits) as [Hlt|Hge];
      [|rewrite wnaf_loop_done in Hj by assumption; destruct j; contradiction].
    destruct (wnaf_step fuel pos carry (conj Hpos Hlt) (proj1 Hinv)) as (d & n & c' & Hn & Heq & _ & _ & Hnz & Hinv').
    rewrite Heq in Hj. destruct j as [|j]; cbn [nth] in Hj.
    - (* the window position itself is at most nb *)
      destruct (Z_le_gt_dec pos nb); [lia|].
      elim (Hnz Hj). apply (carry_ok_beyond V nb); (assumption || lia).
    - destruct (Nat.lt_ge_cases j (Z.to_nat (n - 1))) as [Hk|Hk].
      + rewrite app_nth1, nth_repeat in Hj by (rewrite repeat_length; exact Hk). contradiction.
      + rewrite app_nth2, repeat_length in Hj by (rewrite repeat_length; exact Hk).
        apply IH in Hj; [lia|lia|assumption].
  Qed.
End Recoding.

Theorem wnaf_sum_lemma : forall w ls, 1 <= w < 62 -> wf_limbs ls ->
  limbs_val ls < 2 ^ (64 * Z.of_nat (length ls) - 1) ->
  digits_val (wnaf w ls) = limbs_val ls.
Proof.
  intros w ls Hw Hwf Htop. unfold wnaf.
  destruct ls as [|l ls'].
  - reflexivity.
  - rewrite wnaf_loop_sum; try assumption; try lia.
    + rewrite Z.pow_0_r, Z.div_1_r. lia.
    + cbn [length]. lia.
    + apply carry_ok_init.
Qed.

Theorem wnaf_digit_bounds_lemma : forall w ls, 1 <= w < 62 -> wf_limbs ls ->
  Forall (fun d => d = 0 \/ (Z.odd d = true /\ - 2 ^ w < d < 2 ^ w)) (wnaf w ls).
Proof.
  intros w ls Hw Hwf. unfold wnaf.
  assert (Hw1 : 2 <= w + 1 < 63) by lia.
  pose proof (wnaf_loop_digit_bounds (w + 1) ls Hw1 Hwf (64 * Z.of_nat (length ls))
                (Z.to_nat (64 * Z.of_nat (length ls))) 0 0 (Z.le_refl 0) (or_introl eq_refl)) as H.
  replace (w + 1 - 1) with w in H by lia. exact H.
Qed.

Theorem wnaf_top_lemma : forall w ls nb, 1 <= w < 62 -> wf_limbs ls -> 0 <= nb ->
  limbs_val ls < 2 ^ nb ->
  forall j, (Z.to_nat nb < j)%nat -> nth j (wnaf w ls) 0 = 0.
Proof.
  intros w ls nb Hw Hwf Hnb HV j Hj.
  destruct (Z.eq_dec (nth j (wnaf w ls) 0) 0) as [|Hne]; [assumption|exfalso].
  unfold wnaf in Hne. apply wnaf_loop_top with (nb := nb) in Hne; try assumption; try lia.
  apply carry_ok_init.
Qed.

(** the digits beyond [nb] contribute nothing: the truncated vector has the same value *)
Lemma digits_val_firstn ds n : (forall j, (n <= j)%nat -> nth j ds 0 = 0) ->
  digits_val (firstn n ds) = digits_val ds.
Proof.
  revert n. induction ds as [|d ds IH]; intros n Hz.
  - destruct n; reflexivity.
  - destruct n as [|n].
    + cbn [firstn]. change (digits_val []) with 0.
      assert (Hall : forall ds', (forall j, nth j ds' 0 = 0) -> digits_val ds' = 0).
      { induction ds' as [|x xs IHx]; intros Hx; [reflexivity|]. cbn [digits_val].
        rewrite (Hx O : x = 0). rewrite IHx; [reflexivity|]. intros j. apply (Hx (S j)). }
      symmetry. apply (Hall (d :: ds)). intros j. apply Hz. lia.
    + cbn [firstn digits_val]. rewrite IH; [reflexivity|]. intros j Hj. apply (Hz (S j)). lia.
Qed.

Lemma digits_val_firstn_S ds j :
  digits_val (firstn (S j) ds) = digits_val (firstn j ds) + 2 ^ Z.of_nat j * nth j ds 0.
Proof.
  revert ds. induction j as [|j IH]; intros ds.
  - change (Z.of_nat 0) with 0. rewrite Z.pow_0_r.
    destruct ds as [|d ds]; cbn [firstn digits_val nth]; lia.
  - destruct ds as [|d ds].
    + cbn [firstn digits_val nth]. lia.
    + change (firstn (S (S j)) (d :: ds)) with (d :: firstn (S j) ds).
      change (firstn (S j) (d :: ds)) with (d :: firstn j ds).
      cbn [digits_val nth]. rewrite IH.
      replace (Z.of_nat (S j)) with (1 + Z.of_nat j) by lia. rewrite Z.pow_add_r by lia. lia.
Qed.

(** The laws assumed of the curve operations: an abelian group in which [minus_point] is
    addition of the inverse and [double_point] is [a + a]. *)
Definition abelian_group_laws {G : Type} (gzero : G) (gadd gsub : G -> G -> G) (gdbl gneg : G -> G) : Prop :=
  (forall a b c, gadd a (gadd b c) = gadd (gadd a b) c) /\
  (forall a b, gadd a b = gadd b a) /\
  (forall a, gadd gzero a = a) /\
  (forall a, gadd a (gneg a) = gzero) /\
  (forall a b, gsub a b = gadd a (gneg b)) /\
  (forall a, gdbl a = gadd a a).

Section GroupProofs.
  Variable G : Type.
  Variable gzero : G.
  Variables gadd gsub : G -> G -> G.
  Variables gdbl gneg : G -> G.
  Hypothesis L : abelian_group_laws gzero gadd gsub gdbl gneg.

  Local Notation "a [+] b" := (gadd a b) (at level 50, left associativity).

  Lemma gadd_assoc a b c : a [+] (b [+] c) = (a [+] b) [+] c. Proof. apply L. Qed.
  Lemma gadd_comm a b : a [+] b = b [+] a. Proof. apply L. Qed.
  Lemma gadd_0_l a : gzero [+] a = a. Proof. apply L. Qed.
  Lemma gadd_neg_r a : a [+] gneg a = gzero. Proof. apply L. Qed.
  Lemma gsub_def a b : gsub a b = a [+] gneg b. Proof. apply L. Qed.
  Lemma gdbl_def a : gdbl a = a [+] a. Proof. apply L. Qed.

  Lemma gadd_0_r a : a [+] gzero = a.
  Proof. rewrite gadd_comm. apply gadd_0_l. Qed.

  Lemma gadd_cancel_l a b c : a [+] b = a [+] c -> b = c.
  Proof.
    intros H. rewrite <- (gadd_0_l b), <- (gadd_0_l c).
    rewrite <- (gadd_neg_r a). rewrite (gadd_comm a (gneg a)).
    rewrite <- !gadd_assoc. rewrite H. reflexivity.
  Qed.

  Lemma gneg_unique a b : a [+] b = gzero -> b = gneg a.
  Proof. intros H. apply (gadd_cancel_l a). rewrite H, gadd_neg_r. reflexivity. Qed.

  Lemma gadd_swap4 a b c d : (a [+] b) [+] (c [+] d) = (a [+] c) [+] (b [+] d).
  Proof.
    rewrite <- !gadd_assoc. f_equal. rewrite !gadd_assoc. f_equal. apply gadd_comm.
  Qed.

  Lemma gneg_involutive a : gneg (gneg a) = a.
  Proof. symmetry. apply gneg_unique. rewrite gadd_comm. apply gadd_neg_r. Qed.

  Lemma gneg_add a b : gneg (a [+] b) = gneg a [+] gneg b.
  Proof.
    symmetry. apply gneg_unique. rewrite gadd_swap4, !gadd_neg_r. apply gadd_0_l.
  Qed.

  (** Integer multiples: [nmul n g = g + ... + g] ([n] times), extended to [Z] by negation. *)
  Fixpoint nmul (n : nat) (g : G) : G :=
    match n with O => gzero | S n' => g [+] nmul n' g end.
  Definition zmul (z : Z) (g : G) : G :=
    if 0 <=? z then nmul (Z.to_nat z) g else gneg (nmul (Z.to_nat (- z)) g).

  Lemma nmul_add a b g : nmul (a + b) g = nmul a g [+] nmul b g.
  Proof.
    induction a as [|a IH]; cbn [nmul Nat.add].
    - rewrite gadd_0_l. reflexivity.
    - rewrite IH, gadd_assoc. reflexivity.
  Qed.

  Lemma nmul_gadd n a b : nmul n (a [+] b) = nmul n a [+] nmul n b.
  Proof.
    induction n as [|n IH]; cbn [nmul].
    - rewrite gadd_0_l. reflexivity.
    - rewrite IH. apply gadd_swap4.
  Qed.

  Lemma zmul_diff a b g : zmul (Z.of_nat a - Z.of_nat b) g = nmul a g [+] gneg (nmul b g).
  Proof.
    unfold zmul. destruct (Z.leb_spec 0 (Z.of_nat a - Z.of_nat b)).
    - replace (Z.to_nat (Z.of_nat a - Z.of_nat b)) with (a - b)%nat by lia.
      assert (Ha : nmul a g = nmul (a - b) g [+] nmul b g).
      { rewrite <- nmul_add. f_equal. lia. }
      rewrite Ha, <- gadd_assoc, gadd_neg_r, gadd_0_r. reflexivity.
    - replace (Z.to_nat (- (Z.of_nat a - Z.of_nat b))) with (b - a)%nat by lia.
      assert (Hb : nmul b g = nmul (b - a) g [+] nmul a g).
      { rewrite <- nmul_add. f_equal. lia. }
      rewrite Hb, gneg_add.
      rewrite (gadd_comm (gneg (nmul (b - a) g))), gadd_assoc, gadd_neg_r, gadd_0_l. reflexivity.
  Qed.

  Lemma zmul_repr z g : zmul z g = nmul (Z.to_nat z) g [+] gneg (nmul (Z.to_nat (- z)) g).
  Proof. rewrite <- zmul_diff. f_equal. lia. Qed.

  Lemma zmul_add x y g : zmul (x + y) g = zmul x g [+] zmul y g.
  Proof.
    rewrite (zmul_repr x), (zmul_repr y).
    replace (x + y) with (Z.of_nat (Z.to_nat x + Z.to_nat y) - Z.of_nat (Z.to_nat (- x) + Z.to_nat (- y))) by lia.
    rewrite zmul_diff, !nmul_add, gneg_add. apply gadd_swap4.
  Qed.

  Lemma zmul_0 g : zmul 0 g = gzero.
  Proof. reflexivity. Qed.

  Lemma zmul_1 g : zmul 1 g = g.
  Proof. unfold zmul. cbn [Z.leb Z.compare]. change (Z.to_nat 1) with 1%nat. cbn [nmul]. apply gadd_0_r. Qed.

  Lemma zmul_opp z g : zmul (- z) g = gneg (zmul z g).
  Proof.
    apply gneg_unique. rewrite <- zmul_add. replace (z + - z) with 0 by lia. reflexivity.
  Qed.

  Lemma zmul_nonneg z g : 0 <= z -> zmul z g = nmul (Z.to_nat z) g.
  Proof. intros H. unfold zmul. destruct (Z.leb_spec 0 z); [reflexivity|lia]. Qed.

  Lemma table_loop_nth n sq : forall tmp k, (k < n)%nat ->
    nth k (table_loop G gadd n sq tmp) gzero = tmp [+] nmul (S k) sq.
  Proof.
    induction n as [|n IH]; intros tmp k Hk; [lia|]. cbn [table_loop].
    destruct k as [|k]; cbn [nth].
    - cbn [nmul]. rewrite gadd_0_r. reflexivity.
    - rewrite IH by lia. change (nmul (S (S k)) sq) with (sq [+] nmul (S k) sq).
      rewrite gadd_assoc. reflexivity.
  Qed.

  Lemma table_nth w g k : 1 <= w -> 0 <= k < 2 ^ (w - 1) ->
    nth (Z.to_nat k) (table G gadd w g) gzero = zmul (2 * k + 1) g.
  Proof.
    intros Hw Hk. unfold table.
    replace (2 * k + 1) with (1 + (k + k)) by lia. rewrite !zmul_add, zmul_1.
    destruct (Z.eq_dec k 0) as [->|Hne].
    - cbn [Z.to_nat nth]. rewrite zmul_0, !gadd_0_r. reflexivity.
    - replace (Z.to_nat k) with (S (Z.to_nat (k - 1))) by lia. cbn [nth].
      rewrite table_loop_nth by lia. f_equal.
      replace (S (Z.to_nat (k - 1))) with (Z.to_nat k) by lia.
      rewrite nmul_gadd, zmul_nonneg by lia. reflexivity.
  Qed.

  (** ** One step of the inner loop adds [digit * g] *)
  Lemma eval_step_spec w j a s g : 1 <= w < 62 -> wf_limbs s ->
    eval_step G gzero gadd gsub j a (wnaf w s) (table G gadd w g)
    = a [+] zmul (nth j (wnaf w s) 0) g.
  Proof.
    intros Hw Hwf. unfold eval_step.
    pose proof (wnaf_digit_bounds_lemma w s Hw Hwf) as Hb. rewrite Forall_forall in Hb.
    destruct (nth_error (wnaf w s) j) as [ge|] eqn:Hnth.
    - rewrite (nth_error_nth _ _ 0 Hnth).
      specialize (Hb ge (nth_error_In _ _ Hnth)).
      destruct (Z.ltb_spec 0 ge) as [Hpos|Hnpos]; [|destruct (Z.ltb_spec ge 0) as [Hneg|Hz]].
      + destruct Hb as [->|[Hodd Hrange]]; [lia|].
        destruct (odd_half ge w) as [Hrow Hge]; [lia|assumption|lia|].
        rewrite Z.quot_div_nonneg, table_nth, Hge by lia. reflexivity.
      + destruct Hb as [->|[Hodd Hrange]]; [lia|]. rewrite <- Z.odd_opp in Hodd.
        destruct (odd_half (- ge) w) as [Hrow Hge]; [lia|assumption|lia|].
        rewrite Z.quot_div_nonneg, table_nth, Hge, gsub_def, zmul_opp, gneg_involutive by lia.
        reflexivity.
      + replace ge with 0 by lia. rewrite zmul_0, gadd_0_r. reflexivity.
    - apply nth_error_None in Hnth. rewrite nth_overflow by assumption.
      rewrite zmul_0, gadd_0_r. reflexivity.
  Qed.

  (** ** Sums of scalar multiples over the zipped (scalar, point) list *)
  Fixpoint msum (f : list Z -> Z) (ps : list (list Z * G)) : G :=
    match ps with
    | [] => gzero
    | p :: t => zmul (f (fst p)) (snd p) [+] msum f t
    end.

  Lemma msum_add f h ps : msum f ps [+] msum h ps = msum (fun s => f s + h s) ps.
  Proof.
    induction ps as [|p t IH]; cbn [msum]; [apply gadd_0_l|].
    rewrite gadd_swap4, IH, zmul_add. reflexivity.
  Qed.

  Lemma msum_ext f h ps : (forall p, In p ps -> f (fst p) = h (fst p)) -> msum f ps = msum h ps.
  Proof.
    induction ps as [|p t IH]; intros H; cbn [msum]; [reflexivity|].
    rewrite (H p (or_introl eq_refl)), IH; [reflexivity|]. intros q Hq. apply H. right; assumption.
  Qed.

  Lemma msum_app f ps qs : msum f (ps ++ qs) = msum f ps [+] msum f qs.
  Proof. induction ps as [|p t IH]; cbn [app msum]; [symmetry; apply gadd_0_l|]. rewrite IH. apply gadd_assoc. Qed.
  Lemma msum_zero ps : msum (fun _ => 0) ps = gzero.
  Proof. induction ps as [|p t IH]; cbn [msum]; [reflexivity|]. rewrite IH, zmul_0. apply gadd_0_l. Qed.

  Section Eval.
    Variable w : Z.
    Hypothesis Hw : 1 <= w < 62.

    Definition step_pair (j : nat) (a : G) (p : list Z * G) : G :=
      eval_step G gzero gadd gsub j a (wnaf w (fst p)) (table G gadd w (snd p)).

    Lemma eval_inner_combine j : forall ss gs a,
      eval_inner G gzero gadd gsub j a (map (wnaf w) ss) (map (table G gadd w) gs)
      = fold_left (step_pair j) (combine ss gs) a.
    Proof.
      induction ss as [|s ss IH]; intros gs a; [reflexivity|].
      destruct gs as [|g gs]; [reflexivity|]. cbn [map eval_inner combine fold_left].
      rewrite IH. reflexivity.
    Qed.

    Lemma fold_step_spec j ps : (forall p, In p ps -> wf_limbs (fst p)) -> forall a,
      fold_left (step_pair j) ps a = a [+] msum (fun s => nth j (wnaf w s) 0) ps.
    Proof.
      induction ps as [|p t IH]; intros Hwf a; cbn [fold_left msum].
      - rewrite gadd_0_r. reflexivity.
      - rewrite IH by (intros q Hq; apply Hwf; right; assumption).
        unfold step_pair. rewrite eval_step_spec by (try assumption; apply Hwf; left; reflexivity).
        rewrite gadd_assoc. reflexivity.
    Qed.

    Lemma eval_outer_spec ss gs : Forall wf_limbs ss -> forall n f,
      eval_outer G gzero gadd gsub gdbl n (msum f (combine ss gs))
                 (map (wnaf w) ss) (map (table G gadd w) gs)
      = msum (fun s => f s * 2 ^ Z.of_nat n + digits_val (firstn n (wnaf w s))) (combine ss gs).
    Proof.
      intros Hss.
      assert (Hps : forall p, In p (combine ss gs) -> wf_limbs (fst p)).
      { intros [s g] Hin. apply in_combine_l in Hin. rewrite Forall_forall in Hss. apply Hss. assumption. }
      induction n as [|n IH]; intros f.
      - cbn [eval_outer]. apply msum_ext. intros p _. cbn [firstn digits_val Z.of_nat]. rewrite Z.pow_0_r. lia.
      - cbn [eval_outer]. rewrite eval_inner_combine, fold_step_spec by assumption.
        rewrite gdbl_def, !msum_add, IH. apply msum_ext. intros p _.
        rewrite digits_val_firstn_S.
        replace (Z.of_nat (S n)) with (1 + Z.of_nat n) by lia. rewrite Z.pow_add_r by lia. lia.
    Qed.
  End Eval.

  (** multiexp_correct: the result of [multiexp] is the sum of the scalar multiples
      [limbs_val s_i * g_i] over the zipped inputs. *)
  Theorem multiexp_correct_lemma w field_bits gs ss : 1 <= w < 62 ->
    Forall (fun s => wf_limbs s /\ limbs_val s < 2 ^ Z.of_nat field_bits
                     /\ Z.of_nat field_bits < 64 * Z.of_nat (length s)) ss ->
    multiexp G gzero gadd gsub gdbl w field_bits gs ss = msum limbs_val (combine ss gs).
  Proof.
    intros Hw Hss. unfold multiexp, multiexp_digits.
    assert (Hwf : Forall wf_limbs ss) by (eapply Forall_impl; [|exact Hss]; cbn; tauto).
    transitivity (eval_outer G gzero gadd gsub gdbl (S field_bits) (msum (fun _ => 0) (combine ss gs))
                             (map (wnaf w) ss) (map (table G gadd w) gs)).
    { rewrite msum_zero. reflexivity. }
    rewrite eval_outer_spec by assumption.
    apply msum_ext. intros [s g] Hin. cbn [fst]. apply in_combine_l in Hin.
    rewrite Forall_forall in Hss. destruct (Hss s Hin) as (Hs & Hlt & Hfb).
    rewrite Z.mul_0_l, Z.add_0_l.
    rewrite digits_val_firstn.
    - apply wnaf_sum_lemma; try assumption.
      apply Z.lt_le_trans with (2 ^ Z.of_nat field_bits); [assumption|]. apply Z.pow_le_mono_r; lia.
    - intros j Hj. apply (wnaf_top_lemma w s (Z.of_nat field_bits)); try assumption; lia.
  Qed.
End GroupProofs.

(** The table has [2^(w-1)] rows, so the index [|d| / 2] of every non-zero digit is in range. *)
Lemma table_loop_length {G} (gadd : G -> G -> G) n sq tmp : length (table_loop G gadd n sq tmp) = n.
Proof. revert tmp. induction n as [|n IH]; intros tmp; cbn [table_loop length]; [reflexivity|]. rewrite IH. reflexivity. Qed.

Lemma table_length {G} (gadd : G -> G -> G) w g : 1 <= w -> length (table G gadd w g) = Z.to_nat (2 ^ (w - 1)).
Proof.
  intros Hw. unfold table. cbn [length]. rewrite table_loop_length.
  assert (0 < 2 ^ (w - 1)) by (apply Z.pow_pos_nonneg; lia). lia.
Qed.

Theorem wnaf_table_index_lemma : forall {G} (gadd : G -> G -> G) w ls g d, 1 <= w < 62 -> wf_limbs ls ->
  In d (wnaf w ls) -> d <> 0 ->
  Z.odd d = true /\ (Z.to_nat (Z.quot (Z.abs d) 2) < length (table G gadd w g))%nat.
Proof.
  intros G gadd w ls g d Hw Hwf Hin Hne.
  pose proof (wnaf_digit_bounds_lemma w ls Hw Hwf) as Hb. rewrite Forall_forall in Hb.
  destruct (Hb d Hin) as [->|[Hodd Hr]]; [contradiction|]. split; [assumption|].
  destruct (odd_half (Z.abs d) w) as [Hrow _]; [lia| |lia|].
  { destruct (Z.abs_eq_or_opp d) as [-> | ->]; [|rewrite Z.odd_opp]; exact Hodd. }
  rewrite table_length, Z.quot_div_nonneg by lia. lia.
Qed.
