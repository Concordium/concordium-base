(** C11 - two facts beside the completeness theorems:
    (1) [svec_iter] (verify_scalars as coded: indices, floor(log2 i), u_sq table) equals the recursive
        [svec] used by the completeness theorems, for every list of invertible challenges;
    (2) the scalar represented by the n low bits of v, <bits_n(v), (1,2,..,2^(n-1))> in F, is the image
        of v mod 2^n under the canonical ring homomorphism Z -> F ([gen_phiZ], what
        [scalar_from_u64] computes).                                                            *)
From Coq Require Import List Lia ZArith.
From CB Require Import Crypto.BpAlg Crypto.Ipa Crypto.RangeProof Crypto.BpProofs.
Import ListNotations.

Section Extras.
  Variable Ops : bp_ops.
  Local Notation F := (o_F Ops).
  Local Notation f0 := (o_f0 Ops).
  Local Notation f1 := (o_f1 Ops).
  Local Notation fadd := (o_fadd Ops).
  Local Notation fmul := (o_fmul Ops).
  Local Notation fsub := (o_fsub Ops).
  Local Notation fopp := (o_fopp Ops).
  Local Notation vscale := (vscale Ops).
  Local Notation dot := (dot Ops).
  Local Notation svec := (svec Ops).
  Local Notation svec_iter := (svec_iter Ops).
  Local Notation svec_iter_go := (svec_iter_go Ops).
  Local Notation s_zero := (s_zero Ops).
  Local Notation powers_from := (powers_from Ops).
  Local Notation two_n_vec := (two_n_vec Ops).
  Local Notation fbits := (fbits Ops).
  Local Notation fbit := (fbit Ops).

  Hypothesis Fth : ring_theory f0 f1 fadd fmul fsub fopp (@eq F).
  Add Ring Fring2 : Fth.

  (** * (1) verify_scalars *)
  Lemma go_add : forall a b i usq k s,
    svec_iter_go (a + b) i usq k s = svec_iter_go b (i + a) usq k (svec_iter_go a i usq k s).
  Proof.
    induction a as [|a IH]; intros b i usq k s.
    - cbn [Nat.add Ipa.svec_iter_go]. rewrite Nat.add_0_r. reflexivity.
    - cbn [Nat.add Ipa.svec_iter_go]. rewrite IH. replace (S i + a) with (i + S a) by lia. reflexivity.
  Qed.

  Lemma firstn_S_nth {A} (d : A) : forall c (s : list A), c < length s ->
    firstn (S c) s = firstn c s ++ [nth c s d].
  Proof.
    induction c as [|c IH]; intros [|x s] H; cbn [length] in H; try lia.
    - reflexivity.
    - change (x :: firstn (S c) s = (x :: firstn c s) ++ [nth c s d]). cbn [app]. f_equal. apply IH. lia.
  Qed.

  (** one block [2^t, 2^(t+1)) appends the current vector scaled by u_sq[k-1-t] *)
  Lemma go_block t usq k s : length s = Nat.pow 2 t ->
    forall j c, c + j = Nat.pow 2 t ->
    svec_iter_go j (Nat.pow 2 t + c) usq k (s ++ map (fun x => fmul x (nth (k - 1 - t) usq f0)) (firstn c s))
    = s ++ map (fun x => fmul x (nth (k - 1 - t) usq f0)) s.
  Proof.
    intros Hs. induction j as [|j IH]; intros c Hc.
    - cbn [Ipa.svec_iter_go]. rewrite firstn_all2 by lia. reflexivity.
    - cbn [Ipa.svec_iter_go].
      assert (Hlg : Nat.log2 (Nat.pow 2 t + c) = t).
      { apply Nat.log2_unique; [lia|]. cbn [Nat.pow]. lia. }
      rewrite Hlg. replace (Nat.pow 2 t + c - Nat.pow 2 t) with c by lia.
      rewrite app_nth1 by lia.
      replace (S (Nat.pow 2 t + c)) with (Nat.pow 2 t + S c) by lia.
      rewrite <- (IH (S c)) by lia. f_equal.
      rewrite (firstn_S_nth f0 c s) by lia. rewrite map_app, <- app_assoc. reflexivity.
  Qed.

  Fixpoint dbl (usq : list F) (k t : nat) (z : F) : list F :=
    match t with
    | O => [z]
    | S t' => let s := dbl usq k t' z in s ++ map (fun x => fmul x (nth (k - 1 - t') usq f0)) s
    end.

  Lemma dbl_length usq k z : forall t, length (dbl usq k t z) = Nat.pow 2 t.
  Proof. induction t; cbn [dbl length Nat.pow]; [reflexivity|]. rewrite app_length, map_length, IHt. lia. Qed.

  Lemma go_is_dbl usq k z : forall t,
    svec_iter_go (Nat.pow 2 t - 1) 1 usq k [z] = dbl usq k t z.
  Proof.
    induction t as [|t IH].
    - reflexivity.
    - replace (Nat.pow 2 (S t) - 1) with ((Nat.pow 2 t - 1) + Nat.pow 2 t)
        by (cbn [Nat.pow]; pose proof (Nat.pow_nonzero 2 t); lia).
      rewrite go_add, IH.
      replace (1 + (Nat.pow 2 t - 1)) with (Nat.pow 2 t + 0) by (pose proof (Nat.pow_nonzero 2 t); lia).
      pose proof (go_block t usq k (dbl usq k t z) (dbl_length usq k z t) (Nat.pow 2 t) 0 ltac:(lia)) as B.
      cbn [firstn map] in B. rewrite app_nil_r in B. rewrite B. reflexivity.
  Qed.

  Lemma dbl_scale usq k c z : forall t, dbl usq k t (fmul c z) = vscale c (dbl usq k t z).
  Proof.
    induction t; cbn [dbl].
    - reflexivity.
    - rewrite IHt. unfold BpAlg.vscale. rewrite map_app, !map_map. f_equal.
      apply map_ext. intros x. ring.
  Qed.

  Lemma dbl_tail u usq k z : forall t, t <= k ->
    dbl (u :: usq) (S k) t z = dbl usq k t z.
  Proof.
    induction t as [|t IH]; intros Ht; cbn [dbl]; [reflexivity|].
    rewrite IH by lia. f_equal. apply map_ext. intros x. f_equal.
    replace (S k - 1 - t) with (S (k - 1 - t)) by lia. reflexivity.
  Qed.

  Lemma s_zero_acc : forall us acc, fold_left (fun a p => fmul a (snd p)) us acc = fmul acc (fold_left (fun a (p : F * F) => fmul a (snd p)) us f1).
  Proof.
    induction us as [|p us IH]; intros acc; cbn [fold_left].
    - ring.
    - rewrite IH. rewrite (IH (fmul f1 (snd p))). ring.
  Qed.

  Theorem svec_iter_eq_svec : forall us,
    Forall (fun p => fmul (fst p) (snd p) = f1) us -> svec_iter us = svec us.
  Proof.
    intros us. unfold Ipa.svec_iter. rewrite go_is_dbl.
    induction us as [|[u ui] us IH]; intros Hinv.
    - reflexivity.
    - inversion Hinv as [|? ? Hu Hinv']; subst. cbn [fst snd] in Hu.
      cbn [length map fst snd Ipa.svec]. cbn [dbl].
      replace (S (length us) - 1 - length us) with 0 by lia. cbn [nth].
      rewrite dbl_tail by lia.
      assert (Hz : s_zero ((u, ui) :: us) = fmul ui (s_zero us)).
      { unfold Ipa.s_zero. cbn [fold_left snd]. rewrite s_zero_acc. ring. }
      rewrite Hz, dbl_scale, (IH Hinv').
      f_equal. unfold BpAlg.vscale. rewrite map_map. apply map_ext. intros x.
      transitivity (fmul (fmul u x) (fmul u ui)); [ring | rewrite Hu; ring].
  Qed.

  (** * (2) the value of a bit vector *)
  Definition fofZ (v : Z) : F := gen_phiZ f0 f1 fadd fmul fopp v.
  Lemma fofZ_add x y : fofZ (x + y) = fadd (fofZ x) (fofZ y).
  Proof. apply (gen_phiZ_add (Eqsth F) (Eq_ext fadd fmul fopp) Fth). Qed.
  Lemma fofZ_mul x y : fofZ (x * y) = fmul (fofZ x) (fofZ y).
  Proof. apply (gen_phiZ_mul (Eqsth F) (Eq_ext fadd fmul fopp) Fth). Qed.

  Lemma powers_scale z : forall n c, powers_from z (fmul c z) n = vscale z (powers_from z c n).
  Proof.
    induction n; intros c; cbn [BpAlg.powers_from]; [reflexivity|].
    unfold BpAlg.vscale. cbn [map]. f_equal; [ring|]. apply IHn.
  Qed.

  Lemma fbits_S v n : fbits v (S n) = fbit v 0 :: fbits (v / 2) n.
  Proof.
    unfold RangeProof.fbits. cbn [seq map]. f_equal. rewrite <- seq_shift, map_map. apply map_ext.
    intros i. unfold RangeProof.fbit. rewrite Nat2Z.inj_succ, Z.div2_bits by lia. reflexivity.
  Qed.

  Lemma two_n_S n : two_n_vec (S n) = f1 :: vscale (fadd f1 f1) (two_n_vec n).
  Proof. unfold RangeProof.two_n_vec. cbn [BpAlg.powers_from]. f_equal. apply powers_scale. Qed.

  Theorem fval_canonical : forall n v,
    dot (fbits v n) (two_n_vec n) = fofZ (v mod 2 ^ Z.of_nat n).
  Proof.
    induction n as [|n IH]; intros v.
    - cbn [Z.of_nat Z.pow]. rewrite Z.mod_1_r. reflexivity.
    - rewrite fbits_S, two_n_S. rewrite dot_cons, (dot_vscale_r Ops Fth), IH.
      rewrite Nat2Z.inj_succ, Z.pow_succ_r by lia.
      rewrite (Z.rem_mul_r v 2 (2 ^ Z.of_nat n)) by lia.
      rewrite fofZ_add, fofZ_mul.
      replace (fofZ 2) with (fadd f1 f1) by reflexivity.
      replace (fofZ (v mod 2)) with (fbit v 0).
      + ring.
      + unfold RangeProof.fbit. cbn [Z.of_nat]. rewrite <- Z.bit0_mod.
        destruct (Z.testbit v 0); reflexivity.
  Qed.

  (** for 0 <= v < 2^n the committed scalar is the canonical image of v itself *)
  Corollary fval_in_range : forall n v, (0 <= v < 2 ^ Z.of_nat n)%Z ->
    dot (fbits v n) (two_n_vec n) = fofZ v.
  Proof. intros n v H. rewrite fval_canonical, Z.mod_small by exact H. reflexivity. Qed.
End Extras.
