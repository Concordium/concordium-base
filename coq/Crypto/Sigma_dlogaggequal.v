(** sigma_protocols/dlogaggequal.rs - a private module ("only there for reference ... not used"),
    reached through the cfg hook [verif_dlogaggequal]; the executable entry point is in SigmaExecDae.v.
    One [Dlog] and a vector of [AggregateDlog]s whose first exponent equals the dlog secret.

    OBSERVATION: [extract_commit_message] zips [aggregate_dlogs] with
    [response.responses] WITHOUT comparing their lengths; a response with fewer inner vectors makes the
    verifier reconstruct (and hash) fewer points, i.e. the truncated-response attack of C07 would work
    here: [dlogaggequal_response_count_unchecked_refuted_]. *)
From Coq Require Import PeanoNat List Lia.
From CB Require Import Crypto.Alg Crypto.Transcript Crypto.SigmaGeneric Crypto.SigmaCodec Crypto.Sigma_dlog
  Crypto.Sigma_aggregate_dlog.
Import ListNotations.

Section DlogAggEqual.
  Context {K : FieldOps} {M : ModOps K} (Cd : CodecOps M).
  Local Open Scope G_scope.
  Notation len := (@List.length _).
  Definition dae_stmt : Type := (dlog_stmt M * list (agg_stmt M))%type.
  Definition dae_wit : Type := (K * list (list K))%type.   (* common, the remaining exponents of each aggregate *)

  Definition dae_public (k : tkind) (s : dae_stmt) : bytes :=
    each k [] (agg_public Cd k) (snd s) ++ dlog_public Cd k (fst s).
  Definition dae_commit (s : dae_stmt) (r : dae_wit) : option (M * list M) :=
    let '(rc, rs) := r in
    Some (rc *: dl_coeff (fst s), map2 (fun a ri => msm (rc :: ri) (ag_coeff a)) (snd s) rs).
  Definition resp1 (c w rho : K) : K := Fadd K (Fopp K (Fmul K c w)) rho.
  Definition dae_respond (s : dae_stmt) (w r : dae_wit) (c : K) : option dae_wit :=
    Some (resp1 c (fst w) (fst r), map2 (map2 (resp1 c)) (snd w) (snd r)).
  (** [if w.len() + 1 != coeff.len() return None] per aggregate; NO check on the number of aggregates *)
  Fixpoint dae_points (aggs : list (agg_stmt M)) (c zc : K) (ws : list (list K)) : option (list M) :=
    match aggs, ws with
    | a :: aggs', w :: ws' =>
      if negb (Nat.eqb (len w + 1) (len (ag_coeff a))) then None else
      match dae_points aggs' c zc ws' with
      | Some ps => Some ((c *: ag_public a + msm (zc :: w) (ag_coeff a)) :: ps)
      | None => None
      end
    | _, _ => Some []
    end.
  Definition dae_extract (s : dae_stmt) (c : K) (z : dae_wit) : option (M * list M) :=
    match dae_points (snd s) c (fst z) (snd z) with
    | Some ps => Some (fst z *: dl_coeff (fst s) + c *: dl_public (fst s), ps)
    | None => None
    end.
  Definition dae_proto : proto K := {|
    p_stmt := dae_stmt; p_wit := dae_wit; p_rand := dae_wit; p_cm := M * list M; p_resp := dae_wit;
    p_public := dae_public; p_commit := dae_commit; p_respond := dae_respond; p_extract := dae_extract;
    p_ser_cm := fun a => serG Cd (fst a) ++ ser_vec (map (serG Cd) (snd a));
    p_ser_resp := fun z => ser_vec32 (map (fun w => ser_vec (map (serF Cd) w)) (snd z)) ++ serF Cd (fst z) |}.

  (** a response that answers NONE of the aggregates is not rejected: the reconstructed commit message
      simply has no aggregate points (and says nothing about the aggregate statements) *)
  Theorem dlogaggequal_response_count_unchecked_refuted_ : forall (d : dlog_stmt M) (a : agg_stmt M) (c zc : K),
    exists cm, dae_extract (d, [a]) c (zc, []) = Some (cm, []).
  Proof. intros. eexists. reflexivity. Qed.

  (** the zip stops at the shorter list, in both directions: surplus inner vectors are ignored, and
      missing ones make the verifier reconstruct fewer points *)
  Lemma dae_points_app : forall (aggs more : list (agg_stmt M)) (c zc : K) (ws extra : list (list K)),
    len ws = len aggs -> more = [] \/ extra = [] ->
    dae_points (aggs ++ more) c zc (ws ++ extra) = dae_points aggs c zc ws.
  Proof.
    induction aggs as [|a aggs IH]; intros more c zc [|w ws] extra L E; try discriminate.
    - destruct E as [-> | ->]; [reflexivity | destruct more; reflexivity].
    - cbn [dae_points app]. rewrite IH by (assumption || (cbn in L; lia)). reflexivity.
  Qed.
  Theorem dae_extract_surplus_ignored_ : forall (s : dae_stmt) (c zc : K) (ws extra : list (list K)),
    len ws = len (snd s) -> dae_extract s c (zc, ws ++ extra) = dae_extract s c (zc, ws).
  Proof.
    intros s c zc ws extra L. unfold dae_extract. cbn [fst snd].
    rewrite <- (app_nil_r (snd s)) at 1. rewrite dae_points_app by auto. reflexivity.
  Qed.
  Theorem dae_points_truncated_ : forall (aggs more : list (agg_stmt M)) (c zc : K) (ws : list (list K)),
    len ws = len aggs -> dae_points (aggs ++ more) c zc ws = dae_points aggs c zc ws.
  Proof. intros aggs more c zc ws L. rewrite <- (app_nil_r ws) at 1. apply dae_points_app; auto. Qed.
End DlogAggEqual.
