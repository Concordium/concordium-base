(** C20: Pedersen commitments of [pedersen_commitment/key.rs] as corollaries of [multiexp_correct].

    [VecCommitmentKey::hide_worker]: [None] if there are more values than bases; otherwise
    bases := gs.iter().take(values.len()) ++ [h], scalars := values ++ [randomness], multiexp.
    The [take] is modelled explicitly ([firstn]); [vec_commit_notake] is the variant without it
    (bases := gs ++ [h]), which pairs the randomness with g_{|vs|} instead of h when |vs| < |gs|. *)
From Coq Require Import ZArith List Lia.
From CB Require Import Crypto.Wnaf.
From CB Require Import Crypto.WnafProofs.
Import ListNotations.
Open Scope Z_scope.

Section VecCommit.
  Variable G : Type.
  Variable gzero : G.
  Variables gadd gsub : G -> G -> G.
  Variables gdbl gneg : G -> G.

  Definition vec_commit (w : Z) (field_bits : nat) (gs : list G) (h : G) (vs : list (list Z)) (r : list Z) : option G :=
    if (length gs <? length vs)%nat then None
    else Some (multiexp G gzero gadd gsub gdbl w field_bits (firstn (length vs) gs ++ [h]) (vs ++ [r])).

  Definition vec_commit_notake (w : Z) (field_bits : nat) (gs : list G) (h : G) (vs : list (list Z)) (r : list Z) : option G :=
    if (length gs <? length vs)%nat then None
    else Some (multiexp G gzero gadd gsub gdbl w field_bits (gs ++ [h]) (vs ++ [r])).

  (** [CommitmentKey::hide_worker]: multiexp(&[g, h], &[value, randomness]). *)
  Definition commit (w : Z) (field_bits : nat) (g h : G) (v r : list Z) : G :=
    multiexp G gzero gadd gsub gdbl w field_bits [g; h] [v; r].

  (** The specification: sum_{i < |vs|} vs_i * gs_i + r * h. *)
  Definition vec_commit_spec (gs : list G) (h : G) (vs : list (list Z)) (r : list Z) : G :=
    gadd (msum G gzero gadd gneg limbs_val (combine vs gs)) (zmul G gzero gadd gneg (limbs_val r) h).
End VecCommit.

Lemma combine_app_eq {A B} (a b : list A) (a' b' : list B) :
  length a = length a' -> combine (a ++ b) (a' ++ b') = combine a a' ++ combine b b'.
Proof.
  revert a'. induction a as [|x a IH]; intros [|y a'] H; cbn in *; try discriminate; [reflexivity|].
  f_equal. apply IH. lia.
Qed.

Lemma combine_firstn_len {A B} (vs : list A) (gs : list B) :
  combine vs (firstn (length vs) gs) = combine vs gs.
Proof.
  revert gs. induction vs as [|x vs IH]; intros [|g gs]; cbn; try reflexivity. f_equal. apply IH.
Qed.

Definition scalar_ok (field_bits : nat) (s : list Z) : Prop :=
  wf_limbs s /\ limbs_val s < 2 ^ Z.of_nat field_bits /\ Z.of_nat field_bits < 64 * Z.of_nat (length s).

Theorem vec_commit_lemma : forall (G : Type) (gzero : G) (gadd gsub : G -> G -> G) (gdbl gneg : G -> G),
  abelian_group_laws gzero gadd gsub gdbl gneg ->
  forall w field_bits gs h vs r, 1 <= w < 62 ->
    Forall (scalar_ok field_bits) vs -> scalar_ok field_bits r ->
    (length vs <= length gs)%nat ->
    vec_commit G gzero gadd gsub gdbl w field_bits gs h vs r
    = Some (vec_commit_spec G gzero gadd gneg gs h vs r).
Proof.
  intros G gzero gadd gsub gdbl gneg L w fb gs h vs r Hw Hvs Hr Hlen.
  unfold vec_commit, vec_commit_spec.
  destruct (Nat.ltb_spec (length gs) (length vs)) as [Hc|_]; [lia|]. f_equal.
  rewrite (multiexp_correct_lemma G gzero gadd gsub gdbl gneg L w fb _ _ Hw).
  2:{ apply Forall_app. split; [exact Hvs|]. constructor; [exact Hr|constructor]. }
  rewrite combine_app_eq by (rewrite firstn_length; lia).
  rewrite combine_firstn_len, (msum_app G gzero gadd gsub gdbl gneg L). cbn [combine msum fst snd].
  rewrite (gadd_0_r G gzero gadd gsub gdbl gneg L). reflexivity.
Qed.

(** Too many values: [None]. *)
Lemma vec_commit_too_many : forall (G : Type) (gzero : G) (gadd gsub : G -> G -> G) (gdbl : G -> G) w fb gs h vs r,
  (length gs < length vs)%nat -> vec_commit G gzero gadd gsub gdbl w fb gs h vs r = None.
Proof.
  intros. unfold vec_commit. destruct (Nat.ltb_spec (length gs) (length vs)); [reflexivity|lia].
Qed.

(** The scalar commitment: v*g + r*h. *)
Theorem commit_lemma : forall (G : Type) (gzero : G) (gadd gsub : G -> G -> G) (gdbl gneg : G -> G),
  abelian_group_laws gzero gadd gsub gdbl gneg ->
  forall w field_bits g h v r, 1 <= w < 62 -> scalar_ok field_bits v -> scalar_ok field_bits r ->
    commit G gzero gadd gsub gdbl w field_bits g h v r
    = gadd (zmul G gzero gadd gneg (limbs_val v) g) (zmul G gzero gadd gneg (limbs_val r) h).
Proof.
  intros G gzero gadd gsub gdbl gneg L w fb g h v r Hw Hv Hr. unfold commit.
  rewrite (multiexp_correct_lemma G gzero gadd gsub gdbl gneg L w fb _ _ Hw) by (constructor; [exact Hv|constructor; [exact Hr|constructor]]).
  cbn [combine msum fst snd]. rewrite (gadd_0_r G gzero gadd gsub gdbl gneg L). reflexivity.
Qed.

(** Without the [take]: two bases (1 and 10), h = 100, no values, randomness 1 (integers, window 4,
    NUM_BITS 255): the specification gives 1*100, the variant without [take] gives 1*g_0 = 1. *)
Example vec_commit_notake_refuted :
  let one := to_limbs 4 1 in
  scalar_ok 255 one /\
  vec_commit Z 0 Z.add Z.sub (fun a => a + a) 4 255 [1; 10] 100 [] one = Some 100 /\
  vec_commit_spec Z 0 Z.add Z.opp [1; 10] 100 [] one = 100 /\
  vec_commit_notake Z 0 Z.add Z.sub (fun a => a + a) 4 255 [1; 10] 100 [] one = Some 1.
Proof.
  cbv zeta. split.
  - unfold scalar_ok. split; [repeat constructor; vm_compute; intuition discriminate|].
    split; vm_compute; reflexivity.
  - split; [vm_compute; reflexivity|]. split; vm_compute; reflexivity.
Qed.
