(** Proofs about the scalar codecs, [scalar_from_bytes] and the [keygen_bls] reduction
    (model: ScalarCodec.v). *)
From Coq Require Import NArith List Lia Arith.
From CB Require Import Crypto.ScalarCodec.
Import ListNotations.
Local Open Scope N_scope.

Definition bytes_ok (bs : list N) : Prop := Forall (fun b => b < 256) bs.

Lemma to_le_length n x : length (to_le n x) = n.
Proof. revert x. induction n as [|n IH]; intros x; cbn [to_le length]; [reflexivity|]. rewrite IH. reflexivity. Qed.

Lemma le_val_to_le n x : le_val (to_le n x) = x mod 256 ^ N.of_nat n.
Proof.
  revert x. induction n as [|n IH]; intros x; cbn [to_le le_val].
  - cbn. rewrite N.mod_1_r. reflexivity.
  - rewrite IH. replace (N.of_nat (S n)) with (1 + N.of_nat n) by lia. rewrite N.pow_add_r, N.pow_1_r.
    rewrite N.mod_mul_r by (try apply N.pow_nonzero; lia). lia.
Qed.

Lemma to_le_le_val bs : bytes_ok bs -> to_le (length bs) (le_val bs) = bs.
Proof.
  induction 1 as [|b bs Hb _ IH]; [reflexivity|]. cbn [length to_le le_val].
  replace (b + 256 * le_val bs) with (le_val bs * 256 + b) by lia.
  rewrite N.div_add_l by lia. rewrite (N.div_small b) by assumption. rewrite N.add_0_r.
  replace (le_val bs * 256 + b) with (b + le_val bs * 256) by lia.
  rewrite N.mod_add by lia. rewrite N.mod_small by assumption.
  rewrite IH. reflexivity.
Qed.

Lemma le_val_app a c : le_val (a ++ c) = le_val a + 256 ^ N.of_nat (length a) * le_val c.
Proof.
  induction a as [|x a IH]; cbn [app le_val length].
  - change (N.of_nat 0) with 0. rewrite N.pow_0_r. lia.
  - rewrite IH, Nat2N.inj_succ, N.pow_succ_r'. lia.
Qed.

(** * Big-endian: the little-endian codec on the reversed string *)
Lemma be_val_app bs b : be_val (bs ++ [b]) = be_val bs * 256 + b.
Proof. unfold be_val. rewrite fold_left_app. reflexivity. Qed.

Lemma le_val_rev bs : le_val (rev bs) = be_val bs.
Proof.
  induction bs as [|b bs IH] using rev_ind; [reflexivity|].
  rewrite rev_app_distr. cbn [rev app le_val]. rewrite be_val_app, IH. lia.
Qed.

Lemma be_val_cons b rest : be_val (b :: rest) = b * 256 ^ N.of_nat (length rest) + be_val rest.
Proof. rewrite <- !le_val_rev. cbn [rev]. rewrite le_val_app, rev_length. cbn [le_val]. lia. Qed.

Lemma to_be_rev n x : to_be n x = rev (to_le n x).
Proof. revert x. induction n as [|n IH]; intros x; cbn [to_be to_le rev]; [|rewrite IH]; reflexivity. Qed.

Lemma to_be_length n x : length (to_be n x) = n.
Proof. rewrite to_be_rev, rev_length. apply to_le_length. Qed.

Lemma to_be_bytes n x : bytes_ok (to_be n x).
Proof.
  revert x. induction n as [|n IH]; intros x; cbn [to_be]; [constructor|].
  apply Forall_app. split; [apply IH|]. constructor; [|constructor]. apply N.mod_lt. lia.
Qed.

Lemma be_val_to_be n x : be_val (to_be n x) = x mod 256 ^ N.of_nat n.
Proof. rewrite to_be_rev, <- le_val_rev, rev_involutive. apply le_val_to_le. Qed.

Lemma to_be_be_val bs : bytes_ok bs -> to_be (length bs) (be_val bs) = bs.
Proof.
  intros Hok. rewrite to_be_rev, <- le_val_rev, <- (rev_length bs), to_le_le_val by (apply Forall_rev, Hok).
  apply rev_involutive.
Qed.

(** The decoder is a variable with its defining equation as a premise ([fun _ _ => eq_refl] at both
    instances).  Defining it here over [val] instead would leave Coq to identify
    [scalar_decode r (scalar_encode x)] with the unfolded generic decoder, which it attempts by
    evaluating the 32-byte encoder on the variable [x] and does not finish. *)
Section Codec.
  Variables (val : list N -> N) (enc : nat -> N -> list N) (dec : N -> list N -> option N).
  Hypothesis enc_length : forall n x, length (enc n x) = n.
  Hypothesis val_enc : forall n x, val (enc n x) = x mod 256 ^ N.of_nat n.
  Hypothesis enc_val : forall bs, bytes_ok bs -> enc (length bs) (val bs) = bs.
  Hypothesis dec_def : forall r bs, dec r bs =
    if Nat.eqb (length bs) 32 then if val bs <? r then Some (val bs) else None else None.

  Theorem codec_canonical r : r <= 2 ^ 256 ->
    (forall x, x < r -> dec r (enc 32 x) = Some x) /\
    (forall bs x, bytes_ok bs -> dec r bs = Some x -> bs = enc 32 x /\ x < r /\ length bs = 32%nat) /\
    (forall bs, r <= val bs -> dec r bs = None).
  Proof.
    intros Hr. split; [|split].
    - intros x Hx. rewrite dec_def, enc_length, val_enc. cbn [Nat.eqb].
      change (256 ^ N.of_nat 32) with (2 ^ 256). rewrite N.mod_small by lia.
      destruct (N.ltb_spec x r); [reflexivity|lia].
    - intros bs x Hok. rewrite dec_def. destruct (Nat.eqb_spec (length bs) 32) as [Hlen|]; [|discriminate].
      destruct (N.ltb_spec (val bs) r); [|discriminate]. intros [= <-].
      split; [|split; assumption]. rewrite <- Hlen. symmetry. apply enc_val. assumption.
    - intros bs H. rewrite dec_def. destruct (Nat.eqb (length bs) 32); [|reflexivity].
      destruct (N.ltb_spec (val bs) r); [lia|reflexivity].
  Qed.
End Codec.

Lemma le_val_split k bs : le_val bs = le_val (firstn k bs) + 256 ^ N.of_nat k * le_val (skipn k bs).
Proof.
  rewrite <- (firstn_skipn k bs) at 1. rewrite le_val_app.
  destruct (Nat.le_gt_cases k (length bs)) as [Hk|Hk].
  - rewrite firstn_length_le by exact Hk. reflexivity.
  - rewrite (skipn_all2 bs) by lia. cbn [le_val]. lia.
Qed.

Lemma le_val_bound bs : bytes_ok bs -> le_val bs < 256 ^ N.of_nat (length bs).
Proof.
  induction 1 as [|b bs Hb _ IH]; [cbn; lia|]. cbn [le_val length].
  replace (N.of_nat (S (length bs))) with (1 + N.of_nat (length bs)) by lia. rewrite N.pow_add_r, N.pow_1_r. nia.
Qed.

Lemma bytes_ok_split k bs : bytes_ok bs -> bytes_ok (firstn k bs) /\ bytes_ok (skipn k bs).
Proof. intros H. apply Forall_app. rewrite firstn_skipn. exact H. Qed.

Lemma bytes_ok_firstn k bs : bytes_ok bs -> bytes_ok (firstn k bs).
Proof. apply bytes_ok_split. Qed.
Lemma bytes_ok_skipn k bs : bytes_ok bs -> bytes_ok (skipn k bs).
Proof. apply bytes_ok_split. Qed.

Lemma le_val_firstn_bound k bs : bytes_ok bs -> le_val (firstn k bs) < 256 ^ N.of_nat k.
Proof.
  intros H. eapply N.lt_le_trans; [apply le_val_bound, bytes_ok_firstn, H|].
  apply N.pow_le_mono_r; [lia|]. pose proof (firstn_le_length k bs). lia.
Qed.

Lemma skipn_skipn' {A} a : forall b (l : list A), skipn a (skipn b l) = skipn (b + a) l.
Proof.
  induction b as [|b IH]; intros l; [reflexivity|]. destruct l as [|x l]; cbn [skipn Nat.add].
  - destruct a; reflexivity.
  - apply IH.
Qed.

Lemma sfb_limb_bound bs k : bytes_ok bs -> sfb_limb bs k < 2 ^ 64.
Proof. intros H. apply (le_val_firstn_bound 8), bytes_ok_skipn, H. Qed.

(** the four 64-bit limbs are the base-2^64 digits of the first 32 bytes *)
Lemma limbs_of_first_32 bs :
  le_val (firstn 32 bs)
  = sfb_limb bs 0 + 2 ^ 64 * (sfb_limb bs 1 + 2 ^ 64 * (sfb_limb bs 2 + 2 ^ 64 * sfb_limb bs 3)).
Proof.
  unfold sfb_limb. cbn [Nat.mul Nat.add]. change (skipn 0 bs) with bs.
  rewrite (le_val_split 8 (firstn 32 bs)). rewrite firstn_firstn. cbn [Nat.min].
  rewrite skipn_firstn_comm. cbn [Nat.sub].
  rewrite (le_val_split 8 (firstn 24 (skipn 8 bs))). rewrite firstn_firstn. cbn [Nat.min].
  rewrite skipn_firstn_comm, skipn_skipn'. cbn [Nat.sub Nat.add].
  rewrite (le_val_split 8 (firstn 16 (skipn 16 bs))). rewrite firstn_firstn. cbn [Nat.min].
  rewrite skipn_firstn_comm, skipn_skipn'. cbn [Nat.sub Nat.add].
  change (256 ^ N.of_nat 8) with (2 ^ 64). reflexivity.
Qed.

(** [scalar_from_bytes] takes exactly the low [256 - remove] bits of the little-endian value of
    the first 32 bytes *)
Lemma scalar_from_bytes_value r remove bs : bytes_ok bs -> remove <= 64 ->
  N.shiftr (2 ^ 64 - 1) remove = N.ones (64 - remove) -> 2 ^ (256 - remove) <= r ->
  scalar_from_bytes r 4 remove bs = Some (le_val (firstn 32 bs) mod 2 ^ (256 - remove)).
Proof.
  intros Hok Hrm Hmask Hr. unfold scalar_from_bytes, sfb_limbs. cbn [seq map Nat.eqb limbs_val_N].
  rewrite Hmask, N.land_ones. rewrite limbs_of_first_32.
  pose proof (sfb_limb_bound bs 0 Hok) as H0. pose proof (sfb_limb_bound bs 1 Hok) as H1.
  pose proof (sfb_limb_bound bs 2 Hok) as H2.
  set (l0 := sfb_limb bs 0) in *. set (l1 := sfb_limb bs 1) in *. set (l2 := sfb_limb bs 2) in *.
  set (l3 := sfb_limb bs 3) in *. set (m := 64 - remove).
  assert (E : (l0 + 2 ^ 64 * (l1 + 2 ^ 64 * (l2 + 2 ^ 64 * l3))) mod 2 ^ (256 - remove)
              = l0 + 2 ^ 64 * (l1 + 2 ^ 64 * (l2 + 2 ^ 64 * (l3 mod 2 ^ m + 2 ^ 64 * 0)))).
  { replace (256 - remove) with (192 + m) by (unfold m; lia). rewrite N.pow_add_r.
    set (T := l0 + 2 ^ 64 * (l1 + 2 ^ 64 * l2)).
    assert (HT : T < 2 ^ 192) by (unfold T; lia).
    replace (l0 + 2 ^ 64 * (l1 + 2 ^ 64 * (l2 + 2 ^ 64 * l3))) with (T + l3 * 2 ^ 192)
      by (unfold T; lia).
    rewrite N.mod_mul_r by (try apply N.pow_nonzero; lia).
    rewrite N.mod_add by lia. rewrite (N.mod_small T) by assumption.
    rewrite N.div_add by lia. rewrite (N.div_small T) by assumption. rewrite N.add_0_l.
    unfold T. lia. }
  rewrite <- E. set (X := _ mod 2 ^ (256 - remove)).
  assert (Hlt : X < r) by (eapply N.lt_le_trans; [apply N.mod_lt, N.pow_nonzero; lia|exact Hr]).
  destruct (N.ltb_spec X r); [reflexivity|lia].
Qed.

Theorem bls_scalar_from_bytes_capacity bs : bytes_ok bs ->
  bls_scalar_from_bytes bs = Some (le_val (firstn 32 bs) mod 2 ^ 254).
Proof.
  intros H. unfold bls_scalar_from_bytes. rewrite (scalar_from_bytes_value bls_r 2 bs H); [reflexivity|lia|reflexivity|].
  vm_compute. discriminate.
Qed.

Theorem ed_scalar_from_bytes_capacity bs : bytes_ok bs ->
  ed_scalar_from_bytes bs = Some (le_val (firstn 32 bs) mod 2 ^ 252).
Proof.
  intros H. unfold ed_scalar_from_bytes. rewrite (scalar_from_bytes_value ed_l 4 bs H); [reflexivity|lia|reflexivity|].
  vm_compute. discriminate.
Qed.

(** * [keygen_bls]: the 31/17-byte split computes OS2IP(okm) mod r *)
Lemma le_val_app_zeros bs k : le_val (bs ++ repeat 0 k) = le_val bs.
Proof.
  rewrite le_val_app. replace (le_val (repeat 0 k)) with 0; [lia|].
  induction k as [|k IH]; cbn [repeat le_val]; [|rewrite <- IH]; reflexivity.
Qed.

Lemma le_val_pad32 bs : (length bs <= 32)%nat -> le_val (firstn 32 (pad32 bs)) = le_val bs.
Proof.
  intros H. unfold pad32. rewrite firstn_all2 by (rewrite app_length, repeat_length; lia).
  apply le_val_app_zeros.
Qed.

Lemma bytes_ok_pad32 bs : bytes_ok bs -> bytes_ok (pad32 bs).
Proof.
  unfold bytes_ok. intros H. unfold pad32. apply Forall_app. split; [assumption|].
  apply Forall_forall. intros x Hx. apply repeat_spec in Hx. subst. reflexivity.
Qed.

Theorem keygen_round_os2ip okm : bytes_ok okm -> length okm = 48%nat ->
  keygen_round okm = Some (be_val okm mod bls_r).
Proof.
  intros Hok Hlen. unfold keygen_round.
  assert (Hrev : bytes_ok (rev okm)) by (apply Forall_rev; assumption).
  assert (Hlr : length (rev okm) = 48%nat) by (rewrite rev_length; assumption).
  set (okm' := rev okm) in *.
  assert (H1ok : bytes_ok (firstn 31 okm')) by (apply bytes_ok_firstn; assumption).
  assert (H2ok : bytes_ok (skipn 31 okm')) by (apply bytes_ok_skipn; assumption).
  assert (L1 : length (firstn 31 okm') = 31%nat) by (rewrite firstn_length; lia).
  assert (L2 : length (skipn 31 okm') = 17%nat) by (rewrite skipn_length; lia).
  rewrite !bls_scalar_from_bytes_capacity by (apply bytes_ok_pad32; assumption).
  rewrite !le_val_pad32 by lia.
  set (y1 := le_val (firstn 31 okm')). set (y2 := le_val (skipn 31 okm')).
  assert (B1 : y1 < 256 ^ N.of_nat 31) by (rewrite <- L1; apply le_val_bound, H1ok).
  assert (B2 : y2 < 256 ^ N.of_nat 17) by (rewrite <- L2; apply le_val_bound, H2ok).
  rewrite (N.mod_small y1) by (eapply N.lt_trans; [exact B1|reflexivity]).
  rewrite (N.mod_small y2) by (eapply N.lt_trans; [exact B2|reflexivity]).
  f_equal.
  assert (Hval : be_val okm = y1 + 2 ^ 248 * y2).
  { rewrite <- le_val_rev. fold okm'. rewrite (le_val_split 31 okm'). reflexivity. }
  rewrite Hval.
  assert (Hr : bls_r <> 0) by discriminate.
  rewrite N.add_mod_idemp_r by assumption.
  rewrite (N.mod_small (2 ^ 248) bls_r) by reflexivity.
  f_equal. lia.
Qed.

(** the loop returns only a non-zero scalar, namely OS2IP(okm_i) mod r for the first round [i]
    whose reduction is non-zero *)
Theorem keygen_loop_spec okms : (forall i, bytes_ok (okms i) /\ length (okms i) = 48%nat) ->
  forall fuel start sk, keygen_loop fuel okms start = Some sk ->
  sk <> 0 /\ exists i, (start <= i)%nat /\ sk = be_val (okms i) mod bls_r /\
                       forall j, (start <= j < i)%nat -> be_val (okms j) mod bls_r = 0.
Proof.
  intros Hok. induction fuel as [|fuel IH]; intros start sk H; [discriminate|].
  cbn [keygen_loop] in H. destruct (Hok start) as [Hb Hl].
  rewrite (keygen_round_os2ip _ Hb Hl) in H.
  destruct (N.eqb_spec (be_val (okms start) mod bls_r) 0) as [Hz|Hnz].
  - destruct (IH _ _ H) as (Hne & i & Hi & Hsk & Hall). split; [assumption|].
    exists i. split; [lia|]. split; [assumption|]. intros j Hj.
    destruct (Nat.eq_dec j start) as [->|]; [assumption|]. apply Hall. lia.
  - injection H as <-. split; [assumption|]. exists start. split; [lia|]. split; [reflexivity|]. intros j Hj. lia.
Qed.
