(** Pairing groups on top of [Alg.v] (DESIGN 4.5): three modules over one scalar field and a
    bilinear map [e : M1 -> M2 -> MT] (the target group written additively, so a "product of
    pairings" is a sum).  Only bilinearity is assumed (non-degeneracy is not needed for completeness /
    special soundness of the sigma protocols).  Executable instance "in the exponent":
    [e a b = a*b] on Z mod r. *)
From Coq Require Import List.
From CB Require Import Crypto.Alg.
Import ListNotations.

Record PairOps (K : FieldOps) : Type := mkPairOps {
  PM1 : ModOps K; PM2 : ModOps K; PMT : ModOps K;
  pe : PM1 -> PM2 -> PMT }.
Arguments PM1 {K} _. Arguments PM2 {K} _. Arguments PMT {K} _. Arguments pe {K} _ _ _.

Class PairLaws {K : FieldOps} (P : PairOps K) : Prop := mkPairLaws {
  PL1 : ModLaws (PM1 P); PL2 : ModLaws (PM2 P); PLT : ModLaws (PMT P);
  pe_add_l : forall a a' b, pe P (Gadd (PM1 P) a a') b = Gadd (PMT P) (pe P a b) (pe P a' b);
  pe_add_r : forall a b b', pe P a (Gadd (PM2 P) b b') = Gadd (PMT P) (pe P a b) (pe P a b');
  pe_smul_l : forall x a b, pe P (smul (PM1 P) x a) b = smul (PMT P) x (pe P a b);
  pe_smul_r : forall x a b, pe P a (smul (PM2 P) x b) = smul (PMT P) x (pe P a b) }.
#[global] Existing Instance PL1.
#[global] Existing Instance PL2.
#[global] Existing Instance PLT.

Section PairLemmas.
  Context {K : FieldOps} {KL : FieldLaws K} {P : PairOps K} {PL : PairLaws P}.
  Add Field Kf_pair : (@F_th K KL).
  Lemma pe_0_r a : pe P a (G0 (PM2 P)) = G0 (PMT P).
  Proof.
    apply (Gadd_cancel_l (pe P a (G0 (PM2 P)))). rewrite <- pe_add_r, (Gadd_0_l (G0 (PM2 P))), Gadd_0_r. reflexivity.
  Qed.
  Lemma pe_opp_r a b : pe P a (Gopp (PM2 P) b) = Gopp (PMT P) (pe P a b).
  Proof. rewrite (Gopp_smul_m1 b), pe_smul_r. symmetry. apply Gopp_smul_m1. Qed.
  (** the pairing of a multi-scalar multiplication *)
  Lemma pe_msm_r a : forall (ws : list K) (bs : list (PM2 P)),
    pe P a (msm ws bs) = msm ws (map (pe P a) bs).
  Proof.
    induction ws as [|w ws IH]; intros [|b bs]; cbn; try apply pe_0_r.
    now rewrite pe_add_r, pe_smul_r, IH.
  Qed.
End PairLemmas.
#[global] Hint Rewrite @pe_add_r @pe_smul_r @pe_opp_r using exact _ : pe_lin.

Definition ZrPair : PairOps ZrF := mkPairOps ZrF ZrG ZrG ZrG (fun a b => Fmul ZrF a b).
