(** C11 - every Fiat-Shamir challenge of the bulletproofs code is the hash of a frame that
    injectively contains every earlier prover message (both transcript implementations).

    Shape: two message lists have the same shape when they carry the same labels and payloads of the
    same lengths - always the case for two proofs checked in the same context, because group elements
    and scalars have fixed-width [Serial] encodings and vectors are length-prefixed.                 *)
From Coq Require Import List Lia.
From CB Require Import Crypto.Transcript Crypto.TranscriptProofs Crypto.BpTranscript.
Import ListNotations.

Definition plen (m : lmsg) : nat := List.length (snd m).
Definition same_shape (ms ms' : list lmsg) : Prop :=
  map fst ms = map fst ms' /\ map plen ms = map plen ms'.

Lemma enc_lmsgs_cons k m ms : enc_lmsgs k (m :: ms) = lbl k (fst m) ++ snd m ++ enc_lmsgs k ms.
Proof. unfold enc_lmsgs. cbn [map List.concat]. unfold enc_lmsg, msg. rewrite <- app_assoc. reflexivity. Qed.

Lemma enc_lmsgs_app k a b : enc_lmsgs k (a ++ b) = enc_lmsgs k a ++ enc_lmsgs k b.
Proof. unfold enc_lmsgs. rewrite map_app, concat_app. reflexivity. Qed.

(** same labels + same payload lengths: the framed bytes determine every payload (V1 and legacy) *)
Theorem enc_same_shape_inj : forall k ms ms' x y,
  same_shape ms ms' -> enc_lmsgs k ms ++ x = enc_lmsgs k ms' ++ y -> ms = ms' /\ x = y.
Proof.
  intros k. induction ms as [|[l p] ms IH]; intros [|[l' p'] ms'] x y [Hl Hp] E;
    cbn [map] in Hl, Hp; try discriminate.
  - cbn in E. auto.
  - injection Hl as Hl0 Hl. injection Hp as Hp0 Hp. cbn [fst] in Hl0. unfold plen in Hp0. cbn [snd] in Hp0. subst l'.
    rewrite !enc_lmsgs_cons in E. cbn [fst snd] in E. rewrite <- !app_assoc in E.
    apply app_inv_head in E. apply app_eq_len in E; [|exact Hp0]. destruct E as [-> E].
    destruct (IH ms' x y (conj Hl Hp) E) as [-> ->]. auto.
Qed.

Corollary state_same_shape_inj : forall k st ms ms',
  same_shape ms ms' -> st ++ enc_lmsgs k ms = st ++ enc_lmsgs k ms' -> ms = ms'.
Proof.
  intros k st ms ms' Hs E. apply app_inv_head in E.
  apply (enc_same_shape_inj k ms ms' [] [] Hs). rewrite !app_nil_r. exact E.
Qed.

Definition collision (H : bytes -> bytes) : Prop := exists s s', s <> s' /\ H s = H s'.

Lemma ipa_rounds_inj : forall lrs lrs', flat_map ipa_round lrs = flat_map ipa_round lrs' -> lrs = lrs'.
Proof.
  induction lrs as [|[l r] lrs IH]; intros [|[l' r'] lrs'] E; cbn in E; try discriminate.
  - reflexivity.
  - unfold lm, lb in E. injection E. intros Et -> ->. f_equal. auto.
Qed.

(** the challenge u_j is the hash of a string that determines L_0..L_j and R_0..R_j *)
Theorem ipa_challenges_bind_L_and_R_l : forall k st lrs lrs' j,
  same_shape (ipa_items lrs j) (ipa_items lrs' j) ->
  ipa_state_at k st lrs j = ipa_state_at k st lrs' j ->
  firstn (S j) lrs = firstn (S j) lrs'.
Proof.
  intros k st lrs lrs' j Hs E. unfold ipa_state_at in E.
  apply state_same_shape_inj in E; [|exact Hs]. apply ipa_rounds_inj. exact E.
Qed.

Theorem ipa_alter_gives_collision_l : forall (H : bytes -> bytes) k st lrs lrs' j,
  same_shape (ipa_items lrs j) (ipa_items lrs' j) ->
  firstn (S j) lrs <> firstn (S j) lrs' ->
  H (ipa_state_at k st lrs j) = H (ipa_state_at k st lrs' j) ->
  collision H.
Proof.
  intros H k st lrs lrs' j Hs Hne E. exists (ipa_state_at k st lrs j), (ipa_state_at k st lrs' j).
  split; [|exact E]. intro E'. apply Hne. eapply ipa_challenges_bind_L_and_R_l; eauto.
Qed.

Theorem challenge_frame_injective_l : forall k st pre pre' p p' s,
  same_shape (items_at pre p s) (items_at pre' p' s) ->
  state_at k st pre p s = state_at k st pre' p' s ->
  items_at pre p s = items_at pre' p' s.
Proof. intros k st pre pre' p p' s Hs E. unfold state_at in E. eapply state_same_shape_inj; eauto. Qed.

Lemma app_eq_len_tail {A} (a b x y : list A) :
  List.length x = List.length y -> a ++ x = b ++ y -> a = b /\ x = y.
Proof.
  intros Hl E. apply app_eq_len; [|exact E].
  apply (f_equal (@List.length A)) in E. rewrite !app_length in E. lia.
Qed.

(** what the items of each stage determine (same number of public-input messages): each stage appends
    a fixed number of messages to the previous one *)
Lemma items_y_inj pre pre' p p' : List.length pre = List.length pre' ->
  items_y pre p = items_y pre' p' -> pre = pre' /\ mA p = mA p' /\ mS p = mS p'.
Proof. intros Hl E. apply app_eq_len in E; [|exact Hl]. destruct E as [-> E]. injection E. auto. Qed.

Lemma items_x_inj pre pre' p p' : List.length pre = List.length pre' ->
  items_x pre p = items_x pre' p' ->
  pre = pre' /\ mA p = mA p' /\ mS p = mS p' /\ mT1 p = mT1 p' /\ mT2 p = mT2 p'.
Proof.
  intros Hl E. apply app_eq_len_tail in E; [|reflexivity]. destruct E as [E Et].
  apply app_eq_len_tail in E; [|reflexivity]. destruct E as [E _].
  destruct (items_y_inj _ _ _ _ Hl E) as [H1 [H2 H3]]. injection Et. auto.
Qed.

Lemma items_w_inj pre pre' p p' : List.length pre = List.length pre' ->
  items_w pre p = items_w pre' p' ->
  pre = pre' /\ mA p = mA p' /\ mS p = mS p' /\ mT1 p = mT1 p' /\ mT2 p = mT2 p'
  /\ mtx p = mtx p' /\ mtxt p = mtxt p' /\ met p = met p'.
Proof.
  intros Hl E. apply app_eq_len_tail in E; [|reflexivity]. destruct E as [E Et].
  destruct (items_x_inj _ _ _ _ Hl E) as [H1 [H2 [H3 [H4 H5]]]]. injection Et. intros. repeat split; assumption.
Qed.

Theorem range_challenges_bind_all_commitments_l : forall k st pre pre' p p' j,
  List.length pre = List.length pre' ->
  same_shape (items_at pre p (SU j)) (items_at pre' p' (SU j)) ->
  state_at k st pre p (SU j) = state_at k st pre' p' (SU j) ->
  pre = pre' /\ mA p = mA p' /\ mS p = mS p' /\ mT1 p = mT1 p' /\ mT2 p = mT2 p'
  /\ mtx p = mtx p' /\ mtxt p = mtxt p' /\ met p = met p'
  /\ firstn (S j) (mlr p) = firstn (S j) (mlr p').
Proof.
  intros k st pre pre' p p' j Hl Hs E.
  apply challenge_frame_injective_l in E; [|exact Hs]. cbn [items_at] in E.
  assert (Lw : List.length (items_w pre p) = List.length (items_w pre' p')).
  { unfold items_w, items_x, items_z, items_y. rewrite !app_length. cbn [List.length]. lia. }
  apply app_eq_len in E; [|exact Lw]. destruct E as [Ew Eu].
  apply (items_w_inj pre pre' p p' Hl) in Ew. apply ipa_rounds_inj in Eu. intuition.
Qed.

(** the earlier challenges: y, z bind the public inputs, A and S; x additionally T1, T2; w additionally
    t_x, tx~, e~ *)
Theorem early_challenges_bind_l : forall k st pre pre' p p',
  List.length pre = List.length pre' ->
  (same_shape (items_at pre p SY) (items_at pre' p' SY) ->
   state_at k st pre p SY = state_at k st pre' p' SY ->
   pre = pre' /\ mA p = mA p' /\ mS p = mS p')
  /\ (same_shape (items_at pre p SX) (items_at pre' p' SX) ->
      state_at k st pre p SX = state_at k st pre' p' SX ->
      pre = pre' /\ mA p = mA p' /\ mS p = mS p' /\ mT1 p = mT1 p' /\ mT2 p = mT2 p')
  /\ (same_shape (items_at pre p SW) (items_at pre' p' SW) ->
      state_at k st pre p SW = state_at k st pre' p' SW ->
      pre = pre' /\ mA p = mA p' /\ mS p = mS p' /\ mT1 p = mT1 p' /\ mT2 p = mT2 p'
      /\ mtx p = mtx p' /\ mtxt p = mtxt p' /\ met p = met p').
Proof.
  intros k st pre pre' p p' Hl.
  split; [|split]; intros Hs E; apply challenge_frame_injective_l in E; try exact Hs.
  - exact (items_y_inj _ _ _ _ Hl E).
  - exact (items_x_inj _ _ _ _ Hl E).
  - exact (items_w_inj _ _ _ _ Hl E).
Qed.

Theorem alter_gives_collision_l : forall (H : bytes -> bytes) k st pre pre' p p' s,
  same_shape (items_at pre p s) (items_at pre' p' s) ->
  items_at pre p s <> items_at pre' p' s ->
  H (state_at k st pre p s) = H (state_at k st pre' p' s) ->
  collision H.
Proof.
  intros H k st pre pre' p p' s Hs Hne E. exists (state_at k st pre p s), (state_at k st pre' p' s).
  split; [|exact E]. intro E'. apply Hne. eapply challenge_frame_injective_l; eauto.
Qed.

(** each stage extends the previous one: a later challenge binds everything an earlier one does *)
Lemma stage_prefix : forall pre p j,
  (exists t, items_at pre p SZ = items_at pre p SY ++ t)
  /\ (exists t, items_at pre p SX = items_at pre p SZ ++ t)
  /\ (exists t, items_at pre p SW = items_at pre p SX ++ t)
  /\ (exists t, items_at pre p (SU j) = items_at pre p SW ++ t)
  /\ (exists t, items_at pre p (SU (S j)) = items_at pre p (SU j) ++ t).
Proof.
  intros pre p j. repeat split; cbn [items_at]; unfold items_w, items_x, items_z; eauto.
  unfold ipa_items. rewrite <- (firstn_skipn (S j) (firstn (S (S j)) (mlr p))).
  rewrite flat_map_app, firstn_firstn. replace (Nat.min (S j) (S (S j))) with (S j) by lia.
  rewrite app_assoc. eauto.
Qed.
