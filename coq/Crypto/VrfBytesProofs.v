(** C19 - theorems about the byte-level ECVRF model (VrfBytes.v), for every abelian group with
    integer action whose base point has exact order [ed_l] and whose exponent divides [8 * ed_l],
    every [compress]/[decompress] pair with [decompress (compress P) = Some P] and 32-byte
    encodings, and EVERY function [sha512] returning byte strings (no property of SHA-512 is used
    except that its output consists of bytes). *)
From Coq Require Import ZArith List Lia.
From CB Require Import Crypto.Vrf Crypto.VrfProofs Crypto.VrfBytes.
From CB Require Crypto.ScalarCodecProofs.
Import ListNotations.
Local Open Scope Z_scope.

Definition bytes_ok (bs : list N) : Prop := Forall (fun b => (b < 256)%N) bs.
Definition p256 (n : nat) : Z := 256 ^ Z.of_nat n.

Lemma p256_0 : p256 0 = 1.
Proof. reflexivity. Qed.
Lemma p256_S n : p256 (S n) = 256 * p256 n.
Proof. unfold p256. rewrite Nat2Z.inj_succ, Z.pow_succ_r by lia. reflexivity. Qed.
Lemma p256_pos n : 0 < p256 n.
Proof. unfold p256. apply Z.pow_pos_nonneg; lia. Qed.
Lemma p256_mono n m : (n <= m)%nat -> p256 n <= p256 m.
Proof. intros H. unfold p256. apply Z.pow_le_mono_r; lia. Qed.
Lemma p256_16 : p256 16 = 2 ^ 128.
Proof. reflexivity. Qed.

Lemma ed_l_pos : 0 < ed_l.
Proof. reflexivity. Qed.
Lemma ed_l_above_128 : 2 ^ 128 < ed_l.
Proof. reflexivity. Qed.
Lemma ed_l_below_256 : ed_l < p256 32.
Proof. reflexivity. Qed.

Lemma bytes_ok_app a b : bytes_ok a -> bytes_ok b -> bytes_ok (a ++ b).
Proof. intros. now apply Forall_app. Qed.

Lemma firstn_app_exact {A} n (a b : list A) : length a = n -> firstn n (a ++ b) = a.
Proof. intros <-. induction a; cbn; congruence. Qed.
Lemma skipn_app_exact {A} n (a b : list A) : length a = n -> skipn n (a ++ b) = b.
Proof. intros <-. induction a; cbn; congruence. Qed.

Lemma le_decode_bound bs : bytes_ok bs -> 0 <= le_decode bs < p256 (length bs).
Proof.
  induction 1 as [|b bs Hb _ IH]; cbn [le_decode length].
  - rewrite p256_0. lia.
  - rewrite p256_S. lia.
Qed.

Lemma le_decode_encode n : forall z, le_decode (le_encode n z) = z mod p256 n.
Proof.
  induction n as [|n IH]; intros z; cbn [le_encode le_decode].
  - rewrite p256_0, Z.mod_1_r. reflexivity.
  - pose proof (Z.mod_pos_bound z 256 ltac:(lia)). pose proof (p256_pos n).
    rewrite IH, p256_S, Z2N.id, Z.rem_mul_r by lia. reflexivity.
Qed.

Lemma le_encode_decode bs : bytes_ok bs -> le_encode (length bs) (le_decode bs) = bs.
Proof.
  induction 1 as [|b bs Hb _ IH]; cbn [length le_decode le_encode]; [reflexivity|].
  assert (E1 : (Z.of_N b + 256 * le_decode bs) mod 256 = Z.of_N b).
  { replace (Z.of_N b + 256 * le_decode bs) with (Z.of_N b + le_decode bs * 256) by ring.
    rewrite Z_mod_plus_full. apply Z.mod_small. lia. }
  assert (E2 : (Z.of_N b + 256 * le_decode bs) / 256 = le_decode bs).
  { replace (Z.of_N b + 256 * le_decode bs) with (Z.of_N b + le_decode bs * 256) by ring.
    rewrite Z_div_plus_full by lia. rewrite Z.div_small by lia. lia. }
  rewrite E1, E2, N2Z.id, IH. reflexivity.
Qed.

Lemma le_encode_length n : forall z, length (le_encode n z) = n.
Proof. induction n; intros z; cbn; auto. Qed.

Lemma le_encode_bytes n : forall z, bytes_ok (le_encode n z).
Proof.
  induction n as [|n IH]; intros z; cbn [le_encode]; constructor; [|apply IH].
  pose proof (Z.mod_pos_bound z 256 ltac:(lia)). lia.
Qed.

Lemma le_decode_app a b : le_decode (a ++ b) = le_decode a + p256 (length a) * le_decode b.
Proof.
  induction a as [|x a IH]; cbn [app le_decode length].
  - rewrite p256_0. lia.
  - rewrite IH, p256_S. ring.
Qed.

Lemma le_decode_zeros k : le_decode (repeat 0%N k) = 0.
Proof. induction k; cbn [repeat le_decode]; lia. Qed.

Lemma le_decode_pad t k : le_decode (t ++ repeat 0%N k) = le_decode t.
Proof. rewrite le_decode_app, le_decode_zeros. lia. Qed.

Lemma le_encode_inj n a b : 0 <= a < p256 n -> 0 <= b < p256 n -> le_encode n a = le_encode n b -> a = b.
Proof.
  intros Ha Hb E. apply (f_equal le_decode) in E. rewrite !le_decode_encode in E.
  now rewrite !Z.mod_small in E by lia.
Qed.

Lemma short_below_l t : bytes_ok t -> (length t <= 16)%nat -> 0 <= le_decode t < 2 ^ 128.
Proof.
  intros Hb Hl. pose proof (le_decode_bound t Hb). pose proof (p256_mono _ _ Hl). rewrite p256_16 in *. lia.
Qed.

Lemma challenge_of_digest_spec d : bytes_ok d ->
  challenge_of_digest d = le_decode (firstn 16 d) /\ 0 <= challenge_of_digest d < 2 ^ 128.
Proof.
  intros Hd. unfold challenge_of_digest. rewrite le_decode_pad.
  pose proof (short_below_l (firstn 16 d) (ScalarCodecProofs.bytes_ok_firstn 16 d Hd) (firstn_le_length 16 d)) as R.
  pose proof ed_l_above_128. rewrite Z.mod_small by lia. split; [reflexivity | exact R].
Qed.

Lemma challenge_nonneg d : 0 <= challenge_of_digest d < ed_l.
Proof. unfold challenge_of_digest. apply Z.mod_pos_bound, ed_l_pos. Qed.

(** the 16-byte challenge field: encoding is injective on [0, 2^128), decoding inverts it, and
    a 16-byte field padded with zeros is always a canonical scalar (never rejected) *)
Lemma challenge_encoding_injective c c' :
  0 <= c < 2 ^ 128 -> 0 <= c' < 2 ^ 128 -> le_encode 16 c = le_encode 16 c' -> c = c'.
Proof. rewrite <- p256_16. apply le_encode_inj. Qed.

Lemma challenge_field_canonical t : bytes_ok t -> (length t <= 16)%nat ->
  scalar_from_canonical (t ++ repeat 0%N 16) = Some (le_decode t).
Proof.
  intros Hb Hl. unfold scalar_from_canonical. rewrite le_decode_pad.
  pose proof (short_below_l t Hb Hl). pose proof ed_l_above_128.
  destruct (Z.ltb_spec (le_decode t) ed_l); [reflexivity | lia].
Qed.

Lemma scalar_from_canonical_iff bs z : scalar_from_canonical bs = Some z <-> z = le_decode bs /\ le_decode bs < ed_l.
Proof.
  unfold scalar_from_canonical. destruct (Z.ltb_spec (le_decode bs) ed_l); split.
  - intros E. inversion E. split; [reflexivity | assumption].
  - intros [-> _]. reflexivity.
  - discriminate.
  - intros [_ ?]. lia.
Qed.

Lemma Some_inj {A} (a b : A) : Some a = Some b -> a = b.
Proof. intros E. inversion E. reflexivity. Qed.
Lemma triple_inj {A B C} (a a' : A) (b b' : B) (c c' : C) : (a, b, c) = (a', b', c') -> a = a' /\ b = b' /\ c = c'.
Proof. intros E. inversion E. auto. Qed.

Local Opaque ed_l.

Section VrfBytesProofs.
  Variable G : Type.
  Variable gzero : G.
  Variable gadd : G -> G -> G.
  Variable gopp : G -> G.
  Variable zmul : Z -> G -> G.
  Variable geqb : G -> G -> bool.
  Hypothesis gadd_assoc : forall a b c, gadd a (gadd b c) = gadd (gadd a b) c.
  Hypothesis gadd_comm : forall a b, gadd a b = gadd b a.
  Hypothesis gadd_0_l : forall a, gadd gzero a = a.
  Hypothesis gadd_opp_r : forall a, gadd a (gopp a) = gzero.
  Hypothesis zmul_add_l : forall x y a, zmul (x + y) a = gadd (zmul x a) (zmul y a).
  Hypothesis zmul_add_r : forall x a b, zmul x (gadd a b) = gadd (zmul x a) (zmul x b).
  Hypothesis zmul_mul : forall x y a, zmul (x * y) a = zmul x (zmul y a).
  Variable B : G.
  Hypothesis B_order : forall n, zmul n B = gzero <-> (ed_l | n).
  (** the curve group has order 8 * l *)
  Hypothesis exponent_8l : forall P, zmul (ed_l * 8) P = gzero.

  Variable compress : G -> list N.
  Variable decompress : list N -> option G.
  Hypothesis compress_len : forall P, length (compress P) = 32%nat.
  Hypothesis decompress_compress : forall P, decompress (compress P) = Some P.
  Variable sha512 : list N -> list N.
  Hypothesis sha_bytes : forall m, bytes_ok (sha512 m).

  Notation h2c_loop := (h2c_loop G gzero zmul geqb decompress sha512).
  Notation h2c_bytes := (h2c_bytes G gzero zmul geqb decompress sha512).
  Notation hpoints_bytes := (hpoints_bytes G compress sha512).
  Notation hout_bytes := (hout_bytes G compress sha512).
  Notation noncegen_bytes := (noncegen_bytes G compress sha512).
  Notation pk_of_secret := (pk_of_secret G zmul B compress sha512).
  Notation encode_proof := (encode_proof G compress).
  Notation decode_proof := (decode_proof G decompress).
  Notation ecvrf_prove_pi := (ecvrf_prove_pi G gzero zmul geqb B compress decompress sha512).
  Notation ecvrf_prove_bytes := (ecvrf_prove_bytes G gzero zmul geqb B compress decompress sha512).
  Notation ecvrf_verify_pi := (ecvrf_verify_pi G gzero gadd gopp zmul geqb B compress decompress sha512).
  Notation ecvrf_verify_bytes := (ecvrf_verify_bytes G gzero gadd gopp zmul geqb B compress decompress sha512).
  Notation ecvrf_hash_pi := (ecvrf_hash_pi G zmul compress sha512).
  Notation ecvrf_hash_bytes := (ecvrf_hash_bytes G zmul compress decompress sha512).

  (** hash_to_curve as coded returns points killed by l (the cofactor is cleared) *)
  Lemma h2c_loop_order fuel : forall ctr pkb alpha H, h2c_loop fuel ctr pkb alpha = Some H -> zmul ed_l H = gzero.
  Proof.
    induction fuel as [|fuel IH]; intros ctr pkb alpha H; cbn [VrfBytes.h2c_loop]; [discriminate|].
    destruct (decompress _) as [P|]; [|apply IH].
    destruct (small_order G gzero zmul geqb P); [apply IH|].
    intros E. apply Some_inj in E. subst H. rewrite <- zmul_mul. apply exponent_8l.
  Qed.

  Lemma h2c_bytes_order pkb (Y : G) alpha H : (fun (_ : G) a => h2c_bytes pkb a) Y alpha = Some H -> zmul ed_l H = gzero.
  Proof. apply h2c_loop_order. Qed.

  Lemma decode_encode gm c s pib :
    0 <= c -> 0 <= s < ed_l -> encode_proof (gm, c, s) = Some pib -> decode_proof pib = Some (gm, c, s).
  Proof.
    intros Hc Hs. unfold VrfBytes.encode_proof. destruct (Z.ltb_spec c (2 ^ 128)) as [Hc2|]; [|discriminate].
    intros E. apply Some_inj in E. subst pib. unfold VrfBytes.decode_proof.
    rewrite !app_length, compress_len, !le_encode_length. cbn [Nat.add Nat.ltb Nat.leb].
    rewrite (firstn_app_exact 32) by apply compress_len. rewrite decompress_compress.
    rewrite (skipn_app_exact 32) by apply compress_len.
    rewrite (firstn_app_exact 16) by apply le_encode_length.
    rewrite challenge_field_canonical by (try apply le_encode_bytes; rewrite le_encode_length; lia).
    rewrite app_assoc, (skipn_app_exact 48) by (rewrite app_length, compress_len, le_encode_length; reflexivity).
    rewrite <- (app_nil_r (le_encode 32 s)), (firstn_app_exact 32) by apply le_encode_length.
    unfold scalar_from_canonical. rewrite !le_decode_encode.
    pose proof ed_l_below_256. rewrite (Z.mod_small s) by lia. rewrite p256_16, (Z.mod_small c) by lia.
    destruct (Z.ltb_spec s ed_l); [reflexivity | lia].
  Qed.

  (** decode rejects exactly: fewer than 80 bytes, a Gamma that does not decompress, s >= l.
      The 16-byte challenge field can never cause a reject. *)
  Lemma decode_proof_iff bs gm c s : bytes_ok bs ->
    (decode_proof bs = Some (gm, c, s) <->
     (80 <= length bs)%nat /\ decompress (firstn 32 bs) = Some gm /\
     c = le_decode (firstn 16 (skipn 32 bs)) /\ s = le_decode (firstn 32 (skipn 48 bs)) /\ s < ed_l).
  Proof.
    intros Hb. unfold VrfBytes.decode_proof. destruct (Nat.ltb_spec (length bs) 80) as [Hl|Hl].
    { split; [discriminate | intros (? & _); lia]. }
    destruct (decompress (firstn 32 bs)) as [gm'|].
    2:{ split; [discriminate | intros (_ & ? & _); discriminate]. }
    rewrite challenge_field_canonical by (try apply ScalarCodecProofs.bytes_ok_firstn, ScalarCodecProofs.bytes_ok_skipn, Hb; apply firstn_le_length).
    destruct (scalar_from_canonical (firstn 32 (skipn 48 bs))) as [s'|] eqn:Es.
    - apply scalar_from_canonical_iff in Es. destruct Es as [-> Hlt]. split.
      + intros E. apply Some_inj, triple_inj in E. destruct E as (-> & <- & <-). repeat split; auto.
      + intros (_ & E & -> & -> & _). apply Some_inj in E. subst gm'. reflexivity.
    - split; [discriminate|]. intros (_ & _ & _ & -> & Hlt).
      rewrite (proj2 (scalar_from_canonical_iff _ _) (conj eq_refl Hlt)) in Es. discriminate.
  Qed.

  Lemma decode_rejects_large_s bs : bytes_ok bs -> ed_l <= le_decode (firstn 32 (skipn 48 bs)) -> decode_proof bs = None.
  Proof.
    intros Hb Hs. destruct (decode_proof bs) as [[[gm c] s]|] eqn:E; [|reflexivity].
    apply (decode_proof_iff bs gm c s Hb) in E. lia.
  Qed.

  Lemma prove_pi_ranges skb pk alpha gm c s :
    ecvrf_prove_pi skb pk alpha = Some (gm, c, s) -> 0 <= c < 2 ^ 128 /\ 0 <= s < ed_l.
  Proof.
    unfold VrfBytes.ecvrf_prove_pi. destruct (expand_key (sha512 skb)) as [x nonce].
    unfold vrf_prove. destruct (h2c_bytes (fst pk) alpha) as [H|]; [|discriminate].
    intros E. apply Some_inj, triple_inj in E. destruct E as (_ & <- & <-). split.
    - unfold VrfBytes.hpoints_bytes. apply challenge_of_digest_spec, sha_bytes.
    - apply Z.mod_pos_bound, ed_l_pos.
  Qed.

  Lemma honest_proof_decodes skb pk alpha pi pib :
    ecvrf_prove_pi skb pk alpha = Some pi -> encode_proof pi = Some pib -> decode_proof pib = Some pi.
  Proof.
    destruct pi as [[gm c] s]. intros E En. destruct (prove_pi_ranges _ _ _ _ _ _ E) as [Hc Hs].
    apply decode_encode; [lia | exact Hs | exact En].
  Qed.

  (** the assertion in [Serial for Proof] never fails on a proof made by [prove] *)
  Lemma prove_bytes_encodes skb pk alpha pi :
    ecvrf_prove_pi skb pk alpha = Some pi -> exists pib, ecvrf_prove_bytes skb pk alpha = Some pib /\ decode_proof pib = Some pi.
  Proof.
    intros E. unfold VrfBytes.ecvrf_prove_bytes. rewrite E.
    destruct (encode_proof pi) as [pib|] eqn:En.
    - exists pib. split; [reflexivity | exact (honest_proof_decodes _ _ _ _ _ E En)].
    - exfalso. destruct pi as [[gm c] s]. destruct (prove_pi_ranges _ _ _ _ _ _ E) as [Hc Hs].
      unfold VrfBytes.encode_proof in En. destruct (Z.ltb_spec c (2 ^ 128)); [discriminate | lia].
  Qed.

  (** *** completeness on bytes: verify (prove sk alpha) = true *)
  Lemma prove_pi_unfold skb pk alpha x nonce :
    expand_key (sha512 skb) = (x, nonce) ->
    ecvrf_prove_pi skb pk alpha =
    vrf_prove G zmul ed_l B (list N) (list N) (fun _ a => h2c_bytes (fst pk) a) hpoints_bytes noncegen_bytes x nonce (snd pk) alpha.
  Proof. intros EK. unfold VrfBytes.ecvrf_prove_pi. rewrite EK. reflexivity. Qed.

  Lemma pk_of_secret_unfold skb x nonce :
    expand_key (sha512 skb) = (x, nonce) -> pk_of_secret skb = (compress (zmul x B), zmul x B).
  Proof. intros EK. unfold VrfBytes.pk_of_secret. rewrite EK. reflexivity. Qed.

  Lemma prove_bytes_inv skb pk alpha pib :
    ecvrf_prove_bytes skb pk alpha = Some pib ->
    exists pi, ecvrf_prove_pi skb pk alpha = Some pi /\ decode_proof pib = Some pi.
  Proof.
    unfold VrfBytes.ecvrf_prove_bytes. destruct (ecvrf_prove_pi skb pk alpha) as [pi|] eqn:Ep; [|discriminate].
    intros E. exists pi. split; [reflexivity | exact (honest_proof_decodes _ _ _ _ _ Ep E)].
  Qed.

  Lemma ecvrf_bytes_complete_l skb alpha pib :
    ecvrf_prove_bytes skb (pk_of_secret skb) alpha = Some pib ->
    ecvrf_verify_bytes (pk_of_secret skb) pib alpha = true.
  Proof.
    intros E. apply prove_bytes_inv in E. destruct E as (pi & Ep & D).
    destruct (expand_key (sha512 skb)) as [x nonce] eqn:EK.
    rewrite (prove_pi_unfold skb _ alpha x nonce EK), (pk_of_secret_unfold skb x nonce EK) in Ep.
    unfold VrfBytes.ecvrf_verify_bytes. rewrite D. unfold VrfBytes.ecvrf_verify_pi.
    rewrite (pk_of_secret_unfold skb x nonce EK).
    exact (vrf_complete_l G gzero gadd gopp zmul gadd_assoc gadd_comm gadd_0_l gadd_opp_r zmul_add_l zmul_add_r zmul_mul
             ed_l ed_l_pos B B_order (list N) (list N) (fun _ a => h2c_bytes (compress (zmul x B)) a)
             (h2c_bytes_order (compress (zmul x B))) hpoints_bytes noncegen_bytes x nonce alpha pi Ep).
  Qed.

  (** *** determinism: the proof bytes are a function of (secret key bytes, input) - there is no
      other argument; and the OUTPUT is a function of the secret scalar and H only *)
  Lemma ecvrf_bytes_output_l skb pk alpha pib :
    ecvrf_prove_bytes skb pk alpha = Some pib ->
    exists H, h2c_bytes (fst pk) alpha = Some H /\
      ecvrf_hash_bytes pib = Some (sha512 (beta_input (compress (zmul 8 (zmul (fst (expand_key (sha512 skb))) H))))).
  Proof.
    intros E. apply prove_bytes_inv in E. destruct E as (pi & Ep & D).
    destruct (expand_key (sha512 skb)) as [x nonce] eqn:EK.
    rewrite (prove_pi_unfold skb pk alpha x nonce EK) in Ep.
    apply (vrf_output_l G zmul ed_l B (list N) (list N) (list N) (fun _ a => h2c_bytes (fst pk) a) hpoints_bytes hout_bytes noncegen_bytes) in Ep.
    destruct Ep as (H & EH & Eo). exists H. split; [exact EH|].
    unfold VrfBytes.ecvrf_hash_bytes. rewrite D. unfold VrfBytes.ecvrf_hash_pi. rewrite Eo. reflexivity.
  Qed.

  Lemma ecvrf_bytes_unique_given_dleq_l Y H pib1 pib2 gm1 c1 s1 gm2 c2 s2 :
    zmul ed_l H = gzero ->
    decode_proof pib1 = Some (gm1, c1, s1) -> decode_proof pib2 = Some (gm2, c2, s2) ->
    dleq G zmul B Y H gm1 -> dleq G zmul B Y H gm2 ->
    ecvrf_hash_bytes pib1 = ecvrf_hash_bytes pib2.
  Proof.
    intros Hl D1 D2 R1 R2. unfold VrfBytes.ecvrf_hash_bytes. rewrite D1, D2. f_equal. unfold VrfBytes.ecvrf_hash_pi.
    eapply (vrf_unique_given_dleq_l G gzero gadd gopp zmul gadd_assoc gadd_comm gadd_0_l gadd_opp_r zmul_add_l zmul_add_r zmul_mul
              ed_l B B_order); eassumption.
  Qed.

  Lemma ecvrf_verify_bytes_iff_l pk pib alpha :
    ecvrf_verify_bytes pk pib alpha = true <->
    exists gm c s H, decode_proof pib = Some (gm, c, s) /\ h2c_bytes (fst pk) alpha = Some H /\
      c = challenge_of_digest (sha512 (challenge_input (compress H) (compress gm)
            (compress (gsub G gadd gopp (zmul s B) (zmul c (snd pk))))
            (compress (gsub G gadd gopp (zmul s H) (zmul c gm))))).
  Proof.
    unfold VrfBytes.ecvrf_verify_bytes. destruct (decode_proof pib) as [[[gm c] s]|].
    - unfold VrfBytes.ecvrf_verify_pi. rewrite vrf_verify_iff_l. split.
      + intros (H & EH & Ec). exists gm, c, s, H. repeat split; assumption.
      + intros (gm' & c' & s' & H & E & EH & Ec). apply Some_inj, triple_inj in E. destruct E as (-> & -> & ->).
        exists H. split; assumption.
    - split; [discriminate|]. intros (? & ? & ? & ? & E & _). discriminate.
  Qed.
End VrfBytesProofs.
