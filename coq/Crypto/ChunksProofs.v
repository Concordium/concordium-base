From Coq Require Import NArith List Lia.
From CB Require Import Crypto.Chunks.
Import ListNotations.
Local Open Scope N_scope.

Lemma land_mask x s : N.land x (mask s) = x mod 2 ^ s.
Proof. unfold mask. rewrite N.sub_1_r, <- N.ones_equiv. apply N.land_ones. Qed.

Lemma to_chunks_length n s x : length (to_chunks n s x) = n.
Proof. revert x; induction n as [|n IH]; intros x; unfold to_chunks in *; cbn [to_chunks_gen length]; [reflexivity|]. now rewrite IH. Qed.

Lemma to_chunks_bound n s x : Forall (fun c => c < 2 ^ s) (to_chunks n s x).
Proof.
  revert x; induction n as [|n IH]; intros x; unfold to_chunks in *; cbn [to_chunks_gen]; constructor; [|apply IH].
  rewrite land_mask. apply N.mod_lt. apply N.pow_nonzero. lia.
Qed.

Lemma chunk_sum_shift s f xs : chunk_sum s f xs = 2 ^ f * chunk_sum s 0 xs.
Proof.
  revert f; induction xs as [|x xs IH]; intros f; cbn [chunk_sum]; [lia|].
  rewrite (IH (f + s)), (IH (0 + s)). rewrite !N.pow_add_r, N.pow_0_r. ring.
Qed.

(** Heart of the round trip: the chunks of [x] sum to [x mod 2^(n*s)]. *)
Lemma to_chunks_sum n s x :
  chunk_sum s 0 (to_chunks n s x) = x mod 2 ^ (N.of_nat n * s).
Proof.
  revert x; induction n as [|n IH]; intros x.
  - cbn. now rewrite N.mod_1_r.
  - unfold to_chunks in *. cbn [to_chunks_gen chunk_sum]. rewrite chunk_sum_shift, IH, land_mask.
    rewrite N.shiftr_div_pow2, N.add_0_l, N.pow_0_r, N.mul_1_r.
    replace (N.of_nat (S n) * s) with (s + N.of_nat n * s) by lia.
    rewrite (N.pow_add_r 2 s).
    rewrite N.mod_mul_r by (apply N.pow_nonzero; lia).
    reflexivity.
Qed.

(** The checked build computes the mathematical sum whenever every shift is
    below 64 bits and the running sum stays below 2^64. *)
Lemma from_checked_sum s xs : forall f out,
  0 < s ->
  Forall (fun c => c < 2 ^ s) xs ->
  f + N.of_nat (length xs) * s <= 64 ->
  out < 2 ^ f ->
  from_chunks_checked s f out xs = Some (out + chunk_sum s f xs).
Proof.
  induction xs as [|x xs IH]; intros f out Hs Hb Hlen Hout; cbn [from_chunks_checked chunk_sum].
  - f_equal. lia.
  - inversion Hb as [|? ? Hx Hb']; subst.
    cbn [length] in Hlen.
    assert (Hf : f + s <= 64) by lia.
    assert (Hxf : x * 2 ^ f < 2 ^ (f + s)).
    { rewrite N.pow_add_r. rewrite (N.mul_comm (2^f)). apply N.mul_lt_mono_pos_r; [|exact Hx].
      apply N.neq_0_lt_0, N.pow_nonzero; lia. }
    assert (Hpow : 2 ^ (f + s) <= W64) by (unfold W64; apply N.pow_le_mono_r; lia).
    destruct (N.leb_spec 64 f) as [H64|H64]; [lia|].
    rewrite (N.mod_small (x * 2 ^ f)) by lia.
    assert (Hsum : out + x * 2 ^ f < 2 ^ (f + s)).
    { rewrite N.pow_add_r in *.
      assert (x + 1 <= 2 ^ s) by lia.
      assert (out + x * 2 ^ f < (x + 1) * 2 ^ f) by lia.
      eapply N.lt_le_trans; [eassumption|].
      rewrite (N.mul_comm (2 ^ f)). apply N.mul_le_mono_r. lia. }
    destruct (N.leb_spec W64 (out + x * 2 ^ f)) as [Hc|Hc]; [lia|].
    destruct (N.leb_spec 256 (f + s)) as [Hu|Hu]; [lia|].
    rewrite IH; [f_equal; lia|assumption|assumption|lia|assumption].
Qed.

Lemma in_chunk_sizes s : In s chunk_sizes -> 0 < s <= 64 /\ N.of_nat (num_chunks s) * s = 64.
Proof.
  unfold chunk_sizes; cbn [In]. intros H.
  repeat (destruct H as [<-|H]; [split; [lia|vm_compute; reflexivity]|]). contradiction.
Qed.

(** Round trip in the checked build for every chunk size below 64 bits. *)
Theorem chunks_roundtrip_checked s x :
  In s chunk_sizes -> s < 64 -> x < W64 ->
  exists cs, u64_to_chunks_checked s x = Some cs
    /\ length cs = num_chunks s
    /\ Forall (fun c => c <= mask s) cs
    /\ chunks_to_u64_checked s cs = Some x.
Proof.
  intros Hin Hs Hx. destruct (in_chunk_sizes s Hin) as [[Hpos _] Hn].
  exists (to_chunks (num_chunks s) s x). unfold u64_to_chunks_checked.
  destruct (N.ltb_spec s 64) as [_|]; [|lia].
  split; [reflexivity|]. split; [apply to_chunks_length|]. split.
  - eapply Forall_impl; [|apply to_chunks_bound]. cbn beta. intros c Hc. unfold mask. lia.
  - unfold chunks_to_u64_checked. rewrite from_checked_sum.
    + rewrite to_chunks_sum, Hn. f_equal. rewrite N.mod_small; [lia|exact Hx].
    + exact Hpos.
    + apply to_chunks_bound.
    + rewrite to_chunks_length. lia.
    + cbn. lia.
Qed.

(** Where no guard of the checked build fires, the wrapping build computes the same value: below the
    guards its three reductions are identities. *)
Lemma from_checked_wrapping s xs : forall f out v,
  from_chunks_checked s f out xs = Some v -> from_chunks_wrapping s f out xs = v.
Proof.
  induction xs as [|x xs IH]; intros f out v; cbn [from_chunks_checked from_chunks_wrapping].
  - intros [= <-]. reflexivity.
  - destruct (N.leb_spec 64 f) as [|Hf]; [discriminate|]. rewrite (N.mod_small f 64) by exact Hf.
    destruct (N.leb_spec W64 (out + (x * 2 ^ f) mod W64)) as [|Ho]; [discriminate|].
    destruct (N.leb_spec 256 (f + s)) as [|Hu]; [discriminate|].
    rewrite (N.mod_small (f + s)), (N.mod_small (out + _)) by assumption. apply IH.
Qed.
Lemma from_wrapping_sum s xs f out :
  0 < s ->
  Forall (fun c => c < 2 ^ s) xs ->
  f + N.of_nat (length xs) * s <= 64 ->
  out < 2 ^ f ->
  from_chunks_wrapping s f out xs = out + chunk_sum s f xs.
Proof. intros Hs Hb Hlen Hout. apply from_checked_wrapping, from_checked_sum; assumption. Qed.

(** Round trip in the wrapping (release) build for all seven sizes, including 64
    where [tmp >>= 64] is a no-op shift and there is a single chunk. *)
Theorem chunks_roundtrip_wrapping s x :
  In s chunk_sizes -> x < W64 ->
  chunks_to_u64_wrapping s (u64_to_chunks_wrapping s x) = x.
Proof.
  intros Hin Hx. destruct (in_chunk_sizes s Hin) as [[Hpos Hle] Hn].
  unfold chunks_to_u64_wrapping, u64_to_chunks_wrapping.
  destruct (N.eq_dec s 64) as [->|Hne].
  - change (num_chunks 64) with 1%nat. cbn [to_chunks_gen from_chunks_wrapping].
    rewrite land_mask. change (0 mod 64) with 0. rewrite N.pow_0_r, N.mul_1_r, N.add_0_l.
    change (2 ^ 64) with W64. rewrite (N.mod_small x W64) by exact Hx.
    rewrite (N.mod_small x W64) by exact Hx. apply N.mod_small; exact Hx.
  - rewrite (N.mod_small s 64) by lia. fold (to_chunks (num_chunks s) s x).
    rewrite from_wrapping_sum.
    + rewrite to_chunks_sum, Hn. rewrite N.mod_small; [lia|exact Hx].
    + exact Hpos.
    + apply to_chunks_bound.
    + rewrite to_chunks_length. lia.
    + cbn. lia.
Qed.

(** Checked build with size 64: the encoder itself overflows its shift (observation O6). *)
Lemma u64_to_chunks_checked_64 x : u64_to_chunks_checked 64 x = None.
Proof. reflexivity. Qed.

(** Oversized chunks wrap (the documented "does not ensure there is no overflow"). *)
Example chunks_to_u64_overflow_example :
  chunks_to_u64_checked 32 [2 ^ 32; 2 ^ 32 - 1] = None
  /\ chunks_to_u64_wrapping 32 [2 ^ 32; 2 ^ 32] = 2 ^ 32.
Proof. split; vm_compute; reflexivity. Qed.

(** Aggregation: chunk-wise addition adds the denoted values. *)
Fixpoint zip_add (a b : list N) : list N :=
  match a, b with
  | x :: a', y :: b' => (x + y) :: zip_add a' b'
  | _, _ => []
  end.

Lemma chunk_sum_zip_add s : forall a b f, length a = length b ->
  chunk_sum s f (zip_add a b) = chunk_sum s f a + chunk_sum s f b.
Proof.
  induction a as [|x a IH]; intros [|y b] f Hl; cbn [zip_add chunk_sum length] in *; try lia.
  rewrite IH by lia. lia.
Qed.
