(** sigma_protocols/enc_trans.rs: the encrypted-transfer relation.  One [Dlog] (secret key), one
    [ElgDec] (public = sk*c0 + L*c1) and two vectors of [ComEq] instances (the chunks of the
    transferred and of the remaining amount); the ElgDec randomness is the base-2^32 linear
    combination [lin2] of the Pedersen randomness of all chunks, so the map is linear in the
    witness [sk; (a_i, r_i)..].  Response style [rho - c*w].

    The verifier's length checks ([self.encexp1.len() != response.response_encexp1.len()] ..) are
    part of the model: [enc_trans_extract_length_]. *)
From Coq Require Import ZArith List Lia String.
From CB Require Import Crypto.Alg Crypto.Transcript Crypto.TranscriptProofs Crypto.SigmaGeneric Crypto.SigmaAdaptersN
  Crypto.SigmaCodec Crypto.Sigma_dlog Crypto.Sigma_com_eq.
Import ListNotations.

Record elg_dec_stmt {K : FieldOps} (M : ModOps K) := mkElgDec { ed_public : M; ed_c0 : M; ed_c1 : M }.
Arguments mkElgDec {K M} _ _ _. Arguments ed_public {K M} _. Arguments ed_c0 {K M} _. Arguments ed_c1 {K M} _.
Record enc_trans_stmt {K : FieldOps} (M : ModOps K) := mkEncTrans {
  et_dlog : dlog_stmt M; et_elg : elg_dec_stmt M; et_e1 : list (com_eq_stmt M); et_e2 : list (com_eq_stmt M) }.
Arguments mkEncTrans {K M} _ _ _ _. Arguments et_dlog {K M} _. Arguments et_elg {K M} _.
Arguments et_e1 {K M} _. Arguments et_e2 {K M} _.

Section EncTrans.
  Context {K : FieldOps} {M : ModOps K} (Cd : CodecOps M).
  Local Open Scope G_scope.

  (** [scalar_from_u64(1 << 32)] *)
  Fixpoint pow2K (n : nat) : K := match n with O => F1 K | S n' => Fmul K (Fadd K (F1 K) (F1 K)) (pow2K n') end.
  Definition two_chunk : K := pow2K 32.
  (** [linear_combination_with_powers_of_two] *)
  Fixpoint lin2_go (B p : K) (xs : list K) : K :=
    match xs with [] => F0 K | x :: xs' => Fadd K (Fmul K x p) (lin2_go B (Fmul K p B) xs') end.
  Definition lin2 (xs : list K) : K := lin2_go two_chunk (F1 K) xs.

  Definition elg_public (k : tkind) (e : elg_dec_stmt M) : bytes :=
    msg k (str "public") (serG Cd (ed_public e)) ++ msgs k (str "coeff") [serG Cd (ed_c0 e); serG Cd (ed_c1 e)].
  Definition enc_trans_public (k : tkind) (s : enc_trans_stmt M) : bytes :=
    elg_public k (et_elg s) ++ each k [] (com_eq_public Cd k) (et_e1 s) ++ each k [] (com_eq_public Cd k) (et_e2 s)
    ++ dlog_public Cd k (et_dlog s).

  Definition et_rand : Type := (K * list (K * K) * list (K * K))%type.   (* common, (alpha, R) per chunk *)
  Definition et_cm : Type := (M * M * list (M * M) * list (M * M))%type.

  Definition enc_trans_commit (s : enc_trans_stmt M) (r : et_rand) : option et_cm :=
    let '(rc, r1, r2) := r in
    match opt_all (map2 com_eq_commit (et_e1 s) r1), opt_all (map2 com_eq_commit (et_e2 s) r2) with
    | Some m1, Some m2 =>
      Some (rc *: dl_coeff (et_dlog s),
            rc *: ed_c0 (et_elg s) + Fadd K (lin2 (map snd r1)) (lin2 (map snd r2)) *: ed_c1 (et_elg s), m1, m2)
    | _, _ => None
    end.
  (** secret (sk, (r, a) per chunk) *)
  Definition enc_trans_respond (s : enc_trans_stmt M) (w : et_rand) (r : et_rand) (c : K) : option et_rand :=
    let '(sk, w1, w2) := w in let '(rc, r1, r2) := r in
    if negb (Nat.eqb (List.length w1) (List.length r1)) then None else
    match opt_all (map3 (fun st wi ri => com_eq_respond st wi ri c) (et_e1 s) w1 r1) with
    | None => None
    | Some z1 =>
      if negb (Nat.eqb (List.length w2) (List.length r2)) then None else
      match opt_all (map3 (fun st wi ri => com_eq_respond st wi ri c) (et_e2 s) w2 r2) with
      | None => None
      | Some z2 => Some (Fadd K (Fopp K (Fmul K c sk)) rc, z1, z2)
      end
    end.
  Definition enc_trans_extract (s : enc_trans_stmt M) (c : K) (z : et_rand) : option et_cm :=
    let '(zc, z1, z2) := z in
    if negb (Nat.eqb (List.length (et_e1 s)) (List.length z1)) then None else
    if negb (Nat.eqb (List.length (et_e2 s)) (List.length z2)) then None else
    match opt_all (map2 (fun st zi => com_eq_extract st c zi) (et_e1 s) z1),
          opt_all (map2 (fun st zi => com_eq_extract st c zi) (et_e2 s) z2) with
    | Some m1, Some m2 =>
      Some (zc *: dl_coeff (et_dlog s) + c *: dl_public (et_dlog s),
            c *: ed_public (et_elg s) +
              (zc *: ed_c0 (et_elg s) + Fadd K (lin2 (map snd z1)) (lin2 (map snd z2)) *: ed_c1 (et_elg s)), m1, m2)
    | _, _ => None
    end.

  Definition ser_pairG (a : M * M) : bytes := serG Cd (fst a) ++ serG Cd (snd a).
  Definition ser_pairF (z : K * K) : bytes := serF Cd (fst z) ++ serF Cd (snd z).
  Definition enc_trans_proto : proto K := {|
    p_stmt := enc_trans_stmt M; p_wit := et_rand; p_rand := et_rand; p_cm := et_cm; p_resp := et_rand;
    p_public := enc_trans_public; p_commit := enc_trans_commit; p_respond := enc_trans_respond;
    p_extract := enc_trans_extract;
    p_ser_cm := fun a => let '(d, e, m1, m2) := a in
      serG Cd d ++ serG Cd e ++ ser_vec32 (map ser_pairG m1) ++ ser_vec32 (map ser_pairG m2);
    p_ser_resp := fun z => let '(zc, z1, z2) := z in
      serF Cd zc ++ ser_vec32 (map ser_pairF z1) ++ ser_vec32 (map ser_pairF z2) |}.

  Definition enc_trans_rel (s : enc_trans_stmt M) (w : et_rand) : Prop :=
    let '(sk, w1, w2) := w in
    dl_public (et_dlog s) = sk *: dl_coeff (et_dlog s) /\
    Forall2 com_eq_rel (et_e1 s) w1 /\ Forall2 com_eq_rel (et_e2 s) w2 /\
    ed_public (et_elg s) = sk *: ed_c0 (et_elg s) + Fadd K (lin2 (map fst w1)) (lin2 (map fst w2)) *: ed_c1 (et_elg s).
  Definition enc_trans_rok (s : enc_trans_stmt M) (r : et_rand) : Prop :=
    let '(_, r1, r2) := r in List.length r1 = List.length (et_e1 s) /\ List.length r2 = List.length (et_e2 s).
  Definition enc_trans_recover (s : enc_trans_stmt M) (w : et_rand) (c : K) (z : et_rand) : et_rand :=
    let '(sk, w1, w2) := w in let '(zc, z1, z2) := z in
    (Fadd K zc (Fmul K c sk), map3 (fun st wi zi => com_eq_recover st wi c zi) (et_e1 s) w1 z1,
     map3 (fun st wi zi => com_eq_recover st wi c zi) (et_e2 s) w2 z2).

  Context {KL : FieldLaws K} {ML : ModLaws M}.
  Add Field Kf_et : (@F_th K KL).

  (** the chunk vectors are the replicate adapter of [com_eq] ([rep_complete_aux], [rep_ss_aux]); what the
      ElgDec row needs beside is that the randomness components of the responses are [R - c*r] under the
      linear combination, and those of the extracted witnesses [(z - z')/(c' - c)] *)
  Lemma Forall2_any {A B} : forall (l : list A) (l' : list B), List.length l' = List.length l -> Forall2 (fun _ _ => True) l l'.
  Proof. induction l; intros [|b l'] L; try discriminate; constructor; auto. Qed.
  Lemma et_respond_lin c : forall (es : list (com_eq_stmt M)) (ws rs zs : list (K * K)),
    List.length ws = List.length es -> List.length rs = List.length es ->
    opt_all (map3 (fun st wi ri => com_eq_respond st wi ri c) es ws rs) = Some zs ->
    forall B p, lin2_go B p (map snd zs) = Fsub K (lin2_go B p (map snd rs)) (Fmul K c (lin2_go B p (map fst ws))).
  Proof.
    induction es as [|s es IH]; intros [|[wr wa] ws] [|[al cR] rs] zs Lw Lr E B p; try discriminate; cbn [map3 opt_all] in E.
    - injection E as <-. cbn. ring.
    - cbn [com_eq_respond] in E. destruct (opt_all _) as [zs1|] eqn:E1; [|discriminate]. injection E as <-.
      cbn [map lin2_go fst snd]. rewrite (IH ws rs zs1) by (cbn in Lw, Lr; auto; lia). ring.
  Qed.
  Lemma et_extractor_lin c c' : forall (es : list (com_eq_stmt M)) (zs zs' : list (K * K)),
    List.length zs = List.length es -> List.length zs' = List.length es ->
    forall B p, lin2_go B p (map fst (map3 (fun st a b => com_eq_extractor st c c' a b) es zs zs')) =
                Fmul K (Finv K (Fsub K c' c)) (Fsub K (lin2_go B p (map snd zs)) (lin2_go B p (map snd zs'))).
  Proof.
    induction es as [|s es IH]; intros [|[z0 zt] zs] [|[z0' zt'] zs'] L L' B p; try discriminate; cbn [map3 map lin2_go fst snd].
    - ring.
    - rewrite IH by (cbn in L, L'; lia). cbn. ring.
  Qed.

  Theorem enc_trans_complete_ : complete enc_trans_proto enc_trans_rel enc_trans_rok.
  Proof.
    intros [[dp dc] [ep c0 c1] e1 e2] [[sk w1] w2] [[rc r1] r2] (Hd & R1 & R2 & He) [L1 L2]. cbn in Hd, He, L1, L2, R1, R2.
    subst dp ep.
    destruct (rep_complete_aux (com_eq_proto Cd) _ _ (com_eq_complete_ Cd) e1 w1 R1 r1 (Forall2_any _ _ L1)) as (m1 & C1 & Z1).
    destruct (rep_complete_aux (com_eq_proto Cd) _ _ (com_eq_complete_ Cd) e2 w2 R2 r2 (Forall2_any _ _ L2)) as (m2 & C2 & Z2).
    cbn [p_commit p_respond p_extract p_stmt p_wit p_rand p_cm p_resp com_eq_proto] in C1, C2, Z1, Z2.
    eexists. split.
    { cbn. rewrite C1, C2. reflexivity. }
    intro c. destruct (Z1 c) as (z1 & R1' & X1 & Lz1). destruct (Z2 c) as (z2 & R2' & X2 & Lz2).
    pose proof (et_respond_lin c e1 w1 r1 z1 (eq_sym (Forall2_len _ _ _ R1)) L1 R1') as Lin1.
    pose proof (et_respond_lin c e2 w2 r2 z2 (eq_sym (Forall2_len _ _ _ R2)) L2 R2') as Lin2.
    exists (Fadd K (Fopp K (Fmul K c sk)) rc, z1, z2). cbn.
    rewrite (Forall2_len _ _ _ R1), (Forall2_len _ _ _ R2) in *.
    rewrite <- L1, <- L2, !Nat.eqb_refl in *. cbn [negb]. rewrite R1', R2'. split; [reflexivity|].
    rewrite <- Lz1, <- Lz2, !Nat.eqb_refl. cbn [negb]. rewrite X1, X2.
    unfold lin2. rewrite Lin1, Lin2. list_split; mod_norm.
  Qed.

  (** special soundness: extractor (z - z')/(c' - c) componentwise *)
  Definition enc_trans_extractor (s : enc_trans_stmt M) (c c' : K) (z z' : et_rand) : et_rand :=
    let '(zc, z1, z2) := z in let '(zc', z1', z2') := z' in
    (Fmul K (Finv K (Fsub K c' c)) (Fsub K zc zc'),
     map3 (fun st a b => com_eq_extractor st c c' a b) (et_e1 s) z1 z1',
     map3 (fun st a b => com_eq_extractor st c c' a b) (et_e2 s) z2 z2').

  Theorem enc_trans_special_sound_ : special_sound enc_trans_proto enc_trans_rel enc_trans_extractor.
  Proof.
    intros [[dp dc] [ep c0 c1] e1 e2] a c c' [[zc z1] z2] [[zc' z1'] z2'] Hc E E'.
    cbn [p_extract enc_trans_proto] in E, E'. unfold enc_trans_extract in E, E'. cbn [et_dlog et_elg et_e1 et_e2 dl_public dl_coeff ed_public ed_c0 ed_c1] in E, E'.
    destruct (Nat.eqb (List.length e1) (List.length z1)) eqn:L1; [|discriminate].
    destruct (Nat.eqb (List.length e2) (List.length z2)) eqn:L2; [|discriminate].
    destruct (Nat.eqb (List.length e1) (List.length z1')) eqn:L1'; [|discriminate].
    destruct (Nat.eqb (List.length e2) (List.length z2')) eqn:L2'; [|discriminate].
    apply Nat.eqb_eq in L1, L2, L1', L2'. cbn [negb] in E, E'.
    destruct (opt_all (map2 (fun st zi => com_eq_extract st c zi) e1 z1)) as [m1|] eqn:X1; [|discriminate].
    destruct (opt_all (map2 (fun st zi => com_eq_extract st c zi) e2 z2)) as [m2|] eqn:X2; [|discriminate].
    destruct (opt_all (map2 (fun st zi => com_eq_extract st c' zi) e1 z1')) as [m1'|] eqn:X1'; [|discriminate].
    destruct (opt_all (map2 (fun st zi => com_eq_extract st c' zi) e2 z2')) as [m2'|] eqn:X2'; [|discriminate].
    rewrite <- E' in E. injection E as Ed Ee -> ->.
    pose proof (rep_ss_aux (com_eq_proto Cd) _ _ (com_eq_special_sound_ Cd) c c' Hc e1 z1 z1' m1' (eq_sym L1) (eq_sym L1') X1 X1') as F1.
    pose proof (rep_ss_aux (com_eq_proto Cd) _ _ (com_eq_special_sound_ Cd) c c' Hc e2 z2 z2' m2' (eq_sym L2) (eq_sym L2') X2 X2') as F2.
    unfold enc_trans_rel, enc_trans_extractor. cbn [et_dlog et_elg et_e1 et_e2 dl_public dl_coeff ed_public ed_c0 ed_c1].
    repeat split; auto.
    - apply (ss_row_r c c' dp _ _ Hc) in Ed.
      rewrite Ed. mod_norm.
    - apply (ss_row_l c c' ep _ _ Hc) in Ee. rewrite Ee at 1. unfold lin2. rewrite !et_extractor_lin by auto. mod_norm.
  Qed.

  (** a response whose chunk vectors do not have the statement's lengths is rejected *)
  Theorem enc_trans_extract_length_ : forall s c zc z1 z2 a,
    enc_trans_extract s c (zc, z1, z2) = Some a ->
    List.length z1 = List.length (et_e1 s) /\ List.length z2 = List.length (et_e2 s).
  Proof.
    intros s c zc z1 z2 a. unfold enc_trans_extract.
    destruct (Nat.eqb (List.length (et_e1 s)) (List.length z1)) eqn:E1; [|discriminate].
    destruct (Nat.eqb (List.length (et_e2 s)) (List.length z2)) eqn:E2; [|discriminate].
    intros _. apply Nat.eqb_eq in E1, E2. auto.
  Qed.

  Context {CL : CodecLaws Cd}.
  Lemma pf_elg k : pfree_on (fun _ => True) (elg_public k).
  Proof.
    apply (pf_iso (fun e => (ed_public e, [ed_c0 e; ed_c1 e])) (pf_app (pf_msg (pf_serG Cd)) (pf_msgs_n 2 (pf_serG Cd)))).
    - intros [] [] [= -> -> ->]. reflexivity.
    - repeat split; apply Forall_True.
  Qed.

  (** [public] covers every field, every chunk and the number of chunks (V1) *)
  Theorem enc_trans_public_prefix_free_v1_ :
    public_prefix_free enc_trans_proto V1
      (fun s => (N.of_nat (List.length (et_e1 s)) < W64)%N /\ (N.of_nat (List.length (et_e2 s)) < W64)%N).
  Proof.
    pose proof (com_eq_public_prefix_free_ Cd V1) as CE.
    apply (pf_iso (fun s => (et_elg s, (et_e1 s, (et_e2 s, et_dlog s))))
             (pf_app (pf_elg V1) (pf_app (pf_each_v1 CE) (pf_app (pf_each_v1 CE) (dlog_public_prefix_free_ Cd V1))))).
    - intros [] [] [= -> -> -> ->]. reflexivity.
    - intros s [L1 L2]. repeat split; try assumption; apply Forall_True.
  Qed.
  (** legacy framing (the deployed one): among statements with the same numbers of chunks *)
  Theorem enc_trans_public_prefix_free_fixed_size_ : forall k n1 n2,
    public_prefix_free enc_trans_proto k (fun s => List.length (et_e1 s) = n1 /\ List.length (et_e2 s) = n2).
  Proof.
    intros k n1 n2. pose proof (com_eq_public_prefix_free_ Cd k) as CE.
    apply (pf_iso (fun s => (et_elg s, (et_e1 s, (et_e2 s, et_dlog s))))
             (pf_app (pf_elg k) (pf_app (pf_each_n n1 CE) (pf_app (pf_each_n n2 CE) (dlog_public_prefix_free_ Cd k))))).
    - intros [] [] [= -> -> -> ->]. reflexivity.
    - intros s [L1 L2]. repeat split; try assumption; apply Forall_True.
  Qed.
End EncTrans.
