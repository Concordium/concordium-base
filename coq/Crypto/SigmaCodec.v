(** Serialisation interface for protocol instances: [Serial] of group elements and scalars are
    parameters ([CodecOps]); the theorems assume fixed length and injectivity ([CodecLaws]; for
    BLS12-381: compressed points of 48/96 bytes, scalars of 32 bytes big endian - C05/C20 territory,
    assumed here).  The executable instance encodes a group element by ONE pseudo-byte
    [2^260 + dlog] (a token that the check replaces by the real compressed point) and a scalar by
    its real 32-byte big-endian form. *)
From Coq Require Import ZArith List.
From CB Require Import Crypto.Alg Crypto.Transcript Crypto.TranscriptProofs.
Import ListNotations.

Record CodecOps {K : FieldOps} (M : ModOps K) : Type := mkCodecOps {
  serG : M -> bytes;
  serF : K -> bytes;
  glen : nat; flen : nat }.
Arguments serG {K M} _ _. Arguments serF {K M} _ _. Arguments glen {K M} _. Arguments flen {K M} _.

Class CodecLaws {K : FieldOps} {M : ModOps K} (Cd : CodecOps M) : Prop := mkCodecLaws {
  serG_len : forall g, List.length (serG Cd g) = glen Cd;
  serF_len : forall x, List.length (serF Cd x) = flen Cd;
  serG_inj : forall g h, serG Cd g = serG Cd h -> g = h;
  serF_inj : forall x y, serF Cd x = serF Cd y -> x = y }.

Definition G1_TOKEN : N := 2 ^ 260.
Definition ZrCodec : CodecOps ZrG :=
  mkCodecOps _ ZrG (fun g => [(G1_TOKEN + Z.to_N g)%N]) ser_scalar_bls 1 32.

Section Helpers.
  Context {K : FieldOps} {M : ModOps K} (Cd : CodecOps M) {CL : CodecLaws Cd}.
  Local Notation any := (fun _ => True).

  Lemma pf_serG : pfree_on any (serG Cd).
  Proof. apply (pf_fixed _ _ (glen Cd)); [apply serG_len | intros a b _ _; apply serG_inj]. Qed.
  Lemma pf_serF : pfree_on any (serF Cd).
  Proof. apply (pf_fixed _ _ (flen Cd)); [apply serF_len | intros a b _ _; apply serF_inj]. Qed.
End Helpers.

Section Helpers32.
  Context {K : FieldOps} {M : ModOps K} (Cd : CodecOps M) {CL : CodecLaws Cd}.
  Definition W32 : N := (2 ^ 32)%N.
  (** [#[size_length = 4] Vec<T>] is self-delimiting *)
  Lemma pf_vec32 {A} (ok : A -> Prop) e : pfree_on ok e ->
    pfree_on (fun xs => (N.of_nat (List.length xs) < W32)%N /\ Forall ok xs) (fun xs => ser_vec32 (map e xs)).
  Proof.
    intros F xs xs' x y. unfold ser_vec32. rewrite !map_length.
    apply (pf_counted ok e be32 4 W32 (be_bytes_length 4) (be_bytes_inj 4) F).
  Qed.
End Helpers32.
Arguments pf_vec32 {A ok e}.
