(** C19 - [has_duplicates] of aggregate_sig/mod.rs AS CODED: collect the SHA-512 digests, sort them
    ([sort_unstable]), scan adjacent positions [for i in 1..len { if v[i-1] == v[i] { return true } }].

    The digests are compared with the derived total order of byte arrays, for which two keys that
    compare equal are identical; hence the result of ANY correct sorting algorithm is the same
    list, and the theorems below are stated for every function [srt] that returns a sorted
    permutation of its input (pattern-defeating quicksort of the standard library is assumed to be
    such a function; it is not modelled).  [isort] (insertion sort) is the executable instance. *)
From Coq Require Import List Bool Lia Permutation Sorted.
Import ListNotations.

Section DupSort.
  Variable K : Type.
  Variable leb : K -> K -> bool.
  Variable eqb : K -> K -> bool.

  (** the scan loop; lengths 0 and 1: the range [1..len] is empty *)
  Fixpoint scan_adj (l : list K) : bool :=
    match l with
    | a :: (b :: _) as t => if eqb a b then true else scan_adj t
    | _ => false
    end.

  Fixpoint insert (x : K) (l : list K) : list K :=
    match l with
    | [] => [x]
    | y :: l' => if leb x y then x :: l else y :: insert x l'
    end.
  Fixpoint isort (l : list K) : list K :=
    match l with
    | [] => []
    | x :: l' => insert x (isort l')
    end.

  Definition has_duplicates_with (srt : list K -> list K) (l : list K) : bool := scan_adj (srt l).
  Definition has_duplicates_coded (l : list K) : bool := has_duplicates_with isort l.

  (** the quadratic reference (identical to [Bls.has_dup]) *)
  Fixpoint has_dup_ref (ds : list K) : bool :=
    match ds with
    | [] => false
    | d :: ds' => existsb (eqb d) ds' || has_dup_ref ds'
    end.

  Hypothesis eqb_spec : forall a b, eqb a b = true <-> a = b.
  Hypothesis leb_total : forall a b, leb a b = true \/ leb b a = true.
  Hypothesis leb_trans : forall a b c, leb a b = true -> leb b c = true -> leb a c = true.
  Hypothesis leb_antisym : forall a b, leb a b = true -> leb b a = true -> a = b.

  Definition le (a b : K) : Prop := leb a b = true.
  Definition sorts (srt : list K -> list K) : Prop :=
    forall l, Permutation l (srt l) /\ StronglySorted le (srt l).

  Lemma eqb_false a b : eqb a b = false -> a <> b.
  Proof. intros H E. apply eqb_spec in E. congruence. Qed.

  Lemma scan_adj_sorted s : StronglySorted le s -> (scan_adj s = false <-> NoDup s).
  Proof.
    induction s as [|a t IH]; intros S.
    - cbn. split; [constructor | reflexivity].
    - inversion S as [|? ? St Ha]; subst. specialize (IH St).
      destruct t as [|b t'].
      + cbn. split; [intros _; constructor; [intros []|constructor] | reflexivity].
      + cbn [scan_adj]. destruct (eqb a b) eqn:E.
        * apply eqb_spec in E. subst b. split; [discriminate|].
          intros N. inversion N as [|? ? Hn _]; subst. exfalso. apply Hn. now left.
        * apply eqb_false in E. rewrite IH. split.
          -- intros N. constructor; [|exact N]. intros [Hb|Hi]; [congruence|].
             inversion St as [|? ? _ Hb]; subst. inversion Ha as [|? ? Hab _]; subst.
             rewrite Forall_forall in Hb. specialize (Hb _ Hi). apply E. now apply leb_antisym.
          -- intros N. now inversion N.
  Qed.

  Lemma existsb_eqb_in d l : existsb (eqb d) l = true <-> In d l.
  Proof.
    rewrite existsb_exists. split.
    - intros (x & Hx & E). apply eqb_spec in E. now subst.
    - intros H. exists d. split; [exact H | now apply eqb_spec].
  Qed.

  Lemma has_dup_ref_false ds : has_dup_ref ds = false <-> NoDup ds.
  Proof.
    induction ds as [|d ds IH]; cbn [has_dup_ref].
    - split; [constructor | reflexivity].
    - rewrite orb_false_iff, IH. split.
      + intros [H N]. constructor; [|exact N]. intros Hi. apply existsb_eqb_in in Hi. congruence.
      + intros N. inversion N as [|? ? Hn N']; subst. split; [|exact N'].
        destruct (existsb (eqb d) ds) eqn:E; [|reflexivity]. apply existsb_eqb_in in E. contradiction.
  Qed.

  (** sort-and-scan = the quadratic reference, for every correct sort *)
  Lemma has_duplicates_with_ref srt l : sorts srt -> has_duplicates_with srt l = has_dup_ref l.
  Proof.
    intros S. destruct (S l) as [P St]. unfold has_duplicates_with. apply eq_true_iff_eq.
    rewrite <- !not_false_iff_true, (scan_adj_sorted _ St), has_dup_ref_false, <- P. reflexivity.
  Qed.

  (** the reference in terms of positions *)
  Lemma has_dup_ref_positions l :
    has_dup_ref l = true <-> exists i j x, i < j /\ nth_error l i = Some x /\ nth_error l j = Some x.
  Proof.
    induction l as [|d ds IH]; cbn [has_dup_ref].
    - split; [discriminate|]. intros (i & j & x & _ & H & _). destruct i; discriminate.
    - rewrite orb_true_iff, IH, existsb_eqb_in. split.
      + intros [Hi | (i & j & x & Hij & Hi & Hj)].
        * apply In_nth_error in Hi. destruct Hi as [n Hn]. exists 0, (S n), d. repeat split; [lia | exact Hn].
        * exists (S i), (S j), x. repeat split; [lia | exact Hi | exact Hj].
      + intros (i & j & x & Hij & Hi & Hj). destruct j as [|j]; [lia|]. cbn [nth_error] in Hj.
        destruct i as [|i].
        * cbn in Hi. inversion Hi; subst. left. eapply nth_error_In; eassumption.
        * right. exists i, j, x. repeat split; [lia | exact Hi | exact Hj].
  Qed.

  Lemma has_duplicates_with_positions srt l : sorts srt ->
    (has_duplicates_with srt l = true <-> exists i j x, i < j /\ nth_error l i = Some x /\ nth_error l j = Some x).
  Proof. intros S. rewrite (has_duplicates_with_ref srt l S). apply has_dup_ref_positions. Qed.

  (** insertion sort is a correct sort *)
  Lemma insert_perm x l : Permutation (x :: l) (insert x l).
  Proof.
    induction l as [|y l IH]; cbn [insert]; [reflexivity|].
    destruct (leb x y); [reflexivity|]. rewrite perm_swap. now constructor.
  Qed.

  Lemma insert_sorted x l : StronglySorted le l -> StronglySorted le (insert x l).
  Proof.
    induction l as [|y l IH]; intros S; cbn [insert].
    - constructor; constructor.
    - inversion S as [|? ? Sl Hy]; subst. destruct (leb x y) eqn:E.
      + constructor; [exact S|]. constructor; [exact E|].
        rewrite Forall_forall in *. intros z Hz. eapply leb_trans; [exact E | now apply Hy].
      + constructor; [now apply IH|]. assert (Hyx : le y x) by (destruct (leb_total x y); [congruence | assumption]).
        rewrite Forall_forall in *. intros z Hz.
        apply (Permutation_in _ (Permutation_sym (insert_perm x l))) in Hz. destruct Hz as [<-|Hz]; [exact Hyx | now apply Hy].
  Qed.

  Lemma isort_sorts : sorts isort.
  Proof.
    intros l. induction l as [|x l [P S]]; cbn [isort].
    - split; [reflexivity | constructor].
    - split; [|now apply insert_sorted]. rewrite <- insert_perm. now constructor.
  Qed.

  Lemma has_duplicates_coded_ref l : has_duplicates_coded l = has_dup_ref l.
  Proof. apply has_duplicates_with_ref, isort_sorts. Qed.

  Lemma has_duplicates_coded_positions l :
    has_duplicates_coded l = true <-> exists i j x, i < j /\ nth_error l i = Some x /\ nth_error l j = Some x.
  Proof. apply has_duplicates_with_positions, isort_sorts. Qed.

  (** any two correct sorts give the same scan result (so the algorithm behind [sort_unstable] is irrelevant) *)
  Lemma has_duplicates_sort_irrelevant srt srt' l : sorts srt -> sorts srt' ->
    has_duplicates_with srt l = has_duplicates_with srt' l.
  Proof. intros S S'. now rewrite !has_duplicates_with_ref. Qed.
End DupSort.
