(** Framing theorems for [Transcript.v]: the V1 framing is uniquely decodable; the legacy framing is
    not (label splitting), but is injective for a fixed schema.  Also the [pfree_on] combinators
    for prefix-free encoders, from which the [*_public_prefix_free_] lemmas of the Sigma files are built. *)
From Coq Require Import NArith ZArith List String Lia.
From CB Require Import Crypto.Transcript.
From CB Require Crypto.ScalarCodec Crypto.ScalarCodecProofs.
Import ListNotations.
Local Open Scope N_scope.

Lemma app_eq_len {A} (a b x y : list A) :
  List.length a = List.length b -> a ++ x = b ++ y -> a = b /\ x = y.
Proof.
  revert b. induction a as [|h a IH]; intros [|h' b] Hl E; try discriminate; cbn in *.
  - auto.
  - injection E as -> E. destruct (IH b) as [-> ->]; auto.
Qed.

Lemma map_inj {A B} (f : A -> B) : (forall x y, f x = f y -> x = y) ->
  forall xs ys, map f xs = map f ys -> xs = ys.
Proof.
  intros I xs. induction xs as [|x xs IH]; intros [|y ys] E; try discriminate; [reflexivity|].
  injection E as E1 E2. rewrite (I _ _ E1), (IH _ E2). reflexivity.
Qed.

(** [le_bytes] is [ScalarCodec.to_le] under another name (the two fixpoints are convertible) *)
Lemma le_bytes_length n : forall x, List.length (le_bytes n x) = n.
Proof. exact (ScalarCodecProofs.to_le_length n). Qed.
Lemma be_bytes_length n x : List.length (be_bytes n x) = n.
Proof. unfold be_bytes. now rewrite rev_length, le_bytes_length. Qed.

Lemma le_bytes_inj n : forall x y, x < 256 ^ N.of_nat n -> y < 256 ^ N.of_nat n ->
  le_bytes n x = le_bytes n y -> x = y.
Proof.
  intros x y Hx Hy E. apply (f_equal ScalarCodec.le_val) in E.
  rewrite !(ScalarCodecProofs.le_val_to_le n), !N.mod_small in E by assumption. exact E.
Qed.
Lemma be_bytes_inj n x y : x < 256 ^ N.of_nat n -> y < 256 ^ N.of_nat n ->
  be_bytes n x = be_bytes n y -> x = y.
Proof.
  unfold be_bytes. intros Hx Hy E. apply (le_bytes_inj n); auto.
  rewrite <- (rev_involutive (le_bytes n x)), E. apply rev_involutive.
Qed.
Lemma be_bytes_lt n x : Forall (fun b => b < 256) (be_bytes n x).
Proof.
  unfold be_bytes. apply Forall_rev. revert x. induction n; intros x; cbn; constructor; auto.
  apply N.mod_lt. lia.
Qed.

Definition W64 : N := 2 ^ 64.
Lemma be64_inj x y : x < W64 -> y < W64 -> be64 x = be64 y -> x = y.
Proof. unfold be64, W64. intros Hx Hy. apply be_bytes_inj; assumption. Qed.
Lemma be64_length x : List.length (be64 x) = 8%nat.
Proof. apply be_bytes_length. Qed.

(** *** prefix-free encoders: an encoding followed by anything determines the value and the rest *)
Definition pfree_on {A} (ok : A -> Prop) (enc : A -> bytes) : Prop :=
  forall a a' x y, ok a -> ok a' -> enc a ++ x = enc a' ++ y -> a = a' /\ x = y.

Lemma pf_fixed {A} (ok : A -> Prop) (enc : A -> bytes) n :
  (forall a, List.length (enc a) = n) -> (forall a b, ok a -> ok b -> enc a = enc b -> a = b) -> pfree_on ok enc.
Proof.
  intros L I a a' x y O O' E. apply app_eq_len in E; [|now rewrite !L]. destruct E as [E ->]. auto.
Qed.
Lemma pf_app {A B} (okA : A -> Prop) (okB : B -> Prop) e1 e2 : pfree_on okA e1 -> pfree_on okB e2 ->
  pfree_on (fun p => okA (fst p) /\ okB (snd p)) (fun p => e1 (fst p) ++ e2 (snd p)).
Proof.
  intros F1 F2 [a b] [a' b'] x y [O1 O2] [O1' O2'] E. cbn [fst snd] in *. rewrite <- !app_assoc in E.
  destruct (F1 _ _ _ _ O1 O1' E) as [-> E']. destruct (F2 _ _ _ _ O2 O2' E') as [-> ->]. auto.
Qed.
Lemma pf_prefix {A} (ok : A -> Prop) (l : bytes) e : pfree_on ok e -> pfree_on ok (fun a => l ++ e a).
Proof. intros F a a' x y O O' E. rewrite <- !app_assoc in E. apply app_inv_head in E. exact (F _ _ _ _ O O' E). Qed.
Lemma pf_iso {A B} (f : A -> B) (okA : A -> Prop) (okB : B -> Prop) e :
  pfree_on okB e -> (forall a a', f a = f a' -> a = a') -> (forall a, okA a -> okB (f a)) ->
  pfree_on okA (fun a => e (f a)).
Proof. intros F I O a a' x y Ha Ha' E. destruct (F _ _ _ _ (O _ Ha) (O _ Ha') E) as [E' ->]. auto. Qed.
Lemma pf_concat_n {A} (ok : A -> Prop) e n : pfree_on ok e ->
  pfree_on (fun l => List.length l = n /\ Forall ok l) (fun l => List.concat (map e l)).
Proof.
  intros F l l' x y [L O] [L' O'] E. assert (E1 : List.length l = List.length l') by congruence.
  clear L L'. revert l' O' E1 E. induction O as [|s ss Hs O IH]; intros [|s' ss'] O' E1 E; try discriminate; [auto|].
  inversion O' as [|? ? Hs' O1']; subst. cbn [map List.concat] in E. rewrite <- !app_assoc in E.
  destruct (F _ _ _ _ Hs Hs' E) as [-> E']. destruct (IH ss' O1') as [-> ->]; auto.
Qed.
Lemma pf_concat {A} (ok : A -> Prop) e : pfree_on ok e -> (forall a, e a <> []) ->
  forall l l', Forall ok l -> Forall ok l' -> List.concat (map e l) = List.concat (map e l') -> l = l'.
Proof.
  intros F Ne l. induction l as [|a l IH]; intros [|a' l'] O O' E; cbn [map List.concat] in E.
  - reflexivity.
  - symmetry in E. apply app_eq_nil in E. destruct (Ne a' (proj1 E)).
  - apply app_eq_nil in E. destruct (Ne a (proj1 E)).
  - inversion O as [|? ? Ha O1]; inversion O' as [|? ? Ha' O1']; subst.
    destruct (F _ _ _ _ Ha Ha' E) as [-> E']. f_equal. now apply IH.
Qed.
Lemma pf_counted {A} (ok : A -> Prop) e (c : N -> bytes) w m :
  (forall x, List.length (c x) = w) -> (forall x y, x < m -> y < m -> c x = c y -> x = y) -> pfree_on ok e ->
  pfree_on (fun l => N.of_nat (List.length l) < m /\ Forall ok l)
           (fun l => c (N.of_nat (List.length l)) ++ List.concat (map e l)).
Proof.
  intros Lc Ic F l l' x y [L O] [L' O'] E. rewrite <- !app_assoc in E.
  apply app_eq_len in E; [|now rewrite !Lc]. destruct E as [E1 E]. apply Ic, Nat2N.inj in E1; auto.
  exact (pf_concat_n ok e _ F l l' x y (conj E1 O) (conj eq_refl O') E).
Qed.
Arguments pf_app {A B okA okB e1 e2}. Arguments pf_prefix {A ok} l {e}. Arguments pf_iso {A B} f {okA okB e}.
Lemma pf_byte : pfree_on (fun _ => True) (fun b : N => [b]).
Proof. apply (pf_fixed _ _ 1); [reflexivity | intros a b _ _ [= ->]; reflexivity]. Qed.
Lemma Forall_True {A} (l : list A) : Forall (fun _ => True) l.
Proof. induction l; constructor; auto. Qed.

(** labels whose length fits the [as u64] conversion (always the case in Rust: a slice is shorter
    than 2^64 bytes) *)
Definition short (l : bytes) : Prop := len l < W64.

Lemma msgs_map {T} k l (e : T -> bytes) xs : msgs k l (map e xs) = each k l e xs.
Proof. unfold msgs, each. now rewrite map_length. Qed.
Lemma pf_each_v1 {T} (ok : T -> Prop) l e : pfree_on ok e ->
  pfree_on (fun xs => N.of_nat (List.length xs) < W64 /\ Forall ok xs) (each V1 l e).
Proof. intro F. exact (pf_prefix _ (pf_counted ok e be64 8 W64 be64_length be64_inj F)). Qed.
Lemma pf_each_n {T} (ok : T -> Prop) k l e n : pfree_on ok e ->
  pfree_on (fun xs => List.length xs = n /\ Forall ok xs) (each k l e).
Proof.
  intros F xs xs' x y [L O] [L' O'] E. unfold each in E. rewrite L, L' in E.
  exact (pf_prefix _ (pf_prefix _ (pf_concat_n ok e n F)) xs xs' x y (conj L O) (conj L' O') E).
Qed.

Arguments pf_each_v1 {T ok l e}. Arguments pf_each_n {T ok k l e} n.
Lemma pf_msg {A} (ok : A -> Prop) k l e : pfree_on ok e -> pfree_on ok (fun a => msg k l (e a)).
Proof. apply pf_prefix. Qed.
Lemma pf_msgs_v1 {A} (ok : A -> Prop) l e : pfree_on ok e ->
  pfree_on (fun xs => N.of_nat (List.length xs) < W64 /\ Forall ok xs) (fun xs => msgs V1 l (map e xs)).
Proof. intros F xs xs' x y. rewrite !msgs_map. apply (pf_each_v1 F). Qed.
Lemma pf_msgs_n {A} (ok : A -> Prop) k l e n : pfree_on ok e ->
  pfree_on (fun xs => List.length xs = n /\ Forall ok xs) (fun xs => msgs k l (map e xs)).
Proof. intros F xs xs' x y. rewrite !msgs_map. apply (pf_each_n n F). Qed.
Arguments pf_msg {A ok k l e}. Arguments pf_msgs_v1 {A ok l e}. Arguments pf_msgs_n {A ok k l e} n.

Lemma lbl_v1_split l l' x y : short l -> short l' ->
  lbl V1 l ++ x = lbl V1 l' ++ y -> l = l' /\ x = y.
Proof.
  unfold lbl. intros Hl Hl'. rewrite <- !app_assoc. intro E.
  apply app_eq_len in E; [|now rewrite !be64_length]. destruct E as [E1 E2].
  apply be64_inj in E1; auto. unfold len in E1. apply Nat2N.inj in E1.
  apply app_eq_len in E2; auto.
Qed.

Lemma lbl_v1_nonnil l x : lbl V1 l ++ x <> [].
Proof.
  intros E. apply (f_equal (@List.length N)) in E. unfold lbl in E. rewrite !app_length, be64_length in E. discriminate.
Qed.

(** *** [frame_v1_injective], part 1: label sequences are uniquely decodable *)
Theorem frame_v1_labels_injective_ : forall ls ls',
  Forall short ls -> Forall short ls' ->
  enc_labels V1 ls = enc_labels V1 ls' -> ls = ls'.
Proof.
  apply (pf_concat short (lbl V1)).
  - intros l l' x y. apply lbl_v1_split.
  - intros l E. apply (lbl_v1_nonnil l []). rewrite app_nil_r. exact E.
Qed.

(** *** part 2: with prefix-free message codecs the framed bytes determine every message.
    A schema assigns to every label the set of [Serial] encodings that may follow it. *)
Definition prefix_free (P : bytes -> Prop) : Prop :=
  forall a b x y, P a -> P b -> a ++ x = b ++ y -> a = b.
Definition schema := bytes -> bytes -> Prop.
Definition schema_prefix_free (sch : schema) : Prop := forall l, prefix_free (sch l).
Definition conforms (sch : schema) (m : lmsg) : Prop := short (fst m) /\ sch (fst m) (snd m).

Theorem frame_v1_messages_injective_ : forall sch, schema_prefix_free sch ->
  forall ms ms', Forall (conforms sch) ms -> Forall (conforms sch) ms' ->
  enc_lmsgs V1 ms = enc_lmsgs V1 ms' -> ms = ms'.
Proof.
  intros sch Hpf. apply (pf_concat (conforms sch) (enc_lmsg V1)).
  - intros [l p] [l' p'] x y [Hs Hp] [Hs' Hp'] E. unfold enc_lmsg, msg in E. cbn [fst snd] in *.
    rewrite <- !app_assoc in E. apply lbl_v1_split in E; auto. destruct E as [-> E].
    assert (p = p') by (eapply Hpf; eauto). subst p'. apply app_inv_head in E. auto.
  - intros [l p]. apply lbl_v1_nonnil.
Qed.

Lemma fixed_length_prefix_free (P : bytes -> Prop) n :
  (forall a, P a -> List.length a = n) -> prefix_free P.
Proof.
  intros Hn a b x y Ha Hb E. apply app_eq_len in E; [tauto|]. now rewrite (Hn a), (Hn b).
Qed.

(** *** legacy [RandomOracle]: labels are absorbed raw, so label boundaries are lost *)
Theorem frame_legacy_labels_refuted_ :
  exists ls ls', ls <> ls' /\ enc_labels Legacy ls = enc_labels Legacy ls'.
Proof.
  exists [str "ab"; str "c"], [str "a"; str "bc"]. split; [discriminate|reflexivity].
Qed.
(** the same at the level of labelled messages: label "ab" with message bytes "c.." collides with
    label "a" and message bytes "bc.." *)
Theorem frame_legacy_messages_refuted_ :
  exists m m' : lmsg, m <> m' /\ enc_lmsg Legacy m = enc_lmsg Legacy m'.
Proof.
  exists (str "ab", str "c"), (str "a", str "bc"). split; [discriminate|reflexivity].
Qed.

(** *** positive part for both framings: with a *fixed schema* (the same label sequence, a
    prefix-free codec at every position) the bytes determine every message, and the whole frame is
    itself prefix free.  This is what a fixed protocol's [public] relies on under the legacy oracle. *)
Definition fixed_schema := list (bytes * (bytes -> Prop)).
Definition conforms_fixed (sch : fixed_schema) (ms : list lmsg) : Prop :=
  Forall2 (fun s m => fst m = fst s /\ snd s (snd m)) sch ms.

Theorem frame_fixed_schema_injective_ : forall k (sch : fixed_schema),
  Forall (fun s => prefix_free (snd s)) sch ->
  forall ms ms' x y, conforms_fixed sch ms -> conforms_fixed sch ms' ->
  enc_lmsgs k ms ++ x = enc_lmsgs k ms' ++ y -> ms = ms' /\ x = y.
Proof.
  intros k sch Hpf. unfold enc_lmsgs, conforms_fixed.
  induction Hpf as [|[l P] sch HP Hpf IH]; intros ms ms' x y Hc Hc' E.
  - inversion Hc; inversion Hc'; subst. cbn in E. auto.
  - inversion Hc as [|? [l1 p1] ? ? [Hl1 Hp1] Hc1]; inversion Hc' as [|? [l2 p2] ? ? [Hl2 Hp2] Hc2]; subst.
    cbn in *. subst l1 l2. unfold enc_lmsg, msg in E. cbn [fst snd] in E.
    rewrite <- !app_assoc in E. apply app_inv_head in E.
    assert (p1 = p2) by (eapply HP; eauto). subst p2. apply app_inv_head in E.
    destruct (IH _ _ _ _ Hc1 Hc2 E) as [-> ->]. auto.
Qed.

(** scalar_from_bytes keeps 254 bits: the result is a canonical scalar *)
Lemma scalar_from_bytes_bls_range bs :
  (0 <= scalar_from_bytes_bls bs < 2 ^ 254)%Z.
Proof.
  unfold scalar_from_bytes_bls. split; [apply N2Z.is_nonneg|].
  change (2 ^ 254)%Z with (Z.of_N (2 ^ 254)). apply N2Z.inj_lt. apply N.mod_lt. discriminate.
Qed.
