(** C12 - completeness and conservation of the transfer model whose Fiat-Shamir challenges are
    ALL derived inside the model ([EncTransferFS.v]), for every hash function.

    [bp_prove_fs] is shown to be [RangeProof.bp_prove] run on exactly the challenges the verifier derives
    from the finished proof ([fs_chal]), so that C11's completeness applies; the prover aborts ([None]) only
    when a derived challenge that must be inverted is zero, i.e. only when an explicit byte string with
    [sfb (H b) = 0] exists ([zero_hash]). *)
From Coq Require Import NArith List Lia.
From CB Require Import Crypto.Alg Crypto.Transcript Crypto.SigmaGeneric Crypto.SigmaCodec Crypto.Sigma_enc_trans
  Crypto.Chunks Crypto.Ipa Crypto.RangeProof Crypto.BpTranscript Crypto.EncTransfer Crypto.EncTransferProofs
  Crypto.EncTransferFS.
Import ListNotations.

Section FSProofs.
  Context {K : FieldOps} {KL : FieldLaws K} {M : ModOps K} {ML : ModLaws M} (Cd : CodecOps M).
  Variable H : bytes -> bytes.
  Variable sfb : bytes -> K.
  Variables (g h : M) (Gs Hs : list M).
  Add Field Kf_fs : (@F_th K KL).
  Local Open Scope G_scope.
  Local Notation BO := (@bpOps K M).

  Definition zero_hash : Prop := exists b : bytes, sfb (H b) = F0 K.

  Lemma Feqb_false_neq (a b : K) : Feqb K a b = false -> a <> b.
  Proof. intros E Hab. apply Feqb_spec in Hab. congruence. Qed.

  Lemma ipa_prove_cons u ui us Gv Hv Q (a b : list K) :
    ipa_prove BO ((u, ui) :: us) Gv Hv Q a b
    = match ipa_prove BO us (fold_G BO u ui Gv) (fold_H BO u ui Hv) Q (fold_a BO u ui a) (fold_b BO u ui b) with
      | (lr, fa, fb) => ((ipa_L BO Gv Hv Q a b, ipa_R BO Gv Hv Q a b) :: lr, fa, fb)
      end.
  Proof. reflexivity. Qed.
  Lemma with_inv_cons (u : K) us : with_inv (u :: us) = (u, Finv K u) :: with_inv us.
  Proof. reflexivity. Qed.

  (** [(let x := v in b) = r -> G] becomes [b = r -> G] with [x := v] in the context.  The provers are long
      chains of [let]s whose names occur many times: expanded (as [unfold] does) every later step is slow *)
  Ltac pull_let :=
    lazymatch goal with
    | |- (let x := ?v in @?b x) = ?r -> ?G =>
        let x' := fresh x in change (let x' := v in (b x' = r -> G)); intro x'; cbv beta
    end.

  Lemma ipa_fs_inv : forall n st Gv Hv Q a b res,
    ipa_prove_fs Cd H sfb n st Gv Hv Q a b = res ->
    match res with
    | Some (lr, fa, fb, us, st') =>
        ipa_prove BO (with_inv us) Gv Hv Q a b = (lr, fa, fb)
        /\ us = ipa_chals H sfb st (map (ser_lr Cd) lr)
        /\ st' = ipa_end st (map (ser_lr Cd) lr)
        /\ List.length us = n /\ Forall (fun u => u <> F0 K) us
    | None => zero_hash
    end.
  Proof.
    induction n as [|n IH]; intros st Gv Hv Q a b res; cbn [ipa_prove_fs].
    - intros <-. cbn. repeat split; constructor.
    - set (st1 := ipa_st st _). set (u := chal H sfb st1). destruct (Feqb K u (F0 K)) eqn:Ez.
      + intros <-. exists st1. apply Feqb_spec. exact Ez.
      + destruct (ipa_prove_fs _ _ _ n st1 _ _ _ _ _) as [[[[[lr1 fa1] fb1] us1] st2]|] eqn:Er; apply IH in Er; intros <-;
          [|exact Er].
        destruct Er as (E1 & E2 & E3 & E4 & E5). split; [|split; [|split; [|split]]].
        * rewrite with_inv_cons, ipa_prove_cons, E1. reflexivity.
        * cbn [map ipa_chals]. f_equal. exact E2.
        * exact E3.
        * cbn [List.length]. f_equal. exact E4.
        * constructor; [apply Feqb_false_neq; exact Ez|exact E5].
  Qed.

  Lemma bp_prove_fs_inv st pre Gv Hv B Bt aL aR sL sR at_ st_ t1t t2t clf crf ef cvrf res :
    bp_prove_fs Cd H sfb st pre Gv Hv B Bt aL aR sL sR at_ st_ t1t t2t clf crf ef cvrf = res ->
    match res with
    | Some (p, c, st') =>
        p = bp_prove BO Gv Hv B Bt aL aR sL sR at_ st_ t1t t2t (clf (bc_z c)) (crf (bc_z c)) (ef (bc_z c)) (cvrf (bc_z c))
              (bc_y c) (Finv K (bc_y c)) (bc_z c) (bc_x c) (bc_w c) (with_inv (bc_us c))
        /\ c = fs_chal Cd H sfb st pre p /\ st' = fs_after Cd st pre p
        /\ bc_y c <> F0 K /\ List.length (bc_us c) = 6%nat /\ Forall (fun u => u <> F0 K) (bc_us c)
    | None => zero_hash
    end.
  Proof.
    cbv beta delta [bp_prove_fs]. repeat pull_let. destruct (Feqb K y (F0 K)) eqn:Ey.
    - intros <-. exists (state_at Legacy st pre pm1 SY). apply Feqb_spec. exact Ey.
    - repeat pull_let. pose proof (ipa_fs_inv 6 stw Gv Hp Q l r _ eq_refl) as Er.
      destruct (ipa_prove_fs Cd H sfb 6 stw Gv Hp Q l r) as [[[[[lr1 fa1] fb1] us1] st1]|]; intros <-; [|exact Er].
      destruct Er as (E1 & E2 & E3 & E4 & E5). cbn [bc_y bc_z bc_x bc_w bc_us].
      split; [|split; [|split; [|split; [|split]]]].
      + transitivity (match ipa_prove BO (with_inv us1) Gv Hp Q l r with (lr, a, b) => mkProof BO A S T1 T2 tx txt et lr a b end);
          [rewrite E1; reflexivity | reflexivity].
      + rewrite E2. reflexivity.
      + exact E3.
      + apply Feqb_false_neq. exact Ey.
      + exact E4.
      + exact E5.
  Qed.

  (** the in-place prover is the prover of [EncTransfer.v] on the challenges the verifier derives *)
  Lemma bulletprove_fs_inv st pk chunks ks r res :
    bulletprove_fs Cd H sfb g h Gs Hs st pk chunks ks r = res ->
    match res with
    | Some (p, c, st') =>
        p = bulletprove h Gs Hs pk chunks ks r c
        /\ c = fs_chal Cd H sfb st (bp_pre Cd (commitments g h pk chunks ks)) p
        /\ st' = fs_after Cd st (bp_pre Cd (commitments g h pk chunks ks)) p
        /\ bp_chal_ok c
    | None => zero_hash
    end.
  Proof. exact (bp_prove_fs_inv _ _ _ _ _ _ _ _ _ _ _ _ _ _ _ _ _ _ res). Qed.

  (** an honestly generated range proof is accepted under the challenges derived from its own transcript *)
  Lemma bullet_complete_fs st pk c0 c1 k0 k1 r p c st' :
    (c0 < 2 ^ 32)%N -> (c1 < 2 ^ 32)%N -> (64 <= List.length Gs)%nat -> (64 <= List.length Hs)%nat -> bp_rand_ok r ->
    bulletprove_fs Cd H sfb g h Gs Hs st pk [c0; c1] [k0; k1] r = Some (p, c, st') ->
    bulletverify_fs Cd H sfb h Gs Hs st pk (commitments g h pk [c0; c1] [k0; k1]) p = VOk
    /\ st' = fs_after Cd st (bp_pre Cd (commitments g h pk [c0; c1] [k0; k1])) p.
  Proof.
    intros B0 B1 HG HH Hr E. apply bulletprove_fs_inv in E. destruct E as (Ep & Ec & Es & Hc).
    split; [|exact Es]. unfold bulletverify_fs. rewrite <- Ec. rewrite Ep.
    apply (bullet_complete g h Gs Hs); assumption.
  Qed.

  Lemma decrypt_join_chunks sk r0 r1 k2 k3 :
    decrypt sk (join (encrypt_exp g h (sk *: g) (kofN r0) k2, encrypt_exp g h (sk *: g) (kofN r1) k3))
    = kofN (r0 + 2 ^ 32 * r1) *: h.
  Proof.
    rewrite kofN_add, kofN_mul. unfold decrypt, join, encrypt_exp. cbn [fst snd].
    set (T := @kofN K (2 ^ 32)). set (x0 := @kofN K r0). set (x1 := @kofN K r1). mod_norm.
  Qed.

  (** ** transfer: completeness + conservation, challenges derived from the transcript, every [H] *)
  Theorem transfer_complete_fs_ gc pk_r sk agg_enc s idx a rnd :
    (s < W64)%N -> (a <= s)%N ->
    decrypt sk (join agg_enc) = kofN s *: h ->
    List.length (tr_A rnd) = 2%nat -> List.length (tr_S rnd) = 2%nat -> sigma_rand_ok 2 2 (tr_sigma rnd) ->
    bp_rand_ok (tr_bp_a rnd) -> bp_rand_ok (tr_bp_s rnd) ->
    (64 <= List.length Gs)%nat -> (64 <= List.length Hs)%nat ->
    match make_transfer_data_fs Cd H sfb g h Gs Hs gc pk_r sk agg_enc s idx a rnd with
    | None => zero_hash
    | Some td =>
        verify_transfer_data_fs Cd H sfb g h Gs Hs gc pk_r (sk *: g) agg_enc td = true
        /\ td_index td = idx
        /\ (exists a0 a1 r0 r1, (a0 + 2 ^ 32 * a1 = a)%N /\ (r0 + 2 ^ 32 * r1 = s - a)%N
             /\ enc_list (td_transfer td) = encrypt_chunks g h pk_r [a0; a1] (tr_A rnd)
             /\ enc_list (td_remaining td) = encrypt_chunks g h (sk *: g) [r0; r1] (tr_S rnd))
        /\ decrypt sk (join (td_remaining td)) + kofN a *: h = decrypt sk (join agg_enc)
        /\ (exists cm, fst (td_accounting td)
              = H (frame (enc_trans_proto Cd) Legacy (transfer_ctx Cd g gc pk_r (sk *: g))
                     (gen_enc_trans_proof_info g h (sk *: g) pk_r (join agg_enc)
                        (enc_list (td_transfer td)) (enc_list (td_remaining td))) cm))
    end.
  Proof.
    intros Hs64 Ha Hbal LA LS Hsig HrA HrS HG HH.
    destruct (chunks32_sum a ltac:(lia)) as (a0 & a1 & Ea & Ba0 & Ba1 & Sa).
    destruct rnd as [kA kS sg bpa bps]. cbn [tr_A tr_S tr_sigma tr_bp_a tr_bp_s] in *.
    destruct kA as [|k0 [|k1 [|? ?]]]; try discriminate LA.
    destruct (transfer_sigma_ok Cd H sfb g h (transfer_ctx Cd g gc pk_r (sk *: g)) sk pk_r (join agg_enc) s a
                (encrypt_chunks g h pk_r [a0; a1] [k0; k1]) (chunk_secrets [a0; a1] [k0; k1]) kS sg Hs64 Ha Hbal LS)
      as (r0 & r1 & k2 & k3 & pi & st & -> & Er & Br0 & Br1 & Sr & Hp & Hv);
      [repeat constructor | cbn [chunk_secrets map2 map fst]; rewrite lin2_pair, <- kofN_mul, <- kofN_add, Sa; reflexivity | exact Hsig |].
    unfold make_transfer_data_fs, gen_enc_trans_fs. cbn [tr_A tr_S tr_sigma tr_bp_a tr_bp_s].
    destruct (N.ltb_spec s a) as [Hlt|_]; [lia|]. rewrite Ea, Er, Hp.
    destruct (bulletprove_fs Cd H sfb g h Gs Hs st pk_r [a0; a1] [k0; k1] bpa) as [[[pa ca] st2]|] eqn:EA;
      [|exact (bulletprove_fs_inv _ _ _ _ _ _ EA)].
    destruct (bulletprove_fs Cd H sfb g h Gs Hs st2 (sk *: g) [r0; r1] [k2; k3] bps) as [[[ps cs] st3]|] eqn:ES;
      [|exact (bulletprove_fs_inv _ _ _ _ _ _ ES)].
    destruct (bullet_complete_fs st pk_r a0 a1 k0 k1 bpa pa ca st2 Ba0 Ba1 HG HH HrA EA) as (BA & Est2).
    destruct (bullet_complete_fs st2 (sk *: g) r0 r1 k2 k3 bps ps cs st3 Br0 Br1 HG HH HrS ES) as (BS & _).
    unfold commitments in BA, BS, Est2.
    cbn [encrypt_chunks map2 map snd] in *.
    split.
    { unfold verify_transfer_data_fs, verify_enc_trans_fs, enc_list.
      cbn [td_remaining td_transfer td_accounting td_bp_transfer td_bp_remaining enc_list fst snd].
      rewrite Hv. cbn [fst snd negb map]. rewrite BA. rewrite <- Est2. rewrite BS. reflexivity. }
    split; [reflexivity|].
    split.
    { exists a0, a1, r0, r1. unfold enc_list. cbn [td_transfer td_remaining fst snd]. repeat split; assumption || reflexivity. }
    split.
    { cbn [td_remaining]. rewrite decrypt_join_chunks, Hbal, Sr. rewrite <- smul_add_l, <- kofN_add.
      f_equal. f_equal. lia. }
    cbn [td_accounting td_transfer td_remaining enc_list fst snd].
    apply (f_equal fst) in Hv. destruct pi as [ch z].
    apply verify_binds_transcript_ in Hv. destruct Hv as (cm & _ & Ech). exists cm. exact Ech.
  Qed.

  (** readable corollary: if no derived challenge is zero the transfer is produced and verifies *)
  Corollary transfer_complete_fs_nonzero_ gc pk_r sk agg_enc s idx a rnd :
    (forall b, sfb (H b) <> F0 K) ->
    (s < W64)%N -> (a <= s)%N ->
    decrypt sk (join agg_enc) = kofN s *: h ->
    List.length (tr_A rnd) = 2%nat -> List.length (tr_S rnd) = 2%nat -> sigma_rand_ok 2 2 (tr_sigma rnd) ->
    bp_rand_ok (tr_bp_a rnd) -> bp_rand_ok (tr_bp_s rnd) ->
    (64 <= List.length Gs)%nat -> (64 <= List.length Hs)%nat ->
    exists td, make_transfer_data_fs Cd H sfb g h Gs Hs gc pk_r sk agg_enc s idx a rnd = Some td
      /\ verify_transfer_data_fs Cd H sfb g h Gs Hs gc pk_r (sk *: g) agg_enc td = true
      /\ decrypt sk (join (td_remaining td)) + kofN a *: h = decrypt sk (join agg_enc).
  Proof.
    intros Hnz Hs64 Ha Hbal LA LS Hsig HrA HrS HG HH.
    pose proof (transfer_complete_fs_ gc pk_r sk agg_enc s idx a rnd Hs64 Ha Hbal LA LS Hsig HrA HrS HG HH) as T.
    destruct (make_transfer_data_fs Cd H sfb g h Gs Hs gc pk_r sk agg_enc s idx a rnd) as [td|].
    - exists td. destruct T as (T1 & _ & _ & T4 & _). repeat split; assumption.
    - destruct T as (b & Eb). exfalso. exact (Hnz b Eb).
  Qed.

  Theorem sec_to_pub_complete_fs_ gc sk agg_enc s idx a rnd :
    (s < W64)%N -> (a <= s)%N ->
    decrypt sk (join agg_enc) = kofN s *: h ->
    List.length (sr_S rnd) = 2%nat -> sigma_rand_ok 1 2 (sr_sigma rnd) -> bp_rand_ok (sr_bp_s rnd) ->
    (64 <= List.length Gs)%nat -> (64 <= List.length Hs)%nat ->
    match make_sec_to_pub_transfer_data_fs Cd H sfb g h Gs Hs gc sk agg_enc s idx a rnd with
    | None => zero_hash
    | Some sd =>
        verify_sec_to_pub_transfer_data_fs Cd H sfb g h Gs Hs gc (sk *: g) agg_enc sd = true
        /\ sd_index sd = idx /\ sd_transfer_amount sd = a
        /\ (exists r0 r1, (r0 + 2 ^ 32 * r1 = s - a)%N
             /\ enc_list (sd_remaining sd) = encrypt_chunks g h (sk *: g) [r0; r1] (sr_S rnd))
        /\ decrypt sk (join (sd_remaining sd)) + kofN (sd_transfer_amount sd) *: h = decrypt sk (join agg_enc)
    end.
  Proof.
    intros Hs64 Ha Hbal LS Hsig HrS HG HH.
    destruct rnd as [kS sg bps]. cbn [sr_S sr_sigma sr_bp_s] in *.
    destruct (transfer_sigma_ok Cd H sfb g h (sec_to_pub_ctx Cd g gc (sk *: g)) sk (sk *: g) (join agg_enc) s a
                [dummy_encryption h a] [(kofN a, F0 K)] kS sg Hs64 Ha Hbal LS)
      as (r0 & r1 & k2 & k3 & pi & st & -> & Er & Br0 & Br1 & Sr & Hp & Hv);
      [constructor; [|constructor]; unfold dummy_encryption, encrypt_exp; cbn [fst snd]; f_equal; mod_norm
      | apply lin2_single | exact Hsig |].
    unfold make_sec_to_pub_transfer_data_fs, gen_sec_to_pub_trans_fs. cbn [sr_S sr_sigma sr_bp_s].
    destruct (N.ltb_spec s a) as [Hlt|_]; [lia|]. rewrite Er, Hp.
    destruct (bulletprove_fs Cd H sfb g h Gs Hs st (sk *: g) [r0; r1] [k2; k3] bps) as [[[ps cs] st3]|] eqn:ES;
      [|exact (bulletprove_fs_inv _ _ _ _ _ _ ES)].
    destruct (bullet_complete_fs st (sk *: g) r0 r1 k2 k3 bps ps cs st3 Br0 Br1 HG HH HrS ES) as (BS & _).
    unfold commitments in BS.
    cbn [encrypt_chunks map2 map snd] in *.
    split.
    { unfold verify_sec_to_pub_transfer_data_fs, verify_sec_to_pub_trans_fs, enc_list.
      cbn [sd_remaining sd_transfer_amount sd_accounting sd_bp_remaining enc_list fst snd].
      rewrite Hv. cbn [fst snd negb map]. rewrite BS. reflexivity. }
    split; [reflexivity|]. split; [reflexivity|].
    split.
    { exists r0, r1. unfold enc_list. cbn [sd_remaining fst snd]. split; assumption || reflexivity. }
    cbn [sd_remaining sd_transfer_amount]. rewrite decrypt_join_chunks, Hbal, Sr. rewrite <- smul_add_l, <- kofN_add.
    f_equal. f_equal. lia.
  Qed.

  Theorem transfer_fs_none_if_exceeds_ gc pk_r sk agg_enc s idx a rnd rnd' : (s < a)%N ->
    make_transfer_data_fs Cd H sfb g h Gs Hs gc pk_r sk agg_enc s idx a rnd = None
    /\ make_sec_to_pub_transfer_data_fs Cd H sfb g h Gs Hs gc sk agg_enc s idx a rnd' = None.
  Proof.
    intros Hlt. unfold make_transfer_data_fs, gen_enc_trans_fs, make_sec_to_pub_transfer_data_fs, gen_sec_to_pub_trans_fs.
    destruct (N.ltb_spec s a); [split; reflexivity|lia].
  Qed.
End FSProofs.
