(** sigma_protocols/com_eq.rs: knowledge of [(a, r)] with [commitment = a*cmm_g + r*cmm_h] and
    [y = a*g].  Response style [rho - c*w]; reconstruction [c*y + phi(z)]. *)
From Coq Require Import NArith List String.
From CB Require Import Crypto.Alg Crypto.Transcript Crypto.TranscriptProofs Crypto.SigmaGeneric Crypto.SigmaCodec.
Import ListNotations.

Record com_eq_stmt {K : FieldOps} (M : ModOps K) := mkComEq {
  ce_commitment : M; ce_y : M; ce_kg : M; ce_kh : M; ce_g : M }.
Arguments mkComEq {K M} _ _ _ _ _. Arguments ce_commitment {K M} _. Arguments ce_y {K M} _.
Arguments ce_kg {K M} _. Arguments ce_kh {K M} _. Arguments ce_g {K M} _.

Section ComEq.
  Context {K : FieldOps} {M : ModOps K} (Cd : CodecOps M).
  Local Open Scope G_scope.

  (** [public]: "commitment", "y", "cmm_key" (g then h), "g" *)
  Definition com_eq_public (k : tkind) (s : com_eq_stmt M) : bytes :=
    msg k (str "commitment") (serG Cd (ce_commitment s)) ++ msg k (str "y") (serG Cd (ce_y s)) ++
    msg k (str "cmm_key") (serG Cd (ce_kg s) ++ serG Cd (ce_kh s)) ++ msg k (str "g") (serG Cd (ce_g s)).
  (** randomness (alpha, cR); commit message (u, v) = (0 + alpha*g, alpha*cmm_g + cR*cmm_h) *)
  Definition com_eq_commit (s : com_eq_stmt M) (r : K * K) : option (M * M) :=
    let (alpha, cR) := r in
    Some (G0 M + alpha *: ce_g s, alpha *: ce_kg s + cR *: ce_kh s).
  (** secret (r, a); response (s, t) = (alpha - c*a, cR - c*r), computed as [-(c*a) + alpha] *)
  Definition com_eq_respond (s : com_eq_stmt M) (w : K * K) (r : K * K) (c : K) : option (K * K) :=
    let (wr, wa) := w in let (alpha, cR) := r in
    Some (Fadd K (Fopp K (Fmul K c wa)) alpha, Fadd K (Fopp K (Fmul K c wr)) cR).
  (** u = multiexp [y, g] [c, s]; v = c*commitment + (s*cmm_g + t*cmm_h) *)
  Definition com_eq_extract (s : com_eq_stmt M) (c : K) (z : K * K) : option (M * M) :=
    let (zs, zt) := z in
    Some (c *: ce_y s + zs *: ce_g s, c *: ce_commitment s + (zs *: ce_kg s + zt *: ce_kh s)).

  Definition com_eq_proto : proto K := {|
    p_stmt := com_eq_stmt M; p_wit := K * K; p_rand := K * K; p_cm := M * M; p_resp := K * K;
    p_public := com_eq_public; p_commit := com_eq_commit; p_respond := com_eq_respond;
    p_extract := com_eq_extract;
    p_ser_cm := fun a => serG Cd (fst a) ++ serG Cd (snd a);
    p_ser_resp := fun z => serF Cd (fst z) ++ serF Cd (snd z) |}.

  (** witness (r, a) *)
  Definition com_eq_rel (s : com_eq_stmt M) (w : K * K) : Prop :=
    ce_commitment s = snd w *: ce_kg s + fst w *: ce_kh s /\ ce_y s = snd w *: ce_g s.
  Definition com_eq_recover (s : com_eq_stmt M) (w : K * K) (c : K) (z : K * K) : K * K :=
    (Fadd K (fst z) (Fmul K c (snd w)), Fadd K (snd z) (Fmul K c (fst w))).

  (** linear map over the witness vector [a; r] *)
  Definition com_eq_A (s : com_eq_stmt M) : list (list M) := [[ce_g s; G0 M]; [ce_kg s; ce_kh s]].
  Definition com_eq_y (s : com_eq_stmt M) : list M := [ce_y s; ce_commitment s].

  Context {KL : FieldLaws K} {ML : ModLaws M}.
  Add Field Kf_comeq : (@F_th K KL).

  Lemma com_eq_commit_generic s r a : com_eq_commit s r = Some a ->
    [fst a; snd a] = m_commit (com_eq_A s) [fst r; snd r].
  Proof. destruct r. intro E. injection E as <-. cbn. list_split; mod_norm. Qed.
  Lemma com_eq_respond_generic s w r c z : com_eq_respond s w r c = Some z ->
    [fst z; snd z] = m_respond RespMinus c [snd w; fst w] [fst r; snd r].
  Proof. destruct w, r. intro E. injection E as <-. cbn. list_split; ring. Qed.
  Lemma com_eq_extract_generic s c z a : com_eq_extract s c z = Some a ->
    [fst a; snd a] = m_reconstruct RespMinus (com_eq_A s) (com_eq_y s) c [fst z; snd z].
  Proof. destruct z. intro E. injection E as <-. cbn. list_split; mod_norm. Qed.
  Lemma com_eq_rel_generic s w : com_eq_rel s w <-> phi (com_eq_A s) [snd w; fst w] = com_eq_y s.
  Proof.
    unfold com_eq_rel, phi, com_eq_A, com_eq_y. cbn. split.
    - intros [-> ->]. list_split; mod_norm.
    - intro E. injection E as E1 E2. split; [rewrite <- E2|rewrite <- E1]; mod_norm.
  Qed.

  Theorem com_eq_complete_ : complete com_eq_proto com_eq_rel (fun _ _ => True).
  Proof.
    intros s [wr wa] [al cR] [H1 H2] _. cbn in H1, H2. eexists. split; [reflexivity|]. intro c.
    eexists. split; [reflexivity|]. cbn. rewrite H1, H2. list_split; mod_norm.
  Qed.

  Definition com_eq_extractor (s : com_eq_stmt M) (c c' : K) (z z' : K * K) : K * K :=
    let v := m_extract RespMinus c c' [fst z; snd z] [fst z'; snd z'] in (nth 1 v (F0 K), nth 0 v (F0 K)).
  Theorem com_eq_special_sound_ : special_sound com_eq_proto com_eq_rel com_eq_extractor.
  Proof.
    intros s a c c' z z' Hc E E'. apply com_eq_rel_generic.
    pose proof (com_eq_extract_generic s c z a E) as G1. pose proof (com_eq_extract_generic s c' z' a E') as G2.
    exact (sigma_special_sound_ RespMinus (com_eq_A s) (com_eq_y s) [fst a; snd a] c c' [fst z; snd z] [fst z'; snd z'] Hc eq_refl eq_refl
             (eq_sym G1) (eq_sym G2)).
  Qed.

  Context {CL : CodecLaws Cd}.
  Theorem com_eq_public_prefix_free_ : forall k, public_prefix_free com_eq_proto k (fun _ => True).
  Proof.
    intro k. pose proof (pf_serG Cd) as G.
    apply (pf_iso (fun s => (ce_commitment s, (ce_y s, ((ce_kg s, ce_kh s), ce_g s))))
             (pf_app (pf_msg G) (pf_app (pf_msg G) (pf_app (pf_msg (pf_app G G)) (pf_msg G))))).
    - intros [] [] [= -> -> -> -> ->]. reflexivity.
    - repeat split.
  Qed.
End ComEq.
