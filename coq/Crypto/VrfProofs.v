(** Theorems about the ECVRF model (Vrf.v), for every abelian group with an integer action in
    which the base point has exact order [l] and hash-to-curve outputs are
    killed by [l] (the code clears the cofactor of a group of order [8 l]). *)
From Coq Require Import ZArith List Lia.
From CB Require Import Crypto.Vrf.
Import ListNotations.
Local Open Scope Z_scope.

Section VrfProofs.
  Variable G : Type.
  Variable gzero : G.
  Variable gadd : G -> G -> G.
  Variable gopp : G -> G.
  Variable zmul : Z -> G -> G.
  Hypothesis gadd_assoc : forall a b c, gadd a (gadd b c) = gadd (gadd a b) c.
  Hypothesis gadd_comm : forall a b, gadd a b = gadd b a.
  Hypothesis gadd_0_l : forall a, gadd gzero a = a.
  Hypothesis gadd_opp_r : forall a, gadd a (gopp a) = gzero.
  Hypothesis zmul_add_l : forall x y a, zmul (x + y) a = gadd (zmul x a) (zmul y a).
  Hypothesis zmul_add_r : forall x a b, zmul x (gadd a b) = gadd (zmul x a) (zmul x b).
  Hypothesis zmul_mul : forall x y a, zmul (x * y) a = zmul x (zmul y a).
  Hypothesis zmul_1 : forall a, zmul 1 a = a.

  Variable l : Z.
  Hypothesis l_pos : 0 < l.
  Variable B : G.
  Hypothesis B_order : forall n, zmul n B = gzero <-> (l | n).

  Variable Msg : Type.
  Variable Out : Type.
  Variable Nonce : Type.
  Variable h2c : G -> Msg -> option G.
  Hypothesis h2c_order : forall Y a H, h2c Y a = Some H -> zmul l H = gzero.
  Variable hpoints : G * G * G * G -> Z.
  Variable hout : G -> Out.
  Variable noncegen : Nonce -> G -> Z.

  Notation gsub := (gsub G gadd gopp).
  Notation vrf_prove := (vrf_prove G zmul l B Msg Nonce h2c hpoints noncegen).
  Notation vrf_verify := (vrf_verify G gadd gopp zmul B Msg h2c hpoints).
  Notation vrf_to_hash := (vrf_to_hash G zmul Out hout).
  Notation vrf_pk_of := (vrf_pk_of G zmul B).
  Notation dleq := (dleq G zmul B).

  Lemma gadd_0_r a : gadd a gzero = a.
  Proof. rewrite gadd_comm. apply gadd_0_l. Qed.

  Lemma gadd_cancel_l a b c : gadd a b = gadd a c -> b = c.
  Proof.
    intros H. assert (E : gadd (gopp a) (gadd a b) = gadd (gopp a) (gadd a c)) by now rewrite H.
    rewrite !gadd_assoc, (gadd_comm (gopp a) a), gadd_opp_r, !gadd_0_l in E. exact E.
  Qed.

  Lemma gsub_add a b : gsub (gadd a b) b = a.
  Proof. unfold Vrf.gsub. now rewrite <- gadd_assoc, gadd_opp_r, gadd_0_r. Qed.

  Lemma zmul_0_l a : zmul 0 a = gzero.
  Proof. apply (gadd_cancel_l (zmul 0 a)). now rewrite <- zmul_add_l, gadd_0_r. Qed.

  Lemma zmul_0_r x : zmul x gzero = gzero.
  Proof. apply (gadd_cancel_l (zmul x gzero)). now rewrite <- zmul_add_r, !gadd_0_r. Qed.

  Lemma zmul_opp x a : zmul (- x) a = gopp (zmul x a).
  Proof.
    apply (gadd_cancel_l (zmul x a)). rewrite <- zmul_add_l, gadd_opp_r, Z.add_opp_diag_r. apply zmul_0_l.
  Qed.

  Lemma zmul_multiple a n q : zmul n a = gzero -> zmul (n * q) a = gzero.
  Proof. intros H. now rewrite Z.mul_comm, zmul_mul, H, zmul_0_r. Qed.

  (** scalars act modulo [l] on points killed by [l] *)
  Lemma zmul_mod_l a x : zmul l a = gzero -> zmul (x mod l) a = zmul x a.
  Proof.
    intros H. rewrite (Z.div_mod x l) at 2 by lia.
    now rewrite zmul_add_l, (zmul_multiple a l (x / l) H), gadd_0_l.
  Qed.

  Lemma B_l : zmul l B = gzero.
  Proof. apply B_order. apply Z.divide_refl. Qed.

  (** scalars with the same multiple of [B] are congruent modulo [l], hence have the same
      multiple of every point killed by [l] *)
  Lemma B_eq_divides a b : zmul a B = zmul b B -> (l | a - b).
  Proof. intros E. apply B_order. unfold Z.sub. rewrite zmul_add_l, zmul_opp, E. apply gadd_opp_r. Qed.

  Lemma zmul_congr_l H a b : zmul l H = gzero -> (l | a - b) -> zmul a H = zmul b H.
  Proof.
    intros Hl [q D]. replace a with (b + l * q) by lia.
    now rewrite zmul_add_l, (zmul_multiple H l q Hl), gadd_0_r.
  Qed.

  Lemma zmul_B_determines H a b : zmul l H = gzero -> zmul a B = zmul b B -> zmul a H = zmul b H.
  Proof. intros Hl E. apply (zmul_congr_l H _ _ Hl), B_eq_divides, E. Qed.

  Lemma vrf_complete_l x nonce alpha pi :
    vrf_prove x nonce (vrf_pk_of x) alpha = Some pi -> vrf_verify (vrf_pk_of x) pi alpha = true.
  Proof.
    unfold Vrf.vrf_prove, Vrf.vrf_verify. destruct (h2c (vrf_pk_of x) alpha) as [H|] eqn:EH; [|discriminate].
    intros E. inversion E; subst pi; clear E. cbn [fst snd].
    pose proof (h2c_order _ _ _ EH) as Hl.
    set (k := noncegen nonce H). set (c := hpoints (H, zmul x H, zmul k B, zmul k H)).
    assert (EU : gsub (zmul ((k + c * x) mod l) B) (zmul c (vrf_pk_of x)) = zmul k B).
    { unfold Vrf.vrf_pk_of. rewrite (zmul_mod_l B _ B_l), zmul_add_l, zmul_mul. apply gsub_add. }
    assert (EV : gsub (zmul ((k + c * x) mod l) H) (zmul c (zmul x H)) = zmul k H).
    { rewrite (zmul_mod_l H _ Hl), zmul_add_l, zmul_mul. apply gsub_add. }
    rewrite EU, EV. apply Z.eqb_refl.
  Qed.

  (** *** the output depends on the key and the input only *)
  Lemma vrf_output_l x nonce Y alpha pi :
    vrf_prove x nonce Y alpha = Some pi ->
    exists H, h2c Y alpha = Some H /\ vrf_to_hash pi = hout (zmul 8 (zmul x H)).
  Proof.
    unfold Vrf.vrf_prove. destruct (h2c Y alpha) as [H|]; [|discriminate].
    intros E. inversion E; subst pi. exists H. split; reflexivity.
  Qed.

  Lemma vrf_output_deterministic_l x nonce nonce' Y alpha pi pi' :
    vrf_prove x nonce Y alpha = Some pi -> vrf_prove x nonce' Y alpha = Some pi' ->
    vrf_to_hash pi = vrf_to_hash pi'.
  Proof.
    intros E E'. apply vrf_output_l in E, E'. destruct E as (H & EH & ->), E' as (H' & EH' & ->).
    congruence.
  Qed.

  Lemma vrf_verify_iff_l Y gamma c s alpha :
    vrf_verify Y (gamma, c, s) alpha = true <->
    exists H, h2c Y alpha = Some H /\
      c = hpoints (H, gamma, gsub (zmul s B) (zmul c Y), gsub (zmul s H) (zmul c gamma)).
  Proof.
    unfold Vrf.vrf_verify. cbn [fst snd]. destruct (h2c Y alpha) as [H|].
    - rewrite Z.eqb_eq. split; [intros E; exists H; now split | intros (H' & EH & E); now inversion EH; subst].
    - split; [discriminate | intros (H' & EH & _); discriminate].
  Qed.

  (** *** uniqueness given the DLEQ relation; the cofactor removes small-order components *)
  Lemma dleq_honest x H : dleq (vrf_pk_of x) H (zmul x H).
  Proof.
    exists x. unfold Vrf.vrf_pk_of, cofactor. rewrite !zmul_mul. split; reflexivity.
  Qed.

  Lemma vrf_unique_given_dleq_l Y H gamma1 c1 s1 gamma2 c2 s2 :
    zmul l H = gzero ->
    dleq Y H gamma1 -> dleq Y H gamma2 ->
    vrf_to_hash (gamma1, c1, s1) = vrf_to_hash (gamma2, c2, s2).
  Proof.
    intros Hl (x1 & Y1 & G1) (x2 & Y2 & G2). unfold Vrf.vrf_to_hash. cbn [fst]. f_equal.
    unfold cofactor in *. rewrite G1, G2.
    apply (zmul_B_determines H _ _ Hl). now rewrite <- Y1, <- Y2.
  Qed.

  Lemma vrf_torsion_same_output_l gamma T c s c' s' :
    zmul 8 T = gzero -> vrf_to_hash (gadd gamma T, c, s) = vrf_to_hash (gamma, c', s').
  Proof.
    intros HT. unfold Vrf.vrf_to_hash, cofactor. cbn [fst]. now rewrite zmul_add_r, HT, gadd_0_r.
  Qed.

  (** the secret scalar is determined modulo [l] by the public key (so "the" output of a key
      is well defined): two scalars with the same public key give the same output *)
  Lemma vrf_output_of_key_l x x' H :
    zmul l H = gzero -> vrf_pk_of x = vrf_pk_of x' -> zmul 8 (zmul x H) = zmul 8 (zmul x' H).
  Proof.
    intros Hl E. f_equal. exact (zmul_B_determines H x x' Hl E).
  Qed.

  (** *** key validity is a genuine precondition
      [Deserial for PublicKey] rejects points of small order ([is_small_order], i.e. 8*Y = 0).
      Without that check nothing is left: for a key killed by [d] (d = 1, 2, 4, 8) the proof
      (Gamma = 0, c, s = k) with c = hash_points(H, 0, k*B, k*H) is accepted for EVERY input as soon
      as d divides c (one nonce in d under the random oracle; unconditionally for the identity
      key), it needs no secret, and its output is the same for all inputs. *)
  Lemma gopp_zero : gopp gzero = gzero.
  Proof. rewrite <- (gadd_0_l (gopp gzero)). apply gadd_opp_r. Qed.

  Lemma gsub_zero a : gsub a gzero = a.
  Proof. unfold Vrf.gsub. rewrite gopp_zero. apply gadd_0_r. Qed.

  Lemma vrf_small_order_key_forgeable_l Y alpha H k d :
    h2c Y alpha = Some H -> zmul d Y = gzero ->
    (d | hpoints (H, gzero, zmul k B, zmul k H)) ->
    vrf_verify Y (gzero, hpoints (H, gzero, zmul k B, zmul k H), k) alpha = true /\
    vrf_to_hash (gzero, hpoints (H, gzero, zmul k B, zmul k H), k) = hout gzero.
  Proof.
    intros EH HY [q Hq]. split.
    - unfold Vrf.vrf_verify. rewrite EH. cbn [fst snd].
      set (c := hpoints (H, gzero, zmul k B, zmul k H)) in *.
      assert (EU : gsub (zmul k B) (zmul c Y) = zmul k B).
      { rewrite Hq, zmul_mul, HY, zmul_0_r. apply gsub_zero. }
      assert (EV : gsub (zmul k H) (zmul c gzero) = zmul k H).
      { rewrite zmul_0_r. apply gsub_zero. }
      rewrite EU, EV. apply Z.eqb_refl.
    - unfold Vrf.vrf_to_hash. cbn [fst]. now rewrite zmul_0_r.
  Qed.

  Lemma vrf_identity_key_forgeable_l alpha H k :
    h2c gzero alpha = Some H ->
    vrf_verify gzero (gzero, hpoints (H, gzero, zmul k B, zmul k H), k) alpha = true.
  Proof.
    intros EH. apply (vrf_small_order_key_forgeable_l gzero alpha H k 1 EH).
    - apply zmul_1.
    - apply Z.divide_1_l.
  Qed.

  (** for a small-order key the attested relation is satisfied by Gamma = 0 (secret "0") ... *)
  Lemma dleq_small_order_key_l Y H : zmul 8 Y = gzero -> dleq Y H gzero.
  Proof.
    intros HY. exists 0. unfold cofactor. rewrite Z.mul_0_r, !zmul_0_l, zmul_0_r. split; [exact HY | reflexivity].
  Qed.

  (** ... whereas for a VALID key (8*Y <> 0) no Gamma of small order satisfies it: the output of a
      valid key is never the degenerate constant.  This is where key validity is needed. *)
  Lemma vrf_valid_key_excludes_small_order_gamma_l Y H gamma :
    zmul 8 Y <> gzero ->
    (forall n, zmul n H = gzero <-> (l | n)) ->
    dleq Y H gamma -> zmul 8 gamma <> gzero.
  Proof.
    intros HY HH (x & EY & EG) Z8. unfold cofactor in *. apply HY.
    rewrite EY. apply B_order. apply HH. now rewrite <- EG.
  Qed.

  (** *** binding: the challenge covers H (hence key and input) and Gamma *)
  Lemma vrf_challenge_binds_l Y alpha Y' alpha' H H' gamma gamma' c s s' :
    h2c Y alpha = Some H -> h2c Y' alpha' = Some H' -> (H, gamma) <> (H', gamma') ->
    vrf_verify Y (gamma, c, s) alpha = true -> vrf_verify Y' (gamma', c, s') alpha' = true ->
    exists u v, u <> v /\ hpoints u = hpoints v.
  Proof.
    intros EH EH' N V1 V2. apply vrf_verify_iff_l in V1, V2.
    destruct V1 as (H1 & EH1 & E1), V2 as (H2 & EH2 & E2).
    rewrite EH in EH1. rewrite EH' in EH2. inversion EH1; inversion EH2; subst H1 H2.
    eexists; eexists; split; [|rewrite <- E1; exact E2]. intros E. apply N. congruence.
  Qed.

  Lemma vrf_challenge_binds_gamma_l Y alpha gamma1 gamma2 c s1 s2 :
    vrf_verify Y (gamma1, c, s1) alpha = true -> vrf_verify Y (gamma2, c, s2) alpha = true ->
    gamma1 <> gamma2 ->
    exists u v, u <> v /\ hpoints u = hpoints v.
  Proof.
    intros V1 V2 N. destruct (proj1 (vrf_verify_iff_l _ _ _ _ _) V1) as (H & EH & _).
    apply (vrf_challenge_binds_l Y alpha Y alpha H H gamma1 gamma2 c s1 s2 EH EH); [|exact V1|exact V2].
    intros E. apply N. congruence.
  Qed.

  Lemma vrf_challenge_binds_input_l Y alpha Y' alpha' H H' pi :
    h2c Y alpha = Some H -> h2c Y' alpha' = Some H' -> H <> H' ->
    vrf_verify Y pi alpha = true -> vrf_verify Y' pi alpha' = true ->
    exists u v, u <> v /\ hpoints u = hpoints v.
  Proof.
    intros EH EH' N. destruct pi as [[gamma c] s].
    apply (vrf_challenge_binds_l Y alpha Y' alpha' H H' gamma gamma c s s EH EH'). intros E. apply N. congruence.
  Qed.
End VrfProofs.
