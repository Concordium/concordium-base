(** C08 - completeness of the composed credential proof, from the C07 development (import only):
    the protocol that [create_credential] proves and [verify_cdi] checks is
      AndAdapter(AndAdapter(com_mult, com_eq_sig), ReplicateAdapter(com_enc_eq ..))
    over the legacy transcript.  Completeness of the three instances and of the two adapters are the
    C07 lemmas [com_mult_complete_], [ces_complete_], [com_enc_eq_complete_], [and_complete_],
    [rep_complete_]; Fiat-Shamir completeness is [prove_verify_complete_].  What remains a hypothesis:
    completeness of the bulletproof range proof for a true statement (C11) and of ed25519 signing. *)
From Coq Require Import ZArith List.
From CB Require Import Crypto.Alg Crypto.AlgPairing Crypto.Transcript Crypto.SigmaGeneric Crypto.SigmaCodec
  Crypto.Sigma_com_mult Crypto.Sigma_com_enc_eq Crypto.Sigma_com_eq_sig.
From CB Require Crypto.IdPipeline.
Import ListNotations.

Section CdiC07.
  Context {K : FieldOps} {KL : FieldLaws K} {P : PairOps K} {PL : PairLaws P} {MC : ModOps K} {MLC : ModLaws MC}
          (Cd1 : CodecOps (PM1 P)) (Cd2 : CodecOps (PM2 P)) (CdT : CodecOps (PMT P)) (CdC : CodecOps MC).

  (** commitments and revoker keys live in [MC] (= G1 in the deployment) *)
  Definition cdi_proto : proto K :=
    and_proto (and_proto (com_mult_proto CdC) (ces_proto Cd1 Cd2 CdT CdC)) (rep_proto (com_enc_eq_proto CdC)).
  Definition cdi_rel : p_stmt cdi_proto -> p_wit cdi_proto -> Prop :=
    prod_rel (prod_rel com_mult_rel ces_rel) (rep_rel com_enc_eq_rel).
  Definition cdi_rok : p_stmt cdi_proto -> p_rand cdi_proto -> Prop :=
    prod_rel (prod_rel (fun _ _ => True) ces_rok) (rep_rok (fun _ _ => True)).

  Theorem cdi_sigma_complete_ : complete cdi_proto cdi_rel cdi_rok.
  Proof.
    unfold cdi_proto, cdi_rel, cdi_rok. apply and_complete_.
    - apply and_complete_; [apply com_mult_complete_ | apply ces_complete_]; assumption.
    - apply rep_complete_. apply com_enc_eq_complete_; assumption.
  Qed.

  Variable H : bytes -> bytes.
  Variable sfb : bytes -> K.

  (** [verify_cdi]: threshold = number of sharing-coefficient commitments, the sigma proof under the
      legacy transcript with prefix [ctx] (domain, cred_values, address, global_context), the range
      proof, the account-ownership signatures. *)
  Definition verify_cdi_c07 (threshold ncoeff : nat) (ctx : bytes) (s : p_stmt cdi_proto)
      (pi : bytes * p_resp cdi_proto) (range_ok sigs_ok : bool) : bool :=
    Nat.eqb threshold ncoeff && fst (verify H sfb cdi_proto Legacy ctx s pi) && range_ok && sigs_ok.

  Variables RangeProof SigT Msg : Type.
  Variable range_prove : Z -> Z -> RangeProof.
  Variable range_verify : RangeProof -> bool.
  Hypothesis range_complete : forall a b, IdPipeline.counter_ok a b = true -> range_verify (range_prove a b) = true.
  Variable acc_sign : Msg -> SigT.
  Variable acc_verify : Msg -> SigT -> bool.
  Hypothesis acc_sig_complete : forall m, acc_verify m (acc_sign m) = true.

  Theorem cdi_complete_c07_ : forall (threshold : nat) ctx s w r (counter max_accounts : Z) (msg : Msg),
    cdi_rel s w -> cdi_rok s r -> (counter <= max_accounts)%Z ->
    exists pi st, prove H sfb cdi_proto Legacy ctx s w r = Some (pi, st)
      /\ verify_cdi_c07 threshold threshold ctx s pi
           (range_verify (range_prove counter max_accounts)) (acc_verify msg (acc_sign msg)) = true.
  Proof.
    intros t ctx s w r counter maxa msg Hrel Hrok Hle.
    destruct (prove_verify_complete_ H sfb cdi_proto cdi_rel cdi_rok cdi_sigma_complete_ Legacy ctx s w r Hrel Hrok)
      as (pi & st & Hp & Hv).
    exists pi, st. split; [exact Hp|]. unfold verify_cdi_c07. rewrite Nat.eqb_refl, Hv. cbn [fst andb].
    rewrite range_complete by (unfold IdPipeline.counter_ok; apply Z.leb_le; exact Hle).
    apply acc_sig_complete.
  Qed.
End CdiC07.
