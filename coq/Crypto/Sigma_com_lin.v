(** sigma_protocols/com_lin.rs: knowledge of [(x_i, r_i)_i, r] with [C_i = x_i*g + r_i*h] and
    [C = (sum u_i*x_i)*g + r*h], for every n.  Response style [rho - c*w].  All the length checks of
    the Rust code are part of the model. *)
From Coq Require Import ZArith List Lia String Bool.
From CB Require Import Crypto.Alg Crypto.Transcript Crypto.TranscriptProofs Crypto.SigmaGeneric Crypto.SigmaCodec.
Import ListNotations.

Record com_lin_stmt {K : FieldOps} (M : ModOps K) := mkComLin {
  cl_us : list K; cl_cmms : list M; cl_cmm : M; cl_g : M; cl_h : M }.
Arguments mkComLin {K M} _ _ _ _ _. Arguments cl_us {K M} _. Arguments cl_cmms {K M} _.
Arguments cl_cmm {K M} _. Arguments cl_g {K M} _. Arguments cl_h {K M} _.

Section ComLin.
  Context {K : FieldOps} {M : ModOps K} (Cd : CodecOps M).
  Local Open Scope G_scope.
  Definition cl_wit : Type := (list K * list K * K)%type.   (* xs / alphas, rs / r~_i, r / r~ *)
  Notation len := (@List.length _).
  Definition neqb (a b : nat) : bool := negb (Nat.eqb a b).

  Definition com_lin_public (k : tkind) (s : com_lin_stmt M) : bytes :=
    msgs k (str "us") (map (serF Cd) (cl_us s)) ++ msgs k (str "cmms") (map (serG Cd) (cl_cmms s)) ++
    msg k (str "cmm") (serG Cd (cl_cmm s)) ++ msg k (str "cmm_key") (serG Cd (cl_g s) ++ serG Cd (cl_h s)).
  Definition hide (g h : M) (x r : K) : M := x *: g + r *: h.
  (** [if self.us.len() != n return None]; a_i = commit(alpha_i; r~_i); a = commit(sum u_i*alpha_i; r~) *)
  Definition com_lin_commit (s : com_lin_stmt M) (r : cl_wit) : option (list M * M) :=
    let '(alphas, rts, rt) := r in
    if neqb (len (cl_us s)) (len (cl_cmms s)) then None
    else Some (map2 (hide (cl_g s) (cl_h s)) alphas rts, hide (cl_g s) (cl_h s) (Fdot (cl_us s) alphas) rt).
  Definition resp1 (c w rho : K) : K := Fadd K (Fopp K (Fmul K c w)) rho.
  Definition com_lin_respond (s : com_lin_stmt M) (w : cl_wit) (r : cl_wit) (c : K) : option cl_wit :=
    let '(xs, rs, rr) := w in let '(alphas, rts, rt) := r in
    let n := len alphas in
    if neqb (len (cl_cmms s)) n || neqb (len (cl_us s)) n || neqb (len xs) n || neqb (len rs) n then None
    else Some (map2 (resp1 c) xs alphas, map2 (resp1 c) rs rts, resp1 c rr rt).
  Definition com_lin_extract (s : com_lin_stmt M) (c : K) (z : cl_wit) : option (list M * M) :=
    let '(zs, ss, sf) := z in
    let n := len zs in
    if neqb (len ss) n || neqb (len (cl_us s)) n || neqb (len (cl_cmms s)) n then None
    else Some (map3 (fun Ci zi si => zi *: cl_g s + (si *: cl_h s + c *: Ci)) (cl_cmms s) zs ss,
               Fdot (cl_us s) zs *: cl_g s + (sf *: cl_h s + c *: cl_cmm s)).

  Definition com_lin_proto : proto K := {|
    p_stmt := com_lin_stmt M; p_wit := cl_wit; p_rand := cl_wit; p_cm := list M * M; p_resp := cl_wit;
    p_public := com_lin_public; p_commit := com_lin_commit; p_respond := com_lin_respond; p_extract := com_lin_extract;
    p_ser_cm := fun a => ser_vec (map (serG Cd) (fst a)) ++ serG Cd (snd a);
    p_ser_resp := fun z => let '(zs, ss, sf) := z in
      ser_vec32 (map (serF Cd) zs) ++ ser_vec32 (map (serF Cd) ss) ++ serF Cd sf |}.

  Definition com_lin_rel (s : com_lin_stmt M) (w : cl_wit) : Prop :=
    let '(xs, rs, rr) := w in
    len xs = len (cl_us s) /\ len rs = len (cl_us s) /\
    cl_cmms s = map2 (hide (cl_g s) (cl_h s)) xs rs /\
    cl_cmm s = hide (cl_g s) (cl_h s) (Fdot (cl_us s) xs) rr.
  Definition com_lin_rok (s : com_lin_stmt M) (r : cl_wit) : Prop :=
    let '(alphas, rts, _) := r in len alphas = len (cl_us s) /\ len rts = len (cl_us s).
  Definition com_lin_recover (s : com_lin_stmt M) (w : cl_wit) (c : K) (z : cl_wit) : cl_wit :=
    let '(xs, rs, rr) := w in let '(zs, ss, sf) := z in
    let rec zi wi := Fadd K zi (Fmul K c wi) in (map2 rec zs xs, map2 rec ss rs, rec sf rr).

  Context {KL : FieldLaws K} {ML : ModLaws M}.
  Add Field Kf_cl : (@F_th K KL).

  Lemma Fdot_resp c (us : list K) : forall xs alphas : list K, len xs = len alphas ->
    Fdot us (map2 (resp1 c) xs alphas) = Fsub K (Fdot us alphas) (Fmul K c (Fdot us xs)).
  Proof.
    induction us as [|u us IH]; intros [|x xs] [|a al] L; try discriminate; cbn; try ring.
    rewrite IH by (cbn in L; lia). unfold resp1. ring.
  Qed.
  Lemma items_complete c (g h : M) : forall xs rs alphas rts : list K,
    len rs = len xs -> len alphas = len xs -> len rts = len xs ->
    map3 (fun Ci zi si => zi *: g + (si *: h + c *: Ci)) (map2 (hide g h) xs rs)
         (map2 (resp1 c) xs alphas) (map2 (resp1 c) rs rts) = map2 (hide g h) alphas rts.
  Proof.
    induction xs as [|x xs IH]; intros [|r rs] [|a al] [|t rts] L1 L2 L3; try discriminate; [reflexivity|].
    cbn [map2 map3]. rewrite IH by (cbn in *; lia). f_equal. unfold hide, resp1. mod_norm.
  Qed.

  Theorem com_lin_complete_ : complete com_lin_proto com_lin_rel com_lin_rok.
  Proof.
    intros [us cmms cmm g h] [[xs rs] rr] [[al rts] rt] (L1 & L2 & Hc & Hm) [L3 L4]. cbn in L1, L2, L3, L4, Hc, Hm. subst cmms cmm.
    assert (Lc : len (map2 (hide g h) xs rs) = len us) by (rewrite map2_length, L1, L2; apply Nat.min_id).
    eexists. split.
    { cbn [p_commit com_lin_proto com_lin_commit cl_us cl_cmms cl_g cl_h cl_cmm]. unfold neqb. rewrite Lc, Nat.eqb_refl. reflexivity. }
    intro c. cbn [p_respond p_extract com_lin_proto com_lin_respond com_lin_extract cl_us cl_cmms cl_g cl_h cl_cmm]. unfold neqb. rewrite Lc, L1, L2, L3, !Nat.eqb_refl. cbn [negb orb]. eexists. split; [reflexivity|].
    unfold com_lin_extract, neqb. cbn [cl_us cl_cmms cl_g cl_h cl_cmm]. rewrite !map2_length, L1, L2, L3, L4, !Nat.min_id, !Nat.eqb_refl. cbn [negb orb]. f_equal. f_equal.
    - apply items_complete; congruence.
    - rewrite Fdot_resp by congruence. unfold hide, resp1. mod_norm.
  Qed.

  (** a response whose vectors do not have the statement's length is rejected *)
  Theorem com_lin_extract_length_ : forall s c zs ss sf a, com_lin_extract s c (zs, ss, sf) = Some a ->
    len zs = len (cl_cmms s) /\ len ss = len (cl_cmms s) /\ len (cl_us s) = len (cl_cmms s).
  Proof.
    intros s c zs ss sf a. unfold com_lin_extract, neqb.
    destruct (Nat.eqb (len ss) (len zs)) eqn:E1; [|discriminate].
    destruct (Nat.eqb (len (cl_us s)) (len zs)) eqn:E2; [|discriminate].
    destruct (Nat.eqb (len (cl_cmms s)) (len zs)) eqn:E3; [|discriminate].
    intros _. apply Nat.eqb_eq in E1, E2, E3. repeat split; congruence.
  Qed.

  (** special soundness, extractor (z - z')/(c' - c) componentwise *)
  Definition exv (c c' : K) (a b : list K) : list K := map2 (fun z z' => Fmul K (Finv K (Fsub K c' c)) (Fsub K z z')) a b.
  Definition com_lin_extractor (s : com_lin_stmt M) (c c' : K) (z z' : cl_wit) : cl_wit :=
    let '(zs, ss, sf) := z in let '(zs', ss', sf') := z' in
    (exv c c' zs zs', exv c c' ss ss', Fmul K (Finv K (Fsub K c' c)) (Fsub K sf sf')).

  Lemma items_ss c c' (g h : M) : c <> c' -> forall (cm : list M) (zs ss zs' ss' : list K),
    len zs = len cm -> len ss = len cm -> len zs' = len cm -> len ss' = len cm ->
    map3 (fun Ci zi si => zi *: g + (si *: h + c *: Ci)) cm zs ss =
    map3 (fun Ci zi si => zi *: g + (si *: h + c' *: Ci)) cm zs' ss' ->
    cm = map2 (hide g h) (exv c c' zs zs') (exv c c' ss ss').
  Proof.
    intros Hc. induction cm as [|C cm IH]; intros [|z zs] [|s ss] [|z' zs'] [|s' ss'] L1 L2 L3 L4 E; try discriminate; [reflexivity|].
    cbn [map3] in E. injection E as E0 E. cbn [exv map2]. f_equal.
    - rewrite !Gadd_assoc in E0. apply (ss_row_r c c' C _ _ Hc) in E0. rewrite E0. unfold hide. mod_norm.
    - apply IH; cbn in *; auto; lia.
  Qed.
  Lemma Fdot_exv c c' (us : list K) : forall zs zs' : list K, len zs = len zs' ->
    Fdot us (exv c c' zs zs') = Fmul K (Finv K (Fsub K c' c)) (Fsub K (Fdot us zs) (Fdot us zs')).
  Proof.
    induction us as [|u us IH]; intros [|z zs] [|z' zs'] L; try discriminate; cbn; try ring.
    fold (exv c c' zs zs'). rewrite IH by (cbn in L; lia). ring.
  Qed.

  Theorem com_lin_special_sound_ : special_sound com_lin_proto com_lin_rel com_lin_extractor.
  Proof.
    intros [us cmms cmm g h] a c c' [[zs ss] sf] [[zs' ss'] sf'] Hc E E'.
    destruct (com_lin_extract_length_ _ _ _ _ _ _ E) as (A1 & A2 & A3).
    destruct (com_lin_extract_length_ _ _ _ _ _ _ E') as (B1 & B2 & _). cbn [cl_cmms cl_us] in *.
    cbn [p_extract com_lin_proto] in E, E'. unfold com_lin_extract, neqb in E, E'. cbn [cl_us cl_cmms cl_cmm cl_g cl_h] in E, E'.
    rewrite A2, A3, A1, !Nat.eqb_refl in E. rewrite B2, A3, B1, !Nat.eqb_refl in E'. cbn [negb orb] in E, E'.
    rewrite <- E' in E. injection E as E1 E2.
    unfold com_lin_rel, com_lin_extractor. cbn [cl_us cl_cmms cl_cmm cl_g cl_h].
    assert (Lx : forall a b : list K, len a = len cmms -> len b = len cmms -> len (exv c c' a b) = len us).
    { intros a0 b0 La Lb. unfold exv. rewrite map2_length, La, Lb, Nat.min_id. congruence. }
    repeat split; auto.
    - apply items_ss; auto.
    - rewrite !Gadd_assoc in E2. apply (ss_row_r c c' cmm _ _ Hc) in E2. rewrite E2 at 1.
      rewrite Fdot_exv by congruence. unfold hide. mod_norm.
  Qed.

  Context {CL : CodecLaws Cd}.
  Theorem com_lin_public_prefix_free_v1_ :
    public_prefix_free com_lin_proto V1
      (fun s => (N.of_nat (len (cl_us s)) < W64)%N /\ (N.of_nat (len (cl_cmms s)) < W64)%N).
  Proof.
    pose proof (pf_serG Cd) as G.
    apply (pf_iso (fun s => (cl_us s, (cl_cmms s, (cl_cmm s, (cl_g s, cl_h s)))))
             (pf_app (pf_msgs_v1 (pf_serF Cd)) (pf_app (pf_msgs_v1 G) (pf_app (pf_msg G) (pf_msg (pf_app G G)))))).
    - intros [] [] [= -> -> -> -> ->]. reflexivity.
    - intros s [L1 L2]. repeat split; try assumption; apply Forall_True.
  Qed.
  Theorem com_lin_public_prefix_free_fixed_size_ : forall k n,
    public_prefix_free com_lin_proto k (fun s => len (cl_us s) = n /\ len (cl_cmms s) = n).
  Proof.
    intros k n. pose proof (pf_serG Cd) as G.
    apply (pf_iso (fun s => (cl_us s, (cl_cmms s, (cl_cmm s, (cl_g s, cl_h s)))))
             (pf_app (pf_msgs_n n (pf_serF Cd)) (pf_app (pf_msgs_n n G) (pf_app (pf_msg G) (pf_msg (pf_app G G)))))).
    - intros [] [] [= -> -> -> -> ->]. reflexivity.
    - intros s [L1 L2]. repeat split; try assumption; apply Forall_True.
  Qed.
End ComLin.
