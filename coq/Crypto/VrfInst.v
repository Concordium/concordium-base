(** A lawful instance of the hypotheses of VrfProofs.v: the cyclic group with five elements,
    base point of exact order l = 5 (the hypotheses are jointly satisfiable). *)
From Coq Require Import ZArith Lia.
From CB Require Import Crypto.PairingAlg.
Local Open Scope Z_scope.

Definition g5_add (a b : five) : five := five_of_Z (five_to_Z a + five_to_Z b).
Definition g5_opp (a : five) : five := five_of_Z (- five_to_Z a).
Definition g5_zmul (n : Z) (a : five) : five := five_of_Z (n * five_to_Z a).

Lemma five_of_to a : five_of_Z (five_to_Z a) = a.
Proof. destruct a; reflexivity. Qed.

Lemma five_to_of z : five_to_Z (five_of_Z z) = z mod 5.
Proof.
  unfold five_of_Z. pose proof (Z.mod_pos_bound z 5 ltac:(lia)) as B.
  assert (C : z mod 5 = 0 \/ z mod 5 = 1 \/ z mod 5 = 2 \/ z mod 5 = 3 \/ z mod 5 = 4) by lia.
  destruct C as [E|[E|[E|[E|E]]]]; rewrite E; reflexivity.
Qed.

Lemma five_of_eq a b : a mod 5 = b mod 5 -> five_of_Z a = five_of_Z b.
Proof. unfold five_of_Z. now intros ->. Qed.

Lemma g5_zmul_add_l x y a : g5_zmul (x + y) a = g5_add (g5_zmul x a) (g5_zmul y a).
Proof.
  unfold g5_zmul, g5_add. rewrite !five_to_of. apply five_of_eq.
  rewrite <- Z.add_mod by lia. f_equal. ring.
Qed.

Lemma g5_zmul_add_r x a b : g5_zmul x (g5_add a b) = g5_add (g5_zmul x a) (g5_zmul x b).
Proof.
  unfold g5_zmul, g5_add. rewrite !five_to_of. apply five_of_eq.
  rewrite Z.mul_mod_idemp_r by lia. rewrite <- Z.add_mod by lia. f_equal. ring.
Qed.

Lemma g5_zmul_mul x y a : g5_zmul (x * y) a = g5_zmul x (g5_zmul y a).
Proof.
  unfold g5_zmul. rewrite !five_to_of. apply five_of_eq.
  rewrite Z.mul_mod_idemp_r by lia. f_equal. ring.
Qed.

Lemma g5_zmul_1 a : g5_zmul 1 a = a.
Proof. unfold g5_zmul. rewrite Z.mul_1_l. apply five_of_to. Qed.

Lemma g5_B_order n : g5_zmul n V1 = V0 <-> (5 | n).
Proof.
  unfold g5_zmul. cbn [five_to_Z]. rewrite Z.mul_1_r. split.
  - intros E. apply (f_equal five_to_Z) in E. rewrite five_to_of in E. cbn in E.
    apply Z.mod_divide; [lia | exact E].
  - intros D. apply Z.mod_divide in D; [|lia]. rewrite (five_of_eq n 0); [reflexivity|]. now rewrite D.
Qed.

Lemma g5_kills a : g5_zmul 5 a = V0.
Proof. destruct a; reflexivity. Qed.
