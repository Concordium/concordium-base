(** C11 - proofs about the statement arithmetic of [RangeStmt.v]. *)
From Coq Require Import ZArith List Bool Lia.
From CB Require Import Crypto.RangeStmt.
Import ListNotations.
Local Open Scope Z_scope.

Lemma mod_neg_wrap x r : - r <= x < 0 -> x mod r = x + r.
Proof. intros H. symmetry. apply Z.mod_unique with (q := -1); lia. Qed.

Lemma mod_range_iff r B x : 0 < B <= r -> - (r - B) <= x < r ->
  (0 <= x mod r < B <-> 0 <= x < B).
Proof.
  intros HB Hx. destruct (Z_lt_le_dec x 0) as [Neg|Pos].
  - (* a negative [x] wraps to [x + r >= B] *)
    rewrite mod_neg_wrap by lia. lia.
  - rewrite Z.mod_small by lia. reflexivity.
Qed.

Lemma mod_fix_iff W x : 0 < W -> (x = x mod W <-> 0 <= x < W).
Proof.
  intros HW. split.
  - intros ->. apply Z.mod_pos_bound. exact HW.
  - intros H. symmetry. apply Z.mod_small. exact H.
Qed.

Lemma pow2_le_W64 n : 0 <= n <= 64 -> 0 < 2 ^ n <= W64.
Proof. intros Hn. split; [lia | apply Z.pow_le_mono_r; lia]. Qed.

Lemma bit_of_b2z v i : bit_of v i = Z.b2z (Z.testbit v (Z.of_nat i)).
Proof. unfold bit_of. destruct Z.testbit; reflexivity. Qed.

Lemma bit_of_01 v i : bit_of v i = 0 \/ bit_of v i = 1.
Proof. unfold bit_of; destruct Z.testbit; auto. Qed.

Lemma bits_S v n : bits v (S n) = bits v n ++ [bit_of v n].
Proof. unfold bits. rewrite seq_S, map_app. reflexivity. Qed.

Lemma pow2s_S n : pow2s (S n) = pow2s n ++ [2 ^ Z.of_nat n].
Proof. unfold pow2s. rewrite seq_S, map_app. reflexivity. Qed.

Lemma bits_length v n : length (bits v n) = n.
Proof. unfold bits. rewrite map_length, seq_length. reflexivity. Qed.

Lemma pow2s_length n : length (pow2s n) = n.
Proof. unfold pow2s. rewrite map_length, seq_length. reflexivity. Qed.

Lemma idot_app a b c d : length a = length c ->
  idot (a ++ b) (c ++ d) = idot a c + idot b d.
Proof.
  revert c. induction a as [|x a IH]; intros [|y c] H; simpl in H; try discriminate.
  - reflexivity.
  - injection H as H. specialize (IH c H). unfold idot in *. simpl. rewrite IH. ring.
Qed.

Lemma idot_bits v n : idot (bits v n) (pow2s n) = v mod 2 ^ Z.of_nat n.
Proof.
  induction n.
  - simpl. rewrite Z.mod_1_r. reflexivity.
  - rewrite bits_S, pow2s_S, idot_app by (rewrite bits_length, pow2s_length; reflexivity).
    rewrite IHn. unfold idot at 1. simpl fold_right.
    rewrite Nat2Z.inj_succ, Z.pow_succ_r by lia.
    rewrite (Z.mul_comm 2), Z.rem_mul_r by lia.
    rewrite bit_of_b2z, Z.testbit_spec' by lia. ring.
Qed.

Lemma had_zero_bits v n : had_zero (bits v n) (aR_of (bits v n)).
Proof.
  unfold had_zero, aR_of, bits. induction (seq 0 n) as [|i l IH]; simpl.
  - constructor.
  - constructor; [|exact IH]. simpl. destruct (bit_of_01 v i) as [H|H]; rewrite H; reflexivity.
Qed.

Theorem bits_iff_in_range_Z : forall v n, 0 <= v ->
  (bits_ok v n <-> v < 2 ^ Z.of_nat n).
Proof.
  intros v n Hv. unfold bits_ok. rewrite idot_bits. split.
  - intros [_ H]. rewrite <- H. apply Z.mod_pos_bound. lia.
  - intros H. split; [apply had_zero_bits|]. apply Z.mod_small. lia.
Qed.

(** the same with the second condition read in the scalar field Z/r (as the verifier's
    equations do): every width whose range fits below the modulus *)
Theorem bits_iff_in_range_mod : forall r v n, 2 ^ Z.of_nat n <= r -> 0 <= v < r ->
  ((had_zero (bits v n) (aR_of (bits v n)) /\ idot (bits v n) (pow2s n) mod r = v mod r)
   <-> v < 2 ^ Z.of_nat n).
Proof.
  intros r v n Hr Hv.
  pose proof (Z.mod_pos_bound v (2 ^ Z.of_nat n) ltac:(lia)) as Hm.
  rewrite <- (bits_iff_in_range_Z v n) by lia. unfold bits_ok.
  rewrite (Z.mod_small v r), (Z.mod_small (idot _ _) r) by (rewrite ?idot_bits; lia).
  reflexivity.
Qed.

Corollary bits_iff_in_range_field : forall r v n, 2 ^ 65 < r -> 0 <= v < r -> (n <= 64)%nat ->
  ((had_zero (bits v n) (aR_of (bits v n)) /\ idot (bits v n) (pow2s n) mod r = v mod r)
   <-> v < 2 ^ Z.of_nat n).
Proof.
  intros r v n Hr Hv Hn. apply bits_iff_in_range_mod; [|exact Hv].
  pose proof (pow2_le_W64 (Z.of_nat n) ltac:(lia)) as Hp. unfold W64 in Hp. lia.
Qed.

Theorem leq_committed_iff : forall r n a b, 0 < 2 ^ n <= r ->
  - (r - 2 ^ n) <= b - a < r -> - (r - 2 ^ n) <= a < r ->
  (pair_in_range n (leq_committed r a b) <-> (0 <= b - a < 2 ^ n /\ 0 <= a < 2 ^ n)).
Proof.
  intros r n a b Hn Hd Ha. unfold pair_in_range, leq_committed. cbn [fst snd].
  rewrite !(mod_range_iff r (2 ^ n)) by assumption. reflexivity.
Qed.

Theorem leq_statement_exact_l : forall r n a b,
  2 ^ 65 < r -> 0 <= n <= 64 -> 0 <= a < W64 -> 0 <= b < W64 ->
  (pair_in_range n (leq_committed r a b) <-> (a <= b /\ b - a < 2 ^ n /\ a < 2 ^ n)).
Proof.
  intros r n a b Hr Hn Ha Hb. pose proof (pow2_le_W64 n Hn) as Hp. unfold W64 in *.
  rewrite leq_committed_iff by lia. lia.
Qed.

Corollary leq_statement_given_b_small : forall r n a b,
  2 ^ 65 < r -> 0 <= n <= 64 -> 0 <= a < W64 -> 0 <= b < 2 ^ n ->
  (pair_in_range n (leq_committed r a b) <-> a <= b).
Proof.
  intros r n a b Hr Hn Ha Hb. pose proof (pow2_le_W64 n Hn) as Hp.
  rewrite leq_statement_exact_l by lia. lia.
Qed.

Lemma leq_prover_checked_spec : forall a b p,
  leq_prover_checked a b = Some p <-> (a <= b /\ p = (b - a, a)).
Proof.
  intros a b p. unfold leq_prover_checked. destruct (Z.leb_spec a b) as [Hle|Hgt]; split.
  - intros E; injection E as <-. auto.
  - intros [_ ->]. reflexivity.
  - discriminate.
  - intros [H0 _]. lia.
Qed.

Lemma pair_in_rangeb_spec n p : pair_in_rangeb n p = true <-> pair_in_range n p.
Proof.
  unfold pair_in_rangeb, pair_in_range. rewrite !andb_true_iff, !Z.leb_le, !Z.ltb_lt. tauto.
Qed.

(** wrapping build: the proof the prover produces is about [(b - a) mod 2^64, a]; it can only be
    checked successfully against the committed scalars when the two tuples coincide *)
Theorem leq_accepts_wrapping_iff : forall r n a b,
  2 ^ 65 < r -> 0 <= n <= 64 -> 0 <= a < W64 -> 0 <= b < W64 ->
  (leq_accepts_wrapping r n a b = true <-> (a <= b /\ b - a < 2 ^ n /\ a < 2 ^ n)).
Proof.
  intros r n a b Hr Hn Ha Hb. unfold leq_accepts_wrapping, leq_prover_wrapping.
  rewrite !andb_true_iff, !Z.eqb_eq, pair_in_rangeb_spec. split.
  - intros [[E1 E2] P]. apply (leq_statement_exact_l r); try assumption.
    unfold pair_in_range. rewrite E1, E2. exact P.
  - intros H. unfold pair_in_range, leq_committed, W64 in *. cbn [fst snd].
    rewrite !Z.mod_small by lia. lia.
Qed.

Theorem in_range_committed_iff : forall r v a b, W64 <= r ->
  - (r - W64) <= v + W64 - b < r -> - (r - W64) <= v - a < r ->
  (pair_in_range 64 (in_range_committed r v a b) <-> (a <= v < b /\ v - a < W64 /\ b - v <= W64)).
Proof.
  intros r v a b Hr Hb Ha. unfold pair_in_range, in_range_committed, W64 in *. cbn [fst snd].
  rewrite !(mod_range_iff r (2 ^ 64)) by lia. lia.
Qed.

Corollary in_range_committed_bounded : forall P r v a b, W64 <= P -> 2 * P <= r ->
  0 <= v < P -> 0 <= a < P -> 0 <= b < P ->
  (pair_in_range 64 (in_range_committed r v a b) <-> (a <= v < b /\ v - a < W64 /\ b - v <= W64)).
Proof.
  intros P r v a b HP Hr Hv Ha Hb. assert (0 < W64) by reflexivity.
  apply in_range_committed_iff; lia.
Qed.

Theorem in_range_statement_exact_l : forall r v a b,
  2 ^ 65 < r -> 0 <= v < W64 -> 0 <= a < W64 -> 0 <= b < W64 ->
  (pair_in_range 64 (in_range_committed r v a b) <-> a <= v < b).
Proof.
  intros r v a b Hr Hv Ha Hb.
  rewrite (in_range_committed_bounded W64) by (unfold W64 in *; lia). lia.
Qed.

Lemma in_range_accepts_committed r v a b :
  in_range_accepts r v a b = true <-> pair_in_range 64 (in_range_committed r v a b).
Proof.
  unfold in_range_accepts, in_range_prover, low64, pair_in_range. cbn [fst snd].
  rewrite andb_true_iff, !Z.eqb_eq, !mod_fix_iff by reflexivity. reflexivity.
Qed.

Theorem in_range_accepts_iff : forall r v a b,
  2 ^ 65 < r -> 0 <= v < W64 -> 0 <= a < W64 -> 0 <= b < W64 ->
  (in_range_accepts r v a b = true <-> a <= v < b).
Proof. intros r v a b. rewrite in_range_accepts_committed. apply in_range_statement_exact_l. Qed.

Corollary in_range_boundaries : forall r a b,
  2 ^ 65 < r -> 0 <= a < W64 -> 0 <= b < W64 ->
  (a < b -> in_range_accepts r a a b = true /\ in_range_accepts r (b - 1) a b = true)
  /\ in_range_accepts r b a b = false
  /\ (a = b -> forall v, 0 <= v < W64 -> in_range_accepts r v a b = false)
  /\ (0 < a -> in_range_accepts r (a - 1) a b = false).
Proof.
  intros r a b Hr Ha Hb. repeat split.
  - apply in_range_accepts_iff; lia.
  - apply in_range_accepts_iff; lia.
  - apply not_true_is_false. rewrite in_range_accepts_iff by lia. lia.
  - intros -> v Hv. apply not_true_is_false. rewrite in_range_accepts_iff by lia. lia.
  - intros H. apply not_true_is_false. rewrite in_range_accepts_iff by lia. lia.
Qed.

Corollary leq_boundaries : forall r n a,
  2 ^ 65 < r -> 0 <= n <= 64 -> 0 <= a < 2 ^ n ->
  leq_accepts_wrapping r n a a = true
  /\ (a + 1 < 2 ^ n -> leq_accepts_wrapping r n (a + 1) a = false
                      /\ leq_prover_checked (a + 1) a = None
                      /\ leq_accepts_wrapping r n a (a + 1) = true).
Proof.
  intros r n a Hr Hn Ha. pose proof (pow2_le_W64 n Hn) as Hp.
  split; [apply leq_accepts_wrapping_iff; lia|].
  intros H. repeat split.
  - apply not_true_is_false. rewrite leq_accepts_wrapping_iff by lia. lia.
  - unfold leq_prover_checked. destruct (Z.leb_spec (a + 1) a); [lia | reflexivity].
  - apply leq_accepts_wrapping_iff; lia.
Qed.

Definition is_pow2 (m : nat) : Prop := exists e, m = Nat.pow 2 e.

Lemma np2_ge : forall fuel k n, (n <= k * Nat.pow 2 fuel)%nat -> (n <= next_pow2_from fuel k n)%nat.
Proof.
  induction fuel; intros k n H; simpl next_pow2_from; destruct (Nat.leb_spec n k); try lia.
  - simpl in H. lia.
  - apply IHfuel. simpl Nat.pow in H. lia.
Qed.

Lemma np2_pow2 : forall fuel k n, is_pow2 k -> is_pow2 (next_pow2_from fuel k n).
Proof.
  induction fuel; intros k n H; simpl next_pow2_from; destruct (Nat.leb n k); auto.
  apply IHfuel. destruct H as [e ->]. exists (S e). simpl. lia.
Qed.

Lemma np2_lt : forall fuel k n, (k < 2 * n)%nat -> (next_pow2_from fuel k n < 2 * n)%nat.
Proof.
  induction fuel; intros k n H; simpl next_pow2_from; destruct (Nat.leb_spec n k); try lia.
  apply IHfuel. lia.
Qed.

Lemma next_pow2_spec n : (1 <= n)%nat ->
  is_pow2 (next_pow2 n) /\ (n <= next_pow2 n < 2 * n)%nat.
Proof.
  intros H. unfold next_pow2. split; [apply np2_pow2; exists O; reflexivity|]. split.
  - apply np2_ge. pose proof (Nat.pow_gt_lin_r 2 n ltac:(lia)). lia.
  - apply np2_lt. lia.
Qed.

Lemma last_In {A} (l : list A) d : l <> [] -> In (last l d) l.
Proof.
  induction l as [|x l IH]; [congruence|]. intros _. destruct l as [|y l].
  - left; reflexivity.
  - right. apply IH. discriminate.
Qed.

Theorem pad_pow2_In : forall A (l : list A) v, In v (pad_pow2 l) <-> In v l.
Proof.
  intros A l v. destruct l as [|x l]; [tauto|]. unfold pad_pow2. rewrite in_app_iff. split.
  - intros [H|H]; [exact H|]. apply repeat_spec in H. subst. apply last_In. discriminate.
  - auto.
Qed.

Theorem pad_pow2_length : forall A (l : list A), l <> [] ->
  length (pad_pow2 l) = next_pow2 (length l) /\ is_pow2 (length (pad_pow2 l))
  /\ (length l <= length (pad_pow2 l) < 2 * length l)%nat.
Proof.
  intros A l H. destruct l as [|x l]; [congruence|].
  destruct (next_pow2_spec (length (x :: l))) as [P [L U]]; [simpl; lia|].
  assert (E : length (pad_pow2 (x :: l)) = next_pow2 (length (x :: l))).
  { unfold pad_pow2. rewrite app_length, repeat_length. lia. }
  rewrite E. auto.
Qed.

Theorem pad_pow2_prefix : forall A (l : list A), firstn (length l) (pad_pow2 l) = l.
Proof.
  intros A l. destruct l as [|x l]; [reflexivity|]. unfold pad_pow2.
  rewrite firstn_app, Nat.sub_diag, firstn_all. simpl firstn. apply app_nil_r.
Qed.

Theorem pad_pow2_idem_on_pow2 : forall A (l : list A), is_pow2 (length l) -> pad_pow2 l = l.
Proof.
  intros A l [e He]. destruct l as [|x l]; [reflexivity|]. unfold pad_pow2.
  destruct (next_pow2_spec (length (x :: l))) as [[e' E'] [Lo Up]]; [simpl; lia|].
  assert (e' = e) as ->.
  { rewrite E', He in Lo, Up. apply Nat.pow_le_mono_r_iff in Lo; [|lia].
    rewrite <- Nat.pow_succ_r' in Up. apply Nat.pow_lt_mono_r_iff in Up; lia. }
  rewrite E', <- He, Nat.sub_diag. apply app_nil_r.
Qed.
