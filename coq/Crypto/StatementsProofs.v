(** C18 - proofs about [Statements.v], with the notions their statements are phrased in
    ([prefix_code], the transcripts of the request kinds, [verify_model], [revealed]). *)
From Coq Require Import ZArith NArith List Bool Lia.
From CB Require Import Crypto.Statements.
From CB Require Crypto.RangeStmt Crypto.RangeStmtProofs Crypto.TranscriptProofs Crypto.ScalarCodec Crypto.ScalarCodecProofs.
Import ListNotations.
Local Open Scope N_scope.


Lemma radix_eq P a b c d : b < P -> d < P -> a * P + b = c * P + d -> a = c /\ b = d.
Proof.
  intros Hb Hd E. apply (N.div_mod_unique P); [exact Hb|exact Hd|].
  rewrite !(N.mul_comm P). exact E.
Qed.

Lemma radix_lt P a b c d : b < P -> d < P ->
  (a * P + b < c * P + d <-> a < c \/ (a = c /\ b < d)).
Proof.
  intros Hb Hd. split.
  - intros H. destruct (N.lt_trichotomy a c) as [L|[->|G]]; [left; exact L|right; lia|nia].
  - intros [L|[-> L]]; [nia|lia].
Qed.

Lemma bytes_ok_cons b t : bytes_ok (b :: t) = true <-> b < 256 /\ bytes_ok t = true.
Proof. unfold bytes_ok; simpl. rewrite andb_true_iff, N.ltb_lt. tauto. Qed.

(** [be_val] is the big-endian value of [ScalarCodec]: its theory comes from [ScalarCodecProofs] *)
Lemma be_val_codec bs : be_val bs = ScalarCodec.be_val bs.
Proof. induction bs as [|b t IH]; [reflexivity|]. rewrite ScalarCodecProofs.be_val_cons, <- IH. reflexivity. Qed.

Lemma bytes_ok_codec bs : bytes_ok bs = true -> ScalarCodecProofs.bytes_ok bs.
Proof. intros H. apply Forall_forall. intros b Hb. apply N.ltb_lt. exact (proj1 (forallb_forall _ _) H b Hb). Qed.

Lemma be_val_lt bs : bytes_ok bs = true -> be_val bs < 256 ^ N.of_nat (length bs).
Proof.
  intros H. rewrite be_val_codec, <- ScalarCodecProofs.le_val_rev, <- rev_length.
  apply ScalarCodecProofs.le_val_bound, Forall_rev, bytes_ok_codec, H.
Qed.

Lemma be_val_app a b : be_val (a ++ b) = be_val a * 256 ^ N.of_nat (length b) + be_val b.
Proof.
  rewrite !be_val_codec, <- !ScalarCodecProofs.le_val_rev, rev_app_distr, ScalarCodecProofs.le_val_app, rev_length. lia.
Qed.

Lemma be_val_repeat0 k : be_val (repeat 0 k) = 0.
Proof. induction k; cbn [be_val repeat]; [reflexivity|]. rewrite IHk. lia. Qed.

Lemma pow_256_31 : 256 ^ 31 = 2 ^ 248.
Proof. reflexivity. Qed.

(** the buffer has 32 bytes and its value is  len * 2^248 + big-endian value of the string *)
Lemma attr_buf_length bs : (length bs <= 31)%nat -> length (attr_buf bs) = 32%nat.
Proof. intros H. unfold attr_buf. cbn [length]. rewrite app_length, repeat_length. lia. Qed.

Lemma encode_closed_eq a : wf_attr a = true -> encode a = encode_closed a.
Proof.
  destruct a as [bs|n|n]; intros H; [|reflexivity|reflexivity].
  cbn [wf_attr] in H. apply andb_true_iff in H as [Hl _]. apply Nat.leb_le in Hl.
  cbn [encode encode_closed]. unfold attr_buf. cbn [be_val].
  rewrite app_length, repeat_length, be_val_app, be_val_repeat0.
  replace (31 - length bs + length bs)%nat with 31%nat by lia.
  change (256 ^ N.of_nat 31) with (2 ^ 248). lia.
Qed.

Lemma be_val_lt_248 bs : (length bs <= 31)%nat -> bytes_ok bs = true -> be_val bs < 2 ^ 248.
Proof.
  intros Hl Hb. eapply N.lt_le_trans; [apply be_val_lt; exact Hb|].
  change (2 ^ 248) with (256 ^ N.of_nat 31). apply N.pow_le_mono_r; lia.
Qed.

Lemma encode_lt_2_253 a : wf_attr a = true -> encode a < 2 ^ 253.
Proof.
  intros H. rewrite (encode_closed_eq a H). destruct a as [bs|n|n]; cbn [wf_attr encode_closed] in *.
  - apply andb_true_iff in H as [Hl Hb]. apply Nat.leb_le in Hl.
    pose proof (be_val_lt_248 bs Hl Hb).
    assert (N.of_nat (length bs) <= 31) by lia.
    change (2 ^ 253) with (32 * 2 ^ 248). set (P := 2 ^ 248) in *. nia.
  - apply N.ltb_lt in H. eapply N.lt_trans; [exact H|]. reflexivity.
  - apply N.ltb_lt in H. eapply N.lt_trans; [exact H|]. reflexivity.
Qed.

Lemma r_bls_gt : (2 ^ 254 < R_BLS)%Z.
Proof. reflexivity. Qed.

Lemma be_val_inj a b : length a = length b -> bytes_ok a = true -> bytes_ok b = true ->
  be_val a = be_val b -> a = b.
Proof.
  intros Hl Ha Hb E. rewrite !be_val_codec in E.
  rewrite <- (ScalarCodecProofs.to_be_be_val a), <- (ScalarCodecProofs.to_be_be_val b), Hl, E by (apply bytes_ok_codec; assumption).
  reflexivity.
Qed.

Lemma wf_str bs : wf_attr (AStr bs) = true -> (length bs <= 31)%nat /\ bytes_ok bs = true.
Proof. cbn [wf_attr]. rewrite andb_true_iff, Nat.leb_le. tauto. Qed.

Lemma encode_str_split x y : wf_attr (AStr x) = true -> wf_attr (AStr y) = true ->
  encode (AStr x) = encode (AStr y) -> length x = length y /\ be_val x = be_val y.
Proof.
  intros Hx Hy E. rewrite (encode_closed_eq _ Hx), (encode_closed_eq _ Hy) in E.
  cbn [encode_closed] in E.
  apply wf_str in Hx as [Lx Bx]. apply wf_str in Hy as [Ly By].
  destruct (radix_eq _ _ _ _ _ (be_val_lt_248 x Lx Bx) (be_val_lt_248 y Ly By) E) as [El Ev].
  split; [apply Nat2N.inj; exact El|exact Ev].
Qed.

Theorem encode_injective_same_kind : forall a b,
  wf_attr a = true -> wf_attr b = true -> same_kind a b = true ->
  encode a = encode b -> a = b.
Proof.
  intros [x|n|n] [y|m|m] Ha Hb K E; try discriminate K; cbn [encode] in E; try (subst; reflexivity).
  destruct (encode_str_split x y Ha Hb E) as [Hl Hv].
  apply wf_str in Ha as [_ Bx]. apply wf_str in Hb as [_ By].
  f_equal. apply be_val_inj; assumption.
Qed.

Lemma encode_str_nonempty_ge bs : wf_attr (AStr bs) = true -> bs <> [] -> 2 ^ 248 <= encode (AStr bs).
Proof.
  intros H Hn. rewrite (encode_closed_eq _ H). cbn [encode_closed].
  destruct bs as [|b t]; [congruence|]. cbn [length].
  assert (1 <= N.of_nat (S (length t))) by lia. set (P := 2 ^ 248). nia.
Qed.

Lemma encode_str_empty : encode (AStr []) = 0.
Proof. reflexivity. Qed.

Lemma encode_canon a : encode (canon a) = encode a.
Proof. destruct a as [[|b t]|n|n]; reflexivity. Qed.

Lemma wf_canon a : wf_attr a = true -> wf_attr (canon a) = true.
Proof. destruct a as [[|b t]|n|n]; intros H; try exact H; reflexivity. Qed.

Lemma lex_cmp_lt_be a b : length a = length b -> bytes_ok a = true -> bytes_ok b = true ->
  (lex_cmp a b = Lt <-> be_val a < be_val b).
Proof.
  revert b. induction a as [|x a IH]; intros [|y b] Hl Ha Hb; simpl in Hl; try discriminate.
  - simpl. split; [discriminate|lia].
  - injection Hl as Hl. apply bytes_ok_cons in Ha as [Hx Ha]. apply bytes_ok_cons in Hb as [Hy Hb].
    cbn [lex_cmp be_val]. rewrite <- Hl.
    pose proof (be_val_lt a Ha) as La. pose proof (be_val_lt b Hb) as Lb. rewrite <- Hl in Lb.
    rewrite (radix_lt _ _ _ _ _ La Lb), <- (IH b Hl Ha Hb).
    destruct (N.compare_spec x y) as [E|E|E].
    + subst y. split; [auto|intros [L|[_ L]]; [lia|exact L]].
    + split; [left; exact E|reflexivity].
    + split; [discriminate|lia].
Qed.

Theorem encode_str_order : forall x y,
  wf_attr (AStr x) = true -> wf_attr (AStr y) = true ->
  (encode (AStr x) < encode (AStr y) <-> shortlex_lt x y).
Proof.
  intros x y Hx Hy. rewrite (encode_closed_eq _ Hx), (encode_closed_eq _ Hy). cbn [encode_closed].
  apply wf_str in Hx as [Lx Bx]. apply wf_str in Hy as [Ly By].
  rewrite (radix_lt _ _ _ _ _ (be_val_lt_248 x Lx Bx) (be_val_lt_248 y Ly By)).
  unfold shortlex_lt. split; (intros [C|[C V]]; [left; lia|right; split; [lia|]]).
  - apply lex_cmp_lt_be; [lia|exact Bx|exact By|exact V].
  - apply lex_cmp_lt_be; [exact C|exact Bx|exact By|exact V].
Qed.

Corollary encode_str_order_same_length : forall x y,
  wf_attr (AStr x) = true -> wf_attr (AStr y) = true -> length x = length y ->
  (encode (AStr x) < encode (AStr y) <-> attr_cmp (AStr x) (AStr y) = Lt).
Proof.
  intros x y Hx Hy Hl. rewrite encode_str_order by assumption. cbn [attr_cmp]. unfold shortlex_lt.
  split; [intros [C|[_ C]]; [lia|exact C] | intros C; right; split; assumption].
Qed.

Theorem encode_num_order : forall n m,
  (encode (ANum n) < encode (ANum m) <-> attr_cmp (ANum n) (ANum m) = Lt)
  /\ (encode (ATime n) < encode (ATime m) <-> attr_cmp (ATime n) (ATime m) = Lt).
Proof. intros n m. cbn [encode attr_cmp]. rewrite N.compare_lt_iff. tauto. Qed.

Theorem encode_mixed_order : forall bs a,
  wf_attr (AStr bs) = true -> wf_attr a = true -> same_kind (AStr bs) a = false ->
  (bs <> [] -> encode a < encode (AStr bs))
  /\ (bs = [] -> encode (AStr bs) <= encode a).
Proof.
  intros bs a Hs Ha K. split.
  - intros Hn. pose proof (encode_str_nonempty_ge bs Hs Hn).
    destruct a as [y|n|n]; [discriminate K| |]; cbn [encode wf_attr] in *; apply N.ltb_lt in Ha;
      (assert (n < 2 ^ 248) by (eapply N.lt_trans; [exact Ha|reflexivity])); lia.
  - intros ->. rewrite encode_str_empty. lia.
Qed.

Lemma canon_shape a : (exists n, canon a = ANum n) \/ (exists x, x <> [] /\ canon a = AStr x).
Proof.
  destruct a as [[|c t]|n|n]; cbn [canon]; eauto.
  right. exists (c :: t). split; [discriminate|reflexivity].
Qed.

(** exact characterisation of all collisions, also between kinds *)
Theorem encode_eq_iff_canon : forall a b,
  wf_attr a = true -> wf_attr b = true ->
  (encode a = encode b <-> canon a = canon b).
Proof.
  intros a b Ha Hb. rewrite <- (encode_canon a), <- (encode_canon b).
  split; [|intros ->; reflexivity].
  apply wf_canon in Ha, Hb.
  destruct (canon_shape a) as [[n Ea]|[x [Hx Ea]]], (canon_shape b) as [[m Eb]|[y [Hy Eb]]];
    rewrite Ea, Eb in *; intros E.
  - cbn [encode] in E. subst. reflexivity.
  - destruct (encode_mixed_order y (ANum n) Hb Ha eq_refl) as [Lt _]. specialize (Lt Hy). lia.
  - destruct (encode_mixed_order x (ANum m) Ha Hb eq_refl) as [Lt _]. specialize (Lt Hx). lia.
  - apply encode_injective_same_kind; auto.
Qed.

(** the derived [Ord] and the scalar order disagree across string lengths: "aa" < "b" but
    encode "b" < encode "aa" *)
Theorem attr_order_vs_scalar_order_refuted :
  exists a b, wf_attr a = true /\ wf_attr b = true /\ attr_cmp a b = Lt /\ encode b < encode a.
Proof. exists (AStr [97; 97]), (AStr [98]). repeat split; reflexivity. Qed.

Lemma mem_enc_spec v set : mem_enc v set = true <-> exists x, In x set /\ encode x = v.
Proof. unfold mem_enc. rewrite existsb_exists. setoid_rewrite N.eqb_eq. reflexivity. Qed.

Lemma ex_some_iff {A} (v : A) (P : A -> Prop) : (exists v', Some v = Some v' /\ P v') <-> P v.
Proof.
  split; [intros [v' [E H]]; injection E as <-; exact H | intros H; exists v; auto].
Qed.

Theorem holds_spec : forall al s, holds al s = true <-> Holds al s.
Proof.
  intros al s. unfold holds, Holds. destruct (lookup (stmt_tag s) al) as [v|].
  2:{ split; [discriminate|intros [v [E _]]; discriminate]. }
  rewrite ex_some_iff. destruct s; cbn [holds_value].
  - tauto.
  - rewrite andb_true_iff, N.leb_le, N.ltb_lt. reflexivity.
  - apply mem_enc_spec.
  - rewrite negb_true_iff, <- not_true_iff_false, mem_enc_spec.
    split; [intros Hn x Hx E; apply Hn; exists x; auto | intros Hn [x [Hx E]]; exact (Hn x Hx E)].
  - apply N.eqb_eq.
Qed.

Theorem holds_decidable : forall al s, {Holds al s} + {~ Holds al s}.
Proof.
  intros al s. destruct (holds al s) eqn:E.
  - left. apply holds_spec; exact E.
  - right. intros H. apply holds_spec in H. congruence.
Qed.

Local Open Scope Z_scope.

Lemma in_u64_spec x : in_u64 x = true <-> 0 <= x < W64.
Proof. unfold in_u64. rewrite andb_true_iff, Z.leb_le, Z.ltb_lt. reflexivity. Qed.

(** [range_scalars] / [range_verifies] are [RangeStmt.in_range_committed] / [in_range_accepts]
    written a second time (convertible): the facts about them come from [RangeStmtProofs] *)
Lemma range_scalars_ok_committed r v a b :
  range_scalars_ok r v a b = true
  <-> RangeStmt.pair_in_range 64 (RangeStmt.in_range_committed r v a b).
Proof. unfold range_scalars_ok. rewrite andb_true_iff, !in_u64_spec. reflexivity. Qed.

(** exact arithmetic of the code: both derived scalars are u64 iff the value lies in [a, b) AND
    within 2^64 of both ends; for every r above 2^254 and all encodings (below 2^253) *)
Theorem range_scalars_ok_iff : forall r v a b,
  2 ^ 254 < r -> 0 <= v < 2 ^ 253 -> 0 <= a < 2 ^ 253 -> 0 <= b < 2 ^ 253 ->
  (range_scalars_ok r v a b = true <-> (a <= v < b /\ v - a < W64 /\ b - v <= W64)).
Proof.
  intros r v a b Hr Hv Ha Hb. rewrite range_scalars_ok_committed.
  apply (RangeStmtProofs.in_range_committed_bounded (2 ^ 253)); try assumption.
  - apply Z.lt_le_incl. reflexivity.
  - change (2 ^ 254) with (2 * 2 ^ 253) in Hr. apply Z.lt_le_incl, Hr.
Qed.

Lemma eqb_mod_W64 x : (x =? x mod W64) = in_u64 x.
Proof.
  apply eq_true_iff_eq. rewrite Z.eqb_eq, in_u64_spec. apply RangeStmtProofs.mod_fix_iff. reflexivity.
Qed.

(** the honest proof (about limb 0) can be checked against the committed scalars iff they are u64 *)
Theorem range_verifies_eq_ok : forall r v a b,
  range_verifies r v a b = range_scalars_ok r v a b.
Proof.
  intros r v a b. unfold range_verifies, range_scalars_ok, range_proved. cbn [fst snd].
  rewrite !eqb_mod_W64. reflexivity.
Qed.

Theorem range_verifies_iff : forall r v a b,
  2 ^ 254 < r -> 0 <= v < 2 ^ 253 -> 0 <= a < 2 ^ 253 -> 0 <= b < 2 ^ 253 ->
  (range_verifies r v a b = true <-> (a <= v < b /\ v - a < W64 /\ b - v <= W64)).
Proof. intros r v a b. rewrite range_verifies_eq_ok. apply range_scalars_ok_iff. Qed.

(** for u64 values (Numeric / Timestamp attributes) the side conditions vanish *)
Corollary range_verifies_u64 : forall r v a b,
  2 ^ 254 < r -> 0 <= v < W64 -> 0 <= a < W64 -> 0 <= b < W64 ->
  (range_verifies r v a b = true <-> a <= v < b).
Proof.
  intros r v a b Hr Hv Ha Hb. rewrite range_verifies_eq_ok, range_scalars_ok_committed.
  apply RangeStmtProofs.in_range_statement_exact_l; try assumption.
  apply Z.lt_trans with (2 ^ 254); [reflexivity|exact Hr].
Qed.

Lemma enc_bounds a : wf_attr a = true -> 0 <= Z.of_N (encode a) < 2 ^ 253.
Proof.
  intros H. split; [apply N2Z.is_nonneg|].
  change (2 ^ 253) with (Z.of_N (2 ^ 253)). apply N2Z.inj_lt, encode_lt_2_253, H.
Qed.

(** * the honest prover accepts exactly the true statements of the supported class *)

Lemma is_ok_if (c : bool) : is_ok (if c then ProofOk else ProofBad) = c.
Proof. destruct c; reflexivity. Qed.

Theorem outcome_value_exact : forall r gens v s,
  2 ^ 254 < r -> wf_attr v = true -> wf_stmt s = true ->
  is_ok (prover_outcome r gens v s) = holds_value v s && supported gens v s.
Proof.
  intros r gens v s Hr Hv Hs. destruct s as [t|t lo hi|t set|t set|t w];
    cbn [prover_outcome holds_value supported wf_stmt] in *; rewrite ?Nat.ltb_antisym.
  - reflexivity.
  - apply andb_true_iff in Hs as [Hlo Hhi].
    destruct (Nat.leb 128 gens); cbn [negb andb]; [|rewrite andb_false_r; reflexivity].
    rewrite is_ok_if. apply eq_true_iff_eq. rewrite range_verifies_iff by (assumption || apply enc_bounds; assumption).
    rewrite !andb_true_iff, N.leb_le, N.ltb_lt, Z.ltb_lt, Z.leb_le. lia.
  - destruct (Nat.leb (padded_len (length set)) gens), (mem_enc (encode v) set); reflexivity.
  - destruct (Nat.leb (padded_len (length set)) gens), (mem_enc (encode v) set), set; reflexivity.
  - destruct (encode w =? encode v)%N; reflexivity.
Qed.

Lemma lookup_wf al t v : wf_alist al = true -> lookup t al = Some v -> wf_attr v = true.
Proof.
  induction al as [|[t' a] al IH]; cbn [lookup wf_alist forallb snd]; intros W E; [discriminate|].
  apply andb_true_iff in W as [Wa Wal]. destruct (t' =? t)%N.
  - injection E as <-. exact Wa.
  - apply IH; assumption.
Qed.

Theorem accepts_exact : forall r gens al s,
  2 ^ 254 < r -> wf_alist al = true -> wf_stmt s = true ->
  accepts r gens al s = holds al s && supported_al gens al s.
Proof.
  intros r gens al s Hr Wal Ws. unfold accepts, outcome_of, holds, supported_al.
  destruct (lookup (stmt_tag s) al) as [v|] eqn:E; [|reflexivity].
  apply outcome_value_exact; auto. eapply lookup_wf; eauto.
Qed.

(** never a verifying honest proof for a false statement *)
Corollary accepts_implies_holds : forall r gens al s,
  2 ^ 254 < r -> wf_alist al = true -> wf_stmt s = true ->
  accepts r gens al s = true -> holds al s = true.
Proof. intros r gens al s Hr Wal Ws A. rewrite accepts_exact in A by assumption.
  apply andb_true_iff in A. tauto. Qed.

Theorem accepts_all_exact : forall r gens al ss,
  2 ^ 254 < r -> wf_alist al = true -> forallb wf_stmt ss = true ->
  accepts_all r gens al ss = all_hold al ss && forallb (supported_al gens al) ss.
Proof.
  intros r gens al ss Hr Wal. unfold accepts_all, all_hold.
  induction ss as [|s ss IH]; cbn [forallb]; [reflexivity|].
  intros W. apply andb_true_iff in W as [Ws Wss].
  rewrite (accepts_exact r gens al s Hr Wal Ws), (IH Wss).
  rewrite !andb_assoc. f_equal. rewrite <- !andb_assoc. f_equal. apply andb_comm.
Qed.

Corollary prove_all_iff_true_supported : forall r gens al ss,
  2 ^ 254 < r -> wf_alist al = true -> forallb wf_stmt ss = true ->
  forallb (supported_al gens al) ss = true ->
  (accepts_all r gens al ss = true <-> all_hold al ss = true).
Proof.
  intros r gens al ss Hr Wal Wss S. rewrite accepts_all_exact, S, andb_true_r by assumption. tauto.
Qed.

(** the honest prover refuses (None) only false or unsupported statements, and whenever it refuses
    or the proof is about other values, the whole statement list yields no verifying proof *)
Lemma refuse_not_accept r gens al s : outcome_of r gens al s = Refuse -> accepts r gens al s = false.
Proof. unfold accepts. intros ->. reflexivity. Qed.

(** Numeric / Timestamp-only statements: the range side conditions hold automatically *)
Definition is_u64_attr (a : attr) : bool :=
  match a with AStr _ => false | ANum n | ATime n => (n <? 2 ^ 64)%N end.

Lemma u64_attr_bound a : is_u64_attr a = true -> 0 <= Z.of_N (encode a) < W64.
Proof.
  destruct a as [x|n|n]; cbn [is_u64_attr encode]; [discriminate| |]; intros H; apply N.ltb_lt in H;
    (split; [lia|]); change W64 with (Z.of_N (2 ^ 64)); lia.
Qed.

Theorem range_numeric_exact : forall r gens t v lo hi,
  2 ^ 254 < r -> (128 <= gens)%nat ->
  is_u64_attr v = true -> is_u64_attr lo = true -> is_u64_attr hi = true ->
  (is_ok (prover_outcome r gens v (SRange t lo hi)) = true
   <-> (encode lo <= encode v < encode hi)%N).
Proof.
  intros r gens t v lo hi Hr Hg Hv Hlo Hhi. cbn [prover_outcome].
  apply Nat.leb_le in Hg. rewrite Nat.ltb_antisym, Hg. cbn [negb]. rewrite is_ok_if.
  pose proof (u64_attr_bound v Hv). pose proof (u64_attr_bound lo Hlo). pose proof (u64_attr_bound hi Hhi).
  rewrite range_verifies_u64 by assumption. lia.
Qed.

Theorem range_boundaries_numeric : forall r gens t a b,
  2 ^ 254 < r -> (128 <= gens)%nat -> (a < 2 ^ 64)%N -> (b < 2 ^ 64)%N ->
  let ok v := is_ok (prover_outcome r gens (ANum v) (SRange t (ANum a) (ANum b))) in
  ((a < b)%N -> ok a = true /\ ok (b - 1)%N = true)
  /\ ok b = false
  /\ ((0 < a)%N -> ok (a - 1)%N = false)
  /\ ((b <= a)%N -> forall v, (v < 2 ^ 64)%N -> ok v = false).
Proof.
  intros r gens t a b Hr Hg Ha Hb ok.
  assert (U : forall v, (v < 2 ^ 64)%N ->
            (ok v = true <-> (a <= v < b)%N)).
  { intros v Hv. unfold ok. rewrite range_numeric_exact; cbn [is_u64_attr encode]; try assumption;
      try (apply N.ltb_lt; assumption). tauto. }
  assert (F : forall v, (v < 2 ^ 64)%N -> ~ (a <= v < b)%N -> ok v = false).
  { intros v Hv Hn. apply not_true_is_false. rewrite (U v Hv). exact Hn. }
  repeat split.
  - apply U; lia.
  - apply U; lia.
  - apply F; lia.
  - intros H0. apply F; lia.
  - intros Hba v Hv. apply F; lia.
Qed.

Theorem set_boundaries : forall r gens t v,
  (1 <= gens)%nat ->
  (* empty sets: membership is false and refused; non-membership is TRUE but refused *)
  prover_outcome r gens v (SInSet t []) = Refuse
  /\ holds_value v (SInSet t []) = false
  /\ prover_outcome r gens v (SNotInSet t []) = Refuse
  /\ holds_value v (SNotInSet t []) = true
  (* singleton sets *)
  /\ (forall x, is_ok (prover_outcome r gens v (SInSet t [x])) = (encode x =? encode v)%N)
  /\ (forall x, is_ok (prover_outcome r gens v (SNotInSet t [x])) = negb (encode x =? encode v)%N).
Proof.
  intros r gens t v Hg. apply Nat.leb_le in Hg. repeat split; try reflexivity; intros x;
    cbn [prover_outcome length padded_len next_pow2_from Nat.leb mem_enc existsb];
    rewrite Nat.ltb_antisym, Hg, orb_false_r; destruct (encode x =? encode v)%N; reflexivity.
Qed.

(** ** the completeness gaps of the implementation, as witnesses (replayed on the real code) *)
Definition gap_witness_empty_set : alist * stmt := ([(0%N, ANum 5)], SNotInSet 0 []).
Definition str16 (c : N) : attr := AStr (repeat c 16).
Definition gap_witness_wide_range : alist * stmt :=
  ([(0%N, str16 98)], SRange 0 (str16 97) (str16 99)).

Theorem prove_iff_true_refuted :
  (let (al, s) := gap_witness_empty_set in
   wf_alist al = true /\ wf_stmt s = true /\ holds al s = true /\ outcome_of R_BLS 256 al s = Refuse)
  /\ (let (al, s) := gap_witness_wide_range in
   wf_alist al = true /\ wf_stmt s = true /\ holds al s = true /\ outcome_of R_BLS 256 al s = ProofBad).
Proof. split; vm_compute; repeat split; reflexivity. Qed.

(** [padded_len] / [pad_pow2] are [RangeStmt.next_pow2] / [RangeStmt.pad_pow2] written a second
    time, up to the case n = 0 resp. l = [] *)
Lemma padded_len_ge n : (n <= padded_len n)%nat.
Proof.
  destruct n as [|n]; [reflexivity|].
  apply (RangeStmtProofs.next_pow2_spec (S n)). apply Nat.lt_0_succ.
Qed.

Lemma pad_pow2_eq {A} (l : list A) : pad_pow2 l = RangeStmt.pad_pow2 l.
Proof. destruct l; reflexivity. Qed.

Lemma pad_pow2_In {A} (l : list A) v : In v (pad_pow2 l) <-> In v l.
Proof. rewrite pad_pow2_eq. apply RangeStmtProofs.pad_pow2_In. Qed.

Theorem pad_preserves_mem : forall v set, mem_enc v (pad_pow2 set) = mem_enc v set.
Proof.
  intros v set. apply eq_true_iff_eq. rewrite !mem_enc_spec.
  setoid_rewrite pad_pow2_In. reflexivity.
Qed.

(** * framing: fixed-schema transcripts are prefix-free in their message bodies *)
Local Open Scope N_scope.

(** [x] and [y] come from one prefix-free code: if one is a prefix of the other they are equal *)
Definition pf_rel (x y : list N) : Prop := forall r1 r2, x ++ r1 = y ++ r2 -> x = y.

Lemma app_eq_same_prefix {A} (p a b : list A) : p ++ a = p ++ b -> a = b.
Proof. apply app_inv_head. Qed.

(** one induction for both framings: an item is a header determined by its label, then its body *)
Lemma frame_fixed_inj (frame_item : item -> list N) (hdr : list N -> list N)
  (Hitem : forall i, frame_item i = hdr (i_label i) ++ i_body i) :
  forall l1 l2 t1 t2,
    Forall2 (fun i j => i_label i = i_label j /\ pf_rel (i_body i) (i_body j)) l1 l2 ->
    concat (map frame_item l1) ++ t1 = concat (map frame_item l2) ++ t2 ->
    map i_body l1 = map i_body l2 /\ t1 = t2.
Proof.
  intros l1 l2 t1 t2 F. induction F as [|i j l1 l2 [Hl Hp] F IH]; cbn [map concat]; intros E.
  - simpl in E. auto.
  - rewrite !Hitem, Hl, <- !app_assoc in E. apply app_inv_head in E.
    pose proof (Hp _ _ E) as Hb. rewrite Hb in E. apply app_inv_head in E.
    destruct (IH E) as [Hm Ht]. split; [f_equal; assumption|exact Ht].
Qed.

Theorem frame_v1_fixed_schema_injective : forall l1 l2 t1 t2,
  Forall2 (fun i j => i_label i = i_label j /\ pf_rel (i_body i) (i_body j)) l1 l2 ->
  frame_v1 l1 ++ t1 = frame_v1 l2 ++ t2 -> map i_body l1 = map i_body l2 /\ t1 = t2.
Proof. apply (frame_fixed_inj frame_item_v1 (fun l => len64 l ++ l)). intros i. apply app_assoc. Qed.

Theorem frame_v0_fixed_schema_injective : forall l1 l2 t1 t2,
  Forall2 (fun i j => i_label i = i_label j /\ pf_rel (i_body i) (i_body j)) l1 l2 ->
  frame_v0 l1 ++ t1 = frame_v0 l2 ++ t2 -> map i_body l1 = map i_body l2 /\ t1 = t2.
Proof. apply (frame_fixed_inj frame_item_v0 (fun l => l)). reflexivity. Qed.

Lemma pf_rel_nil : pf_rel [] [].
Proof. intros r1 r2 _. reflexivity. Qed.

Lemma pf_rel_same_length x y : length x = length y -> pf_rel x y.
Proof. intros Hl r1 r2 E. exact (proj1 (TranscriptProofs.app_eq_len x y r1 r2 Hl E)). Qed.

(** an injective, prefix-free encoder (what a [Serial] instance with fixed-width or
    length-prefixed fields is) *)
Definition prefix_code {A} (e : A -> list N) : Prop :=
  forall x y r1 r2, e x ++ r1 = e y ++ r2 -> x = y.

Lemma prefix_code_pf {A} (e : A -> list N) : prefix_code e -> forall x y, pf_rel (e x) (e y).
Proof. intros P x y r1 r2 E. rewrite (P x y r1 r2 E). reflexivity. Qed.

Lemma prefix_code_inj {A} (e : A -> list N) : prefix_code e -> forall x y, e x = e y -> x = y.
Proof. intros P x y E. apply (P x y [] []). rewrite E. reflexivity. Qed.

Ltac schema_forall2 :=
  repeat (first [ apply Forall2_nil
                | apply Forall2_cons; [split; [reflexivity|]|] ]).

Section Binding.
  Variable H : list N -> list N.
  Variables Given Requested Global PV Time Issuer Stmts Net CredId Chal : Type.
  Variable e_given : Given -> list N.
  Variable e_requested : Requested -> list N.
  Variable e_global : Global -> list N.
  Variable e_pv : PV -> list N.
  Variable e_time : Time -> list N.
  Variable e_issuer : Issuer -> list N.
  Variable e_stmts : Stmts -> list N.
  Variable e_net : Net -> list N.
  Variable e_credid : CredId -> list N.
  Hypothesis P_given : prefix_code e_given.
  Hypothesis P_requested : prefix_code e_requested.
  Hypothesis P_global : prefix_code e_global.
  Hypothesis P_pv : prefix_code e_pv.
  Hypothesis P_time : prefix_code e_time.
  Hypothesis P_issuer : prefix_code e_issuer.
  Hypothesis P_stmts : prefix_code e_stmts.
  Hypothesis P_net : prefix_code e_net.
  Hypothesis P_credid : prefix_code e_credid.

  (** the public data of one v1 account-credential proof: request context, global context,
      proof metadata, issuer, the statements, network and credential id *)
  Record v1_account_req := {
    q_given : Given; q_requested : Requested; q_global : Global; q_pv : PV; q_created : Time;
    q_issuer : Issuer; q_stmts : Stmts; q_net : Net; q_credid : CredId }.

  Definition v1_account_items_of (q : v1_account_req) : list item :=
    v1_header (e_given (q_given q)) (e_requested (q_requested q)) (e_global (q_global q))
    ++ v1_credential_prefix (e_pv (q_pv q)) (e_time (q_created q))
    ++ v1_account (e_issuer (q_issuer q)) (e_stmts (q_stmts q)) (e_net (q_net q)) (e_credid (q_credid q)).
  Definition v1_account_transcript (q : v1_account_req) : list N := frame_v1 (v1_account_items_of q).

  Theorem v1_account_transcript_injective : forall q q' t t',
    v1_account_transcript q ++ t = v1_account_transcript q' ++ t' -> q = q' /\ t = t'.
  Proof.
    intros q q' t t' E. unfold v1_account_transcript in E.
    apply frame_v1_fixed_schema_injective in E.
    - destruct E as [Hb Ht]. split; [|exact Ht].
      destruct q, q'. cbn in Hb. injection Hb as Eg Er Egl Epv Et Ei Es En Ec.
      rewrite (prefix_code_inj e_given P_given _ _ Eg), (prefix_code_inj e_requested P_requested _ _ Er),
        (prefix_code_inj e_global P_global _ _ Egl), (prefix_code_inj e_pv P_pv _ _ Epv),
        (prefix_code_inj e_time P_time _ _ Et), (prefix_code_inj e_issuer P_issuer _ _ Ei),
        (prefix_code_inj e_stmts P_stmts _ _ Es), (prefix_code_inj e_net P_net _ _ En),
        (prefix_code_inj e_credid P_credid _ _ Ec). reflexivity.
    - unfold v1_account_items_of. repeat apply Forall2_app;
        unfold v1_header, v1_credential_prefix, v1_account, L, M;
        schema_forall2; cbn [i_body]; first [apply pf_rel_nil | apply prefix_code_pf; assumption].
  Qed.

  (** accept-after-alter: one proof (one continuation, one challenge) accepted for two different
      requests exhibits an explicit collision of the transcript hash *)
  Theorem v1_account_alter_collision : forall q q' t t',
    q <> q' -> H (v1_account_transcript q ++ t) = H (v1_account_transcript q' ++ t') ->
    exists x y, x <> y /\ H x = H y.
  Proof.
    intros q q' t t' Hne E. exists (v1_account_transcript q ++ t), (v1_account_transcript q' ++ t').
    split; [|exact E]. intros Eq. apply v1_account_transcript_injective in Eq. tauto.
  Qed.

  (** id-level statements (legacy framing): global context, challenge, credential id.  The
      challenge is absorbed raw, so it is bound among challenges of one length. *)
  Variable e_chal : Chal -> list N.
  Hypothesis P_chal_inj : forall x y, e_chal x = e_chal y -> x = y.
  Hypothesis P_chal_len : forall x y, length (e_chal x) = length (e_chal y).

  Definition id_transcript (g : Global) (c : Chal) (cred : CredId) : list N :=
    frame_v0 (id_header (e_global g) (e_chal c) (e_credid cred)).

  Theorem id_transcript_injective : forall g c cred g' c' cred' t t',
    id_transcript g c cred ++ t = id_transcript g' c' cred' ++ t' ->
    g = g' /\ c = c' /\ cred = cred' /\ t = t'.
  Proof.
    intros g c cred g' c' cred' t t' E. unfold id_transcript in E.
    apply frame_v0_fixed_schema_injective in E.
    - destruct E as [Hb Ht]. cbn in Hb. injection Hb as Hg Hc Hcr.
      apply (prefix_code_inj e_global P_global) in Hg. apply P_chal_inj in Hc.
      apply (prefix_code_inj e_credid P_credid) in Hcr. auto.
    - unfold id_header, M, Raw. schema_forall2; cbn [i_body];
        first [apply pf_rel_nil | apply prefix_code_pf; assumption | apply pf_rel_same_length; apply P_chal_len].
  Qed.

  Definition web3_v0_transcript (c : Chal) (g : Global) : list N :=
    frame_v0 (web3_v0_header (e_chal c) (e_global g)).

  Theorem web3_v0_transcript_injective : forall g c g' c' t t',
    web3_v0_transcript c g ++ t = web3_v0_transcript c' g' ++ t' -> g = g' /\ c = c' /\ t = t'.
  Proof.
    intros g c g' c' t t' E. unfold web3_v0_transcript in E.
    apply frame_v0_fixed_schema_injective in E.
    - destruct E as [Hb Ht]. cbn in Hb. injection Hb as Hc Hg.
      apply (prefix_code_inj e_global P_global) in Hg. apply P_chal_inj in Hc. auto.
    - unfold web3_v0_header, M, Raw. schema_forall2; cbn [i_body];
        first [apply pf_rel_nil | apply prefix_code_pf; assumption | apply pf_rel_same_length; apply P_chal_len].
  Qed.

  Variable H512 : list N -> list N.
  Variable Proofs : Type.
  Variable e_proofs : Proofs -> list N.
  Hypothesis P_proofs : prefix_code e_proofs.

  Definition linking_msg (c : Chal) (p : Proofs) : list N := linking_message H512 (e_chal c) (e_proofs p).

  (** the signed message determines challenge and presentation body, or exhibits a SHA-512 collision *)
  Theorem linking_msg_injective : forall c p c' p',
    linking_msg c p = linking_msg c' p' ->
    (c = c' /\ p = p') \/ (exists x y, x <> y /\ H512 x = H512 y).
  Proof.
    intros c p c' p' E. unfold linking_msg, linking_message in E. apply app_inv_head in E.
    destruct (list_eq_dec N.eq_dec (e_chal c ++ e_proofs p) (e_chal c' ++ e_proofs p')) as [Eq|Ne].
    - left. pose proof (pf_rel_same_length _ _ (P_chal_len c c') _ _ Eq) as Ec.
      rewrite Ec in Eq. apply app_inv_head in Eq.
      split; [apply P_chal_inj; exact Ec|apply (prefix_code_inj e_proofs P_proofs); exact Eq].
    - right. eauto.
  Qed.
End Binding.

(** * completeness of a whole statement proof, relative to the sub-protocols' completeness
    (C07: dlog; C11: range proof for values in [0,2^64), set (non-)membership) *)
Section Completeness.
  Local Open Scope Z_scope.
  Variable r : Z.
  Variable gens : nat.
  (** [sub_verifies s v]: the real sub-protocol verifier accepts the honest sub-proof for
      statement [s] on the committed value [v], in the same transcript state *)
  Variable sub_verifies : stmt -> attr -> bool.
  Hypothesis dlog_complete : forall t v, sub_verifies (SReveal t) v = true.
  Hypothesis dlog_value_complete : forall t w v, encode w = encode v -> sub_verifies (SValue t w) v = true.
  Hypothesis range_complete : forall t lo hi v,
    range_scalars_ok r (Z.of_N (encode v)) (Z.of_N (encode lo)) (Z.of_N (encode hi)) = true ->
    sub_verifies (SRange t lo hi) v = true.
  Hypothesis set_member_complete : forall t set v,
    set <> [] -> (padded_len (length set) <= gens)%nat -> mem_enc (encode v) (pad_pow2 set) = true ->
    sub_verifies (SInSet t set) v = true.
  Hypothesis set_nonmember_complete : forall t set v,
    set <> [] -> (padded_len (length set) <= gens)%nat -> mem_enc (encode v) (pad_pow2 set) = false ->
    sub_verifies (SNotInSet t set) v = true.

  (** what the verifier checks for one statement: the commitment for the tag exists and the
      sub-proof verifies; a reveal proof carries the attribute value itself *)
  Definition verify_model (al : alist) (s : stmt) : bool :=
    match lookup (stmt_tag s) al with None => false | Some v => sub_verifies s v end.
  Definition revealed (al : alist) (s : stmt) : option attr :=
    match s with SReveal t => lookup t al | _ => None end.

  Theorem statement_complete_rel : forall al s,
    accepts r gens al s = true ->
    verify_model al s = true
    /\ (forall t, s = SReveal t -> exists v, revealed al s = Some v /\ lookup t al = Some v).
  Proof.
    intros al s A. unfold accepts, outcome_of, verify_model in *.
    destruct (lookup (stmt_tag s) al) as [v|] eqn:E; [|discriminate]. split.
    - destruct s as [t|t lo hi|t set|t set|t w]; cbn [prover_outcome] in A.
      + apply dlog_complete.
      + destruct (Nat.ltb gens 128); [discriminate|].
        destruct (range_verifies r _ _ _) eqn:V; [|discriminate].
        apply range_complete. rewrite <- range_verifies_eq_ok. exact V.
      + destruct (Nat.ltb gens (padded_len (length set))) eqn:G; [discriminate|].
        destruct (mem_enc (encode v) set) eqn:Mm; [|discriminate].
        apply set_member_complete.
        * intros ->. discriminate Mm.
        * apply Nat.ltb_ge in G. exact G.
        * rewrite pad_preserves_mem. exact Mm.
      + destruct (Nat.ltb gens (padded_len (length set))) eqn:G; [discriminate|].
        destruct (mem_enc (encode v) set) eqn:Mm; [discriminate|].
        destruct set as [|x set]; [discriminate|].
        apply set_nonmember_complete.
        * discriminate.
        * apply Nat.ltb_ge in G. exact G.
        * rewrite pad_preserves_mem. exact Mm.
      + destruct (encode w =? encode v)%N eqn:Q; [|discriminate].
        apply dlog_value_complete. apply N.eqb_eq. exact Q.
    - intros t ->. cbn [stmt_tag] in E. exists v. cbn [revealed]. auto.
  Qed.
End Completeness.

Lemma kind_eqb_eq a b : kind_eqb a b = true <-> a = b.
Proof. destruct a, b; simpl; split; congruence. Qed.

Lemma stmts_eqb_eq a b : stmts_eqb a b = true <-> a = b.
Proof. unfold stmts_eqb. destruct (list_eq_dec stmt_eq_dec a b); split; congruence. Qed.

Lemma issuer_allowed_spec rq pc : issuer_allowed rq pc = true <->
  exists d, In d (rq_issuers rq) /\ did_ip d = pc_issuer pc /\ did_net d = pc_net pc.
Proof.
  unfold issuer_allowed. rewrite existsb_exists. setoid_rewrite andb_true_iff. setoid_rewrite N.eqb_eq. reflexivity.
Qed.

Lemma existsb_kind_eqb k l : existsb (kind_eqb k) l = true <-> In k l.
Proof.
  rewrite existsb_exists. split.
  - intros [x [Hi E]]. apply kind_eqb_eq in E. subst x. exact Hi.
  - intros Hi. exists k. split; [exact Hi|apply kind_eqb_eq; reflexivity].
Qed.

Theorem claims_match_ok_iff_ : forall rq pc,
  claims_match rq pc = MOk <->
  (In (pc_kind pc) (rq_source rq)
   /\ (exists d, In d (rq_issuers rq) /\ did_ip d = pc_issuer pc /\ did_net d = pc_net pc)
   /\ map to_requested (pc_stmts pc) = rq_stmts rq).
Proof.
  intros rq pc. rewrite <- existsb_kind_eqb, <- issuer_allowed_spec, <- stmts_eqb_eq.
  unfold claims_match.
  destruct (existsb _ _), (issuer_allowed rq pc), (stmts_eqb _ _); cbn [negb]; intuition discriminate.
Qed.

(** entry-wise matching implies field-wise matching, but not conversely: with the allowed issuers
    (IP 0, Mainnet) and (IP 1, Testnet) a Testnet credential of IP 0 passes the field-wise test *)
Theorem issuer_allowed_fieldwise_weaker_ :
  (forall rq pc, issuer_allowed rq pc = true -> issuer_allowed_fieldwise rq pc = true)
  /\ (exists rq pc, issuer_allowed_fieldwise rq pc = true /\ issuer_allowed rq pc = false
                    /\ claims_match rq pc = MFailIssuer).
Proof.
  split.
  - intros rq pc H. apply issuer_allowed_spec in H as [d [Hi [E1 E2]]]. unfold issuer_allowed_fieldwise.
    apply andb_true_iff. split; apply existsb_exists; exists d; split; auto; apply N.eqb_eq; assumption.
  - exists (ReqClaims [] [Did 0 1; Did 1 0] [KAccount]), (PresClaims KAccount 0 0 []).
    repeat split; reflexivity.
Qed.

Lemma Forall2_cons_iff {A B} (R : A -> B -> Prop) x y l l' :
  Forall2 R (x :: l) (y :: l') <-> R x y /\ Forall2 R l l'.
Proof. split; [intros H; inversion H; auto|intros [H1 H2]; constructor; assumption]. Qed.

Theorem claims_list_match_ok_iff_ : forall rqs pcs,
  claims_list_match rqs pcs = MOk <-> Forall2 (fun rq pc => claims_match rq pc = MOk) rqs pcs.
Proof.
  intros rqs pcs. revert rqs. induction pcs as [|pc pcs IH]; intros [|rq rqs]; cbn [claims_list_match].
  - split; [constructor|reflexivity].
  - split; [discriminate|intros H; inversion H].
  - split; [discriminate|intros H; inversion H].
  - rewrite Forall2_cons_iff, <- IH. destruct (claims_match rq pc); intuition discriminate.
Qed.

Theorem all_valid_at_iff_ : forall now vs,
  all_valid_at now vs = true <-> Forall (fun v => fst v <= now < snd v) vs.
Proof.
  intros now vs. unfold all_valid_at, valid_at. rewrite forallb_forall, Forall_forall.
  setoid_rewrite andb_true_iff. setoid_rewrite N.leb_le. setoid_rewrite N.ltb_lt. reflexivity.
Qed.

Theorem all_valid_not_last_only_ :
  (forall now vs, all_valid_at now vs = true -> last_valid_at now vs = true)
  /\ (exists now vs, last_valid_at now vs = true /\ all_valid_at now vs = false).
Proof.
  split.
  - intros now vs H. unfold last_valid_at. destruct (rev vs) as [|v l] eqn:E; [reflexivity|].
    unfold all_valid_at in H. rewrite forallb_forall in H. apply H.
    apply in_rev. rewrite E. left. reflexivity.
  - exists 5, [(7, 9); (0, 9)]. split; reflexivity.
Qed.

(** * identity attribute credentials: threshold = number of sharing coefficients *)
Theorem identity_attributes_threshold_exact_ : forall ip t n sg,
  identity_attributes_verdict ip t n sg = IAOk <-> (ip = true /\ t = n /\ sg = true).
Proof.
  intros ip t n sg. rewrite <- N.eqb_eq. unfold identity_attributes_verdict.
  destruct ip, (t =? n), sg; cbn [negb]; intuition discriminate.
Qed.

Theorem threshold_check_gt_weaker_ :
  (forall t n, (t =? n) = true -> threshold_check_gt t n = true)
  /\ (exists t n, threshold_check_gt t n = true /\ t <> n
                  /\ identity_attributes_verdict true t n true = IAFailAr).
Proof.
  split.
  - intros t n E. apply N.eqb_eq in E. subst. unfold threshold_check_gt. rewrite N.ltb_irrefl. reflexivity.
  - exists 2, 3. repeat split; try reflexivity. discriminate.
Qed.
