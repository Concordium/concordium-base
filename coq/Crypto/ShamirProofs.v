(** Proofs about Shamir secret sharing (model: Shamir.v, mirroring
    rust-src/concordium_base/src/id/secret_sharing.rs) over an abstract field whose partial
    inverse [finv] is [None] exactly on zero, and an abstract module over it.
    C20 uses the theorems in the form given here; IdShamirProofs restates them for C08. *)
From Coq Require Import List Field Lia Arith.
From CB Require Import Crypto.Shamir.
Import ListNotations.

Lemma combine_map_self {A B} (f : A -> B) (l : list A) : combine l (map f l) = map (fun x => (x, f x)) l.
Proof. induction l as [|x l IH]; cbn; [reflexivity | f_equal; exact IH]. Qed.

Section ShamirProofs.
  Variable F : Type.
  Variables f0 f1 : F.
  Variables fadd fsub fmul fdiv : F -> F -> F.
  Variables fopp finvf : F -> F.
  Hypothesis Fth : field_theory f0 f1 fadd fmul fsub fopp fdiv finvf (@eq F).
  (** [Field::inverse]: [None] on zero, the field inverse otherwise *)
  Variable finv : F -> option F.
  Hypothesis finv_zero : finv f0 = None.
  Hypothesis finv_nonzero : forall x, x <> f0 -> finv x = Some (finvf x).

  Add Field Ffield : Fth.

  Local Notation "0" := f0.
  Local Notation "1" := f1.
  Local Infix "+" := fadd.
  Local Infix "-" := fsub.
  Local Infix "*" := fmul.
  Local Infix "/" := fdiv.

  Local Notation eval_share := (eval_share F f0 fadd fmul).
  Local Notation share := (share F f0 fadd fmul).
  Local Notation lagrange := (lagrange F f1 fsub fmul finv).
  Local Notation reveal := (reveal F f0 f1 fadd fsub fmul finv).

  Lemma fsub_neq_0 a b : a <> b -> a - b <> 0.
  Proof. intros H E. apply H. transitivity ((a - b) + b); [ring|]. rewrite E. ring. Qed.

  (** * Polynomials as coefficient lists (constant term first) *)
  Fixpoint peval (cs : list F) (x : F) : F :=
    match cs with [] => 0 | c :: cs' => c + x * peval cs' x end.

  Lemma eval_share_peval secret coeffs x : eval_share secret coeffs x = peval (secret :: coeffs) x.
  Proof.
    unfold Shamir.eval_share. rewrite <- fold_left_rev_right, rev_involutive.
    assert (E : fold_right (fun y acc => acc * x + y) 0 coeffs = peval coeffs x).
    { induction coeffs as [|c cs IH]; cbn [fold_right peval]; [reflexivity|]. rewrite IH. ring. }
    rewrite E. cbn [peval]. ring.
  Qed.

  Lemma peval_app_zero p x : peval (p ++ [0]) x = peval p x.
  Proof. induction p as [|a p IH]; cbn [app peval]; [ring|]. rewrite IH. reflexivity. Qed.

  Fixpoint pquo (a : F) (p : list F) : list F :=
    match p with
    | [] => []
    | c :: cs => match cs with [] => [] | _ :: _ => peval cs a :: pquo a cs end
    end.

  Lemma pquo_cons a c d ds : pquo a (c :: d :: ds) = peval (d :: ds) a :: pquo a (d :: ds).
  Proof. reflexivity. Qed.

  Lemma pquo_length a p : length (pquo a p) = pred (length p).
  Proof.
    induction p as [|c cs IH]; [reflexivity|]. destruct cs as [|d ds]; [reflexivity|].
    rewrite pquo_cons. cbn [length] in *. rewrite IH. reflexivity.
  Qed.

  Lemma pquo_spec a x p : peval p x = peval p a + (x - a) * peval (pquo a p) x.
  Proof.
    induction p as [|c cs IH]; [cbn; ring|]. destruct cs as [|d ds]; [cbn; ring|].
    rewrite pquo_cons. set (p' := d :: ds) in *. cbn [peval]. rewrite IH. ring.
  Qed.

  Lemma pquo_inj a : forall p q, length p = length q -> peval p a = peval q a -> pquo a p = pquo a q -> p = q.
  Proof.
    induction p as [|c cs IH]; intros [|d ds] Hl Ha Hq; try discriminate; [reflexivity|].
    destruct cs as [|c' cs'], ds as [|d' ds']; try discriminate.
    - cbn [peval] in Ha. f_equal. transitivity (c + a * 0); [ring|]. rewrite Ha. ring.
    - rewrite !pquo_cons in Hq. injection Hq as Hv Hq.
      assert (Hl' : length (c' :: cs') = length (d' :: ds')) by (cbn [length] in Hl |- *; congruence).
      set (p' := c' :: cs') in *. set (q' := d' :: ds') in *.
      assert (E : p' = q') by (apply IH; assumption).
      cbn [peval] in Ha. rewrite <- E in Ha |- *. f_equal.
      transitivity ((c + a * peval p' a) - a * peval p' a); [ring|]. rewrite Ha. ring.
  Qed.

  Lemma poly_unique : forall xs, NoDup xs -> forall p q, length p = length q -> length p <= length xs ->
    (forall x, In x xs -> peval p x = peval q x) -> p = q.
  Proof.
    induction xs as [|a xs IH]; intros Hnd p q Hl Hlen Hag.
    - destruct p, q; try discriminate; [reflexivity|cbn in Hlen; lia].
    - inversion Hnd as [|? ? Hnotin Hnd']; subst.
      apply (pquo_inj a); [assumption|apply Hag; left; reflexivity|].
      apply (IH Hnd').
      + rewrite !pquo_length. f_equal. assumption.
      + rewrite pquo_length. cbn [length] in Hlen. lia.
      + intros x Hx. assert (Hxa : x <> a) by (intros ->; contradiction).
        pose proof (Hag x (or_intror Hx)) as Hpx.
        rewrite (pquo_spec a x p), (pquo_spec a x q), (Hag a (or_introl eq_refl)) in Hpx.
        transitivity (((peval q a + (x - a) * peval (pquo a p) x) - peval q a) / (x - a));
          [field; apply fsub_neq_0; assumption|].
        rewrite Hpx. field. apply fsub_neq_0; assumption.
  Qed.

  Fixpoint mlin (z carry : F) (q : list F) : list F :=
    match q with
    | [] => [carry]
    | c :: cs => (carry - z * c) :: mlin z c cs
    end.

  Lemma mlin_length z q : forall v, length (mlin z v q) = S (length q).
  Proof. induction q as [|c cs IH]; intro v; cbn [mlin length]; [|rewrite IH]; reflexivity. Qed.

  Lemma mlin_eval z x q : forall v, peval (mlin z v q) x = v + (x - z) * peval q x.
  Proof. induction q as [|c cs IH]; intro v; cbn [mlin peval]; [ring|]. rewrite IH. ring. Qed.

  Lemma interp_step z v q : forall zs vs, length vs = length zs -> ~ In z zs ->
    map (peval q) zs = map (fun zv => (snd zv - v) / (fst zv - z)) (combine zs vs) ->
    map (peval (mlin z v q)) zs = vs.
  Proof.
    induction zs as [|w zs IH]; intros [|u vs] Hl Hz H; try discriminate; [reflexivity|].
    cbn in Hl, H. injection H as H1 H2. cbn [map]. f_equal.
    - rewrite mlin_eval, H1. field. apply fsub_neq_0. intros ->. apply Hz. left. reflexivity.
    - apply IH; [lia|intro; apply Hz; right; assumption|exact H2].
  Qed.

  Lemma interp_exists : forall zs, NoDup zs -> forall vs, length vs = length zs ->
    exists p, length p = length zs /\ map (peval p) zs = vs.
  Proof.
    induction zs as [|z zs IH]; intros Hnd vs Hl.
    - destruct vs; [|discriminate]. exists []. split; reflexivity.
    - destruct vs as [|v vs]; [discriminate|]. inversion Hnd as [|? ? Hz Hnd']; subst.
      destruct (IH Hnd' (map (fun zv => (snd zv - v) / (fst zv - z)) (combine zs vs))) as [q [Hq1 Hq2]].
      { rewrite map_length, combine_length. cbn in Hl. lia. }
      exists (mlin z v q). split.
      + rewrite mlin_length. cbn [length]. f_equal. exact Hq1.
      + cbn [map]. f_equal; [rewrite mlin_eval; ring|].
        apply interp_step; [cbn in Hl; lia|exact Hz|exact Hq2].
  Qed.

  Fixpoint lam (xs : list F) (i : F) : F :=
    match xs with
    | [] => 1
    | j :: r => match finv (j - i) with
                | None => lam r i
                | Some z => (j * z) * lam r i
                end
    end.

  Lemma lagrange_lam xs i : lagrange xs i = lam xs i.
  Proof.
    unfold Shamir.lagrange.
    assert (H : forall acc, fold_left (fun accum j => match finv (j - i) with
                                                       | None => accum
                                                       | Some z => (j * z) * accum
                                                       end) xs acc = acc * lam xs i).
    { induction xs as [|j r IH]; intro acc; cbn [fold_left lam]; [ring|].
      rewrite IH. destruct (finv (j - i)); ring. }
    rewrite H. ring.
  Qed.

  Lemma lam_cons_ne j i r : j <> i -> lam (j :: r) i = (j / (j - i)) * lam r i.
  Proof.
    intros ne. cbn [lam]. rewrite finv_nonzero by (apply fsub_neq_0; exact ne).
    field. apply fsub_neq_0; exact ne.
  Qed.

  Lemma lam_cons_eq i r : lam (i :: r) i = lam r i.
  Proof. cbn [lam]. replace (i - i) with 0 by ring. rewrite finv_zero. reflexivity. Qed.

  Fixpoint fsum {A} (h : A -> F) (l : list A) : F :=
    match l with [] => 0 | a :: r => h a + fsum h r end.

  Lemma fsum_fold_right {A} (h : A -> F) l : fsum h l = fold_right (fun a acc => h a + acc) 0 l.
  Proof. induction l as [|a r IH]; cbn [fsum fold_right]; [|rewrite IH]; reflexivity. Qed.

  Lemma fsum_ext {A} (h g : A -> F) l : (forall a, In a l -> h a = g a) -> fsum h l = fsum g l.
  Proof.
    induction l as [|a r IH]; intro H; cbn [fsum]; [reflexivity|].
    rewrite (H a (or_introl eq_refl)), IH; [reflexivity|]. intros y Hy. apply H. right. exact Hy.
  Qed.

  Lemma fsum_map {A B} (h : B -> F) (g : A -> B) l : fsum h (map g l) = fsum (fun a => h (g a)) l.
  Proof. induction l as [|a r IH]; cbn [map fsum]; [|rewrite IH]; reflexivity. Qed.

  Lemma fsum_lin {A} c d (g h : A -> F) l : fsum (fun a => c * g a + d * h a) l = c * fsum g l + d * fsum h l.
  Proof. induction l as [|a r IH]; cbn [fsum]; [ring|]. rewrite IH. ring. Qed.

  Lemma lam_sum_one_aux : forall n xs, length xs <= n -> xs <> [] -> NoDup xs -> fsum (lam xs) xs = 1.
  Proof.
    induction n as [|n IHn]; intros xs Hlen Hne Hnd.
    - destruct xs; [congruence|cbn in Hlen; lia].
    - destruct xs as [|a [|b r]]; [congruence| |].
      + cbn [fsum]. rewrite lam_cons_eq. cbn [lam]. ring.
      + inversion Hnd as [|? ? Ha Hnd1]; subst. inversion Hnd1 as [|? ? Hb Hnd2]; subst.
        assert (Hab : a <> b) by (intro; subst; apply Ha; left; reflexivity).
        assert (Hba : b <> a) by (intro; subst; apply Ha; left; reflexivity).
        assert (Har : ~ In a r) by (intro; apply Ha; right; assumption).
        assert (IHa : fsum (lam (a :: r)) (a :: r) = 1).
        { apply IHn; [cbn in *; lia|discriminate|constructor; assumption]. }
        assert (IHb : fsum (lam (b :: r)) (b :: r) = 1).
        { apply IHn; [cbn in *; lia|discriminate|constructor; assumption]. }
        cbn [fsum] in IHa, IHb |- *. rewrite lam_cons_eq in IHa, IHb.
        rewrite (fsum_ext (lam (a :: r)) (fun x => (a / (a - x)) * lam r x) r) in IHa
          by (intros x Hx; apply lam_cons_ne; intro; subst; contradiction).
        rewrite (fsum_ext (lam (b :: r)) (fun x => (b / (b - x)) * lam r x) r) in IHb
          by (intros x Hx; apply lam_cons_ne; intro; subst; contradiction).
        (* partial fractions [a/(a-x) * b/(b-x) = b/(b-a) * a/(a-x) + a/(a-b) * b/(b-x)] reduce the sum
           over [a :: b :: r] to those over [a :: r] and [b :: r] *)
        rewrite lam_cons_eq, (lam_cons_ne b a r) by exact Hba.
        rewrite (lam_cons_ne a b (b :: r)) by exact Hab. rewrite lam_cons_eq.
        rewrite (fsum_ext (lam (a :: b :: r))
                   (fun x => (b / (b - a)) * ((a / (a - x)) * lam r x)
                             + (a / (a - b)) * ((b / (b - x)) * lam r x)) r).
        2:{ intros x Hx.
            assert (a <> x) by (intro; subst; contradiction).
            assert (b <> x) by (intro; subst; contradiction).
            rewrite (lam_cons_ne a x (b :: r)), (lam_cons_ne b x r) by assumption.
            field. repeat split; apply fsub_neq_0; assumption. }
        rewrite fsum_lin.
        set (A := fsum (fun x => (a / (a - x)) * lam r x) r) in *.
        set (B := fsum (fun x => (b / (b - x)) * lam r x) r) in *.
        assert (EA : A = 1 - lam r a) by (rewrite <- IHa; ring).
        assert (EB : B = 1 - lam r b) by (rewrite <- IHb; ring).
        rewrite EA, EB. field. split; apply fsub_neq_0; assumption.
  Qed.

  Lemma lam_sum_one xs : xs <> [] -> NoDup xs -> fsum (lam xs) xs = 1.
  Proof. apply (lam_sum_one_aux (length xs)). apply le_n. Qed.

  Lemma interp_at_zero : forall xs, NoDup xs -> forall p, length p <= length xs ->
    fsum (fun x => lam xs x * peval p x) xs = peval p 0.
  Proof.
    induction xs as [|a rest IH]; intros Hnd p Hlen.
    - destruct p; [reflexivity|cbn in Hlen; lia].
    - inversion Hnd as [|? ? Ha Hnd']; subst.
      (* [p(x) = p(a) + (x - a) q(x)]: the [p(a)] part sums to [p(a)] by [lam_sum_one], and
         [lam (a :: rest) x * (x - a) = - a * lam rest x] hands the rest to the induction hypothesis for [q] *)
      set (q := pquo a p).
      assert (Hq : length q <= length rest) by (unfold q; rewrite pquo_length; cbn in Hlen; lia).
      specialize (IH Hnd' q Hq).
      assert (H1 := lam_sum_one (a :: rest) ltac:(discriminate) Hnd).
      cbn [fsum] in H1 |- *. rewrite lam_cons_eq in H1. rewrite lam_cons_eq.
      rewrite (fsum_ext (fun x => lam (a :: rest) x * peval p x)
                 (fun x => peval p a * lam (a :: rest) x + (0 - a) * (lam rest x * peval q x)) rest).
      2:{ intros x Hx. assert (Hax : a <> x) by (intro; subst; contradiction).
          rewrite (pquo_spec a x p). fold q. rewrite (lam_cons_ne a x rest Hax).
          field. apply fsub_neq_0; exact Hax. }
      rewrite fsum_lin, IH.
      assert (E : fsum (lam (a :: rest)) rest = 1 - lam rest a) by (rewrite <- H1; ring).
      rewrite E. rewrite (pquo_spec a 0 p). fold q. ring.
  Qed.

  Lemma reveal_fsum shares :
    reveal shares = fsum (fun iv => lagrange (map fst shares) (fst iv) * snd iv) shares.
  Proof.
    unfold Shamir.reveal. generalize (map fst shares) as k. intros k.
    assert (H : forall l a, fold_left (fun accum iv => lagrange k (fst iv) * snd iv + accum) l a
                            = a + fsum (fun iv => lagrange k (fst iv) * snd iv) l).
    { induction l as [|p l IH]; intros a; cbn [fold_left fsum]; [ring|]. rewrite IH. ring. }
    rewrite H. ring.
  Qed.

  Lemma reveal_map v xs : reveal (map (fun x => (x, v x)) xs) = fsum (fun x => lam xs x * v x) xs.
  Proof.
    rewrite reveal_fsum, map_map. cbn [fst]. rewrite map_id, fsum_map.
    apply fsum_ext. intros x _. cbn [fst snd]. rewrite lagrange_lam. reflexivity.
  Qed.

  Theorem reveal_poly p xs : NoDup xs -> length p <= length xs ->
    reveal (map (fun x => (x, peval p x)) xs) = peval p 0.
  Proof. intros Hnd Hlen. rewrite reveal_map. apply interp_at_zero; assumption. Qed.

  (** shamir_reveal: [coeffs] are the t-1 non-constant coefficients; any list of at least t
      shares at distinct points reconstructs the secret. *)
  Theorem shamir_reveal_lemma secret coeffs xs : NoDup xs -> S (length coeffs) <= length xs ->
    reveal (map (fun x => (x, eval_share secret coeffs x)) xs) = secret.
  Proof.
    intros Hnd Hlen.
    rewrite (map_ext _ (fun x => (x, peval (secret :: coeffs) x))) by (intros; rewrite eval_share_peval; reflexivity).
    rewrite reveal_poly by assumption. cbn [peval]. ring.
  Qed.

  (** fewer shares carry no information: any values [ys] at t-1 distinct non-zero points and any
      candidate secret are the shares of some sharing polynomial of degree t-1 *)
  Theorem shamir_fewer_share pts ys s : NoDup pts -> ~ In 0 pts -> length ys = length pts ->
    exists coeffs, length coeffs = length pts /\ share s coeffs pts = ys.
  Proof.
    intros Hnd Hz Hl.
    destruct (interp_exists (0 :: pts) (NoDup_cons 0 Hz Hnd) (s :: ys)) as [p [Hp1 Hp2]].
    { cbn [length]. f_equal. exact Hl. }
    destruct p as [|c0 coeffs]; [discriminate|].
    cbn [map] in Hp2. injection Hp2 as H0 Hrest.
    assert (Ec : c0 = s) by (rewrite <- H0; cbn [peval]; ring).
    subst c0. exists coeffs. split; [cbn in Hp1; lia|].
    rewrite <- Hrest. apply map_ext. intro x. apply eval_share_peval.
  Qed.

  Theorem shamir_fewer_unconstrained_lemma (xs ys : list F) (s : F) :
    NoDup xs -> (forall x, In x xs -> x <> 0) -> length ys = length xs ->
    exists coeffs, length coeffs = length xs /\
      forall x y, In (x, y) (combine xs ys) -> eval_share s coeffs x = y.
  Proof.
    intros Hnd Hnz Hlen.
    destruct (shamir_fewer_share xs ys s Hnd) as (coeffs & Hc & Hs);
      [intros H; exact (Hnz _ H eq_refl)|assumption|].
    exists coeffs. split; [assumption|]. intros x y Hin. subst ys.
    unfold Shamir.share in Hin. rewrite combine_map_self in Hin. apply in_map_iff in Hin.
    destruct Hin as (x' & E & _). injection E as <- <-. reflexivity.
  Qed.

  (** exactly t-1 shares (t-1 >= 1) of a polynomial of degree exactly t-1 at distinct non-zero
      points never reconstruct the secret *)
  Theorem shamir_one_fewer_differs_lemma secret coeffs xs :
    NoDup xs -> (forall x, In x xs -> x <> 0) -> length xs = length coeffs -> last coeffs 0 <> 0 ->
    reveal (map (fun x => (x, eval_share secret coeffs x)) xs) <> secret.
  Proof.
    intros Hnd Hnz Hlen Htop Heq.
    (* [reveal] returns the value at zero of the interpolant [I] through the shares, which has t-1
       coefficients; were that the secret, [I ++ [0]] and the sharing polynomial would agree on the t
       points [0 :: xs], hence be equal, but the top coefficient of the latter is not zero *)
    set (p := secret :: coeffs).
    destruct (interp_exists xs Hnd (map (peval p) xs)) as (I & HlenI & HI); [apply map_length|].
    pose proof (ext_in_map HI) as Hag.
    rewrite (map_ext _ (fun x => (x, peval p x))) in Heq by (intros; rewrite eval_share_peval; reflexivity).
    rewrite reveal_map, (fsum_ext _ (fun x => lam xs x * peval I x)) in Heq
      by (intros x Hx; rewrite (Hag x Hx); reflexivity).
    rewrite interp_at_zero in Heq by (try assumption; lia).
    assert (E : p = I ++ [0]).
    { apply (poly_unique (0 :: xs)).
      - constructor; [|assumption]. intros Hin. exact (Hnz 0 Hin eq_refl).
      - rewrite app_length. unfold p. cbn [length]. lia.
      - unfold p. cbn [length]. lia.
      - intros x [<-|Hx]; rewrite peval_app_zero; [|symmetry; apply Hag; assumption].
        rewrite Heq. unfold p. cbn [peval]. ring. }
    apply Htop. destruct coeffs as [|c cs]; [reflexivity|].
    change (last (c :: cs) 0) with (last p 0). rewrite E. apply last_last.
  Qed.

  (** * Reconstruction "in the exponent": any module over the field *)
  Section Module.
    Variable M : Type.
    Variable gzero : M.
    Variable gadd : M -> M -> M.
    Variable smul : F -> M -> M.
    Hypothesis gadd_assoc : forall a b c, gadd a (gadd b c) = gadd (gadd a b) c.
    Hypothesis gadd_comm : forall a b, gadd a b = gadd b a.
    Hypothesis gadd_0_l : forall a, gadd gzero a = a.
    Hypothesis smul_add_l : forall a b m, smul (a + b) m = gadd (smul a m) (smul b m).
    Hypothesis smul_add_r : forall a m n, smul a (gadd m n) = gadd (smul a m) (smul a n).
    Hypothesis smul_mul : forall a b m, smul (a * b) m = smul a (smul b m).
    Hypothesis smul_1 : forall m, smul 1 m = m.
    Hypothesis smul_0_l : forall m, smul 0 m = gzero.
    Hypothesis smul_0_r : forall a, smul a gzero = gzero.

    Local Notation reveal_in_group := (reveal_in_group F f1 fsub fmul finv M gzero gadd smul).

    Lemma gadd_0_r a : gadd a gzero = a.
    Proof. rewrite gadd_comm. apply gadd_0_l. Qed.
    Lemma gadd_swap4 a b c d : gadd (gadd a b) (gadd c d) = gadd (gadd a c) (gadd b d).
    Proof. rewrite <- !gadd_assoc. f_equal. rewrite !gadd_assoc. f_equal. apply gadd_comm. Qed.

    (** polynomial with coefficients in the module *)
    Fixpoint geval (ms : list M) (x : F) : M :=
      match ms with [] => gzero | m :: ms' => gadd m (smul x (geval ms' x)) end.

    Fixpoint gsum {A} (f : A -> M) (l : list A) : M :=
      match l with [] => gzero | a :: r => gadd (f a) (gsum f r) end.

    Lemma gsum_add {A} (f h : A -> M) l : gsum (fun a => gadd (f a) (h a)) l = gadd (gsum f l) (gsum h l).
    Proof. induction l as [|a l IH]; cbn [gsum]; [rewrite gadd_0_l; reflexivity|]. rewrite IH. apply gadd_swap4. Qed.
    Lemma gsum_smul {A} (c : A -> F) (m : M) l : gsum (fun a => smul (c a) m) l = smul (fsum c l) m.
    Proof. induction l as [|a l IH]; cbn [gsum fsum]; [rewrite smul_0_l; reflexivity|]. rewrite IH, smul_add_l. reflexivity. Qed.
    Lemma gsum_zero {A} (l : list A) : gsum (fun _ => gzero) l = gzero.
    Proof. induction l as [|a l IH]; cbn [gsum]; [reflexivity|]. rewrite IH. apply gadd_0_l. Qed.
    Lemma gsum_ext {A} (f h : A -> M) l : (forall a, f a = h a) -> gsum f l = gsum h l.
    Proof. intros H. induction l as [|a l IH]; cbn [gsum]; [reflexivity|]. rewrite H, IH. reflexivity. Qed.

    Fixpoint fpow (x : F) (k : nat) : F := match k with O => 1 | S k' => x * fpow x k' end.

    Lemma peval_mono k x : peval (repeat 0 k ++ [1]) x = fpow x k.
    Proof. induction k as [|k IH]; cbn [repeat app peval fpow]; [ring|]. rewrite IH. ring. Qed.

    Lemma reveal_in_group_gsum (v : F -> M) xs :
      reveal_in_group (map (fun x => (x, v x)) xs) = gsum (fun x => smul (lam xs x) (v x)) xs.
    Proof.
      unfold Shamir.reveal_in_group. rewrite map_map. cbn [fst]. rewrite map_id. fold (lagrange xs).
      assert (H : forall l a,
                 fold_left (fun accum (iv : F * M) => gadd (smul (lagrange xs (fst iv)) (snd iv)) accum)
                           (map (fun x => (x, v x)) l) a
                 = gadd (gsum (fun x => smul (lam xs x) (v x)) l) a).
      { induction l as [|x l IH]; intros a; cbn [map fold_left gsum fst snd].
        - rewrite gadd_0_l. reflexivity.
        - rewrite IH, lagrange_lam, gadd_assoc. f_equal. apply gadd_comm. }
      rewrite H. apply gadd_0_r.
    Qed.

    Lemma geval_snoc ms m x : geval (ms ++ [m]) x = gadd (geval ms x) (smul (fpow x (length ms)) m).
    Proof.
      induction ms as [|a ms IH]; cbn [app geval length fpow].
      - rewrite smul_0_r, smul_1, gadd_0_l. apply gadd_0_r.
      - rewrite IH, smul_add_r, <- smul_mul, gadd_assoc. reflexivity.
    Qed.

    Theorem reveal_in_group_poly xs ms : NoDup xs -> length ms <= length xs ->
      reveal_in_group (map (fun x => (x, geval ms x)) xs) = geval ms 0.
    Proof.
      (* one coefficient at a time from the top: the sum against the coefficients sends the monomial X^k,
         k < |xs|, to its value at zero ([interp_at_zero]) *)
      intros Hnd. rewrite reveal_in_group_gsum. induction ms as [|m ms IH] using rev_ind; intros Hlen.
      - cbn [geval]. rewrite (gsum_ext _ (fun _ => gzero)) by (intros; apply smul_0_r). apply gsum_zero.
      - rewrite app_length in Hlen. cbn [length] in Hlen.
        rewrite (gsum_ext _ (fun x => gadd (smul (lam xs x) (geval ms x))
                                           (smul (lam xs x * fpow x (length ms)) m)))
          by (intros x; rewrite geval_snoc, smul_add_r, smul_mul; reflexivity).
        rewrite gsum_add, IH, gsum_smul, geval_snoc by lia. f_equal. f_equal.
        rewrite (fsum_ext _ (fun x => lam xs x * peval (repeat 0 (length ms) ++ [1]) x))
          by (intros; rewrite peval_mono; reflexivity).
        rewrite interp_at_zero; [apply peval_mono|assumption|].
        rewrite app_length, repeat_length. cbn [length]. lia.
    Qed.

    (** shamir_reveal_in_group: the shares of [m0 + x m1 + ... ] (coefficients in the module,
        [m0] the shared element) at >= t distinct points reconstruct [m0]. *)
    Theorem shamir_reveal_in_group_lemma (m0 : M) (ms : list M) (xs : list F) :
      NoDup xs -> S (length ms) <= length xs ->
      reveal_in_group (map (fun x => (x, geval (m0 :: ms) x)) xs) = m0.
    Proof.
      intros Hnd Hlen. rewrite reveal_in_group_poly by (try assumption; cbn [length]; lia).
      cbn [geval]. rewrite smul_0_l. apply gadd_0_r.
    Qed.

    Lemma reveal_in_group_smul (v : F -> F) (h : M) xs :
      reveal_in_group (map (fun x => (x, smul (v x) h)) xs) = smul (reveal (map (fun x => (x, v x)) xs)) h.
    Proof.
      rewrite reveal_in_group_gsum, reveal_map, <- gsum_smul. apply gsum_ext. intros x. symmetry. apply smul_mul.
    Qed.

    Theorem shamir_reveal_exponent_lemma (h : M) secret coeffs xs :
      NoDup xs -> S (length coeffs) <= length xs ->
      reveal_in_group (map (fun x => (x, smul (eval_share secret coeffs x) h)) xs) = smul secret h.
    Proof. intros Hnd Hlen. rewrite reveal_in_group_smul, shamir_reveal_lemma by assumption. reflexivity. Qed.
  End Module.
End ShamirProofs.

(** the scalar field: a field ([field_theory], so [ring]/[field] apply) whose [inverse()] is
    [None] on zero and the field inverse otherwise *)
Definition scalar_field_laws {F : Type} (f0 f1 : F) (fadd fsub fmul fdiv : F -> F -> F)
           (fopp finvf : F -> F) (finv : F -> option F) : Prop :=
  field_theory f0 f1 fadd fmul fsub fopp fdiv finvf (@eq F) /\
  finv f0 = None /\ (forall x, x <> f0 -> finv x = Some (finvf x)).

(** the group as a module over the scalar field *)
Definition module_laws {F M : Type} (f0 f1 : F) (fadd fmul : F -> F -> F)
           (gzero : M) (gadd : M -> M -> M) (smul : F -> M -> M) : Prop :=
  (forall a b c, gadd a (gadd b c) = gadd (gadd a b) c) /\
  (forall a b, gadd a b = gadd b a) /\
  (forall a, gadd gzero a = a) /\
  (forall a b m, smul (fadd a b) m = gadd (smul a m) (smul b m)) /\
  (forall a m n, smul a (gadd m n) = gadd (smul a m) (smul a n)) /\
  (forall a b m, smul (fmul a b) m = smul a (smul b m)) /\
  (forall m, smul f1 m = m) /\
  (forall m, smul f0 m = gzero) /\
  (forall a, smul a gzero = gzero).