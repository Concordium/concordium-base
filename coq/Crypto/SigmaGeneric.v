(** Generic sigma protocols (DESIGN 7.C07).

    Part 1 (algebra): a sigma protocol for a linear map [phi A : F^n -> G^m] given by a public
    matrix [A] of group elements (one row per output); commit [phi A rho]; response
    [rho - c*w] ([RespMinus], most files) or [rho + c*w] ([RespPlus], dlog.rs); the verifier's
    reconstruction [c*y + phi A z] resp. [phi A z - c*y].  Completeness, special soundness,
    injectivity of responses - for all witnesses, randomness, challenges, dimensions (0, 1, n),
    zero scalars, identity points and repeated generators: nothing but the module laws is used.

    Part 2 (Fiat-Shamir): [proto] packages what the Rust trait [SigmaProtocol] provides; [prove] /
    [verify] transcribe sigma_protocols/common.rs over [Transcript.v]; [verify] accepts iff the
    challenge is the hash of the frame (context, public, reconstructed commit message), and accepting
    two different frames with one proof exhibits an explicit collision of [H].

    Part 3: [AndAdapter] and [ReplicateAdapter] as product constructions. *)
From Coq Require Import ZArith List Field Lia Bool String.
From CB Require Import Crypto.Alg Crypto.Transcript Crypto.TranscriptProofs.
Import ListNotations.

Inductive style := RespMinus | RespPlus.

(** one verification equation, two challenges: the public value is determined.  Special soundness of
    the matrix protocol is this, row by row; so is that of the instances not presented as one matrix *)
Section Rows.
  Context {K : FieldOps} {KL : FieldLaws K} {M : ModOps K} {ML : ModLaws M}.
  Add Field Kf_rows : (@F_th K KL).
  Local Open Scope G_scope.
  Lemma smul_inv_cancel (d : K) (a : M) : d <> F0 K -> Finv K d *: (d *: a) = a.
  Proof.
    intro Hd. rewrite <- smul_mul. replace (Fmul K (Finv K d) d) with (F1 K) by (field; exact Hd).
    apply smul_1.
  Qed.
  Lemma sub_neq_0 (c c' : K) : c <> c' -> Fsub K c' c <> F0 K.
  Proof. intros Hc Z. apply Hc. transitivity (Fsub K c' (Fsub K c' c)); [ring | rewrite Z; ring]. Qed.
  Lemma ss_row_l (c c' : K) (y a a' : M) : c <> c' -> c *: y + a = c' *: y + a' ->
    y = Finv K (Fsub K c' c) *: (a - a').
  Proof.
    intros Hc E. rewrite <- (smul_inv_cancel (Fsub K c' c) y (sub_neq_0 c c' Hc)) at 1. f_equal.
    assert (Ea : a = c' *: y + a' - c *: y) by (apply (Gadd_cancel_l (c *: y)); rewrite E; mod_norm).
    rewrite Ea. mod_norm.
  Qed.
  Lemma ss_row_r (c c' : K) (y a a' : M) : c <> c' -> a + c *: y = a' + c' *: y ->
    y = Finv K (Fsub K c' c) *: (a - a').
  Proof. rewrite !(Gadd_comm _ (_ *: y)). apply ss_row_l. Qed.
End Rows.

(** * Part 1: the matrix protocol *)
Section Matrix.
  Context {K : FieldOps} {KL : FieldLaws K} {M : ModOps K} {ML : ModLaws M}.
  Add Field Kf_sg : (@F_th K KL).
  Local Open Scope G_scope.

  Definition phi (A : list (list M)) (w : list K) : list M := map (msm w) A.
  Definition m_commit (A : list (list M)) (rho : list K) : list M := phi A rho.
  Definition m_respond (sty : style) (c : K) (w rho : list K) : list K :=
    match sty with
    | RespMinus => vsub rho (vscale c w)
    | RespPlus => vadd rho (vscale c w)
    end.
  Definition m_reconstruct (sty : style) (A : list (list M)) (y : list M) (c : K) (z : list K) : list M :=
    match sty with
    | RespMinus => gvadd (gvscale c y) (phi A z)
    | RespPlus => gvsub (phi A z) (gvscale c y)
    end.
  (** the special-soundness extractor *)
  Definition m_extract (sty : style) (c c' : K) (z z' : list K) : list K :=
    match sty with
    | RespMinus => vscale (Finv K (Fsub K c' c)) (vsub z z')
    | RespPlus => vscale (Finv K (Fsub K c c')) (vsub z z')
    end.

  Lemma map2_map_map {A B C D} (f : B -> C -> D) (g : A -> B) (h : A -> C) (l : list A) :
    map2 f (map g l) (map h l) = map (fun x => f (g x) (h x)) l.
  Proof. induction l; cbn; congruence. Qed.

  Lemma resp_minus_generic : forall (w r : list K) c,
    map2 (fun wi ri => Fadd K (Fopp K (Fmul K c wi)) ri) w r = m_respond RespMinus c w r.
  Proof.
    unfold m_respond, vsub, vscale. induction w as [|x w IH]; intros [|y r] c; cbn [map map2]; try reflexivity.
    rewrite IH. f_equal. ring.
  Qed.
  Lemma extract_minus_generic c c' : forall zs zs' : list K,
    map2 (fun a b => Fmul K (Finv K (Fsub K c' c)) (Fsub K a b)) zs zs' = m_extract RespMinus c c' zs zs'.
  Proof.
    unfold m_extract, vscale, vsub. induction zs as [|z zs IH]; intros [|z' zs']; cbn [map map2]; try reflexivity. now rewrite IH.
  Qed.

  Theorem sigma_complete_ : forall sty (A : list (list M)) (w rho : list K) (c : K),
    List.length w = List.length rho ->
    m_reconstruct sty A (phi A w) c (m_respond sty c w rho) = m_commit A rho.
  Proof.
    intros sty A w rho c Hl. unfold m_reconstruct, m_respond, m_commit, phi, gvadd, gvsub, gvscale.
    destruct sty; rewrite map_map, map2_map_map; apply map_ext; intro row.
    - rewrite msm_vsub by (now rewrite vscale_length). rewrite msm_vscale. mod_norm.
    - rewrite msm_vadd by (now rewrite vscale_length). rewrite msm_vscale. mod_norm.
  Qed.

  Theorem sigma_special_sound_ : forall sty (A : list (list M)) (y a : list M) (c c' : K) (z z' : list K),
    c <> c' -> List.length z = List.length z' -> List.length y = List.length A ->
    m_reconstruct sty A y c z = a -> m_reconstruct sty A y c' z' = a ->
    phi A (m_extract sty c c' z z') = y.
  Proof.
    intros sty A y a c c' z z' Hc Hl Hy H1 H2. rewrite <- H2 in H1. clear H2 a.
    revert y Hy H1. unfold m_reconstruct, m_extract, phi, gvadd, gvsub, gvscale.
    induction A as [|row A IH]; intros [|yi y] Hy H1; try discriminate; [reflexivity|].
    cbn [map]. destruct sty; cbn [map map2] in H1; injection H1 as H0 H1; f_equal;
      try (apply IH; [cbn in Hy; lia | exact H1]);
      rewrite msm_vscale, msm_vsub by exact Hl; symmetry.
    - exact (ss_row_l c c' yi _ _ Hc H0).
    - apply (ss_row_r c' c yi _ _ (not_eq_sym Hc)).
      transitivity (msm z row - c *: yi + (c *: yi + c' *: yi)); [mod_norm|]. rewrite H0. mod_norm.
  Qed.

  Lemma gvadd_cancel_l : forall (y p q : list M), List.length p = List.length y -> List.length q = List.length y ->
    gvadd y p = gvadd y q -> p = q.
  Proof.
    unfold gvadd. induction y as [|a y IH]; intros [|b p] [|d q] Hp Hq E; try discriminate; auto.
    cbn in E. injection E as E0 E. f_equal; [eapply Gadd_cancel_l; eauto | apply IH; cbn in *; auto; lia].
  Qed.
  Lemma gvsub_cancel_r : forall (y p q : list M), List.length p = List.length y -> List.length q = List.length y ->
    gvsub p y = gvsub q y -> p = q.
  Proof.
    unfold gvsub. induction y as [|a y IH]; intros [|b p] [|d q] Hp Hq E; try discriminate; auto.
    cbn in E. injection E as E0 E. f_equal; [eapply Gadd_cancel_r; eauto | apply IH; cbn in *; auto; lia].
  Qed.

  (** if [phi A] is injective on vectors of length [n], a reconstructed commitment determines the
      response: no second response is accepted with the same commitment and challenge *)
  Theorem response_injective_ : forall sty (A : list (list M)) (y : list M) (c : K) (z z' : list K) (n : nat),
    (forall u v, List.length u = n -> List.length v = n -> phi A u = phi A v -> u = v) ->
    List.length z = n -> List.length z' = n -> List.length y = List.length A ->
    m_reconstruct sty A y c z = m_reconstruct sty A y c z' -> z = z'.
  Proof.
    intros sty A y c z z' n Hinj Hz Hz' Hy E. apply Hinj; auto.
    unfold m_reconstruct in E. destruct sty.
    - eapply gvadd_cancel_l; [| |exact E]; unfold gvscale, phi; now rewrite !map_length.
    - eapply gvsub_cancel_r; [| |exact E]; unfold gvscale, phi; now rewrite !map_length.
  Qed.

  (** when [phi A] is not injective (here: the only base is the identity point) two different
      responses reconstruct the same commitment: the hypothesis of [response_injective_] is a genuine
      precondition on the statement, not an artefact *)
  Example response_not_injective_degenerate : forall sty (y : M) (c : K),
    [F0 K] <> [F1 K] /\
    m_reconstruct sty [[G0 M]] [y] c [F0 K] = m_reconstruct sty [[G0 M]] [y] c [F1 K].
  Proof.
    intros sty y c. split.
    - intro E. injection E as E. apply F1_neq_0. now symmetry.
    - destruct sty; cbn; f_equal; mod_norm.
  Qed.
End Matrix.

(** * Part 2: the trait [SigmaProtocol], [prove] and [verify] *)
Record proto (K : FieldOps) : Type := mkProto {
  p_stmt : Type;   (* Self: the public values *)
  p_wit : Type;    (* SecretData *)
  p_rand : Type;   (* ProverState = the randomness drawn by compute_commit_message *)
  p_cm : Type;     (* CommitMessage *)
  p_resp : Type;   (* Response *)
  p_public : tkind -> p_stmt -> bytes;
  p_commit : p_stmt -> p_rand -> option p_cm;
  p_respond : p_stmt -> p_wit -> p_rand -> K -> option p_resp;
  p_extract : p_stmt -> K -> p_resp -> option p_cm;
  p_ser_cm : p_cm -> bytes;
  p_ser_resp : p_resp -> bytes }.
Arguments p_stmt {K} _. Arguments p_wit {K} _. Arguments p_rand {K} _. Arguments p_cm {K} _.
Arguments p_resp {K} _. Arguments p_public {K} _ _ _. Arguments p_commit {K} _ _ _.
Arguments p_respond {K} _ _ _ _ _. Arguments p_extract {K} _ _ _ _. Arguments p_ser_cm {K} _ _.
Arguments p_ser_resp {K} _ _.

Definition bytes_eqb (a b : bytes) : bool := list_eqb N.eqb a b.
Lemma bytes_eqb_spec : forall a b, bytes_eqb a b = true <-> a = b.
Proof.
  unfold bytes_eqb. induction a as [|x a IH]; intros [|y b]; cbn; split; intro E; try discriminate; auto.
  - apply andb_prop in E. destruct E as [E1 E2]. apply N.eqb_eq in E1. apply IH in E2. congruence.
  - injection E as -> ->. rewrite N.eqb_refl. cbn. now apply IH.
Qed.
Lemma bytes_eq_dec (a b : bytes) : {a = b} + {a <> b}.
Proof. apply list_eq_dec, N.eq_dec. Qed.

Section FiatShamir.
  Context {K : FieldOps}.
  Variable H : bytes -> bytes.             (* SHA3-256 *)
  Variable sfb : bytes -> K.               (* Curve::scalar_from_bytes *)
  Variable P : proto K.

  (** the bytes hashed into the challenge: context, [public], then the commit message under the
      label "point" *)
  Definition frame (k : tkind) (ctx : bytes) (s : p_stmt P) (a : p_cm P) : bytes :=
    ctx ++ p_public P k s ++ msg k (str "point") (p_ser_cm P a).
  (** the transcript after the proof (V1 also absorbs the response) *)
  Definition after (k : tkind) (ctx : bytes) (s : p_stmt P) (a : p_cm P) (z : p_resp P) : bytes :=
    frame k ctx s a ++ final_msg k (str "response") (p_ser_resp P z).

  (** common.rs [prove]: the RNG is the explicit randomness [r] *)
  Definition prove (k : tkind) (ctx : bytes) (s : p_stmt P) (w : p_wit P) (r : p_rand P)
    : option ((bytes * p_resp P) * bytes) :=
    match p_commit P s r with
    | None => None
    | Some a =>
      let ch := H (frame k ctx s a) in
      match p_respond P s w r (sfb ch) with
      | None => None
      | Some z => Some ((ch, z), after k ctx s a z)
      end
    end.

  (** common.rs [verify]: result and the transcript state afterwards *)
  Definition verify (k : tkind) (ctx : bytes) (s : p_stmt P) (pi : bytes * p_resp P) : bool * bytes :=
    match p_extract P s (sfb (fst pi)) (snd pi) with
    | None => (false, ctx)
    | Some a => (bytes_eqb (H (frame k ctx s a)) (fst pi), after k ctx s a (snd pi))
    end.

  (** algebraic completeness / special soundness of a [proto] *)
  Definition complete (rel : p_stmt P -> p_wit P -> Prop) (rok : p_stmt P -> p_rand P -> Prop) : Prop :=
    forall s w r, rel s w -> rok s r ->
      exists a, p_commit P s r = Some a /\
        forall c, exists z, p_respond P s w r c = Some z /\ p_extract P s c z = Some a.
  Definition special_sound (rel : p_stmt P -> p_wit P -> Prop)
      (ex : p_stmt P -> K -> K -> p_resp P -> p_resp P -> p_wit P) : Prop :=
    forall s a c c' z z', c <> c' ->
      p_extract P s c z = Some a -> p_extract P s c' z' = Some a -> rel s (ex s c c' z z').

  (** an honest proof verifies, under the same context, for every transcript prefix, and prover and
      verifier end in the same transcript state *)
  Theorem prove_verify_complete_ : forall rel rok, complete rel rok ->
    forall k ctx s w r, rel s w -> rok s r ->
      exists pi st, prove k ctx s w r = Some (pi, st) /\ verify k ctx s pi = (true, st).
  Proof.
    intros rel rok Hc k ctx s w r Hrel Hrok.
    destruct (Hc s w r Hrel Hrok) as (a & Ha & Hz).
    destruct (Hz (sfb (H (frame k ctx s a)))) as (z & Hz1 & Hz2).
    exists (H (frame k ctx s a), z), (after k ctx s a z). unfold prove, verify. cbn [fst snd].
    rewrite Ha, Hz1, Hz2. split; [reflexivity|]. f_equal. now apply bytes_eqb_spec.
  Qed.

  (** [verify] accepts exactly when the challenge is the hash of the frame built from the
      reconstructed commit message *)
  Theorem verify_binds_transcript_ : forall k ctx s ch z,
    fst (verify k ctx s (ch, z)) = true <->
    exists a, p_extract P s (sfb ch) z = Some a /\ ch = H (frame k ctx s a).
  Proof.
    intros k ctx s ch z. unfold verify. cbn [fst snd].
    destruct (p_extract P s (sfb ch) z) as [a|]; cbn [fst].
    - rewrite bytes_eqb_spec. split.
      + intro E. exists a. auto.
      + intros (a' & Ha & E). injection Ha as <-. auto.
    - split; [discriminate | intros (a & Ha & _); discriminate].
  Qed.

  (** one proof accepted for two (context, statement) pairs: either the two hashed frames are the
      same byte string, or they are an explicit collision of [H] *)
  Theorem verify_two_frames_ : forall k ctx s k' ctx' s' pi,
    fst (verify k ctx s pi) = true -> fst (verify k' ctx' s' pi) = true ->
    exists a a', p_extract P s (sfb (fst pi)) (snd pi) = Some a /\
                 p_extract P s' (sfb (fst pi)) (snd pi) = Some a' /\
      (frame k ctx s a = frame k' ctx' s' a' \/
       (frame k ctx s a <> frame k' ctx' s' a' /\ H (frame k ctx s a) = H (frame k' ctx' s' a'))).
  Proof.
    intros k ctx s k' ctx' s' [ch z] V1 V2.
    apply verify_binds_transcript_ in V1. apply verify_binds_transcript_ in V2.
    destruct V1 as (a & Ha & E1). destruct V2 as (a' & Ha' & E2). exists a, a'. cbn [fst snd].
    repeat split; auto.
    destruct (bytes_eq_dec (frame k ctx s a) (frame k' ctx' s' a')); [left; auto|right; split; congruence].
  Qed.

  (** [public] is a prefix-free encoding of the (well-formed) statement: it covers every field *)
  Definition public_prefix_free (k : tkind) (ok : p_stmt P -> Prop) : Prop :=
    forall s s' x y, ok s -> ok s' -> p_public P k s ++ x = p_public P k s' ++ y -> s = s' /\ x = y.
  Definition public_covers_statement (k : tkind) (ok : p_stmt P -> Prop) : Prop :=
    forall s s', ok s -> ok s' -> p_public P k s = p_public P k s' -> s = s'.
  Lemma prefix_free_covers k ok : public_prefix_free k ok -> public_covers_statement k ok.
  Proof.
    intros Hp s s' Hs Hs' E. apply (Hp s s' [] []); auto. now rewrite !app_nil_r.
  Qed.

  (** statement binding: one proof accepted for two different statements under the same context
      yields an explicit collision *)
  Theorem statement_binding_ : forall k ok, public_prefix_free k ok ->
    forall ctx s s' pi, ok s -> ok s' -> s <> s' ->
    fst (verify k ctx s pi) = true -> fst (verify k ctx s' pi) = true ->
    exists x x', x <> x' /\ H x = H x'.
  Proof.
    intros k ok Hpf ctx s s' pi Hs Hs' Hne V1 V2.
    destruct (verify_two_frames_ _ _ _ _ _ _ _ V1 V2) as (a & a' & _ & _ & [E|[N E]]).
    - exfalso. apply Hne. unfold frame in E. apply app_inv_head in E.
      now destruct (Hpf _ _ _ _ Hs Hs' E).
    - eauto.
  Qed.

  (** context binding: one proof accepted under two different contexts of the same length (for any
      statements) yields an explicit collision *)
  Theorem context_binding_ : forall k ctx ctx' s s' pi,
    List.length ctx = List.length ctx' -> ctx <> ctx' ->
    fst (verify k ctx s pi) = true -> fst (verify k ctx' s' pi) = true ->
    exists x x', x <> x' /\ H x = H x'.
  Proof.
    intros k ctx ctx' s s' pi Hl Hne V1 V2.
    destruct (verify_two_frames_ _ _ _ _ _ _ _ V1 V2) as (a & a' & _ & _ & [E|[N E]]).
    - exfalso. apply Hne. unfold frame in E. now apply app_eq_len in E.
    - eauto.
  Qed.

  (** context binding for V1 contexts that are sequences of labelled messages of a prefix-free
      schema which also describes this protocol's own frame: different message sequences never give
      the same frame (no length hypothesis) *)
  Theorem context_binding_v1_ : forall sch, schema_prefix_free sch ->
    forall (ms ms' tail tail' : list lmsg) s s' a a',
    Forall (conforms sch) (ms ++ tail) -> Forall (conforms sch) (ms' ++ tail') ->
    p_public P V1 s ++ msg V1 (str "point") (p_ser_cm P a) = enc_lmsgs V1 tail ->
    p_public P V1 s' ++ msg V1 (str "point") (p_ser_cm P a') = enc_lmsgs V1 tail' ->
    frame V1 (enc_lmsgs V1 ms) s a = frame V1 (enc_lmsgs V1 ms') s' a' ->
    ms ++ tail = ms' ++ tail'.
  Proof.
    intros sch Hpf ms ms' tl tl' s s' a a' Hc Hc' E1 E2 E. unfold frame in E.
    rewrite E1, E2 in E. unfold enc_lmsgs in *. rewrite <- !concat_app, <- !map_app in E.
    eapply frame_v1_messages_injective_; eauto.
  Qed.
End FiatShamir.

(** * Part 3: adapters *)
Section Adapters.
  Context {K : FieldOps}.

  Definition opt_pair {A B} (a : option A) (b : option B) : option (A * B) :=
    match a, b with Some x, Some y => Some (x, y) | _, _ => None end.

  (** [AndAdapter]: both sub-protocols see the same challenge *)
  Definition and_proto (P1 P2 : proto K) : proto K := {|
    p_stmt := p_stmt P1 * p_stmt P2;
    p_wit := p_wit P1 * p_wit P2;
    p_rand := p_rand P1 * p_rand P2;
    p_cm := p_cm P1 * p_cm P2;
    p_resp := p_resp P1 * p_resp P2;
    p_public := fun k s => p_public P1 k (fst s) ++ p_public P2 k (snd s);
    p_commit := fun s r => opt_pair (p_commit P1 (fst s) (fst r)) (p_commit P2 (snd s) (snd r));
    p_respond := fun s w r c =>
      opt_pair (p_respond P1 (fst s) (fst w) (fst r) c) (p_respond P2 (snd s) (snd w) (snd r) c);
    p_extract := fun s c z => opt_pair (p_extract P1 (fst s) c (fst z)) (p_extract P2 (snd s) c (snd z));
    p_ser_cm := fun a => p_ser_cm P1 (fst a) ++ p_ser_cm P2 (snd a);
    p_ser_resp := fun z => p_ser_resp P1 (fst z) ++ p_ser_resp P2 (snd z) |}.

  Definition prod_rel {A B C D} (r1 : A -> B -> Prop) (r2 : C -> D -> Prop) (s : A * C) (w : B * D) : Prop :=
    r1 (fst s) (fst w) /\ r2 (snd s) (snd w).

  Theorem and_complete_ : forall (P1 P2 : proto K) rel1 rok1 rel2 rok2,
    complete P1 rel1 rok1 -> complete P2 rel2 rok2 ->
    complete (and_proto P1 P2) (prod_rel rel1 rel2) (prod_rel rok1 rok2).
  Proof.
    intros P1 P2 rel1 rok1 rel2 rok2 C1 C2 [s1 s2] [w1 w2] [r1 r2] [R1 R2] [O1 O2]. cbn in *.
    destruct (C1 s1 w1 r1 R1 O1) as (a1 & Ha1 & Z1). destruct (C2 s2 w2 r2 R2 O2) as (a2 & Ha2 & Z2).
    exists (a1, a2). cbn. rewrite Ha1, Ha2. split; [reflexivity|]. intro c.
    destruct (Z1 c) as (z1 & Hz1 & He1). destruct (Z2 c) as (z2 & Hz2 & He2).
    exists (z1, z2). cbn. now rewrite Hz1, Hz2, He1, He2.
  Qed.

  Theorem and_special_sound_ : forall (P1 P2 : proto K) rel1 ex1 rel2 ex2,
    special_sound P1 rel1 ex1 -> special_sound P2 rel2 ex2 ->
    special_sound (and_proto P1 P2) (prod_rel rel1 rel2)
      (fun s c c' z z' => (ex1 (fst s) c c' (fst z) (fst z'), ex2 (snd s) c c' (snd z) (snd z'))).
  Proof.
    intros P1 P2 rel1 ex1 rel2 ex2 S1 S2 [s1 s2] [a1 a2] c c' [z1 z2] [z1' z2'] Hc E E'. cbn in *.
    destruct (p_extract P1 s1 c z1) eqn:X1, (p_extract P2 s2 c z2) eqn:X2; try discriminate.
    destruct (p_extract P1 s1 c' z1') eqn:X1', (p_extract P2 s2 c' z2') eqn:X2'; try discriminate.
    cbn in E, E'. injection E as -> ->. injection E' as -> ->. split; cbn; eauto.
  Qed.

  (** the AND adapter binds *both* statements: its [public] is prefix free when the parts are *)
  Theorem and_public_prefix_free_ : forall (P1 P2 : proto K) k ok1 ok2,
    public_prefix_free P1 k ok1 -> public_prefix_free P2 k ok2 ->
    public_prefix_free (and_proto P1 P2) k (fun s => ok1 (fst s) /\ ok2 (snd s)).
  Proof.
    intros P1 P2 k ok1 ok2. exact pf_app.
  Qed.

  (** [ReplicateAdapter]: a list of instances of one protocol under one challenge.
      [get_challenge] takes the first protocol and panics on an empty list (documented
      precondition "assumed to be non-empty"): an empty list is [None] here. *)
  Fixpoint opt_all {A} (l : list (option A)) : option (list A) :=
    match l with
    | [] => Some []
    | Some x :: l' => match opt_all l' with Some xs => Some (x :: xs) | None => None end
    | None :: _ => None
    end.
  Fixpoint map3 {A B C D} (f : A -> B -> C -> D) (xs : list A) (ys : list B) (zs : list C) : list D :=
    match xs, ys, zs with
    | x :: xs', y :: ys', z :: zs' => f x y z :: map3 f xs' ys' zs'
    | _, _, _ => []
    end.
  Definition rep_proto (P : proto K) : proto K := {|
    p_stmt := list (p_stmt P);
    p_wit := list (p_wit P);
    p_rand := list (p_rand P);
    p_cm := list (p_cm P);
    p_resp := list (p_resp P);
    p_public := fun k ss => each k [] (p_public P k) ss;
    p_commit := fun ss rs =>
      if Nat.eqb (List.length ss) 0 then None else opt_all (map2 (p_commit P) ss rs);
    p_respond := fun ss ws rs c =>
      if negb (Nat.eqb (List.length ws) (List.length ss)) || negb (Nat.eqb (List.length rs) (List.length ss))
      then None else opt_all (map3 (fun s w r => p_respond P s w r c) ss ws rs);
    p_extract := fun ss c zs =>
      if Nat.eqb (List.length ss) 0 then None else
      if negb (Nat.eqb (List.length zs) (List.length ss)) then None
      else opt_all (map2 (fun s z => p_extract P s c z) ss zs);
    p_ser_cm := fun a => ser_vec32 (map (p_ser_cm P) a);
    p_ser_resp := fun z => ser_vec32 (map (p_ser_resp P) z) |}.

  Definition rep_rel {A B} (r : A -> B -> Prop) (ss : list A) (ws : list B) : Prop :=
    ss <> [] /\ Forall2 r ss ws.
  Definition rep_rok {A B} (r : A -> B -> Prop) (ss : list A) (rs : list B) : Prop := Forall2 r ss rs.

  Lemma Forall2_len {A B} (R : A -> B -> Prop) l l' : Forall2 R l l' -> List.length l = List.length l'.
  Proof. induction 1; cbn; auto. Qed.

  Lemma rep_complete_aux (P : proto K) rel rok : complete P rel rok ->
    forall ss ws, Forall2 rel ss ws -> forall rs, Forall2 rok ss rs ->
    exists az, opt_all (map2 (p_commit P) ss rs) = Some az /\
      forall c, exists zs, opt_all (map3 (fun s w r => p_respond P s w r c) ss ws rs) = Some zs /\
        opt_all (map2 (fun s z => p_extract P s c z) ss zs) = Some az /\ List.length zs = List.length ss.
  Proof.
    intros C ss ws R. induction R as [|s w ss ws Hr R IH]; intros rs O; inversion O as [|? r ? rs' Ho O']; subst.
    - exists []. split; [reflexivity|]. intro c. exists []. repeat split; reflexivity.
    - destruct (C s w r Hr Ho) as (a & Ha & Z). destruct (IH rs' O') as (az & Haz & Zs).
      exists (a :: az). cbn. rewrite Ha, Haz. split; [reflexivity|]. intro c.
      destruct (Z c) as (z & Hz & He). destruct (Zs c) as (zs & Hzs & Hes & Hl). exists (z :: zs).
      cbn. rewrite Hz, He, Hzs, Hes, Hl. auto.
  Qed.

  Theorem rep_complete_ : forall (P : proto K) rel rok,
    complete P rel rok -> complete (rep_proto P) (rep_rel rel) (rep_rok rok).
  Proof.
    intros P rel rok C ss ws rs [Hne R] O.
    assert (Hn : Nat.eqb (List.length ss) 0 = false) by (destruct ss; [congruence|reflexivity]).
    destruct (rep_complete_aux P rel rok C ss ws R rs O) as (az & Haz & Zs).
    exists az. cbn. rewrite Hn. split; [exact Haz|]. intro c.
    destruct (Zs c) as (zs & Hzs & Hes & Hl). exists zs.
    rewrite <- (Forall2_len _ _ _ R), <- (Forall2_len _ _ _ O), Hl, !Nat.eqb_refl. cbn [negb orb]. auto.
  Qed.

  (** the replicate adapter (V1 framing: label, 8-byte count, then each [public]) binds the number of
      instances and every instance *)
  Theorem rep_public_prefix_free_v1_ : forall (P : proto K) ok,
    public_prefix_free P V1 ok ->
    public_prefix_free (rep_proto P) V1
      (fun ss => (N.of_nat (List.length ss) < W64)%N /\ Forall ok ss).
  Proof.
    intros P ok. exact pf_each_v1.
  Qed.
End Adapters.

(** the replicate adapter among lists of ONE length (any framing; the legacy oracle writes no count) *)
Theorem rep_public_prefix_free_fixed_size_ : forall {K : FieldOps} (P : proto K) k ok n,
  public_prefix_free P k ok ->
  public_prefix_free (rep_proto P) k (fun ss => List.length ss = n /\ Forall ok ss).
Proof.
  intros K P k ok n. exact (pf_each_n n).
Qed.

(** a replicated proof whose response list has the wrong length is rejected *)
Theorem rep_extract_length_ : forall {K : FieldOps} (P : proto K) ss c zs a,
  p_extract (rep_proto P) ss c zs = Some a -> List.length zs = List.length ss.
Proof.
  intros K P ss c zs a. cbn. destruct (Nat.eqb (List.length ss) 0); [discriminate|].
  destruct (Nat.eqb (List.length zs) (List.length ss)) eqn:E; [|discriminate]. intros _. now apply Nat.eqb_eq.
Qed.

(** Context binding under the V1 framing for contexts of ANY (also different) lengths: if contexts
    are sequences of labelled messages of a prefix-free schema, and every frame of the protocol is a
    sequence of [n] messages of the same schema, then one proof accepted under two different contexts
    yields an explicit collision. *)
Section ContextV1.
  Context {K : FieldOps}.
  Variable H : bytes -> bytes.
  Variable sfb : bytes -> K.
  Variable P : proto K.
  Definition frame_is_messages (sch : schema) (n : nat) : Prop :=
    forall s a, exists tail, Forall (conforms sch) tail /\ List.length tail = n /\
      p_public P V1 s ++ msg V1 (str "point") (p_ser_cm P a) = enc_lmsgs V1 tail.

  Theorem context_binding_v1_any_length_ : forall sch n, schema_prefix_free sch -> frame_is_messages sch n ->
    forall (ms ms' : list lmsg) s s' pi,
    Forall (conforms sch) ms -> Forall (conforms sch) ms' -> ms <> ms' ->
    fst (verify H sfb P V1 (enc_lmsgs V1 ms) s pi) = true ->
    fst (verify H sfb P V1 (enc_lmsgs V1 ms') s' pi) = true ->
    exists x x', x <> x' /\ H x = H x'.
  Proof.
    intros sch n Hpf Hfr ms ms' s s' pi C C' Hne V1 V2.
    destruct (verify_two_frames_ H sfb P _ _ _ _ _ _ _ V1 V2) as (a & a' & _ & _ & [E|[N E]]); [|eauto].
    exfalso. apply Hne.
    destruct (Hfr s a) as (tl & Ct & Lt & Et). destruct (Hfr s' a') as (tl' & Ct' & Lt' & Et').
    assert (Q : ms ++ tl = ms' ++ tl').
    { eapply (context_binding_v1_ P sch Hpf ms ms' tl tl' s s' a a'); eauto; apply Forall_app; auto. }
    assert (Lm : List.length ms = List.length ms').
    { apply (f_equal (@List.length _)) in Q. rewrite !app_length in Q. lia. }
    now apply app_eq_len in Q.
  Qed.
End ContextV1.

(** the wrong length is rejected in both directions: too short AND too long (a surplus response is
    not silently dropped) *)
Theorem rep_extract_wrong_length_none_ : forall {K : FieldOps} (P : proto K) ss c zs,
  List.length zs <> List.length ss -> p_extract (rep_proto P) ss c zs = None.
Proof.
  intros K P ss c zs Hne. destruct (p_extract (rep_proto P) ss c zs) eqn:E; [|reflexivity].
  exfalso. apply Hne. eapply rep_extract_length_; eauto.
Qed.
