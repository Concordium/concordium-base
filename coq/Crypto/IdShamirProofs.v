(** The Shamir reconstruction theorems of [ShamirProofs] in the form C08 uses them: shares as
    [combine pts (share ...)] (rust-src/concordium_base/src/id/secret_sharing.rs), the group an
    [F]-module with opposites. *)
From Coq Require Import List Field Ring.
From CB Require Import Crypto.Shamir Crypto.ShamirProofs.
Import ListNotations.

Declare Scope ShamirF_scope.

Section ShamirProofs.
  Variable F : Type.
  Variables (f0 f1 : F) (fadd fmul fsub : F -> F -> F) (fopp : F -> F)
            (fdiv : F -> F -> F) (finv_t : F -> F).
  Hypothesis Ffield : field_theory f0 f1 fadd fmul fsub fopp fdiv finv_t (@eq F).
  Add Field FF : Ffield.
  Variable finv : F -> option F.                      (* Field::inverse of the code *)
  Hypothesis finv_zero : finv f0 = None.
  Hypothesis finv_nonzero : forall x, x <> f0 -> finv x = Some (finv_t x).
  (* group = F-module *)
  Variable G : Type.
  Variables (gzero : G) (gadd : G -> G -> G) (gopp : G -> G) (smul : F -> G -> G).
  Hypothesis gadd_assoc : forall a b c, gadd a (gadd b c) = gadd (gadd a b) c.
  Hypothesis gadd_comm : forall a b, gadd a b = gadd b a.
  Hypothesis gadd_0_l : forall a, gadd gzero a = a.
  Hypothesis gadd_opp : forall a, gadd a (gopp a) = gzero.
  Hypothesis smul_add_l : forall x y a, smul (fadd x y) a = gadd (smul x a) (smul y a).
  Hypothesis smul_add_r : forall x a b, smul x (gadd a b) = gadd (smul x a) (smul x b).
  Hypothesis smul_mul : forall x y a, smul (fmul x y) a = smul x (smul y a).
  Hypothesis smul_1 : forall a, smul f1 a = a.

  Local Notation "0" := f0 : ShamirF_scope.
  Local Notation "1" := f1 : ShamirF_scope.
  Local Infix "+" := fadd : ShamirF_scope.
  Local Infix "*" := fmul : ShamirF_scope.
  Local Infix "-" := fsub : ShamirF_scope.
  Local Infix "/" := fdiv : ShamirF_scope.
  Local Open Scope ShamirF_scope.

  Local Notation share' := (share F f0 fadd fmul).
  Local Notation lagrange' := (lagrange F f1 fsub fmul finv).
  Local Notation reveal' := (reveal F f0 f1 fadd fsub fmul finv).
  Local Notation reveal_g := (reveal_in_group F f1 fsub fmul finv G gzero gadd smul).

  Fixpoint gsum (h : F -> F) (xs : list F) : F :=
    match xs with
    | [] => 0
    | x :: r => h x + gsum h r
    end.

  Lemma gsum_fold_right : forall h xs, gsum h xs = fold_right (fun x acc => h x + acc) 0 xs.
  Proof. intros h xs. induction xs as [|x r IH]; simpl; [|rewrite IH]; reflexivity. Qed.

  (** Sum of the code's Lagrange coefficients over distinct points is one. *)
  Theorem lagrange_sum_one : forall pts,
      pts <> [] -> NoDup pts ->
      fold_right (fun x acc => lagrange' pts x + acc) 0 pts = 1.
  Proof.
    intros pts Hne Hnd. rewrite <- fsum_fold_right.
    rewrite (fsum_ext _ _ _ _ (lam F f1 fsub fmul finv pts)) by (intros; eapply lagrange_lam; eassumption).
    eapply lam_sum_one; eassumption.
  Qed.

  (** [reveal] of arbitrary shares is the sum of [lagrange(points, x_i) * y_i]. *)
  Theorem reveal_lagrange_sum : forall sh,
      reveal' sh
      = fold_right (fun iv acc => lagrange' (map fst sh) (fst iv) * snd iv + acc) 0 sh.
  Proof. intro sh. rewrite <- fsum_fold_right. eapply reveal_fsum; eassumption. Qed.

  (** Reconstruction from any list of at least [length coeffs + 1] shares at distinct
      points (the points need not even be non-zero for this direction). *)
  Theorem shamir_reveal_field_gen : forall secret coeffs pts,
      NoDup pts -> (length coeffs < length pts)%nat ->
      reveal' (combine pts (share' secret coeffs pts)) = secret.
  Proof.
    intros secret coeffs pts Hnd Hlen. unfold share. rewrite combine_map_self.
    eapply shamir_reveal_lemma; eassumption.
  Qed.

  Lemma smul_0 : forall P, smul 0 P = gzero.
  Proof.
    intro P.
    assert (H : smul 0 P = gadd (smul 0 P) (smul 0 P)).
    { rewrite <- smul_add_l. f_equal. ring. }
    rewrite <- (gadd_opp (smul 0 P)). rewrite H at 2.
    rewrite <- gadd_assoc, gadd_opp, gadd_comm, gadd_0_l. reflexivity.
  Qed.

  Theorem shamir_reveal_group_gen : forall secret coeffs pts (P : G),
      NoDup pts -> (length coeffs < length pts)%nat ->
      reveal_g (combine pts (map (fun s => smul s P) (share' secret coeffs pts)))
      = smul secret P.
  Proof.
    intros secret coeffs pts P Hnd Hlen. unfold share. rewrite map_map, combine_map_self.
    eapply shamir_reveal_exponent_lemma; try eassumption. apply smul_0.
  Qed.

  Theorem shamir_fewer_unconstrained : forall pts ys s,
      NoDup pts -> ~ In f0 pts -> length ys = length pts ->
      exists coeffs, length coeffs = length pts /\ share F f0 fadd fmul s coeffs pts = ys.
  Proof. intros pts ys s. eapply shamir_fewer_share; eassumption. Qed.
End ShamirProofs.
