(** sigma_protocols/com_enc_eq.rs: knowledge of [(x, R, r)] with [cipher = (R*pk_g, x*h_in + R*pk_h)]
    and [commitment = x*ck_g + r*ck_h].  Response style [rho - c*w].

    FINDING (KF-C07-2): [public] appends cipher, commitment, pub_key and cmm_key but NOT the field
    [encryption_in_exponent_generator]: see [com_enc_eq_public_omits_generator_refuted_]. *)
From Coq Require Import NArith List String.
From CB Require Import Crypto.Alg Crypto.Transcript Crypto.TranscriptProofs Crypto.SigmaGeneric Crypto.SigmaCodec.
Import ListNotations.

Record com_enc_eq_stmt {K : FieldOps} (M : ModOps K) := mkComEncEq {
  cee_e1 : M; cee_e2 : M; cee_cmm : M; cee_pkg : M; cee_pkh : M; cee_ckg : M; cee_ckh : M; cee_hin : M }.
Arguments mkComEncEq {K M} _ _ _ _ _ _ _ _.
Arguments cee_e1 {K M} _. Arguments cee_e2 {K M} _. Arguments cee_cmm {K M} _. Arguments cee_pkg {K M} _.
Arguments cee_pkh {K M} _. Arguments cee_ckg {K M} _. Arguments cee_ckh {K M} _. Arguments cee_hin {K M} _.

Section ComEncEq.
  Context {K : FieldOps} {M : ModOps K} (Cd : CodecOps M).
  Local Open Scope G_scope.

  Definition com_enc_eq_public (k : tkind) (s : com_enc_eq_stmt M) : bytes :=
    msg k (str "cipher") (serG Cd (cee_e1 s) ++ serG Cd (cee_e2 s)) ++
    msg k (str "commitment") (serG Cd (cee_cmm s)) ++
    msg k (str "pub_key") (serG Cd (cee_pkg s) ++ serG Cd (cee_pkh s)) ++
    msg k (str "cmm_key") (serG Cd (cee_ckg s) ++ serG Cd (cee_ckh s)).
  (** randomness (beta, alpha, gamma); commit ((alpha*pk_g, alpha*pk_h + beta*h_in), beta*ck_g + gamma*ck_h) *)
  Definition com_enc_eq_commit (s : com_enc_eq_stmt M) (r : K * K * K) : option (M * M * M) :=
    let '(beta, alpha, gamma) := r in
    Some (alpha *: cee_pkg s, alpha *: cee_pkh s + beta *: cee_hin s, beta *: cee_ckg s + gamma *: cee_ckh s).
  (** secret (x, R, r); response (z1, z2, z3) = (alpha - c*R, beta - c*x, gamma - c*r), computed as (-c)*w + rho *)
  Definition com_enc_eq_respond (s : com_enc_eq_stmt M) (w : K * K * K) (r : K * K * K) (c : K) : option (K * K * K) :=
    let '(x, cR, pr) := w in let '(beta, alpha, gamma) := r in
    Some (Fadd K (Fmul K (Fopp K c) cR) alpha, Fadd K (Fmul K (Fopp K c) x) beta, Fadd K (Fmul K (Fopp K c) pr) gamma).
  Definition com_enc_eq_extract (s : com_enc_eq_stmt M) (c : K) (z : K * K * K) : option (M * M * M) :=
    let '(z1, z2, z3) := z in
    Some (z1 *: cee_pkg s + c *: cee_e1 s,
          z2 *: cee_hin s + (z1 *: cee_pkh s + c *: cee_e2 s),
          z2 *: cee_ckg s + (z3 *: cee_ckh s + c *: cee_cmm s)).

  Definition ser3G (a : M * M * M) : bytes := let '(a1, a2, a3) := a in serG Cd a1 ++ serG Cd a2 ++ serG Cd a3.
  Definition ser3F (z : K * K * K) : bytes := let '(z1, z2, z3) := z in serF Cd z1 ++ serF Cd z2 ++ serF Cd z3.
  Definition com_enc_eq_proto : proto K := {|
    p_stmt := com_enc_eq_stmt M; p_wit := K * K * K; p_rand := K * K * K; p_cm := M * M * M; p_resp := K * K * K;
    p_public := com_enc_eq_public; p_commit := com_enc_eq_commit; p_respond := com_enc_eq_respond;
    p_extract := com_enc_eq_extract; p_ser_cm := ser3G; p_ser_resp := ser3F |}.

  Definition com_enc_eq_rel (s : com_enc_eq_stmt M) (w : K * K * K) : Prop :=
    let '(x, cR, pr) := w in
    cee_e1 s = cR *: cee_pkg s /\ cee_e2 s = x *: cee_hin s + cR *: cee_pkh s /\
    cee_cmm s = x *: cee_ckg s + pr *: cee_ckh s.
  Definition com_enc_eq_recover (s : com_enc_eq_stmt M) (w : K * K * K) (c : K) (z : K * K * K) : K * K * K :=
    let '(x, cR, pr) := w in let '(z1, z2, z3) := z in
    (Fadd K z2 (Fmul K c x), Fadd K z1 (Fmul K c cR), Fadd K z3 (Fmul K c pr)).

  (** linear map over [R; x; r] *)
  Definition com_enc_eq_A (s : com_enc_eq_stmt M) : list (list M) :=
    [[cee_pkg s; G0 M; G0 M]; [cee_pkh s; cee_hin s; G0 M]; [G0 M; cee_ckg s; cee_ckh s]].
  Definition com_enc_eq_y (s : com_enc_eq_stmt M) : list M := [cee_e1 s; cee_e2 s; cee_cmm s].
  Definition fl3 {A} (a : A * A * A) : list A := let '(a1, a2, a3) := a in [a1; a2; a3].

  Context {KL : FieldLaws K} {ML : ModLaws M}.
  Add Field Kf_cee : (@F_th K KL).

  Lemma com_enc_eq_commit_generic s r a : com_enc_eq_commit s r = Some a ->
    fl3 a = m_commit (com_enc_eq_A s) (let '(beta, alpha, gamma) := r in [alpha; beta; gamma]).
  Proof. destruct r as [[b al] ga]. intro E. injection E as <-. cbn. list_split; mod_norm. Qed.
  Lemma com_enc_eq_respond_generic s w r c z : com_enc_eq_respond s w r c = Some z ->
    fl3 z = m_respond RespMinus c (let '(x, cR, pr) := w in [cR; x; pr]) (let '(beta, alpha, gamma) := r in [alpha; beta; gamma]).
  Proof. destruct w as [[x cR] pr], r as [[b al] ga]. intro E. injection E as <-. cbn. list_split; ring. Qed.
  Lemma com_enc_eq_extract_generic s c z a : com_enc_eq_extract s c z = Some a ->
    fl3 a = m_reconstruct RespMinus (com_enc_eq_A s) (com_enc_eq_y s) c (fl3 z).
  Proof. destruct z as [[z1 z2] z3]. intro E. injection E as <-. cbn. list_split; mod_norm. Qed.
  Lemma com_enc_eq_rel_generic s w : com_enc_eq_rel s w <->
    phi (com_enc_eq_A s) (let '(x, cR, pr) := w in [cR; x; pr]) = com_enc_eq_y s.
  Proof.
    destruct w as [[x cR] pr]. unfold com_enc_eq_rel, phi, com_enc_eq_A, com_enc_eq_y. cbn. split.
    - intros (-> & -> & ->). list_split; mod_norm.
    - intro E. injection E as E1 E2 E3. rewrite <- E1, <- E2, <- E3. repeat split; mod_norm.
  Qed.

  Theorem com_enc_eq_complete_ : complete com_enc_eq_proto com_enc_eq_rel (fun _ _ => True).
  Proof.
    intros s [[x cR] pr] [[b al] ga] (H1 & H2 & H3) _. eexists. split; [reflexivity|]. intro c.
    eexists. split; [reflexivity|]. cbn. rewrite H1, H2, H3. list_split; mod_norm.
  Qed.

  Definition com_enc_eq_extractor (s : com_enc_eq_stmt M) (c c' : K) (z z' : K * K * K) : K * K * K :=
    let v := m_extract RespMinus c c' (fl3 z) (fl3 z') in (nth 1 v (F0 K), nth 0 v (F0 K), nth 2 v (F0 K)).
  Theorem com_enc_eq_special_sound_ : special_sound com_enc_eq_proto com_enc_eq_rel com_enc_eq_extractor.
  Proof.
    intros s a c c' z z' Hc E E'. apply com_enc_eq_rel_generic.
    pose proof (com_enc_eq_extract_generic s c z a E) as G1. pose proof (com_enc_eq_extract_generic s c' z' a E') as G2.
    destruct z as [[z1 z2] z3], z' as [[y1 y2] y3].
    exact (sigma_special_sound_ RespMinus (com_enc_eq_A s) (com_enc_eq_y s) (fl3 a) c c' [z1; z2; z3] [y1; y2; y3]
             Hc eq_refl eq_refl (eq_sym G1) (eq_sym G2)).
  Qed.

  Context {CL : CodecLaws Cd}.
  (** the statement without the field that [public] does not mention *)
  Definition cee_covered (s : com_enc_eq_stmt M) := (cee_e1 s, cee_e2 s, cee_cmm s, cee_pkg s, cee_pkh s, cee_ckg s, cee_ckh s).

  (** KF-C07-2: two statements that differ (only) in [encryption_in_exponent_generator] have the
      same [public] bytes - the field is not covered by the transcript. *)
  Theorem com_enc_eq_public_omits_generator_refuted_ : forall k (s : com_enc_eq_stmt M) (h' : M),
    h' <> cee_hin s ->
    let s' := mkComEncEq (cee_e1 s) (cee_e2 s) (cee_cmm s) (cee_pkg s) (cee_pkh s) (cee_ckg s) (cee_ckh s) h' in
    s <> s' /\ com_enc_eq_public k s = com_enc_eq_public k s'.
  Proof. intros k s h' Hne s'. split; [|reflexivity]. intro E. apply Hne. now rewrite E. Qed.

  (** ... and a response with z2 = 0 is accepted with the same commit message whatever that field is *)
  Theorem com_enc_eq_generator_unbound_when_z2_zero_ : forall (s : com_enc_eq_stmt M) (h' : M) c z1 z3,
    let s' := mkComEncEq (cee_e1 s) (cee_e2 s) (cee_cmm s) (cee_pkg s) (cee_pkh s) (cee_ckg s) (cee_ckh s) h' in
    com_enc_eq_extract s c (z1, F0 K, z3) = com_enc_eq_extract s' c (z1, F0 K, z3).
  Proof. intros. cbn. list_split; mod_norm. Qed.

  (** positive part: every other field is covered, under both framings *)
  Theorem com_enc_eq_public_covers_rest_ : forall k s s' x y,
    com_enc_eq_public k s ++ x = com_enc_eq_public k s' ++ y -> cee_covered s = cee_covered s' /\ x = y.
  Proof.
    intros k s s' x y E. pose proof (pf_serG Cd) as G.
    set (f := fun s : com_enc_eq_stmt M => ((cee_e1 s, cee_e2 s), (cee_cmm s, ((cee_pkg s, cee_pkh s), (cee_ckg s, cee_ckh s))))).
    epose proof (pf_app (pf_msg (pf_app G G)) (pf_app (pf_msg G) (pf_app (pf_msg (pf_app G G)) (pf_msg (pf_app G G))))) as X.
    destruct (X (f s) (f s') x y) as [[= E1 E2 E3 E4 E5 E6 E7] ->]; [repeat split | repeat split | exact E |].
    unfold cee_covered. split; congruence.
  Qed.
  (** with the generator fixed (it is a global chain parameter), [public] is prefix free *)
  Theorem com_enc_eq_public_prefix_free_fixed_generator_ : forall k (h : M),
    public_prefix_free com_enc_eq_proto k (fun s => cee_hin s = h).
  Proof.
    intros k h s s' x y Hs Hs' E. apply com_enc_eq_public_covers_rest_ in E. destruct E as [E ->]. split; auto.
    destruct s, s'. unfold cee_covered in E. cbn in *. injection E as -> -> -> -> -> -> ->. congruence.
  Qed.
End ComEncEq.
