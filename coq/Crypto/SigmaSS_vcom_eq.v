(** C07 - special soundness and response injectivity of vcom_eq.rs (after the repair
    82fae784a), with the exact relation [vcom_rel] of the completeness theorem.

    The response map [tis] is keyed by the PROVER.  The verifier's conditions
      [|tis| = |comms|]  and  [|points| = |comms|]
    (points = one per index i < n present in both maps) force, by counting, that the key sets of
    [comms] and [tis] coincide, lie in 0..n-1 and have no duplicates ([walk_covers]); hence two
    accepting transcripts answer the same individual commitments and the rows
      [c*C + (msm sis gis + t*h)]  and  [c*C_i + (s_i*g_bar + t_i*h_bar)]
    are instances of the one-row lemma [ss_row_l] ([ped_row_special_sound_] for the Pedersen rows). *)
From Coq Require Import ZArith List Lia Bool.
From CB Require Import Crypto.Alg Crypto.SigmaGeneric Crypto.SigmaHom Crypto.SigmaCodec Crypto.Sigma_vcom_eq.
Import ListNotations.

Section Walk.
  Context {A X Y : Type}.
  Notation len := (@List.length _).
  Definition hitkeys (m1 : amap X) (m2 : amap Y) (i : N) (vals : list A) : list N :=
    walk (fun k (_ : A) (_ : X) (_ : Y) => k) m1 m2 i vals.

  Lemma hitkeys_spec (m1 : amap X) (m2 : amap Y) : forall (vals : list A) i k,
    In k (hitkeys m1 m2 i vals) ->
    (i <= k < i + N.of_nat (len vals))%N /\ (exists a, aget m1 k = Some a) /\ (exists b, aget m2 k = Some b).
  Proof.
    unfold hitkeys. induction vals as [|v vals IH]; intros i k Hin; [destruct Hin|]. cbn [walk] in Hin.
    assert (R : In k (walk (fun k (_ : A) (_ : X) (_ : Y) => k) m1 m2 (i + 1)%N vals) ->
                (i <= k < i + N.of_nat (len (v :: vals)))%N /\ (exists a, aget m1 k = Some a) /\ (exists b, aget m2 k = Some b)).
    { intro Hin'. destruct (IH _ _ Hin') as (Hr & H1 & H2). cbn [len]. repeat split; auto; lia. }
    destruct (aget m1 i) as [a|] eqn:E1; [|auto]. destruct (aget m2 i) as [b|] eqn:E2; [|auto].
    destruct Hin as [<-|Hin]; [|auto]. cbn [len]. repeat split; eauto; lia.
  Qed.
  Lemma hitkeys_nodup (m1 : amap X) (m2 : amap Y) : forall (vals : list A) i, NoDup (hitkeys m1 m2 i vals).
  Proof.
    induction vals as [|v vals IH]; intro i; [constructor|]. unfold hitkeys. cbn [walk].
    destruct (aget m1 i), (aget m2 i); try apply IH. constructor; [|apply IH].
    intro Hin. apply hitkeys_spec in Hin. lia.
  Qed.
  Lemma aget_in_keys {V} (m : amap V) k a : aget m k = Some a -> In k (map fst m) /\ In (k, a) m.
  Proof.
    unfold aget. destruct (find (fun p => N.eqb (fst p) k) m) as [[k' a']|] eqn:E; [|discriminate].
    intro Q. injection Q as <-. apply find_some in E. destruct E as [Hin Hk]. cbn in Hk. apply N.eqb_eq in Hk. subst k'.
    split; [change k with (fst (k, a')); now apply in_map|exact Hin].
  Qed.
  Lemma in_keys_aget {V} (m : amap V) k : In k (map fst m) -> exists a, aget m k = Some a.
  Proof.
    unfold aget. induction m as [|[k' a'] m IH]; intro Hin; [destruct Hin|]. cbn [find fst].
    destruct (N.eqb k' k) eqn:E; [eauto|]. destruct Hin as [Hk|Hin]; [cbn in Hk; subst; rewrite N.eqb_refl in E; discriminate|auto].
  Qed.
  Lemma walk_len_hitkeys {Z} (f : N -> A -> X -> Y -> Z) (m1 : amap X) (m2 : amap Y) (vals : list A) i :
    len (walk f m1 m2 i vals) = len (hitkeys m1 m2 i vals).
  Proof. apply walk_length_eq; auto. Qed.

  (** if the loop produces as many items as [m1] has entries, and [m2] has that many entries too,
      then the keys of both maps are exactly the hit indices: all below [i + n], no duplicates *)
  Lemma walk_covers {Z} (f : N -> A -> X -> Y -> Z) (m1 : amap X) (m2 : amap Y) (vals : list A) i :
    len (walk f m1 m2 i vals) = len m1 -> len m2 = len m1 ->
    (forall k, In k (map fst m1) <-> In k (hitkeys m1 m2 i vals)) /\
    (forall k, In k (map fst m2) <-> In k (hitkeys m1 m2 i vals)) /\
    NoDup (map fst m1) /\ NoDup (map fst m2).
  Proof.
    intros L1 L2. rewrite walk_len_hitkeys in L1.
    assert (I1 : incl (hitkeys m1 m2 i vals) (map fst m1)).
    { intros k Hk. apply hitkeys_spec in Hk. destruct Hk as (_ & [a Ha] & _). now apply aget_in_keys in Ha. }
    assert (I2 : incl (hitkeys m1 m2 i vals) (map fst m2)).
    { intros k Hk. apply hitkeys_spec in Hk. destruct Hk as (_ & _ & [b Hb]). now apply aget_in_keys in Hb. }
    assert (N0 := hitkeys_nodup m1 m2 vals i).
    assert (Le1 : (len (map fst m1) <= len (hitkeys m1 m2 i vals))%nat) by (rewrite map_length; lia).
    assert (Le2 : (len (map fst m2) <= len (hitkeys m1 m2 i vals))%nat) by (rewrite map_length; lia).
    split; [intro k; split; [apply (NoDup_length_incl N0 Le1 I1)|apply I1]|].
    split; [intro k; split; [apply (NoDup_length_incl N0 Le2 I2)|apply I2]|].
    split; [apply (NoDup_incl_NoDup N0 Le1 I1)|apply (NoDup_incl_NoDup N0 Le2 I2)].
  Qed.
End Walk.

Lemma aget_map_keys {V W} (f : N -> W) (m : amap V) k :
  aget (map (fun p => (fst p, f (fst p))) m) k = match aget m k with Some _ => Some (f k) | None => None end.
Proof.
  unfold aget. induction m as [|[k' a] m IH]; [reflexivity|]. cbn [map find fst snd].
  destruct (N.eqb k' k) eqn:E; [apply N.eqb_eq in E; subst; reflexivity|exact IH].
Qed.

Section VcomSS.
  Context {K : FieldOps} {M : ModOps K} (Cd : CodecOps M).
  Context {KL : FieldLaws K} {ML : ModLaws M}.
  Add Field Kf_vc_ss : (@F_th K KL).
  Local Open Scope G_scope.
  Notation len := (@List.length _).

  Definition exd (c c' a b : K) : K := Fmul K (Finv K (Fsub K c' c)) (Fsub K a b).
  Definition getd (m : amap K) (k : N) : K := match aget m k with Some v => v | None => F0 K end.
  (** extractor: (z - z')/(c' - c) componentwise; the extracted randomness map is keyed like [comms] *)
  Definition vcom_extractor (s : vcom_stmt M) (c c' : K) (z z' : vc_wit) : vc_wit :=
    let '(sis, t, tis) := z in let '(sis', t', tis') := z' in
    (map2 (exd c c') sis sis', exd c c' t t',
     map (fun p => (fst p, exd c c' (getd tis (fst p)) (getd tis' (fst p)))) (vc_comms s)).

  Lemma vcom_accepted (s : vcom_stmt M) c sis t tis a pts : vcom_extract s c (sis, t, tis) = Some (a, pts) ->
    a = vcom_point s c sis t /\ pts = vcom_points s c sis tis /\ len pts = len (vc_comms s) /\
    len sis = len (vc_gis s) /\ (1 <= len sis <= 256)%nat /\
    (forall k C, aget (vc_comms s) k = Some C -> (k < N.of_nat (len sis))%N /\ exists t0, aget tis k = Some t0) /\
    (forall k, In k (map fst tis) <-> In k (map fst (vc_comms s))).
  Proof.
    intro E. destruct (vcom_extract_checks_every_commitment_ s c sis t tis a pts E) as (Lp & Ls & Lt).
    unfold vcom_extract in E. destruct (vcom_guard s sis tis) eqn:G; [|discriminate].
    destruct (Sigma_vcom_eq.neqb (len (vcom_points s c sis tis)) (len (vc_comms s))); [discriminate|].
    injection E as Ea Ep.
    assert (Fit : (1 <= len sis <= 256)%nat).
    { unfold vcom_guard in G. destruct sis as [|s0 sis]; [discriminate|]. apply negb_true_iff in G.
      apply orb_false_iff in G. destruct G as [_ G]. apply negb_false_iff in G. unfold fits_u8 in G. apply Nat.leb_le in G.
      cbn [len] in *. lia. }
    pose proof Lp as Lw. rewrite <- Ep in Lw. unfold vcom_points in Lw.
    destruct (walk_covers _ (vc_comms s) tis sis 0%N Lw Lt) as (K1 & K2 & _ & _).
    split; [auto|]. split; [auto|]. split; [exact Lp|]. split; [exact Ls|]. split; [exact Fit|]. split.
    - intros k C HC. apply aget_in_keys in HC. destruct HC as [HC _]. apply K1, hitkeys_spec in HC.
      destruct HC as (Hr & _ & Ht). split; [lia|exact Ht].
    - intro k. rewrite K2, K1. reflexivity.
  Qed.

  Lemma vcom_rows (s : vcom_stmt M) (c c' : K) (tis tis' ris : amap K) : c <> c' ->
    (forall k C, aget (vc_comms s) k = Some C ->
       exists t t', aget tis k = Some t /\ aget tis' k = Some t' /\ aget ris k = Some (exd c c' t t')) ->
    forall (sis sis' : list K) i, len sis = len sis' ->
    walk (fun _ si Ci ti => si *: vc_gbar s + (ti *: vc_hbar s + c *: Ci)) (vc_comms s) tis i sis =
    walk (fun _ si Ci ti => si *: vc_gbar s + (ti *: vc_hbar s + c' *: Ci)) (vc_comms s) tis' i sis' ->
    Forall (fun p : M * M => fst p = snd p)
      (walk (fun _ x C r => (C, x *: vc_gbar s + r *: vc_hbar s)) (vc_comms s) ris i (map2 (exd c c') sis sis')).
  Proof.
    intros Hc Hk. induction sis as [|si sis IH]; intros [|si' sis'] i L E; try discriminate; [constructor|].
    cbn [map2 walk] in *. destruct (aget (vc_comms s) i) as [C|] eqn:EC.
    - destruct (Hk i C EC) as (t & t' & Ht & Ht' & Hr). rewrite Ht, Ht' in E. rewrite Hr. injection E as E0 E.
      constructor; [|apply IH; [cbn in L; lia|exact E]]. cbn [fst snd].
      assert (E0' : c *: C + (si *: vc_gbar s + t *: vc_hbar s) = c' *: C + (si' *: vc_gbar s + t' *: vc_hbar s)).
      { transitivity (si *: vc_gbar s + (t *: vc_hbar s + c *: C)); [mod_norm|]. rewrite E0. mod_norm. }
      exact (ped_row_special_sound_ _ _ C c c' (si, t) (si', t') Hc E0').
    - apply IH; [cbn in L; lia|exact E].
  Qed.

  Theorem vcom_special_sound_ : special_sound (vcom_proto Cd) (vcom_rel (M:=M)) vcom_extractor.
  Proof.
    intros s cm c c' [[sis t] tis] [[sis' t'] tis'] Hc E E'.
    destruct cm as [a pts]. cbn [p_extract vcom_proto] in E, E'.
    destruct (vcom_accepted _ _ _ _ _ _ _ E) as (Ea & Ep & Lp & Ls & Fit & Cov & _).
    destruct (vcom_accepted _ _ _ _ _ _ _ E') as (Ea' & Ep' & _ & Ls' & _ & Cov' & _).
    rewrite Ep in Lp. unfold vcom_points in Lp.
    set (ris := map (fun p => (fst p, exd c c' (getd tis (fst p)) (getd tis' (fst p)))) (vc_comms s)).
    assert (Hris : forall k C, aget (vc_comms s) k = Some C ->
              exists t0 t0', aget tis k = Some t0 /\ aget tis' k = Some t0' /\ aget ris k = Some (exd c c' t0 t0')).
    { intros k C HC. destruct (Cov k C HC) as (_ & t0 & Ht0). destruct (Cov' k C HC) as (_ & t0' & Ht0'). exists t0, t0'. repeat split; auto.
      unfold ris. rewrite (aget_map_keys (fun k => exd c c' (getd tis k) (getd tis' k))), HC. unfold getd. now rewrite Ht0, Ht0'. }
    assert (Lss : len sis = len sis') by congruence.
    assert (Lx : len (map2 (exd c c') sis sis') = len sis) by (rewrite map2_length, <- Lss; apply Nat.min_id).
    unfold vcom_rel, vcom_extractor. fold ris. rewrite Lx.
    split; [exact Ls|]. split; [exact Fit|]. split; [unfold ris; apply map_length|].
    split.
    { intro k. unfold ris. rewrite (aget_map_keys (fun k => exd c c' (getd tis k) (getd tis' k))).
      destruct (aget (vc_comms s) k); split; auto; discriminate. }
    split.
    { rewrite Ea in Ea'. unfold vcom_point in Ea'. clear Ea. rename Ea' into Ea.
      assert (Ea2 : c *: vc_comm s + (msm sis (vc_gis s) + t *: vc_h s) = c' *: vc_comm s + (msm sis' (vc_gis s) + t' *: vc_h s)).
      { transitivity (msm sis (vc_gis s) + (t *: vc_h s + c *: vc_comm s)); [mod_norm|]. rewrite Ea. mod_norm. }
      apply (ss_row_l c c' _ _ _ Hc) in Ea2. rewrite Ea2 at 1.
      unfold exd at 1. rewrite extract_minus_generic. unfold m_extract. rewrite msm_vscale, msm_vsub by exact Lss. unfold exd. mod_norm. }
    split.
    { apply (vcom_rows s c c' tis tis' ris Hc Hris sis sis' 0%N Lss). unfold vcom_points in Ep, Ep'. congruence. }
    { etransitivity; [|exact Lp]. apply walk_length_eq; [exact Lx|]. intros k Hk. unfold hit.
      destruct (aget (vc_comms s) k) as [C|] eqn:HC; [|reflexivity].
      destruct (Hris k C HC) as (t0 & t0' & -> & _ & ->). reflexivity. }
  Qed.

  (** response injectivity: when [phi] is injective (the generators [gis, h] are independent, the
      commitment key [(g_bar, h_bar)] is binding as a map) the reconstructed commit message determines
      the response: the vector [sis], [t], and the response map as a function of the index *)
  Lemma vcom_rows_inj (s : vcom_stmt M) (c : K) (tis tis' : amap K) :
    (forall x y x' y' : K, x *: vc_gbar s + y *: vc_hbar s = x' *: vc_gbar s + y' *: vc_hbar s -> x = x' /\ y = y') ->
    (forall k C, aget (vc_comms s) k = Some C -> exists t t', aget tis k = Some t /\ aget tis' k = Some t') ->
    forall (sis : list K) i,
    walk (fun _ si Ci ti => si *: vc_gbar s + (ti *: vc_hbar s + c *: Ci)) (vc_comms s) tis i sis =
    walk (fun _ si Ci ti => si *: vc_gbar s + (ti *: vc_hbar s + c *: Ci)) (vc_comms s) tis' i sis ->
    forall k C, (i <= k < i + N.of_nat (len sis))%N -> aget (vc_comms s) k = Some C -> aget tis k = aget tis' k.
  Proof.
    intros Hped Hk. induction sis as [|si sis IH]; intros i E k C Hr HC; [cbn in Hr; lia|].
    cbn [walk] in E. destruct (N.eq_dec i k) as [->|Ne].
    - destruct (Hk k C HC) as (t & t' & Ht & Ht'). rewrite HC, Ht, Ht' in E. injection E as E0 _.
      rewrite Ht, Ht'. f_equal.
      assert (E1 : si *: vc_gbar s + t *: vc_hbar s = si *: vc_gbar s + t' *: vc_hbar s).
      { apply (Gadd_cancel_r (c *: C)). rewrite <- !Gadd_assoc. exact E0. }
      now destruct (Hped _ _ _ _ E1).
    - apply (IH (i + 1)%N) with (C := C); [|cbn [len] in Hr; lia|exact HC].
      destruct (aget (vc_comms s) i) as [Ci|] eqn:ECi; [|exact E].
      destruct (Hk i Ci ECi) as (t & t' & Ht & Ht'). rewrite Ht, Ht' in E. now injection E.
  Qed.

  Theorem vcom_response_injective_ : forall (s : vcom_stmt M) (c : K) sis t tis sis' t' tis' cm,
    (forall (u v : list K) (x y : K), len u = len (vc_gis s) -> len v = len (vc_gis s) ->
       msm u (vc_gis s) + x *: vc_h s = msm v (vc_gis s) + y *: vc_h s -> u = v /\ x = y) ->
    (forall x y x' y' : K, x *: vc_gbar s + y *: vc_hbar s = x' *: vc_gbar s + y' *: vc_hbar s -> x = x' /\ y = y') ->
    vcom_extract s c (sis, t, tis) = Some cm -> vcom_extract s c (sis', t', tis') = Some cm ->
    sis = sis' /\ t = t' /\ forall k, aget tis k = aget tis' k.
  Proof.
    intros s c sis t tis sis' t' tis' [a pts] Hvec Hped E E'.
    destruct (vcom_accepted _ _ _ _ _ _ _ E) as (Ea & Ep & _ & Ls & _ & Cov & Keys).
    destruct (vcom_accepted _ _ _ _ _ _ _ E') as (Ea' & Ep' & _ & Ls' & _ & Cov' & Keys').
    rewrite Ea in Ea'. unfold vcom_point in Ea'.
    assert (Ea2 : msm sis (vc_gis s) + t *: vc_h s = msm sis' (vc_gis s) + t' *: vc_h s).
    { apply (Gadd_cancel_r (c *: vc_comm s)). rewrite <- !Gadd_assoc. exact Ea'. }
    destruct (Hvec sis sis' t t' Ls Ls' Ea2) as [<- <-]. split; [reflexivity|]. split; [reflexivity|].
    intro k. destruct (aget (vc_comms s) k) as [C|] eqn:HC.
    - apply (vcom_rows_inj s c tis tis' Hped) with (sis := sis) (i := 0%N) (C := C); auto;
        [|unfold vcom_points in Ep, Ep'; congruence|destruct (Cov k C HC); lia].
      intros k0 C0 HC0. destruct (Cov k0 C0 HC0) as (_ & u & Hu). destruct (Cov' k0 C0 HC0) as (_ & u' & Hu'). eauto.
    - (* not an individual commitment: in neither response map *)
      assert (Nk : forall m : amap K, (forall k, In k (map fst m) <-> In k (map fst (vc_comms s))) -> aget m k = None).
      { intros m Hm. destruct (aget m k) as [v|] eqn:Ev; [|reflexivity]. exfalso.
        apply aget_in_keys in Ev. destruct Ev as [Ev _]. apply Hm in Ev. apply in_keys_aget in Ev. destruct Ev as [C HC']. congruence. }
      rewrite (Nk tis Keys), (Nk tis' Keys'). reflexivity.
  Qed.
End VcomSS.
