(** sigma_protocols/ps_sig_known.rs: knowledge of a Pointcheval-Sanders signature on a vector of
    messages, each of which is either committed ([EqualToCommitment]), public, or known only to the
    prover:  e(b_hat, g~) = e(a_hat, X~ + sum_i m_i*Y~_i + r'*g~)  and  C_i = m_i*g + r_i*h  for the
    committed ones.  Generalises com_eq_sig.rs.  Response style [rho - c*w]. *)
From Coq Require Import ZArith List Lia String.
From CB Require Import Crypto.Alg Crypto.AlgPairing Crypto.Transcript Crypto.SigmaGeneric Crypto.SigmaCodec.
Import ListNotations.

Inductive psmsg (MC K : Type) : Type := MEq (C : MC) | MPub (m : K) | MKnown.
Arguments MEq {MC K} _. Arguments MPub {MC K} _. Arguments MKnown {MC K}.
(** witness / commit secret / response of one message *)
Inductive psval (K : Type) : Type := VEq (a b : K) | VPub | VKnown (a : K).
Arguments VEq {K} _ _. Arguments VPub {K}. Arguments VKnown {K} _.

Record pss_stmt {K : FieldOps} (P : PairOps K) (MC : ModOps K) := mkPss {
  ps_a : PM1 P; ps_b : PM1 P; ps_msgs : list (psmsg MC K);
  ps_pkg : PM1 P; ps_gt : PM2 P; ps_ys : list (PM1 P); ps_yts : list (PM2 P); ps_xt : PM2 P;
  ps_g : MC; ps_h : MC }.
Arguments mkPss {K P MC} _ _ _ _ _ _ _ _ _ _.
Arguments ps_a {K P MC} _. Arguments ps_b {K P MC} _. Arguments ps_msgs {K P MC} _. Arguments ps_pkg {K P MC} _.
Arguments ps_gt {K P MC} _. Arguments ps_ys {K P MC} _. Arguments ps_yts {K P MC} _. Arguments ps_xt {K P MC} _.
Arguments ps_g {K P MC} _. Arguments ps_h {K P MC} _.

Section PsSigKnown.
  Context {K : FieldOps} {P : PairOps K} {MC : ModOps K}
          (Cd1 : CodecOps (PM1 P)) (Cd2 : CodecOps (PM2 P)) (CdT : CodecOps (PMT P)) (CdC : CodecOps MC).
  Local Open Scope G_scope.
  Notation len := (@List.length _).
  Notation M2 := (PM2 P).
  Definition resp1 (c w rho : K) : K := Fadd K (Fopp K (Fmul K c w)) rho.
  Definition pss_wit : Type := (K * list (psval K))%type.

  (** derived [Serial] of the enums: a tag byte, then the fields *)
  Definition ser_psmsg (m : psmsg MC K) : bytes :=
    match m with MEq C => [0%N] ++ serG CdC C | MPub v => [1%N] ++ serF CdC v | MKnown => [2%N] end.
  Definition ser_psval (v : psval K) : bytes :=
    match v with VEq a b => [0%N] ++ serF CdC a ++ serF CdC b | VPub => [1%N] | VKnown a => [2%N] ++ serF CdC a end.
  (** "PsSigKnown" label, "blinded_sig", "messages" (a Vec: u64 count), "ps_pub_key", "comm_key" *)
  Definition pss_public (k : tkind) (s : pss_stmt P MC) : bytes :=
    lbl k (str "PsSigKnown") ++
    msg k (str "blinded_sig") (serG Cd1 (ps_a s) ++ serG Cd1 (ps_b s)) ++
    msg k (str "messages") (ser_vec (map ser_psmsg (ps_msgs s))) ++
    msg k (str "ps_pub_key") (serG Cd1 (ps_pkg s) ++ serG Cd2 (ps_gt s) ++ ser_vec32 (map (serG Cd1) (ps_ys s)) ++
                              ser_vec32 (map (serG Cd2) (ps_yts s)) ++ serG Cd2 (ps_xt s)) ++
    msg k (str "comm_key") (serG CdC (ps_g s) ++ serG CdC (ps_h s)).

  (** the prover's loop: [yts] is the not yet consumed part of y_tildas ([y_tilde(i)?]); the commit
      secret has the shape of the messages by construction (shape mismatch = None) *)
  Fixpoint pss_commit_go (g h : MC) (msgs : list (psmsg MC K)) (mus : list (psval K)) (yts : list M2)
    : option (M2 * list MC) :=
    match msgs, mus with
    | [], _ => Some (G0 M2, [])
    | MEq _ :: msgs', VEq a r :: mus' =>
      match yts with
      | y :: yts' => match pss_commit_go g h msgs' mus' yts' with
                     | Some (e, cs) => Some (a *: y + e, (a *: g + r *: h) :: cs) | None => None end
      | [] => None
      end
    | MPub _ :: msgs', VPub :: mus' => pss_commit_go g h msgs' mus' (tl yts)
    | MKnown :: msgs', VKnown a :: mus' =>
      match yts with
      | y :: yts' => match pss_commit_go g h msgs' mus' yts' with
                     | Some (e, cs) => Some (a *: y + e, cs) | None => None end
      | [] => None
      end
    | _, _ => None
    end.
  Definition pss_commit (s : pss_stmt P MC) (r : pss_wit) : option (PMT P * list MC) :=
    let '(rho, mus) := r in
    if Nat.ltb (len (ps_ys s)) (len (ps_msgs s)) then None else
    match pss_commit_go (ps_g s) (ps_h s) (ps_msgs s) mus (ps_yts s) with
    | Some (e, cs) => Some (pe P (ps_a s) (rho *: ps_gt s + e), cs)
    | None => None
    end.
  (** [state.cmm_sec_msgs.iter().zip(witness.msgs.iter())]: truncating, shapes must agree *)
  Fixpoint pss_respond_go (c : K) (mus ws : list (psval K)) : option (list (psval K)) :=
    match mus, ws with
    | VEq a r :: mus', VEq m rr :: ws' =>
      match pss_respond_go c mus' ws' with Some zs => Some (VEq (resp1 c m a) (resp1 c rr r) :: zs) | None => None end
    | VPub :: mus', VPub :: ws' =>
      match pss_respond_go c mus' ws' with Some zs => Some (VPub :: zs) | None => None end
    | VKnown a :: mus', VKnown m :: ws' =>
      match pss_respond_go c mus' ws' with Some zs => Some (VKnown (resp1 c m a) :: zs) | None => None end
    | [], _ | _, [] => Some []
    | _, _ => None
    end.
  Definition pss_respond (s : pss_stmt P MC) (w r : pss_wit) (c : K) : option pss_wit :=
    match pss_respond_go c (snd r) (snd w) with
    | Some zs => Some (resp1 c (fst w) (fst r), zs)
    | None => None
    end.
  Fixpoint pss_extract_go (g h : MC) (c : K) (msgs : list (psmsg MC K)) (zs : list (psval K)) (yts : list M2)
    : option (M2 * list MC) :=
    match msgs, zs with
    | MEq C :: msgs', VEq zm zr :: zs' =>
      match yts with
      | y :: yts' => match pss_extract_go g h c msgs' zs' yts' with
                     | Some (e, cs) => Some (zm *: y + e, (c *: C + (zm *: g + zr *: h)) :: cs) | None => None end
      | [] => None
      end
    | MPub m :: msgs', VPub :: zs' =>
      match yts with
      | y :: yts' => match pss_extract_go g h c msgs' zs' yts' with
                     | Some (e, cs) => Some (Fmul K (Fopp K c) m *: y + e, cs) | None => None end
      | [] => None
      end
    | MKnown :: msgs', VKnown z :: zs' =>
      match yts with
      | y :: yts' => match pss_extract_go g h c msgs' zs' yts' with
                     | Some (e, cs) => Some (z *: y + e, cs) | None => None end
      | [] => None
      end
    | [], _ | _, [] => Some (G0 M2, [])
    | _, _ => None
    end.
  Definition pss_extract (s : pss_stmt P MC) (c : K) (z : pss_wit) : option (PMT P * list MC) :=
    let '(zr, zs) := z in
    if Nat.ltb (len (ps_ys s)) (len (ps_msgs s)) then None else
    if negb (Nat.eqb (len (ps_msgs s)) (len zs)) then None else
    match pss_extract_go (ps_g s) (ps_h s) c (ps_msgs s) zs (ps_yts s) with
    | Some (e, cs) =>
      Some (pe P (ps_b s) (c *: ps_gt s) + pe P (ps_a s) (zr *: ps_gt s + (Fopp K c *: ps_xt s + e)), cs)
    | None => None
    end.

  Definition pss_proto : proto K := {|
    p_stmt := pss_stmt P MC; p_wit := pss_wit; p_rand := pss_wit; p_cm := PMT P * list MC; p_resp := pss_wit;
    p_public := pss_public; p_commit := pss_commit; p_respond := pss_respond; p_extract := pss_extract;
    p_ser_cm := fun a => serG CdT (fst a) ++ ser_vec (map (serG CdC) (snd a));
    p_ser_resp := fun z => serF CdC (fst z) ++ ser_vec32 (map ser_psval (snd z)) |}.

  (** the signed sum  sum_i m_i*Y~_i  and the per-message relation *)
  Fixpoint pss_sum (msgs : list (psmsg MC K)) (ws : list (psval K)) (yts : list M2) : M2 :=
    match msgs, ws, yts with
    | MEq _ :: msgs', VEq m _ :: ws', y :: yts' => m *: y + pss_sum msgs' ws' yts'
    | MPub m :: msgs', VPub :: ws', y :: yts' => m *: y + pss_sum msgs' ws' yts'
    | MKnown :: msgs', VKnown m :: ws', y :: yts' => m *: y + pss_sum msgs' ws' yts'
    | _, _, _ => G0 M2
    end.
  Inductive shape_rel (g h : MC) : psmsg MC K -> psval K -> Prop :=
  | SrEq m r : shape_rel g h (MEq (m *: g + r *: h)) (VEq m r)
  | SrPub m : shape_rel g h (MPub m) VPub
  | SrKnown m : shape_rel g h MKnown (VKnown m).
  Inductive shape_ok : psmsg MC K -> psval K -> Prop :=
  | SoEq C a r : shape_ok (MEq C) (VEq a r) | SoPub m : shape_ok (MPub m) VPub | SoKnown a : shape_ok MKnown (VKnown a).
  Definition pss_rel (s : pss_stmt P MC) (w : pss_wit) : Prop :=
    (len (ps_msgs s) <= len (ps_ys s))%nat /\ (len (ps_msgs s) <= len (ps_yts s))%nat /\
    Forall2 (shape_rel (ps_g s) (ps_h s)) (ps_msgs s) (snd w) /\
    pe P (ps_b s) (ps_gt s) = pe P (ps_a s) (ps_xt s + (pss_sum (ps_msgs s) (snd w) (ps_yts s) + fst w *: ps_gt s)).
  Definition pss_rok (s : pss_stmt P MC) (r : pss_wit) : Prop := Forall2 shape_ok (ps_msgs s) (snd r).

  Context {KL : FieldLaws K} {PL : PairLaws P} {MLC : ModLaws MC}.
  Add Field Kf_pss : (@F_th K KL).

  Lemma pss_go_complete (g h : MC) c : forall msgs ws, Forall2 (shape_rel g h) msgs ws ->
    forall mus, Forall2 shape_ok msgs mus -> forall yts : list M2, (len msgs <= len yts)%nat ->
    exists e cs zs, pss_commit_go g h msgs mus yts = Some (e, cs) /\
      pss_respond_go c mus ws = Some zs /\ len zs = len msgs /\
      pss_extract_go g h c msgs zs yts = Some (e + Fopp K c *: pss_sum msgs ws yts, cs).
  Proof.
    intros msgs ws R. induction R as [|m w msgs ws Hr R IH]; intros mus O yts L; inversion O as [|? mu ? mus' Ho O']; subst.
    - exists (G0 M2), [], []. cbn. repeat split; auto. f_equal. f_equal. mod_norm.
    - destruct yts as [|y yts]; [cbn in L; lia|].
      destruct (IH mus' O' yts) as (e & cs & zs & C1 & R1 & L1 & X1); [cbn in L; lia|].
      destruct Hr; inversion Ho; subst; eexists _, _, _;
        (split; [cbn [pss_commit_go tl]; rewrite C1; reflexivity|]);
        (split; [cbn [pss_respond_go]; rewrite R1; reflexivity|]);
        (split; [cbn [len]; congruence|]); cbn [pss_extract_go pss_sum]; rewrite X1; f_equal.
      + f_equal; [unfold resp1; mod_norm|]. f_equal. unfold resp1. mod_norm.
      + f_equal. mod_norm.
      + f_equal. unfold resp1. mod_norm.
  Qed.

  Theorem pss_complete_ : complete pss_proto pss_rel pss_rok.
  Proof.
    intros [a b msgs pg gt ys yts xt g h] [r' ws] [rho mus] (Ly & Lyt & R & Hp) O. unfold pss_rok in O.
    cbn [ps_a ps_b ps_msgs ps_pkg ps_gt ps_ys ps_yts ps_xt ps_g ps_h fst snd] in *.
    assert (B : Nat.ltb (len ys) (len msgs) = false) by (apply Nat.ltb_ge; lia).
    destruct (pss_go_complete g h (F0 K) msgs ws R mus O yts Lyt) as (e & cs & _ & C1 & _).
    eexists. split.
    { cbn [p_commit pss_proto pss_commit ps_a ps_b ps_msgs ps_pkg ps_gt ps_ys ps_yts ps_xt ps_g ps_h]. rewrite B, C1. reflexivity. }
    intro c. destruct (pss_go_complete g h c msgs ws R mus O yts Lyt) as (e' & cs' & zs & C1' & R1 & L1 & X1).
    rewrite C1 in C1'. injection C1' as <- <-.
    exists (resp1 c r' rho, zs). cbn [p_respond p_extract pss_proto pss_respond pss_extract fst snd
      ps_a ps_b ps_msgs ps_pkg ps_gt ps_ys ps_yts ps_xt ps_g ps_h].
    unfold pss_respond. cbn [fst snd]. rewrite R1, B, L1, Nat.eqb_refl, X1. cbn [negb]. split; [reflexivity|]. f_equal. f_equal.
    autorewrite with pe_lin. rewrite Hp.
    autorewrite with pe_lin. unfold resp1. mod_norm.
  Qed.

  (** a response with the wrong number of message responses is rejected *)
  Theorem pss_extract_length_ : forall s c zr zs a, pss_extract s c (zr, zs) = Some a -> len zs = len (ps_msgs s).
  Proof.
    intros s c zr zs a. unfold pss_extract. destruct (Nat.ltb (len (ps_ys s)) (len (ps_msgs s))); [discriminate|].
    destruct (Nat.eqb (len (ps_msgs s)) (len zs)) eqn:E; [|discriminate]. intros _. apply Nat.eqb_eq in E. auto.
  Qed.
End PsSigKnown.
