(** sigma_protocols/com_eq_different_groups.rs: the same value [x] is committed in two groups of the
    same prime order: [C1 = x*g1 + r1*h1] in [M1], [C2 = x*g2 + r2*h2] in [M2].  Response style
    [rho - c*w].  Two modules over one scalar field, two codecs. *)
From Coq Require Import List String.
From CB Require Import Crypto.Alg Crypto.Transcript Crypto.TranscriptProofs Crypto.SigmaGeneric Crypto.SigmaCodec.
Import ListNotations.

Record ced_stmt {K : FieldOps} (M1 M2 : ModOps K) := mkCed {
  cd_c1 : M1; cd_c2 : M2; cd_g1 : M1; cd_h1 : M1; cd_g2 : M2; cd_h2 : M2 }.
Arguments mkCed {K M1 M2} _ _ _ _ _ _. Arguments cd_c1 {K M1 M2} _. Arguments cd_c2 {K M1 M2} _.
Arguments cd_g1 {K M1 M2} _. Arguments cd_h1 {K M1 M2} _. Arguments cd_g2 {K M1 M2} _. Arguments cd_h2 {K M1 M2} _.

Section ComEqDiff.
  Context {K : FieldOps} {M1 M2 : ModOps K} (Cd1 : CodecOps M1) (Cd2 : CodecOps M2).
  Local Open Scope G_scope.
  Definition K3 : Type := (K * K * K)%type.

  Definition ced_public (k : tkind) (s : ced_stmt M1 M2) : bytes :=
    msg k (str "commitment_1") (serG Cd1 (cd_c1 s)) ++ msg k (str "commitment_2") (serG Cd2 (cd_c2 s)) ++
    msg k (str "cmm_key_1") (serG Cd1 (cd_g1 s) ++ serG Cd1 (cd_h1 s)) ++
    msg k (str "cmm_key_2") (serG Cd2 (cd_g2 s) ++ serG Cd2 (cd_h2 s)).
  (** randomness (alpha_1, alpha_2, R) *)
  Definition ced_commit (s : ced_stmt M1 M2) (r : K3) : option (M1 * M2) :=
    let '(a1, a2, R) := r in Some (a1 *: cd_g1 s + a2 *: cd_h1 s, a1 *: cd_g2 s + R *: cd_h2 s).
  (** secret (value, rand_cmm_1, rand_cmm_2) *)
  Definition ced_respond (s : ced_stmt M1 M2) (w r : K3) (c : K) : option K3 :=
    let '(x, r1, r2) := w in let '(a1, a2, R) := r in
    Some (Fadd K (Fopp K (Fmul K c x)) a1, Fadd K (Fopp K (Fmul K c r1)) a2, Fadd K (Fopp K (Fmul K c r2)) R).
  Definition ced_extract (s : ced_stmt M1 M2) (c : K) (z : K3) : option (M1 * M2) :=
    let '(s1, s2, t) := z in
    Some (c *: cd_c1 s + (s1 *: cd_g1 s + s2 *: cd_h1 s), c *: cd_c2 s + (s1 *: cd_g2 s + t *: cd_h2 s)).
  Definition ced_proto : proto K := {|
    p_stmt := ced_stmt M1 M2; p_wit := K3; p_rand := K3; p_cm := M1 * M2; p_resp := K3;
    p_public := ced_public; p_commit := ced_commit; p_respond := ced_respond; p_extract := ced_extract;
    p_ser_cm := fun a => serG Cd1 (fst a) ++ serG Cd2 (snd a);
    p_ser_resp := fun z => let '(s1, s2, t) := z in serF Cd1 s1 ++ serF Cd1 s2 ++ serF Cd2 t |}.
  Definition ced_rel (s : ced_stmt M1 M2) (w : K3) : Prop :=
    let '(x, r1, r2) := w in
    cd_c1 s = x *: cd_g1 s + r1 *: cd_h1 s /\ cd_c2 s = x *: cd_g2 s + r2 *: cd_h2 s.
  Definition ced_recover (s : ced_stmt M1 M2) (w : K3) (c : K) (z : K3) : K3 :=
    let '(x, r1, r2) := w in let '(s1, s2, t) := z in
    (Fadd K s1 (Fmul K c x), Fadd K s2 (Fmul K c r1), Fadd K t (Fmul K c r2)).

  Context {KL : FieldLaws K} {ML1 : ModLaws M1} {ML2 : ModLaws M2}.
  Add Field Kf_ced : (@F_th K KL).

  Theorem ced_complete_ : complete ced_proto ced_rel (fun _ _ => True).
  Proof.
    intros [c1 c2 g1 h1 g2 h2] [[x r1] r2] [[a1 a2] R] [H1 H2] _. cbn in H1, H2. subst c1 c2.
    eexists. split; [reflexivity|]. intro c. eexists. split; [reflexivity|]. cbn. list_split; mod_norm.
  Qed.

  Definition ced_extractor (s : ced_stmt M1 M2) (c c' : K) (z z' : K3) : K3 :=
    let '(s1, s2, t) := z in let '(s1', s2', t') := z' in
    let d := Finv K (Fsub K c' c) in (Fmul K d (Fsub K s1 s1'), Fmul K d (Fsub K s2 s2'), Fmul K d (Fsub K t t')).
  Theorem ced_special_sound_ : special_sound ced_proto ced_rel ced_extractor.
  Proof.
    intros [c1 c2 g1 h1 g2 h2] a c c' [[s1 s2] t] [[s1' s2'] t'] Hc E E'. cbn in E, E'.
    rewrite <- E' in E. injection E as E1 E2. cbn.
    apply (ss_row_l c c' c1 _ _ Hc) in E1. apply (ss_row_l c c' c2 _ _ Hc) in E2. split.
    - rewrite E1 at 1. mod_norm.
    - rewrite E2 at 1. mod_norm.
  Qed.

  Context {CL1 : CodecLaws Cd1} {CL2 : CodecLaws Cd2}.
  Theorem ced_public_prefix_free_ : forall k, public_prefix_free ced_proto k (fun _ => True).
  Proof.
    intro k. pose proof (pf_serG Cd1) as G1. pose proof (pf_serG Cd2) as G2.
    apply (pf_iso (fun s => (cd_c1 s, (cd_c2 s, ((cd_g1 s, cd_h1 s), (cd_g2 s, cd_h2 s)))))
             (pf_app (pf_msg G1) (pf_app (pf_msg G2) (pf_app (pf_msg (pf_app G1 G1)) (pf_msg (pf_app G2 G2)))))).
    - intros [] [] [= -> -> -> -> -> ->]. reflexivity.
    - repeat split.
  Qed.
End ComEqDiff.
