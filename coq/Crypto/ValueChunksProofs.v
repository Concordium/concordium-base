(** C12 - proofs about [value_to_chunks] / [chunks_to_value] (multi-limb scalars). *)
From Coq Require Import NArith PeanoNat List Lia.
From CB Require Import Crypto.Chunks Crypto.ChunksProofs Crypto.ValueChunks.
Import ListNotations.
Local Open Scope N_scope.

Lemma chunk_sum_app s a : forall b f,
  chunk_sum s f (a ++ b) = chunk_sum s f a + chunk_sum s (f + N.of_nat (length a) * s) b.
Proof.
  induction a as [|x a IH]; intros b f; cbn [app chunk_sum length].
  - replace (f + N.of_nat 0 * s) with f by lia. lia.
  - rewrite IH. replace (f + s + N.of_nat (length a) * s) with (f + N.of_nat (S (length a)) * s) by lia. lia.
Qed.

Lemma Forall_firstn_ {A} (P : A -> Prop) k : forall l, Forall P l -> Forall P (firstn k l).
Proof. induction k; intros [|x l] Hl; cbn; try constructor; inversion Hl; subst; auto. Qed.
Lemma Forall_skipn_ {A} (P : A -> Prop) k : forall l, Forall P l -> Forall P (skipn k l).
Proof. induction k; intros [|x l] Hl; cbn; auto. inversion Hl; subst; auto. Qed.

Lemma map_mod_id m xs : Forall (fun c => c < m) xs -> map (fun c => c mod m) xs = xs.
Proof.
  induction xs as [|x xs IH]; intros Hb; cbn [map]; [reflexivity|].
  inversion Hb; subst. rewrite N.mod_small by assumption. now rewrite IH.
Qed.

Lemma Forall_lt_weaken (a b : N) xs : a <= b -> Forall (fun c => c < a) xs -> Forall (fun c => c < b) xs.
Proof. intros Hab. apply Forall_impl. intros c Hc. lia. Qed.

Lemma pow2_le_W64 s : s <= 64 -> 2 ^ s <= W64.
Proof. intros Hs. unfold W64. apply N.pow_le_mono_r; lia. Qed.

(** one section: the checked / wrapping reassembly is the mathematical sum when every chunk is
    below 2^size and the section has at most 64/size chunks *)
Lemma section_checked s sec :
  0 < s -> s <= 64 -> Forall (fun c => c < 2 ^ s) sec -> N.of_nat (length sec) * s <= 64 ->
  chunks_to_u64_checked s (map (fun c => c mod W64) sec) = Some (chunk_sum s 0 sec).
Proof.
  intros Hs Hs64 Hb Hl.
  rewrite map_mod_id by (eapply Forall_lt_weaken; [apply pow2_le_W64; exact Hs64|exact Hb]).
  unfold chunks_to_u64_checked. rewrite from_checked_sum; [f_equal; lia|assumption|assumption|lia|cbn; lia].
Qed.
Lemma section_wrapping s sec :
  0 < s -> s <= 64 -> Forall (fun c => c < 2 ^ s) sec -> N.of_nat (length sec) * s <= 64 ->
  chunks_to_u64_wrapping s (map (fun c => c mod W64) sec) = chunk_sum s 0 sec.
Proof. intros Hs Hs64 Hb Hl. apply from_checked_wrapping, section_checked; assumption. Qed.

(** the Horner loop over the sections computes [sum_i chunk_i * 2^(size*i)] in Z/r *)
Lemma ctv_loop_sum fromf r s k :
  r <> 0 -> (0 < k)%nat -> N.of_nat k * s = 64 ->
  (forall sec, Forall (fun c => c < 2 ^ s) sec -> (length sec <= k)%nat ->
     fromf (map (fun c => c mod W64) sec) = Some (chunk_sum s 0 sec)) ->
  forall fuel xs Fc ret, (length xs <= fuel)%nat -> Forall (fun c => c < 2 ^ s) xs ->
  ctv_loop fromf r (Fc mod r) (ret mod r) (sections_fuel fuel k xs) = Some ((ret + Fc * chunk_sum s 0 xs) mod r).
Proof.
  intros Hr Hk Hks Hfrom. induction fuel as [|fuel IH]; intros xs Fc ret Hl Hb.
  - destruct xs; [|cbn in Hl; lia]. cbn [sections_fuel ctv_loop chunk_sum]. f_equal. f_equal. lia.
  - destruct xs as [|x xs']; [cbn [sections_fuel ctv_loop chunk_sum]; f_equal; f_equal; lia|].
    cbn [sections_fuel]. set (xs := x :: xs') in *. cbn [ctv_loop].
    rewrite Hfrom; [|apply Forall_firstn_; exact Hb|rewrite firstn_length; lia].
    set (v := chunk_sum s 0 (firstn k xs)).
    rewrite <- (N.mul_mod Fc W64 r Hr).
    rewrite <- (N.mul_mod v Fc r Hr), <- (N.add_mod ret (v * Fc) r Hr).
    rewrite IH; [|rewrite skipn_length; lia|apply Forall_skipn_; exact Hb].
    f_equal. f_equal.
    assert (Hsum : chunk_sum s 0 xs = v + W64 * chunk_sum s 0 (skipn k xs)).
    { rewrite <- (firstn_skipn k xs) at 1. rewrite chunk_sum_app. fold v. f_equal.
      destruct (Nat.le_gt_cases (length xs) k) as [Hle|Hgt].
      - rewrite skipn_all2 by exact Hle. cbn [chunk_sum]. lia.
      - rewrite firstn_length, Nat.min_l by lia. rewrite chunk_sum_shift, N.add_0_l, Hks. reflexivity. }
    rewrite Hsum. lia.
Qed.

Lemma num_chunks_pos s : In s chunk_sizes -> (0 < num_chunks s)%nat.
Proof. intros H. destruct (in_chunk_sizes s H) as [Hs Hn]. destruct (num_chunks s); lia. Qed.

(** ** "does not ensure there is no overflow", made explicit: when every chunk is below 2^size,
    [chunks_to_value] of ANY number of chunks is the little-endian base-2^size sum, reduced mod r;
    in either build, since each reassembles a section of such chunks exactly *)
Lemma chunks_to_value_gen_sum fromf r s cs :
  r <> 0 -> In s chunk_sizes -> Forall (fun c => c < 2 ^ s) cs ->
  (forall sec, Forall (fun c => c < 2 ^ s) sec -> N.of_nat (length sec) * s <= 64 ->
     fromf (map (fun c => c mod W64) sec) = Some (chunk_sum s 0 sec)) ->
  chunks_to_value_gen fromf r s cs = Some (chunk_sum s 0 cs mod r).
Proof.
  intros Hr Hin Hb Hfrom. destruct (in_chunk_sizes s Hin) as [Hs Hn]. unfold chunks_to_value_gen, sections.
  rewrite (ctv_loop_sum _ r s (num_chunks s) Hr (num_chunks_pos s Hin) Hn); [f_equal; f_equal; lia| |lia|exact Hb].
  intros sec Hsb Hlen. apply Hfrom; [exact Hsb|]. rewrite <- Hn. apply N.mul_le_mono_r. lia.
Qed.
Theorem chunks_to_value_checked_sum r s cs :
  r <> 0 -> In s chunk_sizes -> Forall (fun c => c < 2 ^ s) cs ->
  chunks_to_value_checked r s cs = Some (chunk_sum s 0 cs mod r).
Proof.
  intros Hr Hin Hb. destruct (in_chunk_sizes s Hin) as [[Hs Hle] _].
  apply chunks_to_value_gen_sum; try assumption. intros sec Hsb Hl. apply section_checked; assumption.
Qed.
Theorem chunks_to_value_wrapping_sum r s cs :
  r <> 0 -> In s chunk_sizes -> Forall (fun c => c < 2 ^ s) cs ->
  chunks_to_value_wrapping r s cs = Some (chunk_sum s 0 cs mod r).
Proof.
  intros Hr Hin Hb. destruct (in_chunk_sizes s Hin) as [[Hs Hle] _].
  apply chunks_to_value_gen_sum; try assumption. intros sec Hsb Hl. f_equal. apply section_wrapping; assumption.
Qed.

(** without the side condition the result is NOT the sum: a chunk of 2^32 (what aggregation of two
    full low chunks can produce) panics in the checked build and is wrong in the wrapping build;
    a chunk above 64 bits is silently truncated to its low limb *)
Example chunks_to_value_overflow_examples :
  chunks_to_value_checked r_bls_N 32 [2 ^ 32; 2 ^ 32 - 1] = None
  /\ chunks_to_value_wrapping r_bls_N 32 [2 ^ 32; 2 ^ 32] = Some (2 ^ 32)
  /\ chunk_sum 32 0 [2 ^ 32; 2 ^ 32] mod r_bls_N = 2 ^ 32 + 2 ^ 64
  /\ chunks_to_value_checked r_bls_N 32 [2 ^ 64 + 5; 0] = Some 5.
Proof. repeat split; vm_compute; reflexivity. Qed.

Lemma concat_opt_checked s limbs : s < 64 ->
  concat_opt (map (u64_to_chunks_checked s) limbs) = Some (concat (map (to_chunks (num_chunks s) s) limbs)).
Proof.
  intros Hs. induction limbs as [|l ls IH]; cbn [map concat_opt concat]; [reflexivity|].
  unfold u64_to_chunks_checked at 1. destruct (N.ltb_spec s 64); [|lia]. now rewrite IH.
Qed.

Lemma u64_to_chunks_wrapping_eq s x : In s chunk_sizes -> u64_to_chunks_wrapping s x = to_chunks (num_chunks s) s x.
Proof.
  intros Hin. destruct (in_chunk_sizes s Hin) as [[_ Hle] _].
  unfold u64_to_chunks_wrapping, to_chunks. destruct (N.eq_dec s 64) as [->|Hne]; [reflexivity|].
  now rewrite (N.mod_small s 64) by lia.
Qed.
Lemma concat_opt_wrapping s limbs : In s chunk_sizes ->
  concat_opt (map (fun l => Some (u64_to_chunks_wrapping s l)) limbs) = Some (concat (map (to_chunks (num_chunks s) s) limbs)).
Proof.
  intros Hs. induction limbs as [|l ls IH]; cbn [map concat_opt concat]; [reflexivity|].
  now rewrite IH, u64_to_chunks_wrapping_eq.
Qed.

Lemma concat_chunks_bound s k limbs : Forall (fun c => c < 2 ^ s) (concat (map (to_chunks k s) limbs)).
Proof.
  induction limbs as [|l ls IH]; cbn [map concat]; [constructor|].
  apply Forall_app. split; [apply to_chunks_bound|exact IH].
Qed.
Lemma concat_chunks_length s k limbs : length (concat (map (to_chunks k s) limbs)) = (length limbs * k)%nat.
Proof.
  induction limbs as [|l ls IH]; cbn [map concat length]; [reflexivity|].
  rewrite app_length, to_chunks_length, IH. lia.
Qed.
(** chunking every limb and concatenating denotes the same number as the limbs *)
Lemma concat_chunks_sum s k limbs : N.of_nat k * s = 64 -> Forall (fun l => l < W64) limbs ->
  chunk_sum s 0 (concat (map (to_chunks k s) limbs)) = chunk_sum 64 0 limbs.
Proof.
  intros Hk. induction limbs as [|l ls IH]; intros Hb; cbn [map concat]; [reflexivity|].
  inversion Hb as [|? ? Hl Hb']; subst.
  rewrite chunk_sum_app, to_chunks_sum, to_chunks_length, Hk, N.add_0_l.
  rewrite (chunk_sum_shift s 64), (IH Hb'). cbn [chunk_sum].
  rewrite (chunk_sum_shift 64 (0 + 64)), N.add_0_l, N.pow_0_r, N.mul_1_r.
  change (2 ^ 64) with W64. rewrite N.mod_small by exact Hl. reflexivity.
Qed.

Lemma into_repr_bound nl x : Forall (fun l => l < W64) (into_repr nl x).
Proof. unfold into_repr. apply to_chunks_bound. Qed.
Lemma into_repr_sum nl x : x < 2 ^ (N.of_nat nl * 64) -> chunk_sum 64 0 (into_repr nl x) = x.
Proof. intros Hx. unfold into_repr. rewrite to_chunks_sum. apply N.mod_small. exact Hx. Qed.

(** ** round trip: every scalar below the field order, for any per-limb encoder that yields the chunks of the
    limb and any decoder that sums chunks below 2^size *)
Lemma value_chunks_roundtrip_gen tof fromf r nl s x :
  In s chunk_sizes -> W64 <= r -> r <= 2 ^ (N.of_nat nl * 64) -> x < r ->
  concat_opt (map tof (into_repr nl x)) = Some (concat (map (to_chunks (num_chunks s) s) (into_repr nl x))) ->
  (forall cs, Forall (fun c => c < 2 ^ s) cs -> chunks_to_value_gen fromf r s cs = Some (chunk_sum s 0 cs mod r)) ->
  exists cs, value_to_chunks_gen tof r nl x = Some cs
    /\ length cs = (nl * num_chunks s)%nat
    /\ Forall (fun c => c < 2 ^ s) cs
    /\ chunks_to_value_gen fromf r s cs = Some x.
Proof.
  intros Hin Hr Hr2 Hx Hto Hfrom. destruct (in_chunk_sizes s Hin) as [[Hpos Hle] Hn].
  set (cs := concat (map (to_chunks (num_chunks s) s) (into_repr nl x))) in *.
  assert (Hb : Forall (fun c => c < 2 ^ s) cs) by apply concat_chunks_bound.
  exists cs. unfold value_to_chunks_gen. rewrite Hto.
  rewrite map_mod_id by (eapply Forall_lt_weaken; [|exact Hb]; pose proof (pow2_le_W64 s); lia).
  split; [reflexivity|]. split.
  { unfold cs. rewrite concat_chunks_length. unfold into_repr. now rewrite to_chunks_length. }
  split; [exact Hb|].
  rewrite (Hfrom cs Hb). unfold cs. rewrite concat_chunks_sum by (exact Hn || apply into_repr_bound).
  rewrite into_repr_sum by lia. f_equal. apply N.mod_small. exact Hx.
Qed.

(** checked build: sizes below 64 (the encoder itself overflows its shift at size 64, see
    [u64_to_chunks_checked_64]) *)
Theorem value_chunks_roundtrip_checked r nl s x :
  In s chunk_sizes -> s < 64 -> W64 <= r -> r <= 2 ^ (N.of_nat nl * 64) -> x < r ->
  exists cs, value_to_chunks_checked r nl s x = Some cs
    /\ length cs = (nl * num_chunks s)%nat
    /\ Forall (fun c => c < 2 ^ s) cs
    /\ chunks_to_value_checked r s cs = Some x.
Proof.
  intros Hin Hs Hr Hr2 Hx. apply value_chunks_roundtrip_gen; try assumption.
  - apply concat_opt_checked. exact Hs.
  - intros cs. apply chunks_to_value_checked_sum; [lia|exact Hin].
Qed.

(** wrapping (release) build: all seven sizes *)
Theorem value_chunks_roundtrip_wrapping r nl s x :
  In s chunk_sizes -> W64 <= r -> r <= 2 ^ (N.of_nat nl * 64) -> x < r ->
  exists cs, value_to_chunks_wrapping r nl s x = Some cs
    /\ length cs = (nl * num_chunks s)%nat
    /\ Forall (fun c => c < 2 ^ s) cs
    /\ chunks_to_value_wrapping r s cs = Some x.
Proof.
  intros Hin Hr Hr2 Hx. apply value_chunks_roundtrip_gen; try assumption.
  - apply concat_opt_wrapping. exact Hin.
  - intros cs. apply chunks_to_value_wrapping_sum; [lia|exact Hin].
Qed.

(** the BLS12-381 scalar field satisfies the two size hypotheses with four limbs *)
Lemma r_bls_limbs : W64 <= r_bls_N /\ r_bls_N <= 2 ^ (N.of_nat 4 * 64).
Proof. split; vm_compute; discriminate. Qed.
