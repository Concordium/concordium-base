(** The smallest lawful instance of [Alg.v]: the field F2 = bool and F2 as a module over itself.
    Used only for non-vacuity: the hypotheses of [transfer_complete] / [sec_to_pub_complete] (C12)
    and, through SigmaNonvac.v, of the C07 injectivity theorems are satisfiable; the executable runs
    use Z mod r. *)
From CB Require Import Crypto.Alg.

Definition F2 : FieldOps := mkFieldOps bool false true xorb andb xorb (fun b => b) andb (fun b => b) Bool.eqb.
Definition F2M : ModOps F2 := mkModOps F2 bool false xorb (fun b => b) andb Bool.eqb.

Lemma F2_laws : FieldLaws F2.
Proof.
  constructor.
  - constructor; cbn.
    + constructor; cbn; intros; repeat match goal with b : bool |- _ => destruct b end; reflexivity.
    + discriminate.
    + reflexivity.
    + intros [|] Hp; [reflexivity|contradiction Hp; reflexivity].
  - intros a b. cbn. apply Bool.eqb_true_iff.
Qed.
Lemma F2M_laws : ModLaws F2M.
Proof.
  constructor; cbn; intros; try (repeat match goal with b : bool |- _ => destruct b end; reflexivity).
  apply Bool.eqb_true_iff.
Qed.
