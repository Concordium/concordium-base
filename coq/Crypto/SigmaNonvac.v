(** C07: a lawful instance with two INDEPENDENT generators, to show that the injectivity
    hypotheses of [ces_response_injective_] / [vcom_response_injective_] are satisfiable: the module
    F2 x F2 over F2 (AlgF2.v) with g = (1,0), h = (0,1), and the pairing e(a,b) = a*b on F2.
    Also the certified square-and-multiply checker [zpow_check] and the modular inverses
    [zr_inv_5] / [zr_inv_2_7] used by the examples over Z mod r. *)
From Coq Require Import Bool List ZArith Lia Zpow_facts.
From CB Require Import Crypto.Alg Crypto.AlgF2 Crypto.AlgPairing.
Import ListNotations.

Definition F2M2 : ModOps F2 :=
  mkModOps F2 (bool * bool)%type (false, false) (fun a b => (xorb (fst a) (fst b), xorb (snd a) (snd b))) (fun a => a)
    (fun x a => (andb x (fst a), andb x (snd a))) (fun a b => Bool.eqb (fst a) (fst b) && Bool.eqb (snd a) (snd b)).
Lemma F2M2_laws : ModLaws F2M2.
Proof.
  constructor; cbn; intros;
    try (repeat match goal with b : bool |- _ => destruct b | p : (bool * bool)%type |- _ => destruct p end; reflexivity).
  destruct a as [[|] [|]], b as [[|] [|]]; cbn; split; intro E; try reflexivity; try discriminate.
Qed.
Definition F2Pair : PairOps F2 := mkPairOps F2 F2M F2M F2M andb.
Lemma F2Pair_laws : PairLaws F2Pair.
Proof.
  constructor; try exact F2M_laws; cbn; intros;
    repeat match goal with b : bool |- _ => destruct b end; reflexivity.
Qed.
(** g = (1,0) and h = (0,1) are independent *)
Lemma F2M2_independent : forall x y x' y' : F2,
  Gadd F2M2 (smul F2M2 x (true, false)) (smul F2M2 y (false, true)) =
  Gadd F2M2 (smul F2M2 x' (true, false)) (smul F2M2 y' (false, true)) -> x = x' /\ y = y'.
Proof. intros [|] [|] [|] [|]; cbn; intro E; split; try reflexivity; discriminate. Qed.
Lemma F2_unit_faithful : forall x x' : F2, smul F2M x (pe F2Pair true true) = smul F2M x' (pe F2Pair true true) -> x = x'.
Proof. intros [|] [|]; cbn; intro E; try reflexivity; discriminate. Qed.

(** [zpow_pos] is modular exponentiation, so inversion by Fermat commutes with negation. *)
Lemma zpow_pos_spec r b e : (0 < r)%Z -> zpow_pos r b e = ((b ^ Zpos e) mod r)%Z.
Proof.
  intro Hr. induction e as [e IH|e IH|]; cbn [zpow_pos].
  - rewrite IH, <- Z.mul_mod, Z.mul_mod_idemp_l by lia.
    rewrite Pos2Z.inj_xI, Z.pow_add_r, Z.pow_1_r, Z.pow_twice_r by lia. reflexivity.
  - rewrite IH, Pos2Z.inj_xO, Z.pow_twice_r. rewrite <- Z.mul_mod by lia. reflexivity.
  - rewrite Z.pow_1_r. reflexivity.
Qed.
Lemma zinv_opp r b : (2 < r)%Z -> Z.odd r = true -> zinv r ((- b) mod r)%Z = ((- zinv r b) mod r)%Z.
Proof.
  intros Hr Hodd. unfold zinv, zpow. destruct (r - 2)%Z as [|p|p] eqn:E; try lia.
  rewrite !zpow_pos_spec by lia. rewrite <- Zpower_mod by lia.
  rewrite Z.pow_opp_odd by (apply Z.odd_spec; rewrite <- E, Z.odd_sub, Hodd; reflexivity).
  rewrite <- (Z.sub_0_l (b ^ _)), <- (Z.sub_0_l (_ mod r)), Zminus_mod_idemp_r. reflexivity.
Qed.

Local Open Scope Z_scope.
(** Square-and-multiply with every reduction certified by its quotient: checking
    [x = q * r + v] costs two multiplications, computing [x mod r] a long division. *)
Definition red_ok (r x : Z) (qv : Z * Z) : bool :=
  (x =? fst qv * r + snd qv) && (0 <=? snd qv) && (snd qv <? r).
Fixpoint zpow_check (r b : Z) (e : positive) (c : list (Z * Z)) : option (Z * list (Z * Z)) :=
  match e with
  | xH => match c with
          | qv :: c' => if red_ok r b qv then Some (snd qv, c') else None
          | _ => None
          end
  | xO e' => match zpow_check r b e' c with
             | Some (h, qv :: c') => if red_ok r (h * h) qv then Some (snd qv, c') else None
             | _ => None
             end
  | xI e' => match zpow_check r b e' c with
             | Some (h, qv :: qv' :: c') =>
               if red_ok r (h * h) qv && red_ok r (snd qv * b) qv' then Some (snd qv', c') else None
             | _ => None
             end
  end.
(** the value of [zpow_pos] with the certificate [zpow_check] accepts, in the order it reads it *)
Fixpoint zpow_cert (r b : Z) (e : positive) : Z * list (Z * Z) :=
  let red x := (x / r, x mod r) in
  match e with
  | xH => (b mod r, [red b])
  | xO e' => let (h, c) := zpow_cert r b e' in ((h * h) mod r, c ++ [red (h * h)])
  | xI e' => let (h, c) := zpow_cert r b e' in
             let h2 := (h * h) mod r in ((h2 * b) mod r, c ++ [red (h * h); red (h2 * b)])
  end.

Lemma red_ok_spec r x qv : red_ok r x qv = true -> x mod r = snd qv.
Proof.
  unfold red_ok. rewrite !andb_true_iff, Z.eqb_eq, Z.leb_le, Z.ltb_lt. intros [[-> H0] H1].
  symmetry. apply (Z.mod_unique_pos _ _ (fst qv)); lia.
Qed.
Lemma zpow_check_sound r b e : forall c v c', zpow_check r b e c = Some (v, c') -> zpow_pos r b e = v.
Proof.
  induction e as [e IH|e IH|]; intros c v c'; cbn [zpow_check zpow_pos].
  - destruct (zpow_check r b e c) as [[h [|qv [|qv' c1]]]|] eqn:E; try discriminate.
    destruct (red_ok r (h * h) qv) eqn:R1; [|discriminate]. destruct (red_ok r (snd qv * b) qv') eqn:R2; [|discriminate].
    intros [= <- _]. rewrite (IH _ _ _ E), (red_ok_spec _ _ _ R1). exact (red_ok_spec _ _ _ R2).
  - destruct (zpow_check r b e c) as [[h [|qv c1]]|] eqn:E; try discriminate.
    destruct (red_ok r (h * h) qv) eqn:R1; [|discriminate].
    intros [= <- _]. rewrite (IH _ _ _ E). exact (red_ok_spec _ _ _ R1).
  - destruct c as [|qv c1]; [discriminate|]. destruct (red_ok r b qv) eqn:R1; [|discriminate].
    intros [= <- _]. exact (red_ok_spec _ _ _ R1).
Qed.

Local Close Scope Z_scope.

(** The one modular inverse the special-soundness examples over [Z mod r] need (challenges 7 and 2,
    so 1/(2-7)).  It is a 255-bit Fermat exponentiation, dear for a checker without a virtual
    machine: it is evaluated once, here, through [zpow_check], and for the base 5 and not r-5, which
    makes the multiplications by the base cheap; the examples rewrite with [zr_inv_2_7]. *)
Lemma zr_inv_5 :
  zinv bls_r 5 = 31461525105075714287668644304911579502614331500316582693562195219963148710708%Z.
Proof.
  unfold zinv, zpow. let e := eval vm_compute in (bls_r - 2)%Z in change (bls_r - 2)%Z with e. cbv iota.
  lazymatch goal with |- zpow_pos ?r ?b ?p = ?v =>
    let c := eval vm_compute in (snd (zpow_cert r b p)) in
    apply (zpow_check_sound r b p c v []); vm_compute; reflexivity end.
Qed.
Lemma zr_inv_2_7 :
  Finv ZrF (Fsub ZrF 2%Z 7%Z) = 20974350070050476191779096203274386335076221000211055129041463479975432473805%Z.
Proof.
  change (Finv ZrF (Fsub ZrF 2%Z 7%Z)) with (zinv bls_r (Z.opp 5 mod bls_r)).
  rewrite zinv_opp, zr_inv_5 by reflexivity. reflexivity.
Qed.
