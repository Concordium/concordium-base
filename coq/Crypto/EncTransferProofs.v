(** C12 - completeness of encrypted transfers and secret-to-public transfers, by composition of
    C07 ([enc_trans_complete_], [prove_verify_complete_]) and C11 ([range_complete_in_range_p]),
    and the exact relation asserted by the [EncTrans] statement that [gen_enc_trans_proof_info] builds. *)
From Coq Require Import ZArith List Lia Field.
From CB Require Import Crypto.Alg Crypto.Transcript Crypto.SigmaGeneric Crypto.SigmaCodec Crypto.Sigma_dlog
  Crypto.Sigma_com_eq Crypto.Sigma_enc_trans Crypto.Chunks Crypto.ElGamalBsgs Crypto.BpAlg Crypto.RangeProof
  Crypto.BpTheorems Crypto.EncTransfer.
Import ListNotations.

Lemma chunks32_sum x : (x < W64)%N ->
  exists c0 c1, u64_to_chunks_checked 32 x = Some [c0; c1]
    /\ (c0 < 2 ^ 32)%N /\ (c1 < 2 ^ 32)%N /\ (c0 + 2 ^ 32 * c1 = x)%N.
Proof.
  intros Hx. exists (x mod 2 ^ 32)%N, (x / 2 ^ 32)%N. split; [apply u64_to_chunks_32; exact Hx|].
  assert (P : (2 ^ 32 <> 0)%N) by (apply N.pow_nonzero; lia).
  split; [apply N.mod_lt; exact P|]. split.
  - apply N.div_lt_upper_bound; [exact P|]. rewrite <- N.pow_add_r. exact Hx.
  - pose proof (N.div_mod x (2 ^ 32)%N P). lia.
Qed.

Section Proofs.
  Context {K : FieldOps} {KL : FieldLaws K} {M : ModOps K} {ML : ModLaws M} (Cd : CodecOps M).
  Variable H : bytes -> bytes.
  Variable sfb : bytes -> K.
  Variables (g h : M) (Gs Hs : list M).
  Add Field Kf_tr : (@F_th K KL).
  Local Open Scope G_scope.

  Lemma K_ring : ring_theory (F0 K) (F1 K) (Fadd K) (Fmul K) (Fsub K) (Fopp K) eq.
  Proof. exact (F_R F_th). Qed.

  (** [scalar_from_u64] is a ring homomorphism *)
  Lemma kofZ_add a b : @kofZ K (a + b) = Fadd K (kofZ a) (kofZ b).
  Proof. apply (gen_phiZ_add (Eqsth K) (Eq_ext (Fadd K) (Fmul K) (Fopp K)) K_ring). Qed.
  Lemma kofZ_mul a b : @kofZ K (a * b) = Fmul K (kofZ a) (kofZ b).
  Proof. apply (gen_phiZ_mul (Eqsth K) (Eq_ext (Fadd K) (Fmul K) (Fopp K)) K_ring). Qed.
  Lemma kofN_add a b : @kofN K (a + b) = Fadd K (kofN a) (kofN b).
  Proof. unfold kofN. rewrite N2Z.inj_add. apply kofZ_add. Qed.
  Lemma kofN_mul a b : @kofN K (a * b) = Fmul K (kofN a) (kofN b).
  Proof. unfold kofN. rewrite N2Z.inj_mul. apply kofZ_mul. Qed.

  (** [scalar_from_u64(1 << 32)] of enc_trans.rs is the scale factor of [join] *)
  Lemma pow2K_kofZ n : @pow2K K n = kofZ (2 ^ Z.of_nat n).
  Proof.
    induction n as [|n IH]; [reflexivity|].
    rewrite Nat2Z.inj_succ, Z.pow_succ_r by lia. rewrite kofZ_mul, <- IH. reflexivity.
  Qed.
  Lemma two_chunk_kofN : @two_chunk K = kofN (2 ^ 32).
  Proof. unfold two_chunk, kofN. rewrite pow2K_kofZ. f_equal. Qed.

  Lemma lin2_pair (x0 x1 : K) : lin2 [x0; x1] = Fadd K x0 (Fmul K (kofN (2 ^ 32)) x1).
  Proof. unfold lin2. cbn [lin2_go]. rewrite two_chunk_kofN. set (t := kofN _). ring. Qed.
  Lemma lin2_single (x : K) : lin2 [x] = x.
  Proof. unfold lin2. cbn [lin2_go]. ring. Qed.

  Lemma decrypt_encrypt_exp sk x k : decrypt sk (encrypt_exp g h (sk *: g) x k) = x *: h.
  Proof. unfold decrypt, encrypt_exp. cbn [fst snd]. mod_norm. Qed.

  (** ** what the statement built by [gen_enc_trans_proof_info] asserts *)
  Lemma com_eq_rel_enc pk (c : cipher) (w : K * K) :
    com_eq_rel (enc_exp_info g h pk c) w <-> c = encrypt_exp g h pk (fst w) (snd w).
  Proof.
    destruct c as [c0 c1]. unfold com_eq_rel, enc_exp_info, encrypt_exp.
    cbn [ce_commitment ce_y ce_kg ce_kh ce_g fst snd]. split.
    - intros [-> ->]. reflexivity.
    - intros E. injection E as -> ->. split; reflexivity.
  Qed.
  Lemma com_eq_rel_enc_all pk : forall (cs : list cipher) (ws : list (K * K)),
    Forall2 com_eq_rel (map (enc_exp_info g h pk) cs) ws
    <-> Forall2 (fun c w => c = encrypt_exp g h pk (fst w) (snd w)) cs ws.
  Proof.
    induction cs as [|c cs IH]; intros ws; cbn [map]; split; intros F; inversion F; subst; constructor;
      try (apply com_eq_rel_enc; (assumption || reflexivity)); try (apply IH; assumption).
  Qed.

  (** witness (sk, (a_j, r_j)_j, (s'_j, r'_j)_j): the sender key is sk*g, every A_j is the encryption
      of a_j under the receiver key, every S'_j the encryption of s'_j under the sender key, and S
      decrypts under sk to  (sum_j 2^(32 j) a_j + sum_j 2^(32 j) s'_j) * h *)
  Theorem enc_trans_statement_meaning_ pk_s pk_r (S : cipher) (A S' : list cipher) sk w1 w2 :
    enc_trans_rel (gen_enc_trans_proof_info g h pk_s pk_r S A S') (sk, w1, w2)
    <-> (pk_s = sk *: g
         /\ Forall2 (fun c w => c = encrypt_exp g h pk_r (fst w) (snd w)) A w1
         /\ Forall2 (fun c w => c = encrypt_exp g h pk_s (fst w) (snd w)) S' w2
         /\ decrypt sk S = Fadd K (lin2 (map fst w1)) (lin2 (map fst w2)) *: h).
  Proof.
    unfold enc_trans_rel, gen_enc_trans_proof_info.
    cbn [et_dlog et_elg et_e1 et_e2 dl_public dl_coeff ed_public ed_c0 ed_c1].
    rewrite !com_eq_rel_enc_all. unfold decrypt.
    set (X := Fadd K (lin2 (map fst w1)) (lin2 (map fst w2))).
    split; intros (H1 & H2 & H3 & H4); repeat split; try assumption.
    - rewrite H4. mod_norm.
    - rewrite <- H4. mod_norm.
  Qed.

  (** ** the bulletproof part: bridge to C11 *)
  Lemma bpOps_laws : bp_laws (@bpOps K M).
  Proof.
    constructor; cbn.
    - exact K_ring.
    - apply Gadd_assoc.
    - apply Gadd_comm.
    - apply Gadd_0_l.
    - apply Gadd_opp_r.
    - apply smul_add_r.
    - apply smul_add_l.
    - apply smul_mul.
    - apply smul_1.
    - apply Feqb_spec.
    - apply Geqb_spec.
  Qed.

  Definition bp_rand_ok (r : @bp_rand K) : Prop := length (br_sL r) = 64%nat /\ length (br_sR r) = 64%nat.
  (** the challenges y and u_j must be invertible (the verifier returns DivisionError otherwise) *)
  Definition bp_chal_ok (c : @bp_chal K) : Prop :=
    bc_y c <> F0 K /\ length (bc_us c) = 6%nat /\ Forall (fun u => u <> F0 K) (bc_us c).

  Lemma with_inv_ok us : Forall (fun u => u <> F0 K) us -> inv_ok (@bpOps K M) (with_inv us).
  Proof.
    intros F. unfold inv_ok, with_inv. induction F as [|u us Hu _ IH]; cbn [map]; constructor; [|exact IH].
    cbn. field. exact Hu.
  Qed.

  Lemma bullet_complete pk c0 c1 k0 k1 r c :
    (c0 < 2 ^ 32)%N -> (c1 < 2 ^ 32)%N -> (64 <= length Gs)%nat -> (64 <= length Hs)%nat ->
    bp_rand_ok r -> bp_chal_ok c ->
    bulletverify h Gs Hs pk (map snd (encrypt_chunks g h pk [c0; c1] [k0; k1]))
                 (bulletprove h Gs Hs pk [c0; c1] [k0; k1] r c) c = VOk.
  Proof.
    intros H0 H1 HG HH [HsL HsR] (Hy & Hus & Hnz). unfold bulletverify, bulletprove.
    replace (map snd (encrypt_chunks g h pk [c0; c1] [k0; k1]))
      with (vzip (commit bpOps h pk) (map (fofZ_ bpOps) (map Z.of_N [c0; c1])) [k0; k1]).
    2:{ cbn. unfold commit. cbn. f_equal; [apply Gadd_comm|f_equal; apply Gadd_comm]. }
    apply (range_complete_in_range_p bpOps bpOps_laws).
    - cbn [map]. repeat constructor; try apply N2Z.is_nonneg;
        change (2 ^ Z.of_nat 32)%Z with (Z.of_N (2 ^ 32)); apply N2Z.inj_lt; assumption.
    - reflexivity.
    - unfold with_inv. rewrite map_length, Hus, firstn_length_le by exact HG. reflexivity.
    - rewrite firstn_length_le by exact HG. reflexivity.
    - rewrite !firstn_length_le by assumption. reflexivity.
    - rewrite firstn_length_le by exact HG. exact HsL.
    - rewrite firstn_length_le by exact HG. exact HsR.
    - cbn. field. exact Hy.
    - apply with_inv_ok. exact Hnz.
  Qed.

  Definition sigma_rand_ok (n1 n2 : nat) (r : @et_rand K) : Prop :=
    let '(_, r1, r2) := r in length r1 = n1 /\ length r2 = n2.

  (** the honest witness satisfies the relation: [transfer_accounting] in the exponent *)
  Lemma transfer_sigma_ok ctx sk pk_r (S : cipher) s a (A : list cipher) w1 kS rs :
    (s < W64)%N -> (a <= s)%N -> decrypt sk S = kofN s *: h -> length kS = 2%nat ->
    Forall2 (fun c w => c = encrypt_exp g h pk_r (fst w) (snd w)) A w1 -> lin2 (map fst w1) = kofN a ->
    sigma_rand_ok (length A) 2 rs ->
    exists r0 r1 k2 k3 pi st,
      kS = [k2; k3] /\ u64_to_chunks_checked 32 (s - a) = Some [r0; r1]
      /\ (r0 < 2 ^ 32)%N /\ (r1 < 2 ^ 32)%N /\ (r0 + 2 ^ 32 * r1 = s - a)%N
      /\ let stmt := gen_enc_trans_proof_info g h (sk *: g) pk_r S A (encrypt_chunks g h (sk *: g) [r0; r1] kS) in
         prove H sfb (enc_trans_proto Cd) Legacy ctx stmt (sk, w1, chunk_secrets [r0; r1] kS) rs = Some (pi, st)
         /\ verify H sfb (enc_trans_proto Cd) Legacy ctx stmt pi = (true, st).
  Proof.
    intros Hs64 Ha Hbal LS FA Ea Hsig.
    destruct (chunks32_sum (s - a) ltac:(lia)) as (r0 & r1 & Er & Br0 & Br1 & Sr).
    destruct kS as [|k2 [|k3 [|? ?]]]; try discriminate LS.
    exists r0, r1, k2, k3. intros.
    destruct (prove_verify_complete_ H sfb (enc_trans_proto Cd) enc_trans_rel enc_trans_rok (enc_trans_complete_ Cd)
                Legacy ctx (gen_enc_trans_proof_info g h (sk *: g) pk_r S A (encrypt_chunks g h (sk *: g) [r0; r1] [k2; k3]))
                (sk, w1, chunk_secrets [r0; r1] [k2; k3]) rs) as (pi & st & Hp & Hv).
    - apply enc_trans_statement_meaning_. split; [reflexivity|]. split; [exact FA|]. split; [repeat constructor|].
      rewrite Hbal, Ea. cbn [chunk_secrets map2 map fst]. rewrite lin2_pair, <- kofN_mul, <- !kofN_add.
      f_equal. f_equal. set (T := (2 ^ 32)%N) in *. lia.
    - destruct rs as [[rc r1s] r2s]. destruct Hsig as [L1 L2]. split; [cbn; rewrite map_length; exact L1|exact L2].
    - exists pi, st. repeat split; assumption.
  Qed.

  Theorem transfer_complete_ gc pk_r sk agg_enc s idx a rnd ch_a ch_s :
    (s < W64)%N -> (a <= s)%N ->
    decrypt sk (join agg_enc) = kofN s *: h ->          (* the input amount is what the input ciphertext holds *)
    length (tr_A rnd) = 2%nat -> length (tr_S rnd) = 2%nat -> sigma_rand_ok 2 2 (tr_sigma rnd) ->
    bp_rand_ok (tr_bp_a rnd) -> bp_rand_ok (tr_bp_s rnd) -> bp_chal_ok ch_a -> bp_chal_ok ch_s ->
    (64 <= length Gs)%nat -> (64 <= length Hs)%nat ->
    exists td a0 a1 r0 r1,
      make_transfer_data Cd H sfb g h Gs Hs gc pk_r sk agg_enc s idx a rnd ch_a ch_s = Some td
      /\ verify_transfer_data Cd H sfb g h Gs Hs gc pk_r (sk *: g) agg_enc td ch_a ch_s = true
      /\ td_index td = idx
      /\ (a0 + 2 ^ 32 * a1 = a)%N /\ (r0 + 2 ^ 32 * r1 = s - a)%N
      /\ enc_list (td_transfer td) = encrypt_chunks g h pk_r [a0; a1] (tr_A rnd)
      /\ enc_list (td_remaining td) = encrypt_chunks g h (sk *: g) [r0; r1] (tr_S rnd).
  Proof.
    intros Hs64 Ha Hbal LA LS Hsig HrA HrS HcA HcS HG HH.
    destruct (chunks32_sum a ltac:(lia)) as (a0 & a1 & Ea & Ba0 & Ba1 & Sa).
    destruct rnd as [kA kS sg bpa bps]. cbn [tr_A tr_S tr_sigma tr_bp_a tr_bp_s] in *.
    destruct kA as [|k0 [|k1 [|? ?]]]; try discriminate LA.
    destruct (transfer_sigma_ok (transfer_ctx Cd g gc pk_r (sk *: g)) sk pk_r (join agg_enc) s a
                (encrypt_chunks g h pk_r [a0; a1] [k0; k1]) (chunk_secrets [a0; a1] [k0; k1]) kS sg Hs64 Ha Hbal LS)
      as (r0 & r1 & k2 & k3 & pi & st & -> & Er & Br0 & Br1 & Sr & Hp & Hv);
      [repeat constructor | cbn [chunk_secrets map2 map fst]; rewrite lin2_pair, <- kofN_mul, <- kofN_add, Sa; reflexivity | exact Hsig |].
    pose proof (bullet_complete pk_r a0 a1 k0 k1 bpa ch_a Ba0 Ba1 HG HH HrA HcA) as BA.
    pose proof (bullet_complete (sk *: g) r0 r1 k2 k3 bps ch_s Br0 Br1 HG HH HrS HcS) as BS.
    unfold make_transfer_data, gen_enc_trans. cbn [tr_A tr_S tr_sigma tr_bp_a tr_bp_s].
    destruct (N.ltb_spec s a) as [Hlt|_]; [lia|]. rewrite Ea, Er, Hp.
    cbn [encrypt_chunks map2] in *.
    eexists. exists a0, a1, r0, r1. split; [reflexivity|].
    split.
    { unfold verify_transfer_data, verify_enc_trans, enc_list. cbn [td_remaining td_transfer td_accounting td_bp_transfer td_bp_remaining enc_list fst snd].
      rewrite Hv. cbn [fst negb]. cbn [map snd] in BA, BS |- *. rewrite BA, BS. reflexivity. }
    unfold enc_list. cbn [td_index td_transfer td_remaining fst snd]. repeat split; assumption || reflexivity.
  Qed.

  Theorem sec_to_pub_complete_ gc sk agg_enc s idx a rnd ch_s :
    (s < W64)%N -> (a <= s)%N ->
    decrypt sk (join agg_enc) = kofN s *: h ->
    length (sr_S rnd) = 2%nat -> sigma_rand_ok 1 2 (sr_sigma rnd) ->
    bp_rand_ok (sr_bp_s rnd) -> bp_chal_ok ch_s ->
    (64 <= length Gs)%nat -> (64 <= length Hs)%nat ->
    exists sd r0 r1,
      make_sec_to_pub_transfer_data Cd H sfb g h Gs Hs gc sk agg_enc s idx a rnd ch_s = Some sd
      /\ verify_sec_to_pub_transfer_data Cd H sfb g h Gs Hs gc (sk *: g) agg_enc sd ch_s = true
      /\ sd_index sd = idx /\ sd_transfer_amount sd = a
      /\ (r0 + 2 ^ 32 * r1 = s - a)%N
      /\ enc_list (sd_remaining sd) = encrypt_chunks g h (sk *: g) [r0; r1] (sr_S rnd).
  Proof.
    intros Hs64 Ha Hbal LS Hsig HrS HcS HG HH.
    destruct rnd as [kS sg bps]. cbn [sr_S sr_sigma sr_bp_s] in *.
    destruct (transfer_sigma_ok (sec_to_pub_ctx Cd g gc (sk *: g)) sk (sk *: g) (join agg_enc) s a
                [dummy_encryption h a] [(kofN a, F0 K)] kS sg Hs64 Ha Hbal LS)
      as (r0 & r1 & k2 & k3 & pi & st & -> & Er & Br0 & Br1 & Sr & Hp & Hv);
      [constructor; [|constructor]; unfold dummy_encryption, encrypt_exp; cbn [fst snd]; f_equal; mod_norm
      | apply lin2_single | exact Hsig |].
    pose proof (bullet_complete (sk *: g) r0 r1 k2 k3 bps ch_s Br0 Br1 HG HH HrS HcS) as BS.
    unfold make_sec_to_pub_transfer_data, gen_sec_to_pub_trans. cbn [sr_S sr_sigma sr_bp_s].
    destruct (N.ltb_spec s a) as [Hlt|_]; [lia|]. rewrite Er, Hp.
    cbn [encrypt_chunks map2] in *.
    eexists. exists r0, r1. split; [reflexivity|].
    split.
    { unfold verify_sec_to_pub_transfer_data, verify_sec_to_pub_trans, enc_list.
      cbn [sd_remaining sd_transfer_amount sd_accounting sd_bp_remaining enc_list fst snd].
      rewrite Hv. cbn [fst negb]. cbn [map snd] in BS |- *. rewrite BS. reflexivity. }
    unfold enc_list. cbn [sd_index sd_transfer_amount sd_remaining fst snd]. repeat split; assumption || reflexivity.
  Qed.

  (** ** a transfer exceeding the balance is not produced (by the models of the real entry points) *)
  Theorem transfer_none_if_exceeds_ gc pk_r sk agg_enc s idx a rnd ch_a ch_s : (s < a)%N ->
    make_transfer_data Cd H sfb g h Gs Hs gc pk_r sk agg_enc s idx a rnd ch_a ch_s = None.
  Proof. intros Hlt. unfold make_transfer_data, gen_enc_trans. destruct (N.ltb_spec s a); [reflexivity|lia]. Qed.
  Theorem sec_to_pub_none_if_exceeds_ gc sk agg_enc s idx a rnd ch_s : (s < a)%N ->
    make_sec_to_pub_transfer_data Cd H sfb g h Gs Hs gc sk agg_enc s idx a rnd ch_s = None.
  Proof. intros Hlt. unfold make_sec_to_pub_transfer_data, gen_sec_to_pub_trans. destruct (N.ltb_spec s a); [reflexivity|lia]. Qed.
End Proofs.
