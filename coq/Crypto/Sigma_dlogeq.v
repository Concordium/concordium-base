(** sigma_protocols/dlogeq.rs (private module, reference only): knowledge of [w] with
    [public1 = w*coeff1] and [public2 = w*coeff2].  Built from two [Dlog] instances sharing randomness
    and response; style [RespPlus].  Matrix: two rows, one column. *)
From Coq Require Import List.
From CB Require Import Crypto.Alg Crypto.Transcript Crypto.TranscriptProofs Crypto.SigmaGeneric
  Crypto.SigmaCodec Crypto.Sigma_dlog.
Import ListNotations.

Section DlogEq.
  Context {K : FieldOps} {M : ModOps K} (Cd : CodecOps M).
  Local Open Scope G_scope.
  Definition dlogeq_stmt : Type := dlog_stmt M * dlog_stmt M.

  Definition dlogeq_public (k : tkind) (s : dlogeq_stmt) : bytes := dlog_public Cd k (fst s) ++ dlog_public Cd k (snd s).
  Definition dlogeq_commit (s : dlogeq_stmt) (r : K) : option (M * M) :=
    Some (r *: dl_coeff (fst s), r *: dl_coeff (snd s)).
  (** [self.dlog1.compute_response(secret, state, challenge)] *)
  Definition dlogeq_respond (s : dlogeq_stmt) (w r c : K) : option K := dlog_respond (fst s) w r c.
  Definition dlogeq_extract (s : dlogeq_stmt) (c z : K) : option (M * M) :=
    opt_pair (dlog_extract (fst s) c z) (dlog_extract (snd s) c z).
  Definition dlogeq_proto : proto K := {|
    p_stmt := dlogeq_stmt; p_wit := K; p_rand := K; p_cm := M * M; p_resp := K;
    p_public := dlogeq_public; p_commit := dlogeq_commit; p_respond := dlogeq_respond; p_extract := dlogeq_extract;
    p_ser_cm := fun a => serG Cd (fst a) ++ serG Cd (snd a); p_ser_resp := serF Cd |}.
  Definition dlogeq_rel (s : dlogeq_stmt) (w : K) : Prop := dlog_rel (fst s) w /\ dlog_rel (snd s) w.
  Definition dlogeq_A (s : dlogeq_stmt) : list (list M) := [[dl_coeff (fst s)]; [dl_coeff (snd s)]].
  Definition dlogeq_y (s : dlogeq_stmt) : list M := [dl_public (fst s); dl_public (snd s)].

  Context {KL : FieldLaws K} {ML : ModLaws M}.
  Add Field Kf_dlogeq : (@F_th K KL).

  Lemma dlogeq_commit_generic s r a : dlogeq_commit s r = Some a -> [fst a; snd a] = m_commit (dlogeq_A s) [r].
  Proof. intro E. injection E as <-. cbn. list_split; mod_norm. Qed.
  Lemma dlogeq_extract_generic s c z a : dlogeq_extract s c z = Some a ->
    [fst a; snd a] = m_reconstruct RespPlus (dlogeq_A s) (dlogeq_y s) c [z].
  Proof. intro E. injection E as <-. cbn. list_split; mod_norm. Qed.
  Lemma dlogeq_rel_generic s w : dlogeq_rel s w <-> phi (dlogeq_A s) [w] = dlogeq_y s.
  Proof.
    unfold dlogeq_rel, dlog_rel, phi, dlogeq_A, dlogeq_y. cbn. rewrite !Gadd_0_r. split.
    - intros [-> ->]. reflexivity.
    - intro E. injection E as -> ->. auto.
  Qed.
  Theorem dlogeq_complete_ : complete dlogeq_proto dlogeq_rel (fun _ _ => True).
  Proof.
    intros [s1 s2] w r [H1 H2] _. eexists. split; [reflexivity|]. intro c. eexists. split; [reflexivity|].
    cbn. unfold dlog_rel in *. cbn in H1, H2. rewrite H1, H2. list_split; mod_norm.
  Qed.
  Theorem dlogeq_special_sound_ : special_sound dlogeq_proto dlogeq_rel (fun s => dlog_extractor (fst s)).
  Proof.
    intros s a c c' z z' Hc E E'. apply dlogeq_rel_generic.
    pose proof (dlogeq_extract_generic s c z a E) as G1. pose proof (dlogeq_extract_generic s c' z' a E') as G2.
    exact (sigma_special_sound_ RespPlus (dlogeq_A s) (dlogeq_y s) [fst a; snd a] c c' [z] [z'] Hc eq_refl eq_refl
             (eq_sym G1) (eq_sym G2)).
  Qed.
  Context {CL : CodecLaws Cd}.
  Theorem dlogeq_public_prefix_free_ : forall k, public_prefix_free dlogeq_proto k (fun _ => True).
  Proof.
    intro k. apply (pf_iso (fun s => s) (pf_app (dlog_public_prefix_free_ Cd k) (dlog_public_prefix_free_ Cd k))); auto.
  Qed.
End DlogEq.
