(** Theorems about the BLS model (Bls.v), for every lawful pairing setting. *)
From Coq Require Import List Bool Field Ring Permutation.
From CB Require Import Crypto.PairingAlg Crypto.Bls Crypto.DupSort.
Import ListNotations.

Section BlsProofs.
  Variable A : pops.
  Hypothesis L : plaws A.
  Add Field PFfield_bls : (pf_th A L).
  Variable Msg : Type.
  Variable Dg : Type.
  Variable dg_eqb : Dg -> Dg -> bool.
  Hypothesis dg_eqb_spec : forall a b, dg_eqb a b = true <-> a = b.
  Variable hm : Msg -> Dg.
  Variable H1 : Msg -> P1 A.

  Notation K := (PF A).
  Notation h m := (dl1 A (H1 m)).
  Notation "a +' b" := (fadd K a b) (at level 50, left associativity).
  Notation "a *' b" := (fmul K a b) (at level 40, left associativity).
  Notation sign := (sign A Msg H1).
  Notation verify := (verify A Msg H1).
  Notation pk_of := (pk_of A).
  Notation has_dup := (has_dup Dg dg_eqb).
  Notation verify_aggregate_sig := (verify_aggregate_sig A Msg Dg dg_eqb hm H1).
  Notation verify_hybrid := (verify_aggregate_sig_hybrid A Msg H1).
  Notation verify_trusted := (verify_aggregate_sig_trusted_keys A Msg H1).
  Notation aggregate := (aggregate A).
  Notation aggregate_list := (aggregate_list A).
  Notation prod_pairs := (prod_pairs A Msg H1).
  Notation prod_groups := (prod_groups A Msg H1).
  Notation sum_pks := (sum_pks A).
  Notation gT := (gT A).
  Notation msg_dg := (fun p : Msg * P2 A => hm (fst p)).

  Lemma verify_iff pk m sig :
    verify pk m sig = true <-> pair A sig (gen2 A) = pair A (H1 m) pk.
  Proof. apply (check_pairing_eq_iff A L). Qed.

  Lemma verify_exp pk m sig : verify pk m sig = true <-> dl1 A sig = h m *' dl2 A pk.
  Proof.
    rewrite verify_iff, (pair_eq_iff A L), (dl2_gen A L).
    replace (dl1 A sig *' f1 K) with (dl1 A sig) by ring. reflexivity.
  Qed.

  Lemma dl2_pk_of sk : dl2 A (pk_of sk) = sk.
  Proof. unfold Bls.pk_of. rewrite (dl2_smul A L), (dl2_gen A L). ring. Qed.

  Lemma dl1_sign sk m : dl1 A (sign sk m) = sk *' h m.
  Proof. unfold Bls.sign. apply (dl1_smul A L). Qed.

  Lemma bls_complete_l sk m : verify (pk_of sk) m (sign sk m) = true.
  Proof. apply verify_exp. rewrite dl1_sign, dl2_pk_of. ring. Qed.

  (** acceptance of an honest signature under another key / message = a coincidence in the exponent *)
  Lemma bls_forgery_event_l sk m pk' m' :
    verify pk' m' (sign sk m) = true <-> sk *' h m = h m' *' dl2 A pk'.
  Proof. rewrite verify_exp, dl1_sign. reflexivity. Qed.

  Lemma bls_wrong_key_rejected_l sk m pk' :
    H1 m <> m0 (P1 A) -> pk' <> pk_of sk -> verify pk' m (sign sk m) = false.
  Proof.
    intros Hm Hpk. apply not_true_is_false. intros E.
    apply bls_forgery_event_l in E. apply Hpk. apply (dl2_eq A L). rewrite dl2_pk_of.
    assert (Hh : h m <> f0 K) by (intros Z; apply Hm; now apply (dl1_eq_zero A L)).
    apply (fmul_cancel_l A L (h m)); [assumption|]. rewrite <- E. ring.
  Qed.

  Lemma bls_wrong_message_collision_l sk m m' :
    sk <> f0 K -> verify (pk_of sk) m' (sign sk m) = true -> H1 m' = H1 m.
  Proof.
    intros Hsk E. apply bls_forgery_event_l in E. rewrite dl2_pk_of in E.
    apply (dl1_eq A L). apply (fmul_cancel_l A L sk); [assumption|]. rewrite E. ring.
  Qed.

  Definition ksum {X : Type} (f : X -> K) : list X -> K :=
    fix go l := match l with [] => f0 K | x :: t => f x +' go t end.

  Lemma ksum_app {X} (f : X -> K) l1 l2 : ksum f (l1 ++ l2) = ksum f l1 +' ksum f l2.
  Proof. induction l1 as [|x t IH]; cbn [app ksum]; [ring | rewrite IH; ring]. Qed.

  Lemma ksum_perm {X} (f : X -> K) l l' : Permutation l l' -> ksum f l = ksum f l'.
  Proof. induction 1; cbn [ksum] in *; try congruence; ring. Qed.

  Lemma ksum_ext {X} (f g : X -> K) l : (forall x, f x = g x) -> ksum f l = ksum g l.
  Proof. intros E. induction l as [|x t IH]; cbn [ksum]; [reflexivity | now rewrite E, IH]. Qed.

  Lemma ksum_map {X Y} (g : X -> Y) (f : Y -> K) l : ksum f (map g l) = ksum (fun x => f (g x)) l.
  Proof. induction l as [|x t IH]; cbn [map ksum]; [reflexivity | now rewrite IH]. Qed.

  Lemma ksum_scale {X} c (f : X -> K) l : ksum (fun x => c *' f x) l = c *' ksum f l.
  Proof. induction l as [|x t IH]; cbn [ksum]; [ring | rewrite IH; ring]. Qed.

  Lemma ksum_flat_map {X Y} (g : X -> list Y) (f : Y -> K) l :
    ksum f (flat_map g l) = ksum (fun x => ksum f (g x)) l.
  Proof. induction l as [|x t IH]; cbn [flat_map ksum]; [reflexivity | now rewrite ksum_app, IH]. Qed.

  (** a left fold whose accumulator [a] is tracked by [k] (in the sense [R a k]) and whose step
      adds [f x] to [k] ends at [k + ksum f l] *)
  Lemma fold_left_ksum {X T} (R : T -> K -> Prop) (step : T -> X -> T) (f : X -> K) :
    (forall a k x, R a k -> R (step a x) (k +' f x)) ->
    forall l a k, R a k -> R (fold_left step l a) (k +' ksum f l).
  Proof.
    intros Hstep. induction l as [|x t IH]; intros a k Ha; cbn [fold_left ksum].
    - replace (k +' f0 K) with k by ring. exact Ha.
    - replace (k +' (f x +' ksum f t)) with (k +' f x +' ksum f t) by ring. apply IH, Hstep, Ha.
  Qed.

  Fixpoint sum_dl1 (l : list (P1 A)) : K :=
    match l with [] => f0 K | s :: t => dl1 A s +' sum_dl1 t end.

  Lemma sum_dl1_ksum l : sum_dl1 l = ksum (dl1 A) l.
  Proof. reflexivity. Qed.

  Lemma dl1_fold_aggregate rest s :
    dl1 A (fold_left aggregate rest s) = dl1 A s +' sum_dl1 rest.
  Proof.
    apply (fold_left_ksum (fun a k => dl1 A a = k) aggregate (dl1 A)); [|reflexivity].
    intros a k x <-. apply (dl1_add A L).
  Qed.

  Lemma dl1_aggregate_list sigs : dl1 A (aggregate_list sigs) = sum_dl1 sigs.
  Proof.
    destruct sigs as [|s rest]; cbn [Bls.aggregate_list sum_dl1].
    - apply (dl1_zero A L).
    - apply dl1_fold_aggregate.
  Qed.

  Lemma sum_dl1_perm l l' : Permutation l l' -> sum_dl1 l = sum_dl1 l'.
  Proof. exact (ksum_perm (dl1 A) l l'). Qed.

  Lemma aggregate_perm_l sigs sigs' : Permutation sigs sigs' -> aggregate_list sigs = aggregate_list sigs'.
  Proof. intros P. apply (dl1_eq A L). rewrite !dl1_aggregate_list. now apply sum_dl1_perm. Qed.

  Lemma aggregate_assoc_l a b c : aggregate a (aggregate b c) = aggregate (aggregate a b) c.
  Proof. apply (madd_assoc _ (p1_laws A L)). Qed.

  Lemma aggregate_comm_l a b : aggregate a b = aggregate b a.
  Proof. apply (madd_comm _ (p1_laws A L)). Qed.

  Lemma aggregate_empty_l a : aggregate (empty_sig A) a = a.
  Proof. apply (madd_0_l _ (p1_laws A L)). Qed.

  (** *** the product of pairings in the exponent *)
  Fixpoint exp_sum (pairs : list (Msg * P2 A)) : K :=
    match pairs with [] => f0 K | p :: t => h (fst p) *' dl2 A (snd p) +' exp_sum t end.

  Lemma exp_sum_ksum l : exp_sum l = ksum (fun p => h (fst p) *' dl2 A (snd p)) l.
  Proof. reflexivity. Qed.

  Lemma zero_as_gT : m0 (PT A) = msmul (PT A) (f0 K) gT.
  Proof. symmetry. apply msmul_0_l; [exact (pf_th A L) | exact (pt_laws A L)]. Qed.

  Lemma fold_gT_ksum {X} (step : PT A -> X -> PT A) (f : X -> K) :
    (forall acc x, step acc x = madd (PT A) acc (msmul (PT A) (f x) gT)) ->
    forall l, fold_left step l (m0 (PT A)) = msmul (PT A) (ksum f l) gT.
  Proof.
    intros Hs l. replace (ksum f l) with (f0 K +' ksum f l) by ring.
    apply (fold_left_ksum (fun a k => a = msmul (PT A) k gT)); [|exact zero_as_gT].
    intros a k x ->. rewrite Hs. symmetry. apply (msmul_add_l _ (pt_laws A L)).
  Qed.

  Lemma prod_pairs_exp pairs : prod_pairs pairs = msmul (PT A) (exp_sum pairs) gT.
  Proof.
    apply (fold_gT_ksum _ (fun p => h (fst p) *' dl2 A (snd p))).
    intros acc p. unfold pair_step. now rewrite (pair_exp A L).
  Qed.

  Lemma pair_sig_exp sig : pair A sig (gen2 A) = msmul (PT A) (dl1 A sig) gT.
  Proof. rewrite (pair_exp A L), (dl2_gen A L). f_equal. ring. Qed.

  Lemma exp_sum_perm l l' : Permutation l l' -> exp_sum l = exp_sum l'.
  Proof. apply ksum_perm. Qed.

  Lemma has_dup_false_iff ds : has_dup ds = false <-> NoDup ds.
  Proof. exact (has_dup_ref_false Dg dg_eqb dg_eqb_spec ds). Qed.

  (** *** the exact acceptance condition of [verify_aggregate_sig] *)
  Lemma verify_aggregate_iff_l pairs sig :
    verify_aggregate_sig pairs sig = true <->
    has_dup (map msg_dg pairs) = false /\ pairs <> [] /\ dl1 A sig = exp_sum pairs.
  Proof.
    unfold Bls.verify_aggregate_sig. destruct (has_dup (map msg_dg pairs)) eqn:D.
    - split; [discriminate | intros [? _]; discriminate].
    - destruct pairs as [|p t].
      + split; [discriminate | intros (_ & N & _); now elim N].
      + rewrite (meqb_spec _ (pt_laws A L)), pair_sig_exp, prod_pairs_exp. split.
        * intros H. apply (gT_inj A L) in H. repeat split; [discriminate | assumption].
        * intros (_ & _ & H). now rewrite H.
  Qed.

  (** *** honest signer sets: a list of (secret key, message) *)
  Definition pairs_of (signers : list (K * Msg)) : list (Msg * P2 A) :=
    map (fun s => (snd s, pk_of (fst s))) signers.
  Definition sigs_of (signers : list (K * Msg)) : list (P1 A) :=
    map (fun s => sign (fst s) (snd s)) signers.
  Fixpoint signer_sum (signers : list (K * Msg)) : K :=
    match signers with [] => f0 K | s :: t => fst s *' h (snd s) +' signer_sum t end.

  Lemma signer_sum_ksum l : signer_sum l = ksum (fun s => fst s *' h (snd s)) l.
  Proof. reflexivity. Qed.

  Lemma sum_dl1_sigs_of signers : sum_dl1 (sigs_of signers) = signer_sum signers.
  Proof.
    unfold sigs_of. rewrite sum_dl1_ksum, signer_sum_ksum, ksum_map.
    apply ksum_ext. intros s. apply dl1_sign.
  Qed.

  Lemma exp_sum_pairs_of signers : exp_sum (pairs_of signers) = signer_sum signers.
  Proof.
    unfold pairs_of. rewrite exp_sum_ksum, signer_sum_ksum, ksum_map.
    apply ksum_ext. intros s. cbn [fst snd]. rewrite dl2_pk_of. ring.
  Qed.

  Lemma dl1_honest_aggregate signers : dl1 A (aggregate_list (sigs_of signers)) = signer_sum signers.
  Proof. now rewrite dl1_aggregate_list, sum_dl1_sigs_of. Qed.

  Lemma map_dg_pairs_of signers :
    map msg_dg (pairs_of signers) = map (fun s : K * Msg => hm (snd s)) signers.
  Proof. unfold pairs_of. rewrite map_map. reflexivity. Qed.

  Lemma aggregate_verifies_its_multiset_l signers order sigs' :
    signers <> [] ->
    NoDup (map (fun s : K * Msg => hm (snd s)) signers) ->
    Permutation signers order ->
    Permutation (sigs_of signers) sigs' ->
    verify_aggregate_sig (pairs_of order) (aggregate_list sigs') = true.
  Proof.
    intros Hne Hnd Hp Hs. apply verify_aggregate_iff_l. repeat split.
    - apply has_dup_false_iff. rewrite map_dg_pairs_of.
      eapply Permutation_NoDup; [|exact Hnd]. now apply Permutation_map.
    - destruct order as [|o order']; [|discriminate].
      apply Permutation_sym, Permutation_nil in Hp. contradiction.
    - rewrite <- (aggregate_perm_l _ _ Hs), dl1_honest_aggregate, exp_sum_pairs_of.
      now apply ksum_perm.
  Qed.

  (** acceptance of an honest aggregate against an arbitrary claimed list of pairs *)
  Lemma aggregate_accept_iff_l signers claimed :
    verify_aggregate_sig claimed (aggregate_list (sigs_of signers)) = true <->
    has_dup (map msg_dg claimed) = false /\ claimed <> [] /\ signer_sum signers = exp_sum claimed.
  Proof. rewrite verify_aggregate_iff_l, dl1_honest_aggregate. reflexivity. Qed.

  Lemma aggregate_reject_l signers claimed :
    signer_sum signers <> exp_sum claimed ->
    verify_aggregate_sig claimed (aggregate_list (sigs_of signers)) = false.
  Proof. intros N. apply not_true_is_false. intros E. apply aggregate_accept_iff_l in E. now apply N. Qed.

  Lemma extra_term_zero (a b s : K) : a *' b +' s = s -> a = f0 K \/ b = f0 K.
  Proof. intros E. apply (fmul_eq_0 A L), (fadd_cancel_r A L _ _ s). rewrite E. ring. Qed.

  Lemma aggregate_missing_signer_rejected_l s signers :
    fst s <> f0 K -> H1 (snd s) <> m0 (P1 A) ->
    verify_aggregate_sig (pairs_of signers) (aggregate_list (sigs_of (s :: signers))) = false.
  Proof.
    intros Hsk Hm. apply aggregate_reject_l. rewrite exp_sum_pairs_of. cbn [signer_sum]. intros E.
    destruct (extra_term_zero _ _ _ E) as [Z|Z]; [contradiction|]. apply Hm. now apply (dl1_eq_zero A L).
  Qed.

  Lemma aggregate_extra_pair_rejected_l p signers :
    dl2 A (snd p) <> f0 K -> H1 (fst p) <> m0 (P1 A) ->
    verify_aggregate_sig (p :: pairs_of signers) (aggregate_list (sigs_of signers)) = false.
  Proof.
    intros Hpk Hm. apply aggregate_reject_l. cbn [exp_sum]. rewrite exp_sum_pairs_of. intros E.
    destruct (extra_term_zero _ _ _ (eq_sym E)) as [Z|Z]; [|contradiction]. apply Hm. now apply (dl1_eq_zero A L).
  Qed.

  Lemma empty_rejected_l sig : verify_aggregate_sig [] sig = false.
  Proof. reflexivity. Qed.

  Lemma dup_digest_rejected_l pairs sig :
    ~ NoDup (map msg_dg pairs) -> verify_aggregate_sig pairs sig = false.
  Proof.
    intros N. unfold Bls.verify_aggregate_sig. destruct (has_dup (map msg_dg pairs)) eqn:D; [reflexivity|].
    apply has_dup_false_iff in D. contradiction.
  Qed.

  Lemma dup_message_rejected_l l1 l2 l3 m pk pk' sig :
    verify_aggregate_sig (l1 ++ (m, pk) :: l2 ++ (m, pk') :: l3) sig = false.
  Proof.
    apply dup_digest_rejected_l. rewrite map_app. cbn [map fst]. rewrite map_app. cbn [map fst].
    intros N. apply NoDup_remove_2 in N. apply N. apply in_or_app. right. apply in_or_app. right. now left.
  Qed.

  Lemma trusted_empty_rejected_l m sig : verify_trusted m [] sig = false.
  Proof. reflexivity. Qed.

  Fixpoint sum_dl2 (l : list (P2 A)) : K :=
    match l with [] => f0 K | s :: t => dl2 A s +' sum_dl2 t end.

  Lemma sum_dl2_ksum l : sum_dl2 l = ksum (dl2 A) l.
  Proof. reflexivity. Qed.

  Lemma dl2_sum_pks pks : dl2 A (sum_pks pks) = sum_dl2 pks.
  Proof.
    rewrite sum_dl2_ksum. replace (ksum (dl2 A) pks) with (f0 K +' ksum (dl2 A) pks) by ring.
    apply (fold_left_ksum (fun a k => dl2 A a = k)); [|exact (dl2_zero A L)].
    intros a k x <-. apply (dl2_add A L).
  Qed.

  Lemma sum_dl2_app l1 l2 : sum_dl2 (l1 ++ l2) = sum_dl2 l1 +' sum_dl2 l2.
  Proof. exact (ksum_app (dl2 A) l1 l2). Qed.

  Definition grp_sum : list (Msg * list (P2 A)) -> K := ksum (fun g => h (fst g) *' sum_dl2 (snd g)).

  Lemma prod_groups_exp groups : prod_groups groups = msmul (PT A) (grp_sum groups) gT.
  Proof.
    apply fold_gT_ksum. intros acc g. unfold hybrid_step. now rewrite (pair_exp A L), dl2_sum_pks.
  Qed.

  Lemma hybrid_iff_l groups sig : verify_hybrid groups sig = true <-> dl1 A sig = grp_sum groups.
  Proof.
    unfold Bls.verify_aggregate_sig_hybrid.
    rewrite (meqb_spec _ (pt_laws A L)), pair_sig_exp, prod_groups_exp. split.
    - apply (gT_inj A L).
    - now intros ->.
  Qed.

  Lemma trusted_iff_l m pks sig :
    verify_trusted m pks sig = true <-> pks <> [] /\ dl1 A sig = h m *' sum_dl2 pks.
  Proof.
    unfold Bls.verify_aggregate_sig_trusted_keys. destruct pks as [|p t].
    - split; [discriminate | intros [N _]; now elim N].
    - fold (Bls.verify A Msg H1 (sum_pks (p :: t)) m sig). rewrite verify_exp, dl2_sum_pks.
      split; [intros H; split; [discriminate|assumption] | now intros [_ H]].
  Qed.

  (** the expanded multiset of (message, key) pairs of a grouped input *)
  Definition flatten (groups : list (Msg * list (P2 A))) : list (Msg * P2 A) :=
    flat_map (fun g => map (fun pk => (fst g, pk)) (snd g)) groups.

  Lemma grp_sum_flatten groups : grp_sum groups = exp_sum (flatten groups).
  Proof.
    unfold grp_sum, flatten. rewrite exp_sum_ksum, ksum_flat_map. apply ksum_ext. intros g.
    rewrite ksum_map. cbn [fst snd]. symmetry. apply ksum_scale.
  Qed.

  Definition singletons (pairs : list (Msg * P2 A)) : list (Msg * list (P2 A)) :=
    map (fun p => (fst p, [snd p])) pairs.

  Lemma flatten_singletons pairs : flatten (singletons pairs) = pairs.
  Proof.
    induction pairs as [|[m pk] t IH]; cbn [singletons map flatten flat_map fst snd app]; [reflexivity|].
    unfold flatten, singletons in IH. now rewrite IH.
  Qed.

  Lemma plain_is_hybrid_singletons_l pairs sig :
    has_dup (map msg_dg pairs) = false -> pairs <> [] ->
    verify_aggregate_sig pairs sig = verify_hybrid (singletons pairs) sig.
  Proof.
    intros D N. apply eq_true_iff_eq.
    rewrite verify_aggregate_iff_l, hybrid_iff_l, grp_sum_flatten, flatten_singletons. tauto.
  Qed.

  Lemma trusted_is_hybrid_one_group_l m pks sig :
    pks <> [] -> verify_trusted m pks sig = verify_hybrid [(m, pks)] sig.
  Proof.
    intros N. apply eq_true_iff_eq. rewrite trusted_iff_l, hybrid_iff_l. unfold grp_sum. cbn [ksum fst snd].
    replace (h m *' sum_dl2 pks +' f0 K) with (h m *' sum_dl2 pks) by ring.
    split; [now intros [_ E] | now split].
  Qed.

  Lemma hybrid_is_plain_equation_l groups sig :
    verify_hybrid groups sig = true <-> dl1 A sig = exp_sum (flatten groups).
  Proof. rewrite hybrid_iff_l, grp_sum_flatten. reflexivity. Qed.

  (** all signers sign the same message: [verify_aggregate_sig_trusted_keys] accepts *)
  Lemma trusted_complete_l m sks :
    sks <> [] ->
    verify_trusted m (map pk_of sks) (aggregate_list (map (fun sk => sign sk m) sks)) = true.
  Proof.
    intros N. apply trusted_iff_l. split; [destruct sks; [now elim N | discriminate]|].
    rewrite dl1_aggregate_list, sum_dl1_ksum, sum_dl2_ksum, !ksum_map, <- ksum_scale.
    apply ksum_ext. intros sk. rewrite dl1_sign, dl2_pk_of. ring.
  Qed.

  Variable Ctx : Type.
  Variable Ch : Type.
  Variable ch_eqb : Ch -> Ch -> bool.
  Hypothesis ch_eqb_spec : forall a b, ch_eqb a b = true <-> a = b.
  Variable Hc : Ctx * P2 A * P2 A * P2 A -> Ch.
  Variable ch_scalar : Ch -> K.
  Notation pop_prove := (pop_prove A Ctx Ch Hc ch_scalar).
  Notation pop_check := (pop_check A Ctx Ch ch_eqb Hc ch_scalar).
  Notation pop_point := (pop_point A Ch ch_scalar).

  Lemma pop_point_honest ctx sk w :
    pop_point (pk_of sk) (pop_prove ctx sk w) = msmul (P2 A) w (gen2 A).
  Proof.
    apply (dl2_eq A L). unfold Bls.pop_point, Bls.pop_prove. cbn [fst snd].
    rewrite (dl2_sub A L), !(dl2_smul A L), dl2_pk_of, (dl2_gen A L). ring.
  Qed.

  Lemma pop_complete_l ctx sk w : pop_check ctx (pk_of sk) (pop_prove ctx sk w) = true.
  Proof.
    unfold Bls.pop_check. rewrite pop_point_honest. apply ch_eqb_spec. reflexivity.
  Qed.

  Lemma pop_check_iff_l ctx pk ch resp :
    pop_check ctx pk (ch, resp) = true <->
    Hc (ctx, pk, gen2 A, msub (P2 A) (msmul (P2 A) resp (gen2 A)) (msmul (P2 A) (ch_scalar ch) pk)) = ch.
  Proof. unfold Bls.pop_check, Bls.pop_point. cbn [fst snd]. apply ch_eqb_spec. Qed.

  (** one proof accepted for two different (context, key) pairs exhibits a collision of the oracle *)
  Lemma pop_binding_l ctx pk ctx' pk' proof :
    pop_check ctx pk proof = true -> pop_check ctx' pk' proof = true ->
    (ctx, pk) <> (ctx', pk') ->
    exists x y, x <> y /\ Hc x = Hc y.
  Proof.
    unfold Bls.pop_check. intros H H' N. apply ch_eqb_spec in H, H'.
    exists (ctx, pk, gen2 A, pop_point pk proof), (ctx', pk', gen2 A, pop_point pk' proof). split.
    - intros E. apply N. congruence.
    - congruence.
  Qed.

  (** special soundness: two accepting answers to different challenges for the same commitment
      reveal the secret key *)
  Lemma pop_extract_l pk P c1 r1 c2 r2 :
    c1 <> c2 ->
    msub (P2 A) (msmul (P2 A) r1 (gen2 A)) (msmul (P2 A) c1 pk) = P ->
    msub (P2 A) (msmul (P2 A) r2 (gen2 A)) (msmul (P2 A) c2 pk) = P ->
    pk = pk_of (fdiv K (fsub K r1 r2) (fsub K c1 c2)).
  Proof.
    intros N E1 E2. apply (dl2_eq A L). rewrite dl2_pk_of.
    rewrite <- E2 in E1. apply (dl2_eq A L) in E1.
    rewrite !(dl2_sub A L), !(dl2_smul A L), (dl2_gen A L) in E1.
    assert (D : fsub K c1 c2 <> f0 K).
    { intros Z. apply N. transitivity (fsub K c1 c2 +' c2); [ring | rewrite Z; ring]. }
    assert (E : fsub K c1 c2 *' dl2 A pk = fsub K r1 r2).
    { transitivity (fsub K (r1 *' f1 K) (fsub K (r1 *' f1 K) (c1 *' dl2 A pk)) +' fopp K (c2 *' dl2 A pk)); [ring|].
      rewrite E1. ring. }
    rewrite <- E. field. assumption.
  Qed.
End BlsProofs.
