(** Algebra for the pairing-based consensus primitives (C19): BLS aggregate signatures and
    Pointcheval-Sanders signatures.  Self-contained (does not depend on Crypto/Alg.v).

    * [pops]  : the *operations* of a pairing setting: a scalar field [PF], three [PF]-modules
      [P1], [P2], [PT] (written additively; [PT] is the target group, so the code's
      "product of pairings" is a sum here), generators [gen1], [gen2], a pairing
      [pair : P1 -> P2 -> PT] and discrete-log maps [dl1], [dl2] (used by statements only,
      never by a protocol function).
    * [plaws] : the laws: [field_theory] (so [ring]/[field] work), module laws, bilinearity,
      non-degeneracy ([pair gen1 gen2 <> 0]) and one-dimensionality ([P = dl P * gen]).
      These model "prime-order groups with a bilinear non-degenerate pairing" and are part of
      the trusted base of C19.
    * protocol models are functions of the operations only, hence executable on the instance
      [ZrP] ("in the exponent": PF = Z mod r, P1 = P2 = PT = PF, pair a b = a*b); theorems
      take [plaws] as a Section hypothesis, i.e. they hold for every lawful instance.
    * [F5P] is a complete lawful instance over the field with five elements (the laws are
      jointly satisfiable). *)
From Coq Require Import ZArith List Field.
Import ListNotations.

Record fops : Type := mk_fops {
  fcar :> Type;
  f0 : fcar; f1 : fcar;
  fadd : fcar -> fcar -> fcar; fmul : fcar -> fcar -> fcar; fsub : fcar -> fcar -> fcar;
  fopp : fcar -> fcar; fdiv : fcar -> fcar -> fcar; finv : fcar -> fcar;
  feqb : fcar -> fcar -> bool }.

Record mops (K : fops) : Type := mk_mops {
  mcar :> Type;
  m0 : mcar;
  madd : mcar -> mcar -> mcar; mopp : mcar -> mcar;
  msmul : K -> mcar -> mcar;
  meqb : mcar -> mcar -> bool }.
Arguments m0 {K} _. Arguments madd {K} _ _ _. Arguments mopp {K} _ _.
Arguments msmul {K} _ _ _. Arguments meqb {K} _ _ _.

Definition msub {K} (M : mops K) (a b : M) : M := madd M a (mopp M b).

Record mlaws {K : fops} (M : mops K) : Prop := mk_mlaws {
  madd_assoc : forall a b c : M, madd M a (madd M b c) = madd M (madd M a b) c;
  madd_comm : forall a b : M, madd M a b = madd M b a;
  madd_0_l : forall a : M, madd M (m0 M) a = a;
  madd_opp_r : forall a : M, madd M a (mopp M a) = m0 M;
  msmul_add_r : forall (x : K) (a b : M), msmul M x (madd M a b) = madd M (msmul M x a) (msmul M x b);
  msmul_add_l : forall (x y : K) (a : M), msmul M (fadd K x y) a = madd M (msmul M x a) (msmul M y a);
  msmul_mul : forall (x y : K) (a : M), msmul M (fmul K x y) a = msmul M x (msmul M y a);
  msmul_1 : forall a : M, msmul M (f1 K) a = a;
  meqb_spec : forall a b : M, meqb M a b = true <-> a = b }.

Record pops : Type := mk_pops {
  PF : fops;
  P1 : mops PF; P2 : mops PF; PT : mops PF;
  gen1 : P1; gen2 : P2;
  pair : P1 -> P2 -> PT;
  dl1 : P1 -> PF; dl2 : P2 -> PF }.

Record plaws (A : pops) : Prop := mk_plaws {
  pf_th : field_theory (f0 (PF A)) (f1 (PF A)) (fadd (PF A)) (fmul (PF A)) (fsub (PF A))
            (fopp (PF A)) (fdiv (PF A)) (finv (PF A)) eq;
  pf_eqb : forall a b : PF A, feqb (PF A) a b = true <-> a = b;
  p1_laws : mlaws (P1 A); p2_laws : mlaws (P2 A); pt_laws : mlaws (PT A);
  pair_add_l : forall a b c, pair A (madd _ a b) c = madd _ (pair A a c) (pair A b c);
  pair_add_r : forall a b c, pair A a (madd _ b c) = madd _ (pair A a b) (pair A a c);
  pair_smul_l : forall x a b, pair A (msmul _ x a) b = msmul _ x (pair A a b);
  pair_smul_r : forall x a b, pair A a (msmul _ x b) = msmul _ x (pair A a b);
  pair_nondeg : pair A (gen1 A) (gen2 A) <> m0 (PT A);
  dl1_spec : forall a, a = msmul _ (dl1 A a) (gen1 A);
  dl2_spec : forall a, a = msmul _ (dl2 A a) (gen2 A) }.

Section Mod.
  Variable K : fops.
  Hypothesis Kth : field_theory (f0 K) (f1 K) (fadd K) (fmul K) (fsub K) (fopp K) (fdiv K) (finv K) eq.
  Hypothesis Keqb : forall a b : K, feqb K a b = true <-> a = b.
  Add Field Kfield : Kth.
  Variable M : mops K.
  Hypothesis ML : mlaws M.

  Notation "a + b" := (madd M a b).
  Notation "x *: a" := (msmul M x a) (at level 40, left associativity).

  Lemma madd_0_r a : a + m0 M = a.
  Proof. rewrite (madd_comm M ML). apply (madd_0_l M ML). Qed.

  Lemma madd_opp_l a : mopp M a + a = m0 M.
  Proof. rewrite (madd_comm M ML). apply (madd_opp_r M ML). Qed.

  Lemma madd_cancel_l a b c : a + b = a + c -> b = c.
  Proof.
    intros H. assert (E : mopp M a + (a + b) = mopp M a + (a + c)) by now rewrite H.
    now rewrite !(madd_assoc M ML), madd_opp_l, !(madd_0_l M ML) in E.
  Qed.

  Lemma msmul_0_l a : f0 K *: a = m0 M.
  Proof.
    apply (madd_cancel_l (f0 K *: a)). rewrite <- (msmul_add_l M ML), madd_0_r.
    f_equal. ring.
  Qed.

  Lemma msmul_0_r x : x *: m0 M = m0 M.
  Proof.
    apply (madd_cancel_l (x *: m0 M)). rewrite <- (msmul_add_r M ML), !madd_0_r.
    reflexivity.
  Qed.

  Lemma msmul_opp_l x a : fopp K x *: a = mopp M (x *: a).
  Proof.
    apply (madd_cancel_l (x *: a)). rewrite <- (msmul_add_l M ML), (madd_opp_r M ML).
    replace (fadd K x (fopp K x)) with (f0 K) by ring. apply msmul_0_l.
  Qed.

  Lemma mopp_as_smul a : mopp M a = fopp K (f1 K) *: a.
  Proof. now rewrite msmul_opp_l, (msmul_1 M ML). Qed.

  Lemma meqb_refl a : meqb M a a = true.
  Proof. now apply (meqb_spec M ML). Qed.

  Lemma meqb_false a b : meqb M a b = false <-> a <> b.
  Proof.
    split.
    - intros H E. apply (meqb_spec M ML) in E. congruence.
    - intros H. destruct (meqb M a b) eqn:E; [|reflexivity]. apply (meqb_spec M ML) in E. contradiction.
  Qed.

  Lemma feqb_false (a b : K) : feqb K a b = false <-> a <> b.
  Proof.
    split.
    - intros H E. apply Keqb in E. congruence.
    - intros H. destruct (feqb K a b) eqn:E; [|reflexivity]. apply Keqb in E. contradiction.
  Qed.

  Lemma f_eq_dec (a b : K) : a = b \/ a <> b.
  Proof. destruct (feqb K a b) eqn:E; [left; now apply Keqb | right; now apply feqb_false]. Qed.

  (** A module generated by one non-zero element [g] is torsion free over the field. *)
  Variable g : M.
  Hypothesis g_nz : g <> m0 M.

  Lemma msmul_gen_zero x : x *: g = m0 M -> x = f0 K.
  Proof.
    intros H. destruct (f_eq_dec x (f0 K)) as [|N]; [assumption|]. exfalso. apply g_nz.
    rewrite <- (msmul_1 M ML g). replace (f1 K) with (fmul K (finv K x) x) by (field; assumption).
    now rewrite (msmul_mul M ML), H, msmul_0_r.
  Qed.

  Lemma msmul_gen_inj x y : x *: g = y *: g -> x = y.
  Proof.
    intros H. assert (Z : fsub K x y *: g = m0 M).
    { replace (fsub K x y) with (fadd K x (fopp K y)) by ring.
      now rewrite (msmul_add_l M ML), msmul_opp_l, H, (madd_opp_r M ML). }
    apply msmul_gen_zero in Z. rewrite <- (Radd_0_l (F_R Kth) y) at 1. rewrite <- Z. ring.
  Qed.

  (** With a discrete-log map, [M] is isomorphic to [K]: every module identity becomes a
      field identity. *)
  Variable dl : M -> K.
  Hypothesis dl_spec : forall a, a = dl a *: g.

  Lemma dl_inj a b : dl a = dl b -> a = b.
  Proof. intros H. rewrite (dl_spec a), (dl_spec b). now rewrite H. Qed.

  Lemma dl_smul_gen x : dl (x *: g) = x.
  Proof. apply msmul_gen_inj. now rewrite <- dl_spec. Qed.

  Lemma dl_gen : dl g = f1 K.
  Proof. rewrite <- (msmul_1 M ML g) at 1. apply dl_smul_gen. Qed.

  Lemma dl_zero : dl (m0 M) = f0 K.
  Proof. rewrite <- (msmul_0_l g). apply dl_smul_gen. Qed.

  Lemma dl_add a b : dl (a + b) = fadd K (dl a) (dl b).
  Proof.
    apply msmul_gen_inj. rewrite <- dl_spec, (msmul_add_l M ML), <- !dl_spec. reflexivity.
  Qed.

  Lemma dl_smul x a : dl (x *: a) = fmul K x (dl a).
  Proof.
    apply msmul_gen_inj. rewrite <- dl_spec, (msmul_mul M ML), <- dl_spec. reflexivity.
  Qed.

  Lemma dl_opp a : dl (mopp M a) = fopp K (dl a).
  Proof. rewrite mopp_as_smul, dl_smul. ring. Qed.

  Lemma dl_sub a b : dl (msub M a b) = fsub K (dl a) (dl b).
  Proof. unfold msub. rewrite dl_add, dl_opp. ring. Qed.

  Lemma dl_eq_zero a : dl a = f0 K <-> a = m0 M.
  Proof.
    split; intros H.
    - apply dl_inj. now rewrite dl_zero.
    - rewrite H. apply dl_zero.
  Qed.

  Lemma dl_eq a b : a = b <-> dl a = dl b.
  Proof. split; [now intros ->|apply dl_inj]. Qed.
End Mod.

Section Pairing.
  Variable A : pops.
  Hypothesis L : plaws A.
  Add Field PFfield : (pf_th A L).

  Notation K := (PF A).
  Definition gT : PT A := pair A (gen1 A) (gen2 A).

  Lemma gT_nz : gT <> m0 (PT A).
  Proof. exact (pair_nondeg A L). Qed.

  Lemma gen1_nz : gen1 A <> m0 (P1 A).
  Proof.
    intros H. apply (pair_nondeg A L). rewrite H.
    rewrite <- (msmul_0_l K (pf_th A L) (P1 A) (p1_laws A L) (m0 _)).
    rewrite (pair_smul_l A L). apply (msmul_0_l K (pf_th A L) (PT A) (pt_laws A L)).
  Qed.

  Lemma gen2_nz : gen2 A <> m0 (P2 A).
  Proof.
    intros H. apply (pair_nondeg A L). rewrite H.
    rewrite <- (msmul_0_l K (pf_th A L) (P2 A) (p2_laws A L) (m0 _)).
    rewrite (pair_smul_r A L). apply (msmul_0_l K (pf_th A L) (PT A) (pt_laws A L)).
  Qed.

  Lemma fmul_eq_0 (a b : K) : fmul K a b = f0 K -> a = f0 K \/ b = f0 K.
  Proof.
    intros H. destruct (f_eq_dec K (pf_eqb A L) a (f0 K)) as [|N]; [now left|right].
    transitivity (fmul K (finv K a) (fmul K a b)); [field; assumption | rewrite H; ring].
  Qed.

  Lemma fmul_cancel_l (a b c : K) : a <> f0 K -> fmul K a b = fmul K a c -> b = c.
  Proof.
    intros N H. transitivity (fmul K (finv K a) (fmul K a b)); [field; assumption|].
    rewrite H. field; assumption.
  Qed.

  Lemma fadd_cancel_r (a b c : K) : fadd K a c = fadd K b c -> a = b.
  Proof.
    intros H. transitivity (fadd K (fadd K a c) (fopp K c)); [ring|]. rewrite H. ring.
  Qed.

  (** The pairing in the exponent. *)
  Lemma pair_exp a b : pair A a b = msmul (PT A) (fmul K (dl1 A a) (dl2 A b)) gT.
  Proof.
    rewrite (dl1_spec A L a) at 1. rewrite (dl2_spec A L b) at 1.
    rewrite (pair_smul_l A L), (pair_smul_r A L), <- (msmul_mul _ (pt_laws A L)). reflexivity.
  Qed.

  Lemma gT_inj x y : msmul (PT A) x gT = msmul (PT A) y gT -> x = y.
  Proof.
    apply (msmul_gen_inj K (pf_th A L) (pf_eqb A L) (PT A) (pt_laws A L) gT gT_nz).
  Qed.

  Lemma pair_eq_iff a b c d :
    pair A a b = pair A c d <-> fmul K (dl1 A a) (dl2 A b) = fmul K (dl1 A c) (dl2 A d).
  Proof.
    rewrite !pair_exp. split; [apply gT_inj | now intros ->].
  Qed.

  (** Discrete-log calculus for [P1] and [P2], packaged for rewriting. *)
  Ltac dl_side := first [exact (pf_th A L) | exact (pf_eqb A L) | exact (p1_laws A L) | exact (p2_laws A L)
                         | exact gen1_nz | exact gen2_nz | exact (dl1_spec A L) | exact (dl2_spec A L)].
  Lemma dl1_add (a b : P1 A) : dl1 A (madd _ a b) = fadd K (dl1 A a) (dl1 A b).
  Proof. apply dl_add with (g := gen1 A); dl_side. Qed.
  Lemma dl1_smul (x : K) (a : P1 A) : dl1 A (msmul _ x a) = fmul K x (dl1 A a).
  Proof. apply dl_smul with (g := gen1 A); dl_side. Qed.
  Lemma dl1_opp (a : P1 A) : dl1 A (mopp _ a) = fopp K (dl1 A a).
  Proof. apply dl_opp with (g := gen1 A); dl_side. Qed.
  Lemma dl1_sub (a b : P1 A) : dl1 A (msub _ a b) = fsub K (dl1 A a) (dl1 A b).
  Proof. apply dl_sub with (g := gen1 A); dl_side. Qed.
  Lemma dl1_zero  : dl1 A (m0 _) = f0 K.
  Proof. apply dl_zero with (g := gen1 A); dl_side. Qed.
  Lemma dl1_gen  : dl1 A (gen1 A) = f1 K.
  Proof. apply dl_gen with (g := gen1 A); dl_side. Qed.
  Lemma dl1_eq (a b : P1 A) : a = b <-> dl1 A a = dl1 A b.
  Proof. apply dl_eq with (g := gen1 A); dl_side. Qed.
  Lemma dl1_eq_zero (a : P1 A) : dl1 A a = f0 K <-> a = m0 (P1 A).
  Proof. apply dl_eq_zero with (g := gen1 A); dl_side. Qed.
  Lemma dl2_add (a b : P2 A) : dl2 A (madd _ a b) = fadd K (dl2 A a) (dl2 A b).
  Proof. apply dl_add with (g := gen2 A); dl_side. Qed.
  Lemma dl2_smul (x : K) (a : P2 A) : dl2 A (msmul _ x a) = fmul K x (dl2 A a).
  Proof. apply dl_smul with (g := gen2 A); dl_side. Qed.
  Lemma dl2_opp (a : P2 A) : dl2 A (mopp _ a) = fopp K (dl2 A a).
  Proof. apply dl_opp with (g := gen2 A); dl_side. Qed.
  Lemma dl2_sub (a b : P2 A) : dl2 A (msub _ a b) = fsub K (dl2 A a) (dl2 A b).
  Proof. apply dl_sub with (g := gen2 A); dl_side. Qed.
  Lemma dl2_zero  : dl2 A (m0 _) = f0 K.
  Proof. apply dl_zero with (g := gen2 A); dl_side. Qed.
  Lemma dl2_gen  : dl2 A (gen2 A) = f1 K.
  Proof. apply dl_gen with (g := gen2 A); dl_side. Qed.
  Lemma dl2_eq (a b : P2 A) : a = b <-> dl2 A a = dl2 A b.
  Proof. apply dl_eq with (g := gen2 A); dl_side. Qed.
  Lemma dl2_eq_zero (a : P2 A) : dl2 A a = f0 K <-> a = m0 (P2 A).
  Proof. apply dl_eq_zero with (g := gen2 A); dl_side. Qed.

  (** [check_pairing_eq a b c d] as coded in [curve_arithmetic::Pairing]:
      [e(a,b) * e(-c,d) == 1]. *)
  Definition check_pairing_eq (a : P1 A) (b : P2 A) (c : P1 A) (d : P2 A) : bool :=
    meqb (PT A) (madd (PT A) (pair A a b) (pair A (mopp (P1 A) c) d)) (m0 (PT A)).

  Lemma check_pairing_eq_iff a b c d :
    check_pairing_eq a b c d = true <-> pair A a b = pair A c d.
  Proof.
    unfold check_pairing_eq. rewrite (meqb_spec _ (pt_laws A L)), pair_eq_iff, !pair_exp.
    rewrite <- (msmul_add_l _ (pt_laws A L)).
    rewrite dl1_opp. split; intros H.
    - apply msmul_gen_zero with (g := gT) in H;
        [| exact (pf_th A L) | exact (pf_eqb A L) | exact (pt_laws A L) | exact gT_nz ].
      assert (E : fmul K (dl1 A a) (dl2 A b)
                  = fadd K (fadd K (fmul K (dl1 A a) (dl2 A b)) (fmul K (fopp K (dl1 A c)) (dl2 A d)))
                      (fmul K (dl1 A c) (dl2 A d))) by ring.
      rewrite E, H. ring.
    - rewrite H.
      replace (fadd K (fmul K (dl1 A c) (dl2 A d)) (fmul K (fopp K (dl1 A c)) (dl2 A d))) with (f0 K) by ring.
      apply msmul_0_l; [exact (pf_th A L) | exact (pt_laws A L)].
  Qed.
End Pairing.

(** ** Executable instance: the exponent field [Z mod r] *)
Definition r_bls : Z := 0x73eda753299d7d483339d80809a1d80553bda402fffe5bfeffffffff00000001.

Fixpoint powmod (b : Z) (e : positive) (m : Z) : Z :=
  match e with
  | xH => b mod m
  | xO e' => let t := powmod b e' m in (t * t) mod m
  | xI e' => let t := powmod b e' m in (((t * t) mod m) * b) mod m
  end.

Definition zinv (m a : Z) : Z :=
  match (m - 2)%Z with Zpos e => powmod a e m | _ => 0%Z end.

Definition ZmF (m : Z) : fops :=
  mk_fops Z 0%Z 1%Z (fun a b => (a + b) mod m)%Z (fun a b => (a * b) mod m)%Z
    (fun a b => (a - b) mod m)%Z (fun a => (- a) mod m)%Z
    (fun a b => (a * zinv m b) mod m)%Z (zinv m) Z.eqb.

Definition ZmM (m : Z) : mops (ZmF m) :=
  mk_mops (ZmF m) Z 0%Z (fun a b => (a + b) mod m)%Z (fun a => (- a) mod m)%Z
    (fun x a => (x * a) mod m)%Z Z.eqb.

(** G1 = G2 = GT = F, generators 1, pairing = multiplication, dlog = identity. *)
Definition ZmP (m : Z) : pops :=
  mk_pops (ZmF m) (ZmM m) (ZmM m) (ZmM m) 1%Z 1%Z (fun a b => (a * b) mod m)%Z (fun a => a) (fun a => a).

Definition ZrP : pops := ZmP r_bls.

(** ** A complete lawful instance over the field with five elements *)
Inductive five : Type := V0 | V1 | V2 | V3 | V4.
Definition five_to_Z (a : five) : Z := match a with V0 => 0 | V1 => 1 | V2 => 2 | V3 => 3 | V4 => 4 end.
Definition five_of_Z (z : Z) : five :=
  match (z mod 5)%Z with 0%Z => V0 | 1%Z => V1 | 2%Z => V2 | 3%Z => V3 | _ => V4 end.
Definition five_eqb (a b : five) : bool := Z.eqb (five_to_Z a) (five_to_Z b).
Definition five_lift2 (f : Z -> Z -> Z) (a b : five) : five := five_of_Z (f (five_to_Z a) (five_to_Z b)).
Definition five_inv (a : five) : five := match a with V0 => V0 | V1 => V1 | V2 => V3 | V3 => V2 | V4 => V4 end.

Definition F5 : fops :=
  mk_fops five V0 V1 (five_lift2 Z.add) (five_lift2 Z.mul) (five_lift2 Z.sub)
    (fun a => five_of_Z (- five_to_Z a)) (fun a b => five_lift2 Z.mul a (five_inv b)) five_inv five_eqb.
Definition M5 : mops F5 :=
  mk_mops F5 five V0 (five_lift2 Z.add) (fun a => five_of_Z (- five_to_Z a)) (five_lift2 Z.mul) five_eqb.
Definition F5P : pops :=
  mk_pops F5 M5 M5 M5 V1 V1 (five_lift2 Z.mul) (fun a => a) (fun a => a).

Lemma M5_laws : mlaws M5.
Proof.
  constructor; cbn.
  - intros [] [] []; reflexivity.
  - intros [] []; reflexivity.
  - intros []; reflexivity.
  - intros []; reflexivity.
  - intros [] [] []; reflexivity.
  - intros [] [] []; reflexivity.
  - intros [] [] []; reflexivity.
  - intros []; reflexivity.
  - intros [] []; cbn; split; intros H; try reflexivity; try discriminate.
Qed.

Lemma F5P_laws : plaws F5P.
Proof.
  constructor; try exact M5_laws; cbn.
  - constructor; [constructor|..]; cbn.
    + intros []; reflexivity.
    + intros [] []; reflexivity.
    + intros [] [] []; reflexivity.
    + intros []; reflexivity.
    + intros [] []; reflexivity.
    + intros [] [] []; reflexivity.
    + intros [] [] []; reflexivity.
    + intros [] []; reflexivity.
    + intros []; reflexivity.
    + discriminate.
    + intros [] []; reflexivity.
    + intros [] H; try reflexivity. now elim H.
  - intros [] []; cbn; split; intros H; try reflexivity; try discriminate.
  - intros [] [] []; reflexivity.
  - intros [] [] []; reflexivity.
  - intros [] [] []; reflexivity.
  - intros [] [] []; reflexivity.
  - discriminate.
  - intros []; reflexivity.
  - intros []; reflexivity.
Qed.
