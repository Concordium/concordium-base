(** Theorems about the Pointcheval-Sanders model (Ps.v), for every lawful pairing setting. *)
From Coq Require Import List Bool Arith Lia.
From CB Require Import Crypto.PairingAlg Crypto.Ps.
Import ListNotations.

Section PsProofs.
  Variable A : pops.
  Hypothesis L : plaws A.
  Add Field PFfield_ps : (pf_th A L).

  Notation K := (PF A).
  Notation "a +' b" := (fadd K a b) (at level 50, left associativity).
  Notation "a *' b" := (fmul K a b) (at level 40, left associativity).

  (** [sum m_i * y_i] over the common prefix *)
  Fixpoint dot (ms ys : list K) : K :=
    match ms, ys with
    | m :: ms', y :: ys' => m *' y +' dot ms' ys'
    | _, _ => f0 K
    end.

  Lemma fold_dot ms : forall ys acc,
    fold_left (fun acc p => acc +' fst p *' snd p) (combine ms ys) acc = acc +' dot ms ys.
  Proof.
    induction ms as [|m ms IH]; intros ys acc; cbn [combine fold_left dot]; [ring|].
    destruct ys as [|y ys]; cbn [fold_left fst snd]; [ring|]. rewrite IH. ring.
  Qed.

  Fixpoint wsum2 (bases : list (P2 A)) (ms : list K) : K :=
    match bases, ms with
    | b :: bs, m :: ms' => m *' dl2 A b +' wsum2 bs ms'
    | _, _ => f0 K
    end.

  (** the same weighted sum [sum m_i * dl b_i] for either source group [M] with its
      discrete-log map [dl] *)
  Definition wsum {M : mops K} (dl : M -> K) : list M -> list K -> K :=
    fix go bases ms :=
      match bases, ms with
      | b :: bs, m :: ms' => m *' dl b +' go bs ms'
      | _, _ => f0 K
      end.

  Lemma wsum2_wsum bases ms : wsum2 bases ms = wsum (dl2 A) bases ms.
  Proof. reflexivity. Qed.

  Lemma dl_fold_msmul {M : mops K} (dl : M -> K) :
    (forall a b, dl (madd M a b) = dl a +' dl b) -> (forall x a, dl (msmul M x a) = x *' dl a) ->
    forall bases ms acc,
    dl (fold_left (fun acc p => madd M acc (msmul M (snd p) (fst p))) (combine bases ms) acc)
    = dl acc +' wsum dl bases ms.
  Proof.
    intros dl_add dl_smul.
    induction bases as [|b bs IH]; intros ms acc; cbn [combine fold_left wsum]; [ring|].
    destruct ms as [|m ms]; cbn [fold_left fst snd]; [ring|].
    rewrite IH, dl_add, dl_smul. ring.
  Qed.

  Lemma wsum_honest {M : mops K} (dl : M -> K) (g : M) :
    (forall x a, dl (msmul M x a) = x *' dl a) -> dl g = f1 K ->
    forall ys ms, wsum dl (map (fun y => msmul M y g) ys) ms = dot ms ys.
  Proof.
    intros dl_smul dl_g.
    induction ys as [|y ys IH]; intros [|m ms]; cbn [map wsum dot]; try reflexivity.
    rewrite IH, dl_smul, dl_g. ring.
  Qed.

  Lemma dl2_msg_point pk ms : dl2 A (ps_msg_point A pk ms) = wsum2 (pk_yts A pk) ms.
  Proof.
    unfold ps_msg_point. rewrite wsum2_wsum, (dl_fold_msmul (dl2 A) (dl2_add A L) (dl2_smul A L)), (dl2_zero A L). ring.
  Qed.

  Lemma dl1_commit pk mask ms :
    dl1 A (ps_commit A pk mask ms) = mask *' dl1 A (pk_g A pk) +' wsum (dl1 A) (pk_ys A pk) ms.
  Proof. unfold ps_commit. rewrite (dl_fold_msmul (dl1 A) (dl1_add A L) (dl1_smul A L)), (dl1_smul A L). reflexivity. Qed.

  Lemma wsum2_pad0 bases : forall ms, wsum2 bases (ms ++ [f0 K]) = wsum2 bases ms.
  Proof.
    induction bases as [|b bs IH]; intros [|m ms]; cbn [app wsum2]; try reflexivity.
    - destruct bs; cbn [wsum2]; ring.
    - now rewrite IH.
  Qed.

  (** *** the exact acceptance condition of [verify], for an arbitrary (even malformed) key *)
  Lemma if_false_else_true (c d : bool) : (if c then false else d) = true <-> c = false /\ d = true.
  Proof. destruct c; [split; [discriminate | now intros [? _]] | split; [now split | now intros [_ ?]]]. Qed.

  Lemma ps_check_iff (a b : P1 A) (n : nat) (ms : list K) (Q gt : P2 A) :
    (if meqb (P1 A) a (m0 (P1 A)) || (n <? length ms) then false else check_pairing_eq A a Q b gt) = true <->
    a <> m0 (P1 A) /\ length ms <= n /\ dl1 A a *' dl2 A Q = dl1 A b *' dl2 A gt.
  Proof.
    rewrite if_false_else_true, orb_false_iff, (meqb_false K (P1 A) (p1_laws A L)), Nat.ltb_ge.
    rewrite (check_pairing_eq_iff A L), (pair_eq_iff A L). apply and_assoc.
  Qed.

  Lemma ps_verify_iff_l pk a b ms :
    ps_verify A pk (a, b) ms = true <->
    a <> m0 (P1 A) /\ length ms <= length (pk_yts A pk) /\
    dl1 A a *' (wsum2 (pk_yts A pk) ms +' dl2 A (pk_xt A pk)) = dl1 A b *' dl2 A (pk_gt A pk).
  Proof.
    unfold ps_verify. cbn [fst snd]. rewrite ps_check_iff, (dl2_add A L), dl2_msg_point. reflexivity.
  Qed.

  Lemma ps_verify_blinded_iff_l pk a b ms t :
    ps_verify_blinded A pk (a, b) ms t = true <->
    a <> m0 (P1 A) /\ length ms <= length (pk_yts A pk) /\
    dl1 A a *' (wsum2 (pk_yts A pk) ms +' dl2 A (pk_xt A pk) +' t *' dl2 A (pk_gt A pk))
      = dl1 A b *' dl2 A (pk_gt A pk).
  Proof.
    unfold ps_verify_blinded. cbn [fst snd].
    rewrite ps_check_iff, !(dl2_add A L), (dl2_smul A L), dl2_msg_point. reflexivity.
  Qed.

  Variable ys : list K.
  Variable x : K.
  Let sk := ps_keygen A ys x.
  Let pk := ps_pk_of A sk.

  Lemma ps_verify_honest_iff_l a b ms :
    ps_verify A pk (a, b) ms = true <->
    a <> m0 (P1 A) /\ length ms <= length ys /\ dl1 A b = dl1 A a *' (dot ms ys +' x).
  Proof.
    rewrite ps_verify_iff_l. unfold pk, sk, ps_pk_of, ps_keygen. cbn [pk_yts pk_xt pk_gt sk_ys sk_gt sk_x].
    rewrite map_length, wsum2_wsum, (wsum_honest (dl2 A) (gen2 A) (dl2_smul A L) (dl2_gen A L)), (dl2_smul A L), (dl2_gen A L).
    replace (x *' f1 K) with x by ring. replace (dl1 A b *' f1 K) with (dl1 A b) by ring.
    split; intros (Ha & Hl & H); repeat split; auto.
  Qed.

  Lemma ps_sign_known_none_iff_l ms r : ps_sign_known A sk ms r = None <-> length ys < length ms.
  Proof.
    unfold ps_sign_known, sk, ps_keygen. cbn [sk_ys].
    destruct (length ys <? length ms) eqn:E.
    - apply Nat.ltb_lt in E. tauto.
    - apply Nat.ltb_ge in E. split; [discriminate | lia].
  Qed.

  (** a pair [(a, b)] with [dl a = r <> 0] and [dl b = r (<ms, ys> + x)], whatever produced it,
      verifies on exactly the vectors with the same key-weighted sum as [ms] *)
  Lemma ps_honest_sig_iff a b r ms ms' :
    r <> f0 K -> dl1 A a = r -> dl1 A b = r *' (dot ms ys +' x) ->
    (ps_verify A pk (a, b) ms' = true <-> length ms' <= length ys /\ dot ms' ys = dot ms ys).
  Proof.
    intros Nr Ha Hb. rewrite ps_verify_honest_iff_l, Ha, Hb. split.
    - intros (_ & Hl & H). split; [exact Hl|]. apply (fmul_cancel_l A L) in H; [|exact Nr].
      transitivity ((dot ms' ys +' x) +' fopp K x); [ring|]. rewrite <- H. ring.
    - intros [Hl H]. repeat split; [|exact Hl|now rewrite H].
      intros Z. apply Nr. rewrite <- Ha, Z. apply (dl1_zero A L).
  Qed.

  Lemma ps_sign_verify_l ms r sig :
    r <> f0 K -> ps_sign_known A sk ms r = Some sig -> ps_verify A pk sig ms = true.
  Proof.
    intros Nr. unfold ps_sign_known, sk, ps_keygen. cbn [sk_ys sk_g sk_x].
    destruct (length ys <? length ms) eqn:E; [discriminate|]. apply Nat.ltb_ge in E.
    intros S. inversion S; subst sig; clear S.
    apply (ps_honest_sig_iff _ _ r ms ms Nr); [| |split; [exact E | reflexivity]].
    - rewrite (dl1_smul A L), (dl1_gen A L). ring.
    - rewrite fold_dot, !(dl1_smul A L), (dl1_gen A L). ring.
  Qed.

  (** blind issuance: commit, sign the commitment, unblind *)
  Definition ps_issue (mask r : K) (ms : list K) : P1 A * P1 A :=
    ps_retrieve A (ps_sign_unknown A sk (ps_commit A pk mask ms) r) mask.

  Lemma ps_issue_dl mask r ms :
    dl1 A (fst (ps_issue mask r ms)) = r /\
    dl1 A (snd (ps_issue mask r ms)) = r *' (dot ms ys +' x).
  Proof.
    unfold ps_issue, ps_retrieve, ps_sign_unknown. cbn [fst snd]. split.
    - unfold sk, ps_keygen. cbn [sk_g]. rewrite (dl1_smul A L), (dl1_gen A L). ring.
    - rewrite (dl1_sub A L), !(dl1_smul A L), (dl1_add A L), (dl1_smul A L), dl1_commit.
      unfold pk, sk, ps_pk_of, ps_keygen. cbn [pk_g pk_ys sk_g sk_ys sk_x].
      rewrite (wsum_honest (dl1 A) (gen1 A) (dl1_smul A L) (dl1_gen A L)), (dl1_gen A L). ring.
  Qed.

  Lemma ps_blind_issue_unblind_iff_l mask r ms ms' :
    r <> f0 K ->
    (ps_verify A pk (ps_issue mask r ms) ms' = true <-> length ms' <= length ys /\ dot ms' ys = dot ms ys).
  Proof.
    intros Nr. destruct (ps_issue_dl mask r ms) as [Ha Hb].
    destruct (ps_issue mask r ms) as [a b]. exact (ps_honest_sig_iff a b r ms ms' Nr Ha Hb).
  Qed.

  Lemma ps_blind_issue_unblind_verifies_l mask r ms :
    r <> f0 K -> length ms <= length ys -> ps_verify A pk (ps_issue mask r ms) ms = true.
  Proof. intros Nr Hl. apply ps_blind_issue_unblind_iff_l; [exact Nr | split; [exact Hl | reflexivity]]. Qed.
End PsProofs.

Section PsGeneral.
  Variable A : pops.
  Hypothesis L : plaws A.
  Add Field PFfield_ps2 : (pf_th A L).
  Notation K := (PF A).

  Notation "a +' b" := (fadd K a b) (at level 50, left associativity).
  Notation "a *' b" := (fmul K a b) (at level 40, left associativity).

  Lemma msmul_nz_iff (r : K) (a : P1 A) : r <> f0 K -> msmul (P1 A) r a <> m0 (P1 A) <-> a <> m0 (P1 A).
  Proof.
    intros Nr. rewrite <- !(dl1_eq_zero A L), (dl1_smul A L). split; intros N Z; apply N.
    - rewrite Z. ring.
    - destruct (fmul_eq_0 A L _ _ Z); [contradiction | assumption].
  Qed.

  Lemma blind_eq_iff (r t a b w g : K) : r <> f0 K ->
    r *' a *' (w +' t *' g) = r *' (b +' t *' a) *' g <-> a *' w = b *' g.
  Proof.
    intros Nr. split; intros H.
    - apply (fmul_cancel_l A L r _ _ Nr), (fadd_cancel_r A L _ _ (r *' t *' a *' g)).
      transitivity (r *' a *' (w +' t *' g)); [ring | rewrite H; ring].
    - transitivity (r *' (a *' w) +' r *' t *' a *' g); [ring | rewrite H; ring].
  Qed.

  (** blinding with [(r, t)], [r <> 0], turns a signature valid on [ms] into one satisfying the
      [t]-shifted relation, and only such a signature (any key, honest or not) *)
  Lemma ps_blind_preserves_validity_l (pk : ps_pk A) sig ms r t :
    r <> f0 K ->
    ps_verify_blinded A pk (ps_blind A sig r t) ms t = ps_verify A pk sig ms.
  Proof.
    intros Nr. destruct sig as [a b]. unfold ps_blind. cbn [fst snd]. apply eq_true_iff_eq.
    rewrite (ps_verify_blinded_iff_l A L), (ps_verify_iff_l A L), (msmul_nz_iff r a Nr).
    rewrite !(dl1_smul A L), (dl1_add A L), (dl1_smul A L), (blind_eq_iff _ _ _ _ _ _ Nr). reflexivity.
  Qed.

  (** [verify] pads the message vector with zeros: a trailing zero message changes nothing *)
  Lemma ps_zero_padding_l (pk : ps_pk A) sig ms :
    length ms < length (pk_yts A pk) ->
    ps_verify A pk sig (ms ++ [f0 K]) = ps_verify A pk sig ms.
  Proof.
    intros Hl. destruct sig as [a b]. apply eq_true_iff_eq.
    rewrite !(ps_verify_iff_l A L), (wsum2_pad0 A L), app_length. cbn [length].
    assert (E : length ms + 1 <= length (pk_yts A pk) <-> length ms <= length (pk_yts A pk)) by lia.
    rewrite E. reflexivity.
  Qed.
End PsGeneral.
