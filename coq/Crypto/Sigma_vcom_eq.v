(** sigma_protocols/vcom_eq.rs: a vector commitment [C = sum x_i*g_i + r*h] and individual commitments
    [C_i = x_i*g_bar + r_i*h_bar] for the indices i in a map [comms : BTreeMap<u8, Commitment>].
    Maps are association lists in increasing key order (the iteration order of BTreeMap); the loops over
    the indices 0..n with [get] on both maps are transcribed as [walk].  Response style [rho - c*w].

    The model follows the code AFTER the repair 82fae784a ([points.len() != comms.len() => None]);
    [vcom_extract_prefix] is the code before it, see [vcom_prefix_unchecked_commitment_refuted_]. *)
From Coq Require Import ZArith List Lia String Bool.
From CB Require Import Crypto.Alg Crypto.Transcript Crypto.TranscriptProofs Crypto.SigmaGeneric Crypto.SigmaCodec.
Import ListNotations.

Definition amap (X : Type) : Type := list (N * X).
Definition aget {X} (m : amap X) (i : N) : option X :=
  match find (fun p => N.eqb (fst p) i) m with Some p => Some (snd p) | None => None end.
(** [for (i, v) in vals.enumerate() { if let (Some(a), Some(b)) = (m1.get(i), m2.get(i)) { push f i v a b } }] *)
Fixpoint walk {A X Y Z} (f : N -> A -> X -> Y -> Z) (m1 : amap X) (m2 : amap Y) (i : N) (vals : list A) : list Z :=
  match vals with
  | [] => []
  | v :: vals' =>
    match aget m1 i, aget m2 i with
    | Some a, Some b => f i v a b :: walk f m1 m2 (i + 1)%N vals'
    | _, _ => walk f m1 m2 (i + 1)%N vals'
    end
  end.

Definition hit {X Y} (m1 : amap X) (m2 : amap Y) (k : N) : bool :=
  match aget m1 k, aget m2 k with Some _, Some _ => true | _, _ => false end.

(** two loops with the same hit pattern produce equally many items *)
Lemma walk_length_eq {A A' X Y X' Y' Z Z'} (f : N -> A -> X -> Y -> Z) (f' : N -> A' -> X' -> Y' -> Z')
    (m1 : amap X) (m2 : amap Y) (m1' : amap X') (m2' : amap Y') :
  forall (vals : list A) (vals' : list A') (i : N), List.length vals = List.length vals' ->
  (forall k, (i <= k < i + N.of_nat (List.length vals))%N -> hit m1 m2 k = hit m1' m2' k) ->
  List.length (walk f m1 m2 i vals) = List.length (walk f' m1' m2' i vals').
Proof.
  induction vals as [|v vals IH]; intros [|v' vals'] i L Hh; try discriminate; [reflexivity|].
  assert (Hi := Hh i). unfold hit in Hi. cbn [walk].
  assert (R : List.length (walk f m1 m2 (i + 1)%N vals) = List.length (walk f' m1' m2' (i + 1)%N vals')).
  { apply IH; [cbn in L; lia|]. intros k Hk. apply Hh. cbn [List.length]. lia. }
  cbn [List.length] in Hi.
  destruct (aget m1 i), (aget m2 i), (aget m1' i), (aget m2' i); cbn [List.length];
    try (specialize (Hi ltac:(lia)); discriminate); congruence.
Qed.

Fixpoint inc_from (i : N) (ks : list N) : Prop :=
  match ks with [] => True | k :: ks' => (i <= k)%N /\ inc_from (k + 1)%N ks' end.
Lemma inc_from_weaken : forall ks i j, (j <= i)%N -> inc_from i ks -> inc_from j ks.
Proof. destruct ks; cbn; auto. intros i j L [H1 H2]. split; [lia|auto]. Qed.
Lemma aget_none {X} : forall (m : amap X) i j, inc_from j (map fst m) -> (i < j)%N -> aget m i = None.
Proof.
  unfold aget. induction m as [|[k a] m IH]; intros i j Hs L; [reflexivity|]. cbn in Hs. destruct Hs as [H1 H2].
  cbn [find fst]. destruct (N.eqb k i) eqn:E; [apply N.eqb_eq in E; lia|]. apply (IH i (k + 1)%N); auto. lia.
Qed.
(** the response map built by the prover's loop: keys are the hit indices, in increasing order *)
Lemma walk_keys_inc {A X Y V} (g : X -> Y -> V) (m1 : amap X) (m2 : amap Y) : forall (vals : list A) j,
  inc_from j (map fst (walk (fun i (_ : A) a b => (i, g a b)) m1 m2 j vals)).
Proof.
  induction vals as [|v vals IH]; intros j; [exact I|]. cbn [walk].
  destruct (aget m1 j), (aget m2 j); cbn [map fst inc_from];
    try (apply (inc_from_weaken _ (j + 1)%N); [lia|apply IH]).
  split; [lia|apply IH].
Qed.
Lemma aget_walk {A X Y V} (g : X -> Y -> V) (m1 : amap X) (m2 : amap Y) : forall (vals : list A) j k,
  (j <= k < j + N.of_nat (List.length vals))%N ->
  aget (walk (fun i (_ : A) a b => (i, g a b)) m1 m2 j vals) k =
  match aget m1 k, aget m2 k with Some a, Some b => Some (g a b) | _, _ => None end.
Proof.
  induction vals as [|v vals IH]; intros j k Hk; [cbn in Hk; lia|]. cbn [walk].
  destruct (N.eq_dec j k) as [->|Ne].
  - destruct (aget m1 k) eqn:E1, (aget m2 k) eqn:E2;
      try (apply (aget_none _ k (k + 1)%N); [apply walk_keys_inc|lia]).
    unfold aget. cbn [find fst]. now rewrite N.eqb_refl.
  - assert (R : aget (walk (fun i (_ : A) a b => (i, g a b)) m1 m2 (j + 1)%N vals) k =
                match aget m1 k, aget m2 k with Some a, Some b => Some (g a b) | _, _ => None end).
    { apply IH. cbn [List.length] in Hk. lia. }
    destruct (aget m1 j), (aget m2 j); auto.
    unfold aget at 1. cbn [find fst]. destruct (N.eqb j k) eqn:E; [apply N.eqb_eq in E; contradiction|exact R].
Qed.

Record vcom_stmt {K : FieldOps} (M : ModOps K) := mkVcom {
  vc_comm : M; vc_comms : amap M; vc_gis : list M; vc_h : M; vc_gbar : M; vc_hbar : M }.
Arguments mkVcom {K M} _ _ _ _ _ _. Arguments vc_comm {K M} _. Arguments vc_comms {K M} _. Arguments vc_gis {K M} _.
Arguments vc_h {K M} _. Arguments vc_gbar {K M} _. Arguments vc_hbar {K M} _.

Section VcomEq.
  Context {K : FieldOps} {M : ModOps K} (Cd : CodecOps M).
  Local Open Scope G_scope.
  Notation len := (@List.length _).
  Definition vc_wit : Type := (list K * K * amap K)%type.   (* xis / alphas, r / r~, ris / r~_i *)

  (** [Serial] of [BTreeMap<u8, V>]: u64 count, then key byte and value in key order *)
  Definition ser_map8 {X} (ser : X -> bytes) (m : amap X) : bytes :=
    be64 (N.of_nat (len m)) ++ List.concat (map (fun p => [fst p] ++ ser (snd p)) m).
  (** "C", "Cis", "gis", "h", then "h_bar" BEFORE "g_bar" *)
  Definition vcom_public (k : tkind) (s : vcom_stmt M) : bytes :=
    msg k (str "C") (serG Cd (vc_comm s)) ++ msg k (str "Cis") (ser_map8 (serG Cd) (vc_comms s)) ++
    msgs k (str "gis") (map (serG Cd) (vc_gis s)) ++ msg k (str "h") (serG Cd (vc_h s)) ++
    msg k (str "h_bar") (serG Cd (vc_hbar s)) ++ msg k (str "g_bar") (serG Cd (vc_gbar s)).

  (** indices are converted to u8: more than 256 generators make the loops fail *)
  Definition fits_u8 (n : nat) : bool := Nat.leb n 256.
  Definition neqb (a b : nat) : bool := negb (Nat.eqb a b).
  Definition resp1 (c w rho : K) : K := Fadd K (Fopp K (Fmul K c w)) rho.

  Definition vcom_commit (s : vcom_stmt M) (r : vc_wit) : option (M * list M) :=
    let '(alphas, rt, rts) := r in
    if negb (fits_u8 (len (vc_gis s))) then None else
    Some (msm alphas (vc_gis s) + rt *: vc_h s,
          walk (fun _ al (_ : M) rti => al *: vc_gbar s + rti *: vc_hbar s) (vc_comms s) rts 0%N alphas).
  Definition vcom_respond (s : vcom_stmt M) (w r : vc_wit) (c : K) : option vc_wit :=
    let '(xis, wr, ris) := w in let '(alphas, rt, rts) := r in
    if neqb (len alphas) (len xis) || neqb (len rts) (len ris) || neqb (len ris) (len (vc_comms s)) then None else
    if negb (fits_u8 (len xis)) then None else
    Some (map2 (resp1 c) xis alphas, resp1 c wr rt,
          walk (fun i (_ : K * K) rti ri => (i, resp1 c ri rti)) rts ris 0%N (combine alphas xis)).
  Definition vcom_points (s : vcom_stmt M) (c : K) (sis : list K) (tis : amap K) : list M :=
    walk (fun _ si Ci ti => si *: vc_gbar s + (ti *: vc_hbar s + c *: Ci)) (vc_comms s) tis 0%N sis.
  Definition vcom_guard (s : vcom_stmt M) (sis : list K) (tis : amap K) : bool :=
    match sis with [] => false | _ =>
      negb (neqb (len sis) (len (vc_gis s)) || neqb (len tis) (len (vc_comms s)) || Nat.ltb (len sis) (len tis)
            || negb (fits_u8 (len sis)))
    end.
  Definition vcom_point (s : vcom_stmt M) (c : K) (sis : list K) (t : K) : M :=
    msm sis (vc_gis s) + (t *: vc_h s + c *: vc_comm s).
  (** the code before 82fae784a *)
  Definition vcom_extract_prefix (s : vcom_stmt M) (c : K) (z : vc_wit) : option (M * list M) :=
    let '(sis, t, tis) := z in
    if vcom_guard s sis tis then Some (vcom_point s c sis t, vcom_points s c sis tis) else None.
  Definition vcom_extract (s : vcom_stmt M) (c : K) (z : vc_wit) : option (M * list M) :=
    let '(sis, t, tis) := z in
    if vcom_guard s sis tis then
      let pts := vcom_points s c sis tis in
      if neqb (len pts) (len (vc_comms s)) then None else Some (vcom_point s c sis t, pts)
    else None.

  Definition vcom_proto : proto K := {|
    p_stmt := vcom_stmt M; p_wit := vc_wit; p_rand := vc_wit; p_cm := M * list M; p_resp := vc_wit;
    p_public := vcom_public; p_commit := vcom_commit; p_respond := vcom_respond; p_extract := vcom_extract;
    p_ser_cm := fun a => serG Cd (fst a) ++ ser_vec (map (serG Cd) (snd a));
    p_ser_resp := fun z => let '(sis, t, tis) := z in
      ser_vec16 (map (serF Cd) sis) ++ serF Cd t ++
      be16 (N.of_nat (len tis)) ++ List.concat (map (fun p => [fst p] ++ serF Cd (snd p)) tis) |}.

  Definition vcom_recover (s : vcom_stmt M) (w : vc_wit) (c : K) (z : vc_wit) : vc_wit :=
    let '(xis, wr, ris) := w in let '(sis, t, tis) := z in
    let rec zi wi := Fadd K zi (Fmul K c wi) in
    (map2 rec sis xis, rec t wr, map2 (fun p q => (fst p, rec (snd p) (snd q))) tis ris).

  (** after the repair: an accepted response answers every individual commitment, and the vector
      lengths are the statement's *)
  Theorem vcom_extract_checks_every_commitment_ : forall s c sis t tis a pts,
    vcom_extract s c (sis, t, tis) = Some (a, pts) ->
    len pts = len (vc_comms s) /\ len sis = len (vc_gis s) /\ len tis = len (vc_comms s).
  Proof.
    intros s c sis t tis a pts. unfold vcom_extract. destruct (vcom_guard s sis tis) eqn:G; [|discriminate].
    destruct (neqb (len (vcom_points s c sis tis)) (len (vc_comms s))) eqn:E; [discriminate|].
    intro X. injection X as _ <-. unfold neqb in E. apply negb_false_iff, Nat.eqb_eq in E. split; [exact E|].
    unfold vcom_guard in G. destruct sis; [discriminate|]. apply negb_true_iff in G.
    apply orb_false_iff in G. destruct G as [G _]. apply orb_false_iff in G. destruct G as [G _].
    apply orb_false_iff in G. destruct G as [G1 G2]. unfold neqb in G1, G2.
    apply negb_false_iff, Nat.eqb_eq in G1. apply negb_false_iff, Nat.eqb_eq in G2. auto.
  Qed.
  (** the relation, stated in the shape of the verifier's loop: every individual commitment is
      answered by a randomness in [ris] (same key sets, all keys among the indices 0..n-1), and
      for every index present, [C_i = x_i*g_bar + r_i*h_bar] *)
  Definition same_dom {X Y} (m1 : amap X) (m2 : amap Y) : Prop :=
    forall k, aget m1 k = None <-> aget m2 k = None.
  Definition vcom_rel (s : vcom_stmt M) (w : vc_wit) : Prop :=
    let '(xis, wr, ris) := w in
    len xis = len (vc_gis s) /\ (1 <= len xis <= 256)%nat /\
    len ris = len (vc_comms s) /\ same_dom (vc_comms s) ris /\
    vc_comm s = msm xis (vc_gis s) + wr *: vc_h s /\
    Forall (fun p : M * M => fst p = snd p)
      (walk (fun _ x C r => (C, x *: vc_gbar s + r *: vc_hbar s)) (vc_comms s) ris 0%N xis) /\
    len (walk (fun _ (_ : K) (C : M) (_ : K) => C) (vc_comms s) ris 0%N xis) = len (vc_comms s).
  Definition vcom_rok (s : vcom_stmt M) (r : vc_wit) : Prop :=
    let '(alphas, _, rts) := r in
    len alphas = len (vc_gis s) /\ len rts = len (vc_comms s) /\ same_dom rts (vc_comms s).

  Context {KL : FieldLaws K} {ML : ModLaws M}.
  Add Field Kf_vc : (@F_th K KL).

  (** the individual points the verifier reconstructs are the ones the prover committed to *)
  Lemma vcom_points_complete (s : vcom_stmt M) c (rts ris tis : amap K) :
    same_dom (vc_comms s) ris -> same_dom rts (vc_comms s) ->
    forall (xis alphas : list K) i, len alphas = len xis ->
    (forall k, (i <= k < i + N.of_nat (len xis))%N ->
       aget tis k = match aget rts k, aget ris k with Some a, Some b => Some (resp1 c b a) | _, _ => None end) ->
    Forall (fun p : M * M => fst p = snd p)
      (walk (fun _ x C r => (C, x *: vc_gbar s + r *: vc_hbar s)) (vc_comms s) ris i xis) ->
    walk (fun _ si Ci ti => si *: vc_gbar s + (ti *: vc_hbar s + c *: Ci)) (vc_comms s) tis i (map2 (resp1 c) xis alphas) =
    walk (fun _ al (_ : M) rti => al *: vc_gbar s + rti *: vc_hbar s) (vc_comms s) rts i alphas.
  Proof.
    intros D1 D2. induction xis as [|x xis IH]; intros [|al alphas] i L Ht Hr; try discriminate; [reflexivity|].
    cbn [map2 walk] in *. pose proof (Ht i ltac:(cbn [len]; lia)) as Hi.
    assert (IHt : forall k, (i + 1 <= k < i + 1 + N.of_nat (len xis))%N ->
       aget tis k = match aget rts k, aget ris k with Some a, Some b => Some (resp1 c b a) | _, _ => None end).
    { intros k Hk. apply Ht. cbn [len]. lia. }
    destruct (aget (vc_comms s) i) as [C|] eqn:EC.
    - destruct (aget ris i) as [r|] eqn:Er; [|apply D1 in Er; congruence].
      destruct (aget rts i) as [rt|] eqn:Ert; [|apply D2 in Ert; congruence].
      rewrite Hi. inversion Hr as [|? ? Hh Hr']; subst. cbn [fst snd] in Hh. f_equal.
      + rewrite Hh. unfold resp1. mod_norm.
      + apply IH; auto.
    - destruct (aget rts i) as [rt|] eqn:Ert.
      + exfalso. assert (aget rts i = None) by (apply D2; exact EC). congruence.
      + apply IH; auto; destruct (aget ris i); exact Hr.
  Qed.

  Theorem vcom_complete_ : complete vcom_proto vcom_rel vcom_rok.
  Proof.
    intros s [[xis wr] ris] [[alphas rt] rts] (Lx & Ln & Lr & D1 & Hc & Hr & Hl) (La & Lt & D2).
    assert (Fit : fits_u8 (len xis) = true) by (unfold fits_u8; apply Nat.leb_le; lia).
    rewrite <- Lx in La.
    eexists. split.
    { cbn [p_commit vcom_proto vcom_commit]. rewrite <- Lx, Fit. reflexivity. }
    intro c. cbn [p_respond p_extract vcom_proto vcom_respond]. unfold neqb.
    rewrite La, Lt, Lr, !Nat.eqb_refl, Fit. cbn [negb orb]. eexists. split; [reflexivity|].
    remember (walk (fun i (_ : K * K) rti ri => (i, resp1 c ri rti)) rts ris 0%N (combine alphas xis)) as tis eqn:Etis.
    remember (map2 (resp1 c) xis alphas) as sis eqn:Esis.
    assert (Ls : len sis = len xis) by (rewrite Esis, map2_length, La; apply Nat.min_id).
    assert (Lc : len (combine alphas xis) = len xis) by (rewrite combine_length, La; apply Nat.min_id).
    assert (Hits : forall k, hit rts ris k = hit (vc_comms s) ris k).
    { intro k. unfold hit. destruct (aget ris k); [|destruct (aget rts k), (aget (vc_comms s) k); reflexivity].
      destruct (aget rts k) eqn:E1, (aget (vc_comms s) k) eqn:E2; auto.
      - apply D2 in E2. congruence. - apply D2 in E1. congruence. }
    assert (Ltis : len tis = len (vc_comms s)).
    { rewrite <- Hl, Etis. apply walk_length_eq; [congruence|]. intros k _. apply Hits. }
    assert (Ht : forall k, (0 <= k < 0 + N.of_nat (len xis))%N ->
       aget tis k = match aget rts k, aget ris k with Some a, Some b => Some (resp1 c b a) | _, _ => None end).
    { intros k Hk. rewrite Etis, (aget_walk (fun rti ri => resp1 c ri rti)); [reflexivity|]. rewrite Lc. exact Hk. }
    assert (Lp : len (vcom_points s c sis tis) = len (vc_comms s)).
    { rewrite <- Hl. unfold vcom_points. apply walk_length_eq; [congruence|]. intros k Hk. rewrite Ls in Hk.
      unfold hit. rewrite (Ht k Hk). destruct (aget (vc_comms s) k) eqn:E2; [|reflexivity].
      destruct (aget ris k) eqn:E3; [|destruct (aget rts k); reflexivity].
      destruct (aget rts k) eqn:E1; [reflexivity|]. apply D2 in E1. congruence. }
    assert (Lle : Nat.ltb (len xis) (len (vc_comms s)) = false).
    { apply Nat.ltb_ge. rewrite <- Hl. clear. generalize 0%N. induction xis as [|x xis IH]; intro i; cbn [walk len]; [lia|].
      destruct (aget (vc_comms s) i), (aget ris i); cbn [len]; specialize (IH (i + 1)%N); lia. }
    assert (Gd : vcom_guard s sis tis = true).
    { unfold vcom_guard, neqb. rewrite <- Lx, Ls, Ltis, !Nat.eqb_refl, Fit, Lle.
      destruct sis; [cbn in Ls; lia|reflexivity]. }
    unfold vcom_extract, neqb. rewrite Gd, Lp, Nat.eqb_refl. cbn [negb]. f_equal. f_equal.
    - unfold vcom_point. rewrite Esis. unfold resp1. rewrite resp_minus_generic. unfold m_respond.
      rewrite msm_vsub by (rewrite vscale_length; congruence). rewrite msm_vscale, Hc. unfold resp1. mod_norm.
    - unfold vcom_points. rewrite Esis. exact (vcom_points_complete s c rts ris tis D1 D2 xis alphas 0%N La Ht Hr).
  Qed.

  (** before the repair: with [comms] keyed {0} and a response map keyed {1} (same size) the guard
      passes, no individual point is computed and the commitment C_0 is never looked at *)
  Theorem vcom_prefix_unchecked_commitment_refuted_ : forall (g h gb hb C C0 C0' : M) (c s0 s1 t t1 : K),
    let st X := mkVcom C [(0%N, X)] [g; g] h gb hb in
    vcom_extract_prefix (st C0) c ([s0; s1], t, [(1%N, t1)]) = vcom_extract_prefix (st C0') c ([s0; s1], t, [(1%N, t1)])
    /\ exists a, vcom_extract_prefix (st C0) c ([s0; s1], t, [(1%N, t1)]) = Some (a, [])
    /\ vcom_extract (st C0) c ([s0; s1], t, [(1%N, t1)]) = None.
  Proof. intros. split; [reflexivity|]. eexists. split; reflexivity. Qed.

  Context {CL : CodecLaws Cd}.
  Lemma pf_map8 : pfree_on (fun m : amap M => (N.of_nat (len m) < W64)%N) (ser_map8 (serG Cd)).
  Proof.
    apply (pf_iso (fun m => m) (pf_counted _ _ be64 8 W64 be64_length be64_inj (pf_app pf_byte (pf_serG Cd)))); [auto|].
    intros m L. split; [exact L|]. apply Forall_forall. repeat split.
  Qed.
  (** [public] covers every field incl. the keys and the number of individual commitments and of generators (V1) *)
  Theorem vcom_public_prefix_free_v1_ :
    public_prefix_free vcom_proto V1
      (fun s => (N.of_nat (len (vc_gis s)) < W64)%N /\ (N.of_nat (len (vc_comms s)) < W64)%N).
  Proof.
    pose proof (pf_serG Cd) as G.
    apply (pf_iso (fun s => (vc_comm s, (vc_comms s, (vc_gis s, (vc_h s, (vc_hbar s, vc_gbar s))))))
             (pf_app (pf_msg G) (pf_app (pf_msg pf_map8) (pf_app (pf_msgs_v1 G) (pf_app (pf_msg G) (pf_app (pf_msg G) (pf_msg G))))))).
    - intros [] [] [= -> -> -> -> -> ->]. reflexivity.
    - intros s [L1 L2]. repeat split; try assumption; apply Forall_True.
  Qed.
End VcomEq.
