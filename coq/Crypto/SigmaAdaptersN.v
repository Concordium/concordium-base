(** C07 - the compositions for ANY number of components.

    [ReplicateAdapter]: the functions [compute_commit_message], [compute_response],
    [extract_commit_message] of common.rs are total for every number of protocols, also zero; only
    [get_challenge] panics on an empty vector (the documented precondition), which [rep_proto] of
    SigmaGeneric.v models by returning [None] in commit and extract.  [rep_core] is the adapter
    WITHOUT that guard (the three functions exactly as coded); both are shown complete, special
    sound and statement binding for every number of instances, zero included ([rep_core]: the empty
    proof for the empty statement; [rep_proto]: vacuously, nothing is accepted).

    [AndAdapter]: [add_prover] nests to the left, [AndAdapter<AndAdapter<P1,P2>,P3>] ...;
    [and_all] folds a list of certified protocols and its protocol IS the nested [and_proto]
    ([and_all_is_nested_adapter_]); the certificate (completeness, special soundness, prefix-free
    [public]) is inherited for every number of added provers, zero included. *)
From Coq Require Import ZArith List Lia Bool.
From CB Require Import Crypto.Alg Crypto.Transcript Crypto.TranscriptProofs Crypto.SigmaGeneric.
Import ListNotations.

Section RepN.
  Context {K : FieldOps}.

  Definition rep_core (P : proto K) : proto K := {|
    p_stmt := list (p_stmt P);
    p_wit := list (p_wit P);
    p_rand := list (p_rand P);
    p_cm := list (p_cm P);
    p_resp := list (p_resp P);
    p_public := fun k ss => each k [] (p_public P k) ss;
    p_commit := fun ss rs => opt_all (map2 (p_commit P) ss rs);
    p_respond := fun ss ws rs c =>
      if negb (Nat.eqb (List.length ws) (List.length ss)) || negb (Nat.eqb (List.length rs) (List.length ss))
      then None else opt_all (map3 (fun s w r => p_respond P s w r c) ss ws rs);
    p_extract := fun ss c zs =>
      if negb (Nat.eqb (List.length zs) (List.length ss)) then None
      else opt_all (map2 (fun s z => p_extract P s c z) ss zs);
    p_ser_cm := fun a => ser_vec32 (map (p_ser_cm P) a);
    p_ser_resp := fun z => ser_vec32 (map (p_ser_resp P) z) |}.

  (** [rep_proto] = [rep_core] guarded by "protocols is non-empty" *)
  Lemma rep_proto_extract_core (P : proto K) ss c zs a :
    p_extract (rep_proto P) ss c zs = Some a -> p_extract (rep_core P) ss c zs = Some a /\ ss <> [].
  Proof.
    cbn. destruct ss as [|s ss]; [discriminate|]. cbn [List.length Nat.eqb]. intro E. split; [exact E|discriminate].
  Qed.
  Lemma rep_core_extract_proto (P : proto K) ss c zs :
    ss <> [] -> p_extract (rep_proto P) ss c zs = p_extract (rep_core P) ss c zs.
  Proof. intro N. cbn. destruct ss; [congruence|reflexivity]. Qed.

  Theorem rep_core_complete_ : forall (P : proto K) rel rok,
    complete P rel rok -> complete (rep_core P) (Forall2 rel) (Forall2 rok).
  Proof.
    intros P rel rok C ss ws rs R O.
    destruct (rep_complete_aux P rel rok C ss ws R rs O) as (az & Haz & Zs).
    exists az. cbn. split; [exact Haz|]. intro c.
    destruct (Zs c) as (zs & Hzs & Hes & Hl). exists zs.
    rewrite <- (Forall2_len _ _ _ R), <- (Forall2_len _ _ _ O), Hl, !Nat.eqb_refl. cbn [negb orb]. auto.
  Qed.

  (** the extractor of the replicated protocol: instance by instance *)
  Definition rep_extractor (P : proto K) (ex : p_stmt P -> K -> K -> p_resp P -> p_resp P -> p_wit P)
      (ss : list (p_stmt P)) (c c' : K) (zs zs' : list (p_resp P)) : list (p_wit P) :=
    map3 (fun s z z' => ex s c c' z z') ss zs zs'.

  Lemma rep_ss_aux (P : proto K) rel ex : special_sound P rel ex -> forall c c', c <> c' ->
    forall ss zs zs' az, List.length zs = List.length ss -> List.length zs' = List.length ss ->
    opt_all (map2 (fun s z => p_extract P s c z) ss zs) = Some az ->
    opt_all (map2 (fun s z => p_extract P s c' z) ss zs') = Some az ->
    Forall2 rel ss (rep_extractor P ex ss c c' zs zs').
  Proof.
    intros S c c' Hc. induction ss as [|s ss IH]; intros [|z zs] [|z' zs'] az L L' E E'; try discriminate.
    - constructor.
    - cbn [map2 opt_all] in E, E'.
      destruct (p_extract P s c z) as [a|] eqn:X; [|discriminate].
      destruct (p_extract P s c' z') as [a'|] eqn:X'; [|discriminate].
      destruct (opt_all (map2 (fun s z => p_extract P s c z) ss zs)) as [az1|] eqn:Y; [|discriminate].
      destruct (opt_all (map2 (fun s z => p_extract P s c' z) ss zs')) as [az2|] eqn:Y'; [|discriminate].
      injection E as <-. injection E' as E1 E2. subst a' az2.
      unfold rep_extractor. cbn [map3]. constructor.
      + eapply S; eauto.
      + apply (IH zs zs' az1); cbn in L, L'; auto; lia.
  Qed.

  Theorem rep_core_special_sound_ : forall (P : proto K) rel ex,
    special_sound P rel ex -> special_sound (rep_core P) (Forall2 rel) (rep_extractor P ex).
  Proof.
    intros P rel ex S ss az c c' zs zs' Hc E E'. cbn in E, E'.
    destruct (Nat.eqb (List.length zs) (List.length ss)) eqn:L; [|discriminate].
    destruct (Nat.eqb (List.length zs') (List.length ss)) eqn:L'; [|discriminate].
    apply Nat.eqb_eq in L, L'. cbn [negb] in E, E'. eapply rep_ss_aux; eauto.
  Qed.

  (** ... and for the guarded adapter: the witness list it yields satisfies [rep_rel] (non-empty and
      related instance by instance) *)
  Theorem rep_special_sound_ : forall (P : proto K) rel ex,
    special_sound P rel ex -> special_sound (rep_proto P) (rep_rel rel) (rep_extractor P ex).
  Proof.
    intros P rel ex S ss az c c' zs zs' Hc E E'.
    apply rep_proto_extract_core in E. apply rep_proto_extract_core in E'. destruct E as [E N], E' as [E' _].
    split; [exact N|]. eapply (rep_core_special_sound_ P rel ex S); eauto.
  Qed.

  (** the number of witnesses extracted is the number of instances (also zero) *)
  Lemma rep_extractor_length (P : proto K) ex ss c c' : forall zs zs',
    List.length zs = List.length ss -> List.length zs' = List.length ss ->
    List.length (rep_extractor P ex ss c c' zs zs') = List.length ss.
  Proof.
    unfold rep_extractor. induction ss as [|s ss IH]; intros [|z zs] [|z' zs'] L L'; try discriminate; [reflexivity|].
    cbn [map3 List.length]. f_equal. apply IH; cbn in *; lia.
  Qed.

  (** [public] of [rep_core] is the one of [rep_proto]: label, u64 COUNT, each instance's [public] *)
  Theorem rep_core_public_prefix_free_v1_ : forall (P : proto K) ok,
    public_prefix_free P V1 ok ->
    public_prefix_free (rep_core P) V1 (fun ss => (N.of_nat (List.length ss) < W64)%N /\ Forall ok ss).
  Proof. intros P ok F. exact (rep_public_prefix_free_v1_ P ok F). Qed.

  (** statement binding for the replicated protocol as coded, for lists of ANY (also different, also
      zero) lengths under V1: one proof accepted for two different lists of statements yields a collision *)
  Theorem rep_statement_binding_v1_ : forall (H : bytes -> bytes) (sfb : bytes -> K) (P : proto K) ok,
    public_prefix_free P V1 ok ->
    forall ctx ss ss' pi,
      (N.of_nat (List.length ss) < W64)%N -> Forall ok ss -> (N.of_nat (List.length ss') < W64)%N -> Forall ok ss' ->
      ss <> ss' ->
      fst (verify H sfb (rep_core P) V1 ctx ss pi) = true -> fst (verify H sfb (rep_core P) V1 ctx ss' pi) = true ->
      exists x x', x <> x' /\ H x = H x'.
  Proof.
    intros H sfb P ok F ctx ss ss' pi L O L' O' Ne A1 A2.
    eapply (statement_binding_ H sfb (rep_core P) V1 _ (rep_core_public_prefix_free_v1_ P ok F) ctx ss ss' pi); eauto.
  Qed.
  Theorem rep_proto_statement_binding_v1_ : forall (H : bytes -> bytes) (sfb : bytes -> K) (P : proto K) ok,
    public_prefix_free P V1 ok ->
    forall ctx ss ss' pi,
      (N.of_nat (List.length ss) < W64)%N -> Forall ok ss -> (N.of_nat (List.length ss') < W64)%N -> Forall ok ss' ->
      ss <> ss' ->
      fst (verify H sfb (rep_proto P) V1 ctx ss pi) = true -> fst (verify H sfb (rep_proto P) V1 ctx ss' pi) = true ->
      exists x x', x <> x' /\ H x = H x'.
  Proof.
    intros H sfb P ok F ctx ss ss' pi L O L' O' Ne A1 A2.
    eapply (statement_binding_ H sfb (rep_proto P) V1 _ (rep_public_prefix_free_v1_ P ok F) ctx ss ss' pi); eauto.
  Qed.

  (** zero instances: [rep_core] accepts exactly the empty response list and reconstructs the empty
      commit message; the guarded adapter accepts nothing *)
  Theorem rep_zero_instances_ : forall (P : proto K) c zs,
    (p_extract (rep_core P) [] c zs = Some [] <-> zs = []) /\
    (forall a, p_extract (rep_core P) [] c zs = Some a -> a = [] /\ zs = []) /\
    p_extract (rep_proto P) [] c zs = None /\
    p_commit (rep_core P) [] [] = Some [] /\ p_respond (rep_core P) [] [] [] c = Some [].
  Proof.
    intros P c zs. cbn. destruct zs as [|z zs]; cbn;
      (split; [split; congruence | split; [intros a E; try discriminate; try (injection E as <-; auto) | repeat split]]).
  Qed.
End RepN.

Section AndN.
  Context {K : FieldOps}.

  (** a protocol together with its certificate *)
  Record cproto : Type := mkC {
    cp : proto K;
    cp_rel : p_stmt cp -> p_wit cp -> Prop;
    cp_rok : p_stmt cp -> p_rand cp -> Prop;
    cp_ex : p_stmt cp -> K -> K -> p_resp cp -> p_resp cp -> p_wit cp;
    cp_ok : p_stmt cp -> Prop;
    cp_complete : complete cp cp_rel cp_rok;
    cp_sound : special_sound cp cp_rel cp_ex;
    cp_bind : forall k, public_prefix_free cp k cp_ok }.

  Definition and_c (A B : cproto) : cproto := {|
    cp := and_proto (cp A) (cp B);
    cp_rel := prod_rel (cp_rel A) (cp_rel B);
    cp_rok := prod_rel (cp_rok A) (cp_rok B);
    cp_ex := fun s c c' z z' => (cp_ex A (fst s) c c' (fst z) (fst z'), cp_ex B (snd s) c c' (snd z) (snd z'));
    cp_ok := fun s => cp_ok A (fst s) /\ cp_ok B (snd s);
    cp_complete := and_complete_ _ _ _ _ _ _ (cp_complete A) (cp_complete B);
    cp_sound := and_special_sound_ _ _ _ _ _ _ (cp_sound A) (cp_sound B);
    cp_bind := fun k => and_public_prefix_free_ _ _ k _ _ (cp_bind A k) (cp_bind B k) |}.

  (** [first.add_prover(p1).add_prover(p2)...] *)
  Definition and_all (A : cproto) (Bs : list cproto) : cproto := fold_left and_c Bs A.

  Theorem and_all_is_nested_adapter_ : forall (Bs : list cproto) (A : cproto),
    cp (and_all A Bs) = fold_left and_proto (map cp Bs) (cp A).
  Proof. unfold and_all. induction Bs as [|B Bs IH]; intro A; [reflexivity|]. cbn [fold_left map]. now rewrite IH. Qed.

  (** for any number of added provers the nested adapter is complete, special sound (explicit
      extractor), its [public] covers every component statement, and (hence) a proof accepted for two
      different compound statements yields a collision *)
  Theorem and_all_certified_ : forall (A : cproto) (Bs : list cproto),
    let C := and_all A Bs in
    complete (cp C) (cp_rel C) (cp_rok C) /\ special_sound (cp C) (cp_rel C) (cp_ex C) /\
    (forall k, public_prefix_free (cp C) k (cp_ok C)) /\
    forall (H : bytes -> bytes) (sfb : bytes -> K) k ctx s s' pi, cp_ok C s -> cp_ok C s' -> s <> s' ->
      fst (verify H sfb (cp C) k ctx s pi) = true -> fst (verify H sfb (cp C) k ctx s' pi) = true ->
      exists x x', x <> x' /\ H x = H x'.
  Proof.
    intros A Bs C. split; [exact (cp_complete C)|]. split; [exact (cp_sound C)|]. split; [exact (cp_bind C)|].
    intros H sfb k ctx s s' pi O O' Ne A1 A2.
    eapply (statement_binding_ H sfb (cp C) k (cp_ok C) (cp_bind C k) ctx s s' pi); eauto.
  Qed.

  (** one step, spelled out: the compound accepts iff both parts accept with the SAME challenge *)
  Theorem and_extract_shared_challenge_ : forall (P1 P2 : proto K) s c z a,
    p_extract (and_proto P1 P2) s c z = Some a <->
    p_extract P1 (fst s) c (fst z) = Some (fst a) /\ p_extract P2 (snd s) c (snd z) = Some (snd a).
  Proof.
    intros P1 P2 [s1 s2] c [z1 z2] [a1 a2]. cbn. unfold opt_pair.
    destruct (p_extract P1 s1 c z1), (p_extract P2 s2 c z2); split; try discriminate; try (intros [? ?]; discriminate).
    - intro E. injection E as -> ->. auto.
    - intros [E1 E2]. congruence.
  Qed.
  (** concatenated first messages and responses: the serialisation of the compound commit message /
      response is the concatenation of the parts' *)
  Theorem and_framing_concatenates_ : forall (P1 P2 : proto K) k s a z,
    p_public (and_proto P1 P2) k s = p_public P1 k (fst s) ++ p_public P2 k (snd s) /\
    p_ser_cm (and_proto P1 P2) a = p_ser_cm P1 (fst a) ++ p_ser_cm P2 (snd a) /\
    p_ser_resp (and_proto P1 P2) z = p_ser_resp P1 (fst z) ++ p_ser_resp P2 (snd z).
  Proof. intros. repeat split. Qed.
End AndN.
