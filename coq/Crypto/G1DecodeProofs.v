(** Proofs about the compressed G1 codec (model: G1Decode.v). *)
From Coq Require Import NArith ZArith List Lia Znumtheory.
From CB Require Import Crypto.ScalarCodec.
From CB Require Import Crypto.ScalarCodecProofs.
From CB Require Import Crypto.G1Decode.
Import ListNotations.
Local Open Scope N_scope.

Lemma g1_p_pos : g1_p <> 0. Proof. discriminate. Qed.
Lemma g1_p_lt_381 : g1_p < 2 ^ 381. Proof. reflexivity. Qed.

Lemma fmul_lt a b : fmul a b < g1_p.
Proof. apply N.mod_lt. exact g1_p_pos. Qed.
Lemma fneg_lt a : fneg a < g1_p.
Proof. apply N.mod_lt. exact g1_p_pos. Qed.
Lemma fpow_lt b e : fpow b e < g1_p.
Proof. destruct e; cbn [fpow]; try apply fmul_lt. apply N.mod_lt. exact g1_p_pos. Qed.

Lemma fmul_fneg y : y < g1_p -> fmul (fneg y) (fneg y) = fmul y y.
Proof.
  intros Hy. unfold fmul, fneg. rewrite N.mul_mod_idemp_l, N.mul_mod_idemp_r by exact g1_p_pos.
  set (q := g1_p - y). assert (Hp : g1_p = q + y) by (unfold q; lia).
  rewrite <- (N.mod_add (q * q) (2 * y) g1_p) by exact g1_p_pos.
  rewrite <- (N.mod_add (y * y) g1_p g1_p) by exact g1_p_pos.
  f_equal. rewrite Hp. ring.
Qed.

Lemma fneg_involutive y : y < g1_p -> fneg (fneg y) = y.
Proof.
  intros Hy. unfold fneg. destruct (N.eq_dec y 0) as [->|Hne].
  - vm_compute. reflexivity.
  - rewrite (N.mod_small (g1_p - y)) by lia. rewrite N.mod_small by lia. lia.
Qed.

(** Accepted bytes are canonical and decode to valid points: one pass through the decoder *)
Lemma g1_decode_Some bs P : g1_decode bs = Some P -> g1_encode P = bs /\ g1_valid P.
Proof.
  unfold g1_decode. destruct (negb (Nat.eqb (length bs) 48)); [discriminate|].
  destruct bs as [|b0 rest]; [discriminate|].
  destruct (negb ((b0 / 128) mod 2 =? 1)); [discriminate|].
  destruct ((b0 / 64) mod 2 =? 1).
  - destruct (list_eq_dec N.eq_dec (g1_encode G1Inf) (b0 :: rest)) as [E|]; [|discriminate]. intros [= <-]. exact (conj E I).
  - set (x := be_val (b0 mod 32 :: rest)).
    destruct (N.leb_spec g1_p x) as [|Hx]; [discriminate|].
    set (y := fpow (g1_rhs x) g1_sqrt_exp).
    destruct (N.eqb_spec (fmul y y) (g1_rhs x)) as [Hsq|]; [|discriminate]. cbn [negb].
    set (y' := if (b0 / 32) mod 2 =? 1 then (if y <? fneg y then fneg y else y) else (if y <? fneg y then y else fneg y)).
    destruct (g1_in_subgroup x y') eqn:Hsub; [|discriminate].
    destruct (list_eq_dec N.eq_dec (g1_encode (G1Aff x y')) (b0 :: rest)) as [E|]; [|discriminate]. intros [= <-].
    split; [exact E|].
    assert (Hy : y < g1_p) by apply fpow_lt.
    cbn [g1_valid]. split; [assumption|].
    assert (Hy' : y' = y \/ y' = fneg y).
    { unfold y'. destruct ((b0 / 32) mod 2 =? 1); destruct (y <? fneg y); [right|left|left|right]; reflexivity. }
    destruct Hy' as [Ey|Ey]; rewrite Ey in *.
    + split; [assumption|]. split; assumption.
    + split; [apply fneg_lt|]. split; [|assumption]. rewrite fmul_fneg by assumption. assumption.
Qed.

Theorem g1_decode_canonical_lemma bs P : g1_decode bs = Some P -> g1_encode P = bs.
Proof. intros H. apply (g1_decode_Some bs P H). Qed.

Theorem g1_decode_valid_lemma bs P : g1_decode bs = Some P -> g1_valid P.
Proof. intros H. apply (g1_decode_Some bs P H). Qed.

(** * The point at infinity has exactly one accepted encoding *)

(** Non-vacuity of [g1_valid] for affine points is not stated as a lemma: evaluating the subgroup
    check inside Coq takes ~50 s under [vm_compute] and far longer under [coqchk] (which re-checks
    VM casts by lazy conversion).  It is demonstrated by the correspondence runs instead: the
    extracted [g1_decode] returns [Some (G1Aff ..)] for the generator and for random multiples, and
    [g1_decode_valid_lemma] makes every such point an inhabitant of [g1_valid]. *)
Lemma g1_decode_inf : g1_decode (g1_encode G1Inf) = Some G1Inf.
Proof. vm_compute. reflexivity. Qed.

Theorem g1_infinity_unique_lemma bs : g1_decode bs = Some G1Inf <-> bs = 192 :: repeat 0 47%nat.
Proof.
  split.
  - intros H. apply g1_decode_canonical_lemma in H. symmetry. exact H.
  - intros ->. exact g1_decode_inf.
Qed.

(** Two facts of arithmetic about the constant [g1_p] that are not proved here: it is prime, and
    Fermat's little theorem holds for it.  They are premises of the round-trip theorem. *)
Definition g1_field_facts : Prop :=
  prime (Z.of_N g1_p) /\ (forall a : N, a mod g1_p <> 0 -> a ^ (g1_p - 1) mod g1_p = 1).

Lemma pow_mod_idemp a n : (a mod g1_p) ^ n mod g1_p = a ^ n mod g1_p.
Proof.
  induction n as [|n IH] using N.peano_ind; [reflexivity|].
  rewrite !N.pow_succ_r'. rewrite <- N.mul_mod_idemp_r, IH by exact g1_p_pos.
  rewrite N.mul_mod_idemp_l, N.mul_mod_idemp_r by exact g1_p_pos. reflexivity.
Qed.

Lemma fpow_spec b e : fpow b e = b ^ N.pos e mod g1_p.
Proof.
  induction e as [e IH|e IH|]; cbn [fpow].
  - unfold fmul. rewrite IH. rewrite <- (N.mul_mod (b ^ N.pos e) (b ^ N.pos e)) by exact g1_p_pos.
    rewrite N.mul_mod_idemp_l by exact g1_p_pos.
    f_equal. change (N.pos e~1) with (1 + 2 * N.pos e). rewrite N.pow_add_r, N.pow_1_r.
    replace (2 * N.pos e) with (N.pos e + N.pos e) by lia. rewrite N.pow_add_r. ring.
  - unfold fmul. rewrite IH. rewrite <- N.mul_mod by exact g1_p_pos.
    f_equal. change (N.pos e~0) with (2 * N.pos e).
    replace (2 * N.pos e) with (N.pos e + N.pos e) by lia. rewrite N.pow_add_r. reflexivity.
  - rewrite N.pow_1_r. reflexivity.
Qed.

(** the candidate root squares back for every square (Euler's criterion from Fermat) *)
Lemma sqrt_candidate_ok y : g1_field_facts -> y < g1_p ->
  let rhs := fmul y y in fmul (fpow rhs g1_sqrt_exp) (fpow rhs g1_sqrt_exp) = rhs.
Proof.
  intros [_ Hfermat] Hy rhs. rewrite fpow_spec. unfold fmul at 1. rewrite <- N.mul_mod by exact g1_p_pos.
  rewrite <- N.pow_add_r. unfold rhs, fmul. rewrite pow_mod_idemp.
  rewrite <- N.pow_2_r, <- N.pow_mul_r.
  replace (2 * (N.pos g1_sqrt_exp + N.pos g1_sqrt_exp)) with (g1_p - 1 + 2) by (vm_compute; reflexivity).
  rewrite N.pow_add_r. destruct (N.eq_dec y 0) as [->|Hne].
  - rewrite N.pow_2_r. rewrite N.mul_0_r. reflexivity.
  - rewrite <- N.mul_mod_idemp_l by exact g1_p_pos. rewrite Hfermat by (rewrite N.mod_small by assumption; assumption).
    rewrite N.mul_1_l. reflexivity.
Qed.

(** square roots are unique up to sign (p prime) *)
Lemma sqrt_unique yc y : g1_field_facts -> yc < g1_p -> y < g1_p -> fmul yc yc = fmul y y ->
  yc = y \/ yc = fneg y.
Proof.
  intros [Hprime _] Hyc Hy Heq. unfold fmul in Heq.
  assert (Hdiv : (Z.of_N g1_p | (Z.of_N yc - Z.of_N y) * (Z.of_N yc + Z.of_N y))%Z).
  { apply Z.mod_divide; [pose proof g1_p_pos; lia|].
    replace ((Z.of_N yc - Z.of_N y) * (Z.of_N yc + Z.of_N y))%Z with (Z.of_N (yc * yc) - Z.of_N (y * y))%Z by (rewrite !N2Z.inj_mul; ring).
    rewrite Zminus_mod. rewrite <- !N2Z.inj_mod. rewrite Heq. rewrite Z.sub_diag. reflexivity. }
  apply prime_mult in Hdiv; [|assumption].
  assert (Hpz : (0 < Z.of_N g1_p)%Z) by (pose proof g1_p_pos; lia).
  destruct Hdiv as [[k Hk]|[k Hk]].
  - left. assert (k = 0)%Z by nia. lia.
  - right. assert (k = 0 \/ k = 1)%Z as [-> | ->] by nia.
    + assert (yc = 0) by lia. assert (y = 0) by lia. subst. vm_compute. reflexivity.
    + unfold fneg. assert (y <> 0) by lia. rewrite N.mod_small by lia. lia.
Qed.

Lemma flag_bits b0 f : b0 < 32 -> f = 0 \/ f = 32 ->
  ((b0 + 128 + f) / 128) mod 2 = 1 /\ ((b0 + 128 + f) / 64) mod 2 = 0 /\
  ((b0 + 128 + f) / 32) mod 2 = f / 32 /\ (b0 + 128 + f) mod 32 = b0.
Proof.
  intros Hb Hf.
  destruct Hf as [-> | ->]; change (32 / 32) with 1; change (0 / 32) with 0;
  repeat split; apply N2Z.inj;
    repeat (rewrite N2Z.inj_mod || rewrite N2Z.inj_div || rewrite N2Z.inj_add); cbn [Z.of_N];
    Z.div_mod_to_equations; lia.
Qed.

Opaque fpow g1_in_subgroup fmul fneg g1_rhs.
Theorem g1_decode_encode_lemma : g1_field_facts -> forall P, g1_valid P -> g1_decode (g1_encode P) = Some P.
Proof.
  intros Hfacts [|x y] Hv.
  - exact g1_decode_inf.
  - destruct Hv as (Hx & Hy & Hcurve & Hsub).
    cbn [g1_encode].
    pose proof (to_be_length 48 x) as Hlen. pose proof (be_val_to_be 48 x) as Hval.
    change (256 ^ N.of_nat 48) with (2 ^ 384) in Hval.
    rewrite N.mod_small in Hval by (eapply N.lt_trans; [exact Hx|reflexivity]).
    destruct (to_be 48 x) as [|b0 rest] eqn:Hbe; [discriminate|].
    cbn [length] in Hlen. assert (Hlr : length rest = 47%nat) by lia.
    rewrite be_val_cons, Hlr in Hval. change (256 ^ N.of_nat 47) with (2 ^ 376) in Hval.
    assert (Hb0 : b0 < 32).
    { assert (b0 * 2 ^ 376 < 32 * 2 ^ 376) by (change (32 * 2 ^ 376) with (2 ^ 381); pose proof g1_p_lt_381; lia).
      apply N.mul_lt_mono_pos_r in H; [assumption|reflexivity]. }
    set (f := if g1_sort_flag y then 32 else 0).
    assert (Hf : f = 0 \/ f = 32) by (unfold f; destruct (g1_sort_flag y); tauto).
    set (B := b0 + 128 + f).
    destruct (flag_bits b0 f Hb0 Hf) as (HB1 & HB2 & HB3' & HB4). fold B in HB1, HB2, HB3', HB4.
    assert (HB3 : ((B / 32) mod 2 =? 1) = g1_sort_flag y).
    { rewrite HB3'. unfold f. destruct (g1_sort_flag y); reflexivity. }
    unfold g1_decode. cbn [length]. rewrite Hlr. cbn [Nat.eqb negb].
    rewrite HB1, HB2. cbn [N.eqb Pos.eqb negb]. rewrite HB3, HB4.
    replace (be_val (b0 :: rest)) with x by (rewrite be_val_cons, Hlr; change (256 ^ N.of_nat 47) with (2 ^ 376); lia).
    destruct (N.leb_spec g1_p x); [lia|].
    rewrite <- Hcurve.
    pose proof (sqrt_candidate_ok y Hfacts Hy) as Hsq. cbv zeta in Hsq. rewrite Hsq. rewrite N.eqb_refl. cbn [negb].
    set (yc := fpow (fmul y y) g1_sqrt_exp) in *.
    assert (Hyc : yc < g1_p) by apply fpow_lt.
    assert (Hsel : (if g1_sort_flag y then (if yc <? fneg yc then fneg yc else yc)
                    else (if yc <? fneg yc then yc else fneg yc)) = y).
    { unfold g1_sort_flag.
      destruct (sqrt_unique yc y Hfacts Hyc Hy Hsq) as [-> | ->].
      - destruct (N.ltb_spec (fneg y) y); destruct (N.ltb_spec y (fneg y)); lia.
      - rewrite (fneg_involutive y Hy).
        destruct (N.ltb_spec (fneg y) y); destruct (N.ltb_spec (fneg y) y); lia. }
    rewrite Hsel, Hsub.
    cbn [g1_encode]. rewrite Hbe. fold f. fold B.
    destruct (list_eq_dec N.eq_dec (B :: rest) (B :: rest)) as [_|Hne]; [reflexivity|contradiction].
Qed.

Transparent fpow g1_in_subgroup fmul fneg g1_rhs.
