(** C11 - proofs about the bulletproof models ([BpAlg], [Ipa], [RangeProof], [SetProof]).

    One Section: the scalar carrier is any commutative ring ([ring_theory], Leibniz equality), the
    group any module over it (laws as Section hypotheses).  Inverses never appear: wherever the code
    inverts a challenge, the theorems take the inverse as a separate element with  u * ui = 1.

    Module equalities are decided by [mod_ring]: the module is embedded into the trivial-extension
    ring F (+) G  ((a,x)(b,y) = (ab, a.y + b.x)), where [ring] applies.                              *)
From Coq Require Import List Lia ZArith.
From CB Require Import Crypto.BpAlg Crypto.Ipa Crypto.RangeProof Crypto.SetProof Crypto.RangeStmt
  Crypto.RangeStmtProofs.
Import ListNotations.

Section BpProofs.
  Variable Ops : bp_ops.
  Local Notation F := (o_F Ops).
  Local Notation G := (o_G Ops).
  Local Notation f0 := (o_f0 Ops).
  Local Notation f1 := (o_f1 Ops).
  Local Notation fadd := (o_fadd Ops).
  Local Notation fmul := (o_fmul Ops).
  Local Notation fsub := (o_fsub Ops).
  Local Notation fopp := (o_fopp Ops).
  Local Notation feqb := (o_feqb Ops).
  Local Notation g0 := (o_g0 Ops).
  Local Notation gadd := (o_gadd Ops).
  Local Notation gopp := (o_gopp Ops).
  Local Notation smul := (o_smul Ops).
  Local Notation geqb := (o_geqb Ops).
  Local Notation dot := (dot Ops).
  Local Notation msum := (msum Ops).
  Local Notation vadd := (vadd Ops).
  Local Notation vmul := (vmul Ops).
  Local Notation vscale := (vscale Ops).
  Local Notation vconst := (@vconst Ops).
  Local Notation vsum := (vsum Ops).
  Local Notation gvadd := (gvadd Ops).
  Local Notation gvscale := (gvscale Ops).
  Local Notation gvmul := (gvmul Ops).
  Local Notation z_vec := (z_vec Ops).
  Local Notation fpow := (fpow Ops).
  Local Notation powers_from := (powers_from Ops).
  Local Notation gsub := (gsub Ops).
  Local Notation ipa_prove := (ipa_prove Ops).
  Local Notation ipa_code_lhs := (ipa_code_lhs Ops).
  Local Notation ipa_check := (ipa_check Ops).
  Local Notation ipa_L := (ipa_L Ops).
  Local Notation ipa_R := (ipa_R Ops).
  Local Notation fold_a := (fold_a Ops).
  Local Notation fold_b := (fold_b Ops).
  Local Notation fold_G := (fold_G Ops).
  Local Notation fold_H := (fold_H Ops).
  Local Notation svec := (svec Ops).
  Local Notation lr_sum := (lr_sum Ops).
  Local Notation vsub := (vsub Ops).

  Hypothesis Fth : ring_theory f0 f1 fadd fmul fsub fopp (@eq F).
  Add Ring Fring : Fth.

  Hypothesis gadd_assoc : forall x y z, gadd x (gadd y z) = gadd (gadd x y) z.
  Hypothesis gadd_comm : forall x y, gadd x y = gadd y x.
  Hypothesis gadd_0_l : forall x, gadd g0 x = x.
  Hypothesis gadd_opp : forall x, gadd x (gopp x) = g0.
  Hypothesis smul_add_r : forall c x y, smul c (gadd x y) = gadd (smul c x) (smul c y).
  Hypothesis smul_add_l : forall c d x, smul (fadd c d) x = gadd (smul c x) (smul d x).
  Hypothesis smul_mul : forall c d x, smul (fmul c d) x = smul c (smul d x).
  Hypothesis smul_1 : forall x, smul f1 x = x.

  Lemma gadd_0_r x : gadd x g0 = x.
  Proof. rewrite gadd_comm. apply gadd_0_l. Qed.

  Lemma gadd_idem_zero y : gadd y y = y -> y = g0.
  Proof.
    intros H. assert (E : gadd (gadd y y) (gopp y) = gadd y (gopp y)) by (rewrite H; reflexivity).
    rewrite <- gadd_assoc in E. rewrite gadd_opp in E. rewrite gadd_0_r in E. exact E.
  Qed.

  Lemma smul_0_l x : smul f0 x = g0.
  Proof. apply gadd_idem_zero. rewrite <- smul_add_l. f_equal. ring. Qed.

  Lemma smul_0_r c : smul c g0 = g0.
  Proof. apply gadd_idem_zero. rewrite <- smul_add_r. rewrite gadd_0_l. reflexivity. Qed.

  Lemma gadd_swap4 a b c d : gadd (gadd a b) (gadd c d) = gadd (gadd a c) (gadd b d).
  Proof.
    rewrite <- gadd_assoc. rewrite (gadd_assoc b c d). rewrite (gadd_comm b c).
    rewrite <- (gadd_assoc c b d). rewrite gadd_assoc. reflexivity.
  Qed.

  Definition R : Type := (F * G)%type.
  Definition r0 : R := (f0, g0).
  Definition r1 : R := (f1, g0).
  Definition radd (p q : R) : R := (fadd (fst p) (fst q), gadd (snd p) (snd q)).
  Definition rmul (p q : R) : R :=
    (fmul (fst p) (fst q), gadd (smul (fst p) (snd q)) (smul (fst q) (snd p))).
  Definition ropp (p : R) : R := (fopp (fst p), gopp (snd p)).
  Definition rsub (p q : R) : R := radd p (ropp q).

  Lemma Rth : ring_theory r0 r1 radd rmul rsub ropp (@eq R).
  Proof.
    constructor.
    - intros [a x]. unfold radd, r0; cbn [fst snd]. f_equal; [ring | apply gadd_0_l].
    - intros [a x] [b y]. unfold radd; cbn [fst snd]. f_equal; [ring | apply gadd_comm].
    - intros [a x] [b y] [c z]. unfold radd; cbn [fst snd]. f_equal; [ring | apply gadd_assoc].
    - intros [a x]. unfold rmul, r1; cbn [fst snd]. f_equal; [ring |].
      rewrite smul_1, smul_0_r. apply gadd_0_r.
    - intros [a x] [b y]. unfold rmul; cbn [fst snd]. f_equal; [ring | apply gadd_comm].
    - intros [a x] [b y] [c z]. unfold rmul; cbn [fst snd]. f_equal; [ring |].
      rewrite !smul_add_r, <- !smul_mul.
      replace (fmul c a) with (fmul a c) by ring. replace (fmul c b) with (fmul b c) by ring.
      rewrite gadd_assoc. reflexivity.
    - intros [a x] [b y] [c z]. unfold rmul, radd; cbn [fst snd]. f_equal; [ring |].
      rewrite smul_add_l, smul_add_r. apply gadd_swap4.
    - reflexivity.
    - intros [a x]. unfold radd, ropp, r0; cbn [fst snd]. f_equal; [ring | apply gadd_opp].
  Qed.
  Add Ring Rring : Rth.

  Definition iF (c : F) : R := (c, g0).
  Definition iG (x : G) : R := (f0, x).
  Lemma iG_inj x y : iG x = iG y -> x = y.
  Proof. unfold iG. intros H. injection H. auto. Qed.
  Lemma iG_add x y : iG (gadd x y) = radd (iG x) (iG y).
  Proof. unfold iG, radd; cbn [fst snd]. f_equal. ring. Qed.
  Lemma iG_smul c x : iG (smul c x) = rmul (iF c) (iG x).
  Proof. unfold iG, iF, rmul; cbn [fst snd]. f_equal; [ring |]. rewrite smul_0_l. symmetry. apply gadd_0_r. Qed.
  Lemma iG_0 : iG g0 = r0.
  Proof. reflexivity. Qed.
  Lemma iG_opp x : iG (gopp x) = ropp (iG x).
  Proof. unfold iG, ropp; cbn [fst snd]. f_equal. ring. Qed.
  Lemma iF_add a b : iF (fadd a b) = radd (iF a) (iF b).
  Proof. unfold iF, radd; cbn [fst snd]. f_equal. symmetry. apply gadd_0_l. Qed.
  Lemma iF_mul a b : iF (fmul a b) = rmul (iF a) (iF b).
  Proof. unfold iF, rmul; cbn [fst snd]. f_equal. rewrite !smul_0_r. symmetry. apply gadd_0_l. Qed.
  Lemma iF_opp a : iF (fopp a) = ropp (iF a).
  Proof. unfold iF, ropp; cbn [fst snd]. f_equal. rewrite <- (gadd_0_l (gopp g0)). symmetry. apply gadd_opp. Qed.
  Lemma iF_sub a b : iF (fsub a b) = rsub (iF a) (iF b).
  Proof.
    unfold rsub. rewrite <- iF_opp, <- iF_add. f_equal. ring.
  Qed.
  Lemma iF_0 : iF f0 = r0.
  Proof. reflexivity. Qed.
  Lemma iF_1 : iF f1 = r1.
  Proof. reflexivity. Qed.

  Ltac mod_ring :=
    unfold BpAlg.gsub; apply iG_inj;
    repeat (progress rewrite ?iG_add, ?iG_smul, ?iG_opp, ?iG_0, ?iF_add, ?iF_mul, ?iF_sub, ?iF_opp, ?iF_0, ?iF_1);
    ring.

  Lemma gsub_zero_iff x y : gadd x (gopp y) = g0 <-> x = y.
  Proof.
    split.
    - intros H. assert (E : gadd (gadd x (gopp y)) y = gadd g0 y) by (rewrite H; reflexivity).
      rewrite gadd_0_l in E. rewrite <- E. mod_ring.
    - intros ->. apply gadd_opp.
  Qed.

  Lemma dot_cons x a y b : dot (x :: a) (y :: b) = fadd (fmul x y) (dot a b).
  Proof. reflexivity. Qed.
  Lemma msum_cons x a p P : msum (x :: a) (p :: P) = gadd (smul x p) (msum a P).
  Proof. reflexivity. Qed.
  Lemma vadd_cons x a y b : vadd (x :: a) (y :: b) = fadd x y :: vadd a b.
  Proof. reflexivity. Qed.
  Lemma vmul_cons x a y b : vmul (x :: a) (y :: b) = fmul x y :: vmul a b.
  Proof. reflexivity. Qed.
  Lemma vsub_cons x a y b : vsub (x :: a) (y :: b) = fsub x y :: vsub a b.
  Proof. reflexivity. Qed.
  Lemma vscale_cons c x a : vscale c (x :: a) = fmul c x :: vscale c a.
  Proof. reflexivity. Qed.
  Lemma gvadd_cons x a y b : gvadd (x :: a) (y :: b) = gadd x y :: gvadd a b.
  Proof. reflexivity. Qed.
  Lemma gvscale_cons c x a : gvscale c (x :: a) = smul c x :: gvscale c a.
  Proof. reflexivity. Qed.
  Lemma gvmul_cons c cs x a : gvmul (c :: cs) (x :: a) = smul c x :: gvmul cs a.
  Proof. reflexivity. Qed.
  Lemma vconst_S c n : vconst c (S n) = c :: vconst c n.
  Proof. reflexivity. Qed.
  Lemma vsum_cons x a : vsum (x :: a) = fadd x (vsum a).
  Proof. reflexivity. Qed.

  Ltac vcons := repeat (progress (rewrite ?vadd_cons, ?vmul_cons, ?vsub_cons, ?vscale_cons,
                        ?gvadd_cons, ?gvscale_cons, ?gvmul_cons, ?vconst_S, ?vsum_cons, ?dot_cons, ?msum_cons)).

  Lemma vzip_length {A B C} (f : A -> B -> C) a b : length (vzip f a b) = Nat.min (length a) (length b).
  Proof. unfold vzip. rewrite map_length. apply combine_length. Qed.
  Lemma vadd_length a b : length (vadd a b) = Nat.min (length a) (length b).
  Proof. apply vzip_length. Qed.
  Lemma vmul_length a b : length (vmul a b) = Nat.min (length a) (length b).
  Proof. apply vzip_length. Qed.
  Lemma gvadd_length a b : length (gvadd a b) = Nat.min (length a) (length b).
  Proof. apply vzip_length. Qed.
  Lemma gvmul_length a b : length (gvmul a b) = Nat.min (length a) (length b).
  Proof. apply vzip_length. Qed.
  Lemma vscale_length c a : length (vscale c a) = length a.
  Proof. apply map_length. Qed.
  Lemma gvscale_length c a : length (gvscale c a) = length a.
  Proof. apply map_length. Qed.
  Lemma vconst_length c n : length (vconst c n) = n.
  Proof. apply repeat_length. Qed.

  #[local] Hint Rewrite vadd_length vmul_length gvadd_length gvmul_length vscale_length gvscale_length
    vconst_length map_length rev_length : vlen.
  (** length side conditions: every vector operation has an unconditional length equation *)
  Ltac vlen := autorewrite with vlen; lia.

  Lemma msum_app : forall a b P Q, length a = length P ->
    msum (a ++ b) (P ++ Q) = gadd (msum a P) (msum b Q).
  Proof.
    induction a as [|x a IH]; intros b [|p P] Q H; cbn [length] in H; try discriminate.
    - cbn [app]. symmetry. apply gadd_0_l.
    - cbn [app]. rewrite !msum_cons, IH by lia. mod_ring.
  Qed.

  Lemma dot_app : forall a b c d, length a = length c ->
    dot (a ++ b) (c ++ d) = fadd (dot a c) (dot b d).
  Proof.
    induction a as [|x a IH]; intros b [|y c] d H; cbn [length] in H; try discriminate.
    - cbn [app]. change (dot [] []) with f0. ring.
    - cbn [app]. rewrite !dot_cons, IH by lia. ring.
  Qed.

  Lemma msum_vadd : forall a b P, length a = length b -> length P = length a ->
    msum (vadd a b) P = gadd (msum a P) (msum b P).
  Proof.
    induction a as [|x a IH]; intros [|y b] [|p P] H1 H2; cbn [length] in *; try discriminate.
    - cbn. mod_ring.
    - vcons. rewrite IH by lia. mod_ring.
  Qed.

  Lemma msum_vscale : forall c a P, msum (vscale c a) P = smul c (msum a P).
  Proof.
    induction a as [|x a IH]; intros [|p P].
    - cbn. mod_ring.
    - cbn. mod_ring.
    - cbn. mod_ring.
    - vcons. rewrite IH. mod_ring.
  Qed.

  Lemma msum_vsub : forall a b P, length a = length b -> length P = length a ->
    msum (vsub a b) P = gadd (msum a P) (gopp (msum b P)).
  Proof.
    induction a as [|x a IH]; intros [|y b] [|p P] H1 H2; cbn [length] in *; try discriminate.
    - cbn. mod_ring.
    - vcons. rewrite IH by lia. mod_ring.
  Qed.

  Lemma msum_map_opp : forall a P, msum (map fopp a) P = gopp (msum a P).
  Proof.
    induction a as [|x a IH]; intros [|p P].
    - cbn. mod_ring.
    - cbn. mod_ring.
    - cbn. mod_ring.
    - cbn [map]. vcons. rewrite IH. mod_ring.
  Qed.

  Lemma msum_gvmul : forall c v P, length c = length v -> length P = length v ->
    msum v (gvmul c P) = msum (vmul c v) P.
  Proof.
    induction c as [|c0 c IH]; intros [|v0 v] [|p P] H1 H2; cbn [length] in *; try discriminate.
    - reflexivity.
    - vcons. rewrite IH by lia. mod_ring.
  Qed.

  Lemma dot_vadd_r : forall u p q, length p = length u -> length q = length u ->
    dot u (vadd p q) = fadd (dot u p) (dot u q).
  Proof.
    induction u as [|x u IH]; intros [|y p] [|w q] H1 H2; cbn [length] in *; try discriminate.
    - cbn. ring.
    - vcons. rewrite IH by lia. ring.
  Qed.

  Lemma dot_vadd_l : forall u p q, length p = length u -> length q = length u ->
    dot (vadd p q) u = fadd (dot p u) (dot q u).
  Proof.
    induction u as [|x u IH]; intros [|y p] [|w q] H1 H2; cbn [length] in *; try discriminate.
    - cbn. ring.
    - vcons. rewrite IH by lia. ring.
  Qed.

  Lemma dot_vscale_r : forall c u p, dot u (vscale c p) = fmul c (dot u p).
  Proof.
    induction u as [|x u IH]; intros [|y p].
    - cbn. ring.
    - cbn. ring.
    - cbn. ring.
    - vcons. rewrite IH. ring.
  Qed.

  Lemma dot_vconst_l c k u : length u = k -> dot (vconst c k) u = fmul c (vsum u).
  Proof.
    intros <-. induction u as [|x u IH].
    - cbn. ring.
    - cbn [length]. vcons. rewrite IH. ring.
  Qed.

  Lemma msum_fold c d : forall aL aH GL GH,
    length aH = length aL -> length GL = length aL -> length GH = length aL ->
    msum (vadd (vscale c aL) (vscale d aH)) (gvadd (gvscale d GL) (gvscale c GH))
    = gadd (gadd (smul (fmul c d) (gadd (msum aL GL) (msum aH GH)))
                 (smul (fmul c c) (msum aL GH)))
           (smul (fmul d d) (msum aH GL)).
  Proof.
    induction aL as [|x aL IH]; intros [|y aH] [|p GL] [|q GH] H1 H2 H3; cbn [length] in *; try discriminate.
    - cbn. mod_ring.
    - vcons. rewrite IH by lia. mod_ring.
  Qed.

  Lemma dot_fold c d : forall aL aH bL bH,
    length aH = length aL -> length bL = length aL -> length bH = length aL ->
    dot (vadd (vscale c aL) (vscale d aH)) (vadd (vscale d bL) (vscale c bH))
    = fadd (fadd (fmul (fmul c d) (fadd (dot aL bL) (dot aH bH)))
                 (fmul (fmul c c) (dot aL bH)))
           (fmul (fmul d d) (dot aH bL)).
  Proof.
    induction aL as [|x aL IH]; intros [|y aH] [|p bL] [|q bH] H1 H2 H3; cbn [length] in *; try discriminate.
    - cbn. ring.
    - vcons. rewrite IH by lia. ring.
  Qed.

  Lemma msum_scaled_split c d : forall s GL GH, length GL = length s -> length GH = length s ->
    msum s (gvadd (gvscale c GL) (gvscale d GH)) = msum (vscale c s ++ vscale d s) (GL ++ GH).
  Proof.
    intros s GL GH H1 H2. rewrite msum_app by vlen.
    revert GL GH H1 H2. induction s as [|x s IH]; intros [|p GL] [|q GH] H1 H2; cbn [length] in *; try discriminate.
    - cbn. mod_ring.
    - vcons. rewrite IH by lia. mod_ring.
  Qed.

  Lemma lo_hi_app {A} (l : list A) : lo l ++ hi l = l.
  Proof. apply firstn_skipn. Qed.
  Lemma lo_length {A} (l : list A) h : length l = 2 * h -> length (lo l) = h.
  Proof. intros H. unfold lo. rewrite firstn_length, H, Nat.div2_double. lia. Qed.
  Lemma hi_length {A} (l : list A) h : length l = 2 * h -> length (hi l) = h.
  Proof. intros H. unfold hi. rewrite skipn_length, H, Nat.div2_double. lia. Qed.

  Lemma fold_length c d (a : list F) h : length a = 2 * h ->
    length (vadd (vscale c (lo a)) (vscale d (hi a))) = h.
  Proof. intros H. rewrite vadd_length, !vscale_length, (lo_length a h H), (hi_length a h H). lia. Qed.
  Lemma gfold_length c d (P : list G) h : length P = 2 * h ->
    length (gvadd (gvscale c (lo P)) (gvscale d (hi P))) = h.
  Proof. intros H. rewrite gvadd_length, !gvscale_length, (lo_length P h H), (hi_length P h H). lia. Qed.

  Lemma msum_lo_hi a P h : length a = 2 * h -> length P = 2 * h ->
    msum a P = gadd (msum (lo a) (lo P)) (msum (hi a) (hi P)).
  Proof.
    intros H1 H2. transitivity (msum (lo a ++ hi a) (lo P ++ hi P)).
    - rewrite !lo_hi_app. reflexivity.
    - apply msum_app. rewrite (lo_length a h), (lo_length P h) by assumption. reflexivity.
  Qed.
  Lemma dot_lo_hi a b h : length a = 2 * h -> length b = 2 * h ->
    dot a b = fadd (dot (lo a) (lo b)) (dot (hi a) (hi b)).
  Proof.
    intros H1 H2. transitivity (dot (lo a ++ hi a) (lo b ++ hi b)).
    - rewrite !lo_hi_app. reflexivity.
    - apply dot_app. rewrite (lo_length a h), (lo_length b h) by assumption. reflexivity.
  Qed.

  Lemma msum_svec_step c d s P h : length s = h -> length P = 2 * h ->
    msum (vscale c s ++ vscale d s) P = msum s (gvadd (gvscale c (lo P)) (gvscale d (hi P))).
  Proof.
    intros H1 H2.
    rewrite (msum_scaled_split c d s (lo P) (hi P))
      by (rewrite ?(lo_length P h), ?(hi_length P h); lia).
    rewrite lo_hi_app. reflexivity.
  Qed.

  Definition Pf (a b : list F) (Gs Hs : list G) (Q : G) : G :=
    gadd (gadd (msum a Gs) (msum b Hs)) (smul (dot a b) Q).

  Lemma ipa_step u ui Gs Hs Q a b h :
    fmul u ui = f1 ->
    length a = 2 * h -> length b = 2 * h -> length Gs = 2 * h -> length Hs = 2 * h ->
    Pf (fold_a u ui a) (fold_b u ui b) (fold_G u ui Gs) (fold_H u ui Hs) Q
    = gadd (Pf a b Gs Hs Q)
           (gadd (smul (fmul u u) (ipa_L Gs Hs Q a b)) (smul (fmul ui ui) (ipa_R Gs Hs Q a b))).
  Proof.
    intros Hu Ha Hb HG HH.
    assert (Hu' : fmul ui u = f1) by (rewrite <- Hu; ring).
    pose proof (lo_length a h Ha). pose proof (hi_length a h Ha).
    pose proof (lo_length b h Hb). pose proof (hi_length b h Hb).
    pose proof (lo_length Gs h HG). pose proof (hi_length Gs h HG).
    pose proof (lo_length Hs h HH). pose proof (hi_length Hs h HH).
    unfold Pf, Ipa.fold_a, Ipa.fold_b, Ipa.fold_G, Ipa.fold_H, Ipa.ipa_L, Ipa.ipa_R.
    rewrite (msum_fold u ui (lo a) (hi a) (lo Gs) (hi Gs)) by lia.
    rewrite (msum_fold ui u (lo b) (hi b) (lo Hs) (hi Hs)) by lia.
    rewrite (dot_fold u ui (lo a) (hi a) (lo b) (hi b)) by lia.
    rewrite (msum_lo_hi a Gs h Ha HG), (msum_lo_hi b Hs h Hb HH), (dot_lo_hi a b h Ha Hb).
    rewrite Hu, Hu'. mod_ring.
  Qed.

  Lemma svec_length us : length (svec us) = Nat.pow 2 (length us).
  Proof.
    induction us as [|[u ui] us IH]; [reflexivity|].
    cbn [Ipa.svec length]. rewrite app_length, !vscale_length, IH. cbn [Nat.pow]. lia.
  Qed.

  Lemma vscale_rev c s : rev (vscale c s) = vscale c (rev s).
  Proof. unfold BpAlg.vscale. symmetry. apply map_rev. Qed.

  Lemma lr_sum_cons u ui us L Rr lr :
    lr_sum ((u, ui) :: us) ((L, Rr) :: lr)
    = gadd (gadd (smul (fmul u u) L) (smul (fmul ui ui) Rr)) (lr_sum us lr).
  Proof. reflexivity. Qed.

  Definition invs_ok (us : list (F * F)) : Prop := Forall (fun p => fmul (fst p) (snd p) = f1) us.

  Theorem ipa_prove_correct : forall us Gs Hs Q a b,
    invs_ok us ->
    length a = Nat.pow 2 (length us) -> length b = Nat.pow 2 (length us) ->
    length Gs = Nat.pow 2 (length us) -> length Hs = Nat.pow 2 (length us) ->
    forall lr fa fb, ipa_prove us Gs Hs Q a b = (lr, fa, fb) ->
    ipa_check us Gs Hs Q (Pf a b Gs Hs Q) lr fa fb /\ length lr = length us.
  Proof.
    induction us as [|[u ui] us IH]; intros Gs Hs Q a b Hinv Ha Hb HG HH lr fa fb E.
    - cbn [length Nat.pow] in *.
      destruct a as [|a0 [|]]; cbn [length] in Ha; try discriminate.
      destruct b as [|b0 [|]]; cbn [length] in Hb; try discriminate.
      destruct Gs as [|G0 [|]]; cbn [length] in HG; try discriminate.
      destruct Hs as [|H0 [|]]; cbn [length] in HH; try discriminate.
      cbn in E. injection E as <- <- <-. split; [|reflexivity].
      unfold Ipa.ipa_check, Pf. cbn. mod_ring.
    - cbn [length Nat.pow] in *. inversion Hinv as [|? ? Hu Hinv']; subst. cbn [fst snd] in Hu.
      set (h := Nat.pow 2 (length us)) in *.
      cbn [Ipa.ipa_prove] in E.
      destruct (ipa_prove us (fold_G u ui Gs) (fold_H u ui Hs) Q (fold_a u ui a) (fold_b u ui b))
        as [[lr' fa'] fb'] eqn:E'.
      injection E as <- <- <-.
      destruct (IH (fold_G u ui Gs) (fold_H u ui Hs) Q (fold_a u ui a) (fold_b u ui b) Hinv'
                  (fold_length _ _ a h Ha) (fold_length _ _ b h Hb)
                  (gfold_length _ _ Gs h HG) (gfold_length _ _ Hs h HH) _ _ _ E') as [IHc IHl].
      split; [|cbn [length]; lia].
      unfold Ipa.ipa_check in *. rewrite lr_sum_cons.
      cbn [Ipa.svec]. rewrite rev_app_distr, !vscale_rev.
      pose proof (svec_length us) as Ls. fold h in Ls.
      assert (Lr : length (rev (svec us)) = h) by (rewrite rev_length; exact Ls).
      rewrite (msum_svec_step ui u (svec us) Gs h) by (assumption || lia).
      rewrite (msum_svec_step u ui (rev (svec us)) Hs h) by (assumption || lia).
      change (gvadd (gvscale ui (lo Gs)) (gvscale u (hi Gs))) with (fold_G u ui Gs).
      change (gvadd (gvscale u (lo Hs)) (gvscale ui (hi Hs))) with (fold_H u ui Hs).
      rewrite <- IHc. rewrite (ipa_step u ui Gs Hs Q a b h) by (assumption || lia).
      mod_ring.
  Qed.

  (** the code's single multi-exponentiation is the textbook check *)
  Theorem ipa_code_iff : forall us c Gs Hs Q Xs eG eH eQ eX lr a b,
    length Gs = Nat.pow 2 (length us) -> length Hs = length Gs -> length c = length Gs ->
    length eG = length Gs -> length eH = length Gs ->
    (ipa_code_lhs us c Gs Hs Q Xs eG eH eQ eX lr a b = g0
     <-> ipa_check us Gs (gvmul c Hs) Q
           (gadd (gadd (gadd (msum eG Gs) (msum eH Hs)) (smul eQ Q)) (msum eX Xs)) lr a b).
  Proof.
    intros us c Gs Hs Q Xs eG eH eQ eX lr a b HG HH Hc HeG HeH.
    pose proof (svec_length us) as Ls.
    unfold Ipa.ipa_code_lhs, Ipa.ipa_check.
    rewrite msum_vsub by vlen.
    rewrite msum_vsub by vlen.
    rewrite !msum_vscale, msum_map_opp.
    rewrite <- (msum_gvmul c (rev (svec us)) Hs) by vlen.
    set (X1 := gadd (gadd (smul a (msum (svec us) Gs)) (smul b (msum (rev (svec us)) (gvmul c Hs))))
                    (smul (fmul a b) Q)).
    set (X2 := gadd (gadd (gadd (gadd (msum eG Gs) (msum eH Hs)) (smul eQ Q)) (msum eX Xs)) (lr_sum us lr)).
    match goal with |- ?lhs = g0 <-> _ => assert (E : lhs = gadd X1 (gopp X2)) by (unfold X1, X2; mod_ring) end.
    rewrite E, gsub_zero_iff. split; intro H; symmetry; exact H.
  Qed.

  Local Notation bp_prove := (bp_prove Ops).
  Local Notation bp_accepts := (bp_accepts Ops).
  Local Notation bp_verdict := (bp_verdict Ops).
  Local Notation bp_t0 := (bp_t0 Ops).
  Local Notation bp_t1 := (bp_t1 Ops).
  Local Notation bp_t2 := (bp_t2 Ops).
  Local Notation bp_l0 := (bp_l0 Ops).
  Local Notation bp_r0 := (bp_r0 Ops).
  Local Notation bp_r1 := (bp_r1 Ops).

  Lemma dot_poly x : forall l0 l1 r0 r1,
    length l1 = length l0 -> length r0 = length l0 -> length r1 = length l0 ->
    dot (vadd l0 (vscale x l1)) (vadd r0 (vscale x r1))
    = fadd (fadd (dot l0 r0)
                 (fmul (fsub (fsub (dot (vadd l0 l1) (vadd r0 r1)) (dot l0 r0)) (dot l1 r1)) x))
           (fmul (dot l1 r1) (fmul x x)).
  Proof.
    induction l0 as [|a l0 IH]; intros [|b l1] [|c r0] [|d r1] H1 H2 H3; cbn [length] in *; try discriminate.
    - cbn. ring.
    - vcons. rewrite IH by lia. ring.
  Qed.

  Definition inv_pairs (ys yis : list F) : Prop := Forall2 (fun a b => fmul a b = f1) ys yis.

  Lemma powers_inv : forall n y yi c d, fmul y yi = f1 -> fmul c d = f1 ->
    inv_pairs (powers_from y c n) (powers_from yi d n).
  Proof.
    induction n; intros y yi c d Hy Hc; cbn [BpAlg.powers_from]; constructor; [exact Hc|].
    apply IHn; [exact Hy|]. transitivity (fmul (fmul c d) (fmul y yi)); [ring|]. rewrite Hy, Hc. ring.
  Qed.

  Lemma powers_length : forall n z c, length (powers_from z c n) = n.
  Proof. induction n; intros; cbn [BpAlg.powers_from length]; [reflexivity | rewrite IHn; reflexivity]. Qed.

  Lemma z_vec_length z f n : length (z_vec z f n) = n.
  Proof. apply powers_length. Qed.

  Lemma z_vec_inv n y yi : fmul y yi = f1 -> inv_pairs (z_vec y 0 n) (z_vec yi 0 n).
  Proof. intros H. unfold BpAlg.z_vec. apply powers_inv; [exact H|]. cbn [BpAlg.fpow]. ring. Qed.

  Lemma msum_cancel : forall ys yis, inv_pairs ys yis -> forall v Hs,
    length v = length ys -> length Hs = length ys ->
    msum (vmul ys v) (gvmul yis Hs) = msum v Hs.
  Proof.
    induction 1 as [|y yi ys yis Hy HF IH]; intros [|v0 v] [|h0 Hs] H1 H2; cbn [length] in *; try discriminate.
    - reflexivity.
    - vcons. rewrite IH by lia. f_equal. rewrite <- smul_mul. f_equal.
      transitivity (fmul v0 (fmul y yi)); [ring|]. rewrite Hy. ring.
  Qed.

  Lemma inv_pairs_length ys yis : inv_pairs ys yis -> length yis = length ys.
  Proof. induction 1; cbn [length]; lia. Qed.

  Theorem bp_complete : forall Gs Hs B Bt aL aR sL sR at_ st t1t t2t cl cr e cvr y yi z x w us Vterm delta eH,
    length Gs = Nat.pow 2 (length us) -> length Hs = length Gs ->
    length aL = length Gs -> length aR = length Gs -> length sL = length Gs -> length sR = length Gs ->
    length cl = length Gs -> length cr = length Gs -> length e = length Gs ->
    fmul y yi = f1 -> invs_ok us ->
    eH = vadd cr (vmul (z_vec yi 0 (length Gs)) e) ->
    gadd (smul (bp_t0 (z_vec y 0 (length Gs)) aL aR cl cr e) B) (smul cvr Bt) = gadd Vterm (smul delta B) ->
    bp_accepts Gs Hs B Bt
      (bp_prove Gs Hs B Bt aL aR sL sR at_ st t1t t2t cl cr e cvr y yi z x w us)
      Vterm delta cl eH yi x w us.
  Proof.
    intros Gs Hs B Bt aL aR sL sR at_ st t1t t2t cl cr e cvr y yi z x w us Vterm delta eH
           HG HH HaL HaR HsL HsR Hcl Hcr He Hy Hus HeH Ht0.
    set (N := length Gs) in *.
    pose proof (z_vec_inv N y yi Hy) as Hinv.
    pose proof (z_vec_length y 0 N) as LyN. pose proof (z_vec_length yi 0 N) as LyiN.
    unfold RangeProof.bp_prove. fold N.
    set (yN := z_vec y 0 N) in *. set (yiN := z_vec yi 0 N) in *.
    set (l0 := bp_l0 aL cl). set (r0 := bp_r0 yN aR cr e). set (r1 := bp_r1 yN sR).
    assert (Ll0 : length l0 = N) by (unfold l0, RangeProof.bp_l0; vlen).
    assert (Lr1 : length r1 = N) by (unfold r1, RangeProof.bp_r1; vlen).
    assert (Lac : length (vadd aR cr) = N) by vlen.
    assert (Lyac : length (vmul yN (vadd aR cr)) = N) by vlen.
    assert (Lr0 : length r0 = N) by (unfold r0, RangeProof.bp_r0; vlen).
    set (l := vadd l0 (vscale x sL)). set (r := vadd r0 (vscale x r1)).
    assert (Ll : length l = N) by (unfold l; vlen).
    assert (Lr : length r = N) by (unfold r; vlen).
    set (Hp := gvmul yiN Hs).
    assert (LHp : length Hp = N) by (unfold Hp; vlen).
    destruct (ipa_prove us Gs Hp (smul w B) l r) as [[lr a] b] eqn:E.
    destruct (ipa_prove_correct us Gs Hp (smul w B) l r Hus ltac:(lia) ltac:(lia) ltac:(lia) ltac:(lia) _ _ _ E)
      as [Hchk Hlen].
    unfold RangeProof.bp_accepts. split.
    - unfold RangeProof.bp_eq1_lhs, RangeProof.bp_eq1_rhs. cbn [ptx ptxt pT1 pT2].
      fold l0 r0 r1. change (RangeProof.bp_t0 Ops yN aL aR cl cr e) with (bp_t0 yN aL aR cl cr e) in *.
      set (t0 := bp_t0 yN aL aR cl cr e) in *. set (t1 := bp_t1 yN aL aR sL sR cl cr e). set (t2 := bp_t2 yN sL sR).
      transitivity (gadd (gadd (smul t0 B) (smul cvr Bt))
                         (gadd (smul x (gadd (smul t1 B) (smul t1t Bt)))
                               (smul (fmul x x) (gadd (smul t2 B) (smul t2t Bt))))); [mod_ring|].
      rewrite Ht0. mod_ring.
    - unfold RangeProof.bp_eq2_lhs. cbn [ptx pet pA pS plr pa pb]. fold N. fold yiN.
      apply ipa_code_iff; try lia; [rewrite HeH; vlen|].
      fold Hp.
      match goal with |- Ipa.ipa_check _ _ _ _ _ ?P _ _ _ => replace P with (Pf l r Gs Hp (smul w B)); [exact Hchk|] end.
      unfold Pf.
      assert (Htx : dot l r = fadd (fadd (bp_t0 yN aL aR cl cr e) (fmul (bp_t1 yN aL aR sL sR cl cr e) x))
                                   (fmul (bp_t2 yN sL sR) (fmul x x))).
      { unfold l, r. rewrite dot_poly by vlen. reflexivity. }
      rewrite Htx.
      (* <l, G> *)
      unfold l at 1. rewrite msum_vadd by vlen.
      unfold l0 at 1, RangeProof.bp_l0. rewrite msum_vadd by lia. rewrite msum_vscale.
      (* <r, H'> *)
      unfold r at 1. rewrite msum_vadd by vlen.
      unfold r0 at 1, RangeProof.bp_r0. rewrite msum_vadd by lia. rewrite msum_vscale.
      unfold Hp at 1 2 3.
      rewrite (msum_cancel yN yiN Hinv (vadd aR cr) Hs) by lia.
      rewrite msum_vadd by lia.
      rewrite (msum_gvmul yiN e Hs) by lia.
      unfold r1 at 1, RangeProof.bp_r1.
      rewrite (msum_cancel yN yiN Hinv sR Hs) by lia.
      rewrite HeH. rewrite msum_vadd by vlen.
      vcons. change (msum [] []) with g0.
      mod_ring.
  Qed.

  (** the executable verifier returns Ok exactly when the two equations hold *)
  Hypothesis feqb_spec : forall a b, feqb a b = true <-> a = b.
  Hypothesis geqb_spec : forall a b, geqb a b = true <-> a = b.

  Lemma invs_ok_forallb us : forallb (fun u => feqb (fmul (fst u) (snd u)) f1) us = true <-> invs_ok us.
  Proof.
    unfold invs_ok. rewrite forallb_forall, Forall_forall.
    split; intros H u Hu; apply feqb_spec, H, Hu.
  Qed.

  Theorem bp_verdict_ok_iff : forall Gs Hs B Bt p Vterm delta eG eH y yi x w us,
    bp_verdict Gs Hs B Bt p Vterm delta eG eH y yi x w us = VOk
    <-> (bp_accepts Gs Hs B Bt p Vterm delta eG eH yi x w us /\ fmul y yi = f1 /\ invs_ok us).
  Proof.
    intros. unfold RangeProof.bp_verdict, RangeProof.bp_accepts, BpAlg.gsub.
    (* each of the four tests reflects its proposition *)
    rewrite <- (gsub_zero_iff (RangeProof.bp_eq1_lhs Ops B Bt p)), <- !geqb_spec, <- feqb_spec, <- invs_ok_forallb.
    destruct (geqb (gadd _ _) g0); cbn [negb]; [|split; [discriminate|intros [[H _] _]; discriminate H]].
    destruct (feqb _ f1); cbn [negb]; [|split; [discriminate|intros [_ [H _]]; discriminate H]].
    destruct (forallb _ us); cbn [negb]; [|split; [discriminate|intros [_ [_ H]]; discriminate H]].
    destruct (geqb _ g0); [tauto|split; [discriminate|intros [[_ H] _]; discriminate H]].
  Qed.

  (** * statement-specific part: t_0 = (weighted value) + delta *)
  Definition is_bit (b : F) : Prop := b = f0 \/ b = f1.

  Lemma bits_part1 z : forall aL yN, Forall is_bit aL -> length yN = length aL ->
    dot (vadd aL (vconst (fopp z) (length aL)))
        (vmul yN (vadd (map (fun b => fsub b f1) aL) (vconst z (length aL))))
    = fmul (fsub z (fmul z z)) (vsum yN).
  Proof.
    induction aL as [|b aL IH]; intros [|y0 yN] HF HL; cbn [length] in *; try discriminate.
    - cbn. ring.
    - inversion HF as [|? ? Hb HF']; subst. cbn [map]. vcons. rewrite IH by (auto; lia).
      destruct Hb as [-> | ->]; ring.
  Qed.

  Lemma bits_t0 z yN aL e : Forall is_bit aL -> length yN = length aL -> length e = length aL ->
    bp_t0 yN aL (map (fun b => fsub b f1) aL) (vconst (fopp z) (length aL)) (vconst z (length aL)) e
    = fadd (fmul (fsub z (fmul z z)) (vsum yN)) (dot (vadd aL (vconst (fopp z) (length aL))) e).
  Proof.
    intros HF Hy He.
    assert (L1 : length (vadd aL (vconst (fopp z) (length aL))) = length aL)
      by vlen.
    unfold RangeProof.bp_t0, RangeProof.bp_l0, RangeProof.bp_r0.
    rewrite dot_vadd_r, bits_part1 by
      (auto; vlen).
    reflexivity.
  Qed.

  Lemma vadd_app : forall a b c d, length a = length c -> vadd (a ++ b) (c ++ d) = vadd a c ++ vadd b d.
  Proof.
    induction a as [|x a IH]; intros b [|y c] d H; cbn [length] in H; try discriminate.
    - reflexivity.
    - cbn [app]. vcons. rewrite IH by lia. reflexivity.
  Qed.
  Lemma vconst_add c a b : vconst c (a + b) = vconst c a ++ vconst c b.
  Proof. unfold BpAlg.vconst. apply repeat_app. Qed.

  Local Notation two_n_vec := (two_n_vec Ops).
  Local Notation fbits := (fbits Ops).
  Local Notation fbit := (fbit Ops).
  Local Notation range_aL := (range_aL Ops).
  Local Notation range_aR := (range_aR Ops).
  Local Notation range_e := (range_e Ops).
  Local Notation zgeo := (zgeo Ops).
  Local Notation zweighted := (zweighted Ops).
  Local Notation gweighted := (gweighted Ops).
  Local Notation range_prove := (range_prove Ops).
  Local Notation range_accepts := (range_accepts Ops).
  Local Notation range_delta := (range_delta Ops).
  Local Notation range_eH := (range_eH Ops).

  (** the scalar represented by the n low bits of v:  sum_i bit_i(v) 2^i  in F *)
  Definition fval (n : nat) (v : Z) : F := dot (fbits v n) (two_n_vec n).

  Lemma fbits_length v n : length (fbits v n) = n.
  Proof. unfold RangeProof.fbits. rewrite map_length, seq_length. reflexivity. Qed.
  Lemma two_n_length n : length (two_n_vec n) = n.
  Proof. apply powers_length. Qed.
  #[local] Hint Rewrite fbits_length two_n_length : vlen.
  Lemma range_aL_length n vs : length (range_aL n vs) = n * length vs.
  Proof.
    induction vs as [|v vs IH]; cbn [RangeProof.range_aL flat_map length]; [lia|].
    rewrite app_length, fbits_length. fold (range_aL n vs). rewrite IH. lia.
  Qed.
  Lemma range_e_length n z : forall m zc, length (range_e n zc z m) = n * m.
  Proof.
    induction m; intros zc; cbn [RangeProof.range_e length]; [lia|].
    rewrite app_length, vscale_length, two_n_length, IHm. lia.
  Qed.
  Lemma fbits_bits v n : Forall is_bit (fbits v n).
  Proof.
    unfold RangeProof.fbits. apply Forall_forall. intros b Hb. apply in_map_iff in Hb.
    destruct Hb as [i [<- _]]. unfold RangeProof.fbit, is_bit. destruct Z.testbit; auto.
  Qed.
  Lemma range_aL_bits n vs : Forall is_bit (range_aL n vs).
  Proof.
    induction vs as [|v vs IH]; cbn [RangeProof.range_aL flat_map]; [constructor|].
    apply Forall_app. split; [apply fbits_bits | exact IH].
  Qed.

  Lemma zgeo_scale z c : forall m zc, zgeo (fmul zc c) z m = fmul c (zgeo zc z m).
  Proof.
    induction m; intros zc; cbn [RangeProof.zgeo]; [ring|].
    replace (fmul (fmul zc c) z) with (fmul (fmul zc z) c) by ring. rewrite IHm. ring.
  Qed.

  Lemma range_part2 n z : forall vs zc,
    dot (vadd (range_aL n vs) (vconst (fopp z) (n * length vs))) (range_e n zc z (length vs))
    = fsub (zweighted zc z (map (fval n) vs))
           (fmul (fmul z (vsum (two_n_vec n))) (zgeo zc z (length vs))).
  Proof.
    induction vs as [|v vs IH]; intros zc.
    - cbn [length map RangeProof.zweighted RangeProof.zgeo RangeProof.range_e RangeProof.range_aL flat_map].
      rewrite Nat.mul_0_r. change (dot (vadd [] (vconst (fopp z) 0)) []) with f0. ring.
    - cbn [length map RangeProof.zweighted RangeProof.zgeo RangeProof.range_e RangeProof.range_aL flat_map].
      fold (range_aL n vs).
      replace (n * S (length vs)) with (n + n * length vs) by lia.
      rewrite vconst_add.
      rewrite vadd_app, dot_app by vlen.
      rewrite IH.
      rewrite dot_vscale_r, dot_vadd_l by vlen.
      rewrite (dot_vconst_l (fopp z) n (two_n_vec n)) by apply two_n_length.
      fold (fval n v). ring.
  Qed.

  Lemma gweighted_commits z B Bt : forall vals rs zc, length rs = length vals ->
    gweighted zc z (vzip (fun v r => gadd (smul v B) (smul r Bt)) vals rs)
    = gadd (smul (zweighted zc z vals) B) (smul (zweighted zc z rs) Bt).
  Proof.
    induction vals as [|v vals IH]; intros [|r rs] zc H; cbn [length] in H; try discriminate.
    - cbn. mod_ring.
    - change (vzip (fun v r => gadd (smul v B) (smul r Bt)) (v :: vals) (r :: rs))
        with (gadd (smul v B) (smul r Bt) :: vzip (fun v r => gadd (smul v B) (smul r Bt)) vals rs).
      cbn [RangeProof.gweighted RangeProof.zweighted]. rewrite IH by lia. mod_ring.
  Qed.

  Lemma vadd_comm a b : vadd a b = vadd b a.
  Proof.
    revert b. induction a as [|x a IH]; intros [|y b]; try reflexivity.
    vcons. rewrite IH. f_equal. ring.
  Qed.

  (** Completeness of the range proof: for every bit width n, every batch vs (any integers - only
      their n low bits are used), all blinding factors and all challenges, the proof produced by
      [range_prove] satisfies both verifier equations against the commitments to the values
      represented by those bits.  (For 0 <= v < 2^n that value is v itself: [BpExtras.fval_in_range].) *)
  Theorem range_complete_l : forall n vs rs Gs Hs B Bt sL sR at_ st t1t t2t y yi z x w us,
    let m := length vs in
    length rs = m ->
    length Gs = Nat.pow 2 (length us) -> length Gs = n * m -> length Hs = length Gs ->
    length sL = length Gs -> length sR = length Gs ->
    fmul y yi = f1 -> invs_ok us ->
    range_accepts n (vzip (fun v r => gadd (smul v B) (smul r Bt)) (map (fval n) vs) rs) Gs Hs B Bt
      (range_prove n vs rs Gs Hs B Bt sL sR at_ st t1t t2t y yi z x w us) y yi z x w us.
  Proof.
    intros n vs rs Gs Hs B Bt sL sR at_ st t1t t2t y yi z x w us m Hrs HG HN HH HsL HsR Hy Hus.
    unfold RangeProof.range_accepts, RangeProof.range_prove. fold m.
    assert (Lv : length (vzip (fun v r => gadd (smul v B) (smul r Bt)) (map (fval n) vs) rs) = m).
    { rewrite vzip_length, map_length. lia. }
    rewrite Lv.
    pose proof (range_aL_length n vs) as LaL. fold m in LaL.
    assert (LaR : length (range_aR (range_aL n vs)) = n * m) by (unfold RangeProof.range_aR; rewrite map_length; exact LaL).
    pose proof (range_e_length n z m (fmul z z)) as Le.
    apply bp_complete; rewrite ?vconst_length; try lia; try assumption.
    - unfold RangeProof.range_eH. rewrite HN. apply vadd_comm.
    - rewrite HN, <- LaL. unfold RangeProof.range_aR.
      rewrite bits_t0 by (rewrite ?z_vec_length; auto using range_aL_bits; lia). rewrite LaL.
      unfold m. rewrite range_part2. fold m.
      rewrite gweighted_commits by vlen.
      unfold RangeProof.range_delta.
      rewrite (zgeo_scale z z m (fmul z z)).
      mod_ring.
  Qed.
  Local Notation indicator := (indicator Ops).
  Local Notation memb := (memb Ops).
  Local Notation fofnat := (fofnat Ops).
  Local Notation mem_e := (mem_e Ops).
  Local Notation mem_prove := (mem_prove Ops).
  Local Notation mem_accepts := (mem_accepts Ops).
  Local Notation nonmem_prove := (nonmem_prove Ops).
  Local Notation nonmem_accepts := (nonmem_accepts Ops).

  Lemma memb_In v s : memb v s = true <-> In v s.
  Proof.
    unfold SetProof.memb. rewrite existsb_exists. split.
    - intros [x [Hx E]]. apply feqb_spec in E. subst. exact Hx.
    - intros H. exists v. split; [exact H | apply feqb_spec; reflexivity].
  Qed.

  Lemma indicator_true_cons v a s : indicator v (a :: s) true = f0 :: indicator v s true.
  Proof. reflexivity. Qed.
  Lemma indicator_false_cons v a s :
    indicator v (a :: s) false = if feqb v a then f1 :: indicator v s true else f0 :: indicator v s false.
  Proof. reflexivity. Qed.

  Lemma indicator_found v : forall s,
    length (indicator v s true) = length s /\ Forall is_bit (indicator v s true)
    /\ vsum (indicator v s true) = f0 /\ dot (indicator v s true) s = f0.
  Proof.
    induction s as [|a s IH].
    - repeat split; try constructor.
    - rewrite indicator_true_cons. cbn [length]. destruct IH as [L [B [S D]]]. repeat split.
      + rewrite L. reflexivity.
      + constructor; [left; reflexivity | exact B].
      + vcons. rewrite S. ring.
      + vcons. rewrite D. ring.
  Qed.

  Lemma indicator_spec v : forall s, memb v s = true ->
    length (indicator v s false) = length s /\ Forall is_bit (indicator v s false)
    /\ vsum (indicator v s false) = f1 /\ dot (indicator v s false) s = v.
  Proof.
    induction s as [|a s IH]; intros M.
    - discriminate.
    - rewrite indicator_false_cons. cbn [length]. unfold SetProof.memb in M. cbn [existsb] in M.
      destruct (feqb v a) eqn:E; cbn [length].
      + apply feqb_spec in E. subst a. destruct (indicator_found v s) as [L [B [S D]]]. repeat split.
        * rewrite L. reflexivity.
        * constructor; [right; reflexivity | exact B].
        * vcons. rewrite S. ring.
        * vcons. rewrite D. ring.
      + cbn [orb] in M. destruct (IH M) as [L [B [S D]]]. repeat split.
        * rewrite L. reflexivity.
        * constructor; [left; reflexivity | exact B].
        * vcons. rewrite S. ring.
        * vcons. rewrite D. ring.
  Qed.

  Lemma mem_part2 z : forall aL s, length aL = length s ->
    dot (vadd aL (vconst (fopp z) (length s))) (mem_e z s)
    = fsub (fadd (fmul (fmul (fmul z z) z) (vsum aL)) (fmul (fmul z z) (dot aL s)))
           (fmul z (fadd (fmul (fmul (fmul z z) z) (fofnat (length s))) (fmul (fmul z z) (vsum s)))).
  Proof.
    induction aL as [|a aL IH]; intros [|si s] H; cbn [length] in H; try discriminate.
    - cbn. ring.
    - unfold SetProof.mem_e, SetProof.fofnat in *. cbn [map length]. vcons. rewrite IH by lia. ring.
  Qed.

  Theorem mem_complete_l : forall set v vr Gs Hs B Bt sL sR at_ st t1t t2t y yi z x w us p,
    mem_prove set v vr Gs Hs B Bt sL sR at_ st t1t t2t y yi z x w us = Some p ->
    length Gs = Nat.pow 2 (length us) -> length Gs = length (pad_pow2 set) -> length Hs = length Gs ->
    length sL = length Gs -> length sR = length Gs ->
    fmul y yi = f1 -> invs_ok us ->
    mem_accepts set (gadd (smul v B) (smul vr Bt)) Gs Hs B Bt p y yi z x w us.
  Proof.
    intros set v vr Gs Hs B Bt sL sR at_ st t1t t2t y yi z x w us p E HG HN HH HsL HsR Hy Hus.
    unfold SetProof.mem_prove in E. unfold SetProof.mem_accepts.
    set (s := pad_pow2 set) in *.
    destruct (memb v s) eqn:M; [|discriminate]. injection E as <-.
    destruct (indicator_spec v s M) as [L [Bb [S D]]].
    assert (L4 : length (mem_e z s) = length s) by (unfold SetProof.mem_e; apply map_length).
    apply bp_complete; rewrite ?vconst_length, ?map_length; try lia; try assumption.
    - unfold SetProof.mem_eH. rewrite HN. reflexivity.
    - rewrite HN, <- L.
      rewrite bits_t0 by (rewrite ?z_vec_length; auto; lia). rewrite L.
      rewrite mem_part2 by exact L. rewrite S, D.
      unfold SetProof.mem_delta. mod_ring.
  Qed.

  Theorem mem_prove_some_iff : forall set v vr Gs Hs B Bt sL sR at_ st t1t t2t y yi z x w us,
    (exists p, mem_prove set v vr Gs Hs B Bt sL sR at_ st t1t t2t y yi z x w us = Some p) <-> In v set.
  Proof.
    intros. unfold SetProof.mem_prove. rewrite <- (pad_pow2_In _ set v), <- memb_In.
    destruct (memb v (pad_pow2 set)); split.
    - reflexivity.
    - intros _. eexists. reflexivity.
    - intros [p E]; discriminate.
    - discriminate.
  Qed.

  Lemma nonmem_t0 v z : forall s invs, Forall2 (fun si iv => fmul (fsub v si) iv = f1) s invs ->
    forall yN, length yN = length s ->
    dot (vadd invs (vconst z (length s)))
        (vadd (vmul yN (vadd (vconst v (length s)) (map fopp s))) (vconst f0 (length s)))
    = fadd (fmul (fmul z (vsum yN)) v) (fsub (vsum yN) (fmul z (dot s yN))).
  Proof.
    induction 1 as [|si iv s invs Hi HF IH]; intros [|y0 yN] HL; cbn [length map] in *; try discriminate.
    - cbn. ring.
    - vcons. rewrite IH by lia.
      assert (K : fmul (fadd iv z) (fadd (fmul y0 (fadd v (fopp si))) f0)
                  = fadd (fmul y0 (fmul (fsub v si) iv)) (fmul (fmul z y0) (fsub v si))) by ring.
      rewrite K, Hi. ring.
  Qed.

  Lemma vadd_zero_r : forall a w, length w = length a -> vadd a (vmul w (vconst f0 (length a))) = a.
  Proof.
    induction a as [|x a IH]; intros [|w0 w] H; cbn [length] in *; try discriminate.
    - reflexivity.
    - vcons. rewrite IH by lia. f_equal. ring.
  Qed.

  Theorem nonmem_complete_l : forall set v vr invs Gs Hs B Bt sL sR at_ st t1t t2t y yi z x w us p,
    nonmem_prove set v vr invs Gs Hs B Bt sL sR at_ st t1t t2t y yi z x w us = Some p ->
    Forall2 (fun si iv => fmul (fsub v si) iv = f1) (pad_pow2 set) invs ->
    length Gs = Nat.pow 2 (length us) -> length Gs = length (pad_pow2 set) -> length Hs = length Gs ->
    length sL = length Gs -> length sR = length Gs ->
    fmul y yi = f1 -> invs_ok us ->
    nonmem_accepts set (gadd (smul v B) (smul vr Bt)) Gs Hs B Bt p y yi z x w us.
  Proof.
    intros set v vr invs Gs Hs B Bt sL sR at_ st t1t t2t y yi z x w us p E Hinv HG HN HH HsL HsR Hy Hus.
    unfold SetProof.nonmem_prove in E. unfold SetProof.nonmem_accepts.
    set (s := pad_pow2 set) in *.
    destruct (memb v s) eqn:M; [discriminate|]. injection E as <-.
    assert (Li : length invs = length s).
    { clear -Hinv. induction Hinv; cbn [length]; lia. }
    pose proof (z_vec_length yi 0 (length s)) as LyiN.
    apply bp_complete; rewrite ?vconst_length, ?map_length; try lia; try assumption.
    - rewrite HN. symmetry. rewrite <- (map_length fopp s) at 2. apply vadd_zero_r.
      rewrite map_length. exact LyiN.
    - rewrite HN. unfold RangeProof.bp_t0, RangeProof.bp_l0, RangeProof.bp_r0.
      rewrite (nonmem_t0 v z s invs Hinv) by apply z_vec_length.
      unfold SetProof.nonmem_delta. mod_ring.
  Qed.

  Theorem nonmem_prove_some_iff : forall set v vr invs Gs Hs B Bt sL sR at_ st t1t t2t y yi z x w us,
    (exists p, nonmem_prove set v vr invs Gs Hs B Bt sL sR at_ st t1t t2t y yi z x w us = Some p) <-> ~ In v set.
  Proof.
    intros. unfold SetProof.nonmem_prove. rewrite <- (pad_pow2_In _ set v), <- memb_In.
    destruct (memb v (pad_pow2 set)); split.
    - intros [p E]; discriminate.
    - intros H. exfalso. apply H. reflexivity.
    - intros _. discriminate.
    - intros _. eexists. reflexivity.
  Qed.
End BpProofs.
