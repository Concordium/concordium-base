(** C18 - for each statement kind, completeness of the sub-protocol its verifier runs, from the
    C07 / C11 developments (Props/C18.v: [statement_complete_reveal] / [_range] / [_in_set] /
    [_not_in_set]); [sub_verifies] of [statement_complete_rel] itself stays abstract.

      reveal / value  : sigma_protocols/dlog over the statement  C - x*g = r*h   (Sigma_dlog.v, SigmaGeneric.v)
      in range        : bulletproof range proof, n = 64, m = 2                    (BpTheorems.range_complete_p)
      in set          : set membership proof on the vector of scalars             (BpTheorems.mem_complete_p)
      not in set      : set non-membership proof                                  (BpTheorems.nonmem_complete_p)

    The scalar field is abstract in both developments; attribute encodings enter through an arbitrary
    map [emb : N -> scalars] (the reduction mod r of the concrete curve). *)
From Coq Require Import ZArith List Bool.
From CB Require Import Crypto.Alg Crypto.Transcript Crypto.SigmaGeneric Crypto.SigmaCodec Crypto.Sigma_dlog.
From CB Require Import Crypto.BpAlg Crypto.RangeProof Crypto.SetProof Crypto.RangeStmt Crypto.BpTheorems.
From CB Require Crypto.Statements Crypto.StatementsProofs.
Import ListNotations.

Module S := CB.Crypto.Statements.
Module SP := CB.Crypto.StatementsProofs.

(** * reveal / attribute value: the dlog statement the verifier forms is in the dlog relation *)
Section Reveal.
  Context {K : FieldOps} {M : ModOps K} (Cd : CodecOps M).
  Context {KL : FieldLaws K} {ML : ModLaws M}.
  Variable H : bytes -> bytes.
  Variable sfb : bytes -> K.
  Local Open Scope G_scope.
  Add Field Kf_c18 : (@F_th K KL).

  (** commitment to x with randomness r under the key (g, h); the statement of
      [verify_value_equal_to_commitment]: public = C - x*g, coeff = h; witness r *)
  Definition reveal_stmt (g h : M) (C : M) (x : K) : dlog_stmt M := mkDlog (C - x *: g) h.

  Lemma reveal_in_relation g h x r : dlog_rel (reveal_stmt g h (x *: g + r *: h) x) r.
  Proof. unfold dlog_rel, reveal_stmt. cbn [dl_public dl_coeff]. mod_norm. Qed.

  (** for every key, value, commitment randomness, transcript state, prover randomness and hash:
      the honest reveal proof exists and verifies, leaving prover and verifier in the same state *)
  Theorem reveal_complete_c07 : forall g h x r k ctx rho,
    exists pi st,
      prove H sfb (dlog_proto Cd) k ctx (reveal_stmt g h (x *: g + r *: h) x) r rho = Some (pi, st)
      /\ verify H sfb (dlog_proto Cd) k ctx (reveal_stmt g h (x *: g + r *: h) x) pi = (true, st).
  Proof.
    intros g h x r k ctx rho.
    eapply (prove_verify_complete_ H sfb (dlog_proto Cd) (dlog_rel) (fun _ _ => True)).
    - apply dlog_complete_; assumption.
    - apply reveal_in_relation.
    - exact I.
  Qed.

  (** a value statement with another scalar x' is NOT in the relation unless (x - x')*g = 0:
      the honest "proof" for a false value is a proof about another statement *)
  Lemma reveal_other_value_relation g h x x' r :
    dlog_rel (reveal_stmt g h (x *: g + r *: h) x') r <-> (x *: g - x' *: g = G0 M).
  Proof.
    unfold dlog_rel, reveal_stmt. cbn [dl_public dl_coeff]. split; intros E.
    - assert (X : x *: g - x' *: g = (x *: g + r *: h - x' *: g) - r *: h) by mod_norm.
      rewrite X, E. mod_norm.
    - assert (X : x *: g + r *: h - x' *: g = (x *: g - x' *: g) + r *: h) by mod_norm.
      rewrite X, E. mod_norm.
  Qed.
End Reveal.

(** * range / set statements over every [bp_ops] with [bp_laws] *)
Section Bulletproofs.
  Variable Ops : bp_ops.
  Hypothesis L : bp_laws Ops.
  (** embedding of the integer encodings into the scalar ring *)
  Variable emb : N -> o_F Ops.

  (** in range: the prover range-proves the two u64 limbs [range_proved]; the proof verifies against
      the commitments to the scalars those 64 bits represent - for EVERY v, a, b.  (They are the
      verifier's derived commitments exactly when [range_scalars_ok], by [in_range_arith_exact].) *)
  Theorem range_stmt_complete_c11 : forall r v a b rs Gs Hs B Bt sL sR at_ st t1t t2t y yi z x w us,
    let vs := [fst (S.range_proved r v a b); snd (S.range_proved r v a b)] in
    length rs = 2%nat ->
    length Gs = Nat.pow 2 (length us) -> length Gs = 128%nat -> length Hs = length Gs ->
    length sL = length Gs -> length sR = length Gs ->
    o_fmul Ops y yi = o_f1 Ops -> inv_ok Ops us ->
    range_verdict Ops 64 (vzip (commit Ops B Bt) (map (fval Ops 64) vs) rs) Gs Hs B Bt
      (range_prove Ops 64 vs rs Gs Hs B Bt sL sR at_ st t1t t2t y yi z x w us) y yi z x w us = VOk.
  Proof.
    intros r v a b rs Gs Hs B Bt sL sR at_ st t1t t2t y yi z x w us vs Hrs HG HG128 HH HsL HsR Hy Hus.
    apply (range_complete_p Ops L); try assumption; try (rewrite Hrs; reflexivity); try (rewrite HG128; reflexivity).
  Qed.

  (** when the statement is provable ([range_scalars_ok]) the proved limbs ARE the derived scalars *)
  Lemma range_proved_eq_scalars r v a b : S.range_scalars_ok r v a b = true ->
    S.range_proved r v a b = S.range_scalars r v a b.
  Proof.
    intros Hok. rewrite <- SP.range_verifies_eq_ok in Hok.
    unfold S.range_verifies in Hok. apply andb_true_iff in Hok as [E1 E2].
    apply Z.eqb_eq in E1. apply Z.eqb_eq in E2.
    destruct (S.range_proved r v a b) as [p1 p2] eqn:P, (S.range_scalars r v a b) as [s1 s2] eqn:Q.
    cbn [fst snd] in *. congruence.
  Qed.

  Definition enc_set (set : list S.attr) : list (o_F Ops) := map (fun x => emb (S.encode x)) set.

  Lemma mem_enc_In v set : S.mem_enc (S.encode v) set = true -> In (emb (S.encode v)) (enc_set set).
  Proof.
    intros Hm. apply SP.mem_enc_spec in Hm as [x [Hi He]]. unfold enc_set. apply in_map_iff.
    exists x. split; [rewrite He; reflexivity|exact Hi].
  Qed.

  Lemma not_mem_enc_not_In v set : (forall a b, emb a = emb b -> a = b) ->
    S.mem_enc (S.encode v) set = false -> ~ In (emb (S.encode v)) (enc_set set).
  Proof.
    intros Hinj Hm Hin. unfold enc_set in Hin. apply in_map_iff in Hin as [a [Ea Hi]].
    apply Hinj in Ea. assert (S.mem_enc (S.encode v) set = true) by (apply SP.mem_enc_spec; exists a; auto).
    congruence.
  Qed.

  (** in set: a true statement has an honest proof and it verifies against the commitment *)
  Theorem set_member_stmt_complete_c11 : forall set v vr Gs Hs B Bt sL sR at_ st t1t t2t y yi z x w us,
    S.mem_enc (S.encode v) set = true ->
    length Gs = Nat.pow 2 (length us) -> length Gs = length (pad_pow2 (enc_set set)) -> length Hs = length Gs ->
    length sL = length Gs -> length sR = length Gs ->
    o_fmul Ops y yi = o_f1 Ops -> inv_ok Ops us ->
    exists p, mem_prove Ops (enc_set set) (emb (S.encode v)) vr Gs Hs B Bt sL sR at_ st t1t t2t y yi z x w us = Some p
      /\ mem_verdict Ops (enc_set set) (commit Ops B Bt (emb (S.encode v)) vr) Gs Hs B Bt p y yi z x w us = VOk.
  Proof.
    intros set v vr Gs Hs B Bt sL sR at_ st t1t t2t y yi z x w us Hm. intros.
    apply (mem_complete_p Ops L); try assumption. apply mem_enc_In. exact Hm.
  Qed.

  (** ... and a false one has none (the prover's refusal [CouldNotFindValueInSet]) *)
  Theorem set_member_stmt_refused_c11 : forall set v vr Gs Hs B Bt sL sR at_ st t1t t2t y yi z x w us,
    (forall a b, emb a = emb b -> a = b) ->
    S.mem_enc (S.encode v) set = false ->
    mem_prove Ops (enc_set set) (emb (S.encode v)) vr Gs Hs B Bt sL sR at_ st t1t t2t y yi z x w us = None.
  Proof.
    intros set v vr Gs Hs B Bt sL sR at_ st t1t t2t y yi z x w us Hinj Hm.
    apply (mem_no_proof_p Ops L). apply not_mem_enc_not_In; assumption.
  Qed.

  (** not in set (for an injective embedding, i.e. encodings below the group order) *)
  Theorem set_nonmember_stmt_complete_c11 : forall set v vr invs Gs Hs B Bt sL sR at_ st t1t t2t y yi z x w us,
    (forall a b, emb a = emb b -> a = b) ->
    S.mem_enc (S.encode v) set = false ->
    Forall2 (fun si iv => o_fmul Ops (o_fsub Ops (emb (S.encode v)) si) iv = o_f1 Ops) (pad_pow2 (enc_set set)) invs ->
    length Gs = Nat.pow 2 (length us) -> length Gs = length (pad_pow2 (enc_set set)) -> length Hs = length Gs ->
    length sL = length Gs -> length sR = length Gs ->
    o_fmul Ops y yi = o_f1 Ops -> inv_ok Ops us ->
    exists p, nonmem_prove Ops (enc_set set) (emb (S.encode v)) vr invs Gs Hs B Bt sL sR at_ st t1t t2t y yi z x w us = Some p
      /\ nonmem_verdict Ops (enc_set set) (commit Ops B Bt (emb (S.encode v)) vr) Gs Hs B Bt p y yi z x w us = VOk.
  Proof.
    intros set v vr invs Gs Hs B Bt sL sR at_ st t1t t2t y yi z x w us Hinj Hm. intros.
    apply (nonmem_complete_p Ops L); try assumption. apply not_mem_enc_not_In; assumption.
  Qed.

  Theorem set_nonmember_stmt_refused_c11 : forall set v vr invs Gs Hs B Bt sL sR at_ st t1t t2t y yi z x w us,
    S.mem_enc (S.encode v) set = true ->
    nonmem_prove Ops (enc_set set) (emb (S.encode v)) vr invs Gs Hs B Bt sL sR at_ st t1t t2t y yi z x w us = None.
  Proof.
    intros set v vr invs Gs Hs B Bt sL sR at_ st t1t t2t y yi z x w us Hm.
    apply (nonmem_no_proof_p Ops L). apply mem_enc_In. exact Hm.
  Qed.
End Bulletproofs.
