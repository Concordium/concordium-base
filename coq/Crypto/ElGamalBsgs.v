(** C12 - [decrypt_amount] with the baby-step giant-step table in place of the abstract [dlog] of
    [ElGamalExp.v]: the only remaining hypothesis about the decryption table is that the multiples
    [x*h], [x < ord], are pairwise distinct (the generator has order at least [ord]). *)
From Coq Require Import ZArith List Lia.
From CB Require Import Crypto.Chunks Crypto.ChunksProofs Crypto.ElGamalExp Crypto.Bsgs Crypto.BsgsProofs.
Import ListNotations.
Local Open Scope N_scope.

(** the two chunks of a u64 and their reassembly with a carry in the low chunk (aggregated amounts) *)
Lemma u64_to_chunks_32 x : x < W64 -> u64_to_chunks_checked 32 x = Some [x mod 2 ^ 32; x / 2 ^ 32].
Proof.
  intros Hx. unfold u64_to_chunks_checked. change (32 <? 64) with true. cbv iota.
  change (num_chunks 32) with 2%nat. unfold to_chunks. cbn [to_chunks_gen].
  rewrite !land_mask, N.shiftr_div_pow2. f_equal. f_equal. f_equal.
  apply N.mod_small. apply N.div_lt_upper_bound; [apply N.pow_nonzero; lia|].
  rewrite <- N.pow_add_r. exact Hx.
Qed.

Lemma chunks_to_u64_checked_pair lo hi :
  hi < 2 ^ 32 -> lo + 2 ^ 32 * hi < W64 -> chunks_to_u64_checked 32 [lo; hi] = Some (lo + 2 ^ 32 * hi).
Proof.
  intros Hhi Hsum. unfold chunks_to_u64_checked. cbn [from_chunks_checked].
  change (64 <=? 0) with false. cbv iota. rewrite N.pow_0_r, N.mul_1_r, !N.add_0_l.
  rewrite (N.mod_small lo W64) by lia.
  destruct (N.leb_spec W64 lo); [lia|].
  change (256 <=? 32) with false. change (64 <=? 32) with false. cbv iota.
  assert (Hh : hi * 2 ^ 32 < W64).
  { change W64 with (2 ^ 32 * 2 ^ 32). apply N.mul_lt_mono_pos_r; [apply N.neq_0_lt_0, N.pow_nonzero; lia|exact Hhi]. }
  rewrite (N.mod_small (hi * 2 ^ 32) W64) by exact Hh.
  destruct (N.leb_spec W64 (lo + hi * 2 ^ 32)); [lia|].
  change (256 <=? 32 + 32) with false. cbv iota. f_equal. lia.
Qed.

Section ElGamalBsgs.
  Variable F : Type.
  Variables (f0 f1 : F) (fadd fmul fsub : F -> F -> F) (fopp : F -> F).
  Hypothesis Fring : ring_theory f0 f1 fadd fmul fsub fopp (@eq F).
  Add Ring FRb : Fring.
  Variable G : Type.
  Variables (gzero : G) (gadd : G -> G -> G) (gopp : G -> G) (smul : F -> G -> G) (geqb : G -> G -> bool).
  Hypothesis gadd_assoc : forall a b c, gadd a (gadd b c) = gadd (gadd a b) c.
  Hypothesis gadd_comm : forall a b, gadd a b = gadd b a.
  Hypothesis gadd_0_l : forall a, gadd gzero a = a.
  Hypothesis gadd_opp : forall a, gadd a (gopp a) = gzero.
  Hypothesis smul_add_l : forall x y a, smul (fadd x y) a = gadd (smul x a) (smul y a).
  Hypothesis smul_add_r : forall x a b, smul x (gadd a b) = gadd (smul x a) (smul x b).
  Hypothesis smul_mul : forall x y a, smul (fmul x y) a = smul x (smul y a).
  Hypothesis smul_1 : forall a, smul f1 a = a.
  (** [to_bytes] is a canonical serialisation: equal keys of the HashMap = equal group elements *)
  Hypothesis geqb_spec : forall a b, geqb a b = true <-> a = b.
  Variables (g h : G).
  Local Notation fN := (f_of_N F f0 f1 fadd fmul).
  (** the encryption-in-the-exponent generator has order at least [ord] *)
  Variable ord : N.
  Hypothesis h_inj : forall a b, a < ord -> b < ord -> smul (fN a) h = smul (fN b) h -> a = b.

  Lemma smul_f0 a : smul f0 a = gzero.
  Proof.
    assert (E : gadd (smul f0 a) (smul f0 a) = smul f0 a).
    { rewrite <- smul_add_l. f_equal. ring. }
    transitivity (gadd (gadd (smul f0 a) (smul f0 a)) (gopp (smul f0 a))).
    - rewrite <- gadd_assoc, gadd_opp, gadd_comm, gadd_0_l. reflexivity.
    - rewrite E. apply gadd_opp.
  Qed.

  Lemma nmul_is_smul n : nmul G gzero gadd n h = smul (fN n) h.
  Proof.
    induction n as [|n IH] using N.peano_ind.
    - cbn. symmetry. apply smul_f0.
    - unfold nmul in *. rewrite N.iter_succ, IH. rewrite <- N.add_1_r.
      rewrite (f_of_N_add F f0 f1 fadd fmul fsub fopp Fring), smul_add_l. f_equal. cbn. symmetry. apply smul_1.
  Qed.

  Variable m : N.             (* table size *)
  Variable fuel : nat.        (* bound on the number of giant steps *)
  Hypothesis m_pos : 0 < m.
  Hypothesis m_le : m <= ord.
  Local Notation table := (bsgs_new G gzero gadd gopp h m).
  Local Notation dlogf := (bsgs_dlog G gadd geqb fuel table).

  (** BabyStepGiantStep inverts [x |-> x*h] on [0, B) for every B within the order, 2^64 and the fuel *)
  Theorem dlog_spec_bsgs B : B <= ord -> B <= W64 -> (N.to_nat ((B - 1) / m) < fuel)%nat ->
    forall x, x < B -> dlogf (smul (fN x) h) = x.
  Proof.
    intros HB HB64 Hf x Hx. rewrite <- nmul_is_smul. unfold bsgs_dlog.
    rewrite (bsgs_discrete_log_correct G gzero gadd gopp geqb gadd_assoc gadd_comm gadd_0_l gadd_opp geqb_spec h ord).
    - reflexivity.
    - intros a b Ha Hb. rewrite !nmul_is_smul. apply h_inj; assumption.
    - exact m_pos.
    - exact m_le.
    - lia.
    - lia.
    - assert (Hd : x / m <= (B - 1) / m) by (apply N.div_le_mono; lia).
      set (q := x / m) in *. set (q' := (B - 1) / m) in *. lia.
  Qed.

  Local Notation enc_amt := (encrypt_amount F f0 f1 fadd fmul G gadd smul g h).
  Local Notation dec_amt := (decrypt_amount F G gadd gopp smul dlogf).
  Local Notation pk := (pk_of F G smul g).

  (** ** encrypt then decrypt with the real table algorithm returns the amount *)
  Theorem decrypt_amount_correct_with_bsgs_ :
    2 ^ 32 <= ord -> (N.to_nat ((2 ^ 32 - 1) / m) < fuel)%nat ->
    forall sk x klo khi, x < W64 ->
    exists e, enc_amt (pk sk) x klo khi = Some e /\ dec_amt sk e = Some x.
  Proof.
    intros Hord Hf sk x klo khi Hx.
    eapply (encrypt_decrypt_amount F f0 f1 fadd fmul fsub fopp Fring G gzero gadd gopp smul) with (bound := 2 ^ 32);
      try eassumption.
    - apply dlog_spec_bsgs; [exact Hord|unfold W64; apply N.pow_le_mono_r; lia|exact Hf].
    - apply N.le_refl.
  Qed.

  (** ** aggregate then decrypt: the sum, with a carry out of the low chunk, as long as the
      per-chunk sums stay inside the table range (2^33 - 1 here) and the total fits a u64 *)
  Theorem aggregate_decrypt_amount_with_bsgs_ :
    2 ^ 33 <= ord -> (N.to_nat ((2 ^ 33 - 1) / m) < fuel)%nat ->
    forall sk x y k1 k2 k3 k4, x + y < W64 ->
    exists ex ey, enc_amt (pk sk) x k1 k2 = Some ex /\ enc_amt (pk sk) y k3 k4 = Some ey
      /\ dec_amt sk (aggregate G gadd ex ey) = Some (x + y).
  Proof.
    intros Hord Hf sk x y k1 k2 k3 k4 Hxy.
    assert (Hx : x < W64) by lia. assert (Hy : y < W64) by lia.
    unfold encrypt_amount. rewrite (u64_to_chunks_32 x Hx), (u64_to_chunks_32 y Hy).
    eexists. eexists. split; [reflexivity|]. split; [reflexivity|].
    unfold decrypt_amount, decrypt_chunk, aggregate. cbn [fst snd].
    rewrite !(aggregate_sum F f0 f1 fadd fmul fsub fopp Fring G gzero gadd gopp smul gadd_assoc gadd_comm gadd_0_l gadd_opp smul_add_l smul_add_r smul_mul).
    rewrite <- !(f_of_N_add F f0 f1 fadd fmul fsub fopp Fring).
    assert (P32 : 2 ^ 32 = 4294967296) by reflexivity.
    assert (P33 : 2 ^ 33 = 8589934592) by reflexivity.
    assert (P64 : W64 = 18446744073709551616) by reflexivity.
    pose proof (N.div_mod x (2 ^ 32) ltac:(rewrite P32; lia)) as Dx.
    pose proof (N.div_mod y (2 ^ 32) ltac:(rewrite P32; lia)) as Dy.
    pose proof (N.mod_lt x (2 ^ 32) ltac:(rewrite P32; lia)) as Mx.
    pose proof (N.mod_lt y (2 ^ 32) ltac:(rewrite P32; lia)) as My.
    set (xl := x mod 2 ^ 32) in *. set (yl := y mod 2 ^ 32) in *.
    set (xh := x / 2 ^ 32) in *. set (yh := y / 2 ^ 32) in *.
    assert (Hspec : forall v, v < 2 ^ 33 -> dlogf (smul (fN v) h) = v).
    { apply dlog_spec_bsgs; [exact Hord|unfold W64; apply N.pow_le_mono_r; lia|exact Hf]. }
    rewrite P32, P33, P64 in *.
    rewrite !Hspec by lia.
    pose proof (chunks_to_u64_checked_pair (xl + yl) (xh + yh)) as Hp. rewrite P32, P64 in Hp.
    rewrite Hp by lia. f_equal. lia.
  Qed.
End ElGamalBsgs.
