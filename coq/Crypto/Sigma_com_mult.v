(** sigma_protocols/com_mult.rs: knowledge of [(x1, x2, r1, r2, r3)] with [C_i = x_i*g + r_i*h] and
    [C_3 = (x1*x2)*g + r3*h].  The linear map depends on the public commitment [C_1]:
    [C_3 = x2*C_1 + (r3 - r1*x2)*h]; it is linear in the witness vector [x1; x2; r1; r2; r3 - r1*x2]. *)
From Coq Require Import NArith List String.
From CB Require Import Crypto.Alg Crypto.Transcript Crypto.TranscriptProofs Crypto.SigmaGeneric Crypto.SigmaCodec.
Import ListNotations.

Record com_mult_stmt {K : FieldOps} (M : ModOps K) := mkComMult { cm_c1 : M; cm_c2 : M; cm_c3 : M; cm_g : M; cm_h : M }.
Arguments mkComMult {K M} _ _ _ _ _. Arguments cm_c1 {K M} _. Arguments cm_c2 {K M} _. Arguments cm_c3 {K M} _.
Arguments cm_g {K M} _. Arguments cm_h {K M} _.

Section ComMult.
  Context {K : FieldOps} {M : ModOps K} (Cd : CodecOps M).
  Local Open Scope G_scope.
  Definition K5 : Type := (K * K * K * K * K)%type.

  (** [public]: append_messages("cmms", the three commitments); append_message("cmm_key", key) *)
  Definition com_mult_public (k : tkind) (s : com_mult_stmt M) : bytes :=
    msgs k (str "cmms") [serG Cd (cm_c1 s); serG Cd (cm_c2 s); serG Cd (cm_c3 s)] ++
    msg k (str "cmm_key") (serG Cd (cm_g s) ++ serG Cd (cm_h s)).
  (** randomness (alpha1, alpha2, R1, R2, R); commit ([v1, v2], v) with v committed under key (C_1, h) *)
  Definition com_mult_commit (s : com_mult_stmt M) (r : K5) : option (M * M * M) :=
    let '(a1, a2, R1, R2, R) := r in
    Some (a1 *: cm_g s + R1 *: cm_h s, a2 *: cm_g s + R2 *: cm_h s, a2 *: cm_c1 s + R *: cm_h s).
  (** secret (x1, x2, r1, r2, r3); response (s1, s2, t1, t2, t) *)
  Definition com_mult_respond (s : com_mult_stmt M) (w : K5) (r : K5) (c : K) : option K5 :=
    let '(x1, x2, r1, r2, r3) := w in let '(a1, a2, R1, R2, R) := r in
    let rr := Fadd K (Fopp K (Fmul K (Fmul K (F1 K) r1) x2)) r3 in
    Some (Fadd K (Fopp K (Fmul K c x1)) a1, Fadd K (Fopp K (Fmul K c x2)) a2,
          Fadd K (Fopp K (Fmul K c r1)) R1, Fadd K (Fopp K (Fmul K c r2)) R2,
          Fadd K (Fopp K (Fmul K rr c)) R).
  Definition com_mult_extract (s : com_mult_stmt M) (c : K) (z : K5) : option (M * M * M) :=
    let '(s1, s2, t1, t2, t) := z in
    Some (c *: cm_c1 s + (s1 *: cm_g s + t1 *: cm_h s),
          c *: cm_c2 s + (s2 *: cm_g s + t2 *: cm_h s),
          s2 *: cm_c1 s + (t *: cm_h s + c *: cm_c3 s)).

  Definition ser5F (z : K5) : bytes :=
    let '(s1, s2, t1, t2, t) := z in serF Cd s1 ++ serF Cd s2 ++ serF Cd t1 ++ serF Cd t2 ++ serF Cd t.
  Definition ser3G_cm (a : M * M * M) : bytes := let '(a1, a2, a3) := a in serG Cd a1 ++ serG Cd a2 ++ serG Cd a3.
  Definition com_mult_proto : proto K := {|
    p_stmt := com_mult_stmt M; p_wit := K5; p_rand := K5; p_cm := M * M * M; p_resp := K5;
    p_public := com_mult_public; p_commit := com_mult_commit; p_respond := com_mult_respond;
    p_extract := com_mult_extract; p_ser_cm := ser3G_cm; p_ser_resp := ser5F |}.

  Definition com_mult_rel (s : com_mult_stmt M) (w : K5) : Prop :=
    let '(x1, x2, r1, r2, r3) := w in
    cm_c1 s = x1 *: cm_g s + r1 *: cm_h s /\ cm_c2 s = x2 *: cm_g s + r2 *: cm_h s /\
    cm_c3 s = Fmul K x1 x2 *: cm_g s + r3 *: cm_h s.
  Definition com_mult_recover (s : com_mult_stmt M) (w : K5) (c : K) (z : K5) : K5 :=
    let '(x1, x2, r1, r2, r3) := w in let '(s1, s2, t1, t2, t) := z in
    (Fadd K s1 (Fmul K c x1), Fadd K s2 (Fmul K c x2), Fadd K t1 (Fmul K c r1), Fadd K t2 (Fmul K c r2),
     Fadd K t (Fmul K c (Fsub K r3 (Fmul K r1 x2)))).

  (** linear map over [x1; x2; r1; r2; r'] *)
  Definition com_mult_A (s : com_mult_stmt M) : list (list M) :=
    [[cm_g s; G0 M; cm_h s; G0 M; G0 M]; [G0 M; cm_g s; G0 M; cm_h s; G0 M]; [G0 M; cm_c1 s; G0 M; G0 M; cm_h s]].
  Definition com_mult_y (s : com_mult_stmt M) : list M := [cm_c1 s; cm_c2 s; cm_c3 s].
  Definition fl5 (z : K5) : list K := let '(a, b, c, d, e) := z in [a; b; c; d; e].
  Definition fl3m (a : M * M * M) : list M := let '(a1, a2, a3) := a in [a1; a2; a3].
  (** the witness as the linear map sees it *)
  Definition com_mult_lin_wit (w : K5) : list K :=
    let '(x1, x2, r1, r2, r3) := w in [x1; x2; r1; r2; Fsub K r3 (Fmul K r1 x2)].

  Context {KL : FieldLaws K} {ML : ModLaws M}.
  Add Field Kf_cmult : (@F_th K KL).

  Lemma com_mult_commit_generic s r a : com_mult_commit s r = Some a -> fl3m a = m_commit (com_mult_A s) (fl5 r).
  Proof. destruct r as [[[[a1 a2] R1] R2] R]. intro E. injection E as <-. cbn. list_split; mod_norm. Qed.
  Lemma com_mult_respond_generic s w r c z : com_mult_respond s w r c = Some z ->
    fl5 z = m_respond RespMinus c (com_mult_lin_wit w) (fl5 r).
  Proof.
    destruct w as [[[[x1 x2] r1] r2] r3], r as [[[[a1 a2] R1] R2] R]. intro E. injection E as <-. cbn. list_split; ring.
  Qed.
  Lemma com_mult_extract_generic s c z a : com_mult_extract s c z = Some a ->
    fl3m a = m_reconstruct RespMinus (com_mult_A s) (com_mult_y s) c (fl5 z).
  Proof. destruct z as [[[[s1 s2] t1] t2] t]. intro E. injection E as <-. cbn. list_split; mod_norm. Qed.
  (** a witness of the multiplicative relation is a preimage under the linear map ... *)
  Lemma com_mult_rel_generic s w : com_mult_rel s w -> phi (com_mult_A s) (com_mult_lin_wit w) = com_mult_y s.
  Proof.
    destruct w as [[[[x1 x2] r1] r2] r3], s as [c1 c2 c3 g h]. unfold com_mult_rel, phi, com_mult_A, com_mult_y. cbn.
    intros (-> & -> & ->). list_split; mod_norm.
  Qed.
  (** ... and a preimage [x1; x2; r1; r2; r'] gives the witness (x1, x2, r1, r2, r' + r1*x2) *)
  Lemma com_mult_rel_back s x1 x2 r1 r2 r' :
    phi (com_mult_A s) [x1; x2; r1; r2; r'] = com_mult_y s ->
    com_mult_rel s (x1, x2, r1, r2, Fadd K r' (Fmul K r1 x2)).
  Proof.
    unfold com_mult_rel, phi, com_mult_A, com_mult_y. cbn. intro E. injection E as E1 E2 E3.
    repeat split.
    - rewrite <- E1. mod_norm.
    - rewrite <- E2. mod_norm.
    - rewrite <- E3. rewrite <- E1. mod_norm.
  Qed.

  Theorem com_mult_complete_ : complete com_mult_proto com_mult_rel (fun _ _ => True).
  Proof.
    intros [c1 c2 c3 g h] [[[[x1 x2] r1] r2] r3] [[[[a1 a2] R1] R2] R] (H1 & H2 & H3) _. cbn in H1, H2, H3. subst c1 c2 c3.
    eexists. split; [reflexivity|].
    intro c. eexists. split; [reflexivity|]. cbn. list_split; mod_norm.
  Qed.

  Definition com_mult_extractor (s : com_mult_stmt M) (c c' : K) (z z' : K5) : K5 :=
    let v := m_extract RespMinus c c' (fl5 z) (fl5 z') in
    let n i := nth i v (F0 K) in (n 0%nat, n 1%nat, n 2%nat, n 3%nat, Fadd K (n 4%nat) (Fmul K (n 2%nat) (n 1%nat))).
  Theorem com_mult_special_sound_ : special_sound com_mult_proto com_mult_rel com_mult_extractor.
  Proof.
    intros s a c c' z z' Hc E E'.
    pose proof (com_mult_extract_generic s c z a E) as G1. pose proof (com_mult_extract_generic s c' z' a E') as G2.
    destruct z as [[[[s1 s2] t1] t2] t], z' as [[[[s1' s2'] t1'] t2'] t'].
    pose proof (sigma_special_sound_ RespMinus (com_mult_A s) (com_mult_y s) (fl3m a) c c'
                  [s1; s2; t1; t2; t] [s1'; s2'; t1'; t2'; t'] Hc eq_refl eq_refl (eq_sym G1) (eq_sym G2)) as S.
    unfold com_mult_extractor. cbn [fl5]. cbn [m_extract vscale vsub map map2 nth] in S |- *.
    apply com_mult_rel_back. exact S.
  Qed.

  Context {CL : CodecLaws Cd}.
  Theorem com_mult_public_prefix_free_ : forall k, public_prefix_free com_mult_proto k (fun _ => True).
  Proof.
    intro k. pose proof (pf_serG Cd) as G.
    apply (pf_iso (fun s => ([cm_c1 s; cm_c2 s; cm_c3 s], (cm_g s, cm_h s))) (pf_app (pf_msgs_n 3 G) (pf_msg (pf_app G G)))).
    - intros [] [] [= -> -> -> -> ->]. reflexivity.
    - repeat split; apply Forall_True.
  Qed.
End ComMult.
