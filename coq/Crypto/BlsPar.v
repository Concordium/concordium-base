(** C19 - the three aggregate verifiers AS CODED with respect to (a) the sort-and-scan duplicate
    check (DupSort.v) and (b) rayon's fold/reduce over an arbitrary split tree and the coded
    "sequential below 150 keys, parallel from 150 keys" choice (ParReduce.v), proved equal to the
    sequential models of Bls.v for EVERY threshold, EVERY splitter / chunk size and EVERY input. *)
From Coq Require Import List.
From CB Require Import Crypto.PairingAlg Crypto.Bls Crypto.ParReduce Crypto.DupSort.
Import ListNotations.

Section BlsPar.
  Variable A : pops.
  Hypothesis L : plaws A.
  Variable Msg : Type.
  Variable Dg : Type.
  Variable dg_eqb : Dg -> Dg -> bool.
  Variable dg_leb : Dg -> Dg -> bool.
  Variable hm : Msg -> Dg.
  Variable H1 : Msg -> P1 A.

  Notation G2 := (P2 A).
  Notation GT := (PT A).

  (** key sum: [if pks.len() < thr { iter().fold } else { par_iter().fold().reduce() }] *)
  Definition sum_pks_coded (thr : nat) (split : list G2 -> ptree G2) (pks : list G2) : G2 :=
    thresh_eval G2 G2 (madd G2) (m0 G2) (fun x => x) thr split pks.

  Definition hybrid_g (thr : nat) (split : list G2 -> ptree G2) (g : Msg * list G2) : GT :=
    pair A (H1 (fst g)) (sum_pks_coded thr split (snd g)).

  (** [verify_aggregate_sig_hybrid]: outer rayon fold/reduce over the groups (tree [t]), inner key sums as above *)
  Definition verify_hybrid_coded (thr : nat) (split : list G2 -> ptree G2) (t : ptree (Msg * list G2)) (sig : P1 A) : bool :=
    meqb GT (pair A sig (gen2 A)) (peval (Msg * list G2) GT (madd GT) (m0 GT) (hybrid_g thr split) t).

  (** [verify_aggregate_sig_trusted_keys] *)
  Definition verify_trusted_coded (thr : nat) (split : list G2 -> ptree G2) (m : Msg) (pks : list G2) (sig : P1 A) : bool :=
    match pks with
    | [] => false
    | _ => check_pairing_eq A sig (gen2 A) (H1 m) (sum_pks_coded thr split pks)
    end.

  (** [verify_aggregate_sig]: sort-and-scan duplicate check with the sort [srt], emptiness check, rayon product *)
  Definition verify_plain_coded (srt : list Dg -> list Dg) (t : ptree (Msg * G2)) (sig : P1 A) : bool :=
    let pairs := pflatten (Msg * G2) t in
    if has_duplicates_with Dg dg_eqb srt (map (fun p => hm (fst p)) pairs) then false
    else match pairs with
         | [] => false
         | _ => meqb GT (pair A sig (gen2 A))
                  (peval (Msg * G2) GT (madd GT) (m0 GT) (fun p => pair A (H1 (fst p)) (snd p)) t)
         end.

  Lemma g2_assoc (a b c : G2) : madd G2 a (madd G2 b c) = madd G2 (madd G2 a b) c.
  Proof. apply (madd_assoc G2 (p2_laws A L)). Qed.
  Lemma g2_0_l (a : G2) : madd G2 (m0 G2) a = a.
  Proof. apply (madd_0_l G2 (p2_laws A L)). Qed.
  Lemma g2_0_r (a : G2) : madd G2 a (m0 G2) = a.
  Proof. apply (madd_0_r _ G2 (p2_laws A L)). Qed.
  Lemma gt_assoc (a b c : GT) : madd GT a (madd GT b c) = madd GT (madd GT a b) c.
  Proof. apply (madd_assoc GT (pt_laws A L)). Qed.
  Lemma gt_0_l (a : GT) : madd GT (m0 GT) a = a.
  Proof. apply (madd_0_l GT (pt_laws A L)). Qed.
  Lemma gt_0_r (a : GT) : madd GT a (m0 GT) = a.
  Proof. apply (madd_0_r _ GT (pt_laws A L)). Qed.

  Lemma fold_left_ext_l {X Y} (f g : X -> Y -> X) l : (forall a x, f a x = g a x) -> forall a, fold_left f l a = fold_left g l a.
  Proof. intros E. induction l as [|x l IH]; intros a; cbn [fold_left]; [reflexivity|]. now rewrite E, IH. Qed.

  Lemma sum_pks_is_seqfold pks : sum_pks A pks = seqfold G2 G2 (madd G2) (m0 G2) (fun x => x) pks.
  Proof. reflexivity. Qed.

  (** the threshold (150 in the code) and the way rayon splits the key list cannot matter *)
  Lemma sum_pks_coded_seq thr split pks :
    (forall l, pflatten G2 (split l) = l) -> sum_pks_coded thr split pks = sum_pks A pks.
  Proof.
    intros Hs. unfold sum_pks_coded. rewrite sum_pks_is_seqfold.
    apply (thresh_eval_seq G2 G2 (madd G2) (m0 G2) (fun x => x) g2_assoc g2_0_l g2_0_r thr split pks Hs).
  Qed.

  (** fixed chunk size, every size and length *)
  Lemma sum_pks_chunked_seq n pks :
    0 < n -> chunked_eval G2 G2 (madd G2) (m0 G2) (fun x => x) n pks = sum_pks A pks.
  Proof.
    intros Hn. rewrite sum_pks_is_seqfold.
    apply (chunked_eval_seq G2 G2 (madd G2) (m0 G2) (fun x => x) g2_assoc g2_0_l g2_0_r n pks Hn).
  Qed.

  Lemma verify_hybrid_coded_seq thr split t sig :
    (forall l, pflatten G2 (split l) = l) ->
    verify_hybrid_coded thr split t sig = verify_aggregate_sig_hybrid A Msg H1 (pflatten (Msg * list G2) t) sig.
  Proof.
    intros Hs. unfold verify_hybrid_coded, verify_aggregate_sig_hybrid. f_equal.
    rewrite (peval_seq (Msg * list G2) GT (madd GT) (m0 GT) (hybrid_g thr split) gt_assoc gt_0_l gt_0_r t).
    unfold seqfold, prod_groups. apply fold_left_ext_l. intros acc g.
    unfold pstep, hybrid_step, hybrid_g. now rewrite sum_pks_coded_seq.
  Qed.

  Lemma verify_trusted_coded_seq thr split m pks sig :
    (forall l, pflatten G2 (split l) = l) ->
    verify_trusted_coded thr split m pks sig = verify_aggregate_sig_trusted_keys A Msg H1 m pks sig.
  Proof.
    intros Hs. unfold verify_trusted_coded, verify_aggregate_sig_trusted_keys.
    destruct pks as [|pk pks]; [reflexivity|]. now rewrite sum_pks_coded_seq.
  Qed.

  (** rayon's flat fold/reduce over consecutive chunks ([par_prod], [par_prod_groups], [par_sum] of
      Bls.v): the sequential folds are [seqfold]s, so [flat_chunks_seq] applies as it stands *)
  Lemma par_prod_seq_l chunks : par_prod A Msg H1 chunks = prod_pairs A Msg H1 (concat chunks).
  Proof. exact (flat_chunks_seq (Msg * G2) GT (madd GT) (m0 GT) _ gt_assoc gt_0_l gt_0_r chunks). Qed.

  Lemma par_prod_groups_seq_l chunks : par_prod_groups A Msg H1 chunks = prod_groups A Msg H1 (concat chunks).
  Proof. exact (flat_chunks_seq (Msg * list G2) GT (madd GT) (m0 GT) _ gt_assoc gt_0_l gt_0_r chunks). Qed.

  Lemma par_sum_seq_l chunks : par_sum A chunks = sum_pks A (concat chunks).
  Proof. exact (flat_chunks_seq G2 G2 (madd G2) (m0 G2) (fun x => x) g2_assoc g2_0_l g2_0_r chunks). Qed.

  Lemma has_dup_ref_is_has_dup ds : has_dup_ref Dg dg_eqb ds = has_dup Dg dg_eqb ds.
  Proof. reflexivity. Qed.

  Hypothesis dg_eqb_spec : forall a b, dg_eqb a b = true <-> a = b.
  Hypothesis dg_leb_total : forall a b, dg_leb a b = true \/ dg_leb b a = true.
  Hypothesis dg_leb_trans : forall a b c, dg_leb a b = true -> dg_leb b c = true -> dg_leb a c = true.
  Hypothesis dg_leb_antisym : forall a b, dg_leb a b = true -> dg_leb b a = true -> a = b.

  Lemma verify_plain_coded_seq srt t sig :
    sorts Dg dg_leb srt ->
    verify_plain_coded srt t sig = verify_aggregate_sig A Msg Dg dg_eqb hm H1 (pflatten (Msg * G2) t) sig.
  Proof.
    intros S. unfold verify_plain_coded, verify_aggregate_sig.
    rewrite (has_duplicates_with_ref Dg dg_leb dg_eqb dg_eqb_spec dg_leb_antisym srt _ S), has_dup_ref_is_has_dup.
    destruct (has_dup Dg dg_eqb _); [reflexivity|].
    destruct (pflatten (Msg * G2) t) as [|p ps] eqn:E; [reflexivity|]. f_equal.
    rewrite (peval_seq (Msg * G2) GT (madd GT) (m0 GT) _ gt_assoc gt_0_l gt_0_r t), E. reflexivity.
  Qed.
End BlsPar.
