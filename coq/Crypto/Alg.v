(** Algebra without a curve (DESIGN 4.5 / 4.6), shared by C07, C08, C11, C12, C18, C19.

    A scalar field is a [FieldOps] (carrier + operations, executable) together with
    [FieldLaws] ([field_theory], so [ring]/[field] work, and a decidable equality).
    A prime-order group is an [F]-module: a [ModOps] (additive notation, scalar action
    [smul]) together with [ModLaws].  Protocol models are functions of the *operations*
    only, so the very same definitions run on the executable instance [ZrF]/[ZrG]
    ("in the exponent": F = Z mod r, G = F, scalar action = multiplication) and are
    reasoned about for every lawful instance: theorems take [FieldLaws]/[ModLaws] as
    hypotheses (Section variables), i.e. after [End] they are universally quantified
    over all fields and all modules.  Nothing is assumed about BLS12-381 beyond
    "a prime-order group is a one-dimensional module over its scalar field".

    Usage in a client file:
<<
    Section S.
      Context {K : FieldOps} {KL : FieldLaws K} {M : ModOps K} {ML : ModLaws M}.
      Add Field Kfield : (@F_th K KL).
      ... field identities by [ring]/[field]; module identities by [mod_norm] ...
>> *)
From Coq Require Import ZArith List Field Lia.
Import ListNotations.

Record FieldOps : Type := mkFieldOps {
  F :> Type;
  F0 : F; F1 : F;
  Fadd : F -> F -> F; Fmul : F -> F -> F; Fsub : F -> F -> F; Fopp : F -> F;
  Fdiv : F -> F -> F; Finv : F -> F;
  Feqb : F -> F -> bool }.

Class FieldLaws (K : FieldOps) : Prop := mkFieldLaws {
  F_th : field_theory (F0 K) (F1 K) (Fadd K) (Fmul K) (Fsub K) (Fopp K) (Fdiv K) (Finv K) eq;
  Feqb_spec : forall a b : K, Feqb K a b = true <-> a = b }.

Record ModOps (K : FieldOps) : Type := mkModOps {
  G :> Type;
  G0 : G;
  Gadd : G -> G -> G; Gopp : G -> G;
  smul : K -> G -> G;
  Geqb : G -> G -> bool }.
Arguments G {K} _. Arguments G0 {K} _. Arguments Gadd {K} _ _ _. Arguments Gopp {K} _ _.
Arguments smul {K} _ _ _. Arguments Geqb {K} _ _ _.

Class ModLaws {K : FieldOps} (M : ModOps K) : Prop := mkModLaws {
  Gadd_assoc : forall a b c : M, Gadd M a (Gadd M b c) = Gadd M (Gadd M a b) c;
  Gadd_comm : forall a b : M, Gadd M a b = Gadd M b a;
  Gadd_0_l : forall a : M, Gadd M (G0 M) a = a;
  Gadd_opp_r : forall a : M, Gadd M a (Gopp M a) = G0 M;
  smul_add_r : forall (x : K) (a b : M), smul M x (Gadd M a b) = Gadd M (smul M x a) (smul M x b);
  smul_add_l : forall (x y : K) (a : M), smul M (Fadd K x y) a = Gadd M (smul M x a) (smul M y a);
  smul_mul : forall (x y : K) (a : M), smul M (Fmul K x y) a = smul M x (smul M y a);
  smul_1 : forall a : M, smul M (F1 K) a = a;
  Geqb_spec : forall a b : M, Geqb M a b = true <-> a = b }.

Declare Scope F_scope.
Delimit Scope F_scope with F.
Declare Scope G_scope.
Delimit Scope G_scope with G.
Notation "a + b" := (Fadd _ a b) : F_scope.
Notation "a * b" := (Fmul _ a b) : F_scope.
Notation "a - b" := (Fsub _ a b) : F_scope.
Notation "- a" := (Fopp _ a) : F_scope.
Notation "a / b" := (Fdiv _ a b) : F_scope.
Notation "a + b" := (Gadd _ a b) : G_scope.
Notation "- a" := (Gopp _ a) : G_scope.
Notation "x *: a" := (smul _ x a) (at level 40, left associativity) : G_scope.

Definition Gsub {K} (M : ModOps K) (a b : M) : M := Gadd M a (Gopp M b).
Notation "a - b" := (Gsub _ a b) : G_scope.

(** ** Vectors: multi-scalar multiplication ([multiexp]) and pointwise operations.
    All binary list operations truncate to the shorter argument, like [izip!]/[zip]. *)
Section Vec.
  Context {K : FieldOps} {M : ModOps K}.

  Fixpoint map2 {A B C} (f : A -> B -> C) (xs : list A) (ys : list B) : list C :=
    match xs, ys with
    | x :: xs', y :: ys' => f x y :: map2 f xs' ys'
    | _, _ => []
    end.

  (** [multiexp(gs, ws)] = sum_i ws_i * gs_i. *)
  Fixpoint msm (ws : list K) (gs : list M) : M :=
    match ws, gs with
    | w :: ws', g :: gs' => Gadd M (smul M w g) (msm ws' gs')
    | _, _ => G0 M
    end.

  Fixpoint Gsum (gs : list M) : M :=
    match gs with [] => G0 M | g :: gs' => Gadd M g (Gsum gs') end.
  Fixpoint Fsum (xs : list K) : K :=
    match xs with [] => F0 K | x :: xs' => Fadd K x (Fsum xs') end.
  (** inner product in the field *)
  Fixpoint Fdot (xs ys : list K) : K :=
    match xs, ys with
    | x :: xs', y :: ys' => Fadd K (Fmul K x y) (Fdot xs' ys')
    | _, _ => F0 K
    end.

  Definition vadd (a b : list K) : list K := map2 (Fadd K) a b.
  Definition vsub (a b : list K) : list K := map2 (Fsub K) a b.
  Definition vscale (c : K) (a : list K) : list K := map (Fmul K c) a.
  Definition gvadd (a b : list M) : list M := map2 (Gadd M) a b.
  Definition gvsub (a b : list M) : list M := map2 (Gsub M) a b.
  Definition gvscale (c : K) (a : list M) : list M := map (smul M c) a.

  Fixpoint list_eqb {A} (e : A -> A -> bool) (xs ys : list A) : bool :=
    match xs, ys with
    | [], [] => true
    | x :: xs', y :: ys' => e x y && list_eqb e xs' ys'
    | _, _ => false
    end.
End Vec.

Section Laws.
  Context {K : FieldOps} {KL : FieldLaws K} {M : ModOps K} {ML : ModLaws M}.
  Add Field Kfield : (@F_th K KL).
  Local Open Scope G_scope.

  Lemma F1_neq_0 : F1 K <> F0 K.
  Proof. exact (F_1_neq_0 F_th). Qed.

  Lemma Geq_dec : forall a b : M, {a = b} + {a <> b}.
  Proof.
    intros a b. destruct (Geqb M a b) eqn:E.
    - left. now apply Geqb_spec.
    - right. intro H. apply Geqb_spec in H. congruence.
  Qed.

  Lemma Gadd_0_r (a : M) : a + G0 M = a.
  Proof. rewrite Gadd_comm. apply Gadd_0_l. Qed.
  Lemma Gadd_opp_l (a : M) : - a + a = G0 M.
  Proof. rewrite Gadd_comm. apply Gadd_opp_r. Qed.
  Lemma Gadd_cancel_l (a b c : M) : a + b = a + c -> b = c.
  Proof.
    intro H. assert (E : - a + (a + b) = - a + (a + c)) by now rewrite H.
    now rewrite !Gadd_assoc, Gadd_opp_l, !Gadd_0_l in E.
  Qed.
  Lemma Gadd_cancel_r (a b c : M) : b + a = c + a -> b = c.
  Proof. rewrite !(Gadd_comm _ a). apply Gadd_cancel_l. Qed.
  Lemma smul_0_l (a : M) : F0 K *: a = G0 M.
  Proof.
    apply (Gadd_cancel_l (F0 K *: a)). rewrite <- smul_add_l, Gadd_0_r.
    f_equal. ring.
  Qed.
  Lemma smul_0_r (x : K) : x *: G0 M = G0 M.
  Proof.
    apply (Gadd_cancel_l (x *: G0 M)). rewrite <- smul_add_r, Gadd_0_l, Gadd_0_r.
    reflexivity.
  Qed.
  Lemma smul_opp_l (x : K) (a : M) : Fopp K x *: a = - (x *: a).
  Proof.
    apply (Gadd_cancel_l (x *: a)). rewrite <- smul_add_l, Gadd_opp_r.
    replace (Fadd K x (Fopp K x)) with (F0 K) by ring. apply smul_0_l.
  Qed.
  Lemma Gopp_smul_m1 (a : M) : - a = Fopp K (F1 K) *: a.
  Proof. now rewrite smul_opp_l, smul_1. Qed.
  Lemma smul_sub_l (x y : K) (a : M) : Fsub K x y *: a = x *: a - y *: a.
  Proof.
    unfold Gsub. rewrite <- smul_opp_l, <- smul_add_l. f_equal. ring.
  Qed.
  Lemma Gopp_0 : - G0 M = G0 M.
  Proof. rewrite Gopp_smul_m1. apply smul_0_r. Qed.
  Lemma Gopp_add (a b : M) : - (a + b) = - a + - b.
  Proof. now rewrite !Gopp_smul_m1, smul_add_r. Qed.
  Lemma Gopp_opp (a : M) : - - a = a.
  Proof.
    rewrite (Gopp_smul_m1 (- a)), (Gopp_smul_m1 a), <- smul_mul.
    replace (Fmul K (Fopp K (F1 K)) (Fopp K (F1 K))) with (F1 K) by ring. apply smul_1.
  Qed.
  Lemma smul_opp_r (x : K) (a : M) : x *: (- a) = - (x *: a).
  Proof.
    rewrite (Gopp_smul_m1 a), <- smul_mul, <- smul_opp_l. f_equal. ring.
  Qed.
  Lemma smul_inj (x : K) (a b : M) : x <> F0 K -> x *: a = x *: b -> a = b.
  Proof.
    intros Hx H. assert (E : Finv K x *: (x *: a) = Finv K x *: (x *: b)) by now rewrite H.
    rewrite <- !smul_mul in E.
    replace (Fmul K (Finv K x) x) with (F1 K) in E by (field; exact Hx).
    now rewrite !smul_1 in E.
  Qed.
  Lemma Gsub_diag (a : M) : a - a = G0 M.
  Proof. apply Gadd_opp_r. Qed.
  Lemma Gsub_add_cancel (a b : M) : (a - b) + b = a.
  Proof. unfold Gsub. now rewrite <- Gadd_assoc, Gadd_opp_l, Gadd_0_r. Qed.
  Lemma Gadd_sub_cancel (a b : M) : (a + b) - b = a.
  Proof. unfold Gsub. now rewrite <- Gadd_assoc, Gadd_opp_r, Gadd_0_r. Qed.

  Lemma msm_nil_r (ws : list K) : msm ws (@nil M) = G0 M.
  Proof. destruct ws; reflexivity. Qed.

  Lemma msm_vadd (a : list K) : forall (b : list K) (gs : list M), length a = length b ->
    msm (vadd a b) gs = msm a gs + msm b gs.
  Proof.
    induction a as [|x a IH]; intros [|y b] gs Hl; try discriminate; cbn.
    - now rewrite Gadd_0_l.
    - destruct gs as [|g gs]; cbn; [now rewrite Gadd_0_l|].
      fold (vadd a b). rewrite IH by (cbn in Hl; lia). rewrite smul_add_l.
      rewrite <- !Gadd_assoc. f_equal. rewrite !Gadd_assoc. f_equal. apply Gadd_comm.
  Qed.
  Lemma msm_vscale (c : K) (a : list K) : forall gs : list M, msm (vscale c a) gs = c *: msm a gs.
  Proof.
    induction a as [|x a IH]; intros [|g gs]; cbn; try (now rewrite smul_0_r).
    fold (vscale c a). now rewrite IH, smul_add_r, smul_mul.
  Qed.
  Lemma vsub_vadd_opp (a : list K) : forall b : list K, vsub a b = vadd a (vscale (Fopp K (F1 K)) b).
  Proof.
    induction a as [|x a IH]; intros [|y b]; cbn; try reflexivity.
    fold (vsub a b). fold (vscale (Fopp K (F1 K)) b). fold (vadd a (vscale (Fopp K (F1 K)) b)).
    rewrite IH. f_equal. ring.
  Qed.
  Lemma vscale_length (c : K) (a : list K) : length (vscale c a) = length a.
  Proof. apply map_length. Qed.
  Lemma map2_length {A B C} (f : A -> B -> C) a : forall b, length (map2 f a b) = Nat.min (length a) (length b).
  Proof. induction a; intros [|y b]; cbn; auto. Qed.
  Lemma msm_vsub (a b : list K) (gs : list M) : length a = length b ->
    msm (vsub a b) gs = msm a gs - msm b gs.
  Proof.
    intro Hl. rewrite vsub_vadd_opp, msm_vadd by (now rewrite vscale_length).
    rewrite msm_vscale. unfold Gsub. now rewrite <- Gopp_smul_m1.
  Qed.
  Lemma msm_app (a : list K) : forall (gs : list M) (b : list K) (hs : list M), length a = length gs ->
    msm (a ++ b) (gs ++ hs) = msm a gs + msm b hs.
  Proof.
    induction a as [|x a IH]; intros [|g gs] b hs Hl; try discriminate; cbn.
    - now rewrite Gadd_0_l.
    - rewrite IH by (cbn in Hl; lia). now rewrite Gadd_assoc.
  Qed.
End Laws.

(** ** Reflexive normalisation of module identities: [mod_norm].
    A goal [e1 = e2] between module expressions built from [G0], [Gadd], [Gopp], [Gsub],
    [smul] over opaque atoms is reified; both sides are normalised to a coefficient vector
    over the atoms; the remaining goals (one field identity per atom) are closed by [ring]. *)
Section Reflect.
  Context {K : FieldOps} {KL : FieldLaws K} {M : ModOps K} {ML : ModLaws M}.
  Add Field Kfield2 : (@F_th K KL).
  Local Open Scope G_scope.

  Inductive gexp : Type :=
  | GeZero | GeAtom (i : nat) | GeAdd (a b : gexp) | GeOpp (a : gexp) | GeSmul (x : K) (a : gexp).

  Fixpoint gden (env : list M) (e : gexp) : M :=
    match e with
    | GeZero => G0 M
    | GeAtom i => nth i env (G0 M)
    | GeAdd a b => gden env a + gden env b
    | GeOpp a => - gden env a
    | GeSmul x a => x *: gden env a
    end.

  Fixpoint unitv (n i : nat) : list K :=
    match n with
    | O => []
    | S n' => match i with O => F1 K :: map (fun _ => F0 K) (seq 0 n') | S i' => F0 K :: unitv n' i' end
    end.
  Definition zerov (n : nat) : list K := map (fun _ => F0 K) (seq 0 n).

  Fixpoint gcoef (n : nat) (e : gexp) : list K :=
    match e with
    | GeZero => zerov n
    | GeAtom i => unitv n i
    | GeAdd a b => vadd (gcoef n a) (gcoef n b)
    | GeOpp a => vscale (Fopp K (F1 K)) (gcoef n a)
    | GeSmul x a => vscale x (gcoef n a)
    end.

  Lemma zerov_length n : length (zerov n) = n.
  Proof. unfold zerov. now rewrite map_length, seq_length. Qed.
  Lemma unitv_length n : forall i, length (unitv n i) = n.
  Proof.
    induction n; intros i; cbn; [reflexivity|]. destruct i; cbn.
    - now rewrite map_length, seq_length.
    - now rewrite IHn.
  Qed.
  Lemma gcoef_length n e : length (gcoef n e) = n.
  Proof.
    induction e; cbn.
    - apply zerov_length.
    - apply unitv_length.
    - unfold vadd. rewrite map2_length, IHe1, IHe2. apply Nat.min_id.
    - now rewrite vscale_length.
    - now rewrite vscale_length.
  Qed.
  Lemma msm_zeros {A} (l : list A) (env : list M) : msm (map (fun _ => F0 K) l) env = G0 M.
  Proof.
    revert env. induction l; intros [|g env]; cbn; try reflexivity.
    now rewrite IHl, smul_0_l, Gadd_0_l.
  Qed.
  Lemma msm_unitv : forall (env : list M) i, msm (unitv (length env) i) env = nth i env (G0 M).
  Proof.
    induction env as [|g env IH]; intros i; cbn.
    - now destruct i.
    - destruct i; cbn.
      + now rewrite msm_zeros, smul_1, Gadd_0_r.
      + now rewrite IH, smul_0_l, Gadd_0_l.
  Qed.
  Lemma gden_coef env e : gden env e = msm (gcoef (length env) e) env.
  Proof.
    induction e; cbn.
    - unfold zerov. now rewrite msm_zeros.
    - now rewrite msm_unitv.
    - rewrite msm_vadd by now rewrite !gcoef_length. now rewrite IHe1, IHe2.
    - rewrite msm_vscale, IHe. apply Gopp_smul_m1.
    - now rewrite msm_vscale, IHe.
  Qed.
  Theorem gexp_eq env e1 e2 :
    gcoef (length env) e1 = gcoef (length env) e2 -> gden env e1 = gden env e2.
  Proof. intro H. now rewrite !gden_coef, H. Qed.
End Reflect.

Ltac gr_find x l :=
  lazymatch l with
  | x :: _ => constr:(O)
  | _ :: ?l' => let n := gr_find x l' in constr:(S n)
  end.
Ltac gr_mem x l :=
  lazymatch l with
  | nil => constr:(false)
  | x :: _ => constr:(true)
  | _ :: ?l' => gr_mem x l'
  end.
Ltac gr_atoms Mo e acc :=
  lazymatch e with
  | G0 Mo => acc
  | Gadd Mo ?a ?b => let acc' := gr_atoms Mo a acc in gr_atoms Mo b acc'
  | Gsub Mo ?a ?b => let acc' := gr_atoms Mo a acc in gr_atoms Mo b acc'
  | Gopp Mo ?a => gr_atoms Mo a acc
  | smul Mo _ ?a => gr_atoms Mo a acc
  | _ => let m := gr_mem e acc in
         lazymatch m with true => acc | false => constr:(e :: acc) end
  end.
Ltac gr_reify Kt Mo env e :=
  lazymatch e with
  | G0 Mo => constr:(@GeZero Kt)
  | Gadd Mo ?a ?b => let ra := gr_reify Kt Mo env a in let rb := gr_reify Kt Mo env b in constr:(GeAdd ra rb)
  | Gsub Mo ?a ?b => let ra := gr_reify Kt Mo env a in let rb := gr_reify Kt Mo env b in constr:(GeAdd ra (GeOpp rb))
  | Gopp Mo ?a => let ra := gr_reify Kt Mo env a in constr:(GeOpp ra)
  | smul Mo ?x ?a => let ra := gr_reify Kt Mo env a in constr:(GeSmul x ra)
  | _ => let i := gr_find e env in constr:(@GeAtom Kt i)
  end.
(** [mod_norm]: close a module identity; leaves nothing if the coefficient
    identities hold by [ring].  Must be used where [Add Field] for [F_th KL] is active. *)
Ltac mod_norm :=
  lazymatch goal with
  | |- @eq (G ?Mo) ?l ?r =>
    let at1 := gr_atoms Mo l (@nil (G Mo)) in
    let env := gr_atoms Mo r at1 in
    let Kt := lazymatch type of Mo with ModOps ?k => k end in
    let rl := gr_reify Kt Mo env l in
    let rr := gr_reify Kt Mo env r in
    change (gden env rl = gden env rr);
    apply gexp_eq; cbn [gcoef length unitv zerov vadd vscale map2 map seq];
    repeat (f_equal; try ring)
  end.

(** split an equation between explicit lists (or pairs) into one goal per component *)
Ltac list_split :=
  repeat (match goal with
          | |- @eq (list _) (_ :: _) (_ :: _) => apply (f_equal2 (@cons _))
          | |- @eq (_ * _)%type (_, _) (_, _) => apply f_equal2
          | |- @eq (option _) (Some _) (Some _) => apply f_equal
          end); try reflexivity.

(** ** The executable instance: Z mod r, "in the exponent" (DESIGN 4.6). *)
Definition bls_r : Z := 0x73eda753299d7d483339d80809a1d80553bda402fffe5bfeffffffff00000001.

Section Zmod.
  Local Open Scope Z_scope.
  Variable r : Z.
  (** modular exponentiation by squaring on the binary representation of the exponent *)
  Fixpoint zpow_pos (b : Z) (e : positive) : Z :=
    match e with
    | xH => b mod r
    | xO e' => let h := zpow_pos b e' in (h * h) mod r
    | xI e' => let h := zpow_pos b e' in (((h * h) mod r) * b) mod r
    end.
  Definition zpow (b e : Z) : Z :=
    match e with Zpos p => zpow_pos b p | _ => 1 mod r end.
  (** inverse by Fermat: a^(r-2); 0 is mapped to 0 like [Field::inverse] returning None is
      never used by the protocol models on 0. *)
  Definition zinv (a : Z) : Z := zpow a (r - 2).
  Definition ZmodF : FieldOps :=
    mkFieldOps Z 0 1
      (fun a b => (a + b) mod r) (fun a b => (a * b) mod r) (fun a b => (a - b) mod r)
      (fun a => (- a) mod r) (fun a b => (a * zinv b) mod r) zinv Z.eqb.
  Definition ZmodG : ModOps ZmodF :=
    mkModOps ZmodF Z 0 (fun a b => (a + b) mod r) (fun a => (- a) mod r)
      (fun x a => (x * a) mod r) Z.eqb.
End Zmod.

Definition ZrF : FieldOps := ZmodF bls_r.
Definition ZrG : ModOps ZrF := ZmodG bls_r.
