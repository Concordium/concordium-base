(** sigma_protocols/com_eq_sig.rs: knowledge of a Pointcheval-Sanders signature on committed values:
    given the blinded signature [(a_hat, b_hat)], commitments [C_i = m_i*g + r_i*h] and the public key
    [(g~, X~, Y~_i)], the prover knows [r'], [m_i], [r_i] with
      e(b_hat, g~) = e(a_hat, X~ + sum m_i*Y~_i + r'*g~).
    Pairing groups from [AlgPairing.v]; the commitments live in a fourth module [MC] (in the
    deployment MC = G1).  Response style [rho - c*w]; n = number of commitments (any n <= key length). *)
From Coq Require Import ZArith List Lia String Bool.
From CB Require Import Crypto.Alg Crypto.AlgPairing Crypto.Transcript Crypto.TranscriptProofs
  Crypto.SigmaGeneric Crypto.SigmaHom Crypto.SigmaCodec.
Import ListNotations.

Record ces_stmt {K : FieldOps} (P : PairOps K) (MC : ModOps K) := mkCes {
  cs_a : PM1 P; cs_b : PM1 P;                 (* blinded_sig *)
  cs_cmts : list MC;                           (* commitments *)
  cs_pkg : PM1 P; cs_gt : PM2 P; cs_ys : list (PM1 P); cs_yts : list (PM2 P); cs_xt : PM2 P;   (* ps_pub_key *)
  cs_g : MC; cs_h : MC }.                      (* comm_key *)
Arguments mkCes {K P MC} _ _ _ _ _ _ _ _ _ _.
Arguments cs_a {K P MC} _. Arguments cs_b {K P MC} _. Arguments cs_cmts {K P MC} _. Arguments cs_pkg {K P MC} _.
Arguments cs_gt {K P MC} _. Arguments cs_ys {K P MC} _. Arguments cs_yts {K P MC} _. Arguments cs_xt {K P MC} _.
Arguments cs_g {K P MC} _. Arguments cs_h {K P MC} _.

Section ComEqSig.
  Context {K : FieldOps} {P : PairOps K} {MC : ModOps K}
          (Cd1 : CodecOps (PM1 P)) (Cd2 : CodecOps (PM2 P)) (CdT : CodecOps (PMT P)) (CdC : CodecOps MC).
  Local Open Scope G_scope.
  Notation len := (@List.length _).
  Definition neqb (a b : nat) : bool := negb (Nat.eqb a b).
  Definition resp1 (c w rho : K) : K := Fadd K (Fopp K (Fmul K c w)) rho.
  Definition ces_wit : Type := (K * list (K * K))%type.   (* r' / rho', (m_i, r_i) / (mu_i, R_i) *)

  Definition ces_public (k : tkind) (s : ces_stmt P MC) : bytes :=
    msg k (str "blinded_sig") (serG Cd1 (cs_a s) ++ serG Cd1 (cs_b s)) ++
    msgs k (str "commitments") (map (serG CdC) (cs_cmts s)) ++
    msg k (str "ps_pub_key") (serG Cd1 (cs_pkg s) ++ serG Cd2 (cs_gt s) ++ ser_vec32 (map (serG Cd1) (cs_ys s)) ++
                              ser_vec32 (map (serG Cd2) (cs_yts s)) ++ serG Cd2 (cs_xt s)) ++
    msg k (str "comm_key") (serG CdC (cs_g s) ++ serG CdC (cs_h s)).

  (** [if n > self.ps_pub_key.len() return None] where [len()] is [ys.len()]; then [cY_tilda(i)]
      indexes [y_tildas] (a key with fewer [y_tildas] than [ys] would panic: modelled as None) *)
  Definition ces_commit (s : ces_stmt P MC) (r : ces_wit) : option (PMT P * list MC) :=
    let '(rho, mus) := r in
    let n := len (cs_cmts s) in
    if Nat.ltb (len (cs_ys s)) n || Nat.ltb (len (cs_yts s)) n then None else
    Some (pe P (cs_a s) (rho *: cs_gt s + msm (map fst mus) (cs_yts s)),
          map (fun mr => fst mr *: cs_g s + snd mr *: cs_h s) mus).
  Definition ces_respond (s : ces_stmt P MC) (w r : ces_wit) (c : K) : option ces_wit :=
    let '(r', vals) := w in let '(rho, mus) := r in
    if neqb (len vals) (len mus) then None else
    Some (resp1 c r' rho, map2 (fun v m => (resp1 c (fst v) (fst m), resp1 c (snd v) (snd m))) vals mus).
  Definition ces_extract (s : ces_stmt P MC) (c : K) (z : ces_wit) : option (PMT P * list MC) :=
    let '(zr, zs) := z in
    let n := len (cs_cmts s) in
    if neqb (len zs) n then None else
    if Nat.ltb (len (cs_yts s)) n then None else
    Some (pe P (cs_b s) (c *: cs_gt s) +
          pe P (cs_a s) (zr *: cs_gt s + (msm (map fst zs) (cs_yts s) + Fopp K c *: cs_xt s)),
          map2 (fun Ci z => c *: Ci + (fst z *: cs_g s + snd z *: cs_h s)) (cs_cmts s) zs).

  Definition ces_proto : proto K := {|
    p_stmt := ces_stmt P MC; p_wit := ces_wit; p_rand := ces_wit; p_cm := PMT P * list MC; p_resp := ces_wit;
    p_public := ces_public; p_commit := ces_commit; p_respond := ces_respond; p_extract := ces_extract;
    p_ser_cm := fun a => serG CdT (fst a) ++ ser_vec (map (serG CdC) (snd a));
    p_ser_resp := fun z => serF CdC (fst z) ++ ser_vec32 (map (fun p => serF CdC (fst p) ++ serF CdC (snd p)) (snd z)) |}.

  Definition ces_rel (s : ces_stmt P MC) (w : ces_wit) : Prop :=
    let '(r', vals) := w in
    len vals = len (cs_cmts s) /\ (len (cs_cmts s) <= len (cs_ys s))%nat /\ (len (cs_cmts s) <= len (cs_yts s))%nat /\
    cs_cmts s = map (fun v => fst v *: cs_g s + snd v *: cs_h s) vals /\
    pe P (cs_b s) (cs_gt s) = pe P (cs_a s) (cs_xt s + (msm (map fst vals) (cs_yts s) + r' *: cs_gt s)).
  Definition ces_rok (s : ces_stmt P MC) (r : ces_wit) : Prop := len (snd r) = len (cs_cmts s).
  Definition ces_recover (s : ces_stmt P MC) (w : ces_wit) (c : K) (z : ces_wit) : ces_wit :=
    let rec zi wi := Fadd K zi (Fmul K c wi) in
    (rec (fst z) (fst w), map2 (fun zp wp => (rec (fst zp) (fst wp), rec (snd zp) (snd wp))) (snd z) (snd w)).

  Context {KL : FieldLaws K} {PL : PairLaws P} {MLC : ModLaws MC}.
  Add Field Kf_ces : (@F_th K KL).

  Lemma map_fst_resp c : forall (vals mus : list (K * K)), len vals = len mus ->
    map fst (map2 (fun v m => (resp1 c (fst v) (fst m), resp1 c (snd v) (snd m))) vals mus) =
    m_respond RespMinus c (map fst vals) (map fst mus).
  Proof.
    unfold m_respond, vsub, vscale, resp1. induction vals as [|v vals IH]; intros [|m mus] L; try discriminate; [reflexivity|].
    cbn [map map2 fst]. rewrite IH by (cbn in L; lia). f_equal. ring.
  Qed.
  Lemma cmts_complete c (g h : MC) : forall (vals mus : list (K * K)), len vals = len mus ->
    map2 (fun Ci z => c *: Ci + (fst z *: g + snd z *: h)) (map (fun v => fst v *: g + snd v *: h) vals)
         (map2 (fun v m => (resp1 c (fst v) (fst m), resp1 c (snd v) (snd m))) vals mus) =
    map (fun mr => fst mr *: g + snd mr *: h) mus.
  Proof.
    induction vals as [|v vals IH]; intros [|m mus] L; try discriminate; [reflexivity|].
    cbn [map map2 fst snd]. rewrite IH by (cbn in L; lia). f_equal. unfold resp1. mod_norm.
  Qed.

  Theorem ces_complete_ : complete ces_proto ces_rel ces_rok.
  Proof.
    intros [a b cm pg gt ys yts xt g h] [r' vals] [rho mus] (Lv & Ly & Lyt & Hc & Hp) Lm. unfold ces_rok in Lm.
    cbn [cs_a cs_b cs_cmts cs_pkg cs_gt cs_ys cs_yts cs_xt cs_g cs_h snd] in *. subst cm. rewrite map_length in *.
    assert (B1 : Nat.ltb (len ys) (len vals) = false) by (apply Nat.ltb_ge; lia).
    assert (B2 : Nat.ltb (len yts) (len vals) = false) by (apply Nat.ltb_ge; lia).
    eexists. split.
    { cbn [p_commit ces_proto ces_commit cs_cmts cs_ys cs_yts]. rewrite map_length, B1, B2. reflexivity. }
    intro c. cbn [p_respond p_extract ces_proto ces_respond]. unfold neqb. rewrite Lm, Nat.eqb_refl. cbn [negb].
    eexists. split; [reflexivity|]. unfold ces_extract, neqb.
    cbn [cs_a cs_b cs_cmts cs_pkg cs_gt cs_ys cs_yts cs_xt cs_g cs_h].
    rewrite map2_length, map_length, Lm, Nat.min_id, Nat.eqb_refl, B2. cbn [negb]. f_equal. f_equal.
    - rewrite map_fst_resp by congruence. unfold m_respond.
      rewrite msm_vsub by (rewrite vscale_length, !map_length; congruence). rewrite msm_vscale.
      unfold Gsub. autorewrite with pe_lin. rewrite Hp.
      autorewrite with pe_lin. unfold resp1. mod_norm.
    - apply cmts_complete. congruence.
  Qed.

  (** special soundness: extractor (z - z')/(c' - c) componentwise *)
  Definition exd (c c' a b : K) : K := Fmul K (Finv K (Fsub K c' c)) (Fsub K a b).
  Definition ces_extractor (s : ces_stmt P MC) (c c' : K) (z z' : ces_wit) : ces_wit :=
    (exd c c' (fst z) (fst z'), map2 (fun p q => (exd c c' (fst p) (fst q), exd c c' (snd p) (snd q))) (snd z) (snd z')).
  Lemma cmts_ss c c' (g h : MC) : c <> c' -> forall (cm : list MC) (zs zs' : list (K * K)),
    len zs = len cm -> len zs' = len cm ->
    map2 (fun Ci z => c *: Ci + (fst z *: g + snd z *: h)) cm zs =
    map2 (fun Ci z => c' *: Ci + (fst z *: g + snd z *: h)) cm zs' ->
    cm = map (fun v => fst v *: g + snd v *: h)
             (map2 (fun p q => (exd c c' (fst p) (fst q), exd c c' (snd p) (snd q))) zs zs').
  Proof.
    intros Hc. induction cm as [|C cm IH]; intros [|z zs] [|z' zs'] L L' E; try discriminate; [reflexivity|].
    cbn [map2] in E. injection E as E0 E. cbn [map2 map fst snd]. f_equal.
    - exact (ped_row_special_sound_ g h C c c' z z' Hc E0).
    - apply IH; cbn in *; auto; lia.
  Qed.
  Lemma map_fst_ex c c' : forall zs zs' : list (K * K), len zs = len zs' ->
    map fst (map2 (fun p q => (exd c c' (fst p) (fst q), exd c c' (snd p) (snd q))) zs zs') =
    vscale (Finv K (Fsub K c' c)) (vsub (map fst zs) (map fst zs')).
  Proof.
    unfold vscale, vsub, exd. induction zs as [|z zs IH]; intros [|z' zs'] L; try discriminate; [reflexivity|].
    cbn [map map2 fst]. rewrite IH by (cbn in L; lia). reflexivity.
  Qed.

  (** the side condition [|commitments| <= |ys|], which only the prover-side code checks, is the ONLY part
      of [ces_rel] that two accepting transcripts do not give *)
  Theorem ces_special_sound_key_length_ : forall (s : ces_stmt P MC) a c c' z z', c <> c' ->
    ces_extract s c z = Some a -> ces_extract s c' z' = Some a ->
    let w := ces_extractor s c c' z z' in
    len (snd w) = len (cs_cmts s) /\ (len (cs_cmts s) <= len (cs_yts s))%nat /\
    cs_cmts s = map (fun v => fst v *: cs_g s + snd v *: cs_h s) (snd w) /\
    pe P (cs_b s) (cs_gt s) = pe P (cs_a s) (cs_xt s + (msm (map fst (snd w)) (cs_yts s) + fst w *: cs_gt s)) /\
    ((len (cs_cmts s) <= len (cs_ys s))%nat -> ces_rel s w).
  Proof.
    intros [a b cm pg gt ys yts xt g h] cmsg c c' [zr zs] [zr' zs'] Hc E E'.
    unfold ces_extract, neqb in E, E'. unfold ces_rel, ces_extractor.
    cbn [cs_a cs_b cs_cmts cs_pkg cs_gt cs_ys cs_yts cs_xt cs_g cs_h fst snd] in *.
    destruct (Nat.eqb (len zs) (len cm)) eqn:L; [|discriminate].
    destruct (Nat.eqb (len zs') (len cm)) eqn:L'; [|discriminate].
    destruct (Nat.ltb (len yts) (len cm)) eqn:Ly; [discriminate|].
    apply Nat.eqb_eq in L, L'. apply Nat.ltb_ge in Ly. cbn [negb] in E, E'.
    rewrite <- E' in E. injection E as E1 E2.
    assert (Lx : len (map2 (fun p q : K * K => (exd c c' (fst p) (fst q), exd c c' (snd p) (snd q))) zs zs') = len cm)
      by (rewrite map2_length, L, L'; apply Nat.min_id).
    assert (Ec := cmts_ss c c' g h Hc cm zs zs' L L' E2).
    enough (Ep : pe P b gt = pe P a (xt + (msm (map fst (map2 (fun p q : K * K => (exd c c' (fst p) (fst q), exd c c' (snd p) (snd q))) zs zs')) yts
                                           + exd c c' zr zr' *: gt))) by (repeat split; assumption).
    rewrite map_fst_ex by congruence. rewrite msm_vscale, msm_vsub by (rewrite !map_length; congruence).
    unfold Gsub in *. autorewrite with pe_lin in E1. autorewrite with pe_lin.
    set (Y := pe P b gt + Gopp (PMT P) (pe P a xt)).
    set (A := zr *: pe P a gt + pe P a (msm (map fst zs) yts)).
    set (A' := zr' *: pe P a gt + pe P a (msm (map fst zs') yts)).
    assert (EY : c *: Y + A = c' *: Y + A').
    { transitivity (c *: pe P b gt + (zr *: pe P a gt + (pe P a (msm (map fst zs) yts) + Fopp K c *: pe P a xt)));
        [unfold Y, A; mod_norm|]. rewrite E1. unfold Y, A'. mod_norm. }
    apply (ss_row_l c c' Y A A' Hc) in EY.
    transitivity (Y + pe P a xt); [unfold Y; mod_norm|]. rewrite EY. unfold A, A', exd. mod_norm.
  Qed.
  Theorem ces_special_sound_ : special_sound ces_proto
    (fun s w => (len (cs_cmts s) <= len (cs_ys s))%nat -> ces_rel s w) ces_extractor.
  Proof. intros s a c c' z z' Hc E E'. apply (ces_special_sound_key_length_ s a c c' z z' Hc E E'). Qed.

  (** a response with the wrong number of components is rejected *)
  Theorem ces_extract_length_ : forall s c zr zs a, ces_extract s c (zr, zs) = Some a -> len zs = len (cs_cmts s).
  Proof.
    intros s c zr zs a. unfold ces_extract, neqb. destruct (Nat.eqb (len zs) (len (cs_cmts s))) eqn:E; [|discriminate].
    intros _. now apply Nat.eqb_eq.
  Qed.
  Context {CL1 : CodecLaws Cd1} {CL2 : CodecLaws Cd2} {CLC : CodecLaws CdC}.
  (** [public] covers the blinded signature, every commitment, the whole public key (both vectors with
      their lengths) and the commitment key *)
  Theorem ces_public_prefix_free_v1_ :
    public_prefix_free ces_proto V1
      (fun s => (N.of_nat (len (cs_cmts s)) < W64)%N /\ (N.of_nat (len (cs_ys s)) < W32)%N /\ (N.of_nat (len (cs_yts s)) < W32)%N).
  Proof.
    pose proof (pf_serG Cd1) as G1. pose proof (pf_serG Cd2) as G2. pose proof (pf_serG CdC) as GC.
    apply (pf_iso (fun s => ((cs_a s, cs_b s), (cs_cmts s, ((cs_pkg s, (cs_gt s, (cs_ys s, (cs_yts s, cs_xt s)))), (cs_g s, cs_h s)))))
             (pf_app (pf_msg (pf_app G1 G1)) (pf_app (pf_msgs_v1 GC)
                (pf_app (pf_msg (pf_app G1 (pf_app G2 (pf_app (pf_vec32 G1) (pf_app (pf_vec32 G2) G2))))) (pf_msg (pf_app GC GC)))))).
    - intros [] [] [= -> -> -> -> -> -> -> -> -> ->]. reflexivity.
    - intros s (L1 & L2 & L3). repeat split; try assumption; apply Forall_True.
  Qed.
End ComEqSig.
