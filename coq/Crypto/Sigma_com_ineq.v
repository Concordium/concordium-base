(** sigma_protocols/com_ineq.rs: the committed value differs from a public value.  Not a
    [SigmaProtocol] impl but a wrapper: a legacy [RandomOracle] with domain "InequalityProof" absorbs
    the key, the commitment and the public value; then a [ComMult] proof for
    [C_1 = C - v*g] (commits to x - v), [C_2 = aux] (commits to (x - v)^-1), [C_3 = g] (commits to 1, randomness 0). *)
From Coq Require Import NArith List Field String.
From CB Require Import Crypto.Alg Crypto.Transcript Crypto.TranscriptProofs Crypto.SigmaGeneric
  Crypto.SigmaCodec Crypto.Sigma_com_mult.
Import ListNotations.

Section ComIneq.
  Context {K : FieldOps} {M : ModOps K} (Cd : CodecOps M).
  Variable H : bytes -> bytes.
  Variable sfb : bytes -> K.
  Local Open Scope G_scope.

  (** the transcript prefix shared by prover and verifier *)
  Definition com_ineq_ctx (g h c : M) (v : K) : bytes :=
    domain Legacy (str "InequalityProof") ++ msg Legacy (str "commitmentKey") (serG Cd g ++ serG Cd h) ++
    msg Legacy (str "public commitment") (serG Cd c) ++ msg Legacy (str "public value") (serF Cd v).
  (** the ComMult statement the verifier derives *)
  Definition com_ineq_stmt (g h c : M) (v : K) (aux : M) : com_mult_stmt M :=
    mkComMult (c + Fopp K v *: g) aux g g h.

  Definition verify_com_ineq (g h c : M) (v : K) (proof : (bytes * K5) * M) : bool :=
    fst (verify H sfb (com_mult_proto Cd) Legacy (com_ineq_ctx g h c v) (com_ineq_stmt g h c v (snd proof)) (fst proof)).

  (** prover: value x with randomness xt; r2 and the ComMult randomness are the RNG draws.
      [diff.inverse()?] fails exactly when x = v. *)
  Definition prove_com_ineq (g h : M) (x xt v : K) (r2 : K) (rnd : K5) : option ((bytes * K5) * M) :=
    let c := x *: g + xt *: h in
    let diff := Fadd K (Fopp K v) x in
    if Feqb K diff (F0 K) then None else
    let dinv := Finv K diff in
    let cmm1 := diff *: g + xt *: h in
    let cmm2 := dinv *: g + r2 *: h in
    match prove H sfb (com_mult_proto Cd) Legacy (com_ineq_ctx g h c v) (mkComMult cmm1 cmm2 g g h)
                (diff, dinv, xt, r2, F0 K) rnd with
    | Some (pi, _) => Some (pi, cmm2)
    | None => None
    end.

  Context {KL : FieldLaws K} {ML : ModLaws M}.
  Add Field Kf_ineq : (@F_th K KL).

  (** completeness: whenever the committed value differs from the public one, the proof is produced and verifies *)
  Theorem com_ineq_complete_ : forall g h x xt v r2 rnd, x <> v ->
    exists proof, prove_com_ineq g h x xt v r2 rnd = Some proof /\
                  verify_com_ineq g h (x *: g + xt *: h) v proof = true.
  Proof.
    intros g h x xt v r2 rnd Hne. unfold prove_com_ineq.
    assert (Hd : Fadd K (Fopp K v) x <> F0 K).
    { intro Z. apply Hne. transitivity (Fadd K v (Fadd K (Fopp K v) x)); [ring | rewrite Z; ring]. }
    destruct (Feqb K (Fadd K (Fopp K v) x) (F0 K)) eqn:E; [apply Feqb_spec in E; contradiction|].
    set (diff := Fadd K (Fopp K v) x) in *. set (s := mkComMult (diff *: g + xt *: h) (Finv K diff *: g + r2 *: h) g g h).
    assert (R : com_mult_rel s (diff, Finv K diff, xt, r2, F0 K)).
    { cbn. repeat split. replace (Fmul K diff (Finv K diff)) with (F1 K) by (field; exact Hd). mod_norm. }
    destruct (prove_verify_complete_ H sfb (com_mult_proto Cd) _ _ (com_mult_complete_ Cd) Legacy
                (com_ineq_ctx g h (x *: g + xt *: h) v) s _ rnd R I) as (pi & st & P & V).
    cbn [p_stmt p_wit p_rand com_mult_proto] in P. rewrite P. eexists. split; [reflexivity|].
    unfold verify_com_ineq. cbn [fst snd].
    replace (com_ineq_stmt g h (x *: g + xt *: h) v (Finv K diff *: g + r2 *: h)) with s; [now rewrite V|].
    unfold com_ineq_stmt, s. f_equal. subst diff. mod_norm.
  Qed.

  (** what an extracted ComMult witness means: an opening of C to x1 + v, and x1 is non-zero unless g
      is a multiple of h (a discrete-log relation between the two bases of the commitment key) *)
  Theorem com_ineq_extracted_witness_ : forall g h c v aux x1 x2 r1 r2 r3,
    com_mult_rel (com_ineq_stmt g h c v aux) (x1, x2, r1, r2, r3) ->
    c = Fadd K x1 v *: g + r1 *: h /\ (x1 = F0 K -> g = r3 *: h).
  Proof.
    intros g h c v aux x1 x2 r1 r2 r3 (H1 & H2 & H3). cbn in H1, H2, H3. split.
    - apply (Gadd_cancel_r (Fopp K v *: g)). rewrite H1. mod_norm.
    - intros ->. rewrite H3 at 1. mod_norm.
  Qed.

  (** the prefix binds key, commitment and public value *)
  Context {CL : CodecLaws Cd}.
  Theorem com_ineq_ctx_injective_ : forall g h c v g' h' c' v' x y,
    com_ineq_ctx g h c v ++ x = com_ineq_ctx g' h' c' v' ++ y -> g = g' /\ h = h' /\ c = c' /\ v = v' /\ x = y.
  Proof.
    intros g h c v g' h' c' v' x y E. pose proof (pf_serG Cd) as G.
    epose proof (pf_prefix (domain Legacy (str "InequalityProof")) (pf_app (pf_msg (pf_app G G)) (pf_app (pf_msg G) (pf_msg (pf_serF Cd))))) as X.
    destruct (X ((g, h), (c, v)) ((g', h'), (c', v')) x y) as [[= -> -> -> ->] ->]; [repeat split | repeat split | exact E |].
    repeat split.
  Qed.
End ComIneq.
