(** ElGamal "in the exponent" over an abstract prime-order group, as used by
    rust-src/concordium_base/src/elgamal/{public,secret,cipher}.rs and
    encrypted_transfers/mod.rs.  The group is an abstract module [G] over an
    abstract commutative ring of scalars [F] (Section variables: after [End] every
    theorem is quantified over all such structures). *)
From Coq Require Import ZArith List Lia.
From CB Require Import Crypto.Chunks Crypto.ChunksProofs.
Import ListNotations.

Section ElGamal.
  Variable F : Type.
  Variables (f0 f1 : F) (fadd fmul fsub : F -> F -> F) (fopp : F -> F).
  Hypothesis Fring : ring_theory f0 f1 fadd fmul fsub fopp (@eq F).
  Add Ring FR : Fring.

  Variable G : Type.
  Variables (gzero : G) (gadd : G -> G -> G) (gopp : G -> G) (smul : F -> G -> G).
  Hypothesis gadd_assoc : forall a b c, gadd a (gadd b c) = gadd (gadd a b) c.
  Hypothesis gadd_comm : forall a b, gadd a b = gadd b a.
  Hypothesis gadd_0_l : forall a, gadd gzero a = a.
  Hypothesis gadd_opp : forall a, gadd a (gopp a) = gzero.
  Hypothesis smul_add_l : forall x y a, smul (fadd x y) a = gadd (smul x a) (smul y a).
  Hypothesis smul_add_r : forall x a b, smul x (gadd a b) = gadd (smul x a) (smul x b).
  Hypothesis smul_mul : forall x y a, smul (fmul x y) a = smul x (smul y a).
  Hypothesis smul_1 : forall a, smul f1 a = a.

  Definition gsub a b := gadd a (gopp b).

  Lemma gadd_0_r a : gadd a gzero = a.
  Proof. rewrite gadd_comm. apply gadd_0_l. Qed.

  Lemma gadd_cancel_r a b : gsub (gadd a b) b = a.
  Proof. unfold gsub. rewrite <- gadd_assoc, gadd_opp. apply gadd_0_r. Qed.

  (** of_N: the scalar denoted by a natural number (C::scalar_from_u64).  One recursive call per
      constructor: a duplicated call would make conversion checks exponential in the bit length. *)
  Fixpoint f_of_pos (p : positive) : F :=
    match p with
    | xH => f1
    | xO p' => fmul (fadd f1 f1) (f_of_pos p')
    | xI p' => fadd f1 (fmul (fadd f1 f1) (f_of_pos p'))
    end.
  Definition f_of_N (n : N) : F := match n with N0 => f0 | Npos p => f_of_pos p end.

  (** [f_of_pos] is the canonical map of [InitialRing] *)
  Lemma f_of_pos_add p q : f_of_pos (p + q) = fadd (f_of_pos p) (f_of_pos q).
  Proof. apply (ARgen_phiPOS_add (Eqsth F) (Eq_ext fadd fmul fopp) (Rth_ARth (Eqsth F) (Eq_ext fadd fmul fopp) Fring)). Qed.

  Lemma f_of_N_add a b : f_of_N (a + b) = fadd (f_of_N a) (f_of_N b).
  Proof. destruct a, b; cbn [N.add f_of_N]; try ring. apply f_of_pos_add. Qed.

  Lemma f_of_pos_mul p q : f_of_pos (p * q) = fmul (f_of_pos p) (f_of_pos q).
  Proof. apply (ARgen_phiPOS_mult (Eqsth F) (Eq_ext fadd fmul fopp) (Rth_ARth (Eqsth F) (Eq_ext fadd fmul fopp) Fring)). Qed.

  Lemma f_of_N_mul a b : f_of_N (a * b) = fmul (f_of_N a) (f_of_N b).
  Proof. destruct a, b; cbn [N.mul f_of_N]; try ring. apply f_of_pos_mul. Qed.

  (** Keys, ciphertexts: [Cipher(k*g, m + k*pk)]. *)
  Variable g : G.                      (* elgamal generator *)
  Variable h : G.                      (* encryption-in-the-exponent generator *)
  Definition pk_of (sk : F) : G := smul sk g.
  Definition cipher := (G * G)%type.
  Definition encrypt (pk : G) (m : G) (k : F) : cipher := (smul k g, gadd m (smul k pk)).
  Definition decrypt (sk : F) (c : cipher) : G := gsub (snd c) (smul sk (fst c)).
  Definition combine (c d : cipher) : cipher := (gadd (fst c) (fst d), gadd (snd c) (snd d)).
  Definition scale (e : F) (c : cipher) : cipher := (smul e (fst c), smul e (snd c)).
  Definition encrypt_exp (pk : G) (x : F) (k : F) : cipher := encrypt pk (smul x h) k.

  Theorem encrypt_decrypt sk m k : decrypt sk (encrypt (pk_of sk) m k) = m.
  Proof.
    unfold decrypt, encrypt, pk_of; cbn [fst snd].
    rewrite <- !smul_mul. replace (fmul k sk) with (fmul sk k) by ring. apply gadd_cancel_r.
  Qed.

  Lemma gopp_unique x y : gadd x y = gzero -> y = gopp x.
  Proof.
    intros Hxy. rewrite <- (gadd_0_l y), <- (gadd_opp x), (gadd_comm x (gopp x)).
    rewrite <- gadd_assoc, Hxy. apply gadd_0_r.
  Qed.
  Lemma gopp_add a b : gopp (gadd a b) = gadd (gopp a) (gopp b).
  Proof.
    symmetry. apply gopp_unique.
    rewrite gadd_assoc. rewrite <- (gadd_assoc a b (gopp a)). rewrite (gadd_comm b (gopp a)).
    rewrite (gadd_assoc a (gopp a) b), gadd_opp, gadd_0_l. apply gadd_opp.
  Qed.

  Theorem decrypt_combine sk c d : decrypt sk (combine c d) = gadd (decrypt sk c) (decrypt sk d).
  Proof.
    unfold decrypt, combine, gsub; cbn [fst snd]. rewrite smul_add_r, gopp_add.
    rewrite <- !gadd_assoc. f_equal. rewrite !gadd_assoc. rewrite (gadd_comm (snd d)). reflexivity.
  Qed.

  Lemma smul_zero x : smul x gzero = gzero.
  Proof.
    assert (E : gadd (smul x gzero) (smul x gzero) = smul x gzero) by (rewrite <- smul_add_r, gadd_0_l; reflexivity).
    rewrite <- (gadd_cancel_r (smul x gzero) (smul x gzero)) at 1. rewrite E. unfold gsub. apply gadd_opp.
  Qed.
  Lemma smul_opp x a : smul x (gopp a) = gopp (smul x a).
  Proof. apply gopp_unique. rewrite <- smul_add_r, gadd_opp. apply smul_zero. Qed.

  Theorem decrypt_scale sk e c : decrypt sk (scale e c) = smul e (decrypt sk c).
  Proof.
    unfold decrypt, scale, gsub; cbn [fst snd]. rewrite smul_add_r, smul_opp. f_equal. f_equal.
    rewrite <- !smul_mul. f_equal. ring.
  Qed.

  Corollary encrypt_exp_decrypt sk x k : decrypt sk (encrypt_exp (pk_of sk) x k) = smul x h.
  Proof. apply encrypt_decrypt. Qed.

  (** Aggregation of encryptions in the exponent is an encryption of the sum. *)
  Corollary aggregate_sum sk x y k k' :
    decrypt sk (combine (encrypt_exp (pk_of sk) x k) (encrypt_exp (pk_of sk) y k')) = smul (fadd x y) h.
  Proof. rewrite decrypt_combine, !encrypt_exp_decrypt, smul_add_l. reflexivity. Qed.

  (** [EncryptedAmount] = (low, high) 32-bit chunks; [join] = 2^32 * hi + lo. *)
  Definition enc_amount := (cipher * cipher)%type.
  Definition two32 : F := f_of_N (2 ^ 32).
  Definition join (e : enc_amount) : cipher := combine (scale two32 (snd e)) (fst e).
  Definition aggregate (l r : enc_amount) : enc_amount := (combine (fst l) (fst r), combine (snd l) (snd r)).

  Theorem join_denotes sk lo hi klo khi :
    decrypt sk (join (encrypt_exp (pk_of sk) (f_of_N lo) klo, encrypt_exp (pk_of sk) (f_of_N hi) khi))
    = smul (f_of_N (lo + 2 ^ 32 * hi)) h.
  Proof.
    unfold join; cbn [fst snd]. rewrite decrypt_combine, decrypt_scale, !encrypt_exp_decrypt.
    rewrite <- smul_mul, <- smul_add_l, f_of_N_add, f_of_N_mul. fold two32. f_equal. ring.
  Qed.

  Theorem aggregate_chunkwise sk a b :
    decrypt sk (fst (aggregate a b)) = gadd (decrypt sk (fst a)) (decrypt sk (fst b)) /\
    decrypt sk (snd (aggregate a b)) = gadd (decrypt sk (snd a)) (decrypt sk (snd b)).
  Proof. unfold aggregate; cbn [fst snd]. split; apply decrypt_combine. Qed.

  (** Decryption table: [dlog] is any function that inverts [x |-> x*h] on the
      table range; this is what BabyStepGiantStep provides when [h] has order
      above the range (assumption: h generates a prime-order group). *)
  Variable bound : N.
  Variable dlog : G -> N.
  Hypothesis dlog_spec : forall x, (x < bound)%N -> dlog (smul (f_of_N x) h) = x.

  Definition decrypt_chunk sk c := dlog (decrypt sk c).
  Definition decrypt_amount sk (e : enc_amount) : option N :=
    chunks_to_u64_checked 32 [decrypt_chunk sk (fst e); decrypt_chunk sk (snd e)].
  Definition encrypt_amount pk (x : N) klo khi : option enc_amount :=
    match u64_to_chunks_checked 32 x with
    | Some [lo; hi] => Some (encrypt_exp pk (f_of_N lo) klo, encrypt_exp pk (f_of_N hi) khi)
    | _ => None
    end.

  Hypothesis bound_ge : (2 ^ 32 <= bound)%N.

  Theorem encrypt_decrypt_amount sk x klo khi :
    (x < W64)%N ->
    exists e, encrypt_amount (pk_of sk) x klo khi = Some e /\ decrypt_amount sk e = Some x.
  Proof.
    intros Hx.
    assert (In32 : In 32%N chunk_sizes) by (unfold chunk_sizes; cbn [In]; tauto).
    assert (Lt32 : (32 < 64)%N) by reflexivity.
    destruct (chunks_roundtrip_checked 32 x In32 Lt32 Hx) as (cs & Hcs & Hlen & Hb & Hback).
    unfold encrypt_amount. rewrite Hcs.
    destruct cs as [|lo [|hi [|? ?]]]; try discriminate Hlen.
    eexists; split; [reflexivity|].
    unfold decrypt_amount, decrypt_chunk; cbn [fst snd]. rewrite !encrypt_exp_decrypt.
    inversion Hb as [|? ? Hlo Hb']; subst. inversion Hb' as [|? ? Hhi _]; subst.
    assert (M : mask 32 = (2 ^ 32 - 1)%N) by reflexivity. rewrite M in *.
    rewrite !dlog_spec by lia. exact Hback.
  Qed.

  (** The accounting equation that the enc_trans sigma statement asserts:
      S = join(transfer) + join(remaining) as plaintexts in the exponent. *)
  Theorem transfer_accounting sk s a tlo thi rlo rhi k1 k2 k3 k4 :
    (tlo + 2 ^ 32 * thi = a)%N -> (rlo + 2 ^ 32 * rhi = s - a)%N -> (a <= s)%N ->
    gadd (decrypt sk (join (encrypt_exp (pk_of sk) (f_of_N tlo) k1, encrypt_exp (pk_of sk) (f_of_N thi) k2)))
         (decrypt sk (join (encrypt_exp (pk_of sk) (f_of_N rlo) k3, encrypt_exp (pk_of sk) (f_of_N rhi) k4)))
    = smul (f_of_N s) h.
  Proof.
    intros Ht Hr Ha. rewrite !join_denotes, Ht, Hr, <- smul_add_l, <- f_of_N_add. f_equal. f_equal. lia.
  Qed.
End ElGamal.

(** Transfers: plaintext bookkeeping of make_transfer_data / make_sec_to_pub_transfer_data:
    [if s < a { return None }], [s' = s - a], both re-chunked. *)
Definition transfer_plain (s a : N) : option (list N * list N) :=
  if (s <? a)%N then None else
  match u64_to_chunks_checked 32 (s - a), u64_to_chunks_checked 32 a with
  | Some r, Some t => Some (r, t)
  | _, _ => None
  end.

Theorem transfer_none_if_exceeds s a : (s < a)%N -> transfer_plain s a = None.
Proof. intros H. unfold transfer_plain. destruct (N.ltb_spec s a); [reflexivity|lia]. Qed.

Theorem transfer_conserves s a : (s < W64)%N -> (a <= s)%N ->
  exists r t, transfer_plain s a = Some (r, t)
    /\ chunks_to_u64_checked 32 r = Some (s - a)%N
    /\ chunks_to_u64_checked 32 t = Some a
    /\ (s - a + a = s)%N.
Proof.
  intros Hs Ha. unfold transfer_plain. destruct (N.ltb_spec s a); [lia|].
  assert (In32 : In 32%N chunk_sizes) by (unfold chunk_sizes; cbn [In]; tauto).
  assert (Lt32 : (32 < 64)%N) by reflexivity.
  destruct (chunks_roundtrip_checked 32 (s - a) In32 Lt32) as (r & Hr & _ & _ & Hbr); [lia|].
  destruct (chunks_roundtrip_checked 32 a In32 Lt32) as (t & Ht & _ & _ & Hbt); [lia|].
  exists r, t. rewrite Hr, Ht. repeat split; try assumption. lia.
Qed.


