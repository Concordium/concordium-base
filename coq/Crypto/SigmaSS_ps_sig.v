(** C07 - special soundness of ps_sig_known.rs (knowledge of a Pointcheval-Sanders signature on
    committed / public / known messages; pairings as the bilinear map [pe] of [AlgPairing.v], target
    group written additively, so the "product of pairings" of the code is a sum) and response
    injectivity of com_eq_sig.rs.

    The protocol is an instance of the one-row lemma [ss_row_l] of SigmaGeneric.v:
    the verifier's equations are, row by row,  [c *: Y + phi_row z = a_row]  with
      pairing row:   Y = e(b,g~) - e(a,X~) - e(a, sum_{public i} m_i*Y~_i),
                     phi (zr, zs) = zr * e(a,g~) + e(a, sum_{committed/known i} z_i*Y~_i)
      commitment i:  Y = C_i,  phi (zm, zr) = zm*g + zr*h
    ([pss_go_rows] shows the coded loop [pss_extract_go] computes exactly these rows). *)
From Coq Require Import ZArith List Lia.
From CB Require Import Crypto.Alg Crypto.AlgPairing Crypto.SigmaGeneric Crypto.SigmaHom Crypto.SigmaCodec
  Crypto.Sigma_com_eq_sig Crypto.Sigma_ps_sig_known.
Import ListNotations.

Section PsSigSS.
  Context {K : FieldOps} {P : PairOps K} {MC : ModOps K}
          (Cd1 : CodecOps (PM1 P)) (Cd2 : CodecOps (PM2 P)) (CdT : CodecOps (PMT P)) (CdC : CodecOps MC).
  Context {KL : FieldLaws K} {PL : PairLaws P} {MLC : ModLaws MC}.
  Add Field Kf_pss_ss : (@F_th K KL).
  Local Open Scope G_scope.
  Notation len := (@List.length _).
  Notation M2 := (PM2 P).

  (** extractor: (z - z')/(c' - c) componentwise, shape by shape *)
  Definition exv (c c' : K) (v v' : psval K) : psval K :=
    match v, v' with
    | VEq a b, VEq a' b' => VEq (exd c c' a a') (exd c c' b b')
    | VKnown a, VKnown a' => VKnown (exd c c' a a')
    | _, _ => VPub
    end.
  Definition pss_extractor (s : pss_stmt P MC) (c c' : K) (z z' : pss_wit) : pss_wit :=
    (exd c c' (fst z) (fst z'), map2 (exv c c') (snd z) (snd z')).

  (** the coded loop computes the rows: [e = L - c*Pb] where [L] is linear in the responses and [Pb]
      the public-message sum; two accepting loops with the same commitment points give the
      per-message relation for the extracted values, and the signed sum of the extracted values is
      [(L - L')/(c' - c) + Pb] *)
  Lemma pss_go_rows (g h : MC) (c c' : K) : c <> c' ->
    forall (msgs : list (psmsg MC K)) (zs zs' : list (psval K)) (yts : list M2) e e' cs,
    len zs = len msgs -> len zs' = len msgs ->
    pss_extract_go g h c msgs zs yts = Some (e, cs) -> pss_extract_go g h c' msgs zs' yts = Some (e', cs) ->
    Forall2 (shape_rel g h) msgs (map2 (exv c c') zs zs') /\ (len msgs <= len yts)%nat /\
    exists L L' Pb : M2, e = L + Fopp K c *: Pb /\ e' = L' + Fopp K c' *: Pb /\
      pss_sum msgs (map2 (exv c c') zs zs') yts = Finv K (Fsub K c' c) *: (L - L') + Pb.
  Proof.
    intro Hc. induction msgs as [|m msgs IH]; intros [|z zs] [|z' zs'] yts e e' cs Lz Lz' E E'; try discriminate.
    - cbn in E, E'. injection E as <- <-. injection E' as <-. split; [constructor|]. split; [cbn; lia|].
      exists (G0 M2), (G0 M2), (G0 M2). cbn. repeat split; mod_norm.
    - cbn [len] in Lz, Lz'.
      destruct m as [C|m|]; destruct z as [zm zr| |zk]; try (cbn in E; discriminate);
        destruct z' as [zm' zr'| |zk']; try (cbn in E'; discriminate);
        (destruct yts as [|y yts]; [cbn in E; discriminate|]); cbn [pss_extract_go] in E, E';
        destruct (pss_extract_go g h c msgs zs yts) as [[e1 cs1]|] eqn:R; try discriminate;
        destruct (pss_extract_go g h c' msgs zs' yts) as [[e1' cs1']|] eqn:R'; try discriminate;
        injection E as <- <-; injection E' as <- Hcs; subst cs1';
        (* the three shapes differ only in where the term of [y] goes: into [L], [L'] (responses) or into [Pb] (public) *)
        destruct (IH zs zs' yts e1 e1' cs1 ltac:(lia) ltac:(lia) R R') as (F & Ly & L & L' & Pb & E1 & E1' & ES);
        (split; [|split; [cbn [len]; lia|]]); cbn [map2 exv pss_sum]; rewrite ?ES, ?E1, ?E1'.
      + assert (EC : C = exd c c' zm zm' *: g + exd c c' zr zr' *: h)
          by exact (ped_row_special_sound_ g h C c c' (zm, zr) (zm', zr') Hc (eq_sym Hcs)).
        constructor; [|exact F]. rewrite EC at 1. constructor.
      + exists (zm *: y + L), (zm' *: y + L'), Pb. repeat split; unfold exd; mod_norm.
      + constructor; [constructor|exact F].
      + exists L, L', (m *: y + Pb). repeat split; mod_norm.
      + constructor; [constructor|exact F].
      + exists (zk *: y + L), (zk' *: y + L'), Pb. repeat split; unfold exd; mod_norm.
  Qed.

  (** special soundness with the exact relation [pss_rel] of the completeness theorem: lengths,
      per-message relation ([C_i = m_i*g + r_i*h] for the committed ones) and the pairing equation
        e(b, g~) = e(a, X~ + sum_i m_i*Y~_i + r'*g~) *)
  Theorem pss_special_sound_ : special_sound (pss_proto Cd1 Cd2 CdT CdC) (pss_rel (P:=P) (MC:=MC)) pss_extractor.
  Proof.
    intros [a b msgs pg gt ys yts xt g h] cmsg c c' [zr zs] [zr' zs'] Hc E E'.
    cbn [p_extract pss_proto] in E, E'. unfold pss_extract in E, E'.
    cbn [ps_a ps_b ps_msgs ps_pkg ps_gt ps_ys ps_yts ps_xt ps_g ps_h] in *.
    destruct (Nat.ltb (len ys) (len msgs)) eqn:Ly; [discriminate|]. apply Nat.ltb_ge in Ly.
    destruct (Nat.eqb (len msgs) (len zs)) eqn:Lz; [|discriminate].
    destruct (Nat.eqb (len msgs) (len zs')) eqn:Lz'; [|discriminate].
    apply Nat.eqb_eq in Lz, Lz'. cbn [negb] in E, E'.
    destruct (pss_extract_go g h c msgs zs yts) as [[e cs]|] eqn:R; [|discriminate].
    destruct (pss_extract_go g h c' msgs zs' yts) as [[e' cs']|] eqn:R'; [|discriminate].
    rewrite <- E' in E. injection E as E1 E2. subst cs'.
    destruct (pss_go_rows g h c c' Hc msgs zs zs' yts e e' cs (eq_sym Lz) (eq_sym Lz') R R')
      as (F & Lyt & L & L' & Pb & He & He' & ES).
    unfold pss_rel, pss_extractor. cbn [ps_a ps_b ps_msgs ps_pkg ps_gt ps_ys ps_yts ps_xt ps_g ps_h fst snd].
    repeat split; auto.
    rewrite ES. subst e e'. unfold Gsub in *.
    autorewrite with pe_lin in E1. autorewrite with pe_lin.
    set (Y := pe P b gt + (Gopp (PMT P) (pe P a xt) + Gopp (PMT P) (pe P a Pb))).
    set (A := zr *: pe P a gt + pe P a L).
    set (A' := zr' *: pe P a gt + pe P a L').
    assert (EY : c *: Y + A = c' *: Y + A').
    { transitivity (c *: pe P b gt + (zr *: pe P a gt + (Fopp K c *: pe P a xt + (pe P a L + Fopp K c *: pe P a Pb))));
        [unfold Y, A; mod_norm|]. rewrite E1. unfold Y, A'. mod_norm. }
    apply (ss_row_l c c' Y A A' Hc) in EY.
    transitivity (Y + (pe P a xt + pe P a Pb)); [unfold Y; mod_norm|]. rewrite EY. unfold A, A', exd. mod_norm.
  Qed.

  (** * com_eq_sig: a reconstructed commit message determines the response when [phi] is injective:
      the commitment key is binding as a map ([x*g + y*h] determines [(x,y)]) and [e(a_hat, g~)] has
      trivial annihilator.  Both are genuine preconditions (identity points violate them; the harness
      observes exactly these acceptances in its identity_generator variant). *)
  Lemma ces_zs_injective (c : K) (g h : MC) :
    (forall x y x' y' : K, x *: g + y *: h = x' *: g + y' *: h -> x = x' /\ y = y') ->
    forall (cm : list MC) (zs zs' : list (K * K)), len zs = len cm -> len zs' = len cm ->
    map2 (fun Ci z => c *: Ci + (fst z *: g + snd z *: h)) cm zs =
    map2 (fun Ci z => c *: Ci + (fst z *: g + snd z *: h)) cm zs' -> zs = zs'.
  Proof.
    intro Hped. induction cm as [|C cm IH]; intros [|[x y] zs] [|[x' y'] zs'] L L' E; try discriminate; [reflexivity|].
    cbn [map2 fst snd] in E. injection E as E0 E. apply Gadd_cancel_l in E0. apply Hped in E0. destruct E0 as [-> ->].
    f_equal. apply IH; cbn in *; auto; lia.
  Qed.
  Theorem ces_response_injective_ : forall (s : ces_stmt P MC) (c : K) (z z' : ces_wit) cm,
    (forall x y x' y' : K, x *: cs_g s + y *: cs_h s = x' *: cs_g s + y' *: cs_h s -> x = x' /\ y = y') ->
    (forall x x' : K, x *: pe P (cs_a s) (cs_gt s) = x' *: pe P (cs_a s) (cs_gt s) -> x = x') ->
    ces_extract s c z = Some cm -> ces_extract s c z' = Some cm -> z = z'.
  Proof.
    intros [a b cm0 pg gt ys yts xt g h] c [zr zs] [zr' zs'] cm Hped Hgt E E'. unfold ces_extract, Sigma_com_eq_sig.neqb in E, E'.
    cbn [cs_a cs_b cs_cmts cs_pkg cs_gt cs_ys cs_yts cs_xt cs_g cs_h] in *.
    destruct (Nat.eqb (len zs) (len cm0)) eqn:L; [|discriminate].
    destruct (Nat.eqb (len zs') (len cm0)) eqn:L'; [|discriminate].
    destruct (Nat.ltb (len yts) (len cm0)); [discriminate|].
    apply Nat.eqb_eq in L, L'. cbn [negb] in E, E'. rewrite <- E' in E. injection E as E1 E2.
    apply (ces_zs_injective c g h Hped cm0 zs zs' L L') in E2. subst zs'. f_equal.
    apply Gadd_cancel_l in E1. rewrite !pe_add_r, !pe_smul_r in E1. apply Gadd_cancel_r in E1. now apply Hgt.
  Qed.
End PsSigSS.
