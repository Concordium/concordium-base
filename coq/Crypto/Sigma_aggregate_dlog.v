(** sigma_protocols/aggregate_dlog.rs: knowledge of [w_1..w_n] with [public = sum w_i * coeff_i],
    for every n (0, 1, n).  The linear map is the single row [coeff]. *)
From Coq Require Import ZArith List String.
From CB Require Import Crypto.Alg Crypto.Transcript Crypto.TranscriptProofs Crypto.SigmaGeneric Crypto.SigmaCodec.
Import ListNotations.

Record agg_stmt {K : FieldOps} (M : ModOps K) := mkAgg { ag_public : M; ag_coeff : list M }.
Arguments mkAgg {K M} _ _. Arguments ag_public {K M} _. Arguments ag_coeff {K M} _.

Section AggDlog.
  Context {K : FieldOps} {M : ModOps K} (Cd : CodecOps M).
  Local Open Scope G_scope.

  (** [public]: append_message("public", public); append_messages("coeff", coeff) *)
  Definition agg_public (k : tkind) (s : agg_stmt M) : bytes :=
    msg k (str "public") (serG Cd (ag_public s)) ++ msgs k (str "coeff") (map (serG Cd) (ag_coeff s)).
  (** n = coeff.len() random scalars; multiexp(coeff, rands) *)
  Definition agg_commit (s : agg_stmt M) (r : list K) : option M := Some (msm r (ag_coeff s)).
  (** [if state.len() != secret.len() return None]; r_i - c*s_i (as -(c*s) + r) *)
  Definition agg_respond (s : agg_stmt M) (w r : list K) (c : K) : option (list K) :=
    if negb (Nat.eqb (List.length r) (List.length w)) then None
    else Some (map2 (fun wi ri => Fadd K (Fopp K (Fmul K c wi)) ri) w r).
  (** [if response.len() != coeff.len() return None]; public*c + sum w_i*g_i *)
  Definition agg_extract (s : agg_stmt M) (c : K) (z : list K) : option M :=
    if negb (Nat.eqb (List.length z) (List.length (ag_coeff s))) then None
    else Some (c *: ag_public s + msm z (ag_coeff s)).

  Definition agg_proto : proto K := {|
    p_stmt := agg_stmt M; p_wit := list K; p_rand := list K; p_cm := M; p_resp := list K;
    p_public := agg_public; p_commit := agg_commit; p_respond := agg_respond; p_extract := agg_extract;
    p_ser_cm := serG Cd; p_ser_resp := fun z => ser_vec32 (map (serF Cd) z) |}.

  Definition agg_rel (s : agg_stmt M) (w : list K) : Prop :=
    List.length w = List.length (ag_coeff s) /\ ag_public s = msm w (ag_coeff s).
  Definition agg_rok (s : agg_stmt M) (r : list K) : Prop := List.length r = List.length (ag_coeff s).
  Definition agg_recover (s : agg_stmt M) (w : list K) (c : K) (z : list K) : list K :=
    map2 (fun zi wi => Fadd K zi (Fmul K c wi)) z w.

  Definition agg_A (s : agg_stmt M) : list (list M) := [ag_coeff s].
  Definition agg_y (s : agg_stmt M) : list M := [ag_public s].

  Context {KL : FieldLaws K} {ML : ModLaws M}.
  Add Field Kf_agg : (@F_th K KL).

  Lemma agg_commit_generic s r a : agg_commit s r = Some a -> [a] = m_commit (agg_A s) r.
  Proof. intro E. injection E as <-. reflexivity. Qed.
  Lemma agg_respond_generic s w r c z : agg_respond s w r c = Some z -> z = m_respond RespMinus c w r.
  Proof.
    unfold agg_respond. destruct (negb _); [discriminate|]. intro E. injection E as <-. apply resp_minus_generic.
  Qed.
  Lemma agg_extract_generic s c z a : agg_extract s c z = Some a ->
    [a] = m_reconstruct RespMinus (agg_A s) (agg_y s) c z /\ List.length z = List.length (ag_coeff s).
  Proof.
    unfold agg_extract. destruct (Nat.eqb _ _) eqn:L; [|discriminate]. cbn. intro E. injection E as <-.
    apply Nat.eqb_eq in L. split; [reflexivity|exact L].
  Qed.
  Lemma agg_rel_generic s w : List.length w = List.length (ag_coeff s) ->
    (agg_rel s w <-> phi (agg_A s) w = agg_y s).
  Proof.
    intro L. unfold agg_rel, phi, agg_A, agg_y. cbn. split.
    - intros [_ ->]. reflexivity.
    - intro E. injection E as E. auto.
  Qed.

  (** completeness for every n, including n = 0 (public must then be the identity) *)
  Theorem agg_complete_ : complete agg_proto agg_rel agg_rok.
  Proof.
    intros s w r [Lw Hp] Lr. eexists. split; [reflexivity|]. intro c. cbn. unfold agg_respond, agg_extract.
    unfold agg_rok in Lr. rewrite Lr, Lw, Nat.eqb_refl. cbn [negb]. eexists. split; [reflexivity|].
    rewrite map2_length, Lw, Lr, Nat.min_id, Nat.eqb_refl. cbn [negb]. f_equal.
    rewrite resp_minus_generic. unfold m_respond. rewrite msm_vsub by (rewrite vscale_length; congruence).
    rewrite msm_vscale, Hp. mod_norm.
  Qed.

  Definition agg_extractor (s : agg_stmt M) (c c' : K) (z z' : list K) : list K := m_extract RespMinus c c' z z'.
  Theorem agg_special_sound_ : special_sound agg_proto agg_rel agg_extractor.
  Proof.
    intros s a c c' z z' Hc E E'.
    destruct (agg_extract_generic s c z a E) as [G1 L1]. destruct (agg_extract_generic s c' z' a E') as [G2 L2].
    assert (L : List.length (agg_extractor s c c' z z') = List.length (ag_coeff s)).
    { unfold agg_extractor, m_extract, vsub. rewrite vscale_length, map2_length, L1, L2. apply Nat.min_id. }
    apply agg_rel_generic; [exact L|].
    apply (sigma_special_sound_ RespMinus (agg_A s) (agg_y s) [a] c c' z z' Hc); auto; congruence.
  Qed.

  Context {CL : CodecLaws Cd}.
  (** V1: the count written by [append_messages] makes the number of generators part of the frame *)
  Theorem agg_public_prefix_free_v1_ :
    public_prefix_free agg_proto V1 (fun s => (N.of_nat (List.length (ag_coeff s)) < W64)%N).
  Proof.
    apply (pf_iso (fun s => (ag_public s, ag_coeff s)) (pf_app (pf_msg (pf_serG Cd)) (pf_msgs_v1 (pf_serG Cd)))).
    - intros [] [] [= -> ->]. reflexivity.
    - intros s L. repeat split; [exact L|apply Forall_True].
  Qed.
  (** legacy: no count is written; [public] is prefix free only among statements of one size *)
  Theorem agg_public_prefix_free_legacy_fixed_size_ : forall n,
    public_prefix_free agg_proto Legacy (fun s => List.length (ag_coeff s) = n).
  Proof.
    intro n. apply (pf_iso (fun s => (ag_public s, ag_coeff s)) (pf_app (pf_msg (pf_serG Cd)) (pf_msgs_n n (pf_serG Cd)))).
    - intros [] [] [= -> ->]. reflexivity.
    - intros s L. repeat split; [exact L|apply Forall_True].
  Qed.
End AggDlog.
