(** C11 - the results of [BpProofs.v] restated over one bundle of laws ([bp_laws]): every theorem is
    "for all carriers and operations satisfying the commutative-ring / module laws".             *)
From Coq Require Import List ZArith.
From CB Require Import Crypto.BpAlg Crypto.RangeProof Crypto.SetProof Crypto.RangeStmt Crypto.BpProofs
  Crypto.BpExtras.
Import ListNotations.

Record bp_laws (Ops : bp_ops) : Prop := mkLaws {
  l_ring : ring_theory (o_f0 Ops) (o_f1 Ops) (o_fadd Ops) (o_fmul Ops) (o_fsub Ops) (o_fopp Ops) (@eq (o_F Ops));
  l_gadd_assoc : forall x y z, o_gadd Ops x (o_gadd Ops y z) = o_gadd Ops (o_gadd Ops x y) z;
  l_gadd_comm : forall x y, o_gadd Ops x y = o_gadd Ops y x;
  l_gadd_0_l : forall x, o_gadd Ops (o_g0 Ops) x = x;
  l_gadd_opp : forall x, o_gadd Ops x (o_gopp Ops x) = o_g0 Ops;
  l_smul_add_r : forall c x y, o_smul Ops c (o_gadd Ops x y) = o_gadd Ops (o_smul Ops c x) (o_smul Ops c y);
  l_smul_add_l : forall c d x, o_smul Ops (o_fadd Ops c d) x = o_gadd Ops (o_smul Ops c x) (o_smul Ops d x);
  l_smul_mul : forall c d x, o_smul Ops (o_fmul Ops c d) x = o_smul Ops c (o_smul Ops d x);
  l_smul_1 : forall x, o_smul Ops (o_f1 Ops) x = x;
  l_feqb : forall a b, o_feqb Ops a b = true <-> a = b;
  l_geqb : forall a b, o_geqb Ops a b = true <-> a = b }.

(** challenges paired with their inverses *)
Definition inv_ok (Ops : bp_ops) (us : list (o_F Ops * o_F Ops)) : Prop :=
  Forall (fun p => o_fmul Ops (fst p) (snd p) = o_f1 Ops) us.

(** P' = <a,G> + <b,H> + <a,b> Q *)
Definition ipa_statement (Ops : bp_ops) (a b : list (o_F Ops)) (Gs Hs : list (o_G Ops)) (Q : o_G Ops) : o_G Ops :=
  o_gadd Ops (o_gadd Ops (msum Ops a Gs) (msum Ops b Hs)) (o_smul Ops (dot Ops a b) Q).

(** Pedersen commitments  v B + r Bt *)
Definition commit (Ops : bp_ops) (B Bt : o_G Ops) (v r : o_F Ops) : o_G Ops :=
  o_gadd Ops (o_smul Ops v B) (o_smul Ops r Bt).
(** the scalar represented by the n low bits of v *)
Definition fval (Ops : bp_ops) (n : nat) (v : Z) : o_F Ops := dot Ops (fbits Ops v n) (two_n_vec Ops n).

Section Packaged.
  Variable Ops : bp_ops.
  Hypothesis L : bp_laws Ops.

  Theorem verdict_ok_iff_l : forall Gs Hs B Bt p Vterm delta eG eH y yi x w us,
    bp_verdict Ops Gs Hs B Bt p Vterm delta eG eH y yi x w us = VOk
    <-> (bp_accepts Ops Gs Hs B Bt p Vterm delta eG eH yi x w us
         /\ o_fmul Ops y yi = o_f1 Ops /\ inv_ok Ops us).
  Proof. destruct L. intros. eapply bp_verdict_ok_iff; eassumption. Qed.

  Theorem range_complete_p : forall n vs rs Gs Hs B Bt sL sR at_ st t1t t2t y yi z x w us,
    length rs = length vs ->
    length Gs = Nat.pow 2 (length us) -> length Gs = n * length vs -> length Hs = length Gs ->
    length sL = length Gs -> length sR = length Gs ->
    o_fmul Ops y yi = o_f1 Ops -> inv_ok Ops us ->
    range_verdict Ops n (vzip (commit Ops B Bt) (map (fval Ops n) vs) rs) Gs Hs B Bt
      (range_prove Ops n vs rs Gs Hs B Bt sL sR at_ st t1t t2t y yi z x w us) y yi z x w us = VOk.
  Proof.
    pose proof L as L'. destruct L'. intros. unfold range_verdict. apply verdict_ok_iff_l. split; [|split; assumption].
    eapply range_complete_l; eassumption.
  Qed.

  Theorem mem_complete_p : forall set v vr Gs Hs B Bt sL sR at_ st t1t t2t y yi z x w us,
    In v set ->
    length Gs = Nat.pow 2 (length us) -> length Gs = length (pad_pow2 set) -> length Hs = length Gs ->
    length sL = length Gs -> length sR = length Gs ->
    o_fmul Ops y yi = o_f1 Ops -> inv_ok Ops us ->
    exists p, mem_prove Ops set v vr Gs Hs B Bt sL sR at_ st t1t t2t y yi z x w us = Some p
      /\ mem_verdict Ops set (commit Ops B Bt v vr) Gs Hs B Bt p y yi z x w us = VOk.
  Proof.
    pose proof L as L'. destruct L'. intros set v vr Gs Hs B Bt sL sR at_ st t1t t2t y yi z x w us Hin.
    intros. eapply (mem_prove_some_iff Ops l_feqb0) in Hin. destruct Hin as [p E].
    exists p. split; [exact E|]. unfold mem_verdict. apply verdict_ok_iff_l. split; [|split; assumption].
    eapply mem_complete_l; eassumption.
  Qed.

  Theorem mem_no_proof_p : forall set v vr Gs Hs B Bt sL sR at_ st t1t t2t y yi z x w us,
    ~ In v set -> mem_prove Ops set v vr Gs Hs B Bt sL sR at_ st t1t t2t y yi z x w us = None.
  Proof.
    destruct L. intros set v vr Gs Hs B Bt sL sR at_ st t1t t2t y yi z x w us Hn.
    destruct (mem_prove Ops set v vr Gs Hs B Bt sL sR at_ st t1t t2t y yi z x w us) eqn:E; [|reflexivity].
    exfalso. apply Hn. eapply mem_prove_some_iff; eauto.
  Qed.

  Theorem nonmem_complete_p : forall set v vr invs Gs Hs B Bt sL sR at_ st t1t t2t y yi z x w us,
    ~ In v set ->
    Forall2 (fun si iv => o_fmul Ops (o_fsub Ops v si) iv = o_f1 Ops) (pad_pow2 set) invs ->
    length Gs = Nat.pow 2 (length us) -> length Gs = length (pad_pow2 set) -> length Hs = length Gs ->
    length sL = length Gs -> length sR = length Gs ->
    o_fmul Ops y yi = o_f1 Ops -> inv_ok Ops us ->
    exists p, nonmem_prove Ops set v vr invs Gs Hs B Bt sL sR at_ st t1t t2t y yi z x w us = Some p
      /\ nonmem_verdict Ops set (commit Ops B Bt v vr) Gs Hs B Bt p y yi z x w us = VOk.
  Proof.
    pose proof L as L'. destruct L'. intros set v vr invs Gs Hs B Bt sL sR at_ st t1t t2t y yi z x w us Hn.
    intros. eapply (nonmem_prove_some_iff Ops l_feqb0) in Hn. destruct Hn as [p E].
    exists p. split; [exact E|]. unfold nonmem_verdict. apply verdict_ok_iff_l. split; [|split; assumption].
    eapply nonmem_complete_l; eassumption.
  Qed.

  Theorem nonmem_no_proof_p : forall set v vr invs Gs Hs B Bt sL sR at_ st t1t t2t y yi z x w us,
    In v set -> nonmem_prove Ops set v vr invs Gs Hs B Bt sL sR at_ st t1t t2t y yi z x w us = None.
  Proof.
    destruct L. intros set v vr invs Gs Hs B Bt sL sR at_ st t1t t2t y yi z x w us Hin.
    destruct (nonmem_prove Ops set v vr invs Gs Hs B Bt sL sR at_ st t1t t2t y yi z x w us) eqn:E; [|reflexivity].
    exfalso. eapply (nonmem_prove_some_iff Ops l_feqb0); eauto.
  Qed.

  (** canonical ring homomorphism Z -> F (what [scalar_from_u64] is) *)
  Definition fofZ_ (v : Z) : o_F Ops := gen_phiZ (o_f0 Ops) (o_f1 Ops) (o_fadd Ops) (o_fmul Ops) (o_fopp Ops) v.

  Theorem fval_canonical_p : forall n v, fval Ops n v = fofZ_ (v mod 2 ^ Z.of_nat n).
  Proof. destruct L. intros. apply fval_canonical; assumption. Qed.

  Theorem range_complete_in_range_p : forall n vs rs Gs Hs B Bt sL sR at_ st t1t t2t y yi z x w us,
    Forall (fun v => (0 <= v < 2 ^ Z.of_nat n)%Z) vs ->
    length rs = length vs ->
    length Gs = Nat.pow 2 (length us) -> length Gs = n * length vs -> length Hs = length Gs ->
    length sL = length Gs -> length sR = length Gs ->
    o_fmul Ops y yi = o_f1 Ops -> inv_ok Ops us ->
    range_verdict Ops n (vzip (commit Ops B Bt) (map fofZ_ vs) rs) Gs Hs B Bt
      (range_prove Ops n vs rs Gs Hs B Bt sL sR at_ st t1t t2t y yi z x w us) y yi z x w us = VOk.
  Proof.
    intros n vs rs Gs Hs B Bt sL sR at_ st t1t t2t y yi z x w us Hr. intros.
    replace (map fofZ_ vs) with (map (fval Ops n) vs); [apply range_complete_p; assumption|].
    apply map_ext_in. intros v Hv. rewrite Forall_forall in Hr. rewrite fval_canonical_p.
    rewrite Z.mod_small by (apply Hr; exact Hv). reflexivity.
  Qed.
End Packaged.

(** * a concrete instance of the laws (non-vacuity): the integers as a module over themselves *)
Definition ZOps : bp_ops := mkOps Z 0%Z 1%Z Z.add Z.mul Z.sub Z.opp Z.eqb Z 0%Z Z.add Z.opp Z.mul Z.eqb.
Lemma ZOps_laws : bp_laws ZOps.
Proof.
  constructor; unfold ZOps;
    cbn [o_F o_f0 o_f1 o_fadd o_fmul o_fsub o_fopp o_feqb o_G o_g0 o_gadd o_gopp o_smul o_geqb];
    intros; try ring; try apply Z.eqb_eq.
  constructor; intros; ring.
Qed.
