(** Proofs about the derivation paths of [ConcordiumHdWallet] (model: Paths.v). *)
From Coq Require Import NArith List Lia Arith.
From CB Require Import Crypto.Paths.
From CB Require Crypto.TranscriptProofs.
Import ListNotations.
Local Open Scope N_scope.

Definition H31 : N := 2147483648.

Lemma land_H31_small i : i < H31 -> N.land i H31 = 0.
Proof.
  intros Hi. apply N.bits_inj. intros n. rewrite N.land_spec, N.bits_0.
  change H31 with (2 ^ 31). rewrite N.pow2_bits_eqb.
  destruct (N.eqb_spec 31 n) as [<-|]; [|apply Bool.andb_false_r].
  rewrite <- (N.mod_small i (2 ^ 31)) by exact Hi. rewrite N.mod_pow2_bits_high by lia. reflexivity.
Qed.

Lemma land_H31_large i : H31 <= i < 2 ^ 32 -> N.land i H31 <> 0.
Proof.
  intros Hi E. assert (Hb : N.testbit (N.land i H31) 31 = false) by (rewrite E; apply N.bits_0).
  rewrite N.land_spec in Hb. change H31 with (2 ^ 31) in Hb. rewrite N.pow2_bits_true in Hb.
  rewrite Bool.andb_true_r in Hb. rewrite N.testbit_eqb in Hb.
  assert (Hd : i / 2 ^ 31 = 1).
  { change (2 ^ 31) with H31. symmetry. apply (N.div_unique i H31 1 (i - H31)); unfold H31 in *; lia. }
  rewrite Hd in Hb. discriminate.
Qed.

Lemma lor_H31_small i : i < H31 -> N.lor i H31 = i + H31.
Proof.
  intros Hi. pose proof (land_H31_small i Hi) as Hl.
  rewrite <- N.lxor_lor by assumption. symmetry. apply N.add_nocarry_lxor. assumption.
Qed.

(** [checked_harden] accepts exactly the indices below 2^31 and adds 2^31 to them. *)
Theorem checked_harden_spec_lemma i : i < 2 ^ 32 ->
  checked_harden i = if i <? 2 ^ 31 then Some (i + 2 ^ 31) else None.
Proof.
  intros Hi. unfold checked_harden. change HARDENED_OFFSET with H31. change (2 ^ 31) with H31.
  destruct (N.ltb_spec i H31) as [Hlt|Hge].
  - rewrite land_H31_small by assumption. cbn [N.eqb]. rewrite lor_H31_small by assumption. reflexivity.
  - destruct (N.eqb_spec (N.land i H31) 0) as [E|]; [|reflexivity].
    exfalso. apply (land_H31_large i); [split; assumption|assumption].
Qed.

Lemma harden_small i : i < H31 -> harden i = i + H31.
Proof. apply lor_H31_small. Qed.

(** [harden_all] succeeds iff every index is below 2^31; it adds 2^31 everywhere *)
Lemma harden_all_spec path p : Forall (fun i => i < 2 ^ 32) path -> harden_all path = Some p ->
  p = map (fun i => i + H31) path /\ Forall (fun i => i < H31) path.
Proof.
  intros Hu. revert p. induction Hu as [|i t Hi _ IH]; intros p H; cbn [harden_all] in H.
  - injection H as <-. split; constructor.
  - rewrite checked_harden_spec_lemma in H by assumption. change (2 ^ 31) with H31 in H.
    destruct (N.ltb_spec i H31) as [Hlt|]; [|discriminate].
    destruct (harden_all t) as [t'|]; [|discriminate]. injection H as <-.
    destruct (IH t' eq_refl) as [-> Hall]. split; [reflexivity|constructor; assumption].
Qed.

(** the un-hardened index list of a key kind (with its root) *)
Definition spec_path (n : net) (k : key_kind) : list N :=
  match k with
  | AccountSigningKey ip id cred => [44; net_code n; ip; id; 0; cred]
  | IdCredSec ip id => [44; net_code n; ip; id; 2]
  | PrfKey ip id => [44; net_code n; ip; id; 3]
  | BlindingRandomness ip id => [44; net_code n; ip; id; 4]
  | AttributeCommitmentRandomness ip id cred tag => [44; net_code n; ip; id; 5; cred; tag]
  | VerifiableCredentialSigningKey ix sx vc =>
      [1958950021; net_code n; 0] ++ split_u64_into_chunks ix ++ split_u64_into_chunks sx ++ [vc; 0]
  | VerifiableCredentialBackupEncryptionKey => [1958950021; net_code n; 1]
  end.

Lemma net_code_small n : net_code n < H31.
Proof. destruct n; reflexivity. Qed.

Lemma chunk_bound y : y mod 2 ^ 16 < 2 ^ 32.
Proof. eapply N.lt_trans; [apply N.mod_lt; discriminate|reflexivity]. Qed.

Lemma split_u32 x : Forall (fun i => i < 2 ^ 32) (split_u64_into_chunks x).
Proof. unfold split_u64_into_chunks. repeat constructor; apply chunk_bound. Qed.

Lemma path_of_spec n k p : wf_kind k -> path_of n k = Some p ->
  p = map (fun i => i + H31) (spec_path n k).
Proof.
  intros Hwf H. pose proof (net_code_small n) as Hn.
  assert (Hroot : forall c path q, c < H31 -> Forall (fun i => i < 2 ^ 32) path ->
            match harden_all path with Some p' => Some (harden c :: harden (net_code n) :: p') | None => None end = Some q ->
            q = map (fun i => i + H31) (c :: net_code n :: path)).
  { intros c path q Hc Hu Hq. destruct (harden_all path) as [p'|] eqn:E; [|discriminate].
    injection Hq as <-. destruct (harden_all_spec path p' Hu E) as [-> _].
    cbn [map]. rewrite !harden_small by assumption. reflexivity. }
  unfold u32 in *.
  destruct k; cbn [path_of spec_path wf_kind] in *; unfold make_path, make_verifiable_credential_path in H.
  all: apply Hroot in H; [assumption|reflexivity|].
  6: { cbn [app]. constructor; [reflexivity|].
       do 2 (apply Forall_app; split; [apply split_u32|]). repeat constructor; tauto. }
  all: repeat constructor; try tauto.
  destruct Hwf as (_ & _ & _ & Ht). eapply N.lt_trans; [exact Ht|reflexivity].
Qed.

Lemma net_code_inj n1 n2 : net_code n1 = net_code n2 -> n1 = n2.
Proof. destruct n1, n2; cbn; intros H; try reflexivity; discriminate. Qed.

(** the four 16-bit chunks determine a u64 *)
Lemma split_u64_recompose x : x < 2 ^ 64 ->
  x = (x / 2 ^ 48) mod 2 ^ 16 * 2 ^ 48 + (x / 2 ^ 32) mod 2 ^ 16 * 2 ^ 32
      + (x / 2 ^ 16) mod 2 ^ 16 * 2 ^ 16 + x mod 2 ^ 16.
Proof.
  intros Hx.
  assert (E2 : x / 2 ^ 32 = x / 2 ^ 16 / 2 ^ 16) by (rewrite N.div_div by discriminate; reflexivity).
  assert (E3 : x / 2 ^ 48 = x / 2 ^ 32 / 2 ^ 16) by (rewrite N.div_div by discriminate; reflexivity).
  pose proof (N.div_mod x (2 ^ 16) ltac:(discriminate)) as D1.
  pose proof (N.div_mod (x / 2 ^ 16) (2 ^ 16) ltac:(discriminate)) as D2.
  pose proof (N.div_mod (x / 2 ^ 32) (2 ^ 16) ltac:(discriminate)) as D3.
  rewrite <- E2 in D2. rewrite <- E3 in D3.
  assert (H3 : x / 2 ^ 48 < 2 ^ 16) by (apply N.div_lt_upper_bound; [discriminate|exact Hx]).
  rewrite (N.mod_small (x / 2 ^ 48)) by assumption.
  lia.
Qed.

Lemma split_u64_inj x y : x < 2 ^ 64 -> y < 2 ^ 64 ->
  split_u64_into_chunks x = split_u64_into_chunks y -> x = y.
Proof.
  unfold split_u64_into_chunks. intros Hx Hy H.
  rewrite (split_u64_recompose x Hx), (split_u64_recompose y Hy).
  pose proof (f_equal (fun l => nth 0 l 0) H) as H3. pose proof (f_equal (fun l => nth 1 l 0) H) as H2.
  pose proof (f_equal (fun l => nth 2 l 0) H) as H1. pose proof (f_equal (fun l => nth 3 l 0) H) as H0.
  cbn [nth] in H3, H2, H1, H0. rewrite H3, H2, H1, H0. reflexivity.
Qed.

Lemma firstn_map_app {A B} (f : A -> B) s1 s2 q : map f s2 = map f s1 ++ q ->
  map f (firstn (length s1) s2) = map f s1.
Proof.
  intros H. rewrite <- firstn_map, H. rewrite <- (map_length f s1). rewrite firstn_app, Nat.sub_diag.
  rewrite firstn_all. cbn [firstn]. apply app_nil_r.
Qed.

(** paths_prefix_free: no derivation path is a proper prefix of another one (no derived key is
    an ancestor of another derived key in the SLIP-10 tree). *)
Theorem paths_prefix_free_lemma n1 k1 n2 k2 p1 p2 q : wf_kind k1 -> wf_kind k2 ->
  path_of n1 k1 = Some p1 -> path_of n2 k2 = Some p2 -> p2 = p1 ++ q -> n1 = n2 /\ k1 = k2 /\ q = [].
Proof.
  intros W1 W2 P1 P2 Hq.
  pose proof P1 as P1'. pose proof P2 as P2'.
  apply path_of_spec in P1; [|assumption]. apply path_of_spec in P2; [|assumption].
  assert (Hpre : firstn (length (spec_path n1 k1)) (spec_path n2 k2) = spec_path n1 k1).
  { apply (TranscriptProofs.map_inj (fun i => i + H31)); [intros x y E; lia|].
    apply (firstn_map_app _ _ _ q). rewrite <- P1, <- P2. assumption. }
  assert (Hsame : n1 = n2 /\ k1 = k2).
  { destruct k1, k2; cbn [spec_path] in Hpre;
      try (solve [unfold split_u64_into_chunks in Hpre; cbn [app length firstn] in Hpre;
                  first [discriminate
                        | injection Hpre; intros; subst; split; [apply net_code_inj; congruence|reflexivity]]]).
    cbn [wf_kind] in W1, W2. destruct W1 as (Hx1 & Hs1 & _). destruct W2 as (Hx2 & Hs2 & _).
    match type of Hpre with firstn ?n _ = _ => change n with 13%nat in Hpre end.
    rewrite firstn_all2 in Hpre by (unfold split_u64_into_chunks; cbn [app length]; lia).
    pose proof (f_equal (fun l => nth 1 l 0) Hpre) as Hn. cbn [nth app] in Hn.
    pose proof (f_equal (skipn 3) Hpre) as Hrest. cbn [skipn app] in Hrest.
    apply TranscriptProofs.app_eq_len in Hrest; [|reflexivity]. destruct Hrest as [Hix Hrest].
    apply TranscriptProofs.app_eq_len in Hrest; [|reflexivity]. destruct Hrest as [Hsx Hrest].
    pose proof (f_equal (fun l => nth 0 l 0) Hrest) as Hvc. cbn [nth] in Hvc.
    split; [apply net_code_inj; symmetry; assumption|].
    f_equal; [apply split_u64_inj; try assumption; symmetry; assumption
             |apply split_u64_inj; try assumption; symmetry; assumption|symmetry; assumption]. }
  destruct Hsame as [-> ->]. split; [reflexivity|split; [reflexivity|]].
  rewrite P1' in P2'. injection P2' as <-.
  rewrite <- (app_nil_r p1) in Hq at 1. apply app_inv_head in Hq. symmetry. assumption.
Qed.

(** paths_injective: distinct (network, key kind, indices) give distinct index lists *)
Theorem paths_injective_lemma n1 k1 n2 k2 p : wf_kind k1 -> wf_kind k2 ->
  path_of n1 k1 = Some p -> path_of n2 k2 = Some p -> n1 = n2 /\ k1 = k2.
Proof.
  intros W1 W2 P1 P2.
  destruct (paths_prefix_free_lemma n1 k1 n2 k2 p p [] W1 W2 P1 P2 (eq_sym (app_nil_r p))) as (Hn & Hk & _).
  split; assumption.
Qed.

(** * [CredentialContext]: the wrappers derive along the paths of the direct getters for the same
    (identity provider, identity, credential, tag); swapping two different indices changes the path. *)
Theorem context_paths_agree_lemma (c : credential_context) (tag : N) :
  ctx_attribute_randomness_path c tag
  = path_of (ctx_net c) (AttributeCommitmentRandomness (ctx_ip c) (ctx_id c) (ctx_cred c) tag)
  /\ ctx_cred_id_prf_path c = path_of (ctx_net c) (PrfKey (ctx_ip c) (ctx_id c)).
Proof. split; reflexivity. Qed.

Theorem context_paths_order_sensitive_lemma n ip id cred tag p :
  u32 ip -> u32 id -> u32 cred -> tag < 256 ->
  path_of n (AttributeCommitmentRandomness ip id cred tag) = Some p ->
  path_of n (AttributeCommitmentRandomness id ip cred tag) = Some p -> ip = id.
Proof.
  intros Hip Hid Hc Ht P1 P2.
  assert (W1 : wf_kind (AttributeCommitmentRandomness ip id cred tag)) by (cbn [wf_kind]; tauto).
  assert (W2 : wf_kind (AttributeCommitmentRandomness id ip cred tag)) by (cbn [wf_kind]; tauto).
  destruct (paths_injective_lemma n _ n _ p W1 W2 P1 P2) as [_ E].
  injection E. intros. assumption.
Qed.
