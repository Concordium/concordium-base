(** C07 - the one-row sigma protocol for an ABSTRACT homomorphism [phi : W -> M] (any response
    type [W] with a subtraction and a scaling that [phi] respects).  Special soundness and response
    injectivity; the rows of com_eq_sig / ps_sig_known / vcom_eq are instances ([ped_row_*]: the
    Pedersen-commitment row [c*C + (zm*g + zr*h)] as coded IS [c*y + phi z]). *)
From Coq Require Import List.
From CB Require Import Crypto.Alg Crypto.SigmaGeneric.
Import ListNotations.

Section Hom.
  Context {K : FieldOps} {KL : FieldLaws K} {M : ModOps K} {ML : ModLaws M}.
  Add Field Kf_hom : (@F_th K KL).
  Local Open Scope G_scope.
  Variable W : Type.
  Variables (wsub : W -> W -> W) (wscale : K -> W -> W) (phi : W -> M).
  Hypothesis phi_linear : forall d z z', phi (wscale d (wsub z z')) = d *: (phi z - phi z').

  Theorem hom_special_sound_ : forall (y : M) (c c' : K) (z z' : W), c <> c' ->
    c *: y + phi z = c' *: y + phi z' -> phi (wscale (Finv K (Fsub K c' c)) (wsub z z')) = y.
  Proof. intros y c c' z z' Hc E. rewrite phi_linear. symmetry. now apply ss_row_l. Qed.
  Theorem hom_response_injective_ : forall (y : M) (c : K) (z z' : W),
    (forall u v, phi u = phi v -> u = v) -> c *: y + phi z = c *: y + phi z' -> z = z'.
  Proof. intros y c z z' Hinj E. apply Hinj. eapply Gadd_cancel_l; eauto. Qed.
End Hom.

(** the Pedersen row: [W = K * K], [phi (x, y) = x*g + y*h] *)
Section PedRow.
  Context {K : FieldOps} {KL : FieldLaws K} {M : ModOps K} {ML : ModLaws M}.
  Add Field Kf_ped : (@F_th K KL).
  Local Open Scope G_scope.
  Variables g h : M.
  Definition ped_phi (z : K * K) : M := fst z *: g + snd z *: h.
  Definition ped_sub (z z' : K * K) : K * K := (Fsub K (fst z) (fst z'), Fsub K (snd z) (snd z')).
  Definition ped_scale (d : K) (z : K * K) : K * K := (Fmul K d (fst z), Fmul K d (snd z)).
  Lemma ped_phi_linear : forall d z z', ped_phi (ped_scale d (ped_sub z z')) = d *: (ped_phi z - ped_phi z').
  Proof. intros d [x y] [x' y']. unfold ped_phi, ped_scale, ped_sub. cbn [fst snd]. mod_norm. Qed.
  (** two accepting rows as coded in com_eq_sig.rs / ps_sig_known.rs / vcom_eq.rs give the opening *)
  Theorem ped_row_special_sound_ : forall (C : M) (c c' : K) (z z' : K * K), c <> c' ->
    c *: C + (fst z *: g + snd z *: h) = c' *: C + (fst z' *: g + snd z' *: h) ->
    C = ped_phi (ped_scale (Finv K (Fsub K c' c)) (ped_sub z z')).
  Proof.
    intros C c c' z z' Hc E. symmetry.
    exact (hom_special_sound_ (K * K) ped_sub ped_scale ped_phi ped_phi_linear C c c' z z' Hc E).
  Qed.
End PedRow.
