(** C06 - proofs about [Chain/Digest.v]: the signed byte string determines header and payload; a
    verification that survives a change of header or payload exhibits a hash collision or a
    signature valid on two different digests. *)
From Coq Require Import NArith Arith List Lia.
From CB Require Import Chain.Auth Chain.AuthProofs Chain.Digest.
Local Open Scope N_scope.

Lemma be_bytes_length : forall n x, length (be_bytes n x) = n.
Proof.
  induction n as [|n IH]; intros x; cbn [be_bytes]; [reflexivity|].
  rewrite app_length, IH. cbn [length]. lia.
Qed.

Lemma be_bytes_inj : forall n x y, x < 256 ^ N.of_nat n -> y < 256 ^ N.of_nat n ->
  be_bytes n x = be_bytes n y -> x = y.
Proof.
  induction n as [|n IH]; intros x y Hx Hy H.
  - cbn in Hx, Hy. lia.
  - cbn [be_bytes] in H. apply app_inj_tail in H as [H1 H2].
    replace (N.of_nat (S n)) with (N.succ (N.of_nat n)) in Hx, Hy by lia.
    rewrite N.pow_succ_r' in Hx, Hy.
    assert (x / 256 = y / 256).
    { apply IH; [apply N.div_lt_upper_bound; lia|apply N.div_lt_upper_bound; lia|exact H1]. }
    rewrite (N.div_mod x 256), (N.div_mod y 256) by lia. congruence.
Qed.

Lemma be_bytes_bytes : forall n x b, In b (be_bytes n x) -> b < 256.
Proof.
  induction n as [|n IH]; intros x b H; cbn [be_bytes] in H; [destruct H|].
  apply in_app_or in H as [H|[<-|[]]]; [eauto|apply N.mod_lt; lia].
Qed.

Lemma app_eq_len : forall {A} (a1 a2 b1 b2 : list A), length a1 = length a2 ->
  a1 ++ b1 = a2 ++ b2 -> a1 = a2 /\ b1 = b2.
Proof.
  intros A. induction a1 as [|x a1 IH]; intros [|y a2] b1 b2 Hl H; cbn in Hl; try discriminate.
  - auto.
  - cbn in H. inversion H; subst. destruct (IH a2 b1 b2) as [-> ->]; [lia|assumption|auto].
Qed.

Definition pfree {T} (wf : T -> Prop) (enc : T -> list N) : Prop :=
  forall h1 h2 r1 r2, wf h1 -> wf h2 -> enc h1 ++ r1 = enc h2 ++ r2 -> h1 = h2 /\ r1 = r2.

Lemma pfree_be : forall n, pfree (fun x => x < 256 ^ N.of_nat n) (be_bytes n).
Proof.
  intros n x y r1 r2 Hx Hy H. apply app_eq_len in H as [E ->]; [|rewrite !be_bytes_length; reflexivity].
  split; [exact (be_bytes_inj n x y Hx Hy E)|reflexivity].
Qed.

Lemma pfree_len : forall n, pfree (fun s : list N => length s = n) (fun s => s).
Proof. intros n s1 s2 r1 r2 H1 H2 H. apply app_eq_len in H; [exact H|congruence]. Qed.

Lemma pfree_pair : forall {A B} {wa : A -> Prop} {ea} {wb : B -> Prop} {eb}, pfree wa ea -> pfree wb eb ->
  pfree (fun p => wa (fst p) /\ wb (snd p)) (fun p => ea (fst p) ++ eb (snd p)).
Proof.
  intros A B wa ea wb eb Ha Hb [a1 b1] [a2 b2] r1 r2 [Wa1 Wb1] [Wa2 Wb2] H. cbn [fst snd] in *.
  rewrite <- !app_assoc in H. apply Ha in H as [-> H]; [|assumption|assumption].
  apply Hb in H as [-> ->]; [|assumption|assumption]. split; reflexivity.
Qed.

Lemma pfree_map : forall {S T} (g : S -> T) {wf : T -> Prop} {enc}, pfree wf enc ->
  (forall x y, g x = g y -> x = y) -> pfree (fun x => wf (g x)) (fun x => enc (g x)).
Proof.
  intros S T g wf enc Hp Hg x y r1 r2 Wx Wy H. apply Hp in H as [E ->]; [|assumption|assumption].
  split; [exact (Hg x y E)|reflexivity].
Qed.

Lemma enc_header_length : forall h, header_wf h -> length (enc_header h) = 60%nat.
Proof.
  intros h [Hs _]. unfold enc_header. rewrite !app_length, !be_bytes_length, Hs. reflexivity.
Qed.

Lemma enc_header_pfree : pfree header_wf enc_header.
Proof.
  refine (pfree_map (fun h => (h_sender h, (h_nonce h, (h_energy h, (h_payload_size h, h_expiry h)))))
            (pfree_pair (pfree_len 32) (pfree_pair (pfree_be 8) (pfree_pair (pfree_be 8)
              (pfree_pair (pfree_be 4) (pfree_be 8))))) _).
  intros [] [] E. injection E as -> -> -> -> ->. reflexivity.
Qed.

Lemma enc_header_v1_pfree : pfree header_v1_wf enc_header_v1.
Proof.
  intros [b1 s1] [b2 s2] r1 r2 [W1 S1] [W2 S2] H. cbn [h1_base h1_sponsor] in *.
  unfold enc_header_v1 in H. cbn [h1_base h1_sponsor] in H. rewrite <- !app_assoc in H.
  apply app_eq_len in H as [E0 H]; [|rewrite !be_bytes_length; reflexivity].
  apply enc_header_pfree in H as [-> H]; [|assumption|assumption].
  destruct s1 as [s1|], s2 as [s2|]; try (apply be_bytes_inj in E0; [discriminate|cbn; lia|cbn; lia]).
  - apply app_eq_len in H as [-> ->]; [auto|congruence].
  - cbn [app] in H. subst. auto.
Qed.

Lemma enc_update_header_pfree : pfree update_header_wf enc_update_header.
Proof.
  refine (pfree_map (fun h => (uh_seq h, (uh_effective h, (uh_timeout h, uh_payload_size h))))
            (pfree_pair (pfree_be 8) (pfree_pair (pfree_be 8) (pfree_pair (pfree_be 8) (pfree_be 4)))) _).
  intros [] [] E. injection E as -> -> -> ->. reflexivity.
Qed.

Section Binding.
  Variables HASH HDR : Type.
  Variable H : list N -> HASH.
  Variable hash_eq_dec : forall x y : HASH, {x = y} + {x <> y}.
  Variable wf : HDR -> Prop.
  Variable enc : HDR -> list N.
  Variable tag : list N.
  Hypothesis enc_pfree : pfree wf enc.

  Definition preimage (h : HDR) (p : list N) : list N := tag ++ enc h ++ p.
  Definition digest (h : HDR) (p : list N) : HASH := H (preimage h p).

  Lemma preimage_injective : forall h1 p1 h2 p2, wf h1 -> wf h2 ->
    preimage h1 p1 = preimage h2 p2 -> h1 = h2 /\ p1 = p2.
  Proof.
    intros h1 p1 h2 p2 W1 W2 E. unfold preimage in E. apply app_inv_head in E.
    apply enc_pfree in E; assumption.
  Qed.

  Lemma distinct_inputs_distinct_preimages : forall h1 p1 h2 p2, wf h1 -> wf h2 ->
    (h1, p1) <> (h2, p2) -> preimage h1 p1 <> preimage h2 p2.
  Proof.
    intros h1 p1 h2 p2 W1 W2 Hne E. apply preimage_injective in E as [-> ->]; [|assumption|assumption].
    apply Hne; reflexivity.
  Qed.

  Variables PK SIG : Type.
  Variable sig_valid : PK -> HASH -> SIG -> bool.

  (** thresholds are non-zero ([NonZeroThresholdU8]) *)
  Definition thresholds_positive (a : access PK) : Prop :=
    1 <= as_threshold a /\ forall ci ck, lookup ci (as_creds a) = Some ck -> 1 <= ck_threshold ck.

  Definition collision (h1 : HDR) (p1 : list N) (h2 : HDR) (p2 : list N) : Prop :=
    preimage h1 p1 <> preimage h2 p2 /\ H (preimage h1 p1) = H (preimage h2 p2).
  Definition signature_valid_on_two_digests (a : access PK) (sm : sig_map SIG) (d1 d2 : HASH) : Prop :=
    d1 <> d2 /\ exists ci cs ck ki s pk,
      In (ci, cs) sm /\ In (ki, s) cs /\ lookup ci (as_creds a) = Some ck /\ lookup ki (ck_keys ck) = Some pk /\
      sig_valid pk d1 s = true /\ sig_valid pk d2 s = true.

  Lemma len_pos_In : forall {A} (l : list A), 1 <= len l -> exists x, In x l.
  Proof. intros A [|x l] Hl; [unfold len in Hl; cbn in Hl; lia|exists x; left; reflexivity]. Qed.

  Lemma tamper_needs_collision_or_forgery : forall a sm h1 p1 h2 p2,
    wf h1 -> wf h2 -> thresholds_positive a -> (h1, p1) <> (h2, p2) ->
    verify_data_signature sig_valid a (digest h1 p1) sm = true ->
    verify_data_signature sig_valid a (digest h2 p2) sm = true ->
    collision h1 p1 h2 p2 \/ signature_valid_on_two_digests a sm (digest h1 p1) (digest h2 p2).
  Proof.
    intros a sm h1 p1 h2 p2 W1 W2 [Ta Tc] Hne V1 V2.
    destruct (hash_eq_dec (digest h1 p1) (digest h2 p2)) as [E|NE].
    - left. split; [apply distinct_inputs_distinct_preimages; assumption|exact E].
    - right. split; [exact NE|].
      apply verify_iff_policy_l in V1 as [L1 P1]. apply verify_iff_policy_l in V2 as [_ P2].
      destruct (len_pos_In sm) as [[ci cs] Hin]; [lia|].
      destruct (P1 ci cs Hin) as [ck [Hl [Ht K1]]]. destruct (P2 ci cs Hin) as [ck' [Hl' [_ K2]]].
      assert (ck' = ck) by congruence. subst ck'.
      specialize (Tc ci ck Hl). destruct (len_pos_In cs) as [[ki s] Hk]; [lia|].
      destruct (K1 ki s Hk) as [pk [Hp Hv1]]. destruct (K2 ki s Hk) as [pk' [Hp' Hv2]].
      assert (pk' = pk) by congruence. subst pk'.
      exists ci, cs, ck, ki, s, pk. repeat split; assumption.
  Qed.
End Binding.

(** the two transaction versions sign disjoint byte strings unless the sender address is the
    32-byte string 0..01 (which is the v1 domain-separation prefix) *)
Lemma cross_version_disjoint : forall h p h' p', header_wf h -> h_sender h <> prefix_v1 ->
  preimage_v0 h p <> preimage_v1 h' p'.
Proof.
  intros h p h' p' [Hs _] Hne E. unfold preimage_v0, preimage_v1, enc_header in E.
  rewrite <- !app_assoc in E. apply app_eq_len in E as [E _]; [contradiction|].
  rewrite Hs. reflexivity.
Qed.

Lemma construct_header_size : forall sender nonce expiry payload energy,
  h_payload_size (construct_header sender nonce expiry payload energy) = len payload.
Proof. reflexivity. Qed.

Lemma split_body_constructed : forall sender nonce expiry payload energy rest,
  split_body (construct_header sender nonce expiry payload energy) (payload ++ rest) = (payload, rest).
Proof.
  intros. unfold split_body, construct_header. cbn [h_payload_size]. unfold len. rewrite Nat2N.id.
  rewrite firstn_app, Nat.sub_diag, firstn_all, skipn_app, Nat.sub_diag, skipn_all. cbn [firstn skipn].
  rewrite app_nil_r. reflexivity.
Qed.

Lemma body_after_header : forall h payload rest, header_wf h ->
  skipn 60 (enc_header h ++ payload ++ rest) = payload ++ rest.
Proof.
  intros h payload rest W. rewrite <- (enc_header_length h W), skipn_app, skipn_all, Nat.sub_diag. reflexivity.
Qed.
