(** C06 - proofs about the authorisation model [Chain/Auth.v]. *)
From Coq Require Import NArith List Bool Lia.
From CB Require Import Chain.Auth.
Local Open Scope N_scope.

Lemma lookup_In : forall {V} k (m : amap V) v, lookup k m = Some v -> In (k, v) m.
Proof.
  induction m as [|[k' v'] m IH]; cbn [lookup]; intros v H; [discriminate|].
  destruct (N.eqb_spec k k') as [->|Hne].
  - inversion H; subst; left; reflexivity.
  - right; auto.
Qed.

Lemma increasing_from_lb : forall ks lo k, increasing_from (Some lo) ks = true -> In k ks -> lo < k.
Proof.
  induction ks as [|k0 ks IH]; intros lo k H Hin; [destruct Hin|].
  cbn [increasing_from] in H. apply andb_true_iff in H as [H1 H2].
  apply N.ltb_lt in H1. destruct Hin as [->|Hin]; [assumption|].
  specialize (IH k0 k H2 Hin). lia.
Qed.

Lemma increasing_from_weaken : forall ks lo, increasing_from (Some lo) ks = true -> increasing_from None ks = true.
Proof.
  destruct ks as [|k ks]; intros lo H; [reflexivity|].
  cbn [increasing_from] in *. apply andb_true_iff in H as [_ H]. exact H.
Qed.

Lemma wf_map_cons : forall {V} k (v : V) m, wf_map ((k, v) :: m) = true ->
  wf_map m = true /\ forall k', In k' (keys_of m) -> k < k'.
Proof.
  intros V k v m H. unfold wf_map, keys_of in *. cbn [map fst increasing_from andb] in H. split.
  - eapply increasing_from_weaken; exact H.
  - intros k'. apply increasing_from_lb. exact H.
Qed.

Lemma wf_map_In_lookup : forall {V} (m : amap V) k v, wf_map m = true -> In (k, v) m -> lookup k m = Some v.
Proof.
  induction m as [|[k' v'] m IH]; intros k v Hwf Hin; [destruct Hin|].
  apply wf_map_cons in Hwf as [Hm Hlt]. cbn [lookup]. destruct Hin as [Heq|Hin].
  - inversion Heq; subst. rewrite N.eqb_refl. reflexivity.
  - destruct (N.eqb_spec k k') as [->|Hne]; [|exact (IH k v Hm Hin)].
    specialize (Hlt k' (in_map fst m (k', v) Hin)). lia.
Qed.

Lemma wf_map_NoDup : forall {V} (m : amap V), wf_map m = true -> NoDup (keys_of m).
Proof.
  induction m as [|[k v] m IH]; intros H; [constructor|].
  apply wf_map_cons in H as [Hm Hlt]. cbn [keys_of map fst]. constructor; [|exact (IH Hm)].
  intros Hin. specialize (Hlt k Hin). lia.
Qed.

Lemma len_cons : forall {A} (x : A) l, len (x :: l) = len l + 1.
Proof. intros. unfold len. cbn [length]. lia. Qed.

Lemma len_map : forall {A B} (f : A -> B) l, len (map f l) = len l.
Proof. intros. unfold len. rewrite map_length. reflexivity. Qed.

Lemma In_map_snd : forall {V W} (f : V -> W) k w (m : amap V),
  In (k, w) (map (fun p => (fst p, f (snd p))) m) -> exists v, w = f v /\ In (k, v) m.
Proof.
  intros V W f k w m H. apply in_map_iff in H as [[k' v] [E H]]. injection E as <- <-.
  exists v. split; [reflexivity|exact H].
Qed.

Lemma lookup_map_snd : forall {V W} (f : V -> W) k (m : amap V),
  lookup k (map (fun p => (fst p, f (snd p))) m) = option_map f (lookup k m).
Proof.
  intros V W f k. induction m as [|[k' v] m IH]; [reflexivity|].
  cbn [map lookup fst snd]. destruct (N.eqb k k'); [reflexivity|exact IH].
Qed.

Lemma threshold_guard_iff : forall n t b, (if n <? t then false else b) = true <-> t <= n /\ b = true.
Proof.
  intros n t b. destruct (N.ltb_spec n t) as [Hlt|Hge]; [|tauto].
  split; [discriminate|]. intros [H _]. lia.
Qed.

Lemma forallb_amap : forall {V} (f : N * V -> bool) (P : N -> V -> Prop) (m : amap V),
  (forall k v, f (k, v) = true <-> P k v) ->
  (forallb f m = true <-> forall k v, In (k, v) m -> P k v).
Proof.
  intros V f P m Hf. rewrite forallb_forall. split.
  - intros H k v Hin. apply Hf, (H _ Hin).
  - intros H [k v] Hin. apply Hf, H, Hin.
Qed.

Lemma option_check_iff : forall {A} (o : option A) (f : A -> bool) (P : A -> Prop),
  (forall x, f x = true <-> P x) ->
  (match o with Some x => f x | None => false end = true <-> exists x, o = Some x /\ P x).
Proof.
  intros A [x|] f P Hf; split.
  - intros H. exists x. split; [reflexivity|apply Hf, H].
  - intros [y [E H]]. injection E as <-. apply Hf, H.
  - discriminate.
  - intros [y [E _]]. discriminate.
Qed.

Section Proofs.
  Variables PK SIG DATA : Type.
  Variable sig_valid : PK -> DATA -> SIG -> bool.

  Notation cred_keys := (cred_keys PK).
  Notation access := (access PK).
  Notation verify_keys := (verify_keys sig_valid).
  Notation verify_creds := (verify_creds sig_valid).
  Notation verify := (verify_data_signature sig_valid).

  (** every supplied signature belongs to a registered key and is valid *)
  Definition keys_policy (ck : cred_keys) (d : DATA) (cs : cred_sigs SIG) : Prop :=
    forall ki s, In (ki, s) cs -> exists pk, lookup ki (ck_keys ck) = Some pk /\ sig_valid pk d s = true.

  (** every supplied credential is registered, meets its threshold, and satisfies [keys_policy] *)
  Definition creds_policy (a : access) (d : DATA) (sm : sig_map SIG) : Prop :=
    forall ci cs, In (ci, cs) sm ->
      exists ck, lookup ci (as_creds a) = Some ck /\ ck_threshold ck <= len cs /\ keys_policy ck d cs.

  Definition policy (a : access) (d : DATA) (sm : sig_map SIG) : Prop :=
    as_threshold a <= len sm /\ creds_policy a d sm.

  Lemma verify_keys_forallb : forall ck d cs,
    verify_keys ck d cs
    = forallb (fun '(ki, s) => match lookup ki (ck_keys ck) with Some pk => sig_valid pk d s | None => false end) cs.
  Proof.
    intros ck d. induction cs as [|[ki s] cs IH]; cbn [Auth.verify_keys forallb]; [reflexivity|].
    rewrite <- IH. destruct (lookup ki (ck_keys ck)) as [pk|]; [destruct (sig_valid pk d s)|]; reflexivity.
  Qed.

  Lemma verify_keys_iff : forall ck d cs, verify_keys ck d cs = true <-> keys_policy ck d cs.
  Proof.
    intros ck d cs. rewrite verify_keys_forallb. apply forallb_amap. intros ki s.
    apply option_check_iff. reflexivity.
  Qed.

  Lemma verify_creds_forallb : forall a d sm,
    verify_creds a d sm
    = forallb (fun '(ci, cs) => match lookup ci (as_creds a) with
                                | Some ck => if len cs <? ck_threshold ck then false else verify_keys ck d cs
                                | None => false
                                end) sm.
  Proof.
    intros a d. induction sm as [|[ci cs] sm IH]; cbn [Auth.verify_creds forallb]; [reflexivity|].
    rewrite <- IH. destruct (lookup ci (as_creds a)) as [ck|]; [|reflexivity].
    destruct (len cs <? ck_threshold ck); [|destruct (verify_keys ck d cs)]; reflexivity.
  Qed.

  Lemma verify_creds_iff : forall a d sm, verify_creds a d sm = true <-> creds_policy a d sm.
  Proof.
    intros a d sm. rewrite verify_creds_forallb. apply forallb_amap. intros ci cs.
    apply option_check_iff. intros ck.
    rewrite threshold_guard_iff, verify_keys_iff. reflexivity.
  Qed.

  Lemma verify_iff_policy_l : forall a d sm, verify a d sm = true <-> policy a d sm.
  Proof.
    intros a d sm. unfold Auth.verify_data_signature, policy.
    rewrite threshold_guard_iff, verify_creds_iff. reflexivity.
  Qed.

  (** The same policy in "map" vocabulary for well-formed (BTreeMap) signature maps. *)
  Definition policy_map (a : access) (d : DATA) (sm : sig_map SIG) : Prop :=
    as_threshold a <= len sm /\
    forall ci cs, lookup ci sm = Some cs ->
      exists ck, lookup ci (as_creds a) = Some ck /\ ck_threshold ck <= len cs /\
        forall ki s, lookup ki cs = Some s -> exists pk, lookup ki (ck_keys ck) = Some pk /\ sig_valid pk d s = true.

  Lemma verify_iff_policy_map_l : forall a d sm,
    wf_map sm = true -> (forall ci cs, In (ci, cs) sm -> wf_map cs = true) ->
    (verify a d sm = true <-> policy_map a d sm).
  Proof.
    intros a d sm Hwf Hwfi. rewrite verify_iff_policy_l. unfold policy, policy_map, creds_policy, keys_policy.
    split; intros [Ht H]; split; try assumption.
    - intros ci cs Hl. apply lookup_In in Hl. destruct (H ci cs Hl) as [ck [H1 [H2 H3]]].
      exists ck. repeat split; try assumption. intros ki s Hk. apply H3. apply lookup_In; exact Hk.
    - intros ci cs Hin. destruct (H ci cs (wf_map_In_lookup _ _ _ Hwf Hin)) as [ck [H1 [H2 H3]]].
      exists ck. repeat split; try assumption. intros ki s Hk. apply H3.
      apply wf_map_In_lookup; [eapply Hwfi; exact Hin|exact Hk].
  Qed.

  Lemma verify_false : forall a d sm, ~ policy a d sm -> verify a d sm = false.
  Proof. intros a d sm H. apply not_true_iff_false. rewrite verify_iff_policy_l. exact H. Qed.

  Lemma policy_cred : forall a d sm ci cs ck, policy a d sm -> In (ci, cs) sm ->
    lookup ci (as_creds a) = Some ck -> ck_threshold ck <= len cs /\ keys_policy ck d cs.
  Proof.
    intros a d sm ci cs ck [_ E] Hin Hl. destruct (E ci cs Hin) as [ck' [H R]].
    assert (ck' = ck) by congruence. subst. exact R.
  Qed.

  Lemma too_few_credentials_rejects_l : forall a d sm, len sm < as_threshold a -> verify a d sm = false.
  Proof.
    intros a d sm H. apply verify_false. intros [E _]. lia.
  Qed.

  Lemma extra_unknown_credential_rejects_l : forall a d sm ci cs,
    In (ci, cs) sm -> lookup ci (as_creds a) = None -> verify a d sm = false.
  Proof.
    intros a d sm ci cs Hin Hl. apply verify_false. intros [_ E].
    destruct (E ci cs Hin) as [ck [H _]]. congruence.
  Qed.

  Lemma too_few_signatures_rejects_l : forall a d sm ci cs ck,
    In (ci, cs) sm -> lookup ci (as_creds a) = Some ck -> len cs < ck_threshold ck -> verify a d sm = false.
  Proof.
    intros a d sm ci cs ck Hin Hl Hlt. apply verify_false. intros P.
    destruct (policy_cred _ _ _ _ _ _ P Hin Hl) as [H _]. lia.
  Qed.

  Lemma unknown_key_index_rejects_l : forall a d sm ci cs ck ki s,
    In (ci, cs) sm -> lookup ci (as_creds a) = Some ck -> In (ki, s) cs -> lookup ki (ck_keys ck) = None ->
    verify a d sm = false.
  Proof.
    intros a d sm ci cs ck ki s Hin Hl Hk Hn. apply verify_false. intros P.
    destruct (policy_cred _ _ _ _ _ _ P Hin Hl) as [_ K]. destruct (K ki s Hk) as [pk [Hp _]]. congruence.
  Qed.

  Lemma one_invalid_signature_rejects_l : forall a d sm ci cs ck ki s pk,
    In (ci, cs) sm -> lookup ci (as_creds a) = Some ck -> In (ki, s) cs -> lookup ki (ck_keys ck) = Some pk ->
    sig_valid pk d s = false -> verify a d sm = false.
  Proof.
    intros a d sm ci cs ck ki s pk Hin Hl Hk Hp Hv. apply verify_false. intros P.
    destruct (policy_cred _ _ _ _ _ _ P Hin Hl) as [_ K]. destruct (K ki s Hk) as [pk' [Hp' Hv']]. congruence.
  Qed.

  Lemma verify_v1_iff_l : forall sender sponsor d ssig psig,
    verify_v1 sig_valid sender sponsor d ssig psig = true <->
    policy sender d ssig /\ (forall sg, psig = Some sg -> policy sponsor d sg).
  Proof.
    intros. unfold verify_v1. rewrite andb_true_iff, verify_iff_policy_l.
    destruct psig as [sg|].
    - rewrite verify_iff_policy_l. split; intros [H1 H2]; split; auto.
      intros sg' Heq; inversion Heq; subst; exact H2.
    - split; [intros [H1 _]; split; [exact H1|discriminate]|intros [H1 _]; auto].
  Qed.

  Variable SK : Type.
  Variable pub : SK -> PK.
  Variable sign : SK -> DATA -> SIG.
  Hypothesis sign_correct : forall sk d, sig_valid (pub sk) d (sign sk d) = true.

  (** a set of signing keys that meets the thresholds of [a] *)
  Definition signer_sufficient (a : access) (ks : amap (amap SK)) : Prop :=
    as_threshold a <= len ks /\
    forall ci kk, In (ci, kk) ks ->
      exists ck, lookup ci (as_creds a) = Some ck /\ ck_threshold ck <= len kk /\
        forall ki sk, In (ki, sk) kk -> lookup ki (ck_keys ck) = Some (pub sk).

  Lemma sign_cred_valid : forall kk d ki s, In (ki, s) (sign_cred sign kk d) ->
    exists sk, In (ki, sk) kk /\ sig_valid (pub sk) d s = true.
  Proof.
    intros kk d ki s H. apply (In_map_snd (fun sk => sign sk d)) in H as [sk [-> H]].
    exists sk. split; [exact H|apply sign_correct].
  Qed.

  Lemma sign_sufficient_verifies_l : forall a ks d,
    signer_sufficient a ks -> verify a d (sign_map sign ks d) = true.
  Proof.
    intros a ks d [Ht H]. apply verify_iff_policy_l. split.
    - unfold sign_map. rewrite len_map. exact Ht.
    - intros ci cs Hin. apply (In_map_snd (fun kk => sign_cred sign kk d)) in Hin as [kk [-> Hin]].
      destruct (H ci kk Hin) as [ck [H1 [H2 H3]]]. exists ck. split; [exact H1|]. split.
      + unfold sign_cred. rewrite len_map. exact H2.
      + intros ki s Hk. apply sign_cred_valid in Hk as [sk [Hk Hv]]. exists (pub sk). eauto.
  Qed.

  (** The [AccountKeys] signer signs with the first [threshold] credentials and keys; it verifies
      against the access structure derived from the same keys whenever the thresholds are attainable. *)
  Definition account_keys_wf (ak : account_keys SK) : Prop :=
    wf_map (ak_keys ak) = true /\ ak_threshold ak <= len (ak_keys ak) /\
    forall ci cd, In (ci, cd) (ak_keys ak) -> wf_map (cd_keys cd) = true /\ cd_threshold cd <= len (cd_keys cd).

  Lemma len_firstn : forall {A} (l : list A) n, n <= len l -> len (firstn (N.to_nat n) l) = n.
  Proof. intros A l n H. unfold len in *. rewrite firstn_length. lia. Qed.

  Lemma In_firstn : forall {A} n (l : list A) x, In x (firstn n l) -> In x l.
  Proof. intros A n l x H. rewrite <- (firstn_skipn n l). apply in_or_app. left. exact H. Qed.

  Lemma account_keys_sign_map : forall ak d,
    account_keys_sign sign ak d
    = sign_map sign (map (fun p => (fst p, firstn (N.to_nat (cd_threshold (snd p))) (cd_keys (snd p))))
                         (firstn (N.to_nat (ak_threshold ak)) (ak_keys ak))) d.
  Proof. intros ak d. unfold sign_map. rewrite map_map. reflexivity. Qed.

  Lemma account_keys_sign_verifies_l : forall ak d,
    account_keys_wf ak -> verify (access_of_keys pub ak) d (account_keys_sign sign ak d) = true.
  Proof.
    intros ak d [Hwf [Ht Hc]]. rewrite account_keys_sign_map. apply sign_sufficient_verifies_l. split.
    - cbn [access_of_keys as_threshold]. rewrite len_map, len_firstn; [lia|exact Ht].
    - intros ci kk Hin.
      apply (In_map_snd (fun cd => firstn (N.to_nat (cd_threshold cd)) (cd_keys cd))) in Hin as [cd [-> Hin]].
      apply In_firstn in Hin. destruct (Hc ci cd Hin) as [Hwfc Htc].
      exists (mkCred (map (fun q => (fst q, pub (snd q))) (cd_keys cd)) (cd_threshold cd)). split; [|split].
      + cbn [access_of_keys as_creds].
        rewrite (lookup_map_snd (fun cd => mkCred (map (fun q => (fst q, pub (snd q))) (cd_keys cd)) (cd_threshold cd))).
        rewrite (wf_map_In_lookup _ _ _ Hwf Hin). reflexivity.
      + cbn [ck_threshold]. rewrite len_firstn; [lia|exact Htc].
      + intros ki sk Hk. apply In_firstn in Hk. cbn [ck_keys].
        rewrite (lookup_map_snd pub), (wf_map_In_lookup _ _ _ Hwfc Hk). reflexivity.
  Qed.

  (** [num_keys] of the [AccountKeys] signer equals the number of signatures it produces (this is the
      figure that enters the energy formula through [send::*]). *)
  Lemma account_keys_num_keys_exact : forall ak d,
    account_keys_wf ak -> num_signatures (account_keys_sign sign ak d) = account_keys_num_keys ak.
  Proof.
    intros ak d [_ [_ Hc]]. unfold num_signatures, account_keys_sign, account_keys_num_keys.
    rewrite map_map. f_equal. apply map_ext_in. intros [ci cd] Hin. cbn [snd].
    unfold sign_cred. rewrite len_map. apply len_firstn. apply In_firstn in Hin. apply (Hc ci cd Hin).
  Qed.

  Variable pk_eqb : PK -> PK -> bool.
  Hypothesis pk_eqb_spec : forall x y, pk_eqb x y = true <-> x = y.

  Definition update_policy (keys : list PK) (acc : access_structure) (d : DATA) (sigs : amap SIG) : Prop :=
    au_threshold acc <= len sigs /\
    forall ki s, In (ki, s) sigs ->
      In ki (au_keys acc) /\ exists pk, nth_error keys (N.to_nat ki) = Some pk /\ sig_valid pk d s = true.

  Lemma mem_In : forall i s, mem i s = true <-> In i s.
  Proof.
    intros i s. unfold mem. rewrite existsb_exists. split.
    - intros [x [Hin Heq]]. apply N.eqb_eq in Heq. subst. exact Hin.
    - intros H. exists i. split; [exact H|apply N.eqb_refl].
  Qed.

  Lemma update_sigs_ok_forallb : forall keys acc d sigs,
    update_sigs_ok sig_valid keys acc d sigs
    = forallb (fun '(ki, s) => mem ki (au_keys acc) &&
                               match nth_error keys (N.to_nat ki) with Some pk => sig_valid pk d s | None => false end) sigs.
  Proof.
    intros keys acc d. induction sigs as [|[ki s] sigs IH]; cbn [Auth.update_sigs_ok forallb]; [reflexivity|].
    rewrite <- IH. destruct (mem ki (au_keys acc)); [|reflexivity].
    destruct (nth_error keys (N.to_nat ki)) as [pk|]; [destruct (sig_valid pk d s)|]; reflexivity.
  Qed.

  Lemma update_sigs_ok_iff : forall keys acc d sigs,
    update_sigs_ok sig_valid keys acc d sigs = true <->
    forall ki s, In (ki, s) sigs ->
      In ki (au_keys acc) /\ exists pk, nth_error keys (N.to_nat ki) = Some pk /\ sig_valid pk d s = true.
  Proof.
    intros keys acc d sigs. rewrite update_sigs_ok_forallb. apply forallb_amap. intros ki s.
    rewrite andb_true_iff, mem_In. apply and_iff_compat_l, option_check_iff. reflexivity.
  Qed.

  Lemma update_verify_iff_policy_l : forall keys acc d sigs,
    update_verify sig_valid keys acc d sigs = true <-> update_policy keys acc d sigs.
  Proof.
    intros. unfold update_verify, update_policy.
    rewrite threshold_guard_iff, update_sigs_ok_iff. reflexivity.
  Qed.

  Lemma position_from_sound : forall keys i pk j,
    position_from pk_eqb i pk keys = Some j -> exists n, j = i + N.of_nat n /\ nth_error keys n = Some pk.
  Proof.
    induction keys as [|k keys IH]; intros i pk j H; cbn [Auth.position_from] in H; [discriminate|].
    destruct (pk_eqb k pk) eqn:E.
    - injection H as <-. apply pk_eqb_spec in E as ->. exists 0%nat. split; [lia|reflexivity].
    - apply IH in H as [n [-> H]]. exists (S n). split; [lia|exact H].
  Qed.

  Lemma position_sound : forall keys pk j, position pk_eqb pk keys = Some j -> nth_error keys (N.to_nat j) = Some pk.
  Proof.
    intros keys pk j H. apply position_from_sound in H as [n [-> H]]. rewrite N.add_0_l, Nat2N.id. exact H.
  Qed.

  Lemma insert_spec : forall {V} k (v : V) m m' b, insert k v m = (m', b) ->
    (forall k0 v0, In (k0, v0) m' -> (k0 = k /\ v0 = v) \/ In (k0, v0) m) /\
    (b = false -> len m' = len m + 1).
  Proof.
    intros V k v. induction m as [|[k' v'] m IH]; intros m' b H; cbn [insert] in H.
    - injection H as <- <-. split; [|reflexivity]. intros k0 v0 [E|[]]. injection E as <- <-. auto.
    - destruct (N.ltb k k'); [|destruct (N.eqb k k')].
      + injection H as <- <-. split; [|intros _; rewrite !len_cons; reflexivity].
        intros k0 v0 [E|Hin]; [injection E as <- <-; auto|right; exact Hin].
      + injection H as <- <-. split; [|discriminate].
        intros k0 v0 [E|Hin]; [injection E as <- <-; auto|right; right; exact Hin].
      + destruct (insert k v m) as [r b'] eqn:E. injection H as <- <-.
        destruct (IH r b' eq_refl) as [IHin IHlen]. split.
        * intros k0 v0 [Heq|Hin]; [right; left; exact Heq|].
          destruct (IHin k0 v0 Hin) as [?|?]; [left; assumption|right; right; assumption].
        * intros Hb. rewrite !len_cons, (IHlen Hb). reflexivity.
  Qed.

  Lemma find_authorized_from_sound : forall keys acc actual signer m,
    find_authorized_from pub pk_eqb keys acc actual signer = Some m ->
    len m = len signer + len actual /\
    forall ki sk, In (ki, sk) m ->
      In (ki, sk) signer \/
      (In sk actual /\ In ki (au_keys acc) /\ exists j, ki = j mod 65536 /\ nth_error keys (N.to_nat j) = Some (pub sk)).
  Proof.
    intros keys acc. induction actual as [|kp actual IH]; intros signer m H; cbn [Auth.find_authorized_from] in H.
    - inversion H; subst. split; [unfold len; cbn [length]; lia|]. intros; left; assumption.
    - destruct (position pk_eqb (pub kp) keys) as [j|] eqn:Hp; [|discriminate].
      destruct (mem (j mod 65536) (au_keys acc)) eqn:Hm; [|discriminate].
      destruct (insert (j mod 65536) kp signer) as [signer' replaced] eqn:Hi.
      destruct replaced; [discriminate|].
      apply insert_spec in Hi as [Hin' Hlen']. apply IH in H as [Hlen H]. split.
      + rewrite Hlen, (Hlen' eq_refl), len_cons. lia.
      + intros ki sk Hin. destruct (H ki sk Hin) as [Hs|[Ha Hr]].
        * destruct (Hin' ki sk Hs) as [[-> ->]|Hold]; [|left; exact Hold].
          right. split; [left; reflexivity|]. split; [apply mem_In; exact Hm|].
          exists j. split; [reflexivity|apply position_sound; exact Hp].
        * right. split; [right; exact Ha|exact Hr].
  Qed.

  (** A signer built by [find_authorized_keys] from at least [threshold] keys produces signatures that
      satisfy the update policy (when the key list has at most 2^16 entries, as its u16 length prefix
      demands, so that [i as u16] is exact). *)
  Lemma update_sign_sufficient_verifies_l : forall keys acc actual m d,
    len keys <= 65536 ->
    find_authorized_keys pub pk_eqb keys acc actual = Some m ->
    au_threshold acc <= len actual ->
    update_verify sig_valid keys acc d (sign_update sign m d) = true.
  Proof.
    intros keys acc actual m d Hk H Ht. apply update_verify_iff_policy_l.
    unfold find_authorized_keys in H. apply find_authorized_from_sound in H as [Hlen H]. split.
    - unfold sign_update, sign_cred. rewrite len_map, Hlen. unfold len at 1. cbn [length]. lia.
    - intros ki s Hin. apply sign_cred_valid in Hin as [sk [Hin Hv]].
      destruct (H ki sk Hin) as [[]|[_ [Hau [j [-> Hn]]]]].
      assert (Hj : j < 65536).
      { assert (Hlt : (N.to_nat j < length keys)%nat) by (apply nth_error_Some; congruence).
        unfold len in Hk. lia. }
      rewrite N.mod_small in * by exact Hj.
      split; [exact Hau|]. exists (pub sk). split; [exact Hn|exact Hv].
  Qed.
End Proofs.
