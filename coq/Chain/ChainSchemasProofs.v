(** The chain schema terms: every entry of a table that passes [schema_wf] has the codec laws; the
    ConfigureBaker bitmap before and after its fix; sample encodings. *)
From Coq Require Import NArith List.
From CB Require Import Common.Codec Common.CodecProofs Chain.ChainSchemas.
Import ListNotations.
Local Open Scope N_scope.

Definition LawsP (valid : N -> list N -> bool) (s : schema) : Prop :=
  RT valid s /\ Canon valid s /\ PFree valid s /\ AllocOK valid s.

Lemma wf_list_laws : forall l, forallb schema_wf l = true -> forall valid s, In s l -> LawsP valid s.
Proof.
  intros l H valid s Hin. apply schema_codec_laws. rewrite forallb_forall in H. exact (H s Hin).
Qed.

Lemma wf_table_laws : forall (t : list (N * schema)), forallb (fun p => schema_wf (snd p)) t = true ->
  forall valid id s, In (id, s) t -> LawsP valid s.
Proof.
  intros t H valid id s Hin. apply schema_codec_laws. rewrite forallb_forall in H. exact (H _ Hin).
Qed.

Lemma all_wf_true : all_wf = true.
Proof. vm_compute. reflexivity. Qed.

Lemma table_laws : forall valid id s, In (id, s) chain_schema_table -> id <> 100 -> LawsP valid s.
Proof.
  intros valid id s Hin Hid. apply schema_codec_laws.
  pose proof all_wf_true as H. unfold all_wf in H. rewrite forallb_forall in H.
  specialize (H _ Hin). cbn [fst snd] in H.
  destruct (N.eqb_spec id 100) as [->|_]; [contradiction|exact H].
Qed.

Lemma prefix_noncanonical : forall valid,
  exists bs1 bs2 v, bs1 <> bs2
    /\ dec valid s_configure_baker_prefix bs1 = Some (v, [])
    /\ dec valid s_configure_baker_prefix bs2 = Some (v, [])
    /\ enc s_configure_baker_prefix v = bs1.
Proof.
  intros valid. exists [0; 0], [2; 0], (VList (repeat VNone 9)).
  split; [discriminate|]. repeat split; vm_compute; reflexivity.
Qed.

Lemma prefix_not_wf : schema_wf s_configure_baker_prefix = false.
Proof. vm_compute. reflexivity. Qed.

Lemma fixed_rejects : forall valid rest, dec valid s_configure_baker ([2; 0] ++ rest) = None.
Proof. intros valid rest. reflexivity. Qed.

Lemma transfer_example : forall valid,
  let v := VTag 3 (VList [VBytes (repeat 7 32); VNum 1000000]) in
  wt valid s_payload v = true
  /\ enc s_payload v = 3 :: repeat 7 32 ++ [0; 0; 0; 0; 0; 15; 66; 64]
  /\ dec valid s_payload (enc s_payload v ++ [9]) = Some (v, [9]).
Proof. intros valid. repeat split; vm_compute; reflexivity. Qed.

Lemma delegation_example : forall valid,
  dec valid s_payload [26; 0; 5; 0; 0; 0; 0; 0; 0; 0; 1; 1; 0; 0; 0; 0; 0; 0; 0; 42]
  = Some (VTag 26 (VList [VSome (VNum 1); VNone; VSome (VTag 1 (VNum 42))]), []).
Proof. intros valid. vm_compute. reflexivity. Qed.

Lemma signature_example : forall valid,
  dec valid s_transaction_signature [1; 0; 2; 1; 0; 0; 0; 0; 0] = None
  /\ dec valid s_transaction_signature [1; 0; 2; 0; 0; 0; 1; 0; 0]
     = Some (VList [VList [VNum 0; VList [VList [VNum 0; VBytes []]; VList [VNum 1; VBytes []]]]], []).
Proof. intros valid. split; vm_compute; reflexivity. Qed.
