(** Payload with ALL its variants (the sum of Chain/ChainSchemasFull.v completed with
    InitContract / Update, tags 1 and 2), AccountTransaction<Payload> over it, and the statement that the tag table is
    exactly the list of transaction types.  Every term is shown to be in the class covered by the universal codec theorem
    ([schema_wf] by computation), so round trip, canonicity, prefix freeness and the allocation bound follow. *)
From Coq Require Import NArith List Bool.
From CB Require Import Common.Codec Chain.ChainSchemas Chain.ChainSchemasFull.
From CB Require Common.CodecProofs.
Import ListNotations.
Local Open Scope N_scope.

Definition payload_alts_all : list (N * schema) :=
  payload_alts_full ++ [(1, s_init_contract_payload); (2, s_update_contract_payload)].
Definition s_payload_all := SSum payload_alts_all.
(** AccountTransaction<Payload>: signature, header, then exactly [payload_size] bytes that decode as a Payload. *)
Definition s_account_transaction_all :=
  STuple [s_transaction_signature; SFramed s_transaction_header header_size_path s_payload_all].

(** The transaction types of transactions.rs ([TransactionType], tags written by [Payload::serial]). *)
Definition payload_type_tags : list N :=
  [0; 1; 2; 3; 4; 5; 6; 7; 8; 13; 16; 17; 18; 19; 20; 21; 22; 23; 24; 25; 26; 27].

Definition all_schema_table : list (N * schema) :=
  [(53, s_payload_all); (54, s_account_transaction_all); (55, s_init_contract_payload); (56, s_update_contract_payload);
   (57, s_contract_name); (58, s_receive_name); (59, s_parameter)].

Lemma all_wf : forallb (fun p => schema_wf (snd p)) all_schema_table = true.
Proof. vm_compute. reflexivity. Qed.

Lemma incl_dec : forall l1 l2 : list N,
  forallb (fun x => existsb (N.eqb x) l2) l1 = true -> forall t, In t l1 -> In t l2.
Proof.
  intros l1 l2 H t Hin. rewrite forallb_forall in H. specialize (H t Hin).
  apply existsb_exists in H. destruct H as [y [Hy He]]. apply N.eqb_eq in He. now subst.
Qed.

(** The tag table of [s_payload_all] has exactly the transaction types, each once. *)
Lemma payload_all_tags : (forall t, In t (map fst payload_alts_all) <-> In t payload_type_tags)
  /\ NoDup (map fst payload_alts_all) /\ length payload_alts_all = 22%nat.
Proof.
  split; [|split].
  - intro t; split; apply incl_dec; vm_compute; reflexivity.
  - assert (H : nodupb (map fst payload_alts_all) = true) by (vm_compute; reflexivity).
    revert H. generalize (map fst payload_alts_all). induction l as [|a l IH]; intro H; [constructor|].
    apply CodecProofs.nodupb_cons in H as [Ha Hl]. constructor; [exact Ha|now apply IH].
  - reflexivity.
Qed.

(** Non-vacuity: an InitContract payload "init_a" with a one-byte parameter. *)
Lemma init_contract_example : forall valid,
  let v := VTag 1 (VList [VNum 5; VBytes (repeat 9 32); VBytes [105; 110; 105; 116; 95; 97]; VBytes [7]]) in
  wt valid s_payload_all v = true
  /\ dec valid s_payload_all (enc s_payload_all v ++ [1]) = Some (v, [1])
  /\ dec valid s_payload_all (1 :: repeat 0 8 ++ repeat 9 32 ++ [0; 5; 105; 110; 105; 116; 46; 0; 0]) = None.   (* "init." : '.' in a contract name *)
Proof. intro valid. repeat split; vm_compute; reflexivity. Qed.
