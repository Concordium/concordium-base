(** C14 - facts about the list/memory primitives of HostBase.v (bridges to the standard library)
    and the rules by which host functions are reasoned about: a Hoare logic for invariants, totality
    and results, and syntax-directed judgments for what is left alone, for out-of-energy, and for
    the recorded events. *)
From Coq Require Import NArith List Bool Lia.
From CB Require Import Contract.HostBase.
Import ListNotations.
Local Open Scope N_scope.

Lemma lenN_acc_spec : forall A (l : list A) acc, lenN_acc l acc = acc + N.of_nat (length l).
Proof.
  induction l as [|x t IH]; intros acc; cbn [lenN_acc length].
  - lia.
  - rewrite IH. lia.
Qed.
Lemma lenN_spec : forall A (l : list A), lenN l = N.of_nat (length l).
Proof. intros. unfold lenN. rewrite lenN_acc_spec. lia. Qed.

Lemma lenN_nil : forall A, lenN (@nil A) = 0.
Proof. reflexivity. Qed.
Lemma lenN_cons : forall A (x : A) l, lenN (x :: l) = N.succ (lenN l).
Proof. intros. rewrite !lenN_spec. cbn [length]. lia. Qed.
Lemma lenN_app : forall A (a b : list A), lenN (a ++ b) = lenN a + lenN b.
Proof. intros. rewrite !lenN_spec, app_length. lia. Qed.

Lemma pred_to_nat : forall n, n <> 0 -> N.to_nat n = S (N.to_nat (N.pred n)).
Proof. intros. lia. Qed.

Lemma rev_firstnN_spec : forall A n (l acc : list A),
  rev_firstnN n l acc = rev (firstn (N.to_nat n) l) ++ acc.
Proof.
  intros A n l. revert n. induction l as [|x t IH]; intros n acc; cbn [rev_firstnN].
  - rewrite firstn_nil. reflexivity.
  - destruct (N.eqb_spec n 0) as [->|Hn].
    + reflexivity.
    + rewrite IH, (pred_to_nat n Hn). cbn [firstn rev]. rewrite <- app_assoc. reflexivity.
Qed.
Lemma firstnN_spec : forall A n (l : list A), firstnN n l = firstn (N.to_nat n) l.
Proof.
  intros. unfold firstnN. rewrite rev_firstnN_spec, app_nil_r, rev_append_rev, app_nil_r, rev_involutive.
  reflexivity.
Qed.
Lemma skipnN_spec : forall A n (l : list A), skipnN n l = skipn (N.to_nat n) l.
Proof.
  intros A n l. revert n. induction l as [|x t IH]; intros n; cbn [skipnN].
  - rewrite skipn_nil. reflexivity.
  - destruct (N.eqb_spec n 0) as [->|Hn].
    + reflexivity.
    + rewrite IH, (pred_to_nat n Hn). reflexivity.
Qed.
Lemma has_len_spec : forall A n (l : list A), has_len n l = (n <=? lenN l).
Proof.
  intros A n l. revert n. induction l as [|x t IH]; intros n; cbn [has_len].
  - rewrite lenN_nil. destruct (N.eqb_spec n 0); destruct (N.leb_spec n 0); lia.
  - rewrite lenN_cons. destruct (N.eqb_spec n 0) as [->|Hn].
    + symmetry. apply N.leb_le. lia.
    + rewrite IH. destruct (N.leb_spec (N.pred n) (lenN t)); destruct (N.leb_spec n (N.succ (lenN t))); lia.
Qed.

Lemma lenN_firstnN : forall A n (l : list A), lenN (firstnN n l) = N.min n (lenN l).
Proof. intros. rewrite firstnN_spec, !lenN_spec, firstn_length. lia. Qed.
Lemma lenN_skipnN : forall A n (l : list A), lenN (skipnN n l) = lenN l - n.
Proof. intros. rewrite skipnN_spec, !lenN_spec, skipn_length. lia. Qed.
Lemma lenN_zerosN : forall n, lenN (zerosN n) = n.
Proof.
  intros n. unfold zerosN. induction n using N.peano_ind.
  - reflexivity.
  - rewrite N.iter_succ, lenN_cons, IHn. reflexivity.
Qed.
Lemma lenN_rev_append : forall A (a b : list A), lenN (rev_append a b) = lenN a + lenN b.
Proof. intros. rewrite rev_append_rev, lenN_app, !lenN_spec, rev_length. reflexivity. Qed.
Lemma lenN_rev_firstnN : forall A n (l : list A), lenN (rev_firstnN n l []) = N.min n (lenN l).
Proof. intros. rewrite rev_firstnN_spec, app_nil_r, !lenN_spec, rev_length, firstn_length. lia. Qed.

(** what the checked accesses return: the guard holds and the lengths are as expected, or the guard fails *)
Lemma sliceN_spec : forall A (l : list A) a b,
  match sliceN l a b with Some r => a <= b /\ b <= lenN l /\ lenN r = b - a | None => ~ (a <= b /\ b <= lenN l) end.
Proof.
  intros A l a b. unfold sliceN. rewrite has_len_spec.
  destruct (N.leb_spec a b); destruct (N.leb_spec b (lenN l)); cbn [andb]; try lia.
  rewrite lenN_firstnN, lenN_skipnN. lia.
Qed.
Lemma storeN_spec : forall A (l : list A) a bs,
  match storeN l a bs with Some l' => a + lenN bs <= lenN l /\ lenN l' = lenN l | None => ~ (a + lenN bs <= lenN l) end.
Proof.
  intros A l a bs. unfold storeN. rewrite has_len_spec.
  destruct (N.leb_spec (a + lenN bs) (lenN l)); [|lia].
  rewrite lenN_rev_append, lenN_rev_firstnN, lenN_app, lenN_skipnN. lia.
Qed.
Lemma lenN_resizeN : forall l n, lenN (resizeN l n) = n.
Proof.
  intros. unfold resizeN. destruct (N.leb_spec n (lenN l)).
  - rewrite lenN_firstnN. lia.
  - rewrite lenN_app, lenN_zerosN. lia.
Qed.

Lemma mem_slice_spec : forall m a b,
  match mem_slice m a b with Some r => a <= b /\ b <= m_len m /\ lenN r = b - a | None => ~ (a <= b /\ b <= m_len m) end.
Proof.
  intros m a b. unfold mem_slice.
  destruct (N.leb_spec a b); destruct (N.leb_spec b (m_len m)); cbn [andb]; try lia.
  rewrite lenN_app, lenN_zerosN, lenN_firstnN, lenN_skipnN. lia.
Qed.
Lemma mem_store_spec : forall m a bs,
  match mem_store m a bs with Some m' => a + lenN bs <= m_len m /\ m_len m' = m_len m | None => ~ (a + lenN bs <= m_len m) end.
Proof.
  intros m a bs. unfold mem_store. destruct (N.leb_spec (a + lenN bs) (m_len m)); [|lia]. cbn [m_len]. lia.
Qed.

Lemma u32_le : forall x, u32 x <= x.
Proof. intros. unfold u32. apply N.mod_le. discriminate. Qed.
Lemma u32_small : forall x, x < W32 -> u32 x = x.
Proof. intros. unfold u32. apply N.mod_small. assumption. Qed.
Lemma u32_lt : forall x, u32 x < W32.
Proof. intros. unfold u32. apply N.mod_lt. discriminate. Qed.

Lemma u16_lt : forall x, u16 x < 65536.
Proof. intros. unfold u16. apply N.mod_lt. discriminate. Qed.

(** *** symbolic execution, for the few results that relate the final state to the initial one:
    [mstep] unfolds the monad combinators, splits every guard and every checked primitive, and
    records what each outcome of a primitive implies as hypotheses usable by [lia]. *)
Ltac mprims :=
  cbv beta iota zeta delta [bind ret trap fault ensure emit tick get_hs set_hs mem_len get_energy mslice mstore
                            vslice uadd lift_trap write_to_mem ensure_fits mborrow_from
                            energy mem evs hs fst snd].

Ltac bool_hyps :=
  repeat match goal with
  | H : (_ <=? _) = true |- _ => apply N.leb_le in H
  | H : (_ <=? _) = false |- _ => apply N.leb_gt in H
  | H : (_ <? _) = true |- _ => apply N.ltb_lt in H
  | H : (_ <? _) = false |- _ => apply N.ltb_ge in H
  | H : (_ =? _) = true |- _ => apply N.eqb_eq in H
  | H : (_ =? _) = false |- _ => apply N.eqb_neq in H
  | H : (_ && _) = true |- _ => apply andb_true_iff in H; destruct H
  | H : (_ || _) = false |- _ => apply orb_false_iff in H; destruct H
  | H : negb _ = true |- _ => apply negb_true_iff in H
  | H : negb _ = false |- _ => apply negb_false_iff in H
  end.

Ltac prim_facts :=
  repeat match goal with
  | H : sliceN ?l ?a ?b = _ |- _ => let P := fresh in pose proof (sliceN_spec _ l a b) as P; rewrite H in P; clear H
  | H : storeN ?l ?a ?bs = _ |- _ => let P := fresh in pose proof (storeN_spec _ l a bs) as P; rewrite H in P; clear H
  | H : mem_slice ?m ?a ?b = _ |- _ => let P := fresh in pose proof (mem_slice_spec m a b) as P; rewrite H in P; clear H
  | H : mem_store ?m ?a ?bs = _ |- _ => let P := fresh in pose proof (mem_store_spec m a bs) as P; rewrite H in P; clear H
  end;
  repeat match goal with H : _ /\ _ |- _ => destruct H end.

Ltac msplit :=
  match goal with
  | |- context [match mem_slice ?m ?a ?b with _ => _ end] => destruct (mem_slice m a b) eqn:?
  | |- context [match mem_store ?m ?a ?b with _ => _ end] => destruct (mem_store m a b) eqn:?
  | |- context [match sliceN ?m ?a ?b with _ => _ end] => destruct (sliceN m a b) eqn:?
  | |- context [match storeN ?m ?a ?b with _ => _ end] => destruct (storeN m a b) eqn:?
  | |- context [if ?c then _ else _] => destruct c eqn:?
  end.

Ltac mstep := mprims; repeat (msplit; mprims).

Lemma nthN_Forall : forall A (P : A -> Prop) l i x, Forall P l -> nthN i l = Some x -> P x.
Proof.
  intros A P l. induction l as [|y t IH]; intros i x HF; cbn [nthN]; [discriminate|].
  inversion HF; subst. destruct (i =? 0).
  - intros [= <-]. assumption.
  - apply IH. assumption.
Qed.
Lemma setnthN_Forall : forall A (P : A -> Prop) l i x, Forall P l -> P x -> Forall P (setnthN i x l).
Proof.
  intros A P l. induction l as [|y t IH]; intros i x HF Hx; cbn [setnthN]; [constructor|].
  inversion HF; subst. destruct (i =? 0); constructor; auto.
Qed.

(** usize additions of two u32 values (what the Rust comments call "cannot overflow on 64-bit
    machines") never overflow: the checked operator returns the exact sum *)
Lemma uadd_u32 : forall X a b (s : st X), a < W32 -> b < W32 -> uadd a b s = (s, Ok (a + b)).
Proof.
  intros X a b s Ha Hb. unfold uadd. destruct (N.ltb_spec (a + b) W64); [reflexivity|].
  unfold W32, W64 in *. lia.
Qed.

(** *** A Hoare logic for host functions

    [hoare C L I m Q]: started in a state whose memory has [L] bytes and whose host state satisfies
    [I], the computation [m] keeps both, returns only values satisfying [Q], and, when checking is
    on ([C] holds), does not end in [Fault].  No primitive changes the length of the memory, so a
    successful [ensure_fits n] yields the pure fact [n <= L]; every rule below peels one [bind], and
    a proof is linear in the size of the program.  The side conditions of the checked primitives
    are only demanded under [C]: with [C := False] the same rules prove bare invariants. *)
Section Hoare.
Context {X : Type}.
Variables (C : Prop) (L : N) (I : X -> Prop).

Definition hoare {A} (m : M X A) (Q : A -> Prop) : Prop :=
  forall s, m_len (mem s) = L -> I (hs s) ->
    m_len (mem (fst (m s))) = L /\ I (hs (fst (m s))) /\
    match snd (m s) with Ok a => Q a | Fault => ~ C | _ => True end.

Lemma hoare_bind : forall A B (m : M X A) (f : A -> M X B) Q R,
  hoare m Q -> (forall a, Q a -> hoare (f a) R) -> hoare (bind m f) R.
Proof.
  intros A B m f Q R Hm Hf s HL HI. unfold bind. destruct (Hm s HL HI) as (HL' & HI' & Hr).
  destruct (m s) as [s' [a| | |]]; cbn [fst snd] in *; auto. apply Hf; assumption.
Qed.
Lemma hoare_assoc : forall A B D (m : M X A) (f : A -> M X B) (g : B -> M X D) R,
  hoare (bind m (fun a => bind (f a) g)) R -> hoare (bind (bind m f) g) R.
Proof.
  intros A B D m f g R H s HL HI. specialize (H s HL HI). unfold bind in *.
  destruct (m s) as [s' [a| | |]]; exact H.
Qed.
Lemma hoare_weaken : forall A (m : M X A) (Q R : A -> Prop),
  hoare m Q -> (forall a, Q a -> R a) -> hoare m R.
Proof.
  intros A m Q R Hm HQ s HL HI. destruct (Hm s HL HI) as (HL' & HI' & Hr).
  destruct (snd (m s)); auto.
Qed.
Lemma hoare_inv : forall A (m : M X A) Q s, hoare m Q -> m_len (mem s) = L -> I (hs s) -> I (hs (fst (m s))).
Proof. intros A m Q s Hm HL HI. apply (Hm s HL HI). Qed.
Lemma hoare_no_fault : forall A (m : M X A) Q s, hoare m Q -> C -> m_len (mem s) = L -> I (hs s) -> snd (m s) <> Fault.
Proof.
  intros A m Q s Hm Hc HL HI E. destruct (Hm s HL HI) as (_ & _ & Hr). rewrite E in Hr. exact (Hr Hc).
Qed.
Lemma hoare_result : forall A (m : M X A) Q s s' r,
  hoare m Q -> m_len (mem s) = L -> I (hs s) -> m s = (s', Ok r) -> Q r.
Proof. intros A m Q s s' r Hm HL HI E. destruct (Hm s HL HI) as (_ & _ & Hr). rewrite E in Hr. exact Hr. Qed.

Lemma hoare_pure : forall A (m : M X A) (Q : A -> Prop),
  (forall s, m_len (mem (fst (m s))) = m_len (mem s) /\ hs (fst (m s)) = hs s) ->
  (forall s, m_len (mem s) = L -> match snd (m s) with Ok a => Q a | Fault => ~ C | _ => True end) ->
  hoare m Q.
Proof.
  intros A m Q Hf Hr s HL HI. destruct (Hf s) as [E1 E2]. rewrite E1, E2.
  exact (conj HL (conj HI (Hr s HL))).
Qed.

Lemma hoare_ret : forall A (a : A) (Q : A -> Prop), Q a -> hoare (ret a) Q.
Proof. intros. apply hoare_pure; intros; cbn; auto. Qed.
Lemma hoare_trap : forall A (Q : A -> Prop), hoare trap Q.
Proof. intros. apply hoare_pure; intros; cbn; auto. Qed.
Lemma hoare_fault : forall A (Q : A -> Prop), ~ C -> hoare fault Q.
Proof. intros. apply hoare_pure; intros; cbn; auto. Qed.
Lemma hoare_ensure : forall b, hoare (ensure b) (fun _ => b = true).
Proof. intros []; apply hoare_pure; intros; cbn; auto. Qed.
Lemma hoare_emit : forall e, hoare (emit e) (fun _ => True).
Proof. intros. apply hoare_pure; intros; cbn; auto. Qed.
Lemma hoare_tick : forall c, hoare (tick c) (fun _ => True).
Proof. intros. apply hoare_pure; intros; unfold tick; destruct (c <=? energy s); cbn; auto. Qed.
Lemma hoare_ensure_fits : forall n, hoare (ensure_fits n) (fun _ => n <= L).
Proof.
  intros. apply hoare_pure; intros s; [auto|]. intros <-. unfold ensure_fits. cbn [snd].
  destruct (N.leb_spec n (m_len (mem s))); auto.
Qed.
Lemma hoare_mborrow_from : forall a, (C -> a <= L) -> hoare (mborrow_from a) (fun _ => True).
Proof.
  intros a Ha. apply hoare_pure; intros s; [auto|]. intros <-. unfold mborrow_from. cbn [snd].
  destruct (N.leb_spec a (m_len (mem s))); [exact Logic.I | intros Hc; specialize (Ha Hc); lia].
Qed.
Lemma hoare_uadd : forall a b, (C -> a + b < W64) -> hoare (uadd a b) (fun r => r = a + b).
Proof.
  intros a b Hab. apply hoare_pure; intros s; unfold uadd; destruct (N.ltb_spec (a + b) W64); cbn; auto.
  intros _ Hc. specialize (Hab Hc). lia.
Qed.
Lemma hoare_mslice : forall a b, (C -> a <= b <= L) ->
  hoare (mslice a b) (fun bs => a <= b /\ b <= L /\ lenN bs = b - a).
Proof.
  intros a b Hab. apply hoare_pure; intros s; unfold mslice.
  - destruct (mem_slice (mem s) a b); auto.
  - intros <-. pose proof (mem_slice_spec (mem s) a b) as E. destruct (mem_slice (mem s) a b); cbn [snd].
    + exact E.
    + intros Hc. exact (E (Hab Hc)).
Qed.
Lemma hoare_vslice : forall v a b, (C -> a <= b <= lenN v) ->
  hoare (vslice v a b) (fun bs => a <= b /\ b <= lenN v /\ lenN bs = b - a).
Proof.
  intros v a b Hab. apply hoare_pure; intros s; unfold vslice; pose proof (sliceN_spec _ v a b) as E;
    destruct (sliceN v a b); cbn [fst snd]; auto.
Qed.
Lemma hoare_mstore : forall a bs, (C -> a + lenN bs <= L) -> hoare (mstore a bs) (fun _ => True).
Proof.
  intros a bs Hab s HL HI. unfold mstore. pose proof (mem_store_spec (mem s) a bs) as E.
  destruct (mem_store (mem s) a bs); cbn [fst snd mem hs].
  - destruct E as [_ E]. rewrite E. auto.
  - repeat split; auto. intros Hc. rewrite HL in E. exact (E (Hab Hc)).
Qed.
Lemma hoare_get_hs : hoare get_hs I.
Proof. intros s HL HI. cbn. auto. Qed.
Lemma hoare_set_hs : forall h, I h -> hoare (set_hs h) (fun _ => True).
Proof. intros h Hh s HL HI. cbn. auto. Qed.

Lemma hoare_when : forall (c : bool) (m : M X unit),
  hoare m (fun _ => True) -> hoare (if c then m else ret tt) (fun _ => True).
Proof. intros [] m Hm; [exact Hm | apply hoare_ret; exact Logic.I]. Qed.

Lemma hoare_write_to_mem : forall a dlen src, (C -> a + N.min dlen (lenN src) <= L) ->
  hoare (write_to_mem a dlen src) (fun _ => True).
Proof.
  intros a dlen src H. unfold write_to_mem.
  eapply hoare_bind; [apply hoare_mstore; rewrite lenN_firstnN; intros Hc; specialize (H Hc); lia|]. intros _ _.
  eapply hoare_bind; [apply hoare_emit|]. intros _ _. apply hoare_ret. exact Logic.I.
Qed.

End Hoare.

(** the step of a [hoare] proof: peel the next [bind] with the rule of its primitive, split the
    next conditional, or close a tail call; side conditions are left as goals
    ([simple apply]: a plain [apply] that fails first unfolds the host functions to compare them) *)
Ltac hprim :=
  first [ simple apply hoare_ensure | simple apply hoare_emit | simple apply hoare_tick | simple apply hoare_ensure_fits | simple apply hoare_uadd
        | simple apply hoare_mslice | simple apply hoare_vslice | simple apply hoare_mstore | simple apply hoare_get_hs | simple apply hoare_set_hs
        | simple apply hoare_mborrow_from | simple apply hoare_write_to_mem
        | simple apply hoare_when ].
Ltac hstep_with comp :=
  lazymatch goal with
  | |- hoare _ _ _ (bind (bind _ _) _) _ => apply hoare_assoc
  | |- hoare _ _ _ (bind _ _) _ => eapply hoare_bind; [first [hprim | comp] | cbv beta; intros ? ?]
  | |- hoare _ _ _ (ret _) _ => simple apply hoare_ret
  | |- hoare _ _ _ trap _ => simple apply hoare_trap
  | |- hoare _ _ _ fault _ => simple apply hoare_fault
  | |- hoare _ _ _ (match ?x with _ => _ end) _ => destruct x eqn:?
  | |- hoare _ _ _ _ _ => eapply hoare_weaken; [first [hprim | comp] | cbv beta; intros ? ?]
  end.
Ltac hstep := hstep_with fail.

(** *** What a computation leaves alone

    [stateless m]: [m] returns the state it was given and does not run out of energy (the checks
    and reads).  [readonly m]: [m] changes neither the memory nor the host state (it may charge and
    record events).  [no_ooe m]: [m] does not run out of energy.  [ooe_frame m]: if [m] runs out of
    energy, memory and host state are as before; this holds of a read-only prefix followed by
    updates that charge nothing.  The rules are syntax directed and collected in hint databases. *)
Section Frames.
Context {X : Type}.

Definition stateless {A} (m : M X A) : Prop := forall s, fst (m s) = s /\ snd (m s) <> OutOfEnergy.
Definition readonly {A} (m : M X A) : Prop := forall s, mem (fst (m s)) = mem s /\ hs (fst (m s)) = hs s.
Definition no_ooe {A} (m : M X A) : Prop := forall s, snd (m s) <> OutOfEnergy.
Definition ooe_frame {A} (m : M X A) : Prop :=
  forall s, snd (m s) = OutOfEnergy -> mem (fst (m s)) = mem s /\ hs (fst (m s)) = hs s.

Lemma stateless_ret : forall A (a : A), stateless (ret a). Proof. split; [reflexivity | discriminate]. Qed.
Lemma stateless_trap : forall A, stateless (@trap X A). Proof. split; [reflexivity | discriminate]. Qed.
Lemma stateless_fault : forall A, stateless (@fault X A). Proof. split; [reflexivity | discriminate]. Qed.
Lemma stateless_get_hs : stateless (@get_hs X). Proof. split; [reflexivity | discriminate]. Qed.
Lemma stateless_ensure : forall b, stateless (@ensure X b).
Proof. intros [] s; (split; [reflexivity | discriminate]). Qed.
Lemma stateless_ensure_fits : forall n, stateless (@ensure_fits X n).
Proof. intros n s. unfold ensure_fits. destruct (n <=? m_len (mem s)); (split; [reflexivity | discriminate]). Qed.
Lemma stateless_mborrow_from : forall a, stateless (@mborrow_from X a).
Proof. intros a s. unfold mborrow_from. destruct (a <=? m_len (mem s)); (split; [reflexivity | discriminate]). Qed.
Lemma stateless_mslice : forall a b, stateless (@mslice X a b).
Proof. intros a b s. unfold mslice. destruct (mem_slice (mem s) a b); (split; [reflexivity | discriminate]). Qed.
Lemma stateless_vslice : forall v a b, stateless (@vslice X v a b).
Proof. intros v a b s. unfold vslice. destruct (sliceN v a b); (split; [reflexivity | discriminate]). Qed.
Lemma stateless_uadd : forall a b, stateless (@uadd X a b).
Proof. intros a b s. unfold uadd. destruct (a + b <? W64); (split; [reflexivity | discriminate]). Qed.

Lemma stateless_bind : forall A B (m : M X A) (f : A -> M X B),
  stateless m -> (forall a, stateless (f a)) -> stateless (bind m f).
Proof.
  intros A B m f Hm Hf s. unfold bind. destruct (Hm s) as [E1 E2].
  destruct (m s) as [s' [a| | |]]; cbn [fst snd] in *; subst s'; try (split; [reflexivity | discriminate]).
  - apply Hf.
  - destruct (E2 eq_refl).
Qed.

Lemma readonly_stateless : forall A (m : M X A), stateless m -> readonly m.
Proof. intros A m H s. destruct (H s) as [-> _]. split; reflexivity. Qed.
Lemma readonly_bind : forall A B (m : M X A) (f : A -> M X B),
  readonly m -> (forall a, readonly (f a)) -> readonly (bind m f).
Proof.
  intros A B m f Hm Hf s. unfold bind. destruct (Hm s) as [E1 E2].
  destruct (m s) as [s' [a| | |]]; cbn [fst] in *; auto. destruct (Hf a s') as [E3 E4]. split; congruence.
Qed.
Lemma readonly_emit : forall e, readonly (@emit X e). Proof. split; reflexivity. Qed.
Lemma readonly_tick : forall c, readonly (@tick X c).
Proof. intros c s. unfold tick. destruct (c <=? energy s); split; reflexivity. Qed.

Lemma no_ooe_stateless : forall A (m : M X A), stateless m -> no_ooe m.
Proof. intros A m H s. apply H. Qed.
Lemma no_ooe_bind : forall A B (m : M X A) (f : A -> M X B),
  no_ooe m -> (forall a, no_ooe (f a)) -> no_ooe (bind m f).
Proof.
  intros A B m f Hm Hf s. unfold bind. specialize (Hm s).
  destruct (m s) as [s' [a| | |]]; cbn [snd] in *; try discriminate; auto. apply Hf.
Qed.
Lemma no_ooe_emit : forall e, no_ooe (@emit X e). Proof. intros e s. discriminate. Qed.
Lemma no_ooe_set_hs : forall h, no_ooe (@set_hs X h). Proof. intros h s. discriminate. Qed.
Lemma no_ooe_mstore : forall a bs, no_ooe (@mstore X a bs).
Proof. intros a bs s. unfold mstore. destruct (mem_store (mem s) a bs); discriminate. Qed.

Lemma ooe_frame_bind : forall A B (m : M X A) (f : A -> M X B),
  readonly m -> (forall a, ooe_frame (f a)) -> ooe_frame (bind m f).
Proof.
  intros A B m f Hm Hf s. unfold bind. destruct (Hm s) as [E1 E2].
  destruct (m s) as [s' [a| | |]]; cbn [fst snd] in *; auto. intros H. destruct (Hf a s' H). split; congruence.
Qed.
Lemma ooe_frame_readonly : forall A (m : M X A), readonly m -> ooe_frame m.
Proof. intros A m H s _. apply H. Qed.
Lemma ooe_frame_no_ooe : forall A (m : M X A), no_ooe m -> ooe_frame m.
Proof. intros A m H s E. destruct (H s E). Qed.

End Frames.

Create HintDb readonly discriminated.
Create HintDb no_ooe discriminated.
Create HintDb emits discriminated.
#[global] Hint Resolve stateless_ret stateless_trap stateless_fault stateless_ensure stateless_get_hs
  stateless_ensure_fits stateless_mborrow_from stateless_mslice stateless_vslice stateless_uadd : readonly no_ooe emits.
#[global] Hint Resolve readonly_bind readonly_emit readonly_tick readonly_stateless : readonly.
#[global] Hint Resolve no_ooe_bind no_ooe_emit no_ooe_set_hs no_ooe_mstore no_ooe_stateless : no_ooe.
#[global] Hint Extern 2 (readonly (match ?x with _ => _ end)) => destruct x : readonly.
#[global] Hint Extern 2 (no_ooe (match ?x with _ => _ end)) => destruct x : no_ooe.

Lemma no_ooe_write_to_mem : forall X a d src, no_ooe (@write_to_mem X a d src).
Proof. intros. unfold write_to_mem. auto with no_ooe. Qed.
#[global] Hint Resolve no_ooe_write_to_mem : no_ooe.

(** one step of an [ooe_frame] proof: pass a read-only head, or show that nothing is left to charge *)
Ltac ooe_step :=
  lazymatch goal with
  | |- ooe_frame (bind _ _) =>
      first [ apply ooe_frame_bind; [solve [auto 60 with readonly] | intros ?]
            | apply ooe_frame_no_ooe; solve [auto 60 with no_ooe] ]
  | |- ooe_frame (match ?x with _ => _ end) => destruct x
  | |- ooe_frame _ =>
      first [ apply ooe_frame_readonly; solve [auto 60 with readonly]
            | apply ooe_frame_no_ooe; solve [auto 60 with no_ooe] ]
  end.

(** *** Events

    [emits p m]: [m] only appends events, all of which satisfy [p].  [cbw_ok sched m]: [m] extends
    a history that obeys the charge-before-work discipline to one that does; this holds of a
    prefix that neither copies nor allocates, followed by a tick of at least [sched], followed by
    anything that only appends. *)
Definition quiet_ev (e : event) : bool := match e with EvCopy _ | EvAlloc _ => false | _ => true end.
Definition any_ev (e : event) : bool := true.

Lemma cbw_from_paid : forall sched es, cbw_from sched true es = true.
Proof. induction es as [|[] t IH]; cbn [cbw_from orb andb]; auto. Qed.
Lemma cbw_from_quiet : forall sched es p, forallb quiet_ev es = true -> cbw_from sched p es = true.
Proof.
  induction es as [|e t IH]; intros p H; [reflexivity|]. cbn [forallb] in H. apply andb_true_iff in H. destruct H as [He Ht].
  destruct e; cbn [cbw_from]; try discriminate He; auto.
Qed.
Lemma cbw_from_app_quiet : forall sched a p b,
  cbw_from sched p a = true -> forallb quiet_ev b = true -> cbw_from sched p (a ++ b) = true.
Proof.
  induction a as [|e t IH]; intros p b Ha Hb; cbn [app]; [apply cbw_from_quiet, Hb|].
  destruct e; cbn [cbw_from] in *; auto; apply andb_true_iff in Ha; destruct Ha as [-> Ha]; cbn [andb]; auto.
Qed.
Lemma cbw_from_app_tick : forall sched c a p b,
  cbw_from sched p a = true -> sched <= c -> cbw_from sched p (a ++ EvTick c :: b) = true.
Proof.
  induction a as [|e t IH]; intros p b Ha Hc; cbn [app].
  - cbn [cbw_from]. apply N.leb_le in Hc. rewrite Hc, orb_true_r. apply cbw_from_paid.
  - destruct e; cbn [cbw_from] in *; auto; apply andb_true_iff in Ha; destruct Ha as [-> Ha]; cbn [andb]; auto.
Qed.
Lemma forallb_rev : forall A (p : A -> bool) l, forallb p l = true -> forallb p (rev l) = true.
Proof. intros A p l H. apply forallb_forall. intros x Hx. apply in_rev in Hx. revert x Hx. apply forallb_forall, H. Qed.

Section Events.
Context {X : Type}.

Definition emits (p : event -> bool) {A} (m : M X A) : Prop :=
  forall s, exists l, evs (fst (m s)) = l ++ evs s /\ forallb p l = true.
Definition cbw_ok (sched : N) {A} (m : M X A) : Prop :=
  forall s, cbw sched (evs s) = true -> cbw sched (evs (fst (m s))) = true.

Variable p : event -> bool.

Lemma emits_bind : forall A B (m : M X A) (f : A -> M X B),
  emits p m -> (forall a, emits p (f a)) -> emits p (bind m f).
Proof.
  intros A B m f Hm Hf s. unfold bind. destruct (Hm s) as (l1 & E1 & P1).
  destruct (m s) as [s' [a| | |]]; cbn [fst] in *; eauto.
  destruct (Hf a s') as (l2 & E2 & P2). exists (l2 ++ l1). rewrite E2, E1, app_assoc, forallb_app, P1, P2. auto.
Qed.
Lemma emits_silent : forall A (m : M X A), (forall s, evs (fst (m s)) = evs s) -> emits p m.
Proof. intros A m H s. exists []. rewrite H. auto. Qed.
Lemma emits_stateless : forall A (m : M X A), stateless m -> emits p m.
Proof. intros A m H. apply emits_silent. intros s. destruct (H s) as [-> _]. reflexivity. Qed.
Lemma emits_set_hs : forall h, emits p (@set_hs X h). Proof. intros. apply emits_silent. reflexivity. Qed.
Lemma emits_mstore : forall a bs, emits p (@mstore X a bs).
Proof. intros. apply emits_silent. intros s. unfold mstore. destruct (mem_store (mem s) a bs); reflexivity. Qed.
Lemma emits_emit : forall e, p e = true -> emits p (@emit X e).
Proof. intros e He s. exists [e]. cbn. rewrite He. auto. Qed.
Lemma emits_tick : forall c, p (EvTick c) = true -> emits p (@tick X c).
Proof.
  intros c Hc s. unfold tick. destruct (c <=? energy s); [exists [EvTick c] | exists []]; cbn; rewrite ?Hc; auto.
Qed.

(** what a guard establishes may be needed to bound a later event *)
Lemma emits_ensure_bind : forall B b (f : unit -> M X B), (b = true -> emits p (f tt)) -> emits p (bind (ensure b) f).
Proof. intros B [] f H; [exact (H eq_refl) | apply emits_silent; reflexivity]. Qed.

Variable sched : N.

Lemma cbw_ok_quiet : forall A (m : M X A), emits quiet_ev m -> cbw_ok sched m.
Proof.
  intros A m Hm s Hs. destruct (Hm s) as (l & -> & Hl). unfold cbw in *. rewrite rev_app_distr.
  apply cbw_from_app_quiet; [exact Hs | apply forallb_rev, Hl].
Qed.
Lemma cbw_ok_bind : forall A B (m : M X A) (f : A -> M X B),
  cbw_ok sched m -> (forall a, cbw_ok sched (f a)) -> cbw_ok sched (bind m f).
Proof.
  intros A B m f Hm Hf s Hs. unfold bind. specialize (Hm s Hs).
  destruct (m s) as [s' [a| | |]]; cbn [fst] in *; auto. apply Hf, Hm.
Qed.
Lemma cbw_ok_assoc : forall A B D (m : M X A) (f : A -> M X B) (g : B -> M X D),
  cbw_ok sched (bind m (fun a => bind (f a) g)) -> cbw_ok sched (bind (bind m f) g).
Proof.
  intros A B D m f g H s Hs. specialize (H s Hs). unfold bind in *. destruct (m s) as [s' [a| | |]]; exact H.
Qed.
Lemma cbw_ok_tick : forall B c (f : unit -> M X B),
  sched <= c -> (forall a, emits any_ev (f a)) -> cbw_ok sched (bind (tick c) f).
Proof.
  intros B c f Hc Hf s Hs. unfold bind, tick. destruct (c <=? energy s); cbn [fst evs]; [|exact Hs].
  destruct (Hf tt (mkSt (energy s - c) (mem s) (EvTick c :: evs s) (hs s))) as (l & -> & _). cbn [evs].
  unfold cbw in *. rewrite rev_app_distr. cbn [rev]. rewrite <- app_assoc. cbn [app].
  apply cbw_from_app_tick; assumption.
Qed.

End Events.

(** *** allocations are paid for: [alloc_ok cost m] extends a history in which every allocation of [n]
    bytes follows a tick of at least [cost n] to another such history *)
Definition noalloc_ev (e : event) : bool := match e with EvAlloc _ => false | _ => true end.

Lemma alloc_paid_from_noalloc : forall cost es ticks, forallb noalloc_ev es = true -> alloc_paid_from cost ticks es = true.
Proof.
  induction es as [|e t IH]; intros ticks H; [reflexivity|]. cbn [forallb] in H. apply andb_true_iff in H.
  destruct H as [He Ht]. destruct e; cbn [alloc_paid_from]; try discriminate He; auto.
Qed.
Lemma alloc_paid_from_app : forall cost a ticks b,
  alloc_paid_from cost ticks a = true -> (forall ticks', alloc_paid_from cost (ticks' ++ ticks) b = true) ->
  alloc_paid_from cost ticks (a ++ b) = true.
Proof.
  induction a as [|e t IH]; intros ticks b Ha Hb; cbn [app]; [exact (Hb [])|].
  destruct e; cbn [alloc_paid_from] in *; try (apply IH; [assumption | exact Hb]).
  - apply IH; [assumption|]. intros ticks'. specialize (Hb (ticks' ++ [c])). rewrite <- app_assoc in Hb. exact Hb.
  - apply andb_true_iff in Ha. destruct Ha as [-> Ha]. cbn [andb]. apply IH; assumption.
Qed.

Section Allocs.
Context {X : Type}.
Variable cost : N -> N.

Definition alloc_ok {A} (m : M X A) : Prop :=
  forall s, alloc_paid cost (evs s) = true -> alloc_paid cost (evs (fst (m s))) = true.

Lemma alloc_ok_noalloc : forall A (m : M X A), emits noalloc_ev m -> alloc_ok m.
Proof.
  intros A m Hm s Hs. destruct (Hm s) as (l & -> & Hl). unfold alloc_paid in *. rewrite rev_app_distr.
  apply alloc_paid_from_app; [exact Hs|]. intros. apply alloc_paid_from_noalloc, forallb_rev, Hl.
Qed.
Lemma alloc_ok_bind : forall A B (m : M X A) (f : A -> M X B),
  alloc_ok m -> (forall a, alloc_ok (f a)) -> alloc_ok (bind m f).
Proof.
  intros A B m f Hm Hf s Hs. unfold bind. specialize (Hm s Hs).
  destruct (m s) as [s' [a| | |]]; cbn [fst] in *; auto. apply Hf, Hm.
Qed.
Lemma alloc_ok_assoc : forall A B D (m : M X A) (f : A -> M X B) (g : B -> M X D),
  alloc_ok (bind m (fun a => bind (f a) g)) -> alloc_ok (bind (bind m f) g).
Proof.
  intros A B D m f g H s Hs. specialize (H s Hs). unfold bind in *. destruct (m s) as [s' [a| | |]]; exact H.
Qed.
Lemma alloc_ok_charged : forall n, alloc_ok (tick (cost n) ;;; emit (EvAlloc n)).
Proof.
  intros n s Hs. unfold bind, tick, emit. destruct (cost n <=? energy s); cbn [fst evs]; [|exact Hs].
  unfold alloc_paid in *. cbn [rev]. rewrite <- app_assoc. apply alloc_paid_from_app; [exact Hs|].
  intros ticks'. cbn [app alloc_paid_from existsb]. rewrite N.leb_refl. reflexivity.
Qed.

End Allocs.

#[global] Hint Resolve emits_bind emits_set_hs emits_mstore emits_emit emits_tick emits_ensure_bind emits_stateless : emits.
#[global] Hint Extern 2 (emits _ (match ?x with _ => _ end)) => destruct x : emits.
#[global] Hint Extern 1 (_ = true) => reflexivity : emits.
#[global] Hint Extern 3 ((_ <=? _) = true) => apply N.leb_le; bool_hyps; lia : emits.

(** one step of a [cbw_ok] proof: a quiet head, or the tick that pays, after which only appending matters *)
Ltac cbw_step :=
  lazymatch goal with
  | |- cbw_ok _ (bind (bind _ _) _) => apply cbw_ok_assoc
  | |- cbw_ok _ (bind (match ?x with _ => _ end) _) => destruct x
  | |- cbw_ok _ (bind (tick _) _) => apply cbw_ok_tick; [solve [auto using N.le_refl, N.le_0_l] | intros ?; solve [auto 80 with emits]]
  | |- cbw_ok _ (bind _ _) => apply cbw_ok_bind; [apply cbw_ok_quiet; solve [auto 20 with emits] | intros ?]
  | |- cbw_ok _ (match ?x with _ => _ end) => destruct x
  | |- cbw_ok _ _ => apply cbw_ok_quiet; solve [auto 80 with emits]
  end.

(** one step of an [alloc_ok] proof: a charged allocation, or a head that allocates nothing *)
Ltac alloc_step :=
  lazymatch goal with
  | |- alloc_ok _ (bind (tick _) (fun _ => emit (EvAlloc _))) => apply alloc_ok_charged
  | |- alloc_ok _ (bind (bind (tick _) (fun _ => emit (EvAlloc _))) _) =>
      apply alloc_ok_bind; [apply alloc_ok_charged | intros ?]
  | |- alloc_ok _ (bind (bind _ _) _) => apply alloc_ok_assoc
  | |- alloc_ok _ (bind (match ?x with _ => _ end) _) => destruct x
  | |- alloc_ok _ (bind _ _) => apply alloc_ok_bind; [apply alloc_ok_noalloc; solve [auto 20 with emits] | intros ?]
  | |- alloc_ok _ (match ?x with _ => _ end) => destruct x
  | |- alloc_ok _ _ => apply alloc_ok_noalloc; solve [auto 80 with emits]
  end.
