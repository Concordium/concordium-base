(** * SchemaJsonContract — "the bytes are the contract-side encoding of the value".

    For the schema types that have a counterpart among C16's little-endian codec combinators
    (Contract/CcCodec.v, Contract/CcTypes.v: [Serial]/[Deserial] of concordium-contracts-common), the
    bytes [from_json] writes are [enc] of that codec applied to the value the JSON denotes, and the
    value is well-formed for the codec (so, by C16's round-trip laws, the contract's [Deserial] reads it
    back).  The fragment: unit, bool, u8..u128, i8..i128, Amount, ContractAddress, pairs, [Option<T>],
    [[T; n]], and with every size length: lists, sets, maps (as the listed sequence), strings, byte lists.

    CcCodec / CcTypes are imported only. *)
From Coq Require Import String.
From Coq Require Import NArith ZArith Bool List Lia.
From CB Require Import Contract.CcCodec Contract.CcTypes.
From CB Require Import Contract.SchemaJson Contract.SchemaJsonLemmas Contract.SchemaJsonProofs.
Import ListNotations.
Local Open Scope N_scope.

Definition s_None : str := Eval vm_compute in str_of "None".
Definition s_Some : str := Eval vm_compute in str_of "Some".

Inductive iw := W8 | W16 | W32 | W64 | W128.
Definition iw_bytes (w : iw) : nat := match w with W8 => 1 | W16 => 2 | W32 => 4 | W64 => 8 | W128 => 16 end%nat.

Inductive cty :=
| CUnit | CBool
| CUint (w : iw) | CSint (w : iw)
| CAmount | CContractAddress
| CPair (a b : cty)
| CList (s : size_len) (a : cty)
| CSet (s : size_len) (a : cty)
| CMap (s : size_len) (k v : cty)
| CArray (n : nat) (a : cty)
| COption (a : cty)
| CString (s : size_len)
| CByteList (s : size_len).

(** the Rust value universe of the fragment *)
Fixpoint sem (c : cty) : Type :=
  match c with
  | CUnit => unit
  | CBool => bool
  | CUint _ | CAmount => N
  | CSint _ => Z
  | CContractAddress => (N * N)%type
  | CPair a b => (sem a * sem b)%type
  | CList _ a | CSet _ a | CArray _ a => list (sem a)
  | CMap _ k v => list (sem k * sem v)
  | COption a => option (sem a)
  | CString _ | CByteList _ => list N
  end.

(** C16's codec of the type *)
Fixpoint codec_of (c : cty) : codec (sem c) :=
  match c with
  | CUnit => c_unit
  | CBool => c_bool
  | CUint w => c_uint (iw_bytes w)
  | CSint w => c_sint (iw_bytes w)
  | CAmount => c_u64
  | CContractAddress => c_pair c_u64 c_u64
  | CPair a b => c_pair (codec_of a) (codec_of b)
  | CList s a => c_vec (codec_of a) (sl_bytes s) rsv_std
  | CSet s a => c_vec (codec_of a) (sl_bytes s) rsv_std
  | CMap s k v => c_vec (c_pair (codec_of k) (codec_of v)) (sl_bytes s) rsv_std
  | CArray n a => c_array (codec_of a) n
  | COption a => c_option (codec_of a)
  | CString s => c_vec c_u8 (sl_bytes s) rsv_std
  | CByteList s => c_vec c_u8 (sl_bytes s) rsv_std
  end.

(** the schema type [SchemaType::get_type] gives it *)
Fixpoint ty_of (c : cty) : ty :=
  match c with
  | CUnit => TUnit
  | CBool => TBool
  | CUint W8 => TU8 | CUint W16 => TU16 | CUint W32 => TU32 | CUint W64 => TU64 | CUint W128 => TU128
  | CSint W8 => TI8 | CSint W16 => TI16 | CSint W32 => TI32 | CSint W64 => TI64 | CSint W128 => TI128
  | CAmount => TAmount
  | CContractAddress => TContractAddress
  | CPair a b => TPair (ty_of a) (ty_of b)
  | CList s a => TList s (ty_of a)
  | CSet s a => TSet s (ty_of a)
  | CMap s k v => TMap s (ty_of k) (ty_of v)
  | CArray n a => TArray (N.of_nat n) (ty_of a)
  | COption a => TEnum (Vcons s_None FNone (Vcons s_Some (FUnnamed (TScons (ty_of a) TSnil)) Vnil))
  | CString s => TString s
  | CByteList s => TByteList s
  end.

Fixpoint map_opt {A B} (f : A -> option B) (l : list A) : option (list B) :=
  match l with
  | [] => Some []
  | x :: r => match f x, map_opt f r with Some y, Some ys => Some (y :: ys) | _, _ => None end
  end.

(** the value a JSON document denotes (independent of bytes) *)
Fixpoint denote (c : cty) (j : json) {struct c} : option (sem c) :=
  match c return option (sem c) with
  | CUnit => Some tt
  | CBool => match j with JBool b => Some b | _ => None end
  | CUint W128 => match j with JStr s => parse_unsigned (2 ^ 128) s | _ => None end
  | CUint w => match j with
               | JNum z => if ((0 <=? z) && (z <? 2 ^ (8 * Z.of_nat (iw_bytes w))))%Z then Some (Z.to_N z) else None
               | _ => None
               end
  | CSint W128 => match j with JStr s => parse_signed 128 s | _ => None end
  | CSint w => match j with
               | JNum z => if ((- 2 ^ (8 * Z.of_nat (iw_bytes w) - 1) <=? z) && (z <? 2 ^ (8 * Z.of_nat (iw_bytes w) - 1)))%Z
                           then Some z else None
               | _ => None
               end
  | CAmount => match j with JStr s => parse_unsigned (2 ^ 64) s | _ => None end
  | CContractAddress =>
      match j with
      | JObj fs => match obj_get s_index fs with
                   | Some (JNum i) =>
                       if is_u64 i then
                         Some (Z.to_N i, Z.to_N match obj_get s_subindex fs with
                                                | Some (JNum z) => if is_u64 z then z else 0%Z
                                                | _ => 0%Z
                                                end)
                       else None
                   | _ => None
                   end
      | _ => None
      end
  | CPair a b => match j with
                 | JArr [x; y] => match denote a x, denote b y with Some u, Some v => Some (u, v) | _, _ => None end
                 | _ => None
                 end
  | CList _ a | CSet _ a | CArray _ a => match j with JArr vs => map_opt (denote a) vs | _ => None end
  | CMap _ k v =>
      match j with
      | JArr es => map_opt (fun e => match e with
                                     | JArr [x; y] => match denote k x, denote v y with
                                                      | Some u, Some w => Some (u, w)
                                                      | _, _ => None
                                                      end
                                     | _ => None
                                     end) es
      | _ => None
      end
  | COption a =>
      match j with
      | JObj [(name, fv)] =>
          if str_eqb s_None name then Some None
          else if str_eqb s_Some name then
                 match fv with
                 | JArr [x] => match denote a x with Some u => Some (Some u) | None => None end
                 | _ => None
                 end
               else None
      | _ => None
      end
  | CString _ => match j with JStr x => Some x | _ => None end
  | CByteList _ => match j with JStr x => hex_decode x | _ => None end
  end.

Lemma le_bytes_le : forall k n, le_bytes k n = le k n.
Proof. induction k as [|k IH]; intros n; [reflexivity|]. cbn [le_bytes le]. rewrite IH. reflexivity. Qed.

Lemma pow256_2 : forall k : nat, 256 ^ N.of_nat k = 2 ^ (8 * N.of_nat k).
Proof. intros. change 256 with (2 ^ 8). rewrite <- N.pow_mul_r. reflexivity. Qed.

Lemma enc_sint : forall k z, enc (c_sint k) z = le_signed k z.
Proof.
  intros. unfold c_sint, c_map, le_signed, of_signed. cbn [enc c_uint]. rewrite le_bytes_le.
  rewrite pow256_2, Z_N_pow256. reflexivity.
Qed.

Lemma signed_range_of : forall k z, (0 < k)%nat ->
  (- 2 ^ (8 * Z.of_nat k - 1) <= z < 2 ^ (8 * Z.of_nat k - 1))%Z -> signed_range k z.
Proof.
  intros k z Hk H. unfold signed_range. rewrite N2Z.inj_pow.
  replace (Z.of_N (8 * N.of_nat k - 1)) with (8 * Z.of_nat k - 1)%Z by lia. exact H.
Qed.

Lemma enc_len_vec : forall s n l, enc_len s n = Some l ->
  l = le_bytes (sl_bytes s) (N.of_nat n) /\ N.of_nat n < 256 ^ N.of_nat (sl_bytes s).
Proof.
  intros s n l H. apply enc_len_some_iff in H. destruct H as [Hlt ->].
  split; [symmetry; apply le_bytes_le | rewrite pow256_2; exact Hlt].
Qed.

Definition den {A} (c : codec A) (f : json -> option (list N)) (d : json -> option A) : Prop :=
  forall j bs, json_wf j = true -> f j = Some bs -> exists v, d j = Some v /\ wf c v /\ bs = enc c v.

Lemma from_list_denote : forall {A} (c : codec A) (f : json -> option (list N)) (d : json -> option A) vs p,
  (forall v, In v vs -> json_wf v = true) -> den c f d ->
  from_list f vs = Some p ->
  exists xs, map_opt d vs = Some xs /\ Forall (wf c) xs /\ p = enc_elems c xs /\ length xs = length vs.
Proof.
  induction vs as [|v vs IH]; intros p Hj Hi H; cbn [from_list] in H.
  - injection H as <-. exists []. repeat split; auto.
  - destruct (f v) as [a|] eqn:Ea; [|discriminate]. destruct (from_list f vs) as [b|] eqn:Eb; [|discriminate].
    injection H as <-.
    destruct (Hi v a (Hj v (or_introl eq_refl)) Ea) as [x [Hd [Hw ->]]].
    destruct (IH b (fun v0 Hin => Hj v0 (or_intror Hin)) Hi eq_refl) as [xs [Hm [Hf [-> Hl]]]].
    exists (x :: xs). cbn [map_opt]. rewrite Hd, Hm. repeat split; auto. cbn [length]. lia.
Qed.

Lemma pair_den : forall {A B} (ca : codec A) (cb : codec B) fa fb da db, den ca fa da -> den cb fb db ->
  den (c_pair ca cb) (from_pair fa fb)
      (fun j => match j with
                | JArr [x; y] => match da x, db y with Some u, Some v => Some (u, v) | _, _ => None end
                | _ => None
                end).
Proof.
  unfold den, from_pair. intros A B ca cb fa fb da db Da Db j bs Hj H.
  destruct j as [| | | | |l|]; try discriminate. destruct l as [|x [|y [|]]]; try discriminate.
  destruct (fa x) as [p|] eqn:Ea; [|discriminate]. destruct (fb y) as [q|] eqn:Eb; [|discriminate]. injection H as <-.
  destruct (json_wf_pair _ _ Hj) as [Hx Hy].
  destruct (Da _ _ Hx Ea) as [u [Hu [Hwu ->]]]. destruct (Db _ _ Hy Eb) as [v [Hv [Hwv ->]]].
  exists (u, v). rewrite Hu, Hv. repeat split; auto.
Qed.

Lemma seq_den : forall {A} s (c : codec A) f d, den c f d ->
  den (c_vec c (sl_bytes s) rsv_std) (from_seq s f) (fun j => match j with JArr vs => map_opt d vs | _ => None end).
Proof.
  unfold den at 2, from_seq. intros A s c f d D j bs Hj H. destruct j as [| | | | |vs|]; try discriminate.
  destruct (enc_len s (length vs)) as [l|] eqn:El; [|discriminate].
  destruct (from_list f vs) as [p|] eqn:Ep; [|discriminate]. injection H as <-.
  destruct (from_list_denote c f d vs p (fun v => json_wf_arr vs v Hj) D Ep) as [xs [Hm [Hf [-> Hl]]]].
  destruct (enc_len_vec _ _ _ El) as [-> Hlen].
  exists xs. rewrite Hm. cbn [wf enc c_vec]. rewrite Hl. repeat split; auto.
Qed.

Lemma bytes_u8_elems : forall b, enc_elems c_u8 b = map (fun x => x mod 256) b.
Proof. induction b as [|x b IH]; [reflexivity|]. unfold enc_elems in *. cbn [map concat]. rewrite IH. reflexivity. Qed.

Lemma inr_range : forall lo hi b, inr lo hi b = true -> lo <= b <= hi.
Proof. unfold inr. intros lo hi b H. apply andb_true_iff in H. destruct H as [H1 H2]. apply N.leb_le in H1, H2. lia. Qed.
Lemma cont_range : forall b, cont b = true -> b <= 191.
Proof. unfold cont. intros b H. apply andb_true_iff in H. destruct H as [_ H2]. apply N.leb_le in H2. exact H2. Qed.

Lemma utf8_valid_cons : forall b0 r, SchemaJson.utf8_valid (b0 :: r) =
      if b0 <? 128 then SchemaJson.utf8_valid r
      else if inr 194 223 b0 then
        match r with b1 :: r1 => cont b1 && SchemaJson.utf8_valid r1 | _ => false end
      else if inr 224 239 b0 then
        match r with
        | b1 :: b2 :: r2 =>
            (if b0 =? 224 then inr 160 191 b1 else if b0 =? 237 then inr 128 159 b1 else cont b1)
            && cont b2 && SchemaJson.utf8_valid r2
        | _ => false
        end
      else if inr 240 244 b0 then
        match r with
        | b1 :: b2 :: b3 :: r3 =>
            (if b0 =? 240 then inr 144 191 b1 else if b0 =? 244 then inr 128 143 b1 else cont b1)
            && cont b2 && cont b3 && SchemaJson.utf8_valid r3
        | _ => false
        end
      else false.
Proof. reflexivity. Qed.

Lemma utf8_valid_bytes : forall s, SchemaJson.utf8_valid s = true -> Forall (fun b => b < 256) s.
Proof.
  fix IH 1. intros s H. destruct s as [|b0 r]; [constructor|]. rewrite utf8_valid_cons in H.
  destruct (N.ltb_spec b0 128).
  - constructor; [lia|]. apply IH; exact H.
  - destruct (inr 194 223 b0) eqn:E2.
    + apply inr_range in E2. destruct r as [|b1 r1]; [discriminate|].
      apply andb_true_iff in H. destruct H as [H1 H2]. apply cont_range in H1.
      constructor; [lia|]. constructor; [lia|]. apply IH; exact H2.
    + destruct (inr 224 239 b0) eqn:E3.
      { apply inr_range in E3. destruct r as [|b1 [|b2 r2]]; try discriminate.
        apply andb_true_iff in H. destruct H as [H H3]. apply andb_true_iff in H. destruct H as [H1 H2].
        apply cont_range in H2.
        assert (b1 <= 191).
        { destruct (b0 =? 224); [apply inr_range in H1; lia|].
          destruct (b0 =? 237); [apply inr_range in H1; lia|]. apply cont_range; exact H1. }
        constructor; [lia|]. constructor; [lia|]. constructor; [lia|]. apply IH; exact H3. }
      { destruct (inr 240 244 b0) eqn:E4; [|discriminate].
        apply inr_range in E4. destruct r as [|b1 [|b2 [|b3 r3]]]; try discriminate.
        apply andb_true_iff in H. destruct H as [H H4]. apply andb_true_iff in H. destruct H as [H H3].
        apply andb_true_iff in H. destruct H as [H1 H2]. apply cont_range in H2, H3.
        assert (b1 <= 191).
        { destruct (b0 =? 240); [apply inr_range in H1; lia|].
          destruct (b0 =? 244); [apply inr_range in H1; lia|]. apply cont_range; exact H1. }
        constructor; [lia|]. constructor; [lia|]. constructor; [lia|]. constructor; [lia|].
        apply IH; exact H4. }
Qed.

Lemma hex_val_lt : forall c x, hex_val c = Some x -> x < 16.
Proof.
  unfold hex_val. intros c x H.
  destruct ((48 <=? c) && (c <=? 57)) eqn:E1.
  { injection H as <-. apply andb_true_iff in E1. destruct E1 as [A B]. apply N.leb_le in A, B. lia. }
  destruct ((97 <=? c) && (c <=? 102)) eqn:E2.
  { injection H as <-. apply andb_true_iff in E2. destruct E2 as [A B]. apply N.leb_le in A, B. lia. }
  destruct ((65 <=? c) && (c <=? 70)) eqn:E3; [|discriminate].
  injection H as <-. apply andb_true_iff in E3. destruct E3 as [A B]. apply N.leb_le in A, B. lia.
Qed.

Lemma hex_decode_cons2 : forall a b r, hex_decode (a :: b :: r) =
  match hex_val a, hex_val b with
  | Some x, Some y => match hex_decode r with Some bs => Some (16 * x + y :: bs) | None => None end
  | _, _ => None
  end.
Proof. reflexivity. Qed.

Lemma hex_decode_bytes : forall s b, hex_decode s = Some b -> Forall (fun x => x < 256) b.
Proof.
  fix IH 1. intros s b H. destruct s as [|x [|y r]].
  - injection H as <-. constructor.
  - discriminate H.
  - specialize (IH r). rewrite hex_decode_cons2 in H.
    destruct (hex_val x) as [u|] eqn:Ex; [|discriminate H]. destruct (hex_val y) as [v|] eqn:Ey; [|discriminate H].
    destruct (hex_decode r) as [bs|]; [|discriminate H]. injection H as <-.
    apply hex_val_lt in Ex. apply hex_val_lt in Ey. constructor; [lia|]. exact (IH bs eq_refl).
Qed.

(** a byte string behind its length prefix is the [Vec<u8>] encoding of itself *)
Lemma with_len_den : forall s b bs, Forall (fun x => x < 256) b -> with_len s b = Some bs ->
  wf (c_vec c_u8 (sl_bytes s) rsv_std) b /\ bs = enc (c_vec c_u8 (sl_bytes s) rsv_std) b.
Proof.
  unfold with_len. intros s b bs Hb H.
  assert (He : enc_elems c_u8 b = b /\ Forall (wf c_u8) b).
  { clear H. induction Hb as [|x b Hx Hb [IH1 IH2]]; [split; [reflexivity|constructor]|]. split.
    - unfold enc_elems in *. cbn [map concat]. rewrite IH1. unfold c_u8. cbn [enc c_uint le_bytes app].
      rewrite N.mod_small by exact Hx. reflexivity.
    - constructor; [exact Hx | exact IH2]. }
  destruct (enc_len s (length b)) as [l|] eqn:El; [|discriminate].
  injection H as <-. destruct (enc_len_vec _ _ _ El) as [-> Hlen]. cbn [wf enc c_vec].
  destruct He as [-> Hw]. repeat split; auto.
Qed.

Section WithLeaves.
Variable L : leaves.

Definition E_cty (c : cty) : Prop := den (codec_of c) (from_json L (ty_of c)) (denote c).

Lemma uint_den : forall k : nat, (k <= 8)%nat ->
  den (c_uint k) (from_unum k)
      (fun j => match j with
                | JNum z => if ((0 <=? z) && (z <? 2 ^ (8 * Z.of_nat k)))%Z then Some (Z.to_N z) else None
                | _ => None
                end).
Proof.
  unfold den, from_unum. intros k Hk j bs _ H. destruct j; try discriminate.
  destruct (is_u64 z && (z <? 2 ^ (8 * Z.of_nat k))%Z) eqn:E; [|discriminate]. injection H as <-.
  apply andb_true_iff in E. destruct E as [E1 E2]. unfold is_u64 in E1. apply andb_true_iff in E1. destruct E1 as [E0 _].
  rewrite E0, E2. cbn [andb]. exists (Z.to_N z). apply Z.leb_le in E0. apply Z.ltb_lt in E2.
  split; [reflexivity|]. split; [|symmetry; apply le_bytes_le].
  cbn [wf c_uint]. rewrite pow256_2. apply N2Z.inj_lt. rewrite Z2N.id by lia. rewrite Z_N_pow256. exact E2.
Qed.

Lemma sint_den : forall k : nat, (0 < k)%nat ->
  den (c_sint k) (from_snum k)
      (fun j => match j with
                | JNum z => if ((- 2 ^ (8 * Z.of_nat k - 1) <=? z) && (z <? 2 ^ (8 * Z.of_nat k - 1)))%Z then Some z else None
                | _ => None
                end).
Proof.
  unfold den, from_snum. intros k Hk j bs _ H. destruct j; try discriminate.
  match type of H with (if ?c then _ else _) = _ => destruct c eqn:E; [|discriminate] end. injection H as <-.
  apply andb_true_iff in E. destruct E as [E E2]. apply andb_true_iff in E. destruct E as [_ E1].
  rewrite E1, E2. cbn [andb]. exists z. apply Z.leb_le in E1. apply Z.ltb_lt in E2.
  split; [reflexivity|]. split; [apply signed_range_of; auto|]. rewrite enc_sint. reflexivity.
Qed.

Lemma dec_u_den : forall k : nat,
  den (c_uint k) (from_dec_u k (2 ^ (8 * N.of_nat k)))
      (fun j => match j with JStr s => parse_unsigned (2 ^ (8 * N.of_nat k)) s | _ => None end).
Proof.
  unfold den, from_dec_u. intros k j bs _ H. destruct j; try discriminate.
  destruct (parse_unsigned _ s) as [n|] eqn:E; [|discriminate]. injection H as <-.
  exists n. split; [reflexivity|]. split; [|symmetry; apply le_bytes_le].
  cbn [wf c_uint]. rewrite pow256_2. exact (parse_unsigned_bound _ _ _ E).
Qed.

Lemma contract_encoding_all : forall c, E_cty c.
Proof.
  induction c; unfold E_cty, den in *; intros j bs Hj H.
  - (* unit *) cbn in H. injection H as <-. exists tt. repeat split; auto; try exact I.
  - (* bool *) cbn in H. destruct j; try discriminate. injection H as <-. exists b. repeat split; auto; try exact I; try (destruct b; reflexivity).
  - (* uint: JSON numbers up to 64 bits, a decimal string for 128 *)
    pose proof (uint_den (iw_bytes w)) as U.
    destruct w; [exact (U ltac:(cbn; lia) j bs Hj H) .. | exact (dec_u_den 16 j bs Hj H)].
  - (* sint *) pose proof (sint_den (iw_bytes w)) as S.
    destruct w; [exact (S ltac:(cbn; lia) j bs Hj H) .. | clear S].
    cbn [ty_of from_json] in H. cbn [denote codec_of iw_bytes].
      destruct j; try discriminate. destruct (parse_signed 128 s) as [z|] eqn:E; [|discriminate].
      injection H as <-. exists z. split; [reflexivity|]. split.
      * apply parse_signed_bound in E. apply (signed_range_of 16); [lia|exact E].
      * rewrite enc_sint. reflexivity.
  - (* Amount *) exact (dec_u_den 8 j bs Hj H).
  - (* ContractAddress *) cbn [ty_of from_json] in H. destruct j as [| | | | | |fs]; try discriminate.
    destruct (length fs <=? 2)%nat; [|discriminate].
    destruct (obj_get s_index fs) as [[| | i | | | |]|] eqn:Ei; try discriminate.
    destruct (is_u64 i) eqn:Eu; [|discriminate]. inj H.
    cbn [denote]. rewrite Ei, Eu. fold (ca_sub fs).
    destruct (is_u64_to_N _ Eu) as [Hi _]. destruct (is_u64_to_N _ (ca_sub_u64 fs)) as [Hs _].
    eexists. split; [reflexivity|].
    cbn [codec_of]. unfold c_u64. cbn [wf enc c_pair c_uint fst snd].
    split; [split; assumption|]. rewrite <- !le_bytes_le. reflexivity.
  - (* Pair *) exact (pair_den _ _ _ _ _ _ IHc1 IHc2 j bs Hj H).
  - (* List *) exact (seq_den s _ _ _ IHc j bs Hj H).
  - (* Set *) exact (seq_den s _ _ _ IHc j bs Hj H).
  - (* Map *) exact (seq_den s _ _ _ (pair_den _ _ _ _ _ _ IHc1 IHc2) j bs Hj H).
  - (* Array *) cbn [ty_of from_json] in H. fold (from_json L) in H. destruct j as [| | | | |vs|]; try discriminate.
    destruct (N.eqb_spec (N.of_nat (length vs) mod 2 ^ 32) (N.of_nat n)) as [En|]; [|discriminate].
    cbn [json_wf] in Hj. apply andb_true_iff in Hj. destruct Hj as [Hlen Hj]. apply N.ltb_lt in Hlen.
    rewrite N.mod_small in En by assumption.
    destruct (from_list_denote (codec_of c) _ (denote c) vs bs
                (fun v Hin => forallb_In _ _ _ Hj Hin) IHc H) as [xs [Hm [Hf [-> Hl]]]].
    exists xs. cbn [denote]. rewrite Hm. cbn [codec_of wf enc c_array]. repeat split; auto. lia.
  - (* Option *) cbn [ty_of from_json] in H. fold (from_json L) (from_variants L) in H.
    destruct j as [| | | | | |m]; try discriminate. destruct m as [|[name fv] [|]]; try discriminate.
    cbn [json_wf forallb snd] in Hj. apply andb_true_iff in Hj. destruct Hj as [Hfv _].
    cbn [denote]. cbn [from_variants from_fields from_tys] in H. fold (from_json L) in H.
    destruct (str_eqb s_None name).
    + cbn [variants_len] in H. injection H as <-. exists None. repeat split; auto; try exact I.
    + destruct (str_eqb s_Some name); [|discriminate].
      destruct fv as [| | | | |vs|]; try discriminate.
      destruct vs as [|x [|]]; cbn [tys_len length Nat.eqb] in H; try discriminate.
      destruct (from_json L (ty_of c) x) as [p|] eqn:Ex; [|discriminate].
      cbn [variants_len] in H. injection H as <-.
      cbn [json_wf forallb] in Hfv. apply andb_true_iff in Hfv. destruct Hfv as [_ Hfv].
      apply andb_true_iff in Hfv. destruct Hfv as [Hx _].
      destruct (IHc _ _ Hx Ex) as [u [Hu [Hwu ->]]].
      exists (Some u). rewrite Hu. repeat split; auto. rewrite app_nil_r. reflexivity.
  - (* String *) cbn [ty_of from_json] in H. destruct j; try discriminate.
    cbn [json_wf] in Hj. apply andb_true_iff in Hj. destruct Hj as [Hu _].
    exists s0. split; [reflexivity|]. exact (with_len_den _ _ _ (utf8_valid_bytes s0 Hu) H).
  - (* ByteList *) cbn [ty_of from_json] in H. destruct j as [| | | |x| |]; try discriminate.
    destruct (hex_decode x) as [b|] eqn:E; [|discriminate].
    exists b. cbn [denote]. rewrite E. split; [reflexivity|]. exact (with_len_den _ _ _ (hex_decode_bytes _ _ E) H).
Qed.

Theorem bytes_are_contract_encoding_all : forall c j bs, json_wf j = true ->
  from_json L (ty_of c) j = Some bs ->
  exists v, denote c j = Some v /\ wf (codec_of c) v /\ bs = enc (codec_of c) v.
Proof. exact contract_encoding_all. Qed.

End WithLeaves.
