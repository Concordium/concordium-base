(** * ArithOpaque — [simpl] and [cbn] leave binary arithmetic on [N] alone; table sweeps; the low digit of a
    number and the rest; two's complement.

    The proofs about byte strings and text forms compute on lists and hand the numbers to [lia]; a [simpl] that
    starts evaluating [N.add] or [N.pow] on a partly known argument leaves terms nobody can read.  The setting
    is global, so requiring this file is enough. *)
From Coq Require Import NArith ZArith List Lia.
Local Open Scope N_scope.
Arguments N.add : simpl never.
Arguments N.sub : simpl never.
Arguments N.mul : simpl never.
Arguments N.pow : simpl never.
Arguments N.div : simpl never.
Arguments N.modulo : simpl never.
Arguments N.log2 : simpl never.
Arguments N.eqb : simpl never.
Arguments N.ltb : simpl never.
Arguments N.leb : simpl never.

Lemma sweep_below : forall (n : nat) (P : N -> bool),
  forallb P (map N.of_nat (seq 0 n)) = true -> forall v, v < N.of_nat n -> P v = true.
Proof.
  intros n P H v Hv. rewrite forallb_forall in H. apply H. apply in_map_iff.
  exists (N.to_nat v). split; [lia|]. apply in_seq. lia.
Qed.

Lemma sweep_inverse : forall (n : nat) (f : N -> option N) (g : N -> N),
  forallb (fun v => match f (g v) with Some w => w =? v | None => false end) (map N.of_nat (seq 0 n)) = true ->
  forall v, v < N.of_nat n -> f (g v) = Some v.
Proof.
  intros n f g H v Hv. apply (sweep_below n _ H) in Hv.
  destruct (f (g v)); [|discriminate]. apply N.eqb_eq in Hv. subst. reflexivity.
Qed.

Lemma digit_cons : forall r b v, b < r -> (b + r * v) mod r = b /\ (b + r * v) / r = v.
Proof.
  intros r b v Hb. rewrite (N.mul_comm r v).
  rewrite N.mod_add, N.div_add, N.mod_small, N.div_small by lia. split; reflexivity.
Qed.

Lemma digit_cons_Z : forall r b v, (0 <= b < r -> (b + r * v) mod r = b /\ (b + r * v) / r = v)%Z.
Proof.
  intros r b v Hb. rewrite (Z.mul_comm r v).
  rewrite Z.mod_add, Z.div_add, Z.mod_small, Z.div_small by lia. split; reflexivity.
Qed.

Lemma twos_wrap : forall M H z, (M = 2 * H -> - H <= z < H ->
  0 <= z mod M < M /\ (z mod M < H -> z mod M = z) /\ (H <= z mod M -> z mod M - M = z))%Z.
Proof.
  intros M H z HM Hz. destruct (Z.neg_nonneg_cases z) as [Hn|Hn].
  - assert (z mod M = z + M)%Z as -> by (symmetry; apply Z.mod_unique with (q := (-1)%Z); lia). lia.
  - rewrite Z.mod_small by lia. lia.
Qed.
Lemma twos_unwrap : forall M H n, (M = 2 * H -> 0 <= n < M ->
  (n < H -> n mod M = n) /\ (H <= n -> - H <= n - M < 0 /\ (n - M) mod M = n))%Z.
Proof.
  intros M H n HM Hn. split; [intros; apply Z.mod_small; lia|]. intros Hh. split; [lia|].
  symmetry. apply Z.mod_unique with (q := (-1)%Z); lia.
Qed.
