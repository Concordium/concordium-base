(** C10: the length prefix written by [from_json] ([write_bytes_for_length_of_size], schema_json.rs).
    A String / ByteList / List / Set / Map whose element count does not fit the size length is an error,
    never bytes; when it fits, the prefix is the little-endian count. *)
From Coq Require Import NArith ZArith Bool List Lia.
From CB Require Import Contract.SchemaJson Contract.SchemaJsonLemmas.
Import ListNotations.
Local Open Scope N_scope.

Definition sl_bound (s : size_len) : N := 2 ^ (8 * N.of_nat (sl_bytes s)).

Lemma from_json_string_too_long : forall (L : leaves) s x, sl_bound s <= N.of_nat (length x) -> from_json L (TString s) (JStr x) = None.
Proof. intros L s x H. apply enc_len_none_iff in H. cbn. unfold with_len. rewrite H. reflexivity. Qed.

Lemma from_json_bytelist_too_long : forall (L : leaves) s x b, hex_decode x = Some b -> sl_bound s <= N.of_nat (length b) ->
  from_json L (TByteList s) (JStr x) = None.
Proof. intros L s x b Hx H. apply enc_len_none_iff in H. cbn. rewrite Hx. unfold with_len. rewrite H. reflexivity. Qed.

Lemma from_json_list_too_long : forall (L : leaves) s e vs, sl_bound s <= N.of_nat (length vs) -> from_json L (TList s e) (JArr vs) = None.
Proof. intros L s e vs H. apply enc_len_none_iff in H. cbn. rewrite H. reflexivity. Qed.

Lemma from_json_set_too_long : forall (L : leaves) s e vs, sl_bound s <= N.of_nat (length vs) -> from_json L (TSet s e) (JArr vs) = None.
Proof. intros L s e vs H. apply enc_len_none_iff in H. cbn. rewrite H. reflexivity. Qed.

Lemma from_json_map_too_long : forall (L : leaves) s k v es, sl_bound s <= N.of_nat (length es) -> from_json L (TMap s k v) (JArr es) = None.
Proof. intros L s k v es H. apply enc_len_none_iff in H. cbn. rewrite H. reflexivity. Qed.

Lemma from_json_string_prefix : forall (L : leaves) s x b, from_json L (TString s) (JStr x) = Some b ->
  b = le (sl_bytes s) (N.of_nat (length x)) ++ x /\ N.of_nat (length x) < sl_bound s.
Proof.
  intros L s x b. cbn. unfold with_len. destruct (enc_len s (length x)) eqn:E; [|discriminate].
  apply enc_len_some_iff in E. destruct E as [Hlt ->]. intro H. inversion H. split; [reflexivity | assumption].
Qed.

Lemma from_json_list_prefix : forall (L : leaves) s e vs b, from_json L (TList s e) (JArr vs) = Some b ->
  (exists p, b = le (sl_bytes s) (N.of_nat (length vs)) ++ p) /\ N.of_nat (length vs) < sl_bound s.
Proof.
  intros L s e vs b. cbn. destruct (enc_len s (length vs)) eqn:E; [|discriminate].
  apply enc_len_some_iff in E. destruct E as [Hlt ->].
  destruct (from_list _ vs); [|discriminate]. intro H. inversion H. split; [eexists; reflexivity | assumption].
Qed.

Example sl_bound_values : sl_bound SL8 = 256 /\ sl_bound SL16 = 65536 /\ sl_bound SL32 = 4294967296.
Proof. repeat split. Qed.
