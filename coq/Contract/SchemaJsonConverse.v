(** * SchemaJsonConverse — bytes -> JSON -> bytes: what [to_json] prints is accepted by [from_json],
    denotes the bytes that were read (exactly, unless the type contains LEB128 integers, whose padded
    encodings are read but never written) and is a fixed point of [normalize]. *)
From Coq Require Import NArith ZArith Bool List Lia.
From CB Require Import Contract.SchemaJson Contract.SchemaJsonLemmas Contract.SchemaJsonProofs Contract.SchemaJsonText Contract.SchemaJsonLeb.
Import ListNotations.
Local Open Scope N_scope.

(** the text forms of the opaque leaves parse back (C16's theorems for the real codecs; the
    executable stub satisfies it, see [stub_leaves_rt]) *)
Record leaves_rt (L : leaves) : Prop := {
  acc_rt : forall a, N.of_nat (length a) = 32 -> bytes_ok a = true -> acc_parse L (acc_show L a) = Some a;
  ts_rt : forall m, m < 2 ^ 64 -> ts_parse L (ts_show L m) = Some m;
  dur_rt : forall m, m < 2 ^ 64 -> dur_parse L (dur_show L m) = Some m
}.

(** [fr] accepts with bytes [bs'], and [bs] = consumed prefix ++ [rest]; without LEB128 the prefix is [bs'] *)
Definition conv_ok (noleb : bool) (fr : option (list N)) (bs rest : list N) : Prop :=
  exists bs' pre, fr = Some bs' /\ bs = pre ++ rest /\ (noleb = true -> pre = bs').

Definition cv (noleb : bool) (f : json -> option (list N)) (t : list N -> option (json * list N))
  (g : json -> json) : Prop :=
  forall bs j rest, bytes_ok bs = true -> t bs = Some (j, rest) -> conv_ok noleb (f j) bs rest /\ g j = j.

Lemma conv_ok_padded : forall g pre rest, conv_ok false (Some g) (pre ++ rest) rest.
Proof. intros. exists g, pre. repeat split. discriminate. Qed.

Lemma conv_ok_leaf : forall noleb p rest, conv_ok noleb (Some p) (p ++ rest) rest.
Proof. intros. exists p, p. auto. Qed.

Lemma conv_ok_app : forall n1 n2 f1 f2 bs r1 r, conv_ok n1 f1 bs r1 -> conv_ok n2 f2 r1 r ->
  conv_ok (n1 && n2) (match f1, f2 with Some p, Some q => Some (p ++ q) | _, _ => None end) bs r.
Proof.
  intros n1 n2 f1 f2 bs r1 r [p [pre [-> [-> Hx]]]] [q [pre2 [-> [-> Hy]]]].
  exists (p ++ q), (pre ++ pre2). split; [reflexivity|]. split; [apply app_assoc|].
  intros Hn. apply andb_true_iff in Hn. destruct Hn. rewrite Hx, Hy by assumption. reflexivity.
Qed.

Lemma conv_ok_prefix : forall n l p r0 r, conv_ok n (Some p) r0 r -> conv_ok n (Some (l ++ p)) (l ++ r0) r.
Proof.
  intros n l p r0 r [p' [pre [E [-> Hx]]]]. inj E. exists (l ++ p'), (l ++ pre).
  split; [reflexivity|]. split; [apply app_assoc|]. intros Hn. rewrite Hx by assumption. reflexivity.
Qed.

Lemma bytes_ok_rest : forall pre rest, bytes_ok (pre ++ rest) = true -> bytes_ok rest = true.
Proof. intros. apply bytes_ok_app in H. tauto. Qed.

Lemma conv_ok_rest : forall n f bs r, conv_ok n f bs r -> bytes_ok bs = true -> bytes_ok r = true.
Proof. intros n f bs r [p [pre [_ [-> _]]]]. apply bytes_ok_rest. Qed.

Lemma is_u64_of_N : forall n, n < 2 ^ 64 -> is_u64 (Z.of_N n) = true.
Proof.
  intros n Hn. apply N2Z.inj_lt in Hn. unfold is_u64. apply andb_true_iff.
  split; [apply Z.leb_le; lia|apply Z.ltb_lt; exact Hn].
Qed.

Lemma unum_cv : forall k, (k <= 8)%nat -> cv true (from_unum k) (to_unum k) (fun j => j).
Proof.
  unfold cv, to_unum, from_unum. intros k Hk bs j rest Hb H.
  destruct (le_dec k bs) as [[n r]|] eqn:E; [|discriminate]. apply Some_inj in H. injection H as <- <-.
  destruct (le_dec_inv _ _ _ _ E Hb) as [-> [Hn _]]. split; [|reflexivity].
  assert (H64 : n < 2 ^ 64) by (apply (N.lt_le_trans _ _ _ Hn), N.pow_le_mono_r; lia).
  apply N2Z.inj_lt in Hn. rewrite Z_N_pow256 in Hn. apply Z.ltb_lt in Hn.
  rewrite is_u64_of_N, Hn by exact H64. cbn [andb]. rewrite N2Z.id. apply conv_ok_leaf.
Qed.

Lemma snum_cv : forall k, (0 < k <= 8)%nat -> cv true (from_snum k) (to_snum k) (fun j => j).
Proof.
  unfold cv, to_snum, from_snum. intros k Hk bs j rest Hb H.
  destruct (le_signed_dec k bs) as [[z r]|] eqn:E; [|discriminate]. apply Some_inj in H. injection H as <- <-.
  destruct (le_signed_dec_inv _ _ _ _ (proj1 Hk) E Hb) as [-> [Hz _]]. split; [|reflexivity].
  assert (2 ^ (8 * Z.of_nat k - 1) <= 2 ^ 63)%Z by (apply Z.pow_le_mono_r; lia).
  unfold is_i64.
  destruct (Z.leb_spec (- 2 ^ 63) z); [|lia]. destruct (Z.ltb_spec z (2 ^ 63)); [|lia].
  destruct (Z.leb_spec (- 2 ^ (8 * Z.of_nat k - 1)) z); [|lia].
  destruct (Z.ltb_spec z (2 ^ (8 * Z.of_nat k - 1))); [|lia]. apply conv_ok_leaf.
Qed.

Lemma dec_u_cv : forall k, cv true (from_dec_u k (2 ^ (8 * N.of_nat k))) (to_dec_u k)
  (fun j => match j with JStr s => norm_dec_u (2 ^ (8 * N.of_nat k)) s | _ => j end).
Proof.
  unfold cv, to_dec_u, from_dec_u, norm_dec_u. intros k bs j rest Hb H.
  destruct (le_dec k bs) as [[n r]|] eqn:E; [|discriminate]. injection H as <- <-.
  destruct (le_dec_inv _ _ _ _ E Hb) as [-> [Hn _]].
  rewrite parse_unsigned_show by exact Hn. split; [apply conv_ok_leaf|reflexivity].
Qed.

Lemma ms_cv : forall parse show, (forall m, m < 2 ^ 64 -> parse (show m) = Some m) ->
  cv true (from_ms parse) (to_ms show) (norm_ms parse show).
Proof.
  unfold cv, to_ms, from_ms, norm_ms. intros parse show R bs j rest Hb H.
  destruct (le_dec 8 bs) as [[m r]|] eqn:E; [|discriminate]. injection H as <- <-.
  destruct (le_dec_inv _ _ _ _ E Hb) as [-> [Hm _]]. change (2 ^ (8 * N.of_nat 8)) with (2 ^ 64) in Hm.
  rewrite (R m Hm). destruct (N.ltb_spec m (2 ^ 64)); [|lia]. split; [apply conv_ok_leaf|reflexivity].
Qed.

Lemma pair_cv : forall na fa ta ga nb fb tb gb, cv na fa ta ga -> cv nb fb tb gb ->
  cv (na && nb) (from_pair fa fb) (pair_item ta tb) (norm_pair ga gb).
Proof.
  unfold cv, pair_item. intros na fa ta ga nb fb tb gb Ca Cb bs j rest Hb H.
  destruct (ta bs) as [[x r]|] eqn:Ea; [|discriminate].
  destruct (tb r) as [[y r']|] eqn:Eb; [|discriminate]. injection H as <- <-.
  destruct (Ca _ _ _ Hb Ea) as [Hc Hn]. destruct (Cb _ _ _ (conv_ok_rest _ _ _ _ Hc Hb) Eb) as [Hc2 Hn2].
  unfold from_pair, norm_pair. rewrite Hn, Hn2. split; [|reflexivity]. exact (conv_ok_app _ _ _ _ _ _ _ Hc Hc2).
Qed.

Lemma dec_seq_conv : forall (item : list N -> option (json * list N)) (f : json -> option (list N)) (g : json -> json)
  (noleb : bool) n bs vs rest, cv noleb f item g ->
  bytes_ok bs = true -> dec_seq item n bs = Some (vs, rest) ->
  conv_ok noleb (from_list f vs) bs rest /\ map g vs = vs /\ length vs = n.
Proof.
  induction n as [|n IH]; intros bs vs rest Hitem Hb H; cbn [dec_seq] in H.
  - injection H as <- <-. split; [|auto]. apply (conv_ok_leaf _ []).
  - destruct (item bs) as [[v bs1]|] eqn:Ev; [|discriminate].
    destruct (dec_seq item n bs1) as [[vs' r]|] eqn:Es; [|discriminate]. injection H as <- <-.
    destruct (Hitem _ _ _ Hb Ev) as [Hc Hg].
    destruct (IH _ _ _ Hitem (conv_ok_rest _ _ _ _ Hc Hb) Es) as [Hc2 [Hm Hl]].
    cbn [from_list map length]. rewrite Hg, Hm, Hl, <- (andb_diag noleb).
    split; [exact (conv_ok_app _ _ _ _ _ _ _ Hc Hc2)|auto].
Qed.

Lemma dec_items_conv : forall (item : list N -> option (json * list N)) (f : json -> option (list N)) (g : json -> json)
  (noleb : bool) n bs vs rest, cv noleb f item g ->
  bytes_ok bs = true -> dec_items item n bs = Some (vs, rest) ->
  conv_ok noleb (from_list f vs) bs rest /\ map g vs = vs /\ N.of_nat (length vs) = n.
Proof.
  intros item f g noleb n bs vs rest Hitem Hb H. rewrite dec_items_seq in H.
  destruct (dec_seq_conv _ _ _ _ _ _ _ _ Hitem Hb H) as [H1 [H2 H3]]. repeat split; auto. lia.
Qed.

Lemma dec_len_inv : forall s bs n r, dec_len s bs = Some (n, r) -> bytes_ok bs = true ->
  bs = le (sl_bytes s) n ++ r /\ bytes_ok r = true /\ enc_len s (N.to_nat n) = Some (le (sl_bytes s) n).
Proof.
  unfold dec_len. intros s bs n r H Hb. destruct (le_dec_inv _ _ _ _ H Hb) as [-> [Hn Hr]].
  repeat split; auto. apply enc_len_some_iff. rewrite N2Nat.id. split; [exact Hn | reflexivity].
Qed.

Lemma seq_cv : forall s n f t g, cv n f t g -> cv n (from_seq s f) (to_seq s t) (norm_arr g).
Proof.
  unfold cv at 2, to_seq, from_seq, norm_arr. intros s n f t g C bs j rest Hb H.
  destruct (dec_len s bs) as [[k r]|] eqn:El; [|discriminate].
  destruct (dec_items t k r) as [[vs r']|] eqn:Ei; [|discriminate]. injection H as <- <-.
  destruct (dec_len_inv _ _ _ _ El Hb) as [-> [Hr Hel]].
  destruct (dec_items_conv _ f g n _ _ _ _ C Hr Ei) as [[p [pre [Hf [-> Hx]]]] [Hm Hlen]]. subst k.
  rewrite Nat2N.id in Hel. rewrite Hel, Hf, Hm. split; [|reflexivity].
  apply conv_ok_prefix. exists p, pre. auto.
Qed.

Lemma dec_string_inv : forall s bs x r, dec_string s bs = Some (x, r) -> bytes_ok bs = true ->
  exists l, with_len s x = Some (l ++ x) /\ bs = (l ++ x) ++ r /\ bytes_ok r = true /\ bytes_ok x = true.
Proof.
  unfold dec_string, with_len. intros s bs x r H Hb.
  destruct (dec_len s bs) as [[n r1]|] eqn:E; [|discriminate].
  destruct (take_n r1 n) as [[b rest]|] eqn:Et; [|discriminate].
  destruct (utf8_valid b); [|discriminate]. injection H as <- <-.
  destruct (dec_len_inv _ _ _ _ E Hb) as [-> [Hr1 Hl]].
  destruct (take_n_some _ _ _ _ Et) as [-> Hn]. subst n. rewrite Nat2N.id in Hl. rewrite Hl.
  destruct (bytes_ok_app _ _ Hr1) as [Hx Hr].
  eexists. split; [reflexivity|]. rewrite <- app_assoc. auto.
Qed.

Lemma ne_contract_func : str_eqb s_contract s_func = false. Proof. reflexivity. Qed.
Lemma ne_index_subindex : str_eqb s_index s_subindex = false. Proof. reflexivity. Qed.

Section WithLeaves.
Variable L : leaves.
Hypothesis HL : leaves_rt L.

Ltac unf_to H :=
  cbn [to_json to_fields to_nfields to_tys to_variants to_tvariants] in H;
  fold (to_json L) (to_fields L) (to_nfields L) (to_tys L) (to_variants L) (to_tvariants L) in H.
Ltac unf_goal :=
  cbn [from_json from_fields from_nfields from_tys from_variants from_tvariants
       normalize normalize_fields normalize_nfields normalize_tys normalize_variants normalize_tvariants
       ty_no_leb fields_no_leb nfields_no_leb tys_no_leb variants_no_leb tvariants_no_leb];
  fold (from_json L) (from_fields L) (from_nfields L) (from_tys L) (from_variants L) (from_tvariants L)
       (normalize L) (normalize_fields L) (normalize_nfields L) (normalize_tys L)
       (normalize_variants L) (normalize_tvariants L)
       ty_no_leb fields_no_leb nfields_no_leb tys_no_leb variants_no_leb tvariants_no_leb.
Ltac unf_df H :=
  cbn [ty_distinct_fields fields_df nfields_df tys_df variants_df tvariants_df] in H;
  fold ty_distinct_fields fields_df nfields_df tys_df variants_df tvariants_df in H.

Definition D_ty (t : ty) : Prop := ty_wf t = true -> ty_distinct_fields t = true ->
  cv (ty_no_leb t) (from_json L t) (to_json L t) (normalize L t).
Definition D_fields (f : fields) : Prop := fields_wf f = true -> fields_df f = true ->
  cv (fields_no_leb f) (from_fields L f) (to_fields L f) (normalize_fields L f).
Definition D_nfields (l : nfields) : Prop := nfields_wf l = true -> nfields_df l = true ->
  forall bs acc m rest, bytes_ok bs = true -> to_nfields L l bs acc = Some (m, rest) ->
  (forall n, In n (nf_names l) -> obj_get n acc = None) -> NoDup (nf_names l) ->
  exists kvs, m = acc ++ kvs /\ map fst kvs = nf_names l /\
    forall M, (forall k v, In (k, v) kvs -> obj_get k M = Some v) ->
      conv_ok (nfields_no_leb l) (from_nfields L l M) bs rest /\
      forall acc', (forall n, In n (nf_names l) -> obj_get n acc' = None) ->
        normalize_nfields L l M acc' = acc' ++ kvs.
Definition D_tys (l : tys) : Prop := tys_wf l = true -> tys_df l = true ->
  forall bs vs rest, bytes_ok bs = true -> to_tys L l bs = Some (vs, rest) ->
  conv_ok (tys_no_leb l) (from_tys L l vs) bs rest /\ normalize_tys L l vs = vs /\ length vs = tys_len l.
Definition D_variants (vs : variants) : Prop := variants_wf vs = true -> variants_df vs = true -> NoDup (v_names vs) ->
  forall i bs j rest, bytes_ok bs = true -> to_variants L vs i bs = Some (j, rest) ->
  exists name fv, j = JObj [(name, fv)] /\ In name (v_names vs) /\ i < N.of_nat (variants_len vs)
    /\ normalize_variants L vs name fv = fv
    /\ exists bs' pre, (forall i0, from_variants L vs name fv i0 = Some (i0 + i, bs'))
         /\ bs = pre ++ rest /\ (variants_no_leb vs = true -> pre = bs').
Definition D_tvariants (vs : tvariants) : Prop := tvariants_wf vs = true -> tvariants_df vs = true -> NoDup (tv_names vs) ->
  forall tag bs j rest, bytes_ok bs = true -> to_tvariants L vs tag bs = Some (j, rest) ->
  exists name fv, j = JObj [(name, fv)] /\ In name (tv_names vs)
    /\ normalize_tvariants L vs name fv = fv
    /\ exists bs' pre, from_tvariants L vs name fv = Some (tag :: bs')
         /\ bs = pre ++ rest /\ (tvariants_no_leb vs = true -> pre = bs').

Lemma converse_all :
  (forall t, D_ty t) /\ (forall f, D_fields f) /\ (forall l, D_nfields l) /\ (forall l, D_tys l)
  /\ (forall vs, D_variants vs) /\ (forall vs, D_tvariants vs).
Proof.
  apply ty_mutind; unfold D_ty, D_fields, D_nfields, D_tys, D_variants, D_tvariants, cv.
  - (* Unit *) intros _ _ bs j rest Hb H. unf_to H. injection H as <- <-. unf_goal.
    split; [apply (conv_ok_leaf _ [])|reflexivity].
  - (* Bool *) intros _ _ bs j rest Hb H. unf_to H. destruct bs as [|b r]; [discriminate|].
    destruct b as [|[p|p|]]; try discriminate; injection H as <- <-; unf_goal.
    + split; [apply (conv_ok_leaf _ [0])|reflexivity].
    + split; [apply (conv_ok_leaf _ [1])|reflexivity].
  - (* U8 *) exact (fun _ _ => unum_cv 1 ltac:(lia)).
  - (* U16 *) exact (fun _ _ => unum_cv 2 ltac:(lia)).
  - (* U32 *) exact (fun _ _ => unum_cv 4 ltac:(lia)).
  - (* U64 *) exact (fun _ _ => unum_cv 8 ltac:(lia)).
  - (* U128 *) exact (fun _ _ => dec_u_cv 16).
  - (* I8 *) exact (fun _ _ => snum_cv 1 ltac:(lia)).
  - (* I16 *) exact (fun _ _ => snum_cv 2 ltac:(lia)).
  - (* I32 *) exact (fun _ _ => snum_cv 4 ltac:(lia)).
  - (* I64 *) exact (fun _ _ => snum_cv 8 ltac:(lia)).
  - (* I128 *) intros _ _ bs j rest Hb H. unf_to H.
    destruct (le_signed_dec 16 bs) as [[z r]|] eqn:E; [|discriminate]. injection H as <- <-.
    destruct (le_signed_dec_inv 16 _ _ _ ltac:(lia) E Hb) as [-> [Hz _]].
    change (8 * Z.of_nat 16 - 1)%Z with (128 - 1)%Z in Hz.
    unf_goal. rewrite parse_signed_show by exact Hz. split; [apply conv_ok_leaf|reflexivity].
  - (* Amount *) exact (fun _ _ => dec_u_cv 8).
  - (* AccountAddress *) intros _ _ bs j rest Hb H. unf_to H.
    destruct (take_n bs 32) as [[a r]|] eqn:E; [|discriminate]. injection H as <- <-.
    destruct (take_n_some _ _ _ _ E) as [-> Hl]. destruct (bytes_ok_app _ _ Hb) as [Ha _].
    unf_goal. rewrite (acc_rt L HL a Hl Ha). rewrite Hl. rewrite N.eqb_refl.
    split; [apply conv_ok_leaf|reflexivity].
  - (* ContractAddress *) intros _ _ bs j rest Hb H. unf_to H.
    destruct (le_dec 8 bs) as [[i r]|] eqn:E; [|discriminate].
    destruct (le_dec 8 r) as [[s r']|] eqn:E2; [|discriminate]. injection H as <- <-.
    destruct (le_dec_inv _ _ _ _ E Hb) as [-> [Hi Hr]]. destruct (le_dec_inv _ _ _ _ E2 Hr) as [-> [Hs _]].
    change (2 ^ (8 * N.of_nat 8)) with (2 ^ 64) in Hi, Hs.
    unf_goal. cbn [length Nat.leb obj_get]. rewrite (str_eqb_refl s_index), ne_index_subindex, (str_eqb_refl s_subindex), !is_u64_of_N by assumption.
    rewrite !N2Z.id, app_assoc. split; [apply conv_ok_leaf|reflexivity].
  - (* Timestamp *) intros _ _. rewrite from_json_timestamp, to_json_timestamp, normalize_timestamp.
    exact (ms_cv _ _ (ts_rt L HL)).
  - (* Duration *) intros _ _. rewrite from_json_duration, to_json_duration, normalize_duration.
    exact (ms_cv _ _ (dur_rt L HL)).
  - (* Pair *) intros a IHa b IHb Hw Hd. unf_wf Hw. unf_df Hd. split_and Hw. split_and Hd.
    rewrite from_json_pair, to_json_pair, normalize_pair.
    exact (pair_cv _ _ _ _ _ _ _ _ (IHa Hw Hd) (IHb Hw0 Hd0)).
  - (* List *) intros s e IHe Hw Hd. rewrite from_json_list, to_json_list, normalize_list.
    exact (seq_cv s _ _ _ _ (IHe Hw Hd)).
  - (* Set *) intros s e IHe Hw Hd. rewrite from_json_set, to_json_set, normalize_set.
    exact (seq_cv s _ _ _ _ (IHe Hw Hd)).
  - (* Map *) intros s k IHk v IHv Hw Hd. unf_wf Hw. unf_df Hd. split_and Hw. split_and Hd.
    rewrite from_json_map, to_json_map, normalize_map.
    exact (seq_cv s _ _ _ _ (pair_cv _ _ _ _ _ _ _ _ (IHk Hw Hd) (IHv Hw0 Hd0))).
  - (* Array *) intros n e IHe Hw Hd bs j rest Hb H. unf_wf Hw. unf_df Hd. split_and Hd. apply N.ltb_lt in Hd. unf_to H.
    destruct (dec_items (to_json L e) n bs) as [[vs r']|] eqn:Ei; [|discriminate]. injection H as <- <-.
    destruct (dec_items_conv _ _ _ _ _ _ _ _ (IHe Hw Hd0) Hb Ei) as [Hc [Hm Hlen]].
    unf_goal. rewrite Hlen. rewrite N.mod_small by exact Hd. rewrite N.eqb_refl, Hm. split; [exact Hc|reflexivity].
  - (* Struct *) intros f IHf Hw Hd bs j rest Hb H. unf_wf Hw. unf_df Hd. unf_to H. unf_goal. apply IHf; auto.
  - (* Enum *) intros vs IHvs Hw Hd bs j rest Hb H. unf_wf Hw. unf_df Hd. split_and Hd.
    apply nodup_str_NoDup in Hd. apply N.leb_le in Hd1. unf_to H.
    set (k := if N.of_nat (variants_len vs) <=? 256 then 1%nat else 2%nat).
    assert (Hk : (if N.of_nat (variants_len vs) <=? 256 then le_dec 1 bs else le_dec 2 bs) = le_dec k bs)
      by (unfold k; destruct (_ <=? 256); reflexivity).
    rewrite Hk in H.
    destruct (le_dec _ bs) as [[i r]|] eqn:E; [|discriminate].
    destruct (le_dec_inv _ _ _ _ E Hb) as [-> [Hi Hr]].
    destruct (IHvs Hw Hd0 Hd _ _ _ _ Hr H) as [name [fv [-> [Hin [Hlt [Hn [bs' [pre [Hfrom [-> Hx]]]]]]]]]].
    unf_goal. rewrite (Hfrom 0), N.add_0_l, Hn. split; [|reflexivity].
    destruct (N.leb_spec (N.of_nat (variants_len vs)) 65536); [|lia].
    unfold k. destruct (N.of_nat (variants_len vs) <=? 256); apply conv_ok_prefix; exists bs', pre; auto.
  - (* String *) intros s _ _ bs j rest Hb H. unf_to H.
    destruct (dec_string s bs) as [[x r]|] eqn:E; [|discriminate]. injection H as <- <-.
    destruct (dec_string_inv _ _ _ _ E Hb) as [l [Hwl [-> _]]].
    unf_goal. rewrite Hwl. split; [apply conv_ok_leaf|reflexivity].
  - (* ContractName *) intros s _ _ bs j rest Hb H. unf_to H.
    destruct (dec_string s bs) as [[x r]|] eqn:E; [|discriminate].
    destruct (valid_contract_name x) eqn:Ev; [|discriminate].
    remember (skipn 5 x) as nm eqn:Enm. injection H as <- <-.
    destruct (dec_string_inv _ _ _ _ E Hb) as [l [Hwl [-> _]]].
    assert (Hx : s_init_ ++ nm = x).
    { subst nm. unfold valid_contract_name in Ev. split_and Ev. exact (starts_with_skipn s_init_ x Ev). }
    unf_goal. rewrite str_eqb_refl, Hx, Ev, Hwl. split; [apply conv_ok_leaf|reflexivity].
  - (* ReceiveName *) intros s _ _ bs j rest Hb H. unf_to H.
    destruct (dec_string s bs) as [[x r]|] eqn:E; [|discriminate].
    destruct (valid_receive_name x) eqn:Ev; [|discriminate].
    destruct (split_dot x) as [c f] eqn:Es. injection H as <- <-.
    destruct (dec_string_inv _ _ _ _ E Hb) as [l [Hwl [-> _]]].
    assert (Hdot : has_dot x = true) by (unfold valid_receive_name in Ev; split_and Ev; exact Ev).
    destruct (split_dot_inv _ _ _ Hdot Es) as [Hx Hc].
    unf_goal. cbn [obj_get length Nat.eqb]. rewrite (str_eqb_refl s_contract), ne_contract_func, (str_eqb_refl s_func).
    rewrite Hc. cbn [negb andb]. rewrite <- Hx, Ev, Hwl. split; [apply conv_ok_leaf|reflexivity].
  - (* ULeb128 *) intros c _ _ bs j rest Hb H. unf_to H.
    destruct (uleb_dec bs c 0 0) as [[n r]|] eqn:E; [|discriminate]. injection H as <- <-.
    destruct (uleb_dec_enc _ _ _ _ Hb E) as [g [pre [He ->]]].
    unf_goal. rewrite parse_biguint_show, He. split; [apply conv_ok_padded|reflexivity].
  - (* ILeb128 *) intros c _ _ bs j rest Hb H. unf_to H.
    destruct (sleb_dec bs c 0 0) as [[z r]|] eqn:E; [|discriminate]. injection H as <- <-.
    destruct (sleb_dec_enc _ _ _ _ Hb E) as [g [pre [He ->]]].
    unf_goal. rewrite parse_bigint_show, He. split; [apply conv_ok_padded|reflexivity].
  - (* ByteList *) intros s _ _ bs j rest Hb H. unf_to H.
    destruct (dec_len s bs) as [[n r]|] eqn:El; [|discriminate].
    destruct (take_n r n) as [[b r']|] eqn:Et; [|discriminate]. injection H as <- <-.
    destruct (dec_len_inv _ _ _ _ El Hb) as [-> [Hr Hel]].
    destruct (take_n_some _ _ _ _ Et) as [-> Hn]. subst n. rewrite Nat2N.id in Hel.
    destruct (bytes_ok_app _ _ Hr) as [Hbb _].
    unf_goal. rewrite hex_decode_encode by exact Hbb. unfold with_len. rewrite Hel, app_assoc.
    split; [apply conv_ok_leaf|reflexivity].
  - (* ByteArray *) intros n _ Hd bs j rest Hb H. unf_df Hd. apply N.ltb_lt in Hd. unf_to H.
    destruct (take_n bs n) as [[b r']|] eqn:Et; [|discriminate]. injection H as <- <-.
    destruct (take_n_some _ _ _ _ Et) as [-> Hn]. destruct (bytes_ok_app _ _ Hb) as [Hbb _].
    unf_goal. rewrite hex_decode_encode by exact Hbb. rewrite Hn, N.mod_small by exact Hd. rewrite N.eqb_refl.
    split; [apply conv_ok_leaf|reflexivity].
  - (* TaggedEnum *) intros vs IHvs Hw Hd bs j rest Hb H. unf_wf Hw. unf_df Hd. split_and Hw. split_and Hd.
    apply nodup_str_NoDup in Hd. unf_to H. destruct bs as [|tag r]; [discriminate|].
    assert (Hr : bytes_ok r = true) by (apply (bytes_ok_rest [tag] r); exact Hb).
    destruct (IHvs Hw0 Hd0 Hd _ _ _ _ Hr H) as [name [fv [-> [Hin [Hn [bs' [pre [Hfrom [-> Hx]]]]]]]]].
    unf_goal. rewrite Hfrom, Hn. split; [|reflexivity].
    apply (conv_ok_prefix _ [tag]). exists bs', pre. auto.
  - (* FNamed *) intros l IHl Hw Hd bs j rest Hb H. unf_wf Hw. unf_df Hd. split_and Hd. apply nodup_str_NoDup in Hd.
    unf_to H. destruct (to_nfields L l bs []) as [[m r]|] eqn:E; [|discriminate]. injection H as <- <-.
    destruct (IHl Hw Hd0 _ _ _ _ Hb E (fun _ _ => eq_refl) Hd) as [kvs [-> [Hk Hall]]]. cbn [app] in *.
    assert (Hlook : forall k v, In (k, v) kvs -> obj_get k kvs = Some v).
    { intros k v Hin. apply obj_get_nodup; auto. rewrite Hk. exact Hd. }
    destruct (Hall kvs Hlook) as [Hc Hnorm].
    unf_goal. rewrite (Hnorm [] (fun _ _ => eq_refl)). cbn [app].
    assert (Hlen : length kvs = nfields_len l).
    { rewrite <- (map_length fst kvs), Hk. clear. induction l; cbn; auto. }
    rewrite Hlen, Nat.leb_refl. split; [exact Hc|reflexivity].
  - (* FUnnamed *) intros l IHl Hw Hd bs j rest Hb H. unf_wf Hw. unf_df Hd. unf_to H.
    destruct (to_tys L l bs) as [[vs r]|] eqn:E; [|discriminate]. injection H as <- <-.
    destruct (IHl Hw Hd _ _ _ Hb E) as [Hc [Hn Hlen]].
    unf_goal. rewrite Hlen, Nat.eqb_refl, Hn. split; [exact Hc|reflexivity].
  - (* FNone *) intros _ _ bs j rest Hb H. unf_to H. injection H as <- <-. unf_goal.
    split; [apply (conv_ok_leaf _ [])|reflexivity].
  - (* NFnil *) intros _ _ bs acc m rest Hb H _ _. unf_to H. injection H as <- <-.
    exists []. rewrite app_nil_r. repeat split; auto.
    + unf_goal. apply (conv_ok_leaf _ []).
    + intros. unf_goal. rewrite app_nil_r. reflexivity.
  - (* NFcons *) intros name t IHt r IHr Hw Hd bs acc m rest Hb H Habs Hnd.
    unf_wf Hw. unf_df Hd. split_and Hw. split_and Hd. cbn [nf_names] in Habs, Hnd.
    inversion Hnd as [|? ? Hnotin Hnd']; subst.
    unf_to H. destruct (to_json L t bs) as [[v bs1]|] eqn:Et; [|discriminate].
    destruct (IHt Hw Hd _ _ _ Hb Et) as [Hc Hn].
    rewrite (obj_insert_absent name v acc (Habs name (or_introl eq_refl))) in H.
    assert (Habs1 : forall acc0, (forall n, In n (name :: nf_names r) -> obj_get n acc0 = None) ->
                    forall n, In n (nf_names r) -> obj_get n (acc0 ++ [(name, v)]) = None).
    { intros acc0 Ha n Hin. rewrite obj_get_app_none by (apply Ha; right; exact Hin).
      cbn [obj_get]. rewrite str_eqb_neq; [reflexivity|]. intros ->. contradiction. }
    destruct (IHr Hw0 Hd0 _ _ _ _ (conv_ok_rest _ _ _ _ Hc Hb) H (Habs1 acc Habs) Hnd') as [kvs [-> [Hk Hall]]].
    exists ((name, v) :: kvs). rewrite <- app_assoc. cbn [app map fst nf_names]. rewrite Hk.
    split; [reflexivity|]. split; [reflexivity|].
    intros M HM.
    destruct (Hall M (fun k v0 Hin => HM k v0 (or_intror Hin))) as [Hc2 Hnorm].
    split.
    + unf_goal. rewrite (HM name v (or_introl eq_refl)). exact (conv_ok_app _ _ _ _ _ _ _ Hc Hc2).
    + intros acc' Ha'. unf_goal. rewrite (HM name v (or_introl eq_refl)), Hn.
      rewrite (obj_insert_absent name v acc' (Ha' name (or_introl eq_refl))).
      rewrite (Hnorm _ (Habs1 acc' Ha')). rewrite <- app_assoc. reflexivity.
  - (* TSnil *) intros _ _ bs vs rest Hb H. unf_to H. injection H as <- <-. unf_goal.
    repeat split; auto. apply (conv_ok_leaf _ []).
  - (* TScons *) intros t IHt r IHr Hw Hd bs vs rest Hb H. unf_wf Hw. unf_df Hd. split_and Hw. split_and Hd.
    unf_to H. destruct (to_json L t bs) as [[v bs1]|] eqn:Et; [|discriminate].
    destruct (to_tys L r bs1) as [[vs' r']|] eqn:Er; [|discriminate]. injection H as <- <-.
    destruct (IHt Hw Hd _ _ _ Hb Et) as [Hc Hn].
    destruct (IHr Hw0 Hd0 _ _ _ (conv_ok_rest _ _ _ _ Hc Hb) Er) as [Hc2 [Hn2 Hlen]].
    unf_goal. cbn [tys_len length]. rewrite Hn, Hn2, Hlen. repeat split; auto.
    exact (conv_ok_app _ _ _ _ _ _ _ Hc Hc2).
  - (* Vnil *) intros _ _ _ i bs j rest _ H. unf_to H. discriminate.
  - (* Vcons *) intros n f IHf r IHr Hw Hd Hnd i bs j rest Hb H. unf_wf Hw. unf_df Hd. split_and Hw. split_and Hd.
    cbn [v_names] in Hnd. inversion Hnd as [|? ? Hnotin Hnd']; subst.
    unf_to H. destruct (N.eqb_spec i 0) as [->|Hi].
    + destruct (to_fields L f bs) as [[v bs1]|] eqn:Ef; [|discriminate]. injection H as <- <-.
      destruct (IHf Hw Hd _ _ _ Hb Ef) as [[p [pre [Hf [-> Hx]]]] Hn].
      exists n, v. split; [reflexivity|]. split; [left; reflexivity|]. split; [cbn [variants_len]; lia|].
      unf_goal. rewrite str_eqb_refl. split; [exact Hn|].
      exists p, pre. split; [|split; [reflexivity|]].
      * intros i0. rewrite Hf. rewrite N.add_0_r. reflexivity.
      * exact (fun Hl => Hx (proj1 (andb_prop _ _ Hl))).
    + destruct (IHr Hw0 Hd0 Hnd' _ _ _ _ Hb H) as [name [fv [-> [Hin [Hlt [Hn [bs' [pre [Hfrom [-> Hx]]]]]]]]]].
      exists name, fv. split; [reflexivity|]. split; [right; exact Hin|]. split; [cbn [variants_len]; lia|].
      assert (Hne : str_eqb n name = false) by (apply str_eqb_neq; intros ->; contradiction).
      unf_goal. rewrite Hne. split; [exact Hn|].
      exists bs', pre. split; [|split; [reflexivity|]].
      * intros i0. rewrite (Hfrom (i0 + 1)). f_equal. f_equal. lia.
      * exact (fun Hl => Hx (proj2 (andb_prop _ _ Hl))).
  - (* TVnil *) intros _ _ _ tag bs j rest _ H. unf_to H. discriminate.
  - (* TVcons *) intros tg n f IHf r IHr Hw Hd Hnd tag bs j rest Hb H. unf_wf Hw. unf_df Hd. split_and Hw. split_and Hd.
    cbn [tv_names] in Hnd. inversion Hnd as [|? ? Hnotin Hnd']; subst.
    unf_to H. destruct (N.eqb_spec tg tag) as [->|Ht].
    + destruct (to_fields L f bs) as [[v bs1]|] eqn:Ef; [|discriminate]. injection H as <- <-.
      destruct (IHf Hw Hd _ _ _ Hb Ef) as [[p [pre [Hf [-> Hx]]]] Hn].
      exists n, v. split; [reflexivity|]. split; [left; reflexivity|].
      unf_goal. rewrite str_eqb_refl. split; [exact Hn|].
      exists p, pre. split; [rewrite Hf; reflexivity|]. split; [reflexivity|].
      exact (fun Hl => Hx (proj1 (andb_prop _ _ Hl))).
    + destruct (IHr Hw0 Hd0 Hnd' _ _ _ _ Hb H) as [name [fv [-> [Hin [Hn [bs' [pre [Hfrom [-> Hx]]]]]]]]].
      exists name, fv. split; [reflexivity|]. split; [right; exact Hin|].
      assert (Hne : str_eqb n name = false) by (apply str_eqb_neq; intros ->; contradiction).
      unf_goal. rewrite Hne. split; [exact Hn|].
      exists bs', pre. split; [exact Hfrom|]. split; [reflexivity|].
      exact (fun Hl => Hx (proj2 (andb_prop _ _ Hl))).
Qed.

Theorem to_json_from_json_all : forall t bs j rest,
  ty_wf t = true -> ty_distinct_fields t = true -> bytes_ok bs = true ->
  to_json L t bs = Some (j, rest) ->
  exists bs' pre, from_json L t j = Some bs' /\ bs = pre ++ rest /\ (ty_no_leb t = true -> pre = bs').
Proof. intros t bs j rest Hw Hd Hb H. exact (proj1 (proj1 converse_all t Hw Hd bs j rest Hb H)). Qed.

Theorem printed_json_normal : forall t bs j rest,
  ty_wf t = true -> ty_distinct_fields t = true -> bytes_ok bs = true ->
  to_json L t bs = Some (j, rest) -> normalize L t j = j.
Proof. intros t bs j rest Hw Hd Hb H. exact (proj2 (proj1 converse_all t Hw Hd bs j rest Hb H)). Qed.

End WithLeaves.

(** the executable leaf instance satisfies the hypothesis (non-vacuity) *)
Lemma stub_leaves_rt : leaves_rt stub_leaves.
Proof.
  split.
  - intros a Hl Hb. cbn [acc_parse acc_show stub_leaves]. rewrite hex_decode_encode by exact Hb.
    rewrite Hl. reflexivity.
  - intros m Hm. cbn [ts_parse ts_show stub_leaves]. apply parse_unsigned_show. exact Hm.
  - intros m Hm. cbn [dur_parse dur_show stub_leaves]. apply parse_unsigned_show. exact Hm.
Qed.

(** The only byte strings [to_json] reads that [from_json] never writes: LEB128 integers with
    redundant groups - unsigned: trailing groups that are zero ([80 00] for 0); signed: trailing groups that
    only repeat the sign ([ff 7f] for -1, [80 00] for 0). *)
Example leb_padding_read_not_written :
  to_json stub_leaves (TULeb128 2) [128; 0] = Some (JStr [48], []) /\ from_json stub_leaves (TULeb128 2) (JStr [48]) = Some [0]
  /\ to_json stub_leaves (TILeb128 2) [255; 127] = Some (JStr [45; 49], []) /\ from_json stub_leaves (TILeb128 2) (JStr [45; 49]) = Some [127].
Proof. vm_compute. repeat split; reflexivity. Qed.
