(** C16 - [parse_timestamp (print_timestamp ms) = Ok ms] for every u64, the calendar
    round trip behind it (one 400-year era from two evaluated tables, eras handled algebraically), and the
    refutation of the printer before the repair. *)
From Coq Require Import ZArith List Bool Lia.
From CB Require Import Contract.Text Contract.ArithOpaque Contract.TextProofs.
Import ListNotations.
Local Open Scope N_scope.

Definition doe_ok (doe : N) : bool :=
  let '(yoe, m, d) := civil_of_doe doe in
  let yy := if m <=? 2 then yoe + 1 else yoe in
  (yoe <? 400) && (1 <=? m) && (m <=? 12) && (1 <=? d) && (d <=? days_in_month yy m)
  && (doe_of_civil yoe m d =? doe) && ((146037 <=? doe) || (yy <=? 399)).

(** [civil_of_doe] works in two steps, and so does the proof.  Each step is finite by nature and
    its table is evaluated: the 400 years of an era (only at both ends of each year: the
    year-of-era formula is monotone in between), and the 366 days of a year counted from March. *)
Definition yoe_of (doe : N) : N := (doe - doe / 1460 + doe / 36524 - doe / 146096) / 365.
(** first day of a year of the era; the term [y / 400] only matters at [y = 400], the era's end *)
Definition year_start (y : N) : N := 365 * y + y / 4 - y / 100 + y / 400.

Definition year_ok (y : N) : bool :=
  (yoe_of (year_start y) =? y) && (yoe_of (year_start (y + 1) - 1) =? y)
  && (year_start (y + 1) =? year_start y + (if is_leap (y + 1) then 366 else 365))
  && (year_start (y + 1) <=? 146097).
Lemma year_table : forall y, y < 400 -> year_ok y = true.
Proof. exact (sweep_below 400 year_ok ltac:(vm_compute; reflexivity)). Qed.

(** day of the year, counted from 1 March, to month and day; day 365 is 29 February *)
Definition doy_ok (doy : N) : bool :=
  let mp := (5 * doy + 2) / 153 in
  let d := doy - (153 * mp + 2) / 5 + 1 in
  let m := if mp <? 10 then mp + 3 else mp - 9 in
  (1 <=? m) && (m <=? 12) && (1 <=? d) && (d <=? days_in_month (if doy =? 365 then 4 else 1) m)
  && ((153 * (if 2 <? m then m - 3 else m + 9) + 2) / 5 + d - 1 =? doy)
  && Bool.eqb (m <=? 2) (306 <=? doy).
Lemma doy_table : forall doy, doy < 366 -> doy_ok doy = true.
Proof. exact (sweep_below 366 doy_ok ltac:(vm_compute; reflexivity)). Qed.

Lemma div_lipschitz : forall a b n, n <> 0 -> a <= b -> a / n <= b / n <= a / n + (b - a).
Proof.
  intros a b n Hn H. split; [apply N.div_le_mono; assumption|].
  rewrite <- N.div_add by assumption. apply N.div_le_mono; [assumption|nia].
Qed.
Lemma yoe_of_mono : forall a b, a <= b -> b < 146097 -> yoe_of a <= yoe_of b.
Proof.
  assert (M : forall a b, a <= b -> b < 146096 -> yoe_of a <= yoe_of b).
  { intros a b H Hb. unfold yoe_of. rewrite (N.div_small a 146096), (N.div_small b 146096) by lia.
    apply N.div_le_mono; [lia|].
    pose proof (div_lipschitz a b 1460 ltac:(lia) H). pose proof (div_lipschitz a b 36524 ltac:(lia) H).
    pose proof (N.mul_div_le a 1460 ltac:(lia)). lia. }
  intros a b H Hb. destruct (N.eq_dec b 146096) as [->|]; [|apply M; lia].
  destruct (N.eq_dec a 146096) as [->|]; [lia|].
  change (yoe_of 146096) with (yoe_of 146095). apply M; lia.
Qed.

Lemma yoe_bracket : forall doe, doe < 146097 ->
  yoe_of doe < 400 /\ year_start (yoe_of doe) <= doe < year_start (yoe_of doe + 1).
Proof.
  intros doe H. set (y := yoe_of doe).
  assert (Hy : y <= 399) by (change 399 with (yoe_of 146096); apply yoe_of_mono; lia).
  split; [lia|]. split.
  - destruct (N.le_gt_cases (year_start y) doe) as [|Hlt]; [assumption|exfalso].
    destruct (N.eq_dec y 0) as [E|E]; [rewrite E in Hlt; change (year_start 0) with 0 in Hlt; lia|].
    pose proof (year_table (y - 1) ltac:(lia)) as T. unfold year_ok in T.
    replace (y - 1 + 1) with y in T by lia.
    rewrite !andb_true_iff in T. destruct T as (((T1 & T2) & T3) & T4).
    apply N.eqb_eq in T2. apply N.leb_le in T4.
    pose proof (yoe_of_mono doe (year_start y - 1) ltac:(lia) ltac:(lia)) as M. fold y in M. lia.
  - destruct (N.le_gt_cases (year_start (y + 1)) doe) as [Hge|]; [exfalso|assumption].
    destruct (N.eq_dec y 399) as [E|E]; [rewrite E in Hge; change (year_start (399 + 1)) with 146097 in Hge; lia|].
    pose proof (year_table (y + 1) ltac:(lia)) as T. unfold year_ok in T.
    rewrite !andb_true_iff in T. destruct T as (((T1 & T2) & T3) & T4). apply N.eqb_eq in T1.
    pose proof (yoe_of_mono (year_start (y + 1)) doe Hge H) as M. fold y in M. lia.
Qed.

Lemma days_in_month_leap : forall y y' m, (is_leap y = true -> is_leap y' = true) ->
  days_in_month y m <= days_in_month y' m.
Proof. intros y y' m L. unfold days_in_month. destruct (m =? 2); [|lia]. destruct (is_leap y); [rewrite L by reflexivity|destruct (is_leap y')]; lia. Qed.

Lemma doe_ok_all : forall doe, doe < 146097 -> doe_ok doe = true.
Proof.
  intros doe H. destruct (yoe_bracket doe H) as (Hy & Hlo & Hhi).
  pose proof (year_table _ Hy) as T. unfold year_ok in T.
  rewrite !andb_true_iff in T. destruct T as (((T1 & T2) & Len) & T4). apply N.eqb_eq in Len.
  unfold doe_ok, civil_of_doe. cbv zeta. fold (yoe_of doe). set (y := yoe_of doe) in *.
  replace (365 * y + y / 4 - y / 100) with (year_start y) by (unfold year_start; rewrite (N.div_small y 400); lia).
  set (doy := doe - year_start y).
  assert (Hdoy : doy < 366 /\ (doy = 365 -> is_leap (y + 1) = true)) by (destruct (is_leap (y + 1)); lia).
  pose proof (doy_table doy (proj1 Hdoy)) as D. unfold doy_ok in D. cbv zeta in D.
  set (mp := (5 * doy + 2) / 153) in *. set (m := if mp <? 10 then mp + 3 else mp - 9) in *.
  set (d := doy - (153 * mp + 2) / 5 + 1) in *.
  rewrite !andb_true_iff in D. destruct D as (((((D1 & D2) & D3) & D4) & D5) & D6).
  apply N.eqb_eq in D5. apply eqb_prop in D6.
  repeat (apply andb_true_intro; split); try assumption.
  - apply N.ltb_lt; assumption.
  - apply N.leb_le. eapply N.le_trans; [apply N.leb_le; exact D4|]. apply days_in_month_leap.
    destruct (doy =? 365) eqn:E; [intros _|discriminate]. apply N.eqb_eq in E.
    rewrite D6. replace (306 <=? doy) with true by (symmetry; apply N.leb_le; lia). apply Hdoy, E.
  - apply N.eqb_eq. unfold doe_of_civil. cbv zeta. fold m d. rewrite D5.
    unfold doy, year_start in *. rewrite (N.div_small y 400) in * by assumption. lia.
  - destruct (N.eq_dec y 399) as [E|E]; [|apply orb_true_intro; right; apply N.leb_le; destruct (m <=? 2); lia].
    rewrite D6. destruct (306 <=? doy) eqn:L; apply orb_true_intro; [left|right]; apply N.leb_le; [|lia].
    apply N.leb_le in L. unfold doy in L. rewrite E in L. change (year_start 399) with 145731 in L. lia.
Qed.

Lemma is_leap_add400 : forall y e, is_leap (y + e * 400) = is_leap y.
Proof.
  intros y e. unfold is_leap.
  replace (y + e * 400) with (y + (e * 100) * 4) at 1 by lia. rewrite N.mod_add by lia.
  replace (y + e * 400) with (y + (e * 4) * 100) at 1 by lia. rewrite N.mod_add by lia.
  rewrite N.mod_add by lia. reflexivity.
Qed.

Lemma civil_roundtrip : forall z y m d, civil_from_shifted z = (y, m, d) ->
  shifted_from_civil y m d = z /\ valid_date y m d = true
  /\ (z < 3652365 -> y <= 9999) /\ (719468 <= z -> 1600 <= y).
Proof.
  intros z y m d H. unfold civil_from_shifted, DAYS_PER_ERA in H.
  set (era := z / 146097) in *. set (doe := z mod 146097) in *.
  assert (Hdoe : doe < 146097) by (apply N.mod_lt; lia).
  assert (Hz : z = 146097 * era + doe) by (apply N.div_mod; lia).
  pose proof (doe_ok_all doe Hdoe) as OK. unfold doe_ok in OK.
  destruct (civil_of_doe doe) as [[yoe m0] d0]. inversion H; subst m0 d0; clear H.
  match goal with H : _ = y |- _ => rewrite H end.
  set (yy := if m <=? 2 then yoe + 1 else yoe) in *.
  rewrite !andb_true_iff in OK. destruct OK as ((((((O1 & O2) & O3) & O4) & O5) & O6) & O7).
  apply N.ltb_lt in O1.
  assert (Hy : y = yy + era * 400).
  { subst y yy. destruct (m <=? 2); lia. }
  assert (Hy' : (if m <=? 2 then y - 1 else y) = yoe + era * 400).
  { subst y yy. destruct (m <=? 2); lia. }
  clearbody era doe.
  split; [|split; [|split]].
  - unfold shifted_from_civil, DAYS_PER_ERA. cbv zeta. rewrite Hy'.
    rewrite N.div_add by lia. rewrite N.mod_add by lia.
    rewrite (N.div_small yoe 400) by assumption. rewrite (N.mod_small yoe 400) by assumption.
    apply N.eqb_eq in O6. rewrite O6. lia.
  - unfold valid_date. rewrite Hy. unfold days_in_month. rewrite is_leap_add400.
    fold (days_in_month yy m).
    repeat (apply andb_true_intro; split); assumption.
  - intros Hlt.
    apply orb_prop in O7. destruct O7 as [O7|O7]; apply N.leb_le in O7.
    + assert (era <= 23) by lia. subst yy. destruct (m <=? 2); lia.
    + assert (era <= 24) by lia. lia.
  - intros Hge. assert (4 <= era) by lia. lia.
Qed.

Lemma take_digits_digits : forall ds acc rest, all_digits ds ->
  take_digits (length ds) acc (map digit_char ds ++ rest) = Some (val_msb acc ds, rest).
Proof.
  induction ds as [|x ds IH]; intros acc rest H; [reflexivity|].
  inversion H; subst. cbn [length take_digits map app val_msb].
  rewrite is_digit_char, digit_val_char by assumption. apply IH. assumption.
Qed.
Lemma take_fixed : forall k n rest, n < 10 ^ N.of_nat k ->
  take_digits k 0 (print_fixed k n ++ rest) = Some (n, rest).
Proof.
  intros k n rest H. rewrite print_fixed_eq.
  rewrite <- (fixed_digits_length k n) at 1.
  rewrite take_digits_digits by apply fixed_digits_digits.
  rewrite fixed_digits_val by exact H. replace (0 * 10 ^ N.of_nat k + n) with n by lia. reflexivity.
Qed.
Lemma expect_hd : forall c s, expect c (c :: s) = Some s.
Proof. intros. cbn. rewrite N.eqb_refl. reflexivity. Qed.

Lemma print_fixed3 : forall f, print_fixed 3 f =
  [digit_char ((f / 10 / 10) mod 10); digit_char ((f / 10) mod 10); digit_char (f mod 10)].
Proof. reflexivity. Qed.

Lemma parse_frac_none : forall rest, parse_frac (43 :: rest) = Some (0, 43 :: rest).
Proof. reflexivity. Qed.
Lemma parse_frac_millis : forall f rest, f < 1000 ->
  parse_frac (46 :: print_fixed 3 f ++ 43 :: rest) = Some (f * 1000000, 43 :: rest).
Proof.
  intros f rest Hf. rewrite print_fixed3. cbn [app].
  set (a := (f / 10 / 10) mod 10). set (b := (f / 10) mod 10). set (c := f mod 10).
  assert (Ha : a < 10) by (apply N.mod_lt; lia).
  assert (Hb : b < 10) by (apply N.mod_lt; lia).
  assert (Hc : c < 10) by (apply N.mod_lt; lia).
  assert (E : a * 100 + b * 10 + c = f).
  { unfold a, b, c. pose proof (N.div_mod f 10 ltac:(lia)). pose proof (N.div_mod (f / 10) 10 ltac:(lia)).
    assert (f / 10 / 10 < 10) by (apply N.div_lt_upper_bound; [lia|]; apply N.div_lt_upper_bound; lia).
    rewrite (N.mod_small (f / 10 / 10) 10) by assumption. lia. }
  clearbody a b c.
  unfold parse_frac. rewrite is_digit_char by assumption.
  cbn [frac_digits]. rewrite !is_digit_char by assumption. rewrite !digit_val_char.
  change (is_digit 43) with false. cbv iota.
  change (10 ^ N.of_nat 8) with 100000000. change (10 ^ N.of_nat 7) with 10000000. change (10 ^ N.of_nat 6) with 1000000.
  f_equal. f_equal. lia.
Qed.

(** the string printed for calendar fields: [print_rfc3339] with the fields named *)
Definition TZ_UTC : list N := [43; 48; 48; 58; 48; 48].
Definition rfc_string (y mo d h mi s frac : N) : list N :=
  print_fixed 4 y ++ 45 :: print_fixed 2 mo ++ 45 :: print_fixed 2 d ++ 84 ::
  print_fixed 2 h ++ 58 :: print_fixed 2 mi ++ 58 :: print_fixed 2 s ++
  (if frac =? 0 then [] else 46 :: print_fixed 3 frac) ++ TZ_UTC.

Lemma parse_rfc_string : forall y mo d h mi s frac,
  y < 10000 -> mo < 100 -> d < 100 -> h < 100 -> mi < 100 -> s < 100 -> frac < 1000 ->
  parse_rfc3339 (rfc_string y mo d h mi s frac) =
    if valid_date y mo d && (h <=? 23) && (mi <=? 59) && (s <=? 60) then
      if (y =? 0) && (mo <=? 2) then Err TBeforeUnixEpoch else
      let local_ms := shifted_from_civil y mo d * MS_D + h * MS_H + mi * MS_M + s * MS_S + frac in
      let utc := (Z.of_N local_ms - Z.of_N (EPOCH_SHIFT * MS_D) - 0 * 1000)%Z in
      if (utc <? 0)%Z then Err TBeforeUnixEpoch else Ok (Z.to_N utc)
    else Err TParseError.
Proof.
  intros y mo d h mi s frac Hy Hmo Hd Hh Hmi Hs Hf.
  unfold parse_rfc3339, rfc_string.
  rewrite (take_fixed 4 y) by exact Hy. cbv iota beta. rewrite expect_hd. cbv iota beta.
  rewrite (take_fixed 2 mo) by exact Hmo. cbv iota beta. rewrite expect_hd. cbv iota beta.
  rewrite (take_fixed 2 d) by exact Hd. cbv iota beta.
  change (84 =? 84) with true. cbn [orb negb]. cbv iota.
  rewrite (take_fixed 2 h) by exact Hh. cbv iota beta. rewrite expect_hd. cbv iota beta.
  rewrite (take_fixed 2 mi) by exact Hmi. cbv iota beta. rewrite expect_hd. cbv iota beta.
  rewrite (take_fixed 2 s) by exact Hs. cbv iota beta.
  assert (P : parse_frac ((if frac =? 0 then [] else 46 :: print_fixed 3 frac) ++ TZ_UTC)
              = Some (frac * 1000000, TZ_UTC)).
  { destruct (frac =? 0) eqn:E.
    - apply N.eqb_eq in E. subst frac. reflexivity.
    - cbn [app]. unfold TZ_UTC. apply parse_frac_millis. exact Hf. }
  rewrite P. cbv iota beta.
  change (parse_offset TZ_UTC) with (Some (0%Z, @nil N)). cbv iota beta.
  rewrite N.div_mul by lia. reflexivity.
Qed.

Lemma print_rfc3339_fields : forall ms y mo d,
  civil_from_shifted (ms / MS_D + EPOCH_SHIFT) = (y, mo, d) ->
  print_rfc3339 ms = rfc_string y mo d ((ms mod MS_D) / MS_H) (((ms mod MS_D) mod MS_H) / MS_M)
                                  (((ms mod MS_D) mod MS_M) / MS_S) ((ms mod MS_D) mod MS_S).
Proof.
  intros ms y mo d H. unfold print_rfc3339. rewrite H. unfold rfc_string, TZ_UTC.
  repeat (rewrite <- app_assoc; cbn [app]). reflexivity.
Qed.

Lemma rfc_string_not_u64 : forall y mo d h mi s frac, parse_u64 (rfc_string y mo d h mi s frac) = None.
Proof.
  intros. unfold rfc_string. rewrite print_fixed_eq.
  pose proof (fixed_digits_digits 4 y) as AD. pose proof (fixed_digits_length 4 y) as L.
  destruct (fixed_digits 4 y) as [|x xs]; [discriminate|]. inversion AD; subst.
  cbn [map app parse_u64].
  assert (digit_char x =? 43 = false) as -> by (apply N.eqb_neq; unfold digit_char; lia).
  apply (parse_digits_nondigit _ 0 45); [|reflexivity].
  right. apply in_or_app. right. left. reflexivity.
Qed.

Theorem timestamp_parse_print_all : forall ms, ms < W64 -> parse_timestamp (print_timestamp ms) = Ok ms.
Proof.
  intros ms Hms. unfold print_timestamp, parse_timestamp.
  destruct (ms <? YEAR_10000_MS) eqn:E.
  - apply N.ltb_lt in E. unfold YEAR_10000_MS in E.
    destruct (civil_from_shifted (ms / MS_D + EPOCH_SHIFT)) as [[y mo] d] eqn:C.
    rewrite (print_rfc3339_fields ms y mo d C). rewrite rfc_string_not_u64.
    destruct (civil_roundtrip _ _ _ _ C) as (RT & V & Y9 & Y1).
    unfold MS_D, MS_H, MS_M, MS_S, EPOCH_SHIFT in *.
    set (days := ms / 86400000) in *. set (tod := ms mod 86400000) in *.
    assert (Htod : tod < 86400000) by (apply N.mod_lt; lia).
    assert (Hms' : ms = 86400000 * days + tod) by (apply N.div_mod; lia).
    assert (Hdays : days < 2932897) by lia.
    specialize (Y9 ltac:(lia)). specialize (Y1 ltac:(lia)).
    set (h := tod / 3600000). set (mi := (tod mod 3600000) / 60000).
    set (s := (tod mod 60000) / 1000). set (f := tod mod 1000).
    assert (Sum : h * 3600000 + mi * 60000 + s * 1000 + f = tod).
    { unfold h, mi, s, f.
      pose proof (N.div_mod tod 3600000 ltac:(lia)) as E0.
      pose proof (mod_split tod 60000 60 ltac:(lia) ltac:(lia)) as E1. change (60000 * 60) with 3600000 in E1.
      pose proof (mod_split tod 1000 60 ltac:(lia) ltac:(lia)) as E2. change (1000 * 60) with 60000 in E2.
      lia. }
    assert (Hh : h <= 23) by (unfold h; apply N.lt_succ_r; apply N.div_lt_upper_bound; lia).
    assert (Hmi : mi <= 59).
    { unfold mi. apply N.lt_succ_r. apply N.div_lt_upper_bound; [lia|]. pose proof (N.mod_lt tod 3600000 ltac:(lia)). lia. }
    assert (Hs : s <= 59).
    { unfold s. apply N.lt_succ_r. apply N.div_lt_upper_bound; [lia|]. pose proof (N.mod_lt tod 60000 ltac:(lia)). lia. }
    assert (Hf : f < 1000) by (apply N.mod_lt; lia).
    assert (Vd : valid_date y mo d = true) by exact V.
    unfold valid_date in V. repeat (apply andb_prop in V; destruct V as [V ?]).
    assert (Hmo : mo <= 12) by (apply N.leb_le; assumption).
    assert (Hd : d <= 31).
    { match goal with H : (d <=? days_in_month y mo) = true |- _ => apply N.leb_le in H; revert H end.
      unfold days_in_month. destruct (mo =? 2); [destruct (is_leap y)|destruct (_ || _)]; lia. }
    clearbody h mi s f.
    rewrite parse_rfc_string by lia.
    rewrite Vd.
    assert (h <=? 23 = true) as -> by (apply N.leb_le; exact Hh).
    assert (mi <=? 59 = true) as -> by (apply N.leb_le; exact Hmi).
    assert (s <=? 60 = true) as -> by (apply N.leb_le; lia).
    cbn [andb].
    assert (y =? 0 = false) as -> by (apply N.eqb_neq; lia). cbn [andb].
    rewrite RT. cbv zeta. unfold MS_D, MS_H, MS_M, MS_S, EPOCH_SHIFT.
    match goal with |- (if (?u <? 0)%Z then _ else _) = _ => assert (U : u = Z.of_N ms) by lia; rewrite U end.
    assert ((Z.of_N ms <? 0)%Z = false) as -> by (apply Z.ltb_ge; lia).
    rewrite N2Z.id. reflexivity.
  - rewrite parse_u64_print_dec by exact Hms. reflexivity.
Qed.

(** ** before the repair: [timestamp_millis() as i64] - the printed form of the largest
    timestamp is a date before the unix epoch, which the parser rejects; years from 10000
    on are printed in a notation the parser rejects. *)
Lemma timestamp_prefix_refuted_max :
  print_timestamp_prefix 18446744073709551615
    = [49;57;54;57;45;49;50;45;51;49;84;50;51;58;53;57;58;53;57;46;57;57;57;43;48;48;58;48;48]
  /\ parse_timestamp (print_timestamp_prefix 18446744073709551615) = Err TBeforeUnixEpoch.
Proof. split; vm_compute; reflexivity. Qed.
Lemma timestamp_prefix_refuted_year10000 :
  parse_timestamp (print_timestamp_prefix 253402300800000) = Err TParseError.
Proof. vm_compute. reflexivity. Qed.
Lemma timestamp_prefix_roundtrip_refuted :
  exists ms, ms < W64 /\ parse_timestamp (print_timestamp_prefix ms) <> Ok ms.
Proof. exists 18446744073709551615. split; [reflexivity|]. vm_compute. discriminate. Qed.
