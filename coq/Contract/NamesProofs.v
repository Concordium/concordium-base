(** C16 - the name validators accept exactly the documented grammar. *)
From Coq Require Import NArith List Bool Lia.
From CB Require Import Contract.Names.
Import ListNotations.
Local Open Scope N_scope.

Lemma name_char_ok_spec : forall c, name_char_ok c = true <-> name_char c.
Proof.
  intros c. unfold name_char_ok, is_ascii_alphanumeric, is_ascii_punctuation, name_char.
  rewrite !orb_true_iff, !andb_true_iff, !N.leb_le. lia.
Qed.

Lemma starts_with_spec : forall p s, starts_with p s = true <-> exists rest, s = p ++ rest.
Proof.
  induction p as [|x p IH]; intros s.
  - cbn. split; [intros _; exists s; reflexivity | reflexivity].
  - destruct s as [|y s]; cbn.
    + split; [discriminate | intros [r H]; discriminate].
    + rewrite andb_true_iff, N.eqb_eq, IH. split.
      * intros [-> [r ->]]. exists r. reflexivity.
      * intros [r H]. inversion H; subst. split; [reflexivity | exists r; reflexivity].
Qed.

Lemma contains_dot_spec : forall s, contains_dot s = true <-> In 46 s.
Proof.
  intros s. unfold contains_dot. rewrite existsb_exists. split.
  - intros [c [Hin Hc]]. apply N.eqb_eq in Hc. subst. exact Hin.
  - intros H. exists 46. split; [exact H | reflexivity].
Qed.

Lemma utf8_len_ascii : forall s, Forall name_char s -> utf8_len s = N.of_nat (length s).
Proof.
  induction 1 as [|c s Hc _ IH]; [reflexivity|].
  cbn [utf8_len length]. rewrite IH, Nat2N.inj_succ. unfold utf8_len_char.
  destruct (c <? 128) eqn:E; [lia|]. apply N.ltb_ge in E. unfold name_char in Hc. lia.
Qed.

Lemma forallb_name_char : forall s, forallb name_char_ok s = true <-> Forall name_char s.
Proof.
  intros s. rewrite forallb_forall, Forall_forall. split; intros H c Hc; apply name_char_ok_spec; auto.
Qed.

Lemma negb_true_false : forall b, negb b = false <-> b = true.
Proof. destruct b; cbn; split; congruence. Qed.

Lemma contract_name_iff_grammar : forall s, valid_contract_name s = true <-> contract_name_grammar s.
Proof.
  intros s. unfold valid_contract_name, contract_name_check, contract_name_grammar.
  split.
  - destruct (starts_with INIT_PREFIX s) eqn:P; cbn [negb]; [|discriminate].
    destruct (MAX_FUNC_NAME_SIZE <? utf8_len s) eqn:L; [discriminate|].
    destruct (contains_dot s) eqn:D; [discriminate|].
    destruct (forallb name_char_ok s) eqn:F; cbn [negb]; [|discriminate]. intros _.
    apply starts_with_spec in P. apply forallb_name_char in F. apply N.ltb_ge in L.
    rewrite (utf8_len_ascii s F) in L. unfold MAX_FUNC_NAME_SIZE in L.
    repeat split; [exact P | exact L |].
    rewrite Forall_forall in *. intros c Hc. split; [auto|].
    intros ->. apply contains_dot_spec in Hc. congruence.
  - intros [P [L F]].
    assert (F1 : Forall name_char s) by (eapply Forall_impl; [|exact F]; cbn; tauto).
    apply starts_with_spec in P. rewrite P. cbn [negb].
    rewrite (utf8_len_ascii s F1). unfold MAX_FUNC_NAME_SIZE.
    assert (100 <? N.of_nat (length s) = false) as -> by (apply N.ltb_ge; exact L).
    destruct (contains_dot s) eqn:D.
    + apply contains_dot_spec in D. rewrite Forall_forall in F. destruct (F _ D) as [_ X]. congruence.
    + apply forallb_name_char in F1. rewrite F1. reflexivity.
Qed.

Lemma receive_name_iff_grammar : forall s, valid_receive_name s = true <-> receive_name_grammar s.
Proof.
  intros s. unfold valid_receive_name, receive_name_check, receive_name_grammar. split.
  - destruct (contains_dot s) eqn:D; cbn [negb]; [|discriminate].
    destruct (MAX_FUNC_NAME_SIZE <? utf8_len s) eqn:L; [discriminate|].
    destruct (forallb name_char_ok s) eqn:F; cbn [negb]; [|discriminate]. intros _.
    apply contains_dot_spec in D. apply forallb_name_char in F. apply N.ltb_ge in L.
    rewrite (utf8_len_ascii s F) in L. unfold MAX_FUNC_NAME_SIZE in L. auto.
  - intros [D [L F]]. apply contains_dot_spec in D. rewrite D. cbn [negb].
    rewrite (utf8_len_ascii s F). unfold MAX_FUNC_NAME_SIZE.
    assert (100 <? N.of_nat (length s) = false) as -> by (apply N.ltb_ge; exact L).
    apply forallb_name_char in F. rewrite F. reflexivity.
Qed.

(** *** entrypoint names (at most 99 bytes: the code compares with [>=]) *)
Lemma entrypoint_name_iff_grammar : forall s, valid_entrypoint_name s = true <-> entrypoint_name_grammar s.
Proof.
  intros s. unfold valid_entrypoint_name, entrypoint_name_check, entrypoint_name_grammar. split.
  - destruct (MAX_FUNC_NAME_SIZE <=? utf8_len s) eqn:L; [discriminate|].
    destruct (forallb name_char_ok s) eqn:F; cbn [negb]; [|discriminate]. intros _.
    apply forallb_name_char in F. apply N.leb_gt in L.
    rewrite (utf8_len_ascii s F) in L. unfold MAX_FUNC_NAME_SIZE in L. split; [lia | exact F].
  - intros [L F]. rewrite (utf8_len_ascii s F). unfold MAX_FUNC_NAME_SIZE.
    assert (100 <=? N.of_nat (length s) = false) as -> by (apply N.leb_gt; lia).
    apply forallb_name_char in F. rewrite F. reflexivity.
Qed.

Lemma split_dot_app : forall a b, ~ In 46 a -> split_dot (a ++ 46 :: b) = (a, b).
Proof.
  induction a as [|c a IH]; intros b H; cbn.
  - reflexivity.
  - destruct (c =? 46) eqn:E; [apply N.eqb_eq in E; subst; exfalso; apply H; left; reflexivity|].
    rewrite IH by (intros X; apply H; right; exact X). reflexivity.
Qed.

(** [OwnedReceiveName::construct] of valid names has the expected parts *)
Lemma construct_receive_name_parts : forall c e,
  contract_name_grammar c ->
  split_dot (construct_receive_name c e) = (skipn 5 c, e).
Proof.
  intros c e [[rest ->] [_ F]]. unfold construct_receive_name.
  change (skipn 5 (INIT_PREFIX ++ rest)) with rest.
  apply (split_dot_app rest e). intros Hin.
  rewrite Forall_forall in F. destruct (F 46) as [_ X]; [apply in_or_app; right; exact Hin | congruence].
Qed.

(** a name is printed as itself, so "parse (print n) = n" is: a valid name stays valid *)
Lemma construct_receive_name_valid : forall c e,
  contract_name_grammar c -> entrypoint_name_grammar e ->
  N.of_nat (length c) + N.of_nat (length e) <= 104 ->
  receive_name_grammar (construct_receive_name c e).
Proof.
  intros c e [[rest ->] [_ F]] [_ Fe] L. unfold construct_receive_name.
  change (skipn 5 (INIT_PREFIX ++ rest)) with rest.
  rewrite app_length in L. cbn [length INIT_PREFIX] in L.
  repeat split.
  - apply in_or_app. right. left. reflexivity.
  - rewrite !app_length. cbn [length]. lia.
  - apply Forall_app. split.
    + apply Forall_app in F. destruct F as [_ F]. eapply Forall_impl; [|exact F]. cbn. tauto.
    + constructor; [unfold name_char; lia | exact Fe].
Qed.
