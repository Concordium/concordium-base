(** * SchemaJsonText — the printed text forms parse back: decimal (Rust and num-bigint parsers), hex,
    names; inverses of the byte-level decoders. *)
From Coq Require Import NArith ZArith Bool List Lia.
From CB Require Import Contract.ArithOpaque Contract.SchemaJson Contract.SchemaJsonLemmas.
Import ListNotations.
Local Open Scope N_scope.
Arguments Z.opp : simpl never.

Lemma str_eqb_neq : forall a b, a <> b -> str_eqb a b = false.
Proof. intros a b H. destruct (str_eqb a b) eqn:E; auto. apply str_eqb_eq in E. contradiction. Qed.

Lemma digit_char : forall m, m < 10 -> is_digit (48 + m) = true /\ 48 + m - 48 = m.
Proof.
  intros m H. split; [|lia]. unfold is_digit. apply andb_true_iff. split; apply N.leb_le; lia.
Qed.

Lemma parse_show_digits : forall fuel n acc, n < 2 ^ N.of_nat fuel -> (0 < fuel)%nat ->
  parse_digits (show_digits fuel n acc) 0 = parse_digits acc n.
Proof.
  induction fuel as [|f IH]; intros n acc Hn Hf; [lia|].
  cbn [show_digits].
  assert (Hdm : n = 10 * (n / 10) + n mod 10) by (apply N.div_mod; lia).
  assert (Hm : n mod 10 < 10) by (apply N.mod_lt; lia).
  remember (n mod 10) as m. remember (n / 10) as q.
  destruct (digit_char m Hm) as [Hd Hs].
  destruct (N.eqb_spec q 0) as [E|E].
  - cbn [parse_digits]. rewrite Hd, Hs. f_equal. lia.
  - assert (Hp : 2 ^ N.of_nat (S f) = 2 * 2 ^ N.of_nat f).
    { replace (N.of_nat (S f)) with (1 + N.of_nat f) by lia. rewrite N.pow_add_r. reflexivity. }
    destruct f as [|f'].
    { exfalso. change (2 ^ N.of_nat 1) with 2 in Hn. lia. }
    rewrite IH by lia.
    cbn [parse_digits]. rewrite Hd, Hs. f_equal. lia.
Qed.

Lemma digit_char_range : forall m, m < 10 -> 48 <= 48 + m <= 57.
Proof. intros m H. split; [apply N.le_add_r|lia]. Qed.

Lemma show_digits_head : forall f n acc, exists d tl, show_digits (S f) n acc = d :: tl /\ 48 <= d <= 57.
Proof.
  induction f as [|f IH]; intros n acc; cbn [show_digits];
    pose proof (digit_char_range _ (N.mod_lt n 10 ltac:(discriminate))) as Hm.
  - destruct (n / 10 =? 0); eexists; eexists; (split; [reflexivity|exact Hm]).
  - destruct (n / 10 =? 0); [eexists; eexists; split; [reflexivity|exact Hm]|apply IH].
Qed.

Lemma show_digits_all : forall f n acc, forallb is_digit acc = true -> forallb is_digit (show_digits f n acc) = true.
Proof.
  induction f as [|f IH]; intros n acc H; cbn [show_digits]; auto.
  assert (Hd : is_digit (48 + n mod 10) = true) by (apply (digit_char (n mod 10)); apply N.mod_lt; lia).
  destruct (n / 10 =? 0).
  - cbn [forallb]. rewrite Hd. exact H.
  - apply IH. cbn [forallb]. rewrite Hd. exact H.
Qed.

Lemma parse_digits_show_N : forall n, parse_digits (show_N n) 0 = Some n.
Proof.
  intros n. unfold show_N. rewrite parse_show_digits; [reflexivity|apply fuel_ok_N|lia].
Qed.

Lemma show_N_head : forall n, exists d tl, show_N n = d :: tl /\ 48 <= d <= 57.
Proof. intros. apply show_digits_head. Qed.

Lemma show_N_all : forall n, forallb is_digit (show_N n) = true.
Proof. intros. apply show_digits_all. reflexivity. Qed.

Lemma parse_digits_us_digits : forall l a, forallb is_digit l = true -> parse_digits_us l a = parse_digits l a.
Proof.
  induction l as [|b l IH]; intros a H; [reflexivity|].
  cbn [forallb] in H. apply andb_true_iff in H. destruct H as [Hb Hl].
  cbn [parse_digits_us parse_digits]. rewrite Hb.
  destruct (N.eqb_spec b 95) as [->|]; [discriminate Hb|]. auto.
Qed.

Lemma parse_unsigned_show : forall b n, n < b -> parse_unsigned b (show_N n) = Some n.
Proof.
  intros b n H. unfold parse_unsigned.
  destruct (show_N_head n) as [d [tl [E Hd]]]. pose proof (parse_digits_show_N n) as P. rewrite E in *.
  destruct (N.eqb_spec d 43); [lia|]. rewrite P.
  destruct (N.ltb_spec n b); [reflexivity|lia].
Qed.

Lemma parse_biguint_show : forall n, parse_biguint (show_N n) = Some n.
Proof.
  intros n. unfold parse_biguint.
  destruct (show_N_head n) as [d [tl [E Hd]]].
  pose proof (parse_digits_show_N n) as P. pose proof (show_N_all n) as A. rewrite E in *.
  destruct (N.eqb_spec d 43); [lia|]. destruct (N.eqb_spec d 95); [lia|].
  rewrite parse_digits_us_digits by exact A. exact P.
Qed.

Lemma show_Z_nonneg : forall z, (0 <= z)%Z -> show_Z z = show_N (Z.to_N z).
Proof. intros [|p|p] H; [reflexivity|reflexivity|lia]. Qed.

Lemma parse_signed_show : forall bits z, (- 2 ^ (bits - 1) <= z < 2 ^ (bits - 1))%Z ->
  parse_signed bits (show_Z z) = Some z.
Proof.
  intros bits z Hz. unfold parse_signed. destruct (Z.neg_nonneg_cases z) as [Hn|Hn].
  - destruct z as [|p|p]; try lia. cbn [show_Z].
    destruct (N.eqb_spec 45 43); [lia|]. rewrite N.eqb_refl.
    destruct (show_N_head (N.pos p)) as [d [tl [E Hd]]]. pose proof (parse_digits_show_N (N.pos p)) as P.
    rewrite E in *. rewrite P.
    change (- Z.of_N (N.pos p))%Z with (Z.neg p).
    destruct (Z.leb_spec (- 2 ^ (bits - 1)) (Z.neg p)); [|lia].
    destruct (Z.ltb_spec (Z.neg p) (2 ^ (bits - 1))); [reflexivity|lia].
  - rewrite show_Z_nonneg by exact Hn.
    destruct (show_N_head (Z.to_N z)) as [d [tl [E Hd]]]. pose proof (parse_digits_show_N (Z.to_N z)) as P.
    rewrite E in *.
    destruct (N.eqb_spec d 43); [lia|]. destruct (N.eqb_spec d 45); [lia|]. rewrite P, Z2N.id by exact Hn.
    destruct (Z.leb_spec (- 2 ^ (bits - 1)) z); [|lia]. destruct (Z.ltb_spec z (2 ^ (bits - 1))); [reflexivity|lia].
Qed.

Lemma parse_bigint_show : forall z, parse_bigint (show_Z z) = Some z.
Proof.
  intros z. unfold parse_bigint. destruct (Z.neg_nonneg_cases z) as [Hn|Hn].
  - destruct z as [|p|p]; try lia. cbn [show_Z]. rewrite N.eqb_refl. rewrite parse_biguint_show.
    destruct (show_N_head (N.pos p)) as [d [tl [E Hd]]]. rewrite E.
    destruct (N.eqb_spec d 43); [lia|]. reflexivity.
  - rewrite show_Z_nonneg, parse_biguint_show, Z2N.id by exact Hn.
    destruct (show_N_head (Z.to_N z)) as [d [tl [E Hd]]]. rewrite E.
    destruct (N.eqb_spec d 45); [lia|]. reflexivity.
Qed.

Lemma hex_val_digit : forall d, d < 16 -> hex_val (hex_digit d) = Some d.
Proof. exact (sweep_inverse 16 hex_val hex_digit ltac:(vm_compute; reflexivity)). Qed.

Lemma hex_decode_encode : forall b, bytes_ok b = true -> hex_decode (hex_encode b) = Some b.
Proof.
  induction b as [|x b IH]; intros H; [reflexivity|].
  unfold bytes_ok in H. cbn [forallb] in H. apply andb_true_iff in H. destruct H as [Hx Hb]. apply N.ltb_lt in Hx.
  cbn [hex_encode hex_decode].
  rewrite hex_val_digit by (apply N.div_lt_upper_bound; lia).
  rewrite hex_val_digit by (apply N.mod_lt; lia).
  rewrite IH by exact Hb. f_equal. f_equal. pose proof (N.div_mod x 16). lia.
Qed.

Lemma starts_with_skipn : forall p s, starts_with p s = true -> p ++ skipn (length p) s = s.
Proof.
  induction p as [|x p IH]; intros s H; [reflexivity|].
  destruct s as [|y s]; cbn [starts_with] in H; [discriminate|].
  apply andb_true_iff in H. destruct H as [H1 H2]. apply N.eqb_eq in H1. subst.
  cbn [length skipn app]. rewrite IH by exact H2. reflexivity.
Qed.

Lemma split_dot_inv : forall x c f, has_dot x = true -> split_dot x = (c, f) ->
  x = c ++ 46 :: f /\ has_dot c = false.
Proof.
  induction x as [|b x IH]; intros c f Hd Hs.
  - discriminate Hd.
  - cbn [split_dot] in Hs. unfold has_dot in Hd. cbn [existsb] in Hd.
    destruct (N.eqb_spec b 46) as [->|Hb].
    + injection Hs as <- <-. split; reflexivity.
    + cbn [orb] in Hd. destruct (split_dot x) as [a c'] eqn:E. injection Hs as <- <-.
      destruct (IH _ _ Hd eq_refl) as [-> Hc]. split; [reflexivity|].
      unfold has_dot. cbn [existsb]. destruct (N.eqb_spec b 46); [contradiction|]. exact Hc.
Qed.

Lemma bytes_ok_app : forall a b, bytes_ok (a ++ b) = true -> bytes_ok a = true /\ bytes_ok b = true.
Proof. unfold bytes_ok. intros a b H. rewrite forallb_app in H. apply andb_true_iff in H. exact H. Qed.

Lemma le_dec_inv : forall k bs n r, le_dec k bs = Some (n, r) -> bytes_ok bs = true ->
  bs = le k n ++ r /\ n < 2 ^ (8 * N.of_nat k) /\ bytes_ok r = true.
Proof.
  induction k as [|k IH]; intros bs n r H Hb; cbn [le_dec] in H.
  - injection H as <- <-. repeat split; auto.
  - destruct bs as [|b bs]; [discriminate|].
    destruct (le_dec k bs) as [[m r']|] eqn:E; [|discriminate]. injection H as <- <-.
    unfold bytes_ok in Hb. cbn [forallb] in Hb. apply andb_true_iff in Hb. destruct Hb as [Hb1 Hb2].
    apply N.ltb_lt in Hb1.
    destruct (IH _ _ _ E Hb2) as [-> [Hm Hr]].
    rewrite pow256_S. cbn [le app].
    destruct (digit_cons 256 b m Hb1) as [-> ->].
    repeat split; auto. lia.
Qed.

Lemma le_signed_dec_inv : forall k bs z r, (0 < k)%nat -> le_signed_dec k bs = Some (z, r) -> bytes_ok bs = true ->
  bs = le_signed k z ++ r /\ (- 2 ^ (8 * Z.of_nat k - 1) <= z < 2 ^ (8 * Z.of_nat k - 1))%Z /\ bytes_ok r = true.
Proof.
  unfold le_signed_dec, le_signed. intros k bs z r Hk H Hb.
  destruct (le_dec k bs) as [[n r']|] eqn:E; [|discriminate].
  destruct (le_dec_inv _ _ _ _ E Hb) as [-> [Hn Hr]].
  apply N2Z.inj_lt in Hn. rewrite Z_N_pow256 in Hn.
  destruct (twos_unwrap _ _ (Z.of_N n) (pow2_half k Hk) ltac:(lia)) as [Hlo Hhi].
  destruct (Z.ltb_spec (Z.of_N n) (2 ^ (8 * Z.of_nat k - 1))) as [L|L]; injection H as <- <-.
  - rewrite (Hlo L), N2Z.id. repeat split; auto; lia.
  - destruct (Hhi L) as [Hr' ->]. rewrite N2Z.id. rewrite pow2_half in Hr' by exact Hk. repeat split; auto; lia.
Qed.

Lemma obj_get_app_none : forall k acc l, obj_get k acc = None -> obj_get k (acc ++ l) = obj_get k l.
Proof.
  induction acc as [|[k' v'] acc IH]; intros l H; [reflexivity|].
  cbn [obj_get app] in *. destruct (str_eqb k' k); [discriminate|]. auto.
Qed.

Lemma obj_insert_absent : forall k v acc, obj_get k acc = None -> obj_insert k v acc = acc ++ [(k, v)].
Proof.
  induction acc as [|[k' v'] acc IH]; intros H; [reflexivity|].
  cbn [obj_get obj_insert app] in *. destruct (str_eqb k' k); [discriminate|]. rewrite IH by exact H. reflexivity.
Qed.

Lemma obj_get_nodup : forall kvs k v, NoDup (map fst kvs) -> In (k, v) kvs -> obj_get k kvs = Some v.
Proof.
  induction kvs as [|[k' v'] kvs IH]; intros k v Hnd Hin; [destruct Hin|].
  cbn [map fst] in Hnd. inversion Hnd as [|? ? Hnotin Hnd']; subst.
  cbn [obj_get]. destruct Hin as [E|Hin].
  - injection E as -> ->. rewrite str_eqb_refl. reflexivity.
  - destruct (str_eqb k' k) eqn:E.
    + apply str_eqb_eq in E. subst k'. exfalso. apply Hnotin. apply (in_map fst) in Hin. exact Hin.
    + auto.
Qed.

Lemma nodup_str_NoDup : forall l, nodup_str l = true -> NoDup l.
Proof.
  induction l as [|x l IH]; intros H; [constructor|].
  cbn [nodup_str] in H. apply andb_true_iff in H. destruct H as [H1 H2]. apply negb_true_iff in H1.
  constructor; auto. intros Hin.
  assert (existsb (str_eqb x) l = true); [|congruence].
  apply existsb_exists. exists x. split; auto. apply str_eqb_refl.
Qed.
