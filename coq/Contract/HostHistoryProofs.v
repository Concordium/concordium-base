(** C14 - invariants over arbitrary histories of host calls.  Between two host calls the
    interpreter may change memory and energy arbitrarily ([perturb]); interrupts are answered by
    arbitrary responses and may clear the logs. *)
From Coq Require Import NArith List Lia.
From CB Require Import Contract.HostBase Contract.HostV0 Contract.HostV0Proofs Contract.HostV1
  Contract.HostV1Proofs Contract.HostLimitsProofs.
Import ListNotations.
Local Open Scope N_scope.

Definition perturb {X} (s : st X) (m : memory) (e : N) : st X := mkSt e m (evs s) (hs s).

Section V0.
Context {X : Type}.
Notation S0 := (st (host X)).

Fixpoint run0 (cs : list (v0fn * list N * memory * N)) (s : S0) : S0 :=
  match cs with
  | [] => s
  | (f, a, m, e) :: t => run0 t (fst (call_v0 f a (perturb s m e)))
  end.

Lemma run0_keeps : forall P : host X -> Prop,
  (forall f a (s : S0), P (hs s) -> P (hs (fst (call_v0 f a s)))) ->
  forall cs (s : S0), P (hs s) -> P (hs (run0 cs s)).
Proof.
  intros P HP. induction cs as [|[[[f a] m] e] t IH]; intros s H; cbn [run0]; [exact H|].
  apply IH, (HP f a (perturb s m e)), H.
Qed.

Theorem v0_history_inv : forall cs (s : S0), state_ok s -> logs_ok s ->
  state_ok (run0 cs s) /\ logs_ok (run0 cs s).
Proof.
  intros cs s H1 H2. split.
  - apply (run0_keeps (fun h => lenN (h_state h) <= 16384) call_v0_state_ok), H1.
  - apply (run0_keeps logs_inv call_v0_logs_ok), H2.
Qed.

Theorem v0_history_total : forall cs (s : S0) f a m e, args_wf (sig0 f) a -> state_ok s ->
  safe (call_v0 f a) (perturb (run0 cs s) m e).
Proof.
  intros cs s f a m e Hwf H. apply call_v0_safe; [exact Hwf|].
  apply (run0_keeps (fun h => lenN (h_state h) <= 16384) call_v0_state_ok), H.
Qed.
End V0.

Inductive op1 : Type :=
| OCall (f : v1fn) (args : list N) (m : memory) (e : N)
| OResume (r : response)
| OClearLogs.

Definition step1 (o : op1) (s : st H1) : st H1 :=
  match o with
  | OCall f a m e => fst (call_v1 f a (perturb s m e))
  | OResume r => fst (resume r s)
  | OClearLogs => mkSt (energy s) (mem s) (evs s) (with_logs (hs s) [])
  end.
Fixpoint run1 (os : list op1) (s : st H1) : st H1 :=
  match os with [] => s | o :: t => run1 t (step1 o s) end.

Lemma resume_v1_ok : forall r (s : st H1), v1_ok s -> v1_ok (fst (resume r s)).
Proof. intros r. eapply keeps_v1_ok. intros L lim. apply resume_ok. auto. Qed.
Lemma resume_logs_ok : forall r (s : st H1), logs_ok s -> logs_ok (fst (resume r s)).
Proof. intros r. eapply keeps_logs_ok. intros L. apply resume_ok. auto. Qed.

Theorem v1_history_inv : forall os (s : st H1), v1_ok s -> logs_ok s -> v1_ok (run1 os s) /\ logs_ok (run1 os s).
Proof.
  induction os as [|o t IH]; intros s H1 H2; cbn [run1]; [auto|].
  apply IH; destruct o; cbn [step1].
  - apply call_v1_v1_ok. exact H1.
  - apply resume_v1_ok. exact H1.
  - destruct s as [? ? ? []]. exact H1.
  - apply call_v1_logs_ok. exact H2.
  - apply resume_logs_ok. exact H2.
  - destruct s as [? ? ? []]. unfold logs_ok. cbn. split; [intros; lia | constructor].
Qed.

Theorem v1_history_total : forall os (s : st H1) f a m e, args_wf (sig1 f) a -> v1_ok s -> logs_ok s ->
  safe (call_v1 f a) (perturb (run1 os s) m e).
Proof.
  intros os s f a m e Hwf H1 H2. apply call_v1_safe; [exact Hwf|].
  destruct (v1_history_inv os s H1 H2) as [H _]. exact H.
Qed.
