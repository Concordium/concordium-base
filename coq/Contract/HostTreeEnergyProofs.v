(** C14 - lemmas about the traversal energy of the v1 state tree (HostTreeEnergy.v). *)
From Coq Require Import NArith List Lia.
From CB Require Trie.Radix.
From CB Require Import Contract.HostTreeEnergy.
Import ListNotations.
Local Open Scope N_scope.

Scheme tr_mut := Induction for Radix.tree Sort Prop
  with fr_mut := Induction for Radix.forest Sort Prop.
Combined Scheme tree_forest_mut from tr_mut, fr_mut.

Lemma nlen_app : forall A (a b : list A), nlen (a ++ b) = nlen a + nlen b.
Proof. intros. unfold nlen. rewrite app_length. lia. Qed.

Lemma dp_steps_le_size_both :
  (forall t : tr, forall E acc, dp_steps E acc t <= tnodes t + tstems t) /\
  (forall f : fr, forall E fk, dp_steps_f E fk f <= tnodes_f f + tstems_f f).
Proof.
  apply (tree_forest_mut unit).
  - intros p ov cs IH E acc. cbn [dp_steps tnodes tstems].
    destruct (memk (acc ++ p) E); [specialize (IH E (acc ++ p))|]; lia.
  - intros E fk. cbn. lia.
  - intros c t IHt r IHr E fk. cbn [dp_steps_f tnodes_f tstems_f].
    specialize (IHt E (fk ++ [c])). specialize (IHr E fk). lia.
Qed.

Lemma dp_steps_le_size : forall (t : tr) E acc, dp_steps E acc t <= tnodes t + tstems t.
Proof. exact (proj1 dp_steps_le_size_both). Qed.

(** the charge is linear in the number of nodes actually visited: each visited node costs its stem
    length + 1, and a stem is part of a key *)
Lemma dp_steps_le_visited_both : forall L,
  (forall t : tr, forall E acc, Forall (fun k => nlen k <= L) (node_keys acc t) ->
       dp_steps E acc t <= (L + 1) * dp_visited E acc t) /\
  (forall f : fr, forall E fk, Forall (fun k => nlen k <= L) (node_keys_f fk f) ->
       dp_steps_f E fk f <= (L + 1) * dp_visited_f E fk f).
Proof.
  intros L. apply (tree_forest_mut unit).
  - intros p ov cs IH E acc HF. cbn [node_keys] in HF. inversion HF as [|? ? Hk Hr]; subst.
    rewrite nlen_app in Hk. cbn [dp_steps dp_visited].
    destruct (memk (acc ++ p) E); [specialize (IH E (acc ++ p) Hr)|]; nia.
  - intros E fk _. cbn. lia.
  - intros c t IHt r IHr E fk HF. cbn [node_keys_f] in HF. apply Forall_app in HF. destruct HF as [H1 H2].
    cbn [dp_steps_f dp_visited_f]. specialize (IHt E (fk ++ [c]) H1). specialize (IHr E fk H2). nia.
Qed.

Lemma dp_steps_le_visited : forall L (t : tr) E acc,
  Forall (fun k => nlen k <= L) (node_keys acc t) -> dp_steps E acc t <= (L + 1) * dp_visited E acc t.
Proof. intros L. exact (proj1 (dp_steps_le_visited_both L)). Qed.

Lemma dp_visited_le_nodes_both :
  (forall t : tr, forall E acc, 1 <= dp_visited E acc t <= tnodes t) /\
  (forall f : fr, forall E fk, dp_visited_f E fk f <= tnodes_f f).
Proof.
  apply (tree_forest_mut unit).
  - intros p ov cs IH E acc. cbn [dp_visited tnodes]. destruct (memk (acc ++ p) E); [specialize (IH E (acc ++ p))|]; lia.
  - intros E fk. cbn. lia.
  - intros c t IHt r IHr E fk. cbn [dp_visited_f tnodes_f]. specialize (IHt E (fk ++ [c])). specialize (IHr E fk). lia.
Qed.

(** more expanded nodes never make the charge smaller *)
Lemma dp_steps_mono_both : forall E E', (forall k, memk k E = true -> memk k E' = true) ->
  (forall t : tr, forall acc, dp_steps E acc t <= dp_steps E' acc t) /\
  (forall f : fr, forall fk, dp_steps_f E fk f <= dp_steps_f E' fk f).
Proof.
  intros E E' Hinc. apply (tree_forest_mut unit).
  - intros p ov cs IH acc. cbn [dp_steps]. destruct (memk (acc ++ p) E) eqn:Hm.
    + rewrite (Hinc _ Hm). specialize (IH (acc ++ p)). lia.
    + destruct (memk (acc ++ p) E'); lia.
  - intros fk. cbn. lia.
  - intros c t IHt r IHr fk. cbn [dp_steps_f]. specialize (IHt (fk ++ [c])). specialize (IHr fk). lia.
Qed.

(** the subtree found at a prefix is part of the tree *)
Lemma find_sub_size_both :
  (forall t : tr, forall acc k a s, find_sub acc k t = Some (a, s) -> tnodes s <= tnodes t /\ tstems s <= tstems t) /\
  (forall f : fr, forall acc c k a s, find_sub_f acc c k f = Some (a, s) -> tnodes s <= tnodes_f f /\ tstems s <= tstems_f f).
Proof.
  apply (tree_forest_mut unit).
  - intros p ov cs IH acc k a s. cbn [find_sub]. destruct (Radix.follow_stem k p).
    + intros [= <- <-]. lia.
    + intros [= <- <-]. lia.
    + intros H. apply IH in H. cbn [tnodes tstems]. lia.
    + discriminate.
  - intros acc c k a s. cbn. discriminate.
  - intros c0 t IHt r IHr acc c k a s. cbn [find_sub_f tnodes_f tstems_f]. destruct (c =? c0).
    + intros H. apply IHt in H. lia.
    + intros H. apply IHr in H. lia.
Qed.

Definition size_root (r : option tr) : N := match r with None => 0 | Some t => tnodes t + tstems t end.

Theorem delete_prefix_steps_le_size : forall E key r, delete_prefix_steps E key r <= size_root r.
Proof.
  intros E key r. unfold delete_prefix_steps, find_sub_root, size_root. destruct r as [t|]; [|lia].
  destruct (find_sub [] (Radix.nib key) t) as [[a s]|] eqn:Hf; [|lia].
  apply (proj1 find_sub_size_both) in Hf. pose proof (dp_steps_le_size s E a). lia.
Qed.

Lemma sum_charges_app : forall a b, sum_charges (a ++ b) = sum_charges a + sum_charges b.
Proof. induction a as [|[n|k|k] a IH]; intros b; cbn [app sum_charges]; rewrite ?IH; lia. Qed.

Lemma dfs_charges_both :
  (forall t : tr, forall acc, sum_charges (dfs acc t) + nlen (tpath t) + 2 = 2 * (tnodes t + tstems t)) /\
  (forall f : fr, forall fk, sum_charges (dfs_f fk f) = 2 * (tnodes_f f + tstems_f f)).
Proof.
  apply (tree_forest_mut unit).
  - intros p ov cs IH acc. cbn [dfs tpath tnodes tstems sum_charges]. rewrite sum_charges_app, IH.
    destruct ov; cbn [sum_charges]; lia.
  - intros fk. reflexivity.
  - intros c t IHt r IHr fk. cbn [dfs_f sum_charges tnodes_f tstems_f]. rewrite sum_charges_app. cbn [sum_charges].
    specialize (IHt (fk ++ [c])). specialize (IHr fk). lia.
Qed.

(** a complete walk (all `next` calls of one iterator together) charges exactly
    2 * (nodes + stem chunks) - 2 - (stem of the start node) steps *)
Theorem dfs_total_charge : forall (t : tr) acc,
  sum_charges (dfs acc t) + nlen (tpath t) + 2 = 2 * (tnodes t + tstems t).
Proof. exact (proj1 dfs_charges_both). Qed.

Lemma after_yield_le : forall k l r, after_yield k l = Some r -> sum_charges r <= sum_charges l.
Proof.
  intros k l. induction l as [|[n|k'|k'] l IH]; intros r; cbn [after_yield sum_charges]; try discriminate.
  - intros H. apply IH in H. lia.
  - destruct (keq k k'); [intros [= <-]; lia | apply IH].
  - apply IH.
Qed.
Lemma until_yield_le : forall l s e, fst (until_yield l s e) <= s + sum_charges l.
Proof.
  induction l as [|[n|k|k] l IH]; intros s e; cbn [until_yield sum_charges fst]; try lia.
  - specialize (IH (s + n) e). lia.
  - apply IH.
Qed.

(** one call of `next` charges at most what the whole walk charges: linear in the size of the tree *)
Theorem next_cost_le_size : forall r prefix started exhausted last,
  fst (next_cost r prefix started exhausted last) <= 2 * size_root r.
Proof.
  intros r prefix started exhausted last. unfold next_cost.
  destruct exhausted; [cbn; lia|].
  unfold find_sub_root, size_root. destruct r as [t|]; [|cbn; lia].
  destruct (find_sub [] (Radix.nib prefix) t) as [[a s]|] eqn:Hf; [|cbn; lia].
  apply (proj1 find_sub_size_both) in Hf. pose proof (dfs_total_charge s a) as Ht.
  set (evs := dfs a s) in *.
  assert (Hpos : forall pos, sum_charges pos <= sum_charges evs -> fst (until_yield pos 0 []) <= 2 * (tnodes t + tstems t)).
  { intros pos Hp. pose proof (until_yield_le pos 0 []). lia. }
  destruct started.
  - destruct (after_yield (Radix.nib last) evs) as [l|] eqn:Ha.
    + apply Hpos. eapply after_yield_le; eassumption.
    + apply Hpos. cbn. lia.
  - apply Hpos. lia.
Qed.
