(** C16 - laws of the codec combinators of [CcCodec.v]: round trip, canonicity,
    non-empty encodings, shrinking, bounded pre-allocation, rejection of unordered input. *)
From Coq Require Import NArith List Lia.
From CB Require Import Contract.ArithOpaque Contract.CcCodec.
Import ListNotations.
Local Open Scope N_scope.

Lemma le_take_bytes : forall k n rest, n < 256 ^ N.of_nat k ->
  le_take k (le_bytes k n ++ rest) = Some (n, rest).
Proof.
  induction k as [|k IH]; intros n rest H.
  - cbn in *. assert (n = 0) by lia. subst. reflexivity.
  - rewrite Nat2N.inj_succ, N.pow_succ_r' in H.
    cbn [le_bytes le_take app].
    assert (Hm : n mod 256 < 256) by (apply N.mod_lt; lia).
    apply N.ltb_lt in Hm. rewrite Hm.
    rewrite IH by (apply N.div_lt_upper_bound; lia).
    f_equal. f_equal. rewrite N.add_comm. symmetry. apply N.div_mod. lia.
Qed.

Lemma le_take_canon : forall k bs v r, le_take k bs = Some (v, r) ->
  bs = le_bytes k v ++ r /\ v < 256 ^ N.of_nat k.
Proof.
  induction k as [|k IH]; intros bs v r H.
  - cbn in H. inversion H; subst. cbn. split; [reflexivity | lia].
  - cbn [le_take] in H. destruct bs as [|b bs']; [discriminate|].
    destruct (b <? 256) eqn:Hb; [|discriminate].
    destruct (le_take k bs') as [[v' r']|] eqn:Hk; [|discriminate].
    inversion H; subst; clear H.
    apply N.ltb_lt in Hb.
    destruct (IH _ _ _ Hk) as [E Hv]. subst bs'.
    rewrite Nat2N.inj_succ, N.pow_succ_r'.
    cbn [le_bytes app].
    destruct (digit_cons 256 b v' Hb) as [-> ->]. split; [reflexivity | nia].
Qed.

Lemma le_take_length : forall k bs v r, le_take k bs = Some (v, r) -> length bs = (k + length r)%nat.
Proof.
  induction k as [|k IH]; intros bs v r H.
  - cbn in H. inversion H; subst. reflexivity.
  - cbn [le_take] in H. destruct bs as [|b bs']; [discriminate|].
    destruct (b <? 256); [|discriminate].
    destruct (le_take k bs') as [[v' r']|] eqn:Hk; [|discriminate].
    inversion H; subst. cbn. f_equal. eapply IH; eauto.
Qed.

Lemma le_bytes_length : forall k n, length (le_bytes k n) = k.
Proof. induction k; intros; cbn; [reflexivity | f_equal; apply IHk]. Qed.

Lemma uint_RT : forall k, RT (c_uint k).
Proof. intros k a rest H. apply le_take_bytes. exact H. Qed.
Lemma uint_Canon : forall k, Canon (c_uint k).
Proof. intros k bs a rest H. apply le_take_canon. exact H. Qed.
Lemma uint_NonEmpty : forall k, NonEmpty (c_uint (S k)).
Proof. intros k a _. cbn. discriminate. Qed.
Lemma uint_Shrinks : forall k, Shrinks (c_uint k).
Proof. intros k bs a r H. cbn in H. apply le_take_length in H. lia. Qed.
Lemma uint_AllocOK : forall K k, AllocOK K (c_uint k).
Proof.
  intros K k bs. cbn [pre c_uint]. split; [lia|].
  intros a r H. cbn in H. apply le_take_length in H. rewrite H. lia.
Qed.

Lemma unit_RT : RT c_unit.
Proof. intros [] rest _. reflexivity. Qed.
Lemma unit_Canon : Canon c_unit.
Proof. intros bs [] rest H. cbn in H. inversion H; subst. split; [reflexivity | exact I]. Qed.
Lemma unit_Shrinks : Shrinks c_unit.
Proof. intros bs a r H. cbn in H. inversion H; subst. lia. Qed.
Lemma unit_AllocOK : forall K, AllocOK K c_unit.
Proof. intros K bs. cbn [pre c_unit]. split; [lia|]. intros a r H. cbn in H. inversion H; subst. lia. Qed.

Section Map.
  Context {A B : Type} (c : codec A) (f : A -> B) (g : B -> A) (wfB : B -> Prop).
  Lemma map_RT : RT c -> (forall b, wfB b -> wf c (g b) /\ f (g b) = b) -> RT (c_map c f g wfB).
  Proof.
    intros Hc Hfg b rest Hb. destruct (Hfg b Hb) as [Hw E]. cbn.
    rewrite (Hc _ rest Hw). rewrite E. reflexivity.
  Qed.
  Lemma map_Canon : Canon c -> (forall a, wf c a -> g (f a) = a /\ wfB (f a)) -> Canon (c_map c f g wfB).
  Proof.
    intros Hc Hgf bs b rest H. cbn in H.
    destruct (dec c bs) as [[a r]|] eqn:Hd; [|discriminate]. inversion H; subst; clear H.
    destruct (Hc _ _ _ Hd) as [E Hw]. destruct (Hgf a Hw) as [E2 Hb]. cbn. rewrite E2. auto.
  Qed.
  Lemma map_NonEmpty : NonEmpty c -> (forall b, wfB b -> wf c (g b)) -> NonEmpty (c_map c f g wfB).
  Proof. intros Hc Hw b Hb. cbn. apply Hc. auto. Qed.
  Lemma map_Shrinks : Shrinks c -> Shrinks (c_map c f g wfB).
  Proof.
    intros Hc bs b r H. cbn in H. destruct (dec c bs) as [[a r']|] eqn:Hd; [|discriminate].
    inversion H; subst. eapply Hc; eauto.
  Qed.
  Lemma map_AllocOK : forall K, AllocOK K c -> AllocOK K (c_map c f g wfB).
  Proof.
    intros K Hc bs. destruct (Hc bs) as [H1 H2]. cbn [pre c_map]. split; [exact H1|].
    intros b r H. cbn in H. destruct (dec c bs) as [[a r']|] eqn:Hd; [|discriminate].
    inversion H; subst. eapply H2; eauto.
  Qed.
End Map.

Section Refine.
  Context {A : Type} (c : codec A) (ok : A -> bool).
  Lemma refine_RT : RT c -> RT (c_refine c ok).
  Proof. intros Hc a rest [Hw Hok]. cbn. rewrite (Hc _ rest Hw), Hok. reflexivity. Qed.
  Lemma refine_Canon : Canon c -> Canon (c_refine c ok).
  Proof.
    intros Hc bs a rest H. cbn in H. destruct (dec c bs) as [[a' r]|] eqn:Hd; [|discriminate].
    destruct (ok a') eqn:Hok; [|discriminate]. inversion H; subst.
    destruct (Hc _ _ _ Hd). cbn. auto.
  Qed.
  Lemma refine_NonEmpty : NonEmpty c -> NonEmpty (c_refine c ok).
  Proof. intros Hc a [Hw _]. cbn. auto. Qed.
  Lemma refine_Shrinks : Shrinks c -> Shrinks (c_refine c ok).
  Proof.
    intros Hc bs a r H. cbn in H. destruct (dec c bs) as [[a' r']|] eqn:Hd; [|discriminate].
    destruct (ok a'); [|discriminate]. inversion H; subst. eapply Hc; eauto.
  Qed.
  Lemma refine_AllocOK : forall K, AllocOK K c -> AllocOK K (c_refine c ok).
  Proof.
    intros K Hc bs. destruct (Hc bs) as [H1 H2]. cbn [pre c_refine]. split; [exact H1|].
    intros a r H. cbn in H. destruct (dec c bs) as [[a' r']|] eqn:Hd; [|discriminate].
    destruct (ok a'); [|discriminate]. inversion H; subst. eapply H2; eauto.
  Qed.
  (** a value failing the check is rejected, however it is followed *)
  Lemma refine_reject : RT c -> forall a rest, wf c a -> ok a = false -> dec (c_refine c ok) (enc c a ++ rest) = None.
  Proof. intros Hc a rest Hw Hok. cbn. rewrite (Hc _ rest Hw), Hok. reflexivity. Qed.
End Refine.

Section Pair.
  Context {A B : Type} (ca : codec A) (cb : codec B).
  Lemma pair_RT : RT ca -> RT cb -> RT (c_pair ca cb).
  Proof.
    intros Ha Hb [a b] rest [Hwa Hwb]. cbn in *. rewrite <- app_assoc.
    rewrite (Ha _ _ Hwa), (Hb _ _ Hwb). reflexivity.
  Qed.
  Lemma pair_Canon : Canon ca -> Canon cb -> Canon (c_pair ca cb).
  Proof.
    intros Ha Hb bs [a b] rest H. cbn in H.
    destruct (dec ca bs) as [[a' r]|] eqn:Hda; [|discriminate].
    destruct (dec cb r) as [[b' r']|] eqn:Hdb; [|discriminate].
    inversion H; subst; clear H.
    destruct (Ha _ _ _ Hda) as [E1 W1]. destruct (Hb _ _ _ Hdb) as [E2 W2]. subst.
    cbn. rewrite <- app_assoc. auto.
  Qed.
  Lemma pair_NonEmpty_l : NonEmpty ca -> NonEmpty (c_pair ca cb).
  Proof.
    intros Ha [a b] [Hwa _]. cbn. specialize (Ha a Hwa). destruct (enc ca a); [congruence | discriminate].
  Qed.
  Lemma pair_Shrinks : Shrinks ca -> Shrinks cb -> Shrinks (c_pair ca cb).
  Proof.
    intros Ha Hb bs [a b] rest H. cbn in H.
    destruct (dec ca bs) as [[a' r]|] eqn:Hda; [|discriminate].
    destruct (dec cb r) as [[b' r']|] eqn:Hdb; [|discriminate].
    inversion H; subst. specialize (Ha _ _ _ Hda). specialize (Hb _ _ _ Hdb). lia.
  Qed.
  Lemma pair_AllocOK : forall K, Shrinks ca -> AllocOK K ca -> AllocOK K cb -> AllocOK K (c_pair ca cb).
  Proof.
    intros K Sa Ha Hb bs. destruct (Ha bs) as [A1 A2]. cbn [pre dec c_pair].
    destruct (dec ca bs) as [[a r]|] eqn:Hda.
    - specialize (A2 _ _ eq_refl). destruct (Hb r) as [B1 B2]. split; [lia|].
      intros [a' b'] rest H. destruct (dec cb r) as [[b r']|] eqn:Hdb; [|discriminate].
      inversion H; subst. specialize (B2 _ _ eq_refl). lia.
    - split; [lia | discriminate].
  Qed.
End Pair.

Section Sum.
  Context {A B : Type} (ca : codec A) (cb : codec B).
  Lemma sum_RT : RT ca -> RT cb -> RT (c_sum ca cb).
  Proof.
    intros Ha Hb [a|b] rest Hw; cbn in *.
    - rewrite (Ha _ _ Hw). reflexivity.
    - rewrite (Hb _ _ Hw). reflexivity.
  Qed.
  Lemma sum_Canon : Canon ca -> Canon cb -> Canon (c_sum ca cb).
  Proof.
    intros Ha Hb bs s rest H. cbn in H. destruct bs as [|t r]; [discriminate|].
    destruct (t =? 0) eqn:T0.
    - apply N.eqb_eq in T0. subst. destruct (dec ca r) as [[a r']|] eqn:Hd; [|discriminate].
      inversion H; subst. destruct (Ha _ _ _ Hd) as [E W]. subst. cbn. auto.
    - destruct (t =? 1) eqn:T1; [|discriminate].
      apply N.eqb_eq in T1. subst. destruct (dec cb r) as [[b r']|] eqn:Hd; [|discriminate].
      inversion H; subst. destruct (Hb _ _ _ Hd) as [E W]. subst. cbn. auto.
  Qed.
  Lemma sum_NonEmpty : NonEmpty (c_sum ca cb).
  Proof. intros [a|b] _; cbn; discriminate. Qed.
  Lemma sum_Shrinks : Shrinks ca -> Shrinks cb -> Shrinks (c_sum ca cb).
  Proof.
    intros Ha Hb bs s rest H. cbn in H. destruct bs as [|t r]; [discriminate|].
    destruct (t =? 0).
    - destruct (dec ca r) as [[a r']|] eqn:Hd; [|discriminate]. inversion H; subst.
      specialize (Ha _ _ _ Hd). cbn. lia.
    - destruct (t =? 1); [|discriminate].
      destruct (dec cb r) as [[b r']|] eqn:Hd; [|discriminate]. inversion H; subst.
      specialize (Hb _ _ _ Hd). cbn. lia.
  Qed.
  Lemma sum_AllocOK : forall K, AllocOK K ca -> AllocOK K cb -> AllocOK K (c_sum ca cb).
  Proof.
    intros K Ha Hb bs. cbn [pre dec c_sum]. destruct bs as [|t r]; [split; [lia | discriminate]|].
    cbn [length]. rewrite Nat2N.inj_succ.
    destruct (t =? 0).
    - destruct (Ha r) as [A1 A2]. split; [lia|]. intros s rest H.
      destruct (dec ca r) as [[a r']|] eqn:Hd; [|discriminate]. inversion H; subst.
      specialize (A2 _ _ eq_refl). lia.
    - destruct (t =? 1).
      + destruct (Hb r) as [B1 B2]. split; [lia|]. intros s rest H.
        destruct (dec cb r) as [[b r']|] eqn:Hd; [|discriminate]. inversion H; subst.
        specialize (B2 _ _ eq_refl). lia.
      + split; [lia | discriminate].
  Qed.
  (** an unknown tag is rejected *)
  Lemma sum_bad_tag : forall t r, t <> 0 -> t <> 1 -> dec (c_sum ca cb) (t :: r) = None.
  Proof.
    intros t r H0 H1. cbn. apply N.eqb_neq in H0, H1. rewrite H0, H1. reflexivity.
  Qed.
End Sum.

Section Elems.
  Context {A : Type} (c : codec A).

  Lemma enc_elems_cons : forall a xs, enc_elems c (a :: xs) = enc c a ++ enc_elems c xs.
  Proof. reflexivity. Qed.

  Lemma enc_elems_length_ge : NonEmpty c -> forall xs, Forall (wf c) xs ->
    (length xs <= length (enc_elems c xs))%nat.
  Proof.
    intros Hne xs H. induction H as [|a xs Ha _ IH]; [cbn; lia|].
    rewrite enc_elems_cons, app_length. cbn [length].
    specialize (Hne a Ha). destruct (enc c a); [congruence|]. cbn. lia.
  Qed.

  Lemma dec_elems_RT : RT c -> NonEmpty c -> forall xs rest fuel,
    Forall (wf c) xs -> (length xs <= fuel)%nat ->
    dec_elems c fuel (N.of_nat (length xs)) (enc_elems c xs ++ rest) = Some (xs, rest).
  Proof.
    intros Hrt Hne xs. induction xs as [|a xs IH]; intros rest fuel Hw Hf.
    - destruct fuel; reflexivity.
    - inversion Hw as [|? ? Ha Hxs]; subst.
      destruct fuel as [|f]; [cbn in Hf; lia|].
      cbn [length]. rewrite Nat2N.inj_succ.
      cbn [dec_elems].
      destruct (N.succ (N.of_nat (length xs)) =? 0) eqn:E; [apply N.eqb_eq in E; lia|].
      rewrite enc_elems_cons, <- app_assoc, (Hrt _ _ Ha).
      replace (N.succ (N.of_nat (length xs)) - 1) with (N.of_nat (length xs)) by lia.
      rewrite IH by (auto; cbn in Hf; lia). reflexivity.
  Qed.

  Lemma dec_elems_Canon : Canon c -> forall fuel cnt bs xs rest,
    dec_elems c fuel cnt bs = Some (xs, rest) ->
    bs = enc_elems c xs ++ rest /\ Forall (wf c) xs /\ N.of_nat (length xs) = cnt.
  Proof.
    intros Hc. induction fuel as [|f IH]; intros cnt bs xs rest H.
    - cbn in H. destruct (cnt =? 0) eqn:E; [|discriminate]. apply N.eqb_eq in E.
      inversion H; subst. cbn. auto.
    - cbn [dec_elems] in H. destruct (cnt =? 0) eqn:E.
      + apply N.eqb_eq in E. inversion H; subst. cbn. auto.
      + apply N.eqb_neq in E.
        destruct (dec c bs) as [[a r]|] eqn:Hd; [|discriminate].
        destruct (dec_elems c f (cnt - 1) r) as [[xs' r']|] eqn:Hr; [|discriminate].
        inversion H; subst; clear H.
        destruct (Hc _ _ _ Hd) as [E1 W1]. destruct (IH _ _ _ _ Hr) as [E2 [W2 L]]. subst.
        rewrite enc_elems_cons, <- app_assoc. repeat split; auto.
        cbn [length]. rewrite Nat2N.inj_succ. lia.
  Qed.

  Lemma dec_elems_Shrinks : Shrinks c -> forall fuel cnt bs xs rest,
    dec_elems c fuel cnt bs = Some (xs, rest) -> (length rest <= length bs)%nat.
  Proof.
    intros Hc. induction fuel as [|f IH]; intros cnt bs xs rest H.
    - cbn in H. destruct (cnt =? 0); [|discriminate]. inversion H; subst. lia.
    - cbn [dec_elems] in H. destruct (cnt =? 0).
      + inversion H; subst. lia.
      + destruct (dec c bs) as [[a r]|] eqn:Hd; [|discriminate].
        destruct (dec_elems c f (cnt - 1) r) as [[xs' r']|] eqn:Hr; [|discriminate].
        inversion H; subst. specialize (Hc _ _ _ Hd). specialize (IH _ _ _ _ Hr). lia.
  Qed.

  Lemma pre_elems_bound : forall K, AllocOK K c -> forall fuel cnt bs,
    pre_elems c fuel cnt bs <= K * N.of_nat (length bs)
    /\ forall xs rest, dec_elems c fuel cnt bs = Some (xs, rest) ->
         pre_elems c fuel cnt bs + K * N.of_nat (length rest) <= K * N.of_nat (length bs).
  Proof.
    intros K Hc. induction fuel as [|f IH]; intros cnt bs.
    - cbn. destruct (cnt =? 0); (split; [lia|]); intros xs rest H; inversion H; subst; lia.
    - cbn [pre_elems dec_elems]. destruct (cnt =? 0).
      + split; [lia|]. intros xs rest H. inversion H; subst. lia.
      + destruct (Hc bs) as [A1 A2].
        destruct (dec c bs) as [[a r]|] eqn:Hd.
        * specialize (A2 _ _ eq_refl). destruct (IH (cnt - 1) r) as [B1 B2]. split; [lia|].
          intros xs rest H.
          destruct (dec_elems c f (cnt - 1) r) as [[xs' r']|] eqn:Hr; [|discriminate].
          inversion H; subst. specialize (B2 _ _ eq_refl). lia.
        * split; [lia | discriminate].
  Qed.

  Lemma array_RT : RT c -> NonEmpty c -> forall n, RT (c_array c n).
  Proof.
    intros Hrt Hne n xs rest [L W]. cbn. subst n. apply dec_elems_RT; auto.
  Qed.
  Lemma array_Canon : Canon c -> forall n, Canon (c_array c n).
  Proof.
    intros Hc n bs xs rest H. cbn in H. destruct (dec_elems_Canon Hc _ _ _ _ _ H) as [E [W L]].
    cbn. repeat split; auto. lia.
  Qed.
  Lemma array_Shrinks : Shrinks c -> forall n, Shrinks (c_array c n).
  Proof. intros Hc n bs xs rest H. cbn in H. eapply dec_elems_Shrinks; eauto. Qed.
  Lemma array_AllocOK : forall K, AllocOK K c -> forall n, AllocOK K (c_array c n).
  Proof. intros K Hc n bs. cbn [pre dec c_array]. apply pre_elems_bound. exact Hc. Qed.
  Lemma array_NonEmpty : NonEmpty c -> forall n, NonEmpty (c_array c (S n)).
  Proof.
    intros Hne n xs [L W]. cbn. destruct xs as [|a xs]; [discriminate|].
    inversion W; subst. rewrite enc_elems_cons. specialize (Hne a H1).
    destruct (enc c a); [congruence | discriminate].
  Qed.

  Lemma vec_RT : RT c -> NonEmpty c -> forall k rsv, RT (c_vec c k rsv).
  Proof.
    intros Hrt Hne k rsv xs rest [L W]. cbn [dec enc c_vec]. rewrite <- app_assoc.
    rewrite le_take_bytes by exact L.
    apply dec_elems_RT; auto.
    rewrite app_length. pose proof (enc_elems_length_ge Hne xs W). lia.
  Qed.
  Lemma vec_Canon : Canon c -> forall k rsv, Canon (c_vec c k rsv).
  Proof.
    intros Hc k rsv bs xs rest H. cbn [dec c_vec] in H.
    destruct (le_take k bs) as [[n r]|] eqn:Hl; [|discriminate].
    destruct (le_take_canon _ _ _ _ Hl) as [E Hn].
    destruct (dec_elems_Canon Hc _ _ _ _ _ H) as [E2 [W L]]. subst.
    cbn [enc wf c_vec]. rewrite <- app_assoc. repeat split; auto.
  Qed.
  Lemma vec_NonEmpty : forall k rsv, NonEmpty (c_vec c (S k) rsv).
  Proof. intros k rsv xs _. cbn. discriminate. Qed.
  Lemma vec_Shrinks : Shrinks c -> forall k rsv, Shrinks (c_vec c k rsv).
  Proof.
    intros Hc k rsv bs xs rest H. cbn [dec c_vec] in H.
    destruct (le_take k bs) as [[n r]|] eqn:Hl; [|discriminate].
    apply le_take_length in Hl. apply (dec_elems_Shrinks Hc) in H. lia.
  Qed.
  (** the reservation is paid for by the length prefix: at most [K] slots per vector *)
  Lemma vec_AllocOK : forall K, AllocOK K c -> forall k rsv,
    (forall n, n < 256 ^ N.of_nat (S k) -> rsv n <= K) ->
    AllocOK K (c_vec c (S k) rsv).
  Proof.
    intros K Hc k rsv Hr bs. cbn [pre dec c_vec].
    destruct (le_take (S k) bs) as [[n r]|] eqn:Hl; [|split; [lia | discriminate]].
    pose proof (proj2 (le_take_canon _ _ _ _ Hl)) as Hn.
    apply le_take_length in Hl. rewrite Hl.
    destruct (pre_elems_bound K Hc (S (length r)) n r) as [B1 B2].
    specialize (Hr n Hn). rewrite Nat2N.inj_add, Nat2N.inj_succ.
    split; [lia|]. intros xs rest H. specialize (B2 _ _ H). lia.
  Qed.
  (** the number of slots reserved before the first element is read *)
  Lemma vec_reserve_le_max : forall n, rsv_std n <= MAX_PREALLOCATED_CAPACITY.
  Proof. intros n. unfold rsv_std. lia. Qed.
End Elems.

Section Ordered.
  Context {A : Type} (ltb : A -> A -> bool).

  Lemma isort_sorted_id : forall xs, strict_sorted ltb xs = true -> isort ltb xs = xs.
  Proof.
    induction xs as [|x xs IH]; intros H; [reflexivity|].
    cbn [isort]. cbn [strict_sorted] in H. destruct xs as [|y ys]; [reflexivity|].
    apply andb_prop in H as [Hxy Hs]. rewrite (IH Hs). cbn [insert]. rewrite Hxy. reflexivity.
  Qed.

  Section WithCodec.
    Context (cv : codec (list A)).
    Lemma ordered_RT : RT cv -> RT (c_ordered ltb cv).
    Proof. apply refine_RT. Qed.
    Lemma ordered_Canon : Canon cv -> Canon (c_ordered ltb cv).
    Proof. apply refine_Canon. Qed.
    (** the encoding of a collection with a duplicate or descending key is rejected *)
    Lemma ordered_reject_gen : RT cv -> forall xs rest, wf cv xs -> strict_sorted ltb xs = false ->
      dec (c_ordered ltb cv) (enc cv xs ++ rest) = None.
    Proof. intros H xs rest W S. apply refine_reject; auto. Qed.

    Lemma unordered_RT : RT cv -> RT (c_unordered ltb cv).
    Proof.
      intros Hc xs rest [W S]. cbn. rewrite (Hc _ _ W). rewrite (isort_sorted_id _ S), S. reflexivity.
    Qed.
    Lemma unordered_Shrinks : Shrinks cv -> Shrinks (c_unordered ltb cv).
    Proof.
      intros Hc bs xs r H. cbn in H. destruct (dec cv bs) as [[ys r']|] eqn:Hd; [|discriminate].
      destruct (strict_sorted ltb (isort ltb ys)); [|discriminate]. inversion H; subst. eapply Hc; eauto.
    Qed.
    Lemma unordered_AllocOK : forall K, AllocOK K cv -> AllocOK K (c_unordered ltb cv).
    Proof.
      intros K Hc bs. destruct (Hc bs) as [H1 H2]. cbn [pre c_unordered]. split; [exact H1|].
      intros xs r H. cbn in H. destruct (dec cv bs) as [[ys r']|] eqn:Hd; [|discriminate].
      destruct (strict_sorted ltb (isort ltb ys)); [|discriminate]. inversion H; subst. eapply H2; eauto.
    Qed.
    (** whatever is accepted is strictly ascending: no duplicates survive *)
    Lemma unordered_sound : forall bs xs r, dec (c_unordered ltb cv) bs = Some (xs, r) -> strict_sorted ltb xs = true.
    Proof.
      intros bs xs r H. cbn in H. destruct (dec cv bs) as [[ys r']|]; [|discriminate].
      destruct (strict_sorted ltb (isort ltb ys)) eqn:S; [|discriminate]. inversion H; subst. exact S.
    Qed.
  End WithCodec.
End Ordered.
