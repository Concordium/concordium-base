(** * SchemaJsonContractMore — which of the harness's 26 contract-side Rust types are instances of the fragment
    [cty] of [SchemaJsonContract.v] (21 of them), and the contract-side encoding of three of the remaining five
    (Timestamp, Duration = u64 milliseconds; AccountAddress = 32 raw bytes) relative to the abstract text codecs. *)
From Coq Require Import NArith ZArith Bool List Lia.
From CB Require Import Contract.CcCodec Contract.CcTypes.
From CB Require Import Contract.SchemaJson Contract.SchemaJsonLemmas Contract.SchemaJsonContract.
Import ListNotations.
Local Open Scope N_scope.

(** [SchemaType::get_type()] of the Rust types exercised by harness mode [contract], as fragment terms:
    u8 u16 u32 u64 u128 i8 i16 i32 i64 i128 bool Amount ContractAddress [u8;4] Vec<u16> Vec<Option<i8>> String
    Option<u64> BTreeSet<u32> BTreeMap<u8,i32> (u8,(bool,u64)) *)
Definition rust_types_in_fragment : list cty :=
  [CUint W8; CUint W16; CUint W32; CUint W64; CUint W128; CSint W8; CSint W16; CSint W32; CSint W64; CSint W128;
   CBool; CAmount; CContractAddress; CArray 4 (CUint W8); CList SL32 (CUint W16); CList SL32 (COption (CSint W8));
   CString SL32; COption (CUint W64); CSet SL32 (CUint W32); CMap SL32 (CUint W8) (CSint W32);
   CPair (CUint W8) (CPair CBool (CUint W64))].

Theorem rust_types_contract_encoding : forall (L : leaves) c, In c rust_types_in_fragment ->
  forall j bs, json_wf j = true -> from_json L (ty_of c) j = Some bs ->
  exists v, denote c j = Some v /\ wf (codec_of c) v /\ bs = enc (codec_of c) v.
Proof. intros L c _. apply bytes_are_contract_encoding_all. Qed.

(** Timestamp / Duration: the bytes are the u64 encoding of the milliseconds the text codec parses *)
Lemma ms_contract_encoding : forall parse j bs, from_ms parse j = Some bs ->
  exists s m, j = JStr s /\ parse s = Some m /\ wf (c_uint 8) m /\ bs = enc (c_uint 8) m.
Proof.
  unfold from_ms. intros parse j bs H. destruct j; try discriminate.
  destruct (parse s) as [m|] eqn:E; [|discriminate].
  destruct (N.ltb_spec m (2 ^ 64)); [|discriminate]. injection H as <-.
  exists s, m. repeat split; auto.
Qed.

Theorem timestamp_contract_encoding : forall (L : leaves) j bs, from_json L TTimestamp j = Some bs ->
  exists s m, j = JStr s /\ ts_parse L s = Some m /\ wf (c_uint 8) m /\ bs = enc (c_uint 8) m.
Proof. intros L. exact (ms_contract_encoding (ts_parse L)). Qed.

Theorem duration_contract_encoding : forall (L : leaves) j bs, from_json L TDuration j = Some bs ->
  exists s m, j = JStr s /\ dur_parse L s = Some m /\ wf (c_uint 8) m /\ bs = enc (c_uint 8) m.
Proof. intros L. exact (ms_contract_encoding (dur_parse L)). Qed.

(** AccountAddress: exactly the 32 bytes the text codec parses *)
Theorem account_contract_encoding : forall (L : leaves) j bs, from_json L TAccountAddress j = Some bs ->
  exists s, j = JStr s /\ acc_parse L s = Some bs /\ length bs = 32%nat.
Proof.
  intros L j bs H. cbn [from_json] in H. destruct j; try discriminate.
  destruct (acc_parse L s) as [a|] eqn:E; [|discriminate].
  destruct (N.eqb_spec (N.of_nat (length a)) 32); [|discriminate]. injection H as <-.
  exists s. repeat split; auto. lia.
Qed.
