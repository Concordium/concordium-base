(** * Contract/V1ResumeProofs — the response word is decodable (hence injective on what a contract can
    observe), [migrate] preserves or invalidates handles exactly by the [state_updated] flag, and no
    energy is charged across an interrupt. *)
From Coq Require Import ZArith List Bool Lia.
From CB Require Import Trie.Locks Trie.RadixProofs Trie.InstanceState Trie.InstanceStateProofs
  Contract.V1Resume.
Import ListNotations.
Local Open Scope N_scope.

Lemma lor_tag len : len <= MAX_PARAM_INDEX -> N.lor len UPDATED_TAG = UPDATED_TAG + len.
Proof.
  intros H. rewrite N.lor_comm. change UPDATED_TAG with (1 * 2 ^ 23) at 1.
  rewrite lor_low_add; [reflexivity|]. unfold MAX_PARAM_INDEX in H. change (2 ^ 23) with 8388608. lia.
Qed.

Lemma code_u32_bound code : code_u32 code < 4294967296.
Proof.
  unfold code_u32. pose proof (Z.mod_pos_bound code 4294967296 ltac:(lia)). lia.
Qed.

Definition word_arith (state_updated : bool) (params : list (list N)) (r : invoke_response) : N :=
  let len := N.of_nat (length params) in
  let tag := if state_updated then UPDATED_TAG else 0 in
  match r with
  | RSuccess _ (Some _) => (tag + len) * 1099511627776
  | RSuccess _ None => tag * 1099511627776
  | RFailure (FContractReject code _) => len * 1099511627776 + code_u32 code
  | RFailure k => failure_number k * 4294967296
  end.

Lemma response_word_arith su params r w ps :
  response_word su params r = Some (w, ps) -> w = word_arith su params r.
Proof.
  unfold response_word, word_arith. cbv zeta.
  destruct r as [bal [d|]|k].
  - destruct (N.ltb_spec MAX_PARAM_INDEX (N.of_nat (length params))) as [|Hle]; [discriminate|].
    intros E; inversion E; subst; clear E. rewrite N.shiftl_mul_pow2. change (2 ^ 40) with 1099511627776.
    destruct su.
    + rewrite lor_tag by exact Hle. reflexivity.
    + rewrite N.lor_0_r. reflexivity.
  - intros E; inversion E; subst. rewrite N.shiftl_mul_pow2. reflexivity.
  - destruct k as [code d| | | | | | | | | | |]; [|intros E; inversion E; subst; clear E; vm_compute; reflexivity ..].
    destruct (N.ltb_spec MAX_PARAM_INDEX (N.of_nat (length params))) as [|Hle]; [discriminate|].
    intros E; inversion E; subst; clear E.
    rewrite N.shiftl_mul_pow2, lor_low_add; [reflexivity|]. change (2 ^ 40) with 1099511627776.
    pose proof (code_u32_bound code). lia.
Qed.

Lemma hi_mod_low a : (a * 1099511627776) mod 4294967296 = 0.
Proof. replace (a * 1099511627776) with (a * 256 * 4294967296) by lia. apply N.mod_mul. lia. Qed.
Lemma hi_mid a : (a * 1099511627776 / 4294967296) mod 256 = 0.
Proof.
  replace (a * 1099511627776) with (a * 256 * 4294967296) by lia. rewrite N.div_mul by lia. apply N.mod_mul. lia.
Qed.
Lemma hi_hi a : a * 1099511627776 / 1099511627776 = a.
Proof. apply N.div_mul. lia. Qed.
Lemma rej_low a c : c < 4294967296 -> (a * 1099511627776 + c) mod 4294967296 = c.
Proof.
  intros H. replace (a * 1099511627776 + c) with (c + a * 256 * 4294967296) by lia.
  rewrite N.mod_add by lia. apply N.mod_small. exact H.
Qed.
Lemma rej_hi a c : c < 4294967296 -> (a * 1099511627776 + c) / 1099511627776 = a.
Proof.
  intros H. rewrite N.div_add_l by lia. rewrite N.div_small by lia. lia.
Qed.
Lemma tag_mod len : len < 8388608 -> (8388608 + len) mod 8388608 = len.
Proof.
  intros H. replace (8388608 + len) with (len + 1 * 8388608) by lia. rewrite N.mod_add by lia. apply N.mod_small. exact H.
Qed.

(** ** the word determines everything a contract can learn from it *)
Definition reject_code_nonzero (r : invoke_response) : Prop :=
  match r with RFailure (FContractReject code _) => code_u32 code <> 0 | _ => True end.

Theorem decode_response_word su params r w ps :
  params <> [] -> reject_code_nonzero r ->
  response_word su params r = Some (w, ps) -> decode_word w = shape_of su params r.
Proof.
  intros Hne Hc E. pose proof (response_word_arith _ _ _ _ _ E) as Hw. subst w.
  assert (Hlen : 1 <= N.of_nat (length params)) by (destruct params; [contradiction | cbn [length]; lia]).
  unfold response_word in E. cbv zeta in E.
  unfold decode_word, word_arith, shape_of. cbv zeta.
  destruct r as [bal [d|]|k].
  - destruct (N.ltb_spec MAX_PARAM_INDEX (N.of_nat (length params))) as [|Hle]; [discriminate|].
    unfold MAX_PARAM_INDEX in Hle. set (len := N.of_nat (length params)) in *.
    rewrite hi_mod_low, hi_mid, hi_hi. cbn [N.eqb negb].
    destruct su; unfold UPDATED_TAG.
    + rewrite tag_mod by lia.
      destruct (N.leb_spec 8388608 (8388608 + len)); [|lia].
      destruct (N.eqb_spec len 0); [lia|]. reflexivity.
    + rewrite N.add_0_l. rewrite (N.mod_small len 8388608) by lia.
      destruct (N.leb_spec 8388608 len); [lia|].
      destruct (N.eqb_spec len 0); [lia|]. reflexivity.
  - destruct su; unfold UPDATED_TAG; vm_compute; reflexivity.
  - destruct k as [code d| | | | | | | | | | |]; [|vm_compute; reflexivity ..].
    destruct (N.ltb_spec MAX_PARAM_INDEX (N.of_nat (length params))) as [|Hle]; [discriminate|].
    unfold MAX_PARAM_INDEX in Hle. set (len := N.of_nat (length params)) in *.
    cbn [reject_code_nonzero] in Hc. pose proof (code_u32_bound code) as Hb. set (c := code_u32 code) in *.
    rewrite rej_low, rej_hi by exact Hb.
    destruct (N.eqb_spec c 0); [contradiction|]. reflexivity.
Qed.

(** distinct responses (as far as a contract can tell them apart) give distinct words *)
Theorem response_word_encoding_injective_thm : forall su1 ps1 r1 su2 ps2 r2 w p1 p2,
  ps1 <> [] -> ps2 <> [] -> reject_code_nonzero r1 -> reject_code_nonzero r2 ->
  response_word su1 ps1 r1 = Some (w, p1) -> response_word su2 ps2 r2 = Some (w, p2) ->
  shape_of su1 ps1 r1 = shape_of su2 ps2 r2.
Proof.
  intros su1 ps1 r1 su2 ps2 r2 w p1 p2 H1 H2 C1 C2 E1 E2.
  rewrite <- (decode_response_word _ _ _ _ _ H1 C1 E1). apply (decode_response_word _ _ _ _ _ H2 C2 E2).
Qed.

(** the side condition is needed: a reject with code 0 would be read as a successful call with a
    return value (the engine only rejects with negative codes: [process_receive_result]) *)
Example reject_code_zero_collides :
  response_word false [[]] (RFailure (FContractReject 0 [1])) = Some (1099511627776, [[]; [1]])
  /\ response_word false [[]] (RSuccess 0 (Some [1])) = Some (1099511627776, [[]; [1]]).
Proof. split; vm_compute; reflexivity. Qed.

(** non-vacuity: four of the shapes with one parameter vector *)
Example response_words_sample :
  map (fun r => option_map fst (response_word true [[]] r))
      [RSuccess 7 None; RSuccess 7 (Some [1]); RFailure (FContractReject (-1) [2]); RFailure FSignatureCheckFailed]
  = [Some 9223372036854775808; Some 9223373136366403584; Some 1103806595071; Some 47244640256].
Proof. vm_compute. reflexivity. Qed.

(** too many parameters: the only failure *)
Theorem response_word_total su params r :
  response_word su params r = None <->
  (MAX_PARAM_INDEX < N.of_nat (length params)
   /\ match r with RSuccess _ (Some _) | RFailure (FContractReject _ _) => True | _ => False end).
Proof.
  unfold response_word. cbv zeta.
  destruct r as [bal [d|]|k]; [| |destruct k];
    try (split; [discriminate | intros [_ []]]);
    (destruct (N.ltb_spec MAX_PARAM_INDEX (N.of_nat (length params)));
     split; [intros _; split; [assumption|exact I] | reflexivity | discriminate | intros [Hx _]; lia]).
Qed.

Lemma resume_is_migrate commit inner outer :
  resume commit inner outer = migrate (commit && touched inner) (snd inner) outer.
Proof.
  destruct inner as [ii ig], outer as [oi og]. unfold resume, migrate, touched. cbn [fst snd].
  destruct (commit && (is_changed ii || is_touched ii)); reflexivity.
Qed.

(** a handle that was valid at the interrupt is valid after the resume iff the state was not
    updated; when it stays valid it denotes the same entry with the same contents *)
Theorem resume_preserves_or_invalidates_thm : forall state_updated cur outer id x,
  entry_of (fst outer) (snd outer) id = Some x ->
  let f := migrate state_updated cur outer in
  (state_updated = false -> entry_of (fst f) (snd f) id = Some x)
  /\ (state_updated = true -> entry_of (fst f) (snd f) id = None)
  /\ (entry_of (fst f) (snd f) id <> None <-> state_updated = false).
Proof.
  intros su cur [oi og] id x Hv. cbn [fst snd] in Hv. cbv zeta.
  assert (Hg : id_gen id = is_gen oi).
  { unfold entry_of in Hv. destruct (N.eqb_spec (id_gen id) (is_gen oi)); [assumption | discriminate]. }
  assert (Hup : entry_of (fst (migrate true cur (oi, og))) (snd (migrate true cur (oi, og))) id = None).
  { unfold migrate. cbn [fst snd]. apply entry_of_stale. cbn [is_gen]. lia. }
  assert (Hno : entry_of (fst (migrate false cur (oi, og))) (snd (migrate false cur (oi, og))) id = Some x).
  { unfold migrate. cbn [fst snd]. unfold entry_of in *. cbn [is_gen]. exact Hv. }
  destruct su.
  - split; [discriminate|]. split; [intros _; exact Hup|]. rewrite Hup. split; [intros H; contradiction | discriminate].
  - split; [intros _; exact Hno|]. split; [discriminate|]. rewrite Hno. split; [reflexivity | discriminate].
Qed.

(** every operation on a stale handle answers "invalid" after an updating resume *)
Theorem migrate_updated_invalidates : forall cur outer o,
  is_handle_op o = true -> id_gen (op_id o) = is_gen (fst outer) ->
  let f := migrate true cur outer in
  c_op o f = ((after_invalid o (fst f), snd f), invalid_answer o).
Proof.
  intros cur [oi og] o Ho Hg. cbv zeta. unfold migrate. cbn [fst snd] in *.
  apply stale_id_invalid; [assumption|]. cbn [is_gen]. lia.
Qed.

(** without update the suspended call continues on its own generation record and tables *)
Theorem migrate_not_updated_same : forall cur outer,
  snd (migrate false cur outer) = snd outer /\ is_gen (fst (migrate false cur outer)) = is_gen (fst outer).
Proof. intros cur [oi og]. split; reflexivity. Qed.

(** every field of the host that survives an interrupt comes back unchanged: activation frames,
    energy (when the embedder passes back what it was handed), return value; the logs handed out plus
    the logs kept are the logs produced (nothing lost, nothing duplicated); the parameters grow by
    exactly what the response word announces; the balance is the new balance on success and unchanged
    on failure; the instance state is migrated *)
Theorem interrupt_preserves_host_fields_thm : forall clear h su cur r h' w,
  resume_in (snd (interrupt_out clear h)) (fst (fst (interrupt_out clear h))) su cur r = Some (h', w) ->
  rh_activation_frames h' = rh_activation_frames h
  /\ rh_energy h' = rh_energy h
  /\ rh_return_value h' = rh_return_value h
  /\ snd (fst (interrupt_out clear h)) ++ rh_logs h' = rh_logs h
  /\ response_word su (rh_params h) r = Some (w, rh_params h')
  /\ rh_self_balance h' = match r with RSuccess b _ => b | RFailure _ => rh_self_balance h end
  /\ rh_frame h' = migrate su cur (rh_frame h).
Proof.
  intros clear h su cur r h' w. unfold resume_in, interrupt_out.
  cbn [fst snd sv_params sv_frame sv_activation_frames sv_logs sv_return_value sv_self_balance].
  destruct (response_word su (rh_params h) r) as [[w0 ps]|]; [|discriminate].
  intros E; inversion E; subst; clear E. cbn.
  repeat split. destruct clear; [apply app_nil_r | reflexivity].
Qed.

(** a host whose saved activation frames were reset to the maximum would NOT have this property
    (one of the seeded changes) *)
Example reset_activation_frames_differs :
  let h := {| rh_energy := 5; rh_activation_frames := 1019; rh_logs := []; rh_return_value := [];
              rh_params := [[]]; rh_self_balance := 1; rh_frame := (i_fresh, empty_gen) |} in
  rh_activation_frames h <> MAX_ACTIVATION_FRAMES
  /\ enter_calls h 1020 = None.
Proof. split; [discriminate | reflexivity]. Qed.

(** the call-depth budget: [n] nested calls succeed iff [n] frames are left, and returning restores them *)
Theorem enter_leave_calls : forall h n,
  (enter_calls h n <> None <-> n <= rh_activation_frames h)
  /\ (forall h1, enter_calls h n = Some h1 -> leave_calls h1 n = h).
Proof.
  intros h n. unfold enter_calls. destruct (N.leb_spec n (rh_activation_frames h)) as [Hle|Hgt]; split.
  - split; [intros _; exact Hle | discriminate].
  - intros h1 E. inversion E; subst; clear E. destruct h. unfold leave_calls. cbn in *. f_equal. lia.
  - split; [intros H; contradiction | lia].
  - discriminate.
Qed.

(** energy at the interrupt = energy at the resume ([resume_receive] charges nothing before [run_config]) *)
Theorem energy_across_interrupt_thm : forall clear h su cur r h' w,
  resume_in (snd (interrupt_out clear h)) (fst (fst (interrupt_out clear h))) su cur r = Some (h', w) ->
  rh_energy h' = rh_energy h.
Proof. intros clear h su cur r h' w E. apply (interrupt_preserves_host_fields_thm _ _ _ _ _ _ _ E). Qed.
