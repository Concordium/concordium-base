(** * Contract/V1ClassifyProofs — what [process_receive_result] and [process_init_result] return in
    every case, that interrupt + resume restores the host component of the machine, and that the
    engine's loop over any number of interrupts ends in the classification of the uninterrupted run. *)
From Coq Require Import ZArith List Bool Lia.
From CB Require Import Wasm.Syntax Wasm.Compile Wasm.Machine Wasm.Resume Wasm.ResumeProofs Contract.V1Resume
  Contract.V1ResumeProofs Contract.V1Classify.
Import ListNotations.
Local Open Scope Z_scope.

Lemma i32_signed_range z : -2147483648 <= i32_signed z < 2147483648.
Proof.
  unfold i32_signed. cbv zeta. pose proof (Z.mod_pos_bound z 4294967296 ltac:(lia)).
  destruct (Z.ltb_spec (z mod 4294967296) 2147483648); lia.
Qed.

(** the value of [process_receive_result] (after [?] / [.into()]) in every case: total, a function *)
Theorem classify_receive_spec : forall h r,
  finalise (process_receive_result h r) =
  match r with
  | MSuccess (Some (VI32 z)) =>
      if 0 <=? i32_signed z then RRSuccess (hv_logs h) (hv_changed h) (hv_retval h) (hv_energy h)
      else RRReject (i32_signed z) (hv_retval h) (hv_energy h)
  | MSuccess _ => RRTrap 0%N
  | MInterrupted k =>
      if should_clear_logs k then RRInterrupt (hv_energy h) (hv_changed h) (hv_logs h) k []
      else RRInterrupt (hv_energy h) (hv_changed h) [] k (hv_logs h)
  | MErr true => RROutOfEnergy
  | MErr false => RRTrap (hv_energy h)
  end.
Proof.
  intros h [[[z|z]|]|k|[|]]; cbn [process_receive_result finalise]; try reflexivity.
  - cbv zeta. destruct (Z.leb_spec 0 (i32_signed z)); [reflexivity|].
    unfold reason_from_wasm_error_code. destruct (Z.ltb_spec (i32_signed z) 0); [reflexivity | lia].
  - destruct (should_clear_logs k); reflexivity.
Qed.

(** the [Err(InvalidReturnCodeError)] path is taken exactly when the result is missing or not an i32:
    the [Err] branch of [reason_from_wasm_error_code] is dead code under [process_receive_result] *)
Theorem receive_invalid_iff : forall h r,
  (exists v, process_receive_result h r = inl v) <->
  (r = MSuccess None \/ exists z, r = MSuccess (Some (VI64 z))).
Proof.
  intros h r. split.
  - intros [v Hv]. destruct r as [[[z|z]|]|k|[|]]; cbn [process_receive_result] in Hv; try discriminate.
    + cbv zeta in Hv. destruct (0 <=? i32_signed z) eqn:E; [discriminate|].
      unfold reason_from_wasm_error_code in Hv. apply Z.leb_gt in E.
      destruct (Z.ltb_spec (i32_signed z) 0); [discriminate | lia].
    + right. eexists; reflexivity.
    + left; reflexivity.
  - intros [->|[z ->]]; eexists; reflexivity.
Qed.

(** reject reasons: exactly the negative return codes *)
Theorem reject_reason_rule : forall h r reason v e,
  finalise (process_receive_result h r) = RRReject reason v e <->
  (exists z, r = MSuccess (Some (VI32 z)) /\ reason = i32_signed z /\ -2147483648 <= reason < 0
             /\ v = hv_retval h /\ e = hv_energy h).
Proof.
  intros h r reason v e. rewrite classify_receive_spec. split.
  - destruct r as [[[z|z]|]|k|[|]]; try discriminate.
    + destruct (Z.leb_spec 0 (i32_signed z)); [discriminate|]. intros E; inversion E; subst.
      exists z. pose proof (i32_signed_range z). repeat split; lia.
    + destruct (should_clear_logs k); discriminate.
  - intros [z [-> [-> [Hr [-> ->]]]]]. destruct (Z.leb_spec 0 (i32_signed z)); [lia | reflexivity].
Qed.

Theorem variant_rule : forall h r,
  variant_of (finalise (process_receive_result h r)) =
  match r with
  | MSuccess (Some (VI32 z)) => if 0 <=? i32_signed z then VSuccess else VReject
  | MSuccess _ => VTrap
  | MInterrupted _ => VInterrupt
  | MErr true => VOutOfEnergy
  | MErr false => VTrap
  end.
Proof.
  intros h r. rewrite classify_receive_spec.
  destruct r as [[[z|z]|]|k|[|]]; try reflexivity.
  - destruct (0 <=? i32_signed z); reflexivity.
  - destruct (should_clear_logs k); reflexivity.
Qed.

(** the init counterpart: 0 succeeds, negative codes reject, positive codes are a protocol violation
    ([Err(InvalidReturnCodeError { value: Some(n) })]) *)
Theorem classify_init_spec : forall h r,
  process_init_result h r =
  match r with
  | MSuccess (Some (VI32 z)) =>
      if i32_signed z =? 0 then inr (IRSuccess (hv_logs h) (hv_retval h) (hv_energy h))
      else if i32_signed z <? 0 then inr (IRReject (i32_signed z) (hv_retval h) (hv_energy h))
      else inl (Some (i32_signed z))
  | MSuccess _ => inl None
  | MInterrupted _ => inl None
  | MErr true => inr IROutOfEnergy
  | MErr false => inr (IRTrap (hv_energy h))
  end.
Proof.
  intros h [[[z|z]|]|k|[|]]; cbn [process_init_result]; try reflexivity.
  cbv zeta. destruct (i32_signed z =? 0); [reflexivity|].
  unfold reason_from_wasm_error_code. destruct (i32_signed z <? 0); reflexivity.
Qed.

Theorem init_reject_reason_rule : forall h r reason v e,
  process_init_result h r = inr (IRReject reason v e) <->
  (exists z, r = MSuccess (Some (VI32 z)) /\ reason = i32_signed z /\ -2147483648 <= reason < 0
             /\ v = hv_retval h /\ e = hv_energy h).
Proof.
  intros h r reason v e. rewrite classify_init_spec. split.
  - destruct r as [[[z|z]|]|k|[|]]; try discriminate.
    destruct (Z.eqb_spec (i32_signed z) 0); [discriminate|].
    destruct (Z.ltb_spec (i32_signed z) 0); [|discriminate]. intros E; inversion E; subst.
    exists z. pose proof (i32_signed_range z). repeat split; lia.
  - intros [z [-> [-> [Hr [-> ->]]]]]. destruct (Z.eqb_spec (i32_signed z) 0); [lia|].
    destruct (Z.ltb_spec (i32_signed z) 0); [reflexivity | lia].
Qed.

(** a receive method returning a POSITIVE code succeeds, an init method returning it is a protocol
    violation: the two entry kinds differ exactly there (observation O-C13-1 of design/C13.md) *)
Theorem receive_init_differ_exactly_on_positive : forall h z,
  (variant_of (finalise (process_receive_result h (MSuccess (Some (VI32 z))))) = VSuccess
   /\ process_init_result h (MSuccess (Some (VI32 z))) = inl (Some (i32_signed z)))
  <-> 0 < i32_signed z.
Proof.
  intros h z. rewrite variant_rule, classify_init_spec.
  destruct (Z.leb_spec 0 (i32_signed z)); destruct (Z.eqb_spec (i32_signed z) 0);
    destruct (Z.ltb_spec (i32_signed z) 0); split; try lia; try (intros [? ?]; discriminate);
    try (intros _; split; reflexivity).
Qed.

Lemma trestore_tsave h : trestore (tsave h) = h.
Proof. destruct h; reflexivity. Qed.

Theorem t_capture_resume : forall s l r, tresume (tcapture s l) l r = tdirect s l r.
Proof.
  intros [st h] l r. unfold tresume, tcapture, tdirect. cbn [fst snd].
  rewrite capture_resume_machine, trestore_tsave. reflexivity.
Qed.

(** [tsave] / [trestore] are [process_receive_result] ([Interrupted]) + [resume_receive] of
    [Contract/V1Resume.v] on the two fields the interpreter drives *)
Definition hostc_of (rh : receive_host) : hostc :=
  {| hc_energy := rh_energy rh; hc_frames := rh_activation_frames rh |}.
Theorem tsave_is_interrupt_out : forall clear rh su cur r rh' w,
  resume_in (snd (interrupt_out clear rh)) (fst (fst (interrupt_out clear rh))) su cur r = Some (rh', w) ->
  tsave (hostc_of rh) = (fst (fst (interrupt_out clear rh)), sv_activation_frames (snd (interrupt_out clear rh)))
  /\ hostc_of rh' = trestore (tsave (hostc_of rh)).
Proof.
  intros clear rh su cur r rh' w E.
  destruct (interrupt_preserves_host_fields_thm _ _ _ _ _ _ _ E) as [Hf [He _]].
  split; [reflexivity|]. rewrite trestore_tsave. unfold hostc_of. rewrite Hf, He. reflexivity.
Qed.

(** a saved host that forgets the frames in use does not have the property (seeded change 6) *)
Example reset_frames_not_restored :
  let h := {| hc_energy := 5%N; hc_frames := 1019%N |} in
  trestore (hc_energy h, MAX_ACTIVATION_FRAMES) <> h.
Proof. cbv. discriminate. Qed.

Section TrackedProofs.
Variable art : artifact.
Variable X : Type.
Variable hfun : X -> nat -> hquery -> N -> X * hanswer.

(** interrupt + resume any number of times = the uninterrupted run: final machine state or trap, the
    host component at the end (remaining energy, activation frames), the world (logs, return value,
    state-changed flag), tick trace, number of host calls *)
Theorem t_resume_equiv : forall choose rounds fuel w n tr s,
  (fuel <= rounds)%nat ->
  t_drive art X hfun choose rounds fuel w n tr s = t_run_direct art X hfun fuel w n tr s.
Proof.
  intros. unfold t_drive, t_run_direct. apply drive_eq_direct; [exact t_capture_resume | assumption].
Qed.

(** host functions only append to the logs and only count state changes up *)
Definition logs_prefix (w w' : world X) : Prop :=
  (exists m, w_logs w' = w_logs w ++ m) /\ (w_changes w <= w_changes w')%nat.
Lemma logs_prefix_refl w : logs_prefix w w.
Proof. split; [exists []; symmetry; apply app_nil_r | lia]. Qed.
Lemma logs_prefix_trans a b c : logs_prefix a b -> logs_prefix b c -> logs_prefix a c.
Proof.
  intros [[m Hm] H1] [[m' Hm'] H2]. split; [|lia]. exists (m ++ m'). rewrite Hm', Hm. symmetry. apply app_assoc.
Qed.
Lemma thcall_prefix w n q : logs_prefix w (fst (thcall X hfun w n q)).
Proof.
  unfold thcall. destruct (hfun (w_x w) n (fst q) (hc_energy (snd q))) as [x' [cost eff resp nl rv chg|e]].
  - destruct (hc_energy (snd q) <? cost)%N; cbn [fst].
    + split; cbn [w_logs w_changes]; [exists []; symmetry; apply app_nil_r | lia].
    + split; cbn [w_logs w_changes]; [exists nl; reflexivity | lia].
  - split; cbn [fst w_logs w_changes]; [exists []; symmetry; apply app_nil_r | lia].
Qed.
Lemma ltb_split mark c : (mark <= c)%nat -> ((0 <? mark)%nat || (mark <? c)%nat) = (0 <? c)%nat.
Proof.
  intros H. destruct (Nat.ltb_spec 0 mark); destruct (Nat.ltb_spec mark c); destruct (Nat.ltb_spec 0 c);
    cbn; try reflexivity; lia.
Qed.

Lemma run_config_prefix : forall choose fuel w n tr s,
  match t_run_config art X hfun choose fuel w n tr s with
  | RCDone _ _ _ _ _ _ _ res => logs_prefix w (r_host res)
  | RCInterrupted _ _ _ _ _ _ _ q l r k w' n' tr' f' => logs_prefix w w'
  end.
Proof.
  intros choose. unfold t_run_config. induction fuel as [|f IH]; intros w n tr s.
  - cbn [run_config r_host]. apply logs_prefix_refl.
  - cbn [run_config]. destruct (tstep art s) as [s'|o|q s' l].
    + apply IH.
    + cbn [r_host]. apply logs_prefix_refl.
    + pose proof (thcall_prefix w n q) as Hp.
      destruct (thcall X hfun w n q) as [w' [[a r]|]]; cbn [fst] in Hp.
      * destruct (choose n q).
        -- exact Hp.
        -- specialize (IH w' (S n) (tr ++ tev art s) (tdirect (tapply s' a) l r)).
           match goal with |- match ?e with _ => _ end => destruct e end;
             eapply logs_prefix_trans; eassumption.
      * cbn [r_host]. exact Hp.
Qed.

Lemma firstn_skipn_prefix (A : Type) (l m : list A) k :
  (k <= length l)%nat -> firstn k l ++ skipn k (l ++ m) = l ++ m.
Proof.
  intros Hk. rewrite skipn_app. replace (k - length l)%nat with O by lia. cbn [skipn].
  rewrite app_assoc, firstn_skipn. reflexivity.
Qed.
Lemma firstn_prefix (A : Type) (l m : list A) k :
  (k <= length l)%nat -> firstn k (l ++ m) = firstn k l.
Proof.
  intros Hk. rewrite firstn_app. replace (k - length l)%nat with O by lia. cbn [firstn]. apply app_nil_r.
Qed.

Variable entry : nat.
Variable kind_of : hquery -> interrupt_kind.

Lemma classify_final_handed : forall handed mark res,
  match classify_final art X entry handed mark res with
  | Some f => exists d, classify_final art X entry O O res = Some d /\ strip_logs f = strip_logs d
                        /\ (variant_of d = VSuccess ->
                            logs_of f = skipn handed (w_logs (r_host res)) /\ logs_of d = w_logs (r_host res)
                            /\ changed_of f = (mark <? w_changes (r_host res))%nat
                            /\ changed_of d = (0 <? w_changes (r_host res))%nat)
  | None => classify_final art X entry O O res = None
  end.
Proof.
  intros handed mark res. unfold classify_final. destruct (machine_result_of art X entry res) as [[m e]|]; [|reflexivity].
  eexists. split; [reflexivity|]. unfold view. split.
  - rewrite !classify_receive_spec. cbn [hv_energy hv_logs hv_retval hv_changed].
    destruct m as [[[z|z]|]|k|[|]]; try reflexivity.
    + destruct (0 <=? i32_signed z); reflexivity.
    + destruct (should_clear_logs k); reflexivity.
  - rewrite !classify_receive_spec. cbn [hv_energy hv_logs hv_retval hv_changed skipn].
    destruct m as [[[z|z]|]|k|[|]]; cbn [variant_of]; try discriminate.
    + destruct (0 <=? i32_signed z); cbn [variant_of logs_of changed_of]; [intros _; repeat split; reflexivity | discriminate].
    + destruct (should_clear_logs k); discriminate.
Qed.

Definition is_interrupt (r : receive_result) : Prop := variant_of r = VInterrupt.

Lemma e_drive_spec : forall choose rounds fuel w n tr s handed mark acc,
  (fuel <= rounds)%nat -> (handed <= length (w_logs w))%nat -> (mark <= w_changes w)%nat ->
  match e_drive art X hfun entry kind_of choose rounds fuel w n tr s handed mark acc with
  | Some rs =>
      exists ints final d,
        rs = acc ++ ints ++ [final]
        /\ Forall is_interrupt ints
        /\ classify_final art X entry O O (t_run_direct art X hfun fuel w n tr s) = Some d
        /\ strip_logs final = strip_logs d
        /\ (variant_of d = VSuccess ->
            firstn handed (w_logs w) ++ concat (map logs_of ints) ++ logs_of final = logs_of d
            /\ ((0 <? mark)%nat || existsb changed_of ints || changed_of final) = changed_of d)
  | None => classify_final art X entry O O (t_run_direct art X hfun fuel w n tr s) = None
  end.
Proof.
  intros choose. induction rounds as [|rdn IH]; intros fuel w n tr s handed mark acc Hle Hh Hmk; cbn [e_drive];
    pose proof (run_config_spec _ _ _ _ _ _ _ _ _ (tstep art) (tev art) tapply tdirect tcapture tresume (thcall X hfun)
                  t_capture_resume choose fuel w n tr s) as Hs;
    pose proof (run_config_prefix choose fuel w n tr s) as Hp;
    unfold t_run_config in *; unfold t_run_direct in *;
    destruct (run_config tstate tconfig tquery (option Z) teffect hresponse tout (world X) N (tstep art) (tev art) tapply tdirect tcapture
                (thcall X hfun) choose fuel w n tr s) as [res|q l r k w' n' tr' f'].
  (* a run that ends without interrupt, whatever the number of rounds left *)
  1, 3: rewrite Hs; pose proof (classify_final_handed handed mark res) as Hc;
        destruct (classify_final art X entry handed mark res) as [f|]; [|exact Hc];
        destruct Hc as [d [Hd [Hst Hl]]]; exists [], f, d; repeat split; try assumption;
        [ constructor
        | destruct (Hl H) as [Hf [Hdl _]]; cbn [map concat app]; rewrite Hf, Hdl;
          destruct Hp as [[m Hm] _]; rewrite Hm; apply firstn_skipn_prefix; exact Hh
        | destruct (Hl H) as [_ [_ [Hcf Hcd]]]; cbn [existsb]; rewrite orb_false_r, Hcf, Hcd;
          apply ltb_split; destruct Hp as [_ Hc]; lia ].
  - destruct Hs as [Hlt _]. lia.
  - destruct Hs as [Hlt Heq]. rewrite Heq.
    destruct Hp as [[m Hm] Hch].
    set (rr := finalise (process_receive_result (view X handed mark w' (fst (snd k))) (MInterrupted (kind_of (fst q))))).
    set (handed' := if should_clear_logs (kind_of (fst q)) then length (w_logs w') else handed).
    assert (Hh' : (handed' <= length (w_logs w'))%nat).
    { unfold handed'. destruct (should_clear_logs (kind_of (fst q))); [lia|]. rewrite Hm, app_length. lia. }
    specialize (IH f' w' n' tr' (tresume k l r) handed' (w_changes w') (acc ++ [rr]) ltac:(lia) Hh' ltac:(lia)).
    unfold t_run_direct in IH.
    match goal with |- match ?e with _ => _ end => destruct e as [rs|] end; [|exact IH].
    destruct IH as [ints [final [d [Hrs [Hall [Hd [Hst Hl]]]]]]].
    exists (rr :: ints), final, d. repeat split; try assumption.
  + rewrite Hrs, <- app_assoc. reflexivity.
  + constructor; [|assumption]. unfold is_interrupt, rr. rewrite variant_rule. reflexivity.
  + destruct (Hl H) as [Hl1 _]. rewrite <- Hl1. cbn [map concat]. rewrite <- !app_assoc.
    rewrite (app_assoc (firstn handed (w_logs w))). f_equal.
    unfold rr, handed'. rewrite classify_receive_spec. unfold view. cbn [hv_logs hv_energy hv_changed hv_retval].
    destruct (should_clear_logs (kind_of (fst q))); cbn [logs_of].
    * rewrite firstn_all, Hm. apply firstn_skipn_prefix. exact Hh.
    * rewrite app_nil_r, Hm. symmetry. apply firstn_prefix. exact Hh.
  + destruct (Hl H) as [_ Hl2]. rewrite <- Hl2. cbn [existsb]. rewrite !orb_assoc. f_equal. f_equal.
    unfold rr. rewrite classify_receive_spec. unfold view. cbn [hv_logs hv_energy hv_changed hv_retval].
    destruct (should_clear_logs (kind_of (fst q))); cbn [changed_of]; apply ltb_split; lia.
Qed.

(** the engine theorem: the [ReceiveResult]s of an execution interrupted any number of times are
    [Interrupt]s followed by the classification of the uninterrupted run (same variant, reject reason,
    return value, state-changed flag, remaining energy); on success the logs handed out with the
    interrupts followed by the final logs are exactly the logs of the uninterrupted run; and the
    interrupted execution has a result iff the uninterrupted one has (fuel artefact) *)
Theorem e_drive_classifies_as_direct : forall choose rounds fuel w s,
  (fuel <= rounds)%nat ->
  match e_drive art X hfun entry kind_of choose rounds fuel w O [] s O O [] with
  | Some rs =>
      exists ints final d,
        rs = ints ++ [final]
        /\ Forall is_interrupt ints
        /\ e_direct art X hfun entry fuel w s = Some d
        /\ strip_logs final = strip_logs d
        /\ (variant_of d = VSuccess ->
            concat (map logs_of ints) ++ logs_of final = logs_of d
            /\ (existsb changed_of ints || changed_of final) = changed_of d)
  | None => e_direct art X hfun entry fuel w s = None
  end.
Proof.
  intros choose rounds fuel w s Hle.
  pose proof (e_drive_spec choose rounds fuel w O [] s O O [] Hle ltac:(lia) ltac:(lia)) as Hs.
  unfold e_direct.
  destruct (e_drive art X hfun entry kind_of choose rounds fuel w O [] s O O []) as [rs|]; [|exact Hs].
  destruct Hs as [ints [final [d [Hrs [Hall [Hd [Hst Hl]]]]]]].
  exists ints, final, d. repeat split; try assumption; destruct (Hl H) as [H1 H2]; assumption.
Qed.
End TrackedProofs.

(** ** non-vacuity: a contract that calls one import and returns its parameter *)
Definition demo_art : artifact :=
  {| a_imports := [{| ft_params := []; ft_result := Some T_i64 |}]; a_types := []; a_table := []; a_memory := None;
     a_globals := [];
     a_code := [{| cf_type_idx := O; cf_params := [T_i64]; cf_num_locals := O; cf_return := Some T_i32;
                   cf_num_registers := 2; cf_constants := [];
                   cf_code := [7; 0; 0; 0; 0; 1; 0; 0; 0; 6]%N |}] |}.
Definition demo_hfun : unit -> nat -> hquery -> N -> unit * hanswer :=
  fun x _ _ _ => (x, HOk 5%N None (Some 42) [[1; 2]%N] (Some [9%N]) true).
Definition demo_start (code : Z) : option tstate :=
  match init_state demo_art O [VI64 code] with Some st => Some (st, initial_hostc 100%N) | None => None end.
Definition demo_run (k : interrupt_kind) (code : Z) : option (list receive_result) :=
  match demo_start code with
  | Some s => e_drive demo_art unit demo_hfun O (fun _ => k) (fun _ _ => true) 10 10 (initial_world tt) O [] s O O []
  | None => None
  end.
Definition demo_direct (code : Z) : option receive_result :=
  match demo_start code with
  | Some s => e_direct demo_art unit demo_hfun O 10 (initial_world tt) s
  | None => None
  end.
(** a transfer hands the logs out with the interrupt; a query keeps them; the return code decides *)
Example demo_runs :
  demo_run ITransfer 0 = Some [RRInterrupt 95 true [[1; 2]%N] ITransfer []; RRSuccess [] false [9%N] 95]
  /\ demo_run IQueryExchangeRates 0
     = Some [RRInterrupt 95 true [] IQueryExchangeRates [[1; 2]%N]; RRSuccess [[1; 2]%N] false [9%N] 95]
  /\ demo_run ITransfer (-3) = Some [RRInterrupt 95 true [[1; 2]%N] ITransfer []; RRReject (-3) [9%N] 95]
  /\ demo_run ITransfer 7 = Some [RRInterrupt 95 true [[1; 2]%N] ITransfer []; RRSuccess [] false [9%N] 95]
  /\ demo_direct 0 = Some (RRSuccess [[1; 2]%N] true [9%N] 95)
  /\ demo_direct (-3) = Some (RRReject (-3) [9%N] 95).
Proof. vm_compute. repeat split. Qed.
(** the host component at the end of the demo run: 5 charged by the host function, the entrypoint's
    [Return] reported to [track_return] *)
Example demo_host_component :
  match demo_start 0 with
  | Some s => match r_out (t_drive demo_art unit demo_hfun (fun _ _ => true) 10 10 (initial_world tt) O [] s) with
              | OHalt (inr _, h) => Some h | _ => None end
  | None => None
  end = Some {| hc_energy := 95; hc_frames := 1025 |}.
Proof. vm_compute. reflexivity. Qed.
(** the four outcomes without result value / of a failing machine, and the init rule *)
Example classify_samples :
  let h := {| hv_energy := 77; hv_logs := [[1%N]]; hv_retval := [2%N]; hv_changed := false |} in
  finalise (process_receive_result h (MSuccess (Some (VI32 4294967295)))) = RRReject (-1) [2%N] 77
  /\ finalise (process_receive_result h (MSuccess (Some (VI32 2147483648)))) = RRReject (-2147483648) [2%N] 77
  /\ finalise (process_receive_result h (MSuccess (Some (VI32 1)))) = RRSuccess [[1%N]] false [2%N] 77
  /\ finalise (process_receive_result h (MSuccess None)) = RRTrap 0
  /\ finalise (process_receive_result h (MErr true)) = RROutOfEnergy
  /\ finalise (process_receive_result h (MErr false)) = RRTrap 77
  /\ process_init_result h (MSuccess (Some (VI32 1))) = inl (Some 1)
  /\ process_init_result h (MSuccess (Some (VI32 0))) = inr (IRSuccess [[1%N]] [2%N] 77)
  /\ process_init_result h (MSuccess (Some (VI32 4294967295))) = inr (IRReject (-1) [2%N] 77).
Proof. vm_compute. repeat split. Qed.
