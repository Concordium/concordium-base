(** C14 - well-formedness of the v0 action tree (Outcome::cur_state): every And/Or node refers only to
    strictly smaller action identifiers (no self reference, no forward reference). *)
From Coq Require Import NArith List Lia.
From CB Require Import Contract.HostBase Contract.HostBaseProofs Contract.HostV0 Contract.HostV0Proofs.
Import ListNotations.
Local Open Scope N_scope.

Definition child_ok (i : N) (a : action) : Prop :=
  match a with
  | AAnd l r | AOr l r => l < i /\ r < i
  | _ => True
  end.

Fixpoint wf_from (n : N) (acts : list action) : Prop :=
  match acts with
  | [] => True
  | a :: t => child_ok n a /\ wf_from (N.succ n) t
  end.

Definition v0_actions_wf (acts : list action) : Prop := wf_from 0 acts.

Lemma wf_from_snoc : forall acts n a,
  wf_from n acts -> child_ok (n + lenN acts) a -> wf_from n (acts ++ [a]).
Proof.
  induction acts as [|b t IH]; intros n a Hw Hc; cbn [app wf_from] in *.
  - rewrite lenN_nil, N.add_0_r in Hc. split; [assumption|exact I].
  - destruct Hw as [Hb Ht]. split; [assumption|]. apply IH; [assumption|].
    rewrite lenN_cons in Hc. replace (N.succ n + lenN t) with (n + N.succ (lenN t)) by lia. assumption.
Qed.

Lemma wf_from_nth : forall acts n i a,
  wf_from n acts -> nth_error acts i = Some a -> child_ok (n + N.of_nat i) a.
Proof.
  induction acts as [|b t IH]; intros n i a Hw Hn; destruct i; cbn [nth_error] in Hn; try discriminate.
  - injection Hn as <-. destruct Hw as [Hb _]. rewrite N.add_0_r. assumption.
  - destruct Hw as [_ Ht]. specialize (IH _ _ _ Ht Hn).
    replace (n + N.of_nat (S i)) with (N.succ n + N.of_nat i) by lia. assumption.
Qed.

Section V0.
Context {X : Type}.
Notation S0 := (st (host X)).

Definition actions_ok (s : S0) : Prop := v0_actions_wf (h_actions (hs s)).

(** the combinators succeed exactly on identifiers of actions that already exist *)
Theorem out_combine_ok_iff : forall mk l r (s : S0),
  (exists s' x, out_combine mk l r s = (s', Ok x)) <->
  (l < u32 (lenN (h_actions (hs s))) /\ r < u32 (lenN (h_actions (hs s)))).
Proof.
  intros mk l r s. destruct s as [e0 m0 ev0 h0]. destruct h0.
  unfold out_combine, push_action, ensure, bind, get_hs, set_hs, ret, trap. cbn [hs HostV0.h_actions].
  destruct (N.ltb_spec l (u32 (lenN h_actions))); destruct (N.ltb_spec r (u32 (lenN h_actions))); cbn [andb];
    split; try (intros [s' [x Hx]]; discriminate); try (intros [? ?]; lia); try (intros _; split; assumption);
    intros _; eexists _, _; reflexivity.
Qed.

Theorem call_v0_actions_ok : forall f args (s : S0), actions_ok s -> actions_ok (fst (call_v0 f args s)).
Proof.
  intros f args s H.
  apply (hoare_inv False (m_len (mem s)) (fun h : host X => v0_actions_wf (h_actions h)) _ _ (fun _ => True));
    [apply call_v0_ok | ..]; auto; try tauto.
  intros h a Hh Ha. apply wf_from_snoc; [exact Hh|]. destruct a; try exact I; apply (Ha l r); auto.
Qed.

End V0.
