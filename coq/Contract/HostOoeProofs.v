(** C14 - charge before work over observables, for every v1 host function except the two with
    staged charges: a call that ends in OutOfEnergy has changed nothing observable (linear memory,
    entries, iterators, locks, handle map, expanded nodes, logs, return value).
    [state_entry_write] and [state_entry_resize] are excluded: they first make the entry owned
    (`get_mut`: copy-on-write into the current generation, charged by `allocate`) and only then
    charge the growth, so an OutOfEnergy at the second charge leaves the entry marked owned
    (observation O3; invisible to the contract, and the state is discarded on OutOfEnergy). *)
From Coq Require Import List.
From CB Require Import Contract.HostBase Contract.HostBaseProofs Contract.HostV0 Contract.HostV0Proofs
  Contract.HostV1 Contract.HostV1Proofs Contract.HostTreeChargeProofs.
Import ListNotations.
Local Open Scope N_scope.

Lemma ooe_obs_val : forall m, ooe_obs m -> ooe_obs (val m).
Proof.
  intros m Hm s. unfold val, bind. specialize (Hm s). destruct (m s) as [s' [a| | |]]; cbn in *; auto; discriminate.
Qed.

Theorem call_v1_ooe_unchanged_partial : forall f args (s : st H1),
  f <> V1state_entry_write -> f <> V1state_entry_resize ->
  snd (call_v1 f args s) = OutOfEnergy -> observables (fst (call_v1 f args s)) = observables s.
Proof.
  intros f args s Hw Hr. revert s. change (ooe_obs (call_v1 f args)). unfold call_v1.
  apply ooe_obs_bind; [auto with readonly | intros h].
  do 2 (match goal with |- ooe_obs (if ?c then _ else _) => destruct c; [apply ooe_frame_obs; ooe_step|] end).
  destruct f; try contradiction; clear Hw Hr; split_args args; cbn [call_v1_raw];
    try (apply ooe_frame_obs; ooe_step); try apply ooe_obs_val;
    first [ exact (delete_prefix_ooe_unchanged _ _) | apply ooe_frame_obs ];
    unfold_v1; unfold_v0; repeat ooe_step.
Qed.
