(** C14 - charge-before-work, allocation charging, size limits of invoke/create, result encodings. *)
From Coq Require Import NArith List Bool Lia.
From CB Require Import Gen.HostCosts Contract.HostBase Contract.HostBaseProofs Contract.HostV0
  Contract.HostV0Proofs Contract.HostV1 Contract.HostV1Proofs Contract.HostLimitsProofs.
Import ListNotations.
Local Open Scope N_scope.

(** the energy each host call is scheduled to charge before any length-proportional work *)
Definition sched0 {X} (f : v0fn) (args : list N) (h : host X) : N :=
  match f, args with
  | V0get_parameter_section, [_; length; _] => copy_parameter_cost length
  | V0get_policy_section, [_; length; _] => copy_from_host_cost length
  | V0log_event, [_; length] => log_event_cost length
  | V0load_state, [_; length; _] => copy_from_host_cost length
  | V0write_state, [_; length; _] => copy_to_host_cost length
  | V0resize_state, [new_size] => additional_state_size_cost (new_size - u32 (lenN (h_state h)))
  | V0send, [_; _; _; _; _; _; parameter_len] => action_send_cost parameter_len
  | V0accept, _ | V0simple_transfer, _ | V0combine_and, _ | V0combine_or, _ => BASE_ACTION_COST
  | _, _ => 0
  end.

Definition sched1 (f : v1fn) (args : list N) : N :=
  match f, args with
  | V1invoke, _ => INVOKE_BASE_COST
  | V1write_output, [_; length; _] => write_output_cost length
  | V1get_parameter_section, [_; _; length; _] => copy_parameter_cost length
  | V1get_policy_section, [_; length; _] => copy_from_host_cost length
  | V1log_event, [_; length] => log_event_cost length
  | V1state_lookup_entry, [_; key_len] => lookup_entry_cost key_len
  | V1state_create_entry, [_; key_len] => create_entry_cost key_len
  | V1state_delete_entry, [_; key_len] => delete_entry_cost key_len
  | V1state_delete_prefix, [_; key_len] => delete_prefix_find_cost key_len
  | V1state_iterate_prefix, [_; prefix_len] => new_iterator_cost prefix_len
  | V1state_iterator_next, _ => ITERATOR_NEXT_COST
  | V1state_iterator_delete, _ => DELETE_ITERATOR_BASE_COST
  | V1state_iterator_key_size, _ => ITERATOR_KEY_SIZE_COST
  | V1state_iterator_key_read, [_; _; length; _] => copy_from_host_cost length
  | V1state_entry_read, [_; _; length; _] => read_entry_cost length
  | V1state_entry_write, [_; _; length; _] => write_entry_cost length
  | V1state_entry_size, _ => ENTRY_SIZE_COST
  | V1state_entry_resize, _ => RESIZE_ENTRY_BASE_COST
  | V1verify_ed25519_signature, [_; _; _; message_len] => verify_ed25519_cost message_len
  | V1verify_ecdsa_secp256k1_signature, _ => VERIFY_ECDSA_SECP256K1_COST
  | V1hash_sha2_256, [_; data_len; _] => hash_sha2_256_cost data_len
  | V1hash_sha3_256, [_; data_len; _] => hash_sha3_256_cost data_len
  | V1hash_keccak_256, [_; data_len; _] => hash_keccak_256_cost data_len
  | _, _ => 0
  end.

Ltac cbw_close :=
  cbv beta iota zeta delta [fst evs cbw rev app cbw_from alloc_paid alloc_paid_from existsb];
  cbn [orb andb];
  first [ reflexivity
        | (rewrite ?N.leb_refl, ?orb_true_r; cbn [orb andb]; reflexivity)
        | (exfalso; arith_close) ].

Ltac proj_red :=
  cbv beta iota zeta delta [fst snd hs HostV0.h_state HostV0.h_logs HostV0.h_limit HostV0.h_ext HostV0.h_frames
                            with_state with_logs with_actions with_frames with_balance with_ext
                            HostV1.x_rv HostV1.x_is HostV1.is_entries HostV1.x_entrypoint] in *.

Section V0.
Context {X : Type}.
Notation S0 := (st (host X)).

Theorem call_v0_cbw : forall f args (s : S0), evs s = [] -> state_ok s ->
  cbw (sched0 f args (hs s)) (evs (fst (call_v0 f args s))) = true.
Proof.
  intros f args s He H.
  assert (Hf : forall h : host X, f <> V0resize_state -> cbw_ok (sched0 f args h) (@call_v0 X f args)).
  { intros h Hf. unfold call_v0. cbw_step.
    do 2 (match goal with |- cbw_ok _ (if ?c then _ else _) => destruct c; [cbw_step|] end).
    destruct f; try (case (Hf eq_refl)); split_args args; cbn [call_v0_raw sched0];
      unfold_v0; unfold write_to_mem; cbv beta iota zeta; repeat cbw_step. }
  destruct f; try (apply Hf; [discriminate | rewrite He; reflexivity]).
  (* resize_state: the scheduled amount depends on the size of the state *)
  clear Hf. unfold call_v0. split_args args; cbn [call_v0_raw sched0].
  all: dst0 s; cbn [evs] in He; subst ev0; unfold state_ok in H; cbn [hs HostV0.h_state] in *.
  all: unfold_v0; mstep; proj_red; cbw_close.
Qed.

(** growth of the legacy state is paid for: by [additional_state_size_cost] in resize_state, and in
    write_state by the copy cost, which dominates the number of bytes the state can grow *)
Theorem resize_state_alloc_paid : forall new_size (s : S0), evs s = [] -> state_ok s ->
  alloc_paid additional_state_size_cost (evs (fst (resize_state new_size s))) = true.
Proof.
  intros n s He H. dst0 s. cbn [evs] in He. subst ev0. unfold state_ok in H. cbn [hs HostV0.h_state] in H.
  unfold_v0. cbv beta iota zeta delta [bind get_hs hs HostV0.h_state].
  rewrite ?(u32_small (lenN h_state)) by (unfold W32; lia). mstep; proj_red; cbw_close.
Qed.
Theorem write_state_alloc_paid : forall start length offset (s : S0), evs s = [] -> state_ok s ->
  alloc_paid (fun n => n) (evs (fst (write_state start length offset s))) = true.
Proof.
  intros a b c s He H. dst0 s. cbn [evs] in He. subst ev0. unfold state_ok in H. cbn [hs HostV0.h_state] in H.
  unfold_v0. mstep; proj_red;
    cbv beta iota zeta delta [fst evs cbw rev app cbw_from alloc_paid alloc_paid_from existsb]; cbn [orb andb];
    try reflexivity.
  all: rewrite orb_false_r, andb_true_r; apply N.leb_le; unfold copy_to_host_cost; arith_close.
Qed.

Theorem log_event_codes : forall a b (s s' : S0) r, log_event a b s = (s', Ok r) ->
  r = Some 0 \/ r = Some 1 \/ (r = Some 4294967295 /\ 512 < b).
Proof.
  intros a b s s' r E.
  refine (hoare_result False (m_len (mem s)) (fun _ => True) _ _ _ s s' r (log_event_ok _ _ _ _ a b _) eq_refl I E); tauto.
Qed.
Theorem resize_state_codes : forall n (s s' : S0) r, resize_state n s = (s', Ok r) ->
  (r = Some 0 /\ 16384 < n /\ h_state (hs s') = h_state (hs s)) \/ (r = Some 1 /\ n <= 16384 /\ lenN (h_state (hs s')) = n).
Proof.
  intros n s s' r. dst0 s. unfold_v0. mstep; intros [= <- <-]; try discriminate; proj_red.
  all: first [ left; split; [reflexivity|]; split; [arith_close | reflexivity]
             | right; split; [reflexivity|]; split; arith_close ].
Qed.
Theorem write_state_result : forall a b c (s s' : S0) r, state_ok s -> write_state a b c s = (s', Ok r) ->
  exists n, r = Some n /\ n <= b /\ c + n <= 16384.
Proof.
  intros a b c s s' r _ E.
  refine (hoare_result False (m_len (mem s)) (fun _ => True) _ _ _ s s' r (write_state_ok _ _ _ _ _ a b c _) eq_refl I E);
    tauto.
Qed.
End V0.

Ltac unfold_acc :=
  unfold get_mut, set_value, get_is, set_is, get_exp, set_exp, get_x, set_x, tick_tree, key_arg, read_into, write_to_mem;
  cbv beta iota zeta.

Theorem call_v1_cbw : forall f args (s : st H1), evs s = [] ->
  cbw (sched1 f args) (evs (fst (call_v1 f args s))) = true.
Proof.
  intros f args s He. assert (H : cbw_ok (sched1 f args) (call_v1 f args)); [|apply H; rewrite He; reflexivity].
  unfold call_v1. cbw_step. do 2 (match goal with |- cbw_ok _ (if ?c then _ else _) => destruct c; [cbw_step|] end).
  destruct f; split_args args; cbn [call_v1_raw sched1]; unfold val; unfold_v1; unfold_v0;
    unfold_acc; repeat cbw_step.
Qed.

Lemma alloc_ok_start : forall X cost A (m : M X A) s,
  alloc_ok cost m -> evs s = [] -> alloc_paid cost (evs (fst (m s))) = true.
Proof. intros X cost A m s H He. apply H. rewrite He. reflexivity. Qed.

Theorem write_return_value_alloc_paid : forall a b c (s : st H1), evs s = [] ->
  alloc_paid additional_output_size_cost (evs (fst (write_return_value a b c s))) = true.
Proof.
  intros a b c s. apply alloc_ok_start. unfold write_return_value. unfold_acc. repeat alloc_step.
Qed.
Theorem entry_write_alloc_paid : forall a b c d (s : st H1), evs s = [] ->
  alloc_paid additional_entry_size_cost (evs (fst (state_entry_write a b c d s))) = true.
Proof.
  intros a b c d s. apply alloc_ok_start. unfold state_entry_write. unfold_acc. repeat alloc_step.
Qed.
Theorem entry_resize_alloc_paid : forall a b (s : st H1), evs s = [] ->
  alloc_paid additional_entry_size_cost (evs (fst (state_entry_resize a b s))) = true.
Proof.
  intros a b s. apply alloc_ok_start. unfold state_entry_resize. unfold_acc. repeat alloc_step.
Qed.

Lemma bare_result : forall A (m : M1 A) (Q : A -> Prop),
  (forall L, hoare False L (inv1 False (fun _ => True) true) m Q) ->
  forall s s' r, m s = (s', Ok r) -> Q r.
Proof.
  intros A m Q H s s' r E.
  apply (hoare_result False (m_len (mem s)) _ _ m Q s s' r (H _) eq_refl); [split; [exact I | tauto] | exact E].
Qed.

Theorem parse_call_args_param_limit : forall data maxp (s s' : st H1) i,
  parse_call_args data maxp s = (s', Ok i) -> u16 (le_val (firstnN 2 (skipnN 16 data))) <= maxp.
Proof.
  intros data maxp. apply (bare_result _ _ (fun _ => _)). intros L. apply parse_call_args_ok. tauto.
Qed.
Theorem create_entry_key_limit : forall a b (s s' : st H1) r,
  state_create_entry a b s = (s', Ok r) -> b <= 1073741824.
Proof.
  intros a b. apply (bare_result _ _ (fun _ => _)). intros L. apply state_create_entry_ok; tauto.
Qed.
Theorem entry_resize_limit : forall a b (s s' : st H1), state_entry_resize a b s = (s', Ok (Some 1)) -> b <= 1073741824.
Proof.
  intros a b s s' E.
  refine (bare_result _ _ (fun r => r = Some 1 -> b <= 1073741824) _ _ _ _ E eq_refl). intros L. apply state_entry_resize_ok; tauto.
Qed.

Theorem handle_roundtrip : forall gen idx, gen < W32 -> idx < W32 -> split_handle (handle gen idx) = (gen, idx).
Proof.
  intros gen idx Hg Hi. unfold split_handle, handle, u32.
  rewrite N.div_add_l by discriminate. rewrite (N.div_small idx W32 Hi), N.add_0_r, (N.mod_small gen W32 Hg).
  rewrite N.add_comm, N.mod_add by discriminate. rewrite (N.mod_small idx W32 Hi). reflexivity.
Qed.
Theorem handle_fits_u64 : forall gen idx, gen < W32 -> idx < W32 -> handle gen idx < W64.
Proof. intros gen idx Hg Hi. unfold handle. unfold W32, W64 in *. lia. Qed.
Theorem none_is_not_a_handle : forall gen idx, gen < 2147483648 -> idx < W32 ->
  handle gen idx <> U64MAX /\ handle gen idx <> NEW_ERR.
Proof. intros gen idx Hg Hi. unfold handle, NEW_ERR, U64MAX. unfold W32 in *. split; lia. Qed.
Theorem resume_fail_code : forall n u (s s' : st H1) v,
  resume (RespFail n u) s = (s', Ok v) -> v = n * 4294967296.
Proof.
  intros n u. apply (bare_result _ _ (fun v => v = n * W32)). intros L. apply (resume_ok _ _ _ _ (RespFail n u)). auto.
Qed.
Theorem resume_ok_layout : forall len tag, len <= MAX_PARAMS -> (tag = 0 \/ tag = 8388608) ->
  let v := (len + tag) * 1099511627776 in
  v < W64 /\ v mod 1099511627776 = 0 /\ (v / 1099511627776) mod 8388608 = len /\ (v / 1099511627776) / 8388608 = tag / 8388608.
Proof.
  intros len tag Hl Ht v. unfold v, MAX_PARAMS, W64 in *.
  rewrite N.div_mul by discriminate. rewrite N.mod_mul by discriminate.
  destruct Ht as [-> | ->].
  - rewrite N.add_0_r. repeat split; try lia. + apply N.mod_small. lia. + rewrite N.div_small by lia. reflexivity.
  - repeat split; try lia.
    + replace (len + 8388608) with (len + 1 * 8388608) by lia. rewrite N.mod_add by discriminate. apply N.mod_small. lia.
    + replace (len + 8388608) with (len + 1 * 8388608) by lia. rewrite N.div_add by discriminate.
      rewrite N.div_small by lia. reflexivity.
Qed.

(** O2 (after the fix): the name handled by `send` / `invoke(call)` is scanned and copied only after its
    length has been checked against MAX_FUNC_NAME_SIZE: all work outside the length-charged copies is
    bounded by 100 bytes, independently of the length arguments *)
Definition fixed100 (e : event) : bool := match e with EvFixed n => n <=? 100 | _ => true end.
Lemma emits_fixed : forall X A (m : M X A) s, emits fixed100 m -> evs s = [] -> fixed_le 100 (evs (fst (m s))) = true.
Proof. intros X A m s Hm He. destruct (Hm s) as (l & -> & Hl). rewrite He, app_nil_r. exact Hl. Qed.

#[local] Hint Extern 3 (fixed100 (EvFixed _) = true) => unfold fixed100; apply N.leb_le; bool_hyps; lia : emits.

Theorem send_fixed_work_bounded : forall X a b c d e f g (s : st (host X)), evs s = [] ->
  fixed_le 100 (evs (fst (send a b c d e f g s))) = true.
Proof.
  intros X a b c d e f g s. apply emits_fixed. unfold send, out_send, push_action. auto 40 with emits.
Qed.
Theorem invoke_fixed_work_bounded : forall a b c (s : st H1), evs s = [] ->
  fixed_le 100 (evs (fst (invoke a b c s))) = true.
Proof.
  intros a b c s. apply emits_fixed. unfold invoke, parse_call_args, two_fields, get_x. auto 60 with emits.
Qed.
