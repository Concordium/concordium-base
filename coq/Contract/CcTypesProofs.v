(** C16 - the codec laws for the concrete type terms of [CcTypes.v]. *)
From Coq Require Import ZArith List Bool Lia.
From CB Require Import Contract.ArithOpaque Contract.CcCodec Contract.CcCodecProofs Contract.CcTypes.
Import ListNotations.
Local Open Scope N_scope.


(** all four laws at once, for codecs whose decoder is canonical *)
Definition Laws {A} (K : N) (c : codec A) : Prop :=
  RT c /\ Canon c /\ Shrinks c /\ AllocOK K c.
(** the same without canonicity (unordered input is accepted and sorted) *)
Definition LawsNC {A} (K : N) (c : codec A) : Prop :=
  RT c /\ Shrinks c /\ AllocOK K c.

Lemma laws_uint : forall K k, Laws K (c_uint k).
Proof. intros. unfold Laws. repeat apply conj; [apply uint_RT | apply uint_Canon | apply uint_Shrinks | apply uint_AllocOK]. Qed.

Lemma laws_pair : forall {A B} K (ca : codec A) (cb : codec B), Laws K ca -> Laws K cb -> Laws K (c_pair ca cb).
Proof.
  intros A B K ca cb (R1 & C1 & S1 & A1) (R2 & C2 & S2 & A2). unfold Laws. repeat apply conj.
  - apply pair_RT; auto.
  - apply pair_Canon; auto.
  - apply pair_Shrinks; auto.
  - apply pair_AllocOK; auto.
Qed.
Lemma laws_refine : forall {A} K (c : codec A) ok, Laws K c -> Laws K (c_refine c ok).
Proof.
  intros A K c ok (R & C & S & Al). unfold Laws. repeat apply conj.
  - apply refine_RT; auto.
  - apply refine_Canon; auto.
  - apply refine_Shrinks; auto.
  - apply refine_AllocOK; auto.
Qed.
Lemma laws_sum : forall {A B} K (ca : codec A) (cb : codec B), Laws K ca -> Laws K cb -> Laws K (c_sum ca cb).
Proof.
  intros A B K ca cb (R1 & C1 & S1 & A1) (R2 & C2 & S2 & A2). unfold Laws. repeat apply conj.
  - apply sum_RT; auto.
  - apply sum_Canon; auto.
  - apply sum_Shrinks; auto.
  - apply sum_AllocOK; auto.
Qed.
Lemma laws_array : forall {A} K (c : codec A) n, Laws K c -> NonEmpty c -> Laws K (c_array c n).
Proof.
  intros A K c n (R & C & S & Al) NE. unfold Laws. repeat apply conj.
  - apply array_RT; auto.
  - apply array_Canon; auto.
  - apply array_Shrinks; auto.
  - apply array_AllocOK; auto.
Qed.
Lemma laws_vec : forall {A} K (c : codec A) k rsv, Laws K c -> NonEmpty c ->
  (forall n, n < 256 ^ N.of_nat (S k) -> rsv n <= K) ->
  Laws K (c_vec c (S k) rsv).
Proof.
  intros A K c k rsv (R & C & S & Al) NE HR. unfold Laws. repeat apply conj.
  - apply vec_RT; auto.
  - apply vec_Canon; auto.
  - apply vec_Shrinks; auto.
  - apply vec_AllocOK; auto.
Qed.
Lemma laws_map : forall {A B} K (c : codec A) (f : A -> B) g (wfB : B -> Prop), Laws K c ->
  (forall b, wfB b -> wf c (g b) /\ f (g b) = b) -> (forall a, wf c a -> g (f a) = a /\ wfB (f a)) ->
  Laws K (c_map c f g wfB).
Proof.
  intros A B K c f g wfB (R & C & S & Al) Hg Hf. unfold Laws. repeat apply conj.
  - apply map_RT; assumption.
  - apply map_Canon; assumption.
  - apply map_Shrinks; assumption.
  - apply map_AllocOK; assumption.
Qed.
Lemma laws_unit : forall K, Laws K c_unit.
Proof. intros. unfold Laws. repeat apply conj; [apply unit_RT | apply unit_Canon | apply unit_Shrinks | apply unit_AllocOK]. Qed.

Lemma laws_vec_std : forall {A} K (c : codec A) k, MAX_PREALLOCATED_CAPACITY <= K -> Laws K c -> NonEmpty c ->
  Laws K (c_vec c (S k) rsv_std).
Proof. intros A K c k HK L NE. apply laws_vec; [exact L|exact NE|]. intros n _. unfold rsv_std. lia. Qed.
Lemma laws_vec_none : forall {A} K (c : codec A) k, Laws K c -> NonEmpty c -> Laws K (c_vec c (S k) rsv_none).
Proof. intros A K c k L NE. apply laws_vec; [exact L|exact NE|]. intros n _. unfold rsv_none. lia. Qed.

Lemma laws_nc_unordered : forall {A} K ltb (cv : codec (list A)), Laws K cv -> LawsNC K (c_unordered ltb cv).
Proof.
  intros A K ltb cv (R & C & S & Al). unfold LawsNC. repeat apply conj.
  - apply unordered_RT; auto.
  - apply unordered_Shrinks; auto.
  - apply unordered_AllocOK; auto.
Qed.

(** ** signed integers *)
Lemma pow256_pos : forall k, 0 < 256 ^ N.of_nat k.
Proof. intros. apply N.neq_0_lt_0. apply N.pow_nonzero. lia. Qed.
Lemma half_double : forall k, (0 < k)%nat -> 2 * 2 ^ (8 * N.of_nat k - 1) = 256 ^ N.of_nat k.
Proof.
  intros k Hk. replace 256 with (2 ^ 8) by reflexivity. rewrite <- N.pow_mul_r.
  replace (8 * N.of_nat k) with (N.succ (8 * N.of_nat k - 1)) at 2 by lia.
  rewrite N.pow_succ_r'. reflexivity.
Qed.

Lemma sint_to_of : forall k z, (0 < k)%nat -> signed_range k z -> to_signed k (of_signed k z) = z /\ of_signed k z < 256 ^ N.of_nat k.
Proof.
  intros k z Hk Hz. unfold to_signed, of_signed, signed_range in *.
  pose proof (half_double k Hk) as HD.
  set (M := 256 ^ N.of_nat k) in *. set (H := 2 ^ (8 * N.of_nat k - 1)) in *.
  destruct (twos_wrap (Z.of_N M) (Z.of_N H) z ltac:(lia) Hz) as [Hmod [Hlo Hhi]].
  split; [|lia].
  destruct (N.ltb_spec (Z.to_N (z mod Z.of_N M)) H); rewrite Z2N.id by lia; [apply Hlo|apply Hhi]; lia.
Qed.

Lemma sint_of_to : forall k v, (0 < k)%nat -> v < 256 ^ N.of_nat k -> of_signed k (to_signed k v) = v /\ signed_range k (to_signed k v).
Proof.
  intros k v Hk Hv. unfold to_signed, of_signed, signed_range.
  pose proof (half_double k Hk) as HD.
  set (M := 256 ^ N.of_nat k) in *. set (H := 2 ^ (8 * N.of_nat k - 1)) in *.
  destruct (twos_unwrap (Z.of_N M) (Z.of_N H) (Z.of_N v) ltac:(lia) ltac:(lia)) as [Hlo Hhi].
  destruct (N.ltb_spec v H).
  - rewrite Hlo by lia. rewrite N2Z.id. split; [reflexivity|lia].
  - destruct Hhi as [Hr ->]; [lia|]. rewrite N2Z.id. split; [reflexivity|lia].
Qed.

Lemma laws_sint : forall K k, (0 < k)%nat -> Laws K (c_sint k).
Proof.
  intros K k Hk. apply laws_map; [apply laws_uint| |].
  - intros z Hz. destruct (sint_to_of k z Hk Hz). split; assumption.
  - intros v Hv. apply sint_of_to; assumption.
Qed.

(** ** bool, option *)
Lemma laws_bool : forall K, Laws K c_bool.
Proof.
  intros K. apply laws_map; [apply laws_refine, laws_uint| |].
  - intros [|] _; cbn; repeat split; reflexivity || (cbv; reflexivity).
  - intros n [_ Hn]. apply N.ltb_lt in Hn. assert (n = 0 \/ n = 1) as [->| ->] by lia; split; (reflexivity || exact I).
Qed.
(** only 0 and 1 decode to a [bool] *)
Lemma bool_rejects_other : forall b rest, 2 <= b -> dec c_bool (b :: rest) = None.
Proof.
  intros b rest H. cbn. destruct (b <? 256) eqn:B; [|reflexivity].
  replace (b + 256 * 0) with b by lia. assert (b <? 2 = false) as -> by (apply N.ltb_ge; lia). reflexivity.
Qed.

Lemma laws_option : forall {A} K (c : codec A), Laws K c -> Laws K (c_option c).
Proof.
  intros A K c L. apply laws_map; [apply laws_sum; [apply laws_unit|exact L]| |].
  - intros [a|] H; split; cbn; auto.
  - intros [[]|a] H; split; cbn; auto.
Qed.

(** ** byte arrays, vectors, strings *)
Lemma u8_NonEmpty : NonEmpty c_u8. Proof. apply (uint_NonEmpty 0). Qed.

Lemma laws_bytes : forall K n, Laws K (c_bytes n).
Proof. intros. apply laws_array; [apply laws_uint | apply u8_NonEmpty]. Qed.

Lemma laws_vec32 : forall {A} K (c : codec A), MAX_PREALLOCATED_CAPACITY <= K -> Laws K c -> NonEmpty c -> Laws K (c_vec32 c).
Proof. intros A K c. apply laws_vec_std. Qed.
Lemma laws_vec16 : forall {A} K (c : codec A), MAX_PREALLOCATED_CAPACITY <= K -> Laws K c -> NonEmpty c -> Laws K (c_vec16 c).
Proof. intros A K c. apply laws_vec_std. Qed.
Lemma laws_vec8 : forall {A} K (c : codec A), MAX_PREALLOCATED_CAPACITY <= K -> Laws K c -> NonEmpty c -> Laws K (c_vec8 c).
Proof. intros A K c. apply laws_vec_std. Qed.
Lemma laws_vec64 : forall {A} K (c : codec A), MAX_PREALLOCATED_CAPACITY <= K -> Laws K c -> NonEmpty c -> Laws K (c_vec64 c).
Proof. intros A K c. apply laws_vec_std. Qed.

Lemma laws_string : forall K, MAX_PREALLOCATED_CAPACITY <= K -> Laws K c_string.
Proof. intros. apply laws_refine, laws_vec32; [assumption | apply laws_uint | apply u8_NonEmpty]. Qed.

(** ** collections with numeric keys *)
Lemma laws_set_ordered : forall K k ck, Laws K ck -> NonEmpty ck -> Laws K (c_set_ordered (S k) ck).
Proof. intros. apply laws_refine, laws_vec_none; assumption. Qed.
Lemma laws_map_ordered : forall {V} K k ck (cv : codec V), Laws K ck -> NonEmpty ck -> Laws K cv ->
  Laws K (c_map_ordered (S k) ck cv).
Proof.
  intros. apply laws_refine, laws_vec_none; [apply laws_pair; assumption | apply pair_NonEmpty_l; assumption].
Qed.
Lemma laws_set32 : forall K ck, MAX_PREALLOCATED_CAPACITY <= K -> Laws K ck -> NonEmpty ck -> LawsNC K (c_set32 ck).
Proof. intros. apply laws_nc_unordered, laws_vec32; auto. Qed.
Lemma laws_map32 : forall {V} K ck (cv : codec V), MAX_PREALLOCATED_CAPACITY <= K -> Laws K ck -> NonEmpty ck -> Laws K cv ->
  LawsNC K (c_map32 ck cv).
Proof.
  intros. apply laws_nc_unordered, laws_vec32; [assumption | apply laws_pair; auto | apply pair_NonEmpty_l; auto].
Qed.
Lemma laws_set_unordered : forall K k ck, Laws K ck -> NonEmpty ck -> LawsNC K (c_set_unordered (S k) ck).
Proof. intros. apply laws_nc_unordered, laws_vec_none; assumption. Qed.
Lemma laws_map_unordered : forall {V} K k ck (cv : codec V), Laws K ck -> NonEmpty ck -> Laws K cv ->
  LawsNC K (c_map_unordered (S k) ck cv).
Proof.
  intros. apply laws_nc_unordered, laws_vec_none; [apply laws_pair; assumption | apply pair_NonEmpty_l; assumption].
Qed.

(** duplicate or descending keys are rejected by the order-checking decoders *)
Lemma set_ordered_reject : forall k ck xs rest, RT ck -> NonEmpty ck ->
  N.of_nat (length xs) < 256 ^ N.of_nat k -> Forall (wf ck) xs ->
  strict_sorted N.ltb xs = false ->
  dec (c_set_ordered k ck) (le_bytes k (N.of_nat (length xs)) ++ enc_elems ck xs ++ rest) = None.
Proof.
  intros k ck xs rest R NE L W S. unfold c_set_ordered. rewrite app_assoc.
  apply (ordered_reject_gen N.ltb (c_vec ck k rsv_none)); [apply vec_RT; auto | split; auto | exact S].
Qed.
Lemma map_ordered_reject : forall {V} k ck (cv : codec V) xs rest, RT ck -> NonEmpty ck -> RT cv ->
  N.of_nat (length xs) < 256 ^ N.of_nat k -> Forall (wf (c_pair ck cv)) xs ->
  strict_sorted key_ltb xs = false ->
  dec (c_map_ordered k ck cv) (le_bytes k (N.of_nat (length xs)) ++ enc_elems (c_pair ck cv) xs ++ rest) = None.
Proof.
  intros V k ck cv xs rest R NE RV L W S. unfold c_map_ordered. rewrite app_assoc.
  apply (ordered_reject_gen key_ltb (c_vec (c_pair ck cv) k rsv_none));
    [apply vec_RT; [apply pair_RT; auto | apply pair_NonEmpty_l; auto] | split; auto | exact S].
Qed.
(** [strict_sorted] is the documented order: each key strictly above its predecessor *)
Lemma strict_sorted_spec : forall xs, strict_sorted N.ltb xs = true <->
  (forall i, (S i < length xs)%nat -> nth i xs 0 < nth (S i) xs 0).
Proof.
  induction xs as [|x xs IH]; [cbn; split; [intros _ i Hi; lia | reflexivity]|].
  cbn [strict_sorted]. destruct xs as [|y ys].
  - split; [intros _ i Hi; cbn in Hi; lia | reflexivity].
  - rewrite andb_true_iff, N.ltb_lt, IH. split.
    + intros [Hxy Hr] i Hi. destruct i as [|i]; [exact Hxy|]. apply (Hr i). cbn in *. lia.
    + intros Hall. split.
      * apply (Hall O). cbn. lia.
      * intros i Hi. apply (Hall (S i)). cbn in *. lia.
Qed.

(** ** chain types *)
Lemma laws_address : forall K, Laws K c_address.
Proof. intros. apply laws_sum; [apply laws_bytes | apply laws_pair; apply laws_uint]. Qed.
Lemma address_bad_tag : forall t r, 2 <= t -> dec c_address (t :: r) = None.
Proof. intros t r H. apply sum_bad_tag; lia. Qed.
Lemma laws_account_balance : forall K, Laws K c_account_balance.
Proof. intros. apply laws_refine, laws_pair; [apply laws_uint | apply laws_pair; apply laws_uint]. Qed.
Lemma laws_exchange_rate : forall K, Laws K c_exchange_rate.
Proof. intros. apply laws_refine, laws_pair; apply laws_uint. Qed.
Lemma laws_exchange_rates : forall K, Laws K c_exchange_rates.
Proof. intros. apply laws_pair; apply laws_exchange_rate. Qed.
Lemma laws_threshold : forall K, Laws K c_threshold.
Proof. intros. apply laws_refine, laws_uint. Qed.
Lemma laws_contract_name : forall K, MAX_PREALLOCATED_CAPACITY <= K -> Laws K c_contract_name.
Proof. intros. apply laws_refine, laws_vec16; [assumption | apply laws_uint | apply u8_NonEmpty]. Qed.
Lemma laws_receive_name : forall K, MAX_PREALLOCATED_CAPACITY <= K -> Laws K c_receive_name.
Proof. intros. apply laws_refine, laws_vec16; [assumption | apply laws_uint | apply u8_NonEmpty]. Qed.
Lemma laws_entrypoint_name : forall K, MAX_PREALLOCATED_CAPACITY <= K -> Laws K c_entrypoint_name.
Proof. intros. apply laws_refine, laws_vec16; [assumption | apply laws_uint | apply u8_NonEmpty]. Qed.
Lemma laws_parameter : forall K, MAX_PREALLOCATED_CAPACITY <= K -> Laws K c_parameter.
Proof. intros. apply laws_vec16; [assumption | apply laws_uint | apply u8_NonEmpty]. Qed.
Lemma laws_attribute_value : forall K, Laws K c_attribute_value.
Proof. intros. apply laws_refine, laws_vec_none; [apply laws_uint | apply u8_NonEmpty]. Qed.
(** the policy decoder reserves [len] slots for a u16 [len]: bounded by 65535 *)
Lemma laws_policy : Laws 65535 c_policy.
Proof.
  unfold c_policy. repeat (apply laws_pair; [apply laws_uint|]).
  apply laws_vec.
  - apply laws_pair; [apply laws_uint | apply laws_attribute_value].
  - apply pair_NonEmpty_l, u8_NonEmpty.
  - (* the declared length was read from two bytes *)
    intros n Hn. unfold rsv_all. change (256 ^ N.of_nat 2) with 65536 in Hn. lia.
Qed.
