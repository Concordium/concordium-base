(** C14 - proofs about the v1 host functions (HostV1.v). *)
From Coq Require Import NArith List Lia.
From CB Require Import Contract.HostBase Contract.HostBaseProofs Contract.HostV0 Contract.HostV0Proofs
  Contract.HostV1.
Import ListNotations.
Local Open Scope N_scope.

(** invariants: the return value obeys the P4 limit when limits are on; entry values obey
    MAX_ENTRY_SIZE (the "state invariant" the Rust comments appeal to) *)
Definition entry_ok (e : entry) : Prop :=
  match e_val e with Some v => lenN v <= 1073741824 | None => True end.
Definition v1_ok (s : st H1) : Prop :=
  (h_limit (hs s) = true -> lenN (x_rv (h_ext (hs s))) <= 16384)
  /\ Forall entry_ok (is_entries (x_is (h_ext (hs s))))
  /\ lenN (x_entrypoint (h_ext (hs s))) < 4294967296.      (* entrypoint names have at most 99 bytes *)

Lemma live_value_ok : forall s h id e v,
  Forall entry_ok (is_entries s) -> live_value s h = Some (id, e, v) -> lenN v <= 1073741824.
Proof.
  intros s h id e v HF. unfold live_value.
  destruct (handle_entry s h) as [id0|]; [|discriminate].
  destruct (nthN id0 (is_entries s)) as [e0|] eqn:Hn; [|discriminate].
  destruct (e_val e0) as [v0|] eqn:Hv; [|discriminate].
  intros [= <- <- <-]. pose proof (nthN_Forall _ _ _ _ _ HF Hn) as H. unfold entry_ok in H. rewrite Hv in H. exact H.
Qed.

Ltac live_facts :=
  repeat match goal with
  | HF : Forall entry_ok _, H : live_value _ _ = Some (_, _, _) |- _ =>
      let H' := fresh "Hlive" in pose proof (live_value_ok _ _ _ _ _ HF H) as H'; clear H
  end.

Notation S1 := (st H1).

Ltac unfold_v1 :=
  unfold invoke, parse_call_args, upgrade, write_return_value, get_parameter_size1, get_parameter_section1,
    state_lookup_entry, state_create_entry, state_delete_entry, state_delete_prefix, state_iterator,
    state_iterator_next, state_iterator_delete, state_iterator_key_size, state_iterator_key_read,
    state_entry_read, state_entry_write, state_entry_size, state_entry_resize, get_receive_entrypoint_size,
    get_receive_entrypoint, verify_ed25519_signature, verify_ecdsa_secp256k1_signature, hash_generic, two_fields.

(** ** The limits and totality, for all host functions at once

    [inv1 W K lim]: an arbitrary invariant [K] of the part of the host state the v0 hosts know, and,
    when [W] holds, the v1 limits [v1c] ([lim] is the value of [h_limit], which nothing changes).
    With [W := False] the v1 functions are seen to keep every such [K] that [log_event] keeps. *)
Definition v1c (lim : bool) (x : v1ext) : Prop :=
  (lim = true -> lenN (x_rv x) <= 16384) /\ Forall entry_ok (is_entries (x_is x))
  /\ lenN (x_entrypoint x) < 4294967296.

Lemma entry_ok_set : forall es id k v, Forall entry_ok es -> lenN v <= 1073741824 ->
  Forall entry_ok (setnthN id (mkEntry k (Some v) true) es).
Proof. intros. apply setnthN_Forall; [assumption|]. unfold entry_ok. cbn. assumption. Qed.
Lemma entry_ok_del : forall es id k, Forall entry_ok es -> Forall entry_ok (setnthN id (mkEntry k None true) es).
Proof. intros. apply setnthN_Forall; [assumption|]. unfold entry_ok. cbn. exact I. Qed.
Lemma entry_ok_app : forall es k, Forall entry_ok es -> Forall entry_ok (es ++ [mkEntry k (Some []) true]).
Proof. intros. apply Forall_app. split; [assumption|]. constructor; [|constructor]. unfold entry_ok. cbn. lia. Qed.
Lemma entry_ok_map : forall es key, Forall entry_ok es ->
  Forall entry_ok (map (fun e => if is_prefix key (e_key e) then mkEntry (e_key e) None true else e) es).
Proof.
  intros es key H. induction H; cbn [map]; constructor; auto.
  destruct (is_prefix key (e_key x)); [exact I | assumption].
Qed.

Section V1.
Variables (C W : Prop) (L : N) (K : host unit -> Prop) (lim : bool).
Hypothesis CW : C -> W.
Hypothesis Klog : forall b ev, K b -> lenN ev <= 512 -> (h_limit b = false \/ lenN (h_logs b) < 64) ->
  K (with_logs b (h_logs b ++ [ev])).

Definition inv1 (h : H1) : Prop := K (with_ext h tt) /\ (W -> h_limit h = lim /\ v1c lim (h_ext h)).
Notation hoare1 := (hoare C L inv1).

Lemma inv1_log : forall h ev, inv1 h -> lenN ev <= 512 -> (h_limit h = false \/ lenN (h_logs h) < 64) ->
  inv1 (with_logs h (h_logs h ++ [ev])).
Proof. intros h ev [HK HW] Hev Hn. split; [exact (Klog _ ev HK Hev Hn) | exact HW]. Qed.

Lemma get_x_ok : hoare1 get_x (fun x => W -> v1c lim x).
Proof. unfold get_x. repeat hstep. intros Hw. apply H, Hw. Qed.
Lemma set_x_ok : forall x, (W -> v1c lim x) -> hoare1 (set_x x) (fun _ => True).
Proof.
  intros x Hx. unfold set_x. repeat hstep; trivial. destruct H as [HK HW].
  split; [exact HK | intros Hw; split; [apply HW, Hw | apply Hx, Hw]].
Qed.
Lemma get_is_ok : hoare1 get_is (fun s => W -> Forall entry_ok (is_entries s)).
Proof.
  unfold get_is. eapply hoare_bind; [apply get_x_ok|]. intros x Hx. apply hoare_ret. intros Hw. apply Hx, Hw.
Qed.
Lemma set_is_ok : forall s, (W -> Forall entry_ok (is_entries s)) -> hoare1 (set_is s) (fun _ => True).
Proof.
  intros s Hs. unfold set_is. eapply hoare_bind; [apply get_x_ok|]. intros x Hx. apply set_x_ok.
  intros Hw. destruct (Hx Hw) as (H1 & _ & H3). exact (conj H1 (conj (Hs Hw) H3)).
Qed.
Lemma get_exp_ok : hoare1 get_exp (fun _ => True).
Proof. unfold get_exp. eapply hoare_bind; [apply get_x_ok|]. intros. apply hoare_ret. exact I. Qed.
Lemma set_exp_ok : forall e, hoare1 (set_exp e) (fun _ => True).
Proof. intros e. unfold set_exp. eapply hoare_bind; [apply get_x_ok|]. intros x Hx. apply set_x_ok, Hx. Qed.

Ltac haccess :=
  first [ simple apply get_x_ok | simple apply set_x_ok | simple apply get_is_ok | simple apply set_is_ok
        | simple apply get_exp_ok | simple apply set_exp_ok | simple apply read_section_ok ].
(** [hclose] once the facts that hold under [W] are in reach and the values of live entries are bounded *)
Ltac hclose1 :=
  unfold not; intros; unfold v1c in *;
  repeat match goal with
  | H : ?P -> _, p : ?P |- _ => specialize (H p)
  end;
  live_facts; hclose.

Lemma tick_tree_ok : forall n, hoare1 (tick_tree n) (fun _ => True).
Proof. intros. unfold tick_tree. repeat hstep_with haccess; hclose. Qed.
Lemma key_arg_ok : forall cf cost ks kl, (C -> ks < W32 /\ kl < W32) ->
  hoare1 (key_arg cf cost ks kl) (fun key => lenN key = kl).
Proof. intros [] cost ks kl Ha; unfold key_arg; repeat hstep_with haccess; hclose. Qed.
Lemma two_fields_ok : forall start k j, (C -> start < W32 /\ k + j < W32 /\ start + k + j <= L) -> hoare1 (two_fields start k j) (fun _ => True).
Proof. intros. unfold two_fields. repeat hstep_with haccess; hclose. Qed.
Lemma read_into_ok : forall v start dlen offset, (C -> start + dlen <= L) ->
  hoare1 (read_into v start dlen offset) (fun _ => True).
Proof. intros. unfold read_into. repeat hstep_with haccess; hclose. Qed.
Lemma set_value_ok : forall id key v, (W -> lenN v <= 1073741824) -> hoare1 (set_value id key v) (fun _ => True).
Proof.
  intros id key v Hv. unfold set_value. repeat hstep_with haccess; trivial. intros Hw. apply entry_ok_set; auto.
Qed.
Lemma get_mut_ok : forall id e v charge, (W -> lenN v <= 1073741824) -> hoare1 (get_mut id e v charge) (fun _ => True).
Proof.
  intros id e v charge Hv. unfold get_mut. repeat hstep_with haccess; trivial. intros Hw. apply entry_ok_set; auto.
Qed.
Lemma parse_call_args_ok : forall data maxp,
  hoare1 (parse_call_args data maxp) (fun _ => u16 (le_val (firstnN 2 (skipnN 16 data))) <= maxp).
Proof. intros. unfold parse_call_args. repeat hstep_with haccess; hclose. Qed.

Ltac hstep2 :=
  hstep_with ltac:(first [ haccess | simple apply tick_tree_ok | simple apply key_arg_ok | simple apply two_fields_ok
                         | simple apply read_into_ok | simple apply set_value_ok | simple apply get_mut_ok
                         | simple apply parse_call_args_ok ]).

Lemma invoke_ok : forall a b c, (C -> a < W32 /\ b < W32 /\ c < W32) -> hoare1 (invoke a b c) (fun _ => True).
Proof. intros. unfold invoke. repeat hstep2; hclose1. Qed.
Lemma upgrade_ok : forall a, (C -> a < W32) -> hoare1 (upgrade a) (fun _ => True).
Proof. intros. unfold upgrade. repeat hstep2; hclose1. Qed.

Lemma v1c_rv : forall x r, (W -> v1c lim x) -> (W -> lim = true -> lenN r <= 16384) -> W -> v1c lim (with_rv x r).
Proof. intros x r Hx Hr Hw. destruct (Hx Hw) as (_ & H2 & H3). exact (conj (Hr Hw) (conj H2 H3)). Qed.

Lemma write_return_value_ok : forall a b c, (C -> a < W32 /\ b < W32 /\ c < W32) ->
  hoare1 (write_return_value a b c) (fun _ => True).
Proof.
  intros. unfold write_return_value. repeat hstep2; trivial; try (apply v1c_rv; [assumption|]);
    try match goal with H : inv1 _ |- _ => destruct H as [_ ?] end; hclose1.
Qed.
Lemma get_parameter_size1_ok : forall a, hoare1 (get_parameter_size1 a) (fun _ => True).
Proof. intros. unfold get_parameter_size1. repeat hstep2; hclose1. Qed.
Lemma get_parameter_section1_ok : forall a b c d, (C -> b < W32 /\ c < W32 /\ d < W32) ->
  hoare1 (get_parameter_section1 a b c d) (fun _ => True).
Proof. intros. unfold get_parameter_section1. repeat hstep2; hclose1. Qed.

Lemma state_lookup_entry_ok : forall a b, (C -> a < W32 /\ b < W32) -> hoare1 (state_lookup_entry a b) (fun _ => True).
Proof. intros. unfold state_lookup_entry. repeat hstep2; trivial; hclose1. Qed.
Lemma state_create_entry_ok : forall a b, (C -> a < W32 /\ b < W32) ->
  hoare1 (state_create_entry a b) (fun _ => b <= 1073741824).
Proof.
  intros. unfold state_create_entry. repeat hstep2; trivial; try (intros Hw; first [apply entry_ok_set | apply entry_ok_app]); hclose1.
Qed.
Lemma state_delete_entry_ok : forall a b, (C -> a < W32 /\ b < W32) -> hoare1 (state_delete_entry a b) (fun _ => True).
Proof.
  intros. unfold state_delete_entry. repeat hstep2; trivial; try (intros Hw; apply entry_ok_del); hclose1.
Qed.
Lemma state_delete_prefix_ok : forall a b, (C -> a < W32 /\ b < W32) -> hoare1 (state_delete_prefix a b) (fun _ => True).
Proof.
  intros. unfold state_delete_prefix. repeat hstep2; trivial; try (intros Hw; apply entry_ok_map); hclose1.
Qed.
Lemma state_iterator_ok : forall a b, (C -> a < W32 /\ b < W32) -> hoare1 (state_iterator a b) (fun _ => True).
Proof. intros. unfold state_iterator. repeat hstep2; trivial; hclose1. Qed.
Lemma state_iterator_next_ok : forall a, hoare1 (state_iterator_next a) (fun _ => True).
Proof. intros. unfold state_iterator_next. repeat hstep2; trivial; hclose1. Qed.
Lemma state_iterator_delete_ok : forall a, hoare1 (state_iterator_delete a) (fun _ => True).
Proof. intros. unfold state_iterator_delete. repeat hstep2; trivial; hclose1. Qed.
Lemma state_iterator_key_size_ok : forall a, hoare1 (state_iterator_key_size a) (fun _ => True).
Proof. intros. unfold state_iterator_key_size. repeat hstep2; trivial; hclose1. Qed.
Lemma state_iterator_key_read_ok : forall a b c d, (C -> b < W32 /\ c < W32) ->
  hoare1 (state_iterator_key_read a b c d) (fun _ => True).
Proof. intros. unfold state_iterator_key_read. repeat hstep2; trivial; hclose1. Qed.
Lemma state_entry_read_ok : forall a b c d, (C -> b < W32 /\ c < W32) -> hoare1 (state_entry_read a b c d) (fun _ => True).
Proof. intros. unfold state_entry_read. repeat hstep2; trivial; hclose1. Qed.
Lemma state_entry_write_ok : forall a b c d, (C -> b < W32 /\ c < W32 /\ d < W32) ->
  hoare1 (state_entry_write a b c d) (fun _ => True).
Proof. intros. unfold state_entry_write. repeat hstep2; trivial; hclose1. Qed.
Lemma state_entry_size_ok : forall a, hoare1 (state_entry_size a) (fun _ => True).
Proof. intros. unfold state_entry_size. repeat hstep2; trivial; hclose1. Qed.
Lemma state_entry_resize_ok : forall a b, hoare1 (state_entry_resize a b) (fun r => r = Some 1 -> b <= 1073741824).
Proof. intros. unfold state_entry_resize. repeat hstep2; trivial; hclose1. Qed.

Lemma get_receive_entrypoint_size_ok : hoare1 get_receive_entrypoint_size (fun _ => True).
Proof. unfold get_receive_entrypoint_size. repeat hstep2; hclose1. Qed.
Lemma get_receive_entrypoint_ok : forall a, (C -> a < W32) -> hoare1 (get_receive_entrypoint a) (fun _ => True).
Proof.
  intros. unfold get_receive_entrypoint. repeat hstep2; hclose1.
Qed.
Lemma verify_ed25519_signature_ok : forall a b c d, (C -> a < W32 /\ b < W32 /\ c < W32 /\ d < W32) ->
  hoare1 (verify_ed25519_signature a b c d) (fun _ => True).
Proof. intros. unfold verify_ed25519_signature. repeat hstep2; hclose1. Qed.
Lemma verify_ecdsa_secp256k1_signature_ok : forall a b c, (C -> a < W32 /\ b < W32 /\ c < W32) ->
  hoare1 (verify_ecdsa_secp256k1_signature a b c) (fun _ => True).
Proof. intros. unfold verify_ecdsa_secp256k1_signature. repeat hstep2; hclose1. Qed.
Lemma hash_generic_ok : forall kind cost a b c, (C -> a < W32 /\ b < W32 /\ c < W32) ->
  hoare1 (hash_generic kind cost a b c) (fun _ => True).
Proof. intros. unfold hash_generic. repeat hstep2; trivial; hclose1. Qed.

Lemma val_ok : forall m Q, hoare1 m Q -> hoare1 (val m) (fun _ => True).
Proof. intros m Q Hm. unfold val. eapply hoare_bind; [exact Hm|]. intros. apply hoare_ret. exact I. Qed.

Lemma call_v1_raw_ok : forall f args, (C -> args_wf (sig1 f) args) -> hoare1 (call_v1_raw f args) (fun _ => True).
Proof.
  intros f args Ha.
  destruct f; split_args args; cbn [call_v1_raw sig1 args_wf] in *; try simple apply hoare_trap; try eapply val_ok;
    first [ simple apply invoke_ok | simple apply upgrade_ok | simple apply write_return_value_ok
          | simple apply get_parameter_size1_ok | simple apply get_parameter_section1_ok
          | simple apply get_policy_section_ok | (simple apply log_event_ok; [exact inv1_log|])
          | simple apply get_init_origin_ok | simple apply get_receive_invoker_ok
          | simple apply get_receive_self_address_ok | simple apply get_receive_self_balance_ok
          | simple apply get_receive_sender_ok | simple apply get_receive_owner_ok
          | simple apply get_receive_entrypoint_size_ok | simple apply get_receive_entrypoint_ok
          | simple apply get_slot_time_ok | simple apply state_lookup_entry_ok | simple apply state_create_entry_ok
          | simple apply state_delete_entry_ok | simple apply state_delete_prefix_ok | simple apply state_iterator_ok
          | simple apply state_iterator_next_ok | simple apply state_iterator_delete_ok
          | simple apply state_iterator_key_size_ok | simple apply state_iterator_key_read_ok
          | simple apply state_entry_read_ok | simple apply state_entry_write_ok | simple apply state_entry_size_ok
          | simple apply state_entry_resize_ok | simple apply verify_ed25519_signature_ok
          | simple apply verify_ecdsa_secp256k1_signature_ok | simple apply hash_generic_ok ]; tauto.
Qed.

Theorem call_v1_ok : forall f args, (C -> args_wf (sig1 f) args) -> hoare1 (call_v1 f args) (fun _ => True).
Proof. intros f args Ha. unfold call_v1. repeat hstep. apply call_v1_raw_ok, Ha. Qed.

End V1.

(** *** every v1 host call is total *)
Theorem call_v1_safe : forall f args (s : S1), args_wf (sig1 f) args -> v1_ok s -> safe (call_v1 f args) s.
Proof.
  intros f args s Hwf H.
  apply (hoare_no_fault True (m_len (mem s)) (inv1 True (fun _ => True) (h_limit (hs s))) _ _ (fun _ => True));
    [apply call_v1_ok | ..]; unfold inv1; auto.
Qed.
