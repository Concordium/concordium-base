(** C14 - the size limits of state, logs, parameters, return value and entries are invariants of
    every host call; the call-depth budget. *)
From Coq Require Import NArith List Lia.
From CB Require Import Contract.HostBase Contract.HostBaseProofs Contract.HostV0 Contract.HostV0Proofs
  Contract.HostV1 Contract.HostV1Proofs.
Import ListNotations.
Local Open Scope N_scope.

Ltac dst0 s := destruct s as [e0 m0 ev0 h0]; destruct h0.

(** ** Legacy state never exceeds 16 KiB *)
Section V0.
Context {X : Type}.
Notation S0 := (st (host X)).

Theorem call_v0_state_ok : forall f args (s : S0), state_ok s -> state_ok (fst (call_v0 f args s)).
Proof.
  intros f args s H.
  apply (hoare_inv False (m_len (mem s)) (fun h : host X => lenN (h_state h) <= 16384) _ _ (fun _ => True));
    [apply call_v0_ok | ..]; auto; tauto.
Qed.

(** ** Logs: at most 64 per execution segment while limits are on; each at most 512 bytes *)
Definition logs_ok (s : S0) : Prop :=
  (h_limit (hs s) = true -> lenN (h_logs (hs s)) <= 64)
  /\ Forall (fun e => lenN e <= 512) (h_logs (hs s)).

Definition logs_inv (h : host X) : Prop :=
  (h_limit h = true -> lenN (h_logs h) <= 64) /\ Forall (fun e => lenN e <= 512) (h_logs h).
Lemma logs_inv_push : forall h ev, logs_inv h -> lenN ev <= 512 -> (h_limit h = false \/ lenN (h_logs h) < 64) ->
  logs_inv (with_logs h (h_logs h ++ [ev])).
Proof.
  intros h ev [H1 H2] Hev Hn. split; cbn [h_limit h_logs with_logs].
  - intros Hl. destruct Hn as [Hn|Hn]; [congruence|]. rewrite lenN_app, lenN_cons, lenN_nil. lia.
  - apply Forall_app. split; [assumption|]. constructor; [assumption|constructor].
Qed.

Theorem call_v0_logs_ok : forall f args (s : S0), logs_ok s -> logs_ok (fst (call_v0 f args s)).
Proof.
  intros f args s H.
  apply (hoare_inv False (m_len (mem s)) logs_inv _ _ (fun _ => True)); [apply call_v0_ok | ..]; auto; try tauto.
  apply logs_inv_push.
Qed.

(** ** send: the parameter obeys max_parameter_size *)
Theorem send_param_limit : forall a b c d e f g (s s' : S0) r,
  send a b c d e f g s = (s', Ok r) ->
  exists acts name param, h_actions (hs s') = acts ++ [ASend a b name e param] /\ lenN param <= h_maxparam (hs s).
Proof.
  intros a b c d e f g s s' r. dst0 s. unfold send, out_send, push_action. mstep; intros [= <- <-]; try discriminate.
  all: cbv beta iota zeta delta [hs HostV0.h_actions HostV0.h_maxparam with_actions] in *.
  all: eexists _, _, _; split; [reflexivity|]. all: arith_close.
Qed.

Lemma track_call_eq : forall s : S0,
  track_call s = if h_frames (hs s) =? 0 then (s, Trap)
                 else (mkSt (energy s) (mem s) (evs s) (with_frames (hs s) (h_frames (hs s) - 1)), Ok tt).
Proof. intros. unfold track_call, bind, get_hs, trap, set_hs. destruct (h_frames (hs s) =? 0); reflexivity. Qed.
Lemma track_return_eq : forall s : S0,
  track_return s = (mkSt (energy s) (mem s) (evs s) (with_frames (hs s) (h_frames (hs s) + 1)), Ok tt).
Proof. intros. reflexivity. Qed.
Lemma frames_with_frames : forall (h : host X) f, h_frames (with_frames h f) = f.
Proof. intros. destruct h. reflexivity. Qed.

Lemma nested_calls_spec : forall n (s : S0),
  (N.of_nat n <= h_frames (hs s) ->
     exists s', nested_calls n s = (s', Ok tt) /\ h_frames (hs s') = h_frames (hs s))
  /\ (h_frames (hs s) < N.of_nat n -> exists s', nested_calls n s = (s', Trap)).
Proof.
  induction n as [|n IH]; intros s.
  - split; [intros _; exists s; split; reflexivity | lia].
  - cbn [nested_calls]. unfold bind. rewrite track_call_eq.
    destruct (N.eqb_spec (h_frames (hs s)) 0) as [E|E].
    + split; [lia|]. intros _. eexists. reflexivity.
    + set (s1 := {| energy := energy s; mem := mem s; evs := evs s; hs := with_frames (hs s) (h_frames (hs s) - 1) |}).
      assert (Hf : h_frames (hs s1) = h_frames (hs s) - 1) by (unfold s1; cbn [hs]; apply frames_with_frames).
      destruct (IH s1) as [IH1 IH2]. split.
      * intros Hle. destruct IH1 as [s2 [E2 F2]]; [rewrite Hf; lia|].
        rewrite E2, track_return_eq. eexists. split; [reflexivity|].
        cbn [hs]. rewrite frames_with_frames. lia.
      * intros Hlt. destruct IH2 as [s2 E2]; [rewrite Hf; lia|].
        rewrite E2. eexists. reflexivity.
Qed.

End V0.

(** ** v1: return value limit, entry size limit are invariant *)
Lemma keeps_v1_ok : forall A (m : M1 A) Q,
  (forall L lim, hoare False L (inv1 True (fun _ => True) lim) m Q) ->
  forall s, v1_ok s -> v1_ok (fst (m s)).
Proof.
  intros A m Q Hm s H.
  destruct (hoare_inv _ _ _ _ m _ s (Hm (m_len (mem s)) (h_limit (hs s))) eq_refl) as [_ Hr]; [split; auto|].
  destruct (Hr I) as [E Hv]. unfold v1_ok. rewrite E. exact Hv.
Qed.
Lemma keeps_logs_ok : forall A (m : M1 A) Q,
  (forall L, hoare False L (inv1 False logs_inv true) m Q) -> forall s, logs_ok s -> logs_ok (fst (m s)).
Proof.
  intros A m Q Hm s H. apply (hoare_inv _ _ _ _ m _ s (Hm (m_len (mem s))) eq_refl). split; [exact H | tauto].
Qed.

Theorem call_v1_v1_ok : forall f args (s : st H1), v1_ok s -> v1_ok (fst (call_v1 f args s)).
Proof. intros f args. apply keeps_v1_ok with (Q := fun _ => True). intros L lim. apply call_v1_ok; tauto. Qed.

Theorem call_v1_logs_ok : forall f args (s : st H1), logs_ok s -> logs_ok (fst (call_v1 f args s)).
Proof.
  intros f args. apply keeps_logs_ok with (Q := fun _ => True). intros L. apply call_v1_ok; [tauto | exact logs_inv_push | tauto].
Qed.

Lemma resume_ok : forall W L (K : host unit -> Prop) lim r, (forall b n, K b -> K (with_balance b n)) ->
  hoare False L (inv1 W K lim) (resume r) (fun v => match r with RespFail n _ => v = n * W32 | _ => True end).
Proof.
  intros W L K lim r Kbal. unfold resume.
  assert (Ht : forall b, hoare False L (inv1 W K lim) (too_many_if b) (fun _ => True))
    by (intros []; apply hoare_pure; intros; cbn; auto).
  repeat hstep_with ltac:(first [simple apply get_x_ok | simple apply set_x_ok | simple apply Ht]); trivial;
    try match goal with H : inv1 _ _ _ _ |- inv1 _ _ _ _ => exact (conj (Kbal _ _ (proj1 H)) (proj2 H)) end;
    intros Hw; repeat match goal with H : W -> _ |- _ => specialize (H Hw) end; unfold v1c, migrate in *;
    try destruct (resp_updated r); tauto.
Qed.
