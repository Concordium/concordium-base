(** * Base64Proofs — decode (encode b) = b for all byte strings; the strict decoder accepts exactly what the
    encoder writes (so it rejects padding, a single left-over symbol and non-zero trailing bits). *)
From Coq Require Import NArith ZArith Bool List Lia.
From CB Require Import Contract.ArithOpaque Contract.Base64.
Import ListNotations.
Local Open Scope N_scope.

Lemma b64_val_char : forall v, v < 64 -> b64_val (b64_char v) = Some v.
Proof. exact (sweep_inverse 64 b64_val b64_char ltac:(vm_compute; reflexivity)). Qed.

Lemma b64_val_small : forall c v, b64_val c = Some v -> c < 123.
Proof.
  intros c v H. destruct (N.ltb_spec c 123) as [|Hc]; [assumption|]. unfold b64_val in H.
  rewrite (proj2 (N.leb_gt c 90)), (proj2 (N.leb_gt c 122)), (proj2 (N.leb_gt c 57)), !andb_false_r in H by lia.
  destruct (N.eqb_spec c 43); [lia|]. destruct (N.eqb_spec c 47); [lia|]. discriminate.
Qed.

Lemma b64_char_val : forall c v, b64_val c = Some v -> v < 64 /\ b64_char v = c.
Proof.
  intros c v H. pose proof (b64_val_small _ _ H) as Hc.
  pose proof (sweep_below 123 (fun c => match b64_val c with Some w => (w <? 64) && (b64_char w =? c) | None => true end)
                ltac:(vm_compute; reflexivity) c Hc) as S.
  cbv beta in S. rewrite H in S. apply andb_true_iff in S. destruct S as [S1 S2].
  apply N.ltb_lt in S1. apply N.eqb_eq in S2. auto.
Qed.

Lemma list_ind3 : forall (P : list N -> Prop),
  P [] -> (forall a, P [a]) -> (forall a b, P [a; b]) -> (forall a b c r, P r -> P (a :: b :: c :: r)) ->
  forall l, P l.
Proof.
  intros P H0 H1 H2 H3. fix IH 1. intros [|a [|b [|c r]]]; [exact H0|apply H1|apply H2|apply H3; apply IH].
Qed.

Lemma list_ind4 : forall (P : list N -> Prop),
  P [] -> (forall a, P [a]) -> (forall a b, P [a; b]) -> (forall a b c, P [a; b; c]) ->
  (forall a b c d r, P r -> P (a :: b :: c :: d :: r)) -> forall l, P l.
Proof.
  intros P H0 H1 H2 H3 H4. fix IH 1. intros [|a [|b [|c [|d r]]]]; [exact H0|apply H1|apply H2|apply H3|apply H4; apply IH].
Qed.

Lemma ok_cons : forall a l, b64_bytes_ok (a :: l) = true <-> a < 256 /\ b64_bytes_ok l = true.
Proof. intros a l. unfold b64_bytes_ok. cbn [forallb]. rewrite andb_true_iff, N.ltb_lt. reflexivity. Qed.

(** Two digits [h], [l] in radix [m]: bytes and sextets are cut into such pieces and joined again. *)
Lemma join_lt : forall k m h l, h < k -> l < m -> h * m + l < k * m.
Proof. intros k m h l Hh Hl. apply N.lt_le_trans with (N.succ h * m); [lia|]. apply N.mul_le_mono_r. lia. Qed.
Lemma join_div : forall m h l, l < m -> (h * m + l) / m = h.
Proof. intros m h l Hl. rewrite N.add_comm, N.mul_comm. apply digit_cons, Hl. Qed.
Lemma join_mod : forall m h l, l < m -> (h * m + l) mod m = l.
Proof. intros m h l Hl. rewrite N.add_comm, N.mul_comm. apply digit_cons, Hl. Qed.
Lemma split_eq : forall m a, a / m * m + a mod m = a.
Proof. intros m a. rewrite N.mul_comm. symmetry. apply N.div_mod'. Qed.
Lemma split_lt : forall m k a, a < m * k -> a / m < k /\ a mod m < m.
Proof.
  intros m k a H. assert (m <> 0) by (intros ->; lia).
  split; [apply N.div_lt_upper_bound|apply N.mod_lt]; assumption.
Qed.

Theorem b64_decode_gen_encode : forall strict bs, b64_bytes_ok bs = true ->
  b64_decode_gen strict (b64_encode bs) = Some bs.
Proof.
  intros strict. induction bs as [|a|a b|a b c r IH] using list_ind3; intros Hok.
  - reflexivity.
  - apply ok_cons in Hok. destruct Hok as [Ha _]. destruct (split_lt 4 64 a Ha) as [Ha1 Ha2].
    (* the last symbol carries high bits only: [h * 16] is the two-digit number [h * 16 + 0] *)
    cbn [b64_encode b64_decode_gen]. rewrite <- (N.add_0_r (_ * 16)).
    pose proof (join_lt 4 16 _ 0 Ha2 eq_refl) as Hq. rewrite !b64_val_char by assumption.
    rewrite join_div, join_mod, split_eq by reflexivity. rewrite andb_false_r. reflexivity.
  - apply ok_cons in Hok. destruct Hok as [Ha Hok]. apply ok_cons in Hok. destruct Hok as [Hb _].
    destruct (split_lt 4 64 a Ha) as [Ha1 Ha2], (split_lt 16 16 b Hb) as [Hb1 Hb2].
    cbn [b64_encode b64_decode_gen]. rewrite <- (N.add_0_r (_ * 4)).
    pose proof (join_lt 4 16 _ _ Ha2 Hb1) as Hq. pose proof (join_lt 16 4 _ 0 Hb2 eq_refl) as Hr.
    rewrite !b64_val_char by assumption.
    rewrite !join_div, !join_mod, !split_eq by first [assumption|reflexivity]. rewrite andb_false_r. reflexivity.
  - apply ok_cons in Hok. destruct Hok as [Ha Hok]. apply ok_cons in Hok. destruct Hok as [Hb Hok].
    apply ok_cons in Hok. destruct Hok as [Hc Hok].
    destruct (split_lt 4 64 a Ha) as [Ha1 Ha2], (split_lt 16 16 b Hb) as [Hb1 Hb2], (split_lt 64 4 c Hc) as [Hc1 Hc2].
    cbn [b64_encode b64_decode_gen].
    pose proof (join_lt 4 16 _ _ Ha2 Hb1) as Hq. pose proof (join_lt 16 4 _ _ Hb2 Hc1) as Hr.
    rewrite !b64_val_char by assumption.
    rewrite IH, !join_div, !join_mod, !split_eq by assumption. reflexivity.
Qed.

Theorem b64_decode_encode : forall bs, b64_bytes_ok bs = true -> b64_decode (b64_encode bs) = Some bs.
Proof. apply b64_decode_gen_encode. Qed.

Ltac val_cases :=
  repeat match goal with
         | H : context [match b64_val ?x with _ => _ end] |- _ =>
             let E := fresh "E" in destruct (b64_val x) eqn:E; try discriminate
         end.

(** What either decoder accepts is a byte string; the strict one is canonical: it accepts only what the
    encoder writes. *)
Lemma b64_decode_gen_inv : forall strict s bs, b64_decode_gen strict s = Some bs ->
  b64_bytes_ok bs = true /\ (strict = true -> b64_encode bs = s).
Proof.
  intros strict. induction s as [|x|x y|x y z|x y z w r IH] using list_ind4; intros bs H;
    cbn [b64_decode_gen] in H; try discriminate.
  - injection H as <-. split; reflexivity.
  - val_cases. apply b64_char_val in E, E0. destruct E as [Hp <-], E0 as [Hq <-].
    destruct (split_lt 16 4 n0 Hq) as [Hq1 Hq2].
    destruct (strict && _) eqn:Es; [discriminate|]. injection H as <-. split.
    + apply ok_cons. split; [apply (join_lt 64 4); assumption|reflexivity].
    + intros ->. apply negb_false_iff, N.eqb_eq in Es.
      pose proof (split_eq 16 n0) as Eq. rewrite Es, N.add_0_r in Eq.
      cbn [b64_encode]. rewrite join_div, join_mod, Eq by assumption. reflexivity.
  - val_cases. apply b64_char_val in E, E0, E1. destruct E as [Hp <-], E0 as [Hq <-], E1 as [Hr <-].
    destruct (split_lt 16 4 n0 Hq) as [Hq1 Hq2], (split_lt 4 16 n1 Hr) as [Hr1 Hr2].
    destruct (strict && _) eqn:Es; [discriminate|]. injection H as <-. split.
    + apply ok_cons. split; [apply (join_lt 64 4); assumption|].
      apply ok_cons. split; [apply (join_lt 16 16); assumption|reflexivity].
    + intros ->. apply negb_false_iff, N.eqb_eq in Es.
      pose proof (split_eq 4 n1) as Er. rewrite Es, N.add_0_r in Er.
      cbn [b64_encode]. rewrite !join_div, !join_mod, split_eq, Er by assumption. reflexivity.
  - val_cases. destruct (b64_decode_gen strict r) as [l|] eqn:El; [|discriminate]. injection H as <-.
    destruct (IH _ eq_refl) as [IH1 IH2].
    apply b64_char_val in E, E0, E1, E2. destruct E as [Hp <-], E0 as [Hq <-], E1 as [Hr <-], E2 as [Ht <-].
    destruct (split_lt 16 4 n0 Hq) as [Hq1 Hq2], (split_lt 4 16 n1 Hr) as [Hr1 Hr2]. split.
    + apply ok_cons. split; [apply (join_lt 64 4); assumption|].
      apply ok_cons. split; [apply (join_lt 16 16); assumption|].
      apply ok_cons. split; [apply (join_lt 4 64); assumption|exact IH1].
    + intros Hs. cbn [b64_encode]. rewrite (IH2 Hs), !join_div, !join_mod, !split_eq by assumption. reflexivity.
Qed.

Theorem b64_decode_ok_bytes : forall strict s bs, b64_decode_gen strict s = Some bs -> b64_bytes_ok bs = true.
Proof. intros strict s bs H. apply (b64_decode_gen_inv _ _ _ H). Qed.

Theorem b64_encode_decode : forall s bs, b64_decode s = Some bs -> b64_encode bs = s.
Proof. intros s bs H. apply (b64_decode_gen_inv true _ _ H). reflexivity. Qed.

Theorem b64_decode_iff : forall s bs, b64_decode s = Some bs <-> (b64_bytes_ok bs = true /\ s = b64_encode bs).
Proof.
  intros s bs. split.
  - intros H. split; [eapply b64_decode_ok_bytes; exact H|symmetry; apply b64_encode_decode; exact H].
  - intros [Hok ->]. apply b64_decode_encode; auto.
Qed.

Theorem b64_strict_implies_lax : forall s bs, b64_decode s = Some bs -> b64_decode_lax s = Some bs.
Proof.
  intros s bs H. apply b64_decode_iff in H. destruct H as [Hok ->]. apply b64_decode_gen_encode; auto.
Qed.

(** what strictness adds: of the strings the lax decoder reads as [bs], the strict one accepts exactly the
    canonical one *)
Theorem b64_noncanonical_rejected : forall s bs, b64_decode_lax s = Some bs ->
  (b64_decode s = Some bs <-> s = b64_encode bs).
Proof.
  intros s bs H. split.
  - intros H1. symmetry. apply b64_encode_decode; auto.
  - intros ->. apply b64_decode_encode. eapply b64_decode_ok_bytes; exact H.
Qed.

Theorem b64_encode_injective : forall a b, b64_bytes_ok a = true -> b64_bytes_ok b = true ->
  b64_encode a = b64_encode b -> a = b.
Proof.
  intros a b Ha Hb H. pose proof (b64_decode_encode a Ha) as A. rewrite H in A.
  rewrite (b64_decode_encode b Hb) in A. inversion A. reflexivity.
Qed.

Theorem b64_encode_length : forall bs,
  length (b64_encode bs) = (4 * (length bs / 3) + match length bs mod 3 with 0 => 0 | r => S r end)%nat.
Proof.
  induction bs as [|a|a b|a b c r IH] using list_ind3; try reflexivity.
  cbn [b64_encode length]. rewrite IH.
  replace (S (S (S (length r)))) with (length r + 1 * 3)%nat by lia.
  rewrite Nat.div_add by lia. rewrite Nat.mod_add by lia. lia.
Qed.

(** "QQ" = [65]; "QR" has trailing bits; "QQ==" is padded; "Q" is too short *)
Example b64_examples :
  b64_decode [81; 81] = Some [65] /\ b64_decode [81; 82] = None /\ b64_decode_lax [81; 82] = Some [65] /\
  b64_decode [81; 81; 61; 61] = None /\ b64_decode_lax [81; 81; 61; 61] = None /\ b64_decode [81] = None /\
  b64_decode [] = Some [] /\ b64_encode [65] = [81; 81] /\ b64_encode [255; 255; 254] = [47; 47; 47; 43].
Proof. vm_compute. repeat split. Qed.
