(** C16 - checked arithmetic is exact or reports overflow; quotient/remainder law. *)
From Coq Require Import NArith Lia.
From CB Require Import Contract.CheckedArith.
Local Open Scope N_scope.


Lemma checked_add_spec : forall x y z, checked_add x y = Some z <-> z = x + y /\ z < W64.
Proof.
  intros x y z. unfold checked_add. destruct (x + y <? W64) eqn:E.
  - apply N.ltb_lt in E. split; [intros H; inversion H; subst; auto | intros [-> _]; reflexivity].
  - apply N.ltb_ge in E. split; [discriminate | intros [-> H]; lia].
Qed.
Lemma checked_add_none : forall x y, checked_add x y = None <-> W64 <= x + y.
Proof.
  intros x y. unfold checked_add. destruct (x + y <? W64) eqn:E.
  - apply N.ltb_lt in E. split; [discriminate | lia].
  - apply N.ltb_ge in E. split; [auto | reflexivity].
Qed.
(** never a wrapped result *)
Lemma checked_add_no_wrap : forall x y z, x < W64 -> y < W64 -> checked_add x y = Some z -> z <> (x + y) mod W64 \/ x + y < W64.
Proof. intros x y z _ _ H. apply checked_add_spec in H. right. lia. Qed.

Lemma checked_sub_spec : forall x y z, checked_sub x y = Some z <-> y <= x /\ z + y = x.
Proof.
  intros x y z. unfold checked_sub. destruct (y <=? x) eqn:E.
  - apply N.leb_le in E. split; [intros H; inversion H; subst; split; lia | intros [_ H]; f_equal; lia].
  - apply N.leb_gt in E. split; [discriminate | intros [H _]; lia].
Qed.
Lemma checked_sub_none : forall x y, checked_sub x y = None <-> x < y.
Proof.
  intros x y. unfold checked_sub. destruct (y <=? x) eqn:E.
  - apply N.leb_le in E. split; [discriminate | lia].
  - apply N.leb_gt in E. split; [auto | reflexivity].
Qed.
Lemma checked_sub_in_range : forall x y z, x < W64 -> checked_sub x y = Some z -> z < W64.
Proof. intros x y z Hx H. apply checked_sub_spec in H. lia. Qed.

Lemma duration_between_spec : forall t o, duration_between t o + N.min t o = N.max t o.
Proof. intros t o. unfold duration_between. destruct (o <=? t) eqn:E; [apply N.leb_le in E | apply N.leb_gt in E]; lia. Qed.
Lemma duration_between_sym : forall t o, duration_between t o = duration_between o t.
Proof.
  intros t o. unfold duration_between.
  destruct (o <=? t) eqn:E1; destruct (t <=? o) eqn:E2; try reflexivity.
  - apply N.leb_le in E1, E2. lia.
  - apply N.leb_gt in E1, E2. lia.
Qed.

Lemma quotient_remainder_law : forall x d q r, quotient_remainder x d = Some (q, r) <->
  d <> 0 /\ x = q * d + r /\ r < d.
Proof.
  intros x d q r. unfold quotient_remainder. destruct (d =? 0) eqn:E.
  - apply N.eqb_eq in E. split; [discriminate | intros [H _]; congruence].
  - apply N.eqb_neq in E. split.
    + intros H. inversion H; subst. repeat split; [exact E | | apply N.mod_lt; exact E].
      rewrite N.mul_comm. apply N.div_mod. exact E.
    + intros [_ [Hx Hr]]. f_equal.
      symmetry in Hx. rewrite N.mul_comm in Hx.
      destruct (N.div_mod_unique d q (x / d) r (x mod d) Hr (N.mod_lt x d E)) as [-> ->];
        [rewrite Hx; apply N.div_mod; exact E | reflexivity].
Qed.
Lemma quotient_remainder_in_range : forall x d q r, x < W64 -> quotient_remainder x d = Some (q, r) -> q < W64 /\ r < W64.
Proof.
  intros x d q r Hx H. apply quotient_remainder_law in H. destruct H as [Hd [E Hr]].
  subst x. assert (Q : q * 1 <= q * d) by (apply N.mul_le_mono_l; lia). rewrite N.mul_1_r in Q. lia.
Qed.

Lemma mul_or_panic_spec : forall x y z, mul_or_panic x y = Some z <-> z = x * y /\ z < W64.
Proof.
  intros x y z. unfold mul_or_panic. destruct (x * y <? W64) eqn:E.
  - apply N.ltb_lt in E. split; [intros H; inversion H; subst; auto | intros [-> _]; reflexivity].
  - apply N.ltb_ge in E. split; [discriminate | intros [-> H]; lia].
Qed.

(** ** exchange-rate conversions at the u128 level *)
Definition euro_floor (num den cents : N) : N := num * cents / (den * 100).
Definition cent_floor (num den micro : N) : N := micro * 100 * den / num.

(** the floor of the rational value *)
Lemma floor_law : forall a b, b <> 0 -> (a / b) * b <= a < (a / b + 1) * b.
Proof.
  intros a b Hb. pose proof (N.div_mod a b Hb) as E. pose proof (N.mod_lt a b Hb) as L.
  set (q := a / b) in *. set (r := a mod b) in *. clearbody q r. subst a.
  split; [lia|]. rewrite N.mul_add_distr_r. lia.
Qed.
Lemma floor_unique : forall a b q, b <> 0 -> q * b <= a < (q + 1) * b -> q = a / b.
Proof.
  intros a b q Hb [H1 H2]. rewrite N.mul_add_distr_r in H2.
  apply (N.div_unique a b q (a - q * b)); lia.
Qed.

(** [N.div_le_mono] wants a non-zero divisor; [x / 0 = 0] makes it true for 0 as well *)
Lemma div_le_mono0 : forall a b d, a <= b -> a / d <= b / d.
Proof.
  intros a b d H. destruct (N.eq_dec d 0) as [->|Hd]; [destruct a, b; reflexivity|]. apply N.div_le_mono; assumption.
Qed.
Lemma as_u64_exact : forall x, x mod W64 = x <-> x < W64.
Proof. intros x. split; [intros <-; apply N.mod_lt; unfold W64; lia|apply N.mod_small]. Qed.
Lemma exact_monotone : forall f1 f2 v1 v2, (v1 = f1 <-> f1 < W64) -> (v2 = f2 <-> f2 < W64) ->
  f1 <= f2 -> f2 < W64 -> v1 <= v2.
Proof. intros f1 f2 v1 v2 E1 E2 M F. apply E2 in F as F2. subst v2. assert (F1 : f1 < W64) by lia. apply E1 in F1. lia. Qed.

(** [convert_euro_cent_to_amount]: the u128 products of u64 values cannot overflow *)
Lemma euro_cent_no_intermediate_overflow : forall num den cents,
  num < W64 -> den < W64 -> cents < W64 -> num * cents < W128 /\ den * 100 < W128.
Proof.
  intros num den cents H1 H2 H3. unfold W64, W128 in *. split; [|lia].
  assert (num * cents <= 18446744073709551615 * 18446744073709551615) by (apply N.mul_le_mono; lia). lia.
Qed.
Lemma euro_cent_result : forall num den cents, den <> 0 ->
  convert_euro_cent_to_amount num den cents = Some (euro_floor num den cents mod W64)
  /\ euro_floor num den cents * (den * 100) <= num * cents < (euro_floor num den cents + 1) * (den * 100).
Proof.
  intros num den cents Hd. split.
  - unfold convert_euro_cent_to_amount. apply N.eqb_neq in Hd. rewrite Hd. reflexivity.
  - apply floor_law. lia.
Qed.
(** exact in the rationals (floor) exactly when the true result fits into 64 bits;
    otherwise [as u64] keeps the low 64 bits: the overflow is NOT reported *)
Lemma euro_cent_exact_iff : forall num den cents v, den <> 0 ->
  convert_euro_cent_to_amount num den cents = Some v ->
  (v = euro_floor num den cents <-> euro_floor num den cents < W64).
Proof.
  intros num den cents v Hd H. destruct (euro_cent_result num den cents Hd) as [E _].
  rewrite E in H. inversion H; subst. apply as_u64_exact.
Qed.
(** exchange rates: when the quotient fits into 64 bits it is the floor of the rational value *)
Lemma convert_euro_cent_exact : forall num den cents v, den <> 0 ->
  num * cents / (den * 100) < W64 ->
  convert_euro_cent_to_amount num den cents = Some v ->
  v * (den * 100) <= num * cents < (v + 1) * (den * 100).
Proof.
  intros num den cents v Hd Hfit H. destruct (euro_cent_result num den cents Hd) as [_ F].
  apply (euro_cent_exact_iff _ _ _ _ Hd H) in Hfit. subst v. exact F.
Qed.
Lemma convert_euro_cent_monotone : forall num den c1 c2, c1 <= c2 ->
  num * c1 / (den * 100) <= num * c2 / (den * 100).
Proof. intros. apply div_le_mono0. nia. Qed.
Lemma euro_cent_monotone_when_fits : forall num den c1 c2 v1 v2, den <> 0 -> c1 <= c2 ->
  euro_floor num den c2 < W64 ->
  convert_euro_cent_to_amount num den c1 = Some v1 -> convert_euro_cent_to_amount num den c2 = Some v2 ->
  v1 <= v2.
Proof.
  intros num den c1 c2 v1 v2 Hd Hc Hfit H1 H2.
  exact (exact_monotone _ _ _ _ (euro_cent_exact_iff _ _ _ _ Hd H1) (euro_cent_exact_iff _ _ _ _ Hd H2)
           (convert_euro_cent_monotone num den c1 c2 Hc) Hfit).
Qed.
(** witness: 2 euro cents per ... numerator 200, denominator 1: the result wraps at 2^63 cents *)
Lemma euro_cent_truncation_witness :
  convert_euro_cent_to_amount 200 1 9223372036854775807 = Some 18446744073709551614
  /\ convert_euro_cent_to_amount 200 1 9223372036854775808 = Some 0
  /\ euro_floor 200 1 9223372036854775808 = W64.
Proof. repeat apply conj; vm_compute; reflexivity. Qed.

(** [convert_amount_to_euro_cent]: [None] (arithmetic-overflow panic of the checked build, or
    division by zero) exactly when the u128 product does not fit *)
Lemma amount_to_euro_cent_none_iff : forall num den micro,
  convert_amount_to_euro_cent num den micro = None <-> num = 0 \/ W128 <= micro * 100 * den.
Proof.
  intros num den micro. unfold convert_amount_to_euro_cent.
  destruct (num =? 0) eqn:E; [apply N.eqb_eq in E; split; auto|]. apply N.eqb_neq in E.
  destruct (micro * 100 * den <? W128) eqn:L.
  - apply N.ltb_lt in L. split; [discriminate | intros [X|X]; [congruence | lia]].
  - apply N.ltb_ge in L. split; auto.
Qed.
Lemma amount_to_euro_cent_result : forall num den micro v,
  convert_amount_to_euro_cent num den micro = Some v ->
  num <> 0 /\ micro * 100 * den < W128 /\ v = cent_floor num den micro mod W64
  /\ cent_floor num den micro * num <= micro * 100 * den < (cent_floor num den micro + 1) * num.
Proof.
  intros num den micro v H. unfold convert_amount_to_euro_cent in H.
  destruct (num =? 0) eqn:E; [discriminate|]. apply N.eqb_neq in E.
  destruct (micro * 100 * den <? W128) eqn:L; [|discriminate]. apply N.ltb_lt in L. inversion H; subst.
  repeat split; try assumption; apply floor_law; exact E.
Qed.
Lemma amount_to_euro_cent_exact_iff : forall num den micro v,
  convert_amount_to_euro_cent num den micro = Some v ->
  (v = cent_floor num den micro <-> cent_floor num den micro < W64).
Proof.
  intros num den micro v H. destruct (amount_to_euro_cent_result _ _ _ _ H) as (_ & _ & -> & _). apply as_u64_exact.
Qed.
(** a reported overflow is a real one: when the u128 product does not fit, the true result
    exceeds u64 (the numerator is a u64) *)
Lemma amount_to_euro_cent_none_sound : forall num den micro, num <> 0 -> num < W64 ->
  W128 <= micro * 100 * den -> W64 <= cent_floor num den micro.
Proof.
  intros num den micro Hn Hlt H. unfold cent_floor.
  apply N.div_le_lower_bound; [exact Hn|]. unfold W64, W128 in *. nia.
Qed.
(** ... but not every overflow is reported: the result is truncated by [as u64] *)
Lemma amount_to_euro_cent_truncation_witness :
  convert_amount_to_euro_cent 1 1 9223372036854775808 = Some 0
  /\ cent_floor 1 1 9223372036854775808 = 50 * W64.
Proof. split; vm_compute; reflexivity. Qed.
Lemma cent_floor_monotone : forall num den m1 m2, m1 <= m2 -> cent_floor num den m1 <= cent_floor num den m2.
Proof.
  intros num den m1 m2 H. unfold cent_floor. apply div_le_mono0. nia.
Qed.
Lemma amount_to_euro_cent_monotone_when_fits : forall num den m1 m2 v1 v2, m1 <= m2 ->
  cent_floor num den m2 < W64 ->
  convert_amount_to_euro_cent num den m1 = Some v1 -> convert_amount_to_euro_cent num den m2 = Some v2 ->
  v1 <= v2.
Proof.
  intros num den m1 m2 v1 v2 Hm Hfit H1 H2.
  exact (exact_monotone _ _ _ _ (amount_to_euro_cent_exact_iff _ _ _ _ H1) (amount_to_euro_cent_exact_iff _ _ _ _ H2)
           (cent_floor_monotone num den m1 m2 Hm) Hfit).
Qed.
