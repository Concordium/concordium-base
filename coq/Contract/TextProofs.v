(** C16 - parse (print v) = v for the textual forms of [Text.v]: amounts, durations,
    contract addresses (timestamps are in [TimeProofs.v]). *)
From Coq Require Import NArith List Bool Lia.
From CB Require Import Contract.Text.
Import ListNotations.
Local Open Scope N_scope.

Definition val_lsb (l : list N) : N := fold_right (fun d acc => d + 10 * acc) 0 l.
Fixpoint val_msb (acc : N) (l : list N) : N :=
  match l with [] => acc | d :: l' => val_msb (acc * 10 + d) l' end.
Definition all_digits (l : list N) : Prop := Forall (fun d => d < 10) l.

Lemma val_msb_app : forall a b acc, val_msb acc (a ++ b) = val_msb (val_msb acc a) b.
Proof. induction a; intros; cbn; auto. Qed.
Lemma val_msb_rev : forall l acc, val_msb acc (rev l) = acc * 10 ^ N.of_nat (length l) + val_lsb l.
Proof.
  induction l as [|d l IH]; intros acc.
  - cbn. change (10 ^ 0) with 1. lia.
  - cbn [rev length val_lsb fold_right]. rewrite val_msb_app, IH. cbn [val_msb].
    rewrite Nat2N.inj_succ, N.pow_succ_r'. fold (val_lsb l). lia.
Qed.
Lemma val_msb_ge : forall l acc, acc <= val_msb acc l.
Proof. induction l as [|d l IH]; intros acc; cbn; [lia|]. specialize (IH (acc * 10 + d)). lia. Qed.
Lemma val_msb_mono : forall l a b, a <= b -> val_msb a l <= val_msb b l.
Proof. induction l as [|d l IH]; intros a b H; cbn; [exact H|]. apply IH. lia. Qed.

Lemma all_digits_rev : forall l, all_digits l -> all_digits (rev l).
Proof. intros l H. apply Forall_rev. exact H. Qed.

Lemma digits_rev_digits : forall fuel n, all_digits (digits_rev fuel n).
Proof.
  induction fuel as [|f IH]; intros n; cbn; [constructor|].
  destruct (n <? 10) eqn:E.
  - apply N.ltb_lt in E. repeat constructor. exact E.
  - constructor; [apply N.mod_lt; lia | apply IH].
Qed.
Lemma digits_rev_val : forall fuel n, n < 10 ^ N.of_nat fuel -> val_lsb (digits_rev fuel n) = n.
Proof.
  induction fuel as [|f IH]; intros n H.
  - cbn in *. change (10 ^ 0) with 1 in H. lia.
  - rewrite Nat2N.inj_succ, N.pow_succ_r' in H. cbn [digits_rev].
    destruct (n <? 10) eqn:E.
    + cbn. lia.
    + cbn [val_lsb fold_right]. fold (val_lsb (digits_rev f (n / 10))).
      rewrite IH by (apply N.div_lt_upper_bound; lia).
      pose proof (N.div_mod n 10). lia.
Qed.
Lemma digits_rev_nonempty : forall fuel n, digits_rev (S fuel) n <> [].
Proof. intros. cbn. destruct (n <? 10); discriminate. Qed.
(** the most significant digit of a positive number is not zero *)
Lemma digits_rev_last : forall fuel n, 0 < n -> n < 10 ^ N.of_nat fuel -> 0 < last (digits_rev fuel n) 0.
Proof.
  induction fuel as [|f IH]; intros n Hp H.
  - change (10 ^ N.of_nat 0) with 1 in H. lia.
  - rewrite Nat2N.inj_succ, N.pow_succ_r' in H. cbn [digits_rev].
    destruct (n <? 10) eqn:E; [cbn; exact Hp|].
    apply N.ltb_ge in E.
    assert (Hq : 0 < n / 10) by (apply N.div_str_pos; lia).
    assert (Hl : n / 10 < 10 ^ N.of_nat f) by (apply N.div_lt_upper_bound; lia).
    specialize (IH _ Hq Hl).
    destruct f as [|f']; [change (10 ^ N.of_nat 0) with 1 in Hl; lia|].
    pose proof (digits_rev_nonempty f' (n / 10)) as NE.
    destruct (digits_rev (S f') (n / 10)) eqn:D; [congruence|]. exact IH.
Qed.

Definition P40 : N := 10 ^ 40.
Lemma W64_lt_P40 : W64 < P40. Proof. reflexivity. Qed.

Lemma dec_digits_digits : forall n, all_digits (dec_digits n).
Proof. intros. apply all_digits_rev, digits_rev_digits. Qed.
Lemma dec_digits_val : forall n acc, n < P40 ->
  val_msb acc (dec_digits n) = acc * 10 ^ N.of_nat (length (digits_rev 40 n)) + n.
Proof. intros n acc H. unfold dec_digits. rewrite val_msb_rev, digits_rev_val by exact H. reflexivity. Qed.
Lemma dec_digits_val0 : forall n, n < P40 -> val_msb 0 (dec_digits n) = n.
Proof. intros n H. rewrite dec_digits_val by exact H. lia. Qed.
Lemma dec_digits_cons : forall n, exists d ds, dec_digits n = d :: ds /\ d < 10.
Proof.
  intros n. pose proof (dec_digits_digits n) as H. unfold dec_digits in *.
  pose proof (digits_rev_nonempty 39 n) as NE.
  destruct (rev (digits_rev 40 n)) as [|d ds] eqn:E.
  - exfalso. apply NE. apply (f_equal (@rev N)) in E. rewrite rev_involutive in E. exact E.
  - exists d, ds. inversion H; subst. auto.
Qed.
Lemma dec_digits_head_pos : forall n d ds, 0 < n -> n < P40 -> dec_digits n = d :: ds -> 0 < d.
Proof.
  intros n d ds Hp H E. pose proof (digits_rev_last 40 n Hp H) as L.
  unfold dec_digits in E. apply (f_equal (@rev N)) in E. rewrite rev_involutive in E. rewrite E in L.
  cbn [rev] in L. rewrite last_last in L. exact L.
Qed.
Lemma dec_digits_zero : dec_digits 0 = [0].
Proof. reflexivity. Qed.

Lemma fixed_rev_digits : forall k n, all_digits (fixed_rev k n).
Proof. induction k; intros; cbn; constructor; [apply N.mod_lt; lia | apply IHk]. Qed.
Lemma fixed_rev_length : forall k n, length (fixed_rev k n) = k.
Proof. induction k; intros; cbn; [reflexivity | f_equal; apply IHk]. Qed.
Lemma fixed_rev_val : forall k n, n < 10 ^ N.of_nat k -> val_lsb (fixed_rev k n) = n.
Proof.
  induction k as [|k IH]; intros n H.
  - change (10 ^ N.of_nat 0) with 1 in H. cbn. lia.
  - rewrite Nat2N.inj_succ, N.pow_succ_r' in H. cbn [fixed_rev val_lsb fold_right].
    fold (val_lsb (fixed_rev k (n / 10))). rewrite IH by (apply N.div_lt_upper_bound; lia).
    pose proof (N.div_mod n 10). lia.
Qed.
Definition fixed_digits (k : nat) (n : N) : list N := rev (fixed_rev k n).
Lemma print_fixed_eq : forall k n, print_fixed k n = map digit_char (fixed_digits k n).
Proof. reflexivity. Qed.
Lemma fixed_digits_digits : forall k n, all_digits (fixed_digits k n).
Proof. intros. apply all_digits_rev, fixed_rev_digits. Qed.
Lemma fixed_digits_length : forall k n, length (fixed_digits k n) = k.
Proof. intros. unfold fixed_digits. rewrite rev_length. apply fixed_rev_length. Qed.
Lemma fixed_digits_val : forall k n acc, n < 10 ^ N.of_nat k ->
  val_msb acc (fixed_digits k n) = acc * 10 ^ N.of_nat k + n.
Proof.
  intros. unfold fixed_digits. rewrite val_msb_rev, fixed_rev_length, fixed_rev_val by assumption. reflexivity.
Qed.

Lemma is_digit_char : forall d, d < 10 -> is_digit (digit_char d) = true.
Proof. intros d H. unfold is_digit, digit_char. rewrite andb_true_iff, !N.leb_le. lia. Qed.
Lemma digit_val_char : forall d, digit_val (digit_char d) = d.
Proof. intros. unfold digit_val, digit_char. lia. Qed.
Lemma digit_char_range : forall d, d < 10 -> 48 <= digit_char d <= 57.
Proof. intros. unfold digit_char. lia. Qed.
Lemma is_digit_false : forall c, (c < 48 \/ 57 < c) -> is_digit c = false.
Proof.
  intros c H. unfold is_digit. destruct (48 <=? c) eqn:A; [|reflexivity].
  apply N.leb_le in A. cbn. apply N.leb_gt. lia.
Qed.
Lemma is_ws_digit_char : forall d, d < 10 -> is_ws (digit_char d) = false.
Proof.
  intros d H. pose proof (digit_char_range d H) as R. set (c := digit_char d) in *. unfold is_ws.
  rewrite !orb_false_iff.
  repeat split; try (apply N.eqb_neq; lia);
    apply andb_false_iff; first [left; apply N.leb_gt; lia | right; apply N.leb_gt; lia].
Qed.

(** one step of each digit loop: the accumulator stays below 2^64 because the final value does *)
Lemma digit_step : forall d ds acc, d < 10 -> val_msb (acc * 10 + d) ds < W64 ->
  is_digit (digit_char d) = true /\ digit_val (digit_char d) = d /\ (acc * 10 + d <? W64) = true.
Proof.
  intros d ds acc Hd Hv. pose proof (val_msb_ge ds (acc * 10 + d)).
  repeat split; [apply is_digit_char; exact Hd|apply digit_val_char|apply N.ltb_lt; lia].
Qed.
Lemma parse_digits_ok : forall ds acc, all_digits ds -> val_msb acc ds < W64 ->
  parse_digits acc (map digit_char ds) = Some (val_msb acc ds).
Proof.
  induction ds as [|d ds IH]; intros acc Hd Hv; [reflexivity|].
  inversion Hd; subst. cbn [map parse_digits val_msb] in *.
  destruct (digit_step d ds acc) as (-> & -> & ->); auto.
Qed.
Lemma parse_digits_nondigit : forall s acc c, In c s -> is_digit c = false -> parse_digits acc s = None.
Proof.
  induction s as [|x s IH]; intros acc c Hin Hc; [destruct Hin|].
  cbn [parse_digits]. destruct Hin as [->|Hin].
  - rewrite Hc. reflexivity.
  - destruct (is_digit x); [|reflexivity]. destruct (_ <? W64); [|reflexivity]. eapply IH; eauto.
Qed.
Lemma parse_u64_digits : forall ds, all_digits ds -> ds <> [] -> val_msb 0 ds < W64 ->
  parse_u64 (map digit_char ds) = Some (val_msb 0 ds).
Proof.
  intros ds Hd Hne Hv. destruct ds as [|d ds]; [congruence|]. inversion Hd; subst.
  cbn [map parse_u64].
  assert (digit_char d =? 43 = false) as -> by (apply N.eqb_neq; unfold digit_char; lia).
  apply (parse_digits_ok (d :: ds)); assumption.
Qed.
Theorem parse_u64_print_dec : forall n, n < W64 -> parse_u64 (print_dec n) = Some n.
Proof.
  intros n H. assert (HP : n < P40) by (pose proof W64_lt_P40; lia).
  unfold print_dec. destruct (dec_digits_cons n) as (d & ds & E & _).
  rewrite <- (dec_digits_val0 n HP) at 2.
  apply parse_u64_digits; [apply dec_digits_digits | rewrite E; discriminate | rewrite dec_digits_val0; assumption].
Qed.

Lemma amt_frac_digits : forall ds acc after rest, all_digits ds ->
  after + N.of_nat (length ds) <= 6 -> val_msb acc ds < W64 ->
  amt_frac acc after (map digit_char ds ++ rest) = amt_frac (val_msb acc ds) (after + N.of_nat (length ds)) rest.
Proof.
  induction ds as [|d ds IH]; intros acc after rest Hd Hl Hv.
  - cbn. f_equal. lia.
  - inversion Hd; subst. cbn [map app amt_frac val_msb length] in *. rewrite Nat2N.inj_succ in *.
    assert (6 <=? after = false) as -> by (apply N.leb_gt; lia).
    destruct (digit_step d ds acc) as (-> & -> & ->); auto.
    rewrite IH by (auto; lia). f_equal. lia.
Qed.
Lemma amt_int_digits : forall ds acc rest, all_digits ds -> val_msb acc ds < W64 ->
  amt_int acc (map digit_char ds ++ rest) = amt_int (val_msb acc ds) rest.
Proof.
  induction ds as [|d ds IH]; intros acc rest Hd Hv; [reflexivity|].
  inversion Hd; subst. cbn [map app amt_int val_msb] in *.
  destruct (digit_step d ds acc) as (-> & -> & ->); auto.
Qed.

(** the part after the dot, as printed by [Display]: "0" or six digits *)
Lemma amt_frac_printed : forall q r, r < 1000000 -> q * 1000000 + r < W64 ->
  amt_frac q 0 (if r =? 0 then [48] else print_fixed 6 r) = Ok (q * 1000000 + r).
Proof.
  intros q r Hr Hm. destruct (r =? 0) eqn:E.
  - apply N.eqb_eq in E. subst r. cbn [amt_frac].
    change (6 <=? 0) with false. change (is_digit 48) with true. cbv iota.
    change (digit_val 48) with 0.
    assert (q * 10 + 0 <? W64 = true) as -> by (apply N.ltb_lt; lia).
    change (0 + 1 =? 0) with false. cbv iota. unfold amt_finish.
    change (10 ^ (6 - (0 + 1))) with 100000.
    assert ((q * 10 + 0) * 100000 <? W64 = true) as -> by (apply N.ltb_lt; lia).
    f_equal. lia.
  - rewrite print_fixed_eq. rewrite <- (app_nil_r (map digit_char (fixed_digits 6 r))).
    rewrite amt_frac_digits.
    + rewrite fixed_digits_length, fixed_digits_val by exact Hr.
      change (0 + N.of_nat 6) with 6. change (10 ^ N.of_nat 6) with 1000000.
      cbn [amt_frac]. change (6 =? 0) with false. cbv iota. unfold amt_finish.
      change (10 ^ (6 - 6)) with 1.
      assert ((q * 1000000 + r) * 1 <? W64 = true) as -> by (apply N.ltb_lt; lia).
      f_equal. lia.
    + apply fixed_digits_digits.
    + rewrite fixed_digits_length. cbn. lia.
    + rewrite fixed_digits_val by exact Hr. change (10 ^ N.of_nat 6) with 1000000. exact Hm.
Qed.

Theorem amount_parse_print_all : forall m, m < W64 -> parse_amount (print_amount m) = Ok m.
Proof.
  intros m Hm. unfold print_amount.
  set (q := m / 1000000). set (r := m mod 1000000).
  assert (Hr : r < 1000000) by (apply N.mod_lt; lia).
  assert (Em : q * 1000000 + r = m) by (unfold q, r; pose proof (N.div_mod m 1000000); lia).
  assert (Hq : q < P40) by (pose proof W64_lt_P40; lia).
  clearbody q r.
  (* both shapes are: digits of q, a dot, the printed fraction *)
  assert (Shape : (if r =? 0 then print_dec q ++ [46; 48] else print_dec q ++ [46] ++ print_fixed 6 r)
                  = print_dec q ++ 46 :: (if r =? 0 then [48] else print_fixed 6 r)).
  { destruct (r =? 0); reflexivity. }
  rewrite Shape. clear Shape.
  pose proof (amt_frac_printed q r Hr ltac:(lia)) as F. rewrite Em in F.
  unfold print_dec. destruct (dec_digits_cons q) as (d & ds & E & Hd10).
  pose proof (dec_digits_digits q) as AD. pose proof (dec_digits_val0 q Hq) as V.
  rewrite E in AD, V |- *. assert (ADs : all_digits ds) by (inversion AD; assumption).
  cbn [map app parse_amount].
  rewrite is_digit_char by assumption.
  destruct (N.eq_dec q 0) as [Q0|Q0].
  - (* q = 0: the string starts with "0." *)
    clear V. subst q. rewrite dec_digits_zero in E. inversion E; subst d ds.
    change (digit_char 0 =? 48) with true. cbv iota. cbn [map app].
    change (46 =? 46) with true. cbv iota. exact F.
  - assert (Hd : 0 < d) by (eapply dec_digits_head_pos; eauto; lia).
    assert (digit_char d =? 48 = false) as -> by (apply N.eqb_neq; unfold digit_char; lia).
    rewrite digit_val_char.
    cbn [val_msb] in V. replace (0 * 10 + d) with d in V by lia.
    rewrite amt_int_digits by (auto; rewrite V; lia).
    rewrite V. cbn [amt_int]. change (is_digit 46) with false. change (46 =? 46) with true. cbv iota.
    exact F.
Qed.

Lemma span_digits_app : forall ds u rest, all_digits ds -> is_digit u = false ->
  span_digits (map digit_char ds ++ u :: rest) = (map digit_char ds, u :: rest).
Proof.
  induction ds as [|d ds IH]; intros u rest Hd Hu.
  - cbn. rewrite Hu. reflexivity.
  - inversion Hd; subst. cbn [map app span_digits]. rewrite is_digit_char by assumption.
    rewrite IH by assumption. reflexivity.
Qed.

Definition no_ws (w : list N) : Prop := Forall (fun c => is_ws c = false) w.
Lemma split_ws_aux_word : forall w cur tail, no_ws w ->
  split_ws_aux cur (w ++ tail) = split_ws_aux (rev w ++ cur) tail.
Proof.
  induction w as [|c w IH]; intros cur tail H; [reflexivity|].
  inversion H; subst. cbn [app split_ws_aux]. rewrite H2. rewrite IH by assumption.
  cbn [rev]. rewrite <- app_assoc. reflexivity.
Qed.
Lemma match_rev_nonempty : forall {A} (w : list N) (x y : A), w <> [] ->
  match rev w with [] => x | _ :: _ => y end = y.
Proof.
  intros A w x y NE. destruct (rev w) eqn:E; [|reflexivity].
  apply (f_equal (@rev N)) in E. rewrite rev_involutive in E. contradiction.
Qed.
Lemma split_ws_word_space : forall w tail, no_ws w -> w <> [] ->
  split_ws_aux [] (w ++ 32 :: tail) = w :: split_ws_aux [] tail.
Proof.
  intros w tail H NE. rewrite split_ws_aux_word by exact H. rewrite app_nil_r.
  cbn [split_ws_aux]. change (is_ws 32) with true. cbv iota.
  rewrite match_rev_nonempty by exact NE. rewrite rev_involutive. reflexivity.
Qed.
Lemma split_ws_word_end : forall w, no_ws w -> w <> [] -> split_ws_aux [] w = [w].
Proof.
  intros w H NE. rewrite <- (app_nil_r w) at 1. rewrite split_ws_aux_word by exact H. rewrite app_nil_r.
  cbn [split_ws_aux]. rewrite match_rev_nonempty by exact NE. rewrite rev_involutive. reflexivity.
Qed.

Lemma no_ws_print_dec : forall n, no_ws (print_dec n).
Proof.
  intros n. unfold print_dec, no_ws. rewrite Forall_map.
  eapply Forall_impl; [|apply dec_digits_digits]. intros d H. apply is_ws_digit_char. exact H.
Qed.
Lemma no_ws_app : forall a b, no_ws a -> no_ws b -> no_ws (a ++ b).
Proof. intros. apply Forall_app. auto. Qed.
Lemma print_dec_nonempty : forall n, print_dec n <> [].
Proof. intros n. unfold print_dec. destruct (dec_digits_cons n) as (d & ds & E & _). rewrite E. discriminate. Qed.

(** one printed measure: number, then a unit that starts with a letter *)
Lemma measure_step : forall n u0 u k acc ms', n < W64 -> is_digit u0 = false ->
  unit_of (u0 :: u) = Some k -> n * k < W64 -> acc + n * k < W64 ->
  dur_fold acc ((print_dec n ++ u0 :: u) :: ms') = dur_fold (acc + n * k) ms'.
Proof.
  intros n u0 u k acc ms' Hn Hu Hk H1 H2. cbn [dur_fold]. unfold print_dec at 1.
  rewrite span_digits_app by (auto; apply dec_digits_digits).
  fold (print_dec n). rewrite parse_u64_print_dec by exact Hn. rewrite Hk.
  assert (n * k <? W64 = true) as -> by (apply N.ltb_lt; exact H1).
  assert (acc + n * k <? W64 = true) as -> by (apply N.ltb_lt; exact H2).
  reflexivity.
Qed.

Lemma mod_split : forall m k c, k <> 0 -> c <> 0 ->
  (m mod (k * c)) / k * k + m mod k = m mod (k * c).
Proof.
  intros m k c Hk Hc. rewrite (N.mod_mul_r m k c Hk Hc).
  set (x := (m / k) mod c). pose proof (N.mod_lt m k Hk) as L.
  replace (m mod k + k * x) with (m mod k + x * k) by lia.
  rewrite N.div_add by exact Hk. rewrite (N.div_small (m mod k) k L). lia.
Qed.

Theorem duration_parse_print_all : forall m, m < W64 -> parse_duration (print_duration m) = Ok m.
Proof.
  intros m Hm. unfold parse_duration, print_duration, split_ws.
  set (a := m / MS_D). set (b := (m mod MS_D) / MS_H). set (c := (m mod MS_H) / MS_M).
  set (d := (m mod MS_M) / MS_S). set (e := m mod MS_S).
  assert (Sum : a * MS_D + b * MS_H + c * MS_M + d * MS_S + e = m).
  { unfold a, b, c, d, e, MS_D, MS_H, MS_M, MS_S.
    pose proof (N.div_mod m 86400000 ltac:(lia)) as E0.
    pose proof (mod_split m 3600000 24 ltac:(lia) ltac:(lia)) as E1. change (3600000 * 24) with 86400000 in E1.
    pose proof (mod_split m 60000 60 ltac:(lia) ltac:(lia)) as E2. change (60000 * 60) with 3600000 in E2.
    pose proof (mod_split m 1000 60 ltac:(lia) ltac:(lia)) as E3. change (1000 * 60) with 60000 in E3.
    lia. }
  assert (nw : forall n u, no_ws u -> no_ws (print_dec n ++ u)) by (intros; apply no_ws_app; [apply no_ws_print_dec | assumption]).
  assert (ne : forall n (u : list N), print_dec n ++ u <> []).
  { intros n u X. apply app_eq_nil in X. destruct X as [X _]. exact (print_dec_nonempty n X). }
  (* regroup into words separated by single spaces *)
  replace (print_dec a ++ [100; 32] ++ print_dec b ++ [104; 32] ++ print_dec c ++ [109; 32]
           ++ print_dec d ++ [115; 32] ++ print_dec e ++ [109; 115])
    with ((print_dec a ++ [100]) ++ 32 :: (print_dec b ++ [104]) ++ 32 :: (print_dec c ++ [109]) ++ 32 ::
          (print_dec d ++ [115]) ++ 32 :: (print_dec e ++ [109; 115]))
    by (repeat (rewrite <- app_assoc; cbn [app]); reflexivity).
  assert (W1 : forall ch, is_ws ch = false -> no_ws [ch]) by (intros; repeat constructor; assumption).
  rewrite split_ws_word_space by (auto; apply nw, W1; reflexivity).
  rewrite split_ws_word_space by (auto; apply nw, W1; reflexivity).
  rewrite split_ws_word_space by (auto; apply nw, W1; reflexivity).
  rewrite split_ws_word_space by (auto; apply nw, W1; reflexivity).
  rewrite split_ws_word_end by (auto; apply nw; repeat constructor).
  assert (Ha : a * MS_D <= m) by lia.
  unfold MS_D, MS_H, MS_M, MS_S in *.
  rewrite (measure_step a 100 [] 86400000) by (try reflexivity; lia).
  rewrite (measure_step b 104 [] 3600000) by (try reflexivity; lia).
  rewrite (measure_step c 109 [] 60000) by (try reflexivity; lia).
  rewrite (measure_step d 115 [] 1000) by (try reflexivity; lia).
  rewrite (measure_step e 109 [115] 1) by (try reflexivity; lia).
  cbn [dur_fold]. f_equal. lia.
Qed.

Lemma split_comma_app : forall a b, ~ In 44 a -> split_comma (a ++ 44 :: b) = Some (a, b).
Proof.
  induction a as [|c a IH]; intros b H.
  - cbn. change (44 =? 44) with true. reflexivity.
  - cbn [app split_comma]. destruct (c =? 44) eqn:E.
    + apply N.eqb_eq in E. subst. exfalso. apply H. left. reflexivity.
    + rewrite IH by (intros X; apply H; right; exact X). reflexivity.
Qed.
Lemma print_dec_no_comma : forall n, ~ In 44 (print_dec n).
Proof.
  intros n H. unfold print_dec in H. apply in_map_iff in H. destruct H as (d & E & Hin).
  pose proof (dec_digits_digits n) as AD. unfold all_digits in AD. rewrite Forall_forall in AD.
  specialize (AD _ Hin). unfold digit_char in E. lia.
Qed.

Theorem contract_address_parse_print_all : forall i j, i < W64 -> j < W64 ->
  parse_contract_address (print_contract_address (i, j)) = Ok (i, j).
Proof.
  intros i j Hi Hj. unfold print_contract_address. cbn [fst snd app].
  unfold parse_contract_address. change (60 =? 60) with true. cbv iota. cbn [negb].
  replace (60 :: print_dec i ++ 44 :: print_dec j ++ [62])
    with ((60 :: print_dec i ++ 44 :: print_dec j) ++ [62]) by (cbn [app]; rewrite <- app_assoc; reflexivity).
  rewrite last_last. change (62 =? 62) with true. cbn [negb].
  replace (print_dec i ++ 44 :: print_dec j ++ [62]) with ((print_dec i ++ 44 :: print_dec j) ++ [62])
    by (rewrite <- app_assoc; reflexivity).
  rewrite removelast_last.
  rewrite split_comma_app by apply print_dec_no_comma.
  rewrite !parse_u64_print_dec by assumption. reflexivity.
Qed.
