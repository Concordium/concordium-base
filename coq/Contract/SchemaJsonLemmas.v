(** * SchemaJsonLemmas — facts about the helpers of [SchemaJson.v] (integers, lengths, loops, fuel), and the arms of
    the conversions that several schema types share, as definitions of their own. *)
From Coq Require Import NArith ZArith Bool List Lia.
From CB Require Import Contract.ArithOpaque Contract.SchemaJson.
Import ListNotations.
Local Open Scope N_scope.
Arguments Z.pow : simpl never.
Arguments Z.mul : simpl never.
Arguments Z.add : simpl never.
Arguments Z.sub : simpl never.
Arguments Z.modulo : simpl never.

Lemma str_eqb_eq : forall a b, str_eqb a b = true -> a = b.
Proof.
  induction a as [|x a IH]; destruct b as [|y b]; simpl; intros H; try discriminate; auto.
  apply andb_true_iff in H. destruct H as [H1 H2]. apply N.eqb_eq in H1. subst. f_equal. auto.
Qed.

Lemma str_eqb_refl : forall a, str_eqb a a = true.
Proof. induction a as [|x a IH]; simpl; auto. rewrite N.eqb_refl. exact IH. Qed.

(** [Pair], and the entries of [Map] *)
Definition from_pair (fa fb : json -> option (list N)) (e : json) : option (list N) :=
  match e with
  | JArr [x; y] => match fa x, fb y with Some p, Some q => Some (p ++ q) | _, _ => None end
  | _ => None
  end.
Definition norm_pair (na nb : json -> json) (e : json) : json :=
  match e with JArr [x; y] => JArr [na x; nb y] | _ => e end.
(** [List], [Set], and [Map] over its entries *)
Definition from_seq (s : size_len) (f : json -> option (list N)) (j : json) : option (list N) :=
  match j with
  | JArr vs => match enc_len s (length vs), from_list f vs with Some l, Some p => Some (l ++ p) | _, _ => None end
  | _ => None
  end.
Definition to_seq (s : size_len) (item : list N -> option (json * list N)) (bs : list N) : option (json * list N) :=
  match dec_len s bs with
  | Some (n, r) => match dec_items item n r with Some (vs, r') => Some (JArr vs, r') | None => None end
  | None => None
  end.
Definition norm_arr (g : json -> json) (j : json) : json :=
  match j with JArr vs => JArr (map g vs) | _ => j end.
(** [U128] and [Amount]: a decimal string for [k] little-endian bytes *)
Definition from_dec_u (k : nat) (bound : N) (j : json) : option (list N) :=
  match j with
  | JStr s => match parse_unsigned bound s with Some n => Some (le k n) | None => None end
  | _ => None
  end.
Definition to_dec_u (k : nat) (bs : list N) : option (json * list N) :=
  match le_dec k bs with Some (n, r) => Some (JStr (show_N n), r) | None => None end.
(** [Timestamp] and [Duration]: an opaque text form of a u64 *)
Definition from_ms (parse : str -> option N) (j : json) : option (list N) :=
  match j with
  | JStr s => match parse s with Some m => if m <? 2 ^ 64 then Some (le 8 m) else None | None => None end
  | _ => None
  end.
Definition to_ms (show : N -> str) (bs : list N) : option (json * list N) :=
  match le_dec 8 bs with Some (m, r) => Some (JStr (show m), r) | None => None end.
Definition norm_ms (parse : str -> option N) (show : N -> str) (j : json) : json :=
  match j with JStr s => match parse s with Some m => JStr (show m) | None => j end | _ => j end.

(** The arms of [Pair], [List], [Set], [Map], [Timestamp] and [Duration] are these. *)
Lemma from_json_pair L a b : from_json L (TPair a b) = from_pair (from_json L a) (from_json L b).
Proof. reflexivity. Qed.
Lemma to_json_pair L a b : to_json L (TPair a b) = pair_item (to_json L a) (to_json L b).
Proof. reflexivity. Qed.
Lemma normalize_pair L a b : normalize L (TPair a b) = norm_pair (normalize L a) (normalize L b).
Proof. reflexivity. Qed.
Lemma from_json_list L s e : from_json L (TList s e) = from_seq s (from_json L e).
Proof. reflexivity. Qed.
Lemma to_json_list L s e : to_json L (TList s e) = to_seq s (to_json L e).
Proof. reflexivity. Qed.
Lemma normalize_list L s e : normalize L (TList s e) = norm_arr (normalize L e).
Proof. reflexivity. Qed.
Lemma from_json_set L s e : from_json L (TSet s e) = from_seq s (from_json L e).
Proof. reflexivity. Qed.
Lemma to_json_set L s e : to_json L (TSet s e) = to_seq s (to_json L e).
Proof. reflexivity. Qed.
Lemma normalize_set L s e : normalize L (TSet s e) = norm_arr (normalize L e).
Proof. reflexivity. Qed.
Lemma from_json_map L s k v :
  from_json L (TMap s k v) = from_seq s (from_pair (from_json L k) (from_json L v)).
Proof. reflexivity. Qed.
Lemma to_json_map L s k v : to_json L (TMap s k v) = to_seq s (pair_item (to_json L k) (to_json L v)).
Proof. reflexivity. Qed.
Lemma normalize_map L s k v :
  normalize L (TMap s k v) = norm_arr (norm_pair (normalize L k) (normalize L v)).
Proof. reflexivity. Qed.

Lemma from_json_timestamp L : from_json L TTimestamp = from_ms (ts_parse L).
Proof. reflexivity. Qed.
Lemma to_json_timestamp L : to_json L TTimestamp = to_ms (ts_show L).
Proof. reflexivity. Qed.
Lemma normalize_timestamp L : normalize L TTimestamp = norm_ms (ts_parse L) (ts_show L).
Proof. reflexivity. Qed.
Lemma from_json_duration L : from_json L TDuration = from_ms (dur_parse L).
Proof. reflexivity. Qed.
Lemma to_json_duration L : to_json L TDuration = to_ms (dur_show L).
Proof. reflexivity. Qed.
Lemma normalize_duration L : normalize L TDuration = norm_ms (dur_parse L) (dur_show L).
Proof. reflexivity. Qed.

(** the [subindex] of a contract address: absent or out of range means 0 *)
Definition ca_sub (fs : list (str * json)) : Z :=
  match obj_get s_subindex fs with Some (JNum z) => if is_u64 z then z else 0%Z | _ => 0%Z end.

Lemma is_u64_to_N : forall z, is_u64 z = true -> Z.to_N z < 2 ^ 64 /\ Z.of_N (Z.to_N z) = z.
Proof.
  unfold is_u64. intros z H. apply andb_true_iff in H. destruct H as [H1 H2].
  apply Z.leb_le in H1. apply Z.ltb_lt in H2. split; [|apply Z2N.id; exact H1].
  apply N2Z.inj_lt. rewrite Z2N.id by exact H1. exact H2.
Qed.

Lemma ca_sub_u64 : forall fs, is_u64 (ca_sub fs) = true.
Proof.
  intros fs. unfold ca_sub. destruct (obj_get s_subindex fs) as [[| | z | | | |]|]; try reflexivity.
  destruct (is_u64 z) eqn:Ez; auto.
Qed.

Lemma json_wf_pair : forall x y, json_wf (JArr [x; y]) = true -> json_wf x = true /\ json_wf y = true.
Proof.
  intros x y H. cbn [json_wf forallb] in H. rewrite andb_true_r in H.
  apply andb_true_iff in H. destruct H as [_ H]. apply andb_true_iff in H. exact H.
Qed.

Lemma json_wf_arr : forall vs v, json_wf (JArr vs) = true -> In v vs -> json_wf v = true.
Proof.
  intros vs v H Hin. cbn [json_wf] in H. apply andb_true_iff in H. destruct H as [_ H].
  eapply forallb_forall; eauto.
Qed.

Lemma le_length : forall k n, length (le k n) = k.
Proof. induction k; simpl; intros; auto. Qed.

Lemma pow256_S : forall k : nat, 2 ^ (8 * N.of_nat (S k)) = 256 * 2 ^ (8 * N.of_nat k).
Proof.
  intros. replace (8 * N.of_nat (S k)) with (8 + 8 * N.of_nat k) by lia.
  rewrite N.pow_add_r. reflexivity.
Qed.

Lemma le_dec_le : forall k n rest, n < 2 ^ (8 * N.of_nat k) ->
  le_dec k (le k n ++ rest) = Some (n, rest).
Proof.
  induction k as [|k IH]; intros n rest H.
  - simpl in *. change (2 ^ (8 * N.of_nat 0)) with 1 in H. assert (n = 0) by lia. subst. reflexivity.
  - cbn [le le_dec app]. rewrite pow256_S in H.
    rewrite IH.
    + f_equal. f_equal. pose proof (N.div_mod n 256). lia.
    + apply N.div_lt_upper_bound; lia.
Qed.

Lemma le_dec_1 : forall b r, le_dec 1 (b :: r) = Some (b, r).
Proof. intros. cbn [le_dec]. f_equal. f_equal. lia. Qed.

Lemma le_dec_some : forall k bs n rest, le_dec k bs = Some (n, rest) ->
  exists pre, bs = pre ++ rest /\ length pre = k.
Proof.
  induction k as [|k IH]; intros bs n rest H; cbn [le_dec] in H.
  - inversion H; subst. exists []. auto.
  - destruct bs as [|b r]; try discriminate.
    destruct (le_dec k r) as [[m rest']|] eqn:E; try discriminate. inversion H; subst.
    destruct (IH _ _ _ E) as [pre [H1 H2]]. subst. exists (b :: pre). simpl. auto.
Qed.

Lemma Zpow256_S : forall k : nat, (2 ^ (8 * Z.of_nat (S k)) = 256 * 2 ^ (8 * Z.of_nat k))%Z.
Proof.
  intros. replace (8 * Z.of_nat (S k))%Z with (8 + 8 * Z.of_nat k)%Z by lia.
  rewrite Z.pow_add_r by lia. reflexivity.
Qed.

Lemma Z_N_pow256 : forall k : nat, Z.of_N (2 ^ (8 * N.of_nat k)) = (2 ^ (8 * Z.of_nat k))%Z.
Proof.
  intros. rewrite N2Z.inj_pow. f_equal. lia.
Qed.

Lemma pow2_half : forall k : nat, (0 < k)%nat -> (2 ^ (8 * Z.of_nat k) = 2 * 2 ^ (8 * Z.of_nat k - 1))%Z.
Proof.
  intros k Hk. replace (8 * Z.of_nat k)%Z with (1 + (8 * Z.of_nat k - 1))%Z at 1 by lia.
  rewrite Z.pow_add_r by lia. reflexivity.
Qed.

Lemma le_signed_roundtrip : forall (k : nat) z rest, (0 < k)%nat ->
  (- 2 ^ (8 * Z.of_nat k - 1) <= z < 2 ^ (8 * Z.of_nat k - 1))%Z ->
  le_signed_dec k (le_signed k z ++ rest) = Some (z, rest).
Proof.
  intros k z rest Hk Hz. unfold le_signed_dec, le_signed.
  destruct (twos_wrap _ _ z (pow2_half k Hk) Hz) as [Hmod [Hlo Hhi]].
  rewrite le_dec_le by (apply N2Z.inj_lt; rewrite Z2N.id, Z_N_pow256; lia).
  rewrite Z2N.id by lia. f_equal. f_equal.
  destruct (Z.ltb_spec (z mod 2 ^ (8 * Z.of_nat k)) (2 ^ (8 * Z.of_nat k - 1))); auto.
Qed.

Lemma enc_len_some_iff : forall s n l,
  enc_len s n = Some l <-> N.of_nat n < 2 ^ (8 * N.of_nat (sl_bytes s)) /\ l = le (sl_bytes s) (N.of_nat n).
Proof.
  intros s n l. unfold enc_len. cbv zeta.
  destruct (N.ltb_spec (N.of_nat n) (2 ^ (8 * N.of_nat (sl_bytes s)))); split.
  - intro E. inversion E. split; [assumption | reflexivity].
  - intros [_ E]. subst. reflexivity.
  - discriminate.
  - intros [E _]. lia.
Qed.

Lemma enc_len_none_iff : forall s n, enc_len s n = None <-> 2 ^ (8 * N.of_nat (sl_bytes s)) <= N.of_nat n.
Proof.
  intros s n. unfold enc_len. cbv zeta.
  destruct (N.ltb_spec (N.of_nat n) (2 ^ (8 * N.of_nat (sl_bytes s)))); split; intro; try discriminate; try reflexivity; lia.
Qed.

Lemma enc_len_dec_len : forall s n l rest, enc_len s n = Some l ->
  dec_len s (l ++ rest) = Some (N.of_nat n, rest).
Proof.
  intros s n l rest H. apply enc_len_some_iff in H. destruct H as [Hlt ->]. apply le_dec_le. exact Hlt.
Qed.

Lemma take_n_app : forall a rest, take_n (a ++ rest) (N.of_nat (length a)) = Some (a, rest).
Proof.
  induction a as [|x a IH]; intros rest.
  - simpl. destruct rest; reflexivity.
  - cbn [length app take_n].
    destruct (N.eqb_spec (N.of_nat (S (length a))) 0); [lia|].
    replace (N.pred (N.of_nat (S (length a)))) with (N.of_nat (length a)) by lia.
    rewrite IH. reflexivity.
Qed.

Lemma take_n_some : forall bs n a rest, take_n bs n = Some (a, rest) -> bs = a ++ rest /\ N.of_nat (length a) = n.
Proof.
  induction bs as [|b r IH]; intros n a rest H.
  - cbn [take_n] in H. destruct (N.eqb_spec n 0); try discriminate. inversion H; subst. auto.
  - cbn [take_n] in H. destruct (N.eqb_spec n 0).
    + inversion H; subst. auto.
    + destruct (take_n r (N.pred n)) as [[a' rest']|] eqn:E; try discriminate.
      inversion H; subst. destruct (IH _ _ _ E) as [H1 H2]. subst. split; [reflexivity|].
      cbn [length]. lia.
Qed.

Fixpoint iter_nat_opt {A : Type} (n : nat) (f : A -> option A) (a : A) : option A :=
  match n with
  | O => Some a
  | S n' => match f a with Some a' => iter_nat_opt n' f a' | None => None end
  end.

Lemma iter_nat_opt_add : forall {A} (n m : nat) (f : A -> option A) a,
  iter_nat_opt (n + m) f a = match iter_nat_opt n f a with Some a' => iter_nat_opt m f a' | None => None end.
Proof.
  induction n as [|n IH]; intros; simpl; auto.
  destruct (f a); auto.
Qed.

Lemma iter_pos_opt_nat : forall {A} (p : positive) (f : A -> option A) a,
  iter_pos_opt p f a = iter_nat_opt (Pos.to_nat p) f a.
Proof.
  induction p as [p IH|p IH|]; intros f a; cbn [iter_pos_opt].
  - rewrite Pos2Nat.inj_xI. cbn [iter_nat_opt Nat.mul]. destruct (f a) as [a1|]; auto.
    replace (Pos.to_nat p + (Pos.to_nat p + 0))%nat with (Pos.to_nat p + Pos.to_nat p)%nat by lia.
    rewrite iter_nat_opt_add. rewrite <- IH. destruct (iter_pos_opt p f a1); auto.
  - rewrite Pos2Nat.inj_xO. cbn [Nat.mul].
    replace (Pos.to_nat p + (Pos.to_nat p + 0))%nat with (Pos.to_nat p + Pos.to_nat p)%nat by lia.
    rewrite iter_nat_opt_add. rewrite <- IH. destruct (iter_pos_opt p f a); auto.
  - simpl. destruct (f a); auto.
Qed.

Lemma iter_N_opt_nat : forall {A} (n : N) (f : A -> option A) a,
  iter_N_opt n f a = iter_nat_opt (N.to_nat n) f a.
Proof.
  intros A [|p] f a; simpl; auto. apply iter_pos_opt_nat.
Qed.

(** sequential decoding of [n] items, written by plain recursion *)
Fixpoint dec_seq {A : Type} (item : list N -> option (A * list N)) (n : nat) (bs : list N) : option (list A * list N) :=
  match n with
  | O => Some ([], bs)
  | S n' => match item bs with
            | Some (v, bs') => match dec_seq item n' bs' with
                               | Some (vs, r) => Some (v :: vs, r)
                               | None => None
                               end
            | None => None
            end
  end.

Lemma iter_step_item : forall {A} (item : list N -> option (A * list N)) n acc bs,
  iter_nat_opt n (step_item item) (acc, bs) =
  match dec_seq item n bs with Some (vs, r) => Some (rev vs ++ acc, r) | None => None end.
Proof.
  induction n as [|n IH]; intros acc bs; cbn [iter_nat_opt dec_seq].
  - reflexivity.
  - unfold step_item at 1. destruct (item bs) as [[v bs']|]; auto.
    rewrite IH. destruct (dec_seq item n bs') as [[vs r]|]; auto.
    cbn [rev]. rewrite <- app_assoc. reflexivity.
Qed.

Lemma dec_items_seq : forall {A} (item : list N -> option (A * list N)) n bs,
  dec_items item n bs = dec_seq item (N.to_nat n) bs.
Proof.
  intros. unfold dec_items. rewrite iter_N_opt_nat, iter_step_item.
  destruct (dec_seq item (N.to_nat n) bs) as [[vs r]|]; auto.
  rewrite rev_append_rev, !app_nil_r, rev_involutive. reflexivity.
Qed.

(** the list loop of [from_json] followed by the count loop of [to_json] *)
Lemma dec_seq_from_list : forall (f : json -> option (list N)) (g : json -> json)
  (item : list N -> option (json * list N)) vs p rest,
  (forall v b r, In v vs -> f v = Some b -> item (b ++ r) = Some (g v, r)) ->
  from_list f vs = Some p ->
  dec_seq item (length vs) (p ++ rest) = Some (map g vs, rest).
Proof.
  induction vs as [|v vs IH]; intros p rest Hitem H; cbn [from_list] in H.
  - inversion H; subst. reflexivity.
  - destruct (f v) as [a|] eqn:Ea; try discriminate.
    destruct (from_list f vs) as [b|] eqn:Eb; try discriminate.
    inversion H; subst. cbn [length dec_seq map].
    rewrite <- app_assoc. rewrite (Hitem v a); [|left; reflexivity|assumption].
    rewrite IH; auto. intros. apply Hitem; auto. right; assumption.
Qed.

Lemma dec_items_from_list : forall (f : json -> option (list N)) (g : json -> json)
  (item : list N -> option (json * list N)) vs p rest,
  (forall v b r, In v vs -> f v = Some b -> item (b ++ r) = Some (g v, r)) ->
  from_list f vs = Some p ->
  dec_items item (N.of_nat (length vs)) (p ++ rest) = Some (map g vs, rest).
Proof.
  intros. rewrite dec_items_seq, Nat2N.id. eapply dec_seq_from_list; eauto.
Qed.

Lemma size_nat_bound : forall n, n < 2 ^ N.of_nat (N.size_nat n).
Proof.
  intros [|p]; [reflexivity|]. induction p as [p IH|p IH|]; cbn [N.size_nat Pos.size_nat] in *; [| |reflexivity];
    replace (N.of_nat (S (Pos.size_nat p))) with (1 + N.of_nat (Pos.size_nat p)) by lia;
    rewrite N.pow_add_r; change (2 ^ 1) with 2; lia.
Qed.

Lemma fuel_ok_N : forall n, n < 2 ^ N.of_nat (S (N.size_nat n)).
Proof.
  intros n. pose proof (size_nat_bound n).
  replace (N.of_nat (S (N.size_nat n))) with (1 + N.of_nat (N.size_nat n)) by lia.
  rewrite N.pow_add_r. change (2 ^ 1) with 2. lia.
Qed.

Lemma fuel_ok_Z : forall z, (- 2 ^ Z.of_nat (S (N.size_nat (Z.abs_N z))) <= z < 2 ^ Z.of_nat (S (N.size_nat (Z.abs_N z))))%Z.
Proof.
  intros z. pose proof (fuel_ok_N (Z.abs_N z)) as H.
  apply N2Z.inj_lt in H. rewrite N2Z.inj_pow, N2Z.inj_abs_N, nat_N_Z in H. change (Z.of_N 2) with 2%Z in H. lia.
Qed.

Lemma hex_decode_length : forall s b, hex_decode s = Some b -> (2 * length b = length s)%nat.
Proof.
  fix IH 1. intros s b H. destruct s as [|x [|y r]]; simpl in H.
  - inversion H; reflexivity.
  - discriminate.
  - destruct (hex_val x); try discriminate. destruct (hex_val y); try discriminate.
    destruct (hex_decode r) as [bs|] eqn:E; try discriminate. inversion H; subst.
    apply IH in E. simpl. lia.
Qed.

Lemma name_chars_utf8 : forall s, forallb name_char s = true -> utf8_valid s = true.
Proof.
  induction s as [|b s IH]; intros H; [reflexivity|].
  cbn [forallb] in H. apply andb_true_iff in H. destruct H as [H1 H2].
  unfold name_char in H1. apply andb_true_iff in H1. destruct H1 as [_ H1]. apply N.leb_le in H1.
  cbn [utf8_valid]. destruct (N.ltb_spec b 128); [auto|lia].
Qed.

Lemma split_dot_app : forall c f, has_dot c = false -> split_dot (c ++ 46 :: f) = (c, f).
Proof.
  induction c as [|b c IH]; intros f H.
  - reflexivity.
  - unfold has_dot in H. cbn [existsb] in H. apply orb_false_iff in H. destruct H as [H1 H2].
    cbn [app split_dot]. rewrite H1. rewrite IH; auto.
Qed.
