(** * CcSchemaCodecProofs — schemas round-trip through their binary form (decode (encode x) = x). *)
From Coq Require Import NArith Bool List Lia.
From CB Require Import Contract.SchemaJson Contract.SchemaJsonLemmas Contract.SchemaJsonProofs
  Contract.CcSchemaCodec.
Import ListNotations.
Local Open Scope N_scope.

(** What a schema value in memory satisfies: names are valid UTF-8; counts, array sizes and LEB128
    constraints are u32, tags are u8; the TaggedEnum map is in strictly increasing tag order. *)
Definition name_ok (s : str) : bool := utf8_valid s && (N.of_nat (length s) <? 2 ^ 32).
Definition u32_ok (n : N) : bool := n <? 2 ^ 32.
Definition len_ok (n : nat) : bool := N.of_nat n <? 2 ^ 32.
Fixpoint sorted_N (l : list N) : bool :=
  match l with
  | x :: ((y :: _) as r) => (x <? y) && sorted_N r
  | _ => true
  end.

Fixpoint cwf_ty (t : ty) : bool :=
  match t with
  | TPair a b => cwf_ty a && cwf_ty b
  | TList _ e | TSet _ e => cwf_ty e
  | TMap _ k v => cwf_ty k && cwf_ty v
  | TArray n e => u32_ok n && cwf_ty e
  | TStruct f => cwf_fields f
  | TEnum vs => len_ok (variants_len vs) && cwf_variants vs
  | TULeb128 c | TILeb128 c | TByteArray c => u32_ok c
  | TTaggedEnum vs => len_ok (tvariants_len vs) && sorted_N (tv_tags vs) && cwf_tvariants vs
  | _ => true
  end
with cwf_fields (f : fields) : bool :=
  match f with
  | FNamed l => len_ok (nfields_len l) && cwf_nfields l
  | FUnnamed l => len_ok (tys_len l) && cwf_tys l
  | FNone => true
  end
with cwf_nfields (l : nfields) : bool :=
  match l with NFnil => true | NFcons n t r => name_ok n && cwf_ty t && cwf_nfields r end
with cwf_tys (l : tys) : bool :=
  match l with TSnil => true | TScons t r => cwf_ty t && cwf_tys r end
with cwf_variants (l : variants) : bool :=
  match l with Vnil => true | Vcons n f r => name_ok n && cwf_fields f && cwf_variants r end
with cwf_tvariants (l : tvariants) : bool :=
  match l with TVnil => true | TVcons tag n f r => (tag <? 256) && name_ok n && cwf_fields f && cwf_tvariants r end.

Fixpoint variants_to_list (l : variants) : list (str * fields) :=
  match l with Vnil => [] | Vcons n f r => (n, f) :: variants_to_list r end.
Fixpoint tvariants_to_list (l : tvariants) : list (N * (str * fields)) :=
  match l with TVnil => [] | TVcons t n f r => (t, (n, f)) :: tvariants_to_list r end.

Lemma nfields_of_to : forall l, nfields_of_list (nfields_to_list l) = l.
Proof. induction l; simpl; congruence. Qed.
Lemma tys_of_to : forall l, tys_of_list (tys_to_list l) = l.
Proof. induction l; simpl; congruence. Qed.
Lemma variants_of_to : forall l, variants_of_list (variants_to_list l) = l.
Proof. induction l; simpl; congruence. Qed.
Lemma tvariants_of_to : forall l, tvariants_of_list (tvariants_to_list l) = l.
Proof. induction l; simpl; congruence. Qed.

Lemma u32_dec : forall n rest, len_ok n = true -> le_dec 4 (u32 n ++ rest) = Some (N.of_nat n, rest).
Proof.
  unfold len_ok, u32. intros n rest H. apply N.ltb_lt in H.
  rewrite N.mod_small by assumption. apply le_dec_le. exact H.
Qed.

Lemma enc_dec_str : forall s rest, name_ok s = true -> dec_str (enc_str s ++ rest) = Some (s, rest).
Proof.
  unfold name_ok, dec_str, enc_str, dec_string, dec_len. intros s rest H.
  apply andb_true_iff in H. destruct H as [Hu Hl].
  cbn [sl_bytes]. rewrite <- app_assoc. rewrite u32_dec by exact Hl.
  rewrite take_n_app, Hu. reflexivity.
Qed.

Lemma dec_vec_seq : forall {A} (item : list N -> option (A * list N)) n bs rest,
  len_ok n = true ->
  dec_vec item (u32 n ++ bs ++ rest) = dec_seq item n (bs ++ rest).
Proof.
  intros. unfold dec_vec. rewrite u32_dec by assumption. rewrite dec_items_seq, Nat2N.id. reflexivity.
Qed.

Lemma enc_dec_sl : forall s rest, dec_sl (enc_sl s ++ rest) = Some (s, rest).
Proof. destruct s; reflexivity. Qed.

(** [srt] is [sorted_N] or [sorted_str]; only its unfolding equation is used *)
Lemma map_build_sorted : forall {K V} (ltb : K -> K -> bool) (srt : list K -> bool),
  (forall x y r, srt (x :: y :: r) = ltb x y && srt (y :: r)) ->
  forall l : list (K * V), srt (map fst l) = true -> map_build ltb l = Some l.
Proof.
  intros K V ltb srt Hs. induction l as [|[k v] l IH]; intros H; [reflexivity|].
  cbn [map_build]. destruct l as [|[k' v'] l']; [reflexivity|].
  cbn [map fst] in H, IH. rewrite Hs in H. apply andb_true_iff in H. destruct H as [H1 H2].
  rewrite IH by exact H2. cbn [map_insert]. rewrite H1. reflexivity.
Qed.

Lemma tv_tags_map : forall vs, map fst (tvariants_to_list vs) = tv_tags vs.
Proof. induction vs; simpl; congruence. Qed.

Definition Q_ty (t : ty) : Prop := cwf_ty t = true ->
  forall fuel, (length (enc_ty t) < fuel)%nat -> forall rest, dec_ty fuel (enc_ty t ++ rest) = Some (t, rest).
Definition Q_fields (f : fields) : Prop := cwf_fields f = true ->
  forall fuel, (length (enc_fields f) < fuel)%nat -> forall rest, dec_fields fuel (enc_fields f ++ rest) = Some (f, rest).
Definition Q_nfields (l : nfields) : Prop := cwf_nfields l = true ->
  forall fuel rest, (length (enc_nfields l) < fuel)%nat ->
  dec_seq (dec_pair dec_str (dec_ty fuel)) (nfields_len l) (enc_nfields l ++ rest) = Some (nfields_to_list l, rest).
Definition Q_tys (l : tys) : Prop := cwf_tys l = true ->
  forall fuel rest, (length (enc_tys l) < fuel)%nat ->
  dec_seq (dec_ty fuel) (tys_len l) (enc_tys l ++ rest) = Some (tys_to_list l, rest).
Definition Q_variants (l : variants) : Prop := cwf_variants l = true ->
  forall fuel rest, (length (enc_variants l) < fuel)%nat ->
  dec_seq (dec_pair dec_str (dec_fields fuel)) (variants_len l) (enc_variants l ++ rest) = Some (variants_to_list l, rest).
Definition Q_tvariants (l : tvariants) : Prop := cwf_tvariants l = true ->
  forall fuel rest, (length (enc_tvariants l) < fuel)%nat ->
  dec_seq (dec_pair (le_dec 1) (dec_pair dec_str (dec_fields fuel))) (tvariants_len l) (enc_tvariants l ++ rest)
  = Some (tvariants_to_list l, rest).

Ltac unf_enc :=
  cbn [enc_ty enc_fields enc_nfields enc_tys enc_variants enc_tvariants];
  fold enc_ty enc_fields enc_nfields enc_tys enc_variants enc_tvariants.
Ltac unf_enc_in H :=
  cbn [enc_ty enc_fields enc_nfields enc_tys enc_variants enc_tvariants] in H;
  fold enc_ty enc_fields enc_nfields enc_tys enc_variants enc_tvariants in H.
Ltac unf_cwf H :=
  cbn [cwf_ty cwf_fields cwf_nfields cwf_tys cwf_variants cwf_tvariants] in H;
  fold cwf_ty cwf_fields cwf_nfields cwf_tys cwf_variants cwf_tvariants in H.
Ltac unf_dec :=
  cbn [dec_ty dec_fields app]; fold dec_ty dec_fields.

(** The decoders spend one unit of fuel on the tag byte. *)
Lemma fuel_tag : forall (P : nat -> Prop) n,
  (forall f, (n < f)%nat -> P (S f)) -> forall fuel, (S n < fuel)%nat -> P fuel.
Proof. intros P n H [|f] Hf; [lia|]. apply H. lia. Qed.

(** a nullary type constructor: one tag byte *)
Ltac leaf := intros _; refine (fuel_tag _ _ _); intros f _ rest; reflexivity.
(** a constructor with a size-length argument *)
Ltac leaf_sl := intros s _; refine (fuel_tag _ _ _); intros f _ rest; destruct s; reflexivity.
(** a constructor with a u32 argument *)
Ltac leaf_u32 :=
  intros c Hw; unf_cwf Hw; refine (fuel_tag _ _ _); intros f _ rest;
  unf_enc; unf_dec; rewrite le_dec_le by (apply N.ltb_lt; exact Hw); reflexivity.

Lemma app_length3 : forall {A} (a b c : list A), length (a ++ b ++ c) = (length a + length b + length c)%nat.
Proof. intros. rewrite !app_length. lia. Qed.

Lemma codec_all :
  (forall t, Q_ty t) /\ (forall f, Q_fields f) /\ (forall l, Q_nfields l) /\ (forall l, Q_tys l)
  /\ (forall l, Q_variants l) /\ (forall l, Q_tvariants l).
Proof.
  apply ty_mutind; unfold Q_ty, Q_fields, Q_nfields, Q_tys, Q_variants, Q_tvariants.
  - leaf. - leaf. - leaf. - leaf. - leaf. - leaf. - leaf. - leaf. - leaf. - leaf. - leaf. - leaf.
  - leaf. - leaf. - leaf. - leaf. - leaf.
  - (* Pair *) intros a IHa b IHb Hw. unf_cwf Hw. split_and Hw.
    unf_enc. cbn [length]. refine (fuel_tag _ _ _). intros f Hf rest. rewrite app_length in Hf. unf_dec. unfold dec_pair.
    rewrite <- app_assoc. rewrite IHa by (auto; lia). rewrite IHb by (auto; lia). reflexivity.
  - (* List *) intros s e IHe Hw. unf_cwf Hw.
    unf_enc. cbn [length]. refine (fuel_tag _ _ _). intros f Hf rest. rewrite app_length in Hf. unf_dec. unfold dec_pair.
    rewrite <- app_assoc. rewrite enc_dec_sl. rewrite IHe by (auto; lia). reflexivity.
  - (* Set *) intros s e IHe Hw. unf_cwf Hw.
    unf_enc. cbn [length]. refine (fuel_tag _ _ _). intros f Hf rest. rewrite app_length in Hf. unf_dec. unfold dec_pair.
    rewrite <- app_assoc. rewrite enc_dec_sl. rewrite IHe by (auto; lia). reflexivity.
  - (* Map *) intros s k IHk v IHv Hw. unf_cwf Hw. split_and Hw.
    unf_enc. cbn [length]. refine (fuel_tag _ _ _). intros f Hf rest. rewrite app_length3 in Hf. unf_dec. unfold dec_pair.
    rewrite <- !app_assoc. rewrite enc_dec_sl. rewrite IHk by (auto; lia). rewrite IHv by (auto; lia). reflexivity.
  - (* Array *) intros n e IHe Hw. unf_cwf Hw. split_and Hw.
    unf_enc. cbn [length]. refine (fuel_tag _ _ _). intros f Hf rest. rewrite app_length in Hf. unf_dec. unfold dec_pair.
    rewrite <- app_assoc. rewrite le_dec_le by (apply N.ltb_lt; exact Hw).
    rewrite IHe by (auto; lia). reflexivity.
  - (* Struct *) intros fs IHf Hw. unf_cwf Hw.
    unf_enc. cbn [length]. refine (fuel_tag _ _ _). intros f Hf rest. unf_dec.
    rewrite IHf by (auto; lia). reflexivity.
  - (* Enum *) intros vs IHvs Hw. unf_cwf Hw. split_and Hw.
    unf_enc. cbn [length]. refine (fuel_tag _ _ _). intros f Hf rest. rewrite app_length in Hf. unf_dec.
    rewrite <- app_assoc. rewrite dec_vec_seq by exact Hw.
    rewrite IHvs by (auto; lia). rewrite variants_of_to. reflexivity.
  - leaf_sl.
  - leaf_sl.
  - leaf_sl.
  - leaf_u32.
  - leaf_u32.
  - leaf_sl.
  - leaf_u32.
  - (* TaggedEnum *) intros vs IHvs Hw. unf_cwf Hw. split_and Hw.
    unf_enc. cbn [length]. refine (fuel_tag _ _ _). intros f Hf rest. rewrite app_length in Hf. unf_dec.
    rewrite <- app_assoc. rewrite dec_vec_seq by exact Hw.
    rewrite IHvs by (auto; lia).
    rewrite (map_build_sorted N.ltb sorted_N) by (try rewrite tv_tags_map; auto).
    rewrite tvariants_of_to. reflexivity.
  - (* FNamed *) intros l IHl Hw. unf_cwf Hw. split_and Hw.
    unf_enc. cbn [length]. refine (fuel_tag _ _ _). intros f Hf rest. rewrite app_length in Hf. unf_dec.
    rewrite <- app_assoc. rewrite dec_vec_seq by exact Hw.
    rewrite IHl by (auto; lia). rewrite nfields_of_to. reflexivity.
  - (* FUnnamed *) intros l IHl Hw. unf_cwf Hw. split_and Hw.
    unf_enc. cbn [length]. refine (fuel_tag _ _ _). intros f Hf rest. rewrite app_length in Hf. unf_dec.
    rewrite <- app_assoc. rewrite dec_vec_seq by exact Hw.
    rewrite IHl by (auto; lia). rewrite tys_of_to. reflexivity.
  - (* FNone *) intros _. refine (fuel_tag _ _ _). intros f _ rest. reflexivity.
  - (* NFnil *) intros _ fuel rest _. reflexivity.
  - (* NFcons *) intros n t IHt r IHr Hw fuel rest Hf. unf_cwf Hw. split_and Hw.
    unf_enc_in Hf. rewrite app_length3 in Hf.
    unf_enc. cbn [nfields_len dec_seq nfields_to_list]. unfold dec_pair at 1.
    rewrite <- !app_assoc. rewrite enc_dec_str by assumption.
    rewrite IHt by (auto; lia). rewrite IHr by (auto; lia). reflexivity.
  - (* TSnil *) intros _ fuel rest _. reflexivity.
  - (* TScons *) intros t IHt r IHr Hw fuel rest Hf. unf_cwf Hw. split_and Hw.
    unf_enc_in Hf. rewrite app_length in Hf.
    unf_enc. cbn [tys_len dec_seq tys_to_list].
    rewrite <- !app_assoc. rewrite IHt by (auto; lia). rewrite IHr by (auto; lia). reflexivity.
  - (* Vnil *) intros _ fuel rest _. reflexivity.
  - (* Vcons *) intros n f IHf r IHr Hw fuel rest Hf. unf_cwf Hw. split_and Hw.
    unf_enc_in Hf. rewrite app_length3 in Hf.
    unf_enc. cbn [variants_len dec_seq variants_to_list]. unfold dec_pair at 1.
    rewrite <- !app_assoc. rewrite enc_dec_str by assumption.
    rewrite IHf by (auto; lia). rewrite IHr by (auto; lia). reflexivity.
  - (* TVnil *) intros _ fuel rest _. reflexivity.
  - (* TVcons *) intros tag n f IHf r IHr Hw fuel rest Hf. unf_cwf Hw. split_and Hw.
    unf_enc_in Hf. cbn [length] in Hf. rewrite app_length3 in Hf.
    unf_enc. cbn [tvariants_len dec_seq tvariants_to_list]. unfold dec_pair at 1 2.
    cbn [app]. rewrite le_dec_1. rewrite <- !app_assoc.
    rewrite enc_dec_str by assumption.
    rewrite IHf by (auto; lia). rewrite IHr by (auto; lia). reflexivity.
Qed.

Theorem enc_dec_ty_top : forall t rest, cwf_ty t = true -> dec_ty_top (enc_ty t ++ rest) = Some (t, rest).
Proof.
  intros t rest Hw. unfold dec_ty_top. apply (proj1 codec_all t Hw). rewrite app_length. lia.
Qed.

Definition cwf_opt {A} (w : A -> bool) (o : option A) : bool := match o with Some a => w a | None => true end.
Definition cwf_f1 (f : function_v1) : bool :=
  match f with F1Param p => cwf_ty p | F1Ret r => cwf_ty r | F1Both p r => cwf_ty p && cwf_ty r end.
Definition cwf_f2 (f : function_v2) : bool :=
  cwf_opt cwf_ty (f2_param f) && cwf_opt cwf_ty (f2_ret f) && cwf_opt cwf_ty (f2_err f).

Definition good {A} (e : A -> list N) (d : list N -> option (A * list N)) (w : A -> bool) (B : nat) : Prop :=
  forall a rest, w a = true -> (length (e a) < B)%nat -> d (e a ++ rest) = Some (a, rest).

Lemma good_ty : forall fuel, good enc_ty (dec_ty fuel) cwf_ty fuel.
Proof. intros fuel t rest Hw Hf. exact (proj1 codec_all t Hw fuel Hf rest). Qed.

Lemma good_f1 : forall fuel, good enc_f1 (dec_f1 fuel) cwf_f1 fuel.
Proof.
  intros fuel [p|r|p r] rest Hw Hf; cbn [enc_f1 cwf_f1 length] in *; cbn [dec_f1 app].
  - rewrite good_ty by (auto; lia). reflexivity.
  - rewrite good_ty by (auto; lia). reflexivity.
  - apply andb_true_iff in Hw. destruct Hw as [H1 H2]. rewrite app_length in Hf.
    unfold dec_pair. rewrite <- app_assoc, !good_ty by (auto; lia). reflexivity.
Qed.

Lemma good_f2 : forall fuel, good enc_f2 (dec_f2 fuel) cwf_f2 fuel.
Proof.
  intros fuel [p r e] rest Hw Hf. unfold cwf_f2 in Hw. cbn [f2_param f2_ret f2_err] in Hw.
  apply andb_true_iff in Hw. destruct Hw as [Hw He]. apply andb_true_iff in Hw. destruct Hw as [Hp Hr].
  unfold enc_f2 in *. cbn [f2_param f2_ret f2_err] in *. cbn [length] in Hf. rewrite app_length3 in Hf.
  destruct p as [p|]; destruct r as [r|]; destruct e as [e|];
    cbn [cwf_opt] in Hp, Hr, He; cbn [enc_bare] in *; cbn [app];
    cbv [dec_f2 dec_if mem existsb N.eqb Pos.eqb orb N.ltb N.compare Pos.compare Pos.compare_cont f2_tag f2_param f2_ret f2_err];
    rewrite <- ?app_assoc; cbn [app];
    repeat (rewrite good_ty by (auto; cbn [length] in Hf; lia)); reflexivity.
Qed.

Fixpoint sorted_str (l : list str) : bool :=
  match l with
  | x :: ((y :: _) as r) => str_ltb x y && sorted_str r
  | _ => true
  end.

Definition cwf_map {V} (w : V -> bool) (m : list (str * V)) : bool :=
  len_ok (length m) && sorted_str (map fst m) && forallb (fun kv => name_ok (fst kv) && w (snd kv)) m.

Definition enc_entry {V} (e : V -> list N) (kv : str * V) : list N := enc_str (fst kv) ++ e (snd kv).

Lemma dec_seq_entries : forall {V} (e : V -> list N) (d : list N -> option (V * list N)) (w : V -> bool) B
  (m : list (str * V)) rest, good e d w B -> (length (flat_map (enc_entry e) m) < B)%nat ->
  forallb (fun kv => name_ok (fst kv) && w (snd kv)) m = true ->
  dec_seq (dec_pair dec_str d) (length m) (flat_map (enc_entry e) m ++ rest) = Some (m, rest).
Proof.
  induction m as [|[k v] m IH]; intros rest Hd Hl Hw; [reflexivity|].
  cbn [forallb fst snd] in Hw. apply andb_true_iff in Hw. destruct Hw as [Hkv Hw].
  apply andb_true_iff in Hkv. destruct Hkv as [Hk Hv].
  cbn [length dec_seq flat_map] in *. unfold enc_entry at 1 in Hl. unfold enc_entry at 1.
  cbn [fst snd] in *. rewrite !app_length in Hl. unfold dec_pair at 1.
  rewrite <- !app_assoc, enc_dec_str, Hd, IH by (auto; lia). reflexivity.
Qed.

Lemma good_map : forall {V} (e : V -> list N) (d : list N -> option (V * list N)) (w : V -> bool) B,
  good e d w B -> good (enc_map e) (dec_map d) (cwf_map w) B.
Proof.
  intros V e d w B Hd m rest Hw Hl. unfold cwf_map in Hw.
  apply andb_true_iff in Hw. destruct Hw as [Hw Hall]. apply andb_true_iff in Hw. destruct Hw as [Hlen Hsort].
  unfold dec_map, enc_map in *. rewrite app_length in Hl. rewrite <- app_assoc, dec_vec_seq by exact Hlen.
  change (fun kv : str * V => enc_str (fst kv) ++ e (snd kv)) with (enc_entry e) in *.
  rewrite (dec_seq_entries e d w B), (map_build_sorted str_ltb sorted_str) by (auto; lia). reflexivity.
Qed.

Lemma good_opt : forall {A} (e : A -> list N) (d : list N -> option (A * list N)) (w : A -> bool) B,
  good e d w B -> good (enc_opt e) (dec_opt d) (cwf_opt w) B.
Proof.
  intros A e d w B Hd [a|] rest Hw Hl; cbn [enc_opt dec_opt app cwf_opt length] in *; [|reflexivity].
  rewrite Hd by (auto; lia). reflexivity.
Qed.

Definition cwf_c0 (c : contract_v0) : bool :=
  cwf_opt cwf_ty (c0_state c) && cwf_opt cwf_ty (c0_init c) && cwf_map cwf_ty (c0_receive c).
Definition cwf_c1 (c : contract_v1) : bool := cwf_opt cwf_f1 (c1_init c) && cwf_map cwf_f1 (c1_receive c).
Definition cwf_c2 (c : contract_v2) : bool := cwf_opt cwf_f2 (c2_init c) && cwf_map cwf_f2 (c2_receive c).
Definition cwf_c3 (c : contract_v3) : bool :=
  cwf_opt cwf_f2 (c3_init c) && cwf_map cwf_f2 (c3_receive c) && cwf_opt cwf_ty (c3_event c).
Definition cwf_module (m : module_schema) : bool :=
  match m with
  | MV0 cs => cwf_map cwf_c0 cs
  | MV1 cs => cwf_map cwf_c1 cs
  | MV2 cs => cwf_map cwf_c2 cs
  | MV3 cs => cwf_map cwf_c3 cs
  end.

Lemma good_c0 : forall fuel, good enc_c0 (dec_c0 fuel) cwf_c0 fuel.
Proof.
  intros fuel [st i rc] rest Hw Hf. unfold cwf_c0, enc_c0, dec_c0 in *. cbn [c0_state c0_init c0_receive] in *.
  split_and Hw. rewrite !app_length in Hf.
  rewrite <- !app_assoc, !(good_opt _ _ _ _ (good_ty fuel)), (good_map _ _ _ _ (good_ty fuel)) by (auto; lia).
  reflexivity.
Qed.

Lemma good_c1 : forall fuel, good enc_c1 (dec_c1 fuel) cwf_c1 fuel.
Proof.
  intros fuel [i rc] rest Hw Hf. unfold cwf_c1, enc_c1, dec_c1 in *. cbn [c1_init c1_receive] in *.
  split_and Hw. rewrite !app_length in Hf.
  rewrite <- !app_assoc, (good_opt _ _ _ _ (good_f1 fuel)), (good_map _ _ _ _ (good_f1 fuel)) by (auto; lia).
  reflexivity.
Qed.

Lemma good_c2 : forall fuel, good enc_c2 (dec_c2 fuel) cwf_c2 fuel.
Proof.
  intros fuel [i rc] rest Hw Hf. unfold cwf_c2, enc_c2, dec_c2 in *. cbn [c2_init c2_receive] in *.
  split_and Hw. rewrite !app_length in Hf.
  rewrite <- !app_assoc, (good_opt _ _ _ _ (good_f2 fuel)), (good_map _ _ _ _ (good_f2 fuel)) by (auto; lia).
  reflexivity.
Qed.

Lemma good_c3 : forall fuel, good enc_c3 (dec_c3 fuel) cwf_c3 fuel.
Proof.
  intros fuel [i rc ev] rest Hw Hf. unfold cwf_c3, enc_c3, dec_c3 in *. cbn [c3_init c3_receive c3_event] in *.
  split_and Hw. rewrite !app_length in Hf.
  rewrite <- !app_assoc, (good_opt _ _ _ _ (good_f2 fuel)), (good_map _ _ _ _ (good_f2 fuel)),
    (good_opt _ _ _ _ (good_ty fuel)) by (auto; lia).
  reflexivity.
Qed.

Lemma enc_dec_module_body : forall m fuel rest, cwf_module m = true -> (length (enc_module_body m) < fuel)%nat ->
  dec_module_body fuel (module_version m) (enc_module_body m ++ rest) = Some (m, rest).
Proof.
  intros [cs|cs|cs|cs] fuel rest Hw Hf; cbn [cwf_module enc_module_body module_version dec_module_body] in *.
  - rewrite (good_map _ _ _ _ (good_c0 fuel)); auto.
  - rewrite (good_map _ _ _ _ (good_c1 fuel)); auto.
  - rewrite (good_map _ _ _ _ (good_c2 fuel)); auto.
  - rewrite (good_map _ _ _ _ (good_c3 fuel)); auto.
Qed.

Theorem enc_dec_versioned_top : forall m rest, cwf_module m = true ->
  dec_versioned_top (enc_versioned m ++ rest) = Some (m, rest).
Proof.
  intros m rest Hw. unfold dec_versioned_top, enc_versioned. cbn [app dec_versioned].
  apply enc_dec_module_body; auto. cbn [length]. rewrite app_length. lia.
Qed.

Theorem enc_dec_module_top : forall m rest, cwf_module m = true ->
  dec_module_top (module_version m) (enc_module_body m ++ rest) = Some (m, rest).
Proof.
  intros m rest Hw. unfold dec_module_top. apply enc_dec_module_body; auto. rewrite app_length. lia.
Qed.

Theorem schema_new_versioned : forall m v, cwf_module m = true -> schema_new (enc_versioned m) v = Some m.
Proof.
  intros m v Hw. unfold schema_new.
  pose proof (enc_dec_versioned_top m [] Hw) as H. rewrite app_nil_r in H. rewrite H. reflexivity.
Qed.

Theorem enc_dec_f1_top : forall f rest, cwf_f1 f = true -> dec_f1_top (enc_f1 f ++ rest) = Some (f, rest).
Proof. intros. unfold dec_f1_top. apply good_f1; auto. rewrite app_length. lia. Qed.
Theorem enc_dec_f2_top : forall f rest, cwf_f2 f = true -> dec_f2_top (enc_f2 f ++ rest) = Some (f, rest).
Proof. intros. unfold dec_f2_top. apply good_f2; auto. rewrite app_length. lia. Qed.

(** The decoder is not canonical: maps are decoded without an order check, so two different byte
    strings decode to the same schema (the property only claims encode-then-decode). *)
Example module_decoding_not_canonical :
  exists bs m, dec_versioned_top bs = Some (m, []) /\ enc_versioned m <> bs.
Proof.
  exists [255; 255; 0; 2; 0; 0; 0; 1; 0; 0; 0; 98; 0; 0; 0; 0; 0; 0; 1; 0; 0; 0; 97; 0; 0; 0; 0; 0; 0].
  eexists. split; [vm_compute; reflexivity|]. vm_compute. discriminate.
Qed.
