(** * CcSchemaCodecFuel — the fuel of the schema decoders is never exhausted: any two amounts of fuel
    above the input length give the same result (value or error), so [S (length input)] is enough. *)
From Coq Require Import ZArith Bool List Lia.
From CB Require Import Contract.SchemaJson Contract.SchemaJsonLemmas Contract.CcSchemaCodec.
Import ListNotations.
Local Open Scope N_scope.

(** a decoder never returns more input than it was given *)
Definition shr {A} (d : list N -> option (A * list N)) : Prop :=
  forall bs a r, d bs = Some (a, r) -> (length r <= length bs)%nat.
(** agreement up to length [n] and shrinking are kept together: the second decoder of a sequence runs on what
    the first one left, which is within [n] only because the first one shrinks *)
Definition loc {A} (d1 d2 : list N -> option (A * list N)) (n : nat) : Prop :=
  forall bs, (length bs <= n)%nat ->
    d1 bs = d2 bs /\ forall a r, d1 bs = Some (a, r) -> (length r <= length bs)%nat.

Lemma loc_refl : forall {A} (d : list N -> option (A * list N)) n, shr d -> loc d d n.
Proof. intros A d n H bs _. split; [reflexivity|apply H]. Qed.

Lemma loc_le : forall {A} (d1 d2 : list N -> option (A * list N)) n m, loc d1 d2 n -> (m <= n)%nat -> loc d1 d2 m.
Proof. intros A d1 d2 n m H Hm bs Hl. apply H. lia. Qed.

Lemma loc_ret : forall {A} (a : A) n, loc (fun r => Some (a, r)) (fun r => Some (a, r)) n.
Proof. intros A a n. apply loc_refl. intros bs x r H. injection H as _ <-. lia. Qed.

Lemma loc_fail : forall {A} n, loc (fun _ => @None (A * list N)) (fun _ => None) n.
Proof. intros A n. apply loc_refl. discriminate. Qed.

Lemma loc_bind : forall {A B} (d1 d2 : list N -> option (A * list N)) (k1 k2 : A -> list N -> option (B * list N)) n,
  loc d1 d2 n -> (forall a, loc (k1 a) (k2 a) n) ->
  loc (fun bs => match d1 bs with Some (a, r) => k1 a r | None => None end)
      (fun bs => match d2 bs with Some (a, r) => k2 a r | None => None end) n.
Proof.
  intros A B d1 d2 k1 k2 n Hd Hk bs Hl. destruct (Hd bs Hl) as [E S]. rewrite <- E.
  destruct (d1 bs) as [[a r]|]; [|split; [reflexivity|discriminate]].
  specialize (S a r eq_refl). destruct (Hk a r ltac:(lia)) as [E2 S2]. split; [exact E2|].
  intros b r' H. specialize (S2 b r' H). lia.
Qed.

Lemma loc_cons : forall {A} (k1 k2 : N -> list N -> option (A * list N)) n,
  (forall b m, (m < n)%nat -> loc (k1 b) (k2 b) m) ->
  loc (fun bs => match bs with [] => None | b :: r => k1 b r end)
      (fun bs => match bs with [] => None | b :: r => k2 b r end) n.
Proof.
  intros A k1 k2 n Hk [|b bs] Hl; [split; [reflexivity|discriminate]|]. cbn [length] in *.
  destruct (Hk b (length bs) ltac:(lia) bs (le_n _)) as [E S]. split; [exact E|]. intros a r H. specialize (S a r H). lia.
Qed.

Lemma shr_le_dec : forall k, shr (le_dec k).
Proof.
  intros k bs a r H. destruct (le_dec_some _ _ _ _ H) as [pre [-> _]]. rewrite app_length. lia.
Qed.
Lemma shr_dec_sl : shr dec_sl.
Proof.
  intros bs a r H. unfold dec_sl in H.
  destruct bs as [|b bs]; [discriminate|].
  destruct b as [|[[|[]|]|[|[]|]|]]; try discriminate; injection H as <- <-; cbn; lia.
Qed.
Lemma shr_with_sl : forall {A} (k : size_len -> A), shr (with_sl k).
Proof.
  intros A k bs a r H. unfold with_sl in H. destruct (dec_sl bs) as [[s r']|] eqn:E; [|discriminate].
  injection H as <- <-. exact (shr_dec_sl _ _ _ E).
Qed.
Lemma shr_dec_str : shr dec_str.
Proof.
  intros bs a r H. unfold dec_str, dec_string, dec_len in H.
  destruct (le_dec (sl_bytes SL32) bs) as [[n r1]|] eqn:E; [|discriminate].
  destruct (take_n r1 n) as [[b rest]|] eqn:Et; [|discriminate].
  destruct (utf8_valid b); [|discriminate]. injection H as <- <-.
  pose proof (shr_le_dec _ _ _ _ E). destruct (take_n_some _ _ _ _ Et) as [-> _]. rewrite app_length in *. lia.
Qed.

Lemma loc_pair : forall {A B} (da1 da2 : list N -> option (A * list N)) (db1 db2 : list N -> option (B * list N)) n,
  loc da1 da2 n -> loc db1 db2 n -> loc (dec_pair da1 db1) (dec_pair da2 db2) n.
Proof.
  intros A B da1 da2 db1 db2 n Ha Hb. unfold dec_pair.
  apply loc_bind; [exact Ha|]. intros a. apply loc_bind; [exact Hb|]. intros b. apply loc_ret.
Qed.
Lemma loc_seq : forall {A} (i1 i2 : list N -> option (A * list N)) n k,
  loc i1 i2 n -> loc (dec_seq i1 k) (dec_seq i2 k) n.
Proof.
  intros A i1 i2 n k Hi. induction k as [|k IH]; cbn [dec_seq]; [apply loc_ret|].
  apply loc_bind; [exact Hi|]. intros v. apply loc_bind; [exact IH|]. intros vs. apply loc_ret.
Qed.
Lemma loc_vec : forall {A} (i1 i2 : list N -> option (A * list N)) n,
  loc i1 i2 n -> loc (dec_vec i1) (dec_vec i2) n.
Proof.
  intros A i1 i2 n Hi. unfold dec_vec. apply loc_bind; [apply loc_refl, shr_le_dec|].
  intros c bs Hl. rewrite !dec_items_seq. apply (loc_seq i1 i2 n); auto.
Qed.
Lemma loc_opt : forall {A} (d1 d2 : list N -> option (A * list N)) n, loc d1 d2 n -> loc (dec_opt d1) (dec_opt d2) n.
Proof.
  intros A d1 d2 n Hd. unfold dec_opt. apply loc_cons. intros [|[p|p|]] m Hm; try apply loc_fail; [apply loc_ret|].
  apply loc_bind; [apply (loc_le _ _ n); [exact Hd|lia]|]. intros a. apply loc_ret.
Qed.
Lemma loc_map : forall {V} (d1 d2 : list N -> option (V * list N)) n, loc d1 d2 n -> loc (dec_map d1) (dec_map d2) n.
Proof.
  intros V d1 d2 n Hd. unfold dec_map.
  apply loc_bind; [apply loc_vec, loc_pair; [apply loc_refl, shr_dec_str|exact Hd]|].
  intros l. destruct (map_build str_ltb l); [apply loc_ret|apply loc_fail].
Qed.
Lemma loc_if : forall {A} c (d1 d2 : list N -> option (A * list N)) n, loc d1 d2 n -> loc (dec_if c d1) (dec_if c d2) n.
Proof.
  intros A c d1 d2 n Hd. unfold dec_if. destruct c; [|apply loc_ret].
  apply loc_bind; [exact Hd|]. intros a. apply loc_ret.
Qed.

(** the decoders the arms of [dec_ty] / [dec_fields] run on the input after the tag *)
Ltac loc_arg At Af :=
  repeat first [ exact At | exact Af | apply loc_pair | apply loc_vec
               | apply loc_refl; first [apply shr_le_dec | apply shr_dec_sl | apply shr_dec_str] ].
(** an arm: nothing more to read, or one such decoder and then a constructor *)
Ltac loc_arm At Af :=
  first [ apply loc_ret | apply loc_fail | apply loc_refl, shr_with_sl
        | apply loc_bind; [loc_arg At Af|];
          intros x; repeat match goal with p : (_ * _)%type |- _ => destruct p end;
          try match goal with |- context [map_build ?f ?l] => destruct (map_build f l) end;
          first [apply loc_ret | apply loc_fail] ].

Lemma fuel_loc : forall f1 f2 n, (n < f1)%nat -> (n < f2)%nat ->
  loc (dec_ty f1) (dec_ty f2) n /\ loc (dec_fields f1) (dec_fields f2) n.
Proof.
  induction f1 as [|f1 IH]; intros f2 n H1 H2; [lia|].
  destruct f2 as [|f2]; [lia|].
  split; cbn [dec_ty dec_fields]; fold dec_ty dec_fields; apply loc_cons; intros tag m Hm;
    destruct (IH f2 m ltac:(lia) ltac:(lia)) as [At Af].
  - destruct tag as [|p]; [apply loc_ret|].
    do 5 (try match goal with p : positive |- _ => destruct p as [p|p|] end); loc_arm At Af.
  - destruct tag as [|[[p|p|]|[p|p|]|]]; loc_arm At Af.
Qed.

Theorem dec_ty_fuel : forall f bs, (length bs < f)%nat -> dec_ty f bs = dec_ty_top bs.
Proof.
  intros f bs H. unfold dec_ty_top.
  apply (proj1 (fuel_loc f (S (length bs)) (length bs) H ltac:(lia))). lia.
Qed.

Section TwoFuels.
Variables (f1 f2 n : nat).
Hypothesis (H1 : (n < f1)%nat) (H2 : (n < f2)%nat).

Lemma loc_ty : forall m, (m <= n)%nat -> loc (dec_ty f1) (dec_ty f2) m.
Proof. intros m Hm. exact (loc_le _ _ n m (proj1 (fuel_loc f1 f2 n H1 H2)) Hm). Qed.

Lemma loc_f1 : loc (dec_f1 f1) (dec_f1 f2) n.
Proof.
  unfold dec_f1. apply loc_cons. intros [|[[p|p|]|[p|p|]|]] m Hm; try apply loc_fail;
    (apply loc_bind; [first [apply loc_pair|idtac]; apply loc_ty; lia|]); intros x; try destruct x; apply loc_ret.
Qed.

Lemma loc_f2 : loc (dec_f2 f1) (dec_f2 f2) n.
Proof.
  unfold dec_f2. apply loc_cons. intros idx m Hm. destruct (7 <? idx); [apply loc_fail|].
  apply loc_bind; [apply loc_if, loc_ty; lia|]. intros p.
  apply loc_bind; [apply loc_if, loc_ty; lia|]. intros q.
  apply loc_bind; [apply loc_if, loc_ty; lia|]. intros e. apply loc_ret.
Qed.

Lemma loc_c0 : loc (dec_c0 f1) (dec_c0 f2) n.
Proof.
  unfold dec_c0. apply loc_bind; [apply loc_opt, loc_ty; lia|]. intros st.
  apply loc_bind; [apply loc_opt, loc_ty; lia|]. intros i.
  apply loc_bind; [apply loc_map, loc_ty; lia|]. intros rc. apply loc_ret.
Qed.
Lemma loc_c1 : loc (dec_c1 f1) (dec_c1 f2) n.
Proof.
  unfold dec_c1. apply loc_bind; [apply loc_opt, loc_f1|]. intros i.
  apply loc_bind; [apply loc_map, loc_f1|]. intros rc. apply loc_ret.
Qed.
Lemma loc_c2 : loc (dec_c2 f1) (dec_c2 f2) n.
Proof.
  unfold dec_c2. apply loc_bind; [apply loc_opt, loc_f2|]. intros i.
  apply loc_bind; [apply loc_map, loc_f2|]. intros rc. apply loc_ret.
Qed.
Lemma loc_c3 : loc (dec_c3 f1) (dec_c3 f2) n.
Proof.
  unfold dec_c3. apply loc_bind; [apply loc_opt, loc_f2|]. intros i.
  apply loc_bind; [apply loc_map, loc_f2|]. intros rc.
  apply loc_bind; [apply loc_opt, loc_ty; lia|]. intros ev. apply loc_ret.
Qed.

Lemma loc_module_body : forall v, loc (dec_module_body f1 v) (dec_module_body f2 v) n.
Proof.
  intros v. unfold dec_module_body.
  destruct v as [|[[p|p|]|[p|p|]|]]; try apply loc_fail;
    (apply loc_bind; [apply loc_map; first [apply loc_c0|apply loc_c1|apply loc_c2|apply loc_c3]|]);
    intros cs; apply loc_ret.
Qed.
End TwoFuels.

(** the literal pattern [255] is eight nested matches on the binary digits *)
Lemma match_255 : forall {T} (a : N) (x y : T), match a with 255 => x | _ => y end = if a =? 255 then x else y.
Proof.
  intros T a x y. destruct (N.eqb_spec a 255) as [->|Ha]; [reflexivity|].
  destruct a as [|p]; [reflexivity|].
  do 8 (try match goal with p : positive |- _ => destruct p as [p|p|] end); try reflexivity; congruence.
Qed.

Lemma dec_versioned_cons : forall f a b v r,
  dec_versioned f (a :: b :: v :: r) = if (a =? 255) && (b =? 255) then dec_module_body f v r else None.
Proof.
  intros. unfold dec_versioned. rewrite (match_255 a), (match_255 b).
  destruct (a =? 255); destruct (b =? 255); reflexivity.
Qed.

Theorem dec_versioned_fuel : forall f bs, (length bs < f)%nat -> dec_versioned f bs = dec_versioned_top bs.
Proof.
  intros f bs H. unfold dec_versioned_top. destruct bs as [|a [|b [|v r]]]; try reflexivity.
  rewrite !dec_versioned_cons. destruct ((a =? 255) && (b =? 255)); [|reflexivity].
  cbn [length] in *. apply (loc_module_body f (S (S (S (S (length r))))) (length r)); lia.
Qed.
Theorem dec_module_fuel : forall f v bs, (length bs < f)%nat -> dec_module_body f v bs = dec_module_top v bs.
Proof. intros f v bs H. unfold dec_module_top. apply (loc_module_body f (S (length bs)) (length bs)); lia. Qed.
Theorem dec_f1_fuel : forall f bs, (length bs < f)%nat -> dec_f1 f bs = dec_f1_top bs.
Proof. intros f bs H. unfold dec_f1_top. apply (loc_f1 f (S (length bs)) (length bs)); lia. Qed.
Theorem dec_f2_fuel : forall f bs, (length bs < f)%nat -> dec_f2 f bs = dec_f2_top bs.
Proof. intros f bs H. unfold dec_f2_top. apply (loc_f2 f (S (length bs)) (length bs)); lia. Qed.
