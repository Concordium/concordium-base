(** C16 - Base58 / Base58Check / hexadecimal forms: decoding inverts encoding and the
    account-address parser accepts exactly the printed strings. *)
From Coq Require Import NArith List Bool Lia.
From CB Require Import Contract.ArithOpaque Contract.Base58.
Import ListNotations.
Local Open Scope N_scope.

Definition digits_lt (b : N) (l : list N) : Prop := Forall (fun d => d < b) l.
Definition val_lsb (b : N) (l : list N) : N := fold_right (fun d acc => d + b * acc) 0 l.

Lemma radix_rev_zero : forall f b, radix_rev f b 0 = [].
Proof. destruct f; reflexivity. Qed.

Lemma radix_rev_lt : forall f b n, 0 < b -> digits_lt b (radix_rev f b n).
Proof.
  induction f as [|f IH]; intros b n Hb; cbn; [constructor|].
  destruct (n =? 0); constructor; [apply N.mod_lt; lia | apply IH; exact Hb].
Qed.

Lemma radix_fuel_div : forall (f : nat) b n, 2 <= b -> n < 2 ^ N.of_nat (S f) -> n / b < 2 ^ N.of_nat f.
Proof.
  intros f b n Hb Hn. rewrite Nat2N.inj_succ, N.pow_succ_r' in Hn.
  apply N.le_lt_trans with (n / 2); [apply N.div_le_compat_l; lia|apply N.div_lt_upper_bound; lia].
Qed.

Lemma radix_rev_val : forall f b n, 2 <= b -> n < 2 ^ N.of_nat f -> val_lsb b (radix_rev f b n) = n.
Proof.
  induction f as [|f IH]; intros b n Hb Hn.
  - change (2 ^ N.of_nat 0) with 1 in Hn. assert (n = 0) by lia. subst. reflexivity.
  - cbn [radix_rev].
    destruct (n =? 0) eqn:E; [apply N.eqb_eq in E; subst; reflexivity|].
    cbn [val_lsb fold_right]. fold (val_lsb b (radix_rev f b (n / b))).
    rewrite IH by (auto using radix_fuel_div). pose proof (N.div_mod n b ltac:(lia)). lia.
Qed.

Lemma radix_rev_last : forall f b n, 2 <= b -> n <> 0 -> n < 2 ^ N.of_nat f -> last (radix_rev f b n) 0 <> 0.
Proof.
  induction f as [|f IH]; intros b n Hb Hn Hlt.
  - change (2 ^ N.of_nat 0) with 1 in Hlt. lia.
  - cbn [radix_rev].
    assert (n =? 0 = false) as -> by (apply N.eqb_neq; exact Hn).
    destruct (N.eq_dec (n / b) 0) as [Q|Q].
    + rewrite Q, radix_rev_zero. cbn [last].
      assert (n < b) by (apply N.div_small_iff in Q; lia). rewrite N.mod_small by assumption. exact Hn.
    + specialize (IH b (n / b) Hb Q (radix_fuel_div _ _ _ Hb Hlt)).
      destruct (radix_rev f b (n / b)) eqn:R; [cbn in IH; congruence | exact IH].
Qed.

Lemma val_lsb_nonzero : forall b l, 1 <= b -> l <> [] -> last l 0 <> 0 -> val_lsb b l <> 0.
Proof.
  induction l as [|d l IH]; intros Hb NE HL; [congruence|].
  cbn [val_lsb fold_right]. fold (val_lsb b l). destruct l as [|e l'].
  - cbn in *. lia.
  - assert (val_lsb b (e :: l') <> 0) by (apply IH; [exact Hb | discriminate | exact HL]). nia.
Qed.

(** [radix_rev] recovers a digit list without leading (= last) zero *)
Lemma radix_rev_of_val : forall l f b, 2 <= b -> digits_lt b l -> (l = [] \/ last l 0 <> 0) ->
  val_lsb b l < 2 ^ N.of_nat f -> radix_rev f b (val_lsb b l) = l.
Proof.
  induction l as [|d l IH]; intros f b Hb HD HL Hlt.
  - apply radix_rev_zero.
  - inversion HD as [|? ? Hd HD']; subst.
    destruct HL as [HL|HL]; [discriminate|].
    assert (NZ : val_lsb b (d :: l) <> 0) by (apply val_lsb_nonzero; [lia | discriminate | exact HL]).
    cbn [val_lsb fold_right] in *. fold (val_lsb b l) in *.
    destruct f as [|f]; [change (2 ^ N.of_nat 0) with 1 in Hlt; lia|].
    rewrite Nat2N.inj_succ, N.pow_succ_r' in Hlt. cbn [radix_rev].
    assert (d + b * val_lsb b l =? 0 = false) as -> by (apply N.eqb_neq; exact NZ).
    destruct (digit_cons b d (val_lsb b l) Hd) as [E1 E2].
    rewrite E1, E2. f_equal. apply IH; [exact Hb | exact HD' | | nia].
    destruct l as [|e l']; [left; reflexivity | right; exact HL].
Qed.

Lemma of_digits_snoc : forall b ds d, of_digits b (ds ++ [d]) = of_digits b ds * b + d.
Proof. intros. unfold of_digits. rewrite fold_left_app. reflexivity. Qed.
Lemma of_digits_rev : forall b l, of_digits b (rev l) = val_lsb b l.
Proof.
  induction l as [|d l IH]; [reflexivity|].
  cbn [rev val_lsb fold_right]. fold (val_lsb b l). rewrite of_digits_snoc, IH. lia.
Qed.

Lemma log2_bound : forall n, n < 2 ^ N.of_nat (S (N.to_nat (N.log2 n))).
Proof.
  intros n. rewrite Nat2N.inj_succ, N2Nat.id. destruct (N.eq_dec n 0) as [->|H]; [reflexivity|].
  apply N.log2_spec. lia.
Qed.

Lemma to_digits_lt : forall b n, 0 < b -> digits_lt b (to_digits b n).
Proof. intros. unfold to_digits. apply Forall_rev. apply radix_rev_lt. assumption. Qed.
Lemma of_to_digits : forall b n, 2 <= b -> of_digits b (to_digits b n) = n.
Proof. intros b n Hb. unfold to_digits. rewrite of_digits_rev. apply radix_rev_val; [exact Hb | apply log2_bound]. Qed.
(** no leading zero *)
Lemma to_digits_head : forall b n, 2 <= b -> to_digits b n = [] \/ hd 0 (to_digits b n) <> 0.
Proof.
  intros b n Hb. unfold to_digits. destruct (N.eq_dec n 0) as [->|H].
  - left. rewrite radix_rev_zero. reflexivity.
  - right. pose proof (radix_rev_last _ b n Hb H (log2_bound n)) as L.
    set (l := radix_rev (S (N.to_nat (N.log2 n))) b n) in *. clearbody l.
    destruct l as [|x l] using rev_ind; [cbn in L; congruence|].
    rewrite last_last in L. rewrite rev_app_distr. cbn. exact L.
Qed.
Lemma to_of_digits : forall b ds, 2 <= b -> digits_lt b ds -> (ds = [] \/ hd 0 ds <> 0) ->
  to_digits b (of_digits b ds) = ds.
Proof.
  intros b ds Hb HD HH. unfold to_digits.
  rewrite <- (rev_involutive ds) at 1 2. rewrite of_digits_rev.
  rewrite radix_rev_of_val; [apply rev_involutive | exact Hb | apply Forall_rev; exact HD | | apply log2_bound].
  destruct HH as [->|HH]; [left; reflexivity|]. right.
  destruct ds as [|x ds]; [cbn in HH; congruence|]. cbn [rev]. rewrite last_last. exact HH.
Qed.

Lemma count_lz_split : forall ds, ds = repeat 0 (count_lz ds) ++ skipn (count_lz ds) ds.
Proof.
  induction ds as [|d ds IH]; [reflexivity|]. cbn [count_lz].
  destruct (d =? 0) eqn:E; [|reflexivity]. apply N.eqb_eq in E. subst. cbn. f_equal. exact IH.
Qed.
Lemma skipn_lz_head : forall ds, skipn (count_lz ds) ds = [] \/ hd 0 (skipn (count_lz ds) ds) <> 0.
Proof.
  induction ds as [|d ds IH]; [left; reflexivity|]. cbn [count_lz].
  destruct (d =? 0) eqn:E; [exact IH|]. right. cbn. apply N.eqb_neq. exact E.
Qed.
Lemma of_digits_zeros : forall b z ds, of_digits b (repeat 0 z ++ ds) = of_digits b ds.
Proof.
  intros b z ds. induction z as [|z IH]; [reflexivity|].
  cbn [repeat app]. unfold of_digits in *. cbn [fold_left]. replace (0 * b + 0) with 0 by lia. exact IH.
Qed.
Lemma count_lz_zeros : forall z ds, (ds = [] \/ hd 0 ds <> 0) -> count_lz (repeat 0 z ++ ds) = z.
Proof.
  intros z ds H. induction z as [|z IH].
  - cbn. destruct H as [->|H]; [reflexivity|]. destruct ds as [|d ds]; [reflexivity|].
    cbn in *. apply N.eqb_neq in H. rewrite H. reflexivity.
  - cbn. rewrite IH. reflexivity.
Qed.
Lemma skipn_zeros : forall z (ds : list N), skipn z (repeat 0 z ++ ds) = ds.
Proof. induction z; intros; cbn; auto. Qed.

(** ** the change of base is a bijection *)
Lemma convert_lt : forall b1 b2 ds, 0 < b2 -> digits_lt b2 (convert b1 b2 ds).
Proof.
  intros. unfold convert. apply Forall_app. split; [|apply to_digits_lt; assumption].
  apply Forall_forall. intros x Hx. apply repeat_spec in Hx. subst. assumption.
Qed.
Theorem convert_inverse : forall b1 b2 ds, 2 <= b1 -> 2 <= b2 -> digits_lt b1 ds ->
  convert b2 b1 (convert b1 b2 ds) = ds.
Proof.
  intros b1 b2 ds H1 H2 HD. unfold convert at 2.
  set (z := count_lz ds). set (n := of_digits b1 ds). set (D := to_digits b2 n).
  assert (HDh : D = [] \/ hd 0 D <> 0) by (apply to_digits_head; exact H2).
  unfold convert. rewrite count_lz_zeros by exact HDh. rewrite of_digits_zeros.
  unfold D. rewrite of_to_digits by exact H2.
  unfold n. rewrite (count_lz_split ds) at 1. rewrite of_digits_zeros.
  rewrite to_of_digits.
  - symmetry. apply count_lz_split.
  - exact H1.
  - rewrite (count_lz_split ds) in HD. apply Forall_app in HD. apply HD.
  - apply skipn_lz_head.
Qed.

Lemma index_of_spec : forall c l i d, index_of c l i = Some d ->
  i <= d /\ nth (N.to_nat (d - i)) l 0 = c /\ (N.to_nat (d - i) < length l)%nat.
Proof.
  induction l as [|x l IH]; intros i d H; [discriminate|]. cbn [index_of] in H.
  destruct (x =? c) eqn:E.
  - apply N.eqb_eq in E. inversion H; subst. replace (d - d) with 0 by lia. cbn. repeat split; lia.
  - destruct (IH _ _ H) as (A & B & C). replace (N.to_nat (d - i)) with (S (N.to_nat (d - (i + 1)))) by lia.
    cbn. repeat split; [lia | exact B | lia].
Qed.
Lemma b58_char_of_index : forall c d, b58_index c = Some d -> b58_char d = c /\ d < 58.
Proof.
  intros c d H. destruct (index_of_spec _ _ _ _ H) as (_ & B & C). rewrite N.sub_0_r in *.
  split; [exact B|]. change (length B58_ALPHABET) with 58%nat in C. lia.
Qed.
Lemma b58_index_of_char : forall d, d < 58 -> b58_index (b58_char d) = Some d.
Proof. exact (sweep_inverse 58 b58_index b58_char ltac:(vm_compute; reflexivity)). Qed.

Lemma map_opt_map : forall {A B} (f : A -> option B) (g : B -> A) l,
  (forall x, In x l -> f (g x) = Some x) -> map_opt f (map g l) = Some l.
Proof.
  induction l as [|x l IH]; intros H; [reflexivity|]. cbn [map map_opt].
  rewrite H by (left; reflexivity). rewrite IH by (intros; apply H; right; assumption). reflexivity.
Qed.
Lemma map_opt_inv : forall {A B} (f : A -> option B) (g : B -> A) (P : B -> Prop) l ys,
  (forall c d, f c = Some d -> g d = c /\ P d) -> map_opt f l = Some ys -> map g ys = l /\ Forall P ys.
Proof.
  induction l as [|c l IH]; intros ys H E.
  - inversion E; subst. split; [reflexivity | constructor].
  - cbn [map_opt] in E. destruct (f c) as [d|] eqn:F; [|discriminate].
    destruct (map_opt f l) as [ds|] eqn:M; [|discriminate]. inversion E; subst.
    destruct (H _ _ F) as [G Pd]. destruct (IH ds H eq_refl) as [I Ps]. cbn. rewrite G, I. split; [reflexivity | constructor; assumption].
Qed.

Definition bytes (l : list N) : Prop := digits_lt 256 l.

Theorem b58_decode_encode : forall bs, bytes bs -> b58_decode (b58_encode bs) = Some bs.
Proof.
  intros bs HB. unfold b58_decode, b58_encode.
  pose proof (convert_lt 256 58 bs ltac:(lia)) as L.
  rewrite map_opt_map.
  - rewrite convert_inverse by (try lia; exact HB). reflexivity.
  - intros d Hd. apply b58_index_of_char. unfold digits_lt in L. rewrite Forall_forall in L. apply L. exact Hd.
Qed.
Theorem b58_encode_decode : forall s raw, b58_decode s = Some raw -> b58_encode raw = s /\ bytes raw.
Proof.
  intros s raw H. unfold b58_decode in H. destruct (map_opt b58_index s) as [ds|] eqn:M; [|discriminate].
  inversion H; subst; clear H.
  destruct (map_opt_inv b58_index b58_char (fun d => d < 58) s ds b58_char_of_index M) as [E L].
  split; [|apply convert_lt; lia]. unfold b58_encode. rewrite convert_inverse by (try lia; exact L). exact E.
Qed.
Corollary b58_encode_injective : forall a b, bytes a -> bytes b -> b58_encode a = b58_encode b -> a = b.
Proof.
  intros a b Ha Hb E. apply (f_equal b58_decode) in E. rewrite !b58_decode_encode in E by assumption. congruence.
Qed.

Lemma bytes_eqb_refl : forall l, bytes_eqb l l = true.
Proof. induction l; cbn; [reflexivity|]. rewrite N.eqb_refl. exact IHl. Qed.
Lemma bytes_eqb_eq : forall a b, bytes_eqb a b = true -> a = b.
Proof.
  induction a as [|x a IH]; destruct b as [|y b]; cbn; intros H; try discriminate; [reflexivity|].
  apply andb_prop in H as [H1 H2]. apply N.eqb_eq in H1. subst. f_equal. apply IH. exact H2.
Qed.

Lemma app_inj_tail_length : forall (a c b d : list N), a ++ b = c ++ d -> length b = length d -> a = c /\ b = d.
Proof.
  induction a as [|x a IH]; intros c b d E L.
  - destruct c as [|y c]; [auto|]. exfalso. apply (f_equal (@length N)) in E. cbn in E. rewrite app_length in E. lia.
  - destruct c as [|y c].
    + exfalso. apply (f_equal (@length N)) in E. cbn in E. rewrite app_length in E. lia.
    + cbn in E. inversion E; subst. destruct (IH c b d H1 L) as [-> ->]. auto.
Qed.

Section AccountAddress.
  (** the first four bytes of SHA-256(SHA-256(payload)): abstract *)
  Variable H4 : list N -> list N.
  Hypothesis H4_len : forall p, length (H4 p) = 4%nat.
  Hypothesis H4_bytes : forall p, bytes (H4 p).

  Lemma parse_raw : forall p ck, bytes p -> bytes ck -> length ck = 4%nat -> (length p <= 33)%nat ->
    parse_account_address H4 (b58_encode (p ++ ck)) =
      if bytes_eqb (H4 p) ck then
        match p with
        | v :: addr => if (v =? 1) && Nat.eqb (length addr) 32 then Some addr else None
        | [] => None
        end
      else None.
  Proof.
    intros p ck Hp Hck Lck Lp. unfold parse_account_address.
    rewrite b58_decode_encode by (apply Forall_app; split; assumption).
    rewrite app_length, Lck.
    assert (Nat.ltb 37 (length p + 4) = false) as -> by (apply PeanoNat.Nat.ltb_ge; lia).
    assert (Nat.ltb (length p + 4) 4 = false) as -> by (apply PeanoNat.Nat.ltb_ge; lia).
    replace (length p + 4 - 4)%nat with (length p + 0)%nat by lia.
    rewrite firstn_app_2, skipn_app. cbn [firstn]. rewrite app_nil_r.
    replace (length p + 0 - length p)%nat with 0%nat by lia.
    rewrite skipn_all2 by lia. cbn [skipn app]. reflexivity.
  Qed.

  Theorem account_address_parse_print_all : forall a, length a = 32%nat -> bytes a ->
    parse_account_address H4 (print_account_address H4 a) = Some a.
  Proof.
    intros a La Ha. unfold print_account_address.
    rewrite parse_raw; [| constructor; [lia | exact Ha] | apply H4_bytes | apply H4_len | cbn; lia].
    rewrite bytes_eqb_refl. change (1 =? 1) with true. rewrite La. reflexivity.
  Qed.

  (** the parser accepts exactly the printed strings *)
  Theorem account_address_accepts_iff : forall s a,
    parse_account_address H4 s = Some a <->
    s = print_account_address H4 a /\ length a = 32%nat /\ bytes a.
  Proof.
    intros s a. split.
    - unfold parse_account_address. destruct (b58_decode s) as [raw|] eqn:D; [|discriminate].
      destruct (b58_encode_decode _ _ D) as [E HB].
      destruct (Nat.ltb 37 (length raw)); [discriminate|].
      destruct (Nat.ltb (length raw) 4); [discriminate|].
      set (n := (length raw - 4)%nat).
      destruct (bytes_eqb (H4 (firstn n raw)) (skipn n raw)) eqn:C; [|discriminate].
      apply bytes_eqb_eq in C.
      destruct (firstn n raw) as [|v addr] eqn:F; [discriminate|].
      destruct ((v =? 1) && Nat.eqb (length addr) 32) eqn:V; [|discriminate].
      intros X. inversion X; subst addr. apply andb_prop in V as [V1 V2].
      apply N.eqb_eq in V1. apply PeanoNat.Nat.eqb_eq in V2. subst v.
      assert (R : raw = (1 :: a) ++ H4 (1 :: a)).
      { rewrite <- (firstn_skipn n raw). rewrite F, <- C. reflexivity. }
      split; [|split; [exact V2|]].
      + unfold print_account_address. rewrite <- R. symmetry. exact E.
      + rewrite R in HB. apply Forall_app in HB. destruct HB as [HB _]. inversion HB; assumption.
    - intros (-> & L & B). apply account_address_parse_print_all; assumption.
  Qed.

  Lemma parse_encoded_none : forall raw, bytes raw ->
    (forall a, raw = (1 :: a) ++ H4 (1 :: a) -> length a = 32%nat -> False) ->
    parse_account_address H4 (b58_encode raw) = None.
  Proof.
    intros raw HB Hno. destruct (parse_account_address H4 (b58_encode raw)) as [a|] eqn:P; [|reflexivity]. exfalso.
    apply account_address_accepts_iff in P. destruct P as (E & La & Ba). apply (Hno a); [|exact La].
    unfold print_account_address in E. apply b58_encode_injective in E; [exact E|exact HB|].
    apply Forall_app; split; [constructor; [lia | exact Ba] | apply H4_bytes].
  Qed.

  (** wrong checksum, wrong version, wrong length *)
  Theorem account_address_rejects_checksum : forall p ck, bytes p -> bytes ck -> length ck = 4%nat ->
    ck <> H4 p -> parse_account_address H4 (b58_encode (p ++ ck)) = None.
  Proof.
    intros p ck Hp Hck L NE. apply parse_encoded_none; [apply Forall_app; split; assumption|].
    intros a E _. apply app_inj_tail_length in E; [| rewrite L, H4_len; reflexivity].
    destruct E as [-> ->]. congruence.
  Qed.
  Theorem account_address_rejects_version : forall v a, bytes (v :: a) -> v <> 1 ->
    parse_account_address H4 (b58_encode ((v :: a) ++ H4 (v :: a))) = None.
  Proof.
    intros v a HB NE. apply parse_encoded_none; [apply Forall_app; split; [exact HB | apply H4_bytes]|].
    intros a' E _. apply app_inj_tail_length in E; [| rewrite !H4_len; reflexivity].
    destruct E as [E _]. inversion E. congruence.
  Qed.
  Theorem account_address_rejects_length : forall a, bytes a -> length a <> 32%nat ->
    parse_account_address H4 (b58_encode ((1 :: a) ++ H4 (1 :: a))) = None.
  Proof.
    intros a HB NE. apply parse_encoded_none;
      [apply Forall_app; split; [constructor; [lia | exact HB] | apply H4_bytes]|].
    intros a' E La. apply app_inj_tail_length in E; [| rewrite !H4_len; reflexivity].
    destruct E as [E _]. inversion E. congruence.
  Qed.
End AccountAddress.

Lemma hex_val_digit : forall d, d < 16 -> hex_val (hex_digit d) = Some d.
Proof. exact (sweep_inverse 16 hex_val hex_digit ltac:(vm_compute; reflexivity)). Qed.
Lemma hex_val_digit_upper : forall d, d < 16 -> hex_val (hex_digit_upper d) = Some d.
Proof. exact (sweep_inverse 16 hex_val hex_digit_upper ltac:(vm_compute; reflexivity)). Qed.
Lemma hex_digit_not_plus : forall d, hex_digit d =? 43 = false.
Proof. intros d. unfold hex_digit. destruct (d <? 10); apply N.eqb_neq; lia. Qed.

Lemma byte_split : forall b, b < 256 -> b / 16 < 16 /\ b mod 16 < 16 /\ b / 16 * 16 + b mod 16 = b.
Proof.
  intros b H. repeat split; [apply N.div_lt_upper_bound; lia | apply N.mod_lt; lia |].
  pose proof (N.div_mod b 16 ltac:(lia)). lia.
Qed.

Theorem hex_decode_print : forall bs, bytes bs -> hex_decode (hex_print bs) = Some bs.
Proof.
  induction bs as [|b bs IH]; intros H; [reflexivity|]. inversion H; subst.
  destruct (byte_split b H2) as (A & B & C). cbn [hex_print hex_decode].
  rewrite !hex_val_digit by assumption. rewrite IH by assumption. rewrite C. reflexivity.
Qed.
(** upper-case digits are accepted and denote the same bytes *)
Theorem hex_decode_print_upper : forall bs, bytes bs -> hex_decode (hex_print_upper bs) = Some bs.
Proof.
  induction bs as [|b bs IH]; intros H; [reflexivity|]. inversion H; subst.
  destruct (byte_split b H2) as (A & B & C). cbn [hex_print_upper hex_decode].
  rewrite !hex_val_digit_upper by assumption. rewrite IH by assumption. rewrite C. reflexivity.
Qed.
Theorem hash_parse_print_all : forall h, length h = 32%nat -> bytes h -> parse_hash (hex_print h) = Some h.
Proof. intros h L B. unfold parse_hash. rewrite hex_decode_print by exact B. rewrite L. reflexivity. Qed.
Theorem hash_parse_print_upper : forall h, length h = 32%nat -> bytes h -> parse_hash (hex_print_upper h) = Some h.
Proof. intros h L B. unfold parse_hash. rewrite hex_decode_print_upper by exact B. rewrite L. reflexivity. Qed.
Lemma hex_decode_length : forall s bs, hex_decode s = Some bs -> length s = (2 * length bs)%nat.
Proof.
  fix IH 1. intros s bs H. destruct s as [|c1 [|c2 r]]; cbn in H.
  - inversion H; reflexivity.
  - discriminate.
  - destruct (hex_val c1), (hex_val c2); try discriminate.
    destruct (hex_decode r) as [bs'|] eqn:R; [|discriminate]. inversion H; subst.
    cbn [length]. rewrite (IH r bs' R). lia.
Qed.
(** a parsed hash string has exactly 64 characters *)
Theorem hash_parse_length : forall s h, parse_hash s = Some h -> length s = 64%nat /\ length h = 32%nat.
Proof.
  intros s h H. unfold parse_hash in H. destruct (hex_decode s) as [bs|] eqn:D; [|discriminate].
  destruct (Nat.eqb (length bs) 32) eqn:L; [|discriminate]. inversion H; subst.
  apply PeanoNat.Nat.eqb_eq in L. rewrite (hex_decode_length _ _ D), L. split; reflexivity.
Qed.

Lemma hex_print_length : forall bs, length (hex_print bs) = (2 * length bs)%nat.
Proof. induction bs; cbn [hex_print length]; [reflexivity | rewrite IHbs; lia]. Qed.
Lemma hex_pairs_print : forall bs, bytes bs -> hex_pairs (hex_print bs) = Some bs.
Proof.
  induction bs as [|b bs IH]; intros H; [reflexivity|]. inversion H; subst.
  destruct (byte_split b H2) as (A & B & C). cbn [hex_print hex_pairs]. unfold pair_val.
  rewrite hex_digit_not_plus, !hex_val_digit by assumption. rewrite IH by assumption. rewrite C. reflexivity.
Qed.
(** public keys (n = 32, 33) and signatures (n = 64) *)
Theorem key_parse_print_all : forall n k, length k = n -> bytes k -> parse_key n (hex_print k) = Some k.
Proof.
  intros n k L B. unfold parse_key. rewrite hex_print_length, L, PeanoNat.Nat.eqb_refl. apply hex_pairs_print. exact B.
Qed.
