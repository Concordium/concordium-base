(** * CcSchemaNew — [VersionedModuleSchema::new] (schema.rs:1187) as a dispatch with its three error kinds, on
    bytes with and without the version prefix.

    [from_bytes::<VersionedModuleSchema>] is tried first (prefix ff ff, version byte, module; trailing bytes are
    not an error); only when it fails does the caller's [schema_version] decide:
    [Some(0..3)] -> that module version's decoder (failure = ParseError), [Some(_)] -> InvalidSchemaVersion,
    [None] -> MissingSchemaVersion. *)
From Coq Require Import NArith ZArith Bool List Lia.
From CB Require Import Contract.SchemaJson Contract.CcSchemaCodec Contract.CcSchemaCodecProofs Contract.CcSchemaCodecFuel
  Contract.Base64 Contract.Base64Proofs.
Import ListNotations.
Local Open Scope N_scope.

Inductive new_error := NewParseError | NewMissingVersion | NewInvalidVersion.
Inductive new_result := NewOk (m : module_schema) | NewErr (e : new_error).

Definition schema_new_r (bs : list N) (version : option N) : new_result :=
  match dec_versioned_top bs with
  | Some (m, _) => NewOk m
  | None =>
      match version with
      | None => NewErr NewMissingVersion
      | Some v => if v <=? 3
                  then match dec_module_top v bs with
                       | Some (m, _) => NewOk m
                       | None => NewErr NewParseError
                       end
                  else NewErr NewInvalidVersion
      end
  end.

Definition contracts_count (m : module_schema) : nat :=
  match m with MV0 cs => length cs | MV1 cs => length cs | MV2 cs => length cs | MV3 cs => length cs end.

(** the unversioned bytes do not begin with the prefix ff ff: the low 16 bits of the contract count are not all set *)
Definition no_prefix_clash (m : module_schema) : Prop := N.of_nat (contracts_count m) mod 65536 <> 65535.

(** the option-valued [schema_new] of [CcSchemaCodec.v] is this dispatch without the error kinds *)
Theorem schema_new_r_ok : forall bs v m, schema_new_r bs v = NewOk m <-> schema_new bs v = Some m.
Proof.
  intros bs v m. unfold schema_new_r, schema_new.
  destruct (dec_versioned_top bs) as [[m' r]|].
  - split; intros H; inversion H; reflexivity.
  - destruct v as [v|]; [|split; discriminate].
    destruct (N.leb_spec v 3) as [Hle|Hgt].
    + destruct (dec_module_top v bs) as [[m' r]|]; split; intros H; inversion H; reflexivity.
    + split; [discriminate|].
      unfold dec_module_top, dec_module_body.
      destruct v as [|[[[]|[]|]|[[]|[]|]|]]; try lia; discriminate.
Qed.

(** total: one of the four outcomes, and which one is decided by the two decoders and the hint alone *)
Theorem schema_new_r_total : forall bs v,
  (exists m, schema_new_r bs v = NewOk m) \/ schema_new_r bs v = NewErr NewParseError \/
  schema_new_r bs v = NewErr NewMissingVersion \/ schema_new_r bs v = NewErr NewInvalidVersion.
Proof.
  intros bs v. destruct (schema_new_r bs v) as [m|[]]; eauto.
Qed.

Theorem schema_new_r_errors : forall bs v,
  (schema_new_r bs v = NewErr NewMissingVersion <-> dec_versioned_top bs = None /\ v = None) /\
  (schema_new_r bs v = NewErr NewInvalidVersion <-> dec_versioned_top bs = None /\ exists x, v = Some x /\ 3 < x) /\
  (schema_new_r bs v = NewErr NewParseError <->
     dec_versioned_top bs = None /\ exists x, v = Some x /\ x <= 3 /\ dec_module_top x bs = None).
Proof.
  intros bs v. unfold schema_new_r.
  destruct (dec_versioned_top bs) as [[m r]|].
  { repeat split; try discriminate; intros [H _]; discriminate. }
  destruct v as [x|].
  - destruct (N.leb_spec x 3).
    + destruct (dec_module_top x bs) as [[m r]|] eqn:E; repeat split; try discriminate;
        try (intros [_ H']; try discriminate; destruct H' as [y [Hy Hy']]; inversion Hy; subst; try lia;
             destruct Hy' as [_ Hy']; congruence).
      exists x. auto.
    + repeat split; try discriminate;
        try (intros [_ H']; try discriminate; destruct H' as [y [Hy Hy']]; inversion Hy; subst; lia).
      exists x. auto.
  - repeat split; try discriminate; intros [_ [y [Hy _]]]; discriminate.
Qed.

(** with the prefix: the hint is irrelevant, trailing bytes are ignored *)
Theorem schema_new_r_versioned : forall m rest v, cwf_module m = true ->
  schema_new_r (enc_versioned m ++ rest) v = NewOk m.
Proof.
  intros m rest v Hw. unfold schema_new_r. rewrite enc_dec_versioned_top by auto. reflexivity.
Qed.

Lemma body_not_versioned : forall m rest, cwf_module m = true -> no_prefix_clash m ->
  dec_versioned_top (enc_module_body m ++ rest) = None.
Proof.
  intros m rest Hw Hc. unfold dec_versioned_top.
  assert (Hb : exists k tl, enc_module_body m = u32 k ++ tl /\ k = contracts_count m).
  { destruct m as [cs|cs|cs|cs]; cbn [enc_module_body contracts_count]; unfold enc_map; eauto. }
  destruct Hb as [k [tl [-> ->]]]. unfold no_prefix_clash in Hc.
  assert (Hl : N.of_nat (contracts_count m) < 2 ^ 32).
  { destruct m as [cs|cs|cs|cs]; cbn [cwf_module contracts_count] in *; unfold cwf_map in Hw;
      apply andb_true_iff in Hw; destruct Hw as [Hw _]; apply andb_true_iff in Hw; destruct Hw as [Hw _];
      unfold len_ok in Hw; apply N.ltb_lt in Hw; exact Hw. }
  unfold u32. rewrite N.mod_small by exact Hl.
  remember (N.of_nat (contracts_count m)) as n.
  cbn [le app]. rewrite dec_versioned_cons.
  destruct (N.eqb_spec (n mod 256) 255); destruct (N.eqb_spec ((n / 256) mod 256) 255); try reflexivity.
  destruct Hc. change 65536 with (256 * 256). rewrite N.mod_mul_r, e, e0 by discriminate. reflexivity.
Qed.

(** without the prefix: the right hint gives the module, no hint / a hint above 3 the two specific errors *)
Theorem schema_new_r_unversioned : forall m rest, cwf_module m = true -> no_prefix_clash m ->
  schema_new_r (enc_module_body m ++ rest) (Some (module_version m)) = NewOk m /\
  schema_new_r (enc_module_body m ++ rest) None = NewErr NewMissingVersion /\
  (forall v, 3 < v -> schema_new_r (enc_module_body m ++ rest) (Some v) = NewErr NewInvalidVersion).
Proof.
  intros m rest Hw Hc. unfold schema_new_r. rewrite body_not_versioned by auto.
  repeat split.
  - assert (Hv : module_version m <=? 3 = true) by (destruct m; reflexivity).
    rewrite Hv. rewrite enc_dec_module_top by auto. reflexivity.
  - intros v Hv. destruct (N.leb_spec v 3); [lia|reflexivity].
Qed.

(** consistency of the two forms: same result  <=>  same schema *)
Theorem schema_new_forms_agree : forall m1 m2 hint r1 r2,
  cwf_module m1 = true -> cwf_module m2 = true -> no_prefix_clash m1 ->
  (schema_new_r (enc_module_body m1 ++ r1) (Some (module_version m1)) = schema_new_r (enc_versioned m2 ++ r2) hint
   <-> m1 = m2).
Proof.
  intros m1 m2 hint r1 r2 H1 H2 Hc.
  destruct (schema_new_r_unversioned m1 r1 H1 Hc) as [-> _].
  rewrite schema_new_r_versioned by auto. split; [intros H; inversion H; reflexivity|intros ->; reflexivity].
Qed.

(** the hint is needed: the bytes without prefix do not determine the version *)
Theorem unversioned_bytes_ambiguous :
  enc_module_body (MV0 []) = enc_module_body (MV1 []) /\ MV0 [] <> MV1 [] /\
  schema_new_r (enc_module_body (MV0 [])) (Some 1) = NewOk (MV1 []).
Proof. repeat split; try discriminate; reflexivity. Qed.

(** ... but bytes and version together do *)
Theorem unversioned_injective : forall m1 m2, cwf_module m1 = true -> cwf_module m2 = true ->
  module_version m1 = module_version m2 -> enc_module_body m1 = enc_module_body m2 -> m1 = m2.
Proof.
  intros m1 m2 H1 H2 Hv He.
  pose proof (enc_dec_module_top m1 [] H1) as A. pose proof (enc_dec_module_top m2 [] H2) as B.
  rewrite Hv, He in A. rewrite A in B. inversion B. reflexivity.
Qed.

(** [from_base64_str]: base64 (no padding) then the versioned decoder *)
Definition schema_from_base64 (s : list N) : option module_schema :=
  match b64_decode s with
  | Some bytes => match dec_versioned_top bytes with Some (m, _) => Some m | None => None end
  | None => None
  end.

Theorem schema_b64_roundtrip : forall m, cwf_module m = true -> b64_bytes_ok (enc_versioned m) = true ->
  exists bytes, b64_decode (b64_encode (enc_versioned m)) = Some bytes /\ dec_versioned_top bytes = Some (m, []).
Proof.
  intros m Hw Hb. exists (enc_versioned m). split; [apply b64_decode_encode; auto|].
  pose proof (enc_dec_versioned_top m [] Hw) as H. rewrite app_nil_r in H. exact H.
Qed.

(** executable probe for the correspondence run: result kind and the module re-encoded with prefix *)
Definition new_probe (bs : list N) (v : option N) : N * list N :=
  match schema_new_r bs v with
  | NewOk m => (0, enc_versioned m)
  | NewErr NewParseError => (1, [])
  | NewErr NewMissingVersion => (2, [])
  | NewErr NewInvalidVersion => (3, [])
  end.
