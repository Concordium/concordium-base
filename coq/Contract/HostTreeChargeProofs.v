(** C14 - the tree-traversal charge precedes the work: when [state_delete_prefix] or
    [state_iterator_next] end in OutOfEnergy, nothing the contract or the chain can observe has
    changed (linear memory, entries, iterators, locks, expanded nodes, logs, return value). *)
From Coq Require Import List.
From CB Require Import Contract.HostBase Contract.HostBaseProofs Contract.HostV0 Contract.HostV1.
Import ListNotations.
Local Open Scope N_scope.

(** what is observable of a v1 execution state, apart from the energy and the event trace *)
Definition observables (s : st H1) :=
  (mem s, is_entries (x_is (h_ext (hs s))), is_iters (x_is (h_ext (hs s))), is_locks (x_is (h_ext (hs s))),
   is_emap (x_is (h_ext (hs s))), x_exp (h_ext (hs s)), h_logs (hs s), x_rv (h_ext (hs s))).

Definition ooe_obs {A} (m : M1 A) : Prop :=
  forall s, snd (m s) = OutOfEnergy -> observables (fst (m s)) = observables s.
Lemma ooe_frame_obs : forall A (m : M1 A), ooe_frame m -> ooe_obs m.
Proof. intros A m H s E. unfold observables. destruct (H s E) as [-> ->]. reflexivity. Qed.

Lemma stateless_get_x : stateless get_x.
Proof. unfold get_x. auto using stateless_bind, stateless_get_hs, stateless_ret. Qed.
Lemma stateless_get_is : stateless get_is.
Proof. unfold get_is. auto using stateless_bind, stateless_get_x, stateless_ret. Qed.
Lemma stateless_get_exp : stateless get_exp.
Proof. unfold get_exp. auto using stateless_bind, stateless_get_x, stateless_ret. Qed.
Lemma no_ooe_set_x : forall x, no_ooe (set_x x). Proof. intros. unfold set_x. auto with no_ooe. Qed.
#[global] Hint Resolve stateless_get_x stateless_get_is stateless_get_exp no_ooe_set_x : readonly no_ooe.
Lemma no_ooe_set_is : forall s, no_ooe (set_is s). Proof. intros. unfold set_is. auto with no_ooe. Qed.
Lemma no_ooe_set_exp : forall e, no_ooe (set_exp e). Proof. intros. unfold set_exp. auto with no_ooe. Qed.
Lemma readonly_tick_tree : forall n, readonly (tick_tree n). Proof. intros. unfold tick_tree. auto with readonly. Qed.
Lemma readonly_key_arg : forall cf cost a b, readonly (key_arg cf cost a b).
Proof. intros [] cost a b; unfold key_arg; auto 10 with readonly. Qed.
Lemma readonly_two_fields : forall a k j, readonly (two_fields a k j).
Proof. intros. unfold two_fields. auto 10 with readonly. Qed.
Lemma readonly_parse_call_args : forall data maxp, readonly (parse_call_args data maxp).
Proof. intros. unfold parse_call_args. auto 40 with readonly. Qed.
Lemma no_ooe_read_into : forall v a d o, no_ooe (read_into v a d o).
Proof. intros. unfold read_into. auto 10 with no_ooe. Qed.
#[global] Hint Resolve no_ooe_set_is no_ooe_set_exp
  readonly_tick_tree readonly_key_arg readonly_two_fields readonly_parse_call_args no_ooe_read_into : readonly no_ooe.

Lemma ooe_obs_bind : forall A B (m : M1 A) (f : A -> M1 B),
  readonly m -> (forall a, ooe_obs (f a)) -> ooe_obs (bind m f).
Proof.
  intros A B m f Hm Hf s. unfold bind. destruct (Hm s) as [E1 E2].
  destruct (m s) as [s' [a| | |]]; cbn [fst snd] in *; try (intros _; unfold observables; rewrite E1, E2; reflexivity).
  intros H. rewrite (Hf a s' H). unfold observables. rewrite E1, E2. reflexivity.
Qed.

(** [state_delete_prefix] marks the state as changed before the traversal is charged: the flag is
    not observable, everything else is updated after the charge *)
Lemma ooe_obs_mark_changed : forall B (k : istate -> M1 B), (forall s0, ooe_obs (k s0)) ->
  ooe_obs (s0 <- get_is ;; set_is (is_set_changed s0) ;;; k s0).
Proof.
  intros B k Hk s. cbv [bind get_is set_is get_x set_x get_hs set_hs ret]. cbn [fst snd].
  intros E. rewrite (Hk _ _ E). reflexivity.
Qed.

Theorem delete_prefix_ooe_unchanged : forall key_start key_len (s : st H1),
  snd (state_delete_prefix key_start key_len s) = OutOfEnergy ->
  observables (fst (state_delete_prefix key_start key_len s)) = observables s.
Proof.
  intros ks kl. change (ooe_obs (state_delete_prefix ks kl)). unfold state_delete_prefix. cbv zeta.
  apply ooe_obs_bind; [auto with readonly | intros key].
  apply ooe_obs_mark_changed with (k := fun s0 => if negb (any_live _) then _ else _). intros s0.
  apply ooe_frame_obs. repeat ooe_step.
Qed.

Theorem iterator_next_ooe_unchanged : forall it (s : st H1),
  snd (state_iterator_next it s) = OutOfEnergy ->
  observables (fst (state_iterator_next it s)) = observables s.
Proof.
  intros it. apply ooe_frame_obs. unfold state_iterator_next. repeat ooe_step.
Qed.
