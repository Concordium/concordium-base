(** * SchemaJsonLeb — the padded LEB128 forms of [Type::ULeb128(c)] / [Type::ILeb128(c)] as an iff.

    [uleb_fixed k n] / [sleb_fixed k z] are THE encodings with exactly [S k] bytes ([k] groups with the
    continuation bit, one final group).  [deserial_biguint] / [deserial_bigint] accept exactly those with
    [S k <= c] whose value fits [7 * S k] bits (unsigned) / [7 * S k] bits two's complement (signed);
    [serial_biguint] / [serial_bigint] write the one with the least [k]; the longer ones are the shortest one
    with the continuation bit set on its last byte followed by groups that only repeat zero / the sign.
    [uleb_strip] / [sleb_strip] remove that padding syntactically (no arithmetic on the value). *)
From Coq Require Import NArith ZArith Bool List Lia.
From CB Require Import Contract.ArithOpaque Contract.SchemaJson Contract.SchemaJsonLemmas Contract.SchemaJsonText.
Import ListNotations.
Local Open Scope N_scope.

(* [lia] with division and remainder by constants; the setting ends with the section, at file level it
   would reach every file that requires this one *)
Section DivMod.
#[local] Ltac Zify.zify_post_hook ::= Z.to_euclidean_division_equations.

(** the encoding of [n] with exactly [S k] bytes *)
Fixpoint uleb_fixed (k : nat) (n : N) : list N :=
  match k with
  | O => [n mod 128]
  | S k' => (n mod 128 + 128) :: uleb_fixed k' (n / 128)
  end.

Fixpoint sleb_fixed (k : nat) (z : Z) : list N :=
  match k with
  | O => [Z.to_N (z mod 128)%Z]
  | S k' => (Z.to_N (z mod 128)%Z + 128) :: sleb_fixed k' (z / 128)%Z
  end.

Definition is_single (v : N) (l : list N) : bool :=
  match l with [x] => x =? v | _ => false end.

(** drop the redundant trailing groups of an unsigned encoding: a zero group after a continuation bit *)
Fixpoint uleb_strip (bs : list N) : list N :=
  match bs with
  | [] => []
  | b :: r => match r with
              | [] => [b mod 128]
              | _ :: _ => let r' := uleb_strip r in
                          if is_single 0 r' then [b mod 128] else (b mod 128 + 128) :: r'
              end
  end.

(** signed: a final group 0 after a group with bit 6 clear, or 127 after a group with bit 6 set *)
Fixpoint sleb_strip (bs : list N) : list N :=
  match bs with
  | [] => []
  | b :: r => match r with
              | [] => [b mod 128]
              | _ :: _ => let r' := sleb_strip r in
                          let g := b mod 128 in
                          if (is_single 0 r' && (g <? 64)) || (is_single 127 r' && (64 <=? g))
                          then [g] else (g + 128) :: r'
              end
  end.

Lemma uleb_strip_cons2 : forall b x l, uleb_strip (b :: x :: l) =
  if is_single 0 (uleb_strip (x :: l)) then [b mod 128] else (b mod 128 + 128) :: uleb_strip (x :: l).
Proof. reflexivity. Qed.
Lemma sleb_strip_cons2 : forall b x l, sleb_strip (b :: x :: l) =
  if (is_single 0 (sleb_strip (x :: l)) && (b mod 128 <? 64)) || (is_single 127 (sleb_strip (x :: l)) && (64 <=? b mod 128))
  then [b mod 128] else (b mod 128 + 128) :: sleb_strip (x :: l).
Proof. reflexivity. Qed.

(** the value fits [S k] bytes *)
Definition ufits (k : nat) (n : N) : Prop := n < 2 ^ (7 * N.of_nat (S k)).
Definition sfits (k : nat) (z : Z) : Prop :=
  (- 2 ^ (7 * Z.of_nat (S k) - 1) <= z < 2 ^ (7 * Z.of_nat (S k) - 1))%Z.

Lemma upow_S : forall k : nat, 2 ^ (7 * N.of_nat (S k)) = 128 * 2 ^ (7 * N.of_nat k).
Proof.
  intros k. replace (7 * N.of_nat (S k)) with (7 + 7 * N.of_nat k) by lia.
  rewrite N.pow_add_r. reflexivity.
Qed.

Lemma spow_S : forall k : nat, (2 ^ (7 * Z.of_nat (S (S k)) - 1) = 128 * 2 ^ (7 * Z.of_nat (S k) - 1))%Z.
Proof.
  intros k. replace (7 * Z.of_nat (S (S k)) - 1)%Z with (7 + (7 * Z.of_nat (S k) - 1))%Z by lia.
  rewrite Z.pow_add_r by lia. reflexivity.
Qed.

Lemma ufits_0 : forall n, ufits 0 n <-> n < 128.
Proof. intros n. reflexivity. Qed.
Lemma sfits_0 : forall z, sfits 0 z <-> (-64 <= z < 64)%Z.
Proof. intros z. reflexivity. Qed.

Lemma ufits_S : forall k n, ufits (S k) n <-> ufits k (n / 128).
Proof. unfold ufits. intros k n. rewrite upow_S. lia. Qed.

Lemma sfits_S : forall k z, sfits (S k) z <-> sfits k (z / 128)%Z.
Proof.
  unfold sfits. intros k z. rewrite spow_S.
  remember (2 ^ (7 * Z.of_nat (S k) - 1))%Z as P. lia.
Qed.

Lemma mod128_add : forall m, m < 128 -> (m + 128) mod 128 = m.
Proof. intros m H. lia. Qed.
Lemma cont_byte : forall b, 128 <= b -> b < 256 -> b mod 128 + 128 = b.
Proof. intros b H1 H2. lia. Qed.

Lemma slow_group : forall z, Z.of_N (Z.to_N (z mod 128)%Z) = (z mod 128)%Z /\ Z.to_N (z mod 128)%Z < 128.
Proof. intros z. lia. Qed.

Lemma shift_S : forall shift, (2 ^ Z.of_N (shift + 7) = 128 * 2 ^ Z.of_N shift)%Z.
Proof. intros. rewrite N2Z.inj_add, Z.pow_add_r by lia. change (2 ^ Z.of_N 7)%Z with 128%Z. lia. Qed.

Lemma uleb_fixed_length : forall k n, length (uleb_fixed k n) = S k.
Proof. induction k; intros; cbn [uleb_fixed length]; auto. Qed.
Lemma sleb_fixed_length : forall k z, length (sleb_fixed k z) = S k.
Proof. induction k; intros; cbn [sleb_fixed length]; auto. Qed.

Lemma uleb_fixed_ok : forall k n, bytes_ok (uleb_fixed k n) = true.
Proof.
  induction k; intros n; cbn [uleb_fixed]; unfold bytes_ok in *; cbn [forallb];
    pose proof (N.mod_lt n 128 ltac:(lia)).
  - destruct (N.ltb_spec (n mod 128) 256); [reflexivity|lia].
  - destruct (N.ltb_spec (n mod 128 + 128) 256); [|lia]. apply IHk.
Qed.

Lemma sleb_fixed_ok : forall k z, bytes_ok (sleb_fixed k z) = true.
Proof.
  induction k; intros z; cbn [sleb_fixed]; unfold bytes_ok in *; cbn [forallb];
    pose proof (Z.mod_pos_bound z 128 ltac:(lia)).
  - destruct (N.ltb_spec (Z.to_N (z mod 128)%Z) 256); [reflexivity|lia].
  - destruct (N.ltb_spec (Z.to_N (z mod 128)%Z + 128) 256); [|lia]. apply IHk.
Qed.

Lemma uleb_fixed_single : forall v k n, is_single v (uleb_fixed k n) = match k with O => n mod 128 =? v | S _ => false end.
Proof. intros v [|[|k]] n; reflexivity. Qed.
Lemma sleb_fixed_single : forall v k z,
  is_single v (sleb_fixed k z) = match k with O => Z.to_N (z mod 128)%Z =? v | S _ => false end.
Proof. intros v [|[|k]] z; reflexivity. Qed.

Lemma uleb_fixed_dec : forall k n c shift acc rest, ufits k n -> N.of_nat (S k) <= c ->
  uleb_dec (uleb_fixed k n ++ rest) c shift acc = Some (acc + n * 2 ^ shift, rest).
Proof.
  induction k as [|k IH]; intros n c shift acc rest Hn Hc; cbn [uleb_fixed app uleb_dec];
    pose proof (N.div_mod n 128 ltac:(lia)) as Hdm;
    (destruct (N.eqb_spec c 0); [lia|]).
  - rewrite ufits_0 in Hn.
    rewrite N.mod_mod by lia. destruct (N.ltb_spec (n mod 128) 128); [|lia].
    rewrite N.mod_small by lia. reflexivity.
  - destruct (N.ltb_spec (n mod 128 + 128) 128); [lia|].
    rewrite mod128_add by lia. rewrite IH.
    + f_equal. f_equal. rewrite N.pow_add_r. change (2 ^ 7) with 128. lia.
    + apply -> ufits_S; auto.
    + lia.
Qed.

Lemma uleb_fixed_dec0 : forall k n c rest, ufits k n -> N.of_nat (S k) <= c ->
  uleb_dec (uleb_fixed k n ++ rest) c 0 0 = Some (n, rest).
Proof. intros. rewrite uleb_fixed_dec by auto. change (2 ^ 0) with 1. f_equal. f_equal. lia. Qed.

Lemma uleb_dec_fixed : forall bs c shift acc v rest, bytes_ok bs = true ->
  uleb_dec bs c shift acc = Some (v, rest) ->
  exists k n, bs = uleb_fixed k n ++ rest /\ ufits k n /\ N.of_nat (S k) <= c /\ v = acc + n * 2 ^ shift.
Proof.
  induction bs as [|b bs IH]; intros c shift acc v rest Hb H; cbn [uleb_dec] in H.
  - destruct (c =? 0); discriminate.
  - destruct (N.eqb_spec c 0); [discriminate|].
    unfold bytes_ok in Hb. cbn [forallb] in Hb. apply andb_true_iff in Hb. destruct Hb as [Hb1 Hb2].
    apply N.ltb_lt in Hb1.
    destruct (N.ltb_spec b 128).
    + injection H as <- <-. exists O, b. rewrite ufits_0. cbn [uleb_fixed app].
      rewrite N.mod_small by lia. repeat split; auto; lia.
    + destruct (IH _ _ _ _ _ Hb2 H) as [k [m [-> [Hf [Hc Hv]]]]].
      exists (S k), (b mod 128 + 128 * m).
      destruct (digit_cons 128 (b mod 128) m) as [Hr Hq]; [apply N.mod_lt; discriminate|].
      cbn [uleb_fixed app]. rewrite ufits_S, Hq, Hr. repeat split; auto.
      * rewrite cont_byte by assumption. reflexivity.
      * lia.
      * rewrite Hv. rewrite N.pow_add_r. change (2 ^ 7) with 128. lia.
Qed.

(** the iff for [Type::ULeb128(c)] *)
Theorem uleb_dec_iff : forall bs c n rest, bytes_ok bs = true ->
  (uleb_dec bs c 0 0 = Some (n, rest) <->
   exists k, N.of_nat (S k) <= c /\ ufits k n /\ bs = uleb_fixed k n ++ rest).
Proof.
  intros bs c n rest Hb. split.
  - intros H. destruct (uleb_dec_fixed _ _ _ _ _ _ Hb H) as [k [m [-> [Hf [Hc Hv]]]]].
    change (2 ^ 0) with 1 in Hv. assert (n = m) by lia. subst m. exists k. auto.
  - intros [k [Hc [Hf ->]]]. apply uleb_fixed_dec0; auto.
Qed.

Lemma uleb_fixed_inj : forall k n m, ufits k n -> ufits k m -> uleb_fixed k n = uleb_fixed k m -> n = m.
Proof.
  intros k n m Hn Hm H. pose proof (uleb_fixed_dec0 k n _ [] Hn (N.le_refl _)) as A.
  rewrite H, uleb_fixed_dec0 in A by (exact Hm || apply N.le_refl). injection A as ->. reflexivity.
Qed.

Lemma ufuel_div : forall f n, n < 2 ^ N.of_nat (S f) -> n / 128 <> 0 ->
  n / 128 < 2 ^ N.of_nat f /\ (0 < f)%nat.
Proof.
  intros [|f] n Hn E.
  - change (2 ^ N.of_nat 1) with 2 in Hn. lia.
  - replace (N.of_nat (S (S f))) with (1 + N.of_nat (S f)) in Hn by lia.
    rewrite N.pow_add_r in Hn. change (2 ^ 1) with 2 in Hn. lia.
Qed.

Lemma uleb_groups_least : forall fuel n, n < 2 ^ N.of_nat fuel -> (0 < fuel)%nat ->
  exists k, uleb_groups fuel n = uleb_fixed k n /\ ufits k n /\ forall k', ufits k' n -> (k <= k')%nat.
Proof.
  induction fuel as [|f IH]; intros n Hn Hf; [lia|].
  cbn [uleb_groups]. destruct (N.eqb_spec (n / 128) 0) as [E|E].
  - exists O. rewrite ufits_0. repeat split; [lia|intros; lia].
  - destruct (ufuel_div _ _ Hn E) as [Hq Hf'].
    destruct (IH _ Hq Hf') as [k [Hg [Hk Hmin]]]. exists (S k). rewrite Hg, ufits_S.
    repeat split; auto. intros [|k'] Hk'.
    + rewrite ufits_0 in Hk'. lia.
    + apply le_n_S, Hmin. apply -> ufits_S. exact Hk'.
Qed.

(** [serial_biguint] writes the fixed form with the least number of bytes, when that is within [c] *)
Theorem uleb_enc_canonical : forall c n g, uleb_enc c n = Some g ->
  exists k, g = uleb_fixed k n /\ ufits k n /\ N.of_nat (S k) <= c /\
            (forall k', ufits k' n -> (k <= k')%nat).
Proof.
  unfold uleb_enc. intros c n g H.
  destruct (uleb_groups_least _ n (fuel_ok_N n) ltac:(lia)) as [k [Hg [Hk Hmin]]].
  rewrite Hg, uleb_fixed_length in H.
  destruct (N.leb_spec (N.of_nat (S k)) c); [|discriminate]. injection H as <-. exists k. auto.
Qed.

Theorem uleb_enc_iff : forall c n, (exists g, uleb_enc c n = Some g) <-> (exists k, ufits k n /\ N.of_nat (S k) <= c).
Proof.
  intros c n. split.
  - intros [g H]. destruct (uleb_enc_canonical _ _ _ H) as [k [_ [Hf [Hc _]]]]. eauto.
  - intros [k [Hf Hc]]. unfold uleb_enc.
    destruct (uleb_groups_least _ n (fuel_ok_N n) ltac:(lia)) as [k0 [Hg [_ Hmin]]].
    rewrite Hg, uleb_fixed_length. specialize (Hmin _ Hf).
    destruct (N.leb_spec (N.of_nat (S k0)) c); [eauto|lia].
Qed.

Lemma uleb_roundtrip : forall c n bs rest, uleb_enc c n = Some bs ->
  uleb_dec (bs ++ rest) c 0 0 = Some (n, rest).
Proof.
  intros c n bs rest H. destruct (uleb_enc_canonical _ _ _ H) as [k [-> [Hf [Hc _]]]].
  apply uleb_fixed_dec0; auto.
Qed.

Lemma uleb_dec_enc : forall bs c n rest, bytes_ok bs = true -> uleb_dec bs c 0 0 = Some (n, rest) ->
  exists g pre, uleb_enc c n = Some g /\ bs = pre ++ rest.
Proof.
  intros bs c n rest Hb H. apply uleb_dec_iff in H; auto. destruct H as [k [Hc [Hf ->]]].
  destruct (proj2 (uleb_enc_iff c n)) as [g He]; eauto.
Qed.

Lemma uleb_fixed_zero : forall j, uleb_fixed j 0 = repeat 128 j ++ [0].
Proof. induction j; cbn [uleb_fixed repeat app]; [reflexivity|]. change (0 / 128) with 0. rewrite IHj. reflexivity. Qed.

(** a longer form = the shorter one with its last byte's continuation bit set, [j] groups [0x80], one [0x00] *)
Theorem uleb_fixed_pad : forall k j n, ufits k n ->
  uleb_fixed (k + S j) n =
  removelast (uleb_fixed k n) ++ [last (uleb_fixed k n) 0 + 128] ++ repeat 128 j ++ [0].
Proof.
  induction k as [|k IH]; intros j n Hf.
  - rewrite ufits_0 in Hf. cbn [Nat.add uleb_fixed removelast last app].
    rewrite N.div_small by lia. rewrite uleb_fixed_zero. reflexivity.
  - cbn [Nat.add uleb_fixed]. rewrite IH by (apply -> ufits_S; auto).
    remember (uleb_fixed k (n / 128)) as l. destruct l as [|x l'].
    { pose proof (uleb_fixed_length k (n / 128)) as Hl. rewrite <- Heql in Hl. discriminate. }
    reflexivity.
Qed.

(** [uleb_strip] of any accepted form is the shortest one: the recursion has stripped the tail to the
    shortest form of [n / 128], which is the single group 0 exactly when [n] itself fits one byte *)
Theorem uleb_strip_fixed : forall k n k0, ufits k n -> ufits k0 n -> (forall k', ufits k' n -> (k0 <= k')%nat) ->
  uleb_strip (uleb_fixed k n) = uleb_fixed k0 n.
Proof.
  induction k as [|k IH]; intros n k0 Hf H0 Hmin.
  - assert (k0 = O) by (specialize (Hmin _ Hf); lia). subst k0.
    cbn [uleb_fixed uleb_strip]. rewrite N.mod_mod by lia. reflexivity.
  - cbn [uleb_fixed]. pose proof (uleb_fixed_length k (n / 128)) as Hl.
    destruct (uleb_fixed k (n / 128)) as [|x l] eqn:El; [discriminate|].
    rewrite uleb_strip_cons2, <- El, mod128_add by lia. apply ufits_S in Hf.
    destruct k0 as [|k0].
    + rewrite ufits_0 in H0. rewrite (IH _ O Hf) by (rewrite ?ufits_0; intros; lia).
      rewrite uleb_fixed_single. replace (n / 128) with 0 by lia. reflexivity.
    + apply ufits_S in H0.
      rewrite (IH _ k0 Hf H0) by (intros k' Hk'; apply <- ufits_S in Hk'; apply Hmin in Hk'; lia).
      rewrite uleb_fixed_single. destruct k0; [|reflexivity].
      rewrite ufits_0 in H0. destruct (N.eqb_spec ((n / 128) mod 128) 0); [|reflexivity].
      assert (ufits 0 n) as Hk' by (apply ufits_0; lia). apply Hmin in Hk'. lia.
Qed.

Lemma sleb_fixed_dec : forall k z c shift acc rest, sfits k z -> N.of_nat (S k) <= c ->
  sleb_dec (sleb_fixed k z ++ rest) c shift acc = Some ((acc + z * 2 ^ Z.of_N shift)%Z, rest).
Proof.
  induction k as [|k IH]; intros z c shift acc rest Hz Hc; cbn [sleb_fixed app sleb_dec];
    destruct (slow_group z) as [Hb Hb128]; remember (Z.to_N (z mod 128)%Z) as b eqn:Eb;
    (destruct (N.eqb_spec c 0); [lia|]).
  - rewrite sfits_0 in Hz.
    rewrite N.mod_small by lia. destruct (N.ltb_spec b 128); [|lia].
    f_equal. f_equal. rewrite Hb, shift_S. remember (2 ^ Z.of_N shift)%Z as P.
    destruct (N.leb_spec 64 b).
    + assert (z / 128 = -1)%Z by lia. lia.
    + assert (z / 128 = 0)%Z by lia. lia.
  - destruct (N.ltb_spec (b + 128) 128); [lia|].
    rewrite mod128_add by lia. rewrite IH.
    + f_equal. f_equal. rewrite Hb, shift_S. remember (2 ^ Z.of_N shift)%Z as P. lia.
    + apply -> sfits_S; auto.
    + lia.
Qed.

Lemma sleb_fixed_dec0 : forall k z c rest, sfits k z -> N.of_nat (S k) <= c ->
  sleb_dec (sleb_fixed k z ++ rest) c 0 0 = Some (z, rest).
Proof. intros. rewrite sleb_fixed_dec by auto. change (2 ^ Z.of_N 0)%Z with 1%Z. f_equal. f_equal. lia. Qed.

Lemma sleb_dec_fixed : forall bs c shift acc v rest, bytes_ok bs = true ->
  sleb_dec bs c shift acc = Some (v, rest) ->
  exists k z, bs = sleb_fixed k z ++ rest /\ sfits k z /\ N.of_nat (S k) <= c /\ v = (acc + z * 2 ^ Z.of_N shift)%Z.
Proof.
  induction bs as [|b bs IH]; intros c shift acc v rest Hb H; cbn [sleb_dec] in H.
  - destruct (c =? 0); discriminate.
  - destruct (N.eqb_spec c 0); [discriminate|].
    unfold bytes_ok in Hb. cbn [forallb] in Hb. apply andb_true_iff in Hb. destruct Hb as [Hb1 Hb2].
    apply N.ltb_lt in Hb1. pose proof (shift_S shift) as Hpow.
    destruct (N.ltb_spec b 128).
    + rewrite N.mod_small in H by lia.
      destruct (N.leb_spec 64 b); injection H as <- <-.
      * exists O, (Z.of_N b - 128)%Z. rewrite sfits_0. cbn [sleb_fixed app].
        replace ((Z.of_N b - 128) mod 128)%Z with (Z.of_N b) by lia.
        rewrite N2Z.id. repeat split; auto; lia.
      * exists O, (Z.of_N b). rewrite sfits_0. cbn [sleb_fixed app].
        rewrite Z.mod_small by lia. rewrite N2Z.id. repeat split; auto; lia.
    + destruct (IH _ _ _ _ _ Hb2 H) as [k [m [-> [Hf [Hc Hv]]]]].
      exists (S k), (Z.of_N (b mod 128) + 128 * m)%Z.
      destruct (digit_cons_Z 128 (Z.of_N (b mod 128)) m) as [Hr Hq]; [lia|].
      cbn [sleb_fixed app]. rewrite sfits_S, Hq, Hr, N2Z.id. split; [|split; [exact Hf|split]].
      * rewrite cont_byte by assumption. reflexivity.
      * lia.
      * rewrite Hv, Hpow. remember (2 ^ Z.of_N shift)%Z as P. lia.
Qed.

(** the iff for [Type::ILeb128(c)] *)
Theorem sleb_dec_iff : forall bs c z rest, bytes_ok bs = true ->
  (sleb_dec bs c 0 0 = Some (z, rest) <->
   exists k, N.of_nat (S k) <= c /\ sfits k z /\ bs = sleb_fixed k z ++ rest).
Proof.
  intros bs c z rest Hb. split.
  - intros H. destruct (sleb_dec_fixed _ _ _ _ _ _ Hb H) as [k [m [-> [Hf [Hc Hv]]]]].
    change (2 ^ Z.of_N 0)%Z with 1%Z in Hv. assert (z = m) by lia. subst m. exists k. auto.
  - intros [k [Hc [Hf ->]]]. apply sleb_fixed_dec0; auto.
Qed.

Lemma sleb_fixed_inj : forall k n m, sfits k n -> sfits k m -> sleb_fixed k n = sleb_fixed k m -> n = m.
Proof.
  intros k n m Hn Hm H. pose proof (sleb_fixed_dec0 k n _ [] Hn (N.le_refl _)) as A.
  rewrite H, sleb_fixed_dec0 in A by (exact Hm || apply N.le_refl). injection A as ->. reflexivity.
Qed.

Definition sleb_last (z' : Z) (b : N) : bool :=
  ((z' =? 0)%Z && (b <? 64)) || ((z' =? -1)%Z && (64 <=? b)).

Lemma sleb_groups_unfold : forall f z, sleb_groups (S f) z =
  if sleb_last (z / 128)%Z (Z.to_N (z mod 128)%Z) then [Z.to_N (z mod 128)%Z]
  else (Z.to_N (z mod 128)%Z + 128) :: sleb_groups f (z / 128)%Z.
Proof. reflexivity. Qed.

Lemma sleb_last_fits : forall z, sleb_last (z / 128)%Z (Z.to_N (z mod 128)%Z) = true <-> sfits 0 z.
Proof.
  intros z. rewrite sfits_0. unfold sleb_last.
  rewrite orb_true_iff, !andb_true_iff, !Z.eqb_eq, N.ltb_lt, N.leb_le. lia.
Qed.

Lemma sfuel_div : forall f z, (- 2 ^ Z.of_nat (S f) <= z < 2 ^ Z.of_nat (S f))%Z -> ~ sfits 0 z ->
  (- 2 ^ Z.of_nat f <= z / 128 < 2 ^ Z.of_nat f)%Z /\ (0 < f)%nat.
Proof.
  intros [|f] z H E; rewrite sfits_0 in E.
  - change (2 ^ Z.of_nat 1)%Z with 2%Z in H. lia.
  - replace (Z.of_nat (S (S f))) with (1 + Z.of_nat (S f))%Z in H by lia.
    rewrite Z.pow_add_r in H by lia. change (2 ^ 1)%Z with 2%Z in H.
    assert (0 < 2 ^ Z.of_nat (S f))%Z by (apply Z.pow_pos_nonneg; lia).
    remember (2 ^ Z.of_nat (S f))%Z as Q. lia.
Qed.

Lemma sleb_groups_least : forall fuel z, (- 2 ^ Z.of_nat fuel <= z < 2 ^ Z.of_nat fuel)%Z -> (0 < fuel)%nat ->
  exists k, sleb_groups fuel z = sleb_fixed k z /\ sfits k z /\ forall k', sfits k' z -> (k <= k')%nat.
Proof.
  induction fuel as [|f IH]; intros z Hz Hf; [lia|].
  rewrite sleb_groups_unfold. destruct (sleb_last _ _) eqn:E.
  - apply sleb_last_fits in E. exists O. split; [reflexivity|]. split; [exact E|intros; lia].
  - assert (E0 : ~ sfits 0 z) by (rewrite <- sleb_last_fits, E; discriminate).
    destruct (sfuel_div _ _ Hz E0) as [Hq Hf'].
    destruct (IH _ Hq Hf') as [k [Hg [Hk Hmin]]]. exists (S k). rewrite Hg, sfits_S.
    split; [reflexivity|]. split; [exact Hk|]. intros [|k'] Hk'; [contradiction|].
    apply le_n_S, Hmin. apply -> sfits_S. exact Hk'.
Qed.

Theorem sleb_enc_canonical : forall c z g, sleb_enc c z = Some g ->
  exists k, g = sleb_fixed k z /\ sfits k z /\ N.of_nat (S k) <= c /\
            (forall k', sfits k' z -> (k <= k')%nat).
Proof.
  unfold sleb_enc. intros c z g H.
  destruct (sleb_groups_least _ z (fuel_ok_Z z) ltac:(lia)) as [k [Hg [Hk Hmin]]].
  rewrite Hg, sleb_fixed_length in H.
  destruct (N.leb_spec (N.of_nat (S k)) c); [|discriminate]. injection H as <-. exists k. auto.
Qed.

Theorem sleb_enc_iff : forall c z, (exists g, sleb_enc c z = Some g) <-> (exists k, sfits k z /\ N.of_nat (S k) <= c).
Proof.
  intros c z. split.
  - intros [g H]. destruct (sleb_enc_canonical _ _ _ H) as [k [_ [Hf [Hc _]]]]. eauto.
  - intros [k [Hf Hc]]. unfold sleb_enc.
    destruct (sleb_groups_least _ z (fuel_ok_Z z) ltac:(lia)) as [k0 [Hg [_ Hmin]]].
    rewrite Hg, sleb_fixed_length. specialize (Hmin _ Hf).
    destruct (N.leb_spec (N.of_nat (S k0)) c); [eauto|lia].
Qed.

Lemma sleb_roundtrip : forall c z bs rest, sleb_enc c z = Some bs ->
  sleb_dec (bs ++ rest) c 0 0 = Some (z, rest).
Proof.
  intros c z bs rest H. destruct (sleb_enc_canonical _ _ _ H) as [k [-> [Hf [Hc _]]]].
  apply sleb_fixed_dec0; auto.
Qed.

Lemma sleb_dec_enc : forall bs c z rest, bytes_ok bs = true -> sleb_dec bs c 0 0 = Some (z, rest) ->
  exists g pre, sleb_enc c z = Some g /\ bs = pre ++ rest.
Proof.
  intros bs c z rest Hb H. apply sleb_dec_iff in H; auto. destruct H as [k [Hc [Hf ->]]].
  destruct (proj2 (sleb_enc_iff c z)) as [g He]; eauto.
Qed.

(** sign padding: groups 0x80.. 0x00 for a non-negative value, 0xff.. 0x7f for a negative one *)
Definition sign_cont (z : Z) : N := if (z <? 0)%Z then 255 else 128.
Definition sign_last (z : Z) : N := if (z <? 0)%Z then 127 else 0.

Lemma sleb_fixed_sign : forall j z, (z = 0 \/ z = -1)%Z ->
  sleb_fixed j z = repeat (sign_cont z) j ++ [sign_last z].
Proof.
  induction j; intros z Hz; cbn [sleb_fixed repeat app].
  - destruct Hz; subst; reflexivity.
  - rewrite IHj; destruct Hz; subst; auto; reflexivity.
Qed.

Theorem sleb_fixed_pad : forall k j z, sfits k z ->
  sleb_fixed (k + S j) z =
  removelast (sleb_fixed k z) ++ [last (sleb_fixed k z) 0 + 128] ++ repeat (sign_cont z) j ++ [sign_last z].
Proof.
  induction k as [|k IH]; intros j z Hf.
  - rewrite sfits_0 in Hf. cbn [Nat.add sleb_fixed removelast last app].
    assert (Hq : (z / 128 = 0 /\ 0 <= z \/ z / 128 = -1 /\ z < 0)%Z) by lia.
    rewrite sleb_fixed_sign by lia. unfold sign_cont, sign_last.
    destruct Hq as [[-> Hs]|[-> Hs]]; destruct (Z.ltb_spec z 0); try lia; reflexivity.
  - cbn [Nat.add sleb_fixed]. rewrite IH by (apply -> sfits_S; auto).
    remember (sleb_fixed k (z / 128)%Z) as l. destruct l as [|x l'].
    { pose proof (sleb_fixed_length k (z / 128)%Z) as Hl. rewrite <- Heql in Hl. discriminate. }
    assert (Hs : (z / 128 <? 0)%Z = (z <? 0)%Z) by (apply eq_iff_eq_true; rewrite !Z.ltb_lt; lia).
    unfold sign_cont, sign_last. rewrite Hs. reflexivity.
Qed.

Lemma sleb_strip_test : forall q b, sfits 0 q ->
  (is_single 0 (sleb_fixed 0 q) && (b <? 64)) || (is_single 127 (sleb_fixed 0 q) && (64 <=? b)) = sleb_last q b.
Proof.
  intros q b Hq. rewrite sfits_0 in Hq. unfold sleb_last. cbn [sleb_fixed is_single].
  assert (E0 : Z.to_N (q mod 128)%Z =? 0 = (q =? 0)%Z) by (apply eq_iff_eq_true; rewrite N.eqb_eq, Z.eqb_eq; lia).
  assert (E1 : Z.to_N (q mod 128)%Z =? 127 = (q =? -1)%Z) by (apply eq_iff_eq_true; rewrite N.eqb_eq, Z.eqb_eq; lia).
  rewrite E0, E1. reflexivity.
Qed.

Theorem sleb_strip_fixed : forall k z k0, sfits k z -> sfits k0 z -> (forall k', sfits k' z -> (k0 <= k')%nat) ->
  sleb_strip (sleb_fixed k z) = sleb_fixed k0 z.
Proof.
  induction k as [|k IH]; intros z k0 Hf H0 Hmin; destruct (slow_group z) as [_ Hb].
  - assert (k0 = O) by (specialize (Hmin _ Hf); lia). subst k0.
    cbn [sleb_fixed sleb_strip]. rewrite N.mod_small by exact Hb. reflexivity.
  - cbn [sleb_fixed]. pose proof (sleb_fixed_length k (z / 128)%Z) as Hl.
    destruct (sleb_fixed k (z / 128)%Z) as [|x l] eqn:El; [discriminate|].
    rewrite sleb_strip_cons2, <- El, mod128_add by exact Hb. apply sfits_S in Hf.
    destruct k0 as [|k0].
    + assert (Hq : sfits 0 (z / 128)%Z) by (rewrite sfits_0 in *; lia).
      rewrite (IH _ O Hf Hq) by (intros; lia).
      rewrite sleb_strip_test by exact Hq. rewrite (proj2 (sleb_last_fits z) H0). reflexivity.
    + apply sfits_S in H0.
      rewrite (IH _ k0 Hf H0) by (intros k' Hk'; apply <- sfits_S in Hk'; apply Hmin in Hk'; lia).
      destruct k0; [|rewrite !sleb_fixed_single; reflexivity].
      rewrite sleb_strip_test by exact H0.
      destruct (sleb_last _ _) eqn:E; [|reflexivity].
      apply sleb_last_fits, Hmin in E. lia.
Qed.


(** bytes -> JSON for [ULeb128(c)]: accepted iff a fixed form within [c] bytes; the text is the decimal value *)
Theorem uleb_to_json_iff : forall L c bs j rest, bytes_ok bs = true ->
  (to_json L (TULeb128 c) bs = Some (j, rest) <->
   exists k n, N.of_nat (S k) <= c /\ ufits k n /\ bs = uleb_fixed k n ++ rest /\ j = JStr (show_N n)).
Proof.
  intros L c bs j rest Hb. cbn [to_json]. split.
  - destruct (uleb_dec bs c 0 0) as [[n r]|] eqn:E; [|discriminate].
    intros H. injection H as <- <-. apply uleb_dec_iff in E; auto. destruct E as [k [Hc [Hf ->]]].
    exists k, n. auto.
  - intros [k [n [Hc [Hf [-> ->]]]]]. rewrite uleb_fixed_dec0 by auto. reflexivity.
Qed.

Theorem sleb_to_json_iff : forall L c bs j rest, bytes_ok bs = true ->
  (to_json L (TILeb128 c) bs = Some (j, rest) <->
   exists k z, N.of_nat (S k) <= c /\ sfits k z /\ bs = sleb_fixed k z ++ rest /\ j = JStr (show_Z z)).
Proof.
  intros L c bs j rest Hb. cbn [to_json]. split.
  - destruct (sleb_dec bs c 0 0) as [[n r]|] eqn:E; [|discriminate].
    intros H. injection H as <- <-. apply sleb_dec_iff in E; auto. destruct E as [k [Hc [Hf ->]]].
    exists k, n. auto.
  - intros [k [n [Hc [Hf [-> ->]]]]]. rewrite sleb_fixed_dec0 by auto. reflexivity.
Qed.

(** bytes -> JSON -> bytes: every accepted form prints the decimal value, and converting that back writes
    [uleb_strip] of the bytes read = the unique shortest form (no form of the value is shorter; a form of the
    same length is the same bytes); [uleb_strip] is idempotent on accepted forms *)
Theorem uleb_from_to_json : forall L c k n rest, N.of_nat (S k) <= c -> ufits k n ->
  let canon := uleb_strip (uleb_fixed k n) in
  to_json L (TULeb128 c) (uleb_fixed k n ++ rest) = Some (JStr (show_N n), rest) /\
  from_json L (TULeb128 c) (JStr (show_N n)) = Some canon /\
  to_json L (TULeb128 c) (canon ++ rest) = Some (JStr (show_N n), rest) /\
  (forall k', ufits k' n -> (length canon <= S k')%nat) /\
  (length canon = S k -> canon = uleb_fixed k n) /\
  uleb_strip canon = canon.
Proof.
  intros L c k n rest Hc Hf canon.
  destruct (proj2 (uleb_enc_iff c n)) as [g He]; [eauto|].
  destruct (uleb_enc_canonical _ _ _ He) as [k0 [-> [Hf0 [Hc0 Hmin]]]].
  assert (Hs : canon = uleb_fixed k0 n) by (apply uleb_strip_fixed; auto).
  rewrite Hs, uleb_fixed_length. cbn [to_json from_json].
  rewrite parse_biguint_show, !uleb_fixed_dec0 by auto. repeat split; auto.
  - intros k' Hk'. apply le_n_S, Hmin, Hk'.
  - intros Hl. injection Hl as ->. reflexivity.
  - apply uleb_strip_fixed; auto.
Qed.

Theorem sleb_from_to_json : forall L c k z rest, N.of_nat (S k) <= c -> sfits k z ->
  let canon := sleb_strip (sleb_fixed k z) in
  to_json L (TILeb128 c) (sleb_fixed k z ++ rest) = Some (JStr (show_Z z), rest) /\
  from_json L (TILeb128 c) (JStr (show_Z z)) = Some canon /\
  to_json L (TILeb128 c) (canon ++ rest) = Some (JStr (show_Z z), rest) /\
  (forall k', sfits k' z -> (length canon <= S k')%nat) /\
  (length canon = S k -> canon = sleb_fixed k z) /\
  sleb_strip canon = canon.
Proof.
  intros L c k z rest Hc Hf canon.
  destruct (proj2 (sleb_enc_iff c z)) as [g He]; [eauto|].
  destruct (sleb_enc_canonical _ _ _ He) as [k0 [-> [Hf0 [Hc0 Hmin]]]].
  assert (Hs : canon = sleb_fixed k0 z) by (apply sleb_strip_fixed; auto).
  rewrite Hs, sleb_fixed_length. cbn [to_json from_json].
  rewrite parse_bigint_show, !sleb_fixed_dec0 by auto. repeat split; auto.
  - intros k' Hk'. apply le_n_S, Hmin, Hk'.
  - intros Hl. injection Hl as ->. reflexivity.
  - apply sleb_strip_fixed; auto.
Qed.

(** the two directions together, on arbitrary input bytes *)
Theorem uleb_to_from_json : forall L c bs j rest, bytes_ok bs = true ->
  to_json L (TULeb128 c) bs = Some (j, rest) ->
  exists pre, bs = pre ++ rest /\ from_json L (TULeb128 c) j = Some (uleb_strip pre) /\
              to_json L (TULeb128 c) (uleb_strip pre ++ rest) = Some (j, rest) /\
              (length (uleb_strip pre) <= length pre)%nat /\
              (length (uleb_strip pre) = length pre -> uleb_strip pre = pre).
Proof.
  intros L c bs j rest Hb H. apply uleb_to_json_iff in H; auto.
  destruct H as [k [n [Hc [Hf [-> ->]]]]].
  destruct (uleb_from_to_json L c k n rest Hc Hf) as [_ [H2 [H3 [H4 [H5 _]]]]].
  exists (uleb_fixed k n). rewrite uleb_fixed_length. repeat split; auto.
Qed.

Theorem sleb_to_from_json : forall L c bs j rest, bytes_ok bs = true ->
  to_json L (TILeb128 c) bs = Some (j, rest) ->
  exists pre, bs = pre ++ rest /\ from_json L (TILeb128 c) j = Some (sleb_strip pre) /\
              to_json L (TILeb128 c) (sleb_strip pre ++ rest) = Some (j, rest) /\
              (length (sleb_strip pre) <= length pre)%nat /\
              (length (sleb_strip pre) = length pre -> sleb_strip pre = pre).
Proof.
  intros L c bs j rest Hb H. apply sleb_to_json_iff in H; auto.
  destruct H as [k [n [Hc [Hf [-> ->]]]]].
  destruct (sleb_from_to_json L c k n rest Hc Hf) as [_ [H2 [H3 [H4 [H5 _]]]]].
  exists (sleb_fixed k n). rewrite sleb_fixed_length. repeat split; auto.
Qed.

Fixpoint leb_list_eqb (a b : list N) : bool :=
  match a, b with
  | [], [] => true
  | x :: a', y :: b' => (x =? y) && leb_list_eqb a' b'
  | _, _ => false
  end.

(** decoded value (sign, magnitude), bytes left, [strip] of the bytes read, "the bytes read are the fixed form of
    the value", "the value fits that many bytes", and what the encoder writes for the value *)
Definition leb_probe (signed : bool) (c : N) (bs : list N)
  : option (bool * N * N * list N * bool * bool * option (list N)) :=
  if signed then
    match sleb_dec bs c 0 0 with
    | Some (z, rest) =>
        let pre := firstn (length bs - length rest) bs in
        let k := pred (length pre) in
        Some ((z <? 0)%Z, Z.abs_N z, N.of_nat (length rest), sleb_strip pre, leb_list_eqb pre (sleb_fixed k z),
              ((- 2 ^ (7 * Z.of_nat (S k) - 1) <=? z) && (z <? 2 ^ (7 * Z.of_nat (S k) - 1)))%Z, sleb_enc c z)
    | None => None
    end
  else
    match uleb_dec bs c 0 0 with
    | Some (n, rest) =>
        let pre := firstn (length bs - length rest) bs in
        let k := pred (length pre) in
        Some (false, n, N.of_nat (length rest), uleb_strip pre, leb_list_eqb pre (uleb_fixed k n),
              n <? 2 ^ (7 * N.of_nat (S k)), uleb_enc c n)
    | None => None
    end.

End DivMod.
