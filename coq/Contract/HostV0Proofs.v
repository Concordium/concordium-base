(** C14 - proofs about the v0 host functions (HostV0.v). *)
From Coq Require Import NArith List Bool Lia.
From CB Require Import Gen.HostCosts Contract.HostBase Contract.HostBaseProofs Contract.HostV0.
Import ListNotations.
Local Open Scope N_scope.

Lemma lenN_le_bytes : forall k x, lenN (le_bytes k x) = N.of_nat k.
Proof. induction k; intros; cbn [le_bytes]; [reflexivity|]. rewrite lenN_cons, IHk. lia. Qed.

Global Hint Rewrite lenN_app lenN_firstnN lenN_skipnN lenN_zerosN lenN_resizeN lenN_cons lenN_nil
  lenN_le_bytes lenN_rev_append : lenN.

Ltac u32_facts :=
  repeat match goal with
  | |- context [u16 ?x] => lazymatch goal with H : u16 x < 65536 |- _ => fail | _ => pose proof (u16_lt x) end
  | H : context [u16 ?x] |- _ => lazymatch goal with H' : u16 x < 65536 |- _ => fail | _ => pose proof (u16_lt x) end
  | |- context [u32 ?x] => lazymatch goal with H : u32 x <= x |- _ => fail | _ => pose proof (u32_le x); pose proof (u32_lt x); pose proof (u32_small x) end
  | H : context [u32 ?x] |- _ => lazymatch goal with H' : u32 x <= x |- _ => fail | _ => pose proof (u32_le x); pose proof (u32_lt x); pose proof (u32_small x) end
  end.

Definition safe {X A} (m : M X A) (s : st X) : Prop := snd (m s) <> Fault.

(** the 16 KiB invariant of the legacy state *)
Definition state_ok {X} (s : st (host X)) : Prop := lenN (h_state (hs s)) <= 16384.

Ltac unfold_v0 :=
  unfold accept, simple_transfer, send, combine_and, combine_or, get_parameter_size, get_parameter_section,
    get_policy_section, log_event, load_state, write_state, resize_state, state_size, get_init_origin,
    get_receive_invoker, get_receive_self_address, get_receive_self_balance, get_receive_sender,
    get_receive_owner, get_slot_time, put_address, read_section, out_send, out_combine, push_action,
    logs_push, st_write_state, st_load_state, st_resize_state.

Ltac split_args args :=
  destruct args as [|?a [|?a [|?a [|?a [|?a [|?a [|?a [|?a args]]]]]]]].

(* [autorewrite .. in *] tries every rule on every hypothesis; most do not mention [lenN] *)
Ltac arith_close :=
  cbn [negb andb orb] in *; bool_hyps; prim_facts; autorewrite with lenN;
  repeat match goal with H : context [lenN _] |- _ => progress autorewrite with lenN in H end;
  cbv [MAX_CONTRACT_STATE W32 W64 U32MAX MAX_LOG_SIZE MAX_NUM_LOGS MAX_ENTRY_SIZE MAX_KEY_SIZE N.shiftl Pos.shiftl Pos.iter] in *;
  u32_facts; cbv [W32] in *; lia.
(** closes a side condition: brings in what is known under checking, splits the conditionals
    that occur in values, and leaves linear arithmetic *)
Ltac hclose :=
  unfold not; intros;
  repeat match goal with
  | H : ?P -> _, p : ?P |- _ => specialize (H p)
  | H : ?a = ?b -> _, p : ?b = ?a |- _ => specialize (H (eq_sym p))
  | H : _ /\ _ |- _ => destruct H
  | H : Some _ = Some _ |- _ => injection H as H
  | H : context [if ?c then _ else _] |- _ => destruct c eqn:?
  | |- context [if ?c then _ else _] => destruct c eqn:?
  end;
  try exact Logic.I; try assumption; try congruence; first [arith_close | exfalso; arith_close].

Section V0.
Context {X : Type}.
Variables (C : Prop) (L : N) (I : host X -> Prop).
Notation hoare0 := (hoare C L I).

Lemma read_section_ok : forall param start length offset,
  (C -> start < W32 /\ length < W32 /\ offset < W32) ->
  hoare0 (read_section param start length offset) (fun _ => True).
Proof. intros p a b c Ha. unfold read_section. repeat hstep; hclose. Qed.
Lemma put_address_ok : forall addr start, (C -> start < W32) -> hoare0 (put_address addr start) (fun _ => True).
Proof. intros addr a Ha. unfold put_address. repeat hstep; hclose. Qed.
Lemma st_load_state_ok : forall offset start dlen, (C -> start + dlen <= L) ->
  hoare0 (st_load_state offset start dlen) (fun _ => True).
Proof. intros o a d Ha. unfold st_load_state. repeat hstep; hclose. Qed.

Ltac hstep0 := hstep_with ltac:(first [ simple apply read_section_ok | simple apply put_address_ok | simple apply st_load_state_ok ]).

Lemma get_parameter_size_ok : hoare0 get_parameter_size (fun _ => True).
Proof. unfold get_parameter_size. repeat hstep0; hclose. Qed.
Lemma get_parameter_section_ok : forall a b c, (C -> a < W32 /\ b < W32 /\ c < W32) ->
  hoare0 (get_parameter_section a b c) (fun _ => True).
Proof. intros. unfold get_parameter_section. repeat hstep0; hclose. Qed.
Lemma get_policy_section_ok : forall a b c, (C -> a < W32 /\ b < W32 /\ c < W32) ->
  hoare0 (get_policy_section a b c) (fun _ => True).
Proof. intros. unfold get_policy_section. repeat hstep0; hclose. Qed.
Lemma load_state_ok : forall a b c, (C -> a < W32 /\ b < W32) -> hoare0 (load_state a b c) (fun _ => True).
Proof. intros. unfold load_state. repeat hstep0; hclose. Qed.
Lemma state_size_ok : hoare0 state_size (fun _ => True).
Proof. unfold state_size. repeat hstep0; hclose. Qed.
Lemma get_slot_time_ok : hoare0 get_slot_time (fun _ => True).
Proof. unfold get_slot_time. repeat hstep0; hclose. Qed.
Lemma get_init_origin_ok : forall a, (C -> a < W32) -> hoare0 (get_init_origin a) (fun _ => True).
Proof. intros. unfold get_init_origin. repeat hstep0; hclose. Qed.
Lemma get_receive_invoker_ok : forall a, (C -> a < W32) -> hoare0 (get_receive_invoker a) (fun _ => True).
Proof. intros. unfold get_receive_invoker. repeat hstep0; hclose. Qed.
Lemma get_receive_owner_ok : forall a, (C -> a < W32) -> hoare0 (get_receive_owner a) (fun _ => True).
Proof. intros. unfold get_receive_owner. repeat hstep0; hclose. Qed.
Lemma get_receive_self_address_ok : forall a, (C -> a < W32) -> hoare0 (get_receive_self_address a) (fun _ => True).
Proof. intros. unfold get_receive_self_address. repeat hstep0; hclose. Qed.
Lemma get_receive_self_balance_ok : hoare0 get_receive_self_balance (fun _ => True).
Proof. unfold get_receive_self_balance. repeat hstep0; hclose. Qed.
Lemma get_receive_sender_ok : forall a, (C -> a < W32) -> hoare0 (get_receive_sender a) (fun _ => True).
Proof. intros. unfold get_receive_sender. repeat hstep0; hclose. Qed.

Lemma no_ooe_read_section : forall param a b c, no_ooe (@read_section X param a b c).
Proof. intros. unfold read_section. auto 20 with no_ooe. Qed.
Lemma no_ooe_put_address : forall addr a, no_ooe (@put_address X addr a).
Proof. intros. unfold put_address. auto 20 with no_ooe. Qed.
Lemma no_ooe_logs_push : forall ev, no_ooe (@logs_push X ev).
Proof. intros. unfold logs_push. auto 20 with no_ooe. Qed.

(** The functions above only read the host state and keep every invariant.  Those below update it:
    the invariant has to tolerate growth of the action list by a node whose children exist, a new
    log within the limits, and a state that stays within 16 KiB if it was (totality needs that it is). *)
Section Actions.
Hypothesis Iact : forall h a, I h ->
  (forall l r, a = AAnd l r \/ a = AOr l r -> l < lenN (h_actions h) /\ r < lenN (h_actions h)) ->
  I (with_actions h (h_actions h ++ [a])).

Lemma push_action_ok : forall a, (forall h, I h -> I (with_actions h (h_actions h ++ [a]))) ->
  hoare0 (push_action a) (fun _ => True).
Proof. intros a Ha. unfold push_action. repeat hstep; auto. Qed.
Lemma push_leaf_ok : forall a, match a with AAnd _ _ | AOr _ _ => False | _ => True end ->
  hoare0 (push_action a) (fun _ => True).
Proof.
  intros a Ha. apply push_action_ok. intros h Hh. apply Iact; [exact Hh|].
  intros l r [E|E]; subst a; contradiction.
Qed.
Lemma out_send_ok : forall ai asi name amount param, hoare0 (out_send ai asi name amount param) (fun _ => True).
Proof.
  intros. unfold out_send. repeat hstep; trivial. apply push_leaf_ok. exact Logic.I.
Qed.
(** [out_combine] reads the action list twice (for the guard and in [push_action]); the two reads
    see the same list, which the rules above cannot express: proved on the state directly *)
Lemma out_combine_ok : forall mk l r, (forall l r, mk l r = AAnd l r \/ mk l r = AOr l r) ->
  hoare0 (out_combine mk l r) (fun _ => True).
Proof.
  intros mk l r Hmk s HL HI. unfold out_combine, push_action, bind, get_hs, ensure, set_hs, ret.
  destruct ((l <? u32 (lenN (h_actions (hs s)))) && (r <? u32 (lenN (h_actions (hs s))))) eqn:E;
    cbn [fst snd mem hs]; [|auto].
  repeat split; trivial. apply Iact; [exact HI|]. intros l' r' H.
  assert (l' = l /\ r' = r) as [-> ->] by (destruct (Hmk l r) as [E'|E']; rewrite E' in H; destruct H as [[=]|[=]]; auto).
  hclose.
Qed.

Ltac hstep_a := hstep_with ltac:(first [ simple apply out_send_ok | simple apply out_combine_ok | simple apply push_leaf_ok ]).

Lemma accept_ok : hoare0 accept (fun _ => True).
Proof. unfold accept. repeat hstep_a; hclose. Qed.
Lemma simple_transfer_ok : forall a b, (C -> a < W32) -> hoare0 (simple_transfer a b) (fun _ => True).
Proof. intros. unfold simple_transfer. repeat hstep_a; hclose. Qed.
Lemma send_ok : forall a b c d e f g, (C -> c < W32 /\ d < W32 /\ f < W32 /\ g < W32) ->
  hoare0 (send a b c d e f g) (fun _ => True).
Proof. intros. unfold send. repeat hstep_a; hclose. Qed.
Lemma combine_and_ok : forall l r, hoare0 (combine_and l r) (fun _ => True).
Proof. intros. unfold combine_and. repeat hstep_a; auto. Qed.
Lemma combine_or_ok : forall l r, hoare0 (combine_or l r) (fun _ => True).
Proof. intros. unfold combine_or. repeat hstep_a; auto. Qed.
End Actions.

Section Logs.
Hypothesis Ilog : forall h ev, I h -> lenN ev <= 512 -> (h_limit h = false \/ lenN (h_logs h) < 64) ->
  I (with_logs h (h_logs h ++ [ev])).

Lemma logs_push_ok : forall ev, lenN ev <= 512 -> hoare0 (logs_push ev) (fun r => r = 0 \/ r = 1).
Proof.
  intros ev Hev. unfold logs_push. repeat hstep; auto. apply Ilog; [assumption..|].
  destruct (h_limit a); [right; hclose | left; reflexivity].
Qed.
Lemma log_event_ok : forall a b, (C -> a < W32 /\ b < W32) ->
  hoare0 (log_event a b) (fun r => r = Some 0 \/ r = Some 1 \/ (r = Some 4294967295 /\ 512 < b)).
Proof.
  intros. unfold log_event. repeat hstep_with ltac:(simple apply logs_push_ok); try solve [hclose].
  - destruct H5 as [-> | ->]; auto.
  - right. right. split; [reflexivity | hclose].
Qed.
End Logs.

Section State.
Hypothesis Istate : forall h st, I h -> (lenN (h_state h) <= 16384 -> lenN st <= 16384) -> I (with_state h st).
Hypothesis Istate_le : C -> forall h, I h -> lenN (h_state h) <= 16384.

Lemma st_write_state_ok : forall offset bytes,
  hoare0 (st_write_state offset bytes) (fun n => n <= lenN bytes /\ offset + n <= 16384).
Proof.
  intros o bs. unfold st_write_state. repeat hstep; trivial; try (apply Istate; [assumption|]); hclose.
Qed.
Lemma st_resize_state_ok : forall n, hoare0 (st_resize_state n) (fun _ => True).
Proof.
  intros n. unfold st_resize_state. repeat hstep; trivial. apply Istate; [assumption|]. hclose.
Qed.

Ltac hstep_s := hstep_with ltac:(first [ simple apply st_write_state_ok | simple apply st_resize_state_ok ]).

Lemma write_state_ok : forall a b c, (C -> a < W32 /\ b < W32) ->
  hoare0 (write_state a b c) (fun r => exists n, r = Some n /\ n <= b /\ c + n <= 16384).
Proof. intros. unfold write_state. repeat hstep_s; try (eexists; split; [reflexivity|]); hclose. Qed.
Lemma resize_state_ok : forall n, hoare0 (resize_state n) (fun _ => True).
Proof. intros. unfold resize_state. repeat hstep_s; hclose. Qed.
End State.

Section Calls.
Hypothesis Iact : forall h a, I h ->
  (forall l r, a = AAnd l r \/ a = AOr l r -> l < lenN (h_actions h) /\ r < lenN (h_actions h)) ->
  I (with_actions h (h_actions h ++ [a])).
Hypothesis Ilog : forall h ev, I h -> lenN ev <= 512 -> (h_limit h = false \/ lenN (h_logs h) < 64) ->
  I (with_logs h (h_logs h ++ [ev])).
Hypothesis Istate : forall h st, I h -> (lenN (h_state h) <= 16384 -> lenN st <= 16384) -> I (with_state h st).
Hypothesis Istate_le : C -> forall h, I h -> lenN (h_state h) <= 16384.

Lemma call_v0_raw_ok : forall f args, (C -> args_wf (sig0 f) args) ->
  hoare0 (call_v0_raw f args) (fun _ => True).
Proof.
  intros f args Ha.
  destruct f; split_args args; cbn [call_v0_raw sig0 args_wf] in *; try simple apply hoare_trap;
    first [ simple apply accept_ok | simple apply simple_transfer_ok | simple apply send_ok | simple apply combine_and_ok | simple apply combine_or_ok
          | simple apply get_parameter_size_ok | simple apply get_parameter_section_ok | simple apply get_policy_section_ok
          | (eapply hoare_weaken; [simple apply log_event_ok | trivial]) | simple apply load_state_ok | (eapply hoare_weaken; [simple apply write_state_ok | trivial]) | simple apply resize_state_ok
          | simple apply state_size_ok | simple apply get_slot_time_ok | simple apply get_init_origin_ok | simple apply get_receive_invoker_ok
          | simple apply get_receive_owner_ok | simple apply get_receive_self_address_ok | simple apply get_receive_self_balance_ok
          | simple apply get_receive_sender_ok ]; tauto.
Qed.

Theorem call_v0_ok : forall f args, (C -> args_wf (sig0 f) args) -> hoare0 (call_v0 f args) (fun _ => True).
Proof. intros f args Ha. unfold call_v0. repeat hstep. apply call_v0_raw_ok, Ha. Qed.
End Calls.

End V0.

#[global] Hint Resolve no_ooe_read_section no_ooe_put_address no_ooe_logs_push : no_ooe.

Section V0inv.
Context {X : Type}.
Notation S0 := (st (host X)).

(** *** every v0 host call is total: for well-typed stack values it never reaches [Fault]
    (no out-of-bounds slice, no usize overflow) *)
Theorem call_v0_safe : forall f args (s : S0), args_wf (sig0 f) args -> state_ok s -> safe (call_v0 f args) s.
Proof.
  intros f args s Hwf H.
  apply (hoare_no_fault True (m_len (mem s)) (fun h : host X => lenN (h_state h) <= 16384) _ _ (fun _ => True));
    [apply call_v0_ok | ..]; auto.
Qed.

End V0inv.
