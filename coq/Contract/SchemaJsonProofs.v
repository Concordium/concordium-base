(** * SchemaJsonProofs — JSON -> bytes -> JSON is the normalisation, for every schema type. *)
From Coq Require Import NArith ZArith Bool List Lia.
From CB Require Import Contract.SchemaJson Contract.SchemaJsonLemmas Contract.SchemaJsonLeb.
Import ListNotations.
Local Open Scope N_scope.

Scheme ty_mut := Induction for ty Sort Prop
  with fields_mut := Induction for fields Sort Prop
  with nfields_mut := Induction for nfields Sort Prop
  with tys_mut := Induction for tys Sort Prop
  with variants_mut := Induction for variants Sort Prop
  with tvariants_mut := Induction for tvariants Sort Prop.
Combined Scheme ty_mutind from ty_mut, fields_mut, nfields_mut, tys_mut, variants_mut, tvariants_mut.

Lemma Some_inj : forall {A} (a b : A), Some a = Some b -> a = b.
Proof. intros A a b H. injection H. auto. Qed.
(* [injection] reduces the equation it produces; this does not *)
Ltac inj H := apply Some_inj in H; subst.

Ltac unf_wf H :=
  cbn [ty_wf fields_wf nfields_wf tys_wf variants_wf tvariants_wf] in H;
  fold ty_wf fields_wf nfields_wf tys_wf variants_wf tvariants_wf in H.
Ltac split_and H :=
  repeat match type of H with
         | (_ && _)%bool = true => let H1 := fresh H in apply andb_true_iff in H; destruct H as [H H1]; try split_and H1
         end.

Ltac des H :=
  repeat match type of H with
         | match ?x with _ => _ end = Some _ => let E := fresh "E" in destruct x eqn:E; try discriminate
         | (if ?x then _ else _) = Some _ => let E := fresh "E" in destruct x eqn:E; try discriminate
         | (let '(_, _) := ?x in _) = Some _ => let E := fresh "E" in destruct x eqn:E; try discriminate
         end.

Definition rt (f : json -> option (list N)) (t : list N -> option (json * list N)) (n : json -> json) : Prop :=
  forall j bs rest, json_wf j = true -> f j = Some bs -> t (bs ++ rest) = Some (n j, rest).

Lemma parse_unsigned_bound : forall b s n, parse_unsigned b s = Some n -> n < b.
Proof.
  unfold parse_unsigned. intros b s n H. cbv zeta in H.
  des H. injection H as <-. apply N.ltb_lt. assumption.
Qed.

Lemma parse_signed_bound : forall bits s z, parse_signed bits s = Some z ->
  (- 2 ^ (bits - 1) <= z < 2 ^ (bits - 1))%Z.
Proof.
  unfold parse_signed. intros bits s z H.
  match type of H with (let '(_, _) := ?x in _) = _ => destruct x as [neg d] end.
  des H. injection H as <-.
  match goal with E : (_ && _)%bool = true |- _ => apply andb_true_iff in E; destruct E as [E1 E2] end.
  apply Z.leb_le in E1. apply Z.ltb_lt in E2. lia.
Qed.

Lemma unum_rt : forall k, rt (from_unum k) (to_unum k) (fun j => j).
Proof.
  unfold rt, from_unum, to_unum. intros k j bs rest _ H. destruct j; try discriminate.
  destruct (is_u64 z && (z <? 2 ^ (8 * Z.of_nat k))%Z) eqn:E; try discriminate. injection H as <-.
  apply andb_true_iff in E. destruct E as [E1 E2]. unfold is_u64 in E1.
  apply andb_true_iff in E1. destruct E1 as [E0 _]. apply Z.leb_le in E0. apply Z.ltb_lt in E2.
  rewrite le_dec_le.
  - rewrite Z2N.id by lia. reflexivity.
  - apply N2Z.inj_lt. rewrite Z2N.id by lia. rewrite Z_N_pow256. assumption.
Qed.

Lemma snum_rt : forall k, (0 < k)%nat -> rt (from_snum k) (to_snum k) (fun j => j).
Proof.
  unfold rt, from_snum, to_snum. intros k Hk j bs rest _ H. destruct j; try discriminate.
  match type of H with (if ?c then _ else _) = _ => destruct c eqn:E; try discriminate end.
  injection H as <-.
  apply andb_true_iff in E. destruct E as [E E2]. apply andb_true_iff in E. destruct E as [_ E1].
  apply Z.leb_le in E1. apply Z.ltb_lt in E2.
  rewrite le_signed_roundtrip; auto.
Qed.

Lemma dec_u_rt : forall k, rt (from_dec_u k (2 ^ (8 * N.of_nat k))) (to_dec_u k)
  (fun j => match j with JStr s => norm_dec_u (2 ^ (8 * N.of_nat k)) s | _ => j end).
Proof.
  unfold rt, from_dec_u, to_dec_u, norm_dec_u. intros k j bs rest _ H. destruct j; try discriminate.
  destruct (parse_unsigned _ s) as [n|] eqn:E; try discriminate. inj H.
  rewrite le_dec_le; [reflexivity|]. exact (parse_unsigned_bound _ _ _ E).
Qed.

Lemma ms_rt : forall parse show, rt (from_ms parse) (to_ms show) (norm_ms parse show).
Proof.
  unfold rt, from_ms, to_ms, norm_ms. intros parse show j bs rest _ H. destruct j; try discriminate.
  destruct (parse s) as [m|] eqn:E; try discriminate.
  destruct (N.ltb_spec m (2 ^ 64)); try discriminate. inj H.
  rewrite le_dec_le; [reflexivity|assumption].
Qed.

Lemma pair_rt : forall fa ta na fb tb nb, rt fa ta na -> rt fb tb nb ->
  rt (from_pair fa fb) (pair_item ta tb) (norm_pair na nb).
Proof.
  unfold rt, from_pair, pair_item, norm_pair. intros fa ta na fb tb nb Ra Rb j bs rest Hj H.
  destruct j as [| | | | |l|]; try discriminate. destruct l as [|x [|y [|]]]; try discriminate.
  destruct (fa x) as [p|] eqn:Ea; try discriminate. destruct (fb y) as [q|] eqn:Eb; try discriminate. inj H.
  destruct (json_wf_pair _ _ Hj) as [Hx Hy].
  rewrite <- app_assoc, (Ra _ _ _ Hx Ea), (Rb _ _ _ Hy Eb). reflexivity.
Qed.

Lemma seq_rt : forall s f t n, rt f t n -> rt (from_seq s f) (to_seq s t) (norm_arr n).
Proof.
  unfold from_seq, to_seq, norm_arr. intros s f t n R j bs rest Hj H.
  destruct j as [| | | | |vs|]; try discriminate.
  destruct (enc_len s (length vs)) as [l|] eqn:El; try discriminate.
  destruct (from_list f vs) as [p|] eqn:Ep; try discriminate. inj H.
  rewrite <- app_assoc, (enc_len_dec_len _ _ _ _ El), (dec_items_from_list f n); auto.
  intros v b r Hin Hv. apply R; auto. exact (json_wf_arr _ _ Hj Hin).
Qed.

Lemma with_len_dec : forall s payload bs rest, with_len s payload = Some bs ->
  exists l, bs = l ++ payload /\ dec_len s (l ++ payload ++ rest) = Some (N.of_nat (length payload), payload ++ rest).
Proof.
  unfold with_len. intros s payload bs rest H.
  destruct (enc_len s (length payload)) as [l|] eqn:E; try discriminate. injection H as <-.
  exists l. split; auto. apply enc_len_dec_len. assumption.
Qed.

Lemma with_len_string : forall s x bs rest, utf8_valid x = true -> with_len s x = Some bs ->
  dec_string s (bs ++ rest) = Some (x, rest).
Proof.
  intros s x bs rest Hu H. destruct (with_len_dec _ _ _ rest H) as [l [-> Hd]].
  unfold dec_string. rewrite <- app_assoc, Hd, take_n_app, Hu. reflexivity.
Qed.

Lemma obj_get_wf : forall k m v, forallb (fun kv => json_wf (snd kv)) m = true -> obj_get k m = Some v -> json_wf v = true.
Proof.
  induction m as [|[k' v'] m IH]; intros v Hw H; cbn [obj_get] in H; try discriminate.
  cbn [forallb snd] in Hw. apply andb_true_iff in Hw. destruct Hw as [H1 H2].
  destruct (str_eqb k' k).
  - injection H as <-. assumption.
  - auto.
Qed.

Lemma forallb_In : forall {A} (f : A -> bool) l x, forallb f l = true -> In x l -> f x = true.
Proof. intros. eapply forallb_forall; eauto. Qed.

Section WithLeaves.
Variable L : leaves.

(* [cbn] leaves the other components of a mutual fixpoint as raw [fix .. for f]; fold them back *)
Ltac unf_from H :=
  cbn [from_json from_fields from_nfields from_tys from_variants from_tvariants] in H;
  fold (from_json L) (from_fields L) (from_nfields L) (from_tys L) (from_variants L) (from_tvariants L) in H.
Ltac unf_goal :=
  cbn [to_json to_fields to_nfields to_tys to_variants to_tvariants
       normalize normalize_fields normalize_nfields normalize_tys normalize_variants normalize_tvariants];
  fold (to_json L) (to_fields L) (to_nfields L) (to_tys L) (to_variants L) (to_tvariants L)
       (normalize L) (normalize_fields L) (normalize_nfields L) (normalize_tys L)
       (normalize_variants L) (normalize_tvariants L).

Lemma from_tvariants_tag : forall vs name fv p, from_tvariants L vs name fv = Some p ->
  exists tag p', p = tag :: p' /\ In tag (tv_tags vs).
Proof.
  induction vs as [|tag n f r IH]; intros name fv p H; unf_from H; try discriminate.
  destruct (str_eqb n name).
  - destruct (from_fields L f fv); try discriminate. injection H as <-.
    eexists. eexists. split; [reflexivity|]. left. reflexivity.
  - destruct (IH _ _ _ H) as [t [p' [-> Hin]]]. exists t, p'. split; auto. right. assumption.
Qed.

Lemma existsb_In_N : forall x l, existsb (N.eqb x) l = false -> ~ In x l.
Proof.
  induction l as [|y l IH]; intros H Hin; cbn [existsb] in H; [destruct Hin|].
  apply orb_false_iff in H. destruct H as [H1 H2]. destruct Hin as [->|Hin].
  - rewrite N.eqb_refl in H1. discriminate.
  - apply IH; auto.
Qed.

Definition P_ty (t : ty) : Prop := ty_wf t = true -> rt (from_json L t) (to_json L t) (normalize L t).
Definition P_fields (f : fields) : Prop := fields_wf f = true ->
  rt (from_fields L f) (to_fields L f) (normalize_fields L f).
Definition P_nfields (l : nfields) : Prop := nfields_wf l = true ->
  forall m acc bs rest, forallb (fun kv => json_wf (snd kv)) m = true -> from_nfields L l m = Some bs ->
  to_nfields L l (bs ++ rest) acc = Some (normalize_nfields L l m acc, rest).
Definition P_tys (l : tys) : Prop := tys_wf l = true ->
  forall vs bs rest, forallb json_wf vs = true -> from_tys L l vs = Some bs ->
  to_tys L l (bs ++ rest) = Some (normalize_tys L l vs, rest).
Definition P_variants (vs : variants) : Prop := variants_wf vs = true ->
  forall name fv i i' bs rest, json_wf fv = true -> from_variants L vs name fv i = Some (i', bs) ->
  exists k : nat, i' = i + N.of_nat k /\ (k < variants_len vs)%nat /\
    to_variants L vs (N.of_nat k) (bs ++ rest) = Some (JObj [(name, normalize_variants L vs name fv)], rest).
Definition P_tvariants (vs : tvariants) : Prop := tvariants_wf vs = true -> nodup_N (tv_tags vs) = true ->
  forall name fv bs rest, json_wf fv = true -> from_tvariants L vs name fv = Some bs ->
  exists tag p, bs = tag :: p /\
    to_tvariants L vs tag (p ++ rest) = Some (JObj [(name, normalize_tvariants L vs name fv)], rest).

Lemma roundtrip_all :
  (forall t, P_ty t) /\ (forall f, P_fields f) /\ (forall l, P_nfields l) /\ (forall l, P_tys l)
  /\ (forall vs, P_variants vs) /\ (forall vs, P_tvariants vs).
Proof.
  apply ty_mutind; unfold P_ty, P_fields, P_nfields, P_tys, P_variants, P_tvariants, rt.
  - (* Unit *) intros _ j bs rest _ H. cbn in H. inj H. reflexivity.
  - (* Bool *) intros _ j bs rest _ H. cbn in H. destruct j; try discriminate. inj H.
    destruct b; reflexivity.
  - (* U8 *) exact (fun _ => unum_rt 1).
  - (* U16 *) exact (fun _ => unum_rt 2).
  - (* U32 *) exact (fun _ => unum_rt 4).
  - (* U64 *) exact (fun _ => unum_rt 8).
  - (* U128 *) exact (fun _ => dec_u_rt 16).
  - (* I8 *) exact (fun _ => snum_rt 1 ltac:(lia)).
  - (* I16 *) exact (fun _ => snum_rt 2 ltac:(lia)).
  - (* I32 *) exact (fun _ => snum_rt 4 ltac:(lia)).
  - (* I64 *) exact (fun _ => snum_rt 8 ltac:(lia)).
  - (* I128 *) intros _ j bs rest _ H. unf_from H. destruct j; try discriminate.
    destruct (parse_signed 128 s) as [z|] eqn:E; try discriminate. inj H.
    unf_goal. rewrite E.
    rewrite le_signed_roundtrip; [reflexivity|lia|]. apply parse_signed_bound in E. exact E.
  - (* Amount *) exact (fun _ => dec_u_rt 8).
  - (* AccountAddress *) intros _ j bs rest _ H. unf_from H. destruct j; try discriminate.
    destruct (acc_parse L s) as [a|] eqn:E; try discriminate.
    destruct (N.eqb_spec (N.of_nat (length a)) 32) as [E2|]; try discriminate. inj H.
    unf_goal. rewrite E. rewrite <- E2. rewrite take_n_app. reflexivity.
  - (* ContractAddress *) intros _ j bs rest _ H. unf_from H. destruct j; try discriminate.
    destruct (length l <=? 2)%nat; try discriminate.
    destruct (obj_get s_index l) as [[| | i | | | |]|] eqn:Ei; try discriminate.
    destruct (is_u64 i) eqn:Eu; try discriminate. inj H.
    unf_goal. rewrite Ei. fold (ca_sub l).
    destruct (is_u64_to_N _ Eu) as [Hi Ei']. destruct (is_u64_to_N _ (ca_sub_u64 l)) as [Hs Es'].
    rewrite <- app_assoc, !le_dec_le, Ei', Es' by assumption. reflexivity.
  - (* Timestamp *) intros _. rewrite from_json_timestamp, to_json_timestamp, normalize_timestamp. apply ms_rt.
  - (* Duration *) intros _. rewrite from_json_duration, to_json_duration, normalize_duration. apply ms_rt.
  - (* Pair *) intros a IHa b IHb Hw. unf_wf Hw. apply andb_true_iff in Hw.
    rewrite from_json_pair, to_json_pair, normalize_pair.
    exact (pair_rt _ _ _ _ _ _ (IHa (proj1 Hw)) (IHb (proj2 Hw))).
  - (* List *) intros s e IHe Hw. rewrite from_json_list, to_json_list, normalize_list.
    exact (seq_rt s _ _ _ (IHe Hw)).
  - (* Set *) intros s e IHe Hw. rewrite from_json_set, to_json_set, normalize_set.
    exact (seq_rt s _ _ _ (IHe Hw)).
  - (* Map *) intros s k IHk v IHv Hw. unf_wf Hw. apply andb_true_iff in Hw.
    rewrite from_json_map, to_json_map, normalize_map.
    exact (seq_rt s _ _ _ (pair_rt _ _ _ _ _ _ (IHk (proj1 Hw)) (IHv (proj2 Hw)))).
  - (* Array *) intros n e IHe Hw j bs rest Hj H. unf_wf Hw.
    unf_from H. destruct j as [| | | | |vs|]; try discriminate.
    destruct (N.eqb_spec (N.of_nat (length vs) mod 2 ^ 32) n) as [En|]; try discriminate.
    cbn [json_wf] in Hj. apply andb_true_iff in Hj. destruct Hj as [Hlen Hj]. apply N.ltb_lt in Hlen.
    rewrite N.mod_small in En by assumption. subst n.
    unf_goal.
    rewrite (dec_items_from_list (from_json L e) (normalize L e) _ _ _ rest); auto.
    intros v b r Hin Hv. apply IHe; auto. eapply forallb_In; eauto.
  - (* Struct *) intros f IHf Hw j bs rest Hj H. unf_wf Hw. unf_from H.
    unf_goal. apply IHf; auto.
  - (* Enum *) intros vs IHvs Hw j bs rest Hj H. unf_wf Hw. unf_from H.
    destruct j as [| | | | | |m]; try discriminate.
    destruct m as [|[name fv] [|]]; try discriminate.
    destruct (from_variants L vs name fv 0) as [[i p]|] eqn:Ev; try discriminate.
    cbn [json_wf forallb snd] in Hj. apply andb_true_iff in Hj. destruct Hj as [Hfv _].
    destruct (IHvs Hw _ _ _ _ _ rest Hfv Ev) as [k [Hi [Hk Hto]]].
    rewrite N.add_0_l in Hi. subst i.
    unf_goal.
    destruct (N.leb_spec (N.of_nat (variants_len vs)) 256) as [H256|H256].
    + inj H. rewrite <- app_assoc. rewrite le_dec_le.
      * exact Hto.
      * change (2 ^ (8 * N.of_nat 1)) with 256. lia.
    + destruct (N.leb_spec (N.of_nat (variants_len vs)) 65536) as [H64k|H64k]; try discriminate.
      inj H. rewrite <- app_assoc. rewrite le_dec_le.
      * exact Hto.
      * change (2 ^ (8 * N.of_nat 2)) with 65536. lia.
  - (* String *) intros s _ j bs rest Hj H. unf_from H. destruct j; try discriminate.
    cbn [json_wf] in Hj. apply andb_true_iff in Hj. destruct Hj as [Hu _].
    unf_goal. rewrite (with_len_string _ _ _ _ Hu H). reflexivity.
  - (* ContractName *) intros s _ j bs rest Hj H. unf_from H.
    destruct j as [| | | | | |m]; try discriminate.
    destruct m as [|[k [| | | |name| |]] [|]]; try discriminate.
    destruct (str_eqb k s_contract) eqn:Ek; try discriminate.
    destruct (valid_contract_name (s_init_ ++ name)) eqn:Ev; try discriminate.
    apply str_eqb_eq in Ek. subst k.
    assert (Hu : utf8_valid (s_init_ ++ name) = true).
    { apply name_chars_utf8. unfold valid_contract_name in Ev.
      apply andb_true_iff in Ev. destruct Ev as [_ Ev]. exact Ev. }
    unf_goal. rewrite (with_len_string _ _ _ _ Hu H). rewrite Ev. reflexivity.
  - (* ReceiveName *) intros s _ j bs rest Hj H. unf_from H.
    destruct j as [| | | | | |m]; try discriminate.
    destruct (obj_get s_contract m) as [[| | | |c| |]|] eqn:Ec; try discriminate.
    destruct (obj_get s_func m) as [[| | | |f| |]|] eqn:Ef; try discriminate.
    destruct (length m =? 2)%nat; try discriminate.
    destruct (negb (has_dot c) && valid_receive_name (c ++ 46 :: f)) eqn:Ev; try discriminate.
    apply andb_true_iff in Ev. destruct Ev as [Ed Ev]. apply negb_true_iff in Ed.
    assert (Hu : utf8_valid (c ++ 46 :: f) = true).
    { apply name_chars_utf8. unfold valid_receive_name in Ev.
      apply andb_true_iff in Ev. destruct Ev as [_ Ev]. exact Ev. }
    unf_goal. rewrite (with_len_string _ _ _ _ Hu H). rewrite Ev.
    rewrite split_dot_app by assumption. rewrite Ec, Ef. reflexivity.
  - (* ULeb128 *) intros c _ j bs rest _ H. unf_from H. destruct j; try discriminate.
    destruct (parse_biguint s) as [n|] eqn:E; try discriminate.
    unf_goal. rewrite E. rewrite (uleb_roundtrip _ _ _ _ H). reflexivity.
  - (* ILeb128 *) intros c _ j bs rest _ H. unf_from H. destruct j; try discriminate.
    destruct (parse_bigint s) as [z|] eqn:E; try discriminate.
    unf_goal. rewrite E. rewrite (sleb_roundtrip _ _ _ _ H). reflexivity.
  - (* ByteList *) intros s _ j bs rest _ H. unf_from H. destruct j as [| | | |x| |]; try discriminate.
    destruct (hex_decode x) as [b|] eqn:E; try discriminate.
    destruct (with_len_dec _ _ _ rest H) as [l [-> Hd]].
    unf_goal. rewrite E. rewrite <- app_assoc, Hd, take_n_app. reflexivity.
  - (* ByteArray *) intros n _ j bs rest Hj H. unf_from H. destruct j as [| | | |x| |]; try discriminate.
    destruct (hex_decode x) as [b|] eqn:E; try discriminate.
    destruct (N.eqb_spec (N.of_nat (length b) mod 2 ^ 32) n) as [En|]; try discriminate.
    cbn [json_wf] in Hj. apply andb_true_iff in Hj. destruct Hj as [_ Hlen]. apply N.ltb_lt in Hlen.
    pose proof (hex_decode_length _ _ E) as Hl.
    rewrite N.mod_small in En.
    2:{ change (2 ^ 33) with (2 * 2 ^ 32) in Hlen. lia. }
    subst n. apply Some_inj in H. subst bs. unf_goal. rewrite E, take_n_app. reflexivity.
  - (* TaggedEnum *) intros vs IHvs Hw j bs rest Hj H. unf_wf Hw. apply andb_true_iff in Hw. destruct Hw as [Hnd Hw].
    unf_from H. destruct j as [| | | | | |m]; try discriminate.
    destruct m as [|[name fv] [|]]; try discriminate.
    cbn [json_wf forallb snd] in Hj. apply andb_true_iff in Hj. destruct Hj as [Hfv _].
    destruct (IHvs Hw Hnd _ _ _ rest Hfv H) as [tag [p [-> Hto]]].
    unf_goal; cbn [app]. exact Hto.
  - (* FNamed *) intros l IHl Hw j bs rest Hj H. unf_wf Hw. unf_from H.
    destruct j as [| | | | | |m]; try discriminate.
    destruct (length m <=? nfields_len l)%nat; try discriminate.
    cbn [json_wf] in Hj.
    unf_goal. rewrite (IHl Hw _ [] _ rest Hj H). reflexivity.
  - (* FUnnamed *) intros l IHl Hw j bs rest Hj H. unf_wf Hw. unf_from H.
    destruct j as [| | | | |vs|]; try discriminate.
    destruct (tys_len l =? length vs)%nat; try discriminate.
    cbn [json_wf] in Hj. apply andb_true_iff in Hj. destruct Hj as [_ Hj].
    unf_goal. rewrite (IHl Hw _ _ rest Hj H). reflexivity.
  - (* FNone *) intros _ j bs rest _ H. cbn in H. inj H. reflexivity.
  - (* NFnil *) intros _ m acc bs rest _ H. cbn in H. inj H. reflexivity.
  - (* NFcons *) intros name t IHt r IHr Hw m acc bs rest Hm H. unf_wf Hw.
    apply andb_true_iff in Hw. destruct Hw as [Hwt Hwr]. unf_from H.
    destruct (obj_get name m) as [v|] eqn:Ev; try discriminate.
    destruct (from_json L t v) as [p|] eqn:Ep; try discriminate.
    destruct (from_nfields L r m) as [q|] eqn:Eq; try discriminate. inj H.
    unf_goal. rewrite Ev. rewrite <- app_assoc.
    rewrite (IHt Hwt _ _ _ (obj_get_wf _ _ _ Hm Ev) Ep).
    apply IHr; auto.
  - (* TSnil *) intros _ vs bs rest _ H. cbn in H. inj H. destruct vs; reflexivity.
  - (* TScons *) intros t IHt r IHr Hw vs bs rest Hvs H. unf_wf Hw.
    apply andb_true_iff in Hw. destruct Hw as [Hwt Hwr]. unf_from H.
    destruct vs as [|v vs']; try discriminate.
    destruct (from_json L t v) as [p|] eqn:Ep; try discriminate.
    destruct (from_tys L r vs') as [q|] eqn:Eq; try discriminate. inj H.
    cbn [forallb] in Hvs. apply andb_true_iff in Hvs. destruct Hvs as [Hv Hvs'].
    unf_goal. rewrite <- app_assoc.
    rewrite (IHt Hwt _ _ _ Hv Ep). rewrite (IHr Hwr _ _ _ Hvs' Eq). reflexivity.
  - (* Vnil *) intros _ name fv i i' bs rest _ H. cbn in H. discriminate.
  - (* Vcons *) intros n f IHf r IHr Hw name fv i i' bs rest Hfv H. unf_wf Hw.
    apply andb_true_iff in Hw. destruct Hw as [Hwf Hwr]. unf_from H.
    destruct (str_eqb n name) eqn:En.
    + destruct (from_fields L f fv) as [p|] eqn:Ep; try discriminate. injection H as <- <-.
      apply str_eqb_eq in En. subst n.
      exists O. split; [lia|]. split; [cbn; lia|].
      unf_goal. change (N.of_nat 0) with 0. rewrite N.eqb_refl.
      rewrite (IHf Hwf _ _ _ Hfv Ep), str_eqb_refl. reflexivity.
    + destruct (IHr Hwr _ _ _ _ _ rest Hfv H) as [k [Hi [Hk Hto]]].
      exists (S k). split; [lia|]. split; [cbn [variants_len]; lia|].
      unf_goal. rewrite En.
      destruct (N.eqb_spec (N.of_nat (S k)) 0); [lia|].
      replace (N.pred (N.of_nat (S k))) with (N.of_nat k) by lia. exact Hto.
  - (* TVnil *) intros _ _ name fv bs rest _ H. cbn in H. discriminate.
  - (* TVcons *) intros tag n f IHf r IHr Hw Hnd name fv bs rest Hfv H. unf_wf Hw.
    apply andb_true_iff in Hw. destruct Hw as [Hwf Hwr]. cbn [tv_tags nodup_N] in Hnd.
    apply andb_true_iff in Hnd. destruct Hnd as [Hnotin Hnd]. apply negb_true_iff in Hnotin.
    unf_from H.
    destruct (str_eqb n name) eqn:En.
    + destruct (from_fields L f fv) as [p|] eqn:Ep; try discriminate. inj H.
      apply str_eqb_eq in En. subst n.
      exists tag, p. split; [reflexivity|].
      unf_goal. rewrite N.eqb_refl.
      rewrite (IHf Hwf _ _ _ Hfv Ep), str_eqb_refl. reflexivity.
    + destruct (from_tvariants_tag _ _ _ _ H) as [t' [p' [Hbs Hin]]].
      destruct (IHr Hwr Hnd _ _ _ rest Hfv H) as [t2 [p2 [Hbs2 Hto]]].
      exists t2, p2. split; [assumption|].
      unf_goal. rewrite En.
      assert (t2 = t') by congruence. subst t2.
      destruct (N.eqb_spec tag t') as [->|]; [|exact Hto].
      exfalso. exact (existsb_In_N _ _ Hnotin Hin).
Qed.

Theorem json_roundtrip_rest : forall t j bs rest,
  ty_wf t = true -> json_wf j = true -> from_json L t j = Some bs ->
  to_json L t (bs ++ rest) = Some (normalize L t j, rest).
Proof. intros t j bs rest Hw Hj H. exact (proj1 roundtrip_all t Hw j bs rest Hj H). Qed.

Theorem json_roundtrip_exact : forall t j bs,
  ty_wf t = true -> json_wf j = true -> from_json L t j = Some bs ->
  to_json L t bs = Some (normalize L t j, []).
Proof.
  intros t j bs Hw Hj H. pose proof (json_roundtrip_rest t j bs [] Hw Hj H) as R.
  rewrite app_nil_r in R. exact R.
Qed.

End WithLeaves.
