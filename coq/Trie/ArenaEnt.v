(** The entries referenced by the nodes of the arena exist ([EInv]) in every reachable state, so
    the assumption of the [_partial] theorems of ArenaView.v holds wherever the machine can get. *)

From Coq Require Import List Bool Lia.
From CB Require Import Trie.Radix.
From CB Require Import Trie.Locks.
From CB Require Import Trie.Arena.
From CB Require Import Trie.ArenaProofs.
From CB Require Import Trie.ArenaCow.
From CB Require Import Trie.ArenaTree.
From CB Require Import Trie.ArenaView.
Import ListNotations.
Local Open Scope nat_scope.

Lemma E_same a a' :
  a_nodes a' = a_nodes a -> length (a_entries a) <= length (a_entries a') -> EInv a -> EInv a'.
Proof.
  intros En Le HE j e Hv. unfold node_at in Hv. rewrite En in Hv. pose proof (HE j e Hv). lia.
Qed.

Lemma E_set_node a i n :
  EInv a -> (forall e, an_val n = Some e -> e < length (a_entries a)) -> EInv (set_node a i n).
Proof.
  intros HE Hn j e Hv. rewrite node_at_set_node in Hv. change (a_entries (set_node a i n)) with (a_entries a).
  destruct (Nat.eqb i j); [destruct (Nat.ltb i (length (a_nodes a)))|]; auto; apply (HE j e Hv).
Qed.

Lemma E_push_node a n :
  EInv a -> (forall e, an_val n = Some e -> e < length (a_entries a)) -> EInv (push_node a n).
Proof.
  intros HE Hn j e Hv. rewrite node_at_push in Hv. change (a_entries (push_node a n)) with (a_entries a).
  destruct (Nat.eqb j (length (a_nodes a))); auto; apply (HE j e Hv).
Qed.

Lemma set_root_same a r : a_nodes (set_root a r) = a_nodes a /\ a_entries (set_root a r) = a_entries a.
Proof. unfold set_root. destruct (rev (a_gens a)); split; reflexivity. Qed.

Lemma E_set_root a r : EInv a -> EInv (set_root a r).
Proof. intros HE. destruct (set_root_same a r) as (E1 & E2). apply (E_same a); [exact E1 | rewrite E2; lia | exact HE]. Qed.

Lemma E_new_entry a v :
  EInv a -> EInv (fst (new_entry a v)) /\ snd (new_entry a v) < length (a_entries (fst (new_entry a v)))
            /\ length (a_entries a) <= length (a_entries (fst (new_entry a v))).
Proof.
  intros HE.
  assert (L : length (a_entries (fst (new_entry a v))) = S (length (a_entries a))).
  { unfold new_entry. cbn [fst push_entry push_value a_entries]. rewrite app_length. cbn. lia. }
  split; [apply (E_same a); [reflexivity | lia | exact HE]|]. rewrite L. unfold new_entry. cbn [snd]. lia.
Qed.

Lemma E_set_entry_value a e v : EInv a -> EInv (a_set_entry_value a e v).
Proof.
  intros HE. apply (E_same a); [apply set_entry_value_shape | | exact HE].
  unfold a_set_entry_value. destruct (nth e (a_entries a) EDeleted); cbn; rewrite ?set_nth_length; lia.
Qed.

Lemma E_kill_entry a e : EInv a -> EInv (fst (kill_entry a e)).
Proof.
  intros HE. apply (E_same a); [apply kill_entry_shape | | exact HE].
  unfold kill_entry. destruct (nth e (a_entries a) EDeleted); cbn; rewrite ?set_nth_length; lia.
Qed.

Lemma E_a_set a e v : EInv a -> EInv (fst (a_set a e v)).
Proof.
  intros HE. apply (E_same a); [apply a_set_shape | | exact HE].
  unfold a_set. destruct (nth_error (a_entries a) e) as [[?|?|]|]; cbn; rewrite ?set_nth_length; lia.
Qed.

Lemma E_a_mut a e v : EInv a -> EInv (fst (a_mut a e v)).
Proof. rewrite a_mut_fst. apply E_a_set. Qed.

Lemma E_relink a parent i : EInv a -> EInv (relink a parent i).
Proof.
  intros HE. destruct parent as [[p pos]|]; cbn [relink]; [|apply E_set_root; exact HE].
  apply E_set_node; [exact HE|]. intros e Hv. apply (HE p e Hv).
Qed.

Theorem E_make_owned a idx : EInv a -> EInv (make_owned a idx).
Proof. apply make_owned_einv. Qed.

Lemma E_get_entry : forall fuel a idx k, EInv a -> EInv (fst (a_get_entry fuel a idx k)).
Proof.
  induction fuel as [|fuel IH]; intros a idx k HE; cbn [a_get_entry]; [exact HE|].
  destruct (follow_stem k (an_path (node_at a idx))); cbn [fst]; try exact HE.
  pose proof (E_make_owned a idx HE) as H1.
  destruct (find_child _ _ 0) as [[pos i]|]; [apply IH; exact H1 | exact H1].
Qed.

Lemma E_insert_loop : forall fuel a gen idx parent k v,
  EInv a -> EInv (fst (fst (ar_insert_loop fuel a gen idx parent k v))).
Proof.
  induction fuel as [|fuel IH]; intros a gen idx parent k v HE; cbn [ar_insert_loop]; [exact HE|].
  destruct (follow_stem k (an_path (node_at a idx))) as [|s ps|c k'|cm kc kr sc sr].
  - destruct (an_val (node_at a idx)) as [e0|] eqn:Ev; cbn [fst].
    + apply E_set_entry_value. exact HE.
    + destruct (E_new_entry a v HE) as (H1 & H2 & H3). destruct (new_entry a v) as [a1 e]. cbn [fst snd] in *.
      apply E_set_node; [exact H1|]. cbn [with_val an_val]. intros e' E. inversion E. subst. exact H2.
  - destruct (E_new_entry a v HE) as (H1 & H2 & H3). destruct (new_entry a v) as [a1 e]. cbn [fst snd] in *.
    apply E_push_node.
    + apply E_relink. apply E_set_node; [exact H1|]. cbn [with_path an_val]. intros e' E. pose proof (HE idx e' E). lia.
    + cbn [an_val]. intros e' E. inversion E. subst.
      destruct parent as [[p pos]|]; cbn [relink]; [exact H2|]. rewrite (proj2 (set_root_same _ _)). exact H2.
  - pose proof (E_make_owned a idx HE) as H1. set (a1 := make_owned a idx) in *.
    destruct (find_child c (an_ch (node_at a1 idx)) 0) as [[pos i]|]; [apply IH; exact H1|].
    set (a2 := set_node a1 idx _).
    assert (H2 : EInv a2) by (apply E_set_node; [exact H1|]; cbn [with_children an_val]; intros e' E; apply (H1 idx e' E)).
    destruct (E_new_entry a2 v H2) as (H3 & H4 & H5). destruct (new_entry a2 v) as [a3 e]. cbn [fst snd] in *.
    apply E_push_node; [exact H3|]. cbn [an_val]. intros e' E. inversion E. subst. exact H4.
  - set (a1 := set_node a idx (with_path (node_at a idx) sr)).
    assert (H1 : EInv a1) by (apply E_set_node; [exact HE|]; cbn [with_path an_val]; intros e' E; apply (HE idx e' E)).
    destruct (E_new_entry a1 v H1) as (H2 & H3 & H4). destruct (new_entry a1 v) as [a2 e]. cbn [fst snd] in *.
    apply E_relink. apply E_push_node; [apply E_push_node; [exact H2|]|].
    + cbn [an_val]. intros e' E. inversion E. subst. exact H3.
    + cbn [an_val]. intros e' E. discriminate.
Qed.

Lemma E_insert a key v : EInv a -> EInv (fst (fst (ar_insert a key v))).
Proof.
  intros HE. unfold ar_insert. destruct (cur_root a) as [r|]; [apply E_insert_loop; exact HE|].
  destruct (E_new_entry a v HE) as (H1 & H2 & H3). destruct (new_entry a v) as [a1 e]. cbn [fst snd] in *.
  apply E_set_root. apply E_push_node; [exact H1|]. cbn [an_val]. intros e' E. inversion E. subst. exact H2.
Qed.

Lemma E_collapse a idx up : EInv a -> EInv (collapse_into_child a idx up).
Proof.
  intros HE. unfold collapse_into_child. destruct (an_ch (node_at a idx)) as [|[ck ci] [|? ?]]; try exact HE.
  set (a1 := set_node a idx anode_default).
  assert (H1 : EInv a1) by (apply E_set_node; [exact HE | intros e E; discriminate]).
  set (a2 := set_node a1 ci _).
  assert (H2 : EInv a2) by (apply E_set_node; [exact H1|]; cbn [with_path an_val]; intros e E; apply (H1 ci e E)).
  destruct up as [[pos u]|]; [|apply E_set_root; exact H2].
  apply E_set_node; [exact H2|]. cbn [with_children an_val]. intros e E. apply (H2 u e E).
Qed.

Lemma E_remove_child a pos f : EInv a -> EInv (set_node a f (with_children (node_at a f) (remove_nth pos (an_ch (node_at a f))))).
Proof. intros HE. apply E_set_node; [exact HE|]. cbn [with_children an_val]. intros e E. apply (HE f e E). Qed.

Lemma E_delete_loop : forall fuel a idx father gf k,
  EInv a -> EInv (fst (ar_delete_loop fuel a idx father gf k)).
Proof.
  induction fuel as [|fuel IH]; intros a idx father gf k HE; cbn [ar_delete_loop]; [exact HE|].
  destruct (follow_stem k (an_path (node_at a idx))) as [|s ps|c k'|cm kc kr sc sr]; try exact HE.
  - destruct (an_val (node_at a idx)) as [e|]; [|exact HE].
    pose proof (E_kill_entry a e HE) as H1. destruct (kill_entry a e) as [a1 rv]. cbn [fst] in *.
    set (a2 := set_node a1 idx (with_val (node_at a1 idx) None)).
    assert (H2 : EInv a2) by (apply E_set_node; [exact H1 | intros e' E; discriminate]).
    pose proof (E_make_owned a2 idx H2) as H3. set (a3 := make_owned a2 idx) in *.
    destruct (an_ch (node_at a3 idx)) as [|c0 [|c1 cr]]; cbn [fst]; [|apply E_collapse; exact H3 | exact H3].
    destruct father as [[child_pos fidx]|]; cbn [fst]; [|apply E_set_root; exact H3].
    pose proof (E_make_owned a3 fidx H3) as H4. set (a4 := make_owned a3 fidx) in *.
    pose proof (E_remove_child a4 child_pos fidx H4) as H5.
    destruct (_ && _); cbn [fst]; [apply E_collapse; exact H5 | exact H5].
  - pose proof (E_make_owned a idx HE) as H1.
    destruct (find_child _ _ 0) as [[pos i]|]; [apply IH; exact H1 | exact H1].
Qed.

Lemma E_delete a key : EInv a -> EInv (fst (ar_delete a key)).
Proof. intros HE. unfold ar_delete. destruct (cur_root a); [apply E_delete_loop; exact HE | exact HE]. Qed.

Lemma E_invalidate : forall fuel a stack, EInv a -> EInv (invalidate fuel a stack).
Proof.
  induction fuel as [|fuel IH]; intros a stack HE; cbn [invalidate]; [exact HE|].
  destruct stack as [|i rest]; [exact HE|]. apply IH.
  destruct (an_val (node_at a i)); [apply E_kill_entry; exact HE | exact HE].
Qed.

Lemma E_delete_prefix_loop : forall fuel a idx parent gp k,
  EInv a -> EInv (fst (ar_delete_prefix_loop fuel a idx parent gp k)).
Proof.
  induction fuel as [|fuel IH]; intros a idx parent gp k HE; cbn [ar_delete_prefix_loop]; [exact HE|].
  destruct (follow_stem k (an_path (node_at a idx))) as [|s ps|c k'|cm kc kr sc sr]; [| | |exact HE].
  3:{ pose proof (E_make_owned a idx HE) as H1.
      destruct (find_child _ _ 0) as [[pos i]|]; [apply IH; exact H1 | exact H1]. }
  all: pose proof (E_invalidate (S (length (a_nodes a))) a [idx] HE) as H1.
  all: destruct parent as [[child_pos pidx]|]; cbn [fst]; [|apply E_set_root; exact H1].
  all: pose proof (E_remove_child _ child_pos pidx (E_make_owned _ pidx H1)) as H3.
  all: destruct (_ && _); cbn [fst]; [apply E_collapse; exact H3 | exact H3].
Qed.

Lemma E_delete_prefix a key : EInv a -> EInv (fst (ar_delete_prefix a key)).
Proof. intros HE. unfold ar_delete_prefix. destruct (cur_root a); [apply E_delete_prefix_loop; exact HE | exact HE]. Qed.

Lemma E_new_generation a : EInv a -> EInv (a_new_generation a).
Proof.
  intros HE. unfold a_new_generation. destruct (cur_root a) as [r|].
  - pose proof (migrate_view a (node_at a r) (S (an_gen (node_at a r)))) as M.
    destruct (migrate a (node_at a r) (S (an_gen (node_at a r)))) as [a1 n'].
    destruct M as (_ & (es & E1) & N1 & _ & _ & _ & R1).
    assert (H1 : EInv a1) by (apply (E_same a); [exact N1 | rewrite E1, app_length; lia | exact HE]).
    pose proof (E_push_node a1 n' H1 R1) as H2.
    intros j e Hv. apply (H2 j e Hv).
  - destruct (a_gens a); [exact HE|]. intros j e Hv. apply (HE j e Hv).
Qed.

Theorem as_step_e o s : gen_op o = false -> EInv (as_arena s) -> EInv (as_arena (fst (as_step o s))).
Proof.
  intros Hg HE. apply as_step_arena; try assumption; intros.
  - apply E_insert. exact HE.
  - unfold a_lookup_key. destruct (cur_root (as_arena s)); [apply E_get_entry; exact HE | exact HE].
  - apply E_a_set. exact HE.
  - apply E_delete. exact HE.
  - apply E_delete_prefix. exact HE.
Qed.

Definition ReachE (s : astate) : Prop :=
  SInv s /\ TInv (as_arena s) /\ EInv (as_arena s)
  /\ exists saved, Hist s saved /\ Forall (fun b => TInv (as_arena b) /\ EInv (as_arena b)) saved.

Lemma EInv_empty : EInv a_empty.
Proof. intros j e Hv. unfold node_at in Hv. cbn in Hv. destruct j; discriminate. Qed.

Lemma ReachE_init : ReachE as_init.
Proof.
  split; [exact SInv_init|]. split; [exact TInv_empty|]. split; [exact EInv_empty|].
  exists []. split; [exact Hist_init | constructor].
Qed.

Lemma step_e o s : EInv (as_arena s) -> (forall r, o <> ONormalize r) -> EInv (as_arena (fst (as_step o s))).
Proof.
  intros HE Hn. destruct (gen_op o) eqn:Hg; [|apply as_step_e; assumption].
  destruct o; try discriminate Hg; [|elim (Hn r eq_refl)]. apply E_new_generation. exact HE.
Qed.

Theorem ReachE_step o s : ReachE s -> ReachE (fst (as_step o s)).
Proof.
  intros (HS & T & HE & X).
  destruct (ReachP_step (fun a => TInv a /\ EInv a) o s) as (S1 & (T1 & E1) & X1).
  - intros (T0 & _). apply tinv_tag_ok, T0.
  - intros HS0 (T0 & E0) Hn. split; [apply step_t | apply step_e]; assumption.
  - exact (conj HS (conj (conj T HE) X)).
  - exact (conj S1 (conj T1 (conj E1 X1))).
Qed.

Theorem ReachE_run : forall ops s, ReachE s -> ReachE (as_run ops s).
Proof. apply as_run_inv, ReachE_step. Qed.

(** The lookup of the arena machine refines [Radix.lookup] in every reachable state. *)
Theorem reachable_lookup_refines_radix_partial ops key r :
  let a := as_arena (as_run ops as_init) in
  cur_root a = Some r ->
  let res := a_lookup_key a key in
  option_map (a_with_entry (fst res)) (snd res) = lookup (nib key) (vview (S (length (nib key))) a r)
  /\ (forall d j, j < length (a_nodes a) -> vview d (fst res) j = vview d a j)
  /\ (forall e, e < length (a_entries a) -> a_with_entry (fst res) e = a_with_entry a e).
Proof.
  intros a Er res. destruct (ReachE_run ops as_init ReachE_init) as ((H & _) & T & HE & _). fold a in H, T, HE.
  destruct (arena_lookup_refines_radix_partial a key r H T HE Er) as (R1 & R2 & R3 & _). auto.
Qed.
