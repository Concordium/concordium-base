(** Tree shape of the arena ([TInv]): a node above the checkpoint that is referenced (as current
    root, or from a children vector owned by the current generation) is referenced once, lies in
    the node vector and carries the current generation number; so [tag_ok] becomes a lemma.
    At the end: the unchecked run [as_run], its reachable states [Reach], [as_exec_run] (the check
    of [as_exec] never fails) and no leak / rollback for them ([arena_no_leak_run],
    [arena_rollback_run]). *)
From Coq Require Import NArith PeanoNat List Bool Lia.
From CB Require Import Trie.Radix.
From CB Require Import Trie.Locks.
From CB Require Import Trie.LocksProofs.
From CB Require Import Trie.Arena.
From CB Require Import Trie.ArenaProofs.
From CB Require Import Trie.ArenaCow.
Import ListNotations.

Definition unsh (n : anode) : bool := Nat.eqb (an_cgen n) (an_gen n).
Definition chi (n : anode) : list nat := map snd (an_ch n).

(** The child indices a node contributes as *owned* edges, when it sits at index [i]. *)
Definition owned_of (a : arena) (i : nat) (n : anode) : list nat :=
  if (cpn a <=? i) && unsh n then chi n else [].
Definition owned (a : arena) (i : nat) : list nat := owned_of a i (node_at a i).

Definition cnt (x : nat) (l : list nat) : nat := count_occ Nat.eq_dec l x.

Definition rcn (a : arena) (x : nat) : nat :=
  list_sum (map (fun i => cnt x (owned a i)) (seq 0 (length (a_nodes a)))).
Definition rroot (a : arena) (x : nat) : nat :=
  match cur_root a with Some r => if Nat.eqb r x then 1 else 0 | None => 0 end.
(** Number of references to node [x]. *)
Definition rc (a : arena) (x : nat) : nat := rroot a x + rcn a x.

Record TInv (a : arena) : Prop := {
  T_u : forall x, rc a x <= 1;
  T_g : forall x, 1 <= rc a x -> x < length (a_nodes a) /\ an_gen (node_at a x) = gnum a;
  T_sh : forall i c, cpn a <= i -> an_cgen (node_at a i) <> an_gen (node_at a i) ->
         In c (chi (node_at a i)) -> c < cpn a;
  T_old : forall i c, i < cpn a -> In c (chi (node_at a i)) -> c < cpn a
}.

Lemma sum_update (f f' : nat -> nat) n i :
  i < n -> (forall j, j <> i -> f' j = f j) ->
  list_sum (map f' (seq 0 n)) + f i = list_sum (map f (seq 0 n)) + f' i.
Proof.
  intros Hi Hf. induction n as [|n IH]; [lia|].
  rewrite seq_S, !map_app, !list_sum_app. cbn [map Nat.add].
  replace (list_sum [f' n]) with (f' n) by (cbn; lia). replace (list_sum [f n]) with (f n) by (cbn; lia).
  destruct (Nat.eq_dec i n) as [->|Hn].
  - assert (E : map f' (seq 0 n) = map f (seq 0 n)).
    { apply map_ext_in. intros j Hj. apply in_seq in Hj. apply Hf. lia. }
    rewrite E. lia.
  - rewrite (Hf n) by lia. specialize (IH ltac:(lia)). lia.
Qed.

Lemma sum_same (f f' : nat -> nat) n :
  (forall j, j < n -> f' j = f j) -> list_sum (map f' (seq 0 n)) = list_sum (map f (seq 0 n)).
Proof. intros H. f_equal. apply map_ext_in. intros j Hj. apply in_seq in Hj. apply H. lia. Qed.

Lemma cnt_app x l1 l2 : cnt x (l1 ++ l2) = cnt x l1 + cnt x l2.
Proof. apply count_occ_app. Qed.

Lemma cnt_pos x l : 1 <= cnt x l <-> In x l.
Proof. unfold cnt. rewrite (count_occ_In Nat.eq_dec). lia. Qed.

Lemma cnt_zero x l : ~ In x l -> cnt x l = 0.
Proof. intros H. apply count_occ_not_In. exact H. Qed.

Lemma cpn_gens a a' : a_gens a' = a_gens a -> cpn a' = cpn a /\ gnum a' = gnum a /\ cur_root a' = cur_root a.
Proof. intros E. unfold cpn, cur_checkpoint, gnum, cur_root. rewrite E. auto. Qed.

Lemma rc_nodes_eq a a' x : a_gens a' = a_gens a -> a_nodes a' = a_nodes a -> rc a' x = rc a x.
Proof.
  intros Eg En. destruct (cpn_gens a a' Eg) as (C & _ & R).
  unfold rc, rroot, rcn, owned, owned_of, node_at. rewrite R, En, C. reflexivity.
Qed.

Lemma set_nth_ge {A} i (x : A) l : length l <= i -> set_nth i x l = l.
Proof.
  revert i. induction l as [|y l IH]; intros i H; [destruct i; reflexivity|].
  destruct i as [|i]; cbn in *; [lia|]. f_equal. apply IH. lia.
Qed.

Lemma owned_set_node_other a i n j : j <> i -> owned (set_node a i n) j = owned a j.
Proof.
  intros H. unfold owned, owned_of. change (cpn (set_node a i n)) with (cpn a).
  rewrite node_at_set_node. destruct (Nat.eqb_spec i j); [congruence | reflexivity].
Qed.

Lemma rc_set_node a i n x :
  i < length (a_nodes a) ->
  rc (set_node a i n) x + cnt x (owned a i) = rc a x + cnt x (owned_of a i n).
Proof.
  intros Hi. unfold rc. change (rroot (set_node a i n) x) with (rroot a x).
  unfold rcn. cbn [set_node a_nodes]. rewrite set_nth_length.
  assert (S := sum_update (fun j => cnt x (owned a j)) (fun j => cnt x (owned (set_node a i n) j))
                         (length (a_nodes a)) i Hi).
  cbv beta in S.
  assert (Hoth : forall j, j <> i -> cnt x (owned (set_node a i n) j) = cnt x (owned a j))
    by (intros j Hj; rewrite owned_set_node_other by exact Hj; reflexivity).
  specialize (S Hoth).
  assert (E : owned (set_node a i n) i = owned_of a i n).
  { unfold owned, owned_of. change (cpn (set_node a i n)) with (cpn a).
    rewrite node_at_set_node, Nat.eqb_refl. apply Nat.ltb_lt in Hi. rewrite Hi. reflexivity. }
  rewrite E in S. lia.
Qed.

Lemma rc_set_node_ge a i n x : length (a_nodes a) <= i -> rc (set_node a i n) x = rc a x.
Proof.
  intros Hi. apply rc_nodes_eq; [reflexivity|]. cbn [set_node a_nodes]. apply set_nth_ge. exact Hi.
Qed.

Lemma rc_push_node a n x :
  rc (push_node a n) x = rc a x + cnt x (owned_of a (length (a_nodes a)) n).
Proof.
  unfold rc. change (rroot (push_node a n) x) with (rroot a x).
  unfold rcn. cbn [push_node a_nodes]. rewrite app_length. cbn [length].
  replace (length (a_nodes a) + 1) with (S (length (a_nodes a))) by lia.
  rewrite seq_S, map_app, list_sum_app. cbn [map Nat.add].
  replace (list_sum [cnt x (owned (push_node a n) (length (a_nodes a)))])
    with (cnt x (owned (push_node a n) (length (a_nodes a)))) by (cbn; lia).
  assert (E1 : list_sum (map (fun i => cnt x (owned (push_node a n) i)) (seq 0 (length (a_nodes a))))
               = list_sum (map (fun i => cnt x (owned a i)) (seq 0 (length (a_nodes a))))).
  { apply sum_same. intros j Hj. unfold owned, owned_of, node_at. change (cpn (push_node a n)) with (cpn a).
    cbn [push_node a_nodes]. rewrite app_nth1 by exact Hj. reflexivity. }
  assert (E2 : owned (push_node a n) (length (a_nodes a)) = owned_of a (length (a_nodes a)) n).
  { unfold owned, owned_of, node_at. change (cpn (push_node a n)) with (cpn a).
    cbn [push_node a_nodes]. rewrite app_nth2, Nat.sub_diag by lia. reflexivity. }
  rewrite E1, E2. lia.
Qed.

Definition rr (r : option nat) (x : nat) : nat :=
  match r with Some r' => if Nat.eqb r' x then 1 else 0 | None => 0 end.

Lemma rc_set_root a r x :
  a_gens a <> [] -> rc (set_root a r) x + rroot a x = rc a x + rr r x.
Proof.
  intros Hne. destruct (set_root_shape a r Hne) as (older & g & E1 & E2 & En & Ev & Ee).
  assert (Ecr : cur_root (set_root a r) = r) by (unfold cur_root; rewrite E2, rev_app_distr; reflexivity).
  assert (Ecp : cpn (set_root a r) = cpn a).
  { unfold cpn, cur_checkpoint. rewrite E1, E2, !rev_app_distr. reflexivity. }
  unfold rc, rroot. rewrite Ecr. fold (rr r x).
  assert (E : rcn (set_root a r) x = rcn a x).
  { unfold rcn, owned, owned_of, node_at. rewrite En, Ecp. reflexivity. }
  rewrite E. lia.
Qed.

Lemma TInv_same_nodes a a' : a_gens a' = a_gens a -> a_nodes a' = a_nodes a -> TInv a -> TInv a'.
Proof.
  intros Eg En [U G S O]. destruct (cpn_gens a a' Eg) as (C & Gn & _).
  assert (Nd : forall i, node_at a' i = node_at a i) by (intros i; unfold node_at; rewrite En; reflexivity).
  constructor.
  - intros x. rewrite (rc_nodes_eq a a' x Eg En). apply U.
  - intros x Hx. rewrite (rc_nodes_eq a a' x Eg En) in Hx. rewrite En, Nd, Gn. apply G. exact Hx.
  - intros i c. rewrite C, Nd. apply S.
  - intros i c. rewrite C, Nd. apply O.
Qed.

Lemma chi_with_path n p : chi (with_path n p) = chi n. Proof. reflexivity. Qed.
Lemma chi_with_val n v : chi (with_val n v) = chi n. Proof. reflexivity. Qed.

Lemma new_entry_shape a v : a_gens (fst (new_entry a v)) = a_gens a /\ a_nodes (fst (new_entry a v)) = a_nodes a.
Proof. split; reflexivity. Qed.

Lemma kill_entry_shape a e : a_gens (fst (kill_entry a e)) = a_gens a /\ a_nodes (fst (kill_entry a e)) = a_nodes a.
Proof. unfold kill_entry. destruct (nth e (a_entries a) EDeleted); split; reflexivity. Qed.

Lemma set_entry_value_shape a e v :
  a_gens (a_set_entry_value a e v) = a_gens a /\ a_nodes (a_set_entry_value a e v) = a_nodes a.
Proof. unfold a_set_entry_value. destruct (nth e (a_entries a) EDeleted); split; reflexivity. Qed.

Lemma a_set_shape a e v : a_gens (fst (a_set a e v)) = a_gens a /\ a_nodes (fst (a_set a e v)) = a_nodes a.
Proof. unfold a_set. destruct (nth_error (a_entries a) e) as [[?|?|]|]; split; reflexivity. Qed.

Lemma a_mut_shape a e v : a_gens (fst (a_mut a e v)) = a_gens a /\ a_nodes (fst (a_mut a e v)) = a_nodes a.
Proof. rewrite a_mut_fst. apply a_set_shape. Qed.

Lemma rc_push_nodes_unowned : forall ns a x,
  (forall n i, In n ns -> owned_of a i n = []) ->
  rc (mkA (a_gens a) (a_entries a) (a_values a) (a_nodes a ++ ns)) x = rc a x.
Proof.
  induction ns as [|n ns IH]; intros a x H.
  - rewrite app_nil_r. destruct a. reflexivity.
  - specialize (IH (push_node a n) x). cbn [push_node a_gens a_entries a_values a_nodes] in IH.
    rewrite <- app_assoc in IH. cbn [app] in IH. rewrite IH.
    + rewrite rc_push_node. rewrite (H n _ (or_introl eq_refl)). cbn. lia.
    + intros m i Hm. change (owned_of (push_node a n) i m) with (owned_of a i m). apply H. right. exact Hm.
Qed.

Lemma make_owned_unshared a idx : an_cgen (node_at a idx) = an_gen (node_at a idx) -> make_owned a idx = a.
Proof. intros E. unfold make_owned. rewrite E, Nat.eqb_refl. reflexivity. Qed.

Lemma make_owned_node_other a idx u :
  u <> idx -> u < length (a_nodes a) -> node_at (make_owned a idx) u = node_at a u.
Proof.
  intros Hne Hu. destruct (Nat.eq_dec (an_cgen (node_at a idx)) (an_gen (node_at a idx))) as [E|E].
  - rewrite make_owned_unshared by exact E. reflexivity.
  - destruct (make_owned_spec a idx E) as (_ & es & _ & _ & _ & _ & _ & _ & Nold & _). apply Nold; assumption.
Qed.

(** Fresh nodes referenced once each, the other counts unchanged: at most one reference again,
    and a referenced node is fresh or has a reference in [a]. *)
Lemma rc_fresh a a' fresh :
  TInv a -> NoDup fresh ->
  (forall f, In f fresh -> length (a_nodes a) <= f < length (a_nodes a')) ->
  (forall x, rc a' x = rc a x + cnt x fresh) ->
  (forall x, rc a' x <= 1)
  /\ (forall x, 1 <= rc a' x -> In x fresh \/ (x < length (a_nodes a) /\ an_gen (node_at a x) = gnum a)).
Proof.
  intros T ND Hf Hrc. split.
  - intros x. rewrite Hrc. pose proof (T_u a T x). pose proof (NoDup_count_occ Nat.eq_dec fresh) as (X & _).
    specialize (X ND x). fold (cnt x fresh) in X.
    destruct (Nat.eq_dec (cnt x fresh) 0) as [Z|Z]; [lia|].
    assert (Hin : In x fresh) by (apply cnt_pos; lia). destruct (Hf x Hin) as (Y & _).
    assert (rc a x = 0).
    { destruct (Nat.eq_dec (rc a x) 0) as [|Q]; [assumption|]. destruct (T_g a T x ltac:(lia)). lia. }
    lia.
  - intros x Hx. rewrite Hrc in Hx. destruct (Nat.eq_dec (rc a x) 0) as [Z|Z].
    + left. apply cnt_pos. lia.
    + right. apply (T_g a T x). lia.
Qed.

Theorem make_owned_t a idx :
  AInv a -> TInv a -> cpn a <= idx ->
  TInv (make_owned a idx) /\ (forall x, rc a x <= rc (make_owned a idx) x).
Proof.
  intros H T Hi. destruct (Nat.eq_dec (an_cgen (node_at a idx)) (an_gen (node_at a idx))) as [E|E].
  - rewrite make_owned_unshared by exact E. split; [exact T | intros; lia].
  - pose proof (AI_sh a H idx Hi E) as Hg. pose proof (AI_len a H) as (L1 & _).
    destruct (make_owned_eq a idx E) as (Hlt & es & _ & M).
    destruct (make_owned_spec a idx E) as (_ & _ & G1 & _ & _ & _ & Len & Nidx & Nold & _).
    pose proof (fun q => make_owned_copy a idx q E) as Nnew. cbv zeta in Nnew.
    set (n := node_at a idx) in *. set (L := length (a_nodes a)) in *. rewrite Hg in M, Nidx, Nnew.
    (* the copies are shared, and their children lie below the checkpoint *)
    assert (Hc : forall k i lo, In (k, i) (an_ch n) ->
                 an_cgen (copy_node (gnum a) lo (node_at a i)) < gnum a
                 /\ forall c, In c (chi (copy_node (gnum a) lo (node_at a i))) -> c < cpn a).
    { intros k i lo Hin.
      assert (Hi' : i < cpn a) by (apply (T_sh a T idx i Hi E); unfold chi; apply (in_map snd _ _ Hin)).
      split; [apply (AI_old a H i Hi') | intros c; apply (T_old a T i c Hi')]. }
    assert (R3 : forall x, rc (make_owned a idx) x = rc a x + cnt x (seq L (length (an_ch n)))).
    { intros x. rewrite M.
      set (ns := copy_nodes (a_nodes a) (gnum a) (length (a_entries a)) (an_ch n)).
      set (nn := mkAN (gnum a) (an_val n) (an_path n) (gnum a) (renumber L (an_ch n))).
      set (a2 := mkA (a_gens a) (a_entries a ++ es) (a_values a) (a_nodes a ++ ns)).
      assert (R2 : rc a2 x = rc a x).
      { rewrite <- (rc_push_nodes_unowned ns a x); [apply rc_nodes_eq; reflexivity|].
        intros c i Hin. destruct (In_nth_error _ _ Hin) as (q & Hq).
        pose proof (copy_nodes_nth a (gnum a) (an_ch n) (length (a_entries a)) q) as C. fold ns in C.
        destruct (nth_error (an_ch n) q) as [[k j]|] eqn:Hk; [|congruence].
        destruct C as (lo & Hn & _). rewrite Hq in Hn. inversion Hn; subst c.
        destruct (Hc k j lo (nth_error_In _ _ Hk)) as (X & _). unfold owned_of, unsh.
        destruct (Nat.eqb_spec (an_cgen (copy_node (gnum a) lo (node_at a j))) (an_gen (copy_node (gnum a) lo (node_at a j)))) as [Y|_];
          [cbn [copy_node an_gen] in Y; lia|].
        rewrite andb_false_r. reflexivity. }
      assert (Hlt2 : idx < length (a_nodes a2)) by (unfold a2; cbn [a_nodes]; rewrite app_length; fold L; lia).
      assert (Ow : owned a2 idx = []).
      { unfold owned, owned_of, node_at, a2. cbn [a_nodes]. rewrite app_nth1 by exact Hlt.
        fold (node_at a idx). fold n. unfold unsh. destruct (Nat.eqb_spec (an_cgen n) (an_gen n)); [contradiction|].
        rewrite andb_false_r. reflexivity. }
      assert (On : owned_of a2 idx nn = seq L (length (an_ch n))).
      { unfold owned_of, nn, unsh, chi. cbn [an_gen an_cgen an_ch]. change (cpn a2) with (cpn a). rewrite Nat.eqb_refl.
        destruct (Nat.leb_spec (cpn a) idx); [|lia]. apply renumber_fst_snd. }
      pose proof (rc_set_node a2 idx nn x Hlt2) as X. rewrite Ow, On, R2 in X. cbn in X. lia. }
    set (a1 := make_owned a idx) in *. destruct (cpn_gens a a1 G1) as (Cp & Gn & _).
    assert (Hnew : forall j, L <= j ->
              (j < L + length (an_ch n) -> an_gen (node_at a1 j) = gnum a)
              /\ forall c, In c (chi (node_at a1 j)) -> c < cpn a).
    { intros j Hj. specialize (Nnew (j - L)). replace (L + (j - L)) with j in Nnew by lia.
      destruct (nth_error (an_ch n) (j - L)) as [[k i]|] eqn:Hk.
      - destruct Nnew as (lo & -> & _). split; [reflexivity | apply (Hc k i lo (nth_error_In _ _ Hk))].
      - rewrite Nnew. apply nth_error_None in Hk. split; [lia | intros c []]. }
    destruct (rc_fresh a a1 (seq L (length (an_ch n))) T (seq_NoDup _ _)) as (U & Gx);
      [intros f Hf; apply in_seq in Hf; rewrite Len; exact Hf | exact R3 |].
    split; [|intros x; rewrite R3; lia].
    constructor; rewrite ?Cp, ?Gn.
    + exact U.
    + intros x Hx. rewrite Len. destruct (Gx x Hx) as [Hin|(X1 & X2)].
      * apply in_seq in Hin. split; [lia | apply (proj1 (Hnew x ltac:(lia))); lia].
      * split; [lia|]. destruct (Nat.eq_dec x idx) as [->|Hne]; [rewrite Nidx; reflexivity|].
        rewrite (Nold x X1 Hne). exact X2.
    + intros j c Hj Hsh Hin. destruct (Nat.eq_dec j idx) as [->|Hne].
      * rewrite Nidx in Hsh. exfalso. apply Hsh. reflexivity.
      * destruct (Nat.lt_ge_cases j L) as [Hl|Hl].
        -- rewrite (Nold j Hl Hne) in Hsh, Hin. apply (T_sh a T j c Hj Hsh Hin).
        -- apply (proj2 (Hnew j Hl) c Hin).
    + intros j c Hj Hin. rewrite (Nold j) in Hin by lia. apply (T_old a T j c Hj Hin).
Qed.

Lemma rc_set_node_same a i n' x :
  an_gen n' = an_gen (node_at a i) -> an_cgen n' = an_cgen (node_at a i) -> an_ch n' = an_ch (node_at a i) ->
  rc (set_node a i n') x = rc a x.
Proof.
  intros E1 E2 E3.
  assert (Eo : owned_of a i n' = owned a i) by (unfold owned, owned_of, unsh, chi; rewrite E1, E2, E3; reflexivity).
  destruct (Nat.lt_ge_cases i (length (a_nodes a))) as [Hi|Hi].
  - pose proof (rc_set_node a i n' x Hi) as X. rewrite Eo in X. lia.
  - apply rc_set_node_ge. exact Hi.
Qed.

Lemma term_le_sum (f : nat -> nat) n u : u < n -> f u <= list_sum (map f (seq 0 n)).
Proof.
  intros Hu. induction n as [|n IH]; [lia|]. rewrite seq_S, map_app, list_sum_app. cbn [map Nat.add].
  replace (list_sum [f n]) with (f n) by (cbn; lia).
  destruct (Nat.eq_dec u n) as [->|]; [lia|]. specialize (IH ltac:(lia)). lia.
Qed.

Lemma owned_le_rc a u x : u < length (a_nodes a) -> cnt x (owned a u) <= rc a x.
Proof.
  intros Hu. unfold rc, rcn. pose proof (term_le_sum (fun i => cnt x (owned a i)) _ u Hu). cbv beta in H. lia.
Qed.

Definition one (b : bool) : nat := if b then 1 else 0.

Lemma cnt_cons x y l : cnt x (y :: l) = one (Nat.eqb y x) + cnt x l.
Proof. unfold cnt. cbn [count_occ]. destruct (Nat.eq_dec y x) as [->|H]; [rewrite Nat.eqb_refl | apply Nat.eqb_neq in H; rewrite H]; reflexivity. Qed.

Lemma cnt_set_child_index x pos i ch old :
  nth_error (map snd ch) pos = Some old ->
  cnt x (map snd (set_child_index pos i ch)) + one (Nat.eqb old x) = cnt x (map snd ch) + one (Nat.eqb i x).
Proof.
  revert pos. induction ch as [|[k j] ch IH]; intros pos H; [destruct pos; discriminate|].
  destruct pos as [|pos]; cbn [set_child_index map snd nth_error] in *.
  - inversion H; subst. rewrite !cnt_cons. lia.
  - rewrite !cnt_cons. specialize (IH pos H). lia.
Qed.

Lemma cnt_remove_nth x pos (ch : list (N * nat)) old :
  nth_error (map snd ch) pos = Some old ->
  cnt x (map snd (remove_nth pos ch)) + one (Nat.eqb old x) = cnt x (map snd ch).
Proof.
  revert pos. induction ch as [|[k j] ch IH]; intros pos H; [destruct pos; discriminate|].
  destruct pos as [|pos]; cbn [remove_nth map snd nth_error] in *.
  - inversion H; subst. rewrite cnt_cons. lia.
  - rewrite !cnt_cons. specialize (IH pos H). lia.
Qed.

(** The place from which node [idx] is referenced: a child slot of an unshared node above
    the checkpoint, or the root. *)
Definition slot (a : arena) (up : option (nat * nat)) (idx : nat) : Prop :=
  match up with
  | Some (pos, u) => cpn a <= u /\ u < length (a_nodes a)
                     /\ an_cgen (node_at a u) = an_gen (node_at a u)
                     /\ nth_error (chi (node_at a u)) pos = Some idx
  | None => cur_root a = Some idx
  end.

Lemma owned_of_unshared a i n : cpn a <= i -> an_cgen n = an_gen n -> owned_of a i n = chi n.
Proof.
  intros H E. unfold owned_of, unsh. rewrite E, Nat.eqb_refl. destruct (Nat.leb_spec (cpn a) i); [reflexivity | lia].
Qed.

Lemma owned_unshared a u :
  cpn a <= u -> an_cgen (node_at a u) = an_gen (node_at a u) -> owned a u = chi (node_at a u).
Proof. apply owned_of_unshared. Qed.

Lemma slot_rc a up idx : slot a up idx -> 1 <= rc a idx.
Proof.
  destruct up as [[pos u]|]; cbn [slot].
  - intros (H1 & H2 & H3 & H4). pose proof (owned_le_rc a u idx H2) as X.
    rewrite owned_unshared in X by assumption.
    assert (1 <= cnt idx (chi (node_at a u))) by (apply cnt_pos; eapply nth_error_In; exact H4). lia.
  - intros E. unfold rc, rroot. rewrite E, Nat.eqb_refl. lia.
Qed.

Lemma find_child_nth c ch pos0 pos i :
  find_child c ch pos0 = Some (pos, i) -> pos0 <= pos /\ nth_error (map snd ch) (pos - pos0) = Some i.
Proof.
  revert pos0. induction ch as [|[k j] ch IH]; intros pos0 H; cbn in H; [discriminate|].
  destruct (N.eqb c k).
  - inversion H; subst. rewrite Nat.sub_diag. split; [lia | reflexivity].
  - destruct (IH _ H) as (X & Y). split; [lia|].
    replace (pos - pos0) with (S (pos - S pos0)) by lia. exact Y.
Qed.

Lemma node_at_set_node_eq a i n : i < length (a_nodes a) -> node_at (set_node a i n) i = n.
Proof. intros H. apply Nat.ltb_lt in H. rewrite node_at_set_node, Nat.eqb_refl, H. reflexivity. Qed.

Lemma node_at_set_node_ne a i n j : i <> j -> node_at (set_node a i n) j = node_at a j.
Proof. intros H. apply Nat.eqb_neq in H. rewrite node_at_set_node, H. reflexivity. Qed.

Lemma length_set_node a i n : length (a_nodes (set_node a i n)) = length (a_nodes a).
Proof. apply set_nth_length. Qed.

Definition reslot (a : arena) (up : option (nat * nat)) (i : nat) : arena :=
  match up with
  | Some (pos, u) => set_node a u (with_children (node_at a u) (set_child_index pos i (an_ch (node_at a u))))
  | None => set_root a (Some i)
  end.

Definition unslot (a : arena) (up : option (nat * nat)) : arena :=
  match up with
  | Some (pos, u) => set_node a u (with_children (node_at a u) (remove_nth pos (an_ch (node_at a u))))
  | None => set_root a None
  end.

Lemma rr_some r x : rr (Some r) x = one (Nat.eqb r x). Proof. reflexivity. Qed.

Lemma rc_set_children a u ch x :
  cpn a <= u -> u < length (a_nodes a) -> an_cgen (node_at a u) = an_gen (node_at a u) ->
  rc (set_node a u (with_children (node_at a u) ch)) x + cnt x (chi (node_at a u)) = rc a x + cnt x (map snd ch).
Proof.
  intros H1 H2 H3. pose proof (rc_set_node a u (with_children (node_at a u) ch) x H2) as X.
  rewrite (owned_unshared a u H1 H3), (owned_of_unshared a u (with_children (node_at a u) ch) H1 H3) in X. exact X.
Qed.

Lemma rc_reslot a up idx i x :
  a_gens a <> [] -> slot a up idx ->
  rc (reslot a up i) x + one (Nat.eqb idx x) = rc a x + one (Nat.eqb i x).
Proof.
  intros Hne Hs. destruct up as [[pos u]|]; cbn [slot reslot] in *.
  - destruct Hs as (H1 & H2 & H3 & H4).
    pose proof (rc_set_children a u (set_child_index pos i (an_ch (node_at a u))) x H1 H2 H3) as X.
    pose proof (cnt_set_child_index x pos i (an_ch (node_at a u)) idx H4) as Y. unfold chi in X. lia.
  - pose proof (rc_set_root a (Some i) x Hne) as X. rewrite rr_some in X.
    unfold rroot in X. rewrite Hs in X. unfold one in *. destruct (Nat.eqb idx x), (Nat.eqb i x); lia.
Qed.

Lemma rc_unslot a up idx x :
  a_gens a <> [] -> slot a up idx -> rc (unslot a up) x + one (Nat.eqb idx x) = rc a x.
Proof.
  intros Hne Hs. destruct up as [[pos u]|]; cbn [slot unslot] in *.
  - destruct Hs as (H1 & H2 & H3 & H4).
    pose proof (rc_set_children a u (remove_nth pos (an_ch (node_at a u))) x H1 H2 H3) as X.
    pose proof (cnt_remove_nth x pos (an_ch (node_at a u)) idx H4) as Y. unfold chi in X. lia.
  - pose proof (rc_set_root a None x Hne) as X. cbn [rr] in X.
    unfold rroot in X. rewrite Hs in X. unfold one in *. destruct (Nat.eqb idx x); lia.
Qed.

Lemma reslot_tags a up i j :
  a_gens a <> [] ->
  an_gen (node_at (reslot a up i) j) = an_gen (node_at a j)
  /\ an_cgen (node_at (reslot a up i) j) = an_cgen (node_at a j)
  /\ length (a_nodes (reslot a up i)) = length (a_nodes a)
  /\ cpn (reslot a up i) = cpn a /\ gnum (reslot a up i) = gnum a.
Proof.
  intros Hne. destruct up as [[pos u]|]; cbn [reslot].
  - rewrite node_at_set_node. cbn [set_node a_nodes]. rewrite set_nth_length.
    destruct (Nat.eqb_spec u j) as [->|]; [destruct (Nat.ltb j (length (a_nodes a)))|]; auto.
  - destruct (set_root_shape a (Some i) Hne) as (older & g & E1 & E2 & En & _).
    unfold node_at, cpn, gnum, cur_checkpoint. rewrite En, E1, E2, !rev_app_distr, !app_length. cbn. auto.
Qed.

Lemma unslot_tags a up j :
  a_gens a <> [] ->
  an_gen (node_at (unslot a up) j) = an_gen (node_at a j)
  /\ an_cgen (node_at (unslot a up) j) = an_cgen (node_at a j)
  /\ length (a_nodes (unslot a up)) = length (a_nodes a)
  /\ cpn (unslot a up) = cpn a /\ gnum (unslot a up) = gnum a.
Proof.
  intros Hne. destruct up as [[pos u]|]; cbn [unslot].
  - rewrite node_at_set_node. cbn [set_node a_nodes]. rewrite set_nth_length.
    destruct (Nat.eqb_spec u j) as [->|]; [destruct (Nat.ltb j (length (a_nodes a)))|]; auto.
  - destruct (set_root_shape a None Hne) as (older & g & E1 & E2 & En & _).
    unfold node_at, cpn, gnum, cur_checkpoint. rewrite En, E1, E2, !rev_app_distr, !app_length. cbn. auto.
Qed.

Lemma TInv_of a a' :
  TInv a -> cpn a' = cpn a -> gnum a' = gnum a ->
  (forall x, rc a' x <= 1) ->
  (forall x, 1 <= rc a' x -> x < length (a_nodes a') /\ an_gen (node_at a' x) = gnum a) ->
  (forall j, (an_cgen (node_at a' j) = an_cgen (node_at a j) /\ an_gen (node_at a' j) = an_gen (node_at a j)
              /\ chi (node_at a' j) = chi (node_at a j))
             \/ (cpn a <= j /\ an_cgen (node_at a' j) = an_gen (node_at a' j))) ->
  TInv a'.
Proof.
  intros T C G U Gg Nd. constructor; rewrite ?C, ?G; auto.
  - intros j c Hj Hsh Hin. destruct (Nd j) as [(E1 & E2 & E3)|(_ & E)]; [|contradiction].
    rewrite E1, E2 in Hsh. rewrite E3 in Hin. apply (T_sh a T j c Hj Hsh Hin).
  - intros j c Hj Hin. destruct (Nd j) as [(E1 & E2 & E3)|(X & _)]; [|lia].
    rewrite E3 in Hin. apply (T_old a T j c Hj Hin).
Qed.

Definition nd_ok (a a' : arena) : Prop :=
  forall j, (an_cgen (node_at a' j) = an_cgen (node_at a j) /\ an_gen (node_at a' j) = an_gen (node_at a j)
             /\ chi (node_at a' j) = chi (node_at a j))
            \/ (cpn a <= j /\ an_cgen (node_at a' j) = an_gen (node_at a' j)).

Lemma nd_refl a : nd_ok a a.
Proof. intros j. left. auto. Qed.

Lemma nd_trans a b c : nd_ok a b -> nd_ok b c -> cpn b = cpn a -> nd_ok a c.
Proof.
  intros H1 H2 C j. destruct (H2 j) as [(E1 & E2 & E3)|(X & Y)].
  - destruct (H1 j) as [(F1 & F2 & F3)|(X & Y)]; [left; repeat split; congruence|].
    right. split; [exact X | congruence].
  - right. split; [lia | exact Y].
Qed.

Lemma nd_same_nodes a a' : a_nodes a' = a_nodes a -> nd_ok a a'.
Proof. intros E j. left. unfold node_at. rewrite E. auto. Qed.

Lemma nd_set_node a i n : cpn a <= i -> an_cgen n = an_gen n -> nd_ok a (set_node a i n).
Proof.
  intros Hi E j. rewrite node_at_set_node. destruct (Nat.eqb_spec i j) as [->|]; [|left; auto].
  destruct (Nat.ltb j (length (a_nodes a))); [right; auto | left; auto].
Qed.

Lemma nd_set_node_same a i n :
  an_gen n = an_gen (node_at a i) -> an_cgen n = an_cgen (node_at a i) -> an_ch n = an_ch (node_at a i) ->
  nd_ok a (set_node a i n).
Proof.
  intros E1 E2 E3 j. left. rewrite node_at_set_node. destruct (Nat.eqb_spec i j) as [->|]; [|auto].
  destruct (Nat.ltb j (length (a_nodes a))); [|auto]. unfold chi. rewrite E1, E2, E3. auto.
Qed.

Lemma TInv_set_node_same a i n' :
  TInv a -> an_gen n' = an_gen (node_at a i) -> an_cgen n' = an_cgen (node_at a i) ->
  an_ch n' = an_ch (node_at a i) -> TInv (set_node a i n').
Proof.
  intros T E1 E2 E3. apply (TInv_of a _ T); try reflexivity.
  - intros x. rewrite rc_set_node_same by assumption. apply (T_u a T).
  - intros x Hx. rewrite rc_set_node_same in Hx by assumption. destruct (T_g a T x Hx) as (X1 & X2).
    cbn [set_node a_nodes]. rewrite set_nth_length, node_at_set_node. split; [exact X1|].
    destruct (Nat.eqb_spec i x) as [->|]; [destruct (Nat.ltb x (length (a_nodes a)))|]; congruence.
  - apply nd_set_node_same; assumption.
Qed.

Lemma node_at_push a n j :
  node_at (push_node a n) j = if Nat.eqb j (length (a_nodes a)) then n else node_at a j.
Proof. unfold node_at. cbn [push_node a_nodes]. apply nth_app_single. Qed.

Lemma node_at_push_eq a n : node_at (push_node a n) (length (a_nodes a)) = n.
Proof. rewrite node_at_push, Nat.eqb_refl. reflexivity. Qed.

Lemma node_at_push_lt a n j : j < length (a_nodes a) -> node_at (push_node a n) j = node_at a j.
Proof. intros H. rewrite node_at_push. destruct (Nat.eqb_spec j (length (a_nodes a))); [lia | reflexivity]. Qed.

Lemma length_push_node a n : length (a_nodes (push_node a n)) = S (length (a_nodes a)).
Proof. cbn [push_node a_nodes]. rewrite app_length. apply Nat.add_1_r. Qed.

Lemma nd_push_node a n : cpn a <= length (a_nodes a) -> an_cgen n = an_gen n -> nd_ok a (push_node a n).
Proof.
  intros Hl E j. rewrite node_at_push. destruct (Nat.eqb_spec j (length (a_nodes a))) as [->|]; [right; auto | left; auto].
Qed.

Lemma nd_reslot a up idx i : a_gens a <> [] -> slot a up idx -> nd_ok a (reslot a up i).
Proof.
  intros Hne Hs. destruct up as [[pos u]|]; cbn [slot reslot] in *.
  - destruct Hs as (H1 & H2 & H3 & H4). apply nd_set_node; [exact H1 | exact H3].
  - destruct (set_root_shape a (Some i) Hne) as (_ & _ & _ & _ & En & _). apply nd_same_nodes. exact En.
Qed.

Lemma nd_unslot a up idx : a_gens a <> [] -> slot a up idx -> nd_ok a (unslot a up).
Proof.
  intros Hne Hs. destruct up as [[pos u]|]; cbn [slot unslot] in *.
  - destruct Hs as (H1 & H2 & H3 & H4). apply nd_set_node; [exact H1 | exact H3].
  - destruct (set_root_shape a None Hne) as (_ & _ & _ & _ & En & _). apply nd_same_nodes. exact En.
Qed.

Lemma slot_same_nodes a a' up idx :
  a_gens a' = a_gens a -> a_nodes a' = a_nodes a -> slot a up idx -> slot a' up idx.
Proof.
  intros Eg En. destruct (cpn_gens a a' Eg) as (C & _ & R). destruct up as [[pos u]|]; cbn [slot].
  - unfold node_at. rewrite C, En. auto.
  - rewrite R. auto.
Qed.

Lemma slot_set_node_same a i n up idx :
  an_gen n = an_gen (node_at a i) -> an_cgen n = an_cgen (node_at a i) -> an_ch n = an_ch (node_at a i) ->
  slot a up idx -> slot (set_node a i n) up idx.
Proof.
  intros E1 E2 E3. destruct up as [[pos u]|]; cbn [slot]; [|auto].
  change (cpn (set_node a i n)) with (cpn a). cbn [set_node a_nodes]. rewrite set_nth_length, node_at_set_node.
  destruct (Nat.eqb_spec i u) as [->|]; [|auto]. destruct (Nat.ltb u (length (a_nodes a))); [|auto].
  unfold chi. rewrite E1, E2, E3. auto.
Qed.

Lemma relink_reslot a parent i :
  relink a parent i = reslot a (match parent with Some (p, pos) => Some (pos, p) | None => None end) i.
Proof. destruct parent as [[p pos]|]; reflexivity. Qed.

Lemma TInv_dead a a' d :
  TInv a -> cpn a' = cpn a -> gnum a' = gnum a -> length (a_nodes a') = length (a_nodes a) ->
  (forall x, rc a' x + one (Nat.eqb d x) = rc a x) ->
  (forall j, j <> d -> an_gen (node_at a' j) = an_gen (node_at a j)) ->
  nd_ok a a' -> TInv a'.
Proof.
  intros T C G L Hrc Hg Nd. apply (TInv_of a a' T C G); [| |exact Nd].
  - intros x. specialize (Hrc x). pose proof (T_u a T x). lia.
  - intros x Hx. pose proof (Hrc x) as X. pose proof (T_u a T x) as U.
    assert (Hne : x <> d).
    { intros ->. rewrite Nat.eqb_refl in X. cbn in X. lia. }
    destruct (T_g a T x ltac:(lia)) as (X1 & X2). rewrite L, Hg by exact Hne. auto.
Qed.

Lemma cnt_insert_child x c i ch : cnt x (map snd (insert_child c i ch)) = cnt x (map snd ch) + one (Nat.eqb i x).
Proof.
  induction ch as [|[k j] ch IH]; cbn [insert_child].
  - cbn [map snd]. rewrite cnt_cons. cbn. lia.
  - destruct (N.ltb c k).
    + change (map snd ((c, i) :: (k, j) :: ch)) with (i :: map snd ((k, j) :: ch)). rewrite cnt_cons. lia.
    + change (map snd ((k, j) :: insert_child c i ch)) with (j :: map snd (insert_child c i ch)).
      change (map snd ((k, j) :: ch)) with (j :: map snd ch). rewrite !cnt_cons, IH. lia.
Qed.

Lemma slot_push_node a n up idx : slot a up idx -> slot (push_node a n) up idx.
Proof.
  destruct up as [[pos u]|]; cbn [slot]; [|auto].
  intros (H1 & H2 & H3 & H4). change (cpn (push_node a n)) with (cpn a).
  rewrite node_at_push. cbn [push_node a_nodes]. rewrite app_length. cbn.
  destruct (Nat.eqb_spec u (length (a_nodes a))); [lia|]. repeat split; auto; lia.
Qed.

(** Each primitive step (push, set_node of an owned node, reslot) extends the arena it starts
    from, so a chain extends the first arena and only the reference counts are left. *)
Definition ext (a a' : arena) : Prop :=
  cpn a' = cpn a /\ gnum a' = gnum a /\ length (a_nodes a) <= length (a_nodes a')
  /\ (forall j, j < length (a_nodes a) -> an_gen (node_at a' j) = an_gen (node_at a j))
  /\ (forall j, length (a_nodes a) <= j < length (a_nodes a') -> an_gen (node_at a' j) = gnum a)
  /\ nd_ok a a'.

Lemma ext_refl a : ext a a.
Proof.
  split; [reflexivity|]. split; [reflexivity|]. split; [apply le_n|]. split; [reflexivity|].
  split; [intros j Hj; lia | apply nd_refl].
Qed.

Lemma ext_trans a b c : ext a b -> ext b c -> ext a c.
Proof.
  intros (C1 & G1 & L1 & O1 & F1 & N1) (C2 & G2 & L2 & O2 & F2 & N2).
  split; [congruence|]. split; [congruence|]. split; [lia|].
  split; [intros j Hj; rewrite O2 by lia; apply O1, Hj|].
  split; [|exact (nd_trans a b c N1 N2 C1)].
  intros j Hj. destruct (Nat.lt_ge_cases j (length (a_nodes b))) as [H|H].
  - rewrite O2 by exact H. apply F1. lia.
  - rewrite F2 by lia. exact G1.
Qed.

Lemma ext_push a b n :
  ext a b -> cpn a <= length (a_nodes a) -> an_cgen n = an_gen n -> an_gen n = gnum a -> ext a (push_node b n).
Proof.
  intros X Hl Eu Eg. apply (ext_trans a b _ X). destruct X as (C & G & L & _).
  split; [reflexivity|]. split; [reflexivity|]. split; [rewrite length_push_node; lia|].
  split; [intros j Hj; rewrite node_at_push_lt by exact Hj; reflexivity|].
  split. { intros j Hj. rewrite length_push_node in Hj. assert (j = length (a_nodes b)) as -> by lia.
           rewrite node_at_push_eq, G. exact Eg. }
  apply nd_push_node; [rewrite C; lia | exact Eu].
Qed.

Lemma ext_set_node a b i n :
  ext a b -> cpn a <= i -> an_cgen n = an_gen n -> an_gen n = an_gen (node_at b i) -> ext a (set_node b i n).
Proof.
  intros X Hi Eu Eg. apply (ext_trans a b _ X). destruct X as (C & _).
  split; [reflexivity|]. split; [reflexivity|]. split; [rewrite length_set_node; apply le_n|].
  split. { intros j _. rewrite node_at_set_node. destruct (Nat.eqb_spec i j) as [->|]; [|reflexivity].
           destruct (Nat.ltb j (length (a_nodes b))); [exact Eg | reflexivity]. }
  split; [intros j Hj; rewrite length_set_node in Hj; lia|].
  apply nd_set_node; [rewrite C; exact Hi | exact Eu].
Qed.

Lemma ext_reslot_nd a b up i : ext a b -> a_gens b <> [] -> nd_ok b (reslot b up i) -> ext a (reslot b up i).
Proof.
  intros X Hne Nd. apply (ext_trans a b _ X). destruct (reslot_tags b up i 0 Hne) as (_ & _ & L & C & G).
  split; [exact C|]. split; [exact G|]. split; [rewrite L; apply le_n|].
  split; [intros j _; apply (reslot_tags b up i j Hne)|]. split; [intros j Hj; lia | exact Nd].
Qed.

Lemma ext_reslot a b up idx i : ext a b -> a_gens b <> [] -> slot b up idx -> ext a (reslot b up i).
Proof. intros X Hne Hs. exact (ext_reslot_nd a b up i X Hne (nd_reslot b up idx i Hne Hs)). Qed.

Lemma rc_push_ext a b n x :
  ext a b -> cpn a <= length (a_nodes a) -> an_cgen n = an_gen n -> rc (push_node b n) x = rc b x + cnt x (chi n).
Proof. intros (C & _ & L & _) Hl E. rewrite rc_push_node, owned_of_unshared; [reflexivity | lia | exact E]. Qed.

Lemma TInv_fresh a a' fresh :
  TInv a -> ext a a' -> NoDup fresh ->
  (forall f, In f fresh -> length (a_nodes a) <= f < length (a_nodes a')) ->
  (forall x, rc a' x = rc a x + cnt x fresh) -> TInv a'.
Proof.
  intros T (C & G & L & Hg & F & Nd) ND Hf Hrc. destruct (rc_fresh a a' fresh T ND Hf Hrc) as (U & Gx).
  apply (TInv_of a a' T C G U); [|exact Nd].
  intros x Hx. destruct (Gx x Hx) as [Hin|(X1 & X2)].
  - split; [apply Hf, Hin | apply F, Hf, Hin].
  - split; [lia|]. rewrite Hg by exact X1. exact X2.
Qed.

Lemma cnt_single x y : cnt x [y] = one (Nat.eqb y x).
Proof. rewrite cnt_cons. cbn. lia. Qed.

Lemma attach_t a up idx nn :
  TInv a -> a_gens a <> [] -> cpn a <= length (a_nodes a) -> slot a up idx ->
  an_cgen nn = an_gen nn -> an_gen nn = gnum a -> chi nn = [idx] ->
  TInv (push_node (reslot a up (length (a_nodes a))) nn).
Proof.
  intros T Hne Hl Hs Eu Eg Ec.
  set (L := length (a_nodes a)). set (a1 := reslot a up L).
  pose proof (ext_reslot a a up idx L (ext_refl a) Hne Hs) as X1. fold a1 in X1.
  destruct (reslot_tags a up L 0 Hne) as (_ & _ & L1 & _). fold a1 in L1.
  apply (TInv_fresh a _ [L] T (ext_push a a1 nn X1 Hl Eu Eg)).
  - repeat constructor. intros [].
  - intros f [<-|[]]. rewrite length_push_node, L1. fold L. lia.
  - intros x. rewrite (rc_push_ext a a1 nn x X1 Hl Eu), Ec.
    pose proof (rc_reslot a up idx L x Hne Hs) as R. fold a1 in R. rewrite !cnt_single. lia.
Qed.

Lemma split_t a up idx leaf br :
  TInv a -> a_gens a <> [] -> cpn a <= length (a_nodes a) -> slot a up idx ->
  an_cgen leaf = an_gen leaf -> an_gen leaf = gnum a -> chi leaf = [] ->
  an_cgen br = an_gen br -> an_gen br = gnum a ->
  (chi br = [length (a_nodes a); idx] \/ chi br = [idx; length (a_nodes a)]) ->
  TInv (reslot (push_node (push_node a leaf) br) up (S (length (a_nodes a)))).
Proof.
  intros T Hne Hl Hs El Egl Ecl Eb Egb Ecb.
  set (L := length (a_nodes a)). set (a1 := push_node a leaf). set (a2 := push_node a1 br).
  assert (Len1 : length (a_nodes a1) = S L) by apply length_push_node.
  assert (Len2 : length (a_nodes a2) = S (S L)) by (unfold a2; rewrite length_push_node, Len1; reflexivity).
  assert (Hne2 : a_gens a2 <> []) by exact Hne.
  assert (Hs2 : slot a2 up idx) by (apply slot_push_node, slot_push_node; exact Hs).
  pose proof (ext_push a a leaf (ext_refl a) Hl El Egl) as X1. fold a1 in X1.
  pose proof (ext_reslot a a2 up idx (S L) (ext_push a a1 br X1 Hl Eb Egb) Hne2 Hs2) as X.
  destruct (reslot_tags a2 up (S L) 0 Hne2) as (_ & _ & L3 & _).
  assert (R2 : forall x, rc a2 x = rc a x + cnt x (chi br)).
  { intros x. unfold a2. rewrite (rc_push_ext a a1 br x X1 Hl Eb). unfold a1. rewrite (rc_push_ext a a leaf x (ext_refl a) Hl El), Ecl. cbn. lia. }
  apply (TInv_fresh a _ [L; S L] T X).
  - constructor; [intros [E|[]]; lia | repeat constructor; intros []].
  - intros f Hf. rewrite L3, Len2. fold L. destruct Hf as [<-|[<-|[]]]; lia.
  - intros x. pose proof (rc_reslot a2 up idx (S L) x Hne2 Hs2) as R. rewrite R2 in R.
    fold L in Ecb. destruct Ecb as [E|E]; rewrite E in R; rewrite !cnt_cons in *; cbn in *; lia.
Qed.

Lemma addleaf_t a idx c leaf :
  TInv a -> cpn a <= idx -> idx < length (a_nodes a) -> an_cgen (node_at a idx) = an_gen (node_at a idx) ->
  an_cgen leaf = an_gen leaf -> an_gen leaf = gnum a -> chi leaf = [] ->
  TInv (push_node (set_node a idx (with_children (node_at a idx)
          (insert_child c (length (a_nodes a)) (an_ch (node_at a idx))))) leaf).
Proof.
  intros T Hi Hlt Eown El Egl Ecl. set (L := length (a_nodes a)).
  set (n1 := with_children (node_at a idx) (insert_child c L (an_ch (node_at a idx)))).
  set (a1 := set_node a idx n1).
  assert (Hl : cpn a <= L) by (unfold L; lia).
  assert (Len1 : length (a_nodes a1) = L) by apply length_set_node.
  assert (R1 : forall x, rc a1 x = rc a x + one (Nat.eqb L x)).
  { intros x. pose proof (rc_set_children a idx (insert_child c L (an_ch (node_at a idx))) x Hi Hlt Eown) as X.
    rewrite cnt_insert_child in X. fold n1 a1 in X. unfold chi in X. lia. }
  pose proof (ext_set_node a a idx n1 (ext_refl a) Hi Eown eq_refl) as X1. fold a1 in X1.
  apply (TInv_fresh a _ [L] T (ext_push a a1 leaf X1 Hl El Egl)).
  - repeat constructor. intros [].
  - intros f [<-|[]]. rewrite length_push_node, Len1. fold L. lia.
  - intros x. rewrite (rc_push_ext a a1 leaf x X1 Hl El), Ecl, R1, cnt_single. cbn. lia.
Qed.

Definition swap_up (parent : option (nat * nat)) : option (nat * nat) :=
  match parent with Some (p, pos) => Some (pos, p) | None => None end.

Lemma slot_lt a up idx : TInv a -> slot a up idx -> idx < length (a_nodes a) /\ an_gen (node_at a idx) = gnum a.
Proof. intros T Hs. apply (T_g a T). eapply slot_rc. exact Hs. Qed.

Definition up_ne (up : option (nat * nat)) (idx : nat) : Prop :=
  forall pos u, up = Some (pos, u) -> u <> idx.

Lemma slot_set_node_other a i n up idx :
  (forall pos u, up = Some (pos, u) -> u <> i) -> slot a up idx -> slot (set_node a i n) up idx.
Proof.
  intros Hne. destruct up as [[pos u]|]; cbn [slot]; [|auto].
  specialize (Hne pos u eq_refl). change (cpn (set_node a i n)) with (cpn a).
  cbn [set_node a_nodes]. rewrite set_nth_length, node_at_set_node.
  destruct (Nat.eqb_spec i u); [congruence | auto].
Qed.

(** No node is its own child: drop the children of [idx]; the slot still refers to [idx], so a
    self-reference would be a second reference. *)
Lemma child_ne a up idx i :
  TInv a -> slot a up idx -> up_ne up idx -> cpn a <= idx -> idx < length (a_nodes a) ->
  an_cgen (node_at a idx) = an_gen (node_at a idx) -> In i (chi (node_at a idx)) -> i <> idx.
Proof.
  intros T Hs Hne Hi Hlt Eown Hin ->.
  pose proof (rc_set_node a idx anode_default idx Hlt) as X. rewrite owned_unshared in X by assumption.
  assert (Z : owned_of a idx anode_default = []) by (unfold owned_of; destruct (_ && _); reflexivity).
  rewrite Z in X. cbn in X. apply cnt_pos in Hin.
  pose proof (slot_rc _ up idx (slot_set_node_other a idx anode_default up idx Hne Hs)) as R.
  pose proof (T_u a T idx). lia.
Qed.

Lemma slot_make_owned_other a i up idx :
  (forall pos u, up = Some (pos, u) -> u <> i) -> slot a up idx -> slot (make_owned a i) up idx.
Proof.
  intros Hne Hs. destruct (make_owned_shape a i 0 (Nat.le_0_l _) (Nat.le_0_l _)) as (G & _ & _ & _ & Ln).
  destruct (cpn_gens a _ G) as (C & _ & R).
  destruct up as [[pos u]|]; cbn [slot] in *.
  - destruct Hs as (H1 & H2 & H3 & H4). specialize (Hne pos u eq_refl).
    rewrite C, (make_owned_node_other a i u Hne H2). repeat split; auto; lia.
  - rewrite R. exact Hs.
Qed.

(** [mem::take] leaves the default node at [idx]; its stem goes into the one child, which takes
    over the slot. *)
Lemma collapse_t a idx up ck ci :
  TInv a -> a_gens a <> [] -> cpn a <= idx -> idx < length (a_nodes a) ->
  an_cgen (node_at a idx) = an_gen (node_at a idx) -> an_ch (node_at a idx) = [(ck, ci)] ->
  slot a up idx -> up_ne up idx ->
  TInv (collapse_into_child a idx up).
Proof.
  intros T Hne Hi Hlt Eown Ech Hs Hup. unfold collapse_into_child. rewrite Ech.
  assert (Hci : ci <> idx).
  { apply (child_ne a up idx ci T Hs Hup Hi Hlt Eown). unfold chi. rewrite Ech. left. reflexivity. }
  set (a1 := set_node a idx anode_default).
  assert (R1 : forall x, rc a1 x + one (Nat.eqb ci x) = rc a x).
  { intros x. pose proof (rc_set_node a idx anode_default x Hlt) as X. fold a1 in X.
    rewrite owned_unshared in X by assumption. unfold chi at 1 in X. rewrite Ech in X. cbn [map snd] in X.
    rewrite cnt_single in X.
    assert (Z : owned_of a idx anode_default = []) by (unfold owned_of; destruct (_ && _); reflexivity).
    rewrite Z in X. cbn in X. lia. }
  assert (N1 : node_at a1 ci = node_at a ci).
  { apply node_at_set_node_ne. auto. }
  set (a2 := set_node a1 ci (with_path (node_at a1 ci) (an_path (node_at a idx) ++ ck :: an_path (node_at a1 ci)))).
  assert (R2 : forall x, rc a2 x = rc a1 x) by (intros x; apply rc_set_node_same; reflexivity).
  assert (S1 : slot a1 up idx) by (apply slot_set_node_other; assumption).
  assert (S2 : slot a2 up idx) by (apply slot_set_node_same; try reflexivity; exact S1).
  assert (Hne2 : a_gens a2 <> []) by exact Hne.
  change (TInv (reslot a2 up ci)).
  destruct (reslot_tags a2 up ci 0 Hne2) as (_ & _ & L3 & C3 & G3).
  assert (Len2 : length (a_nodes a2) = length (a_nodes a)).
  { unfold a2, a1. cbn [set_node a_nodes]. rewrite !set_nth_length. reflexivity. }
  change (cpn a2) with (cpn a) in C3. change (gnum a2) with (gnum a) in G3.
  apply (TInv_dead a (reslot a2 up ci) idx T); try assumption.
  - congruence.
  - intros x. pose proof (rc_reslot a2 up idx ci x Hne2 S2) as X. rewrite R2 in X. specialize (R1 x). lia.
  - intros j Hj. destruct (reslot_tags a2 up ci j Hne2) as (Tg & _). rewrite Tg.
    unfold a2. rewrite node_at_set_node. destruct (Nat.eqb_spec ci j) as [->|].
    + destruct (Nat.ltb j (length (a_nodes a1))); cbn [with_path an_gen]; rewrite ?N1; reflexivity.
    + unfold a1. rewrite node_at_set_node. destruct (Nat.eqb_spec idx j); [congruence | reflexivity].
  - eapply nd_trans; [|apply (nd_reslot a2 up idx ci Hne2 S2) | reflexivity].
    eapply nd_trans; [apply (nd_set_node a idx anode_default Hi eq_refl) | | reflexivity].
    apply nd_set_node_same; reflexivity.
Qed.

Lemma unslot_t a up idx :
  TInv a -> a_gens a <> [] -> slot a up idx -> TInv (unslot a up).
Proof.
  intros T Hne Hs. destruct (unslot_tags a up 0 Hne) as (_ & _ & L & C & G).
  apply (TInv_dead a (unslot a up) idx T); try assumption.
  - intros x. apply rc_unslot; assumption.
  - intros j _. apply (unslot_tags a up j Hne).
  - apply (nd_unslot a up idx Hne Hs).
Qed.

Lemma slot_make_owned a i up idx : slot a up idx -> slot (make_owned a i) up idx.
Proof.
  intros Hs. destruct up as [[pos u]|] eqn:Eu.
  - destruct (Nat.eq_dec u i) as [->|Hne].
    + rewrite make_owned_unshared; [exact Hs | apply Hs].
    + apply slot_make_owned_other; [|exact Hs]. intros p u' E. inversion E. subst. exact Hne.
  - apply slot_make_owned_other; [|exact Hs]. intros p u' E. discriminate.
Qed.

Lemma make_owned_at a idx up :
  AInv a -> TInv a -> cpn a <= idx -> slot a up idx ->
  let a1 := make_owned a idx in
  Ok a a1 /\ TInv a1 /\ idx < length (a_nodes a1)
  /\ an_cgen (node_at a1 idx) = an_gen (node_at a1 idx)
  /\ (forall up' x, slot a up' x -> slot a1 up' x).
Proof.
  intros H T Hi Hs a1. destruct (make_owned_ok a idx H Hi) as (O1 & Eown).
  destruct (make_owned_t a idx H T Hi) as (T1 & _). destruct (slot_lt a _ idx T Hs) as (Hlt & _).
  split; [exact O1|]. split; [exact T1|]. split; [destruct O1 as (_ & _ & X); unfold a1; lia|]. split; [exact Eown|].
  intros up' x S. apply slot_make_owned. exact S.
Qed.

Lemma child_slot a idx up c pos i :
  AInv a -> TInv a -> cpn a <= idx -> idx < length (a_nodes a) ->
  an_cgen (node_at a idx) = an_gen (node_at a idx) -> slot a up idx ->
  find_child c (an_ch (node_at a idx)) 0 = Some (pos, i) ->
  cpn a <= i /\ slot a (Some (pos, idx)) i /\ (up_ne up idx -> up_ne (Some (pos, idx)) i).
Proof.
  intros H T Hi Hlt Eown Hs F.
  destruct (find_child_nth _ _ _ _ _ F) as (_ & Hn). rewrite Nat.sub_0_r in Hn.
  destruct (find_child_in _ _ _ _ _ F) as [kk Hin].
  split; [apply (AI_ch a H idx Hi Eown (kk, i) Hin)|]. split; [cbn [slot]; auto|].
  intros Hup p u E. inversion E. subst u. intros Ei. subst i.
  refine (child_ne a up idx idx T Hs Hup Hi Hlt Eown _ eq_refl). eapply nth_error_In. exact Hn.
Qed.

Lemma insert_loop_t : forall fuel a gen idx parent k v,
  AInv a -> TInv a -> a_gens a <> [] -> cpn a <= idx -> slot a (swap_up parent) idx -> gen = gnum a ->
  TInv (fst (fst (ar_insert_loop fuel a gen idx parent k v))).
Proof.
  induction fuel as [|fuel IH]; intros a gen idx parent k v H T Hne Hi Hs Hgen; cbn [ar_insert_loop]; [exact T|].
  pose proof (AI_len a H) as (L1 & _). destruct (slot_lt a _ idx T Hs) as (Hlt & Hgi).
  destruct (follow_stem k (an_path (node_at a idx))) as [|s ps|c k'|cm kc kr sc sr] eqn:EF.
  - destruct (an_val (node_at a idx)) as [e0|]; cbn [fst].
    + destruct (set_entry_value_shape a e0 v) as (Eg & En). eapply TInv_same_nodes; eassumption.
    + destruct (new_entry_shape a v) as (Eg & En). destruct (new_entry a v) as [a1 e]. cbn [fst] in *.
      apply TInv_set_node_same; [eapply TInv_same_nodes; eassumption | | |];
        rewrite (node_at_same_nodes a a1 idx En); reflexivity.
  - destruct (new_entry_shape a v) as (Eg & En). destruct (new_entry a v) as [a1 e]. cbn [fst] in *.
    assert (T1 : TInv a1) by (eapply TInv_same_nodes; eassumption).
    assert (Nd : node_at a1 idx = node_at a idx) by (apply node_at_same_nodes; exact En).
    set (a2 := set_node a1 idx (with_path (node_at a idx) ps)).
    assert (T2 : TInv a2) by (apply TInv_set_node_same; [exact T1 | | |]; rewrite Nd; reflexivity).
    assert (S2 : slot a2 (swap_up parent) idx).
    { apply slot_set_node_same; try (rewrite Nd; reflexivity). eapply slot_same_nodes; eassumption. }
    destruct (cpn_gens a a1 Eg) as (C1 & G1 & _).
    rewrite relink_reslot. fold (swap_up parent).
    apply (attach_t a2 (swap_up parent) idx); try assumption; try reflexivity.
    + change (a_gens a2) with (a_gens a1). rewrite Eg. exact Hne.
    + change (cpn a2) with (cpn a1). unfold a2. cbn [set_node a_nodes]. rewrite set_nth_length, C1, En. exact L1.
    + cbn [an_gen]. change (gnum a2) with (gnum a1). congruence.
  - destruct (make_owned_at a idx _ H T Hi Hs) as (O1 & T1 & Hlt1 & Eown & Tr1).
    set (a1 := make_owned a idx) in *. destruct (Ok_cp _ _ O1) as (F1 & _ & _ & F4).
    assert (Hne1 : a_gens a1 <> []) by (eapply Below_gens_ne; [apply O1 | exact Hne]).
    destruct (find_child c (an_ch (node_at a1 idx)) 0) as [[pos i]|] eqn:F.
    + destruct (child_slot a1 idx _ c pos i (proj1 O1) T1 ltac:(lia) Hlt1 Eown (Tr1 _ _ Hs) F) as (Hci & Si & _).
      apply IH; try assumption; [apply O1 | congruence].
    + set (leaf := mkAN gen (Some (length (a_entries a1))) k' gen []).
      set (a2 := set_node a1 idx (with_children (node_at a1 idx)
                   (insert_child c (length (a_nodes a1)) (an_ch (node_at a1 idx))))).
      destruct (new_entry_shape a2 v) as (Eg & En). destruct (new_entry a2 v) as [a3 e]. cbn [fst] in *.
      apply (TInv_same_nodes (push_node a2 (mkAN gen (Some e) k' gen []))).
      * cbn [push_node a_gens]. exact Eg.
      * cbn [push_node a_nodes]. rewrite En. reflexivity.
      * apply addleaf_t; try assumption; try reflexivity; try lia. cbn [an_gen]. congruence.
  - set (a1 := set_node a idx (with_path (node_at a idx) sr)).
    assert (T1 : TInv a1) by (apply TInv_set_node_same; [exact T | | |]; reflexivity).
    assert (S1 : slot a1 (swap_up parent) idx) by (apply slot_set_node_same; try reflexivity; exact Hs).
    destruct (new_entry_shape a1 v) as (Eg & En). destruct (new_entry a1 v) as [a2 e]. cbn [fst] in *.
    assert (T2 : TInv a2) by (eapply TInv_same_nodes; eassumption).
    assert (S2 : slot a2 (swap_up parent) idx) by (eapply slot_same_nodes; eassumption).
    assert (Len2 : length (a_nodes a2) = length (a_nodes a)).
    { rewrite En. unfold a1. cbn [set_node a_nodes]. apply set_nth_length. }
    destruct (cpn_gens a1 a2 Eg) as (C2 & G2 & _).
    change (cpn a1) with (cpn a) in C2. change (gnum a1) with (gnum a) in G2.
    cbn [fst]. rewrite relink_reslot. fold (swap_up parent). rewrite <- Len2.
    apply (split_t a2 (swap_up parent) idx); try assumption; try reflexivity.
    + rewrite Eg. exact Hne.
    + rewrite C2, Len2. exact L1.
    + cbn [an_gen]. congruence.
    + cbn [an_gen]. congruence.
    + unfold chi. cbn [an_ch]. destruct (kc <? sc)%N; cbn [map snd]; [left | right]; reflexivity.
Qed.

Theorem ar_insert_t a key v :
  AInv a -> TInv a -> a_gens a <> [] -> TInv (fst (fst (ar_insert a key v))).
Proof.
  intros H T Hne. unfold ar_insert. destruct (cur_root a) as [r|] eqn:Er.
  - assert (Hs : slot a (swap_up None) r) by exact Er.
    apply insert_loop_t; try assumption.
    + apply (AI_root a H r Er).
    + apply (slot_lt a None r T Er).
  - pose proof (AI_len a H) as (L1 & _).
    destruct (new_entry_shape a v) as (Eg & En). destruct (new_entry a v) as [a1 e]. cbn [fst] in *.
    destruct (cpn_gens a a1 Eg) as (C1 & G1 & R1). pose proof (TInv_same_nodes a a1 Eg En T) as T1.
    set (L := length (a_nodes a)). set (nn := mkAN (length (a_gens a) - 1) (Some e) (nib key) (length (a_gens a) - 1) []).
    set (a2 := push_node a1 nn).
    assert (Hl : cpn a1 <= length (a_nodes a1)) by (rewrite C1, En; exact L1).
    assert (Hne2 : a_gens a2 <> []) by (change (a_gens a2) with (a_gens a1); rewrite Eg; exact Hne).
    destruct (set_root_shape a2 (Some L) Hne2) as (_ & _ & _ & _ & En2 & _).
    assert (X : ext a1 (set_root a2 (Some L))).
    { apply (ext_reslot_nd a1 a2 None L); [|exact Hne2 | apply nd_same_nodes, En2].
      apply (ext_push a1 a1 nn (ext_refl a1) Hl eq_refl). rewrite G1. reflexivity. }
    apply (TInv_fresh a1 _ [L] T1 X).
    + repeat constructor. intros [].
    + intros f [<-|[]]. rewrite En2. unfold a2. rewrite length_push_node, En. fold L. lia.
    + intros x. pose proof (rc_set_root a2 (Some L) x Hne2) as R. rewrite rr_some in R.
      assert (Z : rroot a2 x = 0) by (unfold rroot; change (cur_root a2) with (cur_root a1); rewrite R1, Er; reflexivity).
      assert (Y : rc a2 x = rc a1 x).
      { unfold a2. rewrite (rc_push_ext a1 a1 nn x (ext_refl a1) Hl eq_refl). cbn. lia. }
      rewrite cnt_single. lia.
Qed.

(** The tail shared by [delete] and [delete_prefix]: node [idx] is unhooked from its father (or
    the root is cleared); a father left with one child and no value is merged into that child. *)
Lemma unhook_t a idx father gf (b : bool) :
  TInv a -> a_gens a <> [] -> slot a father idx ->
  (forall pos f, father = Some (pos, f) -> slot a gf f /\ up_ne gf f) ->
  TInv (fst (match father with
             | Some (child_pos, father_idx) =>
                 let a4 := make_owned a father_idx in
                 let fn := node_at a4 father_idx in
                 let has_value := match an_val fn with Some _ => true | None => false end in
                 let ch' := remove_nth child_pos (an_ch fn) in
                 let a5 := set_node a4 father_idx (with_children fn ch') in
                 if negb has_value && Nat.eqb (length ch') 1
                 then (collapse_into_child a5 father_idx gf, b)
                 else (a5, b)
             | None => (set_root a None, b)
             end)).
Proof.
  intros T Hne Hs Hgf. destruct father as [[pos f]|]; [|exact (unslot_t a None idx T Hne Hs)].
  destruct (Hgf pos f eq_refl) as (Hg & Hgn). cbn zeta. rewrite make_owned_unshared by apply Hs.
  pose proof (unslot_t a _ idx T Hne Hs) as T5. cbn [unslot] in T5.
  set (a5 := set_node a f (with_children (node_at a f) (remove_nth pos (an_ch (node_at a f))))) in *.
  destruct (negb _ && Nat.eqb (length (remove_nth pos (an_ch (node_at a f)))) 1) eqn:Ec; [|exact T5].
  apply andb_prop in Ec as (_ & Ec). apply Nat.eqb_eq in Ec.
  destruct (remove_nth pos (an_ch (node_at a f))) as [|[k ci] [|? ?]] eqn:Er; try discriminate.
  destruct Hs as (H1 & H2 & H3 & H4).
  assert (N5 : node_at a5 f = with_children (node_at a f) [(k, ci)]) by (apply node_at_set_node_eq; exact H2).
  apply (collapse_t a5 f gf k ci); try assumption.
  - unfold a5. rewrite length_set_node. exact H2.
  - rewrite N5. exact H3.
  - rewrite N5. reflexivity.
  - apply slot_set_node_other; assumption.
Qed.

Lemma delete_loop_t : forall fuel a idx father gf k,
  AInv a -> TInv a -> a_gens a <> [] -> cpn a <= idx -> slot a father idx -> up_ne father idx ->
  (forall pos f, father = Some (pos, f) -> slot a gf f /\ up_ne gf f) ->
  TInv (fst (ar_delete_loop fuel a idx father gf k)).
Proof.
  induction fuel as [|fuel IH]; intros a idx father gf k H T Hne Hi Hs Hup Hgf; cbn [ar_delete_loop]; [exact T|].
  destruct (follow_stem k (an_path (node_at a idx))) as [|s ps|c k'|cm kc kr sc sr] eqn:EF; try exact T.
  - destruct (an_val (node_at a idx)) as [e|] eqn:Ev; [|exact T].
    pose proof (kill_entry_ok a a e (Ok_refl a H) (AI_val a H idx e Hi Ev)) as O1.
    destruct (kill_entry_shape a e) as (Eg1 & En1). destruct (kill_entry a e) as [a1 rv]. cbn [fst] in *.
    assert (T1 : TInv a1) by (eapply TInv_same_nodes; eassumption).
    assert (O2 : Ok a (set_node a1 idx (with_val (node_at a1 idx) None))).
    { apply Ok_set_node; [exact O1 | exact Hi|]. apply NodeOK_with_val; [apply Ok_node; assumption | discriminate]. }
    set (a2 := set_node a1 idx (with_val (node_at a1 idx) None)) in *. destruct (Ok_cp _ _ O2) as (G1 & _).
    assert (T2 : TInv a2) by (apply TInv_set_node_same; [exact T1 | | |]; reflexivity).
    assert (Tr2 : forall up x, slot a up x -> slot a2 up x).
    { intros up x S. apply slot_set_node_same; try reflexivity. eapply slot_same_nodes; eassumption. }
    destruct (make_owned_at a2 idx father (proj1 O2) T2 ltac:(lia) (Tr2 _ _ Hs)) as (O3 & T3 & Hlt3 & Eown & Tr3).
    set (a3 := make_owned a2 idx) in *. destruct (Ok_cp _ _ O3) as (K1 & _).
    assert (Hne3 : a_gens a3 <> []).
    { eapply Below_gens_ne; [apply O3|]. change (a_gens a2) with (a_gens a1). rewrite Eg1. exact Hne. }
    pose proof (Tr3 _ _ (Tr2 _ _ Hs)) as S3.
    destruct (an_ch (node_at a3 idx)) as [|[ck ci] [|c1 cr]] eqn:Ech; cbn [fst].
    + apply (unhook_t a3 idx father gf rv T3 Hne3 S3). intros pos f E. destruct (Hgf pos f E) as (Sg & Ng).
      split; [exact (Tr3 _ _ (Tr2 _ _ Sg)) | exact Ng].
    + apply (collapse_t a3 idx father ck ci); try assumption. lia.
    + exact T3.
  - destruct (make_owned_at a idx father H T Hi Hs) as (O1 & T1 & Hlt1 & Eown & Tr1).
    set (a1 := make_owned a idx) in *. destruct (Ok_cp _ _ O1) as (F1 & _).
    destruct (find_child c (an_ch (node_at a1 idx)) 0) as [[pos i]|] eqn:F; [|exact T1].
    destruct (child_slot a1 idx father c pos i (proj1 O1) T1 ltac:(lia) Hlt1 Eown (Tr1 _ _ Hs) F) as (Hci & Si & Ni).
    apply IH; try assumption; [apply O1 | eapply Below_gens_ne; [apply O1 | exact Hne] | apply Ni; exact Hup|].
    intros p u E. inversion E. subst. split; [apply Tr1; exact Hs | exact Hup].
Qed.

Theorem ar_delete_t a key : AInv a -> TInv a -> a_gens a <> [] -> TInv (fst (ar_delete a key)).
Proof.
  intros H T Hne. unfold ar_delete. destruct (cur_root a) as [r|] eqn:Er; [|exact T].
  apply delete_loop_t; try assumption.
  - apply (AI_root a H r Er).
  - intros p u E. discriminate.
  - intros p u E. discriminate.
Qed.

Lemma invalidate_shape : forall fuel a stack,
  a_gens (invalidate fuel a stack) = a_gens a /\ a_nodes (invalidate fuel a stack) = a_nodes a.
Proof.
  induction fuel as [|fuel IH]; intros a stack; cbn [invalidate]; [auto|].
  destruct stack as [|i rest]; [auto|].
  destruct (IH (match an_val (node_at a i) with Some e => fst (kill_entry a e) | None => a end)
               ((if Nat.eqb (an_gen (node_at a i)) (an_cgen (node_at a i)) then rev (map snd (an_ch (node_at a i))) else []) ++ rest))
    as (E1 & E2).
  rewrite E1, E2. destruct (an_val (node_at a i)) as [e|]; [apply kill_entry_shape | auto].
Qed.

Lemma delete_prefix_loop_t : forall fuel a idx parent gp k,
  AInv a -> TInv a -> a_gens a <> [] -> cpn a <= idx -> slot a parent idx -> up_ne parent idx ->
  (forall pos f, parent = Some (pos, f) -> slot a gp f /\ up_ne gp f) ->
  TInv (fst (ar_delete_prefix_loop fuel a idx parent gp k)).
Proof.
  induction fuel as [|fuel IH]; intros a idx parent gp k H T Hne Hi Hs Hup Hgp; cbn [ar_delete_prefix_loop]; [exact T|].
  destruct (follow_stem k (an_path (node_at a idx))) as [|s ps|c k'|cm kc kr sc sr] eqn:EF; [| | |exact T].
  3:{ destruct (make_owned_at a idx parent H T Hi Hs) as (O1 & T1 & Hlt1 & Eown & Tr1).
      set (a1 := make_owned a idx) in *. destruct (Ok_cp _ _ O1) as (F1 & _).
      destruct (find_child c (an_ch (node_at a1 idx)) 0) as [[pos i]|] eqn:F; [|exact T1].
      destruct (child_slot a1 idx parent c pos i (proj1 O1) T1 ltac:(lia) Hlt1 Eown (Tr1 _ _ Hs) F) as (Hci & Si & Ni).
      apply IH; try assumption; [apply O1 | eapply Below_gens_ne; [apply O1 | exact Hne] | apply Ni; exact Hup|].
      intros p u E. inversion E. subst. split; [apply Tr1; exact Hs | exact Hup]. }
  (* the key ends at or inside the stem of [idx]: the subtree goes, in both cases alike *)
  all: destruct (invalidate_shape (S (length (a_nodes a))) a [idx]) as (Eg & En).
  all: set (a1 := invalidate (S (length (a_nodes a))) a [idx]) in *.
  all: assert (T1 : TInv a1) by (eapply TInv_same_nodes; eassumption).
  all: assert (Tr1 : forall up x, slot a up x -> slot a1 up x) by (intros up x S; eapply slot_same_nodes; eassumption).
  all: assert (Hne1 : a_gens a1 <> []) by (rewrite Eg; exact Hne).
  all: apply (unhook_t a1 idx parent gp true T1 Hne1 (Tr1 _ _ Hs)).
  all: intros pos f E; destruct (Hgp pos f E) as (Sg & Ng); split; [exact (Tr1 _ _ Sg) | exact Ng].
Qed.

Theorem ar_delete_prefix_t a key : AInv a -> TInv a -> a_gens a <> [] -> TInv (fst (ar_delete_prefix a key)).
Proof.
  intros H T Hne. unfold ar_delete_prefix. destruct (cur_root a) as [r|] eqn:Er; [|exact T].
  apply delete_prefix_loop_t; try assumption.
  - apply (AI_root a H r Er).
  - intros p u E. discriminate.
  - intros p u E. discriminate.
Qed.

Lemma get_entry_t : forall fuel a idx k,
  AInv a -> TInv a -> cpn a <= idx -> TInv (fst (a_get_entry fuel a idx k)).
Proof.
  induction fuel as [|fuel IH]; intros a idx k H T Hi; cbn [a_get_entry]; [exact T|].
  destruct (follow_stem k (an_path (node_at a idx))) as [|s ps|c k'|cm kc kr sc sr]; cbn [fst]; try exact T.
  destruct (make_owned_ok a idx H Hi) as (O1 & Eown). destruct (make_owned_t a idx H T Hi) as (T1 & _).
  destruct (find_child c (an_ch (node_at (make_owned a idx) idx)) 0) as [[pos i]|] eqn:F; [|exact T1].
  destruct (find_child_in _ _ _ _ _ F) as [kk Hin].
  pose proof (make_owned_children a idx (kk, i) H Hi Hin) as Hci. cbn [snd] in Hci.
  destruct (Ok_cp _ _ O1) as (F1 & _).
  apply IH; [apply O1 | exact T1 | rewrite F1; exact Hci].
Qed.

Lemma lookup_key_t a key : AInv a -> TInv a -> TInv (fst (a_lookup_key a key)).
Proof.
  intros H T. unfold a_lookup_key. destruct (cur_root a) as [r|] eqn:Er; [|exact T].
  apply get_entry_t; [exact H | exact T | apply (AI_root a H r Er)].
Qed.

Theorem as_step_t o s :
  SInv s -> TInv (as_arena s) -> gen_op o = false -> TInv (as_arena (fst (as_step o s))).
Proof.
  intros (H & _ & Hne & _) T Hg. apply as_step_arena; try assumption; intros.
  - apply ar_insert_t; assumption.
  - apply lookup_key_t; assumption.
  - eapply TInv_same_nodes; [apply a_set_shape | apply a_set_shape | exact T].
  - apply ar_delete_t; assumption.
  - apply ar_delete_prefix_t; assumption.
Qed.

Theorem tinv_tag_ok a : TInv a -> tag_ok a = true.
Proof.
  intros T. unfold tag_ok. destruct (cur_root a) as [r|] eqn:Er; [|reflexivity].
  apply Nat.eqb_eq. apply (T_g a T r). unfold rc, rroot. rewrite Er, Nat.eqb_refl. lia.
Qed.

Lemma sum_zero (f : nat -> nat) n : (forall j, j < n -> f j = 0) -> list_sum (map f (seq 0 n)) = 0.
Proof.
  intros Hz. induction n as [|n IH]; [reflexivity|]. rewrite seq_S, map_app, list_sum_app. cbn [map Nat.add].
  replace (list_sum [f n]) with (f n) by (cbn; lia). rewrite IH by (intros j Hj; apply Hz; lia). apply Hz. lia.
Qed.

Lemma children_in_range a i c :
  AInv a -> TInv a -> i < length (a_nodes a) -> In c (chi (node_at a i)) -> c < length (a_nodes a).
Proof.
  intros H T Hi Hin. pose proof (AI_len a H) as (L1 & _).
  destruct (Nat.lt_ge_cases i (cpn a)) as [Hlo|Hhi].
  - pose proof (T_old a T i c Hlo Hin). lia.
  - destruct (Nat.eq_dec (an_cgen (node_at a i)) (an_gen (node_at a i))) as [E|E].
    + apply (T_g a T c). pose proof (owned_le_rc a i c Hi) as X. rewrite owned_unshared in X by assumption.
      apply cnt_pos in Hin. lia.
    + pose proof (T_sh a T i c Hhi E Hin). lia.
Qed.

Lemma TInv_newgen a g e v extra :
  AInv a -> TInv a -> a_gens a <> [] -> ag_nodes g = length (a_nodes a) ->
  (extra = [] /\ ag_root g = None
   \/ exists n', extra = [n'] /\ ag_root g = Some (length (a_nodes a)) /\ an_gen n' = S (gnum a)
                 /\ an_cgen n' <= gnum a /\ forall c, In c (chi n') -> c < length (a_nodes a)) ->
  TInv (mkA (a_gens a ++ [g]) e v (a_nodes a ++ extra)).
Proof.
  intros H T Hne Hg Hx. set (L := length (a_nodes a)) in *. set (a' := mkA (a_gens a ++ [g]) e v (a_nodes a ++ extra)).
  assert (C : cpn a' = L) by (unfold cpn, a'; rewrite cur_checkpoint_last; exact Hg).
  assert (G : gnum a' = S (gnum a)).
  { unfold gnum, a'. cbn [a_gens]. rewrite app_length. cbn. destruct (a_gens a); [congruence | cbn; lia]. }
  assert (Rt : cur_root a' = ag_root g) by apply cur_root_app.
  assert (Nlo : forall j, j < L -> node_at a' j = node_at a j).
  { intros j Hj. unfold node_at, a'. cbn [a_nodes]. apply app_nth1. exact Hj. }
  assert (Own : forall j, owned a' j = []).
  { intros j. unfold owned, owned_of. rewrite C. destruct (Nat.leb_spec L j) as [Hj|Hj]; [|reflexivity]. cbn [andb].
    destruct Hx as [(-> & _)|(n' & -> & _ & Gn & Cn & _)].
    - unfold node_at, a'. cbn [a_nodes]. rewrite app_nil_r, nth_overflow by (fold L; lia). reflexivity.
    - unfold node_at, a'. cbn [a_nodes]. rewrite nth_app_single. fold L.
      destruct (Nat.eqb_spec j L).
      + unfold unsh. destruct (Nat.eqb_spec (an_cgen n') (an_gen n')); [lia | reflexivity].
      + rewrite nth_overflow by (fold L; lia). reflexivity. }
  assert (Rn : forall x, rcn a' x = 0).
  { intros x. unfold rcn. apply sum_zero. intros j _. rewrite Own. reflexivity. }
  assert (Chi : forall j c, In c (chi (node_at a' j)) -> c < L).
  { intros j c Hin. destruct (Nat.lt_ge_cases j L) as [Hj|Hj].
    - rewrite Nlo in Hin by exact Hj. apply (children_in_range a j c H T Hj Hin).
    - destruct Hx as [(-> & _)|(n' & -> & _ & _ & _ & Hc)].
      + unfold node_at, a' in Hin. cbn [a_nodes] in Hin. rewrite app_nil_r, nth_overflow in Hin by (fold L; lia). destruct Hin.
      + unfold node_at, a' in Hin. cbn [a_nodes] in Hin. rewrite nth_app_single in Hin. fold L in Hin.
        destruct (Nat.eqb_spec j L); [apply Hc; exact Hin|].
        rewrite nth_overflow in Hin by (fold L; lia). destruct Hin. }
  constructor.
  - intros x. unfold rc. rewrite Rn. unfold rroot. destruct (cur_root a'); [destruct (Nat.eqb _ _)|]; lia.
  - intros x Hx1. unfold rc in Hx1. rewrite Rn in Hx1. unfold rroot in Hx1. rewrite Rt in Hx1.
    destruct Hx as [(_ & Er)|(n' & -> & Er & Gn & _)]; rewrite Er in Hx1; [lia|].
    destruct (Nat.eqb_spec L x) as [E|]; [|lia]. rewrite <- E. split.
    + unfold a'. cbn [a_nodes]. rewrite app_length. cbn. fold L. lia.
    + rewrite G. unfold node_at, a'. cbn [a_nodes]. rewrite nth_app_single. fold L. rewrite Nat.eqb_refl. exact Gn.
  - intros i c _ _ Hin. rewrite C. eapply Chi. exact Hin.
  - intros i c _ Hin. rewrite C. eapply Chi. exact Hin.
Qed.

Theorem new_generation_t a : AInv a -> TInv a -> a_gens a <> [] -> TInv (a_new_generation a).
Proof.
  intros H T Hne. pose proof (tinv_tag_ok a T) as Htag. unfold tag_ok in Htag.
  destruct (new_generation_spec a Hne) as (g & es & extra & -> & Hcp & _ & Hx). injection Hcp as Cn _ _.
  apply TInv_newgen; try assumption. destruct (cur_root a) as [r|] eqn:Er; [|left; exact Hx].
  destruct Hx as (-> & Hr). apply Nat.eqb_eq in Htag. right. eexists. split; [reflexivity|]. split; [exact Hr|].
  cbn [copy_node an_gen an_cgen]. split; [congruence|]. split; [apply (AI_le a H r)|].
  intros c Hin. apply (children_in_range a r c H T); [|exact Hin].
  apply (T_g a T r). unfold rc, rroot. rewrite Er, Nat.eqb_refl. lia.
Qed.

Lemma TInv_empty : TInv a_empty.
Proof.
  constructor.
  - intros x. cbn. lia.
  - intros x Hx. cbn in Hx. lia.
  - intros i c _ _ Hin. unfold node_at in Hin. cbn in Hin. destruct i; destruct Hin.
  - intros i c _ Hin. unfold node_at in Hin. cbn in Hin. destruct i; destruct Hin.
Qed.

Definition as_run (ops : list op) (s : astate) : astate :=
  fold_left (fun s o => fst (as_step o s)) ops s.

Lemma as_run_app a b s : as_run (a ++ b) s = as_run b (as_run a s).
Proof. apply fold_left_app. Qed.

(** The full invariant of the arena machine: ownership ([SInv]), tree shape ([TInv]), and a
    stack of saved states (one per older generation), each with the same invariants. *)
Definition Reach (s : astate) : Prop :=
  SInv s /\ TInv (as_arena s)
  /\ exists saved, Hist s saved /\ Forall (fun b => TInv (as_arena b)) saved.

Lemma Reach_init : Reach as_init.
Proof.
  split; [exact SInv_init|]. split; [exact TInv_empty|]. exists []. split; [exact Hist_init | constructor].
Qed.

Lemma step_t o s :
  SInv s -> TInv (as_arena s) -> (forall r, o <> ONormalize r) -> TInv (as_arena (fst (as_step o s))).
Proof.
  intros HS T Hn. destruct (gen_op o) eqn:Hg; [|apply as_step_t; assumption].
  destruct o; try discriminate Hg; [|elim (Hn r eq_refl)].
  destruct HS as (H & _ & Hne & _). apply new_generation_t; assumption.
Qed.

Theorem Reach_step o s : Reach s -> Reach (fst (as_step o s)).
Proof. apply (ReachP_step TInv); [apply tinv_tag_ok | apply step_t]. Qed.

Lemma as_run_inv (I : astate -> Prop) :
  (forall o s, I s -> I (fst (as_step o s))) -> forall ops s, I s -> I (as_run ops s).
Proof.
  intros Hstep. induction ops as [|o ops IH]; intros s R; [exact R|]. cbn [as_run fold_left]. apply IH, Hstep, R.
Qed.

Lemma Reach_run : forall ops s, Reach s -> Reach (as_run ops s).
Proof. apply as_run_inv, Reach_step. Qed.

(** In a reachable state the generation tag of the root is the number of the current
    generation (the fact the extracted runner reports as [!TAG] if violated). *)
Theorem reach_tag_ok s : Reach s -> root_tag_ok (as_arena s) = true.
Proof. intros (_ & T & _). exact (tinv_tag_ok _ T). Qed.

(** The checked run [as_exec] never stops: it is the plain run. *)
Theorem as_exec_run : forall ops s, Reach s -> as_exec ops s = Some (as_run ops s).
Proof.
  induction ops as [|o ops IH]; intros s R; cbn [as_exec as_run fold_left]; [reflexivity|].
  assert (E : (match o with ONewGen => tag_ok (as_arena s) | _ => true end) = true).
  { destruct o; try reflexivity. apply tinv_tag_ok. apply R. }
  rewrite E. apply IH. apply Reach_step. exact R.
Qed.

Theorem reachable_tag_ok ops : root_tag_ok (as_arena (as_run ops as_init)) = true.
Proof. apply reach_tag_ok, Reach_run, Reach_init. Qed.

Theorem arena_no_leak_run pre ops :
  let s := as_run pre as_init in
  let c := as_run (ONewGen :: ops) s in
  Forall (keeps (length (a_gens (as_arena s)))) ops ->
  firstn (length (a_nodes (as_arena s))) (a_nodes (as_arena c)) = a_nodes (as_arena s)
  /\ firstn (length (a_values (as_arena s))) (a_values (as_arena c)) = a_values (as_arena s)
  /\ firstn (length (a_entries (as_arena s))) (a_entries (as_arena c)) = a_entries (as_arena s)
  /\ firstn (length (a_gens (as_arena s))) (a_gens (as_arena c)) = a_gens (as_arena s).
Proof.
  intros s c Hk. pose proof (Reach_run pre as_init Reach_init) as R. fold s in R.
  destruct R as (HS & T & saved & HH & FT).
  apply (arena_no_leak_hist s saved ops c HH HS Hk).
  apply as_exec_run. split; [exact HS|]. split; [exact T|]. exists saved. auto.
Qed.

Theorem arena_rollback_run pre ops :
  let s := as_run pre as_init in
  Forall (keeps (length (a_gens (as_arena s)))) ops ->
  as_run (ONewGen :: ops ++ [ONormalize (length (a_gens (as_arena s)) - 1)]) s = s.
Proof.
  intros s Hk. pose proof (Reach_run pre as_init Reach_init) as R. fold s in R.
  pose proof R as (HS & T & saved & HH & FT).
  apply (arena_rollback_hist s saved ops _ HH HS Hk).
  apply as_exec_run. exact R.
Qed.
