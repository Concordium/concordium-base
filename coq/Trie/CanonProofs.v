(** A well-formed radix tree (children strictly sorted, no value-less node with fewer
    than two children) is determined by its contents: [canonical_unique_tree], [canonical_unique_root].  The stem of
    a well-formed node is the longest common prefix of the keys below it. *)
From Coq Require Import NArith List Bool Lia.
From CB Require Import Trie.Radix.
From CB Require Import Trie.RadixProofs.
From CB Require Import Trie.Canon.
Import ListNotations.
Local Open Scope N_scope.

Lemma lcp_app p a b : lcp (p ++ a) (p ++ b) = p ++ lcp a b.
Proof. induction p as [|x p IH]; cbn; [reflexivity|]. rewrite N.eqb_refl, IH. reflexivity. Qed.

Lemma lcp_prefix_l a b : is_prefix (lcp a b) a = true.
Proof.
  revert b. induction a as [|x a IH]; intros [|y b]; cbn; try reflexivity.
  destruct (N.eqb_spec x y); cbn; [rewrite N.eqb_refl; apply IH | reflexivity].
Qed.

Lemma lcp_prefix_r a b : is_prefix (lcp a b) b = true.
Proof.
  revert b. induction a as [|x a IH]; intros [|y b]; cbn; try reflexivity.
  destruct (N.eqb_spec x y); cbn; [subst; rewrite N.eqb_refl; apply IH | reflexivity].
Qed.

Lemma fold_lcp_app p r : forall k, fold_left lcp (map (app p) r) (p ++ k) = p ++ fold_left lcp r k.
Proof. induction r as [|y r IH]; intros k; cbn [map fold_left]; [reflexivity|]. rewrite lcp_app. apply IH. Qed.

Lemma fold_lcp_prefix_init r : forall k, is_prefix (fold_left lcp r k) k = true.
Proof.
  induction r as [|y r IH]; intros k; cbn [fold_left]; [apply is_prefix_refl|].
  eapply is_prefix_trans; [apply IH | apply lcp_prefix_l].
Qed.

Lemma fold_lcp_prefix_in r : forall k x, In x r -> is_prefix (fold_left lcp r k) x = true.
Proof.
  induction r as [|y r IH]; intros k x Hin; [destruct Hin|]. cbn [fold_left]. destruct Hin as [->|Hin].
  - eapply is_prefix_trans; [apply fold_lcp_prefix_init | apply lcp_prefix_r].
  - apply IH. assumption.
Qed.

Lemma is_prefix_nil_r r : is_prefix r [] = true -> r = [].
Proof. destruct r; [reflexivity | discriminate]. Qed.

Lemma prefix_two_heads r c1 a c2 b :
  is_prefix r (c1 :: a) = true -> is_prefix r (c2 :: b) = true -> c1 <> c2 -> r = [].
Proof.
  destruct r as [|x r]; [reflexivity|]. cbn. intros H1 H2 Hne.
  apply andb_true_iff in H1 as [H1 _]. apply andb_true_iff in H2 as [H2 _].
  apply N.eqb_eq in H1, H2. congruence.
Qed.

Lemma app_split_pred {A} (P : A -> bool) l1 : forall l2 m1 m2,
  (forall x, In x l1 -> P x = true) -> (forall x, In x l2 -> P x = true) ->
  (forall x, In x m1 -> P x = false) -> (forall x, In x m2 -> P x = false) ->
  l1 ++ m1 = l2 ++ m2 -> l1 = l2 /\ m1 = m2.
Proof.
  induction l1 as [|a l1 IH]; intros [|b l2] m1 m2 H1 H2 H3 H4 E; cbn in E.
  - auto.
  - subst m1. specialize (H2 b (or_introl eq_refl)). specialize (H3 b (or_introl eq_refl)). congruence.
  - subst m2. specialize (H1 a (or_introl eq_refl)). specialize (H4 a (or_introl eq_refl)). congruence.
  - injection E as -> E'.
    destruct (IH l2 m1 m2 (fun x h => H1 x (or_intror h)) (fun x h => H2 x (or_intror h)) H3 H4 E') as [-> ->].
    auto.
Qed.

Section Unique.
Context {V : Type}.
Implicit Types (t : tree V) (f : forest V).

Lemma map_fst_pre p (l : list (list N * V)) : map fst (map (pre p) l) = map (app p) (map fst l).
Proof. rewrite !map_map. reflexivity. Qed.

Lemma map_pre_inj p (l1 l2 : list (list N * V)) : map (pre p) l1 = map (pre p) l2 -> l1 = l2.
Proof.
  revert l2. induction l1 as [|[k1 v1] l1 IH]; intros [|[k2 v2] l2] E; cbn in E; try discriminate; [reflexivity|].
  injection E as Ek Ev E. apply app_inv_head in Ek. subst. f_equal. apply IH. assumption.
Qed.

Lemma to_list_cons t : wfb t = true -> exists kv l, to_list t = kv :: l.
Proof.
  intros H. pose proof (proj1 to_list_nonempty_mut t H) as Hn.
  destruct (to_list t) as [|kv l]; [discriminate | eauto].
Qed.

(** The stem of a well-formed node is the longest common prefix of its keys. *)
Lemma lcp_keys_node p (ov : option V) cs :
  wfb (Node p ov cs) = true -> lcp_keys (map fst (to_list (Node p ov cs))) = p.
Proof.
  intros Hwf. pose proof (wfb_node _ _ _ Hwf) as (Hwc & Hs & Hlen).
  rewrite to_list_eq, map_fst_pre.
  assert (E : exists k0 rest,
             map fst ((match ov with Some v => [([], v)] | None => [] end) ++ to_list_f cs) = k0 :: rest
             /\ fold_left lcp rest k0 = []).
  { destruct ov as [v|].
    - exists [], (map fst (to_list_f cs)). split; [reflexivity|].
      apply is_prefix_nil_r. apply fold_lcp_prefix_init.
    - specialize (Hlen eq_refl).
      destruct cs as [|c1 t1 [|c2 t2 r]]; cbn [flen] in Hlen; try lia.
      rewrite !wfb_f_cons in Hwc. apply andb_true_iff in Hwc as [Hw1 Hwc]. apply andb_true_iff in Hwc as [Hw2 _].
      rewrite sorted_f_cons, all_gt_cons in Hs. apply andb_true_iff in Hs as [Hs _].
      apply andb_true_iff in Hs as [Hlt _]. apply N.ltb_lt in Hlt.
      destruct (to_list_cons t1 Hw1) as (kv1 & l1 & E1). destruct (to_list_cons t2 Hw2) as (kv2 & l2 & E2).
      cbn [app]. rewrite !to_list_f_cons, E1, E2.
      exists (c1 :: fst kv1),
        (map fst (map (pre [c1]) l1 ++ map (pre [c2]) (kv2 :: l2) ++ to_list_f r)).
      split; [reflexivity|].
      apply (prefix_two_heads _ c1 (fst kv1) c2 (fst kv2)).
      + apply fold_lcp_prefix_init.
      + apply fold_lcp_prefix_in. rewrite map_app. apply in_or_app. right. left. reflexivity.
      + lia. }
  destruct E as (k0 & rest & E & Hf). rewrite E. cbn [map lcp_keys]. rewrite fold_lcp_app, Hf. apply app_nil_r.
Qed.

Definition headb (c : N) (kv : list N * V) : bool :=
  match fst kv with x :: _ => x =? c | [] => false end.

Lemma headb_pre c (l : list (list N * V)) x : In x (map (pre [c]) l) -> headb c x = true.
Proof. intros H. apply in_map_iff in H as [y [<- _]]. unfold headb, pre. cbn. apply N.eqb_refl. Qed.

Lemma headb_gt c f x : all_gt c f = true -> In x (to_list_f f) -> headb c x = false.
Proof.
  intros Hgt Hin. destruct (to_list_f_heads_gt c f x Hgt Hin) as (c' & r & E & Hlt).
  unfold headb. rewrite E. apply N.eqb_neq. lia.
Qed.

Lemma canonical_unique_mut :
  (forall t1, wfb t1 = true -> forall t2, wfb t2 = true -> to_list t1 = to_list t2 -> t1 = t2)
  /\ (forall f1, wfb_f f1 = true -> sorted_f f1 = true ->
      forall f2, wfb_f f2 = true -> sorted_f f2 = true -> to_list_f f1 = to_list_f f2 -> f1 = f2).
Proof.
  apply tree_forest_ind.
  - intros p1 ov1 cs1 IHf Hw1 [p2 ov2 cs2] Hw2 E.
    assert (Hp : p1 = p2).
    { transitivity (lcp_keys (map fst (to_list (Node p1 ov1 cs1)))).
      - symmetry. apply lcp_keys_node. assumption.
      - rewrite E. apply lcp_keys_node. assumption. }
    subst p2. rewrite !to_list_eq in E. apply map_pre_inj in E.
    apply wfb_node in Hw1 as (Hwc1 & Hs1 & _). apply wfb_node in Hw2 as (Hwc2 & Hs2 & _).
    assert (X : ov1 = ov2 /\ to_list_f cs1 = to_list_f cs2).
    { destruct ov1 as [v1|], ov2 as [v2|]; cbn [app] in E.
      - injection E as -> E. auto.
      - exfalso. assert (Hin : In ([], v1) (to_list_f cs2)) by (rewrite <- E; left; reflexivity).
        apply to_list_f_heads in Hin as (c & r & Hc). discriminate.
      - exfalso. assert (Hin : In ([], v2) (to_list_f cs1)) by (rewrite E; left; reflexivity).
        apply to_list_f_heads in Hin as (c & r & Hc). discriminate.
      - auto. }
    destruct X as [-> Ef]. f_equal. apply IHf; assumption.
  - intros _ _ [|c t r] Hw2 Hs2 E; [reflexivity|]. exfalso.
    rewrite wfb_f_cons in Hw2. apply andb_true_iff in Hw2 as [Hwt _].
    destruct (to_list_cons t Hwt) as (kv & l & Et). rewrite to_list_f_cons, Et in E. discriminate.
  - intros c1 t1 IHt r1 IHr Hw1 Hs1 [|c2 t2 r2] Hw2 Hs2 E.
    + exfalso. rewrite wfb_f_cons in Hw1. apply andb_true_iff in Hw1 as [Hwt _].
      destruct (to_list_cons t1 Hwt) as (kv & l & Et). rewrite to_list_f_cons, Et in E. discriminate.
    + rewrite wfb_f_cons in Hw1, Hw2. apply andb_true_iff in Hw1 as [Hwt1 Hwr1].
      apply andb_true_iff in Hw2 as [Hwt2 Hwr2].
      rewrite sorted_f_cons in Hs1, Hs2. apply andb_true_iff in Hs1 as [Hgt1 Hsr1].
      apply andb_true_iff in Hs2 as [Hgt2 Hsr2].
      rewrite !to_list_f_cons in E.
      assert (Hc : c1 = c2).
      { destruct (to_list_cons t1 Hwt1) as (kv1 & l1 & E1). destruct (to_list_cons t2 Hwt2) as (kv2 & l2 & E2).
        rewrite E1, E2 in E. cbn in E. injection E as Hc _ _. exact Hc. }
      subst c2.
      destruct (app_split_pred (headb c1) _ _ _ _
                  (headb_pre c1 (to_list t1)) (headb_pre c1 (to_list t2))
                  (fun x => headb_gt c1 r1 x Hgt1) (fun x => headb_gt c1 r2 x Hgt2) E) as [Et Er].
      apply map_pre_inj in Et. f_equal; [apply IHt | apply IHr]; assumption.
Qed.

Theorem canonical_unique_tree t1 t2 :
  wfb t1 = true -> wfb t2 = true -> to_list t1 = to_list t2 -> t1 = t2.
Proof. intros H1 H2. apply (proj1 canonical_unique_mut); assumption. Qed.

Theorem canonical_unique_root (r1 r2 : option (tree V)) :
  wfb_root r1 = true -> wfb_root r2 = true -> to_list_root r1 = to_list_root r2 -> r1 = r2.
Proof.
  destruct r1 as [t1|], r2 as [t2|]; cbn [wfb_root to_list_root]; intros H1 H2 E.
  - f_equal. apply canonical_unique_tree; assumption.
  - destruct (to_list_cons t1 H1) as (kv & l & Et). rewrite Et in E. discriminate.
  - destruct (to_list_cons t2 H2) as (kv & l & Et). rewrite Et in E. discriminate.
  - reflexivity.
Qed.

(** Equal contents as finite maps (equal lookup functions) suffice. *)
Theorem canonical_unique_lookup (r1 r2 : option (tree V)) :
  wfb_root r1 = true -> wfb_root r2 = true -> same_contents r1 r2 -> r1 = r2.
Proof.
  intros H1 H2 Hs. apply canonical_unique_root; try assumption.
  apply ksorted_ext; try (apply ksorted_to_list_root; assumption).
  intros k. rewrite !a_lookup_to_list_root by assumption. apply Hs.
Qed.

(** [canon] of any association list is a well-formed tree.  (That its contents are those of
    the list, and hence [canon (to_list t) = Some t] by uniqueness, is not proved.) *)
Lemma wfb_canon_from (m : list (list N * V)) : forall r, wfb_root r = true ->
  wfb_root (fold_left (fun r kv => Some (insert_root (fst kv) (snd kv) r)) m r) = true.
Proof.
  induction m as [|[k v] m IH]; intros r Hr; cbn [fold_left]; [assumption|].
  apply IH. cbn [wfb_root fst snd]. apply wfb_insert_root. assumption.
Qed.

Lemma wfb_canon (m : list (list N * V)) : wfb_root (canon m) = true.
Proof. apply wfb_canon_from. reflexivity. Qed.

End Unique.
