(** Copy-on-write at arena level: an operation of the current generation leaves the vectors below
    its checkpoint unchanged.  [AInv]: children vectors tagged with their node's own generation
    point above the checkpoint; shared ones are copied by [make_owned] before a walk descends.
    Second half: the arena machine with its entry handles ([SInv]), the checked run [as_exec], and
    no leak / rollback over the stack of saved states [Hist] ([arena_no_leak_hist],
    [arena_rollback_hist]). *)
From Coq Require Import NArith PeanoNat List Bool Lia.
From CB Require Import Trie.Radix.
From CB Require Import Trie.RadixProofs.
From CB Require Import Trie.Locks.
From CB Require Import Trie.LocksProofs.
From CB Require Import Trie.Arena.
From CB Require Import Trie.ArenaProofs.
Import ListNotations.
Local Open Scope nat_scope.

Definition cpn (a : arena) : nat := fst (fst (cur_checkpoint a)).
Definition cpv (a : arena) : nat := snd (fst (cur_checkpoint a)).
Definition cpe (a : arena) : nat := snd (cur_checkpoint a).
Definition gnum (a : arena) : nat := length (a_gens a) - 1.

Record AInv (a : arena) : Prop := {
  AI_len : cpn a <= length (a_nodes a) /\ cpv a <= length (a_values a) /\ cpe a <= length (a_entries a);
  AI_old : forall i, i < cpn a -> an_cgen (node_at a i) < gnum a;
  AI_sh : forall i, cpn a <= i -> an_cgen (node_at a i) <> an_gen (node_at a i) -> an_gen (node_at a i) = gnum a;
  AI_ch : forall i, cpn a <= i -> an_cgen (node_at a i) = an_gen (node_at a i) ->
          forall kc, In kc (an_ch (node_at a i)) -> cpn a <= snd kc;
  AI_val : forall i e, cpn a <= i -> an_val (node_at a i) = Some e -> cpe a <= e;
  AI_ent : forall e v, cpe a <= e -> nth e (a_entries a) EDeleted = EMutable v -> cpv a <= v;
  AI_root : forall r, cur_root a = Some r -> cpn a <= r;
  AI_le : forall i, an_cgen (node_at a i) <= gnum a /\ an_gen (node_at a i) <= gnum a
}.

(** [a'] differs from [a] only above the checkpoint of the current generation (and possibly in
    the root of the current generation). *)
Record Below (a a' : arena) : Prop := {
  B_cp : cur_checkpoint a' = cur_checkpoint a;
  B_glen : length (a_gens a') = length (a_gens a);
  B_older : removelast (a_gens a') = removelast (a_gens a);
  B_nodes : firstn (cpn a) (a_nodes a') = firstn (cpn a) (a_nodes a);
  B_values : firstn (cpv a) (a_values a') = firstn (cpv a) (a_values a);
  B_entries : firstn (cpe a) (a_entries a') = firstn (cpe a) (a_entries a)
}.

Lemma Below_refl a : Below a a.
Proof. constructor; reflexivity. Qed.

Lemma Below_cp_eq a a' : Below a a' -> cpn a' = cpn a /\ cpv a' = cpv a /\ cpe a' = cpe a /\ gnum a' = gnum a.
Proof. intros [C L _ _ _ _]. unfold cpn, cpv, cpe, gnum. rewrite C, L. auto. Qed.

Lemma nth_set_nth {A} (d : A) i x l j :
  nth j (set_nth i x l) d = if Nat.eqb i j then (if Nat.ltb i (length l) then x else nth j l d) else nth j l d.
Proof.
  revert i j. induction l as [|y l IH]; intros i j.
  - destruct i, j; cbn; try reflexivity. destruct (Nat.eqb i j); reflexivity.
  - destruct i as [|i], j as [|j]; cbn [set_nth nth Nat.eqb length]; try reflexivity.
    rewrite IH. change (Nat.ltb (S i) (S (length l))) with (Nat.ltb i (length l)). reflexivity.
Qed.

Lemma node_at_set_node a i n j :
  node_at (set_node a i n) j =
  if Nat.eqb i j then (if Nat.ltb i (length (a_nodes a)) then n else node_at a j) else node_at a j.
Proof. unfold node_at, set_node. cbn [a_nodes]. apply nth_set_nth. Qed.

Lemma firstn_app_le {A} n (l1 l2 : list A) : n <= length l1 -> firstn n (l1 ++ l2) = firstn n l1.
Proof. intros H. rewrite firstn_app. replace (n - length l1) with 0 by lia. cbn. apply app_nil_r. Qed.

Lemma nth_app_single {A} (d : A) l x j :
  nth j (l ++ [x]) d = if Nat.eqb j (length l) then x else nth j l d.
Proof.
  destruct (Nat.eqb_spec j (length l)) as [->|Hne].
  - rewrite app_nth2 by lia. rewrite Nat.sub_diag. reflexivity.
  - destruct (Nat.lt_ge_cases j (length l)).
    + apply app_nth1. assumption.
    + rewrite !nth_overflow; [reflexivity | lia | rewrite app_length; cbn; lia].
Qed.

Lemma nth_firstn_eq {A} n (l l' : list A) j d : firstn n l = firstn n l' -> j < n -> nth j l d = nth j l' d.
Proof.
  revert l l' j. induction n as [|n IH]; intros [|x l] [|y l'] [|j] E Hj; cbn in *; try lia; try discriminate;
    try reflexivity; inversion E; subst; auto with arith.
Qed.

Lemma node_at_same_nodes a a' i : a_nodes a' = a_nodes a -> node_at a' i = node_at a i.
Proof. intros E. unfold node_at. rewrite E. reflexivity. Qed.

Definition NodeOK (a : arena) (n : anode) : Prop :=
  (an_cgen n <> an_gen n -> an_gen n = gnum a)
  /\ (an_cgen n = an_gen n -> forall kc, In kc (an_ch n) -> cpn a <= snd kc)
  /\ (forall e, an_val n = Some e -> cpe a <= e)
  /\ (an_cgen n <= gnum a /\ an_gen n <= gnum a).

Lemma AInv_node a i : AInv a -> cpn a <= i -> NodeOK a (node_at a i).
Proof.
  intros H Hi. repeat split.
  - apply (AI_sh a H i Hi).
  - apply (AI_ch a H i Hi).
  - intros e. apply (AI_val a H i e Hi).
  - apply (AI_le a H i).
  - apply (AI_le a H i).
Qed.

Lemma NodeOK_default a : NodeOK a anode_default.
Proof. repeat split; cbn; try lia; try congruence; intros _ kc []. Qed.

Lemma NodeOK_cp a a' n : cpn a' = cpn a -> cpe a' = cpe a -> gnum a' = gnum a -> NodeOK a n -> NodeOK a' n.
Proof. intros E1 E3 E4. unfold NodeOK. rewrite E1, E3, E4. auto. Qed.

Lemma AInv_intro a :
  (cpn a <= length (a_nodes a) /\ cpv a <= length (a_values a) /\ cpe a <= length (a_entries a)) ->
  (forall i, i < cpn a -> an_cgen (node_at a i) < gnum a /\ an_gen (node_at a i) <= gnum a) ->
  (forall i, cpn a <= i -> NodeOK a (node_at a i)) ->
  (forall e v, cpe a <= e -> nth e (a_entries a) EDeleted = EMutable v -> cpv a <= v) ->
  (forall r, cur_root a = Some r -> cpn a <= r) ->
  AInv a.
Proof.
  intros H1 H2 H3 H4 H5. constructor; auto.
  - intros i Hi. apply H2. assumption.
  - intros i Hi. apply (H3 i Hi).
  - intros i Hi. apply (H3 i Hi).
  - intros i e Hi. apply (H3 i Hi).
  - intros i. destruct (Nat.lt_ge_cases i (cpn a)) as [Hlt|Hge].
    + destruct (H2 i Hlt). lia.
    + apply (H3 i Hge).
Qed.

Lemma AInv_old2 a i : AInv a -> i < cpn a -> an_cgen (node_at a i) < gnum a /\ an_gen (node_at a i) <= gnum a.
Proof. intros H Hi. split; [apply (AI_old a H i Hi) | apply (AI_le a H i)]. Qed.

(** [Ok a b]: [b] satisfies the invariant and differs from [a] only above the checkpoint of
    [a].  All side conditions below are stated against the fixed base [a], so a chain of
    updates never has to transport the checkpoint. *)
Definition Ok (a a' : arena) : Prop :=
  AInv a' /\ Below a a' /\ length (a_nodes a) <= length (a_nodes a').

Lemma Ok_refl a : AInv a -> Ok a a.
Proof. intros H. split; [exact H|]. split; [apply Below_refl | lia]. Qed.

Lemma Ok_cp a a' : Ok a a' -> cpn a' = cpn a /\ cpv a' = cpv a /\ cpe a' = cpe a /\ gnum a' = gnum a.
Proof. intros (_ & B & _). apply Below_cp_eq. exact B. Qed.

Lemma Ok_len a b : Ok a b ->
  cpn a <= length (a_nodes b) /\ cpv a <= length (a_values b) /\ cpe a <= length (a_entries b).
Proof. intros O. destruct (Ok_cp a b O) as (F1 & F2 & F3 & _). rewrite <- F1, <- F2, <- F3. apply AI_len, O. Qed.

Lemma Ok_node a b j : Ok a b -> cpn a <= j -> NodeOK a (node_at b j).
Proof.
  intros O Hj. destruct (Ok_cp a b O) as (F1 & _ & F3 & F4).
  apply (NodeOK_cp b); auto. apply AInv_node; [apply O | rewrite F1; exact Hj].
Qed.

Lemma Ok_val a b j e : Ok a b -> cpn a <= j -> an_val (node_at b j) = Some e -> cpe a <= e.
Proof. intros O Hj. apply (Ok_node a b j O Hj). Qed.

Lemma Ok_ent a b e v : Ok a b -> cpe a <= e -> nth e (a_entries b) EDeleted = EMutable v -> cpv a <= v.
Proof.
  intros O He. destruct (Ok_cp a b O) as (_ & F2 & F3 & _). rewrite <- F2. apply (AI_ent b (proj1 O)). rewrite F3. exact He.
Qed.

Lemma Ok_root a b r : Ok a b -> cur_root b = Some r -> cpn a <= r.
Proof. intros O Hr. destruct (Ok_cp a b O) as (F1 & _). rewrite <- F1. apply (AI_root b (proj1 O) r Hr). Qed.

Lemma Ok_step a b b' :
  Ok a b ->
  cur_checkpoint b' = cur_checkpoint b -> length (a_gens b') = length (a_gens b) ->
  removelast (a_gens b') = removelast (a_gens b) ->
  (forall r, cur_root b' = Some r -> cur_root b = Some r \/ cpn a <= r) ->
  firstn (cpn a) (a_nodes b') = firstn (cpn a) (a_nodes b) ->
  firstn (cpv a) (a_values b') = firstn (cpv a) (a_values b) ->
  firstn (cpe a) (a_entries b') = firstn (cpe a) (a_entries b) ->
  length (a_nodes b) <= length (a_nodes b') -> length (a_values b) <= length (a_values b') ->
  length (a_entries b) <= length (a_entries b') ->
  (forall j, cpn a <= j -> node_at b' j = node_at b j \/ NodeOK a (node_at b' j)) ->
  (forall e, cpe a <= e -> nth e (a_entries b') EDeleted = nth e (a_entries b) EDeleted
                           \/ forall v, nth e (a_entries b') EDeleted = EMutable v -> cpv a <= v) ->
  Ok a b'.
Proof.
  intros O C Lg Og Hr Pn Pv Pe Ln Lv Le Hn He. pose proof O as (H & B & L).
  destruct (Ok_cp a b O) as (F1 & F2 & F3 & F4).
  assert (C1 : cpn b' = cpn a) by (unfold cpn; rewrite C; exact F1).
  assert (C2 : cpv b' = cpv a) by (unfold cpv; rewrite C; exact F2).
  assert (C3 : cpe b' = cpe a) by (unfold cpe; rewrite C; exact F3).
  assert (C4 : gnum b' = gnum a) by (unfold gnum; rewrite Lg; exact F4).
  pose proof (Ok_len a b O) as (L1 & L2 & L3).
  split; [|split; [|lia]].
  - apply AInv_intro; rewrite ?C1, ?C2, ?C3, ?C4.
    + lia.
    + intros j Hj. unfold node_at. rewrite (nth_firstn_eq _ _ _ j _ Pn Hj), <- F4.
      apply (AInv_old2 b j H). rewrite F1. exact Hj.
    + intros j Hj. apply (NodeOK_cp a); auto.
      destruct (Hn j Hj) as [->|X]; [apply Ok_node; assumption | exact X].
    + intros e v Hge E. destruct (He e Hge) as [X|X]; [rewrite X in E; apply (Ok_ent a b e v O Hge E) | apply X; exact E].
    + intros r Hr'. destruct (Hr r Hr') as [X|X]; [apply (Ok_root a b r O X) | exact X].
  - destruct B as [Bc Bl Bo Bn Bv Be]. constructor; congruence.
Qed.

Lemma Ok_set_node a b i n : Ok a b -> cpn a <= i -> NodeOK a n -> Ok a (set_node b i n).
Proof.
  intros O Hi Hn. apply (Ok_step a b _ O); try reflexivity; cbn [set_node a_nodes]; auto.
  - apply firstn_set_nth_ge. exact Hi.
  - rewrite set_nth_length. lia.
  - intros j _. rewrite node_at_set_node. destruct (Nat.eqb i j); [destruct (Nat.ltb i (length (a_nodes b)))|]; auto.
Qed.

Lemma Ok_push_node a b n : Ok a b -> NodeOK a n -> Ok a (push_node b n).
Proof.
  intros O Hn. apply (Ok_step a b _ O); try reflexivity; cbn [push_node a_nodes]; auto.
  - apply firstn_app_le, (Ok_len a b O).
  - rewrite app_length. lia.
  - intros j _. unfold node_at. cbn [push_node a_nodes]. rewrite nth_app_single. destruct (Nat.eqb j (length (a_nodes b))); auto.
Qed.

Lemma Ok_push_entry a b e : Ok a b -> (forall v, e = EMutable v -> cpv a <= v) -> Ok a (push_entry b e).
Proof.
  intros O He. apply (Ok_step a b _ O); try reflexivity; cbn [push_entry a_entries]; auto.
  - apply firstn_app_le, (Ok_len a b O).
  - rewrite app_length. lia.
  - intros e' _. rewrite nth_app_single. destruct (Nat.eqb e' (length (a_entries b))); auto.
Qed.

Lemma Ok_set_entry a b i e :
  Ok a b -> cpe a <= i -> (forall v, e = EMutable v -> cpv a <= v) -> Ok a (set_entry b i e).
Proof.
  intros O Hi He. apply (Ok_step a b _ O); try reflexivity; cbn [set_entry a_entries]; auto.
  - apply firstn_set_nth_ge. exact Hi.
  - rewrite set_nth_length. lia.
  - intros e' _. rewrite nth_set_nth. destruct (Nat.eqb i e'); [destruct (Nat.ltb i (length (a_entries b)))|]; auto.
Qed.

Lemma Ok_push_value a b v : Ok a b -> Ok a (push_value b v).
Proof.
  intros O. apply (Ok_step a b _ O); try reflexivity; cbn [push_value a_values]; auto.
  - apply firstn_app_le, (Ok_len a b O).
  - rewrite app_length. lia.
Qed.

Lemma Ok_set_value a b i v : Ok a b -> cpv a <= i -> Ok a (set_value b i v).
Proof.
  intros O Hi. apply (Ok_step a b _ O); try reflexivity; cbn [set_value a_values]; auto.
  - apply firstn_set_nth_ge. exact Hi.
  - rewrite set_nth_length. lia.
Qed.

Lemma gens_last a : a_gens a <> [] -> exists older g, a_gens a = older ++ [g] /\ rev (a_gens a) = g :: rev older.
Proof.
  intros Hne. destruct (exists_last Hne) as (older & g & E). exists older, g. split; [exact E|].
  rewrite E, rev_app_distr. reflexivity.
Qed.

Lemma set_root_shape a r :
  a_gens a <> [] ->
  exists older g, a_gens a = older ++ [g]
    /\ a_gens (set_root a r) = older ++ [mkAG r (ag_nodes g) (ag_values g) (ag_entries g)]
    /\ a_nodes (set_root a r) = a_nodes a /\ a_values (set_root a r) = a_values a
    /\ a_entries (set_root a r) = a_entries a.
Proof.
  intros Hne. destruct (gens_last a Hne) as (older & g & E & Er). exists older, g.
  unfold set_root. rewrite Er. cbn [a_gens a_nodes a_values a_entries].
  split; [exact E|]. split; [|auto]. cbn [rev]. rewrite rev_involutive. reflexivity.
Qed.

Lemma Ok_set_root a b r : Ok a b -> (forall r', r = Some r' -> cpn a <= r') -> Ok a (set_root b r).
Proof.
  intros O Hr. destruct (a_gens b) as [|g0 gs] eqn:Eg.
  - assert (E : set_root b r = b) by (unfold set_root; rewrite Eg; reflexivity). rewrite E. exact O.
  - assert (Hne : a_gens b <> []) by (rewrite Eg; discriminate).
    destruct (set_root_shape b r Hne) as (older & g & E1 & E2 & En & Ev & Ee).
    apply (Ok_step a b _ O); rewrite ?En, ?Ev, ?Ee; try reflexivity; auto.
    + unfold cur_checkpoint. rewrite E1, E2, !rev_app_distr. reflexivity.
    + rewrite E1, E2, !app_length. reflexivity.
    + rewrite E1, E2, !removelast_last. reflexivity.
    + intros r' Hr'. right. apply Hr. unfold cur_root in Hr'. rewrite E2, rev_app_distr in Hr'. exact Hr'.
    + intros j _. left. apply node_at_same_nodes. exact En.
Qed.

Lemma NodeOK_fresh a g val path ch :
  g <= gnum a -> (forall kc, In kc ch -> cpn a <= snd kc) -> (forall e, val = Some e -> cpe a <= e) ->
  NodeOK a (mkAN g val path g ch).
Proof.
  intros Hg Hch Hv. unfold NodeOK. cbn [an_gen an_cgen an_ch an_val].
  split; [congruence|]. split; [intros _; exact Hch|]. split; [exact Hv | lia].
Qed.

Lemma src_ok a c kc : AInv a -> an_cgen (node_at a c) = gnum a -> In kc (an_ch (node_at a c)) -> cpn a <= snd kc.
Proof.
  intros H Hc Hin. destruct (Nat.lt_ge_cases c (cpn a)) as [Hlt|Hge].
  - pose proof (AI_old a H c Hlt). lia.
  - destruct (Nat.eq_dec (an_cgen (node_at a c)) (an_gen (node_at a c))) as [E|E].
    + apply (AI_ch a H c Hge E kc Hin).
    + pose proof (AI_sh a H c Hge E). congruence.
Qed.

Lemma NodeOK_migrated a b c val path :
  Ok a b -> (forall e, val = Some e -> cpe a <= e) ->
  NodeOK a (mkAN (gnum a) val path (an_cgen (node_at b c)) (an_ch (node_at b c))).
Proof.
  intros O Hv. destruct (Ok_cp a b O) as (F1 & _ & _ & F4). unfold NodeOK. cbn [an_gen an_cgen an_ch an_val].
  split; [reflexivity|]. split; [|split; [exact Hv|]].
  - intros E kc Hin. rewrite <- F1. apply (src_ok b c kc (proj1 O)); [rewrite F4; exact E | exact Hin].
  - split; [rewrite <- F4; apply (AI_le b (proj1 O) c) | lia].
Qed.

Lemma NodeOK_copies a b : Ok a b ->
  forall ch lo, cpe a <= lo -> Forall (NodeOK a) (copy_nodes (a_nodes b) (gnum a) lo ch).
Proof.
  intros O. induction ch as [|[k i] ch IH]; intros lo Hlo; cbn [copy_nodes]; constructor.
  - fold (node_at b i). apply NodeOK_migrated; [exact O|].
    intros e E. destruct (an_val (node_at b i)); inversion E. subst. exact Hlo.
  - apply IH. destruct (an_val _); lia.
Qed.

Lemma Forall2_In_r {A B} (R : A -> B -> Prop) l1 l2 y : Forall2 R l1 l2 -> In y l2 -> exists x, R x y.
Proof. induction 1 as [|x y' l1 l2 Hxy _ IH]; [intros []|]. intros [<-|Hin]; eauto. Qed.

Lemma make_owned_rel a b idx :
  Ok a b -> cpn a <= idx ->
  Ok a (make_owned b idx)
  /\ an_cgen (node_at (make_owned b idx) idx) = an_gen (node_at (make_owned b idx) idx).
Proof.
  intros O Hi. destruct (Nat.eq_dec (an_cgen (node_at b idx)) (an_gen (node_at b idx))) as [E|E].
  { unfold make_owned. rewrite E, Nat.eqb_refl. split; assumption. }
  destruct (Ok_node a b idx O Hi) as (Hg & _ & Hv & _). specialize (Hg E).
  destruct (make_owned_eq b idx E) as (Hlt & es & F & M). rewrite M, Hg. clear M.
  pose proof (Ok_len a b O) as (L1 & _ & L3).
  set (ns := copy_nodes (a_nodes b) (gnum a) (length (a_entries b)) (an_ch (node_at b idx))).
  assert (Hns : Forall (NodeOK a) ns) by (apply NodeOK_copies; assumption).
  assert (O2 : Ok a (mkA (a_gens b) (a_entries b ++ es) (a_values b) (a_nodes b ++ ns))).
  { apply (Ok_step a b _ O); cbn [a_gens a_nodes a_values a_entries]; try reflexivity; rewrite ?app_length; try lia.
    - intros r Hr. left. exact Hr.
    - apply firstn_app_le. exact L1.
    - apply firstn_app_le. exact L3.
    - intros j _. unfold node_at. cbn [a_nodes].
      destruct (Nat.lt_ge_cases j (length (a_nodes b))) as [X|X]; [left; apply app_nth1; exact X|].
      right. rewrite app_nth2 by exact X.
      destruct (Nat.lt_ge_cases (j - length (a_nodes b)) (length ns)) as [Y|Y].
      + rewrite Forall_forall in Hns. apply Hns, nth_In, Y.
      + rewrite nth_overflow by exact Y. apply NodeOK_default.
    - intros e _. destruct (Nat.lt_ge_cases e (length (a_entries b))) as [X|X]; [left; apply app_nth1; exact X|].
      right. intros v Ev. exfalso. rewrite app_nth2 in Ev by exact X.
      destruct (Nat.lt_ge_cases (e - length (a_entries b)) (length es)) as [Y|Y];
        [|rewrite nth_overflow in Ev by exact Y; discriminate].
      destruct (Forall2_In_r _ _ _ _ F (nth_In es EDeleted Y)) as (x & Hm & _). exact (Hm v Ev). }
  split.
  - apply Ok_set_node; [exact O2 | exact Hi|]. apply NodeOK_fresh; [lia | | exact Hv].
    intros kc Hin. apply (in_map snd) in Hin. rewrite (proj2 (renumber_fst_snd _ _)) in Hin. apply in_seq in Hin. lia.
  - rewrite node_at_set_node, Nat.eqb_refl. cbn [a_nodes]. rewrite app_length.
    destruct (Nat.ltb_spec idx (length (a_nodes b) + length ns)); [reflexivity | lia].
Qed.

Theorem make_owned_ok a idx :
  AInv a -> cpn a <= idx ->
  Ok a (make_owned a idx)
  /\ an_cgen (node_at (make_owned a idx) idx) = an_gen (node_at (make_owned a idx) idx).
Proof. intros H Hi. apply make_owned_rel; [apply Ok_refl; exact H | exact Hi]. Qed.

Corollary make_owned_children a idx kc :
  AInv a -> cpn a <= idx -> In kc (an_ch (node_at (make_owned a idx) idx)) -> cpn a <= snd kc.
Proof.
  intros H Hi Hin. destruct (make_owned_ok a idx H Hi) as (O1 & E).
  destruct (Ok_node a _ idx O1 Hi) as (_ & Hc & _). apply (Hc E kc Hin).
Qed.

Lemma find_child_in c ch pos p i : find_child c ch pos = Some (p, i) -> exists k, In (k, i) ch.
Proof.
  revert pos. induction ch as [|[k j] ch IH]; intros pos H; cbn in H; [discriminate|].
  destruct (N.eqb c k).
  - inversion H; subst. exists k. left. reflexivity.
  - destruct (IH _ H) as [k' Hk]. exists k'. right. exact Hk.
Qed.

Lemma find_child_above a b idx c p0 pos i :
  Ok a b -> cpn a <= idx ->
  find_child c (an_ch (node_at (make_owned b idx) idx)) p0 = Some (pos, i) -> cpn a <= i.
Proof.
  intros O Hi F. destruct (find_child_in _ _ _ _ _ F) as [kk Hin].
  destruct (make_owned_rel a b idx O Hi) as (O1 & E).
  destruct (Ok_node a _ idx O1 Hi) as (_ & Hc & _). apply (Hc E (kk, i) Hin).
Qed.

Lemma NodeOK_with_children a n ch' :
  NodeOK a n -> (forall kc, In kc ch' -> In kc (an_ch n) \/ cpn a <= snd kc) -> NodeOK a (with_children n ch').
Proof.
  intros (N1 & N2 & N3 & N4) Hch. unfold NodeOK, with_children. cbn [an_gen an_cgen an_ch an_val].
  split; [exact N1|]. split; [|split; assumption].
  intros E kc Hin. destruct (Hch kc Hin) as [X|X]; [apply (N2 E kc X) | exact X].
Qed.

Lemma NodeOK_with_val a n v : NodeOK a n -> (forall e, v = Some e -> cpe a <= e) -> NodeOK a (with_val n v).
Proof.
  intros (N1 & N2 & N3 & N4) Hv. unfold NodeOK, with_val. cbn [an_gen an_cgen an_ch an_val]. auto.
Qed.

Lemma In_set_child_index pos i ch kc : In kc (set_child_index pos i ch) -> In kc ch \/ snd kc = i.
Proof.
  revert pos. induction ch as [|[k j] ch IH]; intros pos H; [destruct pos; destruct H|].
  destruct pos as [|pos]; cbn in H.
  - destruct H as [<-|H]; [right; reflexivity | left; right; exact H].
  - destruct H as [<-|H]; [left; left; reflexivity|]. destruct (IH pos H); [left; right; assumption | right; assumption].
Qed.

Lemma In_insert_child c i ch kc : In kc (insert_child c i ch) -> In kc ch \/ snd kc = i.
Proof.
  induction ch as [|[k j] ch IH]; cbn; intros H.
  - destruct H as [<-|[]]. right. reflexivity.
  - destruct (N.ltb c k).
    + destruct H as [<-|H]; [right; reflexivity | left; exact H].
    + destruct H as [<-|H]; [left; left; reflexivity|]. destruct (IH H); [left; right; assumption | right; assumption].
Qed.

Lemma In_remove_nth {A} pos (l : list A) x : In x (remove_nth pos l) -> In x l.
Proof.
  revert pos. induction l as [|y l IH]; intros pos H; [destruct pos; destruct H|].
  destruct pos as [|pos]; cbn in H; [right; exact H|].
  destruct H as [<-|H]; [left; reflexivity | right; apply (IH pos H)].
Qed.

Lemma Ok_set_child a b u pos i :
  Ok a b -> cpn a <= u -> cpn a <= i ->
  Ok a (set_node b u (with_children (node_at b u) (set_child_index pos i (an_ch (node_at b u))))).
Proof.
  intros O Hu Hi. apply Ok_set_node; [exact O | exact Hu|].
  apply NodeOK_with_children; [apply Ok_node; assumption|].
  intros kc Hin. destruct (In_set_child_index _ _ _ _ Hin) as [X|X]; [left; exact X | right; lia].
Qed.

Lemma new_entry_ok a b v : Ok a b -> Ok a (fst (new_entry b v)) /\ cpe a <= snd (new_entry b v).
Proof.
  intros O. pose proof (Ok_len a b O) as (_ & L2 & L3). unfold new_entry. cbn [fst snd]. split; [|exact L3].
  apply Ok_push_entry; [apply Ok_push_value; exact O|]. intros x E. inversion E. exact L2.
Qed.

Lemma Ok_repoint a b e v :
  Ok a b -> cpe a <= e -> Ok a (set_entry (push_value b v) e (EMutable (length (a_values b)))).
Proof.
  intros O He. apply Ok_set_entry; [apply Ok_push_value; exact O | exact He|].
  intros x X. inversion X. apply (Ok_len a b O).
Qed.

Lemma set_entry_value_ok a b e v : Ok a b -> cpe a <= e -> Ok a (a_set_entry_value b e v).
Proof.
  intros O He. unfold a_set_entry_value.
  destruct (nth e (a_entries b) EDeleted) as [i|i|] eqn:E; try (apply Ok_repoint; assumption).
  apply Ok_set_value; [exact O | apply (Ok_ent a b e i O He E)].
Qed.

Lemma a_set_ok a b e v : Ok a b -> cpe a <= e -> Ok a (fst (a_set b e v)).
Proof.
  intros O He. unfold a_set. destruct (nth_error (a_entries b) e) as [[i|i|]|] eqn:E; cbn [fst]; try exact O.
  - apply Ok_repoint; assumption.
  - apply Ok_set_value; [exact O|]. apply (Ok_ent a b e i O He). apply nth_error_nth. exact E.
Qed.

Lemma a_mut_fst a e v : fst (a_mut a e v) = fst (a_set a e v).
Proof. unfold a_mut, a_set. destruct (nth_error (a_entries a) e) as [[?|?|]|]; reflexivity. Qed.

Lemma kill_entry_ok a b e : Ok a b -> cpe a <= e -> Ok a (fst (kill_entry b e)).
Proof.
  intros O He. unfold kill_entry.
  assert (O1 : Ok a (set_entry b e EDeleted)) by (apply Ok_set_entry; [exact O | exact He | discriminate]).
  destruct (nth e (a_entries b) EDeleted) as [i|i|] eqn:E; cbn [fst]; try exact O1.
  apply Ok_set_value; [exact O1 | apply (Ok_ent a b e i O He E)].
Qed.

Lemma get_entry_ok a : forall fuel b idx k,
  Ok a b -> cpn a <= idx ->
  Ok a (fst (a_get_entry fuel b idx k))
  /\ (forall e, snd (a_get_entry fuel b idx k) = Some e -> cpe a <= e).
Proof.
  induction fuel as [|fuel IH]; intros b idx k O Hi; cbn [a_get_entry].
  - split; [exact O | discriminate].
  - destruct (follow_stem k (an_path (node_at b idx))) as [|s ps|c k'|cm kc kr sc sr]; cbn [fst snd];
      try (split; [exact O | discriminate]).
    + split; [exact O|]. intros e. apply (Ok_val a b idx e O Hi).
    + destruct (make_owned_rel a b idx O Hi) as (O1 & _).
      destruct (find_child c (an_ch (node_at (make_owned b idx) idx)) 0) as [[pos i]|] eqn:F.
      * apply IH; [exact O1 | apply (find_child_above a b idx c 0 pos i O Hi F)].
      * split; [exact O1 | discriminate].
Qed.

Lemma lookup_key_ok a key :
  AInv a ->
  Ok a (fst (a_lookup_key a key)) /\ (forall e, snd (a_lookup_key a key) = Some e -> cpe a <= e).
Proof.
  intros H. unfold a_lookup_key. destruct (cur_root a) as [r|] eqn:Er.
  - apply get_entry_ok; [apply Ok_refl; exact H | apply (AI_root a H r Er)].
  - split; [apply Ok_refl; exact H | discriminate].
Qed.

Definition parent_ok (a : arena) (parent : option (nat * nat)) : Prop :=
  forall p pos, parent = Some (p, pos) -> cpn a <= p.

Lemma relink_ok a b parent i : Ok a b -> parent_ok a parent -> cpn a <= i -> Ok a (relink b parent i).
Proof.
  intros O Hp Hi. unfold relink. destruct parent as [[p pos]|].
  - apply Ok_set_child; [exact O | apply (Hp p pos eq_refl) | exact Hi].
  - apply Ok_set_root; [exact O|]. intros r' E. inversion E. subst. exact Hi.
Qed.

Lemma follow_stem_shorter k p c k' : follow_stem k p = FStemIsPrefix c k' -> length k' < length k.
Proof.
  intros E. pose proof (follow_stem_spec k p) as S. rewrite E in S. subst k.
  rewrite app_length. cbn. lia.
Qed.

Lemma insert_loop_ok a : forall fuel b gen idx parent k v,
  Ok a b -> cpn a <= idx -> parent_ok a parent -> gen <= gnum a ->
  Ok a (fst (fst (ar_insert_loop fuel b gen idx parent k v)))
  /\ (length k < fuel -> cpe a <= snd (fst (ar_insert_loop fuel b gen idx parent k v))).
Proof.
  induction fuel as [|fuel IH]; intros b gen idx parent k v O Hi Hp Hg; cbn [ar_insert_loop].
  - cbn. split; [exact O | lia].
  - pose proof (Ok_node a b idx O Hi) as Hn. pose proof (Ok_len a b O) as (L1 & _).
    destruct (follow_stem k (an_path (node_at b idx))) as [|s ps|c k'|cm kc kr sc sr] eqn:EF.
    + destruct (an_val (node_at b idx)) as [e0|] eqn:Ev; cbn [fst snd].
      * pose proof (Ok_val a b idx e0 O Hi Ev) as He0.
        split; [apply set_entry_value_ok; assumption | intros _; exact He0].
      * destruct (new_entry_ok a b v O) as (O1 & He). destruct (new_entry b v) as [b1 e]. cbn [fst snd] in *.
        split; [|intros _; exact He]. apply Ok_set_node; [exact O1 | exact Hi|].
        apply NodeOK_with_val; [exact Hn|]. intros x X. inversion X. subst. exact He.
    + destruct (new_entry_ok a b v O) as (O1 & He). destruct (new_entry b v) as [b1 e]. cbn [fst snd] in *.
      assert (O2 : Ok a (set_node b1 idx (with_path (node_at b idx) ps)))
        by (apply Ok_set_node; [exact O1 | exact Hi | exact Hn]).
      pose proof (Ok_len a _ O2) as (L2 & _).
      split; [|intros _; exact He]. apply Ok_push_node; [apply relink_ok; assumption|].
      apply NodeOK_fresh; [exact Hg | | ].
      * intros kc0 [<-|[]]. exact Hi.
      * intros x X. inversion X. subst. exact He.
    + destruct (make_owned_rel a b idx O Hi) as (O1 & _).
      destruct (find_child c (an_ch (node_at (make_owned b idx) idx)) 0) as [[pos i]|] eqn:F.
      * destruct (IH (make_owned b idx) gen i (Some (idx, pos)) k' v O1) as (O2 & He); try assumption.
        { apply (find_child_above a b idx c 0 pos i O Hi F). }
        { intros p pos' E. inversion E. subst. exact Hi. }
        split; [exact O2|]. intros Hl. apply He. pose proof (follow_stem_shorter _ _ _ _ EF). lia.
      * set (b1 := make_owned b idx) in *. pose proof (Ok_len a b1 O1) as (L2 & _).
        assert (O2 : Ok a (set_node b1 idx (with_children (node_at b1 idx)
                          (insert_child c (length (a_nodes b1)) (an_ch (node_at b1 idx)))))).
        { apply Ok_set_node; [exact O1 | exact Hi|].
          apply NodeOK_with_children; [apply Ok_node; assumption|].
          intros kc0 Hin. destruct (In_insert_child _ _ _ _ Hin) as [X|X]; [left; exact X | right; lia]. }
        set (b2 := set_node b1 idx _) in *.
        destruct (new_entry_ok a b2 v O2) as (O3 & He). destruct (new_entry b2 v) as [b3 e]. cbn [fst snd] in *.
        split; [|intros _; exact He].
        apply Ok_push_node; [exact O3|]. apply NodeOK_fresh; [exact Hg | intros kc0 [] |].
        intros x X. inversion X. subst. exact He.
    + assert (O1 : Ok a (set_node b idx (with_path (node_at b idx) sr)))
        by (apply Ok_set_node; [exact O | exact Hi | exact Hn]).
      set (b1 := set_node b idx _) in *.
      destruct (new_entry_ok a b1 v O1) as (O2 & He). destruct (new_entry b1 v) as [b2 e]. cbn [fst snd] in *.
      assert (Hleaf : NodeOK a (mkAN gen (Some e) kr gen [])).
      { apply NodeOK_fresh; [exact Hg | intros kc0 [] |]. intros x X. inversion X. subst. exact He. }
      split; [|intros _; exact He]. apply relink_ok; [|exact Hp | lia].
      apply Ok_push_node; [apply Ok_push_node; assumption|]. apply NodeOK_fresh; [exact Hg | | discriminate].
      intros kc0 Hin. destruct (kc <? sc)%N; cbn in Hin; destruct Hin as [<-|[<-|[]]]; cbn; lia.
Qed.

Theorem ar_insert_ok a key v :
  AInv a -> Ok a (fst (fst (ar_insert a key v))) /\ cpe a <= snd (fst (ar_insert a key v)).
Proof.
  intros H. pose proof (Ok_refl a H) as O. unfold ar_insert. destruct (cur_root a) as [r|] eqn:Er.
  - destruct (insert_loop_ok a (S (length (nib key))) a (an_gen (node_at a r)) r None (nib key) v O (AI_root a H r Er))
      as (O' & He).
    + intros p pos E. discriminate.
    + apply (AI_le a H r).
    + split; [exact O' | apply He; lia].
  - destruct (new_entry_ok a a v O) as (O1 & He). destruct (new_entry a v) as [a1 e]. cbn [fst snd] in *.
    pose proof (Ok_len a a O) as (L1 & _). split; [|exact He].
    apply Ok_set_root; [apply Ok_push_node; [exact O1|]|].
    + apply NodeOK_fresh; [unfold gnum; lia | intros kc [] |]. intros x X. inversion X. subst. exact He.
    + intros r' E. inversion E. exact L1.
Qed.

Definition up_ok (a : arena) (up : option (nat * nat)) : Prop :=
  forall pos u, up = Some (pos, u) -> cpn a <= u.

Lemma collapse_ok a b idx up :
  Ok a b -> cpn a <= idx -> an_cgen (node_at b idx) = an_gen (node_at b idx) -> up_ok a up ->
  Ok a (collapse_into_child b idx up).
Proof.
  intros O Hi Eown Hup. unfold collapse_into_child.
  destruct (an_ch (node_at b idx)) as [|[ck ci] [|? ?]] eqn:Ech; try exact O.
  assert (Hci : cpn a <= ci).
  { destruct (Ok_node a b idx O Hi) as (_ & Hc & _). apply (Hc Eown (ck, ci)). rewrite Ech. left. reflexivity. }
  assert (O1 : Ok a (set_node b idx anode_default)) by (apply Ok_set_node; [exact O | exact Hi | apply NodeOK_default]).
  set (b1 := set_node b idx anode_default) in *.
  assert (O2 : Ok a (set_node b1 ci (with_path (node_at b1 ci) (an_path (node_at b idx) ++ ck :: an_path (node_at b1 ci)))))
    by (apply Ok_set_node; [exact O1 | exact Hci | exact (Ok_node a b1 ci O1 Hci)]).
  destruct up as [[pos u]|].
  - apply Ok_set_child; [exact O2 | apply (Hup pos u eq_refl) | exact Hci].
  - apply Ok_set_root; [exact O2|]. intros r' E. inversion E. subst. exact Hci.
Qed.

Lemma unshared_after_set a i n ch :
  an_cgen n = an_gen n ->
  an_cgen (node_at (set_node a i (with_children n ch)) i) = an_gen (node_at (set_node a i (with_children n ch)) i)
  \/ node_at (set_node a i (with_children n ch)) i = node_at a i.
Proof.
  intros E. rewrite node_at_set_node, Nat.eqb_refl.
  destruct (Nat.ltb i (length (a_nodes a))); [left; exact E | right; reflexivity].
Qed.

Lemma remove_child_ok a b pos f gf :
  Ok a b -> cpn a <= f -> up_ok a gf ->
  let b1 := make_owned b f in
  let b2 := set_node b1 f (with_children (node_at b1 f) (remove_nth pos (an_ch (node_at b1 f)))) in
  Ok a b2 /\ Ok a (collapse_into_child b2 f gf).
Proof.
  intros O Hf Hgf b1 b2. destruct (make_owned_rel a b f O Hf) as (O1 & Eown). fold b1 in O1, Eown.
  assert (O2 : Ok a b2).
  { apply Ok_set_node; [exact O1 | exact Hf|]. apply NodeOK_with_children; [apply Ok_node; assumption|].
    intros kc Hin. left. eapply In_remove_nth. exact Hin. }
  split; [exact O2|]. apply collapse_ok; [exact O2 | exact Hf | | exact Hgf].
  destruct (unshared_after_set b1 f (node_at b1 f) (remove_nth pos (an_ch (node_at b1 f))) Eown) as [X|X];
    [exact X | fold b2 in X; rewrite X; exact Eown].
Qed.

Lemma delete_loop_ok a : forall fuel b idx father grandfather k,
  Ok a b -> cpn a <= idx -> up_ok a father -> up_ok a grandfather ->
  Ok a (fst (ar_delete_loop fuel b idx father grandfather k)).
Proof.
  induction fuel as [|fuel IH]; intros b idx father grandfather k O Hi Hf Hgf; cbn [ar_delete_loop]; [exact O|].
  destruct (follow_stem k (an_path (node_at b idx))) as [|s ps|c k'|cm kc kr sc sr] eqn:EF; try exact O.
  - destruct (an_val (node_at b idx)) as [e|] eqn:Ev; [|exact O].
    pose proof (kill_entry_ok a b e O (Ok_val a b idx e O Hi Ev)) as O1. destruct (kill_entry b e) as [b1 rv]. cbn [fst] in *.
    assert (O2 : Ok a (set_node b1 idx (with_val (node_at b1 idx) None))).
    { apply Ok_set_node; [exact O1 | exact Hi|]. apply NodeOK_with_val; [apply Ok_node; assumption | discriminate]. }
    set (b2 := set_node b1 idx _) in *.
    destruct (make_owned_rel a b2 idx O2 Hi) as (O3 & Eown). set (b3 := make_owned b2 idx) in *.
    destruct (an_ch (node_at b3 idx)) as [|c0 [|c1 cr]] eqn:Ech; cbn [fst].
    + destruct father as [[child_pos fidx]|]; cbn [fst].
      * destruct (remove_child_ok a b3 child_pos fidx grandfather O3 (Hf _ _ eq_refl) Hgf) as (X & Y).
        destruct (_ && _); [exact Y | exact X].
      * apply Ok_set_root; [exact O3 | discriminate].
    + apply collapse_ok; assumption.
    + exact O3.
  - destruct (make_owned_rel a b idx O Hi) as (O1 & _).
    destruct (find_child c (an_ch (node_at (make_owned b idx) idx)) 0) as [[pos i]|] eqn:F; [|exact O1].
    apply IH; [exact O1 | apply (find_child_above a b idx c 0 pos i O Hi F) | | exact Hf].
    intros p u E. inversion E. subst. exact Hi.
Qed.

Theorem ar_delete_ok a key : AInv a -> Ok a (fst (ar_delete a key)).
Proof.
  intros H. pose proof (Ok_refl a H) as O. unfold ar_delete. destruct (cur_root a) as [r|] eqn:Er; [|exact O].
  apply delete_loop_ok; [exact O | apply (AI_root a H r Er) | |]; intros p u E; discriminate.
Qed.

Lemma kill_entry_nodes a e : a_nodes (fst (kill_entry a e)) = a_nodes a.
Proof. unfold kill_entry. destruct (nth e (a_entries a) EDeleted); reflexivity. Qed.

Lemma invalidate_ok a : forall fuel b stack,
  Ok a b -> (forall i, In i stack -> cpn a <= i) -> Ok a (invalidate fuel b stack).
Proof.
  induction fuel as [|fuel IH]; intros b stack O Hs; cbn [invalidate]; [exact O|].
  destruct stack as [|i rest]; [exact O|]. pose proof (Hs i (or_introl eq_refl)) as Hi. apply IH.
  - destruct (an_val (node_at b i)) as [e|] eqn:Ev; [|exact O].
    apply kill_entry_ok; [exact O | apply (Ok_val a b i e O Hi Ev)].
  - intros j Hj. apply in_app_iff in Hj as [Hj|Hj]; [|apply Hs; right; exact Hj].
    destruct (Nat.eqb_spec (an_gen (node_at b i)) (an_cgen (node_at b i))) as [E|E]; [|destruct Hj].
    apply in_rev in Hj. apply in_map_iff in Hj as [kc [<- Hin]].
    destruct (Ok_node a b i O Hi) as (_ & Hc & _). apply (Hc (eq_sym E) kc Hin).
Qed.

Lemma delete_prefix_loop_ok a : forall fuel b idx parent grandparent k,
  Ok a b -> cpn a <= idx -> up_ok a parent -> up_ok a grandparent ->
  Ok a (fst (ar_delete_prefix_loop fuel b idx parent grandparent k)).
Proof.
  induction fuel as [|fuel IH]; intros b idx parent grandparent k O Hi Hp Hgp; cbn [ar_delete_prefix_loop]; [exact O|].
  destruct (follow_stem k (an_path (node_at b idx))) as [|s ps|c k'|cm kc kr sc sr] eqn:EF; [| | |exact O].
  3:{ destruct (make_owned_rel a b idx O Hi) as (O1 & _).
      destruct (find_child c (an_ch (node_at (make_owned b idx) idx)) 0) as [[pos i]|] eqn:F; [|exact O1].
      apply IH; [exact O1 | apply (find_child_above a b idx c 0 pos i O Hi F) | | exact Hp].
      intros p u E. inversion E. subst. exact Hi. }
  (* the key ends at or inside the stem of [idx]: the subtree goes, in both cases alike *)
  all: assert (O1 : Ok a (invalidate (S (length (a_nodes b))) b [idx]))
         by (apply invalidate_ok; [exact O | intros j [<-|[]]; exact Hi]).
  all: destruct parent as [[child_pos pidx]|]; cbn [fst]; [|apply Ok_set_root; [exact O1 | discriminate]].
  all: destruct (remove_child_ok a _ child_pos pidx grandparent O1 (Hp _ _ eq_refl) Hgp) as (X & Y).
  all: destruct (_ && _); [exact Y | exact X].
Qed.

Theorem ar_delete_prefix_ok a key : AInv a -> Ok a (fst (ar_delete_prefix a key)).
Proof.
  intros H. pose proof (Ok_refl a H) as O. unfold ar_delete_prefix. destruct (cur_root a) as [r|] eqn:Er; [|exact O].
  apply delete_prefix_loop_ok; [exact O | apply (AI_root a H r Er) | |]; intros p u E; discriminate.
Qed.

Definition SInv (s : astate) : Prop :=
  AInv (as_arena s)
  /\ Forall (fun e => cpe (as_arena s) <= e) (cur_handles s)
  /\ a_gens (as_arena s) <> []
  /\ length (as_handles s) = length (a_gens (as_arena s)).

Definition gen_op (o : op) : bool :=
  match o with ONewGen | ONormalize _ => true | _ => false end.

Lemma Below_gens_ne a a' : Below a a' -> a_gens a <> [] -> a_gens a' <> [].
Proof. intros B Hne E. pose proof (B_glen a a' B) as L. rewrite E in L. destruct (a_gens a); [congruence | discriminate]. Qed.

Lemma SInv_with_arena s a' :
  SInv s -> Ok (as_arena s) a' ->
  Ok (as_arena s) (as_arena (with_arena s a')) /\ SInv (with_arena s a')
  /\ tl (as_handles (with_arena s a')) = tl (as_handles s).
Proof.
  intros (H & Hh & Hne & Hl) O. destruct (Ok_cp _ _ O) as (_ & _ & F3 & _).
  split; [exact O|]. split; [|reflexivity]. unfold SInv, with_arena, cur_handles. cbn [as_arena as_handles].
  split; [apply O|]. split; [rewrite F3; exact Hh|]. split; [eapply Below_gens_ne; [apply O | exact Hne]|].
  rewrite (B_glen _ _ (proj1 (proj2 O))). exact Hl.
Qed.

Lemma SInv_push_handle s a' e :
  SInv s -> Ok (as_arena s) a' -> cpe (as_arena s) <= e ->
  Ok (as_arena s) (as_arena (push_handle s a' e)) /\ SInv (push_handle s a' e)
  /\ tl (as_handles (push_handle s a' e)) = tl (as_handles s).
Proof.
  intros (H & Hh & Hne & Hl) O He. destruct (Ok_cp _ _ O) as (_ & _ & F3 & _).
  unfold SInv, push_handle, cur_handles in *. destruct (as_handles s) as [|h r] eqn:Eh; cbn [as_arena as_handles] in *.
  - exfalso. destruct (a_gens (as_arena s)); [congruence | discriminate].
  - split; [exact O|]. split; [|reflexivity]. split; [apply O|]. split; [|split].
    + rewrite F3. apply Forall_app. split; [exact Hh | repeat constructor; exact He].
    + eapply Below_gens_ne; [apply O | exact Hne].
    + rewrite (B_glen _ _ (proj1 (proj2 O))). exact Hl.
Qed.

Lemma arena_push_handle s a e : as_arena (push_handle s a e) = a.
Proof. unfold push_handle. destruct (as_handles s); reflexivity. Qed.

Lemma cur_handles_in s h e : SInv s -> nth_error (cur_handles s) h = Some e -> cpe (as_arena s) <= e.
Proof.
  intros (_ & Hh & _) E. rewrite Forall_forall in Hh. apply Hh. eapply nth_error_In. exact E.
Qed.

Lemma as_step_state (Q : astate -> Prop) o s :
  gen_op o = false -> Q s ->
  (forall k v, Q (push_handle s (fst (fst (ar_insert (as_arena s) k v))) (snd (fst (ar_insert (as_arena s) k v))))) ->
  (forall k, match snd (a_lookup_key (as_arena s) k) with
             | Some e => Q (push_handle s (fst (a_lookup_key (as_arena s) k)) e)
             | None => Q (with_arena s (fst (a_lookup_key (as_arena s) k)))
             end) ->
  (forall h e v, nth_error (cur_handles s) h = Some e -> Q (with_arena s (fst (a_set (as_arena s) e v)))) ->
  (forall k, Q (with_arena s (fst (ar_delete (as_arena s) k)))) ->
  (forall k, Q (with_arena s (fst (ar_delete_prefix (as_arena s) k)))) ->
  Q (fst (as_step o s)).
Proof.
  intros Hg Q0 Qi Ql Qs Qd Qp. destruct o; try discriminate Hg; cbn [as_step]; try exact Q0.
  - specialize (Qi k v). destruct (ar_insert (as_arena s) k v) as [[a1 e] existed]. exact Qi.
  - specialize (Ql k). destruct (a_lookup_key (as_arena s) k) as [a1 [e|]]; exact Ql.
  - destruct (nth_error (cur_handles s) h); exact Q0.
  - destruct (nth_error (cur_handles s) h) as [e|] eqn:E; [|exact Q0].
    specialize (Qs h e v E). destruct (a_set (as_arena s) e v). exact Qs.
  - destruct (nth_error (cur_handles s) h) as [e|] eqn:E; [|exact Q0].
    specialize (Qs h e v E). rewrite <- a_mut_fst in Qs. destruct (a_mut (as_arena s) e v). exact Qs.
  - specialize (Qd k). destruct (ar_delete (as_arena s) k). exact Qd.
  - specialize (Qp k). destruct (ar_delete_prefix (as_arena s) k). exact Qp.
Qed.

Lemma as_step_arena (Q : arena -> Prop) o s :
  gen_op o = false -> Q (as_arena s) ->
  (forall k v, Q (fst (fst (ar_insert (as_arena s) k v)))) ->
  (forall k, Q (fst (a_lookup_key (as_arena s) k))) ->
  (forall h e v, nth_error (cur_handles s) h = Some e -> Q (fst (a_set (as_arena s) e v))) ->
  (forall k, Q (fst (ar_delete (as_arena s) k))) ->
  (forall k, Q (fst (ar_delete_prefix (as_arena s) k))) ->
  Q (as_arena (fst (as_step o s))).
Proof.
  intros Hg Q0 Qi Ql Qs Qd Qp. apply (as_step_state (fun s' => Q (as_arena s'))); try assumption.
  - intros k v. rewrite arena_push_handle. apply Qi.
  - intros k. destruct (snd (a_lookup_key (as_arena s) k)); [rewrite arena_push_handle|]; apply Ql.
Qed.

(** Every operation other than [new_generation] / [normalize] leaves the vectors below the
    checkpoint of the current generation unchanged, and preserves the invariant. *)
Theorem as_step_cow o s :
  SInv s -> gen_op o = false ->
  Ok (as_arena s) (as_arena (fst (as_step o s))) /\ SInv (fst (as_step o s))
  /\ tl (as_handles (fst (as_step o s))) = tl (as_handles s).
Proof.
  intros HS Hg. pose proof HS as (H & _). pose proof (Ok_refl _ H) as O0.
  apply (as_step_state (fun s' => Ok (as_arena s) (as_arena s') /\ SInv s' /\ tl (as_handles s') = tl (as_handles s)));
    try assumption.
  - split; [exact O0 | split; [exact HS | reflexivity]].
  - intros k v. destruct (ar_insert_ok (as_arena s) k v H) as (O & He). apply SInv_push_handle; assumption.
  - intros k. destruct (lookup_key_ok (as_arena s) k H) as (O & He).
    destruct (snd (a_lookup_key (as_arena s) k)) as [e|];
      [apply SInv_push_handle; auto | apply SInv_with_arena; assumption].
  - intros h e v E. apply SInv_with_arena; [exact HS|]. apply a_set_ok; [exact O0 | apply (cur_handles_in s h e HS E)].
  - intros k. apply SInv_with_arena; [exact HS | apply ar_delete_ok; exact H].
  - intros k. apply SInv_with_arena; [exact HS | apply ar_delete_prefix_ok; exact H].
Qed.

Definition tag_ok (a : arena) : bool :=
  match cur_root a with
  | Some r => Nat.eqb (an_gen (node_at a r)) (gnum a)
  | None => true
  end.

Definition cp_of (g : agen) : nat * nat * nat := (ag_nodes g, ag_values g, ag_entries g).
Definition lens (a : arena) : nat * nat * nat := (length (a_nodes a), length (a_values a), length (a_entries a)).

Lemma checkpoint_of_gens a gs g : a_gens a = gs ++ [g] -> cur_checkpoint a = cp_of g.
Proof. intros E. unfold cur_checkpoint. rewrite E, rev_app_distr. reflexivity. Qed.

Lemma cur_checkpoint_last gs g e v n : cur_checkpoint (mkA (gs ++ [g]) e v n) = cp_of g.
Proof. apply (checkpoint_of_gens (mkA (gs ++ [g]) e v n) gs g eq_refl). Qed.

Lemma cur_root_app gs g e v n : cur_root (mkA (gs ++ [g]) e v n) = ag_root g.
Proof. unfold cur_root. cbn [a_gens]. rewrite rev_app_distr. reflexivity. Qed.

Lemma new_generation_spec a :
  a_gens a <> [] ->
  exists g es extra,
    a_new_generation a = mkA (a_gens a ++ [g]) (a_entries a ++ es) (a_values a) (a_nodes a ++ extra)
    /\ cp_of g = lens a /\ Forall (fun x => forall v, x <> EMutable v) es
    /\ match cur_root a with
       | None => extra = [] /\ ag_root g = None
       | Some r => extra = [copy_node (S (an_gen (node_at a r))) (length (a_entries a)) (node_at a r)]
                   /\ ag_root g = Some (length (a_nodes a))
       end.
Proof.
  intros Hne. unfold a_new_generation. destruct (cur_root a) as [r|].
  - rewrite migrate_eq.
    eexists _, (match an_val (node_at a r) with Some e => [ro_entry a e] | None => [] end), _.
    split.
    { destruct (an_val (node_at a r)); cbn [push_node push_entry a_gens a_entries a_values a_nodes];
        [reflexivity | rewrite app_nil_r; reflexivity]. }
    split; [reflexivity|]. split; [|split; reflexivity].
    destruct (an_val (node_at a r)) as [e|]; constructor; [|constructor].
    intros v. unfold ro_entry. destruct (nth e (a_entries a) EDeleted); discriminate.
  - destruct (a_gens a) eqn:Eg; [congruence|]. rewrite <- Eg. eexists _, [], []. rewrite !app_nil_r.
    split; [reflexivity|]. split; [reflexivity|]. split; [constructor | split; reflexivity].
Qed.

Lemma AInv_newgen a g es extra :
  AInv a -> a_gens a <> [] -> cp_of g = lens a -> Forall (fun x => forall v, x <> EMutable v) es ->
  (extra = [] /\ ag_root g = None
   \/ exists n', extra = [n'] /\ ag_root g = Some (length (a_nodes a)) /\ an_gen n' = S (gnum a)
                 /\ an_cgen n' <= gnum a /\ forall e, an_val n' = Some e -> length (a_entries a) <= e) ->
  AInv (mkA (a_gens a ++ [g]) (a_entries a ++ es) (a_values a) (a_nodes a ++ extra)).
Proof.
  intros H Hne Hcp He Hx. set (a' := mkA (a_gens a ++ [g]) (a_entries a ++ es) (a_values a) (a_nodes a ++ extra)).
  unfold cp_of, lens in Hcp. injection Hcp as Cn Cv Ce.
  assert (C : cur_checkpoint a' = cp_of g) by apply cur_checkpoint_last.
  assert (G : gnum a' = S (gnum a)).
  { unfold gnum, a'. cbn [a_gens]. rewrite app_length. cbn. destruct (a_gens a); [congruence | cbn; lia]. }
  assert (C1 : cpn a' = length (a_nodes a)) by (unfold cpn; rewrite C; exact Cn).
  assert (C2 : cpv a' = length (a_values a)) by (unfold cpv; rewrite C; exact Cv).
  assert (C3 : cpe a' = length (a_entries a)) by (unfold cpe; rewrite C; exact Ce).
  apply AInv_intro; rewrite ?C1, ?C2, ?C3, ?G.
  - cbn [a' a_nodes a_values a_entries]. rewrite !app_length. lia.
  - intros i Hi. unfold node_at. change (a_nodes a') with (a_nodes a ++ extra). rewrite app_nth1 by exact Hi.
    pose proof (AI_le a H i). unfold node_at in *. lia.
  - intros i Hi. unfold node_at. change (a_nodes a') with (a_nodes a ++ extra).
    destruct Hx as [(-> & _)|(n' & -> & _ & Gn & Cg & Hv)].
    + rewrite app_nil_r, nth_overflow by exact Hi. apply NodeOK_default.
    + rewrite nth_app_single. destruct (Nat.eqb_spec i (length (a_nodes a))); [|rewrite nth_overflow by lia; apply NodeOK_default].
      unfold NodeOK. rewrite C1, C3, G. split; [intros _; exact Gn|]. split; [intros E; lia|]. split; [exact Hv | lia].
  - intros e v Hge E. exfalso. change (a_entries a') with (a_entries a ++ es) in E. rewrite app_nth2 in E by exact Hge.
    destruct (Nat.lt_ge_cases (e - length (a_entries a)) (length es)) as [Y|Y];
      [|rewrite nth_overflow in E by exact Y; discriminate].
    rewrite Forall_forall in He. exact (He _ (nth_In es EDeleted Y) v E).
  - intros r. unfold a'. rewrite cur_root_app.
    destruct Hx as [(_ & ->)|(n' & _ & -> & _)]; [discriminate | intros E; inversion E; lia].
Qed.

Theorem new_generation_inv a :
  AInv a -> a_gens a <> [] -> tag_ok a = true -> AInv (a_new_generation a).
Proof.
  intros H Hne Htag. destruct (new_generation_spec a Hne) as (g & es & extra & -> & Hcp & Hes & Hx).
  apply AInv_newgen; try assumption. unfold tag_ok in Htag. destruct (cur_root a) as [r|]; [|left; exact Hx].
  destruct Hx as (-> & Hr). apply Nat.eqb_eq in Htag. right. eexists. split; [reflexivity|]. split; [exact Hr|].
  cbn [copy_node an_gen an_cgen an_val]. split; [congruence|]. split; [apply (AI_le a H r)|].
  intros e E. destruct (an_val (node_at a r)); inversion E. lia.
Qed.

(** [c] is [b] plus exactly one newer generation whose checkpoint is the size of [b], and
    everything of [b] is still there. *)
Record Ext1 (b c : astate) : Prop := {
  E_gens : exists g, a_gens (as_arena c) = a_gens (as_arena b) ++ [g] /\ cp_of g = lens (as_arena b);
  E_nodes : firstn (length (a_nodes (as_arena b))) (a_nodes (as_arena c)) = a_nodes (as_arena b);
  E_values : firstn (length (a_values (as_arena b))) (a_values (as_arena c)) = a_values (as_arena b);
  E_entries : firstn (length (a_entries (as_arena b))) (a_entries (as_arena c)) = a_entries (as_arena b);
  E_handles : tl (as_handles c) = as_handles b
}.

Fixpoint Hist (c : astate) (saved : list astate) : Prop :=
  match saved with
  | [] => length (a_gens (as_arena c)) = 1
  | b :: rest => Ext1 b c /\ SInv b /\ Hist b rest
  end.

Lemma Ext1_below b c c' :
  Ext1 b c -> Below (as_arena c) (as_arena c') -> tl (as_handles c') = tl (as_handles c) -> Ext1 b c'.
Proof.
  intros [(g & Eg & Ecp) En Ev Ee Eh] B Htl.
  pose proof (checkpoint_of_gens _ _ _ Eg) as Cc.
  destruct B as [Bcp Bl Bo Bn Bv Be]. unfold cpn, cpv, cpe in Bn, Bv, Be. rewrite Cc, Ecp in Bn, Bv, Be.
  cbn [lens fst snd] in Bn, Bv, Be. constructor; try congruence.
  assert (Hne : a_gens (as_arena c') <> []).
  { intros X. rewrite X, Eg, app_length in Bl. cbn in Bl. lia. }
  assert (Eg' : a_gens (as_arena c') = a_gens (as_arena b) ++ [last (a_gens (as_arena c')) (mkAG None 0 0 0)]).
  { rewrite (app_removelast_last (mkAG None 0 0 0) Hne) at 1. rewrite Bo, Eg, removelast_last. reflexivity. }
  exists (last (a_gens (as_arena c')) (mkAG None 0 0 0)). split; [exact Eg'|].
  rewrite <- (checkpoint_of_gens _ _ _ Eg'), Bcp, Cc. exact Ecp.
Qed.

Lemma Hist_step o c saved :
  Hist c saved -> SInv c -> gen_op o = false -> Hist (fst (as_step o c)) saved.
Proof.
  intros HH HS Hg. destruct (as_step_cow o c HS Hg) as ((_ & B & _) & _ & Htl).
  destruct saved as [|b rest]; cbn [Hist] in *.
  - rewrite (B_glen _ _ B). exact HH.
  - destruct HH as (E & Sb & Hr). split; [|split; assumption]. eapply Ext1_below; eassumption.
Qed.

Lemma newgen_step c saved :
  Hist c saved -> SInv c -> tag_ok (as_arena c) = true ->
  Hist (fst (as_step ONewGen c)) (c :: saved) /\ SInv (fst (as_step ONewGen c)).
Proof.
  intros HH HS Htag. pose proof HS as (H & Hh & Hne & Hl). cbn [as_step fst].
  destruct (new_generation_appends (as_arena c) Hne) as (g & G & Cn & Cv & Ce & Pn & Pe & V).
  split.
  - cbn [Hist]. split; [|split; assumption]. constructor; cbn [as_arena as_handles tl]; try assumption; try reflexivity.
    + exists g. split; [exact G|]. unfold cp_of, lens. congruence.
    + rewrite V. apply firstn_all.
  - unfold SInv. cbn [as_arena as_handles cur_handles]. split; [apply new_generation_inv; assumption|].
    split; [constructor|]. split.
    + rewrite G. intros X. apply app_eq_nil in X as [_ X]. discriminate.
    + rewrite G, app_length. cbn. lia.
Qed.

Definition le3 (x y : nat * nat * nat) : Prop :=
  fst (fst x) <= fst (fst y) /\ snd (fst x) <= snd (fst y) /\ snd x <= snd y.

Lemma hist_len c saved : Hist c saved -> length (a_gens (as_arena c)) = S (length saved).
Proof.
  revert c. induction saved as [|b rest IH]; intros c H; cbn [Hist] in H; [exact H|].
  destruct H as ([(g & Eg & _) _ _ _ _] & _ & Hr). rewrite Eg, app_length, (IH b Hr). cbn. lia.
Qed.

Lemma firstn_eq_le {A} n (l l' : list A) : firstn n l = l' -> length l' = n -> n <= length l.
Proof. intros E L. rewrite <- E, firstn_length in L. lia. Qed.

Lemma Ext1_lens b c : Ext1 b c -> le3 (lens (as_arena b)) (lens (as_arena c)).
Proof.
  intros [_ En Ev Ee _]. unfold le3, lens. cbn [fst snd].
  split; [|split]; eapply firstn_eq_le; try eassumption; reflexivity.
Qed.

Lemma hist_cp_bound : forall saved c,
  Hist c saved -> SInv c ->
  forall j g', nth_error (a_gens (as_arena c)) j = Some g' -> le3 (cp_of g') (lens (as_arena c)).
Proof.
  induction saved as [|b rest IH]; intros c HH HS j g' Hj; cbn [Hist] in HH.
  - destruct (a_gens (as_arena c)) as [|g0 [|? ?]] eqn:Eg; try discriminate.
    destruct j as [|j]; [|destruct j; discriminate]. inversion Hj; subst g'.
    pose proof (checkpoint_of_gens (as_arena c) [] g0 Eg) as C.
    destruct HS as (H & _). pose proof (AI_len _ H) as (L1 & L2 & L3).
    unfold cpn, cpv, cpe in *. rewrite C in *. unfold le3, lens. cbn [fst snd] in *. auto.
  - destruct HH as (E & Sb & Hr). pose proof (Ext1_lens b c E) as (X1 & X2 & X3).
    destruct E as [(g & Eg & Ecp) _ _ _ _]. rewrite Eg in Hj.
    destruct (Nat.lt_ge_cases j (length (a_gens (as_arena b)))) as [Hlt|Hge].
    + rewrite nth_error_app1 in Hj by exact Hlt. destruct (IH b Hr Sb j g' Hj) as (Y1 & Y2 & Y3).
      unfold le3 in *. lia.
    + rewrite nth_error_app2 in Hj by exact Hge.
      destruct (j - length (a_gens (as_arena b))) as [|m]; [|destruct m; discriminate].
      inversion Hj; subst g'. rewrite Ecp. unfold le3. auto.
Qed.

Lemma firstn_prefix {A} k n (l l' : list A) : firstn n l = l' -> k <= n -> firstn k l = firstn k l'.
Proof. intros E Hk. rewrite <- E, firstn_firstn. f_equal. lia. Qed.

Lemma normalize_ext b c rest r :
  Ext1 b c -> SInv b -> Hist b rest -> length (as_handles c) = length (a_gens (as_arena c)) ->
  S r <= length (a_gens (as_arena b)) ->
  fst (as_step (ONormalize r) c) =
  if Nat.eqb (S r) (length (a_gens (as_arena b))) then b else fst (as_step (ONormalize r) b).
Proof.
  intros E Sb Hb Hlc Hr. pose proof Sb as (Hbi & _ & Hbne & Hbl).
  pose proof E as [(g & Eg & Ecp) En Ev Ee Eh].
  cbn [as_step fst].
  assert (Hh : normalize r (as_handles c) = normalize r (as_handles b)).
  { destruct (as_handles c) as [|h hc] eqn:Ehc; [rewrite Eg, app_length in Hlc; cbn in Hlc; lia|].
    cbn [tl] in Eh. subst hc. unfold normalize. cbn [length].
    replace (S (length (as_handles b)) - S r) with (S (length (as_handles b) - S r)) by lia. reflexivity. }
  destruct (Nat.eqb_spec (S r) (length (a_gens (as_arena b)))) as [Er|Er].
  - assert (Ea : a_normalize r (as_arena c) = as_arena b).
    { replace r with (length (a_gens (as_arena b)) - 1) by lia.
      inversion Ecp. apply (normalize_restores_prefix (as_arena b) (as_arena c) g []); auto. }
    rewrite Ea, Hh. unfold normalize. rewrite Hbl. replace (length (a_gens (as_arena b)) - S r) with 0 by lia.
    cbn [skipn]. destruct b; reflexivity.
  - assert (Hlt : S r < length (a_gens (as_arena b))) by lia.
    destruct (nth_error (a_gens (as_arena b)) (S r)) as [g'|] eqn:Eg'; [|apply nth_error_None in Eg'; lia].
    destruct (hist_cp_bound rest b Hb Sb (S r) g' Eg') as (Y1 & Y2 & Y3). unfold cp_of, lens in *. cbn [fst snd] in *.
    assert (Ea : a_normalize r (as_arena c) = a_normalize r (as_arena b)).
    { unfold a_normalize. rewrite Eg, nth_error_app1 by exact Hlt. rewrite Eg'.
      rewrite firstn_app_le by lia.
      rewrite (firstn_prefix _ _ _ _ Ee Y3), (firstn_prefix _ _ _ _ Ev Y2), (firstn_prefix _ _ _ _ En Y1). reflexivity. }
    rewrite Ea, Hh. reflexivity.
Qed.

Lemma normalize_hist : forall saved c r,
  Hist c saved -> SInv c -> S r < length (a_gens (as_arena c)) ->
  exists b, nth_error saved (length (a_gens (as_arena c)) - S r - 1) = Some b
    /\ fst (as_step (ONormalize r) c) = b
    /\ Hist b (skipn (S (length (a_gens (as_arena c)) - S r - 1)) saved) /\ SInv b.
Proof.
  induction saved as [|b rest IH]; intros c r HH HS Hr.
  - cbn [Hist] in HH. lia.
  - pose proof (hist_len c (b :: rest) HH) as Lc. cbn [Hist] in HH. destruct HH as (E & Sb & Hb).
    pose proof (hist_len b rest Hb) as Lb. cbn [length] in Lc.
    pose proof HS as (_ & _ & _ & Hlc).
    rewrite (normalize_ext b c rest r E Sb Hb Hlc ltac:(lia)).
    destruct (Nat.eqb_spec (S r) (length (a_gens (as_arena b)))) as [Er|Er].
    + exists b. replace (length (a_gens (as_arena c)) - S r - 1) with 0 by lia.
      cbn [nth_error skipn]. auto.
    + destruct (IH b r Hb Sb ltac:(lia)) as (b' & Hn & Hs & Hh & Sb').
      exists b'. replace (length (a_gens (as_arena c)) - S r - 1) with (S (length (a_gens (as_arena b)) - S r - 1)) by lia.
      cbn [nth_error skipn]. auto.
Qed.

Lemma normalize_noop c r :
  length (as_handles c) = length (a_gens (as_arena c)) ->
  length (a_gens (as_arena c)) <= S r -> fst (as_step (ONormalize r) c) = c.
Proof.
  intros Hl Hr. cbn [as_step fst]. unfold a_normalize, normalize.
  rewrite (proj2 (nth_error_None _ _)) by lia. rewrite firstn_all2 by lia.
  replace (length (as_handles c) - S r) with 0 by lia. cbn [skipn]. destruct c as [[? ? ? ?] ?]. reflexivity.
Qed.

Lemma Hist_any_step o c saved :
  Hist c saved -> SInv c -> (o = ONewGen -> tag_ok (as_arena c) = true) ->
  SInv (fst (as_step o c)) /\
  match o with
  | ONewGen => Hist (fst (as_step o c)) (c :: saved)
  | ONormalize r =>
      fst (as_step o c) = c
      \/ exists k, length (a_gens (as_arena c)) = S r + S k /\ nth_error saved k = Some (fst (as_step o c))
                   /\ Hist (fst (as_step o c)) (skipn (S k) saved)
  | _ => Hist (fst (as_step o c)) saved
  end.
Proof.
  intros HH HS Htag. destruct (gen_op o) eqn:Hg.
  - destruct o; try discriminate Hg.
    + destruct (newgen_step c saved HH HS (Htag eq_refl)) as (H1 & S1). split; assumption.
    + pose proof HS as (_ & _ & _ & Hlc).
      destruct (Nat.le_gt_cases (length (a_gens (as_arena c))) (S r)) as [Hle|Hgt].
      * rewrite (normalize_noop c r Hlc Hle). split; [exact HS | left; reflexivity].
      * destruct (normalize_hist _ c r HH HS Hgt) as (b & Hn & Hs & Hh & Sb). rewrite Hs.
        split; [exact Sb|]. right. exists (length (a_gens (as_arena c)) - S r - 1). split; [lia|]. split; assumption.
  - split; [apply (proj1 (proj2 (as_step_cow o c HS Hg)))|]. pose proof (Hist_step o c saved HH HS Hg) as X.
    destruct o; try discriminate Hg; exact X.
Qed.

(** Run a history; at every [new_generation] the generation tag of the root must be the
    number of the current generation (a run-time check; that it never fails is
    [ArenaTree.as_exec_run], from the tree invariant). *)
Fixpoint as_exec (ops : list op) (s : astate) : option astate :=
  match ops with
  | [] => Some s
  | o :: r =>
      if (match o with ONewGen => tag_ok (as_arena s) | _ => true end)
      then as_exec r (fst (as_step o s)) else None
  end.

Lemma as_exec_app a b s :
  as_exec (a ++ b) s = match as_exec a s with Some s' => as_exec b s' | None => None end.
Proof.
  revert s. induction a as [|o a IH]; intros s; cbn [app as_exec]; [reflexivity|].
  destruct (match o with ONewGen => tag_ok (as_arena s) | _ => true end); [apply IH | reflexivity].
Qed.

Lemma exec_keeps base saved : forall ops c sv c',
  Hist base saved ->
  Hist c (sv ++ base :: saved) -> SInv c ->
  Forall (keeps (length (a_gens (as_arena base)))) ops ->
  as_exec ops c = Some c' ->
  exists sv', Hist c' (sv' ++ base :: saved) /\ SInv c'.
Proof.
  intros ops c sv c' Hbase. revert c sv. induction ops as [|o ops IH]; intros c sv HH HS Hk Hex; cbn [as_exec] in Hex.
  - inversion Hex; subst. eauto.
  - inversion Hk as [|? ? Ho Hk']; subst.
    destruct (match o with ONewGen => tag_ok (as_arena c) | _ => true end) eqn:Et; [|discriminate].
    destruct (Hist_any_step o c _ HH HS) as (S1 & X); [intros ->; exact Et|].
    destruct o; try exact (IH _ sv X S1 Hk' Hex).
    + exact (IH _ (c :: sv) X S1 Hk' Hex).
    + destruct X as [E|(k & Lk & Hn & Hh)]; [rewrite E in Hex; exact (IH c sv HH HS Hk' Hex)|].
      (* [r] is at least the generation of [base]: the cut stays inside [sv] *)
      pose proof (hist_len base saved Hbase) as Ln. pose proof (hist_len c _ HH) as Lc.
      rewrite app_length in Lc. cbn [length keeps] in *.
      rewrite skipn_app in Hh. replace (S k - length sv) with 0 in Hh by lia. cbn [skipn] in Hh.
      exact (IH _ (skipn (S k) sv) Hh S1 Hk' Hex).
Qed.

Lemma firstn_len_trans {A} (l1 l2 l3 : list A) :
  firstn (length l1) l2 = l1 -> firstn (length l2) l3 = l2 -> firstn (length l1) l3 = l1.
Proof. intros E1 E2. rewrite (firstn_prefix _ _ _ _ E2 (firstn_eq_le _ _ _ E1 eq_refl)). exact E1. Qed.

Lemma hist_prefix base saved : forall sv c,
  Hist c (sv ++ base :: saved) ->
  firstn (length (a_nodes (as_arena base))) (a_nodes (as_arena c)) = a_nodes (as_arena base)
  /\ firstn (length (a_values (as_arena base))) (a_values (as_arena c)) = a_values (as_arena base)
  /\ firstn (length (a_entries (as_arena base))) (a_entries (as_arena c)) = a_entries (as_arena base)
  /\ firstn (length (a_gens (as_arena base))) (a_gens (as_arena c)) = a_gens (as_arena base).
Proof.
  induction sv as [|b sv IH]; intros c HH; cbn [app Hist] in HH.
  - destruct HH as ([(g & Eg & _) En Ev Ee _] & _ & _). repeat split; try assumption.
    rewrite Eg. apply firstn_app_len.
  - destruct HH as ([(g & Eg & _) En Ev Ee _] & _ & Hb). destruct (IH b Hb) as (P1 & P2 & P3 & P4).
    repeat split; try (eapply firstn_len_trans; eassumption).
    rewrite Eg, firstn_app_le by (apply (firstn_eq_le _ _ _ P4 eq_refl)). exact P4.
Qed.

Lemma exec_newgen_keeps base saved ops c :
  Hist base saved -> SInv base ->
  Forall (keeps (length (a_gens (as_arena base)))) ops ->
  as_exec (ONewGen :: ops) base = Some c ->
  exists sv, Hist c (sv ++ base :: saved) /\ SInv c.
Proof.
  intros Hb Sb Hk Hex. cbn [as_exec] in Hex. destruct (tag_ok (as_arena base)) eqn:Et; [|discriminate].
  destruct (newgen_step base saved Hb Sb Et) as (H1 & S1).
  exact (exec_keeps base saved ops _ [] c Hb H1 S1 Hk Hex).
Qed.

Theorem arena_no_leak_hist base saved ops c :
  Hist base saved -> SInv base ->
  Forall (keeps (length (a_gens (as_arena base)))) ops ->
  as_exec (ONewGen :: ops) base = Some c ->
  firstn (length (a_nodes (as_arena base))) (a_nodes (as_arena c)) = a_nodes (as_arena base)
  /\ firstn (length (a_values (as_arena base))) (a_values (as_arena c)) = a_values (as_arena base)
  /\ firstn (length (a_entries (as_arena base))) (a_entries (as_arena c)) = a_entries (as_arena base)
  /\ firstn (length (a_gens (as_arena base))) (a_gens (as_arena c)) = a_gens (as_arena base).
Proof.
  intros Hb Sb Hk Hex. destruct (exec_newgen_keeps base saved ops c Hb Sb Hk Hex) as (sv' & H2 & _).
  exact (hist_prefix base saved sv' c H2).
Qed.

Theorem arena_rollback_hist base saved ops c :
  Hist base saved -> SInv base ->
  Forall (keeps (length (a_gens (as_arena base)))) ops ->
  as_exec (ONewGen :: ops ++ [ONormalize (length (a_gens (as_arena base)) - 1)]) base = Some c ->
  c = base.
Proof.
  intros Hb Sb Hk Hex. rewrite app_comm_cons, as_exec_app in Hex.
  destruct (as_exec (ONewGen :: ops) base) as [c1|] eqn:E1; [|discriminate].
  destruct (exec_newgen_keeps base saved ops c1 Hb Sb Hk E1) as (sv' & H2 & S2).
  cbn [as_exec] in Hex. inversion Hex as [Hc]. clear Hex.
  pose proof (hist_len base saved Hb) as Ln.
  pose proof (hist_len c1 _ H2) as Lc. rewrite app_length in Lc. cbn [length] in Lc.
  destruct (normalize_hist _ c1 (length (a_gens (as_arena base)) - 1) H2 S2 ltac:(lia)) as (b & Hn & Hs & _).
  subst c. change (fst (as_step (ONormalize (length (a_gens (as_arena base)) - 1)) c1) = base). rewrite Hs.
  replace (length (a_gens (as_arena c1)) - S (length (a_gens (as_arena base)) - 1) - 1) with (length sv') in Hn by lia.
  rewrite nth_error_app2, Nat.sub_diag in Hn by lia. cbn in Hn. congruence.
Qed.

Lemma SInv_init : SInv as_init.
Proof.
  unfold SInv, as_init. cbn [as_arena as_handles cur_handles]. split; [|split; [constructor | split; [discriminate | reflexivity]]].
  assert (C1 : cpn a_empty = 0) by reflexivity. assert (C2 : cpv a_empty = 0) by reflexivity.
  assert (C3 : cpe a_empty = 0) by reflexivity.
  apply AInv_intro; rewrite ?C1, ?C2, ?C3.
  - cbn. lia.
  - intros i Hi. lia.
  - intros i _. unfold node_at. cbn [a_empty a_nodes]. destruct i; apply NodeOK_default.
  - intros e v _ Hnth. cbn [a_empty a_entries] in Hnth. destruct e; discriminate.
  - intros r Hr. discriminate.
Qed.

Lemma Hist_init : Hist as_init [].
Proof. reflexivity. Qed.

Lemma exec_inv : forall ops c saved c',
  Hist c saved -> SInv c -> as_exec ops c = Some c' -> exists saved', Hist c' saved' /\ SInv c'.
Proof.
  induction ops as [|o ops IH]; intros c saved c' HH HS Hex; cbn [as_exec] in Hex.
  - inversion Hex; subst. eauto.
  - destruct (match o with ONewGen => tag_ok (as_arena c) | _ => true end) eqn:Et; [|discriminate].
    destruct (Hist_any_step o c _ HH HS) as (S1 & X); [intros ->; exact Et|].
    destruct o; try apply (IH _ _ c' X S1 Hex).
    destruct X as [E|(k & _ & _ & Hh)]; [rewrite E in *; apply (IH c saved c' HH HS Hex) | apply (IH _ _ c' Hh S1 Hex)].
Qed.

Definition ReachP (P : arena -> Prop) (s : astate) : Prop :=
  SInv s /\ P (as_arena s)
  /\ exists saved, Hist s saved /\ Forall (fun b => P (as_arena b)) saved.

Lemma ReachP_step (P : arena -> Prop) o s :
  (P (as_arena s) -> tag_ok (as_arena s) = true) ->
  (SInv s -> P (as_arena s) -> (forall r, o <> ONormalize r) -> P (as_arena (fst (as_step o s)))) ->
  ReachP P s -> ReachP P (fst (as_step o s)).
Proof.
  intros Htag Hstep (HS & HP & saved & HH & FP).
  destruct (Hist_any_step o s saved HH HS (fun _ => Htag HP)) as (S1 & X). split; [exact S1|].
  destruct o; try (split; [apply Hstep; [assumption | assumption | discriminate] | exists saved; split; assumption]).
  - split; [apply Hstep; [assumption | assumption | discriminate]|].
    exists (s :: saved). split; [exact X | constructor; assumption].
  - destruct X as [E|(k & _ & Hn & Hh)].
    + rewrite E. split; [exact HP | exists saved; split; assumption].
    + split; [rewrite Forall_forall in FP; apply FP; eapply nth_error_In; exact Hn|].
      eexists. split; [exact Hh | apply Forall_skipn'; exact FP].
Qed.

Theorem reachable_inv ops s :
  as_exec ops as_init = Some s -> SInv s /\ exists saved, Hist s saved.
Proof.
  intros H. destruct (exec_inv ops as_init [] s Hist_init SInv_init H) as (sv & H1 & H2). eauto.
Qed.
