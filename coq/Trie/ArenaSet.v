(** [set] / [get_mut] on an entry of the current tree change the value denoted by that entry and
    nothing else in the view, and keep [Sep].  PARTIAL: the handles of the arena machine are not
    tied to the tree; that a handle of the current generation is never renamed by a later
    [make_owned] needs the generation invariants of [ArenaCow.v] and is not proved. *)
From Coq Require Import NArith PeanoNat List Bool Lia Permutation.
From CB Require Import Trie.Radix.
From CB Require Import Trie.Arena.
From CB Require Import Trie.ArenaCow.
From CB Require Import Trie.ArenaView.
From CB Require Import Trie.ArenaSep.
From CB Require Import Trie.ArenaInsert.
Import ListNotations.
Local Open Scope nat_scope.

Lemma a_set_eq a e v :
  e < length (a_entries a) ->
  a_set a e v = match edat a e with EDeleted => (a, false) | _ => (a_set_entry_value a e v, true) end.
Proof.
  intros H. unfold a_set, a_set_entry_value, edat. destruct (nth_error (a_entries a) e) as [x|] eqn:E.
  - rewrite (nth_error_nth _ _ EDeleted E). destruct x; reflexivity.
  - apply nth_error_None in E. lia.
Qed.

Lemma a_mut_eq a e v :
  e < length (a_entries a) ->
  (forall i, eptr (edat a e) = Some i -> i < length (a_values a)) ->
  fst (a_mut a e v) = fst (a_set a e v) /\ snd (a_mut a e v) = a_with_entry a e.
Proof.
  intros H Hv. rewrite with_entry_edat. unfold a_mut, a_set, edat in *.
  destruct (nth_error (a_entries a) e) as [x|] eqn:E; [|apply nth_error_None in E; lia].
  rewrite (nth_error_nth _ _ EDeleted E) in *. destruct x as [i|i|]; cbn [fst snd eptr]; split; try reflexivity;
    symmetry; apply List.nth_error_nth'; apply Hv; reflexivity.
Qed.

Lemma Tr_fun a r t fp t' fp' : Tr a r t fp -> Tr a r t' fp' -> t = t'.
Proof.
  intros H H'. rewrite <- (Tr_abs a t r fp (Nat.max (theight t) (theight t')) H) by lia.
  apply (Tr_abs a t' r fp' _ H'). lia.
Qed.

Theorem set_refines_partial a e v r t fp :
  Sep a -> cur_root a = Some r -> Tr a r t fp -> In e (tentries t) ->
  let a' := fst (a_set a e v) in
  let alive := snd (a_set a e v) in
  Sep a' /\ cur_root a' = Some r /\ Tr a' r t fp
  /\ alive = is_some (a_with_entry a e)
  /\ tmap (a_with_entry a') t = tmap (fun x => if Nat.eqb x e && alive then Some v else a_with_entry a x) t
  /\ fst (a_mut a e v) = a' /\ snd (a_mut a e v) = a_with_entry a e.
Proof.
  intros (Hne & HS) Er HT Hin. rewrite Er in HS. destruct HS as (t0 & fp0 & HT0 & Hnd & Hb & Hwf & HE).
  pose proof (Tr_fun a r t fp t0 fp0 HT HT0) as <-.
  destruct (in_split _ _ Hin) as (l1 & l2 & El).
  assert (P : Permutation (tentries t) (e :: l1 ++ l2)) by (rewrite El; symmetry; apply Permutation_middle).
  pose proof (ESep_perm a _ _ P HE) as HE1. pose proof HE1 as (_ & HB & HV & _).
  pose proof (Forall_inv HB) as He. cbn beta in He.
  assert (Hvb : forall i, eptr (edat a e) = Some i -> i < length (a_values a)) by (intros i; apply HV; left; reflexivity).
  destruct (a_mut_eq a e v He Hvb) as (M1 & M2). cbn zeta. rewrite M1, M2, (a_set_eq a e v He).
  destruct (sev_spec a e v (l1 ++ l2) HE1) as ((S' & W0 & Wr) & En & Eg & _).
  assert (Alive : forall x, edat a e = x -> x <> EDeleted -> a_with_entry a e <> None).
  { intros x Ex Hx. rewrite with_entry_edat, Ex. destruct x as [i|i|]; [| |congruence]; cbn [eptr];
      intros X; apply nth_error_None in X; specialize (Hvb i); rewrite Ex in Hvb; specialize (Hvb eq_refl); lia. }
  assert (Live : edat a e <> EDeleted ->
            let a' := a_set_entry_value a e v in
            Sep a' /\ cur_root a' = Some r /\ Tr a' r t fp /\ true = is_some (a_with_entry a e)
            /\ tmap (a_with_entry a') t = tmap (fun x => if Nat.eqb x e && true then Some v else a_with_entry a x) t).
  { intros Hd. cbn zeta. set (a' := a_set_entry_value a e v) in *.
    assert (Nd : forall j, node_at a' j = node_at a j) by (intros j; apply node_at_same_nodes; exact En).
    assert (Er' : cur_root a' = Some r) by (rewrite (cur_root_same_gens a a' Eg); exact Er).
    split. { split; [rewrite Eg; exact Hne|]. rewrite Er'. exists t, fp0. split; [apply (Tr_frame a a'); [exact HT0 | intros; apply Nd]|].
             split; [exact Hnd|]. split; [rewrite En; exact Hb|]. split; [exact Hwf|].
             apply (ESep_perm a' _ _ (Permutation_sym P)). exact S'. }
    split; [exact Er'|]. split; [apply (Tr_frame a a'); [exact HT | intros; apply Nd]|].
    split. { destruct (a_with_entry a e) eqn:Q; [reflexivity|]. exfalso. exact (Alive _ eq_refl Hd eq_refl). }
    apply (proj1 (tmap_ext_mut _ _)). intros x Hx. rewrite andb_true_r. destruct (Nat.eqb_spec x e) as [->|Hn]; [exact W0|].
    apply Wr. apply (Permutation_in _ P) in Hx. destruct Hx as [->|Hx]; [congruence | exact Hx]. }
  destruct (edat a e) as [i|i|] eqn:Ed; cbn [fst snd].
  1, 2: destruct (Live ltac:(discriminate)) as (L1 & L2 & L3 & L4 & L5); auto 10.
  split. { split; [exact Hne|]. rewrite Er. exists t, fp0. auto. }
  split; [exact Er|]. split; [exact HT|].
  split; [rewrite with_entry_edat, Ed; reflexivity|].
  split; [|auto]. apply (proj1 (tmap_ext_mut _ _)). intros x _. rewrite andb_false_r. reflexivity.
Qed.

(** Non-vacuity: set on the entry returned by an insert. *)
Example set_example :
  let a := fst (fst (ar_insert (fst (fst (ar_insert a_empty [18%N] [1%N]))) [19%N] [2%N])) in
  exists r, cur_root a = Some r
    /\ abs_t 3 a r = Node [1%N] None (FCons 2%N (Node [] (Some 0) FNil) (FCons 3%N (Node [] (Some 1) FNil) FNil))
    /\ a_set a 1 [7%N] = (fst (a_set a 1 [7%N]), true)
    /\ vview 3 (fst (a_set a 1 [7%N])) r
       = Node [1%N] None (FCons 2%N (Node [] (Some (Some [1%N])) FNil) (FCons 3%N (Node [] (Some (Some [7%N])) FNil) FNil)).
Proof. eexists. vm_compute. repeat split. Qed.
