(** The abstraction function from the arena to radix trees ([abs_t d a idx]: entry indices below
    node [idx] to depth [d]; [vview]: entries resolved to values) and the copying lookup against
    [Radix.lookup].  Delete and delete_prefix are not proved (design/C03.md); rollback is in ArenaNewGen.v. *)

From Coq Require Import NArith PeanoNat List Lia.
From CB Require Import Trie.Radix.
From CB Require Import Trie.RadixProofs.
From CB Require Import Trie.Locks.
From CB Require Import Trie.Arena.
From CB Require Import Trie.ArenaProofs.
From CB Require Import Trie.ArenaCow.
From CB Require Import Trie.ArenaTree.
Import ListNotations.
Local Open Scope nat_scope.

Fixpoint mk_forest {V : Type} (f : nat -> tree V) (ch : list (N * nat)) : forest V :=
  match ch with
  | [] => FNil
  | (c, i) :: r => FCons c (f i) (mk_forest f r)
  end.

Fixpoint abs_t (d : nat) (a : arena) (idx : nat) : tree nat :=
  match d with
  | O => Node [] None FNil
  | S d' => let n := node_at a idx in
            Node (an_path n) (an_val n) (mk_forest (abs_t d' a) (an_ch n))
  end.

Definition abs_root (d : nat) (a : arena) : option (tree nat) :=
  match cur_root a with Some r => Some (abs_t d a r) | None => None end.

Definition vview (d : nat) (a : arena) (idx : nat) : tree (option value) :=
  tmap (a_with_entry a) (abs_t d a idx).

Lemma tmap_node {A B} (g : A -> B) p ov cs : tmap g (Node p ov cs) = Node p (option_map g ov) (tmap_f g cs).
Proof. reflexivity. Qed.
Lemma tmap_f_cons {A B} (g : A -> B) c t r : tmap_f g (FCons c t r) = FCons c (tmap g t) (tmap_f g r).
Proof. reflexivity. Qed.

Lemma tmap_mk_forest {A B} (g : A -> B) f ch :
  tmap_f g (mk_forest f ch) = mk_forest (fun i => tmap g (f i)) ch.
Proof.
  induction ch as [|[c i] r IH]; [reflexivity|]. cbn [mk_forest]. rewrite tmap_f_cons, IH. reflexivity.
Qed.

Lemma vview_0 a idx : vview 0 a idx = Node [] None FNil.
Proof. reflexivity. Qed.

Lemma vview_S d a idx :
  vview (S d) a idx =
  Node (an_path (node_at a idx)) (option_map (a_with_entry a) (an_val (node_at a idx)))
       (mk_forest (vview d a) (an_ch (node_at a idx))).
Proof. unfold vview. cbn [abs_t]. rewrite tmap_node, tmap_mk_forest. reflexivity. Qed.

Lemma mk_forest_ext {V} (f g : nat -> tree V) ch :
  (forall i, In i (map snd ch) -> f i = g i) -> mk_forest f ch = mk_forest g ch.
Proof.
  induction ch as [|[c i] r IH]; intros H; [reflexivity|]. cbn [mk_forest].
  rewrite (H i) by (left; reflexivity). rewrite IH; [reflexivity|]. intros j Hj. apply H. right. exact Hj.
Qed.

Lemma lookup_node' {V} k p (ov : option V) cs :
  lookup k (Node p ov cs) =
  match follow_stem k p with
  | FEqual => ov
  | FStemIsPrefix c k' => lookup_f c k' cs
  | _ => None
  end.
Proof. reflexivity. Qed.

Lemma lookup_mk_forest {V} (f : nat -> tree V) c k ch pos :
  lookup_f c k (mk_forest f ch) =
  match find_child c ch pos with Some (_, i) => lookup k (f i) | None => None end.
Proof.
  revert pos. induction ch as [|[c' i] r IH]; intros pos; [reflexivity|].
  cbn [mk_forest find_child]. rewrite lookup_f_cons. destruct (c =? c')%N; [reflexivity | apply IH].
Qed.

Definition EInv (a : arena) : Prop :=
  forall j e, an_val (node_at a j) = Some e -> e < length (a_entries a).

Lemma with_entry_app a a' es e :
  a_entries a' = a_entries a ++ es -> a_values a' = a_values a -> e < length (a_entries a) ->
  a_with_entry a' e = a_with_entry a e.
Proof.
  intros E V He. unfold a_with_entry. rewrite E, V, nth_error_app1 by exact He. reflexivity.
Qed.

Lemma with_entry_val a a' es ov :
  a_entries a' = a_entries a ++ es -> a_values a' = a_values a ->
  (forall e, ov = Some e -> e < length (a_entries a)) ->
  option_map (a_with_entry a') ov = option_map (a_with_entry a) ov.
Proof.
  intros E V H. destruct ov as [e|]; [|reflexivity]. cbn [option_map]. f_equal.
  eapply with_entry_app; eauto.
Qed.

Lemma with_entry_ro a a' e e' :
  a_values a' = a_values a -> nth_error (a_entries a') e' = Some (ro_entry a e) ->
  a_with_entry a' e' = a_with_entry a e.
Proof.
  intros V Hx. unfold a_with_entry. rewrite Hx, V. unfold ro_entry.
  destruct (nth_error (a_entries a) e) as [y|] eqn:En.
  - rewrite (nth_error_nth _ _ EDeleted En). destruct y; reflexivity.
  - apply nth_error_None in En. rewrite nth_overflow by exact En. reflexivity.
Qed.

Lemma migrate_view a n g :
  let '(a', n') := migrate a n g in
  a_values a' = a_values a /\ (exists es, a_entries a' = a_entries a ++ es)
  /\ a_nodes a' = a_nodes a
  /\ an_path n' = an_path n /\ an_ch n' = an_ch n
  /\ option_map (a_with_entry a') (an_val n') = option_map (a_with_entry a) (an_val n)
  /\ (forall e, an_val n' = Some e -> e < length (a_entries a')).
Proof.
  rewrite migrate_eq. unfold copy_node. cbn [an_path an_ch an_val]. destruct (an_val n) as [e|].
  - cbn [push_entry a_values a_entries a_nodes option_map].
    split; [reflexivity|]. split; [eexists; reflexivity|]. split; [reflexivity|].
    split; [reflexivity|]. split; [reflexivity|]. split.
    + f_equal. apply with_entry_ro; [reflexivity|]. apply nth_error_app_len.
    + intros e' E. inversion E. rewrite app_length. cbn. lia.
  - split; [reflexivity|]. split; [exists []; rewrite app_nil_r; reflexivity|].
    repeat split; try reflexivity. intros e' E. discriminate.
Qed.

Lemma mk_forest_renumber {V} (f g : nat -> tree V) : forall ch next,
  (forall p kc, nth_error ch p = Some kc -> f (next + p) = g (snd kc)) ->
  mk_forest f (renumber next ch) = mk_forest g ch.
Proof.
  unfold renumber. induction ch as [|[k i] ch IH]; intros next Hf; [reflexivity|].
  cbn [map fst length seq combine mk_forest].
  pose proof (Hf 0 (k, i) eq_refl) as F0. rewrite Nat.add_0_r in F0. rewrite F0. f_equal. apply IH.
  intros p kc Hp. rewrite <- (Hf (S p) kc Hp). f_equal. lia.
Qed.

Lemma make_owned_einv a idx : EInv a -> EInv (make_owned a idx).
Proof.
  intros HE. destruct (Nat.eq_dec (an_cgen (node_at a idx)) (an_gen (node_at a idx))) as [E|E].
  { rewrite make_owned_unshared by exact E. exact HE. }
  destruct (make_owned_spec a idx E) as (_ & es & _ & _ & Ee & _ & _ & Nidx & Nold & _).
  set (L := length (a_nodes a)) in *.
  intros j e Hv. destruct (Nat.eq_dec j idx) as [->|Hne].
  - rewrite Nidx in Hv. cbn [an_val] in Hv. pose proof (HE idx e Hv). rewrite Ee, app_length. lia.
  - destruct (Nat.lt_ge_cases j L) as [Hj|Hj].
    + rewrite (Nold j Hj Hne) in Hv. pose proof (HE j e Hv). rewrite Ee, app_length. lia.
    + pose proof (make_owned_copy a idx (j - L) E) as C. cbv zeta in C. fold L in C.
      replace (L + (j - L)) with j in C by lia.
      destruct (nth_error (an_ch (node_at a idx)) (j - L)) as [[k i]|].
      * destruct C as (lo & Hn & Hx). rewrite Hn in Hv. unfold copy_node in Hv. cbn [an_val] in Hv.
        destruct (an_val (node_at a i)) as [e0|]; [|discriminate]. inversion Hv; subst e.
        destruct (Hx e0 eq_refl) as (_ & x & Hnx & _). apply nth_error_Some. congruence.
      * rewrite C in Hv. discriminate.
Qed.

Theorem make_owned_view a idx :
  AInv a -> TInv a -> EInv a -> cpn a <= idx -> idx < length (a_nodes a) ->
  (forall d j, j < length (a_nodes a) -> vview d (make_owned a idx) j = vview d a j)
  /\ (forall e, e < length (a_entries a) -> a_with_entry (make_owned a idx) e = a_with_entry a e)
  /\ EInv (make_owned a idx).
Proof.
  intros H T HE _ Hlt.
  destruct (Nat.eq_dec (an_cgen (node_at a idx)) (an_gen (node_at a idx))) as [E|E].
  { rewrite make_owned_unshared by exact E. auto. }
  destruct (make_owned_spec a idx E) as (_ & es & _ & V1 & E1 & _ & _ & Nidx & Nold & _).
  pose proof (fun q => make_owned_copy a idx q E) as Nnew. cbv zeta in Nnew.
  set (n := node_at a idx) in *. set (L := length (a_nodes a)) in *. set (A := make_owned a idx) in *.
  assert (Wold : forall e, e < length (a_entries a) -> a_with_entry A e = a_with_entry a e).
  { intros e He. eapply with_entry_app; eauto. }
  assert (Vold : forall j, option_map (a_with_entry A) (an_val (node_at a j)) = option_map (a_with_entry a) (an_val (node_at a j)))
    by (intros j; apply (with_entry_val a A es _ E1 V1 (HE j))).
  pose proof (fun j c => children_in_range a j c H T) as ChR. fold L in ChR.
  (* the view: old nodes and the copies, by induction on the depth *)
  assert (Main : forall d,
            (forall j, j < L -> vview d A j = vview d a j)
            /\ (forall p kc, nth_error (an_ch n) p = Some kc -> vview d A (L + p) = vview d a (snd kc))).
  { induction d as [|d (IH1 & IH2)]; [split; intros; rewrite !vview_0; reflexivity|]. split.
    - intros j Hj. rewrite !vview_S. destruct (Nat.eq_dec j idx) as [->|Hne].
      + rewrite Nidx. fold n. cbn [an_path an_val an_ch]. f_equal; [apply Vold|].
        apply mk_forest_renumber. exact IH2.
      + rewrite (Nold j Hj Hne). f_equal; [apply Vold|]. apply mk_forest_ext.
        intros c Hin. apply IH1. apply (ChR j c Hj Hin).
    - intros p [k i] Hp. specialize (Nnew p). rewrite Hp in Nnew. destruct Nnew as (lo & Hn & Hx).
      rewrite !vview_S, Hn. unfold copy_node. cbn [an_path an_val an_ch snd]. f_equal.
      + destruct (an_val (node_at a i)) as [e|] eqn:Ev; [|reflexivity]. cbn [option_map]. f_equal.
        destruct (Hx e eq_refl) as (_ & x & Hnx & (_ & Px)). rewrite (Px (HE i e Ev)) in Hnx.
        apply (with_entry_ro a A e lo V1 Hnx).
      + apply mk_forest_ext. intros gc Hin. apply IH1.
        assert (Hkc : i < L).
        { apply (ChR idx i Hlt). apply (in_map snd _ (k, i)). eapply nth_error_In. exact Hp. }
        apply (ChR i gc Hkc Hin). }
  split; [intros d j Hj; apply (proj1 (Main d)); exact Hj|]. split; [exact Wold|].
  apply make_owned_einv. exact HE.
Qed.

Theorem get_entry_view : forall fuel a idx k,
  AInv a -> TInv a -> EInv a -> cpn a <= idx -> idx < length (a_nodes a) ->
  let r := a_get_entry fuel a idx k in
  option_map (a_with_entry (fst r)) (snd r) = lookup k (vview fuel a idx)
  /\ (forall d j, j < length (a_nodes a) -> vview d (fst r) j = vview d a j)
  /\ (forall e, e < length (a_entries a) -> a_with_entry (fst r) e = a_with_entry a e)
  /\ length (a_nodes a) <= length (a_nodes (fst r)) /\ length (a_entries a) <= length (a_entries (fst r))
  /\ EInv (fst r).
Proof.
  induction fuel as [|fuel IH]; intros a idx k H T HE Hi Hlt; cbn [a_get_entry].
  - cbn [fst snd option_map]. rewrite vview_0, lookup_node'. destruct (follow_stem k []); auto 10.
  - rewrite vview_S, lookup_node'.
    destruct (follow_stem k (an_path (node_at a idx))) as [|s ps|c k'|cm kc kr sc sr]; cbn [fst snd option_map]; auto 10.
    destruct (make_owned_view a idx H T HE Hi Hlt) as (Vw & We & HE1).
    destruct (make_owned_ok a idx H Hi) as (O1 & _). destruct (make_owned_t a idx H T Hi) as (T1 & _).
    destruct (make_owned_shape a idx 0 (Nat.le_0_l _) (Nat.le_0_l _)) as (_ & _ & (es & Ee) & _ & Ln1).
    set (a1 := make_owned a idx) in *. destruct (Ok_cp _ _ O1) as (F1 & _).
    assert (Le1 : length (a_entries a) <= length (a_entries a1)) by (rewrite Ee, app_length; lia).
    (* the view of [idx] is the same in [a1]; read the children there *)
    pose proof (Vw (S fuel) idx Hlt) as V1. rewrite !vview_S in V1. injection V1 as _ _ Vf. rewrite <- Vf.
    rewrite (lookup_mk_forest _ c k' _ 0).
    destruct (find_child c (an_ch (node_at a1 idx)) 0) as [[pos i]|] eqn:F; cbn [fst snd option_map].
    + destruct (find_child_in _ _ _ _ _ F) as [kk Hin].
      pose proof (make_owned_children a idx (kk, i) H Hi Hin) as Hci. cbn [snd] in Hci.
      assert (Hi1 : i < length (a_nodes a1)).
      { apply (children_in_range a1 idx i (proj1 O1) T1 ltac:(lia)). apply (in_map snd _ _ Hin). }
      destruct (IH a1 i k' (proj1 O1) T1 HE1 ltac:(lia) Hi1) as (R1 & R2 & R3 & R4 & R5 & R6).
      split; [exact R1|]. split; [intros d j Hj; rewrite R2 by lia; apply Vw; exact Hj|].
      split; [intros e He; rewrite R3 by lia; apply We; exact He|]. split; [lia|]. split; [lia | exact R6].
    + auto 10.
Qed.

(** The partial refinement statement for lookup: on an arena satisfying the invariants, the
    lookup of the arena machine returns (the entry holding) exactly what [Radix.lookup]
    finds in the radix tree that the abstraction function assigns to the root; the view of
    every node and the value of every entry that existed before are unchanged by the
    copying it does on the way, and the invariants are kept. *)
Theorem arena_lookup_refines_radix_partial a key r :
  AInv a -> TInv a -> EInv a -> cur_root a = Some r ->
  let res := a_lookup_key a key in
  option_map (a_with_entry (fst res)) (snd res) = lookup (nib key) (vview (S (length (nib key))) a r)
  /\ (forall d j, j < length (a_nodes a) -> vview d (fst res) j = vview d a j)
  /\ (forall e, e < length (a_entries a) -> a_with_entry (fst res) e = a_with_entry a e)
  /\ EInv (fst res).
Proof.
  intros H T HE Er. unfold a_lookup_key. rewrite Er.
  assert (Hr : r < length (a_nodes a)) by (apply (T_g a T r); unfold rc, rroot; rewrite Er, Nat.eqb_refl; lia).
  destruct (get_entry_view (S (length (nib key))) a r (nib key) H T HE (AI_root a H r Er) Hr) as (R1 & R2 & R3 & _ & _ & R6).
  auto.
Qed.

(** Non-vacuity: the view of a concrete arena after a checkpoint, and a lookup through
    shared children. *)
Example view_example :
  let s := as_run [OInsert [18%N] [1%N]; OInsert [19%N] [2%N]; ONewGen] as_init in
  let a := as_arena s in
  exists r, cur_root a = Some r
    /\ lookup (nib [19%N]) (vview 3 a r) = Some (Some [2%N])
    /\ option_map (a_with_entry (fst (a_lookup_key a [19%N]))) (snd (a_lookup_key a [19%N])) = Some (Some [2%N])
    /\ length (a_nodes (fst (a_lookup_key a [19%N]))) = length (a_nodes a) + 2.
Proof. eexists. vm_compute. repeat split. Qed.
