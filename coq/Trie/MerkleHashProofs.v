(** Lemmas about [MerkleHash.v]: the hash is the fold of the preimage tree, for every
    hash function; stem packing is invertible on nibbles. *)
From Coq Require Import NArith List Bool Lia.
From CB Require Import Common.Codec.
From CB Require Import Trie.Radix.
From CB Require Import Trie.RadixProofs.
From CB Require Import Trie.MerkleHash.
Import ListNotations.
Local Open Scope N_scope.

Section Fold.
Variable sha256 : list N -> list N.

Lemma eval_pre_value v : eval sha256 (pre_value v) = hash_value sha256 v.
Proof. unfold pre_value, hash_value. cbn [eval flat_map]. rewrite app_nil_r. reflexivity. Qed.

Lemma eval_pre_value_part ov : flat_map (eval sha256) (pre_value_part ov) = value_part sha256 ov.
Proof.
  destruct ov as [v|]; cbn [pre_value_part flat_map value_part]; [|reflexivity].
  rewrite eval_pre_value, app_nil_r. reflexivity.
Qed.

Lemma eval_pre_mut :
  (forall t : tree value, eval sha256 (pre_node t) = hash_node sha256 t)
  /\ (forall f : forest value, flat_map (eval sha256) (pre_children f) = hash_children sha256 f).
Proof.
  apply tree_forest_ind.
  - intros p ov cs IH. cbn [pre_node eval hash_node].
    rewrite flat_map_app, eval_pre_value_part. cbn [flat_map eval]. rewrite IH, app_nil_r. reflexivity.
  - reflexivity.
  - intros c t IHt r IHr. cbn [pre_children flat_map hash_children eval]. rewrite IHt, IHr. reflexivity.
Qed.

Theorem eval_pre_node t : eval sha256 (pre_node t) = hash_node sha256 t.
Proof. apply eval_pre_mut. Qed.

Theorem eval_pre_root r : eval sha256 (pre_root r) = hash_root sha256 r.
Proof.
  destruct r as [t|]; cbn [pre_root hash_root]; [apply eval_pre_node|].
  cbn [eval flat_map]. rewrite app_nil_r. reflexivity.
Qed.

(** The documented construction, one unfolding step. *)
Theorem hash_node_unfold p ov cs :
  hash_node sha256 (Node p ov cs) =
  sha256 ((match ov with Some v => 1 :: sha256 (be64 (lenN v) ++ v) | None => [0] end)
          ++ le64 (lenN p) ++ pack p
          ++ sha256 (be16 (N.of_nat (flen cs)) ++ hash_children sha256 cs)).
Proof. reflexivity. Qed.

Theorem hash_children_unfold c t r :
  hash_children sha256 (FCons c t r) = c :: hash_node sha256 t ++ hash_children sha256 r.
Proof. reflexivity. Qed.

End Fold.

Definition nibbles_ok (ns : list N) : bool := forallb (fun x => x <? 16) ns.

Lemma unpack_pack_aux n : forall ns, (length ns <= n)%nat -> nibbles_ok ns = true -> unpack (length ns) (pack ns) = ns.
Proof.
  induction n as [|n IH]; intros ns Hlen Hok.
  - destruct ns; [reflexivity | cbn in Hlen; lia].
  - destruct ns as [|h [|l r]]; [reflexivity | |].
    + cbn in Hok. rewrite andb_true_r in Hok. apply N.ltb_lt in Hok.
      cbn [length pack unpack]. f_equal.
      rewrite N.mul_comm, N.div_mul by lia. reflexivity.
    + cbn [nibbles_ok forallb] in Hok. apply andb_true_iff in Hok as [Hh Hok].
      apply andb_true_iff in Hok as [Hl Hok]. apply N.ltb_lt in Hh, Hl.
      cbn [length pack unpack]. rewrite mk_div, mk_mod by exact Hl.
      f_equal. f_equal. apply IH; [cbn [length] in Hlen; lia | exact Hok].
Qed.

Lemma unpack_pack ns : nibbles_ok ns = true -> unpack (length ns) (pack ns) = ns.
Proof. apply (unpack_pack_aux (length ns)). lia. Qed.

Lemma pack_length ns : length (pack ns) = Nat.div2 (S (length ns)).
Proof.
  assert (H : forall n ns, (length ns <= n)%nat -> length (pack ns) = Nat.div2 (S (length ns))).
  { induction n as [|n IH]; intros l Hl.
    - destruct l; [reflexivity | cbn in Hl; lia].
    - destruct l as [|h [|x r]]; [reflexivity | reflexivity |].
      cbn [pack length]. rewrite IH by (cbn [length] in Hl; lia). reflexivity. }
  apply (H (length ns)). lia.
Qed.

Lemma nibbles_ok_nib bs : bytes_ok bs = true -> nibbles_ok (nib bs) = true.
Proof.
  induction bs as [|b r IH]; [reflexivity|]. cbn [bytes_ok forallb nib nibbles_ok].
  intros H. apply andb_true_iff in H as [Hb Hr]. unfold byte_ok in Hb. apply N.ltb_lt in Hb.
  fold (nibbles_ok (nib r)). rewrite (IH Hr), andb_true_r.
  apply andb_true_iff. split; apply N.ltb_lt.
  - apply N.div_lt_upper_bound; lia.
  - apply N.mod_lt. lia.
Qed.
