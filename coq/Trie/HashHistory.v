(** The tree that a history freezes to depends only on the final contents: with
    [canonical_unique_root] (CanonProofs.v) and the simulation relation of [exec_refines]
    (LocksProofs.v), which gives well-formedness ([R_wf]) and the contents ([R_map]).  Hence equal hashes for every hash function. *)
From Coq Require Import NArith List.
From CB Require Import Trie.Radix.
From CB Require Import Trie.RadixProofs.
From CB Require Import Trie.Locks.
From CB Require Import Trie.LocksProofs.
From CB Require Import Trie.CanonProofs.
From CB Require Import Trie.MerkleHash.
Import ListNotations.
Local Open Scope N_scope.

Section TMap.
Context {A B : Type} (g : A -> B).

Lemma tmap_shape_f : forall f : forest A,
  flen (tmap_f g f) = flen f /\ sorted_f (tmap_f g f) = sorted_f f
  /\ forall c, all_gt c (tmap_f g f) = all_gt c f.
Proof.
  induction f as [|c t r IH]; [repeat split|]. destruct IH as (Hl & Hs & Hg).
  cbn [tmap_f flen]. rewrite Hl. split; [reflexivity|]. split.
  - rewrite !sorted_f_cons, Hs, Hg. reflexivity.
  - intros x. rewrite !all_gt_cons, Hg. reflexivity.
Qed.

Lemma wfb_tmap_mut :
  (forall t : tree A, wfb (tmap g t) = wfb t) /\ (forall f : forest A, wfb_f (tmap_f g f) = wfb_f f).
Proof.
  apply tree_forest_ind.
  - intros p ov cs IH. cbn [tmap]. rewrite !wfb_eq, IH.
    destruct (tmap_shape_f cs) as (Hl & Hs & _). rewrite Hl, Hs. destruct ov; reflexivity.
  - reflexivity.
  - intros c t IHt r IHr. cbn [tmap_f]. rewrite !wfb_f_cons, IHt, IHr. reflexivity.
Qed.

Definition on_snd (kv : list N * A) : list N * B := (fst kv, g (snd kv)).

Lemma to_list_tmap_mut :
  (forall t : tree A, to_list (tmap g t) = map on_snd (to_list t))
  /\ (forall f : forest A, to_list_f (tmap_f g f) = map on_snd (to_list_f f)).
Proof.
  apply tree_forest_ind.
  - intros p ov cs IH. cbn [tmap]. rewrite !to_list_eq, IH, map_map, map_app, map_map.
    f_equal. destruct ov; reflexivity.
  - reflexivity.
  - intros c t IHt r IHr. cbn [tmap_f]. rewrite !to_list_f_cons, IHt, IHr, map_app, !map_map. reflexivity.
Qed.

End TMap.

Definition dflt (ov : option value) : value := match ov with Some v => v | None => [] end.

(** Freezing resolves the entry identifiers of the current generation. *)
Definition frozen (g : gen) : option (tree value) :=
  option_map (tmap (fun e => dflt (ent_get (g_ents g) e))) (g_root g).

Definition final_gen (ops : list op) : gen := hd empty_gen (m_exec ops m_init).

(** Contents of the current generation after the history: byte-string keys with values,
    in key order (this is what [OFreeze] shows). *)
Definition final_contents (ops : list op) : list (list N * option value) := m_dump (final_gen ops).

Lemma frozen_spec ops :
  wfb_root (frozen (final_gen ops)) = true
  /\ to_list_root (frozen (final_gen ops))
     = map (fun kv => (nib (fst kv), dflt (snd kv))) (final_contents ops).
Proof.
  unfold final_contents, final_gen.
  pose proof (exec_refines ops m_init s_init RS_init) as H.
  destruct (m_exec ops m_init) as [|g rest].
  - cbn. split; reflexivity.
  - inversion H as [|g0 s0 m0 s1 HR _]; subst. cbn [hd].
    pose proof (R_wf _ _ HR) as Hwf. pose proof (R_map _ _ HR) as Hmap.
    unfold frozen, m_dump. destruct (g_root g) as [t|]; cbn [option_map wfb_root to_list_root] in *.
    + split; [rewrite (proj1 (wfb_tmap_mut _)); exact Hwf|].
      rewrite (proj1 (to_list_tmap_mut _)), Hmap. unfold mapk. rewrite !map_map.
      apply map_ext. intros [k e]. unfold on_snd. cbn [fst snd]. rewrite unnib_nib. reflexivity.
    + split; reflexivity.
Qed.

Theorem frozen_history_independent ops1 ops2 :
  final_contents ops1 = final_contents ops2 -> frozen (final_gen ops1) = frozen (final_gen ops2).
Proof.
  intros E. destruct (frozen_spec ops1) as [W1 L1]. destruct (frozen_spec ops2) as [W2 L2].
  apply canonical_unique_root; try assumption. rewrite L1, L2, E. reflexivity.
Qed.

Theorem hash_history_independent_all (sha256 : list N -> list N) ops1 ops2 :
  final_contents ops1 = final_contents ops2 ->
  hash_root sha256 (frozen (final_gen ops1)) = hash_root sha256 (frozen (final_gen ops2)).
Proof. intros E. rewrite (frozen_history_independent _ _ E). reflexivity. Qed.

Theorem frozen_wf ops : wfb_root (frozen (final_gen ops)) = true.
Proof. apply frozen_spec. Qed.
