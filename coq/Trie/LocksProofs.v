(** The model machine of [Locks.v] (radix tree + prefix map + lazy iterators) produces,
    for every history, the outputs of the specification machine (sorted association list
    + snapshot iterators + "locked = under the prefix of a live iterator").
    Then: no leak and rollback for any stack of generations ([Section Generations], used by both
    machines and by the arena files), the lock theorems on reachable states, and the snapshot
    property of iterators in the specification machine. *)
From Coq Require Import NArith PeanoNat List Bool Lia.
From CB Require Import Trie.Radix.
From CB Require Import Trie.RadixProofs.
From CB Require Import Trie.PrefixMap.
From CB Require Import Trie.PrefixMapProofs.
From CB Require Import Trie.Locks.
Import ListNotations.
Local Open Scope N_scope.

Definition mapk {V} (m : amap V) : amap V := map (fun kv => (nib (fst kv), snd kv)) m.

Lemma mapk_cons {V} k (v : V) m : mapk ((k, v) :: m) = (nib k, v) :: mapk m.
Proof. reflexivity. Qed.

Lemma a_lookup_mapk {V} k (m : amap V) : a_lookup (nib k) (mapk m) = a_lookup k m.
Proof.
  induction m as [|[k1 v1] m IH]; [reflexivity|].
  rewrite mapk_cons. cbn [a_lookup]. rewrite nib_eqb, IH. reflexivity.
Qed.

Lemma a_insert_mapk {V} k (v : V) m : a_insert (nib k) v (mapk m) = mapk (a_insert k v m).
Proof.
  induction m as [|[k1 v1] m IH]; [reflexivity|].
  rewrite mapk_cons. cbn [a_insert]. rewrite nib_eqb, nib_lex.
  destruct (list_eqb k k1); [reflexivity|]. destruct (lex_ltb k k1); [reflexivity|].
  rewrite mapk_cons, <- IH. reflexivity.
Qed.

Lemma filter_mapk {V} (P Q : list N -> bool) (m : amap V) :
  (forall k, P (nib k) = Q k) ->
  filter (fun kv => P (fst kv)) (mapk m) = mapk (filter (fun kv => Q (fst kv)) m).
Proof.
  intros H. induction m as [|[k1 v1] m IH]; [reflexivity|].
  rewrite mapk_cons. cbn [filter fst]. rewrite H.
  destruct (Q k1); [rewrite mapk_cons|]; rewrite IH; reflexivity.
Qed.

Lemma a_delete_mapk {V} k (m : amap V) : a_delete (nib k) (mapk m) = mapk (a_delete k m).
Proof.
  unfold a_delete. apply (filter_mapk (fun x => negb (list_eqb (nib k) x)) (fun x => negb (list_eqb k x))).
  intros x. rewrite nib_eqb. reflexivity.
Qed.

Lemma a_delete_prefix_mapk {V} k (m : amap V) :
  a_delete_prefix (nib k) (mapk m) = mapk (a_delete_prefix k m).
Proof.
  unfold a_delete_prefix. apply (filter_mapk (fun x => negb (is_prefix (nib k) x)) (fun x => negb (is_prefix k x))).
  intros x. rewrite nib_prefix. reflexivity.
Qed.

Lemma a_iterate_mapk {V} k (m : amap V) : a_iterate (nib k) (mapk m) = mapk (a_iterate k m).
Proof.
  unfold a_iterate. apply (filter_mapk (fun x => is_prefix (nib k) x) (fun x => is_prefix k x)).
  intros x. apply nib_prefix.
Qed.

Lemma mapk_nil {V} (m : amap V) : is_nil (mapk m) = is_nil m.
Proof. apply is_nil_map. Qed.

Lemma map_snd_mapk {V} (m : amap V) : map snd (mapk m) = map snd m.
Proof. unfold mapk. rewrite map_map. reflexivity. Qed.

Lemma live_roots_app {A} (a b : list (option (list N * A))) :
  live_roots (a ++ b) = live_roots a ++ live_roots b.
Proof. unfold live_roots. apply flat_map_app. Qed.

Lemma bag_count_app p a b : bag_count p (a ++ b) = bag_count p a + bag_count p b.
Proof. unfold bag_count. rewrite filter_app, app_length. lia. Qed.

Lemma s_count_eq p s : s_count p s = bag_count p (live_roots (s_iters s)).
Proof. reflexivity. Qed.

Lemma live_roots_set_same {A} i p (x y : A) its :
  nth_error its i = Some (Some (p, x)) ->
  live_roots (set_nth i (Some (p, y)) its) = live_roots its.
Proof.
  revert i. induction its as [|o its IH]; intros [|i] H; cbn in *; try discriminate.
  - inversion H; subst. reflexivity.
  - unfold live_roots in *. cbn. f_equal. apply IH. assumption.
Qed.

Lemma live_roots_cons {A} (o : option (list N * A)) its :
  live_roots (o :: its) = (match o with Some (p, _) => [p] | None => [] end) ++ live_roots its.
Proof. reflexivity. Qed.

Lemma live_roots_in {A} i p (x : A) its :
  nth_error its i = Some (Some (p, x)) -> In p (live_roots its).
Proof.
  intros H. unfold live_roots. apply in_flat_map. exists (Some (p, x)). split.
  - eapply nth_error_In; eassumption.
  - left. reflexivity.
Qed.

Lemma live_roots_set_none_in {A} i (its : list (option (list N * A))) q :
  In q (live_roots (set_nth i None its)) -> In q (live_roots its).
Proof.
  revert i. induction its as [|o its IH]; intros [|i] H; cbn [set_nth] in *; try assumption.
  - rewrite live_roots_cons in *. cbn [app] in H. apply in_or_app. right. exact H.
  - rewrite live_roots_cons in *. apply in_app_iff in H as [H|H]; apply in_or_app; [left; exact H | right; eapply IH; exact H].
Qed.

Lemma bag_count_set_none {A} i p (x : A) its q :
  nth_error its i = Some (Some (p, x)) ->
  bag_count q (live_roots (set_nth i None its)) =
  if list_eqb p q then bag_count q (live_roots its) - 1 else bag_count q (live_roots its).
Proof.
  revert i. induction its as [|o its IH]; intros [|i] H; cbn [nth_error set_nth] in *; try discriminate.
  - inversion H; subst. rewrite !live_roots_cons. cbn [app].
    unfold bag_count. cbn [filter]. rewrite (list_eqb_sym q p).
    destruct (list_eqb p q); cbn [length]; lia.
  - rewrite !live_roots_cons, !bag_count_app, (IH i H).
    destruct (list_eqb p q) eqn:Epq; [|reflexivity].
    apply list_eqb_spec in Epq. subst q.
    assert (X : 0 < bag_count p (live_roots its)) by (apply bag_count_pos; eapply live_roots_in; eassumption).
    lia.
Qed.

Definition after_b {V} (last : option (list N)) (l : amap V) : amap V :=
  match last with
  | None => l
  | Some k0 => filter (fun kv => lex_ltb k0 (fst kv)) l
  end.

Definition iter_rel (m : amap nat) (gi : option (list N * option (list N)))
           (si : option (list N * list (list N))) : Prop :=
  match gi, si with
  | None, None => True
  | Some (p, last), Some (p', rem) => p = p' /\ rem = map fst (after_b last (a_iterate p m))
  | _, _ => False
  end.

Record R (g : gen) (s : sgen) : Prop := mkR {
  R_wf : wfb_root (g_root g) = true;
  R_map : to_list_root (g_root g) = mapk (s_map s);
  R_sorted : ksorted (s_map s);
  R_ents : g_ents g = s_ents s;
  R_handles : g_handles g = s_handles s;
  R_pwf : pm_wf (g_locks g) = true;
  R_locks : forall p, pm_count p (g_locks g) = s_count p s;
  R_iters : Forall2 (iter_rel (s_map s)) (g_iters g) (s_iters s);
  R_live : forall p, In p (live_roots (s_iters s)) -> is_nil (a_iterate p (s_map s)) = false
}.

Lemma lookup_agree g s k : R g s -> lookup_root (nib k) (g_root g) = a_lookup k (s_map s).
Proof.
  intros HR. rewrite <- a_lookup_to_list_root by apply HR. rewrite (R_map _ _ HR). apply a_lookup_mapk.
Qed.

Lemma existsb_false {A} (f : A -> bool) l : existsb f l = false -> forall x, In x l -> f x = false.
Proof.
  intros H x Hx. destruct (f x) eqn:E; [|reflexivity].
  assert (existsb f l = true) by (apply existsb_exists; eauto). congruence.
Qed.

(** The lock checks are the [PCheck] / [PIohp] steps of the prefix map against the bag of live roots. *)
Lemma R_PInv g s : R g s -> PInv (g_locks g) (live_roots (s_iters s)).
Proof. intros HR. exact (conj (R_pwf _ _ HR) (R_locks _ _ HR)). Qed.

Lemma locked_agree g s k : R g s -> negb (pm_no_prefix k (g_locks g)) = s_locked k s.
Proof.
  intros HR. destruct (pm_step_refines (PCheck k) _ _ (R_PInv _ _ HR)) as [E _].
  cbn [pm_step bag_step snd] in E. rewrite E. apply negb_involutive.
Qed.

Lemma locked2_agree g s k : R g s -> pm_iohp k (g_locks g) = s_locked2 k s.
Proof. intros HR. exact (proj1 (pm_step_refines (PIohp k) _ _ (R_PInv _ _ HR))). Qed.

Lemma root_agree g s : R g s ->
  match g_root g with None => s_map s = [] | Some _ => s_map s <> [] end.
Proof.
  intros HR. pose proof (R_map _ _ HR) as HM. pose proof (R_wf _ _ HR) as HW.
  destruct (g_root g) as [t|]; cbn [to_list_root wfb_root] in *.
  - intros E. rewrite E in HM. cbn in HM.
    pose proof (proj1 to_list_nonempty_mut t HW) as X. rewrite HM in X. discriminate.
  - destruct (s_map s); [reflexivity | discriminate].
Qed.

Lemma iter_roots_agree m gi si :
  Forall2 (iter_rel m) gi si -> live_roots gi = live_roots si.
Proof.
  induction 1 as [|a b gi si Hab _ IH]; [reflexivity|].
  rewrite !live_roots_cons, IH. destruct a as [[p l]|], b as [[p' r]|]; cbn in Hab; try contradiction.
  - destruct Hab as [-> _]. reflexivity.
  - reflexivity.
Qed.

Lemma iter_rel_change m m' gi si :
  Forall2 (iter_rel m) gi si ->
  (forall p, In p (live_roots si) -> a_iterate p m' = a_iterate p m) ->
  Forall2 (iter_rel m') gi si.
Proof.
  induction 1 as [|a b gi si Hab _ IH]; intros Hsame; constructor.
  - destruct a as [[p l]|], b as [[p' r]|]; cbn [iter_rel] in Hab |- *; try contradiction; auto.
    destruct Hab as [-> ->]. split; [reflexivity|]. rewrite Hsame; [reflexivity|].
    rewrite live_roots_cons. left. reflexivity.
  - apply IH. intros p Hp. apply Hsame. rewrite live_roots_cons. apply in_or_app. right. exact Hp.
Qed.

Lemma filter_filter_impl {A} (P Q : A -> bool) l :
  (forall x, In x l -> P x = true -> Q x = true) -> filter P (filter Q l) = filter P l.
Proof.
  induction l as [|a l IH]; intros H; cbn; [reflexivity|].
  destruct (Q a) eqn:EQ; cbn.
  - destruct (P a); rewrite IH; auto; intros x Hx; apply H; right; exact Hx.
  - destruct (P a) eqn:EP.
    + rewrite (H a (or_introl eq_refl) EP) in EQ. discriminate.
    + apply IH. intros x Hx. apply H. right. exact Hx.
Qed.

Lemma a_iterate_insert_other {V} p k (v : V) m :
  is_prefix p k = false -> a_iterate p (a_insert k v m) = a_iterate p m.
Proof.
  intros Hp. unfold a_iterate. induction m as [|[k1 v1] m IH]; cbn [a_insert filter fst].
  - rewrite Hp. reflexivity.
  - destruct (list_eqb k k1) eqn:E.
    + apply list_eqb_spec in E. subst k1. cbn [filter fst]. rewrite Hp. reflexivity.
    + destruct (lex_ltb k k1); cbn [filter fst]; [rewrite Hp; reflexivity|].
      rewrite IH. reflexivity.
Qed.

Lemma a_iterate_delete_other {V} p k (m : amap V) :
  is_prefix p k = false -> a_iterate p (a_delete k m) = a_iterate p m.
Proof.
  intros Hp. unfold a_iterate, a_delete. apply filter_filter_impl.
  intros [x y] _ Hx. cbn in *. apply negb_true_iff. apply list_eqb_neq. intros ->. congruence.
Qed.

Lemma a_iterate_delete_prefix_other {V} p q (m : amap V) :
  is_prefix p q = false -> is_prefix q p = false ->
  a_iterate p (a_delete_prefix q m) = a_iterate p m.
Proof.
  intros H1 H2. unfold a_iterate, a_delete_prefix. apply filter_filter_impl.
  intros [x y] _ Hx. cbn in *. apply negb_true_iff.
  destruct (is_prefix q x) eqn:E; [|reflexivity].
  destruct (is_prefix_comparable p q x Hx E); congruence.
Qed.

Lemma locked_false_roots k s p :
  s_locked k s = false -> In p (live_roots (s_iters s)) -> is_prefix p k = false.
Proof. intros H Hin. exact (existsb_false _ _ H p Hin). Qed.

Lemma locked2_false_roots k s p :
  s_locked2 k s = false -> In p (live_roots (s_iters s)) ->
  is_prefix p k = false /\ is_prefix k p = false.
Proof.
  intros H Hin. pose proof (existsb_false _ _ H p Hin) as X. cbn in X.
  apply orb_false_iff in X. exact X.
Qed.

Lemma Forall2_nth_error {A B} (P : A -> B -> Prop) l1 l2 i :
  Forall2 P l1 l2 ->
  match nth_error l1 i, nth_error l2 i with
  | Some a, Some b => P a b
  | None, None => True
  | _, _ => False
  end.
Proof.
  intros H. revert i. induction H as [|a b l1 l2 Hab _ IH]; intros [|i]; cbn; auto. apply IH.
Qed.

Lemma Forall2_set_nth {A B} (P : A -> B -> Prop) l1 l2 i a b :
  Forall2 P l1 l2 -> P a b -> Forall2 P (set_nth i a l1) (set_nth i b l2).
Proof.
  intros H Hab. revert i. induction H as [|x y l1 l2 Hxy H IH]; intros [|i]; cbn; constructor; auto.
Qed.

Lemma Forall2_skipn {A B} (P : A -> B -> Prop) l1 l2 n :
  Forall2 P l1 l2 -> Forall2 P (skipn n l1) (skipn n l2).
Proof.
  intros H. revert n. induction H as [|x y l1 l2 Hxy H IH]; intros [|n]; cbn; auto.
Qed.

Lemma Forall2_length_eq {A B} (P : A -> B -> Prop) l1 l2 : Forall2 P l1 l2 -> length l1 = length l2.
Proof. induction 1; cbn; congruence. Qed.

Lemma after_step {V} last (X : amap V) kb e T :
  ksorted X -> after_b last X = (kb, e) :: T -> after_b (Some kb) X = T.
Proof.
  intros HX HL.
  assert (Hs : ksorted ((kb, e) :: T)).
  { rewrite <- HL. destruct last; cbn [after_b]; [apply ksorted_filter|]; assumption. }
  assert (HT : filter (fun kv => lex_ltb kb (fst kv)) ((kb, e) :: T) = T).
  { cbn [filter fst]. rewrite lex_ltb_irrefl. apply filter_all.
    inversion Hs as [|? ? _ Hall]; subst. rewrite Forall_forall in Hall. intros x Hx. exact (Hall x Hx). }
  cbn [after_b]. rewrite <- HT. rewrite <- HL.
  destruct last as [k0|]; cbn [after_b]; [|reflexivity].
  symmetry. apply filter_filter_impl. intros x Hx Hk.
  assert (Hk0 : lex_ltb k0 kb = true).
  { assert (Hin : In (kb, e) (filter (fun kv => lex_ltb k0 (fst kv)) X)) by (cbn [after_b] in HL; rewrite HL; left; reflexivity).
    apply filter_In in Hin as [_ Hin]. exact Hin. }
  eapply lex_ltb_trans; eassumption.
Qed.

Lemma s_delete_eq k g :
  s_delete k g =
  if is_nil (s_map g) then (g, RBool false)
  else if s_locked k g then (g, RLocked)
  else match a_lookup k (s_map g) with
       | None => (g, RBool false)
       | Some e =>
           (s_with_ents (s_with_map g (a_delete k (s_map g))) (set_nth e None (s_ents g)),
            RBool (match ent_get (s_ents g) e with Some _ => true | None => false end))
       end.
Proof. unfold s_delete. destruct (s_map g); reflexivity. Qed.

Lemma s_delete_prefix_eq k g :
  s_delete_prefix k g =
  if is_nil (s_map g) then (g, RBool false)
  else if s_locked2 k g then (g, RLocked)
  else if is_nil (a_iterate k (s_map g)) then (g, RBool false)
  else (s_with_ents (s_with_map g (a_delete_prefix k (s_map g)))
                    (kill (s_ents g) (map snd (a_iterate k (s_map g)))), RBool true).
Proof.
  unfold s_delete_prefix. destruct (s_map g) eqn:E; [reflexivity|]. cbn [is_nil].
  destruct (s_locked2 k g); [reflexivity|]. destruct (a_iterate k (p :: a)); reflexivity.
Qed.

Lemma s_iter_eq k g :
  s_iter k g =
  if is_nil (a_iterate k (s_map g)) then (g, RNone)
  else if s_count k g =? MAXC then (g, RTooMany)
  else (s_with_iters g (s_iters g ++ [Some (k, map fst (a_iterate k (s_map g)))]),
        RIter (length (s_iters g))).
Proof. unfold s_iter. destruct (a_iterate k (s_map g)); reflexivity. Qed.

Lemma m_delete_eq k g :
  m_delete k g =
  match g_root g with
  | None => (g, RBool false)
  | Some t =>
      if negb (pm_no_prefix k (g_locks g)) then (g, RLocked) else
      match lookup_root (nib k) (g_root g) with
      | None => (g, RBool false)
      | Some e =>
          (with_ents (with_root g (delete_root (nib k) (g_root g))) (set_nth e None (g_ents g)),
           RBool (match ent_get (g_ents g) e with Some _ => true | None => false end))
      end
  end.
Proof. unfold m_delete. destruct (g_root g); reflexivity. Qed.

Lemma m_delete_prefix_eq k g :
  m_delete_prefix k g =
  match g_root g with
  | None => (g, RBool false)
  | Some t =>
      if pm_iohp k (g_locks g) then (g, RLocked) else
      if has_prefix_root (nib k) (g_root g) then
        (with_ents (with_root g (delete_prefix_root (nib k) (g_root g)))
                   (kill (g_ents g) (map snd (iterate_root (nib k) (g_root g)))), RBool true)
      else (g, RBool false)
  end.
Proof. unfold m_delete_prefix. destruct (g_root g); reflexivity. Qed.

Lemma m_iter_eq k g :
  m_iter k g =
  match g_root g with
  | None => (g, RNone)
  | Some t =>
      if has_prefix_root (nib k) (g_root g) then
        match pm_insert k (g_locks g) with
        | None => (g, RTooMany)
        | Some l' => (with_locks_iters g l' (g_iters g ++ [Some (k, None)]), RIter (length (g_iters g)))
        end
      else (g, RNone)
  end.
Proof. unfold m_iter. destruct (g_root g); reflexivity. Qed.

Ltac proj_simpl :=
  cbn [g_root g_ents g_locks g_handles g_iters s_map s_ents s_handles s_iters
       with_handle with_ents with_root with_locks_iters
       s_with_handle s_with_ents s_with_map s_with_iters fst snd] in *.

Definition sim (mo : gen * out) (so : sgen * out) : Prop :=
  snd mo = snd so /\ R (fst mo) (fst so).

Lemma sim_same g s o : R g s -> sim (g, o) (s, o).
Proof. intros H. split; [reflexivity | exact H]. Qed.

Lemma R_with_handle g s e : R g s -> R (with_handle g e) (s_with_handle s e).
Proof.
  intros [A B C D E F G H J]. constructor; proj_simpl; auto. rewrite E. reflexivity.
Qed.

Lemma R_with_ents g s ents : R g s -> R (with_ents g ents) (s_with_ents s ents).
Proof. intros [A B C D E F G H J]. constructor; proj_simpl; auto. Qed.

Lemma R_map_change g s r' m' :
  R g s -> wfb_root r' = true -> to_list_root r' = mapk m' -> ksorted m' ->
  (forall p, In p (live_roots (s_iters s)) -> a_iterate p m' = a_iterate p (s_map s)) ->
  R (with_root g r') (s_with_map s m').
Proof.
  intros [A B C D F G H I J] Hw Hm Hs Hsame. constructor; proj_simpl; auto.
  - eapply iter_rel_change; eassumption.
  - intros p Hp. rewrite Hsame by exact Hp. apply J. exact Hp.
Qed.

Lemma sim_insert k v g s : R g s -> sim (m_insert k v g) (s_insert k v s).
Proof.
  intros HR. unfold m_insert, s_insert. rewrite (locked_agree g s k HR).
  destruct (s_locked k s) eqn:EL; [apply sim_same; assumption|].
  rewrite (lookup_agree g s k HR), (R_handles _ _ HR), (R_ents _ _ HR).
  destruct (a_lookup k (s_map s)) as [e|] eqn:E.
  - split; [reflexivity|]. cbn [fst]. apply R_with_handle.
    rewrite <- (R_ents _ _ HR). apply R_with_ents. exact HR.
  - split; [reflexivity|]. cbn [fst]. apply R_with_handle, R_with_ents, R_map_change; [exact HR|..].
    + apply wfb_insert_root, HR.
    + cbn [to_list_root]. rewrite to_list_insert_root, (R_map _ _ HR) by apply HR. apply a_insert_mapk.
    + apply ksorted_insert, HR.
    + intros p Hp. apply a_iterate_insert_other. eapply locked_false_roots; eassumption.
Qed.

Lemma sim_get k g s : R g s -> sim (m_get k g) (s_get k s).
Proof.
  intros HR. unfold m_get, s_get. rewrite (lookup_agree g s k HR), (R_handles _ _ HR), (R_ents _ _ HR).
  destruct (a_lookup k (s_map s)); [|apply sim_same; assumption].
  split; [reflexivity|]. cbn [fst]. apply R_with_handle. exact HR.
Qed.

Lemma sim_read h g s : R g s -> sim (m_read h g) (s_read h s).
Proof.
  intros HR. unfold m_read, s_read. rewrite (R_handles _ _ HR), (R_ents _ _ HR).
  destruct (nth_error (s_handles s) h); apply sim_same; assumption.
Qed.

(** [set] and [mut] overwrite the entry behind a handle and differ only in what they answer. *)
Lemma sim_overwrite (no : out) (yes : value -> out) h v g s : R g s ->
  sim match nth_error (g_handles g) h with
      | None => (g, RSkip)
      | Some e => match ent_get (g_ents g) e with
                  | None => (g, no)
                  | Some old => (with_ents g (set_nth e (Some v) (g_ents g)), yes old)
                  end
      end
      match nth_error (s_handles s) h with
      | None => (s, RSkip)
      | Some e => match ent_get (s_ents s) e with
                  | None => (s, no)
                  | Some old => (s_with_ents s (set_nth e (Some v) (s_ents s)), yes old)
                  end
      end.
Proof.
  intros HR. rewrite (R_handles _ _ HR), (R_ents _ _ HR).
  destruct (nth_error (s_handles s) h); [|apply sim_same; assumption].
  destruct (ent_get (s_ents s) n); [|apply sim_same; assumption].
  split; [reflexivity|]. cbn [fst]. apply R_with_ents. exact HR.
Qed.

Lemma sim_set h v g s : R g s -> sim (m_set h v g) (s_set h v s).
Proof. exact (sim_overwrite (RBool false) (fun _ => RBool true) h v g s). Qed.

Lemma sim_mut h v g s : R g s -> sim (m_mut h v g) (s_mut h v s).
Proof. exact (sim_overwrite (RVal None) (fun old => RVal (Some old)) h v g s). Qed.

Lemma root_nil_agree g s : R g s ->
  match g_root g with None => is_nil (s_map s) = true | Some _ => is_nil (s_map s) = false end.
Proof.
  intros HR. pose proof (root_agree g s HR) as H. destruct (g_root g).
  - destruct (s_map s); [congruence | reflexivity].
  - rewrite H. reflexivity.
Qed.

Lemma sim_delete k g s : R g s -> sim (m_delete k g) (s_delete k s).
Proof.
  intros HR. rewrite m_delete_eq, s_delete_eq. pose proof (root_nil_agree g s HR) as HN.
  destruct (g_root g) as [t|] eqn:Eroot; rewrite HN; [|apply sim_same; assumption].
  rewrite <- Eroot. rewrite (locked_agree g s k HR).
  destruct (s_locked k s) eqn:EL; [apply sim_same; assumption|].
  rewrite (lookup_agree g s k HR), (R_ents _ _ HR).
  destruct (a_lookup k (s_map s)) as [e|] eqn:E; [|apply sim_same; assumption].
  split; [reflexivity|]. cbn [fst]. rewrite <- (R_ents _ _ HR). apply R_with_ents, R_map_change; [exact HR|..].
  - apply wfb_delete_root, HR.
  - rewrite to_list_delete_root, (R_map _ _ HR) by apply HR. apply a_delete_mapk.
  - apply ksorted_filter, HR.
  - intros p Hp. apply a_iterate_delete_other. eapply locked_false_roots; eassumption.
Qed.

Lemma has_prefix_agree g s k : R g s ->
  has_prefix_root (nib k) (g_root g) = negb (is_nil (a_iterate k (s_map s))).
Proof.
  intros HR. rewrite has_prefix_root_spec by apply HR.
  rewrite (R_map _ _ HR), a_iterate_mapk, mapk_nil. reflexivity.
Qed.

Lemma iterate_agree g s k : R g s ->
  iterate_root (nib k) (g_root g) = mapk (a_iterate k (s_map s)).
Proof.
  intros HR. rewrite iterate_root_spec by apply HR. rewrite (R_map _ _ HR). apply a_iterate_mapk.
Qed.

Lemma sim_delete_prefix k g s : R g s -> sim (m_delete_prefix k g) (s_delete_prefix k s).
Proof.
  intros HR. rewrite m_delete_prefix_eq, s_delete_prefix_eq. pose proof (root_nil_agree g s HR) as HN.
  destruct (g_root g) as [t|] eqn:Eroot; rewrite HN; [|apply sim_same; assumption].
  rewrite <- Eroot. rewrite (locked2_agree g s k HR).
  destruct (s_locked2 k s) eqn:EL; [apply sim_same; assumption|].
  rewrite (has_prefix_agree g s k HR).
  destruct (is_nil (a_iterate k (s_map s))) eqn:EN; cbn [negb]; [apply sim_same; assumption|].
  rewrite (iterate_agree g s k HR), map_snd_mapk, (R_ents _ _ HR).
  split; [reflexivity|]. cbn [fst]. apply R_with_ents, R_map_change; [exact HR|..].
  - apply wfb_delete_prefix_root, HR.
  - rewrite to_list_delete_prefix_root, (R_map _ _ HR) by apply HR. apply a_delete_prefix_mapk.
  - apply ksorted_filter, HR.
  - intros p Hp. destruct (locked2_false_roots k s p EL Hp). apply a_iterate_delete_prefix_other; assumption.
Qed.

Lemma bag_count_single {A} p k (x : A) :
  bag_count p (live_roots [Some (k, x)]) = if list_eqb p k then 1 else 0.
Proof. unfold live_roots, bag_count. cbn. destruct (list_eqb p k); reflexivity. Qed.

Lemma sim_iter k g s : R g s -> sim (m_iter k g) (s_iter k s).
Proof.
  intros HR. rewrite m_iter_eq, s_iter_eq.
  pose proof (root_nil_agree g s HR) as HN.
  destruct (g_root g) as [t|] eqn:Eroot.
  2:{ destruct (s_map s); [|discriminate]. cbn. apply sim_same; assumption. }
  rewrite <- Eroot. rewrite (has_prefix_agree g s k HR).
  destruct (is_nil (a_iterate k (s_map s))) eqn:EN; cbn [negb]; [apply sim_same; assumption|].
  pose proof (pm_insert_none k (g_locks g) (R_pwf _ _ HR)) as HO.
  rewrite (R_locks _ _ HR) in HO.
  destruct (N.eqb_spec (s_count k s) MAXC) as [EM|EM].
  - rewrite (proj2 HO EM). apply sim_same; assumption.
  - destruct (pm_insert k (g_locks g)) as [l'|] eqn:EI; [|exfalso; apply EM; apply HO; reflexivity].
    pose proof (Forall2_length_eq _ _ _ (R_iters _ _ HR)) as HL.
    split; [cbn [snd]; rewrite HL; reflexivity|]. cbn [fst].
    destruct HR as [A B C D F G H I J]. constructor; proj_simpl; auto.
    + eapply pm_wf_insert; eassumption.
    + intros p. rewrite (pm_count_insert k _ l' p G EI), H.
      rewrite !s_count_eq. proj_simpl. rewrite live_roots_app, bag_count_app, bag_count_single.
      rewrite (list_eqb_sym p k). destruct (list_eqb k p); lia.
    + apply Forall2_app; [assumption|]. constructor; [|constructor].
      cbn [iter_rel after_b]. split; reflexivity.
    + intros p Hp. rewrite live_roots_app in Hp. apply in_app_iff in Hp as [Hp|Hp]; [apply J; assumption|].
      unfold live_roots in Hp. cbn in Hp. destruct Hp as [<-|[]]. exact EN.
Qed.

Lemma after_agree {V} last (X : amap V) :
  after last (mapk X) = mapk (after_b last X).
Proof.
  destruct last as [k0|]; cbn [after after_b]; [|reflexivity].
  apply (filter_mapk (fun x => lex_ltb (nib k0) x) (fun x => lex_ltb k0 x)). intros x. apply nib_lex.
Qed.

Lemma sim_next i g s : R g s -> sim (m_next i g) (s_next i s).
Proof.
  intros HR. unfold m_next, s_next.
  pose proof (Forall2_nth_error _ _ _ i (R_iters _ _ HR)) as HI.
  destruct (nth_error (g_iters g) i) as [[[p last]|]|] eqn:EG;
    destruct (nth_error (s_iters s) i) as [[[p' rem]|]|] eqn:ES; cbn [iter_rel] in HI; try contradiction;
    try (apply sim_same; assumption).
  destruct HI as [<- Hrem].
  rewrite (iterate_agree g s p HR), after_agree.
  destruct (after_b last (a_iterate p (s_map s))) as [|[kb e] T] eqn:EL.
  - subst rem. cbn. apply sim_same; assumption.
  - subst rem. rewrite mapk_cons. cbn [map fst].
    assert (Hin : In (kb, e) (s_map s)).
    { assert (X : In (kb, e) (after_b last (a_iterate p (s_map s)))) by (rewrite EL; left; reflexivity).
      destruct last; cbn [after_b] in X; [apply filter_In in X as [X _]|]; apply filter_In in X as [X _]; exact X. }
    rewrite (ksorted_in_lookup kb e (s_map s) (R_sorted _ _ HR) Hin).
    rewrite unnib_nib, (R_handles _ _ HR), (R_ents _ _ HR).
    split; [reflexivity|]. cbn [fst]. apply R_with_handle.
    destruct HR as [A B C D F G H I J]. constructor; proj_simpl; auto.
    + intros q. rewrite H, !s_count_eq. proj_simpl.
      rewrite (live_roots_set_same i p _ (map fst T) (s_iters s) ES). reflexivity.
    + apply Forall2_set_nth; [assumption|]. cbn [iter_rel]. split; [reflexivity|].
      f_equal. symmetry. eapply after_step; [|exact EL].
      apply ksorted_filter. assumption.
    + intros q Hq. rewrite (live_roots_set_same i p _ (map fst T) (s_iters s) ES) in Hq. apply J; assumption.
Qed.

Lemma sim_deliter i g s : R g s -> sim (m_deliter i g) (s_deliter i s).
Proof.
  intros HR. unfold m_deliter, s_deliter.
  pose proof (Forall2_nth_error _ _ _ i (R_iters _ _ HR)) as HI.
  destruct (nth_error (g_iters g) i) as [[[p last]|]|] eqn:EG;
    destruct (nth_error (s_iters s) i) as [[[p' rem]|]|] eqn:ES; cbn [iter_rel] in HI; try contradiction;
    try (apply sim_same; assumption).
  destruct HI as [<- Hrem].
  destruct (pm_delete_spec p (g_locks g) p (R_pwf _ _ HR)) as (HA & _ & HC).
  destruct (pm_delete p (g_locks g)) as [l' b] eqn:ED. cbn [fst snd] in *.
  assert (Hpos : 0 < s_count p s).
  { rewrite s_count_eq. apply bag_count_pos. eapply live_roots_in; eassumption. }
  split.
  - cbn [snd]. rewrite HA, (R_locks _ _ HR). destruct (N.eqb_spec (s_count p s) 0); [lia | reflexivity].
  - cbn [fst]. pose proof HR as HR0. destruct HR as [A B C D F G H I J]. constructor; proj_simpl; auto.
    + intros q. destruct (pm_delete_spec p (g_locks g) q G) as (_ & HB & _).
      rewrite ED in HB. cbn [fst] in HB. rewrite HB, !H, !s_count_eq. proj_simpl.
      rewrite (bag_count_set_none i p rem (s_iters s) q ES). reflexivity.
    + apply Forall2_set_nth; [assumption|]. exact Logic.I.
    + intros q Hq. apply J. eapply live_roots_set_none_in; exact Hq.
Qed.

Definition RS (m : state) (s : sstate) : Prop := Forall2 R m s.

Lemma sim_on_cur f f' m s :
  RS m s -> (forall g s0, R g s0 -> sim (f g) (f' s0)) ->
  snd (on_cur f m) = snd (s_on_cur f' s) /\ RS (fst (on_cur f m)) (fst (s_on_cur f' s)).
Proof.
  intros H Hf. destruct H as [|g s0 m s Hg Hrest]; cbn [on_cur s_on_cur].
  - split; [reflexivity | constructor].
  - destruct (Hf g s0 Hg) as [Ho Hr]. destruct (f g) as [g' o]. destruct (f' s0) as [s0' o'].
    cbn [fst snd] in *. split; [exact Ho|]. constructor; assumption.
Qed.

Lemma R_fresh g s : R g s -> R (mkGen (g_root g) (g_ents g) None [] []) (mkS (s_map s) (s_ents s) [] []).
Proof.
  intros [A B C D E F G H J]. constructor; proj_simpl; auto; try constructor. intros p [].
Qed.

Lemma dump_agree g s : R g s -> m_dump g = s_dump s.
Proof.
  intros HR. unfold m_dump, s_dump. rewrite (R_map _ _ HR), (R_ents _ _ HR).
  unfold mapk. rewrite map_map. apply map_ext. intros [k e]. cbn. rewrite unnib_nib. reflexivity.
Qed.

Lemma step_refines o m s :
  RS m s -> snd (m_step o m) = snd (s_step o s) /\ RS (fst (m_step o m)) (fst (s_step o s)).
Proof.
  intros H. destruct o; cbn [m_step s_step].
  1-10: apply sim_on_cur; [assumption|]; intros g s0;
    first [apply sim_insert | apply sim_get | apply sim_read | apply sim_set | apply sim_mut | apply sim_delete
          | apply sim_delete_prefix | apply sim_iter | apply sim_next | apply sim_deliter].
  - pose proof (Forall2_length_eq _ _ _ H) as HL. destruct H as [|g s0 m s Hg Hrest]; cbn [fst snd].
    + split; [reflexivity | constructor].
    + split; [cbn [length] in *; congruence|]. constructor; [apply R_fresh; assumption|].
      constructor; assumption.
  - pose proof (Forall2_length_eq _ _ _ H) as HL. unfold normalize. cbn [fst snd]. rewrite HL.
    assert (X : RS (skipn (length s - S r) m) (skipn (length s - S r) s)) by (apply Forall2_skipn; assumption).
    split; [rewrite (Forall2_length_eq _ _ _ X); reflexivity | exact X].
  - destruct H as [|g s0 m s Hg Hrest]; cbn [fst snd].
    + split; [reflexivity | constructor].
    + split; [rewrite (dump_agree _ _ Hg); reflexivity | constructor; assumption].
  - destruct H as [|g s0 m s Hg Hrest]; cbn [fst snd].
    + split; [reflexivity | constructor].
    + split; [rewrite (dump_agree _ _ Hg); reflexivity|]. constructor; [apply R_fresh; assumption | constructor].
Qed.

Theorem run_refines ops m s : RS m s -> m_run ops m = s_run ops s.
Proof.
  revert m s. induction ops as [|o ops IH]; intros m s H; cbn [m_run s_run]; [reflexivity|].
  destruct (step_refines o m s H) as [Ho Hr].
  destruct (m_step o m) as [m' x]. destruct (s_step o s) as [s' y]. cbn [fst snd] in *.
  rewrite Ho, (IH m' s' Hr). reflexivity.
Qed.

Lemma RS_init : RS m_init s_init.
Proof.
  constructor; [|constructor]. constructor; cbn; auto; try constructor. intros p [].
Qed.

Theorem history_refines_all ops : m_run ops m_init = s_run ops s_init.
Proof. apply run_refines. apply RS_init. Qed.

(** The invariants of the model hold after every history. *)
Lemma RS_m_wf m s : RS m s -> m_wf m = true.
Proof.
  induction 1 as [|g s0 m s Hg _ IH]; [reflexivity|].
  unfold m_wf in *. cbn [forallb]. rewrite IH, (R_wf _ _ Hg), (R_pwf _ _ Hg). reflexivity.
Qed.

Fixpoint m_exec (ops : list op) (s : state) : state :=
  match ops with [] => s | o :: r => m_exec r (fst (m_step o s)) end.
Fixpoint s_exec (ops : list op) (s : sstate) : sstate :=
  match ops with [] => s | o :: r => s_exec r (fst (s_step o s)) end.

Lemma exec_refines ops m s : RS m s -> RS (m_exec ops m) (s_exec ops s).
Proof.
  revert m s. induction ops as [|o ops IH]; intros m s H; cbn; [assumption|].
  apply IH. apply step_refines. assumption.
Qed.

Theorem wf_preserved_all ops : m_wf (m_exec ops m_init) = true.
Proof. eapply RS_m_wf. apply exec_refines. apply RS_init. Qed.

Definition keeps (n : nat) (o : op) : Prop :=
  match o with
  | ONormalize r => (n <= r)%nat
  | OThaw => False
  | _ => True
  end.

Lemma normalize_shape {G} r newer (base : list G) :
  newer <> [] -> (length base <= r)%nat ->
  exists newer', newer' <> [] /\ normalize r (newer ++ base) = newer' ++ base.
Proof.
  intros Hn Hr. unfold normalize. rewrite app_length.
  set (j := (length newer + length base - S r)%nat).
  assert (Hj : (j < length newer)%nat).
  { destruct newer; [congruence|]. cbn [length] in *. lia. }
  exists (skipn j newer). split.
  - intros E. apply (f_equal (@length G)) in E. rewrite skipn_length in E. cbn in E. lia.
  - rewrite skipn_app. replace (j - length newer)%nat with O by lia. reflexivity.
Qed.

(** What an operation does to a non-empty stack of generations, in either machine: [g'] is
    the new head (the changed current generation, or its fresh copy). *)
Definition stack_after {G} (o : op) (g' g : G) (rest : list G) : list G :=
  match o with
  | ONewGen => g' :: g :: rest
  | ONormalize r => normalize r (g :: rest)
  | OFreeze => g :: rest
  | OThaw => [g']
  | _ => g' :: rest
  end.

Section Generations.
Context {G : Type} (step : op -> list G -> list G * out).
Hypothesis step_cons : forall o g rest, exists g', fst (step o (g :: rest)) = stack_after o g' g rest.

Fixpoint exec (ops : list op) (s : list G) : list G :=
  match ops with [] => s | o :: r => exec r (fst (step o s)) end.

Lemma step_shape o newer base :
  newer <> [] -> keeps (length base) o ->
  exists newer', newer' <> [] /\ fst (step o (newer ++ base)) = newer' ++ base.
Proof.
  intros Hn Hk. destruct newer as [|g newer]; [congruence|].
  cbn [app]. destruct (step_cons o g (newer ++ base)) as [g' ->].
  destruct o; cbn [keeps stack_after] in *;
    try (exists (g' :: newer); split; [discriminate | reflexivity]).
  - exists (g' :: g :: newer). split; [discriminate | reflexivity].
  - apply (normalize_shape r (g :: newer)); [discriminate | assumption].
  - exists (g :: newer). split; [discriminate | reflexivity].
  - contradiction.
Qed.

Lemma no_leak ops base :
  base <> [] -> Forall (keeps (length base)) ops ->
  exists newer, newer <> [] /\ exec (ONewGen :: ops) base = newer ++ base.
Proof.
  intros Hb Hops. cbn [exec].
  assert (H0 : exists newer, newer <> [] /\ fst (step ONewGen base) = newer ++ base).
  { destruct base as [|g rest]; [congruence|]. destruct (step_cons ONewGen g rest) as [g' ->].
    exists [g']. split; [discriminate | reflexivity]. }
  destruct H0 as (newer & Hn & ->).
  revert newer Hn. induction Hops as [|o ops Ho _ IH]; intros newer Hn; cbn [exec].
  - exists newer. auto.
  - destruct (step_shape o newer base Hn Ho) as (newer' & Hn' & ->). apply IH. assumption.
Qed.

Lemma exec_app a b s : exec (a ++ b) s = exec b (exec a s).
Proof. revert s. induction a as [|o a IH]; intros s; cbn; [reflexivity | apply IH]. Qed.

Lemma rollback_restores ops base :
  base <> [] -> Forall (keeps (length base)) ops ->
  exec (ONewGen :: ops ++ [ONormalize (length base - 1)]) base = base.
Proof.
  intros Hb Hops. rewrite app_comm_cons, exec_app.
  destruct (no_leak ops base Hb Hops) as (newer & Hn & ->).
  destruct newer as [|g newer]; [congruence|]. cbn [exec app].
  destruct (step_cons (ONormalize (length base - 1)) g (newer ++ base)) as [g' ->].
  cbn [stack_after]. unfold normalize. change (g :: newer ++ base) with ((g :: newer) ++ base).
  rewrite app_length.
  assert (Hl : (1 <= length base)%nat) by (destruct base; [congruence | cbn; lia]).
  replace (length (g :: newer) + length base - S (length base - 1))%nat with (length (g :: newer)) by lia.
  rewrite skipn_app, skipn_all, Nat.sub_diag. reflexivity.
Qed.

End Generations.

Lemma m_step_cons o g rest : exists g', fst (m_step o (g :: rest)) = stack_after o g' g rest.
Proof.
  assert (C : forall f, fst (on_cur f (g :: rest)) = fst (f g) :: rest) by (intros f; cbn; destruct (f g); reflexivity).
  destruct o; cbn [m_step stack_after]; rewrite ?C;
    first [exists g; reflexivity | eexists; reflexivity].
Qed.

Lemma s_step_cons o g rest : exists g', fst (s_step o (g :: rest)) = stack_after o g' g rest.
Proof.
  assert (C : forall f, fst (s_on_cur f (g :: rest)) = fst (f g) :: rest) by (intros f; cbn; destruct (f g); reflexivity).
  destruct o; cbn [s_step stack_after]; rewrite ?C;
    first [exists g; reflexivity | eexists; reflexivity].
Qed.

Lemma m_exec_eq ops s : m_exec ops s = exec m_step ops s.
Proof. revert s. induction ops as [|o ops IH]; intros s; cbn; [reflexivity | apply IH]. Qed.

Lemma s_exec_eq ops s : s_exec ops s = exec s_step ops s.
Proof. revert s. induction ops as [|o ops IH]; intros s; cbn; [reflexivity | apply IH]. Qed.

Theorem m_no_leak ops base :
  base <> [] -> Forall (keeps (length base)) ops ->
  exists newer, newer <> [] /\ m_exec (ONewGen :: ops) base = newer ++ base.
Proof. rewrite m_exec_eq. apply no_leak, m_step_cons. Qed.

Theorem m_rollback_restores ops base :
  base <> [] -> Forall (keeps (length base)) ops ->
  m_exec (ONewGen :: ops ++ [ONormalize (length base - 1)]) base = base.
Proof. rewrite m_exec_eq. apply rollback_restores, m_step_cons. Qed.

Theorem s_no_leak ops base :
  base <> [] -> Forall (keeps (length base)) ops ->
  exists newer, newer <> [] /\ s_exec (ONewGen :: ops) base = newer ++ base.
Proof. rewrite s_exec_eq. apply no_leak, s_step_cons. Qed.

Theorem s_rollback_restores ops base :
  base <> [] -> Forall (keeps (length base)) ops ->
  s_exec (ONewGen :: ops ++ [ONormalize (length base - 1)]) base = base.
Proof. rewrite s_exec_eq. apply rollback_restores, s_step_cons. Qed.

Lemma live_root_locked g s p k :
  R g s -> In p (live_roots (g_iters g)) -> is_prefix p k = true -> s_locked k s = true.
Proof.
  intros HR Hin Hp. rewrite (iter_roots_agree _ _ _ (R_iters _ _ HR)) in Hin.
  unfold s_locked. apply existsb_exists. exists p. split; assumption.
Qed.

Lemma live_root_locked2 g s p k :
  R g s -> In p (live_roots (g_iters g)) -> is_prefix p k = true \/ is_prefix k p = true ->
  s_locked2 k s = true.
Proof.
  intros HR Hin Hp. rewrite (iter_roots_agree _ _ _ (R_iters _ _ HR)) in Hin.
  unfold s_locked2. apply existsb_exists. exists p. split; [assumption|]. apply orb_true_iff. exact Hp.
Qed.

Lemma live_root_nonempty g s p :
  R g s -> In p (live_roots (g_iters g)) -> exists t, g_root g = Some t.
Proof.
  intros HR Hin. rewrite (iter_roots_agree _ _ _ (R_iters _ _ HR)) in Hin.
  pose proof (R_live _ _ HR p Hin) as HL. pose proof (root_nil_agree g s HR) as HN.
  destruct (g_root g) as [t|]; [eauto|]. exfalso.
  destruct (s_map s); [discriminate HL | discriminate HN].
Qed.

Theorem locked_refused g s p k v :
  R g s -> In p (live_roots (g_iters g)) ->
  (is_prefix p k = true -> m_insert k v g = (g, RLocked) /\ m_delete k g = (g, RLocked))
  /\ (is_prefix p k = true \/ is_prefix k p = true -> m_delete_prefix k g = (g, RLocked)).
Proof.
  intros HR Hin. destruct (live_root_nonempty g s p HR Hin) as [t Ht]. split.
  - intros Hp. pose proof (live_root_locked g s p k HR Hin Hp) as HL. split.
    + unfold m_insert. rewrite (locked_agree g s k HR), HL. reflexivity.
    + rewrite m_delete_eq, Ht. rewrite (locked_agree g s k HR), HL. reflexivity.
  - intros Hp. pose proof (live_root_locked2 g s p k HR Hin Hp) as HL.
    rewrite m_delete_prefix_eq, Ht. rewrite (locked2_agree g s k HR), HL. reflexivity.
Qed.

Lemma reachable_R ops g rest :
  m_exec ops m_init = g :: rest -> exists s srest, s_exec ops s_init = s :: srest /\ R g s /\ RS rest srest.
Proof.
  intros H. pose proof (exec_refines ops m_init s_init RS_init) as X. rewrite H in X.
  inversion X as [|? s ? srest HRg Hrest]; subst. eauto.
Qed.

Theorem locked_refused_reachable ops g rest p k v :
  m_exec ops m_init = g :: rest -> In p (live_roots (g_iters g)) ->
  (is_prefix p k = true -> m_insert k v g = (g, RLocked) /\ m_delete k g = (g, RLocked))
  /\ (is_prefix p k = true \/ is_prefix k p = true -> m_delete_prefix k g = (g, RLocked)).
Proof.
  intros H Hin. destruct (reachable_R ops g rest H) as (s & srest & _ & HR & _).
  eapply locked_refused; eassumption.
Qed.

Theorem deliter_releases_reachable ops g rest i p x :
  m_exec ops m_init = g :: rest -> nth_error (g_iters g) i = Some (Some (p, x)) ->
  exists l',
    m_deliter i g = (with_locks_iters g l' (set_nth i None (g_iters g)), RBool true)
    /\ forall q, pm_count q l' = if list_eqb p q then pm_count q (g_locks g) - 1 else pm_count q (g_locks g).
Proof.
  intros H Hi. destruct (reachable_R ops g rest H) as (s & srest & _ & HR & _).
  unfold m_deliter. rewrite Hi.
  destruct (pm_delete_spec p (g_locks g) p (R_pwf _ _ HR)) as (HA & _ & _).
  assert (Hpos : 0 < pm_count p (g_locks g)).
  { rewrite (R_locks _ _ HR), s_count_eq. apply bag_count_pos.
    rewrite <- (iter_roots_agree _ _ _ (R_iters _ _ HR)). eapply live_roots_in; eassumption. }
  destruct (pm_delete p (g_locks g)) as [l' b] eqn:ED. cbn [snd] in HA.
  exists l'. split.
  - rewrite HA. destruct (N.eqb_spec (pm_count p (g_locks g)) 0); [lia | reflexivity].
  - intros q. destruct (pm_delete_spec p (g_locks g) q (R_pwf _ _ HR)) as (_ & HB & _).
    rewrite ED in HB. exact HB.
Qed.

Theorem overflow_is_error_reachable ops g rest k t :
  m_exec ops m_init = g :: rest -> g_root g = Some t -> has_prefix (nib k) t = true ->
  pm_count k (g_locks g) = MAXC -> m_iter k g = (g, RTooMany).
Proof.
  intros H Ht Hp Hc. destruct (reachable_R ops g rest H) as (s & srest & _ & HR & _).
  unfold m_iter. rewrite Ht, Hp.
  rewrite (proj2 (pm_insert_none k (g_locks g) (R_pwf _ _ HR)) Hc). reflexivity.
Qed.

Lemma ent_get_set_none ents e : ent_get (set_nth e None ents) e = None.
Proof.
  unfold ent_get. revert e. induction ents as [|x ents IH]; intros [|e]; cbn; auto.
Qed.

(** A handle to a deleted entry is invalid for every later use. *)
Theorem deleted_entry_invalid k g e h v :
  lookup_root (nib k) (g_root g) = Some e -> snd (m_delete k g) <> RLocked ->
  nth_error (g_handles g) h = Some e ->
  let g' := fst (m_delete k g) in
  m_read h g' = (g', RVal None) /\ m_set h v g' = (g', RBool false) /\ m_mut h v g' = (g', RVal None).
Proof.
  intros Hl Hnl Hh. rewrite m_delete_eq in *. destruct (g_root g) as [t|] eqn:Er; [|discriminate].
  rewrite <- Er in *. destruct (negb (pm_no_prefix k (g_locks g))); [cbn in Hnl; congruence|].
  rewrite Hl. cbn [fst]. unfold m_read, m_set, m_mut. proj_simpl. rewrite Hh, ent_get_set_none.
  repeat split; reflexivity.
Qed.

(** * An iterator yields the snapshot taken at its creation (specification machine,
      any interleaving of operations of its generation) *)

Definition sg_step (o : op) (g : sgen) : sgen * out :=
  match o with
  | OInsert k v => s_insert k v g
  | OGet k => s_get k g
  | ORead h => s_read h g
  | OSet h v => s_set h v g
  | OMut h v => s_mut h v g
  | ODelete k => s_delete k g
  | ODeletePrefix k => s_delete_prefix k g
  | OIter k => s_iter k g
  | ONext i => s_next i g
  | ODelIter i => s_deliter i g
  | _ => (g, RSkip)
  end.

(** What the [ONext i] operations of a history return: [Some key] or [None] (exhausted). *)
Fixpoint sg_yields (i : nat) (ops : list op) (g : sgen) : list (option (list N)) :=
  match ops with
  | [] => []
  | o :: r =>
      let g' := fst (sg_step o g) in
      match o with
      | ONext j =>
          if Nat.eqb j i
          then (match snd (sg_step o g) with RNext k _ _ => Some k | _ => None end) :: sg_yields i r g'
          else sg_yields i r g'
      | _ => sg_yields i r g'
      end
  end.

(** The first [n] elements of the snapshot, then [None] for ever. *)
Fixpoint snapshot_prefix (n : nat) (S : list (list N)) : list (option (list N)) :=
  match n with
  | O => []
  | Datatypes.S n' =>
      match S with
      | [] => None :: snapshot_prefix n' []
      | k :: S' => Some k :: snapshot_prefix n' S'
      end
  end.

Definition not_deliter (i : nat) (o : op) : Prop :=
  match o with ODelIter j => j <> i | _ => True end.

(** Invariant: slot [i] holds the rest [S'] of the snapshot, all of whose keys are still
    in the (sorted) map, and the keys under the prefix are those at creation. *)
Record SnapInv (i : nat) (k : list N) (L0 : amap nat) (S' : list (list N)) (g : sgen) : Prop := {
  SI_slot : nth_error (s_iters g) i = Some (Some (k, S'));
  SI_sorted : ksorted (s_map g);
  SI_same : a_iterate k (s_map g) = L0;
  SI_sub : forall key, In key S' -> In key (map fst L0)
}.

Lemma nth_error_set_nth_other {A} (l : list A) i j x : i <> j -> nth_error (set_nth j x l) i = nth_error l i.
Proof.
  revert i j. induction l as [|a l IH]; intros [|i] [|j] H; cbn; try reflexivity; try congruence.
  apply IH. congruence.
Qed.

Lemma nth_error_set_nth_same {A} (l : list A) i x y :
  nth_error l i = Some y -> nth_error (set_nth i x l) i = Some x.
Proof. revert i. induction l as [|a l IH]; intros [|i] H; cbn in *; try discriminate; auto. Qed.

Lemma SnapInv_map_change i k L0 S' g m' :
  SnapInv i k L0 S' g -> ksorted m' -> a_iterate k m' = a_iterate k (s_map g) ->
  forall ents, SnapInv i k L0 S' (s_with_ents (s_with_map g m') ents).
Proof. intros [A B C D] Hs Hsame ents. constructor; proj_simpl; auto. congruence. Qed.

Lemma SnapInv_with_handle i k L0 S' g e : SnapInv i k L0 S' g -> SnapInv i k L0 S' (s_with_handle g e).
Proof. intros [A B C D]. constructor; assumption. Qed.

Lemma SnapInv_prefix_unlocked i k L0 S' g key :
  SnapInv i k L0 S' g -> s_locked key g = false -> is_prefix k key = false.
Proof. intros H HL. eapply locked_false_roots; [exact HL|]. eapply live_roots_in. apply H. Qed.

Lemma SnapInv_step i k L0 S' g o :
  SnapInv i k L0 S' g -> not_deliter i o ->
  match o with
  | ONext j =>
      if Nat.eqb j i then
        match S' with
        | [] => snd (sg_step o g) = RNone /\ SnapInv i k L0 [] (fst (sg_step o g))
        | key :: S'' => (exists h v, snd (sg_step o g) = RNext key h v) /\ SnapInv i k L0 S'' (fst (sg_step o g))
        end
      else SnapInv i k L0 S' (fst (sg_step o g))
  | _ => SnapInv i k L0 S' (fst (sg_step o g))
  end.
Proof.
  intros HI Hnd. pose proof HI as [A B C D].
  destruct o; cbn [sg_step]; try exact HI.
  - unfold s_insert. destruct (s_locked k0 g) eqn:EL; [exact HI|].
    pose proof (SnapInv_prefix_unlocked _ _ _ _ _ _ HI EL) as Hp.
    destruct (a_lookup k0 (s_map g)); cbn [fst]; apply SnapInv_with_handle.
    + exact (SnapInv_map_change _ _ _ _ g _ HI B eq_refl _).
    + apply SnapInv_map_change; [exact HI | apply ksorted_insert, B | apply a_iterate_insert_other, Hp].
  - unfold s_get. destruct (a_lookup k0 (s_map g)); cbn [fst]; [apply SnapInv_with_handle|]; exact HI.
  - unfold s_read. destruct (nth_error (s_handles g) h); exact HI.
  - unfold s_set. destruct (nth_error (s_handles g) h); [|exact HI].
    destruct (ent_get (s_ents g) n); [|exact HI]. exact (SnapInv_map_change _ _ _ _ g _ HI B eq_refl _).
  - unfold s_mut. destruct (nth_error (s_handles g) h); [|exact HI].
    destruct (ent_get (s_ents g) n); [|exact HI]. exact (SnapInv_map_change _ _ _ _ g _ HI B eq_refl _).
  - rewrite s_delete_eq. destruct (is_nil (s_map g)); [exact HI|].
    destruct (s_locked k0 g) eqn:EL; [exact HI|].
    pose proof (SnapInv_prefix_unlocked _ _ _ _ _ _ HI EL) as Hp.
    destruct (a_lookup k0 (s_map g)); [|exact HI]. cbn [fst].
    apply SnapInv_map_change; [exact HI | apply ksorted_filter, B | apply a_iterate_delete_other, Hp].
  - rewrite s_delete_prefix_eq. destruct (is_nil (s_map g)); [exact HI|].
    destruct (s_locked2 k0 g) eqn:EL; [exact HI|].
    destruct (is_nil (a_iterate k0 (s_map g))); [exact HI|]. cbn [fst].
    destruct (locked2_false_roots k0 g k EL (live_roots_in _ _ _ _ A)) as [X Y].
    apply SnapInv_map_change;
      [exact HI | apply ksorted_filter, B | apply a_iterate_delete_prefix_other; assumption].
  - rewrite s_iter_eq. destruct (is_nil (a_iterate k0 (s_map g))); [exact HI|].
    destruct (s_count k0 g =? MAXC); [exact HI|]. cbn [fst].
    constructor; proj_simpl; auto.
    rewrite nth_error_app1; [assumption|]. apply nth_error_Some. congruence.
  - unfold s_next. destruct (Nat.eqb_spec i0 i) as [->|Hne].
    + rewrite A. destruct S' as [|key S''].
      * split; [reflexivity | exact HI].
      * assert (Hin : In key (map fst L0)) by (apply D; left; reflexivity).
        apply in_map_iff in Hin as [[key' e] [Hk Hin]]. cbn in Hk. subst key'.
        rewrite <- C in Hin. apply filter_In in Hin as [Hin _].
        rewrite (ksorted_in_lookup key e (s_map g) B Hin). cbn [fst snd].
        split; [eauto|]. constructor; proj_simpl; auto.
        -- eapply nth_error_set_nth_same. eassumption.
        -- intros x Hx. apply D. right. exact Hx.
    + destruct (nth_error (s_iters g) i0) as [[[p rem]|]|]; try exact HI.
      destruct rem as [|key rem']; [exact HI|].
      destruct (a_lookup key (s_map g)); [|exact HI]. cbn [fst].
      constructor; proj_simpl; auto. rewrite nth_error_set_nth_other by congruence. assumption.
  - cbn [not_deliter] in Hnd. unfold s_deliter.
    destruct (nth_error (s_iters g) i0) as [[[p rem]|]|]; try exact HI. cbn [fst].
    constructor; proj_simpl; auto. rewrite nth_error_set_nth_other by congruence. assumption.
Qed.

Lemma sg_yields_snapshot i k L0 ops : forall S' g,
  SnapInv i k L0 S' g -> Forall (not_deliter i) ops ->
  sg_yields i ops g = snapshot_prefix (length (sg_yields i ops g)) S'.
Proof.
  induction ops as [|o ops IH]; intros S' g HI Hops; [reflexivity|].
  inversion Hops as [|? ? Ho Hrest]; subst.
  pose proof (SnapInv_step i k L0 S' g o HI Ho) as HS.
  cbn [sg_yields]. destruct o; try (apply IH; assumption).
  destruct (Nat.eqb i0 i).
  - destruct S' as [|key S''].
    + destruct HS as [Hout HI']. rewrite Hout. cbn [length snapshot_prefix]. f_equal. apply IH; assumption.
    + destruct HS as [(h & v & Hout) HI']. rewrite Hout. cbn [length snapshot_prefix]. f_equal. apply IH; assumption.
  - apply IH; assumption.
Qed.

(** Creation: [s_iter] stores exactly the keys under the prefix. *)
Theorem iterator_snapshot g k g1 i ops :
  ksorted (s_map g) -> s_iter k g = (g1, RIter i) -> Forall (not_deliter i) ops ->
  sg_yields i ops g1 =
  snapshot_prefix (length (sg_yields i ops g1)) (map fst (a_iterate k (s_map g))).
Proof.
  intros Hs Hit Hops. rewrite s_iter_eq in Hit.
  destruct (is_nil (a_iterate k (s_map g))); [discriminate|].
  destruct (s_count k g =? MAXC); [discriminate|]. inversion Hit; subst.
  apply (sg_yields_snapshot (length (s_iters g)) k (a_iterate k (s_map g))); [|assumption].
  constructor; proj_simpl; auto.
  rewrite nth_error_app2, Nat.sub_diag by lia. reflexivity.
Qed.
