(** Lemmas about [Nibbles.v]: each transcribed function of [Stem] / [MutStem] / [StemIter]
    is the obvious operation on the list of nibbles, including odd nibble boundaries, and
    keeps the stored form well-formed (bytes are bytes; the unused low nibble of a partial
    last byte is zero). *)
From Coq Require Import NArith PeanoNat List Bool Lia.
From CB Require Import Trie.Radix.
From CB Require Import Trie.RadixProofs.
From CB Require Import Trie.Nibbles.
Import ListNotations.
Local Open Scope N_scope.

Lemma and_lo b : b_and b 15 = b mod 16.
Proof. apply (N.land_ones b 4). Qed.

Lemma shr_byte b : shr4 b = b / 16.
Proof. apply (N.shiftr_div_pow2 b 4). Qed.

Lemma shl_byte b : shl4 b = 16 * (b mod 16).
Proof.
  unfold shl4. rewrite N.shiftl_mul_pow2, (N.land_ones _ 8), N.mul_comm.
  apply (N.mul_mod_distr_l b 16 16); discriminate.
Qed.

Lemma shr_and_hi b : b < 256 -> shr4 (b_and b 240) = b / 16.
Proof.
  intros H. unfold shr4, b_and. rewrite N.shiftr_land. change (N.shiftr 240 4) with 15.
  rewrite (N.land_ones _ 4), (N.shiftr_div_pow2 b 4). apply N.mod_small, N.div_lt_upper_bound; lia.
Qed.

Lemma and_hi b : b < 256 -> b_and b 240 = 16 * (b / 16).
Proof.
  (* the masked byte has high nibble [b / 16] and low nibble 0 *)
  intros H. rewrite (N.div_mod' (b_and b 240) 16), <- shr_byte, shr_and_hi, <- and_lo by exact H.
  unfold b_and. rewrite <- N.land_assoc. change (N.land 240 15) with 0. rewrite N.land_0_r. lia.
Qed.

Lemma or_nibbles h l : l < 16 -> b_or (16 * h) l = 16 * h + l.
Proof. intros H. rewrite (N.mul_comm 16 h). exact (lor_low_add h l 4 H). Qed.

Lemma div16_lt b : b < 256 -> b / 16 < 16.
Proof. intros H. apply N.div_lt_upper_bound; lia. Qed.

Lemma mod16_lt b : b mod 16 < 16.
Proof. apply N.mod_lt. lia. Qed.

Lemma mk_lt h l : h < 16 -> l < 16 -> 16 * h + l < 256.
Proof. lia. Qed.

Lemma mul16_mod h : (16 * h) mod 16 = 0.
Proof. rewrite N.mul_comm. apply N.mod_mul. lia. Qed.

Lemma mul16_div h : (16 * h) / 16 = h.
Proof. rewrite N.mul_comm. apply N.div_mul. lia. Qed.

Lemma bnibs_nib l : bnibs l = nib l.
Proof. induction l as [|b l IH]; cbn; [reflexivity|]. rewrite IH. reflexivity. Qed.

Lemma bnibs_app a b : bnibs (a ++ b) = bnibs a ++ bnibs b.
Proof. induction a as [|x a IH]; cbn; [reflexivity|]. rewrite IH. reflexivity. Qed.

Lemma bnibs_length l : length (bnibs l) = (2 * length l)%nat.
Proof. induction l as [|b l IH]; cbn; [reflexivity|]. rewrite IH. lia. Qed.

Lemma bnibs_mk h l : l < 16 -> bnibs [16 * h + l] = [h; l].
Proof. intros H. cbn [bnibs]. rewrite mk_div, mk_mod by assumption. reflexivity. Qed.

Lemma bnibs_mk0 h : bnibs [16 * h] = [h; 0].
Proof. rewrite <- (N.add_0_r (16 * h)). apply bnibs_mk. lia. Qed.

Lemma bnibs_firstn q l : bnibs (firstn q l) = firstn (2 * q) (bnibs l).
Proof.
  revert l. induction q as [|q IH]; intros l; [reflexivity|].
  destruct l as [|b l]; [reflexivity|]. cbn [firstn bnibs].
  replace (2 * S q)%nat with (S (S (2 * q))) by lia. cbn [firstn]. rewrite IH. reflexivity.
Qed.

Lemma bnibs_skipn q l : bnibs (skipn q l) = skipn (2 * q) (bnibs l).
Proof.
  revert l. induction q as [|q IH]; intros l; [reflexivity|].
  destruct l as [|b l]; [reflexivity|]. cbn [skipn bnibs].
  replace (2 * S q)%nat with (S (S (2 * q))) by lia. cbn [skipn]. apply IH.
Qed.

Lemma on_last_cons2 f x y l : on_last f (x :: y :: l) = x :: on_last f (y :: l).
Proof. reflexivity. Qed.

Lemma on_last_app f l a : on_last f (l ++ [a]) = l ++ [f a].
Proof.
  induction l as [|x l IH]; [reflexivity|]. destruct l as [|y l]; [reflexivity|].
  cbn [app] in *. rewrite on_last_cons2, IH. reflexivity.
Qed.

Lemma on_last_length f l : length (on_last f l) = length l.
Proof.
  induction l as [|x l IH]; [reflexivity|]. destruct l as [|y l]; [reflexivity|].
  cbn [on_last length] in *. rewrite IH. reflexivity.
Qed.

Notation bytes_ok d := (Forall (fun b : N => b < 256) d).

Lemma bytes_ok_app a b : bytes_ok (a ++ b) <-> bytes_ok a /\ bytes_ok b.
Proof. apply Forall_app. Qed.

Lemma bytes_ok_mk d h l : bytes_ok d -> h < 16 -> l < 16 -> bytes_ok (d ++ [16 * h + l]).
Proof.
  intros Hd Hh Hl. apply Forall_app. split; [exact Hd|]. constructor; [apply mk_lt; assumption | constructor].
Qed.

Lemma nibbles_full d : nibbles (mkStem d false) = bnibs d.
Proof.
  unfold nibbles, st_len. cbn [st_partial st_data]. rewrite <- bnibs_length. apply firstn_all.
Qed.

Lemma nibbles_partial d x : nibbles (mkStem (d ++ [16 * x]) true) = bnibs d ++ [x].
Proof.
  unfold nibbles, st_len. cbn [st_partial st_data]. rewrite app_length, bnibs_app, bnibs_mk0. cbn [length].
  replace (2 * (length d + 1) - 1)%nat with (length (bnibs d) + 1)%nat by (rewrite bnibs_length; lia).
  rewrite firstn_app_2. reflexivity.
Qed.

(** A well-formed stem is either full, or [d ++ [16 * x]] with [x] a nibble. *)
Lemma st_wf_shape s :
  st_wf s = true ->
  bytes_ok (st_data s)
  /\ (st_partial s = true -> exists d x, st_data s = d ++ [16 * x] /\ x < 16).
Proof.
  destruct s as [d p]. unfold st_wf. cbn [st_data st_partial]. intros H.
  apply andb_true_iff in H as [H1 H2].
  assert (Hb : bytes_ok d).
  { apply Forall_forall. intros b Hb. rewrite forallb_forall in H1. apply N.ltb_lt. auto. }
  split; [exact Hb|]. intros ->.
  destruct d as [|b0 d0] eqn:E; [discriminate|]. rewrite <- E in *.
  assert (Hne : d <> []) by (rewrite E; discriminate).
  destruct (exists_last Hne) as (d' & l & ->).
  rewrite last_last in H2. apply N.eqb_eq in H2.
  apply bytes_ok_app in Hb as [_ Hl]. inversion Hl as [|? ? Hl' _]; subst.
  exists d', (l / 16). split; [|apply div16_lt; assumption].
  f_equal. f_equal. rewrite (N.div_mod' l 16) at 1. rewrite H2. lia.
Qed.

Lemma st_wf_full d : bytes_ok d -> st_wf (mkStem d false) = true.
Proof.
  intros H. unfold st_wf. cbn. rewrite andb_true_r. apply forallb_forall. intros b Hb.
  apply N.ltb_lt. rewrite Forall_forall in H. auto.
Qed.

Lemma st_wf_partial d x : bytes_ok d -> x < 16 -> st_wf (mkStem (d ++ [16 * x]) true) = true.
Proof.
  intros H Hx. unfold st_wf. cbn [st_data st_partial]. apply andb_true_iff. split.
  - apply forallb_forall. intros b Hb. apply N.ltb_lt. apply in_app_iff in Hb as [Hb|[<-|[]]]; [|lia].
    rewrite Forall_forall in H. auto.
  - destruct (d ++ [16 * x]) eqn:E; [destruct d; discriminate|]. rewrite <- E, last_last.
    apply N.eqb_eq. apply mul16_mod.
Qed.

Lemma bnibs_lt d : bytes_ok d -> Forall (fun c => c < 16) (bnibs d).
Proof.
  induction 1 as [|b d Hb _ IH]; cbn; constructor; [apply div16_lt; assumption|].
  constructor; [apply mod16_lt | assumption].
Qed.

Theorem ms_push_spec s c :
  st_wf s = true -> c < 16 ->
  nibbles (ms_push s c) = nibbles s ++ [c] /\ st_wf (ms_push s c) = true.
Proof.
  intros Hwf Hc. destruct (st_wf_shape s Hwf) as [Hb Hp]. destruct s as [d p]. cbn [st_data st_partial] in *.
  unfold ms_push. cbn [st_data st_partial]. destruct p.
  - destruct (Hp eq_refl) as (d' & x & -> & Hx). apply bytes_ok_app in Hb as [Hb' _].
    rewrite on_last_app, nibbles_full, nibbles_partial.
    rewrite or_nibbles by assumption.
    rewrite bnibs_app, bnibs_mk by assumption. rewrite <- app_assoc. split; [reflexivity|].
    apply st_wf_full, bytes_ok_mk; assumption.
  - rewrite shl_byte, N.mod_small by assumption.
    rewrite nibbles_partial, nibbles_full. split; [reflexivity|]. apply st_wf_partial; assumption.
Qed.

Lemma even_half n : Nat.even n = true -> n = (2 * (n / 2))%nat.
Proof.
  intros H. apply Nat.even_spec in H as [m ->]. rewrite Nat.mul_comm, Nat.div_mul by lia. lia.
Qed.

Lemma odd_half n : Nat.even n = false -> n = (2 * (n / 2) + 1)%nat.
Proof.
  intros H. assert (Ho : Nat.odd n = true) by (rewrite <- Nat.negb_even, H; reflexivity).
  apply Nat.odd_spec in Ho as [m ->].
  replace ((2 * m + 1) / 2)%nat with m; [lia|].
  symmetry. rewrite Nat.mul_comm, Nat.div_add_l by lia. cbn. lia.
Qed.

Lemma firstn_succ_nth {A} (d : A) q l : (q < length l)%nat -> firstn (S q) l = firstn q l ++ [nth q l d].
Proof.
  revert l. induction q as [|q IH]; intros [|a l] H; cbn in *; try lia; [reflexivity|].
  rewrite IH by lia. reflexivity.
Qed.

Lemma Forall_firstn' {A} (P : A -> Prop) n l : Forall P l -> Forall P (firstn n l).
Proof.
  intros H. revert n. induction H as [|a l Ha _ IH]; intros [|n]; cbn; constructor; auto.
Qed.

Lemma Forall_nth' {A} (P : A -> Prop) d n l : Forall P l -> P d -> P (nth n l d).
Proof.
  intros H Hd. revert n. induction H as [|a l Ha _ IH]; intros [|n]; cbn; auto.
Qed.

Lemma bnibs_nth_even q d : (q < length d)%nat -> nth (2 * q) (bnibs d) 0 = nth q d 0 / 16.
Proof.
  revert d. induction q as [|q IH]; intros [|b d] H; cbn [length] in *; try lia; [reflexivity|].
  replace (2 * S q)%nat with (S (S (2 * q))) by lia. cbn [bnibs nth]. apply IH. lia.
Qed.

Lemma bnibs_nth_odd q d : (q < length d)%nat -> nth (2 * q + 1) (bnibs d) 0 = nth q d 0 mod 16.
Proof.
  revert d. induction q as [|q IH]; intros [|b d] H; cbn [length] in *; try lia; [reflexivity|].
  replace (2 * S q + 1)%nat with (S (S (2 * q + 1))) by lia. cbn [bnibs nth]. apply IH. lia.
Qed.

Lemma nibbles_length s : st_wf s = true -> length (nibbles s) = st_len s.
Proof.
  intros H. unfold nibbles. rewrite firstn_length, bnibs_length. unfold st_len.
  destruct (st_partial s); lia.
Qed.

Lemma st_len_le s : (st_len s <= 2 * length (st_data s))%nat.
Proof. unfold st_len. destruct (st_partial s); lia. Qed.

Theorem ms_truncate_spec s n :
  st_wf s = true -> (n <= st_len s)%nat ->
  nibbles (ms_truncate s n) = firstn n (nibbles s) /\ st_wf (ms_truncate s n) = true.
Proof.
  intros Hwf Hn. destruct (st_wf_shape s Hwf) as [Hb _]. pose proof (st_len_le s) as Hle.
  assert (Hf : firstn n (nibbles s) = firstn n (bnibs (st_data s))).
  { unfold nibbles. rewrite firstn_firstn. f_equal. lia. }
  rewrite Hf. unfold ms_truncate. destruct (Nat.even n) eqn:E.
  - apply even_half in E. rewrite nibbles_full, bnibs_firstn, <- E. split; [reflexivity|].
    apply st_wf_full. apply Forall_firstn'. assumption.
  - apply odd_half in E. set (q := (n / 2)%nat) in *. clearbody q.
    assert (Hq : (q < length (st_data s))%nat) by lia.
    replace (q + 1)%nat with (S q) by lia.
    rewrite (firstn_succ_nth 0) by assumption. rewrite on_last_app.
    assert (Hbq : nth q (st_data s) 0 < 256) by (apply Forall_nth'; [assumption | lia]).
    rewrite and_hi by assumption. rewrite nibbles_partial, bnibs_firstn. split.
    + rewrite E. replace (2 * q + 1)%nat with (S (2 * q)) by lia.
      rewrite (firstn_succ_nth 0) by (rewrite bnibs_length; lia).
      rewrite bnibs_nth_even by assumption. reflexivity.
    + apply st_wf_partial; [apply Forall_firstn'; assumption | apply div16_lt; assumption].
Qed.

Lemma shr_loop_spec r ps :
  r < 16 -> bytes_ok ps ->
  bnibs (shr_loop r ps) = firstn (2 * length ps) (r :: bnibs ps) /\ bytes_ok (shr_loop r ps).
Proof.
  intros Hr Hps. revert r Hr. induction Hps as [|p ps Hp _ IH]; intros r Hr; [split; [reflexivity | constructor]|].
  cbn [shr_loop]. rewrite shr_byte, shl_byte, and_lo, (N.mod_small r) by assumption.
  pose proof (div16_lt p Hp) as Hd. pose proof (mod16_lt p) as Hm.
  rewrite (N.lor_comm _ _ : b_or (p / 16) (16 * r) = b_or (16 * r) (p / 16)), or_nibbles by assumption.
  destruct (IH (p mod 16) Hm) as [IH1 IH2]. split.
  - change (bnibs ((16 * r + p / 16) :: shr_loop (p mod 16) ps))
      with (bnibs [16 * r + p / 16] ++ bnibs (shr_loop (p mod 16) ps)).
    rewrite bnibs_mk by assumption. rewrite IH1.
    cbn [length bnibs]. replace (2 * S (length ps))%nat with (S (S (2 * length ps))) by lia.
    reflexivity.
  - constructor; [lia | assumption].
Qed.

Lemma prep_is_shr m ps : prep_loop (shl4 m) ps = shr_loop m ps.
Proof.
  revert m. induction ps as [|p r IH]; intros m; [reflexivity|]. cbn [prep_loop shr_loop].
  rewrite IH. unfold b_or. rewrite N.lor_comm. reflexivity.
Qed.

Lemma shl_loop_cons p r n nr :
  shl_loop (p :: r) (n :: nr) = b_or (shl4 p) (shr4 (b_and n 240)) :: shl_loop r nr.
Proof. reflexivity. Qed.

Lemma firstn_app_exact {A} (a b : list A) n : length a = n -> firstn n (a ++ b) = a.
Proof. intros <-. rewrite firstn_app, Nat.sub_diag, firstn_all. cbn. apply app_nil_r. Qed.

Lemma skipn_app_exact {A} (a b : list A) n : length a = n -> skipn n (a ++ b) = b.
Proof. intros <-. rewrite skipn_app, Nat.sub_diag, skipn_all. reflexivity. Qed.

Lemma shl_is_shr p r : bytes_ok r -> shl_loop (p :: r) (r ++ [0]) = shr_loop (b_and p 15) (r ++ [0]).
Proof.
  intros Hr. revert p. induction Hr as [|q r Hq _ IH]; intros p.
  - cbn [app shl_loop shr_loop]. rewrite !shl_byte, and_lo, N.mod_mod by lia.
    change (shr4 (b_and 0 240)) with 0. change (shr4 0) with 0. unfold b_or. rewrite N.lor_0_r. reflexivity.
  - change ((q :: r) ++ [0]) with (q :: (r ++ [0])). rewrite shl_loop_cons. cbn [shr_loop]. rewrite IH. f_equal.
    rewrite !shl_byte, and_lo, N.mod_mod, shr_and_hi, shr_byte by (assumption || lia). apply N.lor_comm.
Qed.

Lemma shl_loop_spec p r :
  bytes_ok (p :: r) ->
  bnibs (shl_loop (p :: r) (r ++ [0])) = tl (bnibs (p :: r)) ++ [0]
  /\ bytes_ok (shl_loop (p :: r) (r ++ [0]))
  /\ last (shl_loop (p :: r) (r ++ [0])) 0 mod 16 = 0.
Proof.
  intros Hb. inversion Hb as [|? ? Hp Hr]; subst. rewrite (shl_is_shr p r Hr), and_lo.
  assert (Hr0 : bytes_ok (r ++ [0])) by (apply Forall_app; split; [exact Hr | repeat constructor; lia]).
  destruct (shr_loop_spec (p mod 16) (r ++ [0]) (mod16_lt p) Hr0) as [L1 L2].
  assert (Hn : bnibs (shr_loop (p mod 16) (r ++ [0])) = tl (bnibs (p :: r)) ++ [0]).
  { rewrite L1, app_length, bnibs_app. cbn [length bnibs tl]. change (0 / 16) with 0. change (0 mod 16) with 0.
    replace (2 * (length r + 1))%nat with (S (length (bnibs r ++ [0]))) by (rewrite app_length, bnibs_length; cbn; lia).
    cbn [firstn app]. f_equal. change [0; 0] with ([0] ++ [0]). rewrite app_assoc. apply firstn_app_exact. reflexivity. }
  split; [exact Hn|]. split; [exact L2|].
  assert (Hne : shr_loop (p mod 16) (r ++ [0]) <> []) by (intros E; rewrite E in Hn; discriminate).
  destruct (exists_last Hne) as (l' & z & E). rewrite E, last_last. rewrite E, bnibs_app in Hn. cbn [bnibs tl] in Hn.
  change [z / 16; z mod 16] with ([z / 16] ++ [z mod 16]) in Hn. rewrite app_assoc in Hn.
  apply app_inj_tail in Hn as [_ Hn]. exact Hn.
Qed.

Lemma nibbles_partial_of d ns z : bnibs d = ns ++ [z] -> nibbles (mkStem d true) = ns.
Proof.
  intros H. unfold nibbles, st_len. cbn [st_data st_partial]. rewrite H.
  apply firstn_app_exact. apply (f_equal (@length N)) in H. rewrite bnibs_length, app_length in H.
  cbn in H. lia.
Qed.

Lemma last_app_ne {A} (a b : list A) d : b <> [] -> last (a ++ b) d = last b d.
Proof.
  intros Hb. destruct (exists_last Hb) as (b' & z & ->).
  rewrite app_assoc, !last_last. reflexivity.
Qed.

Lemma st_wf_partial_gen d :
  bytes_ok d -> d <> [] -> last d 0 mod 16 = 0 -> st_wf (mkStem d true) = true.
Proof.
  intros Hb Hne Hl. unfold st_wf. cbn [st_data st_partial]. apply andb_true_iff. split.
  - apply forallb_forall. intros b Hin. apply N.ltb_lt. rewrite Forall_forall in Hb. auto.
  - destruct d; [congruence|]. apply N.eqb_eq. exact Hl.
Qed.

Theorem ms_extend_spec s t :
  st_wf s = true -> st_wf t = true ->
  nibbles (ms_extend s t) = nibbles s ++ nibbles t /\ st_wf (ms_extend s t) = true.
Proof.
  intros Hs Ht. destruct (st_wf_shape s Hs) as [Hbs Hps]. destruct (st_wf_shape t Ht) as [Hbt Hpt].
  destruct s as [sd sp], t as [td tp]. cbn [st_data st_partial] in *.
  unfold ms_extend. cbn [st_data st_partial]. destruct td as [|d0 dr].
  - destruct tp.
    + destruct (Hpt eq_refl) as (d & x & E & _). destruct d; discriminate.
    + rewrite (nibbles_full []). cbn [bnibs]. rewrite app_nil_r. split; [reflexivity | exact Hs].
  - inversion Hbt as [|? ? Hd0 Hdr]; subst. pose proof (div16_lt d0 Hd0) as Hd0h. pose proof (mod16_lt d0) as Hd0l.
    destruct sp.
    + destruct (Hps eq_refl) as (sd' & x & -> & Hx). apply Forall_app in Hbs as [Hbs' _].
      rewrite on_last_app. rewrite shr_and_hi by assumption.
      rewrite or_nibbles by assumption.
      assert (Hlen : length (sd' ++ [16 * x + d0 / 16]) = length (sd' ++ [16 * x]))
        by (rewrite !app_length; reflexivity).
      rewrite nibbles_partial.
      destruct tp.
      * rewrite firstn_app_exact, skipn_app_exact by exact Hlen.
        rewrite and_lo.
        destruct (shr_loop_spec (d0 mod 16) dr Hd0l Hdr) as [L1 L2].
        rewrite nibbles_full, !bnibs_app, bnibs_mk, L1 by assumption. split.
        -- unfold nibbles, st_len. cbn [st_data st_partial length bnibs].
           replace (2 * S (length dr) - 1)%nat with (S (2 * length dr)) by lia.
           cbn [firstn]. rewrite <- !app_assoc. reflexivity.
        -- apply st_wf_full, Forall_app. split; [apply bytes_ok_mk; assumption | assumption].
      * rewrite firstn_app_exact, skipn_app_exact by exact Hlen.
        destruct (shl_loop_spec d0 dr Hbt) as (L1 & L2 & L3).
        assert (Hne : shl_loop (d0 :: dr) (dr ++ [0]) <> []).
        { intros E. rewrite E in L1. cbn in L1. destruct (bnibs dr); discriminate. }
        split.
        -- apply (nibbles_partial_of _ _ 0). rewrite !bnibs_app, bnibs_mk, L1 by assumption.
           rewrite nibbles_full. cbn [bnibs tl]. rewrite <- !app_assoc. cbn [app]. reflexivity.
        -- apply st_wf_partial_gen.
           ++ apply Forall_app. split; [apply bytes_ok_mk; assumption | assumption].
           ++ intros E. apply app_eq_nil in E as [_ E]. contradiction.
           ++ rewrite last_app_ne by assumption. exact L3.
    + destruct tp.
      * destruct (Hpt eq_refl) as (td' & y & E & Hy). rewrite E in *. apply Forall_app in Hbt as [Hbt' _].
        rewrite app_assoc, !nibbles_partial, nibbles_full, bnibs_app, <- app_assoc. split; [reflexivity|].
        apply st_wf_partial; [apply Forall_app; split; assumption | assumption].
      * rewrite !nibbles_full, bnibs_app. split; [reflexivity|]. apply st_wf_full.
        apply Forall_app. split; assumption.
Qed.

Lemma prepend_is_extend self first mid :
  st_wf self = true -> prepend_parts self first mid = ms_extend (ms_push first mid) self.
Proof.
  intros Hs. destruct (st_wf_shape self Hs) as [Hbs Hps].
  assert (Hnil : st_data self = [] -> st_partial self = false).
  { intros E. destruct (st_partial self); [|reflexivity]. destruct (Hps eq_refl) as (d & x & E' & _).
    rewrite E in E'. destruct d; discriminate. }
  destruct self as [sd sp], first as [fd fp]. cbn [st_data st_partial] in *.
  unfold prepend_parts, ms_push, ms_extend. cbn [st_data st_partial]. destruct fp; cbn [st_data st_partial].
  - destruct sd as [|d0 dr]; [|reflexivity]. rewrite app_nil_r, (Hnil eq_refl). reflexivity.
  - rewrite prep_is_shr. destruct sd as [|d0 dr].
    + rewrite (Hnil eq_refl), app_nil_r, firstn_app_exact, skipn_app_exact by reflexivity. cbn [negb shr_loop].
      change (shr4 0) with 0. reflexivity.
    + inversion Hbs as [|? ? Hd0 Hdr]; subst. rewrite on_last_app. destruct sp; cbn [negb].
      * rewrite !firstn_app_exact, !skipn_app_exact by (rewrite ?app_length; reflexivity).
        cbn [shr_loop]. rewrite shr_and_hi, shr_byte, <- app_assoc by assumption.
        unfold b_or. rewrite N.lor_comm. reflexivity.
      * rewrite <- (app_assoc fd), !firstn_app_exact, !skipn_app_exact by (rewrite ?app_length; reflexivity).
        rewrite (shl_is_shr d0 dr Hdr). cbn [app shr_loop]. rewrite shr_and_hi, shr_byte, <- app_assoc by assumption.
        unfold b_or. rewrite N.lor_comm. reflexivity.
Qed.

Theorem prepend_parts_spec self first mid :
  st_wf self = true -> st_wf first = true -> mid < 16 ->
  nibbles (prepend_parts self first mid) = nibbles first ++ mid :: nibbles self
  /\ st_wf (prepend_parts self first mid) = true.
Proof.
  intros Hs Hf Hm. rewrite (prepend_is_extend self first mid Hs).
  destruct (ms_push_spec first mid Hf Hm) as [N1 W1]. destruct (ms_extend_spec _ self W1 Hs) as [N2 W2].
  rewrite N2, N1, <- app_assoc. split; [reflexivity | exact W2].
Qed.

(** Every iterator of the code is an iterator over a stem ([Stem::iter]) or over a key
    ([StemIter::new], a stem without partial byte), advanced to some position. *)
Definition it_of (s : stem) (pos : nat) : iter := mkIter (st_data s) pos (st_len s).

Lemma stem_iter_it_of s : stem_iter s = it_of s 0.
Proof. reflexivity. Qed.

Lemma iter_new_it_of key : iter_new key = it_of (mkStem key false) 0.
Proof. reflexivity. Qed.

Lemma nth_firstn' {A} (d : A) i n l : (i < n)%nat -> nth i (firstn n l) d = nth i l d.
Proof.
  revert n l. induction i as [|i IH]; intros [|n] [|a l] H; cbn; try lia; try reflexivity.
  apply IH. lia.
Qed.

Lemma nibbles_nth s pos :
  st_wf s = true -> (pos < st_len s)%nat ->
  nth pos (nibbles s) 0 =
  if Nat.even pos then nth (pos / 2) (st_data s) 0 / 16 else nth (pos / 2) (st_data s) 0 mod 16.
Proof.
  intros Hwf Hp. pose proof (st_len_le s) as Hle. unfold nibbles. rewrite nth_firstn' by assumption.
  destruct (Nat.even pos) eqn:E.
  - apply even_half in E. rewrite E at 1. apply bnibs_nth_even. lia.
  - apply odd_half in E. rewrite E at 1. apply bnibs_nth_odd. lia.
Qed.

Theorem it_next_spec s pos :
  st_wf s = true ->
  it_next (it_of s pos) =
  if Nat.ltb pos (st_len s) then (Some (nth pos (nibbles s) 0), it_of s (S pos)) else (None, it_of s pos).
Proof.
  intros Hwf. unfold it_next, it_of. cbn [it_pos it_len it_data].
  destruct (Nat.ltb_spec pos (st_len s)) as [Hlt|Hge]; [|reflexivity].
  destruct (st_wf_shape s Hwf) as [Hb _]. pose proof (st_len_le s) as Hle.
  assert (Hv : nth (pos / 2) (st_data s) 0 < 256) by (apply Forall_nth'; [assumption | lia]).
  rewrite nibbles_nth by assumption. rewrite shr_and_hi, and_lo by assumption. reflexivity.
Qed.

Lemma st_len_parity s : st_wf s = true -> Nat.odd (st_len s) = st_partial s.
Proof.
  intros Hwf. destruct (st_wf_shape s Hwf) as [_ Hp]. unfold st_len. destruct (st_partial s).
  - destruct (Hp eq_refl) as (d & x & -> & _). rewrite app_length. cbn [length].
    replace (2 * (length d + 1) - 1)%nat with (1 + 2 * length d)%nat by lia.
    rewrite Nat.odd_add_mul_2. reflexivity.
  - replace (2 * length (st_data s))%nat with (0 + 2 * length (st_data s))%nat by lia.
    rewrite Nat.odd_add_mul_2. reflexivity.
Qed.

Lemma odd_sub_even a q : (2 * q <= a)%nat -> Nat.odd (a - 2 * q) = Nat.odd a.
Proof.
  intros H. replace a with ((a - 2 * q) + 2 * q)%nat at 2 by lia. rewrite Nat.odd_add_mul_2. reflexivity.
Qed.

Lemma lts_loop_spec x bs :
  x < 16 -> bytes_ok bs ->
  exists out y, lts_loop (16 * x) bs = (out, 16 * y) /\ y < 16 /\ bytes_ok out
                /\ bnibs out ++ [y] = x :: bnibs bs.
Proof.
  intros Hx Hb. revert x Hx. induction Hb as [|b bs Hb0 _ IH]; intros x Hx.
  - exists [], x. cbn. repeat split; auto.
  - cbn [lts_loop]. rewrite and_lo, shr_and_hi by assumption.
    pose proof (mod16_lt b) as Hm. pose proof (div16_lt b Hb0) as Hd.
    rewrite shl_byte, (N.mod_small (b mod 16)) by assumption.
    destruct (IH (b mod 16) Hm) as (out & y & E & Hy & Ho & Hn). rewrite E.
    rewrite or_nibbles by assumption.
    exists ((16 * x + b / 16) :: out), y. repeat split; auto.
    + constructor; [lia | assumption].
    + change (bnibs ((16 * x + b / 16) :: out)) with (bnibs [16 * x + b / 16] ++ bnibs out).
      rewrite bnibs_mk by assumption. cbn [app bnibs]. rewrite Hn. reflexivity.
Qed.

Lemma bnibs_skipn_odd q d :
  (q < length d)%nat -> skipn (2 * q + 1) (bnibs d) = nth q d 0 mod 16 :: bnibs (skipn (S q) d).
Proof.
  revert d. induction q as [|q IH]; intros [|b d] H; cbn [length] in *; try lia; [reflexivity|].
  replace (2 * S q + 1)%nat with (S (S (2 * q + 1))) by lia. cbn [bnibs skipn nth]. apply IH. lia.
Qed.

Theorem last_to_stem_spec s pos p :
  st_wf s = true -> (p <= st_len s)%nat ->
  nibbles (last_to_stem (it_of s pos) p) = skipn p (nibbles s)
  /\ st_wf (last_to_stem (it_of s pos) p) = true.
Proof.
  intros Hwf Hp. destruct (st_wf_shape s Hwf) as [Hb Hps]. pose proof (st_len_parity s Hwf) as Hpar.
  unfold last_to_stem, it_of. cbn [it_data it_len it_pos]. unfold stem_new.
  destruct (Nat.even p) eqn:E.
  - apply even_half in E. set (q := (p / 2)%nat) in *. clearbody q. subst p.
    rewrite odd_sub_even, Hpar by assumption.
    destruct s as [d sp]. cbn [st_data st_partial] in *. destruct sp.
    + destruct (Hps eq_refl) as (d' & x & -> & Hx). apply Forall_app in Hb as [Hb' _].
      unfold st_len in Hp. cbn [st_data st_partial] in Hp. rewrite app_length in Hp. cbn [length] in Hp.
      rewrite skipn_app. replace (q - length d')%nat with O by lia. cbn [skipn].
      rewrite !nibbles_partial, bnibs_skipn. split.
      * rewrite skipn_app. rewrite bnibs_length. replace (2 * q - 2 * length d')%nat with O by lia. reflexivity.
      * apply st_wf_partial; [apply Forall_skipn'; assumption | assumption].
    + rewrite !nibbles_full, bnibs_skipn. split; [reflexivity|]. apply st_wf_full. apply Forall_skipn'. assumption.
  - apply odd_half in E. set (q := (p / 2)%nat) in *. clearbody q. subst p.
    pose proof (st_len_le s) as Hle.
    assert (Hq : (q < length (st_data s))%nat) by lia.
    assert (Hbq : nth q (st_data s) 0 < 256) by (apply Forall_nth'; [assumption | lia]).
    rewrite and_lo. pose proof (mod16_lt (nth q (st_data s) 0)) as Hm.
    rewrite shl_byte, (N.mod_small _ 16 Hm).
    replace (q + 1)%nat with (S q) by lia.
    destruct (lts_loop_spec (nth q (st_data s) 0 mod 16) (skipn (S q) (st_data s)) Hm (Forall_skipn' _ _ _ Hb))
      as (out & y & EL & Hy & Ho & Hn).
    rewrite EL.
    assert (Hodd : Nat.odd (st_len s - (2 * q + 1)) = negb (st_partial s)).
    { rewrite <- Hpar. destruct (st_len s) as [|n] eqn:En; [lia|].
      replace (S n - (2 * q + 1))%nat with (n - 2 * q)%nat by lia.
      rewrite odd_sub_even by lia. rewrite Nat.odd_succ, <- Nat.negb_odd, negb_involutive. reflexivity. }
    rewrite Hodd.
    destruct s as [d sp]. cbn [st_data st_partial negb] in *. destruct sp; cbn [negb].
    + destruct (Hps eq_refl) as (d' & z & -> & Hz).
      rewrite nibbles_full, nibbles_partial.
      unfold st_len in Hp. cbn [st_data st_partial] in Hp. rewrite app_length in Hp. cbn [length] in Hp.
      rewrite <- bnibs_skipn_odd in Hn by assumption.
      rewrite bnibs_app, bnibs_mk0 in Hn.
      change [z; 0] with ([z] ++ [0]) in Hn. rewrite app_assoc in Hn.
      rewrite skipn_app in Hn.
      replace (2 * q + 1 - length (bnibs d' ++ [z]))%nat with O in Hn
        by (rewrite app_length, bnibs_length; cbn; lia).
      cbn [skipn] in Hn. apply app_inj_tail in Hn as [Hn _]. split; [exact Hn|].
      apply st_wf_full. assumption.
    + rewrite nibbles_full. rewrite <- bnibs_skipn_odd in Hn by assumption. split.
      * apply (nibbles_partial_of _ _ 0). rewrite bnibs_app, bnibs_mk0.
        change [y; 0] with ([y] ++ [0]). rewrite app_assoc, Hn. reflexivity.
      * apply st_wf_partial; assumption.
Qed.

Theorem to_stem_spec s pos :
  st_wf s = true -> (pos <= st_len s)%nat ->
  nibbles (to_stem (it_of s pos)) = skipn pos (nibbles s) /\ st_wf (to_stem (it_of s pos)) = true.
Proof. intros. unfold to_stem. cbn [it_pos it_of]. apply last_to_stem_spec; assumption. Qed.

Lemma consumed_is_truncate s n : (S n <= st_len s)%nat -> consumed_to_stem (it_of s (S n)) = ms_truncate s n.
Proof.
  intros H. pose proof (st_len_le s) as Hle. unfold consumed_to_stem, ms_truncate, it_of, stem_new.
  cbn [it_pos it_data]. rewrite <- Nat.negb_even. destruct (Nat.even n) eqn:E; cbn [negb]; [reflexivity|].
  apply odd_half in E. replace (n / 2 + 1)%nat with (S (n / 2)) by lia.
  rewrite (firstn_succ_nth 0) by lia. rewrite on_last_app. reflexivity.
Qed.

Theorem consumed_to_stem_spec s pos :
  st_wf s = true -> (pos <= st_len s)%nat ->
  nibbles (consumed_to_stem (it_of s pos)) = firstn (pos - 1) (nibbles s)
  /\ st_wf (consumed_to_stem (it_of s pos)) = true.
Proof.
  intros Hwf Hp. destruct pos as [|n]; [split; reflexivity|].
  rewrite consumed_is_truncate by exact Hp. replace (S n - 1)%nat with n by lia.
  apply ms_truncate_spec; [exact Hwf | lia].
Qed.

Lemma skipn_nth_cons {A} (d : A) pos l : (pos < length l)%nat -> skipn pos l = nth pos l d :: skipn (S pos) l.
Proof.
  revert l. induction pos as [|pos IH]; intros [|a l] H; cbn [length] in *; try lia; [reflexivity|].
  cbn [skipn nth]. apply IH. lia.
Qed.

Lemma skipn_mid {A} (a : list A) c r n : n = (length a + 1)%nat -> skipn n (a ++ c :: r) = r.
Proof.
  intros ->. change (c :: r) with ([c] ++ r). rewrite app_assoc. apply skipn_app_exact.
  rewrite app_length. reflexivity.
Qed.

Lemma skipn_skipn' {A} a b (l : list A) : skipn a (skipn b l) = skipn (b + a) l.
Proof.
  revert l. induction b as [|b IH]; intros l; [reflexivity|].
  destruct l as [|x l]; [destruct a; reflexivity|]. cbn [skipn Nat.add]. apply IH.
Qed.

Definition follow_expected (kpos spos : nat) (K P : list N) (r : follow) : ifollow * nat * nat :=
  match r with
  | FEqual => (IEqual, kpos + length K, spos + length P)%nat
  | FKeyIsPrefix c _ => (IKeyIsPrefix c, kpos + length K, spos + length K + 1)%nat
  | FStemIsPrefix c _ => (IStemIsPrefix c, kpos + length P + 1, spos + length P)%nat
  | FDiff cm kc _ sc _ => (IDiff kc sc, kpos + length cm + 1, spos + length cm + 1)%nat
  end.

Lemma triple_eq sk ss (r r' : ifollow) a a' b b' :
  r = r' -> a = a' -> b = b' -> (r, it_of sk a, it_of ss b) = (r', it_of sk a', it_of ss b').
Proof. intros -> -> ->. reflexivity. Qed.

Lemma follow_it_spec sk ss :
  st_wf sk = true -> st_wf ss = true ->
  forall fuel kpos spos,
    (kpos <= st_len sk)%nat -> (spos <= st_len ss)%nat -> (st_len ss - spos <= fuel)%nat ->
    follow_it fuel (it_of sk kpos) (it_of ss spos) =
    (let K := skipn kpos (nibbles sk) in
     let P := skipn spos (nibbles ss) in
     let '(r, kp, sp) := follow_expected kpos spos K P (follow_stem K P) in
     (r, it_of sk kp, it_of ss sp)).
Proof.
  intros Hk Hs. pose proof (nibbles_length sk Hk) as Lk. pose proof (nibbles_length ss Hs) as Ls.
  induction fuel as [|fuel IH]; intros kpos spos Hkp Hsp Hf; cbn [follow_it];
    rewrite (it_next_spec ss), (it_next_spec sk) by assumption.
  (* the same four cases with and without fuel; fuel matters only where both have a next nibble *)
  all: destruct (Nat.ltb_spec spos (st_len ss)) as [Hslt|Hsge];
    [rewrite (skipn_nth_cons 0 spos (nibbles ss)) by lia | rewrite (skipn_all2 (nibbles ss)) by lia].
  all: destruct (Nat.ltb_spec kpos (st_len sk)) as [Hklt|Hkge];
    [rewrite (skipn_nth_cons 0 kpos (nibbles sk)) by lia | rewrite (skipn_all2 (nibbles sk)) by lia].
  all: cbn [follow_stem]; try (cbn [follow_expected length]; apply triple_eq; [reflexivity | lia | lia]).
  - lia.
  - rewrite (N.eqb_sym (nth spos (nibbles ss) 0)).
    destruct (N.eqb_spec (nth kpos (nibbles sk) 0) (nth spos (nibbles ss) 0)) as [E|E]; cbn [negb].
    + rewrite IH by lia. cbv zeta.
      destruct (follow_stem (skipn (S kpos) (nibbles sk)) (skipn (S spos) (nibbles ss)));
        cbn [follow_expected length]; (apply triple_eq; [reflexivity | lia | lia]).
    + cbn [follow_expected length]. apply triple_eq; [reflexivity | lia | lia].
Qed.

(** The statement the callers rely on: a key iterator that has consumed [kpos] chunks of
    [key] is followed along a fresh iterator over the stem [st]; the classification is
    that of the nibble lists, and the stems the callers rebuild from the two iterators
    ([to_stem], [consumed_to_stem], [last_to_stem(checkpoint)]) denote the remaining key,
    the remaining stem, the common part and the key from the checkpoint. *)
Theorem follow_iter_correct key kpos st :
  Forall (fun b => b < 256) key -> st_wf st = true -> (kpos <= 2 * length key)%nat ->
  let K := skipn kpos (nib key) in
  let P := nibbles st in
  let '(r, k', s') := follow_iter (it_of (mkStem key false) kpos) (stem_iter st) in
  nibbles (last_to_stem k' kpos) = K /\
  match follow_stem K P with
  | FEqual => r = IEqual
  | FKeyIsPrefix c ps => r = IKeyIsPrefix c /\ nibbles (to_stem s') = ps
  | FStemIsPrefix c kr => r = IStemIsPrefix c /\ nibbles (to_stem k') = kr
  | FDiff cm kc kr sc sr =>
      r = IDiff kc sc /\ nibbles (consumed_to_stem s') = cm
      /\ nibbles (to_stem k') = kr /\ nibbles (to_stem s') = sr
  end.
Proof.
  intros Hkey Hst Hkp. cbv zeta.
  set (sk := mkStem key false).
  assert (Hsk : st_wf sk = true) by (apply st_wf_full; assumption).
  assert (Lsk : st_len sk = (2 * length key)%nat) by reflexivity.
  assert (Nsk : nibbles sk = nib key) by (unfold sk; rewrite nibbles_full; apply bnibs_nib).
  unfold follow_iter. rewrite stem_iter_it_of. cbn [it_len it_of].
  rewrite (follow_it_spec sk st Hsk Hst (st_len st) kpos 0) by lia.
  cbv zeta. rewrite Nsk. cbn [skipn].
  pose proof (follow_stem_spec (skipn kpos (nib key)) (nibbles st)) as HF.
  pose proof (nibbles_length st Hst) as Lst.
  assert (LK : length (skipn kpos (nib key)) = (2 * length key - kpos)%nat).
  { rewrite skipn_length, <- bnibs_nib, bnibs_length. reflexivity. }
  set (K := skipn kpos (nib key)) in *. set (P := nibbles st) in *.
  assert (Hlts : forall kp, nibbles (last_to_stem (it_of sk kp) kpos) = K).
  { intros kp. destruct (last_to_stem_spec sk kp kpos Hsk ltac:(lia)) as [X _]. rewrite X, Nsk. reflexivity. }
  destruct (follow_stem K P) as [|c ps|c kr|cm kc kr sc sr]; cbn [follow_expected].
  - split; [apply Hlts | reflexivity].
  - split; [apply Hlts|]. split; [reflexivity|]. subst P.
    destruct (to_stem_spec st (0 + length K + 1) Hst) as [X _].
    { rewrite <- Lst, HF, app_length. cbn. lia. }
    rewrite X, HF. apply skipn_mid. reflexivity.
  - split; [apply Hlts|]. split; [reflexivity|].
    destruct (to_stem_spec sk (kpos + length P + 1) Hsk) as [X _].
    { assert (length K = length (P ++ c :: kr)) by (rewrite HF at 1; reflexivity).
      rewrite app_length in *. cbn [length] in *. lia. }
    rewrite X, Nsk.
    assert (E : skipn (kpos + length P + 1) (nib key) = skipn (length P + 1) K).
    { unfold K. rewrite skipn_skipn'. f_equal. lia. }
    rewrite E, HF. apply skipn_mid. reflexivity.
  - destruct HF as (HK & HP & Hne). split; [apply Hlts|]. split; [reflexivity|].
    assert (Hs1 : (0 + length cm + 1 <= st_len st)%nat).
    { rewrite <- Lst. fold P. rewrite HP, app_length. cbn. lia. }
    assert (Hk1 : (kpos + length cm + 1 <= st_len sk)%nat).
    { assert (length K = length (cm ++ kc :: kr)) by (rewrite HK at 1; reflexivity).
      rewrite app_length in *. cbn [length] in *. lia. }
    split; [|split].
    + destruct (consumed_to_stem_spec st (0 + length cm + 1) Hst Hs1) as [X _].
      rewrite X. fold P. rewrite HP. replace (0 + length cm + 1 - 1)%nat with (length cm) by lia.
      apply firstn_app_exact. reflexivity.
    + destruct (to_stem_spec sk (kpos + length cm + 1) Hsk Hk1) as [X _]. rewrite X, Nsk.
      assert (E : skipn (kpos + length cm + 1) (nib key) = skipn (length cm + 1) K).
      { unfold K. rewrite skipn_skipn'. f_equal. lia. }
      rewrite E, HK. apply skipn_mid. reflexivity.
    + destruct (to_stem_spec st (0 + length cm + 1) Hst Hs1) as [X _]. rewrite X. fold P. rewrite HP.
      apply skipn_mid. reflexivity.
Qed.
