(** The contract-state host functions of [Contract/HostV1.v] on their refused paths (locked key, too
    many iterators, invalid iterator, not enough energy) charge exactly the amounts of the table
    [InstEnergy.v], before anything else happens to the instance state. *)
From Coq Require Import NArith List Lia.
From CB Require Import Gen.HostCosts Contract.HostBase Contract.HostV0 Contract.HostV1 Trie.InstEnergy.
Import ListNotations.
Local Open Scope N_scope.

Lemma bind_ok {X A B} (m : M X A) (f : A -> M X B) s s' a : m s = (s', Ok a) -> bind m f s = f a s'.
Proof. intros H. unfold bind. rewrite H. reflexivity. Qed.

Lemma key_arg_ok cf cost ks kl (s : st H1) key :
  ks + kl < W64 -> cost <= energy s -> ks + kl <= m_len (mem s) ->
  mem_slice (mem s) ks (ks + kl) = Some key ->
  key_arg cf cost ks kl s = (mkSt (energy s - cost) (mem s) (EvTick cost :: evs s) (hs s), Ok key).
Proof.
  intros H1 H2 H3 H4. apply N.ltb_lt in H1. apply N.leb_le in H2, H3.
  unfold key_arg, bind, uadd. rewrite H1. destruct cf; unfold tick, ensure_fits, mslice; cbn [energy mem evs hs];
    rewrite ?H2, ?H3; cbn [energy mem evs hs]; rewrite ?H2, ?H3, ?H4; cbn [energy mem evs hs]; rewrite ?H4; reflexivity.
Qed.

(** insufficient energy for the documented charge: out of energy, instance state untouched *)
Lemma key_arg_oog cf cost ks kl (s : st H1) :
  ks + kl < W64 -> energy s < cost -> ks + kl <= m_len (mem s) ->
  exists s', key_arg cf cost ks kl s = (s', OutOfEnergy) /\ hs s' = hs s /\ mem s' = mem s.
Proof.
  intros H1 H2 H3. apply N.ltb_lt in H1. apply N.leb_gt in H2. apply N.leb_le in H3.
  unfold key_arg, bind, uadd. rewrite H1. destruct cf; unfold tick, ensure_fits; cbn [energy mem evs hs];
    rewrite ?H2, ?H3; cbn [energy mem evs hs]; rewrite ?H2; eexists; (split; [reflexivity|]); split; reflexivity.
Qed.

Ltac run_rest :=
  cbv [bind get_is set_is get_x set_x get_hs set_hs ret ensure the_is get_exp set_exp];
  cbn [energy mem evs hs h_ext with_ext x_is with_is with_exp x_exp is_locks is_set_changed is_entries].

Lemma create_entry_locked_charge ks kl (s : st H1) key :
  ks + kl < W64 -> create_entry_cost kl <= energy s -> ks + kl <= m_len (mem s) ->
  mem_slice (mem s) ks (ks + kl) = Some key -> lenN key <= MAX_KEY_SIZE ->
  locked_key (is_locks (the_is s)) key = true ->
  exists s', run_lop LCreate ks kl s = (s', Ok (Some (refused_result LCreate)))
             /\ energy s' = energy s - refused_charge LCreate kl /\ mem s' = mem s
             /\ the_is s' = is_set_changed (the_is s).
Proof.
  intros H1 H2 H3 H4 H5 H6. apply N.leb_le in H5. unfold the_is in H6.
  cbn [run_lop]. unfold state_create_entry. erewrite bind_ok by (apply key_arg_ok; eassumption).
  run_rest. rewrite H5, H6. eexists. split; [reflexivity|]. repeat split.
Qed.

Lemma delete_entry_locked_charge ks kl (s : st H1) key :
  ks + kl < W64 -> delete_entry_cost kl <= energy s -> ks + kl <= m_len (mem s) ->
  mem_slice (mem s) ks (ks + kl) = Some key ->
  any_live (is_entries (the_is s)) = true ->
  locked_key (is_locks (the_is s)) key = true ->
  exists s', run_lop LDelete ks kl s = (s', Ok (Some (refused_result LDelete)))
             /\ energy s' = energy s - refused_charge LDelete kl /\ mem s' = mem s
             /\ the_is s' = is_set_changed (the_is s).
Proof.
  intros H1 H2 H3 H4 H5 H6. unfold the_is in H5, H6.
  cbn [run_lop]. unfold state_delete_entry. erewrite bind_ok by (apply key_arg_ok; eassumption).
  run_rest. rewrite H5, H6. cbn [negb]. eexists. split; [reflexivity|]. repeat split.
Qed.

Lemma delete_prefix_locked_charge ks kl (s : st H1) key :
  ks + kl < W64 -> delete_prefix_find_cost kl <= energy s -> ks + kl <= m_len (mem s) ->
  mem_slice (mem s) ks (ks + kl) = Some key ->
  any_live (is_entries (the_is s)) = true ->
  locked_prefix (is_locks (the_is s)) key = true ->
  exists s', run_lop LDeletePrefix ks kl s = (s', Ok (Some (refused_result LDeletePrefix)))
             /\ energy s' = energy s - refused_charge LDeletePrefix kl /\ mem s' = mem s
             /\ the_is s' = is_set_changed (the_is s)
             /\ x_lower (h_ext (hs s')) = x_lower (h_ext (hs s)).
Proof.
  intros H1 H2 H3 H4 H5 H6. unfold the_is in H5, H6.
  cbn [run_lop]. unfold state_delete_prefix. erewrite bind_ok by (apply key_arg_ok; eassumption).
  run_rest. rewrite H5, H6. cbn [negb]. eexists. split; [reflexivity|]. repeat split.
Qed.

Lemma iterate_too_many_charge ks kl (s : st H1) key :
  ks + kl < W64 -> new_iterator_cost kl <= energy s -> ks + kl <= m_len (mem s) ->
  mem_slice (mem s) ks (ks + kl) = Some key ->
  live_with_prefix key (is_entries (the_is s)) 0 <> [] ->
  lock_add key (is_locks (the_is s)) = None ->
  exists s', run_lop LIterate ks kl s = (s', Ok (Some (refused_result LIterate)))
             /\ energy s' = energy s - refused_charge LIterate kl /\ mem s' = mem s /\ the_is s' = the_is s.
Proof.
  intros H1 H2 H3 H4 H5 H6. unfold the_is in H5, H6.
  cbn [run_lop]. unfold state_iterator. erewrite bind_ok by (apply key_arg_ok; eassumption).
  run_rest. destruct (live_with_prefix key (is_entries (x_is (h_ext (hs s)))) 0) eqn:E; [congruence|].
  rewrite H6. eexists. split; [reflexivity|]. repeat split.
Qed.

(** charge before work: without the energy for the documented charge nothing happens to the state *)
Lemma refused_ops_charge_first o ks kl (s : st H1) :
  ks + kl < W64 -> energy s < refused_charge o kl -> ks + kl <= m_len (mem s) ->
  exists s', run_lop o ks kl s = (s', OutOfEnergy) /\ hs s' = hs s /\ mem s' = mem s.
Proof.
  intros H1 H2 H3. destruct o; cbn [run_lop refused_charge] in *;
    [unfold state_create_entry | unfold state_delete_entry | unfold state_delete_prefix | unfold state_iterator];
    match goal with |- context [key_arg ?cf ?c ks kl] =>
      destruct (key_arg_oog cf c ks kl s H1 H2 H3) as (s' & E & A & B) end;
    exists s'; unfold bind; rewrite E; auto.
Qed.

(** stale / forged / dead iterator ids: exactly the base charges, nothing else happens *)
Lemma iterator_next_invalid_charge it (s : st H1) :
  ITERATOR_NEXT_COST <= energy s ->
  (forall idx i, handle_iter (the_is s) it <> Some (idx, Some i)) ->
  exists s', state_iterator_next it s = (s', Ok (Some NEW_ERR))
             /\ energy s' = energy s - ITERATOR_NEXT_COST /\ mem s' = mem s /\ hs s' = hs s.
Proof.
  intros H1 H2. apply N.leb_le in H1. unfold the_is in H2.
  unfold state_iterator_next. cbv [bind tick]. rewrite H1. run_rest.
  destruct (handle_iter (x_is (h_ext (hs s))) it) as [[idx [i|]]|] eqn:E;
    [exfalso; eapply H2; reflexivity| |]; eexists; (split; [reflexivity|]); repeat split.
Qed.

Lemma iterator_delete_charge it (s : st H1) :
  DELETE_ITERATOR_BASE_COST <= energy s ->
  match handle_iter (the_is s) it with
  | Some (idx, Some i) =>
      DELETE_ITERATOR_BASE_COST + delete_iterator_cost (u32 (lenN (iter_key i))) <= energy s ->
      exists s', state_iterator_delete it s = (s', Ok (Some 1))
                 /\ energy s' = energy s - (DELETE_ITERATOR_BASE_COST + delete_iterator_cost (u32 (lenN (iter_key i))))
                 /\ is_locks (the_is s') = remove_one (it_root i) (is_locks (the_is s))
  | Some (_, None) =>
      exists s', state_iterator_delete it s = (s', Ok (Some 0))
                 /\ energy s' = energy s - DELETE_ITERATOR_BASE_COST /\ hs s' = hs s
  | None =>
      exists s', state_iterator_delete it s = (s', Ok (Some U32MAX))
                 /\ energy s' = energy s - DELETE_ITERATOR_BASE_COST /\ hs s' = hs s
  end.
Proof.
  intros H1. pose proof H1 as H1'. apply N.leb_le in H1. unfold the_is.
  unfold state_iterator_delete. cbv [bind tick]. rewrite H1. run_rest.
  destruct (handle_iter (x_is (h_ext (hs s))) it) as [[idx [i|]]|] eqn:E.
  - intros H2. cbv [bind tick]. cbn [energy mem evs hs].
    assert (H3 : (delete_iterator_cost (u32 (lenN (iter_key i))) <=? energy s - DELETE_ITERATOR_BASE_COST) = true)
      by (apply N.leb_le; lia).
    rewrite H3. run_rest. eexists. split; [reflexivity|]. split; [cbn [energy]; lia | reflexivity].
  - eexists. split; [reflexivity|]. repeat split.
  - eexists. split; [reflexivity|]. repeat split.
Qed.
