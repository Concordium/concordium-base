(** [deserialize (serialize t) = t]: the breadth-first record stream written by
    [Hashed<Node>::serialize] is read back and reassembled by [Hashed<Node>::deserialize]
    into exactly the same tree, and the hash read for the root is the hash of the tree. *)
From Coq Require Import NArith PeanoNat List Lia.
From CB Require Import Common.CodecProofs.
From CB Require Import Trie.Radix.
From CB Require Import Trie.MerkleHash.
From CB Require Import Trie.Persist.
From CB Require Import Trie.PersistProofs.
Import ListNotations.
Local Open Scope N_scope.

(** Side conditions on a tree: nibbles below 16, stems and values shorter than 2^32. *)
Fixpoint tok (t : tree value) : Prop :=
  match t with
  | Node p ov cs =>
      path_ok p /\ (match ov with Some v => lenN v < 2 ^ 32 | None => True end) /\ fok cs
  end
with fok (f : forest value) : Prop :=
  match f with FNil => True | FCons _ t r => tok t /\ fok r end.

(** Queue entries with the label under which the node hangs below its parent. *)
Definition entry := (N * tree value * N)%type.
Definition e_key (e : entry) : N := fst (fst e).
Definition e_tree (e : entry) : tree value := snd (fst e).
Definition e_idx (e : entry) : N := snd e.
Definition strip_q (q : list entry) : list (tree value * N) := map (fun e => (e_tree e, e_idx e)) q.

Fixpoint kids3 (f : forest value) (parent : N) : list entry :=
  match f with FNil => [] | FCons c t r => (c, t, parent) :: kids3 r parent end.

Definition children (t : tree value) : forest value := match t with Node _ _ cs => cs end.

Fixpoint qsize (q : list entry) : nat :=
  match q with [] => O | e :: r => (tsize (e_tree e) + qsize r)%nat end.

Lemma strip_kids3 f p : strip_q (kids3 f p) = kids_with f p.
Proof. induction f as [|c t r IH]; cbn; [reflexivity|]. rewrite <- IH. reflexivity. Qed.

Lemma strip_q_app a b : strip_q (a ++ b) = strip_q a ++ strip_q b.
Proof. apply map_app. Qed.

Lemma keys_kids3 f p : map e_key (kids3 f p) = flabels f.
Proof. induction f as [|c t r IH]; cbn; [reflexivity|]. rewrite <- IH. reflexivity. Qed.

Lemma qsize_app a b : qsize (a ++ b) = (qsize a + qsize b)%nat.
Proof. induction a as [|e a IH]; cbn; [reflexivity|]. rewrite IH. lia. Qed.

Lemma qsize_kids3 f p : qsize (kids3 f p) = fsize f.
Proof. induction f as [|c t r IH]; cbn; [reflexivity|]. rewrite IH. reflexivity. Qed.

Section Roundtrip.
Variable sha256 : list N -> list N.
Hypothesis sha_len : forall x, length (sha256 x) = 32%nat.

Definition drec_of (back : N) (t : tree value) : drec :=
  match t with
  | Node p ov cs => mkD back (hash_node sha256 t) p (ser_value_dec sha256 ov) (flabels cs)
  end.

(** The records in breadth-first order, with the label and the parent index of each. *)
Fixpoint bfs_recs (fuel : nat) (q : list entry) (counter : N) : list (N * nat * drec) :=
  match fuel with
  | O => []
  | S f =>
      match q with
      | [] => []
      | e :: q' =>
          (e_key e, N.to_nat (e_idx e), drec_of (counter - e_idx e) (e_tree e))
          :: bfs_recs f (q' ++ kids3 (children (e_tree e)) counter) (counter + 1)
      end
  end.

Definition q_ok (q : list entry) (counter : N) : Prop :=
  Forall (fun e => tok (e_tree e) /\ e_idx e <= counter) q.

Lemma fok_kids3 f p : fok f -> Forall (fun e => tok (e_tree e) /\ e_idx e <= p) (kids3 f p).
Proof.
  induction f as [|c t r IH]; cbn [kids3 fok]; [constructor|]. intros [Ht Hr].
  constructor; [split; [exact Ht | cbn; lia] | apply IH; exact Hr].
Qed.

Lemma deser_ser : forall fuelS q counter fuelD rest,
  (qsize q <= fuelS)%nat -> (qsize q <= fuelD)%nat -> q_ok q counter ->
  counter + N.of_nat (qsize q) < 2 ^ 32 ->
  deser_loop fuelD (map e_key q) (N.to_nat counter) (ser_loop sha256 fuelS (strip_q q) counter ++ rest)
  = Some (bfs_recs fuelS q counter, rest).
Proof.
  induction fuelS as [|f IH]; intros q counter fuelD rest HS HD Hok Hb.
  - destruct q as [|e q]; [destruct fuelD; reflexivity|]. cbn [qsize] in HS. destruct (e_tree e). cbn [tsize] in HS. lia.
  - destruct q as [|[[k t] idx] q']; [destruct fuelD; reflexivity|].
    destruct t as [p ov cs]. cbn [qsize e_tree fst snd tsize] in HS, HD, Hb.
    destruct fuelD as [|fd]; [lia|].
    inversion Hok as [|e0 q0 [Ht Hi] Hq']; subst. cbn [e_tree e_idx fst snd] in Ht, Hi.
    destruct Ht as (Hp & Hv & Hcs).
    cbn [map strip_q e_key e_tree e_idx fst snd ser_loop deser_loop bfs_recs children].
    rewrite <- app_assoc.
    rewrite (dec_ser_record_enc sha256 sha_len) by (try assumption; lia).
    fold (strip_q q'). rewrite <- strip_kids3, <- strip_q_app.
    cbn [d_labels d_back]. rewrite <- (keys_kids3 cs counter), <- map_app.
    replace (S (N.to_nat counter)) with (N.to_nat (counter + 1)) by lia.
    rewrite IH.
    + cbn [drec_of]. repeat f_equal; try lia; try apply keys_kids3.
    + rewrite qsize_app, qsize_kids3. lia.
    + rewrite qsize_app, qsize_kids3. lia.
    + unfold q_ok. apply Forall_app. split.
      * eapply Forall_impl; [|exact Hq']. cbn. intros a [A B]. split; [exact A | lia].
      * eapply Forall_impl; [|apply fok_kids3; exact Hcs]. cbn. intros a [A B]. split; [exact A | lia].
    + rewrite qsize_app, qsize_kids3. lia.
Qed.

(** The children that the queue entries contribute to parent [i], in queue order. *)
Definition forest_from (base : forest value) (q : list entry) (i : N) : forest value :=
  fold_right (fun e acc => if e_idx e =? i then FCons (e_key e) (e_tree e) acc else acc) base q.
Definition forest_of (q : list entry) (i : N) : forest value := forest_from FNil q i.

Lemma forest_from_app base a b i : forest_from base (a ++ b) i = forest_from (forest_from base b i) a i.
Proof. unfold forest_from. apply fold_right_app. Qed.

Lemma forest_from_other base q i : Forall (fun e => e_idx e <> i) q -> forest_from base q i = base.
Proof.
  induction 1 as [|e q He _ IH]; [reflexivity|]. cbn [forest_from fold_right]. fold (forest_from base q i).
  apply N.eqb_neq in He. rewrite He. exact IH.
Qed.

Lemma forest_of_kids3 f p : forest_of (kids3 f p) p = f.
Proof.
  induction f as [|c t r IH]; [reflexivity|]. unfold forest_of, forest_from in *. cbn [kids3 fold_right e_idx e_key e_tree fst snd].
  rewrite N.eqb_refl, IH. reflexivity.
Qed.

Lemma kids3_idx f p : Forall (fun e => e_idx e = p) (kids3 f p).
Proof. induction f as [|c t r IH]; cbn; constructor; [reflexivity | exact IH]. Qed.

Lemma value_dec_fst ov : option_map fst (ser_value_dec sha256 ov) = ov.
Proof. destruct ov; reflexivity. Qed.

Lemma rebuild_bfs : forall fuel q counter,
  (qsize q <= fuel)%nat -> Forall (fun e => e_idx e < counter) q ->
  forall i, i < counter -> rebuild (N.to_nat counter) (bfs_recs fuel q counter) (N.to_nat i) = forest_of q i.
Proof.
  induction fuel as [|f IH]; intros q counter HS Hidx i Hi.
  - destruct q as [|e q]; [reflexivity|]. cbn [qsize] in HS. destruct (e_tree e). cbn [tsize] in HS. lia.
  - destruct q as [|[[k t] idx] q']; [reflexivity|].
    destruct t as [p ov cs]. cbn [qsize e_tree fst snd tsize] in HS.
    inversion Hidx as [|e0 q0 Hlt Hq']; subst. cbn [e_idx snd] in Hlt.
    cbn [bfs_recs e_key e_tree e_idx fst snd children rebuild drec_of d_path d_value].
    replace (S (N.to_nat counter)) with (N.to_nat (counter + 1)) by lia.
    set (q'' := q' ++ kids3 cs counter).
    assert (Hq'' : Forall (fun e => e_idx e < counter + 1) q'').
    { apply Forall_app. split.
      - eapply Forall_impl; [|exact Hq']. cbn. intros; lia.
      - eapply Forall_impl; [|apply kids3_idx]. cbn. intros a ->. lia. }
    assert (HS'' : (qsize q'' <= f)%nat) by (unfold q''; rewrite qsize_app, qsize_kids3; lia).
    pose proof (IH q'' (counter + 1) HS'' Hq'') as P.
    assert (Hne : Nat.eqb (N.to_nat idx) (N.to_nat counter) = false) by (apply Nat.eqb_neq; lia).
    rewrite Hne.
    (* the node built for the head record is the head tree *)
    assert (Hnode : rebuild (N.to_nat (counter + 1)) (bfs_recs f q'' (counter + 1)) (N.to_nat counter) = cs).
    { rewrite (P counter) by lia. unfold q'', forest_of. rewrite forest_from_app.
      fold (forest_of (kids3 cs counter) counter). rewrite forest_of_kids3.
      apply forest_from_other. eapply Forall_impl; [|exact Hq']. cbn. intros; lia. }
    rewrite Hnode, value_dec_fst.
    (* the contribution of the tail of the queue to parent i *)
    assert (Htail : forest_of q'' i = forest_of q' i).
    { unfold q'', forest_of. rewrite forest_from_app. f_equal.
      apply forest_from_other. eapply Forall_impl; [|apply kids3_idx]. cbn. intros a ->. lia. }
    unfold forest_of at 1. cbn [forest_from fold_right e_idx e_key e_tree fst snd]. fold (forest_from FNil q' i).
    fold (forest_of q' i).
    destruct (N.eqb_spec idx i) as [->|Hni].
    + rewrite Nat.eqb_refl. rewrite (P i) by lia. rewrite Htail. reflexivity.
    + assert (Hn2 : Nat.eqb (N.to_nat i) (N.to_nat idx) = false) by (apply Nat.eqb_neq; lia).
      rewrite Hn2. rewrite (P i) by lia. exact Htail.
Qed.

Lemma ser_loop_length : forall fuel q counter,
  (qsize q <= fuel)%nat -> (qsize q <= length (ser_loop sha256 fuel (strip_q q) counter))%nat.
Proof.
  induction fuel as [|f IH]; intros q counter HS.
  - lia.
  - destruct q as [|[[k t] idx] q']; [cbn; lia|]. destruct t as [p ov cs].
    cbn [qsize e_tree fst snd tsize] in *. cbn [strip_q map e_tree e_idx fst snd ser_loop].
    fold (strip_q q'). rewrite <- strip_kids3, <- strip_q_app.
    rewrite app_length.
    specialize (IH (q' ++ kids3 cs counter) (counter + 1)).
    rewrite qsize_app, qsize_kids3 in IH. specialize (IH ltac:(lia)).
    assert (Hrec : (1 <= length (ser_record sha256 (counter - idx) (Node p ov cs)))%nat).
    { unfold ser_record. rewrite app_length. unfold be32. rewrite enc_uint_length. lia. }
    lia.
Qed.

Theorem deserialize_serialize t :
  tok t -> N.of_nat (tsize t) < 2 ^ 32 ->
  deserialize (serialize sha256 (Some t)) = Some (Some (t, hash_node sha256 t), []).
Proof.
  intros Hok Hsz. unfold serialize, deserialize.
  set (q0 := [(0, t, 0)] : list entry).
  assert (Hq : qsize q0 = tsize t) by (cbn; lia).
  pose proof (ser_loop_length (S (tsize t)) q0 0 ltac:(lia)) as Hlen.
  assert (Hok0 : q_ok q0 0) by (constructor; [split; [exact Hok | cbn; lia] | constructor]).
  pose proof (deser_ser (S (tsize t)) q0 0 (S (length (ser_loop sha256 (S (tsize t)) (strip_q q0) 0))) []
                ltac:(lia) ltac:(lia) Hok0 ltac:(rewrite Hq; lia)) as D.
  rewrite app_nil_r in D. change (strip_q q0) with [(t, 0)] in D. change (map e_key q0) with [0] in D.
  change (N.to_nat 0) with O in D. rewrite D. clear D Hlen.
  destruct t as [p ov cs]. cbn [bfs_recs q0 e_key e_tree e_idx fst snd children drec_of d_path d_value d_hash].
  rewrite value_dec_fst.
  pose proof (rebuild_bfs (tsize (Node p ov cs)) (kids3 cs 0) 1) as R.
  change (0 + 1) with 1. change 1%nat with (N.to_nat 1) at 1. change O with (N.to_nat 0).
  rewrite app_nil_l. rewrite R.
  - rewrite forest_of_kids3. reflexivity.
  - rewrite qsize_kids3. cbn [tsize]. lia.
  - eapply Forall_impl; [|apply kids3_idx]. cbn. intros a ->. lia.
  - lia.
Qed.

Theorem deserialize_serialize_empty : deserialize (serialize sha256 None) = Some (None, []).
Proof. reflexivity. Qed.

End Roundtrip.
