(** The arena model [Arena.v]: [new_generation] only appends and [normalize]
    undoes it; [migrate_children] and [make_owned] in closed form ([migrate_children_eq],
    [make_owned_eq], [make_owned_spec]): they only append and touch no other node. *)
From Coq Require Import NArith PeanoNat List Lia.
From CB Require Import Trie.Locks.
From CB Require Import Trie.Arena.
Import ListNotations.
Local Open Scope N_scope.

Lemma firstn_app_len {A} (a b : list A) : firstn (length a) (a ++ b) = a.
Proof. rewrite firstn_app, Nat.sub_diag, firstn_all. cbn. apply app_nil_r. Qed.

Lemma nth_error_app_len {A} (a : list A) x : nth_error (a ++ [x]) (length a) = Some x.
Proof. rewrite nth_error_app2 by lia. rewrite Nat.sub_diag. reflexivity. Qed.

Lemma set_nth_length {A} i (x : A) l : length (set_nth i x l) = length l.
Proof. revert i. induction l as [|a l IH]; intros [|i]; cbn; auto. Qed.

Lemma firstn_set_nth_ge {A} cp i (x : A) l : (cp <= i)%nat -> firstn cp (set_nth i x l) = firstn cp l.
Proof.
  revert cp i. induction l as [|a l IH]; intros [|cp] [|i] H; cbn; try reflexivity; try lia.
  f_equal. apply IH. lia.
Qed.

Lemma nth_set_nth_eq {A} (d : A) i x l : (i < length l)%nat -> nth i (set_nth i x l) d = x.
Proof.
  revert i. induction l as [|y l IH]; intros [|i] H; cbn in *; try lia; [reflexivity|]. apply IH. lia.
Qed.

Lemma nth_set_nth_ne {A} (d : A) i j x l : i <> j -> nth j (set_nth i x l) d = nth j l d.
Proof.
  revert i j. induction l as [|y l IH]; intros [|i] [|j] H; cbn; try reflexivity; try congruence.
  apply IH. congruence.
Qed.

Lemma Forall2_impl {A B} (P Q : A -> B -> Prop) l1 l2 :
  (forall x y, P x y -> Q x y) -> Forall2 P l1 l2 -> Forall2 Q l1 l2.
Proof. intros H F. induction F; constructor; auto. Qed.

Lemma Forall2_nth_l {A B} (R : A -> B -> Prop) l1 l2 q x :
  Forall2 R l1 l2 -> nth_error l1 q = Some x -> exists y, nth_error l2 q = Some y /\ R x y.
Proof.
  intros F. revert q. induction F as [|x0 y0 l1 l2 H0 F IH]; intros [|q] H; try discriminate; cbn in *.
  - inversion H; subst. eauto.
  - apply IH. exact H.
Qed.

(** [migrate_children] only pushes entries, so its result can be read off the arena it
    started from: the [p]-th copy is child [p] retagged, its value renumbered to the next
    fresh entry index; the new children vector keeps the nibbles and counts up from [next]. *)

Definition copy_node (g lo : nat) (n : anode) : anode :=
  mkAN g (option_map (fun _ => lo) (an_val n)) (an_path n) (an_cgen n) (an_ch n).

Definition ro_entry (a : arena) (e : nat) : aentry :=
  match nth e (a_entries a) EDeleted with EMutable i => EReadOnly i | x => x end.

Lemma migrate_eq a n g :
  migrate a n g = (match an_val n with Some e => push_entry a (ro_entry a e) | None => a end,
                   copy_node g (length (a_entries a)) n).
Proof. unfold migrate, copy_node. destruct (an_val n); reflexivity. Qed.

(** Over the node vector, not the arena: a fixpoint stuck on [ch] would not convert
    [push_entry a x] to [a]. *)
Fixpoint child_vals (nodes : list anode) (ch : list (N * nat)) : list nat :=
  match ch with
  | [] => []
  | (_, i) :: r =>
      match an_val (nth i nodes anode_default) with
      | Some e => e :: child_vals nodes r
      | None => child_vals nodes r
      end
  end.

Fixpoint copy_nodes (nodes : list anode) (g lo : nat) (ch : list (N * nat)) : list anode :=
  match ch with
  | [] => []
  | (_, i) :: r =>
      let n := nth i nodes anode_default in
      copy_node g lo n :: copy_nodes nodes g (match an_val n with Some _ => S lo | None => lo end) r
  end.

Definition renumber (next : nat) (ch : list (N * nat)) : list (N * nat) :=
  combine (map fst ch) (seq next (length ch)).

(** The entry pushed for value [e] is never [EMutable]; it is the read-only form of entry
    [e] when that existed at the start (otherwise [e] may hit an entry pushed meanwhile). *)
Definition pushed_for (a : arena) (e : nat) (x : aentry) : Prop :=
  (forall v, x <> EMutable v) /\ ((e < length (a_entries a))%nat -> x = ro_entry a e).

Lemma migrate_children_eq : forall ch a g next, exists es,
  migrate_children a g next ch =
    (mkA (a_gens a) (a_entries a ++ es) (a_values a) (a_nodes a),
     copy_nodes (a_nodes a) g (length (a_entries a)) ch, renumber next ch)
  /\ Forall2 (pushed_for a) (child_vals (a_nodes a) ch) es.
Proof.
  induction ch as [|[k i] ch IH]; intros a g next; cbn [migrate_children copy_nodes child_vals].
  - exists []. rewrite app_nil_r. destruct a. split; [reflexivity | constructor].
  - fold (node_at a i). rewrite migrate_eq. destruct (an_val (node_at a i)) as [e|].
    + set (x := ro_entry a e). destruct (IH (push_entry a x) g (S next)) as (es & M & F). rewrite M.
      exists (x :: es). cbn [push_entry a_gens a_entries a_values a_nodes].
      rewrite <- app_assoc, app_length, Nat.add_1_r. split; [reflexivity|].
      constructor.
      * split; [|reflexivity]. intros v. unfold x, ro_entry. destruct (nth e (a_entries a) EDeleted); discriminate.
      * apply (Forall2_impl (pushed_for (push_entry a x))); [|exact F].
        intros e' y (Hm & Hy). split; [exact Hm|]. intros He'. rewrite Hy by (cbn; rewrite app_length; lia).
        unfold ro_entry. cbn [push_entry a_entries]. rewrite app_nth1 by exact He'. reflexivity.
    + destruct (IH a g (S next)) as (es & M & F). rewrite M. exists es. split; [reflexivity | exact F].
Qed.

Lemma copy_nodes_length a g : forall ch lo, length (copy_nodes (a_nodes a) g lo ch) = length ch.
Proof. induction ch as [|[k i] ch IH]; intros lo; cbn; [reflexivity|]. rewrite IH. reflexivity. Qed.

Lemma copy_nodes_nth a g : forall ch lo p,
  match nth_error ch p with
  | Some (k, i) =>
      exists lo', nth_error (copy_nodes (a_nodes a) g lo ch) p = Some (copy_node g lo' (node_at a i))
        /\ forall e, an_val (node_at a i) = Some e ->
                     exists q, lo' = (lo + q)%nat /\ nth_error (child_vals (a_nodes a) ch) q = Some e
  | None => nth_error (copy_nodes (a_nodes a) g lo ch) p = None
  end.
Proof.
  induction ch as [|[k0 i0] ch IH]; intros lo [|p]; try reflexivity;
    cbn [nth_error copy_nodes child_vals]; fold (node_at a i0).
  - exists lo. split; [reflexivity|]. intros e Ev. exists 0%nat. rewrite Ev, Nat.add_0_r. auto.
  - specialize (IH (match an_val (node_at a i0) with Some _ => S lo | None => lo end) p).
    destruct (nth_error ch p) as [[k i]|]; [|exact IH]. destruct IH as (lo' & Hn & Hv).
    exists lo'. split; [exact Hn|]. intros e Ev. destruct (Hv e Ev) as (q & -> & Hq).
    destruct (an_val (node_at a i0)); [exists (S q) | exists q]; split; try exact Hq; lia.
Qed.

Lemma renumber_fst_snd : forall ch next,
  map fst (renumber next ch) = map fst ch /\ map snd (renumber next ch) = seq next (length ch).
Proof.
  unfold renumber. induction ch as [|[k i] ch IH]; intros next; [split; reflexivity|].
  destruct (IH (S next)) as (E1 & E2). cbn. rewrite E1, E2. split; reflexivity.
Qed.

(** A node outside the node vector reads as the default node, which is unshared: so a shared
    [idx] is in range. *)
Lemma make_owned_eq a idx :
  let n := node_at a idx in
  an_cgen n <> an_gen n ->
  (idx < length (a_nodes a))%nat /\ exists es,
    Forall2 (pushed_for a) (child_vals (a_nodes a) (an_ch n)) es
    /\ make_owned a idx =
       set_node (mkA (a_gens a) (a_entries a ++ es) (a_values a)
                     (a_nodes a ++ copy_nodes (a_nodes a) (an_gen n) (length (a_entries a)) (an_ch n)))
                idx (mkAN (an_gen n) (an_val n) (an_path n) (an_gen n) (renumber (length (a_nodes a)) (an_ch n))).
Proof.
  intros n E. split.
  - destruct (Nat.lt_ge_cases idx (length (a_nodes a))) as [X|X]; [exact X|]. exfalso. apply E.
    unfold n, node_at. rewrite nth_overflow by exact X. reflexivity.
  - destruct (migrate_children_eq (an_ch n) a (an_gen n) (length (a_nodes a))) as (es & M & F). exists es.
    split; [exact F|]. unfold make_owned. fold n.
    destruct (Nat.eqb_spec (an_cgen n) (an_gen n)) as [|_]; [contradiction|]. rewrite M. reflexivity.
Qed.

Lemma make_owned_spec a idx :
  let n := node_at a idx in
  let L := length (a_nodes a) in
  let a1 := make_owned a idx in
  an_cgen n <> an_gen n ->
  (idx < L)%nat /\ exists es,
    a_gens a1 = a_gens a /\ a_values a1 = a_values a /\ a_entries a1 = a_entries a ++ es
    /\ Forall2 (pushed_for a) (child_vals (a_nodes a) (an_ch n)) es
    /\ length (a_nodes a1) = (L + length (an_ch n))%nat
    /\ node_at a1 idx = mkAN (an_gen n) (an_val n) (an_path n) (an_gen n) (renumber L (an_ch n))
    /\ (forall j, (j < L)%nat -> j <> idx -> node_at a1 j = node_at a j)
    /\ (forall q n', nth_error (copy_nodes (a_nodes a) (an_gen n) (length (a_entries a)) (an_ch n)) q = Some n' ->
                     node_at a1 (L + q) = n').
Proof.
  intros n L a1 E. destruct (make_owned_eq a idx E) as (Hlt & es & F & M). split; [exact Hlt|]. exists es.
  unfold a1. rewrite M. unfold node_at. cbn [set_node a_gens a_values a_entries a_nodes].
  split; [reflexivity|]. split; [reflexivity|]. split; [reflexivity|]. split; [exact F|].
  split; [rewrite set_nth_length, app_length, copy_nodes_length; reflexivity|].
  split; [apply nth_set_nth_eq; rewrite app_length; lia|].
  split.
  - intros j Hj Hne. rewrite nth_set_nth_ne by congruence. apply app_nth1. exact Hj.
  - intros q n' Hq. rewrite nth_set_nth_ne by (fold L; lia). rewrite app_nth2 by (fold L; lia). fold L.
    replace (L + q - L)%nat with q by lia. apply nth_error_nth. exact Hq.
Qed.

Lemma make_owned_copy a idx q :
  let n := node_at a idx in
  let a1 := make_owned a idx in
  an_cgen n <> an_gen n ->
  match nth_error (an_ch n) q with
  | Some (k, i) =>
      exists lo, node_at a1 (length (a_nodes a) + q) = copy_node (an_gen n) lo (node_at a i)
        /\ forall e, an_val (node_at a i) = Some e ->
                     (length (a_entries a) <= lo)%nat
                     /\ exists x, nth_error (a_entries a1) lo = Some x /\ pushed_for a e x
  | None => node_at a1 (length (a_nodes a) + q) = anode_default
  end.
Proof.
  intros n a1 E. destruct (make_owned_spec a idx E) as (_ & es & _ & _ & Ee & F & Ln & _ & _ & Nnew).
  fold n a1 in Ee, Ln, Nnew.
  pose proof (copy_nodes_nth a (an_gen n) (an_ch n) (length (a_entries a)) q) as C.
  destruct (nth_error (an_ch n) q) as [[k i]|] eqn:Hq.
  - destruct C as (lo & Hn & Hv). exists lo. split; [apply Nnew; exact Hn|].
    intros e Ev. destruct (Hv e Ev) as (p & -> & Hp). split; [lia|].
    destruct (Forall2_nth_l _ _ _ _ _ F Hp) as (x & Hx & Px). exists x. split; [|exact Px].
    rewrite Ee, nth_error_app2 by lia. rewrite <- Hx. f_equal. lia.
  - apply nth_error_None in Hq. unfold node_at. apply nth_overflow. fold n a1. lia.
Qed.

(** [make_owned idx]: generations and values unchanged, entries and nodes only grow, and
    below any bound [cp <= idx] the node vector is literally the same. *)
Theorem make_owned_shape a idx cp :
  (cp <= idx)%nat -> (cp <= length (a_nodes a))%nat ->
  let a' := make_owned a idx in
  a_gens a' = a_gens a /\ a_values a' = a_values a
  /\ (exists es, a_entries a' = a_entries a ++ es)
  /\ firstn cp (a_nodes a') = firstn cp (a_nodes a)
  /\ (length (a_nodes a) <= length (a_nodes a'))%nat.
Proof.
  intros Hi Hl. destruct (Nat.eq_dec (an_cgen (node_at a idx)) (an_gen (node_at a idx))) as [E|E].
  - unfold make_owned. rewrite E, Nat.eqb_refl. cbn. repeat split; auto. exists []. rewrite app_nil_r. reflexivity.
  - destruct (make_owned_eq a idx E) as (_ & es & _ & M). cbn zeta. rewrite M.
    cbn [set_node a_gens a_values a_entries a_nodes].
    split; [reflexivity|]. split; [reflexivity|]. split; [exists es; reflexivity|]. split.
    + rewrite firstn_set_nth_ge by exact Hi. rewrite firstn_app.
      replace (cp - length (a_nodes a))%nat with O by lia. cbn. apply app_nil_r.
    + rewrite set_nth_length, app_length. lia.
Qed.

(** [new_generation] only appends: the older generations and everything below the new
    checkpoint are unchanged. *)
Theorem new_generation_appends a :
  a_gens a <> [] ->
  let a' := a_new_generation a in
  exists g, a_gens a' = a_gens a ++ [g]
    /\ ag_nodes g = length (a_nodes a) /\ ag_values g = length (a_values a) /\ ag_entries g = length (a_entries a)
    /\ firstn (length (a_nodes a)) (a_nodes a') = a_nodes a
    /\ firstn (length (a_entries a)) (a_entries a') = a_entries a
    /\ a_values a' = a_values a.
Proof.
  intros Hne. unfold a_new_generation. destruct (cur_root a) as [r|].
  - rewrite migrate_eq. destruct (an_val (node_at a r)) as [e|]; eexists;
      cbn [push_node push_entry a_gens a_values a_entries a_nodes].
    + repeat split; try reflexivity; apply firstn_app_len.
    + repeat split; try reflexivity; [apply firstn_app_len | apply firstn_all].
  - destruct (a_gens a) eqn:Eg; [congruence|]. eexists. cbn [a_gens a_values a_entries a_nodes].
    rewrite <- Eg. repeat split; try reflexivity; apply firstn_all.
Qed.

(** Whatever a newer generation did, if it left everything below its checkpoint alone,
    rolling back restores the arena of the older generation exactly. *)
Theorem normalize_restores_prefix a b g newer :
  a_gens b = a_gens a ++ g :: newer -> a_gens a <> [] ->
  ag_nodes g = length (a_nodes a) -> ag_values g = length (a_values a) -> ag_entries g = length (a_entries a) ->
  firstn (length (a_nodes a)) (a_nodes b) = a_nodes a ->
  firstn (length (a_entries a)) (a_entries b) = a_entries a ->
  firstn (length (a_values a)) (a_values b) = a_values a ->
  a_normalize (length (a_gens a) - 1) b = a.
Proof.
  intros G Hne Cn Cv Ce Pn Pe Pv. unfold a_normalize.
  assert (L : S (length (a_gens a) - 1) = length (a_gens a)) by (destruct (a_gens a); [congruence | cbn; lia]).
  rewrite L, G. rewrite nth_error_app2 by lia. rewrite Nat.sub_diag. cbn [nth_error].
  rewrite firstn_app_len, Cn, Cv, Ce, Pn, Pe, Pv. destruct a; reflexivity.
Qed.

Theorem normalize_undoes_new_generation a :
  a_gens a <> [] ->
  a_normalize (length (a_gens a) - 1) (a_new_generation a) = a.
Proof.
  intros Hne. destruct (new_generation_appends a Hne) as (g & G & Cn & Cv & Ce & Pn & Pe & V).
  apply (normalize_restores_prefix a _ g []); try assumption. rewrite V. apply firstn_all.
Qed.
