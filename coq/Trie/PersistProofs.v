(** Lemmas about [Persist.v]:
    - the annotated operations are the operations of [Radix.v] once the annotations are
      erased (so everything proved about contents and well-formedness carries over);
    - [freeze] keeps the contents, returns an all-original tree, and on an all-original
      tree returns it unchanged and charges nothing;
    - the node record codec and the path / value / children codecs round-trip;
    - storing a tree and following the references loads the same tree with the right hash
      at every node ([migrate]; [store_update] for trees consistent with the store). *)
From Coq Require Import NArith PeanoNat List Bool Lia.
From CB Require Import Common.Codec.
From CB Require Import Common.CodecProofs.
From CB Require Import Trie.Radix.
From CB Require Import Trie.RadixProofs.
From CB Require Import Trie.MerkleHash.
From CB Require Import Trie.MerkleHashProofs.
From CB Require Import Trie.Persist.
Import ListNotations.
Local Open Scope N_scope.

Scheme atree_ind2 := Induction for atree Sort Prop
  with aforest_ind2 := Induction for aforest Sort Prop.
Combined Scheme atree_aforest_ind from atree_ind2, aforest_ind2.

Lemma aflen_erase f : flen (erase_f f) = aflen f.
Proof. induction f as [|c t r IH]; cbn; congruence. Qed.

Lemma erase_insert_mut :
  (forall t k v, erase (a_insert k v t) = insert k v (erase t))
  /\ (forall f c k v, erase_f (a_insert_f c k v f) = insert_f c k v (erase_f f)).
Proof.
  apply atree_aforest_ind.
  - intros o p ov cs IH k v. cbn [a_insert erase]. rewrite insert_eq.
    destruct (follow_stem k p) as [|s ps|c k'|cm kc kr sc sr]; cbn [erase erase_f option_map fst].
    + reflexivity.
    + reflexivity.
    + rewrite IH. reflexivity.
    + destruct (kc <? sc); reflexivity.
  - reflexivity.
  - intros c' t IHt r IHr c k v. cbn [a_insert_f erase_f]. rewrite insert_f_cons.
    destruct (c =? c'); [cbn [erase_f]; rewrite IHt; reflexivity|].
    destruct (c <? c'); [reflexivity|]. cbn [erase_f]. rewrite IHr. reflexivity.
Qed.

Lemma erase_insert_root r k v :
  erase (a_insert_root k v r) = insert_root k v (erase_root r).
Proof. destruct r as [t|]; cbn; [apply erase_insert_mut | reflexivity]. Qed.

Lemma erase_collapse o p ov cs :
  option_map erase (a_collapse o p ov cs) = collapse p (option_map fst ov) (erase_f cs).
Proof.
  destruct ov as [[v a]|]; [reflexivity|].
  destruct cs as [|c [o' cp cv ccs] [|c2 t2 r2]]; reflexivity.
Qed.

(** [a_delete] and [a_delete_prefix] treat the children alike: apply the operation to the
    child labelled [c] and drop that child if nothing is left of it. *)
Fixpoint a_get (c : N) (f : aforest) : option atree :=
  match f with
  | ANil => None
  | ACons c' t r => if c =? c' then Some t else a_get c r
  end.

Fixpoint a_upd_f (g : atree -> option atree) (c : N) (f : aforest) : aforest :=
  match f with
  | ANil => ANil
  | ACons c' t r =>
      if c =? c' then match g t with Some t' => ACons c' t' r | None => r end
      else ACons c' t (a_upd_f g c r)
  end.

Lemma a_delete_f_upd c k f : a_delete_f c k f = a_upd_f (a_delete k) c f.
Proof. induction f as [|c' t r IH]; [reflexivity|]. cbn [a_delete_f a_upd_f]. rewrite IH. reflexivity. Qed.

Lemma a_delete_prefix_f_upd c k f : a_delete_prefix_f c k f = a_upd_f (a_delete_prefix k) c f.
Proof. induction f as [|c' t r IH]; [reflexivity|]. cbn [a_delete_prefix_f a_upd_f]. rewrite IH. reflexivity. Qed.

Lemma atree_ind_get (P : atree -> Prop) :
  (forall o p ov cs, (forall c t, a_get c cs = Some t -> P t) -> P (AN o p ov cs)) -> forall t, P t.
Proof.
  intros H. apply (atree_ind2 P (fun f => forall c t, a_get c f = Some t -> P t)).
  - exact H.
  - intros c t E. discriminate.
  - intros c0 t Ht r Hr c t' E. cbn [a_get] in E.
    destruct (c =? c0); [injection E as <-; exact Ht | exact (Hr c t' E)].
Qed.

Lemma erase_upd_f g g' c f :
  (forall t, a_get c f = Some t -> option_map erase (g t) = g' (erase t)) ->
  erase_f (a_upd_f g c f) = upd_f g' c (erase_f f).
Proof.
  induction f as [|c' t r IH]; intros Hg; [reflexivity|]. cbn [a_get a_upd_f erase_f upd_f] in *.
  destruct (c =? c'); [|cbn [erase_f]; rewrite (IH Hg); reflexivity].
  rewrite <- (Hg t eq_refl). destruct (g t); reflexivity.
Qed.

Lemma erase_delete : forall t k, option_map erase (a_delete k t) = delete k (erase t).
Proof.
  induction t as [o p ov cs IH] using atree_ind_get. intros k. cbn [a_delete erase]. rewrite delete_eq.
  destruct (follow_stem k p) as [|s ps|c k'|cm kc kr sc sr]; try reflexivity.
  - destruct ov as [[v a]|]; [|reflexivity]. cbn [option_map fst]. apply (erase_collapse None p None cs).
  - rewrite erase_collapse, a_delete_f_upd, delete_f_upd, (erase_upd_f _ (delete k')); [reflexivity|].
    intros t G. exact (IH c t G k').
Qed.

Lemma erase_delete_prefix : forall t k, option_map erase (a_delete_prefix k t) = delete_prefix k (erase t).
Proof.
  induction t as [o p ov cs IH] using atree_ind_get. intros k. cbn [a_delete_prefix erase]. rewrite delete_prefix_eq.
  destruct (follow_stem k p) as [|s ps|c k'|cm kc kr sc sr]; try reflexivity.
  rewrite erase_collapse, a_delete_prefix_f_upd, delete_prefix_f_upd, (erase_upd_f _ (delete_prefix k')); [reflexivity|].
  intros t G. exact (IH c t G k').
Qed.

(** [get_mut] + write changes the value at an existing key and nothing else. *)
Lemma erase_setval_mut :
  (forall t k v, wfb (erase t) = true -> lookup k (erase t) <> None ->
        erase (a_setval k v t) = insert k v (erase t))
  /\ (forall f c k v, wfb_f (erase_f f) = true -> sorted_f (erase_f f) = true ->
        lookup_f c k (erase_f f) <> None ->
        erase_f (a_setval_f c k v f) = insert_f c k v (erase_f f)).
Proof.
  apply atree_aforest_ind.
  - intros o p ov cs IH k v Hwf. cbn [erase] in Hwf. apply wfb_node in Hwf as (Hwc & Hs & _).
    cbn [a_setval erase lookup]. rewrite insert_eq.
    destruct (follow_stem k p) as [|s ps|c k'|cm kc kr sc sr]; intros Hl; try congruence.
    + destruct ov as [[x a]|]; [reflexivity | cbn in Hl; congruence].
    + cbn [erase]. rewrite IH by assumption. reflexivity.
  - intros c k v _ _ Hl. cbn in Hl. congruence.
  - intros c' t IHt r IHr c k v Hwf Hs. cbn [erase_f] in Hwf, Hs.
    rewrite wfb_f_cons in Hwf. apply andb_true_iff in Hwf as [Hwt Hwr].
    rewrite sorted_f_cons in Hs. apply andb_true_iff in Hs as [Hgt Hsr].
    cbn [a_setval_f erase_f]. rewrite lookup_f_cons, insert_f_cons.
    destruct (N.eqb_spec c c') as [->|Hne]; intros Hl; cbn [erase_f].
    + rewrite IHt by assumption. reflexivity.
    + rewrite IHr by assumption.
      destruct (N.ltb_spec c c') as [Hlt|Hge]; [|reflexivity].
      exfalso. apply Hl. apply lookup_f_all_gt. eapply all_gt_trans; eassumption.
Qed.

Fixpoint all_orig (t : atree) : bool :=
  match t with
  | AN o _ ov cs =>
      (match o with Some _ => true | None => false end) && negb (value_owned ov) && all_orig_f cs
  end
with all_orig_f (f : aforest) : bool :=
  match f with
  | ANil => true
  | ACons _ t r => all_orig t && all_orig_f r
  end.

Lemma value_charge_borrowed ov : value_owned ov = false -> value_charge ov = 0.
Proof. destruct ov as [[v [l|]]|]; cbn; congruence. Qed.

Lemma freeze_val_borrowed ov : value_owned (freeze_val ov) = false.
Proof. destruct ov as [[v [l|]]|]; reflexivity. Qed.

Lemma freeze_val_erase ov : option_map fst (freeze_val ov) = option_map fst ov.
Proof. destruct ov as [[v [l|]]|]; reflexivity. Qed.

Lemma freeze_inv_mut :
  (forall t, all_orig (snd (fst (freeze t))) = true
             /\ erase (snd (fst (freeze t))) = erase t
             /\ (fst (fst (freeze t)) = false -> snd (fst (freeze t)) = t /\ snd (freeze t) = 0))
  /\ (forall f, all_orig_f (snd (fst (freeze_f f))) = true
             /\ erase_f (snd (fst (freeze_f f))) = erase_f f
             /\ (fst (fst (freeze_f f)) = false -> snd (fst (freeze_f f)) = f /\ snd (freeze_f f) = 0)).
Proof.
  apply atree_aforest_ind.
  - intros o p ov cs IH. cbn [freeze]. destruct (freeze_f cs) as [[chc cs'] nc]. cbn [fst snd] in IH.
    destruct IH as (A & B & C).
    destruct o as [l|]; destruct (value_owned ov) eqn:Ev; destruct chc; cbn [orb fst snd];
      try (split; [cbn [all_orig]; rewrite freeze_val_borrowed, A; reflexivity|];
           split; [cbn [erase]; rewrite freeze_val_erase, B; reflexivity | discriminate]).
    destruct (C eq_refl) as [-> ->]. split; [cbn [all_orig]; rewrite Ev, A; reflexivity|].
    split; [reflexivity|]. intros _. split; [reflexivity|]. rewrite (value_charge_borrowed _ Ev). reflexivity.
  - cbn. repeat split.
  - intros c t IHt r IHr. cbn [freeze_f]. destruct (freeze t) as [[ch1 t'] n1].
    destruct (freeze_f r) as [[ch2 r'] n2]. cbn [fst snd] in *.
    destruct IHt as (A1 & B1 & C1). destruct IHr as (A2 & B2 & C2).
    split; [cbn [all_orig_f]; rewrite A1, A2; reflexivity|].
    split; [cbn [erase_f]; rewrite B1, B2; reflexivity|].
    intros H. apply orb_false_iff in H as [-> ->].
    destruct (C1 eq_refl) as [-> ->]. destruct (C2 eq_refl) as [-> ->]. split; reflexivity.
Qed.

Lemma freeze_orig_mut :
  (forall t, all_orig t = true -> freeze t = (false, t, 0))
  /\ (forall f, all_orig_f f = true -> freeze_f f = (false, f, 0)).
Proof.
  apply atree_aforest_ind.
  - intros o p ov cs IH H. cbn [all_orig] in H. apply andb_true_iff in H as [H Hc].
    apply andb_true_iff in H as [Ho Hv]. apply negb_true_iff in Hv.
    cbn [freeze]. rewrite (IH Hc). destruct o as [l|]; [|discriminate].
    rewrite Hv. cbn [orb]. rewrite (value_charge_borrowed _ Hv). reflexivity.
  - reflexivity.
  - intros c t IHt r IHr H. cbn [all_orig_f] in H. apply andb_true_iff in H as [Ht Hr].
    cbn [freeze_f]. rewrite (IHt Ht), (IHr Hr). reflexivity.
Qed.

Definition all_orig_root (r : option atree) : bool :=
  match r with None => true | Some t => all_orig t end.

Theorem freeze_root_contents r : erase_root (fst (freeze_root r)) = erase_root r.
Proof.
  destruct r as [t|]; [|reflexivity]. cbn [freeze_root].
  pose proof (proj1 freeze_inv_mut t) as (_ & B & _). destruct (freeze t) as [[ch t'] n].
  cbn [fst snd erase_root option_map] in *. rewrite B. reflexivity.
Qed.

Theorem freeze_root_all_orig r : all_orig_root (fst (freeze_root r)) = true.
Proof.
  destruct r as [t|]; [|reflexivity]. cbn [freeze_root].
  pose proof (proj1 freeze_inv_mut t) as (A & _ & _). destruct (freeze t) as [[ch t'] n].
  cbn [fst snd all_orig_root] in *. exact A.
Qed.

Theorem freeze_root_of_orig r : all_orig_root r = true -> freeze_root r = (r, 0).
Proof.
  destruct r as [t|]; [|reflexivity]. cbn [all_orig_root freeze_root]. intros H.
  rewrite (proj1 freeze_orig_mut t H). reflexivity.
Qed.

(** freeze (thaw (freeze r)) returns the same tree and charges nothing. *)
Theorem refreeze_nothing r :
  freeze_root (thaw (fst (freeze_root r))) = (fst (freeze_root r), 0).
Proof. apply freeze_root_of_orig. apply freeze_root_all_orig. Qed.

Lemma tag_small n : n <= 63 ->
  (n + 64) mod 64 = n /\ (n + 0) mod 64 = n /\ (n + 64) / 64 = 1 /\ (n + 0) / 64 = 0.
Proof.
  intros H. replace (n + 64) with (n + 1 * 64) by lia. rewrite N.mod_add, N.div_add by lia.
  rewrite N.add_0_r, N.mod_small, N.div_small by lia. repeat split; reflexivity.
Qed.

Lemma lenN_app {A} (a b : list A) : lenN (a ++ b) = lenN a + lenN b.
Proof. unfold lenN. rewrite app_length. lia. Qed.

Lemma take_n_app_eq n h r : n = lenN h -> take_n n (h ++ r) = Some (h, r).
Proof. intros ->. apply take_n_app. Qed.

Lemma lenN_pack ns : lenN (pack ns) = (lenN ns + 1) / 2.
Proof.
  unfold lenN. rewrite pack_length.
  assert (H : forall m, N.of_nat (Nat.div2 (S m)) = (N.of_nat m + 1) / 2).
  { intros m. rewrite Nat.div2_div. rewrite Nat2N.inj_div. f_equal. lia. }
  apply H.
Qed.

Definition path_ok (p : list N) : Prop := nibbles_ok p = true /\ lenN p < 2 ^ 32.

Lemma dec_path_enc p hv rest : path_ok p -> dec_path (enc_path p hv ++ rest) = Some (p, hv, rest).
Proof.
  intros [Hn Hl]. unfold enc_path, path_tag, INLINE_STEM_LENGTH.
  destruct (N.leb_spec (lenN p) 63) as [Hs|Hs].
  - cbn [app]. unfold dec_path.
    assert (Ht : (lenN p + (if hv then 64 else 0) <? 128) = true) by (apply N.ltb_lt; destruct hv; lia).
    rewrite Ht.
    destruct (tag_small _ Hs) as (T1 & T2 & T3 & T4).
    assert (Hm : (lenN p + (if hv then 64 else 0)) mod 64 = lenN p) by (destruct hv; assumption).
    rewrite Hm.
    rewrite (take_n_app_eq _ (pack p) rest) by (symmetry; apply lenN_pack).
    unfold lenN at 1. rewrite Nat2N.id, (unpack_pack p Hn).
    assert (Hv : negb ((lenN p + (if hv then 64 else 0)) / 64 mod 2 =? 0) = hv).
    { destruct hv.
      - rewrite T3. reflexivity.
      - rewrite T4. reflexivity. }
    rewrite Hv. reflexivity.
  - cbn [app]. unfold dec_path.
    assert (Ht : (128 + (if hv then 64 else 0) <? 128) = false) by (apply N.ltb_ge; destruct hv; lia).
    rewrite Ht. rewrite <- app_assoc. unfold be32.
    rewrite dec_uint_enc by (unfold pow256; cbn; exact Hl).
    rewrite (take_n_app_eq _ (pack p) rest) by (symmetry; apply lenN_pack).
    unfold lenN at 1. rewrite Nat2N.id, (unpack_pack p Hn).
    destruct hv; reflexivity.
Qed.

Definition svalue_ok (sv : svalue) : Prop :=
  match sv with
  | SInline v => lenN v <= 64
  | SIndirect h r => length h = 32%nat /\ r < 2 ^ 64
  end.

Lemma dec_svalue_enc sv rest : svalue_ok sv -> dec_svalue (enc_svalue sv ++ rest) = Some (sv, rest).
Proof.
  destruct sv as [v|h r]; cbn [svalue_ok enc_svalue]; intros H.
  - cbn [app dec_svalue]. unfold INLINE_VALUE_LEN. apply N.leb_le in H. rewrite H.
    rewrite take_n_app. reflexivity.
  - destruct H as [Hh Hr]. cbn [app dec_svalue]. unfold INLINE_VALUE_LEN.
    replace (255 <=? 64) with false by reflexivity.
    rewrite <- app_assoc, (take_app h _ 32 Hh). unfold be64.
    rewrite dec_uint_enc by (unfold pow256; cbn; exact Hr). reflexivity.
Qed.

Definition kids_ok (l : list (N * N)) : Prop := Forall (fun cx => snd cx < 2 ^ 64) l.

Lemma dec_children_enc l rest : kids_ok l -> dec_children (length l) (enc_kids l ++ rest) = Some (l, rest).
Proof.
  induction 1 as [|[c x] l Hx _ IH]; [reflexivity|].
  cbn [length enc_kids flat_map fst snd dec_children app]. fold (enc_kids l).
  rewrite <- !app_assoc. unfold be64.
  rewrite dec_uint_enc by (unfold pow256; cbn; exact Hx).
  rewrite IH. reflexivity.
Qed.

Definition rec_ok (r : nrec) : Prop :=
  length (r_hash r) = 32%nat /\ path_ok (r_path r)
  /\ (match r_value r with Some sv => svalue_ok sv | None => True end)
  /\ kids_ok (r_children r).

(** What [store_update_buf] writes for a node, [Loadable for Hashed<Node>] reads back. *)
Theorem dec_rec_enc r rest : rec_ok r -> dec_rec (enc_rec r ++ rest) = Some (r, rest).
Proof.
  destruct r as [h p ov l]. unfold rec_ok, enc_rec. cbn [r_hash r_path r_value r_children].
  intros (Hh & Hp & Hv & Hk). unfold dec_rec. rewrite <- !app_assoc.
  rewrite (take_app h _ 32 Hh), dec_path_enc by assumption.
  destruct ov as [sv|].
  - rewrite dec_svalue_enc by assumption. cbn [app]. unfold lenN. rewrite Nat2N.id.
    rewrite dec_children_enc by assumption. reflexivity.
  - cbn [app]. unfold lenN. rewrite Nat2N.id.
    rewrite dec_children_enc by assumption. reflexivity.
Qed.

Fixpoint theight (t : tree value) : nat :=
  match t with Node _ _ cs => S (fheight cs) end
with fheight (f : forest value) : nat :=
  match f with FNil => O | FCons _ t r => Nat.max (theight t) (fheight r) end.

Fixpoint tree_ok (t : atree) : Prop :=
  match t with AN _ p _ cs => path_ok p /\ forest_ok cs end
with forest_ok (f : aforest) : Prop :=
  match f with ANil => True | ACons _ t r => tree_ok t /\ forest_ok r end.

Definition bounded (st : store) : Prop := Forall (fun rd => fst rd < s_next st) (s_recs st).
Definition extends (st st' : store) : Prop :=
  forall r d, load_raw st r = Some d -> load_raw st' r = Some d.

Lemma extends_refl st : extends st st.
Proof. intros r d H. exact H. Qed.

Lemma extends_trans a b c : extends a b -> extends b c -> extends a c.
Proof. intros H1 H2 r d H. apply H2, H1, H. Qed.

Lemma assoc_ref_bound r l d n : Forall (fun rd => fst rd < n) l -> assoc_ref r l = Some d -> r < n.
Proof.
  induction 1 as [|[r' d'] l H _ IH]; cbn [assoc_ref]; [discriminate|].
  destruct (N.eqb_spec r r') as [->|_]; [intros _; exact H | exact IH].
Qed.

Lemma store_raw_props st d st' r : store_raw st d = (st', r) -> bounded st ->
  bounded st' /\ extends st st' /\ load_raw st' r = Some d /\ r = s_next st
  /\ s_next st' = s_next st + 8 + lenN d.
Proof.
  unfold store_raw. intros E Hb. injection E as <- <-. cbn [s_next s_recs].
  split; [|split; [|split; [|split; reflexivity]]].
  - constructor; [cbn [fst s_next]; lia|]. cbn [s_next s_recs].
    eapply Forall_impl; [|exact Hb]. cbn. intros; lia.
  - intros r0 d0 H. unfold load_raw in *. cbn [s_recs assoc_ref].
    destruct (N.eqb_spec r0 (s_next st)) as [->|_]; [|exact H].
    pose proof (assoc_ref_bound _ _ _ _ Hb H). lia.
  - unfold load_raw. cbn [s_recs assoc_ref]. rewrite N.eqb_refl. reflexivity.
Qed.

Lemma height_fuel_kids (ld1 ld2 : N -> option (tree value * list N)) l :
  (forall x, In x (map snd l) -> ld1 x = ld2 x) -> load_kids_with ld1 l = load_kids_with ld2 l.
Proof.
  induction l as [|[c x] l IH]; intros H; [reflexivity|]. cbn [load_kids_with].
  rewrite (H x) by (left; reflexivity). rewrite IH by (intros y Hy; apply H; right; exact Hy). reflexivity.
Qed.

(** [grows st st']: [st'] is [st] after some [store_raw]s.  Storing only appends, so what the
    store functions do to the store is a [grows]; that the next reference does not decrease, that
    [bounded] is kept and every record stays readable follow from that. *)
Inductive grows (st : store) : store -> Prop :=
| grows_refl : grows st st
| grows_raw st1 d : grows st st1 -> grows st (fst (store_raw st1 d)).

Lemma grows_trans a b c : grows a b -> grows b c -> grows a c.
Proof. intros H1 H2. induction H2 as [|st1 d _ IH]; [exact H1 | constructor; exact IH]. Qed.

Lemma grows_props a b : grows a b -> bounded a -> bounded b /\ extends a b /\ s_next a <= s_next b.
Proof.
  induction 1 as [|st1 d _ IH]; intros Hb; [split; [exact Hb | split; [apply extends_refl | lia]]|].
  destruct (IH Hb) as (B & X & L). destruct (store_raw st1 d) as [st2 r] eqn:E.
  destruct (store_raw_props _ _ _ _ E B) as (B2 & X2 & _ & _ & N2). cbn [fst].
  split; [exact B2|]. split; [eapply extends_trans; eassumption | lia].
Qed.

Section Incremental.
Variable sha256 : list N -> list N.
Hypothesis sha_len : forall x, length (sha256 x) = 32%nat.

Lemma store_node_eq o p ov cs st :
  store_node sha256 (AN o p ov cs) st =
  match o with
  | Some (Some r) => (st, AN o p ov cs, r)
  | _ =>
      let '(st1, cs', refs) := store_children sha256 cs st in
      let '(st2, ov', sv) := store_value sha256 ov st1 in
      let body := enc_rec (mkRec (hash_node sha256 (erase (AN o p ov cs))) p sv (combine (labels cs) refs)) in
      let '(st3, r) := store_raw st2 body in
      (st3, AN (Some (Some r)) p ov' cs', r)
  end.
Proof. reflexivity. Qed.

Lemma store_children_cons c t r st :
  store_children sha256 (ACons c t r) st =
  let '(st1, r', refs) := store_children sha256 r st in
  let '(st2, t', x) := store_node sha256 t st1 in
  (st2, ACons c t' r', x :: refs).
Proof. reflexivity. Qed.

(** A node without a location is written afresh, whatever its annotation says. *)
Lemma store_node_fresh o p ov cs st : (forall r, o <> Some (Some r)) ->
  store_node sha256 (AN o p ov cs) st =
  let '(st1, cs', refs) := store_children sha256 cs st in
  let '(st2, ov', sv) := store_value sha256 ov st1 in
  let body := enc_rec (mkRec (hash_node sha256 (erase (AN o p ov cs))) p sv (combine (labels cs) refs)) in
  let '(st3, r) := store_raw st2 body in
  (st3, AN (Some (Some r)) p ov' cs', r).
Proof. destruct o as [[r|]|]; [intros H; destruct (H r eq_refl) | reflexivity | reflexivity]. Qed.

Lemma located_dec (o : option (option N)) : {r | o = Some (Some r)} + {forall r, o <> Some (Some r)}.
Proof. destruct o as [[r|]|]; [left; eauto | right; discriminate | right; discriminate]. Qed.

(** Following the reference [r] in [st] (or any extension of it) loads [t] with its hash. *)
Definition loads (st : store) (r : N) (t : tree value) : Prop :=
  forall st'' fuel, extends st st'' -> (theight t <= fuel)%nat ->
    load_node fuel st'' r = Some (t, hash_node sha256 t).

Definition value_consistent (st : store) (ov : option aval) : Prop :=
  match ov with
  | Some (x, Some (Some r)) => INLINE_VALUE_LEN < lenN x -> load_raw st r = Some x /\ r < s_next st
  | _ => True
  end.

(** Every located node really is at its location, every located long value too. *)
Fixpoint consistent (st : store) (t : atree) : Prop :=
  match t with
  | AN o p ov cs =>
      (match o with
       | Some (Some r) => loads st r (Node p (option_map fst ov) (erase_f cs)) /\ r < s_next st
       | _ => True
       end)
      /\ value_consistent st ov /\ consistent_f st cs
  end
with consistent_f (st : store) (f : aforest) : Prop :=
  match f with ANil => True | ACons _ t r => consistent st t /\ consistent_f st r end.

Lemma loads_ext st st' r t : extends st st' -> loads st r t -> loads st' r t.
Proof. intros X L st'' fuel Hx Hf. apply L; [eapply extends_trans; eassumption | exact Hf]. Qed.

Lemma value_consistent_ext st st' ov :
  extends st st' -> s_next st <= s_next st' -> value_consistent st ov -> value_consistent st' ov.
Proof.
  intros X Hn. destruct ov as [[x [[r|]|]]|]; cbn; auto. intros H Hl. destruct (H Hl) as [A B].
  split; [apply X; exact A | lia].
Qed.

Lemma consistent_ext_mut st st' : extends st st' -> s_next st <= s_next st' ->
  (forall t, consistent st t -> consistent st' t) /\ (forall f, consistent_f st f -> consistent_f st' f).
Proof.
  intros X Hn. apply atree_aforest_ind.
  - intros o p ov cs IH (A & B & C). cbn [consistent]. split; [|split; [eapply value_consistent_ext; eassumption | auto]].
    destruct o as [[r|]|]; auto. destruct A as [A1 A2]. split; [eapply loads_ext; eassumption | lia].
  - auto.
  - intros c t IHt r IHr [A B]. split; auto.
Qed.

Lemma store_value_grows ov st : grows st (fst (fst (store_value sha256 ov st))).
Proof.
  unfold store_value. destruct ov as [[x a]|]; [|constructor].
  destruct (lenN x <=? INLINE_VALUE_LEN); [constructor|].
  destruct a as [[r|]|]; [constructor | |];
    (pose proof (grows_raw st st x (grows_refl st)) as H; destruct (store_raw st x) as [st1 r1]; exact H).
Qed.

Lemma store_grows_mut :
  (forall t st, grows st (fst (fst (store_node sha256 t st))))
  /\ (forall f st, grows st (fst (fst (store_children sha256 f st)))).
Proof.
  apply atree_aforest_ind.
  - intros o p ov cs IH st. specialize (IH st).
    destruct (located_dec o) as [[r ->]|Hu]; [constructor|]. rewrite (store_node_fresh o p ov cs st Hu).
    destruct (store_children sha256 cs st) as [[st1 cs'] refs]. cbn [fst] in IH.
    pose proof (store_value_grows ov st1) as H2.
    destruct (store_value sha256 ov st1) as [[st2 ov'] sv]. cbn [fst] in H2. cbv zeta.
    match goal with |- context [store_raw st2 ?b] =>
      pose proof (grows_raw st st2 b (grows_trans _ _ _ IH H2)) as H3; destruct (store_raw st2 b) as [st3 r3] end.
    exact H3.
  - intros st. constructor.
  - intros c t IHt r IHr st. rewrite store_children_cons. specialize (IHr st).
    destruct (store_children sha256 r st) as [[st1 r'] refs]. cbn [fst] in IHr.
    specialize (IHt st1). destruct (store_node sha256 t st1) as [[st2 t'] x]. cbn [fst] in *.
    eapply grows_trans; eassumption.
Qed.

Lemma store_value_props ov st st' ov' sv :
  store_value sha256 ov st = (st', ov', sv) -> bounded st -> s_next st' < 2 ^ 64 -> value_consistent st ov ->
  option_map fst ov' = option_map fst ov
  /\ (match sv with Some s => svalue_ok s | None => True end)
  /\ value_consistent st' ov'
  /\ (forall st'', extends st' st'' -> load_value st'' sv = Some (option_map fst ov)).
Proof.
  unfold store_value. destruct ov as [[x a]|].
  - destruct (N.leb_spec (lenN x) INLINE_VALUE_LEN) as [Hs|Hs].
    + intros E Hb _ Hc. injection E as <- <- <-. repeat split; try assumption; exact Hs.
    + destruct a as [[r|]|].
      (* not in the store yet: written now *)
      2, 3: (destruct (store_raw st x) as [st1 r] eqn:E1; intros E Hb Hn _; injection E as <- <- <-;
             destruct (store_raw_props _ _ _ _ E1 Hb) as (B & X & L & Hr & Hnext);
             repeat split; try assumption; try lia;
             [unfold hash_value; apply sha_len | intros st'' Hx; cbn [load_value]; rewrite (Hx _ _ L); reflexivity]).
      intros E Hb Hn Hc. injection E as <- <- <-. destruct (Hc Hs) as [Hl Hr].
      repeat split; try assumption; try lia.
      * unfold hash_value. apply sha_len.
      * intros st'' Hx. cbn [load_value]. rewrite (Hx _ _ Hl). reflexivity.
  - intros E Hb _ _. injection E as <- <- <-. repeat split.
Qed.

Lemma store_props_mut :
  (forall t st st' t' r, store_node sha256 t st = (st', t', r) -> bounded st -> tree_ok t -> consistent st t ->
      s_next st' < 2 ^ 64 ->
      r < s_next st' /\ erase t' = erase t /\ consistent st' t' /\ loads st' r (erase t)
      /\ exists p ov cs, t' = AN (Some (Some r)) p ov cs)
  /\ (forall f st st' f' refs, store_children sha256 f st = (st', f', refs) -> bounded st -> forest_ok f ->
      consistent_f st f -> s_next st' < 2 ^ 64 ->
      Forall (fun x => x < s_next st') refs /\ length refs = aflen f
      /\ erase_f f' = erase_f f /\ consistent_f st' f'
      /\ forall st'' fuel, extends st' st'' -> (fheight (erase_f f) <= fuel)%nat ->
           load_kids_with (load_node fuel st'') (combine (labels f) refs) = Some (erase_f f)).
Proof.
  apply atree_aforest_ind.
  - intros o p ov cs IH st st' t' r E Hb [Hp Hf] (Co & Cv & Cc) Hn.
    destruct (located_dec o) as [[r0 ->]|Hu].
    { cbn [store_node] in E. injection E as <- <- <-. destruct Co as [L Hr]. repeat split; try assumption. eauto. }
    rewrite (store_node_fresh o p ov cs st Hu) in E.
    pose proof (proj2 store_grows_mut cs st) as G1.
    destruct (store_children sha256 cs st) as [[st1 cs'] refs] eqn:E1. cbn [fst] in G1.
    pose proof (store_value_grows ov st1) as G2.
    destruct (store_value sha256 ov st1) as [[st2 ov'] sv] eqn:E2. cbn [fst] in G2.
    cbv zeta in E. destruct (store_raw st2 _) as [st3 r3] eqn:E3 in E. injection E as <- <- <-.
    destruct (grows_props _ _ G1 Hb) as (B1 & X1 & L1). destruct (grows_props _ _ G2 B1) as (B2 & X2 & L2).
    destruct (store_raw_props _ _ _ _ E3 B2) as (B3 & X3 & L3 & Hr3 & Hnext3).
    destruct (IH st st1 cs' refs E1 Hb Hf Cc ltac:(lia)) as (R1 & Len1 & Er1 & Cc1 & Ld1).
    assert (Cv1 : value_consistent st1 ov) by (eapply value_consistent_ext; eassumption).
    destruct (store_value_props _ _ _ _ _ E2 B1 ltac:(lia) Cv1) as (Ev & Sv & Cv2 & Lv).
    assert (X13 : extends st1 st3) by (eapply extends_trans; eassumption).
    assert (Ld : loads st3 r3 (erase (AN o p ov cs))).
    { intros st'' fuel Hx Hfuel. cbn [erase theight] in Hfuel.
      destruct fuel as [|fuel']; [lia|]. cbn [load_node].
      rewrite (Hx _ _ L3). rewrite <- (app_nil_r (enc_rec _)). rewrite dec_rec_enc.
      + cbn [r_value r_children r_path r_hash].
        rewrite (Lv st'') by (eapply extends_trans; [exact X3 | exact Hx]).
        rewrite (Ld1 st'' fuel') by (try (eapply extends_trans; [exact X13 | exact Hx]); lia).
        reflexivity.
      + unfold rec_ok. cbn [r_value r_children r_path r_hash].
        split; [apply sha_len|]. split; [exact Hp|]. split; [exact Sv|].
        unfold kids_ok.
        assert (Hlt : Forall (fun x => x < 2 ^ 64) refs) by (eapply Forall_impl; [|exact R1]; cbn; intros; lia).
        clear - Hlt. generalize (labels cs). intros ls. revert ls.
        induction Hlt as [|x refs Hx _ IHr]; intros [|c ls]; cbn [combine]; constructor; auto. }
    split; [lia|].
    split; [cbn [erase]; rewrite Ev, Er1; reflexivity|].
    split.
    + cbn [consistent]. split; [|split].
      * split; [|lia]. rewrite Ev, Er1. exact Ld.
      * eapply value_consistent_ext; [exact X3 | lia | exact Cv2].
      * apply (proj2 (consistent_ext_mut st1 st3 X13 ltac:(lia))). exact Cc1.
    + split; [exact Ld | eauto].
  - intros st st' f' refs E Hb _ _ Hn. cbn [store_children] in E. injection E as <- <- <-.
    repeat split; try assumption; constructor.
  - intros c t IHt r IHr st st' f' refs E Hb [Ht Hr] [Ct Cr] Hn. rewrite store_children_cons in E.
    pose proof (proj2 store_grows_mut r st) as G1.
    destruct (store_children sha256 r st) as [[st1 r'] refs1] eqn:E1. cbn [fst] in G1.
    pose proof (proj1 store_grows_mut t st1) as G2.
    destruct (store_node sha256 t st1) as [[st2 t'] x] eqn:E2. cbn [fst] in G2. injection E as <- <- <-.
    destruct (grows_props _ _ G1 Hb) as (B1 & X1 & L1). destruct (grows_props _ _ G2 B1) as (B2 & X2 & L2).
    destruct (IHr st st1 r' refs1 E1 Hb Hr Cr ltac:(lia)) as (R1 & Len1 & Er1 & Cr1 & Ld1).
    assert (Ct1 : consistent st1 t) by (apply (proj1 (consistent_ext_mut st st1 X1 L1)); exact Ct).
    destruct (IHt st1 st2 t' x E2 B1 Ht Ct1 Hn) as (R2 & Et & Ct2 & Ldt & _).
    split; [constructor; [exact R2|]; eapply Forall_impl; [|exact R1]; cbn; intros; lia|].
    split; [cbn [length aflen]; rewrite Len1; reflexivity|].
    split; [cbn [erase_f]; rewrite Et, Er1; reflexivity|].
    split; [split; [exact Ct2 | apply (proj2 (consistent_ext_mut st1 st2 X2 L2)); exact Cr1]|].
    intros st'' fuel Hx Hfuel. cbn [erase_f fheight] in Hfuel.
    cbn [labels combine load_kids_with erase_f].
    rewrite (Ldt st'' fuel Hx) by lia.
    rewrite (Ld1 st'' fuel) by (try (eapply extends_trans; eassumption); lia).
    reflexivity.
Qed.

(** [store_update] of ANY state that is consistent with the store (fresh, loaded, or frozen
    after modifications of a stored state): the written top record names the root, following
    the references loads the same tree with the right hash, and both resulting states (the
    one kept in memory and the one [load_from_location] gives) are consistent again. *)
Theorem store_update_incremental t st st' kept loaded top :
  store_update sha256 (Some t) st = (st', kept, loaded, top) ->
  tree_ok t -> bounded st -> consistent st t -> s_next st' < 2 ^ 64 ->
  erase_root kept = Some (erase t) /\ erase_root loaded = Some (erase t)
  /\ (exists x, root_ref loaded = Some x /\ load_raw st' top = Some (1 :: be64 x)
                /\ loads st' x (erase t))
  /\ bounded st'
  /\ (match kept with Some k => consistent st' k | None => False end)
  /\ (match loaded with Some l => consistent st' l | None => False end).
Proof.
  unfold store_update. intros E Hok Hb Hc Hn.
  destruct (store_node sha256 t st) as [[st1 t1] x] eqn:E1.
  destruct (store_raw st1 (1 :: be64 x)) as [st2 tp] eqn:E2. injection E as <- <- <- <-.
  pose proof (proj1 store_grows_mut t st) as G1. rewrite E1 in G1. cbn [fst] in G1.
  destruct (grows_props _ _ G1 Hb) as (B1 & X1 & L1).
  destruct (store_raw_props _ _ _ _ E2 B1) as (B2 & X2 & L2 & _ & N2).
  destruct (proj1 store_props_mut t st st1 t1 x E1 Hb Hok Hc ltac:(lia)) as (Rx & Et & C1 & Ld & (p1 & ov1 & cs1 & ->)).
  assert (C2 : consistent st2 (AN (Some (Some x)) p1 ov1 cs1))
    by (apply (proj1 (consistent_ext_mut st1 st2 X2 ltac:(lia))); exact C1).
  split; [|split; [|split; [|split; [|split]]]].
  - destruct t as [[[r0|]|] p ov cs]; cbn [erase_root option_map]; f_equal; cbn [erase] in *; try exact Et; reflexivity.
  - cbn [erase_root option_map]. rewrite Et. reflexivity.
  - exists x. split; [reflexivity|]. split; [exact L2|]. eapply loads_ext; [exact X2 | exact Ld].
  - exact B2.
  - destruct t as [[[r0|]|] p ov cs].
    + apply (proj1 (consistent_ext_mut st st2 ltac:(eapply extends_trans; eassumption) ltac:(lia))). exact Hc.
    + destruct C2 as (_ & Cv & Cc). cbn [consistent]. auto.
    + destruct C2 as (_ & Cv & Cc). cbn [consistent]. auto.
  - exact C2.
Qed.

End Incremental.

Fixpoint in_memory (t : atree) : bool :=
  match t with
  | AN o _ ov cs =>
      (match o with Some (Some _) => false | _ => true end)
      && (match ov with Some (_, Some None) => true | None => true | _ => false end)
      && in_memory_f cs
  end
with in_memory_f (f : aforest) : bool :=
  match f with
  | ANil => true
  | ACons _ t r => in_memory t && in_memory_f r
  end.

Lemma in_memory_consistent_mut (sha256 : list N -> list N) st :
  (forall t, in_memory t = true -> consistent sha256 st t)
  /\ (forall f, in_memory_f f = true -> consistent_f sha256 st f).
Proof.
  apply atree_aforest_ind.
  - intros o p ov cs IH H. cbn [in_memory] in H. apply andb_true_iff in H as [H Hc].
    apply andb_true_iff in H as [Ho Hv]. cbn [consistent]. split; [|split; [|apply IH; exact Hc]].
    + destruct o as [[r|]|]; [discriminate | exact I | exact I].
    + destruct ov as [[x [[r|]|]]|]; cbn; try exact I; discriminate.
  - intros _. exact I.
  - intros c t IHt r IHr H. cbn [in_memory_f] in H. apply andb_true_iff in H as [Ht Hr].
    split; [apply IHt; exact Ht | apply IHr; exact Hr].
Qed.

Lemma erase_strip_mut :
  (forall t, erase (strip t) = erase t) /\ (forall f, erase_f (strip_f f) = erase_f f).
Proof.
  apply atree_aforest_ind.
  - intros o p ov cs IH. cbn [strip erase]. rewrite IH. destruct ov as [[v a]|]; reflexivity.
  - reflexivity.
  - intros c t IHt r IHr. cbn [strip_f erase_f]. rewrite IHt, IHr. reflexivity.
Qed.

Lemma labels_strip f : labels (strip_f f) = labels f.
Proof. induction f as [|c t r IH]; [reflexivity|]. cbn [strip_f labels]. rewrite IH. reflexivity. Qed.

Lemma in_memory_strip_mut :
  (forall t, in_memory (strip t) = true) /\ (forall f, in_memory_f (strip_f f) = true).
Proof.
  apply atree_aforest_ind.
  - intros o p ov cs IH. cbn [strip in_memory]. rewrite IH. destruct ov as [[v a]|]; reflexivity.
  - reflexivity.
  - intros c t IHt r IHr. cbn [strip_f in_memory_f]. rewrite IHt, IHr. reflexivity.
Qed.

Lemma tree_ok_strip_mut :
  (forall t, tree_ok t -> tree_ok (strip t)) /\ (forall f, forest_ok f -> forest_ok (strip_f f)).
Proof.
  apply atree_aforest_ind.
  - intros o p ov cs IH [Hp Hf]. split; [exact Hp | exact (IH Hf)].
  - auto.
  - intros c t IHt r IHr [Ht Hr]. split; [exact (IHt Ht) | exact (IHr Hr)].
Qed.

Section StoreMemory.
Variable sha256 : list N -> list N.

Lemma migrate_node_eq o p ov cs st :
  migrate_node sha256 (AN o p ov cs) st =
  let '(st1, cs', refs) := migrate_children sha256 cs st in
  let '(st2, ov', sv) := migrate_value sha256 ov st1 in
  let body := enc_rec (mkRec (hash_node sha256 (erase (AN o p ov cs))) p sv (combine (labels cs) refs)) in
  let '(st3, r) := store_raw st2 body in
  (st3, AN (Some (Some r)) p ov' cs', r).
Proof. reflexivity. Qed.

Lemma migrate_children_cons c t r st :
  migrate_children sha256 (ACons c t r) st =
  let '(st1, r', refs) := migrate_children sha256 r st in
  let '(st2, t', x) := migrate_node sha256 t st1 in
  (st2, ACons c t' r', x :: refs).
Proof. reflexivity. Qed.

(** [migrate] does not look at the annotations: it is [store_node] of the stripped tree, so
    everything about it is a fact about [store_node]. *)
Lemma migrate_store_mut :
  (forall t st, migrate_node sha256 t st = store_node sha256 (strip t) st)
  /\ (forall f st, migrate_children sha256 f st = store_children sha256 (strip_f f) st).
Proof.
  apply atree_aforest_ind.
  - intros o p ov cs IH st. rewrite migrate_node_eq, <- (proj1 erase_strip_mut (AN o p ov cs)).
    cbn [strip]. rewrite store_node_eq, <- IH, labels_strip.
    destruct (migrate_children sha256 cs st) as [[st1 cs'] refs].
    replace (store_value sha256 _ st1) with (migrate_value sha256 ov st1); [reflexivity|].
    unfold migrate_value, store_value. destruct ov as [[x a]|]; [|reflexivity].
    destruct (lenN x <=? INLINE_VALUE_LEN); reflexivity.
  - reflexivity.
  - intros c t IHt r IHr st. cbn [strip_f]. rewrite migrate_children_cons, store_children_cons, <- IHr.
    destruct (migrate_children sha256 r st) as [[st1 r'] refs]. rewrite <- IHt. reflexivity.
Qed.

Hypothesis sha_len : forall x, length (sha256 x) = 32%nat.

(** [store_update] of an in-memory state into a store, then following the root reference
    (what [load_from_location] + lookups do) yields the same tree with the right hashes. *)
Theorem store_update_loads t st st' kept loaded top :
  store_update sha256 (Some t) st = (st', kept, loaded, top) ->
  in_memory t = true -> tree_ok t -> bounded st -> s_next st' < 2 ^ 64 ->
  erase_root kept = Some (erase t) /\ erase_root loaded = Some (erase t)
  /\ load_raw st' top = Some (1 :: be64 (match root_ref loaded with Some x => x | None => 0 end))
  /\ exists x, root_ref loaded = Some x
     /\ forall fuel, (theight (erase t) <= fuel)%nat ->
          load_node fuel st' x = Some (erase t, hash_node sha256 (erase t)).
Proof.
  intros E Hm Hok Hb Hn.
  destruct (store_update_incremental sha256 sha_len t st st' kept loaded top E Hok Hb
              (proj1 (in_memory_consistent_mut sha256 st) t Hm) Hn)
    as (Ek & El & (x & Hx & Ht & Ld) & _).
  split; [exact Ek|]. split; [exact El|]. rewrite Hx. split; [exact Ht|].
  exists x. split; [reflexivity|]. intros fuel Hf. apply Ld; [apply extends_refl | exact Hf].
Qed.

End StoreMemory.

Definition root_ok (r : option atree) : Prop :=
  match r with Some t => tree_ok t | None => True end.

Section Corollaries.
Variable sha256 : list N -> list N.
Hypothesis sha_len : forall x, length (sha256 x) = 32%nat.

Lemma bounded_empty : bounded empty_store.
Proof. constructor. Qed.

(** Migrating writes the whole tree to the new store; the new state is the reference of
    the root; following the references from it loads the same tree, and the hash stored
    with every node is the hash of the subtree below it. *)
Theorem migrate_loads r st' r' :
  migrate sha256 r empty_store = (st', r') -> root_ok r -> s_next st' < 2 ^ 64 ->
  erase_root r' = erase_root r
  /\ match r' with
     | None => r = None
     | Some t' =>
         exists x, root_ref r' = Some x
         /\ forall fuel, (theight (erase t') <= fuel)%nat ->
              load_node fuel st' x = Some (erase t', hash_node sha256 (erase t'))
     end.
Proof.
  unfold migrate. destruct r as [t|]; [|intros E _ _; injection E as <- <-; split; reflexivity].
  rewrite (proj1 (migrate_store_mut sha256)).
  destruct (store_node sha256 (strip t) empty_store) as [[st1 t1] x] eqn:E1. intros E Hok Hn. injection E as <- <-.
  destruct (proj1 (store_props_mut sha256 sha_len) (strip t) empty_store st1 t1 x E1 bounded_empty
              (proj1 tree_ok_strip_mut t Hok)
              (proj1 (in_memory_consistent_mut sha256 _) _ (proj1 in_memory_strip_mut t)) Hn)
    as (_ & Et & _ & Ld & (p1 & ov1 & cs1 & ->)).
  rewrite (proj1 erase_strip_mut) in Et, Ld.
  split; [cbn [erase_root option_map]; rewrite Et; reflexivity|].
  exists x. split; [reflexivity|]. intros fuel Hf. rewrite Et in *. apply Ld; [apply extends_refl | exact Hf].
Qed.

Lemma lenN_flabels cs : lenN (flabels cs) = N.of_nat (flen cs).
Proof. unfold lenN. f_equal. induction cs as [|c t r IH]; cbn; congruence. Qed.

Definition ser_value_dec (ov : option value) : option (value * option (list N)) :=
  match ov with
  | None => None
  | Some v => Some (v, if lenN v <=? INLINE_VALUE_LEN then None else Some (hash_value sha256 v))
  end.

Lemma dec_ser_value_enc v rest : lenN v < 2 ^ 32 ->
  dec_ser_value (ser_value sha256 (Some v) ++ rest)
  = Some (v, if lenN v <=? INLINE_VALUE_LEN then None else Some (hash_value sha256 v), rest).
Proof.
  intros Hl. unfold ser_value, dec_ser_value. rewrite <- !app_assoc. unfold be32.
  rewrite dec_uint_enc by (unfold pow256; cbn; exact Hl).
  destruct (lenN v <=? INLINE_VALUE_LEN).
  - cbn [app]. rewrite take_n_app. reflexivity.
  - rewrite (take_app (hash_value sha256 v) _ 32) by (unfold hash_value; apply sha_len).
    rewrite take_n_app. reflexivity.
Qed.

(** Every record written by [serialize] is read back by [deserialize]'s record reader:
    distance to the parent, hash, path, value (with its hash when it is long), labels. *)
Theorem dec_ser_record_enc back p ov cs rest :
  back < 2 ^ 32 -> path_ok p -> (match ov with Some v => lenN v < 2 ^ 32 | None => True end) ->
  dec_ser_record (ser_record sha256 back (Node p ov cs) ++ rest)
  = Some (mkD back (hash_node sha256 (Node p ov cs)) p (ser_value_dec ov) (flabels cs), rest).
Proof.
  intros Hb Hp Hv. unfold ser_record, dec_ser_record. rewrite <- !app_assoc. unfold be32.
  rewrite dec_uint_enc by (unfold pow256; cbn; exact Hb).
  rewrite (take_app (hash_node sha256 (Node p ov cs)) _ 32) by (destruct cs; apply sha_len).
  rewrite dec_path_enc by exact Hp.
  destruct ov as [v|].
  - rewrite dec_ser_value_enc by exact Hv. cbn [app].
    rewrite (take_n_app_eq _ (flabels cs) rest) by (symmetry; apply lenN_flabels). reflexivity.
  - cbn [ser_value app].
    rewrite (take_n_app_eq _ (flabels cs) rest) by (symmetry; apply lenN_flabels). reflexivity.
Qed.

End Corollaries.

Inductive built : store -> Prop :=
| built_empty : built empty_store
| built_raw st d : built st -> lenN d < 2 ^ 64 -> built (fst (store_raw st d)).

Lemma flatten_store_raw st d : flatten (fst (store_raw st d)) = flatten st ++ be64 (lenN d) ++ d.
Proof.
  unfold flatten, store_raw. cbn [fst s_recs rev]. rewrite flat_map_app. cbn [flat_map fst snd].
  rewrite app_nil_r. reflexivity.
Qed.

Lemma lenN_be64 n : lenN (be64 n) = 8.
Proof. unfold lenN, be64. rewrite enc_uint_length. reflexivity. Qed.

Lemma built_next st : built st -> s_next st = lenN (flatten st).
Proof.
  induction 1 as [|st d _ IH _]; [reflexivity|].
  rewrite flatten_store_raw, !lenN_app, lenN_be64, <- IH. unfold store_raw. cbn [fst s_next]. lia.
Qed.

Lemma take_more n X B h rest : take n X = Some (h, rest) -> take n (X ++ B) = Some (h, rest ++ B).
Proof.
  intros H. apply take_some in H as [-> Hl]. rewrite <- app_assoc. apply take_app. exact Hl.
Qed.

Lemma take_n_more n X B h rest : take_n n X = Some (h, rest) -> take_n n (X ++ B) = Some (h, rest ++ B).
Proof.
  unfold take_n. destruct (N.leb_spec n (len X)) as [Hle|]; [|discriminate]. intros H.
  assert (Hle2 : (n <=? len (X ++ B)) = true).
  { apply N.leb_le. unfold len in *. rewrite app_length. lia. }
  rewrite Hle2. apply take_more. exact H.
Qed.

Lemma read_at_app A B r d : read_at A r = Some d -> read_at (A ++ B) r = Some d.
Proof.
  unfold read_at. destruct (N.leb_spec r (lenN A)) as [Hle|]; [|discriminate].
  assert (Hle2 : (r <=? lenN (A ++ B)) = true) by (apply N.leb_le; rewrite lenN_app; lia).
  rewrite Hle2, skipn_app.
  assert (Hz : (N.to_nat r - length A = 0)%nat) by (unfold lenN in Hle; lia).
  rewrite Hz. cbn [skipn]. unfold dec_uint.
  destruct (take 8 (skipn (N.to_nat r) A)) as [[h rest]|] eqn:E; [|discriminate].
  rewrite (take_more _ _ B _ _ E).
  destruct (take_n (dec_le (rev h)) rest) as [[d' r2]|] eqn:E2; [|discriminate].
  rewrite (take_n_more _ _ B _ _ E2). exact (fun H => H).
Qed.

Lemma read_at_end A d : lenN d < 2 ^ 64 -> read_at (A ++ be64 (lenN d) ++ d) (lenN A) = Some d.
Proof.
  intros Hd. unfold read_at.
  assert (Hle : (lenN A <=? lenN (A ++ be64 (lenN d) ++ d)) = true) by (apply N.leb_le; rewrite lenN_app; lia).
  rewrite Hle, skipn_app. unfold lenN at 1 2. rewrite Nat2N.id, skipn_all, Nat.sub_diag. cbn [skipn app].
  unfold be64. rewrite dec_uint_enc by (unfold pow256; cbn; exact Hd).
  rewrite <- (app_nil_r d) at 2. rewrite take_n_app. reflexivity.
Qed.

(** Every record of a store built by [store_raw] is found at its reference in the bytes. *)
Theorem read_at_load st : built st -> forall r d, load_raw st r = Some d -> read_at (flatten st) r = Some d.
Proof.
  induction 1 as [|st d0 Hb IH Hd]; intros r d H; [discriminate|].
  rewrite flatten_store_raw. unfold load_raw, store_raw in H. cbn [fst s_recs assoc_ref] in H.
  destruct (N.eqb_spec r (s_next st)) as [->|_].
  - injection H as <-. rewrite (built_next st Hb). apply read_at_end. exact Hd.
  - apply read_at_app. apply IH. exact H.
Qed.

Section Built.
Variable sha256 : list N -> list N.

Lemma grows_built a b : grows a b -> built a -> s_next b < 2 ^ 64 -> built b.
Proof.
  induction 1 as [|st1 d _ IH]; intros Ha Hn; [exact Ha|].
  assert (Hs : s_next (fst (store_raw st1 d)) = s_next st1 + 8 + lenN d) by reflexivity. rewrite Hs in Hn.
  constructor; [apply IH; [exact Ha | lia] | lia].
Qed.

(** After [migrate] every record of the new store is found by the byte-level loader. *)
Theorem migrate_bytes_readable r st' r' :
  migrate sha256 r empty_store = (st', r') -> s_next st' < 2 ^ 64 ->
  forall x d, load_raw st' x = Some d -> read_at (flatten st') x = Some d.
Proof.
  unfold migrate. destruct r as [t|]; [|intros E _; injection E as <- _; intros x d H; discriminate].
  rewrite (proj1 (migrate_store_mut sha256)).
  pose proof (proj1 (store_grows_mut sha256) (strip t) empty_store) as H.
  destruct (store_node sha256 (strip t) empty_store) as [[st1 t1] y]. cbn [fst] in H.
  intros E Hn. injection E as <- _. apply read_at_load. exact (grows_built _ _ H built_empty Hn).
Qed.

End Built.
