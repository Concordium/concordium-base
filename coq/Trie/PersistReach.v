(** Reachable states of the C04 machine [c_step] (Persist.v).

    [tree_ok] / [tok] (nibbles < 16, stem length < 2^32, values < 2^32) are hypotheses of the
    store / load / migrate / serialize theorems of [PersistProofs.v] / [SerializeProofs.v].
    Here they are DERIVED for every tree that an operation history of the machine can
    produce: the invariant [kb B n t] says that every stem consists of nibbles, every child
    label is a nibble, every value is shorter than 2^32 and - the point - that the DEPTH in
    nibbles of the end of every stem (offset [n] of the node + stem lengths + one label per
    edge) is at most [B].  A key of [L] bytes is [2 L] nibbles, so with all inserted keys at
    most [B / 2] bytes long every stem has at most [B] nibbles.  [delete] / [delete_prefix]
    need no assumption on their key: path compression ([a_collapse]) concatenates
    stem ++ label ++ stem of a parent and its only child, which ends at the same depth.

    The real code encodes a stem length above 63 as [stem_len as u32]
    ([write_node_path_and_value_tag], low_level.rs 3157-3177): it needs [B <= 2^32 - 1], i.e.
    keys of at most 2^31 - 1 bytes.

    The machine invariant [inv] (PersistReachProofs.v) adds: the store is [bounded], the persistent state is
    [consistent] with it, every mutable generation satisfies [pre_cons]. *)
From Coq Require Import NArith PeanoNat List Bool Lia.
From CB Require Import Common.Codec.
From CB Require Import Common.CodecProofs.
From CB Require Import Trie.Radix.
From CB Require Import Trie.RadixProofs.
From CB Require Import Trie.MerkleHash.
From CB Require Import Trie.MerkleHashProofs.
From CB Require Import Trie.Persist.
From CB Require Import Trie.PersistProofs.
From CB Require Import Trie.PersistFreezeProofs.
From CB Require Import Trie.SerializeProofs.
Import ListNotations.
Local Open Scope N_scope.

Definition val_ok (ov : option aval) : Prop :=
  match ov with Some (v, _) => lenN v < 2 ^ 32 | None => True end.

Lemma nibbles_ok_app a b : nibbles_ok (a ++ b) = nibbles_ok a && nibbles_ok b.
Proof. apply forallb_app. Qed.

Lemma nibbles_ok_cons c l : nibbles_ok (c :: l) = true <-> c < 16 /\ nibbles_ok l = true.
Proof.
  unfold nibbles_ok. cbn [forallb]. rewrite andb_true_iff, N.ltb_lt. reflexivity.
Qed.

Lemma lenN_cons {A} (c : A) l : lenN (c :: l) = lenN l + 1.
Proof. unfold lenN. cbn [length]. lia. Qed.

Lemma lenN_nib k : lenN (nib k) = 2 * lenN k.
Proof.
  induction k as [|b r IH]; [reflexivity|]. cbn [nib]. rewrite !lenN_cons, IH. lia.
Qed.

Section Bound.
Variable B : N.

(** Depth invariant: [n] = number of nibbles above the node. *)
Fixpoint kb (n : N) (t : atree) : Prop :=
  match t with
  | AN _ p ov cs => nibbles_ok p = true /\ n + lenN p <= B /\ val_ok ov /\ kb_f (n + lenN p + 1) cs
  end
with kb_f (n : N) (f : aforest) : Prop :=
  match f with ANil => True | ACons c t r => c < 16 /\ kb n t /\ kb_f n r end.

Lemma kb_f_cast n m f : n = m -> kb_f n f -> kb_f m f.
Proof. intros ->. exact (fun H => H). Qed.

Lemma kb_leaf n k v : nibbles_ok k = true -> n + lenN k <= B -> lenN v < 2 ^ 32 -> kb n (new_leaf k v).
Proof. intros A C D. unfold new_leaf. cbn [kb kb_f val_ok]. auto. Qed.

Lemma kb_insert_mut :
  (forall t n k v, kb n t -> nibbles_ok k = true -> n + lenN k <= B -> lenN v < 2 ^ 32 ->
     kb n (a_insert k v t))
  /\ (forall f n c k v, kb_f n f -> c < 16 -> nibbles_ok k = true -> n + lenN k <= B -> lenN v < 2 ^ 32 ->
     kb_f n (a_insert_f c k v f)).
Proof.
  apply atree_aforest_ind.
  - intros o p ov cs IH n k v (Hp & Hl & Hv & Hc) Hk Hn Hvv. cbn [a_insert].
    pose proof (follow_stem_spec k p) as HF.
    destruct (follow_stem k p) as [|s ps|c k'|cm kc kr sc sr].
    + subst p. cbn [kb val_ok]. auto.
    + subst p. rewrite nibbles_ok_app in Hp. apply andb_true_iff in Hp as [_ Hp].
      apply nibbles_ok_cons in Hp as [Hs Hps]. rewrite lenN_app, lenN_cons in Hl, Hc.
      cbn [kb kb_f val_ok]. repeat split; try assumption; try lia.
      eapply kb_f_cast; [|exact Hc]. lia.
    + subst k. rewrite nibbles_ok_app in Hk. apply andb_true_iff in Hk as [_ Hk].
      apply nibbles_ok_cons in Hk as [Hcc Hk']. rewrite lenN_app, lenN_cons in Hn.
      cbn [kb]. repeat split; try assumption. apply IH; try assumption. lia.
    + destruct HF as (-> & -> & _).
      rewrite nibbles_ok_app in Hk, Hp. apply andb_true_iff in Hk as [Hcm Hk].
      apply andb_true_iff in Hp as [_ Hp].
      apply nibbles_ok_cons in Hk as [Hkc Hkr]. apply nibbles_ok_cons in Hp as [Hsc Hsr].
      rewrite lenN_app, lenN_cons in Hn, Hl, Hc.
      assert (Hold : kb (n + lenN cm + 1) (AN None sr ov cs)).
      { cbn [kb]. repeat split; try assumption; try lia. eapply kb_f_cast; [|exact Hc]. lia. }
      assert (Hnew : kb (n + lenN cm + 1) (new_leaf kr v)) by (apply kb_leaf; try assumption; lia).
      cbn [kb val_ok]. split; [exact Hcm|]. split; [lia|]. split; [exact I|].
      destruct (kc <? sc); cbn [kb_f]; auto 10.
  - intros n c k v _ Hc Hk Hn Hv. cbn [a_insert_f kb_f]. split; [exact Hc|]. split; [|exact I].
    apply kb_leaf; assumption.
  - intros c' t IHt r IHr n c k v (Hc' & Ht & Hr) Hc Hk Hn Hv. cbn [a_insert_f].
    destruct (c =? c'); [cbn [kb_f]; auto|].
    destruct (c <? c'); cbn [kb_f]; [|auto 10].
    split; [exact Hc|]. split; [apply kb_leaf; assumption|]. auto.
Qed.

Lemma kb_collapse o p ov cs n t' :
  a_collapse o p ov cs = Some t' ->
  nibbles_ok p = true -> n + lenN p <= B -> val_ok ov -> kb_f (n + lenN p + 1) cs -> kb n t'.
Proof.
  intros E Hp Hl Hv Hc. unfold a_collapse in E.
  destruct ov as [[v a]|]; [injection E as <-; cbn [kb]; auto|].
  destruct cs as [|c [o' cp cv ccs] [|c2 t2 r2]]; try (injection E as <-; cbn [kb]; auto); [discriminate|].
  destruct Hc as (Hc & (Hcp & Hcl & Hcv & Hcc) & _).
  cbn [kb]. rewrite nibbles_ok_app, Hp. cbn [andb]. split; [apply nibbles_ok_cons; auto|].
  rewrite lenN_app, lenN_cons. split; [lia|]. split; [exact Hcv|].
  eapply kb_f_cast; [|exact Hcc]. lia.
Qed.

Lemma kb_upd_f g c f n :
  (forall t t', a_get c f = Some t -> kb n t -> g t = Some t' -> kb n t') ->
  kb_f n f -> kb_f n (a_upd_f g c f).
Proof.
  induction f as [|c' t r IH]; intros Hg H; [exact H|]. destruct H as (Hc' & Ht & Hr).
  cbn [a_upd_f a_get] in *. destruct (c =? c').
  - destruct (g t) as [t1|] eqn:E; [|exact Hr]. cbn [kb_f]. split; [exact Hc'|]. split; [exact (Hg t t1 eq_refl Ht E) | exact Hr].
  - cbn [kb_f]. split; [exact Hc'|]. split; [exact Ht | exact (IH Hg Hr)].
Qed.

Lemma kb_delete : forall t n k t', kb n t -> a_delete k t = Some t' -> kb n t'.
Proof.
  induction t as [o p ov cs IH] using atree_ind_get. intros n k t' Hk E.
  pose proof Hk as (Hp & Hl & Hv & Hc). cbn [a_delete] in E.
  destruct (follow_stem k p) as [|s ps|c k'|cm kc kr sc sr]; try (injection E as <-; exact Hk).
  - destruct ov as [[v a]|]; [|injection E as <-; exact Hk].
    eapply kb_collapse; [exact E | exact Hp | exact Hl | exact I | exact Hc].
  - rewrite a_delete_f_upd in E. eapply kb_collapse; [exact E | exact Hp | exact Hl | exact Hv | apply kb_upd_f; [|exact Hc]].
    intros t t1 G. exact (IH c t G _ k' t1).
Qed.

Lemma kb_delete_prefix : forall t n k t', kb n t -> a_delete_prefix k t = Some t' -> kb n t'.
Proof.
  induction t as [o p ov cs IH] using atree_ind_get. intros n k t' Hk E.
  pose proof Hk as (Hp & Hl & Hv & Hc). cbn [a_delete_prefix] in E.
  destruct (follow_stem k p) as [|s ps|c k'|cm kc kr sc sr]; try discriminate; try (injection E as <-; exact Hk).
  rewrite a_delete_prefix_f_upd in E. eapply kb_collapse; [exact E | exact Hp | exact Hl | exact Hv | apply kb_upd_f; [|exact Hc]].
  intros t t1 G. exact (IH c t G _ k' t1).
Qed.

Lemma kb_setval_mut :
  (forall t n k v, kb n t -> lenN v < 2 ^ 32 -> kb n (a_setval k v t))
  /\ (forall f n c k v, kb_f n f -> lenN v < 2 ^ 32 -> kb_f n (a_setval_f c k v f)).
Proof.
  apply atree_aforest_ind.
  - intros o p ov cs IH n k v Hk Hvv. pose proof Hk as (Hp & Hl & Hv & Hc). cbn [a_setval].
    destruct (follow_stem k p) as [|s ps|c k'|cm kc kr sc sr]; try exact Hk.
    + destruct ov as [[v0 a]|]; [|exact Hk]. cbn [kb val_ok]. auto.
    + cbn [kb]. auto.
  - auto.
  - intros c' t IHt r IHr n c k v (Hc' & Ht & Hr) Hv. cbn [a_setval_f].
    destruct (c =? c'); cbn [kb_f]; auto.
Qed.

Lemma val_ok_freeze ov : val_ok ov -> val_ok (freeze_val ov).
Proof. destruct ov as [[v [l|]]|]; exact (fun H => H). Qed.

Lemma kb_freeze_mut :
  (forall t n, kb n t -> kb n (snd (fst (freeze t))))
  /\ (forall f n, kb_f n f -> kb_f n (snd (fst (freeze_f f)))).
Proof.
  apply atree_aforest_ind.
  - intros o p ov cs IH n Hk. pose proof Hk as (Hp & Hl & Hv & Hc). specialize (IH _ Hc). cbn [freeze].
    destruct (freeze_f cs) as [[chc cs'] nc]. cbn [fst snd] in IH.
    assert (G : kb n (AN (Some None) p (freeze_val ov) cs')).
    { cbn [kb]. split; [exact Hp|]. split; [exact Hl|]. split; [apply val_ok_freeze; exact Hv | exact IH]. }
    destruct o as [l|]; [|exact G]. destruct (value_owned ov || chc); [exact G | exact Hk].
  - auto.
  - intros c t IHt r IHr n (Hc & Ht & Hr). specialize (IHt _ Ht). specialize (IHr _ Hr). cbn [freeze_f].
    destruct (freeze t) as [[ch1 t'] n1]. destruct (freeze_f r) as [[ch2 r'] n2]. cbn [fst snd kb_f] in *. auto.
Qed.

Lemma kb_strip_mut :
  (forall t n, kb n t -> kb n (strip t)) /\ (forall f n, kb_f n f -> kb_f n (strip_f f)).
Proof.
  apply atree_aforest_ind.
  - intros o p ov cs IH n (Hp & Hl & Hv & Hc). cbn [strip kb]. split; [exact Hp|]. split; [exact Hl|].
    split; [destruct ov as [[v a]|]; exact Hv | apply IH; exact Hc].
  - auto.
  - intros c t IHt r IHr n (Hc & Ht & Hr). cbn [strip_f kb_f]. auto.
Qed.

Section Sha.
Variable sha256 : list N -> list N.

Lemma val_ok_store_value ov st : val_ok ov -> val_ok (snd (fst (store_value sha256 ov st))).
Proof.
  unfold store_value. destruct ov as [[x a]|]; [|exact (fun H => H)].
  destruct (lenN x <=? INLINE_VALUE_LEN); [exact (fun H => H)|].
  destruct a as [[r|]|]; [exact (fun H => H)| |]; destruct (store_raw st x); exact (fun H => H).
Qed.

Lemma kb_store_mut :
  (forall t n st, kb n t -> kb n (snd (fst (store_node sha256 t st))))
  /\ (forall f n st, kb_f n f -> kb_f n (snd (fst (store_children sha256 f st)))).
Proof.
  apply atree_aforest_ind.
  - intros o p ov cs IH n st Hk. pose proof Hk as (Hp & Hl & Hv & Hc). rewrite store_node_eq.
    specialize (IH _ st Hc). destruct (store_children sha256 cs st) as [[st1 cs'] refs]. cbn [fst snd] in IH.
    pose proof (val_ok_store_value ov st1 Hv) as Hv'.
    destruct (store_value sha256 ov st1) as [[st2 ov'] sv]. cbn [fst snd] in Hv'. cbv zeta.
    destruct (store_raw st2 _) as [st3 r].
    destruct o as [[r0|]|]; cbn [fst snd kb]; auto.
  - auto.
  - intros c t IHt r IHr n st (Hc & Ht & Hr). rewrite store_children_cons.
    specialize (IHr _ st Hr). destruct (store_children sha256 r st) as [[st1 r'] refs]. cbn [fst snd] in IHr.
    specialize (IHt _ st1 Ht). destruct (store_node sha256 t st1) as [[st2 t'] x]. cbn [fst snd kb_f] in *. auto.
Qed.

Lemma kb_migrate_mut :
  (forall t n st, kb n t -> kb n (snd (fst (migrate_node sha256 t st))))
  /\ (forall f n st, kb_f n f -> kb_f n (snd (fst (migrate_children sha256 f st)))).
Proof.
  split; intros x n st H.
  - rewrite (proj1 (migrate_store_mut sha256)). apply kb_store_mut, kb_strip_mut, H.
  - rewrite (proj2 (migrate_store_mut sha256)). apply kb_store_mut, kb_strip_mut, H.
Qed.

End Sha.

(** The depth invariant gives the side conditions of the storage theorems. *)
Hypothesis B_u32 : B < 2 ^ 32.

Lemma kb_tree_ok_mut :
  (forall t n, kb n t -> tree_ok t) /\ (forall f n, kb_f n f -> forest_ok f).
Proof.
  apply atree_aforest_ind.
  - intros o p ov cs IH n (Hp & Hl & Hv & Hc). cbn [tree_ok]. split; [split; [exact Hp | lia] | eapply IH; exact Hc].
  - intros; exact I.
  - intros c t IHt r IHr n (Hc & Ht & Hr). cbn [forest_ok]. split; [eapply IHt; exact Ht | eapply IHr; exact Hr].
Qed.

Lemma kb_tok_mut :
  (forall t n, kb n t -> tok (erase t)) /\ (forall f n, kb_f n f -> fok (erase_f f)).
Proof.
  apply atree_aforest_ind.
  - intros o p ov cs IH n (Hp & Hl & Hv & Hc). cbn [erase tok]. split; [split; [exact Hp | lia]|].
    split; [destruct ov as [[v a]|]; exact Hv | eapply IH; exact Hc].
  - intros; exact I.
  - intros c t IHt r IHr n (Hc & Ht & Hr). cbn [erase_f fok]. split; [eapply IHt; exact Ht | eapply IHr; exact Hr].
Qed.

End Bound.
