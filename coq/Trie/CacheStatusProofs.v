(** Lemmas about [CacheStatus.v]: the status machine refines the located trees of
    [Persist.v] ([to_a]); caching / loading changes neither contents, locations nor hash;
    after [store_update] nothing below the root lives in memory only and all references are
    valid; a second [store_update] writes the root record and the top record only. *)
From Coq Require Import NArith PeanoNat List Bool Lia.
From CB Require Import Common.Codec.
From CB Require Import Common.CodecProofs.
From CB Require Import Trie.Radix.
From CB Require Import Trie.RadixProofs.
From CB Require Import Trie.MerkleHash.
From CB Require Import Trie.MerkleHashProofs.
From CB Require Import Trie.Persist.
From CB Require Import Trie.PersistProofs.
From CB Require Import Trie.CacheStatus.
Import ListNotations.
Local Open Scope N_scope.

Scheme stree_ind2 := Induction for stree Sort Prop
  with sforest_ind2 := Induction for sforest Sort Prop.
Combined Scheme stree_sforest_ind from stree_ind2, sforest_ind2.

(** * [cache], one [load_and_cache], [forget] keep the located tree *)
Lemma to_av_cache ov : to_av (cache_v ov) = to_av ov.
Proof. destruct ov as [[x [|r| |r]]|]; reflexivity. Qed.
Lemma to_av_forget ov : to_av (forget_v ov) = to_av ov.
Proof. destruct ov as [[x [|r| |r]]|]; reflexivity. Qed.
Lemma st_ann_cache s : st_ann (cache_st s) = st_ann s.
Proof. destruct s; reflexivity. Qed.
Lemma st_ann_forget s : st_ann (forget_st s) = st_ann s.
Proof. destruct s; reflexivity. Qed.

Lemma to_a_cache_mut :
  (forall t, to_a (s_cache t) = to_a t) /\ (forall f, to_a_f (s_cache_f f) = to_a_f f).
Proof.
  apply stree_sforest_ind.
  - intros s p v cs IH. cbn [s_cache to_a]. rewrite st_ann_cache, to_av_cache, IH. reflexivity.
  - reflexivity.
  - intros c t IHt r IHr. cbn [s_cache_f to_a_f]. rewrite IHt, IHr. reflexivity.
Qed.

Lemma to_a_forget_mut :
  (forall t, to_a (forget t) = to_a t) /\ (forall f, to_a_f (forget_f f) = to_a_f f).
Proof.
  apply stree_sforest_ind.
  - intros s p v cs IH. cbn [forget to_a]. rewrite st_ann_forget, to_av_forget, IH. reflexivity.
  - reflexivity.
  - intros c t IHt r IHr. cbn [forget_f to_a_f]. rewrite IHt, IHr. reflexivity.
Qed.

Lemma to_a_load1 t : to_a (s_load1 t) = to_a t.
Proof. destruct t as [s p v cs]. cbn [s_load1 to_a]. rewrite st_ann_cache. reflexivity. Qed.

(** after [cache] nothing is Disk *)
Fixpoint no_disk (t : stree) : bool :=
  match t with
  | SN s p ov cs =>
      (match s with StDisk _ => false | _ => true end)
      && (match ov with Some (_, VsDisk _) => false | _ => true end) && no_disk_f cs
  end
with no_disk_f (f : sforest) : bool :=
  match f with SNil => true | SCons _ t r => no_disk t && no_disk_f r end.

Lemma cache_no_disk_mut :
  (forall t, no_disk (s_cache t) = true) /\ (forall f, no_disk_f (s_cache_f f) = true).
Proof.
  apply stree_sforest_ind.
  - intros s p v cs IH. cbn [s_cache no_disk]. rewrite IH.
    destruct s; destruct v as [[x [|r1| |r1]]|]; reflexivity.
  - reflexivity.
  - intros c t IHt r IHr. cbn [s_cache_f no_disk_f]. rewrite IHt, IHr. reflexivity.
Qed.

(** caching keeps contents, hash, every location, hence validity of the references *)
Theorem cache_preserves (sha256 : list N -> list N) st t :
  to_a (s_cache t) = to_a t
  /\ erase (to_a (s_cache t)) = erase (to_a t)
  /\ hash_node sha256 (erase (to_a (s_cache t))) = hash_node sha256 (erase (to_a t))
  /\ (consistent sha256 st (to_a t) -> consistent sha256 st (to_a (s_cache t)))
  /\ no_disk (s_cache t) = true.
Proof.
  rewrite (proj1 to_a_cache_mut t). repeat split; auto. apply (proj1 cache_no_disk_mut).
Qed.

Theorem load1_preserves (sha256 : list N -> list N) st t :
  to_a (s_load1 t) = to_a t
  /\ hash_node sha256 (erase (to_a (s_load1 t))) = hash_node sha256 (erase (to_a t))
  /\ (consistent sha256 st (to_a t) -> consistent sha256 st (to_a (s_load1 t))).
Proof. rewrite to_a_load1. repeat split; auto. Qed.

Lemma v_settled_cache ov : v_settled (cache_v ov) = v_settled ov.
Proof. destruct ov as [[x [|r| |r]]|]; reflexivity. Qed.
Lemma v_settled_forget ov : v_settled (forget_v ov) = v_settled ov.
Proof. destruct ov as [[x [|r| |r]]|]; reflexivity. Qed.

Lemma located_cache_mut :
  (forall t, located (s_cache t) = located t) /\ (forall f, located_f (s_cache_f f) = located_f f).
Proof.
  apply stree_sforest_ind.
  - intros s p v cs IH. cbn [s_cache located]. rewrite v_settled_cache, IH. destruct s; reflexivity.
  - reflexivity.
  - intros c t IHt r IHr. cbn [s_cache_f located_f]. rewrite IHt, IHr. reflexivity.
Qed.

Lemma located_forget_mut :
  (forall t, located (forget t) = located t) /\ (forall f, located_f (forget_f f) = located_f f).
Proof.
  apply stree_sforest_ind.
  - intros s p v cs IH. cbn [forget located]. rewrite v_settled_forget, IH. destruct s; reflexivity.
  - reflexivity.
  - intros c t IHt r IHr. cbn [forget_f located_f]. rewrite IHt, IHr. reflexivity.
Qed.

Lemma good_cache_mut :
  (forall t, good (s_cache t) = good t) /\ (forall f, good_f (s_cache_f f) = good_f f).
Proof.
  apply stree_sforest_ind.
  - intros s p v cs IH. cbn [s_cache good]. rewrite v_settled_cache, IH, (proj2 located_cache_mut).
    destruct s; reflexivity.
  - reflexivity.
  - intros c t IHt r IHr. cbn [s_cache_f good_f]. rewrite IHt, IHr. reflexivity.
Qed.

Lemma located_good_mut :
  (forall t, located t = true -> good t = true) /\ (forall f, located_f f = true -> good_f f = true).
Proof.
  apply stree_sforest_ind.
  - intros s p v cs IH H. cbn [located] in H. apply andb_true_iff in H as [H Hc].
    apply andb_true_iff in H as [Hs Hv]. cbn [good]. destruct s; [|discriminate|]; rewrite Hv, Hc; reflexivity.
  - reflexivity.
  - intros c t IHt r IHr H. cbn [located_f] in H. apply andb_true_iff in H as [Ht Hr].
    cbn [good_f]. rewrite IHt, IHr by assumption. reflexivity.
Qed.

Lemma good_of_tree_mut :
  (forall t, good (s_of_tree t) = true) /\ (forall f, good_f (s_of_forest f) = true).
Proof.
  apply tree_forest_ind.
  - intros p ov cs IH. cbn [s_of_tree good]. exact IH.
  - reflexivity.
  - intros c t IHt r IHr. cbn [s_of_forest good_f]. rewrite IHt, IHr. reflexivity.
Qed.

(** the census of a located subtree shows no Memory node link *)
Lemma n_mem_add a b : n_mem (cens_add a b) = n_mem a + n_mem b.
Proof. reflexivity. Qed.

Lemma located_census_mut :
  (forall t, located t = true -> n_mem (census t) = 0)
  /\ (forall f, located_f f = true -> n_mem (census_f f) = 0).
Proof.
  apply stree_sforest_ind.
  - intros s p v cs IH H. cbn [located] in H. apply andb_true_iff in H as [H Hc].
    apply andb_true_iff in H as [Hs Hv]. cbn [census]. destruct s; [reflexivity | discriminate |].
    rewrite !n_mem_add, (IH Hc). destruct v as [[x [|r1| |r1]]|]; reflexivity.
  - reflexivity.
  - intros c t IHt r IHr H. cbn [located_f] in H. apply andb_true_iff in H as [Ht Hr].
    cbn [census_f]. rewrite n_mem_add, IHt, IHr by assumption. reflexivity.
Qed.

Section WithHash.
Variable sha256 : list N -> list N.

Lemma s_store_node_eq s p ov cs st :
  s_store_node sha256 (SN s p ov cs) st =
  match s with
  | StDisk r | StCached r => (st, SN s p ov cs, r)
  | StMem =>
      let '(st1, cs', refs) := s_store_children sha256 cs st in
      let '(st2, ov', sv) := s_store_value sha256 ov st1 in
      let body := enc_rec (mkRec (hash_node sha256 (erase (to_a (SN s p ov cs)))) p sv
                                 (combine (labels (to_a_f cs)) refs)) in
      let '(st3, r) := store_raw st2 body in
      (st3, SN (StDisk r) p ov' (forget_f cs'), r)
  end.
Proof. reflexivity. Qed.

Lemma s_store_children_cons c t r st :
  s_store_children sha256 (SCons c t r) st =
  let '(st1, r', refs) := s_store_children sha256 r st in
  let '(st2, t', x) := s_store_node sha256 t st1 in
  (st2, SCons c t' r', x :: refs).
Proof. reflexivity. Qed.

Lemma s_migrate_node_eq s p ov cs st :
  s_migrate_node sha256 (SN s p ov cs) st =
  let '(st1, cs', refs) := s_migrate_children sha256 cs st in
  let '(st2, ov', sv) := s_migrate_value sha256 ov st1 in
  let body := enc_rec (mkRec (hash_node sha256 (erase (to_a (SN s p ov cs)))) p sv
                             (combine (labels (to_a_f cs)) refs)) in
  let '(st3, r) := store_raw st2 body in
  (st3, SN (StDisk r) p ov' cs', r).
Proof. reflexivity. Qed.

Lemma s_migrate_children_cons c t r st :
  s_migrate_children sha256 (SCons c t r) st =
  let '(st1, r', refs) := s_migrate_children sha256 r st in
  let '(st2, t', x) := s_migrate_node sha256 t st1 in
  (st2, SCons c t' r', x :: refs).
Proof. reflexivity. Qed.

(** * Refinement: the status operations are the operations of [Persist.v] under [to_a] *)
Lemma s_store_value_sim ov st :
  store_value sha256 (to_av ov) st =
  let '(st', ov', sv) := s_store_value sha256 ov st in (st', to_av ov', sv).
Proof.
  unfold store_value, s_store_value. destruct ov as [[x s]|]; [|reflexivity]. cbn [to_av].
  destruct (lenN x <=? INLINE_VALUE_LEN); [reflexivity|].
  destruct s; cbn [vs_ann]; try reflexivity; destruct (store_raw st x); reflexivity.
Qed.

Lemma s_migrate_value_sim ov st :
  migrate_value sha256 (to_av ov) st =
  let '(st', ov', sv) := s_migrate_value sha256 ov st in (st', to_av ov', sv).
Proof.
  unfold migrate_value, s_migrate_value. destruct ov as [[x s]|]; [|reflexivity]. cbn [to_av].
  destruct (lenN x <=? INLINE_VALUE_LEN); [reflexivity|]. destruct (store_raw st x); reflexivity.
Qed.

Lemma s_store_sim_mut :
  (forall t st, store_node sha256 (to_a t) st =
                let '(st', t', r) := s_store_node sha256 t st in (st', to_a t', r))
  /\ (forall f st, store_children sha256 (to_a_f f) st =
                   let '(st', f', refs) := s_store_children sha256 f st in (st', to_a_f f', refs)).
Proof.
  apply stree_sforest_ind.
  - intros s p ov cs IH st. rewrite s_store_node_eq.
    change (to_a (SN s p ov cs)) with (AN (st_ann s) p (to_av ov) (to_a_f cs)).
    rewrite store_node_eq. destruct s; cbn [st_ann]; try reflexivity.
    rewrite IH. destruct (s_store_children sha256 cs st) as [[st1 cs'] refs].
    rewrite s_store_value_sim. destruct (s_store_value sha256 ov st1) as [[st2 ov'] sv]. cbv zeta.
    destruct (store_raw st2 _) as [st3 r]. cbn [to_a]. rewrite (proj2 to_a_forget_mut). reflexivity.
  - reflexivity.
  - intros c t IHt r IHr st. cbn [to_a_f]. rewrite store_children_cons, s_store_children_cons, IHr.
    destruct (s_store_children sha256 r st) as [[st1 r'] refs]. rewrite IHt.
    destruct (s_store_node sha256 t st1) as [[st2 t'] x]. reflexivity.
Qed.

Lemma s_migrate_sim_mut :
  (forall t st, migrate_node sha256 (to_a t) st =
                let '(st', t', r) := s_migrate_node sha256 t st in (st', to_a t', r))
  /\ (forall f st, migrate_children sha256 (to_a_f f) st =
                   let '(st', f', refs) := s_migrate_children sha256 f st in (st', to_a_f f', refs)).
Proof.
  apply stree_sforest_ind.
  - intros s p ov cs IH st. rewrite s_migrate_node_eq.
    change (to_a (SN s p ov cs)) with (AN (st_ann s) p (to_av ov) (to_a_f cs)).
    rewrite migrate_node_eq, IH. destruct (s_migrate_children sha256 cs st) as [[st1 cs'] refs].
    rewrite s_migrate_value_sim. destruct (s_migrate_value sha256 ov st1) as [[st2 ov'] sv]. cbv zeta.
    destruct (store_raw st2 _) as [st3 r]. reflexivity.
  - reflexivity.
  - intros c t IHt r IHr st. cbn [to_a_f]. rewrite migrate_children_cons, s_migrate_children_cons, IHr.
    destruct (s_migrate_children sha256 r st) as [[st1 r'] refs]. rewrite IHt.
    destruct (s_migrate_node sha256 t st1) as [[st2 t'] x]. reflexivity.
Qed.

Theorem s_store_update_sim r st :
  store_update sha256 (to_a_root r) st =
  let '(st', k, l, top) := s_store_update sha256 r st in (st', to_a_root k, to_a_root l, top).
Proof.
  destruct r as [[s p ov cs]|]; [|cbn [to_a_root option_map store_update s_store_update];
                                   destruct (store_raw st [0]); reflexivity].
  cbn [to_a_root option_map]. unfold store_update, s_store_update.
  change (to_a (SN s p ov cs)) with (AN (st_ann s) p (to_av ov) (to_a_f cs)).
  rewrite store_node_eq. destruct s; cbn [st_ann].
  - destruct (store_raw st (1 :: be64 r)) as [st2 top]. cbn [to_a_root option_map to_a st_ann].
    rewrite to_av_forget, (proj2 to_a_forget_mut). reflexivity.
  - rewrite (proj2 s_store_sim_mut). destruct (s_store_children sha256 cs st) as [[st1 cs'] refs].
    rewrite s_store_value_sim. destruct (s_store_value sha256 ov st1) as [[st2 ov'] sv]. cbv zeta.
    destruct (store_raw st2 _) as [st3 x]. destruct (store_raw st3 (1 :: be64 x)) as [st4 top].
    cbn [to_a_root option_map to_a st_ann]. rewrite (proj2 to_a_forget_mut). reflexivity.
  - destruct (store_raw st (1 :: be64 r)) as [st2 top]. cbn [to_a_root option_map to_a st_ann].
    rewrite to_av_forget, (proj2 to_a_forget_mut). reflexivity.
Qed.

Theorem s_migrate_sim r st :
  migrate sha256 (to_a_root r) st = let '(st', r') := s_migrate sha256 r st in (st', to_a_root r').
Proof.
  destruct r as [t|]; [|reflexivity]. cbn [to_a_root option_map migrate s_migrate].
  rewrite (proj1 s_migrate_sim_mut). destruct (s_migrate_node sha256 t st) as [[st1 t'] x]. reflexivity.
Qed.

Lemma of_tree_strip_mut :
  (forall a, to_a (s_of_tree (erase a)) = strip a) /\ (forall f, to_a_f (s_of_forest (erase_f f)) = strip_f f).
Proof.
  apply atree_aforest_ind.
  - intros o p ov cs IH. cbn [erase s_of_tree to_a strip st_ann]. rewrite IH. f_equal.
    destruct ov as [[v a]|]; [|reflexivity]. cbn [option_map fst mem_v to_av].
    destruct (lenN v <=? INLINE_VALUE_LEN); reflexivity.
  - reflexivity.
  - intros c t IHt r IHr. cbn [erase_f s_of_forest to_a_f strip_f]. rewrite IHt, IHr. reflexivity.
Qed.

(** Every step of the status machine is the step of the C04 machine [c_step] on the located
    trees (which is tied to the implementation by the correspondence run). *)
Theorem s_step_refines o s :
  fst (c_step sha256 (cop_of o) (mkC (ss_store s) (to_a_root (ss_root s)) None))
  = mkC (ss_store (s_step sha256 o s)) (to_a_root (ss_root (s_step sha256 o s))) None.
Proof.
  destruct s as [st r]. destruct o; cbn [cop_of c_step s_step ss_store ss_root]; unfold settle;
    cbn [c_mut c_pers c_store].
  - rewrite s_store_update_sim. destruct (s_store_update sha256 r st) as [[[st' k] l] top]. reflexivity.
  - rewrite s_store_update_sim. destruct (s_store_update sha256 r st) as [[[st' k] l] top]. reflexivity.
  - unfold cache. cbn [fst ss_store ss_root]. f_equal.
    destruct r as [t|]; [|reflexivity]. cbn [to_a_root option_map]. rewrite (proj1 to_a_cache_mut). reflexivity.
  - rewrite s_migrate_sim. destruct (s_migrate sha256 r empty_store) as [st' r']. reflexivity.
  - cbn [fst ss_store ss_root]. f_equal. destruct r as [t|]; [|reflexivity].
    cbn [to_a_root option_map]. rewrite (proj1 of_tree_strip_mut). reflexivity.
Qed.

Lemma s_store_value_settled ov st : v_settled (snd (fst (s_store_value sha256 ov st))) = true.
Proof.
  unfold s_store_value. destruct ov as [[x s]|]; [|reflexivity].
  destruct (lenN x <=? INLINE_VALUE_LEN) eqn:E.
  - cbn [fst snd v_settled]. destruct s; try reflexivity; exact E.
  - destruct s; try reflexivity; destruct (store_raw st x); reflexivity.
Qed.

Lemma s_store_located_mut :
  (forall t st, good t = true -> located (snd (fst (s_store_node sha256 t st))) = true)
  /\ (forall f st, good_f f = true -> located_f (snd (fst (s_store_children sha256 f st))) = true).
Proof.
  apply stree_sforest_ind.
  - intros s p ov cs IH st H. rewrite s_store_node_eq. cbn [good] in H. destruct s.
    + apply andb_true_iff in H as [Hv Hc]. cbn [fst snd located]. rewrite Hv, Hc. reflexivity.
    + specialize (IH st H). destruct (s_store_children sha256 cs st) as [[st1 cs'] refs]. cbn [fst snd] in IH.
      pose proof (s_store_value_settled ov st1) as Hv.
      destruct (s_store_value sha256 ov st1) as [[st2 ov'] sv]. cbn [fst snd] in Hv. cbv zeta.
      destruct (store_raw st2 _) as [st3 r]. cbn [fst snd located].
      rewrite Hv, (proj2 located_forget_mut), IH. reflexivity.
    + apply andb_true_iff in H as [Hv Hc]. cbn [fst snd located]. rewrite Hv, Hc. reflexivity.
  - reflexivity.
  - intros c t IHt r IHr st H. cbn [good_f] in H. apply andb_true_iff in H as [Ht Hr].
    rewrite s_store_children_cons. specialize (IHr st Hr).
    destruct (s_store_children sha256 r st) as [[st1 r'] refs]. cbn [fst snd] in IHr.
    specialize (IHt st1 Ht). destruct (s_store_node sha256 t st1) as [[st2 t'] x]. cbn [fst snd located_f] in *.
    rewrite IHt, IHr. reflexivity.
Qed.

(** After [store_update] of a [good] state: below the root of the kept state every link
    has a reference and no long value is in memory only; the reloaded state is Disk at the
    root; both are [good] again; the census shows at most the root as Memory. *)
Theorem store_update_settles t st st' k l top :
  good t = true -> s_store_update sha256 (Some t) st = (st', k, l, top) ->
  exists k0 l0, k = Some k0 /\ l = Some l0
    /\ located_below k0 = true /\ located l0 = true /\ good k0 = true /\ good l0 = true
    /\ n_mem (census k0) <= 1 /\ census l0 = mkCens 1 0 0 0 0 0 0.
Proof.
  intros Hg E. destruct t as [s p ov cs]. unfold s_store_update in E. cbn [good] in Hg. destruct s.
  - destruct (store_raw st (1 :: be64 r)) as [st2 tp]. injection E as <- <- <- <-.
    apply andb_true_iff in Hg as [Hv Hc].
    exists (SN (StDisk r) p ov cs), (SN (StDisk r) p (forget_v ov) (forget_f cs)).
    cbn [located_below located good census]. rewrite v_settled_forget, (proj2 located_forget_mut), Hv, Hc.
    repeat split; try reflexivity. cbn. lia.
  - pose proof (proj2 s_store_located_mut cs st Hg) as Hc.
    destruct (s_store_children sha256 cs st) as [[st1 cs'] refs]. cbn [fst snd] in Hc.
    pose proof (s_store_value_settled ov st1) as Hv.
    destruct (s_store_value sha256 ov st1) as [[st2 ov'] sv]. cbn [fst snd] in Hv. cbv zeta in E.
    destruct (store_raw st2 _) as [st3 x]. destruct (store_raw st3 (1 :: be64 x)) as [st4 tp].
    injection E as <- <- <- <-.
    exists (SN StMem p ov' cs'), (SN (StDisk x) p ov' (forget_f cs')).
    cbn [located_below located good census]. rewrite (proj2 located_forget_mut), Hv, Hc.
    rewrite (proj2 located_good_mut cs' Hc).
    repeat split; try reflexivity. rewrite !n_mem_add, (proj2 located_census_mut cs' Hc).
    destruct ov' as [[x0 [|r1| |r1]]|]; cbn; lia.
  - destruct (store_raw st (1 :: be64 r)) as [st2 tp]. injection E as <- <- <- <-.
    apply andb_true_iff in Hg as [Hv Hc].
    exists (SN (StCached r) p ov cs), (SN (StDisk r) p (forget_v ov) (forget_f cs)).
    cbn [located_below located good census]. rewrite v_settled_forget, (proj2 located_forget_mut), Hv, Hc.
    repeat split; try reflexivity.
    rewrite !n_mem_add, (proj2 located_census_mut cs Hc). destruct ov as [[x0 [|r1| |r1]]|]; cbn; lia.
Qed.

Lemma located_store_mut :
  (forall t st, located t = true -> exists r, s_store_node sha256 t st = (st, t, r))
  /\ (forall f st, located_f f = true -> exists refs, s_store_children sha256 f st = (st, f, refs)).
Proof.
  apply stree_sforest_ind.
  - intros s p ov cs IH st H. rewrite s_store_node_eq. cbn [located] in H. destruct s; [eauto | discriminate | eauto].
  - intros st _. exists []. reflexivity.
  - intros c t IHt r IHr st H. cbn [located_f] in H. apply andb_true_iff in H as [Ht Hr].
    rewrite s_store_children_cons. destruct (IHr st Hr) as [refs ->]. destruct (IHt st Ht) as [x ->]. eauto.
Qed.

Lemma settled_value_store ov st : v_settled ov = true -> fst (fst (s_store_value sha256 ov st)) = st.
Proof.
  unfold s_store_value, v_settled. destruct ov as [[x s]|]; [|reflexivity].
  destruct (lenN x <=? INLINE_VALUE_LEN); [reflexivity|]. destruct s; try discriminate; reflexivity.
Qed.

(** [store_update] of a state with nothing in memory below the root (e.g. the state kept
    after a [store_update]) appends exactly the root record and the top record (root
    Memory), or the top record only (root Disk / Cached): no child record, no value. *)
Theorem second_store_writes_nothing t st st2 k2 l2 top2 :
  located_below t = true -> s_store_update sha256 (Some t) st = (st2, k2, l2, top2) ->
  (exists x body, s_recs st2 = (top2, 1 :: be64 x) :: (x, body) :: s_recs st)
  \/ (exists x, s_recs st2 = (top2, 1 :: be64 x) :: s_recs st).
Proof.
  intros Hl E. destruct t as [s p ov cs]. unfold s_store_update in E. cbn [located_below] in Hl.
  apply andb_true_iff in Hl as [Hv Hc]. destruct s.
  - right. unfold store_raw in E. injection E as <- _ _ <-. eexists. reflexivity.
  - left. destruct (proj2 located_store_mut cs st Hc) as [refs Ec]. rewrite Ec in E.
    pose proof (settled_value_store ov st Hv) as Ev.
    destruct (s_store_value sha256 ov st) as [[st2' ov'] sv]. cbn [fst] in Ev. subst st2'. cbv zeta in E.
    unfold store_raw in E. cbn [s_next s_recs] in E. injection E as <- _ _ <-. eexists. eexists. reflexivity.
  - right. unfold store_raw in E. injection E as <- _ _ <-. eexists. reflexivity.
Qed.

(** * [migrate]: everything Disk in the new store *)
Lemma s_migrate_located_mut :
  (forall t st, located (snd (fst (s_migrate_node sha256 t st))) = true)
  /\ (forall f st, located_f (snd (fst (s_migrate_children sha256 f st))) = true).
Proof.
  apply stree_sforest_ind.
  - intros s p ov cs IH st. rewrite s_migrate_node_eq. specialize (IH st).
    destruct (s_migrate_children sha256 cs st) as [[st1 cs'] refs]. cbn [fst snd] in IH.
    assert (Hv : v_settled (snd (fst (s_migrate_value sha256 ov st1))) = true).
    { unfold s_migrate_value. destruct ov as [[x s0]|]; [|reflexivity].
      destruct (lenN x <=? INLINE_VALUE_LEN) eqn:E; [exact E|]. destruct (store_raw st1 x); reflexivity. }
    destruct (s_migrate_value sha256 ov st1) as [[st2 ov'] sv]. cbn [fst snd] in Hv. cbv zeta.
    destruct (store_raw st2 _) as [st3 r]. cbn [fst snd located]. rewrite Hv, IH. reflexivity.
  - reflexivity.
  - intros c t IHt r IHr st. rewrite s_migrate_children_cons. specialize (IHr st).
    destruct (s_migrate_children sha256 r st) as [[st1 r'] refs]. cbn [fst snd] in IHr.
    specialize (IHt st1). destruct (s_migrate_node sha256 t st1) as [[st2 t'] x]. cbn [fst snd located_f] in *.
    rewrite IHt, IHr. reflexivity.
Qed.

(** [good] is an invariant of the status machine (it holds for every state in memory). *)
Theorem s_step_good o s : good_root (ss_root s) = true -> good_root (ss_root (s_step sha256 o s)) = true.
Proof.
  destruct s as [st r]. intros Hg. cbn [ss_root] in Hg. destruct o; cbn [s_step ss_store ss_root].
  - destruct r as [t|].
    + destruct (s_store_update sha256 (Some t) st) as [[[st' k] l] top] eqn:E.
      destruct (store_update_settles t st st' k l top Hg E) as (k0 & l0 & -> & -> & _ & _ & Gk & _). exact Gk.
    + cbn [s_store_update]. destruct (store_raw st [0]). reflexivity.
  - destruct r as [t|].
    + destruct (s_store_update sha256 (Some t) st) as [[[st' k] l] top] eqn:E.
      destruct (store_update_settles t st st' k l top Hg E) as (k0 & l0 & -> & -> & _ & _ & _ & Gl & _). exact Gl.
    + cbn [s_store_update]. destruct (store_raw st [0]). reflexivity.
  - destruct r as [t|]; [|reflexivity]. cbn [option_map good_root] in *. rewrite (proj1 good_cache_mut). exact Hg.
  - destruct r as [t|]; [|reflexivity]. cbn [s_migrate].
    pose proof (proj1 s_migrate_located_mut t empty_store) as H.
    destruct (s_migrate_node sha256 t empty_store) as [[st1 t'] x]. cbn [fst snd ss_root good_root] in *.
    apply (proj1 located_good_mut). exact H.
  - destruct r as [t|]; [|reflexivity]. cbn [option_map good_root]. apply (proj1 good_of_tree_mut).
Qed.

Hypothesis sha_len : forall x, length (sha256 x) = 32%nat.

(** The references written by [store_update] are valid: both resulting states are
    [consistent] with the new store (every located node / long value IS at its reference)
    and have the contents of the stored state. *)
Theorem store_update_valid t st st' k l top :
  s_store_update sha256 (Some t) st = (st', Some k, Some l, top) ->
  tree_ok (to_a t) -> bounded st -> consistent sha256 st (to_a t) -> s_next st' < 2 ^ 64 ->
  consistent sha256 st' (to_a k) /\ consistent sha256 st' (to_a l)
  /\ erase (to_a k) = erase (to_a t) /\ erase (to_a l) = erase (to_a t) /\ bounded st'.
Proof.
  intros E Hok Hb Hc Hn.
  pose proof (s_store_update_sim (Some t) st) as S. rewrite E in S. cbn [to_a_root option_map] in S.
  destruct (store_update_incremental sha256 sha_len _ _ _ _ _ _ S Hok Hb Hc Hn) as (Ek & El & _ & Hb' & Ck & Cl).
  cbn [erase_root option_map] in Ek, El. injection Ek as Ek. injection El as El. auto.
Qed.

End WithHash.

(** * Non-vacuity: a run of the status machine (toy hash) *)
Definition toy_sha_c (l : list N) : list N := repeat (lenN l mod 251) 32.

Definition status_run_tree : tree value :=
  Node [1] None (FCons 2 (Node [3; 4] (Some (repeat 7 70)) FNil)
                (FCons 5 (Node [] (Some [1]) (FCons 0 (Node [9] (Some [2]) FNil) FNil)) FNil)).
Definition cens_list (c : cens) : list N :=
  [n_disk c; n_mem c; n_cached c; v_disk c; v_mem c; v_cached c; v_inline c].

(** store, store again (nothing new), cache, store+reload, cache, store (nothing), migrate,
    serialize+deserialize: (Disk, Memory, Cached node links; Disk, Memory, Cached, inline values) *)
Example status_run :
  map (fun x => cens_list (fst x))
      (s_run toy_sha_c [SoStore; SoStore; SoCache; SoLoad; SoCache; SoStore; SoMigrate; SoSerial]
             (mkS empty_store (Some (s_of_tree status_run_tree))))
  = [[2; 1; 0; 0; 0; 0; 0]; [2; 1; 0; 0; 0; 0; 0]; [0; 1; 3; 0; 0; 1; 2]; [1; 0; 0; 0; 0; 0; 0];
     [0; 0; 4; 0; 0; 1; 2]; [0; 0; 4; 0; 0; 1; 2]; [1; 0; 0; 0; 0; 0; 0]; [0; 4; 0; 0; 1; 0; 2]].
Proof. vm_compute. reflexivity. Qed.
