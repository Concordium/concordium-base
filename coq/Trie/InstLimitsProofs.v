(** Lemmas about [InstLimits.v]: decode after encode, injectivity, sentinels, uniqueness of the ids of a
    generation, refusal at the limits, and exactly what happens at the overflow boundaries. *)
From Coq Require Import NArith List Bool Lia.
From CB Require Import Gen.HostCosts Trie.RadixProofs Trie.InstLimits.
Import ListNotations.
Local Open Scope N_scope.

Lemma P32_pow : P32 = 2 ^ 32. Proof. reflexivity. Qed.

(** below 2^32 the index does not touch the generation bits: the handle is [gen * 2^32 + idx] *)
Lemma h_enc_add gen idx : idx < P32 -> h_enc gen idx = gen * P32 + idx.
Proof. intros H. unfold h_enc. rewrite N.shiftl_mul_pow2. exact (lor_low_add gen idx 32 H). Qed.

Lemma h_split_enc gen idx : gen < P32 -> idx < P32 -> h_split (h_enc gen idx) = (gen, idx).
Proof.
  intros Hg Hi. unfold h_split. rewrite (h_enc_add gen idx Hi).
  change 4294967295 with (N.ones 32). rewrite N.land_ones, N.shiftr_div_pow2, <- P32_pow.
  assert (P32 <> 0) by discriminate.
  rewrite N.div_add_l, N.div_small, N.add_0_r by assumption.
  rewrite N.mod_small by exact Hg.
  rewrite N.add_comm, N.mod_add, N.mod_small by assumption. reflexivity.
Qed.

Lemma h_enc_injective g1 i1 g2 i2 :
  g1 < P32 -> i1 < P32 -> g2 < P32 -> i2 < P32 -> h_enc g1 i1 = h_enc g2 i2 -> g1 = g2 /\ i1 = i2.
Proof.
  intros A B C D E. apply (f_equal h_split) in E. rewrite !h_split_enc in E by assumption.
  inversion E. auto.
Qed.

(** The sentinels are the handles (0xffffffff, 0xffffffff) and (0xbfffffff, 0xffffffff). *)
Lemma H_NONE_is : H_NONE = h_enc 4294967295 4294967295. Proof. reflexivity. Qed.
Lemma H_ERR_is : H_ERR = h_enc 3221225471 4294967295. Proof. reflexivity. Qed.

Lemma h_enc_ne_sentinels gen idx :
  gen < P32 -> idx < P32 - 1 -> h_enc gen idx <> H_NONE /\ h_enc gen idx <> H_ERR.
Proof.
  intros Hg Hi. assert (Hi' : idx < P32) by (unfold P32 in *; lia).
  split; intros E; [rewrite H_NONE_is in E | rewrite H_ERR_is in E];
    apply h_enc_injective in E; try assumption; try reflexivity; unfold P32 in *; lia.
Qed.

(** The only generations in which an id can collide with a sentinel (index 2^32 - 1). *)
Lemma sentinel_collisions :
  h_enc 4294967295 4294967295 = H_NONE /\ h_enc 3221225471 4294967295 = H_ERR.
Proof. split; reflexivity. Qed.

(** Index overflow: the 2^32 + j-th id of a generation sets bit 32, i.e. the lowest generation bit. *)
Lemma h_enc_index_overflow gen j :
  j < P32 -> h_enc gen (P32 + j) = h_enc (N.lor gen 1) j.
Proof.
  intros Hj. unfold h_enc.
  assert (E : P32 + j = N.lor (N.shiftl 1 32) j).
  { symmetry. apply (h_enc_add 1 j Hj). }
  rewrite E, N.lor_assoc, <- N.shiftl_lor. reflexivity.
Qed.

(** ... so in an ODD generation it is a duplicate of the id of entry [j] of the same generation, in an
    EVEN generation it reads as an id of the next generation (answered as stale). *)
Lemma h_enc_index_overflow_odd gen j :
  j < P32 -> N.odd gen = true -> h_enc gen (P32 + j) = h_enc gen j.
Proof.
  intros Hj Ho. rewrite h_enc_index_overflow by exact Hj. f_equal.
  apply N.bits_inj. intros n. rewrite N.lor_spec.
  destruct (N.eq_dec n 0) as [->|Hn].
  - rewrite N.bit0_odd, Ho. reflexivity.
  - replace (N.testbit 1 n) with false; [apply orb_false_r|].
    symmetry. change 1 with (2 ^ 0). apply N.pow2_bits_false. lia.
Qed.

Lemma h_enc_index_overflow_even gen j :
  j < P32 -> N.even gen = true -> h_enc gen (P32 + j) = h_enc (gen + 1) j.
Proof.
  intros Hj He. rewrite h_enc_index_overflow by exact Hj. f_equal.
  apply N.even_spec in He as [m ->]. rewrite N.add_nocarry_lxor, N.lxor_lor; auto.
  all: apply N.bits_inj; intros n; rewrite N.land_spec, N.bits_0;
    destruct (N.eq_dec n 0) as [->|Hn];
    [ rewrite N.testbit_even_0; reflexivity
    | replace (N.testbit 1 n) with false; [apply andb_false_r|];
      symmetry; change 1 with (2 ^ 0); apply N.pow2_bits_false; lia ].
Qed.

Definition CInv (c : ctr) : Prop :=
  c_gen c < P32
  /\ c_eids c = map (fun i => h_enc (c_gen c) (N.of_nat i)) (rev (seq 0 (N.to_nat (c_ents c))))
  /\ c_iids c = map (fun i => h_enc (c_gen c) (N.of_nat i)) (rev (seq 0 (N.to_nat (c_its c)))).

Lemma CInv0 : CInv ctr0.
Proof. repeat split. Qed.

Lemma seq_rev_succ n : rev (seq 0 (S n)) = n :: rev (seq 0 n).
Proof. rewrite seq_S, rev_app_distr. reflexivity. Qed.

Lemma c_step_inv checked o c c' out : CInv c -> c_step checked o c = Some (c', out) -> CInv c'.
Proof.
  intros (Hg & He & Hi) H. destruct o as [| |[|]]; cbn [c_step] in H.
  - inversion H; subst; clear H. repeat split; cbn [c_gen c_ents c_its c_eids c_iids]; auto.
    rewrite N.add_1_r, N2Nat.inj_succ, seq_rev_succ. cbn [map]. rewrite N2Nat.id, He. reflexivity.
  - inversion H; subst; clear H. repeat split; cbn [c_gen c_ents c_its c_eids c_iids]; auto.
    rewrite N.add_1_r, N2Nat.inj_succ, seq_rev_succ. cbn [map]. rewrite N2Nat.id, Hi. reflexivity.
  - unfold gen_next in H. destruct (N.eqb_spec (c_gen c) U32MAXv) as [E|E].
    + destruct checked; [discriminate|]. inversion H; subst. split; [reflexivity | split; reflexivity].
    + inversion H; subst. split; [|split; reflexivity]. cbn [c_gen]. unfold U32MAXv, P32 in *. lia.
  - inversion H; subst. repeat split; auto.
Qed.

Lemma c_run_inv checked ops : forall c c', CInv c -> c_run checked ops c = Some c' -> CInv c'.
Proof.
  induction ops as [|o ops IH]; intros c c' Hc H; cbn [c_run] in H; [inversion H; subst; exact Hc|].
  destruct (c_step checked o c) as [[c1 out]|] eqn:E; [|discriminate].
  eapply IH; [eapply c_step_inv; eauto | exact H].
Qed.

Lemma NoDup_map_inj {A B} (f : A -> B) (l : list A) :
  (forall x y, In x l -> In y l -> f x = f y -> x = y) -> NoDup l -> NoDup (map f l).
Proof.
  induction l as [|a l IH]; intros Hinj Hnd; cbn; [constructor|]. inversion Hnd; subst. constructor.
  - intros Hin. apply in_map_iff in Hin as (y & Hy & Hyl).
    assert (y = a) by (apply Hinj; [right; exact Hyl | left; reflexivity | exact Hy]). subst. contradiction.
  - apply IH; auto. intros x y Hx Hy. apply Hinj; right; assumption.
Qed.

Lemma ids_nodup gen n :
  gen < P32 -> n <= P32 -> NoDup (map (fun i => h_enc gen (N.of_nat i)) (rev (seq 0 (N.to_nat n)))).
Proof.
  intros Hg Hn. apply NoDup_map_inj.
  - intros x y Hx Hy E. apply in_rev, in_seq in Hx. apply in_rev, in_seq in Hy.
    apply h_enc_injective in E; try assumption; try (unfold P32 in *; lia).
    all: try (destruct E as [_ E]; apply Nat2N.inj; exact E).
  - apply NoDup_rev, seq_NoDup.
Qed.

(** In every state reached by any history of successful lookups / creations / iterator creations and
    interrupts (in both build flavours), as long as a table holds at most 2^32 ids the ids handed out in
    the current generation are pairwise distinct, decode to (current generation, position) and are no
    sentinel (below 2^32 - 1 ids). *)
Theorem ids_unique_below_limit checked ops c :
  c_run checked ops ctr0 = Some c ->
  (c_ents c <= P32 -> NoDup (c_eids c)) /\ (c_its c <= P32 -> NoDup (c_iids c))
  /\ (c_ents c <= P32 -> forall h, In h (c_eids c) ->
        exists i, i < c_ents c /\ h = h_enc (c_gen c) i /\ h_split h = (c_gen c, i))
  /\ (c_ents c <= P32 - 1 -> forall h, In h (c_eids c) -> h <> H_NONE /\ h <> H_ERR).
Proof.
  intros H. destruct (c_run_inv checked ops ctr0 c CInv0 H) as (Hg & He & Hi).
  split; [intros Hn; rewrite He; apply ids_nodup; assumption|].
  split; [intros Hn; rewrite Hi; apply ids_nodup; assumption|].
  assert (Hdec : forall h, In h (c_eids c) -> exists i, i < c_ents c /\ h = h_enc (c_gen c) i).
  { intros h Hh. rewrite He in Hh. apply in_map_iff in Hh as (i & <- & Hin). apply in_rev, in_seq in Hin.
    exists (N.of_nat i). split; [lia | reflexivity]. }
  split.
  - intros Hn h Hh. destruct (Hdec h Hh) as (i & Hi1 & ->). exists i. repeat split; auto.
    apply h_split_enc; [exact Hg | unfold P32 in *; lia].
  - intros Hn h Hh. destruct (Hdec h Hh) as (i & Hi1 & ->). apply h_enc_ne_sentinels; [exact Hg | lia].
Qed.

(** At the index boundary the code hands out a duplicate: after 2^32 + j + 1 successful lookups in an
    odd generation the newest id equals the id handed out for entry [j]. *)
Theorem index_overflow_duplicates gen j eids iids :
  j < P32 -> N.odd gen = true ->
  exists h, c_step false KEntry (mkCtr gen (P32 + j) 0 eids iids)
            = Some (mkCtr gen (P32 + j + 1) 0 (h :: eids) iids, Some h)
            /\ h = h_enc gen j.
Proof.
  intros Hj Ho. eexists. split; [reflexivity|]. apply h_enc_index_overflow_odd; assumption.
Qed.

(** Generation counter: checked builds stop (panic) at u32::MAX; wrapping builds restart at 0, so ids of
    the first generation are accepted again. *)
Theorem gen_checked_panics c : c_gen c = U32MAXv -> c_step true (KMigrate true) c = None.
Proof. intros E. cbn. unfold gen_next. rewrite E. reflexivity. Qed.

Theorem gen_wrap_revives_handle c idx :
  c_gen c = U32MAXv -> idx < P32 ->
  exists c', c_step false (KMigrate true) c = Some (c', None) /\ c_gen c' = c_gen ctr0
             /\ h_split (h_enc (c_gen ctr0) idx) = (c_gen c', idx).
Proof.
  intros E Hi. eexists. cbn [c_step]. unfold gen_next. rewrite E. cbn [N.eqb Pos.eqb U32MAXv].
  split; [reflexivity|]. split; [reflexivity|]. cbn [c_gen ctr0]. apply h_split_enc; [reflexivity | exact Hi].
Qed.

Lemma MAX_ENTRY_SIZE_val : MAX_ENTRY_SIZE = 1073741824. Proof. reflexivity. Qed.
Lemma MAX_KEY_SIZE_val : MAX_KEY_SIZE = 1073741824. Proof. reflexivity. Qed.

Lemma create_guard_refuses changed key_len :
  MAX_KEY_SIZE < key_len -> create_entry_guard changed key_len = (true, false).
Proof. intros H. unfold create_entry_guard. f_equal. apply N.leb_gt. exact H. Qed.

Lemma create_guard_accepts changed key_len :
  key_len <= MAX_KEY_SIZE -> create_entry_guard changed key_len = (true, true).
Proof. intros H. unfold create_entry_guard. f_equal. apply N.leb_le. exact H. Qed.

Lemma resize_refused vlen n : MAX_ENTRY_SIZE < n -> resize_len vlen n = (0, vlen).
Proof. intros H. unfold resize_len. apply N.ltb_lt in H. rewrite H. reflexivity. Qed.

Lemma resize_bounded vlen n :
  vlen <= MAX_ENTRY_SIZE -> snd (resize_len vlen n) <= MAX_ENTRY_SIZE.
Proof. intros H. unfold resize_len. destruct (N.ltb_spec MAX_ENTRY_SIZE n); cbn [snd]; lia. Qed.

Lemma write_bounded vlen off len w v' :
  vlen <= MAX_ENTRY_SIZE -> write_len vlen off len = Some (w, v') ->
  v' <= MAX_ENTRY_SIZE /\ w <= len /\ vlen <= v' /\ (off <= vlen -> off + w <= v').
Proof.
  intros Hv H. unfold write_len in H. rewrite MAX_ENTRY_SIZE_val in *.
  destruct (N.leb_spec off vlen) as [Ho|Ho].
  - destruct (N.leb_spec P64 (off + len)); [discriminate|]. inversion H; subst; clear H. lia.
  - inversion H; subst; clear H. lia.
Qed.
