(** [MutableTrie::insert] on the arena refines [Radix.insert], over the relation of [ArenaSep.v].
    [Sep a]: the current root unfolds to a well-formed tree with duplicate-free footprint whose
    entries are separated ([ESep]). *)
From Coq Require Import NArith PeanoNat List Bool Lia Permutation.
From CB Require Import Trie.Radix.
From CB Require Import Trie.RadixProofs.
From CB Require Import Trie.Locks.
From CB Require Import Trie.LocksProofs.
From CB Require Import Trie.Arena.
From CB Require Import Trie.ArenaProofs.
From CB Require Import Trie.ArenaCow.
From CB Require Import Trie.ArenaTree.
From CB Require Import Trie.ArenaView.
From CB Require Import Trie.ArenaSep.
Import ListNotations.

Lemma Tr_node a idx n p ov cs fp :
  node_at a idx = n -> an_path n = p -> an_val n = ov -> TrF a (an_ch n) cs fp ->
  Tr a idx (Node p ov cs) (idx :: fp).
Proof. intros <- <- <- H. cbn [Tr]. split; [reflexivity|]. split; [reflexivity|]. exists fp. split; [reflexivity | exact H]. Qed.

Lemma Tr_leaf a idx n p ov :
  node_at a idx = n -> an_path n = p -> an_val n = ov -> an_ch n = [] -> Tr a idx (Node p ov FNil) [idx].
Proof. intros E Hp Hv C. apply (Tr_node a idx n p ov FNil [] E Hp Hv). split; [exact C | reflexivity]. Qed.

Lemma with_entry_frame a a' x :
  edat a' x = edat a x ->
  (forall i, eptr (edat a x) = Some i -> nth_error (a_values a') i = nth_error (a_values a) i) ->
  a_with_entry a' x = a_with_entry a x.
Proof.
  intros E H. rewrite !with_entry_edat, E. destruct (eptr (edat a x)) as [i|]; [apply H; reflexivity | reflexivity].
Qed.

Lemma cur_root_set_root a r : a_gens a <> [] -> cur_root (set_root a r) = r.
Proof.
  intros Hne. destruct (set_root_shape a r Hne) as (older & g & _ & E & _).
  unfold cur_root. rewrite E, rev_app_distr. reflexivity.
Qed.

Lemma cur_root_gens a r : cur_root a = Some r -> a_gens a <> [].
Proof. unfold cur_root. intros H E. rewrite E in H. discriminate. Qed.

Lemma cur_root_same_gens a a' : a_gens a' = a_gens a -> cur_root a' = cur_root a.
Proof. unfold cur_root. intros ->. reflexivity. Qed.

Lemma follow_stem_refl k : follow_stem k k = FEqual.
Proof.
  induction k as [|c k IH]; [reflexivity|]. cbn [follow_stem]. rewrite N.eqb_refl, IH. reflexivity.
Qed.

Lemma wfb_node' {V} p (ov : option V) cs :
  wfb (Node p ov cs) = wfb_f cs && sorted_f cs && match ov with Some _ => true | None => Nat.leb 2 (flen cs) end.
Proof. reflexivity. Qed.
Lemma wfb_f_cons' {V} c (t : tree V) r : wfb_f (FCons c t r) = wfb t && wfb_f r.
Proof. reflexivity. Qed.

Lemma wfb_tmap_mut {A B} (g : A -> B) :
  (forall t, wfb (tmap g t) = wfb t)
  /\ (forall f, wfb_f (tmap_f g f) = wfb_f f /\ sorted_f (tmap_f g f) = sorted_f f
                /\ flen (tmap_f g f) = flen f /\ forall c, all_gt c (tmap_f g f) = all_gt c f).
Proof.
  apply tree_forest_ind.
  - intros p ov f (H1 & H2 & H3 & _). cbn [tmap]. rewrite !wfb_node', H1, H2, H3. destruct ov; reflexivity.
  - repeat split; reflexivity.
  - intros c t Ht f (H1 & H2 & H3 & H4). cbn [tmap_f]. rewrite !wfb_f_cons', Ht, H1.
    split; [reflexivity|]. split; [cbn [sorted_f]; rewrite H2, H4; reflexivity|].
    split; [cbn [flen]; rewrite H3; reflexivity|]. intros c0. cbn [all_gt]. rewrite H4. reflexivity.
Qed.

Lemma wfb_tmap {A B} (g : A -> B) t : wfb (tmap g t) = wfb t.
Proof. apply (proj1 (wfb_tmap_mut g)). Qed.

Lemma wfb_tmap_eq {A B} (g h : A -> B) t t' : tmap g t' = tmap h t -> wfb t = true -> wfb t' = true.
Proof. intros E H. rewrite <- (wfb_tmap g), E, wfb_tmap. exact H. Qed.

(** Separated entries: distinct, in range, pointing into the value vector, and a value slot owned
    by a [Mutable] entry of the list is referenced by no other entry of it: that makes the in-place
    [set_value] of [set_entry_value] invisible to the other keys.  Entries outside the current
    tree (the originals of migrated entries in older generations) may alias, and do. *)
Definition ESep (a : arena) (l : list nat) : Prop :=
  NoDup l /\ Forall (fun e => e < length (a_entries a)) l
  /\ (forall x i, In x l -> eptr (edat a x) = Some i -> i < length (a_values a))
  /\ (forall x y i, In x l -> In y l -> x <> y -> edat a x = EMutable i -> eptr (edat a y) <> Some i).

Lemma ESep_perm a l l' : Permutation l l' -> ESep a l -> ESep a l'.
Proof.
  intros P (H1 & H2 & H3 & H4). pose proof (Permutation_sym P) as P'.
  split; [eapply Permutation_NoDup; eauto|]. split; [eapply Permutation_Forall; eauto|].
  split; [intros x i Hx; apply H3; eapply Permutation_in; eauto|].
  intros x y i Hx Hy. apply H4; eapply Permutation_in; eauto.
Qed.

Lemma ESep_ren a A ll ll1 :
  ESep a ll -> Forall2 (eren a A) ll ll1 -> NoDup ll1 ->
  (forall e, e < length (a_entries a) -> edat A e = edat a e) ->
  length (a_entries a) <= length (a_entries A) -> a_values A = a_values a ->
  ESep A ll1.
Proof.
  intros (H1 & H2 & H3 & H4) F ND Hed Hle Hv.
  assert (Src : forall q y, nth_error ll1 q = Some y -> exists x, nth_error ll q = Some x /\ In x ll /\ eren a A x y).
  { intros q y Hq. pose proof (Forall2_nth_error _ _ _ q F) as Z. rewrite Hq in Z.
    destruct (nth_error ll q) as [x|] eqn:Hx; [|contradiction]. exists x. split; [reflexivity|]. split; [eapply nth_error_In; eauto | exact Z]. }
  assert (Hlt : forall x, In x ll -> x < length (a_entries a)) by (rewrite Forall_forall in H2; exact H2).
  split; [exact ND|]. split; [eapply eren_bound; eauto|]. split.
  - intros y i Hy Hp. destruct (In_nth_error _ _ Hy) as (q & Hq). destruct (Src q y Hq) as (x & _ & Hx & [->|(_ & E)]).
    + rewrite Hv. apply (H3 x i Hx). rewrite <- Hed by (apply Hlt; exact Hx). exact Hp.
    + rewrite Hv. apply (H3 x i Hx). rewrite E, eptr_ro in Hp. exact Hp.
  - intros x y i Hx Hy Hne Hm. destruct (In_nth_error _ _ Hx) as (p & Hp). destruct (In_nth_error _ _ Hy) as (q & Hq).
    destruct (Src p x Hp) as (sx & Hsx & Isx & [->|(_ & E)]); [|rewrite E in Hm; exfalso; exact (ro_not_mut _ _ Hm)].
    destruct (Src q y Hq) as (sy & Hsy & Isy & Ry).
    assert (Hd : sx <> sy).
    { intros ->. assert (p = q); [|subst q; congruence].
      apply (proj1 (NoDup_nth_error ll) H1); [apply nth_error_Some; congruence | congruence]. }
    rewrite Hed in Hm by (apply Hlt; exact Isx).
    destruct Ry as [->|(_ & E)].
    + rewrite Hed by (apply Hlt; exact Isy). apply (H4 sx sy i); assumption.
    + rewrite E, eptr_ro. apply (H4 sx sy i); assumption.
Qed.

Lemma ESep_tail a e l : ESep a (e :: l) -> ESep a l.
Proof.
  intros (H1 & H2 & H3 & H4). split; [exact (proj2 (proj1 (NoDup_cons_iff e l) H1))|].
  split; [exact (Forall_inv_tail H2)|]. split.
  - intros x i Hx. apply H3. right. exact Hx.
  - intros x y i Hx Hy. apply H4; right; assumption.
Qed.

Lemma ESep_repoint a a' e v l :
  ESep a l -> ~ In e l -> e < length (a_entries a') -> length (a_entries a) <= length (a_entries a') ->
  a_values a' = a_values a ++ [v] ->
  edat a' e = EMutable (length (a_values a)) ->
  (forall x, In x l -> edat a' x = edat a x) ->
  ESep a' (e :: l) /\ a_with_entry a' e = Some v
  /\ (forall x, In x l -> edat a' x = edat a x /\ a_with_entry a' x = a_with_entry a x).
Proof.
  intros (H1 & H2 & H3 & H4) Ni He Hle Ev Enew Eold.
  assert (Lv1 : length (a_values a') = S (length (a_values a))) by (rewrite Ev, app_length; apply Nat.add_1_r).
  split.
  { split; [constructor; assumption|].
    split; [constructor; [exact He|]; eapply Forall_impl; [|exact H2]; cbn beta; intros x Hx; lia|].
    split.
    - intros x i [<-|Hx] Hp.
      + rewrite Enew in Hp. inversion Hp. lia.
      + rewrite Eold in Hp by exact Hx. pose proof (H3 x i Hx Hp). lia.
    - intros x y i [<-|Hx] [<-|Hy] Hne Hm; [congruence| | |].
      + rewrite Enew in Hm. inversion Hm; subst i. rewrite Eold by exact Hy. intros Hp.
        pose proof (H3 y _ Hy Hp). lia.
      + rewrite Eold in Hm by exact Hx. rewrite Enew. cbn [eptr]. intros Hp. inversion Hp; subst i.
        assert (Q : eptr (edat a x) = Some (length (a_values a))) by (rewrite Hm; reflexivity).
        pose proof (H3 x _ Hx Q). lia.
      + rewrite Eold in Hm by exact Hx. rewrite Eold by exact Hy. apply (H4 x y i); assumption. }
  split.
  { rewrite with_entry_edat, Enew. cbn [eptr]. rewrite Ev, nth_error_app2, Nat.sub_diag by apply le_n. reflexivity. }
  intros x Hx. split; [apply Eold, Hx|]. apply with_entry_frame; [apply Eold, Hx|].
  intros i Hp. rewrite Ev, nth_error_app1; [reflexivity | apply (H3 x i Hx Hp)].
Qed.

Lemma new_entry_sep a v l a' :
  ESep a l ->
  a_entries a' = a_entries a ++ [EMutable (length (a_values a))] -> a_values a' = a_values a ++ [v] ->
  ESep a' (length (a_entries a) :: l) /\ a_with_entry a' (length (a_entries a)) = Some v
  /\ (forall x, In x l -> edat a' x = edat a x /\ a_with_entry a' x = a_with_entry a x).
Proof.
  intros HS Ee Ev. pose proof HS as (_ & H2 & _).
  assert (Hlt : forall x, In x l -> x < length (a_entries a)) by (rewrite Forall_forall in H2; exact H2).
  assert (Le : length (a_entries a') = S (length (a_entries a))) by (rewrite Ee, app_length; apply Nat.add_1_r).
  apply ESep_repoint; [exact HS | intros X; specialize (Hlt _ X); lia | lia | lia | exact Ev | |].
  - unfold edat. rewrite Ee, app_nth2, Nat.sub_diag by apply le_n. reflexivity.
  - intros x Hx. unfold edat. rewrite Ee, app_nth1 by (apply Hlt, Hx). reflexivity.
Qed.

Lemma sev_spec a e0 v l :
  ESep a (e0 :: l) ->
  let a' := a_set_entry_value a e0 v in
  (ESep a' (e0 :: l) /\ a_with_entry a' e0 = Some v
   /\ (forall x, In x l -> edat a' x = edat a x /\ a_with_entry a' x = a_with_entry a x))
  /\ a_nodes a' = a_nodes a /\ a_gens a' = a_gens a /\ length (a_entries a') = length (a_entries a).
Proof.
  intros HS. pose proof HS as (H1 & H2 & H3 & H4).
  apply NoDup_cons_iff in H1. destruct H1 as (Ni & Nd). pose proof (Forall_inv H2) as He0. cbn beta in He0.
  assert (Repoint : let a' := set_entry (push_value a v) e0 (EMutable (length (a_values a))) in
            ESep a' (e0 :: l) /\ a_with_entry a' e0 = Some v
            /\ (forall x, In x l -> edat a' x = edat a x /\ a_with_entry a' x = a_with_entry a x)).
  { assert (Ed : forall x, edat (set_entry (push_value a v) e0 (EMutable (length (a_values a)))) x
                           = if Nat.eqb e0 x then EMutable (length (a_values a)) else edat a x).
    { intros x. unfold edat. cbn [set_entry push_value a_entries]. rewrite nth_set_nth.
      apply Nat.ltb_lt in He0. rewrite He0. reflexivity. }
    apply (ESep_repoint a _ e0 v l (ESep_tail a e0 l HS) Ni).
    - cbn [set_entry a_entries]. rewrite set_nth_length. exact He0.
    - cbn [set_entry a_entries]. rewrite set_nth_length. apply le_n.
    - reflexivity.
    - rewrite Ed, Nat.eqb_refl. reflexivity.
    - intros x Hx. rewrite Ed. destruct (Nat.eqb_spec e0 x) as [->|]; [exfalso; exact (Ni Hx) | reflexivity]. }
  cbn zeta. unfold a_set_entry_value. fold (edat a e0).
  assert (Shape : forall x, a_nodes (set_entry (push_value a v) e0 x) = a_nodes a /\ a_gens (set_entry (push_value a v) e0 x) = a_gens a
                            /\ length (a_entries (set_entry (push_value a v) e0 x)) = length (a_entries a)).
  { intros x. split; [reflexivity|]. split; [reflexivity | apply set_nth_length]. }
  destruct (edat a e0) as [i|i|] eqn:E0; [split; [exact Repoint | apply Shape] | | split; [exact Repoint | apply Shape]].
  assert (Hi : i < length (a_values a)) by (apply (H3 e0 i (or_introl eq_refl)); rewrite E0; reflexivity).
  split; [|split; [reflexivity | split; reflexivity]]. split.
  { split; [constructor; assumption|]. split; [exact H2|]. split.
    - intros x j Hx Hp. cbn [set_value a_values]. rewrite set_nth_length. apply (H3 x j Hx Hp).
    - intros x y j Hx Hy Hn Hm. apply (H4 x y j); assumption. }
  split.
  { rewrite with_entry_edat. change (edat (set_value a i v) e0) with (edat a e0). rewrite E0.
    cbn [eptr set_value a_values]. destruct (nth_error (a_values a) i) as [y|] eqn:Ey.
    - exact (nth_error_set_nth_same _ i v y Ey).
    - apply nth_error_None in Ey. lia. }
  intros x Hx. split; [reflexivity|]. apply with_entry_frame; [reflexivity|]. intros j Hp.
  cbn [set_value a_values]. destruct (Nat.eq_dec j i) as [->|Hne]; [|apply nth_error_set_nth_other; exact Hne].
  exfalso. apply (H4 e0 x i (or_introl eq_refl) (or_intror Hx)); auto. intros ->. exact (Ni Hx).
Qed.

Lemma all_gt_found a c c' : forall (f : forest nat) ch fp p0 r,
  TrF a ch f fp -> find_child c ch p0 = Some r -> all_gt c' f = true -> (c' < c)%N.
Proof.
  induction f as [|c0 t r0 IH]; intros ch fp p0 r HT Hf Hg.
  - destruct HT as (-> & _). discriminate.
  - destruct HT as (i & ch' & fp1 & fp2 & -> & -> & _ & Hr). cbn [find_child] in Hf. cbn [all_gt] in Hg.
    apply andb_true_iff in Hg. destruct Hg as (G1 & G2). destruct (N.eqb_spec c c0) as [->|].
    + apply N.ltb_lt. exact G1.
    + eapply IH; eauto.
Qed.

Lemma TrF_find a c : forall f ch fp p0 pos i,
  TrF a ch f fp -> sorted_f f = true -> find_child c ch p0 = Some (pos, i) ->
  p0 <= pos /\
  exists ti fpi rest erest,
    Tr a i ti fpi /\ Permutation fp (fpi ++ rest) /\ Permutation (fentries f) (tentries ti ++ erest)
    /\ set_child_index (pos - p0) i ch = ch
    /\ (forall (B : Type) (g : nat -> B) k, lookup_f c k (tmap_f g f) = lookup k (tmap g ti))
    /\ (wfb_f f = true -> wfb ti = true)
    /\ forall a' i' t' fp', Tr a' i' t' fp' -> (forall j, In j rest -> node_at a' j = node_at a j) ->
         exists f' fp'', TrF a' (set_child_index (pos - p0) i' ch) f' fp''
           /\ Permutation fp'' (fp' ++ rest) /\ Permutation (fentries f') (tentries t' ++ erest)
           /\ (forall (B : Type) (g g' : nat -> B) k v, tmap g' t' = insert k v (tmap g ti) ->
                (forall e, In e erest -> g' e = g e) -> tmap_f g' f' = insert_f c k v (tmap_f g f))
           /\ (forall (B : Type) (g g' : nat -> B), tmap g' t' = tmap g ti ->
                (forall e, In e erest -> g' e = g e) -> tmap_f g' f' = tmap_f g f).
Proof.
  induction f as [|c' t r IH]; intros ch fp p0 pos i HT Hs Hf.
  - destruct HT as (-> & _). discriminate.
  - destruct HT as (i0 & ch' & fp1 & fp2 & -> & -> & Ht & Hr). cbn [find_child] in Hf. cbn [sorted_f] in Hs.
    apply andb_true_iff in Hs. destruct Hs as (S1 & S2).
    destruct (N.eqb_spec c c') as [<-|Hne].
    + inversion Hf; subst pos i0. split; [lia|]. exists t, fp1, fp2, (fentries r). rewrite Nat.sub_diag.
      split; [exact Ht|]. split; [apply Permutation_refl|]. split; [apply Permutation_refl|]. split; [reflexivity|].
      split; [intros B g k; cbn [tmap_f]; rewrite lookup_f_cons, N.eqb_refl; reflexivity|].
      split; [cbn [wfb_f]; intros X; apply andb_true_iff in X; apply X|].
      intros a' i' t' fp' Ht' Hfr. exists (FCons c t' r), (fp' ++ fp2).
      split; [cbn [set_child_index TrF]; exists i', ch', fp', fp2; repeat split; auto; apply (TrF_frame a a'); assumption|].
      split; [apply Permutation_refl|]. split; [apply Permutation_refl|].
      split.
      * intros B g g' k v Hins Hg. cbn [tmap_f insert_f]. rewrite N.eqb_refl, Hins. f_equal.
        apply (proj2 (tmap_ext_mut g' g)). exact Hg.
      * intros B g g' Heq Hg. cbn [tmap_f]. rewrite Heq. f_equal. apply (proj2 (tmap_ext_mut g' g)). exact Hg.
    + destruct (IH ch' fp2 (S p0) pos i Hr S2 Hf) as (Hle & ti & fpi & rest & erest & T1 & P1 & P2 & SC & LK & WF & K).
      split; [lia|]. exists ti, fpi, (fp1 ++ rest), (tentries t ++ erest).
      assert (Epos : pos - p0 = S (pos - S p0)) by lia. rewrite Epos.
      split; [exact T1|].
      split; [rewrite P1; apply Permutation_app_swap_app|].
      split; [cbn [fentries]; rewrite P2; apply Permutation_app_swap_app|].
      split; [cbn [set_child_index]; f_equal; exact SC|].
      split; [intros B g k; cbn [tmap_f]; rewrite lookup_f_cons; destruct (N.eqb_spec c c'); [contradiction | apply LK]|].
      split; [cbn [wfb_f]; intros X; apply andb_true_iff in X; apply WF, X|].
      intros a' i' t' fp' Ht' Hfr.
      destruct (K a' i' t' fp' Ht') as (f' & fp'' & T2 & Q1 & Q2 & Q3 & Q4).
      { intros j Hj. apply Hfr. apply in_or_app. right. exact Hj. }
      exists (FCons c' t f'), (fp1 ++ fp'').
      split. { cbn [set_child_index TrF]. exists i0, (set_child_index (pos - S p0) i' ch'), fp1, fp''.
               repeat split; auto. apply (Tr_frame a a'); [exact Ht|]. intros j Hj. apply Hfr. apply in_or_app. left. exact Hj. }
      split; [rewrite Q1; apply Permutation_app_swap_app|].
      split; [cbn [fentries]; rewrite Q2; apply Permutation_app_swap_app|].
      split.
      { intros B g g' k v Hins Hg. cbn [tmap_f insert_f]. destruct (N.eqb_spec c c'); [contradiction|].
        pose proof (all_gt_found a c c' r ch' fp2 (S p0) (pos, i) Hr Hf S1) as Hlt.
        destruct (N.ltb_spec c c'); [lia|]. f_equal.
        * apply (proj1 (tmap_ext_mut g' g)). intros e He. apply Hg. apply in_or_app. left. exact He.
        * apply (Q3 B g g' k v Hins). intros e He. apply Hg. apply in_or_app. right. exact He. }
      intros B g g' Heq Hg. cbn [tmap_f]. f_equal.
      * apply (proj1 (tmap_ext_mut g' g)). intros e He. apply Hg. apply in_or_app. left. exact He.
      * apply (Q4 B g g' Heq). intros e He. apply Hg. apply in_or_app. right. exact He.
Qed.

Lemma TrF_notfound a c : forall (f : forest nat) ch fp p0,
  TrF a ch f fp -> find_child c ch p0 = None ->
  forall (B : Type) (g : nat -> B) k, lookup_f c k (tmap_f g f) = None.
Proof.
  induction f as [|c' t r IH]; intros ch fp p0 HT Hf B g k; [reflexivity|].
  destruct HT as (i0 & ch' & fp1 & fp2 & -> & -> & _ & Hr). cbn [find_child] in Hf. cbn [tmap_f].
  rewrite lookup_f_cons. destruct (N.eqb_spec c c'); [discriminate|]. eapply IH; eauto.
Qed.

Lemma TrF_add a a' c ni tl : forall f ch fp p0,
  TrF a ch f fp -> find_child c ch p0 = None ->
  (forall j, In j fp -> node_at a' j = node_at a j) ->
  Tr a' ni tl [ni] ->
  exists f' fp', TrF a' (insert_child c ni ch) f' fp' /\ Permutation fp' (ni :: fp)
    /\ Permutation (fentries f') (tentries tl ++ fentries f)
    /\ (forall (B : Type) (g g' : nat -> B) k v, tmap g' tl = Node k (Some v) FNil ->
          (forall e, In e (fentries f) -> g' e = g e) -> tmap_f g' f' = insert_f c k v (tmap_f g f)).
Proof.
  induction f as [|c' t r IH]; intros ch fp p0 HT Hf Hfr Hl.
  - destruct HT as (-> & ->). exists (FCons c tl FNil), ([ni] ++ []).
    split; [cbn [insert_child TrF]; exists ni, [], [ni], []; repeat split; auto|].
    split; [apply Permutation_refl|]. split; [cbn [fentries]; apply Permutation_refl|].
    intros B g g' k v E _. cbn [tmap_f insert_f]. rewrite E. reflexivity.
  - destruct HT as (i0 & ch' & fp1 & fp2 & -> & -> & Ht & Hr). cbn [find_child] in Hf.
    destruct (N.eqb_spec c c') as [|Hne]; [discriminate|]. cbn [insert_child].
    destruct (N.ltb_spec c c') as [Hlt|Hge].
    + exists (FCons c tl (FCons c' t r)), ([ni] ++ (fp1 ++ fp2)).
      split. { cbn [TrF]. exists ni, ((c', i0) :: ch'), [ni], (fp1 ++ fp2). repeat split; auto.
               exists i0, ch', fp1, fp2. repeat split; auto.
               - apply (Tr_frame a a'); [exact Ht|]. intros j Hj. apply Hfr. apply in_or_app. left. exact Hj.
               - apply (TrF_frame a a'); [exact Hr|]. intros j Hj. apply Hfr. apply in_or_app. right. exact Hj. }
      split; [apply Permutation_refl|]. split; [cbn [fentries]; apply Permutation_refl|].
      intros B g g' k v E Hg. cbn [tmap_f insert_f]. destruct (N.eqb_spec c c'); [contradiction|].
      destruct (N.ltb_spec c c'); [|lia]. rewrite E. f_equal. f_equal.
      * apply (proj1 (tmap_ext_mut g' g)). intros e He. apply Hg. cbn [fentries]. apply in_or_app. left. exact He.
      * apply (proj2 (tmap_ext_mut g' g)). intros e He. apply Hg. cbn [fentries]. apply in_or_app. right. exact He.
    + destruct (IH ch' fp2 (S p0) Hr Hf) as (f' & fp' & T1 & P1 & P2 & V1); auto.
      { intros j Hj. apply Hfr. apply in_or_app. right. exact Hj. }
      exists (FCons c' t f'), (fp1 ++ fp').
      split. { cbn [TrF]. exists i0, (insert_child c ni ch'), fp1, fp'. repeat split; auto.
               apply (Tr_frame a a'); [exact Ht|]. intros j Hj. apply Hfr. apply in_or_app. left. exact Hj. }
      split; [rewrite P1; symmetry; apply Permutation_middle|].
      split; [cbn [fentries]; rewrite P2; apply Permutation_app_swap_app|].
      intros B g g' k v E Hg. cbn [tmap_f insert_f]. destruct (N.eqb_spec c c'); [contradiction|].
      destruct (N.ltb_spec c c'); [lia|]. f_equal.
      * apply (proj1 (tmap_ext_mut g' g)). intros e He. apply Hg. cbn [fentries]. apply in_or_app. left. exact He.
      * apply (V1 B g g' k v E). intros e He. apply Hg. cbn [fentries]. apply in_or_app. right. exact He.
Qed.

Definition parent_ok (a : arena) (parent : option (nat * nat)) (idx : nat) (fp : list nat) : Prop :=
  match parent with
  | Some (pidx, _) => pidx < length (a_nodes a) /\ ~ In pidx fp
  | None => cur_root a = Some idx
  end.
Definition not_parent (parent : option (nat * nat)) (j : nat) : Prop :=
  match parent with Some (pidx, _) => j <> pidx | None => True end.
Definition plink (a a' : arena) (parent : option (nat * nat)) (idx idx' : nat) : Prop :=
  match parent with
  | Some (pidx, pos) =>
      a_gens a' = a_gens a /\
      node_at a' pidx = (if Nat.eqb idx' idx then node_at a pidx
                         else with_children (node_at a pidx) (set_child_index pos idx' (an_ch (node_at a pidx))))
  | None => cur_root a' = Some idx'
  end.
Definition is_some {A} (o : option A) : bool := match o with Some _ => true | None => false end.

Definition SepAt (a : arena) (idx : nat) (t : tree nat) (fp R : list nat) : Prop :=
  Tr a idx t fp /\ NoDup fp /\ Forall (fun j => j < length (a_nodes a)) fp /\ ESep a (tentries t ++ R).

(** What every step of a walk from [a] to [a'] guarantees about the subtree it worked on:
    the new subtree is separated from the same context, its footprint lies in the old one or
    in fresh nodes, old nodes outside the old footprint (and other than the parent) and the
    entries of the context are unchanged. *)
Definition Grow (a : arena) (parent : option (nat * nat)) (fp R : list nat)
           (a' : arena) (idx' : nat) (t' : tree nat) (fp' : list nat) : Prop :=
  SepAt a' idx' t' fp' R
  /\ (forall j, In j fp' -> In j fp \/ length (a_nodes a) <= j)
  /\ length (a_nodes a) <= length (a_nodes a')
  /\ (forall j, j < length (a_nodes a) -> ~ In j fp -> not_parent parent j -> node_at a' j = node_at a j)
  /\ (forall x, In x R -> edat a' x = edat a x /\ a_with_entry a' x = a_with_entry a x).

Lemma Grow_refl a parent idx t fp R : SepAt a idx t fp R -> Grow a parent fp R a idx t fp.
Proof. intros H. split; [exact H|]. split; [auto|]. split; [apply le_n|]. split; [reflexivity | auto]. Qed.

Lemma Grow_weaken a parent fp R a' idx' t' fp' :
  Grow a None fp R a' idx' t' fp' -> Grow a parent fp R a' idx' t' fp'.
Proof.
  intros (S & D & L & F & W). split; [exact S|]. split; [exact D|]. split; [exact L|]. split; [|exact W].
  intros j Hj Hn _. exact (F j Hj Hn I).
Qed.

Lemma Grow_frame a fp R a' idx' t' fp' :
  Grow a None fp R a' idx' t' fp' ->
  forall j, j < length (a_nodes a) -> ~ In j fp -> node_at a' j = node_at a j.
Proof. intros (_ & _ & _ & F & _) j Hj Hn. exact (F j Hj Hn I). Qed.

Lemma Grow_trans a parent fp R a1 i1 t1 fp1 a' idx' t' fp' :
  Grow a parent fp R a1 i1 t1 fp1 -> Grow a1 None fp1 R a' idx' t' fp' -> Grow a parent fp R a' idx' t' fp'.
Proof.
  intros (_ & D1 & L1 & F1 & W1) (S & D & L & F & W). split; [exact S|].
  split. { intros j Hj. destruct (D j Hj) as [Y|Y]; [exact (D1 j Y) | right; lia]. }
  split; [lia|]. split.
  - intros j Hj Hn Hp. rewrite F; [exact (F1 j Hj Hn Hp) | lia | | exact I].
    intros X. destruct (D1 j X) as [Y|Y]; [exact (Hn Y) | lia].
  - intros x Hx. destruct (W x Hx) as (Z1 & Z2). destruct (W1 x Hx) as (Z3 & Z4). split; congruence.
Qed.

Lemma plink_same a a' parent idx fp :
  parent_ok a parent idx fp -> a_gens a' = a_gens a ->
  (forall j, j < length (a_nodes a) -> ~ In j fp -> node_at a' j = node_at a j) ->
  plink a a' parent idx idx.
Proof.
  destruct parent as [[pidx pos]|]; cbn [plink parent_ok]; intros HP Eg F.
  - rewrite Nat.eqb_refl. split; [exact Eg | apply F; apply HP].
  - rewrite (cur_root_same_gens a a' Eg). exact HP.
Qed.

Definition InsPost (a : arena) (parent : option (nat * nat)) (idx : nat) (k : list N) (v : value)
           (t : tree nat) (fp R : list nat) (res : arena * nat * bool) : Prop :=
  let '(a', e, existed) := res in
  exists idx' t' fp',
    Grow a parent fp R a' idx' t' fp'
    /\ plink a a' parent idx idx'
    /\ tmap (a_with_entry a') t' = insert k (Some v) (tmap (a_with_entry a) t)
    /\ a_with_entry a' e = Some v
    /\ existed = is_some (lookup k (tmap (a_with_entry a) t)).

Lemma insert_node {V} k (v : V) p ov cs :
  insert k v (Node p ov cs) =
  match follow_stem k p with
  | FEqual => Node p (Some v) cs
  | FKeyIsPrefix s ps => Node k (Some v) (FCons s (Node ps ov cs) FNil)
  | FStemIsPrefix c k' => Node p ov (insert_f c k' v cs)
  | FDiff cm kc kr sc sr =>
      Node cm None (if (kc <? sc)%N then FCons kc (Node kr (Some v) FNil) (FCons sc (Node sr ov cs) FNil)
                    else FCons sc (Node sr ov cs) (FCons kc (Node kr (Some v) FNil) FNil))
  end.
Proof. reflexivity. Qed.

Lemma SepAt_parent a parent idx t fp R :
  SepAt a idx t fp R -> parent_ok a parent idx fp ->
  idx < length (a_nodes a) /\ In idx fp /\ (forall j, In j fp -> j < length (a_nodes a))
  /\ (forall j, In j fp \/ length (a_nodes a) <= j -> not_parent parent j).
Proof.
  destruct t as [p ov cs]. intros ((_ & _ & fp0 & -> & _) & _ & Hb & _) HP. rewrite Forall_forall in Hb.
  split; [apply Hb; left; reflexivity|]. split; [left; reflexivity|]. split; [exact Hb|].
  intros j Hj. destruct parent as [[pidx pos]|]; cbn [not_parent parent_ok] in *; [|exact I]. intros ->.
  destruct Hj as [Hj|Hj]; [exact (proj2 HP Hj) | lia].
Qed.

(** The node table of [set_node idx n'] followed by pushing the nodes [news]. *)
Lemma pushed_table a b idx n' news :
  a_nodes b = set_nth idx n' (a_nodes a) ++ news -> idx < length (a_nodes a) ->
  length (a_nodes b) = length (a_nodes a) + length news
  /\ node_at b idx = n'
  /\ (forall j, j < length (a_nodes a) -> j <> idx -> node_at b j = node_at a j)
  /\ (forall q, node_at b (q + length (a_nodes a)) = nth q news anode_default).
Proof.
  intros E Hi. unfold node_at. rewrite E.
  split; [rewrite app_length, set_nth_length; reflexivity|].
  split; [rewrite app_nth1 by (rewrite set_nth_length; exact Hi); apply nth_set_nth_eq; exact Hi|].
  split.
  - intros j Hj Hne. rewrite app_nth1 by (rewrite set_nth_length; exact Hj). apply nth_set_nth_ne. congruence.
  - intros q. rewrite app_nth2 by (rewrite set_nth_length; lia). rewrite set_nth_length. f_equal. lia.
Qed.

Lemma set_nth_app {A} i (x : A) l l' : i < length l -> set_nth i x (l ++ l') = set_nth i x l ++ l'.
Proof.
  revert i. induction l as [|y l IH]; intros [|i] H; cbn in *; try lia; [reflexivity|]. f_equal. apply IH. lia.
Qed.

Lemma relink_push_node b parent i n :
  match parent with Some (pidx, _) => pidx < length (a_nodes b) | None => True end ->
  relink (push_node b n) parent i = push_node (relink b parent i) n.
Proof.
  destruct parent as [[pidx pos]|]; cbn [relink]; intros H.
  - rewrite node_at_push_lt by exact H. unfold set_node, push_node. cbn [a_gens a_entries a_values a_nodes].
    f_equal. apply set_nth_app. exact H.
  - unfold set_root, push_node. cbn [a_gens]. destruct (rev (a_gens b)); reflexivity.
Qed.

(** The same table with the parent's slot (or the root) pointed at [ni]: neither node [idx]
    nor a pushed node is the parent. *)
Lemma relink_table a parent idx fp b n' news ni :
  parent_ok a parent idx fp -> In idx fp -> idx < length (a_nodes a) ->
  a_gens b = a_gens a -> a_nodes b = set_nth idx n' (a_nodes a) ++ news -> ni <> idx ->
  let a' := relink b parent ni in
  a_entries a' = a_entries b /\ a_values a' = a_values b
  /\ length (a_nodes a') = length (a_nodes a) + length news
  /\ (forall j, j < length (a_nodes a) -> j <> idx -> not_parent parent j -> node_at a' j = node_at a j)
  /\ node_at a' idx = n'
  /\ (forall q, node_at a' (q + length (a_nodes a)) = nth q news anode_default)
  /\ plink a a' parent idx ni.
Proof.
  intros HP Hin Hidx Eg En Hni. destruct (pushed_table a b idx n' news En Hidx) as (Lb & Bidx & Bold & Bnew).
  destruct parent as [[pidx pos]|]; cbn [relink parent_ok not_parent plink] in *.
  - destruct HP as (Hp & Hnp). assert (Hpi : pidx <> idx) by (intros ->; exact (Hnp Hin)).
    split; [reflexivity|]. split; [reflexivity|]. split; [rewrite length_set_node; exact Lb|].
    split; [intros j Hj Hne Hp'; rewrite node_at_set_node_ne by auto; apply Bold; assumption|].
    split; [rewrite node_at_set_node_ne by exact Hpi; exact Bidx|].
    split; [intros q; rewrite node_at_set_node_ne by lia; apply Bnew|].
    split; [exact Eg|]. destruct (Nat.eqb_spec ni idx); [contradiction|].
    rewrite node_at_set_node_eq by lia. rewrite Bold by assumption. reflexivity.
  - assert (Hne : a_gens b <> []) by (rewrite Eg; eapply cur_root_gens; exact HP).
    destruct (set_root_shape b (Some ni) Hne) as (older & g & _ & _ & En' & Ev' & Ee').
    pose proof (fun j => node_at_same_nodes b (set_root b (Some ni)) j En') as Nn.
    split; [exact Ee'|]. split; [exact Ev'|]. split; [rewrite En'; exact Lb|].
    split; [intros j Hj Hne' _; rewrite Nn; apply Bold; assumption|].
    split; [rewrite Nn; exact Bidx|]. split; [intros q; rewrite Nn; apply Bnew|].
    apply cur_root_set_root. exact Hne.
Qed.

Lemma fp_pushed fp fp' L k :
  NoDup fp -> Forall (fun j => j < L) fp -> Permutation fp' (seq L k ++ fp) ->
  NoDup fp' /\ forall j, In j fp' -> (In j fp \/ L <= j) /\ j < L + k.
Proof.
  intros Hnd Hb P. rewrite Forall_forall in Hb. split.
  - apply (Permutation_NoDup (Permutation_sym P)). apply nd_app. split; [apply seq_NoDup|]. split; [exact Hnd|].
    intros x Hx Hf. apply in_seq in Hx. specialize (Hb _ Hf). lia.
  - intros j Hj. apply (Permutation_in _ P) in Hj. apply in_app_or in Hj. destruct Hj as [Hj|Hj].
    + apply in_seq in Hj. split; [right|]; lia.
    + specialize (Hb _ Hj). split; [left; exact Hj | lia].
Qed.

(** One entry for [v] and [k] nodes pushed, node [idx] and the parent's slot rewritten:
    if the result unfolds at [idx'] to a tree over the old footprint and the new nodes that
    holds the old entries and the new one, the step is a [Grow], and only the new entry
    reads differently. *)
Lemma Grow_pushed a parent idx t fp R a' v k idx' t' fp' :
  SepAt a idx t fp R ->
  a_entries a' = a_entries a ++ [EMutable (length (a_values a))] -> a_values a' = a_values a ++ [v] ->
  length (a_nodes a') = length (a_nodes a) + k ->
  (forall j, j < length (a_nodes a) -> j <> idx -> not_parent parent j -> node_at a' j = node_at a j) ->
  Tr a' idx' t' fp' -> Permutation fp' (seq (length (a_nodes a)) k ++ fp) ->
  Permutation (tentries t') (length (a_entries a) :: tentries t) ->
  Grow a parent fp R a' idx' t' fp'
  /\ a_with_entry a' (length (a_entries a)) = Some v
  /\ (forall e, In e (tentries t) -> a_with_entry a' e = a_with_entry a e).
Proof.
  intros (HT & Hnd & Hb & HS) Ee Ev Ln Fr T' Pf Pe.
  destruct (new_entry_sep a v _ a' HS Ee Ev) as (S1 & W1 & Wr).
  destruct (fp_pushed fp fp' _ k Hnd Hb Pf) as (Nd' & Hx).
  destruct (Tr_head a idx t fp HT) as (fp0 & ->).
  split; [|split; [exact W1|]].
  - split.
    { split; [exact T'|]. split; [exact Nd'|]. split; [rewrite Forall_forall, Ln; intros j Hj; apply Hx, Hj|].
      apply (ESep_perm a' ((length (a_entries a) :: tentries t) ++ R)); [|exact S1].
      apply Permutation_app_tail. symmetry. exact Pe. }
    split; [intros j Hj; apply Hx, Hj|]. split; [lia|].
    split.
    { intros j Hj Hnf Hp. apply Fr; [exact Hj | | exact Hp]. intros ->. apply Hnf. left. reflexivity. }
    intros x Hx'. apply Wr. apply in_or_app. right. exact Hx'.
  - intros e He. apply Wr. apply in_or_app. left. exact He.
Qed.

(** Node [idx] rewritten with the same children. *)
Lemma Tr_renode a a' idx p ov cs fp n' p' ov' :
  Tr a idx (Node p ov cs) fp -> NoDup fp ->
  node_at a' idx = n' -> p' = an_path n' -> ov' = an_val n' -> an_ch n' = an_ch (node_at a idx) ->
  (forall j, In j fp -> j <> idx -> node_at a' j = node_at a j) ->
  Tr a' idx (Node p' ov' cs) fp.
Proof.
  intros (_ & _ & fp0 & -> & HTF) Hnd E -> -> Ec F. apply NoDup_cons_iff in Hnd.
  apply (Tr_node a' idx n' _ _ cs fp0 E eq_refl eq_refl). rewrite Ec.
  apply (TrF_frame a a'); [exact HTF|]. intros j Hj. apply F; [right; exact Hj|]. intros ->. exact (proj1 Hnd Hj).
Qed.

Lemma ins_equal a idx parent k v p ov cs fp R :
  SepAt a idx (Node p ov cs) fp R -> parent_ok a parent idx fp ->
  follow_stem k p = FEqual ->
  InsPost a parent idx k v (Node p ov cs) fp R
    (match ov with
     | Some e0 => (a_set_entry_value a e0 v, e0, true)
     | None => let (a1, e) := new_entry a v in (set_node a1 idx (with_val (node_at a idx) (Some e)), e, false)
     end).
Proof.
  intros HA HP HF. pose proof HA as (HT & Hnd & Hb & HS). destruct ov as [e0|].
  - destruct (sev_spec a e0 v (fentries cs ++ R) HS) as ((S' & W0 & Wr) & En & Eg & _).
    set (a' := a_set_entry_value a e0 v) in *. cbn [InsPost].
    assert (Nd : forall j, node_at a' j = node_at a j) by (intros j; apply node_at_same_nodes; exact En).
    exists idx, (Node p (Some e0) cs), fp.
    split. { split. { split; [apply (Tr_frame a a'); [exact HT | intros; apply Nd]|]. split; [exact Hnd|].
                      split; [rewrite En; exact Hb | exact S']. }
             split; [auto|]. split; [rewrite En; apply le_n|]. split; [intros; apply Nd|].
             intros x Hx. apply Wr. apply in_or_app. right. exact Hx. }
    split; [apply (plink_same a a' parent idx fp HP Eg); intros; apply Nd|].
    split. { cbn [tmap option_map]. rewrite insert_node, HF, W0. f_equal.
             apply (proj2 (tmap_ext_mut _ _)). intros e He. apply Wr. apply in_or_app. left. exact He. }
    split; [exact W0|]. cbn [tmap]. rewrite lookup_node', HF. reflexivity.
  - destruct (SepAt_parent a parent idx _ fp R HA HP) as (Hidx & Hin & _). pose proof HT as (Ep & _).
    cbn [new_entry InsPost]. set (Le := length (a_entries a)). set (n := node_at a idx).
    set (a' := set_node _ idx (with_val n (Some Le))).
    destruct (pushed_table a a' idx (with_val n (Some Le)) [] (eq_sym (app_nil_r _)) Hidx) as (Ln & Nidx & Nold & _).
    assert (T' : Tr a' idx (Node p (Some Le) cs) fp).
    { apply (Tr_renode a a' idx p None cs fp _ p (Some Le) HT Hnd Nidx Ep eq_refl eq_refl).
      intros j Hj Hne. apply Nold; [rewrite Forall_forall in Hb; apply Hb, Hj | exact Hne]. }
    destruct (Grow_pushed a parent idx _ fp R a' v 0 idx _ fp HA eq_refl eq_refl Ln (fun j Hj Hne _ => Nold j Hj Hne) T')
      as (G & W1 & Wt); [apply Permutation_refl | apply Permutation_refl |]. fold Le in W1.
    exists idx, (Node p (Some Le) cs), fp. split; [exact G|].
    split; [apply (plink_same a a' parent idx _ HP eq_refl); intros j Hj Hnf; apply Nold; [exact Hj | intros ->; exact (Hnf Hin)]|].
    split. { cbn [tmap option_map]. rewrite insert_node, HF, W1. f_equal. apply (proj2 (tmap_ext_mut _ _)). exact Wt. }
    split; [exact W1|]. cbn [tmap]. rewrite lookup_node', HF. reflexivity.
Qed.

Lemma ins_keyprefix a g idx parent k v p ov cs fp R s ps :
  SepAt a idx (Node p ov cs) fp R -> parent_ok a parent idx fp ->
  follow_stem k p = FKeyIsPrefix s ps ->
  InsPost a parent idx k v (Node p ov cs) fp R
    (let (a1, e) := new_entry a v in
     let a2 := set_node a1 idx (with_path (node_at a idx) ps) in
     let new_idx := length (a_nodes a2) in
     let a3 := relink a2 parent new_idx in
     (push_node a3 (mkAN g (Some e) k g [(s, idx)]), e, false)).
Proof.
  intros HA HP HF. destruct (SepAt_parent a parent idx _ fp R HA HP) as (Hidx & Hin & Hlt & Hnp).
  pose proof HA as (HT & Hnd & _). pose proof HT as (_ & Ev & _). cbn [new_entry].
  set (Le := length (a_entries a)). set (n := node_at a idx). set (L := length (a_nodes a)) in *.
  set (a2 := set_node _ idx (with_path n ps)). set (newn := mkAN g (Some Le) k g [(s, idx)]).
  replace (length (a_nodes a2)) with L by (symmetry; apply length_set_node).
  rewrite <- relink_push_node
    by (destruct parent as [[pidx pos]|]; [unfold a2; rewrite length_set_node; apply HP | exact I]).
  destruct (relink_table a parent idx fp (push_node a2 newn) (with_path n ps) [newn] L HP Hin Hidx eq_refl eq_refl)
    as (Ee & Ev' & Ln & Nold & Nidx & Nnew & Pl); [lia|].
  set (a' := relink _ parent L) in *. cbn [InsPost].
  assert (Told : Tr a' idx (Node ps ov cs) fp).
  { apply (Tr_renode a a' idx p ov cs fp _ ps ov HT Hnd Nidx eq_refl Ev eq_refl).
    intros j Hj Hne. apply Nold; [apply Hlt, Hj | exact Hne | apply Hnp; left; exact Hj]. }
  assert (T' : Tr a' L (Node k (Some Le) (FCons s (Node ps ov cs) FNil)) (L :: fp ++ [])).
  { apply (Tr_node a' L newn k (Some Le) _ _ (Nnew 0) eq_refl eq_refl).
    exists idx, [], fp, []. split; [reflexivity|]. split; [reflexivity|]. split; [exact Told|]. split; reflexivity. }
  rewrite app_nil_r in T'.
  destruct (Grow_pushed a parent idx _ fp R a' v 1 L _ _ HA Ee Ev' Ln Nold T') as (G & W1 & Wt);
    [apply Permutation_refl | cbn [tentries fentries app]; rewrite !app_nil_r; apply Permutation_refl |].
  fold Le in W1.
  exists L, (Node k (Some Le) (FCons s (Node ps ov cs) FNil)), (L :: fp).
  split; [exact G|]. split; [exact Pl|].
  assert (Wo : tmap (a_with_entry a') (Node ps ov cs) = tmap (a_with_entry a) (Node ps ov cs))
    by (apply (proj1 (tmap_ext_mut _ _)); exact Wt).
  split. { cbn [tmap tmap_f option_map] in Wo |- *. rewrite insert_node, HF, W1, Wo. reflexivity. }
  split; [exact W1|]. cbn [tmap]. rewrite lookup_node', HF. reflexivity.
Qed.

Lemma ins_diff a g idx parent k v p ov cs fp R cm kc kr sc sr :
  SepAt a idx (Node p ov cs) fp R -> parent_ok a parent idx fp ->
  follow_stem k p = FDiff cm kc kr sc sr ->
  InsPost a parent idx k v (Node p ov cs) fp R
    (let key_node_idx := length (a_nodes a) in
     let new_idx := S key_node_idx in
     let a1 := set_node a idx (with_path (node_at a idx) sr) in
     let (a2, e) := new_entry a1 v in
     let a3 := push_node a2 (mkAN g (Some e) kr g []) in
     let ch := if (kc <? sc)%N then [(kc, key_node_idx); (sc, idx)] else [(sc, idx); (kc, key_node_idx)] in
     let a4 := push_node a3 (mkAN g None cm g ch) in
     (relink a4 parent new_idx, e, false)).
Proof.
  intros HA HP HF. destruct (SepAt_parent a parent idx _ fp R HA HP) as (Hidx & Hin & Hlt & Hnp).
  pose proof HA as (HT & Hnd & _). pose proof HT as (_ & Ev & _). cbn [new_entry].
  set (Le := length (a_entries a)). set (n := node_at a idx). set (L := length (a_nodes a)) in *.
  set (a1 := set_node a idx (with_path n sr)).
  change (a_entries a1) with (a_entries a). change (a_values a1) with (a_values a). fold Le.
  set (leaf := mkAN g (Some Le) kr g []). set (a3 := push_node _ leaf).
  set (chx := if (kc <? sc)%N then [(kc, L); (sc, idx)] else [(sc, idx); (kc, L)]).
  set (branch := mkAN g None cm g chx). set (a4 := push_node a3 branch).
  destruct (relink_table a parent idx fp a4 (with_path n sr) [leaf; branch] (S L) HP Hin Hidx eq_refl)
    as (Ee & Ev' & Ln & Nold & Nidx & Nnew & Pl);
    [exact (eq_sym (app_assoc (set_nth idx (with_path n sr) (a_nodes a)) [leaf] [branch])) | lia |].
  set (a' := relink a4 parent (S L)) in *. cbn [InsPost].
  assert (Told : Tr a' idx (Node sr ov cs) fp).
  { apply (Tr_renode a a' idx p ov cs fp _ sr ov HT Hnd Nidx eq_refl Ev eq_refl).
    intros j Hj Hne. apply Nold; [apply Hlt, Hj | exact Hne | apply Hnp; left; exact Hj]. }
  assert (Tleaf : Tr a' L (Node kr (Some Le) FNil) [L]) by (apply (Tr_leaf a' L leaf _ _ (Nnew 0)); reflexivity).
  pose proof (follow_stem_spec k p) as Hkc. rewrite HF in Hkc. destruct Hkc as (_ & _ & Hkc).
  destruct (TrF_add a' a' kc L (Node kr (Some Le) FNil) (FCons sc (Node sr ov cs) FNil) [(sc, idx)] (fp ++ []) 0)
    as (f' & fpx & TB & PB & EB & VB); [| |reflexivity | exact Tleaf|].
  { exists idx, [], fp, []. split; [reflexivity|]. split; [reflexivity|]. split; [exact Told|]. split; reflexivity. }
  { cbn [find_child]. destruct (N.eqb_spec kc sc); [contradiction | reflexivity]. }
  rewrite app_nil_r in PB. cbn [tentries fentries app] in EB. rewrite app_nil_r in EB.
  assert (T' : Tr a' (S L) (Node cm None f') (S L :: fpx))
    by (apply (Tr_node a' (S L) branch cm None f' fpx (Nnew 1)); [reflexivity | reflexivity | exact TB]).
  destruct (Grow_pushed a parent idx _ fp R a' v 2 (S L) _ _ HA Ee Ev' Ln Nold T') as (G & W1 & Wt);
    [rewrite PB; apply perm_swap | exact EB |].
  fold Le in W1.
  exists (S L), (Node cm None f'), (S L :: fpx).
  split; [exact G|]. split; [exact Pl|].
  split. { cbn [tmap option_map]. rewrite insert_node, HF. f_equal.
           rewrite (VB _ (a_with_entry a) (a_with_entry a') kr (Some v)).
           - cbn [tmap_f tmap insert_f]. destruct (N.eqb_spec kc sc); [contradiction | reflexivity].
           - cbn [tmap option_map tmap_f]. rewrite W1. reflexivity.
           - intros e He. cbn [fentries] in He. rewrite app_nil_r in He. apply Wt, He. }
  split; [exact W1|]. cbn [tmap]. rewrite lookup_node', HF. reflexivity.
Qed.

(** [make_owned] keeps the separation of the entries (it renames entries of the tree to
    fresh read-only copies pointing at the same values). *)
Lemma mo_sep a idx t fp R :
  Tr a idx t fp -> NoDup fp -> Forall (fun j => j < length (a_nodes a)) fp ->
  ESep a (tentries t ++ R) ->
  let a1 := make_owned a idx in
  exists t1 fp1, Tr a1 idx t1 fp1 /\ NoDup fp1
    /\ Forall (fun j => j < length (a_nodes a1)) fp1
    /\ (forall j, In j fp1 -> In j fp \/ length (a_nodes a) <= j)
    /\ tmap (a_with_entry a1) t1 = tmap (a_with_entry a) t
    /\ ESep a1 (tentries t1 ++ R)
    /\ (forall x, In x R -> edat a1 x = edat a x /\ a_with_entry a1 x = a_with_entry a x)
    /\ (forall j, j < length (a_nodes a) -> j <> idx -> node_at a1 j = node_at a j)
    /\ length (a_nodes a) <= length (a_nodes a1)
    /\ a_gens a1 = a_gens a.
Proof.
  intros HT Hnd Hb HS a1. pose proof HS as (H1 & H2 & H3 & H4).
  pose proof H2 as H2'. apply Forall_app in H2'. destruct H2' as (H2t & H2r).
  destruct (mo_tr a idx t fp HT Hnd Hb H2t) as (t1 & fp1 & T1 & N1 & B1 & D1 & W1 & F1 & (hi & RE) & Fr & Ln & Hed & Lee & Hv & Hg).
  fold a1 in T1, N1, B1, W1, F1, Fr, Ln, Hed, Lee, Hv, Hg.
  exists t1, fp1. split; [exact T1|]. split; [exact N1|]. split; [exact B1|]. split; [exact D1|]. split; [exact W1|].
  assert (HltR : forall x, In x R -> x < length (a_entries a)) by (rewrite Forall_forall in H2r; exact H2r).
  split.
  { apply (ESep_ren a a1 (tentries t ++ R) (tentries t1 ++ R) HS); auto.
    - apply Forall2_app; [exact F1 | apply eren_refl_list].
    - exact (refresh_nodup _ _ _ _ (refresh_app _ _ _ _ _ _ _ RE (refresh_refl _ R)) H1 H2). }
  split.
  { intros x Hx. split; [apply Hed, HltR, Hx|]. apply with_entry_frame; [apply Hed, HltR, Hx|]. intros i _. rewrite Hv. reflexivity. }
  auto.
Qed.

Lemma mo_grow a idx p ov cs fp R :
  SepAt a idx (Node p ov cs) fp R -> wfb (Node p ov cs) = true ->
  let a1 := make_owned a idx in
  exists ov1 cs1 fp1,
    Grow a None fp R a1 idx (Node p ov1 cs1) fp1
    /\ tmap (a_with_entry a1) (Node p ov1 cs1) = tmap (a_with_entry a) (Node p ov cs)
    /\ a_gens a1 = a_gens a /\ wfb_f cs1 = true /\ sorted_f cs1 = true.
Proof.
  intros (HT & Hnd & Hb & HS) Hwf a1.
  destruct (mo_sep a idx _ fp R HT Hnd Hb HS) as (t1 & fp1 & T1 & N1 & B1 & D1 & W1 & S1 & WR1 & Fr1 & Ln1 & Hg1).
  destruct t1 as [p1 ov1 cs1]. pose proof W1 as W1'. cbn [tmap] in W1'. injection W1' as -> _ _.
  pose proof (wfb_tmap_eq _ _ _ _ W1 Hwf) as Hwf1.
  rewrite wfb_node' in Hwf1. apply andb_true_iff in Hwf1. destruct Hwf1 as (Hwf1 & _). apply andb_true_iff in Hwf1.
  exists ov1, cs1, fp1. split; [|split; [exact W1 | split; [exact Hg1 | exact Hwf1]]].
  split; [split; [exact T1|]; split; [exact N1|]; split; [exact B1 | exact S1]|].
  split; [exact D1|]. split; [exact Ln1|]. split; [|exact WR1].
  intros j Hj Hnf _. apply Fr1; [exact Hj|]. intros ->. apply Hnf.
  destruct HT as (_ & _ & fp0 & -> & _). left. reflexivity.
Qed.

(** Descending into the child found for [c]: the child subtree is separated from a larger
    context (the value of the node and the sibling subtrees join it), and whatever a walk
    makes of the child, re-linked at its position, gives the node back with the walk's
    effect on the child slot. *)
Lemma descend_sep a idx p ov cs fp R c pos i :
  SepAt a idx (Node p ov cs) fp R -> sorted_f cs = true ->
  find_child c (an_ch (node_at a idx)) 0 = Some (pos, i) ->
  exists ti fpi R',
    SepAt a i ti fpi R' /\ parent_ok a (Some (idx, pos)) i fpi
    /\ (wfb_f cs = true -> wfb ti = true)
    /\ (forall (B : Type) (g : nat -> B) k, lookup_f c k (tmap_f g cs) = lookup k (tmap g ti))
    /\ forall a' i' ti' fpi',
         Grow a (Some (idx, pos)) fpi R' a' i' ti' fpi' -> plink a a' (Some (idx, pos)) i i' ->
         exists cs' fp',
           Grow a None fp R a' idx (Node p ov cs') fp'
           /\ (forall e, In e (tentries ti') -> In e (tentries (Node p ov cs')))
           /\ (forall k v, tmap (a_with_entry a') ti' = insert k v (tmap (a_with_entry a) ti) ->
                 tmap (a_with_entry a') (Node p ov cs')
                 = Node p (option_map (a_with_entry a) ov) (insert_f c k v (tmap_f (a_with_entry a) cs)))
           /\ (tmap (a_with_entry a') ti' = tmap (a_with_entry a) ti ->
               tmap (a_with_entry a') (Node p ov cs') = tmap (a_with_entry a) (Node p ov cs)).
Proof.
  intros ((Ep & Ev & fp0 & -> & HTF) & Hnd & Hb & HS) Hsorted FC.
  apply NoDup_cons_iff in Hnd. destruct Hnd as (Ni & Nd0).
  pose proof (Forall_inv Hb) as Hidx. cbn beta in Hidx. pose proof (Forall_inv_tail Hb) as Hb0.
  assert (Hlt : forall j, In j fp0 -> j < length (a_nodes a)) by (rewrite Forall_forall in Hb0; exact Hb0).
  destruct (TrF_find a c cs _ fp0 0 pos i HTF Hsorted FC) as (_ & ti & fpi & rest & erest & Ti & P1 & P2 & SC & LK & WF & K).
  rewrite Nat.sub_0_r in SC, K.
  set (ove := match ov with Some e => [e] | None => [] end).
  set (R' := ove ++ erest ++ R).
  pose proof (Permutation_NoDup P1 Nd0) as NdP. apply nd_app in NdP. destruct NdP as (Ndi & Ndr & Ndd).
  pose proof (Permutation_Forall P1 Hb0) as BP. apply Forall_app in BP. destruct BP as (Hbi & _).
  assert (Hrest : forall j, In j rest -> In j fp0) by (intros j Hj; apply (Permutation_in _ (Permutation_sym P1)); apply in_or_app; right; exact Hj).
  assert (Hfpi : forall j, In j fpi -> In j fp0) by (intros j Hj; apply (Permutation_in _ (Permutation_sym P1)); apply in_or_app; left; exact Hj).
  assert (PE : forall X Y, Permutation (fentries X) (tentries Y ++ erest) ->
               Permutation (tentries (Node p ov X) ++ R) (tentries Y ++ R')).
  { intros X Y PXY. unfold R'. cbn [tentries]. fold ove. rewrite <- app_assoc. rewrite PXY. rewrite <- app_assoc. apply Permutation_app_swap_app. }
  exists ti, fpi, R'.
  split. { split; [exact Ti|]. split; [exact Ndi|]. split; [exact Hbi|]. apply (ESep_perm a _ _ (PE cs ti P2)). exact HS. }
  split. { split; [exact Hidx|]. intros X. exact (Ni (Hfpi _ X)). }
  split; [exact WF|]. split; [exact LK|].
  intros a' i' ti' fpi' ((Ti' & Ndi' & Bi' & Si) & Di' & Lni & Fri & WRi) (_ & Pi).
  destruct (K a' i' ti' fpi' Ti') as (f' & fp'' & TF' & Q1 & Q2 & Q3 & Q4).
  { intros j Hj. apply Fri; [apply Hlt, Hrest, Hj | intros X; exact (Ndd j X Hj) |].
    cbn [not_parent]. intros ->. exact (Ni (Hrest _ Hj)). }
  assert (NI : an_path (node_at a' idx) = p /\ an_val (node_at a' idx) = ov
               /\ an_ch (node_at a' idx) = set_child_index pos i' (an_ch (node_at a idx))).
  { rewrite Pi. destruct (Nat.eqb_spec i' i) as [->|]; [rewrite SC; auto|]. cbn [with_children an_path an_val an_ch]. auto. }
  destruct NI as (A1 & A2 & A3).
  assert (Hx : forall j, In j fp'' -> (In j fp0 \/ length (a_nodes a) <= j) /\ j < length (a_nodes a')).
  { intros j Hj. apply (Permutation_in _ Q1) in Hj. apply in_app_or in Hj. rewrite Forall_forall in Bi'. destruct Hj as [Y|Y].
    - split; [|exact (Bi' _ Y)]. destruct (Di' _ Y) as [Z|Z]; [left; exact (Hfpi _ Z) | right; exact Z].
    - split; [left; exact (Hrest _ Y) | specialize (Hlt _ (Hrest _ Y)); lia]. }
  exists f', (idx :: fp'').
  split.
  { split.
    { split; [apply (Tr_node a' idx _ p ov f' fp'' eq_refl A1 A2); rewrite A3; exact TF'|].
      split. { constructor.
               - intros X. destruct (Hx _ X) as ([Y|Y] & _); [exact (Ni Y) | lia].
               - apply (Permutation_NoDup (Permutation_sym Q1)). apply nd_app. split; [exact Ndi'|]. split; [exact Ndr|].
                 intros x Hx' Hr. destruct (Di' _ Hx') as [Z|Z]; [exact (Ndd x Z Hr) | specialize (Hlt _ (Hrest _ Hr)); lia]. }
      split. { constructor; [lia|]. rewrite Forall_forall. intros j Hj. apply Hx, Hj. }
      apply (ESep_perm a' _ _ (Permutation_sym (PE f' ti' Q2))). exact Si. }
    split. { intros j [<-|Hj]; [left; left; reflexivity|]. destruct (Hx _ Hj) as ([Y|Y] & _); [left; right; exact Y | right; exact Y]. }
    split; [exact Lni|].
    split. { intros j Hj Hnf _. apply Fri; [exact Hj | intros X; apply Hnf; right; exact (Hfpi _ X) |].
             cbn [not_parent]. intros ->. apply Hnf. left. reflexivity. }
    intros x Hx'. apply WRi. unfold R'. apply in_or_app. right. apply in_or_app. right. exact Hx'. }
  assert (Wov : option_map (a_with_entry a') ov = option_map (a_with_entry a) ov).
  { destruct ov as [e1|]; [|reflexivity]. cbn [option_map]. f_equal. apply WRi. left. reflexivity. }
  assert (Wer : forall e, In e erest -> a_with_entry a' e = a_with_entry a e).
  { intros e He. apply WRi. unfold R'. apply in_or_app. right. apply in_or_app. left. exact He. }
  split. { intros e He. cbn [tentries]. apply in_or_app. right. apply (Permutation_in _ (Permutation_sym Q2)).
           apply in_or_app. left. exact He. }
  split.
  - intros k v Vi. cbn [tmap]. rewrite Wov. f_equal. exact (Q3 _ (a_with_entry a) (a_with_entry a') k v Vi Wer).
  - intros Vi. cbn [tmap]. rewrite Wov. f_equal. exact (Q4 _ (a_with_entry a) (a_with_entry a') Vi Wer).
Qed.

Lemma ins_leaf a g idx k v p ov cs fp R c k' :
  SepAt a idx (Node p ov cs) fp R -> follow_stem k p = FStemIsPrefix c k' ->
  find_child c (an_ch (node_at a idx)) 0 = None ->
  let n := node_at a idx in
  let a2 := set_node a idx (with_children n (insert_child c (length (a_nodes a)) (an_ch n))) in
  let a' := push_node (fst (new_entry a2 v)) (mkAN g (Some (length (a_entries a))) k' g []) in
  exists cs' fp',
    Grow a None fp R a' idx (Node p ov cs') fp'
    /\ tmap (a_with_entry a') (Node p ov cs') = insert k (Some v) (tmap (a_with_entry a) (Node p ov cs))
    /\ a_with_entry a' (length (a_entries a)) = Some v
    /\ lookup k (tmap (a_with_entry a) (Node p ov cs)) = None.
Proof.
  intros HA HF FC n a2. cbn [new_entry fst]. pose proof HA as (T1 & N1 & B1 & _).
  pose proof T1 as (Ep1 & Ev1 & fp0 & -> & HTF1).
  apply NoDup_cons_iff in N1. destruct N1 as (Ni1 & _). rewrite Forall_forall in B1.
  set (L := length (a_nodes a)) in *. change (a_values a2) with (a_values a).
  set (Le := length (a_entries a)). set (leaf := mkAN g (Some Le) k' g []). set (a' := push_node _ leaf).
  destruct (pushed_table a a' idx (with_children n (insert_child c L (an_ch n))) [leaf] eq_refl (B1 idx (or_introl eq_refl)))
    as (La & Nidx & Nold & Nnew).
  destruct (TrF_add a a' c L (Node k' (Some Le) FNil) cs _ fp0 0 HTF1 FC) as (f' & fp'' & TF' & P1 & P2 & V1).
  { intros j Hj. apply Nold; [apply B1; right; exact Hj | intros ->; exact (Ni1 Hj)]. }
  { apply (Tr_leaf a' L leaf _ _ (Nnew 0)); reflexivity. }
  assert (T' : Tr a' idx (Node p ov f') (idx :: fp''))
    by exact (Tr_node a' idx _ p ov f' fp'' Nidx (eq_sym Ep1) (eq_sym Ev1) TF').
  destruct (Grow_pushed a None idx _ _ R a' v 1 idx _ _ HA eq_refl eq_refl La (fun j Hj Hne _ => Nold j Hj Hne) T')
    as (G & W3 & Wt).
  { rewrite P1. apply perm_swap. }
  { cbn [tentries]. rewrite P2. cbn [tentries fentries app]. symmetry. apply Permutation_middle. }
  fold Le in W3. exists f', (idx :: fp''). split; [exact G|].
  split. { cbn [tmap]. rewrite insert_node, HF. f_equal.
           - destruct ov as [e1|]; [|reflexivity]. cbn [option_map]. f_equal. apply Wt. left. reflexivity.
           - apply (V1 _ (a_with_entry a) (a_with_entry a') k' (Some v)).
             + cbn [tmap option_map tmap_f]. rewrite W3. reflexivity.
             + intros e1 He1. apply Wt. cbn [tentries]. apply in_or_app. right. exact He1. }
  split; [exact W3|].
  cbn [tmap]. rewrite lookup_node', HF. exact (TrF_notfound a c cs _ fp0 0 HTF1 FC _ _ _).
Qed.

Theorem ins_loop : forall fuel a g idx parent k v t fp R,
  length k < fuel -> SepAt a idx t fp R -> wfb t = true -> parent_ok a parent idx fp ->
  InsPost a parent idx k v t fp R (ar_insert_loop fuel a g idx parent k v).
Proof.
  induction fuel as [|f IH]; intros a g idx parent k v t fp R Hk HA Hwf HP; [lia|].
  destruct t as [p ov cs]. pose proof HA as ((Ep & Ev & _) & _).
  cbn [ar_insert_loop]. rewrite <- Ep.
  destruct (follow_stem k p) as [|s ps|c k'|cm kc kr sc sr] eqn:HF.
  - rewrite <- Ev. apply ins_equal; assumption.
  - apply ins_keyprefix; assumption.
  - destruct (mo_grow a idx p ov cs fp R HA Hwf) as (ov1 & cs1 & fp1 & G1 & W1 & Hg1 & Hwff & Hsorted).
    set (a1 := make_owned a idx) in *.
    pose proof G1 as (A1 & _).
    destruct (find_child c (an_ch (node_at a1 idx)) 0) as [[pos i]|] eqn:FC.
    + destruct (descend_sep a1 idx p ov1 cs1 fp1 R c pos i A1 Hsorted FC) as (ti & fpi & R' & Ai & HPi & WF & LK & K).
      assert (Hk' : length k' < f) by (pose proof (follow_stem_shorter k p c k' HF); lia).
      pose proof (IH a1 g i (Some (idx, pos)) k' v ti fpi R' Hk' Ai (WF Hwff) HPi) as IHr.
      destruct (ar_insert_loop f a1 g i (Some (idx, pos)) k' v) as [[a' e] existed]. cbn [InsPost] in IHr |- *.
      destruct IHr as (i' & ti' & fpi' & Gi & Pli & Vi & Wei & Exi).
      destruct (K a' i' ti' fpi' Gi Pli) as (cs' & fp' & G' & _ & Vins & _).
      pose proof (Grow_trans _ _ _ _ _ _ _ _ _ _ _ _ G1 G') as G.
      exists idx, (Node p ov1 cs'), fp'.
      split; [exact (Grow_weaken _ _ _ _ _ _ _ _ G)|].
      split. { apply (plink_same a a' parent idx fp HP); [rewrite (proj1 Pli); exact Hg1 | exact (Grow_frame _ _ _ _ _ _ _ G)]. }
      split. { rewrite <- W1. cbn [tmap]. rewrite insert_node, HF. exact (Vins k' (Some v) Vi). }
      split; [exact Wei|].
      rewrite <- W1. cbn [tmap]. rewrite lookup_node', HF, LK. exact Exi.
    + destruct (ins_leaf a1 g idx k v p ov1 cs1 fp1 R c k' A1 HF FC) as (cs' & fp' & G' & V' & We & Lk).
      pose proof (Grow_trans _ _ _ _ _ _ _ _ _ _ _ _ G1 G') as G.
      cbn [new_entry InsPost]. set (a' := push_node _ _). exists idx, (Node p ov1 cs'), fp'.
      split; [exact (Grow_weaken _ _ _ _ _ _ _ _ G)|].
      split; [exact (plink_same a a' parent idx fp HP Hg1 (Grow_frame _ _ _ _ _ _ _ G))|].
      split; [rewrite <- W1; exact V'|]. split; [exact We|]. rewrite <- W1, Lk. reflexivity.
  - apply ins_diff; assumption.
Qed.

Definition Sep (a : arena) : Prop :=
  a_gens a <> [] /\
  match cur_root a with
  | None => True
  | Some r => exists t fp, Tr a r t fp /\ NoDup fp /\ Forall (fun j => j < length (a_nodes a)) fp
                           /\ wfb t = true /\ ESep a (tentries t)
  end.

Lemma ESep_nil a : ESep a [].
Proof. split; [constructor|]. split; [constructor|]. split; [intros x i []| intros x y i []]. Qed.

Lemma Sep_empty : Sep a_empty.
Proof. split; [discriminate | exact I]. Qed.

Definition rview (d : nat) (a : arena) : option (tree (option value)) :=
  option_map (vview d a) (cur_root a).

Theorem insert_refines a key v :
  Sep a ->
  let '(a', e, existed) := ar_insert a key v in
  Sep a' /\ a_with_entry a' e = Some v
  /\ exists r', cur_root a' = Some r'
  /\ exists D, forall d, D <= d ->
       vview d a' r' = insert_root (nib key) (Some v) (rview d a)
       /\ existed = is_some (lookup_root (nib key) (rview d a)).
Proof.
  intros (Hne & HS). unfold ar_insert, rview. destruct (cur_root a) as [r|] eqn:Er.
  - destruct HS as (t & fp & HT & Hnd & Hb & Hwf & HE).
    assert (HA : SepAt a r t fp []) by (split; [exact HT|]; split; [exact Hnd|]; split; [exact Hb|]; rewrite app_nil_r; exact HE).
    pose proof (ins_loop (S (length (nib key))) a (an_gen (node_at a r)) r None (nib key) v t fp []
                         (Nat.lt_succ_diag_r _) HA Hwf Er) as P.
    destruct (ar_insert_loop (S (length (nib key))) a (an_gen (node_at a r)) r None (nib key) v) as [[a' e] existed].
    cbn [InsPost] in P. destruct P as (r' & t' & fp' & ((T' & Nd' & B' & S') & _) & Pl & V' & We & Ex).
    cbn [plink] in Pl. rewrite app_nil_r in S'.
    assert (Hwf' : wfb t' = true).
    { rewrite <- (wfb_tmap (a_with_entry a')), V'. apply wfb_insert. rewrite wfb_tmap. exact Hwf. }
    split. { split; [eapply cur_root_gens; exact Pl|]. rewrite Pl. exists t', fp'. auto. }
    split; [exact We|]. exists r'. split; [exact Pl|]. exists (Nat.max (theight t) (theight t')).
    intros d Hd. cbn [option_map insert_root lookup_root].
    rewrite (Tr_vview a' t' r' fp' d T') by lia. rewrite (Tr_vview a t r fp d HT) by lia. auto.
  - cbn [new_entry]. set (Le := length (a_entries a)). set (L := length (a_nodes a)).
    set (g := length (a_gens a) - 1).
    set (a2 := push_node _ (mkAN g (Some Le) (nib key) g [])).
    assert (Hne2 : a_gens a2 <> []) by exact Hne.
    destruct (set_root_shape a2 (Some L) Hne2) as (older & gg & _ & Eg' & En' & Ev' & Ee').
    set (a' := set_root a2 (Some L)) in *.
    destruct (new_entry_sep a v [] a' (ESep_nil a) Ee' Ev') as (S1 & W1 & _). fold Le in S1, W1.
    assert (Er' : cur_root a' = Some L) by (apply cur_root_set_root; exact Hne2).
    assert (NL : node_at a' L = mkAN g (Some Le) (nib key) g []).
    { rewrite (node_at_same_nodes a2 a' L En'). exact (node_at_push_eq _ _). }
    assert (T' : Tr a' L (Node (nib key) (Some Le) FNil) [L]) by (apply (Tr_leaf a' L _ _ _ NL); reflexivity).
    split. { split; [rewrite Eg'; intros X; apply app_eq_nil in X; destruct X; discriminate|]. rewrite Er'.
             exists (Node (nib key) (Some Le) FNil), [L]. split; [exact T'|]. split; [repeat constructor; intros []|].
             split; [constructor; [|constructor]; rewrite En'; unfold a2; rewrite length_push_node; apply le_n|].
             split; [reflexivity | exact S1]. }
    split; [exact W1|]. exists L. split; [exact Er'|]. exists 1. intros d Hd. cbn [option_map insert_root lookup_root is_some].
    rewrite (Tr_vview a' _ L [L] d T') by (cbn; lia). cbn [tmap tmap_f option_map]. rewrite W1. auto.
Qed.
