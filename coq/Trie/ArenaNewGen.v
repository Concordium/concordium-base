(** [new_generation] (a copy of the root with a fresh read-only entry, sharing the children, and a
    checkpoint) keeps the view and [Sep]; rollback restores the view.  That [Sep] holds for the
    saved states of a full history is not proved (design/C03.md). *)
From Coq Require Import NArith PeanoNat List Lia.
From CB Require Import Trie.Radix.
From CB Require Import Trie.Locks.
From CB Require Import Trie.LocksProofs.
From CB Require Import Trie.Arena.
From CB Require Import Trie.ArenaCow.
From CB Require Import Trie.ArenaTree.
From CB Require Import Trie.ArenaView.
From CB Require Import Trie.ArenaSep.
From CB Require Import Trie.ArenaInsert.
From CB Require Import Trie.ArenaEnt.
From CB Require Import Trie.ArenaHist.
Import ListNotations.
Local Open Scope nat_scope.

Theorem new_generation_refines a :
  Sep a ->
  let a' := a_new_generation a in
  Sep a' /\ length (a_gens a') = S (length (a_gens a))
  /\ exists D, forall d, D <= d -> rview d a' = rview d a.
Proof.
  intros (Hne & HS). unfold a_new_generation, rview. destruct (cur_root a) as [r|] eqn:Er.
  - destruct HS as (t & fp & HT & Hnd & Hb & Hwf & HE). destruct t as [p ov cs]. pose proof HT as (Ep & Ev & fp0 & Efp & HTF).
    set (root := node_at a r) in *. set (g' := S (an_gen root)).
    pose proof (mig_spec a root g') as M. destruct (migrate a root g') as [a1 n'].
    destruct M as (G1 & V1 & N1 & P1 & C1 & M).
    set (L := length (a_nodes a)). set (Le := length (a_entries a)) in *.
    set (ck := mkAG (Some L) L (length (a_values a)) Le).
    set (a' := mkA (a_gens (push_node a1 n') ++ [ck]) (a_entries (push_node a1 n')) (a_values (push_node a1 n')) (a_nodes (push_node a1 n'))).
    assert (Er' : cur_root a' = Some L) by (unfold a'; apply cur_root_app).
    assert (Na : a_nodes a' = a_nodes a ++ [n']) by (unfold a'; cbn [push_node a_nodes]; rewrite N1; reflexivity).
    assert (NL : node_at a' L = n') by (unfold node_at; rewrite Na; apply nth_middle).
    assert (Nold : forall j, j < L -> node_at a' j = node_at a j) by (intros j Hj; unfold node_at; rewrite Na, app_nth1 by exact Hj; reflexivity).
    assert (Va : a_values a' = a_values a) by exact V1.
    assert (Ea : exists es, a_entries a' = a_entries a ++ es).
    { change (a_entries a') with (a_entries a1). destruct (an_val root); destruct M as (M & _); [eexists; exact M | exists []; rewrite app_nil_r; exact M]. }
    destruct Ea as (es & Ea).
    assert (Hed : forall e, e < Le -> edat a' e = edat a e) by (intros e He; apply (edat_app1 a a' es e Ea He)).
    assert (Hw : forall e, e < Le -> a_with_entry a' e = a_with_entry a e).
    { intros e He. apply with_entry_frame; [apply Hed; exact He|]. intros i _. rewrite Va. reflexivity. }
    subst fp. apply NoDup_cons_iff in Hnd. destruct Hnd as (Ni & Nd0). pose proof (Forall_inv_tail Hb) as Hb0.
    assert (Hlt : forall j, In j fp0 -> j < L) by (rewrite Forall_forall in Hb0; exact Hb0).
    pose proof HE as (HE1 & HE2 & _). cbn [tentries] in HE1, HE2.
    apply Forall_app in HE2. destruct HE2 as (Hov & Hcs).
    assert (T' : Tr a' L (Node p (an_val n') cs) (L :: fp0)).
    { apply (Tr_node a' L n' p (an_val n') cs fp0 NL); [congruence | reflexivity|]. rewrite C1.
      apply (TrF_frame a a'); [exact HTF|]. intros j Hj. apply Nold. apply Hlt. exact Hj. }
    assert (Wcs : tmap_f (a_with_entry a') cs = tmap_f (a_with_entry a) cs).
    { apply (proj2 (tmap_ext_mut _ _)). intros e He. apply Hw. rewrite Forall_forall in Hcs. apply Hcs. exact He. }
    assert (Hval : match ov with
                   | Some e => an_val n' = Some Le /\ edat a' Le = ro (edat a e) /\ Le < length (a_entries a')
                   | None => an_val n' = None end).
    { rewrite Ev. fold root. destruct (an_val root) as [e|]; destruct M as (M1 & M2); [|exact M2].
      change (a_entries a') with (a_entries a1). rewrite M1, app_length. cbn [length]. split; [exact M2|]. split; [|lia].
      unfold edat at 1. change (a_entries a') with (a_entries a1). rewrite M1, app_nth2, Nat.sub_diag by (unfold Le; lia). reflexivity. }
    assert (V' : tmap (a_with_entry a') (Node p (an_val n') cs) = tmap (a_with_entry a) (Node p ov cs)).
    { cbn [tmap]. f_equal; [|exact Wcs]. destruct ov as [e|].
      - destruct Hval as (X1 & X2 & _). rewrite X1. cbn [option_map]. f_equal. rewrite !with_entry_edat, X2, eptr_ro, Va. reflexivity.
      - rewrite Hval. reflexivity. }
    split.
    { split; [unfold a'; intros X; apply app_eq_nil in X; destruct X; discriminate|]. rewrite Er'.
      exists (Node p (an_val n') cs), (L :: fp0). split; [exact T'|].
      split; [constructor; [intros X; specialize (Hlt _ X); lia | exact Nd0]|].
      split; [rewrite Na, app_length; cbn [length]; fold L; constructor; [lia|]; eapply Forall_impl; [|exact Hb0]; cbn beta; intros; lia|].
      split; [exact (wfb_tmap_eq _ _ _ _ V' Hwf)|].
      apply (ESep_ren a a' (tentries (Node p ov cs)) _ HE); auto.
      - cbn [tentries]. apply Forall2_app; [|apply eren_refl_list]. destruct ov as [e|].
        + destruct Hval as (X1 & X2 & X3). rewrite X1. constructor; [|constructor]. right. fold Le. split; [lia | exact X2].
        + rewrite Hval. constructor.
      - cbn [tentries]. apply nd_app in HE1. destruct HE1 as (Y1 & Y2 & Y3). apply nd_app. split; [|split; [exact Y2|]].
        + destruct (an_val n'); constructor; [intros [] | constructor].
        + intros x Hx Hx'. destruct ov as [e|]; [destruct Hval as (X1 & _); rewrite X1 in Hx | rewrite Hval in Hx; contradiction].
          destruct Hx as [<-|[]]. rewrite Forall_forall in Hcs. specialize (Hcs _ Hx'). lia.
      - rewrite Ea, app_length. fold Le. lia. }
    split; [unfold a'; cbn [push_node a_gens]; rewrite app_length, G1; cbn; lia|].
    exists (Nat.max (theight (Node p ov cs)) (theight (Node p (an_val n') cs))). intros d Hd. rewrite Er'. cbn [option_map]. f_equal.
    rewrite (Tr_vview a' _ L _ d T') by lia. rewrite (Tr_vview a _ r _ d HT) by lia. exact V'.
  - destruct (a_gens a) as [|g0 gs] eqn:Eg; [congruence|]. rewrite <- Eg.
    set (a' := mkA (a_gens a ++ [_]) (a_entries a) (a_values a) (a_nodes a)).
    assert (Er' : cur_root a' = None) by (unfold a'; apply cur_root_app).
    split; [split; [unfold a'; intros X; apply app_eq_nil in X; destruct X; discriminate | rewrite Er'; exact I]|].
    split; [unfold a'; cbn [a_gens]; rewrite app_length; cbn; lia|]. exists 0. intros d _. rewrite Er'. reflexivity.
Qed.

(** Non-vacuity: after a checkpoint the root is a copy with a fresh read-only entry; the
    view is the same. *)
Example new_generation_example :
  let a := fst (fst (ar_insert (fst (fst (ar_insert a_empty [18%N] [1%N]))) [19%N] [2%N])) in
  exists r r', cur_root a = Some r /\ cur_root (a_new_generation a) = Some r' /\ r' <> r
    /\ rview 3 (a_new_generation a) = rview 3 a.
Proof. eexists. eexists. vm_compute. repeat split; try discriminate. Qed.

(** Value-level machine with a generation counter: a checkpoint keeps the tree, restarts the
    handle numbering and reports the number of generations. *)
Definition rstate2 := (rstate * nat)%type.

Definition r2_step (o : op) (s : rstate2) : rstate2 * out :=
  match o with
  | ONewGen => (((fst (fst s), 0), S (snd s)), RGens (S (snd s)))
  | _ => ((fst (r_step o (fst s)), snd s), snd (r_step o (fst s)))
  end.

Definition r2_init : rstate2 := (r_init, 1).

Fixpoint r2_outs (ops : list op) (s : rstate2) : list out :=
  match ops with [] => [] | o :: r => let (s', x) := r2_step o s in x :: r2_outs r s' end.
Definition r2_run (ops : list op) (s : rstate2) : rstate2 := fold_left (fun s o => fst (r2_step o s)) ops s.

Definition ins_get_new_op (o : op) : bool :=
  match o with OInsert _ _ | OGet _ | ONewGen => true | _ => false end.

Definition SimR2 (s : astate) (rs : rstate2) : Prop :=
  ReachE s /\ SimR s (fst rs) /\ snd rs = length (a_gens (as_arena s)).

Lemma SimR2_init : SimR2 as_init r2_init.
Proof. split; [exact ReachE_init|]. split; [exact SimR_init | reflexivity]. Qed.

Lemma SimR2_step o s rs :
  ins_get_new_op o = true -> SimR2 s rs ->
  SimR2 (fst (as_step o s)) (fst (r2_step o rs)) /\ snd (as_step o s) = snd (r2_step o rs).
Proof.
  intros Ho (HR & HS & Hg).
  assert (Plain : forall o', gen_op o' = false -> ins_get_op o' = true ->
            SimR2 (fst (as_step o' s)) (fst (r_step o' (fst rs)), snd rs) /\ snd (as_step o' s) = snd (r_step o' (fst rs))).
  { intros o' G I. destruct (SimR_step o' s (fst rs) I HS) as (S1 & Eo). split; [|exact Eo].
    split; [apply ReachE_step; exact HR|]. split; [exact S1|]. cbn [snd].
    destruct (as_step_cow o' s (proj1 HR) G) as ((_ & B & _) & _). rewrite (B_glen _ _ B). exact Hg. }
  destruct o; try discriminate Ho.
  - apply (Plain (OInsert k v)); reflexivity.
  - apply (Plain (OGet k)); reflexivity.
  - cbn [as_step r2_step fst snd]. destruct HS as (HSep & Hh & D & HD).
    destruct (new_generation_refines (as_arena s) HSep) as (S1 & Lg & D' & HD').
    split; [|rewrite Lg, Hg; reflexivity].
    split; [exact (ReachE_step ONewGen s HR)|]. split; [|cbn [as_arena snd]; rewrite Lg, Hg; reflexivity].
    split; [exact S1|]. split; [reflexivity|]. exists (Nat.max D D'). intros d Hd. cbn [as_arena fst].
    rewrite HD' by lia. apply HD. lia.
Qed.

Theorem arena_insert_lookup_newgen_history ops :
  forallb ins_get_new_op ops = true ->
  as_outs ops as_init = r2_outs ops r2_init
  /\ Sep (as_arena (as_run ops as_init))
  /\ exists D, forall d, D <= d ->
       rview d (as_arena (as_run ops as_init)) = fst (fst (r2_run ops r2_init)).
Proof.
  intros Hf. destruct (sim_run rstate2 r2_step ins_get_new_op SimR2 SimR2_step ops as_init r2_init Hf SimR2_init) as (H1 & _ & (H2 & _ & H3) & _).
  split; [exact H1|]. split; [exact H2 | exact H3].
Qed.

Example newgen_history_example :
  let ops := [OInsert [18%N; 52%N] [1%N]; OInsert [18%N; 63%N] [2%N]; ONewGen; OGet [18%N; 63%N];
              OInsert [18%N; 52%N] [3%N]; ONewGen; OInsert [18%N] [4%N]; OGet [18%N; 52%N]] in
  forallb ins_get_new_op ops = true
  /\ as_outs ops as_init =
     [RHandle 0 false; RHandle 1 false; RGens 2; RFound 0 (Some [2%N]); RHandle 1 true; RGens 3;
      RHandle 0 false; RFound 1 (Some [3%N])].
Proof. vm_compute. split; reflexivity. Qed.

(** * Rollback restores the view (corollary of [ArenaTree.arena_rollback_run])

    For every reachable state, a checkpoint followed by ANY operations that do not roll back
    below it (inserts, sets, deletes with collapses, delete_prefix, nested checkpoints and
    rollbacks) and a rollback to the checkpoint gives back the arena literally; hence the view
    of the older generation at every depth, and [Sep] if it held. *)
Theorem rollback_restores_view pre ops d :
  let s := as_run pre as_init in
  Forall (keeps (length (a_gens (as_arena s)))) ops ->
  let s' := as_run (ONewGen :: ops ++ [ONormalize (length (a_gens (as_arena s)) - 1)]) s in
  rview d (as_arena s') = rview d (as_arena s)
  /\ (forall j, vview d (as_arena s') j = vview d (as_arena s) j)
  /\ (Sep (as_arena s) -> Sep (as_arena s')).
Proof.
  intros s Hk s'. subst s'. subst s. pose proof (arena_rollback_run pre ops Hk) as E. cbv zeta in E. rewrite E. auto.
Qed.
