(** Lemmas about [Radix.v]: the radix tree denotes a strictly sorted association list,
    and every operation is the corresponding operation of the ordered map. *)
From Coq Require Import NArith PeanoNat List Bool Lia Sorted.
From CB Require Import Trie.Radix.
Import ListNotations.
Local Open Scope N_scope.

Lemma list_eqb_spec a b : list_eqb a b = true <-> a = b.
Proof.
  revert b. induction a as [|x a IH]; intros [|y b]; cbn; try (split; congruence).
  rewrite andb_true_iff, N.eqb_eq, IH. split; [intros [-> ->]; reflexivity | intros H; inversion H; auto].
Qed.

Lemma list_eqb_refl a : list_eqb a a = true.
Proof. apply list_eqb_spec. reflexivity. Qed.

Lemma list_eqb_neq a b : list_eqb a b = false <-> a <> b.
Proof.
  split.
  - intros H E. apply list_eqb_spec in E. congruence.
  - intros H. destruct (list_eqb a b) eqn:E; [apply list_eqb_spec in E; contradiction | reflexivity].
Qed.

Lemma list_eqb_sym a b : list_eqb a b = list_eqb b a.
Proof.
  destruct (list_eqb a b) eqn:E.
  - apply list_eqb_spec in E. subst. symmetry. apply list_eqb_refl.
  - symmetry. apply list_eqb_neq. apply list_eqb_neq in E. congruence.
Qed.

Lemma is_prefix_spec p k : is_prefix p k = true <-> exists r, k = p ++ r.
Proof.
  revert k. induction p as [|x p IH]; intros k; cbn.
  - split; [intros _; exists k; reflexivity | reflexivity].
  - destruct k as [|y k].
    + split; [discriminate | intros [r H]; discriminate].
    + rewrite andb_true_iff, N.eqb_eq, IH. split.
      * intros [-> [r ->]]. exists r. reflexivity.
      * intros [r H]. inversion H. subst. split; [reflexivity | exists r; reflexivity].
Qed.

Lemma is_prefix_app p r : is_prefix p (p ++ r) = true.
Proof. apply is_prefix_spec. exists r. reflexivity. Qed.

Lemma is_prefix_refl p : is_prefix p p = true.
Proof. apply is_prefix_spec. exists []. rewrite app_nil_r. reflexivity. Qed.

Lemma is_prefix_nil k : is_prefix [] k = true.
Proof. reflexivity. Qed.

Lemma is_prefix_app_l p a b : is_prefix (p ++ a) (p ++ b) = is_prefix a b.
Proof. induction p as [|x p IH]; cbn; [reflexivity|]. rewrite N.eqb_refl. exact IH. Qed.

Lemma is_prefix_trans a b c : is_prefix a b = true -> is_prefix b c = true -> is_prefix a c = true.
Proof.
  rewrite !is_prefix_spec. intros [r ->] [s ->]. exists (r ++ s). rewrite app_assoc. reflexivity.
Qed.

Lemma is_prefix_comparable a b k :
  is_prefix a k = true -> is_prefix b k = true -> is_prefix a b = true \/ is_prefix b a = true.
Proof.
  revert b k. induction a as [|x a IH]; intros b k Ha Hb; [left; reflexivity|].
  destruct b as [|y b]; [right; reflexivity|].
  destruct k as [|z k]; [discriminate|]. cbn in *.
  apply andb_true_iff in Ha as [Hx Ha]. apply andb_true_iff in Hb as [Hy Hb].
  apply N.eqb_eq in Hx, Hy. subst.
  rewrite N.eqb_refl. cbn. eapply IH; eassumption.
Qed.

Lemma lex_ltb_irrefl a : lex_ltb a a = false.
Proof. induction a as [|x a IH]; cbn; [reflexivity|]. rewrite N.ltb_irrefl, N.eqb_refl. exact IH. Qed.

Lemma lex_ltb_trans a b c : lex_ltb a b = true -> lex_ltb b c = true -> lex_ltb a c = true.
Proof.
  revert b c. induction a as [|x a IH]; intros [|y b] [|z c]; cbn; try congruence.
  destruct (N.ltb_spec x y), (N.ltb_spec y z), (N.ltb_spec x z); try reflexivity; try lia;
    destruct (N.eqb_spec x y), (N.eqb_spec y z), (N.eqb_spec x z); try congruence; try lia.
  apply IH.
Qed.

Lemma lex_ltb_total a b : lex_ltb a b = false -> lex_ltb b a = false -> a = b.
Proof.
  revert b. induction a as [|x a IH]; intros [|y b]; cbn; try congruence.
  destruct (N.ltb_spec x y), (N.ltb_spec y x); try congruence; try lia.
  destruct (N.eqb_spec x y), (N.eqb_spec y x); try congruence; try lia.
  intros. f_equal; auto.
Qed.

Lemma lex_ltb_asym a b : lex_ltb a b = true -> lex_ltb b a = false.
Proof.
  intros H. destruct (lex_ltb b a) eqn:E; [|reflexivity].
  pose proof (lex_ltb_trans _ _ _ H E) as X. rewrite lex_ltb_irrefl in X. discriminate.
Qed.

Lemma lex_ltb_app p a b : lex_ltb (p ++ a) (p ++ b) = lex_ltb a b.
Proof. induction p as [|x p IH]; cbn; [reflexivity|]. rewrite N.ltb_irrefl, N.eqb_refl. exact IH. Qed.

Lemma lex_ltb_nil_cons x a : lex_ltb [] (x :: a) = true.
Proof. reflexivity. Qed.

Lemma lex_ltb_cons_lt x y a b : x < y -> lex_ltb (x :: a) (y :: b) = true.
Proof. intros H. cbn. destruct (N.ltb_spec x y); [reflexivity | lia]. Qed.

Lemma lor_low_add a b k : b < 2 ^ k -> N.lor (a * 2 ^ k) b = a * 2 ^ k + b.
Proof.
  intros Hb.
  assert (Hl : N.land (a * 2 ^ k) b = 0).
  { apply N.bits_inj. intros n. rewrite N.land_spec, N.bits_0.
    destruct (N.lt_ge_cases n k) as [Hn|Hn].
    - rewrite N.mul_pow2_bits_low by exact Hn. reflexivity.
    - rewrite <- (N.mod_small b (2 ^ k) Hb), N.mod_pow2_bits_high by exact Hn. apply andb_false_r. }
  rewrite <- N.lxor_lor by exact Hl. symmetry. apply N.add_nocarry_lxor. exact Hl.
Qed.

Lemma nib_digits b : b = 16 * (b / 16) + b mod 16.
Proof. apply N.div_mod'. Qed.

Lemma mk_div h l : l < 16 -> (16 * h + l) / 16 = h.
Proof. intros H. rewrite N.mul_comm, N.div_add_l by lia. rewrite N.div_small by assumption. lia. Qed.

Lemma mk_mod h l : l < 16 -> (16 * h + l) mod 16 = l.
Proof. intros H. rewrite N.add_comm, N.mul_comm, N.mod_add by lia. apply N.mod_small. assumption. Qed.

Lemma nib_byte_inj a b : a / 16 = b / 16 -> a mod 16 = b mod 16 -> a = b.
Proof. intros H1 H2. rewrite (nib_digits a), (nib_digits b), H1, H2. reflexivity. Qed.

Lemma nib_byte_eqb x y : (x / 16 =? y / 16) && (x mod 16 =? y mod 16) = (x =? y).
Proof.
  destruct (N.eqb_spec x y) as [->|Hn]; [rewrite !N.eqb_refl; reflexivity|].
  destruct (N.eqb_spec (x / 16) (y / 16)); [|reflexivity].
  destruct (N.eqb_spec (x mod 16) (y mod 16)); [|reflexivity].
  exfalso. apply Hn. apply nib_byte_inj; assumption.
Qed.

Lemma nib_eqb a b : list_eqb (nib a) (nib b) = list_eqb a b.
Proof.
  revert b. induction a as [|x a IH]; intros [|y b]; cbn; try reflexivity.
  rewrite IH, andb_assoc, nib_byte_eqb. reflexivity.
Qed.

Lemma nib_inj a b : nib a = nib b -> a = b.
Proof. intros H. apply list_eqb_spec. rewrite <- nib_eqb. apply list_eqb_spec. exact H. Qed.

Lemma nib_prefix a b : is_prefix (nib a) (nib b) = is_prefix a b.
Proof.
  revert b. induction a as [|x a IH]; intros [|y b]; cbn; try reflexivity.
  rewrite IH, andb_assoc, nib_byte_eqb. reflexivity.
Qed.

Lemma nib_byte_lex x y :
  (if x / 16 <? y / 16 then true
   else if x / 16 =? y / 16 then
          if x mod 16 <? y mod 16 then true else if x mod 16 =? y mod 16 then false else false
        else false) = (x <? y).
Proof.
  pose proof (nib_digits x) as Hx. pose proof (nib_digits y) as Hy.
  pose proof (N.mod_lt x 16 ltac:(lia)) as Mx. pose proof (N.mod_lt y 16 ltac:(lia)) as My.
  generalize dependent (x / 16). generalize dependent (x mod 16).
  generalize dependent (y / 16). generalize dependent (y mod 16).
  intros yl My yh Hy xl Mx xh Hx.
  destruct (N.ltb_spec xh yh), (N.eqb_spec xh yh), (N.ltb_spec xl yl), (N.eqb_spec xl yl),
    (N.ltb_spec x y); try reflexivity; lia.
Qed.

Lemma nib_lex a b : lex_ltb (nib a) (nib b) = lex_ltb a b.
Proof.
  revert b. induction a as [|x a IH]; intros [|y b]; cbn; try reflexivity.
  rewrite IH.
  destruct (N.eqb_spec x y) as [->|Hn].
  - rewrite !N.ltb_irrefl, !N.eqb_refl. reflexivity.
  - rewrite <- (nib_byte_lex x y).
    destruct (x / 16 <? y / 16); [reflexivity|].
    destruct (N.eqb_spec (x / 16) (y / 16)) as [E|E]; [|reflexivity].
    destruct (x mod 16 <? y mod 16); [reflexivity|].
    destruct (N.eqb_spec (x mod 16) (y mod 16)) as [E2|E2]; [|reflexivity].
    exfalso. apply Hn. apply nib_byte_inj; assumption.
Qed.

Lemma unnib_nib a : unnib (nib a) = a.
Proof.
  induction a as [|x a IH]; cbn; [reflexivity|]. rewrite IH. f_equal.
  symmetry. apply nib_digits.
Qed.

Fixpoint strip (p k : list N) : option (list N) :=
  match p, k with
  | [], _ => Some k
  | x :: p', y :: k' => if x =? y then strip p' k' else None
  | _ :: _, [] => None
  end.

Lemma strip_spec p k r : strip p k = Some r <-> k = p ++ r.
Proof.
  revert k. induction p as [|x p IH]; intros k; cbn.
  - split; [intros H; inversion H; reflexivity | intros ->; reflexivity].
  - destruct k as [|y k]; [split; discriminate|].
    destruct (N.eqb_spec x y) as [->|Hn].
    + rewrite IH. split; [intros ->; reflexivity | intros H; inversion H; reflexivity].
    + split; [discriminate | intros H; inversion H; congruence].
Qed.

Lemma strip_app_same p r : strip p (p ++ r) = Some r.
Proof. apply strip_spec. reflexivity. Qed.

Lemma strip_refl p : strip p p = Some [].
Proof. apply strip_spec. rewrite app_nil_r. reflexivity. Qed.

Lemma strip_app a b k :
  strip (a ++ b) k = match strip a k with None => None | Some r => strip b r end.
Proof.
  revert k. induction a as [|x a IH]; intros k; cbn; [reflexivity|].
  destruct k as [|y k]; [reflexivity|]. destruct (x =? y); [apply IH | reflexivity].
Qed.

Lemma strip_none_prefix p k : strip p k = None <-> is_prefix p k = false.
Proof.
  revert k. induction p as [|x p IH]; intros k; cbn; [split; discriminate|].
  destruct k as [|y k]; [split; reflexivity|].
  destruct (x =? y); cbn; [apply IH | split; reflexivity].
Qed.

Lemma strip_some_prefix p k r : strip p k = Some r -> is_prefix p k = true.
Proof. intros H. apply strip_spec in H. subst. apply is_prefix_app. Qed.

Lemma follow_stem_spec k p :
  match follow_stem k p with
  | FEqual => k = p
  | FKeyIsPrefix s ps => p = k ++ s :: ps
  | FStemIsPrefix c k' => k = p ++ c :: k'
  | FDiff cm kc kr sc sr => k = cm ++ kc :: kr /\ p = cm ++ sc :: sr /\ kc <> sc
  end.
Proof.
  revert p. induction k as [|c ks IH]; intros [|s ps]; cbn; try reflexivity.
  destruct (N.eqb_spec c s) as [->|Hn].
  - specialize (IH ps). destruct (follow_stem ks ps); cbn.
    + subst. reflexivity.
    + subst. reflexivity.
    + subst. reflexivity.
    + destruct IH as (-> & -> & H). auto.
  - auto.
Qed.

Section Lookup.
Context {V : Type}.

Lemma lookup_node k p (ov : option V) cs :
  lookup k (Node p ov cs) =
  match strip p k with
  | None => None
  | Some [] => ov
  | Some (c :: k') => lookup_f c k' cs
  end.
Proof.
  cbn [lookup]. pose proof (follow_stem_spec k p) as H.
  destruct (follow_stem k p) as [|s ps|c k'|cm kc kr sc sr].
  - subst. rewrite strip_refl. reflexivity.
  - subst. replace (strip (k ++ s :: ps) k) with (@None (list N)); [reflexivity|].
    symmetry. apply strip_none_prefix.
    destruct (is_prefix (k ++ s :: ps) k) eqn:E; [|reflexivity].
    apply is_prefix_spec in E as [r E]. apply (f_equal (@length N)) in E.
    rewrite !app_length in E. cbn in E. lia.
  - subst. rewrite strip_app_same. reflexivity.
  - destruct H as (-> & -> & Hn). rewrite strip_app, strip_app_same. cbn.
    destruct (N.eqb_spec sc kc); [congruence | reflexivity].
Qed.

Lemma lookup_f_cons c k c' (t : tree V) r :
  lookup_f c k (FCons c' t r) = if c =? c' then lookup k t else lookup_f c k r.
Proof. reflexivity. Qed.

Lemma lookup_f_all_gt c k (f : forest V) : all_gt c f = true -> lookup_f c k f = None.
Proof.
  induction f as [|c' t r IH]; cbn; [reflexivity|].
  intros H. apply andb_true_iff in H as [H1 H2]. apply N.ltb_lt in H1.
  destruct (N.eqb_spec c c'); [lia | auto].
Qed.

Lemma all_gt_trans c c' (f : forest V) : c < c' -> all_gt c' f = true -> all_gt c f = true.
Proof.
  intros Hc. induction f as [|x t r IH]; cbn; [reflexivity|].
  intros H. apply andb_true_iff in H as [H1 H2]. apply N.ltb_lt in H1.
  apply andb_true_iff. split; [apply N.ltb_lt; lia | auto].
Qed.

End Lookup.

Scheme tree_ind2 := Induction for tree Sort Prop
  with forest_ind2 := Induction for forest Sort Prop.
Combined Scheme tree_forest_ind from tree_ind2, forest_ind2.

Lemma list_eqb_strip a b :
  list_eqb a b = match strip a b with Some [] => true | _ => false end.
Proof.
  destruct (strip a b) as [[|c r]|] eqn:E.
  - apply strip_spec in E. subst. rewrite app_nil_r. apply list_eqb_refl.
  - apply strip_spec in E. subst. apply list_eqb_neq. intros H.
    apply (f_equal (@length N)) in H. rewrite app_length in H. cbn in H. lia.
  - apply list_eqb_neq. intros ->. rewrite strip_refl in E. discriminate.
Qed.

Section OpsSpec.
Context {V : Type}.
Implicit Types (t : tree V) (f : forest V).


(** Unfolding equations (the mutual fixpoints do not refold nicely under [cbn]). *)
Lemma wfb_eq p (ov : option V) cs :
  wfb (Node p ov cs) =
  wfb_f cs && sorted_f cs && (match ov with Some _ => true | None => Nat.leb 2 (flen cs) end).
Proof. reflexivity. Qed.

Lemma wfb_f_cons c t f : wfb_f (FCons c t f) = wfb t && wfb_f f.
Proof. reflexivity. Qed.

Lemma insert_eq k (v : V) p ov cs :
  insert k v (Node p ov cs) =
  match follow_stem k p with
  | FEqual => Node p (Some v) cs
  | FKeyIsPrefix s ps => Node k (Some v) (FCons s (Node ps ov cs) FNil)
  | FStemIsPrefix c k' => Node p ov (insert_f c k' v cs)
  | FDiff cm kc kr sc sr =>
      Node cm None (if kc <? sc then FCons kc (Node kr (Some v) FNil) (FCons sc (Node sr ov cs) FNil)
                    else FCons sc (Node sr ov cs) (FCons kc (Node kr (Some v) FNil) FNil))
  end.
Proof. reflexivity. Qed.

Lemma insert_f_cons c k (v : V) c' t r :
  insert_f c k v (FCons c' t r) =
  if c =? c' then FCons c' (insert k v t) r
  else if c <? c' then FCons c (Node k (Some v) FNil) (FCons c' t r)
  else FCons c' t (insert_f c k v r).
Proof. reflexivity. Qed.

Lemma delete_eq k p (ov : option V) cs :
  delete k (Node p ov cs) =
  match follow_stem k p with
  | FEqual => match ov with Some _ => collapse p None cs | None => Some (Node p ov cs) end
  | FStemIsPrefix c k' => collapse p ov (delete_f c k' cs)
  | _ => Some (Node p ov cs)
  end.
Proof. reflexivity. Qed.

Lemma delete_f_cons c k c' (t : tree V) r :
  delete_f c k (FCons c' t r) =
  if c =? c' then match delete k t with Some t' => FCons c' t' r | None => r end
  else FCons c' t (delete_f c k r).
Proof. reflexivity. Qed.

Lemma delete_prefix_eq k p (ov : option V) cs :
  delete_prefix k (Node p ov cs) =
  match follow_stem k p with
  | FEqual => None
  | FKeyIsPrefix _ _ => None
  | FStemIsPrefix c k' => collapse p ov (delete_prefix_f c k' cs)
  | FDiff _ _ _ _ _ => Some (Node p ov cs)
  end.
Proof. reflexivity. Qed.

Lemma delete_prefix_f_cons c k c' (t : tree V) r :
  delete_prefix_f c k (FCons c' t r) =
  if c =? c' then match delete_prefix k t with Some t' => FCons c' t' r | None => r end
  else FCons c' t (delete_prefix_f c k r).
Proof. reflexivity. Qed.

Lemma has_prefix_eq k p (ov : option V) cs :
  has_prefix k (Node p ov cs) =
  match follow_stem k p with
  | FEqual => true
  | FKeyIsPrefix _ _ => true
  | FStemIsPrefix c k' => has_prefix_f c k' cs
  | FDiff _ _ _ _ _ => false
  end.
Proof. reflexivity. Qed.

Lemma has_prefix_f_cons c k c' (t : tree V) r :
  has_prefix_f c k (FCons c' t r) = if c =? c' then has_prefix k t else has_prefix_f c k r.
Proof. reflexivity. Qed.

Lemma to_list_eq p (ov : option V) cs :
  to_list (Node p ov cs) =
  map (pre p) ((match ov with Some v => [([], v)] | None => [] end) ++ to_list_f cs).
Proof. reflexivity. Qed.

Lemma to_list_f_cons c (t : tree V) r :
  to_list_f (FCons c t r) = map (pre [c]) (to_list t) ++ to_list_f r.
Proof. reflexivity. Qed.

Lemma iterate_eq k p (ov : option V) cs :
  iterate k (Node p ov cs) =
  match follow_stem k p with
  | FEqual => to_list (Node p ov cs)
  | FKeyIsPrefix _ _ => to_list (Node p ov cs)
  | FStemIsPrefix c k' => map (pre p) (iterate_f c k' cs)
  | FDiff _ _ _ _ _ => []
  end.
Proof. reflexivity. Qed.

Lemma iterate_f_cons c k c' (t : tree V) r :
  iterate_f c k (FCons c' t r) = if c =? c' then map (pre [c']) (iterate k t) else iterate_f c k r.
Proof. reflexivity. Qed.

Lemma sorted_f_cons c (t : tree V) r : sorted_f (FCons c t r) = all_gt c r && sorted_f r.
Proof. reflexivity. Qed.

Lemma all_gt_cons c c' (t : tree V) r : all_gt c (FCons c' t r) = (c <? c') && all_gt c r.
Proof. reflexivity. Qed.

Lemma wfb_node p (ov : option V) cs :
  wfb (Node p ov cs) = true ->
  wfb_f cs = true /\ sorted_f cs = true /\ (ov = None -> (2 <= flen cs)%nat).
Proof.
  rewrite wfb_eq, !andb_true_iff. intros [[H1 H2] H3]. repeat split; auto.
  intros ->. apply Nat.leb_le. exact H3.
Qed.

Lemma wfb_node_intro p (ov : option V) cs :
  wfb_f cs = true -> sorted_f cs = true -> (ov = None -> (2 <= flen cs)%nat) ->
  wfb (Node p ov cs) = true.
Proof.
  intros H1 H2 H3. rewrite wfb_eq, H1, H2. cbn [andb].
  destruct ov; [reflexivity|]. apply Nat.leb_le. auto.
Qed.

Lemma lookup_leaf k (v : V) k' :
  lookup k' (Node k (Some v) FNil) = if list_eqb k k' then Some v else None.
Proof.
  rewrite lookup_node, list_eqb_strip. destruct (strip k k') as [[|c r]|]; reflexivity.
Qed.

Fixpoint f_get (c : N) f : option (tree V) :=
  match f with
  | FNil => None
  | FCons c' t r => if c =? c' then Some t else f_get c r
  end.

Lemma tree_ind_get (P : tree V -> Prop) :
  (forall p ov cs, (forall c t, f_get c cs = Some t -> P t) -> P (Node p ov cs)) -> forall t, P t.
Proof.
  intros H. apply (tree_ind2 V P (fun f => forall c t, f_get c f = Some t -> P t)).
  - exact H.
  - intros c t E. discriminate.
  - intros c0 t Ht r Hr c t' E. cbn [f_get] in E.
    destruct (c =? c0); [injection E as <-; exact Ht | exact (Hr c t' E)].
Qed.

Lemma wfb_f_get c f t : wfb_f f = true -> f_get c f = Some t -> wfb t = true.
Proof.
  induction f as [|c' t' r IH]; cbn [f_get]; [discriminate|].
  rewrite wfb_f_cons. intros H. apply andb_true_iff in H as [H1 H2].
  destruct (c =? c'); [intros E; injection E as <-; exact H1 | auto].
Qed.

Lemma lookup_f_get c k f :
  lookup_f c k f = match f_get c f with Some t => lookup k t | None => None end.
Proof. induction f as [|c' t r IH]; [reflexivity|]. rewrite lookup_f_cons. cbn [f_get]. destruct (c =? c'); auto. Qed.

Lemma f_get_all_gt c f : all_gt c f = true -> f_get c f = None.
Proof.
  intros H. induction f as [|c' t r IH]; [reflexivity|]. rewrite all_gt_cons in H.
  apply andb_true_iff in H as [H1 H2]. apply N.ltb_lt in H1. cbn [f_get].
  destruct (N.eqb_spec c c'); [lia | auto].
Qed.

(** Sorted insert-or-replace of the child labelled [c].  [insert_f] puts the child it finds,
    with the key inserted, or a new leaf; the two children of a split node are a [put_f] too. *)
Fixpoint put_f (c : N) (t' : tree V) f : forest V :=
  match f with
  | FNil => FCons c t' FNil
  | FCons c' t r =>
      if c =? c' then FCons c' t' r
      else if c <? c' then FCons c t' f
      else FCons c' t (put_f c t' r)
  end.

Lemma insert_f_put c k v f :
  sorted_f f = true ->
  insert_f c k v f =
  put_f c (match f_get c f with Some t => insert k v t | None => Node k (Some v) FNil end) f.
Proof.
  induction f as [|c0 t r IH]; intros Hs; [reflexivity|].
  rewrite sorted_f_cons in Hs. apply andb_true_iff in Hs as [Hgt Hs].
  rewrite insert_f_cons. cbn [f_get put_f]. destruct (N.eqb_spec c c0) as [->|Hne]; [reflexivity|].
  destruct (N.ltb_spec c c0) as [Hlt|Hge].
  - rewrite (f_get_all_gt c r (all_gt_trans c c0 r Hlt Hgt)). reflexivity.
  - rewrite (IH Hs). reflexivity.
Qed.

Lemma put_f_pair c t c' t' : c <> c' ->
  (if c <? c' then FCons c t (FCons c' t' FNil) else FCons c' t' (FCons c t FNil)) = put_f c t (FCons c' t' FNil).
Proof. intros H. cbn [put_f]. destruct (N.eqb_spec c c'); [contradiction|]. destruct (c <? c'); reflexivity. Qed.

Lemma lookup_put_f c t' f c' k' :
  lookup_f c' k' (put_f c t' f) = if c' =? c then lookup k' t' else lookup_f c' k' f.
Proof.
  induction f as [|c0 t r IH]; cbn [put_f]; [apply lookup_f_cons|].
  destruct (N.eqb_spec c c0) as [->|Hne]; [rewrite !lookup_f_cons; destruct (c' =? c0); reflexivity|].
  destruct (c <? c0); [apply lookup_f_cons|].
  rewrite !lookup_f_cons, IH. destruct (N.eqb_spec c' c0) as [->|]; [|reflexivity].
  destruct (N.eqb_spec c0 c); [congruence | reflexivity].
Qed.

Lemma lookup_insert : forall t k v k', wfb t = true ->
  lookup k' (insert k v t) = if list_eqb k k' then Some v else lookup k' t.
Proof.
  induction t as [p ov cs IH] using tree_ind_get. intros k v k' Hwf.
  apply wfb_node in Hwf as (Hwf & Hs & _).
  rewrite insert_eq. pose proof (follow_stem_spec k p) as HF.
  destruct (follow_stem k p) as [|s ps|c k0|cm kc kr sc sr].
  - subst. rewrite !lookup_node, list_eqb_strip.
    destruct (strip p k') as [[|c r]|]; reflexivity.
  - subst. rewrite !lookup_node, list_eqb_strip, strip_app.
    destruct (strip k k') as [[|c r]|]; try reflexivity.
    rewrite lookup_f_cons. cbn [strip lookup_f]. rewrite (N.eqb_sym s c).
    destruct (c =? s); [|reflexivity]. rewrite lookup_node. reflexivity.
  - subst. rewrite !lookup_node, list_eqb_strip, strip_app.
    destruct (strip p k') as [[|c' r]|]; try reflexivity.
    rewrite (insert_f_put c k0 v cs Hs), lookup_put_f, (N.eqb_sym c' c). cbn [strip].
    destruct (N.eqb_spec c c') as [<-|Hne]; [|reflexivity].
    rewrite lookup_f_get, <- list_eqb_strip. destruct (f_get c cs) as [t|] eqn:G.
    + exact (IH c t G k0 v r (wfb_f_get c cs t Hwf G)).
    + apply lookup_leaf.
  - destruct HF as (-> & -> & Hn).
    rewrite !lookup_node, list_eqb_strip, !strip_app.
    destruct (strip cm k') as [[|c r]|]; try reflexivity.
    rewrite (put_f_pair kc _ sc _ Hn), lookup_put_f, lookup_f_cons. cbn [strip lookup_f].
    rewrite (N.eqb_sym kc c), (N.eqb_sym sc c). destruct (N.eqb_spec c kc) as [->|H1].
    + rewrite lookup_leaf, list_eqb_strip. destruct (strip kr r) as [[|? ?]|]; try reflexivity;
        destruct (N.eqb_spec kc sc); congruence.
    + destruct (c =? sc); [apply lookup_node | reflexivity].
Qed.

Lemma lookup_insert_root r k (v : V) k' :
  wfb_root r = true ->
  lookup k' (insert_root k v r) = if list_eqb k k' then Some v else lookup_root k' r.
Proof.
  destruct r as [t|]; cbn [insert_root lookup_root wfb_root].
  - apply lookup_insert.
  - intros _. apply lookup_leaf.
Qed.

Lemma lookup_collapse p (ov : option V) cs k' :
  lookup_root k' (collapse p ov cs) = lookup k' (Node p ov cs).
Proof.
  unfold collapse. destruct ov as [x|]; [reflexivity|].
  destruct cs as [|c [cp cv ccs] [|c2 t2 r2]]; try reflexivity.
  - cbn [lookup_root]. rewrite lookup_node. destruct (strip p k') as [[|c r]|]; reflexivity.
  - cbn [lookup_root]. rewrite !lookup_node, strip_app.
    destruct (strip p k') as [[|c' r]|]; try reflexivity.
    rewrite lookup_f_cons. cbn [strip lookup_f]. rewrite (N.eqb_sym c c').
    destruct (c' =? c); [|reflexivity]. rewrite lookup_node. reflexivity.
Qed.

(** [upd_f g c] is the forest half that [delete] and [delete_prefix] share. *)
Fixpoint upd_f (g : tree V -> option (tree V)) (c : N) f : forest V :=
  match f with
  | FNil => FNil
  | FCons c' t r =>
      if c =? c' then match g t with Some t' => FCons c' t' r | None => r end
      else FCons c' t (upd_f g c r)
  end.

Lemma delete_f_upd c k f : delete_f c k f = upd_f (delete k) c f.
Proof. induction f as [|c' t r IH]; [reflexivity|]. rewrite delete_f_cons, IH. reflexivity. Qed.

Lemma delete_prefix_f_upd c k f : delete_prefix_f c k f = upd_f (delete_prefix k) c f.
Proof. induction f as [|c' t r IH]; [reflexivity|]. rewrite delete_prefix_f_cons, IH. reflexivity. Qed.

Lemma lookup_upd_f (P : list N -> bool) g c f :
  sorted_f f = true ->
  (forall t, f_get c f = Some t -> forall k', lookup_root k' (g t) = if P k' then None else lookup k' t) ->
  forall c' k', lookup_f c' k' (upd_f g c f) = if (c =? c') && P k' then None else lookup_f c' k' f.
Proof.
  induction f as [|c0 t r IH]; intros Hs Hg c' k'; cbn [upd_f].
  - cbn. destruct ((c =? c') && P k'); reflexivity.
  - rewrite sorted_f_cons in Hs. apply andb_true_iff in Hs as [Hgt Hs]. cbn [f_get] in Hg.
    revert Hg. destruct (N.eqb_spec c c0) as [->|Hne]; intros Hg.
    + specialize (Hg t eq_refl k'). rewrite lookup_f_cons, (N.eqb_sym c' c0).
      destruct (g t) as [t'|].
      * rewrite lookup_f_cons, (N.eqb_sym c' c0). destruct (c0 =? c'); cbn [andb]; [exact Hg | reflexivity].
      * destruct (N.eqb_spec c0 c') as [<-|Hc]; cbn [andb]; [|reflexivity].
        rewrite lookup_f_all_gt by assumption. cbn [lookup_root] in Hg.
        destruct (P k'); [reflexivity | exact Hg].
    + rewrite !lookup_f_cons, (IH Hs Hg). destruct (N.eqb_spec c' c0) as [->|Hc0]; [|reflexivity].
      destruct (N.eqb_spec c c0); [congruence | reflexivity].
Qed.

Lemma wfb_upd_f g c f :
  sorted_f f = true -> wfb_f f = true -> (forall t, f_get c f = Some t -> wfb_root (g t) = true) ->
  sorted_f (upd_f g c f) = true /\ wfb_f (upd_f g c f) = true
  /\ (forall x, all_gt x f = true -> all_gt x (upd_f g c f) = true).
Proof.
  induction f as [|c0 t r IH]; intros Hs Hwf Hg; cbn [upd_f]; [auto|].
  rewrite sorted_f_cons in Hs. apply andb_true_iff in Hs as [Hgt Hs].
  rewrite wfb_f_cons in Hwf. apply andb_true_iff in Hwf as [Hwt Hwr]. cbn [f_get] in Hg.
  revert Hg. destruct (N.eqb_spec c c0) as [->|Hne]; intros Hg.
  - specialize (Hg t eq_refl). destruct (g t) as [t'|].
    + cbn [wfb_root] in Hg. rewrite sorted_f_cons, wfb_f_cons, Hgt, Hs, Hwr, Hg. repeat split; auto.
    + repeat split; auto; intros x Hx; rewrite all_gt_cons in Hx;
        apply andb_true_iff in Hx as [_ Hx]; exact Hx.
  - destruct (IH Hs Hwr Hg) as (A & B & C).
    rewrite sorted_f_cons, wfb_f_cons, A, B, Hwt, (C c0 Hgt).
    repeat split; auto;
      intros x Hx; rewrite all_gt_cons in *; apply andb_true_iff in Hx as [Hx1 Hx2];
      rewrite Hx1; cbn [andb]; apply C; exact Hx2.
Qed.

Lemma is_prefix_strip a b :
  is_prefix a b = match strip a b with Some _ => true | None => false end.
Proof.
  destruct (strip a b) eqn:E.
  - eapply strip_some_prefix; eassumption.
  - apply strip_none_prefix. assumption.
Qed.

Lemma lookup_delete : forall t k k', wfb t = true ->
  lookup_root k' (delete k t) = if list_eqb k k' then None else lookup k' t.
Proof.
  induction t as [p ov cs IH] using tree_ind_get. intros k k' Hwf.
  apply wfb_node in Hwf as (Hwf & Hs & _).
  rewrite delete_eq. pose proof (follow_stem_spec k p) as HF.
  destruct (follow_stem k p) as [|s ps|c k0|cm kc kr sc sr].
  - subst. destruct ov as [x|].
    + rewrite lookup_collapse, !lookup_node, list_eqb_strip.
      destruct (strip p k') as [[|c r]|]; reflexivity.
    + cbn [lookup_root]. rewrite lookup_node, list_eqb_strip.
      destruct (strip p k') as [[|c r]|]; reflexivity.
  - subst. cbn [lookup_root]. rewrite lookup_node, list_eqb_strip, strip_app.
    destruct (strip k k') as [[|c r]|]; reflexivity.
  - subst. rewrite lookup_collapse, !lookup_node, list_eqb_strip, strip_app.
    destruct (strip p k') as [[|c' r]|]; try reflexivity.
    rewrite delete_f_upd, (lookup_upd_f (list_eqb k0) (delete k0) c cs Hs
      (fun t G k'' => IH c t G k0 k'' (wfb_f_get c cs t Hwf G))).
    cbn [strip]. rewrite list_eqb_strip. destruct (c =? c'); reflexivity.
  - destruct HF as (-> & -> & Hn). cbn [lookup_root].
    rewrite lookup_node, list_eqb_strip, !strip_app.
    destruct (strip cm k') as [[|c r]|]; try reflexivity.
    cbn [strip]. destruct (N.eqb_spec kc c) as [->|H1]; [|reflexivity].
    destruct (N.eqb_spec sc c); [congruence|].
    destruct (strip kr r) as [[|? ?]|]; reflexivity.
Qed.

Lemma lookup_delete_prefix : forall t k k', wfb t = true ->
  lookup_root k' (delete_prefix k t) = if is_prefix k k' then None else lookup k' t.
Proof.
  induction t as [p ov cs IH] using tree_ind_get. intros k k' Hwf.
  apply wfb_node in Hwf as (Hwf & Hs & _).
  rewrite delete_prefix_eq. pose proof (follow_stem_spec k p) as HF.
  destruct (follow_stem k p) as [|s ps|c k0|cm kc kr sc sr].
  - subst. cbn [lookup_root]. rewrite lookup_node, is_prefix_strip.
    destruct (strip p k'); reflexivity.
  - subst. cbn [lookup_root]. rewrite lookup_node, is_prefix_strip, strip_app.
    destruct (strip k k'); reflexivity.
  - subst. rewrite lookup_collapse, !lookup_node, is_prefix_strip, strip_app.
    destruct (strip p k') as [[|c' r]|]; try reflexivity.
    rewrite delete_prefix_f_upd, (lookup_upd_f (is_prefix k0) (delete_prefix k0) c cs Hs
      (fun t G k'' => IH c t G k0 k'' (wfb_f_get c cs t Hwf G))).
    cbn [strip]. rewrite is_prefix_strip. destruct (c =? c'); reflexivity.
  - destruct HF as (-> & -> & Hn). cbn [lookup_root].
    rewrite lookup_node, is_prefix_strip, !strip_app.
    destruct (strip cm k') as [[|c r]|]; try reflexivity.
    cbn [strip]. destruct (N.eqb_spec kc c) as [->|H1]; [|reflexivity].
    destruct (N.eqb_spec sc c); [congruence|].
    destruct (strip kr r); reflexivity.
Qed.

Lemma wfb_path_irrelevant p q (ov : option V) cs : wfb (Node p ov cs) = wfb (Node q ov cs).
Proof. rewrite !wfb_eq. reflexivity. Qed.

Lemma wfb_put_f c t' f :
  sorted_f f = true -> wfb_f f = true -> wfb t' = true ->
  sorted_f (put_f c t' f) = true /\ wfb_f (put_f c t' f) = true
  /\ (flen f <= flen (put_f c t' f))%nat
  /\ (forall x, all_gt x f = true -> x < c -> all_gt x (put_f c t' f) = true).
Proof.
  induction f as [|c0 t r IH]; intros Hs Hwf Ht; cbn [put_f].
  - rewrite sorted_f_cons, wfb_f_cons, Ht. cbn [flen]. repeat split; auto.
    intros x _ Hx. rewrite all_gt_cons. apply N.ltb_lt in Hx. rewrite Hx. reflexivity.
  - rewrite sorted_f_cons in Hs. apply andb_true_iff in Hs as [Hgt Hs].
    rewrite wfb_f_cons in Hwf. apply andb_true_iff in Hwf as [Hwt Hwr].
    destruct (N.eqb_spec c c0) as [->|Hne].
    + rewrite sorted_f_cons, wfb_f_cons, Hgt, Hs, Hwr, Ht. cbn [flen].
      repeat split; auto; intros x Hx _; rewrite all_gt_cons in *; exact Hx.
    + destruct (N.ltb_spec c c0) as [Hlt|Hge].
      * rewrite !sorted_f_cons, !wfb_f_cons, !all_gt_cons, Hgt, Hs, Hwt, Hwr, Ht.
        assert (c <? c0 = true) as -> by (apply N.ltb_lt; assumption).
        rewrite (all_gt_trans c c0 r Hlt Hgt). cbn [flen].
        repeat split; auto;
        intros x Hx Hxc; rewrite all_gt_cons in *;
        assert (x <? c = true) as -> by (apply N.ltb_lt; assumption); exact Hx.
      * destruct (IH Hs Hwr Ht) as (A & B & C & D).
        rewrite sorted_f_cons, wfb_f_cons, A, B, Hwt. cbn [flen].
        rewrite (D c0 Hgt ltac:(lia)).
        repeat split; auto; try lia;
        intros x Hx Hxc; rewrite all_gt_cons in *; apply andb_true_iff in Hx as [Hx1 Hx2];
        rewrite Hx1; cbn [andb]; apply D; assumption.
Qed.

Lemma wfb_insert : forall t k (v : V), wfb t = true -> wfb (insert k v t) = true.
Proof.
  induction t as [p ov cs IH] using tree_ind_get. intros k v Hwf0.
  pose proof (wfb_node _ _ _ Hwf0) as (Hwf & Hs & Hlen).
  rewrite insert_eq. pose proof (follow_stem_spec k p) as HF.
  destruct (follow_stem k p) as [|s ps|c k0|cm kc kr sc sr].
  - apply wfb_node_intro; auto. discriminate.
  - apply wfb_node_intro; try discriminate; [|reflexivity].
    rewrite wfb_f_cons, (wfb_path_irrelevant ps p), Hwf0. reflexivity.
  - rewrite (insert_f_put c k0 v cs Hs).
    destruct (wfb_put_f c (match f_get c cs with Some t => insert k0 v t | None => Node k0 (Some v) FNil end)
                cs Hs Hwf) as (A & B & C & _).
    { destruct (f_get c cs) as [t|] eqn:G; [exact (IH c t G k0 v (wfb_f_get c cs t Hwf G)) | reflexivity]. }
    apply wfb_node_intro; auto. intros E. specialize (Hlen E). lia.
  - destruct HF as (_ & _ & Hn). rewrite (put_f_pair kc _ sc _ Hn).
    destruct (wfb_put_f kc (Node kr (Some v) FNil) (FCons sc (Node sr ov cs) FNil)) as (A & B & _);
      try reflexivity.
    { rewrite wfb_f_cons, (wfb_path_irrelevant sr p), Hwf0. reflexivity. }
    apply wfb_node_intro; auto. intros _. rewrite <- (put_f_pair kc _ sc _ Hn). destruct (kc <? sc); cbn [flen]; lia.
Qed.

Lemma wfb_insert_root r k (v : V) : wfb_root r = true -> wfb (insert_root k v r) = true.
Proof. destruct r; cbn [insert_root wfb_root]; [apply wfb_insert | reflexivity]. Qed.

Lemma wfb_collapse p (ov : option V) cs :
  wfb_f cs = true -> sorted_f cs = true -> wfb_root (collapse p ov cs) = true.
Proof.
  intros Hw Hs. unfold collapse. destruct ov as [x|].
  - cbn [wfb_root]. apply wfb_node_intro; auto. discriminate.
  - destruct cs as [|c [cp cv ccs] [|c2 t2 r2]].
    + reflexivity.
    + cbn [wfb_root]. rewrite wfb_f_cons in Hw. apply andb_true_iff in Hw as [Hw _].
      rewrite (wfb_path_irrelevant _ cp). exact Hw.
    + cbn [wfb_root]. apply wfb_node_intro; auto. intros _. cbn. lia.
Qed.

Lemma wfb_delete : forall t k, wfb t = true -> wfb_root (delete k t) = true.
Proof.
  induction t as [p ov cs IH] using tree_ind_get. intros k Hwf0.
  pose proof (wfb_node _ _ _ Hwf0) as (Hwf & Hs & _).
  rewrite delete_eq. destruct (follow_stem k p) as [|s ps|c k0|cm kc kr sc sr]; try exact Hwf0.
  - destruct ov; [apply wfb_collapse; assumption | exact Hwf0].
  - rewrite delete_f_upd.
    destruct (wfb_upd_f (delete k0) c cs Hs Hwf (fun t G => IH c t G k0 (wfb_f_get c cs t Hwf G))) as (A & B & _).
    apply wfb_collapse; assumption.
Qed.

Lemma wfb_delete_prefix : forall t k, wfb t = true -> wfb_root (delete_prefix k t) = true.
Proof.
  induction t as [p ov cs IH] using tree_ind_get. intros k Hwf0.
  pose proof (wfb_node _ _ _ Hwf0) as (Hwf & Hs & _).
  rewrite delete_prefix_eq.
  destruct (follow_stem k p) as [|s ps|c k0|cm kc kr sc sr]; try exact Hwf0; try reflexivity.
  rewrite delete_prefix_f_upd.
  destruct (wfb_upd_f (delete_prefix k0) c cs Hs Hwf (fun t G => IH c t G k0 (wfb_f_get c cs t Hwf G))) as (A & B & _).
  apply wfb_collapse; assumption.
Qed.

Lemma wfb_delete_root (r : option (tree V)) k : wfb_root r = true -> wfb_root (delete_root k r) = true.
Proof. destruct r; [apply wfb_delete | reflexivity]. Qed.

Lemma wfb_delete_prefix_root (r : option (tree V)) k :
  wfb_root r = true -> wfb_root (delete_prefix_root k r) = true.
Proof. destruct r; [apply wfb_delete_prefix | reflexivity]. Qed.

End OpsSpec.

Section AMapFacts.
Context {V : Type}.
Implicit Types (m l : amap V).

Definition klt (a b : list N * V) : Prop := lex_ltb (fst a) (fst b) = true.
Definition ksorted l : Prop := StronglySorted klt l.

Lemma a_lookup_app k l1 l2 :
  a_lookup k (l1 ++ l2) = match a_lookup k l1 with Some v => Some v | None => a_lookup k l2 end.
Proof.
  induction l1 as [|[k1 v1] l1 IH]; cbn; [reflexivity|]. destruct (list_eqb k k1); auto.
Qed.

Lemma list_eqb_app_strip k p k1 :
  list_eqb k (p ++ k1) = match strip p k with Some r => list_eqb r k1 | None => false end.
Proof.
  destruct (strip p k) as [r|] eqn:E.
  - apply strip_spec in E. subst.
    destruct (list_eqb r k1) eqn:E2.
    + apply list_eqb_spec in E2. subst. apply list_eqb_refl.
    + apply list_eqb_neq. apply list_eqb_neq in E2. intros H. apply app_inv_head in H. contradiction.
  - apply list_eqb_neq. intros ->. rewrite strip_app_same in E. discriminate.
Qed.

Lemma a_lookup_map_pre k p l :
  a_lookup k (map (pre p) l) = match strip p k with Some r => a_lookup r l | None => None end.
Proof.
  induction l as [|[k1 v1] l IH]; cbn [map a_lookup pre fst snd].
  - destruct (strip p k); reflexivity.
  - rewrite list_eqb_app_strip, IH. destruct (strip p k); reflexivity.
Qed.

Lemma a_lookup_lt k l :
  ksorted l -> (match l with [] => True | a :: _ => lex_ltb k (fst a) = true end) -> a_lookup k l = None.
Proof.
  induction 1 as [|[k1 v1] l Hs IH Hall]; intros Hk; cbn; [reflexivity|].
  cbn in Hk. destruct (list_eqb k k1) eqn:E.
  - apply list_eqb_spec in E. subst. rewrite lex_ltb_irrefl in Hk. discriminate.
  - apply IH. destruct l as [|[k2 v2] l']; [exact I|].
    inversion Hall as [|? ? H1 _]; subst. cbn in *. eapply lex_ltb_trans; eassumption.
Qed.

Lemma a_lookup_in k v l : a_lookup k l = Some v -> In (k, v) l.
Proof.
  induction l as [|[k1 v1] l IH]; cbn; [discriminate|].
  destruct (list_eqb k k1) eqn:E.
  - apply list_eqb_spec in E. subst. intros H. inversion H. left. reflexivity.
  - intros H. right. auto.
Qed.

Lemma ksorted_in_lookup k v l : ksorted l -> In (k, v) l -> a_lookup k l = Some v.
Proof.
  induction 1 as [|[k1 v1] l Hs IH Hall]; intros Hin; [destruct Hin|].
  cbn. destruct Hin as [E|Hin].
  - inversion E. subst. rewrite list_eqb_refl. reflexivity.
  - destruct (list_eqb k k1) eqn:E.
    + apply list_eqb_spec in E. subst. rewrite Forall_forall in Hall.
      specialize (Hall _ Hin). unfold klt in Hall. cbn in Hall. rewrite lex_ltb_irrefl in Hall. discriminate.
    + auto.
Qed.

Lemma ksorted_ext l1 l2 :
  ksorted l1 -> ksorted l2 -> (forall k, a_lookup k l1 = a_lookup k l2) -> l1 = l2.
Proof.
  intros H1. revert l2. induction H1 as [|[k1 v1] l1 Hs1 IH Hall1]; intros l2 H2 Hext.
  - destruct l2 as [|[k2 v2] l2]; [reflexivity|].
    specialize (Hext k2). cbn in Hext. rewrite list_eqb_refl in Hext. discriminate.
  - destruct l2 as [|[k2 v2] l2].
    + specialize (Hext k1). cbn in Hext. rewrite list_eqb_refl in Hext. discriminate.
    + assert (Hk : k1 = k2).
      { apply lex_ltb_total.
        - destruct (lex_ltb k1 k2) eqn:E; [|reflexivity].
          pose proof (Hext k1) as X. rewrite (a_lookup_lt k1 ((k2, v2) :: l2) H2 E) in X.
          cbn in X. rewrite list_eqb_refl in X. discriminate.
        - destruct (lex_ltb k2 k1) eqn:E; [|reflexivity].
          pose proof (Hext k2) as X.
          rewrite (a_lookup_lt k2 ((k1, v1) :: l1) (SSorted_cons _ Hs1 Hall1) E) in X.
          cbn in X. rewrite list_eqb_refl in X. discriminate. }
      subst k2.
      assert (Hv : v1 = v2).
      { pose proof (Hext k1) as X. cbn in X. rewrite list_eqb_refl in X. congruence. }
      subst v2. f_equal.
      inversion H2 as [|? ? Hs2 Hall2]; subst.
      apply IH; [assumption|]. intros k.
      destruct (list_eqb k k1) eqn:E.
      * apply list_eqb_spec in E. subst k.
        rewrite (a_lookup_lt k1 l1 Hs1), (a_lookup_lt k1 l2 Hs2); [reflexivity| |].
        -- destruct l2 as [|a l2]; [exact I|]. inversion Hall2; subst. assumption.
        -- destruct l1 as [|a l1]; [exact I|]. inversion Hall1; subst. assumption.
      * specialize (Hext k). cbn in Hext. rewrite E in Hext. exact Hext.
Qed.

Lemma a_lookup_insert k (v : V) m k' :
  a_lookup k' (a_insert k v m) = if list_eqb k k' then Some v else a_lookup k' m.
Proof.
  induction m as [|[k1 v1] m IH]; cbn [a_insert a_lookup].
  - rewrite (list_eqb_sym k' k). reflexivity.
  - destruct (list_eqb k k1) eqn:E1.
    + apply list_eqb_spec in E1. subst k1. cbn [a_lookup]. rewrite (list_eqb_sym k' k).
      destruct (list_eqb k k'); reflexivity.
    + destruct (lex_ltb k k1).
      * cbn [a_lookup]. rewrite (list_eqb_sym k' k). reflexivity.
      * cbn [a_lookup]. rewrite IH. destruct (list_eqb k' k1) eqn:E2; [|reflexivity].
        apply list_eqb_spec in E2. subst k1. rewrite E1. reflexivity.
Qed.

Lemma ksorted_insert k (v : V) m : ksorted m -> ksorted (a_insert k v m).
Proof.
  induction 1 as [|[k1 v1] m Hs IH Hall]; cbn [a_insert].
  - repeat constructor.
  - destruct (list_eqb k k1) eqn:E1.
    + apply list_eqb_spec in E1. subst. constructor; assumption.
    + destruct (lex_ltb k k1) eqn:E2.
      * constructor; [constructor; assumption|]. constructor; [exact E2|].
        rewrite Forall_forall in *. intros x Hx. specialize (Hall x Hx). unfold klt in *. cbn in *.
        eapply lex_ltb_trans; eassumption.
      * constructor; [assumption|].
        assert (Hk : lex_ltb k1 k = true).
        { destruct (lex_ltb k1 k) eqn:E3; [reflexivity|].
          apply list_eqb_neq in E1. exfalso. apply E1. apply lex_ltb_total; assumption. }
        rewrite Forall_forall in *. intros x Hx.
        assert (Hx' : x = (k, v) \/ In x m).
        { clear - Hx. induction m as [|[k2 v2] m IHm]; cbn [a_insert] in Hx.
          - destruct Hx as [<-|[]]. left. reflexivity.
          - destruct (list_eqb k k2); [destruct Hx as [<-|Hx]; [left; reflexivity | right; right; assumption]|].
            destruct (lex_ltb k k2); [destruct Hx as [<-|Hx]; [left; reflexivity | right; assumption]|].
            destruct Hx as [<-|Hx]; [right; left; reflexivity|].
            destruct (IHm Hx); [left; assumption | right; right; assumption]. }
        destruct Hx' as [->|Hx']; [exact Hk | apply Hall; assumption].
Qed.

Lemma a_lookup_filter (P : list N -> bool) m k :
  a_lookup k (filter (fun kv => P (fst kv)) m) = if P k then a_lookup k m else None.
Proof.
  induction m as [|[k1 v1] m IH]; cbn [filter a_lookup fst]; [destruct (P k); reflexivity|].
  destruct (P k1) eqn:E1; cbn [a_lookup].
  - rewrite IH. destruct (list_eqb k k1) eqn:E; [|reflexivity].
    apply list_eqb_spec in E. subst. rewrite E1. reflexivity.
  - rewrite IH. destruct (list_eqb k k1) eqn:E; [|reflexivity].
    apply list_eqb_spec in E. subst. rewrite E1. reflexivity.
Qed.

Lemma ksorted_filter (P : list N * V -> bool) m : ksorted m -> ksorted (filter P m).
Proof.
  induction 1 as [|a m Hs IH Hall]; cbn; [constructor|].
  destruct (P a); [|assumption]. constructor; [assumption|].
  rewrite Forall_forall in *. intros x Hx. apply filter_In in Hx as [Hx _]. auto.
Qed.

Lemma ksorted_app l1 l2 :
  ksorted l1 -> ksorted l2 -> (forall a b, In a l1 -> In b l2 -> klt a b) -> ksorted (l1 ++ l2).
Proof.
  induction 1 as [|a l1 Hs IH Hall]; intros H2 Hc; cbn; [assumption|].
  constructor.
  - apply IH; [assumption|]. intros x y Hx Hy. apply Hc; [right; assumption | assumption].
  - apply Forall_app. split; [assumption|]. apply Forall_forall. intros y Hy. apply Hc; [left; reflexivity | assumption].
Qed.

Lemma ksorted_map_pre p l : ksorted l -> ksorted (map (pre p) l).
Proof.
  induction 1 as [|a l Hs IH Hall]; cbn; constructor; [assumption|].
  rewrite Forall_forall in *. intros y Hy. apply in_map_iff in Hy as [x [<- Hx]].
  specialize (Hall x Hx). unfold klt, pre in *. cbn. rewrite lex_ltb_app. exact Hall.
Qed.

Lemma a_lookup_delete k m k' :
  a_lookup k' (a_delete k m) = if list_eqb k k' then None else a_lookup k' m.
Proof.
  unfold a_delete. rewrite (a_lookup_filter (fun x => negb (list_eqb k x))).
  destruct (list_eqb k k'); reflexivity.
Qed.

Lemma a_lookup_delete_prefix p m k' :
  a_lookup k' (a_delete_prefix p m) = if is_prefix p k' then None else a_lookup k' m.
Proof.
  unfold a_delete_prefix. rewrite (a_lookup_filter (fun x => negb (is_prefix p x))).
  destruct (is_prefix p k'); reflexivity.
Qed.

End AMapFacts.

Section ToList.
Context {V : Type}.
Implicit Types (t : tree V) (f : forest V).

Lemma to_list_f_heads f kv : In kv (to_list_f f) -> exists c r, fst kv = c :: r.
Proof.
  induction f as [|c t r IH]; cbn [to_list_f]; [intros []|].
  intros H. apply in_app_iff in H as [H|H]; [|auto].
  apply in_map_iff in H as [x [<- _]]. cbn. eauto.
Qed.

Lemma to_list_f_heads_gt x f kv :
  all_gt x f = true -> In kv (to_list_f f) -> exists c r, fst kv = c :: r /\ x < c.
Proof.
  induction f as [|c t r IH]; cbn [to_list_f]; [intros _ []|].
  rewrite all_gt_cons. intros H Hin. apply andb_true_iff in H as [H1 H2]. apply N.ltb_lt in H1.
  apply in_app_iff in Hin as [Hin|Hin]; [|auto].
  apply in_map_iff in Hin as [y [<- _]]. cbn. eauto.
Qed.

Lemma a_lookup_to_list_mut :
  (forall t k, wfb t = true -> a_lookup k (to_list t) = lookup k t)
  /\ (forall f, sorted_f f = true -> wfb_f f = true ->
        (forall c k, a_lookup (c :: k) (to_list_f f) = lookup_f c k f)
        /\ a_lookup [] (to_list_f f) = None).
Proof.
  apply tree_forest_ind.
  - intros p ov cs IHf k Hwf. apply wfb_node in Hwf as (Hwf & Hs & _).
    destruct (IHf Hs Hwf) as [IH1 IH2].
    rewrite to_list_eq, a_lookup_map_pre, lookup_node.
    destruct (strip p k) as [[|c r]|]; [| |reflexivity].
    + rewrite a_lookup_app. destruct ov; [reflexivity | exact IH2].
    + rewrite a_lookup_app. destruct ov; cbn; apply IH1.
  - intros _ _. split; reflexivity.
  - intros c0 t IHt r IHr Hs Hwf.
    rewrite sorted_f_cons in Hs. apply andb_true_iff in Hs as [Hgt Hs].
    rewrite wfb_f_cons in Hwf. apply andb_true_iff in Hwf as [Hwt Hwr].
    destruct (IHr Hs Hwr) as [IH1 IH2]. split.
    + intros c k. rewrite to_list_f_cons, a_lookup_app, a_lookup_map_pre, lookup_f_cons.
      cbn [strip]. rewrite (N.eqb_sym c0 c). destruct (N.eqb_spec c c0) as [->|Hne].
      * rewrite IHt by assumption. destruct (lookup k t); [reflexivity|].
        rewrite IH1. apply lookup_f_all_gt. assumption.
      * apply IH1.
    + rewrite to_list_f_cons, a_lookup_app, a_lookup_map_pre. cbn [strip]. exact IH2.
Qed.

Lemma a_lookup_to_list t k : wfb t = true -> a_lookup k (to_list t) = lookup k t.
Proof. apply a_lookup_to_list_mut. Qed.

Lemma ksorted_to_list_mut :
  (forall t, wfb t = true -> ksorted (to_list t))
  /\ (forall f, sorted_f f = true -> wfb_f f = true -> ksorted (to_list_f f)).
Proof.
  apply tree_forest_ind.
  - intros p ov cs IHf Hwf. apply wfb_node in Hwf as (Hwf & Hs & _).
    rewrite to_list_eq. apply ksorted_map_pre. apply ksorted_app.
    + destruct ov; repeat constructor.
    + auto.
    + intros a b Ha Hb. destruct ov as [v|]; [|destruct Ha].
      destruct Ha as [<-|[]]. apply to_list_f_heads in Hb as (c & r & Hb).
      unfold klt. cbn. rewrite Hb. reflexivity.
  - intros _ _. constructor.
  - intros c0 t IHt r IHr Hs Hwf.
    rewrite sorted_f_cons in Hs. apply andb_true_iff in Hs as [Hgt Hs].
    rewrite wfb_f_cons in Hwf. apply andb_true_iff in Hwf as [Hwt Hwr].
    rewrite to_list_f_cons. apply ksorted_app.
    + apply ksorted_map_pre. auto.
    + auto.
    + intros a b Ha Hb. apply in_map_iff in Ha as [x [<- _]].
      apply (to_list_f_heads_gt c0) in Hb as (c & rr & Hb & Hlt); [|assumption].
      unfold klt, pre. cbn. rewrite Hb. apply lex_ltb_cons_lt. assumption.
Qed.

Lemma ksorted_to_list t : wfb t = true -> ksorted (to_list t).
Proof. apply ksorted_to_list_mut. Qed.

Lemma a_lookup_to_list_root (r : option (tree V)) k :
  wfb_root r = true -> a_lookup k (to_list_root r) = lookup_root k r.
Proof. destruct r; cbn; [apply a_lookup_to_list | reflexivity]. Qed.

Lemma ksorted_to_list_root (r : option (tree V)) : wfb_root r = true -> ksorted (to_list_root r).
Proof. destruct r; cbn; [apply ksorted_to_list | constructor]. Qed.

Theorem to_list_insert_root (r : option (tree V)) k (v : V) :
  wfb_root r = true -> to_list (insert_root k v r) = a_insert k v (to_list_root r).
Proof.
  intros Hwf. apply ksorted_ext.
  - apply ksorted_to_list. apply wfb_insert_root. assumption.
  - apply ksorted_insert. apply ksorted_to_list_root. assumption.
  - intros k'. rewrite a_lookup_to_list by (apply wfb_insert_root; assumption).
    rewrite lookup_insert_root by assumption.
    rewrite a_lookup_insert, a_lookup_to_list_root by assumption. reflexivity.
Qed.

Lemma to_list_remove (P : list N -> bool) t (r : option (tree V)) :
  wfb t = true -> wfb_root r = true ->
  (forall k', lookup_root k' r = if P k' then None else lookup k' t) ->
  to_list_root r = filter (fun kv => negb (P (fst kv))) (to_list t).
Proof.
  intros Hwf Hr H. apply ksorted_ext.
  - apply ksorted_to_list_root, Hr.
  - apply ksorted_filter, ksorted_to_list, Hwf.
  - intros k'. rewrite a_lookup_to_list_root, H, (a_lookup_filter (fun x => negb (P x))), a_lookup_to_list by assumption.
    destruct (P k'); reflexivity.
Qed.

Theorem to_list_delete t k :
  wfb t = true -> to_list_root (delete k t) = a_delete k (to_list t).
Proof.
  intros Hwf. exact (to_list_remove (list_eqb k) t _ Hwf (wfb_delete t k Hwf) (fun k' => lookup_delete t k k' Hwf)).
Qed.

Theorem to_list_delete_prefix t k :
  wfb t = true -> to_list_root (delete_prefix k t) = a_delete_prefix k (to_list t).
Proof.
  intros Hwf.
  exact (to_list_remove (is_prefix k) t _ Hwf (wfb_delete_prefix t k Hwf) (fun k' => lookup_delete_prefix t k k' Hwf)).
Qed.

Lemma to_list_delete_root (r : option (tree V)) k :
  wfb_root r = true -> to_list_root (delete_root k r) = a_delete k (to_list_root r).
Proof. destruct r; [apply to_list_delete | reflexivity]. Qed.

Lemma to_list_delete_prefix_root (r : option (tree V)) k :
  wfb_root r = true -> to_list_root (delete_prefix_root k r) = a_delete_prefix k (to_list_root r).
Proof. destruct r; [apply to_list_delete_prefix | reflexivity]. Qed.

End ToList.

Definition is_nil {A} (l : list A) : bool := match l with [] => true | _ => false end.

Lemma is_nil_map {A B} (g : A -> B) l : is_nil (map g l) = is_nil l.
Proof. destruct l; reflexivity. Qed.

Lemma filter_map_comm {A B} (P : B -> bool) (g : A -> B) l :
  filter P (map g l) = map g (filter (fun x => P (g x)) l).
Proof. induction l as [|a l IH]; cbn; [reflexivity|]. destruct (P (g a)); cbn; rewrite IH; reflexivity. Qed.

Lemma filter_all {A} (P : A -> bool) l : (forall x, In x l -> P x = true) -> filter P l = l.
Proof.
  induction l as [|a l IH]; intros H; cbn; [reflexivity|].
  rewrite (H a (or_introl eq_refl)). f_equal. apply IH. intros x Hx. apply H. right. assumption.
Qed.

Lemma Forall_skipn' {A} (P : A -> Prop) n l : Forall P l -> Forall P (skipn n l).
Proof.
  intros H. revert n. induction H as [|a l Ha H IH]; intros [|n]; cbn; auto.
Qed.

Lemma filter_none {A} (P : A -> bool) l : (forall x, In x l -> P x = false) -> filter P l = [].
Proof.
  induction l as [|a l IH]; intros H; cbn; [reflexivity|].
  rewrite (H a (or_introl eq_refl)). apply IH. intros x Hx. apply H. right. assumption.
Qed.

Section Iterate.
Context {V : Type}.
Implicit Types (t : tree V) (f : forest V).

Lemma to_list_keys_prefix p (ov : option V) cs kv :
  In kv (to_list (Node p ov cs)) -> is_prefix p (fst kv) = true.
Proof.
  rewrite to_list_eq. intros H. apply in_map_iff in H as [x [<- _]]. cbn. apply is_prefix_app.
Qed.

Lemma iterate_spec_mut :
  (forall t k, wfb t = true ->
     iterate k t = filter (fun kv => is_prefix k (fst kv)) (to_list t))
  /\ (forall f c k, sorted_f f = true -> wfb_f f = true ->
     iterate_f c k f = filter (fun kv => is_prefix (c :: k) (fst kv)) (to_list_f f)).
Proof.
  apply tree_forest_ind.
  - intros p ov cs IHf k Hwf. apply wfb_node in Hwf as (Hwf & Hs & _).
    rewrite iterate_eq. pose proof (follow_stem_spec k p) as HF.
    destruct (follow_stem k p) as [|s ps|c k0|cm kc kr sc sr].
    + subst. symmetry. apply filter_all. intros x Hx. eapply to_list_keys_prefix; eassumption.
    + subst. symmetry. apply filter_all. intros x Hx.
      eapply is_prefix_trans; [|eapply to_list_keys_prefix; eassumption]. apply is_prefix_app.
    + subst. rewrite to_list_eq, filter_map_comm. f_equal.
      rewrite filter_app. rewrite IHf by assumption.
      replace (filter _ (match ov with Some v => [([], v)] | None => [] end)) with (@nil (list N * V)).
      * cbn [app]. apply filter_ext. intros [x y]. cbn. rewrite is_prefix_app_l. reflexivity.
      * destruct ov; cbn; [|reflexivity]. rewrite app_nil_r.
        replace (is_prefix (p ++ c :: k0) p) with false; [reflexivity|].
        symmetry. rewrite <- (app_nil_r p) at 2. rewrite is_prefix_app_l. reflexivity.
    + destruct HF as (-> & -> & Hn). symmetry. apply filter_none. intros x Hx.
      rewrite to_list_eq in Hx. apply in_map_iff in Hx as [y [<- _]]. cbn.
      rewrite <- app_assoc, is_prefix_app_l. cbn. destruct (N.eqb_spec kc sc); [congruence | reflexivity].
  - intros c k _ _. reflexivity.
  - intros c0 t IHt r IHr c k Hs Hwf.
    rewrite sorted_f_cons in Hs. apply andb_true_iff in Hs as [Hgt Hs].
    rewrite wfb_f_cons in Hwf. apply andb_true_iff in Hwf as [Hwt Hwr].
    rewrite iterate_f_cons, to_list_f_cons, filter_app, filter_map_comm.
    destruct (N.eqb_spec c c0) as [->|Hne].
    + rewrite IHt by assumption.
      rewrite (filter_none _ (to_list_f r)).
      * rewrite app_nil_r. f_equal. apply filter_ext. intros [x y]. cbn. rewrite N.eqb_refl. reflexivity.
      * intros x Hx. apply (to_list_f_heads_gt c0) in Hx as (c' & rr & Hx & Hlt); [|assumption].
        rewrite Hx. cbn. destruct (N.eqb_spec c0 c'); [lia | reflexivity].
    + rewrite (filter_none _ (to_list t)).
      * cbn [map app]. apply IHr; assumption.
      * intros [x y] _. cbn. destruct (N.eqb_spec c c0); [congruence | reflexivity].
Qed.

Theorem iterate_spec t k :
  wfb t = true -> iterate k t = filter (fun kv => is_prefix k (fst kv)) (to_list t).
Proof. apply iterate_spec_mut. Qed.

Lemma iterate_root_spec (r : option (tree V)) k :
  wfb_root r = true -> iterate_root k r = a_iterate k (to_list_root r).
Proof. destruct r; cbn [iterate_root to_list_root wfb_root]; [apply iterate_spec | reflexivity]. Qed.

Lemma to_list_nonempty_mut :
  (forall t, wfb t = true -> is_nil (to_list t) = false)
  /\ (forall f, wfb_f f = true -> (1 <= flen f)%nat -> is_nil (to_list_f f) = false).
Proof.
  apply tree_forest_ind.
  - intros p ov cs IHf Hwf. apply wfb_node in Hwf as (Hwf & Hs & Hlen).
    rewrite to_list_eq, is_nil_map. destruct ov; [reflexivity|]. cbn [app].
    apply IHf; [assumption|]. specialize (Hlen eq_refl). lia.
  - intros _ H. cbn in H. lia.
  - intros c t IHt r _ Hwf _. rewrite wfb_f_cons in Hwf. apply andb_true_iff in Hwf as [Hwt _].
    rewrite to_list_f_cons. specialize (IHt Hwt). destruct (to_list t); [discriminate | reflexivity].
Qed.

Lemma has_prefix_iterate_mut :
  (forall t k, wfb t = true -> has_prefix k t = negb (is_nil (iterate k t)))
  /\ (forall f c k, wfb_f f = true -> has_prefix_f c k f = negb (is_nil (iterate_f c k f))).
Proof.
  apply tree_forest_ind.
  - intros p ov cs IHf k Hwf. pose proof Hwf as Hwf0. apply wfb_node in Hwf as (Hwf & Hs & _).
    rewrite has_prefix_eq, iterate_eq.
    destruct (follow_stem k p) as [|s ps|c k0|cm kc kr sc sr].
    + rewrite (proj1 to_list_nonempty_mut _ Hwf0). reflexivity.
    + rewrite (proj1 to_list_nonempty_mut _ Hwf0). reflexivity.
    + rewrite is_nil_map. apply IHf. assumption.
    + reflexivity.
  - reflexivity.
  - intros c0 t IHt r IHr c k Hwf. rewrite wfb_f_cons in Hwf. apply andb_true_iff in Hwf as [Hwt Hwr].
    rewrite has_prefix_f_cons, iterate_f_cons. destruct (c =? c0); [|auto].
    rewrite is_nil_map. auto.
Qed.

Lemma has_prefix_root_spec (r : option (tree V)) k :
  wfb_root r = true -> has_prefix_root k r = negb (is_nil (a_iterate k (to_list_root r))).
Proof.
  intros H. rewrite <- iterate_root_spec by assumption.
  destruct r; cbn [has_prefix_root iterate_root]; [|reflexivity].
  apply has_prefix_iterate_mut. assumption.
Qed.

End Iterate.

Section IterateExact.
Context {V : Type}.

Lemma ksorted_map_fst (l : amap V) :
  ksorted l -> StronglySorted (fun a b => lex_ltb a b = true) (map fst l).
Proof.
  induction 1 as [|a l Hs IH Hall]; cbn; constructor; [assumption|].
  rewrite Forall_forall in *. intros x Hx. apply in_map_iff in Hx as [y [<- Hy]]. exact (Hall y Hy).
Qed.

Lemma to_list_in_lookup (t : tree V) k v :
  wfb t = true -> (In (k, v) (to_list t) <-> lookup k t = Some v).
Proof.
  intros Hwf. rewrite <- a_lookup_to_list by assumption. split.
  - apply ksorted_in_lookup. apply ksorted_to_list. assumption.
  - apply a_lookup_in.
Qed.

(** [iterate p t] yields exactly the entries whose key has prefix [p], in strictly
    ascending lexicographic order. *)
Theorem iterate_sorted_exact (t : tree V) p :
  wfb t = true ->
  StronglySorted (fun a b => lex_ltb a b = true) (map fst (iterate p t))
  /\ forall k v, In (k, v) (iterate p t) <-> (is_prefix p k = true /\ lookup k t = Some v).
Proof.
  intros Hwf. rewrite iterate_spec by assumption. split.
  - apply ksorted_map_fst. apply ksorted_filter. apply ksorted_to_list. assumption.
  - intros k v. rewrite filter_In, to_list_in_lookup by assumption. cbn. tauto.
Qed.

End IterateExact.
