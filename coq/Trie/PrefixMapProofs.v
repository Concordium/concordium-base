(** Lemmas about [PrefixMap.v]: the reference-counted prefix trie denotes a multiset of
    byte strings; [check_has_no_prefix] and [is_or_has_prefix] decide exactly the stated
    prefix relations; overflow of a count is an error that changes nothing. *)
From Coq Require Import NArith List Bool Lia.
From CB Require Import Trie.Radix.
From CB Require Import Trie.RadixProofs.
From CB Require Import Trie.PrefixMap.
Import ListNotations.
Local Open Scope N_scope.

Scheme pnode_ind2 := Induction for pnode Sort Prop
  with pforest_ind2 := Induction for pforest Sort Prop.
Combined Scheme pnode_pforest_ind from pnode_ind2, pforest_ind2.

Lemma pn_count_eq k c ch :
  pn_count k (PNode c ch) = match k with [] => c | b :: k' => pf_count b k' ch end.
Proof. destruct k; reflexivity. Qed.
Lemma pf_count_cons b k b' n r :
  pf_count b k (PCons b' n r) = if b =? b' then pn_count k n else pf_count b k r.
Proof. reflexivity. Qed.
Lemma pn_insert_eq k c ch :
  pn_insert k (PNode c ch) =
  match k with
  | [] => if c =? MAXC then None else Some (PNode (c + 1) ch)
  | b :: k' => option_map (PNode c) (pf_insert b k' ch)
  end.
Proof. destruct k; reflexivity. Qed.
Lemma pf_insert_cons b k b' n r :
  pf_insert b k (PCons b' n r) =
  if b =? b' then option_map (fun n' => PCons b' n' r) (pn_insert k n)
  else if b <? b' then Some (PCons b (pn_fresh k) (PCons b' n r))
  else option_map (PCons b' n) (pf_insert b k r).
Proof. reflexivity. Qed.
Lemma pn_delete_eq k c ch :
  pn_delete k (PNode c ch) =
  match k with
  | [] => if 1 <? c then (Some (PNode (c - 1) ch), true) else (pn_mk 0 ch, negb (c =? 0))
  | b :: k' => let (ch', r) := pf_delete b k' ch in (pn_mk c ch', r)
  end.
Proof. destruct k; reflexivity. Qed.
Lemma pf_delete_cons b k b' n r :
  pf_delete b k (PCons b' n r) =
  if b =? b' then
    match pn_delete k n with
    | (Some n', x) => (PCons b' n' r, x)
    | (None, x) => (r, x)
    end
  else let (r', x) := pf_delete b k r in (PCons b' n r', x).
Proof. reflexivity. Qed.
Lemma pn_wf_eq c ch :
  pn_wf (PNode c ch) =
  pf_wf ch && psorted ch && (c <=? MAXC) && (match ch with PNil => negb (c =? 0) | _ => true end).
Proof. reflexivity. Qed.
Lemma pf_wf_cons b n r : pf_wf (PCons b n r) = pn_wf n && pf_wf r.
Proof. reflexivity. Qed.
Lemma psorted_cons b n r : psorted (PCons b n r) = pall_gt b r && psorted r.
Proof. reflexivity. Qed.
Lemma pall_gt_cons b b' n r : pall_gt b (PCons b' n r) = (b <? b') && pall_gt b r.
Proof. reflexivity. Qed.
Lemma pn_no_prefix_eq k c ch :
  pn_no_prefix k (PNode c ch) =
  match k with [] => c =? 0 | b :: k' => if c =? 0 then pf_no_prefix b k' ch else false end.
Proof. destruct k; reflexivity. Qed.
Lemma pf_no_prefix_cons b k b' n r :
  pf_no_prefix b k (PCons b' n r) = if b =? b' then pn_no_prefix k n else pf_no_prefix b k r.
Proof. reflexivity. Qed.
Lemma pn_iohp_eq k c ch :
  pn_iohp k (PNode c ch) =
  match k with [] => true | b :: k' => if c =? 0 then pf_iohp b k' ch else true end.
Proof. destruct k; reflexivity. Qed.
Lemma pf_iohp_cons b k b' n r :
  pf_iohp b k (PCons b' n r) = if b =? b' then pn_iohp k n else pf_iohp b k r.
Proof. reflexivity. Qed.

Lemma pall_gt_trans b b' f : b < b' -> pall_gt b' f = true -> pall_gt b f = true.
Proof.
  intros Hb. induction f as [|x n r IH]; cbn; [reflexivity|].
  intros H. apply andb_true_iff in H as [H1 H2]. apply N.ltb_lt in H1.
  apply andb_true_iff. split; [apply N.ltb_lt; lia | auto].
Qed.

Lemma pn_wf_fresh k : pn_wf (pn_fresh k) = true.
Proof.
  induction k as [|b k IH]; [reflexivity|].
  cbn [pn_fresh]. rewrite pn_wf_eq, pf_wf_cons, IH. reflexivity.
Qed.

Lemma pn_wf_parts c ch :
  pn_wf (PNode c ch) = true ->
  pf_wf ch = true /\ psorted ch = true /\ c <= MAXC /\ (ch = PNil -> c <> 0).
Proof.
  rewrite pn_wf_eq, !andb_true_iff. intros [[[H1 H2] H3] H4]. apply N.leb_le in H3.
  repeat split; auto. intros ->. apply negb_true_iff in H4. apply N.eqb_neq in H4. assumption.
Qed.

Lemma pn_wf_intro c ch :
  pf_wf ch = true -> psorted ch = true -> c <= MAXC -> (ch = PNil -> c <> 0) ->
  pn_wf (PNode c ch) = true.
Proof.
  intros H1 H2 H3 H4. rewrite pn_wf_eq, H1, H2. apply N.leb_le in H3. rewrite H3. cbn [andb].
  destruct ch; [|reflexivity]. apply negb_true_iff, N.eqb_neq. auto.
Qed.

(** Every forest function looks up the child at one label and reads, replaces, adds or drops it:
    [pf_get], [pf_put], [pf_del].  Each operation of the trie is then an induction on the key. *)

Fixpoint pf_get (b : N) (f : pforest) : option pnode :=
  match f with
  | PNil => None
  | PCons b' n r => if b =? b' then Some n else pf_get b r
  end.

Fixpoint pf_put (b : N) (n : pnode) (f : pforest) : pforest :=
  match f with
  | PNil => PCons b n PNil
  | PCons b' n' r =>
      if b =? b' then PCons b' n r else if b <? b' then PCons b n f else PCons b' n' (pf_put b n r)
  end.

Fixpoint pf_del (b : N) (f : pforest) : pforest :=
  match f with
  | PNil => PNil
  | PCons b' n r => if b =? b' then r else PCons b' n (pf_del b r)
  end.

Lemma pf_get_all_gt b f : pall_gt b f = true -> pf_get b f = None.
Proof.
  induction f as [|x n r IH]; cbn; [reflexivity|].
  intros H. apply andb_true_iff in H as [H1 H2]. apply N.ltb_lt in H1.
  destruct (N.eqb_spec b x); [lia | auto].
Qed.

Lemma pf_get_gt b0 b f n : pall_gt b0 f = true -> pf_get b f = Some n -> b0 < b.
Proof.
  induction f as [|x m r IH]; cbn; [discriminate|].
  intros H. apply andb_true_iff in H as [H1 H2]. apply N.ltb_lt in H1.
  destruct (N.eqb_spec b x) as [->|]; [intros _; exact H1 | auto].
Qed.

Lemma pf_get_wf b f n : pf_wf f = true -> pf_get b f = Some n -> pn_wf n = true.
Proof.
  induction f as [|x m r IH]; cbn [pf_get]; [discriminate|].
  rewrite pf_wf_cons. intros H. apply andb_true_iff in H as [H1 H2].
  destruct (b =? x); [intros E; injection E as <-; exact H1 | auto].
Qed.

Lemma pf_get_put b' b n f : pf_get b' (pf_put b n f) = if b' =? b then Some n else pf_get b' f.
Proof.
  induction f as [|x m r IH]; cbn [pf_put pf_get]; [reflexivity|].
  destruct (N.eqb_spec b x) as [->|Hne]; cbn [pf_get]; [destruct (b' =? x); reflexivity|].
  destruct (b <? x); cbn [pf_get]; [reflexivity|]. rewrite IH.
  destruct (N.eqb_spec b' x) as [->|]; [|reflexivity]. destruct (N.eqb_spec x b); [congruence | reflexivity].
Qed.

Lemma pf_get_del b' b f : psorted f = true -> pf_get b' (pf_del b f) = if b' =? b then None else pf_get b' f.
Proof.
  induction f as [|x m r IH]; cbn [pf_del pf_get]; [destruct (b' =? b); reflexivity|].
  rewrite psorted_cons. intros H. apply andb_true_iff in H as [Hgt Hs].
  destruct (N.eqb_spec b x) as [->|Hne]; cbn [pf_get].
  - destruct (N.eqb_spec b' x) as [->|]; [apply pf_get_all_gt, Hgt | reflexivity].
  - rewrite IH by exact Hs. destruct (N.eqb_spec b' x) as [->|]; [|reflexivity].
    destruct (N.eqb_spec x b); [congruence | reflexivity].
Qed.

Lemma pf_put_ne b n f : pf_put b n f <> PNil.
Proof. destruct f as [|x m r]; cbn; [discriminate|]. destruct (b =? x); [discriminate|]. destruct (b <? x); discriminate. Qed.

Lemma pf_put_sorted b n f :
  psorted f = true ->
  psorted (pf_put b n f) = true /\ forall x, pall_gt x f = true -> x < b -> pall_gt x (pf_put b n f) = true.
Proof.
  induction f as [|b0 m r IH]; cbn [pf_put].
  - intros _. split; [reflexivity|]. intros x _ Hx. cbn. apply N.ltb_lt in Hx. rewrite Hx. reflexivity.
  - rewrite psorted_cons. intros H. apply andb_true_iff in H as [Hgt Hs].
    destruct (N.eqb_spec b b0) as [->|Hne]; [|destruct (N.ltb_spec b b0) as [Hlt|Hge]].
    + rewrite psorted_cons, Hgt, Hs. split; [reflexivity|]. intros x Hx _. exact Hx.
    + rewrite !psorted_cons, pall_gt_cons, Hgt, Hs, (pall_gt_trans b b0 r Hlt Hgt), (proj2 (N.ltb_lt _ _) Hlt).
      split; [reflexivity|]. intros x Hx Hxb. rewrite pall_gt_cons, Hx, (proj2 (N.ltb_lt _ _) Hxb). reflexivity.
    + destruct (IH Hs) as [A B]. rewrite psorted_cons, A, (B b0 Hgt ltac:(lia)). split; [reflexivity|].
      intros x Hx Hxb. rewrite pall_gt_cons in *. apply andb_true_iff in Hx as [Hx1 Hx2].
      rewrite Hx1. apply B; assumption.
Qed.

Lemma pf_del_sorted b f :
  psorted f = true ->
  psorted (pf_del b f) = true /\ forall x, pall_gt x f = true -> pall_gt x (pf_del b f) = true.
Proof.
  induction f as [|b0 m r IH]; cbn [pf_del]; [auto|].
  rewrite psorted_cons. intros H. apply andb_true_iff in H as [Hgt Hs].
  destruct (b =? b0).
  - split; [exact Hs|]. intros x Hx. rewrite pall_gt_cons in Hx. apply andb_true_iff in Hx as [_ Hx]. exact Hx.
  - destruct (IH Hs) as [A B]. rewrite psorted_cons, A, (B b0 Hgt). split; [reflexivity|].
    intros x Hx. rewrite pall_gt_cons in *. apply andb_true_iff in Hx as [Hx1 Hx2]. rewrite Hx1. apply B, Hx2.
Qed.

Lemma pf_put_wf b n f : pn_wf n = true -> pf_wf f = true -> pf_wf (pf_put b n f) = true.
Proof.
  intros Hn. induction f as [|b0 m r IH]; cbn [pf_put]; [intros _; rewrite pf_wf_cons, Hn; reflexivity|].
  rewrite pf_wf_cons. intros H. apply andb_true_iff in H as [Hm Hr].
  destruct (b =? b0); [rewrite pf_wf_cons, Hn, Hr; reflexivity|].
  destruct (b <? b0); rewrite !pf_wf_cons, ?Hn, Hm, ?Hr, ?IH; auto.
Qed.

Lemma pf_del_wf b f : pf_wf f = true -> pf_wf (pf_del b f) = true.
Proof.
  induction f as [|b0 m r IH]; cbn [pf_del]; [auto|].
  rewrite pf_wf_cons. intros H. apply andb_true_iff in H as [Hm Hr].
  destruct (b =? b0); [exact Hr|]. rewrite pf_wf_cons, Hm, IH; auto.
Qed.

Lemma pf_count_get b k f : pf_count b k f = match pf_get b f with Some n => pn_count k n | None => 0 end.
Proof. induction f as [|x n r IH]; cbn [pf_get]; [reflexivity|]. rewrite pf_count_cons, IH. destruct (b =? x); reflexivity. Qed.

Lemma pf_no_prefix_get b k f :
  pf_no_prefix b k f = match pf_get b f with Some n => pn_no_prefix k n | None => true end.
Proof. induction f as [|x n r IH]; cbn [pf_get]; [reflexivity|]. rewrite pf_no_prefix_cons, IH. destruct (b =? x); reflexivity. Qed.

Lemma pf_iohp_get b k f : pf_iohp b k f = match pf_get b f with Some n => pn_iohp k n | None => false end.
Proof. induction f as [|x n r IH]; cbn [pf_get]; [reflexivity|]. rewrite pf_iohp_cons, IH. destruct (b =? x); reflexivity. Qed.

Lemma pf_insert_get b k f :
  psorted f = true ->
  pf_insert b k f =
  option_map (fun n' => pf_put b n' f)
             (match pf_get b f with Some n => pn_insert k n | None => Some (pn_fresh k) end).
Proof.
  induction f as [|b0 m r IH]; [reflexivity|].
  rewrite psorted_cons. intros H. apply andb_true_iff in H as [Hgt Hs].
  rewrite pf_insert_cons. cbn [pf_get pf_put]. destruct (N.eqb_spec b b0) as [->|Hne].
  - destruct (pn_insert k m); reflexivity.
  - destruct (N.ltb_spec b b0) as [Hlt|Hge].
    + rewrite (pf_get_all_gt b r (pall_gt_trans b b0 r Hlt Hgt)). reflexivity.
    + rewrite (IH Hs). destruct (pf_get b r) as [n|]; [destruct (pn_insert k n)|]; reflexivity.
Qed.

Lemma pf_delete_get b k f :
  psorted f = true ->
  pf_delete b k f =
  match pf_get b f with
  | None => (f, false)
  | Some n => let (o, x) := pn_delete k n in
              (match o with Some n' => pf_put b n' f | None => pf_del b f end, x)
  end.
Proof.
  induction f as [|b0 m r IH]; [reflexivity|].
  rewrite psorted_cons. intros H. apply andb_true_iff in H as [Hgt Hs].
  rewrite pf_delete_cons. cbn [pf_get pf_put pf_del]. destruct (N.eqb_spec b b0) as [->|Hne].
  - destruct (pn_delete k m) as [[n'|] x]; reflexivity.
  - rewrite (IH Hs). destruct (pf_get b r) as [n|] eqn:G; [|reflexivity].
    pose proof (pf_get_gt b0 b r n Hgt G) as Hlt. destruct (N.ltb_spec b b0); [lia|].
    destruct (pn_delete k n) as [[n'|] x]; reflexivity.
Qed.

Lemma pn_count_fresh k k' : pn_count k' (pn_fresh k) = if list_eqb k k' then 1 else 0.
Proof.
  revert k'. induction k as [|b k IH]; intros [|b' k']; cbn; try reflexivity.
  rewrite (N.eqb_sym b' b). destruct (b =? b'); cbn; [apply IH | reflexivity].
Qed.

Lemma pn_count_put c b n' ch k' :
  pn_count k' (PNode c (pf_put b n' ch)) =
  match k' with
  | b' :: k'' => if b' =? b then pn_count k'' n' else pn_count k' (PNode c ch)
  | [] => c
  end.
Proof.
  rewrite !pn_count_eq. destruct k' as [|b' k'']; [reflexivity|].
  rewrite !pf_count_get, pf_get_put. destruct (b' =? b); reflexivity.
Qed.

Lemma pn_count_insert : forall k n n' k', pn_wf n = true -> pn_insert k n = Some n' ->
  pn_count k' n' = if list_eqb k k' then pn_count k' n + 1 else pn_count k' n.
Proof.
  induction k as [|b k IH]; intros [c ch] n' k' Hwf Hins;
    apply pn_wf_parts in Hwf as (Hw & Hs & _ & _); rewrite pn_insert_eq in Hins.
  - destruct (c =? MAXC); [discriminate|]. injection Hins as <-. rewrite !pn_count_eq. destruct k'; reflexivity.
  - rewrite (pf_insert_get b k ch Hs) in Hins.
    destruct (pf_get b ch) as [n|] eqn:G;
      [destruct (pn_insert k n) as [n1|] eqn:E; [|discriminate]|]; injection Hins as <-;
      rewrite pn_count_put; destruct k' as [|b' k']; try reflexivity;
      cbn [list_eqb]; rewrite (N.eqb_sym b b'); destruct (N.eqb_spec b' b) as [->|]; cbn [andb]; try reflexivity;
      rewrite pn_count_eq, pf_count_get, G.
    + exact (IH n n1 k' (pf_get_wf b ch n Hw G) E).
    + rewrite pn_count_fresh. destruct (list_eqb k k'); reflexivity.
Qed.

(** Overflow: the insertion fails exactly when the count is [u32::MAX]. *)
Lemma pn_insert_none : forall k n, pn_wf n = true -> (pn_insert k n = None <-> pn_count k n = MAXC).
Proof.
  induction k as [|b k IH]; intros [c ch] Hwf; apply pn_wf_parts in Hwf as (Hw & Hs & _ & _);
    rewrite pn_insert_eq, pn_count_eq.
  - destruct (N.eqb_spec c MAXC); split; congruence.
  - rewrite (pf_insert_get b k ch Hs), pf_count_get. destruct (pf_get b ch) as [n|] eqn:G.
    + rewrite <- (IH n (pf_get_wf b ch n Hw G)). destruct (pn_insert k n); cbn; split; congruence.
    + cbn. split; [discriminate | intros H; inversion H].
Qed.

Lemma pn_wf_put c b n' ch :
  pn_wf (PNode c ch) = true -> pn_wf n' = true -> pn_wf (PNode c (pf_put b n' ch)) = true.
Proof.
  intros Hwf Hn. apply pn_wf_parts in Hwf as (Hw & Hs & Hc & _).
  apply pn_wf_intro; [apply pf_put_wf; assumption | apply pf_put_sorted, Hs | exact Hc|].
  intros E. destruct (pf_put_ne _ _ _ E).
Qed.

Lemma pn_wf_insert : forall k n n', pn_wf n = true -> pn_insert k n = Some n' -> pn_wf n' = true.
Proof.
  induction k as [|b k IH]; intros [c ch] n' Hwf Hins; pose proof Hwf as Hwf0;
    apply pn_wf_parts in Hwf as (Hw & Hs & Hc & Hnil); rewrite pn_insert_eq in Hins.
  - destruct (N.eqb_spec c MAXC) as [|Hne]; [discriminate|]. injection Hins as <-.
    apply pn_wf_intro; auto; lia.
  - rewrite (pf_insert_get b k ch Hs) in Hins. destruct (pf_get b ch) as [n|] eqn:G.
    + destruct (pn_insert k n) as [n1|] eqn:E; [|discriminate]. injection Hins as <-.
      apply pn_wf_put; [exact Hwf0 | exact (IH n n1 (pf_get_wf b ch n Hw G) E)].
    + injection Hins as <-. apply pn_wf_put; [exact Hwf0 | apply pn_wf_fresh].
Qed.

Lemma pm_count_mk k' c ch : pm_count k' (pn_mk c ch) = pn_count k' (PNode c ch).
Proof.
  unfold pn_mk. destruct ch as [|b n r]; [|reflexivity].
  destruct (N.eqb_spec c 0) as [->|Hc]; [|reflexivity].
  cbn [pm_count]. rewrite pn_count_eq. destruct k'; reflexivity.
Qed.

Lemma pm_wf_mk c ch :
  pf_wf ch = true -> psorted ch = true -> c <= MAXC -> pm_wf (pn_mk c ch) = true.
Proof.
  intros H1 H2 H3. unfold pn_mk. destruct ch as [|b n r].
  - destruct (N.eqb_spec c 0); [reflexivity|]. cbn [pm_wf]. apply pn_wf_intro; auto.
  - cbn [pm_wf]. apply pn_wf_intro; auto. discriminate.
Qed.

Lemma pn_delete_spec : forall k n k', pn_wf n = true ->
  snd (pn_delete k n) = negb (pn_count k n =? 0)
  /\ pm_count k' (fst (pn_delete k n)) = (if list_eqb k k' then pn_count k' n - 1 else pn_count k' n)
  /\ pm_wf (fst (pn_delete k n)) = true.
Proof.
  induction k as [|b k IH]; intros [c ch] k' Hwf; apply pn_wf_parts in Hwf as (Hw & Hs & Hc & Hnil);
    rewrite pn_delete_eq.
  - rewrite pn_count_eq. destruct (N.ltb_spec 1 c) as [Hlt|Hge]; cbn [fst snd].
    + split; [|split].
      * destruct (N.eqb_spec c 0); [lia | reflexivity].
      * cbn [pm_count]. rewrite !pn_count_eq. destruct k'; reflexivity.
      * cbn [pm_wf]. apply pn_wf_intro; auto; try lia; intros E; specialize (Hnil E); lia.
    + split; [reflexivity|]. split.
      * rewrite pm_count_mk, !pn_count_eq. destruct k'; cbn [list_eqb]; [lia | reflexivity].
      * apply pm_wf_mk; auto. unfold MAXC. lia.
  - rewrite (pf_delete_get b k ch Hs), pn_count_eq, pf_count_get. destruct (pf_get b ch) as [n|] eqn:G.
    + pose proof (pf_get_wf b ch n Hw G) as Hn. destruct (IH n k Hn) as (A & _ & C).
      assert (B : forall k', pm_count k' (fst (pn_delete k n)) =
                    (if list_eqb k k' then pn_count k' n - 1 else pn_count k' n)) by (intros k''; apply IH, Hn).
      destruct (pn_delete k n) as [[n1|] x]; cbn [fst snd pm_count pm_wf] in *; (split; [exact A|]);
        rewrite pm_count_mk.
      * split; [|apply pm_wf_mk; [apply pf_put_wf; assumption | apply pf_put_sorted, Hs | exact Hc]].
        rewrite pn_count_put. destruct k' as [|b' k']; [reflexivity|]. cbn [list_eqb].
        rewrite (N.eqb_sym b b'). destruct (N.eqb_spec b' b) as [->|]; cbn [andb]; [|reflexivity].
        rewrite pn_count_eq, pf_count_get, G. apply B.
      * split; [|apply pm_wf_mk; [apply pf_del_wf, Hw | apply pf_del_sorted, Hs | exact Hc]].
        rewrite !pn_count_eq. destruct k' as [|b' k']; [reflexivity|]. cbn [list_eqb].
        rewrite !pf_count_get, (pf_get_del b' b ch Hs), (N.eqb_sym b b').
        destruct (N.eqb_spec b' b) as [->|]; cbn [andb]; [|reflexivity]. rewrite G. apply B.
    + cbn [fst snd]. split; [reflexivity|]. rewrite pm_count_mk, pn_count_eq. split.
      * destruct k' as [|b' k']; [reflexivity|]. cbn [list_eqb]. rewrite pf_count_get.
        destruct (N.eqb_spec b b') as [<-|]; cbn [andb]; [|reflexivity]. rewrite G. destruct (list_eqb k k'); reflexivity.
      * apply pm_wf_mk; assumption.
Qed.

Lemma pn_no_prefix_spec : forall k n,
  pn_no_prefix k n = true <-> (forall p, is_prefix p k = true -> pn_count p n = 0).
Proof.
  induction k as [|b k IH]; intros [c ch]; rewrite pn_no_prefix_eq.
  - rewrite N.eqb_eq. split.
    + intros -> p Hp. destruct p; [reflexivity | discriminate].
    + intros H. apply (H []). reflexivity.
  - destruct (N.eqb_spec c 0) as [->|Hc].
    + (* keys under [b :: _]: the child at [b] *)
      assert (X : (forall p, is_prefix p (b :: k) = true -> pn_count p (PNode 0 ch) = 0)
                  <-> (forall p, is_prefix p k = true -> pf_count b p ch = 0)).
      { split.
        - intros H p Hp. apply (H (b :: p)). cbn. rewrite N.eqb_refl. exact Hp.
        - intros H p Hp. rewrite pn_count_eq. destruct p as [|x p]; [reflexivity|].
          cbn in Hp. apply andb_true_iff in Hp as [Hx Hp]. apply N.eqb_eq in Hx. subst. auto. }
      rewrite X, pf_no_prefix_get. destruct (pf_get b ch) as [n|] eqn:G.
      * rewrite IH. split; intros H p Hp; specialize (H p Hp); rewrite pf_count_get, G in *; exact H.
      * split; [|reflexivity]. intros _ p _. rewrite pf_count_get, G. reflexivity.
    + split; [discriminate|]. intros H. exfalso. apply Hc. apply (H []). reflexivity.
Qed.

Lemma pn_wf_inhabited_mut :
  (forall n, pn_wf n = true -> exists p, 0 < pn_count p n)
  /\ (forall f, pf_wf f = true -> f <> PNil -> exists b p, 0 < pf_count b p f).
Proof.
  apply pnode_pforest_ind.
  - intros c ch IHf Hwf. apply pn_wf_parts in Hwf as (Hw & Hs & Hc & Hnil).
    destruct ch as [|b n r].
    + exists []. rewrite pn_count_eq. specialize (Hnil eq_refl). lia.
    + destruct (IHf Hw ltac:(discriminate)) as (b' & p & H). exists (b' :: p). rewrite pn_count_eq. exact H.
  - intros _ H. congruence.
  - intros b n IHn r _ Hwf _. rewrite pf_wf_cons in Hwf. apply andb_true_iff in Hwf as [Hwn _].
    destruct (IHn Hwn) as [p H]. exists b, p. rewrite pf_count_cons, N.eqb_refl. exact H.
Qed.

Lemma pn_iohp_spec : forall k n, pn_wf n = true ->
  (pn_iohp k n = true <->
   exists p, 0 < pn_count p n /\ (is_prefix p k = true \/ is_prefix k p = true)).
Proof.
  induction k as [|b k IH]; intros [c ch] Hwf; pose proof Hwf as Hwf0;
    apply pn_wf_parts in Hwf as (Hw & Hs & Hc & Hnil); rewrite pn_iohp_eq.
  - split; [|reflexivity]. intros _.
    destruct (proj1 pn_wf_inhabited_mut _ Hwf0) as [p Hp]. exists p. split; [exact Hp|]. right. reflexivity.
  - destruct (N.eqb_spec c 0) as [->|Hc0].
    + (* a positive key comparable with [b :: k] lies below the child at [b] *)
      assert (X : (exists p, 0 < pn_count p (PNode 0 ch) /\ (is_prefix p (b :: k) = true \/ is_prefix (b :: k) p = true))
                  <-> (exists p, 0 < pf_count b p ch /\ (is_prefix p k = true \/ is_prefix k p = true))).
      { split.
        - intros (p & Hp & Hrel). rewrite pn_count_eq in Hp. destruct p as [|x p]; [lia|].
          cbn in Hrel. rewrite (N.eqb_sym b x) in Hrel.
          destruct (N.eqb_spec x b) as [->|Hx]; cbn in Hrel; [|destruct Hrel; discriminate].
          exists p. split; assumption.
        - intros (p & Hp & Hrel). exists (b :: p). rewrite pn_count_eq. split; [exact Hp|].
          cbn. rewrite N.eqb_refl. exact Hrel. }
      rewrite X, pf_iohp_get. destruct (pf_get b ch) as [n|] eqn:G.
      * rewrite (IH n (pf_get_wf b ch n Hw G)).
        split; intros (p & Hp & Hrel); exists p; rewrite pf_count_get, G in *; auto.
      * split; [discriminate|]. intros (p & Hp & _). rewrite pf_count_get, G in Hp. lia.
    + split; [|reflexivity]. intros _. exists []. rewrite pn_count_eq. split; [lia|]. left. reflexivity.
Qed.

Lemma pm_count_insert k m m' k' :
  pm_wf m = true -> pm_insert k m = Some m' ->
  pm_count k' m' = if list_eqb k k' then pm_count k' m + 1 else pm_count k' m.
Proof.
  destruct m as [n|]; cbn [pm_wf pm_insert pm_count].
  - intros Hwf H. destruct (pn_insert k n) as [n'|] eqn:E; [|discriminate]. cbn in H. inversion H; subst.
    cbn [pm_count]. eapply pn_count_insert; eassumption.
  - intros _ H. inversion H; subst. cbn [pm_count]. rewrite pn_count_fresh. destruct (list_eqb k k'); reflexivity.
Qed.

Lemma pm_insert_none k m : pm_wf m = true -> (pm_insert k m = None <-> pm_count k m = MAXC).
Proof.
  destruct m as [n|]; cbn [pm_wf pm_insert pm_count].
  - intros Hwf. rewrite <- (pn_insert_none k n Hwf).
    destruct (pn_insert k n); cbn; split; intros H; (discriminate H || reflexivity).
  - intros _. split; [discriminate | intros H; inversion H].
Qed.

Lemma pm_wf_insert k m m' : pm_wf m = true -> pm_insert k m = Some m' -> pm_wf m' = true.
Proof.
  destruct m as [n|]; cbn [pm_wf pm_insert].
  - intros Hwf H. destruct (pn_insert k n) as [n'|] eqn:E; [|discriminate]. cbn in H. inversion H; subst.
    cbn [pm_wf]. eapply pn_wf_insert; eassumption.
  - intros _ H. inversion H; subst. cbn [pm_wf]. apply pn_wf_fresh.
Qed.

Lemma pm_delete_spec k m k' :
  pm_wf m = true ->
  snd (pm_delete k m) = negb (pm_count k m =? 0)
  /\ pm_count k' (fst (pm_delete k m)) = (if list_eqb k k' then pm_count k' m - 1 else pm_count k' m)
  /\ pm_wf (fst (pm_delete k m)) = true.
Proof.
  destruct m as [n|].
  - intros Hwf. destruct (pn_delete_spec k n k' Hwf) as (A & B & C).
    unfold pm_delete. cbn [pm_count].
    split; [exact A|]. split; [exact B | exact C].
  - intros _. cbn. repeat split; auto. destruct (list_eqb k k'); reflexivity.
Qed.

Lemma pm_no_prefix_spec k m :
  pm_no_prefix k m = true <-> (forall p, is_prefix p k = true -> pm_count p m = 0).
Proof.
  destruct m as [n|]; cbn [pm_no_prefix pm_count]; [apply pn_no_prefix_spec|]. split; auto.
Qed.

Lemma pm_iohp_spec k m :
  pm_wf m = true ->
  (pm_iohp k m = true <->
   exists p, 0 < pm_count p m /\ (is_prefix p k = true \/ is_prefix k p = true)).
Proof.
  destruct m as [n|]; cbn [pm_wf pm_iohp pm_count]; [apply pn_iohp_spec|].
  intros _. split; [discriminate|]. intros (p & Hp & _). lia.
Qed.

Lemma bag_count_cons k x b :
  bag_count k (x :: b) = if list_eqb k x then bag_count k b + 1 else bag_count k b.
Proof.
  unfold bag_count. cbn [filter]. destruct (list_eqb k x); [|reflexivity].
  cbn [length]. lia.
Qed.

Lemma bag_count_pos k b : 0 < bag_count k b <-> In k b.
Proof.
  induction b as [|x b IH]; [cbn; split; [lia | intros []]|].
  rewrite bag_count_cons. destruct (list_eqb k x) eqn:E.
  - apply list_eqb_spec in E. subst. split; [intros _; left; reflexivity | lia].
  - rewrite IH. apply list_eqb_neq in E. split; [intros H; right; exact H | intros [H|H]; [congruence | exact H]].
Qed.

Lemma bag_count_remove k b k' :
  bag_count k' (bag_remove k b) = if list_eqb k k' then bag_count k' b - 1 else bag_count k' b.
Proof.
  induction b as [|x b IH]; cbn [bag_remove].
  - destruct (list_eqb k k'); reflexivity.
  - destruct (list_eqb k x) eqn:E.
    + apply list_eqb_spec in E. subst x. rewrite bag_count_cons, (list_eqb_sym k' k).
      destruct (list_eqb k k'); [lia | reflexivity].
    + rewrite !bag_count_cons, IH. destruct (list_eqb k' x) eqn:E2; [|reflexivity].
      apply list_eqb_spec in E2. subst x. rewrite E. reflexivity.
Qed.

Definition PInv (m : pmap) (b : bag) : Prop :=
  pm_wf m = true /\ forall k, pm_count k m = bag_count k b.

Lemma bool_eq_iff (a b : bool) : (a = true <-> b = true) -> a = b.
Proof. destruct a, b; intros [H1 H2]; auto; try (symmetry; auto). Qed.

Lemma pm_step_refines o m b :
  PInv m b ->
  snd (pm_step o m) = snd (bag_step o b) /\ PInv (fst (pm_step o m)) (fst (bag_step o b)).
Proof.
  intros [Hwf Hc]. destruct o as [k|k|k|k]; cbn [pm_step bag_step].
  - destruct (N.eqb_spec (bag_count k b) MAXC) as [E|E].
    + assert (X : pm_insert k m = None) by (apply pm_insert_none; [assumption | rewrite Hc; exact E]).
      rewrite X. cbn. split; [reflexivity | split; assumption].
    + destruct (pm_insert k m) as [m'|] eqn:X.
      * cbn [fst snd]. split; [reflexivity|]. split; [eapply pm_wf_insert; eassumption|].
        intros k'. rewrite (pm_count_insert k m m' k' Hwf X), bag_count_cons, Hc, (list_eqb_sym k' k).
        reflexivity.
      * exfalso. apply E. rewrite <- Hc. apply pm_insert_none; assumption.
  - destruct (pm_delete_spec k m k Hwf) as (A & _ & C).
    cbn [fst snd]. split; [rewrite A, Hc; reflexivity|]. split; [exact C|].
    intros k'. destruct (pm_delete_spec k m k' Hwf) as (_ & B & _).
    rewrite B, bag_count_remove, Hc. reflexivity.
  - cbn [fst snd]. split; [|split; assumption].
    apply bool_eq_iff. rewrite pm_no_prefix_spec, negb_true_iff. split.
    + intros H. destruct (existsb (fun p => is_prefix p k) b) eqn:E; [|reflexivity].
      apply existsb_exists in E as (p & Hin & Hp). specialize (H p Hp). rewrite Hc in H.
      apply bag_count_pos in Hin. lia.
    + intros H p Hp. rewrite Hc. destruct (N.eq_0_gt_0_cases (bag_count p b)) as [Z|Z]; [exact Z|].
      apply bag_count_pos in Z. exfalso.
      assert (X : existsb (fun p => is_prefix p k) b = true) by (apply existsb_exists; eauto).
      congruence.
  - cbn [fst snd]. split; [|split; assumption].
    apply bool_eq_iff. rewrite (pm_iohp_spec k m Hwf), existsb_exists. split.
    + intros (p & Hp & Hrel). rewrite Hc in Hp. apply bag_count_pos in Hp. exists p. split; [exact Hp|].
      apply orb_true_iff. exact Hrel.
    + intros (p & Hin & Hrel). exists p. rewrite Hc. split; [apply bag_count_pos; exact Hin|].
      apply orb_true_iff. exact Hrel.
Qed.

Theorem pm_run_refines ops m b :
  PInv m b ->
  snd (pm_run ops m) = snd (bag_run ops b) /\ PInv (fst (pm_run ops m)) (fst (bag_run ops b)).
Proof.
  revert m b. induction ops as [|o ops IH]; intros m b Hinv; cbn [pm_run bag_run].
  - cbn. split; [reflexivity | assumption].
  - destruct (pm_step_refines o m b Hinv) as [Hout Hinv'].
    destruct (pm_step o m) as [m' x]. destruct (bag_step o b) as [b' y]. cbn [fst snd] in *.
    destruct (IH m' b' Hinv') as [Houts Hinv''].
    destruct (pm_run ops m') as [m'' xs]. destruct (bag_run ops b') as [b'' ys]. cbn [fst snd] in *.
    split; [congruence | assumption].
Qed.

Lemma PInv_init : PInv None [].
Proof. split; reflexivity. Qed.
