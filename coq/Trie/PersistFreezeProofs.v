(** Thaw - modify - freeze keeps a state consistent with the backing store, and [freeze]
    charges exactly the rebuilt nodes and the owned values.

    [pre_cons st t] is the invariant of a *mutable* tree: every subtree that is still
    all-original (no dropped origin, no owned value below it) is where its reference says,
    and every borrowed long value is where its reference says.  It follows from
    [consistent], is preserved by insert / delete / delete_prefix / get_mut+write, and
    gives [consistent] back after [freeze]. *)
From Coq Require Import NArith PeanoNat List Bool Lia.
From CB Require Import Trie.Radix.
From CB Require Import Trie.MerkleHash.
From CB Require Import Trie.Persist.
From CB Require Import Trie.PersistProofs.
Import ListNotations.
Local Open Scope N_scope.

(** A node is paid for iff it is rebuilt, i.e. iff it or something below it lost its
    origin or holds an owned value; a value is paid for iff it is owned. *)
Fixpoint charge_spec (t : atree) : N :=
  match t with
  | AN o p ov cs =>
      (if all_orig (AN o p ov cs) then 0 else path_charge (lenN p) + 9 * N.of_nat (aflen cs))
      + value_charge ov + charge_spec_f cs
  end
with charge_spec_f (f : aforest) : N :=
  match f with
  | ANil => 0
  | ACons _ t r => charge_spec t + charge_spec_f r
  end.

Lemma freeze_aflen f : aflen (snd (fst (freeze_f f))) = aflen f.
Proof.
  induction f as [|c t r IH]; [reflexivity|]. cbn [freeze_f].
  destruct (freeze t) as [[ch1 t'] n1]. destruct (freeze_f r) as [[ch2 r'] n2]. cbn [fst snd aflen] in *.
  rewrite IH. reflexivity.
Qed.

Lemma freeze_charge_mut :
  (forall t, fst (fst (freeze t)) = negb (all_orig t) /\ snd (freeze t) = charge_spec t)
  /\ (forall f, fst (fst (freeze_f f)) = negb (all_orig_f f) /\ snd (freeze_f f) = charge_spec_f f).
Proof.
  apply atree_aforest_ind.
  - intros o p ov cs IH. pose proof (freeze_aflen cs) as Hlen.
    cbn [freeze charge_spec]. destruct (freeze_f cs) as [[chc cs'] nc]. cbn [fst snd] in *.
    destruct IH as [IHc IHn]. subst chc nc. rewrite Hlen.
    cbn [all_orig].
    destruct o as [l|]; destruct (value_owned ov) eqn:Ev; destruct (all_orig_f cs) eqn:Ec;
      cbn [negb orb andb fst snd]; split; try reflexivity; lia.
  - split; reflexivity.
  - intros c t [IHt1 IHt2] r [IHr1 IHr2]. cbn [freeze_f charge_spec_f all_orig_f].
    destruct (freeze t) as [[ch1 t'] n1]. destruct (freeze_f r) as [[ch2 r'] n2]. cbn [fst snd] in *.
    subst. split; [|reflexivity]. rewrite negb_andb. reflexivity.
Qed.

Theorem freeze_root_charge r :
  snd (freeze_root r) = match r with Some t => charge_spec t | None => 0 end.
Proof.
  destruct r as [t|]; [|reflexivity]. cbn [freeze_root].
  pose proof (proj2 (proj1 freeze_charge_mut t)) as H. destruct (freeze t) as [[ch t'] n]. exact H.
Qed.

Section ThawFreeze.
Variable sha256 : list N -> list N.

Definition vcons (st : store) (ov : option aval) : Prop :=
  value_owned ov = false -> value_consistent st ov.

Fixpoint pre_cons (st : store) (t : atree) : Prop :=
  match t with
  | AN o p ov cs =>
      (all_orig (AN o p ov cs) = true ->
       match o with
       | Some (Some r) => loads sha256 st r (Node p (option_map fst ov) (erase_f cs)) /\ r < s_next st
       | _ => True
       end)
      /\ vcons st ov /\ pre_cons_f st cs
  end
with pre_cons_f (st : store) (f : aforest) : Prop :=
  match f with ANil => True | ACons _ t r => pre_cons st t /\ pre_cons_f st r end.

Lemma consistent_pre_mut st :
  (forall t, consistent sha256 st t -> pre_cons st t)
  /\ (forall f, consistent_f sha256 st f -> pre_cons_f st f).
Proof.
  apply atree_aforest_ind.
  - intros o p ov cs IH (A & B & C). cbn [pre_cons]. split; [intros _; exact A|].
    split; [intros _; exact B | apply IH; exact C].
  - auto.
  - intros c t IHt r IHr [A B]. split; [apply IHt; exact A | apply IHr; exact B].
Qed.

Lemma pre_orig_cons_mut st :
  (forall t, all_orig t = true -> pre_cons st t -> consistent sha256 st t)
  /\ (forall f, all_orig_f f = true -> pre_cons_f st f -> consistent_f sha256 st f).
Proof.
  apply atree_aforest_ind.
  - intros o p ov cs IH Ho (A & B & C). pose proof Ho as Ho'. cbn [all_orig] in Ho'.
    apply andb_true_iff in Ho' as [Ho' Hc]. apply andb_true_iff in Ho' as [_ Hv]. apply negb_true_iff in Hv.
    cbn [consistent]. split; [exact (A Ho)|]. split; [exact (B Hv) | apply IH; assumption].
  - auto.
  - intros c t IHt r IHr Ho [A B]. cbn [all_orig_f] in Ho. apply andb_true_iff in Ho as [Ht Hr].
    split; [apply IHt; assumption | apply IHr; assumption].
Qed.

Lemma freeze_consistent_mut st :
  (forall t, pre_cons st t -> consistent sha256 st (snd (fst (freeze t))))
  /\ (forall f, pre_cons_f st f -> consistent_f sha256 st (snd (fst (freeze_f f)))).
Proof.
  apply atree_aforest_ind.
  - intros o p ov cs IH Hp.
    destruct (fst (fst (freeze (AN o p ov cs)))) eqn:Ech.
    + destruct Hp as (_ & B & C). specialize (IH C). cbn [freeze] in *.
      destruct (freeze_f cs) as [[chc cs'] nc]. cbn [fst snd] in *.
      assert (G : consistent sha256 st (AN (Some None) p (freeze_val ov) cs')).
      { cbn [consistent]. split; [exact I|]. split; [|exact IH].
        destruct ov as [[v [l|]]|]; cbn [freeze_val]; [apply B; reflexivity | exact I | exact I]. }
      destruct o as [l|]; destruct (value_owned ov); destruct chc; cbn [orb fst snd] in *;
        try exact G; discriminate.
    + destruct (proj1 freeze_inv_mut (AN o p ov cs)) as (A & _ & E). destruct (E Ech) as [Et _].
      rewrite Et in *. apply (proj1 (pre_orig_cons_mut st)); assumption.
  - intros _. exact I.
  - intros c t IHt r IHr [A B]. cbn [freeze_f]. specialize (IHt A). specialize (IHr B).
    destruct (freeze t) as [[ch1 t'] n1]. destruct (freeze_f r) as [[ch2 r'] n2]. cbn [fst snd] in *.
    split; assumption.
Qed.

Lemma pre_cons_leaf st k v : pre_cons st (new_leaf k v).
Proof.
  unfold new_leaf. cbn [pre_cons pre_cons_f]. split; [cbn [all_orig andb]; discriminate|].
  split; [unfold vcons; cbn; discriminate | exact I].
Qed.

Lemma pre_cons_none st p ov cs : vcons st ov -> pre_cons_f st cs -> pre_cons st (AN None p ov cs).
Proof. intros A B. cbn [pre_cons]. split; [cbn [all_orig andb]; discriminate | auto]. Qed.

Lemma vcons_owned st v : vcons st (Some (v, None)).
Proof. unfold vcons. cbn. discriminate. Qed.

Lemma pre_cons_insert_mut st :
  (forall t k v, pre_cons st t -> pre_cons st (a_insert k v t))
  /\ (forall f c k v, pre_cons_f st f -> pre_cons_f st (a_insert_f c k v f)).
Proof.
  apply atree_aforest_ind.
  - intros o p ov cs IH k v (A & B & C). cbn [a_insert].
    destruct (follow_stem k p) as [|s ps|c k'|cm kc kr sc sr].
    + apply pre_cons_none; [apply vcons_owned | exact C].
    + apply pre_cons_none; [apply vcons_owned|]. cbn [pre_cons_f]. split; [|exact I].
      apply pre_cons_none; assumption.
    + apply pre_cons_none; [exact B | apply IH; exact C].
    + apply pre_cons_none; [unfold vcons; cbn; intros _; exact I|].
      destruct (kc <? sc); cbn [pre_cons_f]; repeat split;
        try apply pre_cons_leaf; try (apply pre_cons_none; assumption); try assumption.
  - intros c k v _. cbn [a_insert_f pre_cons_f]. split; [apply pre_cons_leaf | exact I].
  - intros c' t IHt r IHr c k v [A B]. cbn [a_insert_f].
    destruct (c =? c'); [split; [apply IHt; exact A | exact B]|].
    destruct (c <? c'); [split; [apply pre_cons_leaf | split; assumption]|].
    split; [exact A | apply IHr; exact B].
Qed.

(** ** delete / delete_prefix: a result that is still all-original is the argument itself *)
Lemma a_upd_f_len g c f : (aflen (a_upd_f g c f) <= aflen f)%nat.
Proof.
  induction f as [|c' t r IH]; [cbn; lia|]. cbn [a_upd_f].
  destruct (c =? c'); [destruct (g t); cbn [aflen]; lia | cbn [aflen]; lia].
Qed.

Lemma collapse_orig o p ov cs cs0 t' :
  a_collapse (shrunk o cs0 cs) p ov cs = Some t' -> all_orig t' = true ->
  (aflen cs <= aflen cs0)%nat ->
  t' = AN o p ov cs /\ aflen cs = aflen cs0 /\ all_orig_f cs = true.
Proof.
  intros E Ho Hle.
  assert (Hplain : Some (AN (shrunk o cs0 cs) p ov cs) = Some t' ->
                   t' = AN o p ov cs /\ aflen cs = aflen cs0 /\ all_orig_f cs = true).
  { intros E'. injection E' as <-. cbn [all_orig] in Ho. unfold shrunk in *.
    destruct (Nat.ltb_spec (aflen cs) (aflen cs0)) as [Hlt|Hge]; [cbn in Ho; discriminate|].
    apply andb_true_iff in Ho as [_ Hc]. repeat split; [lia | exact Hc]. }
  unfold a_collapse in E. destruct ov as [[v a]|]; [apply Hplain; exact E|].
  destruct cs as [|c [o' cp cv ccs] [|c2 t2 r2]]; try (apply Hplain; exact E); [discriminate|].
  injection E as <-. cbn [all_orig andb] in Ho. discriminate.
Qed.

Lemma a_upd_f_same g c f :
  (forall t t', a_get c f = Some t -> g t = Some t' -> all_orig t' = true -> t' = t) ->
  all_orig_f (a_upd_f g c f) = true -> aflen (a_upd_f g c f) = aflen f -> a_upd_f g c f = f.
Proof.
  induction f as [|c' t r IH]; intros Hg Ho Hl; [reflexivity|]. cbn [a_upd_f a_get] in *. destruct (c =? c').
  - destruct (g t) as [t1|] eqn:E.
    + cbn [all_orig_f] in Ho. apply andb_true_iff in Ho as [Ht _]. rewrite (Hg t t1 eq_refl E Ht). reflexivity.
    + cbn [aflen] in Hl. lia.
  - cbn [all_orig_f aflen] in *. apply andb_true_iff in Ho as [_ Hr]. rewrite (IH Hg Hr) by lia. reflexivity.
Qed.

Lemma a_descend_same g o p ov c cs t' :
  (forall t t1, a_get c cs = Some t -> g t = Some t1 -> all_orig t1 = true -> t1 = t) ->
  a_collapse (shrunk o cs (a_upd_f g c cs)) p ov (a_upd_f g c cs) = Some t' -> all_orig t' = true ->
  t' = AN o p ov cs.
Proof.
  intros Hg E Ho. destruct (collapse_orig _ _ _ _ _ _ E Ho (a_upd_f_len g c cs)) as (-> & Hl & Hc).
  rewrite (a_upd_f_same g c cs Hg Hc Hl). reflexivity.
Qed.

Lemma a_delete_same : forall t k t', a_delete k t = Some t' -> all_orig t' = true -> t' = t.
Proof.
  induction t as [o p ov cs IH] using atree_ind_get. intros k t' E Ho. cbn [a_delete] in E.
  destruct (follow_stem k p) as [|s ps|c k'|cm kc kr sc sr]; try (injection E as <-; reflexivity).
  - destruct ov as [[v a]|]; [|injection E as <-; reflexivity]. exfalso.
    unfold a_collapse in E. destruct cs as [|c [o' cp cv ccs] [|c2 t2 r2]]; try discriminate;
      injection E as <-; cbn [all_orig andb] in Ho; discriminate.
  - rewrite a_delete_f_upd in E. eapply a_descend_same; [|exact E | exact Ho].
    intros t t1 G. exact (IH c t G k' t1).
Qed.

Lemma a_delete_prefix_same : forall t k t', a_delete_prefix k t = Some t' -> all_orig t' = true -> t' = t.
Proof.
  induction t as [o p ov cs IH] using atree_ind_get. intros k t' E Ho. cbn [a_delete_prefix] in E.
  destruct (follow_stem k p) as [|s ps|c k'|cm kc kr sc sr]; try discriminate; try (injection E as <-; reflexivity).
  rewrite a_delete_prefix_f_upd in E. eapply a_descend_same; [|exact E | exact Ho].
  intros t t1 G. exact (IH c t G k' t1).
Qed.

(** The parts of the invariant below the head. *)
Lemma pre_cons_collapse st o p ov cs t' :
  a_collapse o p ov cs = Some t' -> vcons st ov -> pre_cons_f st cs ->
  match t' with AN _ _ ov' cs' => vcons st ov' /\ pre_cons_f st cs' end.
Proof.
  intros E B C. unfold a_collapse in E.
  destruct ov as [[v a]|]; [injection E as <-; auto|].
  destruct cs as [|c [o' cp cv ccs] [|c2 t2 r2]]; try (injection E as <-; auto); [discriminate|].
  destruct C as [(_ & B1 & C1) _]. auto.
Qed.

Lemma pre_cons_of_parts st t t0 :
  (all_orig t = true -> t = t0) -> pre_cons st t0 ->
  match t with AN _ _ ov' cs' => vcons st ov' /\ pre_cons_f st cs' end -> pre_cons st t.
Proof.
  intros Hs H0 Hr. destruct t as [o p ov cs]. destruct Hr as [B C]. cbn [pre_cons]. split; [|auto].
  intros Ho. specialize (Hs Ho). subst t0. destruct H0 as (A & _ & _). exact (A Ho).
Qed.

Lemma pre_cons_upd_f st g c f :
  (forall t t', a_get c f = Some t -> pre_cons st t -> g t = Some t' -> pre_cons st t') ->
  pre_cons_f st f -> pre_cons_f st (a_upd_f g c f).
Proof.
  induction f as [|c' t r IH]; intros Hg H; [exact H|]. destruct H as [A B].
  cbn [a_upd_f a_get] in *. destruct (c =? c').
  - destruct (g t) as [t1|] eqn:E; [split; [exact (Hg t t1 eq_refl A E) | exact B] | exact B].
  - split; [exact A | exact (IH Hg B)].
Qed.

Lemma pre_cons_delete st : forall t k t', pre_cons st t -> a_delete k t = Some t' -> pre_cons st t'.
Proof.
  induction t as [o p ov cs IH] using atree_ind_get. intros k t' Hp E.
  apply (pre_cons_of_parts st t' (AN o p ov cs)); [intros Ho; eapply a_delete_same; eassumption | exact Hp |].
  destruct Hp as (_ & B & C). cbn [a_delete] in E.
  destruct (follow_stem k p) as [|s ps|c k'|cm kc kr sc sr]; try (injection E as <-; auto).
  - destruct ov as [[v a]|]; [|injection E as <-; auto].
    eapply pre_cons_collapse; [exact E | unfold vcons; cbn; intros _; exact I | exact C].
  - rewrite a_delete_f_upd in E. eapply pre_cons_collapse; [exact E | exact B | apply pre_cons_upd_f; [|exact C]].
    intros t t1 G. exact (IH c t G k' t1).
Qed.

Lemma pre_cons_delete_prefix st :
  forall t k t', pre_cons st t -> a_delete_prefix k t = Some t' -> pre_cons st t'.
Proof.
  induction t as [o p ov cs IH] using atree_ind_get. intros k t' Hp E.
  apply (pre_cons_of_parts st t' (AN o p ov cs)); [intros Ho; eapply a_delete_prefix_same; eassumption | exact Hp |].
  destruct Hp as (_ & B & C). cbn [a_delete_prefix] in E.
  destruct (follow_stem k p) as [|s ps|c k'|cm kc kr sc sr]; try discriminate; try (injection E as <-; auto).
  rewrite a_delete_prefix_f_upd in E. eapply pre_cons_collapse; [exact E | exact B | apply pre_cons_upd_f; [|exact C]].
  intros t t1 G. exact (IH c t G k' t1).
Qed.

Lemma a_setval_same_mut :
  (forall t k v, all_orig (a_setval k v t) = true -> a_setval k v t = t)
  /\ (forall f c k v, all_orig_f (a_setval_f c k v f) = true -> a_setval_f c k v f = f).
Proof.
  apply atree_aforest_ind.
  - intros o p ov cs IH k v Ho. cbn [a_setval] in *.
    destruct (follow_stem k p) as [|s ps|c k'|cm kc kr sc sr]; try reflexivity.
    + destruct ov as [[x a]|]; [|reflexivity]. cbn [all_orig value_owned negb andb] in Ho.
      rewrite andb_false_r in Ho. discriminate.
    + cbn [all_orig] in Ho. apply andb_true_iff in Ho as [_ Hc]. rewrite (IH c k' v Hc). reflexivity.
  - reflexivity.
  - intros c' t IHt r IHr c k v Ho. cbn [a_setval_f] in *. destruct (c =? c'); cbn [all_orig_f] in Ho;
      apply andb_true_iff in Ho as [Ht Hr]; [rewrite (IHt k v Ht) | rewrite (IHr c k v Hr)]; reflexivity.
Qed.

Lemma pre_cons_setval_mut st :
  (forall t k v, pre_cons st t -> pre_cons st (a_setval k v t))
  /\ (forall f c k v, pre_cons_f st f -> pre_cons_f st (a_setval_f c k v f)).
Proof.
  apply atree_aforest_ind.
  - intros o p ov cs IH k v Hp.
    apply (pre_cons_of_parts st _ (AN o p ov cs)); [apply (proj1 a_setval_same_mut) | exact Hp |].
    destruct Hp as (_ & B & C). cbn [a_setval].
    destruct (follow_stem k p) as [|s ps|c k'|cm kc kr sc sr]; auto.
    destruct ov as [[x a]|]; [split; [apply vcons_owned | exact C] | auto].
  - auto.
  - intros c' t IHt r IHr c k v [A B]. cbn [a_setval_f]. destruct (c =? c');
      (split; [try apply IHt; assumption | try apply IHr; assumption]).
Qed.

Inductive mop :=
| MInsert (k : list N) (v : value)
| MDelete (k : list N)
| MDelPrefix (k : list N)
| MSetval (k : list N) (v : value).

Definition apply_mop (o : mop) (r : option atree) : option atree :=
  match o, r with
  | MInsert k v, _ => Some (a_insert_root k v r)
  | MDelete k, Some t => a_delete k t
  | MDelPrefix k, Some t => a_delete_prefix k t
  | MSetval k v, Some t => Some (a_setval k v t)
  | _, None => None
  end.

Definition pre_cons_root (st : store) (r : option atree) : Prop :=
  match r with Some t => pre_cons st t | None => True end.
Definition consistent_root (st : store) (r : option atree) : Prop :=
  match r with Some t => consistent sha256 st t | None => True end.

Lemma pre_cons_apply st o r : pre_cons_root st r -> pre_cons_root st (apply_mop o r).
Proof.
  destruct o as [k v|k|k|k v]; destruct r as [t|]; cbn [apply_mop pre_cons_root a_insert_root]; intros H; try exact I.
  - apply (proj1 (pre_cons_insert_mut st)). exact H.
  - apply pre_cons_leaf.
  - destruct (a_delete k t) as [t'|] eqn:E; [|exact I]. eapply pre_cons_delete; eassumption.
  - destruct (a_delete_prefix k t) as [t'|] eqn:E; [|exact I]. eapply pre_cons_delete_prefix; eassumption.
  - apply (proj1 (pre_cons_setval_mut st)). exact H.
Qed.

(** Thaw a state that is consistent with the store, apply any modifying operations,
    freeze: the frozen state is consistent with the store again. *)
Theorem thaw_modify_freeze_consistent_root st (ops : list mop) r :
  consistent_root st r ->
  consistent_root st (fst (freeze_root (fold_left (fun x o => apply_mop o x) ops (thaw r)))).
Proof.
  intros Hc.
  assert (Hp : pre_cons_root st (fold_left (fun x o => apply_mop o x) ops (thaw r))).
  { unfold thaw. assert (H0 : pre_cons_root st r).
    { destruct r as [t|]; [apply (proj1 (consistent_pre_mut st)); exact Hc | exact I]. }
    clear Hc. revert r H0. induction ops as [|o ops IH]; intros r H0; [exact H0|].
    cbn [fold_left]. apply IH. apply pre_cons_apply. exact H0. }
  destruct (fold_left _ ops (thaw r)) as [t|]; [|exact I]. cbn [freeze_root pre_cons_root] in *.
  pose proof (proj1 (freeze_consistent_mut st) t Hp) as H.
  destruct (freeze t) as [[ch t'] n]. exact H.
Qed.

End ThawFreeze.

(** Closing the chain: a state consistent with the store is thawed, modified, frozen and
    stored again - the top record names the root, following the references loads the
    frozen tree with the right hashes, and the resulting states are consistent again. *)
Theorem modified_state_stores (sha256 : list N -> list N) :
  (forall x, length (sha256 x) = 32%nat) ->
  forall st (ops : list mop) r t' st' kept loaded top,
  consistent_root sha256 st r ->
  fst (freeze_root (fold_left (fun x o => apply_mop o x) ops (thaw r))) = Some t' ->
  tree_ok t' -> bounded st ->
  store_update sha256 (Some t') st = (st', kept, loaded, top) -> s_next st' < 2 ^ 64 ->
  erase_root kept = Some (erase t') /\ erase_root loaded = Some (erase t')
  /\ (exists x, root_ref loaded = Some x /\ load_raw st' top = Some (1 :: be64 x)
                /\ loads sha256 st' x (erase t'))
  /\ bounded st'
  /\ (match kept with Some k => consistent sha256 st' k | None => False end)
  /\ (match loaded with Some l => consistent sha256 st' l | None => False end).
Proof.
  intros sha_len st ops r t' st' kept loaded top Hc Ef Hok Hb Es Hn.
  pose proof (thaw_modify_freeze_consistent_root sha256 st ops r Hc) as H. rewrite Ef in H.
  eapply store_update_incremental; eassumption.
Qed.
