(** The copying lookup keeps [Sep] and returns [Radix.lookup] on the view ([get_entry_sep]; no
    generation bookkeeping is used), and every history of [OInsert] / [OGet] from the empty arena
    gives the outputs and final view of the value-level radix machine [r_step]
    ([arena_insert_lookup_history]). *)
From Coq Require Import NArith PeanoNat List Bool Lia.
From CB Require Import Trie.Radix.
From CB Require Import Trie.Locks.
From CB Require Import Trie.Arena.
From CB Require Import Trie.ArenaCow.
From CB Require Import Trie.ArenaTree.
From CB Require Import Trie.ArenaView.
From CB Require Import Trie.ArenaSep.
From CB Require Import Trie.ArenaInsert.
Import ListNotations.

Definition GetPost (a : arena) (idx : nat) (k : list N) (t : tree nat) (fp R : list nat)
           (res : arena * option nat) : Prop :=
  let '(a', oe) := res in
  exists t' fp',
    Grow a None fp R a' idx t' fp'
    /\ a_gens a' = a_gens a
    /\ tmap (a_with_entry a') t' = tmap (a_with_entry a) t
    /\ option_map (a_with_entry a') oe = lookup k (tmap (a_with_entry a) t)
    /\ (forall e, oe = Some e -> In e (tentries t')).

Lemma get_refl a idx k t fp R oe :
  SepAt a idx t fp R ->
  option_map (a_with_entry a) oe = lookup k (tmap (a_with_entry a) t) ->
  (forall e, oe = Some e -> In e (tentries t)) ->
  GetPost a idx k t fp R (a, oe).
Proof. intros H Lo Hin. exists t, fp. split; [exact (Grow_refl a None idx t fp R H) | auto]. Qed.

Theorem get_entry_sep : forall fuel a idx k t fp R,
  length k < fuel -> SepAt a idx t fp R -> wfb t = true ->
  GetPost a idx k t fp R (a_get_entry fuel a idx k).
Proof.
  induction fuel as [|f IH]; intros a idx k t fp R Hk HA Hwf; [lia|].
  destruct t as [p ov cs]. pose proof HA as ((Ep & Ev & _) & _).
  cbn [a_get_entry]. rewrite <- Ep.
  destruct (follow_stem k p) as [|s ps|c k'|cm kc kr sc sr] eqn:HF.
  - rewrite <- Ev. apply get_refl; [exact HA | |].
    + cbn [tmap]. rewrite lookup_node', HF. reflexivity.
    + intros e ->. left. reflexivity.
  - apply get_refl; [exact HA | cbn [tmap]; rewrite lookup_node', HF; reflexivity | discriminate].
  - destruct (mo_grow a idx p ov cs fp R HA Hwf) as (ov1 & cs1 & fp1 & G1 & W1 & Hg1 & Hwff & Hsorted).
    set (a1 := make_owned a idx) in *.
    pose proof G1 as (A1 & _).
    destruct (find_child c (an_ch (node_at a1 idx)) 0) as [[pos i]|] eqn:FC.
    2:{ cbn [GetPost]. exists (Node p ov1 cs1), fp1. split; [exact G1|]. split; [exact Hg1|]. split; [exact W1|].
        split; [|discriminate]. cbn [option_map]. rewrite <- W1. cbn [tmap]. rewrite lookup_node', HF. symmetry.
        destruct A1 as ((_ & _ & fp1' & _ & HTF1) & _). exact (TrF_notfound a1 c cs1 _ fp1' 0 HTF1 FC _ _ _). }
    destruct (descend_sep a1 idx p ov1 cs1 fp1 R c pos i A1 Hsorted FC) as (ti & fpi & R' & Ai & (Hi & Hni) & WF & LK & K).
    assert (Hk' : length k' < f) by (pose proof (follow_stem_shorter k p c k' HF); lia).
    pose proof (IH a1 i k' ti fpi R' Hk' Ai (WF Hwff)) as IHr.
    destruct (a_get_entry f a1 i k') as [a' oe]. cbn [GetPost] in IHr |- *.
    destruct IHr as (ti' & fpi' & Gi & Gg & Vi & Loi & Ini).
    destruct (K a' i ti' fpi' (Grow_weaken _ _ _ _ _ _ _ _ Gi)) as (cs' & fp' & G' & Hin' & _ & Veq).
    { split; [exact Gg|]. rewrite Nat.eqb_refl. exact (Grow_frame _ _ _ _ _ _ _ Gi idx Hi Hni). }
    exists (Node p ov1 cs'), fp'.
    split; [exact (Grow_trans _ _ _ _ _ _ _ _ _ _ _ _ G1 G')|].
    split; [rewrite Gg; exact Hg1|].
    split; [rewrite <- W1; exact (Veq Vi)|].
    split. { rewrite Loi, <- W1. cbn [tmap]. rewrite lookup_node', HF, LK. reflexivity. }
    intros e He. apply Hin', Ini, He.
  - apply get_refl; [exact HA | cbn [tmap]; rewrite lookup_node', HF; reflexivity | discriminate].
Qed.

Theorem lookup_refines a key :
  Sep a ->
  let '(a', oe) := a_lookup_key a key in
  Sep a' /\ cur_root a' = cur_root a
  /\ exists D, forall d, D <= d ->
       rview d a' = rview d a
       /\ option_map (a_with_entry a') oe = lookup_root (nib key) (rview d a).
Proof.
  intros (Hne & HS). unfold a_lookup_key, rview. destruct (cur_root a) as [r|] eqn:Er.
  - destruct HS as (t & fp & HT & Hnd & Hb & Hwf & HE).
    assert (HA : SepAt a r t fp []) by (split; [exact HT|]; split; [exact Hnd|]; split; [exact Hb|]; rewrite app_nil_r; exact HE).
    pose proof (get_entry_sep (S (length (nib key))) a r (nib key) t fp [] (Nat.lt_succ_diag_r _) HA Hwf) as P.
    destruct (a_get_entry (S (length (nib key))) a r (nib key)) as [a' oe]. cbn [GetPost] in P.
    destruct P as (t' & fp' & ((T' & Nd' & B' & S') & _) & Ga & V' & Lo & _). rewrite app_nil_r in S'.
    assert (Er' : cur_root a' = Some r) by (rewrite (cur_root_same_gens a a' Ga); exact Er).
    pose proof (wfb_tmap_eq _ _ _ _ V' Hwf) as Hwf'.
    split. { split; [rewrite Ga; exact Hne|]. rewrite Er'. exists t', fp'. auto. }
    split; [exact Er'|]. exists (Nat.max (theight t) (theight t')). intros d Hd. rewrite Er'. cbn [option_map lookup_root].
    rewrite (Tr_vview a' t' r fp' d T') by lia. rewrite (Tr_vview a t r fp d HT) by lia. rewrite V'. auto.
  - split; [split; [exact Hne | rewrite Er; exact I]|]. split; [exact Er|]. exists 0. intros d _. rewrite Er. auto.
Qed.

(** The value-level radix machine: a radix tree of (optional) values and the number of
    handles handed out. *)
Definition rstate := (option (tree (option value)) * nat)%type.

Definition r_step (o : op) (s : rstate) : rstate * out :=
  match o with
  | OInsert k v =>
      ((Some (insert_root (nib k) (Some v) (fst s)), S (snd s)),
       RHandle (snd s) (is_some (lookup_root (nib k) (fst s))))
  | OGet k =>
      match lookup_root (nib k) (fst s) with
      | Some ov => ((fst s, S (snd s)), RFound (snd s) ov)
      | None => (s, RNone)
      end
  | _ => (s, RSkip)
  end.

Definition r_init : rstate := (None, 0).

Fixpoint r_outs (ops : list op) (s : rstate) : list out :=
  match ops with [] => [] | o :: r => let (s', x) := r_step o s in x :: r_outs r s' end.
Definition r_run (ops : list op) (s : rstate) : rstate := fold_left (fun s o => fst (r_step o s)) ops s.

Fixpoint as_outs (ops : list op) (s : astate) : list out :=
  match ops with [] => [] | o :: r => let (s', x) := as_step o s in x :: as_outs r s' end.

Definition ins_get_op (o : op) : bool := match o with OInsert _ _ | OGet _ => true | _ => false end.

Definition SimR (s : astate) (rs : rstate) : Prop :=
  Sep (as_arena s) /\ snd rs = length (cur_handles s)
  /\ exists D, forall d, D <= d -> rview d (as_arena s) = fst rs.

Lemma SimR_init : SimR as_init r_init.
Proof. split; [exact Sep_empty|]. split; [reflexivity|]. exists 0. reflexivity. Qed.

Lemma push_handle_len s a e : length (cur_handles (push_handle s a e)) = S (length (cur_handles s)).
Proof.
  unfold push_handle, cur_handles. destruct (as_handles s) as [|h r]; cbn [as_handles length]; [reflexivity|].
  rewrite app_length. cbn. lia.
Qed.

Lemma SimR_step o s rs :
  ins_get_op o = true -> SimR s rs ->
  SimR (fst (as_step o s)) (fst (r_step o rs)) /\ snd (as_step o s) = snd (r_step o rs).
Proof.
  intros Ho (HS & Hh & D & HD). destruct o; try discriminate Ho; cbn [as_step r_step].
  - pose proof (insert_refines (as_arena s) k v HS) as P.
    destruct (ar_insert (as_arena s) k v) as [[a1 e] existed]. destruct P as (S1 & We & r' & Er' & D' & HD').
    cbn [fst snd]. destruct (HD' (Nat.max D D') (Nat.le_max_r _ _)) as (_ & Ex). rewrite (HD _ (Nat.le_max_l _ _)) in Ex.
    split; [|rewrite Hh, Ex; reflexivity].
    unfold SimR. rewrite arena_push_handle.
    split; [exact S1|]. split; [rewrite push_handle_len, Hh; reflexivity|]. exists (Nat.max D D'). intros d Hd.
    unfold rview at 1. rewrite Er'. cbn [option_map fst]. destruct (HD' d) as (V & _); [lia|]. rewrite V, HD by lia. reflexivity.
  - pose proof (lookup_refines (as_arena s) k HS) as P.
    destruct (a_lookup_key (as_arena s) k) as [a1 oe]. destruct P as (S1 & Er' & D' & HD').
    destruct (HD' (Nat.max D D') (Nat.le_max_r _ _)) as (_ & Lo). rewrite (HD _ (Nat.le_max_l _ _)) in Lo.
    assert (Vw : forall d, Nat.max D D' <= d -> rview d a1 = fst rs).
    { intros d Hd. destruct (HD' d) as (V & _); [lia|]. rewrite V. apply HD. lia. }
    destruct oe as [e|]; cbn [option_map] in Lo; rewrite <- Lo; cbn [fst snd].
    + split; [|rewrite Hh; reflexivity]. unfold SimR. rewrite arena_push_handle. split; [exact S1|].
      split; [rewrite push_handle_len, Hh; reflexivity|]. exists (Nat.max D D'). exact Vw.
    + split; [|reflexivity]. split; [exact S1|]. split; [exact Hh|]. exists (Nat.max D D'). exact Vw.
Qed.

Section SimRun.
  Variables (RS : Type) (rstep : op -> RS -> RS * out) (ok : op -> bool) (Sim : astate -> RS -> Prop).
  Hypothesis Step : forall o s rs, ok o = true -> Sim s rs ->
    Sim (fst (as_step o s)) (fst (rstep o rs)) /\ snd (as_step o s) = snd (rstep o rs).

  Fixpoint sim_outs (ops : list op) (rs : RS) : list out :=
    match ops with [] => [] | o :: r => let (s', x) := rstep o rs in x :: sim_outs r s' end.

  Lemma sim_run : forall ops s rs,
    forallb ok ops = true -> Sim s rs ->
    as_outs ops s = sim_outs ops rs /\ Sim (as_run ops s) (fold_left (fun s o => fst (rstep o s)) ops rs).
  Proof.
    induction ops as [|o ops IH]; intros s rs Hf HS; [split; [reflexivity | exact HS]|].
    cbn [forallb] in Hf. apply andb_true_iff in Hf. destruct Hf as (Ho & Hf).
    destruct (Step o s rs Ho HS) as (S1 & Eo). cbn [as_outs sim_outs].
    destruct (as_step o s) as [s1 x] eqn:E1. destruct (rstep o rs) as [rs1 y] eqn:E2. cbn [fst snd] in *. subst y.
    destruct (IH s1 rs1 Hf S1) as (I1 & I2). split; [rewrite I1; reflexivity|].
    unfold as_run. cbn [fold_left]. rewrite E1, E2. exact I2.
  Qed.
End SimRun.

Theorem arena_insert_lookup_history ops :
  forallb ins_get_op ops = true ->
  as_outs ops as_init = r_outs ops r_init
  /\ Sep (as_arena (as_run ops as_init))
  /\ exists D, forall d, D <= d -> rview d (as_arena (as_run ops as_init)) = fst (r_run ops r_init).
Proof.
  intros Hf. destruct (sim_run rstate r_step ins_get_op SimR SimR_step ops as_init r_init Hf SimR_init) as (H1 & H2 & _ & H3).
  split; [exact H1|]. split; [exact H2 | exact H3].
Qed.

(** Non-vacuity: a history with a stem split at an odd nibble, an overwrite and lookups. *)
Example insert_lookup_history_example :
  let ops := [OInsert [18%N; 52%N] [1%N]; OInsert [18%N; 63%N] [2%N]; OGet [18%N; 52%N];
              OInsert [18%N; 52%N] [3%N]; OGet [18%N; 52%N]; OGet [18%N]; OInsert [18%N] [4%N]; OGet [18%N]] in
  forallb ins_get_op ops = true
  /\ as_outs ops as_init =
     [RHandle 0 false; RHandle 1 false; RFound 2 (Some [1%N]); RHandle 3 true; RFound 4 (Some [3%N]); RNone;
      RHandle 5 false; RFound 6 (Some [4%N])].
Proof. vm_compute. split; reflexivity. Qed.
