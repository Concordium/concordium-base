(** The slab-based prefix map ([SlabPrefixMap.v]) refines the functional prefix trie
    ([PrefixMap.v]) and hence the multiset of prefixes: representation relation with footprints
    (no sharing, no dangling keys), per-operation commutation, histories. *)
From Coq Require Import NArith PeanoNat List Bool Lia.
From CB Require Import Trie.PrefixMap Trie.PrefixMapProofs Trie.SlabPrefixMap.
Import ListNotations.
Local Open Scope N_scope.

Notation cells := (list (option inode)).

Lemma nth_upd_eq {A} (l : list A) i v : (i < length l)%nat -> nth_error (upd i v l) i = Some v.
Proof.
  revert i; induction l as [|x l IH]; intros [|i] H; cbn in *; try lia; auto. apply IH; lia.
Qed.
Lemma nth_upd_ne {A} (l : list A) i j v : i <> j -> nth_error (upd i v l) j = nth_error l j.
Proof.
  revert i j; induction l as [|x l IH]; intros [|i] [|j] H; cbn; auto; try congruence.
Qed.
Lemma length_upd {A} (l : list A) i v : length (upd i v l) = length l.
Proof. revert i; induction l as [|x l IH]; intros [|i]; cbn; auto. Qed.

Definition occ (s : cells) (x : nat) : Prop := exists v, nth_error s x = Some (Some v).
Definition vac (s : cells) (x : nat) : Prop := nth_error s x = Some None.

Lemma occ_dec s x : {occ s x} + {~ occ s x}.
Proof.
  unfold occ. destruct (nth_error s x) as [[v|]|]; [left; eauto | right | right]; intros [v H]; discriminate.
Qed.
Lemma occ_lt s x : occ s x -> (x < length s)%nat.
Proof. intros [v H]. apply nth_error_Some. congruence. Qed.
Lemma cget_occ s x v : cget s x = Some v <-> nth_error s x = Some (Some v).
Proof. unfold cget. destruct (nth_error s x) as [[w|]|]; split; congruence. Qed.

Fixpoint rep (s : cells) (n : pnode) (i : nat) (fp : list nat) {struct n} : Prop :=
  match n with
  | PNode c ch => exists kids fp', nth_error s i = Some (Some (c, kids)) /\ repf s ch kids fp'
                                   /\ ~ In i fp' /\ fp = i :: fp'
  end
with repf (s : cells) (f : pforest) (kids : list (N * nat)) (fp : list nat) {struct f} : Prop :=
  match f with
  | PNil => kids = [] /\ fp = []
  | PCons b n r => exists j kids' fp1 fp2, kids = (b, j) :: kids' /\ rep s n j fp1 /\ repf s r kids' fp2
                                           /\ (forall x, In x fp1 -> ~ In x fp2) /\ fp = fp1 ++ fp2
  end.

Lemma rep_occ_mut :
  (forall n s i fp, rep s n i fp -> forall x, In x fp -> occ s x)
  /\ (forall f s kids fp, repf s f kids fp -> forall x, In x fp -> occ s x).
Proof.
  apply pnode_pforest_ind.
  - intros c ch IH s i fp (kids & fp' & Hn & Hf & _ & ->) x [<-|Hx]; [eexists; eauto | eapply IH; eauto].
  - intros s kids fp [_ ->] x [].
  - intros b n IHn r IHr s kids fp (j & kids' & fp1 & fp2 & _ & Hn & Hr & _ & ->) x Hx.
    apply in_app_or in Hx as [Hx|Hx]; [eapply IHn | eapply IHr]; eauto.
Qed.
Definition rep_occ := proj1 rep_occ_mut.
Definition repf_occ := proj2 rep_occ_mut.

Lemma rep_frame_mut :
  (forall n s s' i fp, rep s n i fp -> (forall x, In x fp -> nth_error s' x = nth_error s x) -> rep s' n i fp)
  /\ (forall f s s' kids fp, repf s f kids fp -> (forall x, In x fp -> nth_error s' x = nth_error s x) ->
        repf s' f kids fp).
Proof.
  apply pnode_pforest_ind.
  - intros c ch IH s s' i fp (kids & fp' & Hn & Hf & Hni & ->) H.
    exists kids, fp'. repeat split; auto.
    + rewrite H; [exact Hn | left; reflexivity].
    + eapply IH; eauto. intros x Hx. apply H. right. exact Hx.
  - intros s s' kids fp H _. exact H.
  - intros b n IHn r IHr s s' kids fp (j & kids' & fp1 & fp2 & -> & Hn & Hr & Hd & ->) H.
    exists j, kids', fp1, fp2. repeat split; auto.
    + eapply IHn; eauto. intros x Hx. apply H. apply in_or_app. left. exact Hx.
    + eapply IHr; eauto. intros x Hx. apply H. apply in_or_app. right. exact Hx.
Qed.
Definition rep_frame := proj1 rep_frame_mut.
Definition repf_frame := proj2 rep_frame_mut.

(** Frame of a modification: occupied cells outside the old footprint are untouched; the new
    footprint consists of old footprint cells and of cells that were not occupied. *)
Definition Fr (s s' : cells) (fp fp' : list nat) : Prop :=
  (forall x, occ s x -> ~ In x fp -> nth_error s' x = nth_error s x)
  /\ (forall x, In x fp' -> In x fp \/ ~ occ s x).

(** Free-list invariant: the free stack holds distinct vacant keys. *)
Definition FreeInv (s : slab) : Prop :=
  NoDup (sl_free s) /\ forall x, In x (sl_free s) -> vac (sl_cells s) x.

Lemma FreeInv_set s i v : FreeInv s -> occ (sl_cells s) i -> FreeInv (sl_set s i v).
Proof.
  intros [Hnd Hv] [w Hi]. split; [exact Hnd|]. intros x Hx. cbn. unfold vac.
  rewrite nth_upd_ne; [apply Hv; exact Hx|]. intros ->. specialize (Hv _ Hx). unfold vac in Hv. congruence.
Qed.

Lemma FreeInv_remove s i : FreeInv s -> occ (sl_cells s) i -> FreeInv (sl_remove s i).
Proof.
  intros [Hnd Hv] [w Hi]. split; cbn.
  - constructor; [|exact Hnd]. intros Hx. specialize (Hv _ Hx). unfold vac in Hv. congruence.
  - intros x [<-|Hx]; unfold vac.
    + apply nth_upd_eq. apply nth_error_Some. congruence.
    + rewrite nth_upd_ne; [apply Hv; exact Hx|]. intros ->. specialize (Hv _ Hx). unfold vac in Hv. congruence.
Qed.

Lemma alloc_spec s v s1 nw :
  FreeInv s -> sl_alloc s v = (s1, nw) ->
  ~ occ (sl_cells s) nw /\ nth_error (sl_cells s1) nw = Some (Some v)
  /\ (forall x, x <> nw -> occ (sl_cells s) x -> nth_error (sl_cells s1) x = nth_error (sl_cells s) x)
  /\ FreeInv s1.
Proof.
  intros [Hnd Hv] H. unfold sl_alloc in H. destruct (sl_free s) as [|k f] eqn:E.
  - inversion H; subst; clear H. cbn. repeat split.
    + intros Ho. apply occ_lt in Ho. lia.
    + rewrite nth_error_app2 by lia. rewrite Nat.sub_diag. reflexivity.
    + intros x _ Ho. apply nth_error_app1. apply occ_lt. exact Ho.
    + constructor.
    + intros x [].
  - inversion H; subst; clear H. cbn.
    assert (Hk : vac (sl_cells s) nw) by (apply Hv; left; reflexivity).
    repeat split.
    + intros [w Ho]. unfold vac in Hk. congruence.
    + apply nth_upd_eq. apply nth_error_Some. unfold vac in Hk. congruence.
    + intros x Hx _. apply nth_upd_ne. congruence.
    + inversion Hnd; assumption.
    + cbn. intros x Hx. unfold vac. rewrite nth_upd_ne.
      * apply Hv. right. exact Hx.
      * intros ->. inversion Hnd; contradiction.
Qed.

Lemma repf_nil_iff s f kids fp : repf s f kids fp -> (kids = [] <-> f = PNil).
Proof.
  destruct f; cbn.
  - intros [-> _]. tauto.
  - intros (j & kids' & fp1 & fp2 & -> & _). split; discriminate.
Qed.

(** The child that [kids_get] finds in the slab is the one [pf_get] finds in the forest;
    replacing it there, or dropping it, is [pf_put] / [pf_del] on the forest. *)
Lemma repf_child f : forall s kids fp b j,
  repf s f kids fp -> kids_get b kids = Some j ->
  exists n fpj,
    pf_get b f = Some n /\ rep s n j fpj /\ incl fpj fp
    /\ (psorted f = true -> forall s' n' fpj', rep s' n' j fpj' -> Fr s s' fpj fpj' ->
          exists fp', repf s' (pf_put b n' f) kids fp' /\ (forall x, In x fp' -> In x fp \/ ~ occ s x))
    /\ (forall s', (forall x, In x fp -> ~ In x fpj -> nth_error s' x = nth_error s x) ->
          exists fp', repf s' (pf_del b f) (kids_remove b kids) fp' /\ incl fp' fp).
Proof.
  induction f as [|b0 n0 r IH]; intros s kids fp b j H Hg.
  - destruct H as [-> _]. discriminate.
  - cbn [repf] in H. destruct H as (j0 & kids' & fp1 & fp2 & -> & Hn & Hr & Hd & ->).
    cbn [kids_get] in Hg. cbn [pf_get pf_put pf_del kids_remove]. destruct (N.eqb_spec b b0) as [->|Hne].
    + injection Hg as <-. exists n0, fp1.
      split; [reflexivity|]. split; [exact Hn|]. split; [apply incl_appl, incl_refl|]. split.
      * intros _ s' n' fpj' Hn' [Ha Hb]. exists (fpj' ++ fp2). split.
        -- cbn [repf]. exists j0, kids', fpj', fp2. repeat split; auto.
           ++ eapply (repf_frame r); [exact Hr|]. intros x Hx. apply Ha.
              ** eapply (repf_occ r); [exact Hr|exact Hx].
              ** intros Hx1. exact (Hd _ Hx1 Hx).
           ++ intros x Hx Hx2. destruct (Hb _ Hx) as [Hx1|Hno]; [exact (Hd _ Hx1 Hx2)|].
              apply Hno. eapply (repf_occ r); [exact Hr|exact Hx2].
        -- intros x Hx. apply in_app_or in Hx as [Hx|Hx].
           ++ destruct (Hb _ Hx); [left; apply in_or_app; left; assumption | right; assumption].
           ++ left. apply in_or_app. right. exact Hx.
      * intros s' Hs'. exists fp2. split; [|apply incl_appr, incl_refl].
        eapply (repf_frame r); [exact Hr|]. intros x Hx. apply Hs'; [apply in_or_app; right; exact Hx|].
        intros Hx1. exact (Hd _ Hx1 Hx).
    + destruct (IH s kids' fp2 b j Hr Hg) as (n & fpj & G & Hnj & Hincl & Hrepl & Hrem).
      exists n, fpj. split; [exact G|]. split; [exact Hnj|]. split; [apply incl_appr; exact Hincl|]. split.
      * intros Hs s' n' fpj' Hn' HFr. rewrite psorted_cons in Hs. apply andb_true_iff in Hs as [Hgt Hs].
        pose proof (pf_get_gt b0 b r n Hgt G) as Hlt. destruct (N.ltb_spec b b0); [lia|].
        destruct (Hrepl Hs s' n' fpj' Hn' HFr) as (fp' & Hrf & Hsub).
        destruct HFr as [Ha Hb].
        exists (fp1 ++ fp'). split.
        -- cbn [repf]. exists j0, kids', fp1, fp'. repeat split; auto.
           ++ eapply (rep_frame n0); [exact Hn|]. intros x Hx. apply Ha; [eapply (rep_occ n0); [exact Hn|exact Hx]|].
              intros Hxj. exact (Hd _ Hx (Hincl _ Hxj)).
           ++ intros x Hx Hx'. destruct (Hsub _ Hx') as [Hx2|Hno]; [exact (Hd _ Hx Hx2)|].
              apply Hno. eapply (rep_occ n0); [exact Hn|exact Hx].
        -- intros x Hx. apply in_app_or in Hx as [Hx|Hx].
           ++ left. apply in_or_app. left. exact Hx.
           ++ destruct (Hsub _ Hx); [left; apply in_or_app; right; assumption | right; assumption].
      * intros s' Hs'. destruct (Hrem s') as (fp' & Hrf & Hinc).
        { intros x Hx Hxj. apply Hs'; [apply in_or_app; right; exact Hx | exact Hxj]. }
        exists (fp1 ++ fp'). split.
        -- cbn [repf]. exists j0, (kids_remove b kids'), fp1, fp'. repeat split; auto.
           ++ eapply (rep_frame n0); [exact Hn|]. intros x Hx. apply Hs'; [apply in_or_app; left; exact Hx|].
              intros Hxj. exact (Hd _ Hx (Hincl _ Hxj)).
           ++ intros x Hx Hx'. exact (Hd _ Hx (Hinc _ Hx')).
        -- intros x Hx. apply in_app_or in Hx as [Hx|Hx]; apply in_or_app; [left | right; apply Hinc]; exact Hx.
Qed.

Lemma repf_no_child f : forall s kids fp b,
  repf s f kids fp -> kids_get b kids = None ->
  pf_get b f = None
  /\ forall n' s' nw fpn, rep s' n' nw fpn ->
       (forall x, In x fp -> nth_error s' x = nth_error s x) -> (forall x, In x fpn -> ~ In x fp) ->
       exists fp', repf s' (pf_put b n' f) (kids_insert b nw kids) fp'
                   /\ (forall x, In x fp' -> In x fpn \/ In x fp).
Proof.
  induction f as [|b0 n0 r IH]; intros s kids fp b H Hg.
  - cbn in H. destruct H as [-> ->]. split; [reflexivity|]. intros n' s' nw fpn Hn _ _.
    exists (fpn ++ []). split.
    + cbn. exists nw, [], fpn, []. repeat split; auto.
    + intros x Hx. left. rewrite app_nil_r in Hx. exact Hx.
  - pose proof H as H0. cbn [repf] in H. destruct H as (j0 & kids' & fp1 & fp2 & -> & Hn & Hr & Hd & ->).
    cbn [kids_get] in Hg. cbn [pf_get pf_put kids_insert].
    destruct (N.eqb_spec b b0) as [->|Hne]; [discriminate|].
    destruct (IH s kids' fp2 b Hr Hg) as [G Hadd]. split; [exact G|].
    intros n' s' nw fpn Hnw Hfr Hdis. destruct (N.ltb_spec b b0) as [Hlt|Hge].
    + exists (fpn ++ (fp1 ++ fp2)). split; [|intros x Hx; apply in_app_or in Hx; exact Hx].
      change (repf s' (PCons b n' (PCons b0 n0 r)) ((b, nw) :: (b0, j0) :: kids') (fpn ++ (fp1 ++ fp2))).
      cbn [repf]. exists nw, ((b0, j0) :: kids'), fpn, (fp1 ++ fp2). repeat split; auto.
      eapply (repf_frame (PCons b0 n0 r)); eauto.
    + destruct (Hadd n' s' nw fpn Hnw) as (fp' & Hrf' & Hsub').
      { intros x Hx. apply Hfr. apply in_or_app. right. exact Hx. }
      { intros x Hx Hxb. apply (Hdis x Hx). apply in_or_app. right. exact Hxb. }
      exists (fp1 ++ fp'). split.
      * cbn [repf]. exists j0, (kids_insert b nw kids'), fp1, fp'. repeat split; auto.
        -- eapply (rep_frame n0); [exact Hn|]. intros x Hx. apply Hfr. apply in_or_app. left. exact Hx.
        -- intros x Hx Hx'. destruct (Hsub' _ Hx') as [Hxn|Hxb]; [|exact (Hd _ Hx Hxb)].
           apply (Hdis x Hxn). apply in_or_app. left. exact Hx.
      * intros x Hx. apply in_app_or in Hx as [Hx|Hx].
        -- right. apply in_or_app. left. exact Hx.
        -- destruct (Hsub' _ Hx); [left; assumption | right; apply in_or_app; right; assumption].
Qed.

Lemma rep_node s c ch i fp :
  rep s (PNode c ch) i fp ->
  exists kids fp', nth_error s i = Some (Some (c, kids)) /\ cget s i = Some (c, kids)
                   /\ repf s ch kids fp' /\ ~ In i fp' /\ fp = i :: fp'.
Proof.
  intros (kids & fp' & Hn & Hf & Hni & ->). exists kids, fp'. repeat split; auto. apply cget_occ. exact Hn.
Qed.

Lemma sl_no_prefix_ok : forall k n s i fp,
  rep (sl_cells s) n i fp -> sl_no_prefix k s i = Some (pn_no_prefix k n).
Proof.
  induction k as [|b k IH]; intros [c ch] s i fp H; apply rep_node in H as (kids & fp' & _ & Hg & Hf & _);
    cbn [sl_no_prefix]; unfold sl_get; rewrite Hg, pn_no_prefix_eq; [reflexivity|].
  destruct (c =? 0); cbn [negb]; [|reflexivity]. rewrite pf_no_prefix_get.
  destruct (kids_get b kids) as [j|] eqn:Eg.
  - destruct (repf_child ch _ _ _ b j Hf Eg) as (n & fpj & -> & Hnj & _). eapply IH; eauto.
  - rewrite (proj1 (repf_no_child ch _ _ _ b Hf Eg)). reflexivity.
Qed.

Lemma sl_iohp_ok : forall k n s i fp,
  rep (sl_cells s) n i fp -> sl_iohp k s i = Some (pn_iohp k n).
Proof.
  induction k as [|b k IH]; intros [c ch] s i fp H; apply rep_node in H as (kids & fp' & _ & Hg & Hf & _);
    cbn [sl_iohp]; rewrite pn_iohp_eq; [reflexivity|]. unfold sl_get; rewrite Hg.
  destruct (c =? 0); cbn [negb]; [|reflexivity]. rewrite pf_iohp_get.
  destruct (kids_get b kids) as [j|] eqn:Eg.
  - destruct (repf_child ch _ _ _ b j Hf Eg) as (n & fpj & -> & Hnj & _). eapply IH; eauto.
  - rewrite (proj1 (repf_no_child ch _ _ _ b Hf Eg)). reflexivity.
Qed.

Lemma alloc_link s i c kids kidsnew v s1 nw :
  FreeInv s -> nth_error (sl_cells s) i = Some (Some (c, kids)) -> sl_alloc s v = (s1, nw) ->
  let s2 := sl_set s1 i (c, kidsnew) in
  nw <> i /\ ~ occ (sl_cells s) nw
  /\ nth_error (sl_cells s2) i = Some (Some (c, kidsnew))
  /\ nth_error (sl_cells s2) nw = Some (Some v)
  /\ (forall x, x <> i -> occ (sl_cells s) x -> nth_error (sl_cells s2) x = nth_error (sl_cells s) x)
  /\ (forall x, occ (sl_cells s) x -> occ (sl_cells s2) x)
  /\ FreeInv s2.
Proof.
  intros HF Hi Ha s2. destruct (alloc_spec _ _ _ _ HF Ha) as (Hno & Hnw & Hsame & HF1).
  assert (Hne : nw <> i) by (intros ->; apply Hno; eexists; eauto).
  assert (Hoi : occ (sl_cells s1) i) by (exists (c, kids); rewrite Hsame; auto; eexists; eauto).
  assert (A : nth_error (sl_cells s2) i = Some (Some (c, kidsnew)))
    by (cbn; apply nth_upd_eq; apply occ_lt; exact Hoi).
  assert (B : forall x, x <> i -> occ (sl_cells s) x -> nth_error (sl_cells s2) x = nth_error (sl_cells s) x).
  { intros x Hx Ho. cbn. rewrite nth_upd_ne by congruence. apply Hsame; auto. intros ->. contradiction. }
  repeat split; auto.
  - cbn. rewrite nth_upd_ne by congruence. exact Hnw.
  - intros x Ho. destruct (Nat.eq_dec x i) as [->|Hx]; [eexists; eauto|].
    destruct Ho as [w Hw]. exists w. rewrite B; auto. eexists; eauto.
  - apply FreeInv_set; auto.
  - apply FreeInv_set; auto.
Qed.

Lemma rep_set_count s c ch i kids fp' v :
  FreeInv s -> nth_error (sl_cells s) i = Some (Some (c, kids)) -> repf (sl_cells s) ch kids fp' -> ~ In i fp' ->
  rep (sl_cells (sl_set s i (v, kids))) (PNode v ch) i (i :: fp')
  /\ Fr (sl_cells s) (sl_cells (sl_set s i (v, kids))) (i :: fp') (i :: fp')
  /\ FreeInv (sl_set s i (v, kids)).
Proof.
  intros HF Hn Hf Hni. assert (Hoi : occ (sl_cells s) i) by (eexists; eauto).
  split; [|split; [|apply FreeInv_set; auto]].
  - cbn [rep]. exists kids, fp'. repeat split; auto.
    + cbn. apply nth_upd_eq. apply occ_lt. exact Hoi.
    + eapply (repf_frame ch); [exact Hf|]. intros x Hx. cbn. apply nth_upd_ne. intros ->. contradiction.
  - split.
    + intros x _ Hx. cbn. apply nth_upd_ne. intros ->. apply Hx. left. reflexivity.
    + intros x Hx. left. exact Hx.
Qed.

Lemma sl_ins_fresh : forall k s i,
  FreeInv s -> nth_error (sl_cells s) i = Some (Some (0, [])) ->
  exists s' fp', sl_ins k s i = Some (s', true) /\ rep (sl_cells s') (pn_fresh k) i fp'
                 /\ Fr (sl_cells s) (sl_cells s') [i] fp' /\ FreeInv s'.
Proof.
  induction k as [|b k IH]; intros s i HF Hi.
  - cbn [sl_ins]. unfold sl_get. rewrite (proj2 (cget_occ _ _ _) Hi).
    change (0 =? MAXC) with false. cbv iota. exists (sl_set s i (0 + 1, [])), [i]. split; [reflexivity|].
    apply (rep_set_count s 0 PNil i [] [] (0 + 1) HF Hi); [split; reflexivity | intros []].
  - cbn [sl_ins]. unfold sl_get. rewrite (proj2 (cget_occ _ _ _) Hi). cbn [kids_get kids_insert].
    destruct (sl_alloc s (0, [])) as [s1 nw] eqn:Ea.
    destruct (alloc_link s i 0 [] [(b, nw)] (0, []) s1 nw HF Hi Ea) as (Hne & Hno & A & B & C & D & HF2).
    destruct (IH _ nw HF2 B) as (s3 & fpn & Hrun & Hrep & [Fa Fb] & HF3).
    assert (Hoi : occ (sl_cells s) i) by (eexists; eauto).
    exists s3, (i :: fpn ++ []). split; [exact Hrun|]. split; [|split; [|exact HF3]].
    + cbn [pn_fresh rep]. exists [(b, nw)], (fpn ++ []). repeat split; auto.
      * rewrite Fa; [exact A | apply D; exact Hoi | intros [E|[]]; congruence].
      * cbn [repf]. exists nw, [], fpn, []. repeat split; auto.
      * rewrite app_nil_r. intros Hx. destruct (Fb _ Hx) as [[E|[]]|E]; [congruence|]. apply E, D, Hoi.
    + split.
      * intros x Ho Hx. rewrite Fa.
        -- apply C; auto. intros ->. apply Hx. left. reflexivity.
        -- apply D. exact Ho.
        -- intros [E|[]]. subst. contradiction.
      * intros x [<-|Hx]; [left; left; reflexivity|]. rewrite app_nil_r in Hx.
        right. intros Ho. destruct (Fb _ Hx) as [[E|[]]|E]; [subst; contradiction|]. apply E, D, Ho.
Qed.

Lemma sl_ins_ok : forall k n s i fp,
  pn_wf n = true -> FreeInv s -> rep (sl_cells s) n i fp ->
  match pn_insert k n with
  | Some n' => exists s' fp', sl_ins k s i = Some (s', true) /\ rep (sl_cells s') n' i fp'
                              /\ Fr (sl_cells s) (sl_cells s') fp fp' /\ FreeInv s'
  | None => sl_ins k s i = Some (s, false)
  end.
Proof.
  induction k as [|b k IH]; intros [c ch] s i fp Hwf HF H;
    apply rep_node in H as (kids & fp' & Hn & Hg & Hf & Hni & ->);
    rewrite pn_insert_eq; cbn [sl_ins]; unfold sl_get; rewrite Hg;
    assert (Hoi : occ (sl_cells s) i) by (eexists; eauto).
  - destruct (c =? MAXC); [reflexivity|].
    exists (sl_set s i (c + 1, kids)), (i :: fp'). split; [reflexivity|].
    exact (rep_set_count s c ch i kids fp' (c + 1) HF Hn Hf Hni).
  - apply pn_wf_parts in Hwf as (Hw & Hs & _ & _). rewrite (pf_insert_get b k ch Hs).
    destruct (kids_get b kids) as [j|] eqn:Eg.
    + destruct (repf_child ch _ _ _ b j Hf Eg) as (n & fpj & G & Hnj & Hincl & Hrepl & _). rewrite G.
      specialize (IH n s j fpj (pf_get_wf b ch n Hw G) HF Hnj).
      destruct (pn_insert k n) as [n'|]; cbn [option_map]; [|exact IH].
      destruct IH as (s' & fpj' & Hrun & Hrep' & HFr & HF').
      destruct (Hrepl Hs _ _ _ Hrep' HFr) as (fpk' & Hrf & Hsub). destruct HFr as [Fa Fb].
      exists s', (i :: fpk'). split; [exact Hrun|]. split; [|split; [|exact HF']].
      * cbn [rep]. exists kids, fpk'. repeat split; auto.
        -- rewrite Fa; auto; intros Hx; apply Hni, Hincl, Hx.
        -- intros Hx. destruct (Hsub _ Hx); auto.
      * split.
        -- intros x Ho Hx. apply Fa; auto. intros Hxj. apply Hx. right. apply Hincl, Hxj.
        -- intros x [<-|Hx]; [left; left; reflexivity|]. destruct (Hsub _ Hx); [left; right; assumption | right; assumption].
    + destruct (repf_no_child ch _ _ _ b Hf Eg) as [G Hadd]. rewrite G. cbn [option_map].
      destruct (sl_alloc s (0, [])) as [s1 nw] eqn:Ea.
      destruct (alloc_link s i c kids (kids_insert b nw kids) (0, []) s1 nw HF Hn Ea)
        as (Hne & Hno & A & B & C & D & HF2).
      destruct (sl_ins_fresh k _ nw HF2 B) as (s3 & fpn & Hrun & Hrep & [Fa Fb] & HF3).
      assert (Hfpn : forall x, In x fpn -> ~ occ (sl_cells s) x).
      { intros x Hx Ho. destruct (Fb _ Hx) as [[E|[]]|E]; [subst; contradiction|]. apply E, D, Ho. }
      destruct (Hadd (pn_fresh k) (sl_cells s3) nw fpn Hrep) as (fp3 & Hrf & Hsub).
      { intros x Hx. assert (Ho : occ (sl_cells s) x) by (eapply (repf_occ ch); eauto).
        rewrite Fa.
        - apply C; auto. intros ->. contradiction.
        - apply D, Ho.
        - intros [E|[]]. subst. contradiction. }
      { intros x Hx Hx'. apply (Hfpn _ Hx). eapply (repf_occ ch); eauto. }
      exists s3, (i :: fp3). split; [exact Hrun|]. split; [|split; [|exact HF3]].
      * cbn [rep]. exists (kids_insert b nw kids), fp3. repeat split; auto.
        -- rewrite Fa; [exact A | apply D, Hoi | intros [E|[]]; congruence].
        -- intros Hx. destruct (Hsub _ Hx) as [Hx'|Hx']; [apply (Hfpn _ Hx'), Hoi | contradiction].
      * split.
        -- intros x Ho Hx. rewrite Fa.
           ++ apply C; auto. intros ->. apply Hx. left. reflexivity.
           ++ apply D, Ho.
           ++ intros [E|[]]. subst. contradiction.
        -- intros x [<-|Hx]; [left; left; reflexivity|].
           destruct (Hsub _ Hx) as [Hx'|Hx']; [right; apply Hfpn, Hx' | left; right; exact Hx'].
Qed.

Lemma pn_mk_wf c ch : pn_wf (PNode c ch) = true -> pn_mk c ch = Some (PNode c ch).
Proof.
  intros H. apply pn_wf_parts in H as (_ & _ & _ & Hnil). unfold pn_mk. destruct ch; [|reflexivity].
  destruct (N.eqb_spec c 0) as [->|]; [|reflexivity]. specialize (Hnil eq_refl). lia.
Qed.
Lemma pn_mk_ne c f : f <> PNil -> pn_mk c f = Some (PNode c f).
Proof. destruct f; [congruence | reflexivity]. Qed.

Lemma unwind_step s i b st c kids :
  sl_get s i = Some (c, kids) ->
  sl_unwind ((i, b) :: st) s =
  match kids_remove b kids with
  | [] => if c =? 0 then sl_unwind st (sl_remove (sl_set s i (c, kids_remove b kids)) i)
          else Some (sl_set s i (c, kids_remove b kids))
  | _ :: _ => Some (sl_set s i (c, kids_remove b kids))
  end.
Proof. intros H. cbn [sl_unwind]. rewrite H. destruct (kids_remove b kids); reflexivity. Qed.

Lemma sl_del_ok : forall k n s i fp st,
  pn_wf n = true -> FreeInv s -> rep (sl_cells s) n i fp ->
  match pn_delete k n with
  | (Some n', x) => exists s' fp', sl_del k s i st = Some (s', x) /\ rep (sl_cells s') n' i fp'
                                   /\ Fr (sl_cells s) (sl_cells s') fp fp' /\ FreeInv s'
  | (None, x) => exists s', sl_del k s i st = option_map (fun s2 => (s2, x)) (sl_unwind st s')
        /\ (forall y, occ (sl_cells s) y -> ~ In y fp -> nth_error (sl_cells s') y = nth_error (sl_cells s) y)
        /\ nth_error (sl_cells s') i = Some None /\ FreeInv s'
  end.
Proof.
  induction k as [|b k IH]; intros [c ch] s i fp st Hwf HF H; pose proof H as Hrep0;
    apply rep_node in H as (kids & fp' & Hn & Hg & Hf & Hni & ->);
    rewrite pn_delete_eq; cbn [sl_del]; unfold sl_get; rewrite Hg;
    assert (Hoi : occ (sl_cells s) i) by (eexists; eauto).
  - destruct (1 <? c).
    + eexists _, _. split; [reflexivity|]. exact (rep_set_count s c ch i kids fp' (c - 1) HF Hn Hf Hni).
    + destruct ch as [|b0 n0 r].
      * cbn in Hf. destruct Hf as [-> ->]. cbn [pn_mk]. change (0 =? 0) with true. cbv iota.
        exists (sl_remove (sl_set s i (0, [])) i). split; [reflexivity|].
        assert (Hoi' : occ (sl_cells (sl_set s i (0, []))) i).
        { eexists. cbn. apply nth_upd_eq. apply occ_lt. exact Hoi. }
        split; [|split].
        -- intros y _ Hy. cbn. rewrite !nth_upd_ne; auto; intros ->; apply Hy; left; reflexivity.
        -- cbn. apply nth_upd_eq. rewrite length_upd. apply occ_lt. exact Hoi.
        -- apply FreeInv_remove; auto. apply FreeInv_set; auto.
      * pose proof Hf as Hf0. cbn [repf] in Hf. destruct Hf as (j0 & kids' & fp1 & fp2 & -> & _).
        cbn [pn_mk]. eexists _, _. split; [reflexivity|]. exact (rep_set_count s c _ i _ fp' 0 HF Hn Hf0 Hni).
  - pose proof (pn_wf_parts _ _ Hwf) as (Hw & Hs & _ & _). rewrite (pf_delete_get b k ch Hs).
    destruct (kids_get b kids) as [j|] eqn:Eg.
    + destruct (repf_child ch _ _ _ b j Hf Eg) as (n & fpj & Eget & Hnj & Hincl & Hrepl & Hrem). rewrite Eget.
      specialize (IH n s j fpj ((i, b) :: st) (pf_get_wf b ch n Hw Eget) HF Hnj).
      destruct (pn_delete k n) as [[n'|] x].
      * destruct IH as (s' & fpj' & Hrun & Hrep' & HFr & HF').
        destruct (Hrepl Hs _ _ _ Hrep' HFr) as (fpk' & Hrf & Hsub). destruct HFr as [Fa Fb].
        rewrite (pn_mk_ne c _ (pf_put_ne b n' ch)).
        exists s', (i :: fpk'). split; [exact Hrun|]. split; [|split; [|exact HF']].
        -- cbn [rep]. exists kids, fpk'. repeat split; auto.
           ++ rewrite Fa; auto; intros Hx; apply Hni, Hincl, Hx.
           ++ intros Hx. destruct (Hsub _ Hx); auto.
        -- split.
           ++ intros y Ho Hy. apply Fa; auto. intros Hyj. apply Hy. right. apply Hincl, Hyj.
           ++ intros y [<-|Hy]; [left; left; reflexivity|].
              destruct (Hsub _ Hy); [left; right; assumption | right; assumption].
      * destruct IH as (s' & Hrun & Hfr & Hvac & HF').
        assert (Hi' : nth_error (sl_cells s') i = Some (Some (c, kids))).
        { rewrite Hfr; auto; intros Hx; apply Hni, Hincl, Hx. }
        assert (Hg' : sl_get s' i = Some (c, kids)) by (apply cget_occ; exact Hi').
        assert (Hoi' : occ (sl_cells s') i) by (eexists; eauto).
        rewrite (unwind_step _ _ _ _ _ _ Hg') in Hrun.
        set (s1 := sl_set s' i (c, kids_remove b kids)) in *.
        assert (Hs1 : forall y, y <> i -> nth_error (sl_cells s1) y = nth_error (sl_cells s') y).
        { intros y Hy. cbn. apply nth_upd_ne. congruence. }
        assert (Hi1 : nth_error (sl_cells s1) i = Some (Some (c, kids_remove b kids))).
        { cbn. apply nth_upd_eq. apply occ_lt. exact Hoi'. }
        assert (HF1 : FreeInv s1) by (apply FreeInv_set; auto).
        destruct (Hrem (sl_cells s1)) as (fpG & HrG & HincG).
        { intros z Hz Hzj. rewrite Hs1 by (intros ->; contradiction). apply Hfr; auto.
          eapply (repf_occ ch); eauto. }
        clear Hrem Hrepl. set (G := pf_del b ch) in *. clearbody G.
        assert (HFrG : Fr (sl_cells s) (sl_cells s1) (i :: fp') (i :: fpG)).
        { split.
          - intros y Ho Hy. rewrite Hs1 by (intros ->; apply Hy; left; reflexivity).
            apply Hfr; auto. intros Hyj. apply Hy. right. apply Hincl, Hyj.
          - intros y [<-|Hy]; [left; left; reflexivity | left; right; apply HincG, Hy]. }
        assert (HrepG : rep (sl_cells s1) (PNode c G) i (i :: fpG)).
        { cbn [rep]. exists (kids_remove b kids), fpG. repeat split; auto. }
        pose proof (repf_nil_iff _ _ _ _ HrG) as Hnil.
        destruct G as [|bg ng rg].
        -- rewrite (proj2 Hnil eq_refl) in Hrun. cbn [pn_mk]. destruct (c =? 0).
           ++ exists (sl_remove s1 i). split; [exact Hrun|]. split; [|split].
              ** intros y Ho Hy. cbn. rewrite nth_upd_ne by (intros ->; apply Hy; left; reflexivity).
                 apply (proj1 HFrG); auto.
              ** cbn. apply nth_upd_eq. rewrite length_upd. apply occ_lt. exact Hoi'.
              ** apply FreeInv_remove; auto. eexists; eauto.
           ++ exists s1, (i :: fpG). auto.
        -- destruct (kids_remove b kids) eqn:Ek; [discriminate (proj1 Hnil eq_refl)|].
           cbn [pn_mk]. exists s1, (i :: fpG). auto.
    + rewrite (proj1 (repf_no_child ch _ _ _ b Hf Eg)), (pn_mk_wf _ _ Hwf).
      exists s, (i :: fp'). split; [reflexivity|]. split; [exact Hrep0|]. split; [|exact HF].
      split; [reflexivity | intros x Hx; left; exact Hx].
Qed.

Definition SInv (m : smap) (pm : pmap) : Prop :=
  FreeInv (sm_slab m)
  /\ match sm_root m, pm with
     | None, None => True
     | Some r, Some n => exists fp, rep (sl_cells (sm_slab m)) n r fp
     | _, _ => False
     end.

Lemma SInv_init : SInv sm_empty None.
Proof. split; [split; [constructor | intros x []] | exact I]. Qed.

Lemma sm_step_ok o m pm :
  SInv m pm -> pm_wf pm = true ->
  exists m', sm_step o m = Some (m', snd (pm_step o pm)) /\ SInv m' (fst (pm_step o pm)).
Proof.
  destruct m as [root s]. intros [HF Hr] Hwf. cbn [sm_root sm_slab] in *.
  destruct root as [r|], pm as [n|]; try contradiction.
  - destruct Hr as [fp Hrep]. cbn [pm_wf] in Hwf.
    destruct o as [k|k|k|k]; cbn [sm_step pm_step].
    + unfold sm_insert. cbn [sm_root sm_slab pm_insert].
      pose proof (sl_ins_ok k n s r fp Hwf HF Hrep) as H. destruct (pn_insert k n) as [n'|]; cbn [option_map].
      * destruct H as (s' & fp' & -> & Hrep' & _ & HF'). eexists. split; [reflexivity|].
        split; [exact HF' | exists fp'; exact Hrep'].
      * rewrite H. eexists. split; [reflexivity|]. split; [exact HF | exists fp; exact Hrep].
    + unfold sm_delete, pm_delete. cbn [sm_root sm_slab].
      pose proof (sl_del_ok k n s r fp [] Hwf HF Hrep) as H. destruct (pn_delete k n) as [[n'|] x].
      * destruct H as (s' & fp' & -> & Hrep' & _ & HF').
        destruct n' as [c' ch']. destruct (rep_node _ _ _ _ _ Hrep') as (kids & fq & _ & Hg & _).
        unfold sl_get. rewrite Hg. eexists. split; [reflexivity|].
        split; [exact HF' | exists fp'; exact Hrep'].
      * destruct H as (s' & -> & _ & Hvac & HF'). cbn [sl_unwind option_map].
        unfold sl_get, cget. rewrite Hvac. eexists. split; [reflexivity|]. split; [exact HF' | exact I].
    + unfold sm_no_prefix. cbn [sm_root sm_slab pm_no_prefix]. rewrite (sl_no_prefix_ok k n s r fp Hrep).
      eexists. split; [reflexivity|]. split; [exact HF | exists fp; exact Hrep].
    + unfold sm_iohp. cbn [sm_root sm_slab pm_iohp]. rewrite (sl_iohp_ok k n s r fp Hrep).
      eexists. split; [reflexivity|]. split; [exact HF | exists fp; exact Hrep].
  - destruct o as [k|k|k|k]; cbn [sm_step pm_step].
    + unfold sm_insert. cbn [sm_root sm_slab pm_insert].
      destruct (sl_alloc s (0, [])) as [s1 r] eqn:Ea.
      destruct (alloc_spec _ _ _ _ HF Ea) as (_ & Hnw & _ & HF1).
      destruct (sl_ins_fresh k s1 r HF1 Hnw) as (s' & fp' & -> & Hrep' & _ & HF').
      eexists. split; [reflexivity|]. split; [exact HF' | exists fp'; exact Hrep'].
    + eexists. split; [reflexivity|]. split; [exact HF | exact I].
    + eexists. split; [reflexivity|]. split; [exact HF | exact I].
    + eexists. split; [reflexivity|]. split; [exact HF | exact I].
Qed.

(** Every history of the slab-based structure is a history of the multiset of prefixes: it never
    panics, answers like the multiset, and stays a representation of a well-formed trie whose
    counts are the multiplicities. *)
Theorem sm_run_refines ops : forall m pm b,
  SInv m pm -> PInv pm b ->
  exists m' pm', sm_run ops m = Some (m', snd (bag_run ops b))
                 /\ SInv m' pm' /\ PInv pm' (fst (bag_run ops b)).
Proof.
  induction ops as [|o ops IH]; intros m pm b HS HP; cbn [sm_run bag_run].
  - exists m, pm. auto.
  - destruct (sm_step_ok o m pm HS (proj1 HP)) as (m1 & Hstep & HS1).
    destruct (pm_step_refines o pm b HP) as [Hout HP1]. rewrite Hstep.
    destruct (bag_step o b) as [b1 y]. cbn [fst snd] in *.
    destruct (IH m1 _ b1 HS1 HP1) as (m' & pm' & Hrun & HS' & HP').
    rewrite Hrun. destruct (bag_run ops b1) as [b2 ys]. cbn [fst snd] in *.
    exists m', pm'. rewrite Hout. auto.
Qed.

Lemma NoDup_app_disj {A} (l1 l2 : list A) :
  NoDup l1 -> NoDup l2 -> (forall x, In x l1 -> ~ In x l2) -> NoDup (l1 ++ l2).
Proof.
  induction l1 as [|a l1 IH]; intros H1 H2 Hd; cbn; [exact H2|].
  inversion H1; subst. constructor.
  - intros Hx. apply in_app_or in Hx as [Hx|Hx]; [contradiction|]. apply (Hd a); [left; reflexivity | exact Hx].
  - apply IH; auto. intros x Hx. apply Hd. right. exact Hx.
Qed.

Lemma rep_root_in s n i fp : rep s n i fp -> In i fp.
Proof. destruct n as [c ch]. intros (kids & fp' & _ & _ & _ & ->). left. reflexivity. Qed.

(** What a cell of the footprint looks like: occupied, its children keys are again in the footprint
    (no dangling slab keys), a node without children carries a positive count (no empty leaf), counts
    fit [u32]. *)
Definition cell_ok (s : cells) (fp : list nat) (x : nat) : Prop :=
  exists c kids, nth_error s x = Some (Some (c, kids))
                 /\ (forall b j, In (b, j) kids -> In j fp) /\ (kids = [] -> 0 < c) /\ c <= MAXC.

Lemma cell_ok_incl s fp fp' x : cell_ok s fp x -> incl fp fp' -> cell_ok s fp' x.
Proof. intros (c & kids & A & B & C & D) H. exists c, kids. repeat split; auto. intros b j Hb. apply H. eapply B; eauto. Qed.

Lemma rep_closed_mut :
  (forall n s i fp, rep s n i fp -> pn_wf n = true -> NoDup fp /\ forall x, In x fp -> cell_ok s fp x)
  /\ (forall f s kids fp, repf s f kids fp -> pf_wf f = true ->
        NoDup fp /\ (forall b j, In (b, j) kids -> In j fp) /\ forall x, In x fp -> cell_ok s fp x).
Proof.
  apply pnode_pforest_ind.
  - intros c ch IH s i fp (kids & fp' & Hn & Hf & Hni & ->) Hwf.
    apply pn_wf_parts in Hwf as (Hw & _ & Hc & Hnil).
    destruct (IH _ _ _ Hf Hw) as (Hnd & Hk & Hcells). split; [constructor; assumption|].
    intros x [<-|Hx].
    + exists c, kids. repeat split; auto.
      * intros b j Hb. right. eapply Hk; eauto.
      * intros ->. assert (E : ch = PNil) by (apply (repf_nil_iff _ _ _ _ Hf); reflexivity).
        specialize (Hnil E). lia.
    + eapply cell_ok_incl; [apply Hcells; exact Hx | apply incl_tl, incl_refl].
  - intros s kids fp [-> ->] _. split; [constructor|]. split; [intros b j []|intros x []].
  - intros b n IHn r IHr s kids fp (j & kids' & fp1 & fp2 & -> & Hn & Hr & Hd & ->) Hwf.
    rewrite pf_wf_cons in Hwf. apply andb_true_iff in Hwf as [Hwn Hwr].
    destruct (IHn _ _ _ Hn Hwn) as (Hnd1 & Hc1). destruct (IHr _ _ _ Hr Hwr) as (Hnd2 & Hk2 & Hc2).
    split; [apply NoDup_app_disj; assumption|]. split.
    + intros b' j' [E|Hb]; apply in_or_app.
      * inversion E; subst. left. eapply rep_root_in; eauto.
      * right. eapply Hk2; eauto.
    + intros x Hx. apply in_app_or in Hx as [Hx|Hx].
      * eapply cell_ok_incl; [apply Hc1; exact Hx | apply incl_appl, incl_refl].
      * eapply cell_ok_incl; [apply Hc2; exact Hx | apply incl_appr, incl_refl].
Qed.

(** In every state reachable by a history: the root (if any) and every slab key stored in a reachable
    children list denote occupied cells, no cell is shared, no reachable node is an empty leaf. *)
Theorem slab_invariants m pm :
  SInv m pm -> pm_wf pm = true ->
  match sm_root m with
  | None => pm = None
  | Some r => exists fp, In r fp /\ NoDup fp /\ forall x, In x fp -> cell_ok (sl_cells (sm_slab m)) fp x
  end
  /\ NoDup (sl_free (sm_slab m))
  /\ forall x, In x (sl_free (sm_slab m)) -> nth_error (sl_cells (sm_slab m)) x = Some None.
Proof.
  intros [[Hnd Hv] Hr] Hwf. split; [|split; [exact Hnd | exact Hv]].
  destruct (sm_root m) as [r|], pm as [n|]; try contradiction; [|reflexivity].
  destruct Hr as [fp Hrep]. exists fp. split; [eapply rep_root_in; eauto|].
  apply (proj1 rep_closed_mut n _ _ _ Hrep Hwf).
Qed.
