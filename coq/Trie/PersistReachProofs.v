(** The invariant of the C04 machine and the storage theorems for REACHABLE states
    (no [tree_ok] / [tok] / [bounded] / [consistent] hypothesis: they are derived from the
    operation history).  See [PersistReach.v] for the depth invariant [kb]. *)
From Coq Require Import NArith PeanoNat List Bool Lia.
From CB Require Import Common.Codec.
From CB Require Import Common.CodecProofs.
From CB Require Import Trie.Radix.
From CB Require Import Trie.RadixProofs.
From CB Require Import Trie.MerkleHash.
From CB Require Import Trie.MerkleHashProofs.
From CB Require Import Trie.Persist.
From CB Require Import Trie.PersistProofs.
From CB Require Import Trie.PersistFreezeProofs.
From CB Require Import Trie.SerializeProofs.
From CB Require Import Trie.PersistReach.
Import ListNotations.
Local Open Scope N_scope.

Section Machine.
Variable sha256 : list N -> list N.

Hypothesis sha_len : forall x, length (sha256 x) = 32%nat.
Variable B : N.
Hypothesis B_u32 : B < 2 ^ 32.

(** What the machine may be asked to insert: byte keys of at most [B / 2] bytes, values
    shorter than 2^32.  Keys of delete / delete_prefix / lookups are unrestricted. *)
Definition key_ok (k : list N) : Prop := bytes_ok k = true /\ 2 * lenN k <= B.
Definition cop_ok (o : cop) : Prop :=
  match o with
  | CInsert k v => key_ok k /\ lenN v < 2 ^ 32
  | CMut _ v => lenN v < 2 ^ 32
  | _ => True
  end.

Definition rb (r : option atree) : Prop := match r with Some t => kb B 0 t | None => True end.
Definition gen_ok (st : store) (r : option atree) : Prop := rb r /\ pre_cons_root sha256 st r.

Definition inv (s : cstate) : Prop :=
  bounded (c_store s) /\ rb (c_pers s) /\ consistent_root sha256 (c_store s) (c_pers s)
  /\ match c_mut s with Some g => Forall (gen_ok (c_store s)) g | None => True end.

Lemma inv_init : inv c_init.
Proof. unfold inv, c_init. cbn. repeat split; try exact I. apply bounded_empty. Qed.

Lemma cons_gen_ok st r : rb r -> consistent_root sha256 st r -> gen_ok st r.
Proof.
  intros A C. split; [exact A|]. destruct r as [t|]; [|exact I].
  apply (proj1 (consistent_pre_mut sha256 st)). exact C.
Qed.

Lemma inv_gens s : inv s -> Forall (gen_ok (c_store s)) (gens s).
Proof.
  intros (Hb & Hp & Hc & Hg). unfold gens, thaw.
  pose proof (cons_gen_ok _ _ Hp Hc) as G.
  destruct (c_mut s) as [[|r g]|]; [constructor; [exact G | constructor] | exact Hg | constructor; [exact G | constructor]].
Qed.

Lemma gens_cur s : exists rest, gens s = cur_root s :: rest.
Proof. unfold gens, cur_root, thaw. destruct (c_mut s) as [[|r g]|]; eauto. Qed.

Lemma cur_ok s : inv s -> gen_ok (c_store s) (cur_root s).
Proof.
  intros H. pose proof (inv_gens s H) as G. destruct (gens_cur s) as [rest E]. rewrite E in G.
  inversion G; assumption.
Qed.

Lemma set_cur_inv s r : inv s -> gen_ok (c_store s) r -> inv (set_cur s r).
Proof.
  intros Hi Hr. pose proof (inv_gens s Hi) as Hg. destruct Hi as (Hb & Hp & Hc & _).
  unfold set_cur. destruct (gens s) as [|x rest]; unfold inv; cbn [c_store c_pers c_mut];
    (split; [exact Hb|]; split; [exact Hp|]; split; [exact Hc|]); constructor; try exact Hr; try constructor.
  inversion Hg; assumption.
Qed.

Lemma do_freeze_inv s : inv s -> inv (fst (do_freeze s)) /\ c_mut (fst (do_freeze s)) = None
                                  /\ c_store (fst (do_freeze s)) = c_store s.
Proof.
  intros Hi. destruct (cur_ok s Hi) as [Hr Hp]. destruct Hi as (Hb & _ & _ & _).
  unfold do_freeze. destruct (cur_root s) as [t|]; cbn [freeze_root].
  - pose proof (proj1 (kb_freeze_mut B) t 0 Hr) as K.
    pose proof (proj1 (freeze_consistent_mut sha256 (c_store s)) t Hp) as C.
    destruct (freeze t) as [[ch t'] n]. cbn [fst snd] in *. unfold inv. cbn [c_store c_pers c_mut rb consistent_root].
    repeat split; try assumption.
  - cbn [fst]. unfold inv. cbn [c_store c_pers c_mut rb consistent_root]. repeat split; try assumption.
Qed.

Lemma settle_inv s : inv s -> inv (settle s) /\ c_mut (settle s) = None /\ c_store (settle s) = c_store s.
Proof.
  intros Hi. unfold settle. destruct (c_mut s) as [g|] eqn:E.
  - apply do_freeze_inv. exact Hi.
  - split; [exact Hi|]. split; [exact E | reflexivity].
Qed.

Lemma kb_reann n o o' p ov cs : kb B n (AN o p ov cs) -> kb B n (AN o' p ov cs).
Proof. exact (fun H => H). Qed.

Lemma store_update_inv st r st' kept loaded top :
  bounded st -> rb r -> consistent_root sha256 st r ->
  store_update sha256 r st = (st', kept, loaded, top) -> s_next st' < 2 ^ 64 ->
  bounded st' /\ rb kept /\ rb loaded
  /\ consistent_root sha256 st' kept /\ consistent_root sha256 st' loaded.
Proof.
  intros Hb Hr Hc E Hn. destruct r as [t|].
  - cbn [rb consistent_root] in Hr, Hc.
    pose proof (proj1 (kb_tree_ok_mut B B_u32) t 0 Hr) as Hok.
    destruct (store_update_incremental sha256 sha_len t st st' kept loaded top E Hok Hb Hc Hn)
      as (_ & _ & _ & Hb' & Ck & Cl).
    split; [exact Hb'|].
    unfold store_update in E.
    pose proof (proj1 (kb_store_mut B sha256) t 0 st Hr) as K.
    destruct (store_node sha256 t st) as [[st1 t1] x]. cbn [fst snd] in K.
    destruct (store_raw st1 (1 :: be64 x)) as [st2 tp]. injection E as <- <- <- <-.
    split; [|split; [exact K|]].
    + destruct t as [[[r0|]|] p ov cs]; destruct t1 as [o1 p1 ov1 cs1]; cbn [rb]; try exact Hr; exact K.
    + split; [exact Ck | exact Cl].
  - unfold store_update in E. destruct (store_raw st [0]) as [st1 tp] eqn:E1. injection E as <- <- <- <-.
    destruct (store_raw_props _ _ _ _ E1 Hb) as (Hb' & _). cbn [rb consistent_root]. auto.
Qed.

Lemma migrate_inv r st' r' :
  rb r -> migrate sha256 r empty_store = (st', r') -> s_next st' < 2 ^ 64 ->
  bounded st' /\ rb r' /\ consistent_root sha256 st' r'.
Proof.
  intros Hr E Hn. unfold migrate in E. destruct r as [t|].
  - cbn [rb] in Hr. rewrite (proj1 (migrate_store_mut sha256)) in E.
    pose proof (proj1 (kb_strip_mut B) t 0 Hr) as Ks.
    pose proof (proj1 (kb_store_mut B sha256) (strip t) 0 empty_store Ks) as K.
    pose proof (proj1 (store_grows_mut sha256) (strip t) empty_store) as G.
    destruct (store_node sha256 (strip t) empty_store) as [[st1 t1] x] eqn:E1. cbn [fst snd] in K, G.
    injection E as <- <-.
    destruct (proj1 (store_props_mut sha256 sha_len) (strip t) empty_store st1 t1 x E1 bounded_empty
                (proj1 (kb_tree_ok_mut B B_u32) _ 0 Ks)
                (proj1 (in_memory_consistent_mut sha256 empty_store) _ (proj1 in_memory_strip_mut t)) Hn)
      as (_ & _ & Cc & _).
    cbn [rb consistent_root]. split; [apply (grows_props _ _ G bounded_empty) | auto].
  - injection E as <- <-. cbn [rb consistent_root]. split; [apply bounded_empty | auto].
Qed.

(** What [cop_ok] asks of the operation on the current root. *)
Definition mop_ok (o : mop) : Prop :=
  match o with
  | MInsert k v => nibbles_ok k = true /\ lenN k <= B /\ lenN v < 2 ^ 32
  | MSetval _ v => lenN v < 2 ^ 32
  | _ => True
  end.

Lemma rb_apply o r : rb r -> mop_ok o -> rb (apply_mop o r).
Proof.
  destruct o as [k v|k|k|k v]; destruct r as [t|]; cbn [apply_mop rb mop_ok a_insert_root]; intros Hr Ho; try exact I.
  - destruct Ho as (Hk & Hl & Hv). apply (proj1 (kb_insert_mut B)); assumption.
  - destruct Ho as (Hk & Hl & Hv). apply kb_leaf; assumption.
  - destruct (a_delete k t) as [t'|] eqn:E; [|exact I]. eapply kb_delete; eassumption.
  - destruct (a_delete_prefix k t) as [t'|] eqn:E; [|exact I]. eapply kb_delete_prefix; eassumption.
  - apply (proj1 (kb_setval_mut B)); assumption.
Qed.

Lemma gen_ok_apply st o r : gen_ok st r -> mop_ok o -> gen_ok st (apply_mop o r).
Proof. intros [Hr Hp] Ho. split; [apply rb_apply; assumption | apply pre_cons_apply; exact Hp]. Qed.

(** Every step keeps the invariant (the only resource assumption: the store stays below
    2^64 bytes, the range of a [Reference]). *)
Lemma step_inv o s :
  inv s -> cop_ok o -> s_next (c_store (fst (c_step sha256 o s))) < 2 ^ 64 -> inv (fst (c_step sha256 o s)).
Proof.
  intros Hi Ho Hn. pose proof (cur_ok s Hi) as Hcur.
  destruct o as [k v|k|k|k|k v|k| |r| | | | | | ]; cbn [c_step cop_ok] in *.
  (* get, iterate: the current root is written back unchanged *)
  4, 6: (cbn [fst]; apply set_cur_inv; [exact Hi | exact Hcur]).
  (* store, load: the same [store_update], keeping one or the other of its two results *)
  8, 9: (destruct (settle_inv s Hi) as ((Hb0 & Hr0 & Hc0 & _) & Hm0 & Hs0);
         destruct (store_update sha256 (c_pers (settle s)) (c_store (settle s))) as [[[st kept] loaded] top] eqn:E;
         cbn [fst c_store] in *;
         destruct (store_update_inv _ _ _ _ _ _ Hb0 Hr0 Hc0 E Hn) as (A & Bk & Bl & Ck & Cl);
         unfold inv; cbn [c_store c_pers c_mut]; auto).
  - cbn [fst]. apply set_cur_inv; [exact Hi|]. apply (gen_ok_apply _ (MInsert (nib k) v) _ Hcur).
    destruct Ho as [[Hkb Hkl] Hv]. cbn [mop_ok]. rewrite lenN_nib. split; [apply nibbles_ok_nib; exact Hkb | lia].
  - destruct (cur_root s) as [t|]; cbn [fst]; (apply set_cur_inv; [exact Hi|]).
    all: exact (gen_ok_apply _ (MDelete (nib k)) _ Hcur I).
  - destruct (cur_root s) as [t|]; cbn [fst]; (apply set_cur_inv; [exact Hi|]).
    all: exact (gen_ok_apply _ (MDelPrefix (nib k)) _ Hcur I).
  - destruct (cur_root s) as [t|]; cbn [fst]; (apply set_cur_inv; [exact Hi|]).
    all: exact (gen_ok_apply _ (MSetval (nib k) v) _ Hcur Ho).
  - cbn [fst]. pose proof (inv_gens s Hi) as Hg. destruct Hi as (Hb & Hpp & Hc & _).
    unfold inv. cbn [c_store c_pers c_mut]. repeat split; try assumption.
    destruct (gens s) as [|r0 g]; [constructor|]. constructor; [inversion Hg; assumption | exact Hg].
  - cbn [fst]. pose proof (inv_gens s Hi) as Hg. destruct Hi as (Hb & Hpp & Hc & _).
    unfold inv. cbn [c_store c_pers c_mut]. repeat split; try assumption.
    apply Forall_skipn'. exact Hg.
  - pose proof (do_freeze_inv s Hi) as (A & _ & _). destruct (do_freeze s) as [s' n]. exact A.
  - destruct (settle_inv s Hi) as ((Hb0 & Hr0 & Hc0 & _) & Hm0 & Hs0).
    cbn [fst]. unfold inv, cache. cbn [c_store c_pers c_mut]. auto.
  - (* serialize: the machine continues with the deserialised (in-memory) state *)
    destruct (settle_inv s Hi) as ((Hb0 & Hr0 & Hc0 & _) & Hm0 & Hs0).
    cbn [fst]. unfold inv. cbn [c_store c_pers c_mut]. split; [exact Hb0|].
    destruct (c_pers (settle s)) as [t|]; cbn [option_map rb consistent_root]; [|auto].
    split; [apply (proj1 (kb_strip_mut B)); exact Hr0|]. split; [|exact I].
    apply (proj1 (in_memory_consistent_mut sha256 _)). apply (proj1 in_memory_strip_mut).
  - destruct (settle_inv s Hi) as ((Hb0 & Hr0 & Hc0 & _) & Hm0 & Hs0).
    destruct (migrate sha256 (c_pers (settle s)) empty_store) as [st r] eqn:E. cbn [fst c_store] in *.
    destruct (migrate_inv _ _ _ Hr0 E Hn) as (A & Br & Cr).
    unfold inv. cbn [c_store c_pers c_mut]. auto.
Qed.

(** Reachable states: any history of machine operations with admissible inserts, every
    intermediate store below 2^64 bytes. *)
Inductive reach : cstate -> Prop :=
| reach_init : reach c_init
| reach_step o s : reach s -> cop_ok o -> s_next (c_store (fst (c_step sha256 o s))) < 2 ^ 64 ->
                   reach (fst (c_step sha256 o s)).

Theorem reach_inv s : reach s -> inv s.
Proof. induction 1 as [|o s _ IH Ho Hn]; [apply inv_init | apply step_inv; assumption]. Qed.

(** (1) [tree_ok] (and the stronger [tok] of the contents) hold for the persistent state and
    for the tree the current generation freezes to, in every reachable state. *)
Theorem reach_tree_ok s : reach s ->
  root_ok (c_pers s) /\ root_ok (c_pers (settle s))
  /\ (forall t, c_pers (settle s) = Some t -> tok (erase t))
  /\ bounded (c_store s) /\ consistent_root sha256 (c_store (settle s)) (c_pers (settle s)).
Proof.
  intros H. pose proof (reach_inv s H) as Hi.
  destruct (settle_inv s Hi) as ((Hb0 & Hr0 & Hc0 & _) & _ & Hs0).
  destruct Hi as (Hb & Hr & _ & _).
  split; [destruct (c_pers s) as [t|]; [exact (proj1 (kb_tree_ok_mut B B_u32) t 0 Hr) | exact I]|].
  split; [destruct (c_pers (settle s)) as [t|]; [exact (proj1 (kb_tree_ok_mut B B_u32) t 0 Hr0) | exact I]|].
  split; [intros t E; rewrite E in Hr0; exact (proj1 (kb_tok_mut B B_u32) t 0 Hr0)|].
  split; [exact Hb | exact Hc0].
Qed.

(** (2) store / load round trip for reachable states. *)
Theorem store_load_reachable s t st' kept loaded top :
  reach s -> c_pers (settle s) = Some t ->
  store_update sha256 (Some t) (c_store (settle s)) = (st', kept, loaded, top) -> s_next st' < 2 ^ 64 ->
  erase_root kept = Some (erase t) /\ erase_root loaded = Some (erase t)
  /\ (exists x, root_ref loaded = Some x /\ load_raw st' top = Some (1 :: be64 x)
                /\ loads sha256 st' x (erase t))
  /\ bounded st'
  /\ (match kept with Some k => consistent sha256 st' k | None => False end)
  /\ (match loaded with Some l => consistent sha256 st' l | None => False end).
Proof.
  intros H Et E Hn. pose proof (reach_inv s H) as Hi.
  destruct (settle_inv s Hi) as ((Hb0 & Hr0 & Hc0 & _) & _ & _). rewrite Et in Hr0, Hc0.
  eapply store_update_incremental; try eassumption.
  exact (proj1 (kb_tree_ok_mut B B_u32) t 0 Hr0).
Qed.

(** (3) serialize / deserialize round trip for reachable states (the node count below
    2^32 is a resource bound of the format: parent distances are BE32). *)
Theorem serialize_reachable s t :
  reach s -> c_pers (settle s) = Some t -> N.of_nat (tsize (erase t)) < 2 ^ 32 ->
  deserialize (serialize sha256 (Some (erase t))) = Some (Some (erase t, hash_node sha256 (erase t)), []).
Proof.
  intros H Et Hsz. apply (deserialize_serialize sha256 sha_len); [|exact Hsz].
  exact (proj1 (proj2 (proj2 (reach_tree_ok s H))) t Et).
Qed.

(** (4) migrate for reachable states. *)
Theorem migrate_reachable s st' r' :
  reach s -> migrate sha256 (c_pers (settle s)) empty_store = (st', r') -> s_next st' < 2 ^ 64 ->
  erase_root r' = erase_root (c_pers (settle s))
  /\ match r' with
     | None => c_pers (settle s) = None
     | Some t' =>
         exists x, root_ref r' = Some x
         /\ forall fuel, (theight (erase t') <= fuel)%nat ->
              load_node fuel st' x = Some (erase t', hash_node sha256 (erase t'))
     end.
Proof.
  intros H E Hn. apply (migrate_loads sha256 sha_len); try assumption.
  exact (proj1 (proj2 (reach_tree_ok s H))).
Qed.

End Machine.

(** With [B = 2^32 - 1] (what [stem_len as u32] can hold) the admissible inserted keys are the
    byte strings of at most 2^31 - 1 bytes. *)
Lemma key_bound_exact k :
  key_ok (2 ^ 32 - 1) k <-> (bytes_ok k = true /\ lenN k <= 2 ^ 31 - 1).
Proof.
  unfold key_ok. change (2 ^ 32 - 1) with 4294967295. change (2 ^ 31 - 1) with 2147483647.
  split; intros [A C]; (split; [exact A | lia]).
Qed.
