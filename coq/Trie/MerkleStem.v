(** The stem bytes that enter the hash are literally the stored representation of the
    stem: for a well-formed [Nibbles.stem] (the transcription of [Stem { data, last_partial }]
    of low_level.rs, shared with C03 / C15) with nibble list [nibbles s],
    [MerkleHash.pack (nibbles s) = st_data s] and the hashed length is [st_len s], i.e.
    exactly what [Stem::to_slice] returns. *)
From Coq Require Import NArith List Lia.
From CB Require Import Trie.Radix.
From CB Require Import Trie.Nibbles.
From CB Require Import Trie.NibblesProofs.
From CB Require Import Trie.MerkleHash.
Import ListNotations.
Local Open Scope N_scope.

Lemma mpack_bnibs d : MerkleHash.pack (bnibs d) = d.
Proof.
  induction d as [|b d IH]; [reflexivity|]. cbn [bnibs MerkleHash.pack]. rewrite IH. f_equal.
  symmetry. apply N.div_mod'.
Qed.

Lemma mpack_bnibs_snoc d x : MerkleHash.pack (bnibs d ++ [x]) = d ++ [16 * x].
Proof.
  induction d as [|b d IH]; [reflexivity|]. cbn [bnibs MerkleHash.pack app]. rewrite IH. f_equal.
  symmetry. apply N.div_mod'.
Qed.

(** The two packing functions (this family's and [Nibbles.pack]) coincide. *)
Lemma mpack_is_nibbles_pack ns : MerkleHash.pack ns = Nibbles.pack ns.
Proof.
  assert (H : forall n ns, (length ns <= n)%nat -> MerkleHash.pack ns = Nibbles.pack ns).
  { induction n as [|n IH]; intros l Hl.
    - destruct l; [reflexivity | cbn in Hl; lia].
    - destruct l as [|h [|x r]]; [reflexivity | reflexivity |].
      cbn [MerkleHash.pack Nibbles.pack]. rewrite IH by (cbn [length] in Hl; lia). reflexivity. }
  apply (H (length ns)). lia.
Qed.

Theorem hashed_stem_is_stored_stem s :
  st_wf s = true ->
  MerkleHash.pack (nibbles s) = st_data s /\ lenN (nibbles s) = N.of_nat (st_len s).
Proof.
  intros Hwf. split; [|unfold lenN; rewrite (nibbles_length s Hwf); reflexivity].
  destruct (st_wf_shape s Hwf) as [_ Hp]. destruct s as [d [|]]; cbn [st_partial st_data] in *.
  - destruct (Hp eq_refl) as (d' & x & -> & Hx). rewrite nibbles_partial. apply mpack_bnibs_snoc.
  - rewrite nibbles_full. apply mpack_bnibs.
Qed.

Section Hash.
Variable sha256 : list N -> list N.

(** [ToSHA256 for Node] in terms of the stored stem: [stem_len] as LE64, then [stem_ref]
    (the two components of [self.path.to_slice()]). *)
Theorem hash_node_stored_stem (s : stem) ov cs :
  st_wf s = true ->
  hash_node sha256 (Node (nibbles s) ov cs) =
  sha256 (value_part sha256 ov ++ le64 (N.of_nat (st_len s)) ++ st_data s
          ++ sha256 (be16 (N.of_nat (flen cs)) ++ hash_children sha256 cs)).
Proof.
  intros Hwf. destruct (hashed_stem_is_stored_stem s Hwf) as [Hp Hl].
  cbn [hash_node]. rewrite Hp, Hl. reflexivity.
Qed.

End Hash.
