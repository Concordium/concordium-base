(** Lemmas about [InstanceState.v]: stale, forged and tombstoned ids are answered with the
    "invalid" encodings and never touch the trie; resuming after an interrupt invalidates
    every id iff the state was updated, and otherwise restores the caller's tables
    exactly. *)
From Coq Require Import NArith PeanoNat List Bool Lia.
From CB Require Import Trie.Radix.
From CB Require Import Trie.PrefixMap.
From CB Require Import Trie.Locks.
From CB Require Import Trie.LocksProofs.
From CB Require Import Trie.InstanceState.
Import ListNotations.
Local Open Scope N_scope.

Lemma enc_gen gen idx : N.of_nat idx < TWO32 -> id_gen (enc gen idx) = gen.
Proof.
  intros H. unfold id_gen, enc. rewrite N.div_add_l by (unfold TWO32; lia).
  rewrite N.div_small by assumption. lia.
Qed.

Lemma enc_idx gen idx bound :
  N.of_nat idx < TWO32 -> (idx < bound)%nat -> id_idx (enc gen idx) bound = Some idx.
Proof.
  intros H Hb. unfold id_idx, enc.
  rewrite N.add_comm, N.mod_add by (unfold TWO32; lia). rewrite N.mod_small by assumption.
  destruct (N.leb_spec (N.of_nat bound) (N.of_nat idx)); [lia|]. rewrite Nat2N.id. reflexivity.
Qed.

Lemma id_idx_bound id bound n : id_idx id bound = Some n -> (n < bound)%nat.
Proof.
  unfold id_idx. destruct (N.leb_spec (N.of_nat bound) (id mod TWO32)) as [Hle|Hlt]; [discriminate|].
  intros E. inversion E. lia.
Qed.

Definition is_handle_op (o : cop) : bool :=
  match o with
  | CNext _ | CIterDelete _ | CIterKey _ | CRead _ | CSize _ | CWrite _ _ _ | CResize _ _ => true
  | _ => false
  end.

Definition op_id (o : cop) : N :=
  match o with
  | CNext id | CIterDelete id | CIterKey id | CRead id | CSize id | CWrite id _ _ | CResize id _ => id
  | _ => 0
  end.

(** The answer for an invalid id, and what happens to the [changed] flag (the write
    operations set it before looking at the id). *)
Definition invalid_answer (o : cop) : cout :=
  match o with
  | CNext _ => XId ID_ERR
  | CIterDelete _ | CWrite _ _ _ | CResize _ _ => XNum INVALID32
  | _ => XInvalid
  end.

Definition marks_changed (o : cop) : bool :=
  match o with CWrite _ _ _ | CResize _ _ => true | _ => false end.

Definition after_invalid (o : cop) (i : istate) : istate :=
  if marks_changed o then i_set_changed i else i.

Lemma entry_of_stale i g id : id_gen id <> is_gen i -> entry_of i g id = None.
Proof.
  intros H. unfold entry_of. destruct (N.eqb_spec (id_gen id) (is_gen i)); [contradiction | reflexivity].
Qed.

(** An id whose generation is not the current one: invalid answer, the trie generation
    (tree, entries, locks, tables) is untouched. *)
Theorem stale_id_invalid o i g :
  is_handle_op o = true -> id_gen (op_id o) <> is_gen i ->
  c_op o (i, g) = ((after_invalid o i, g), invalid_answer o).
Proof.
  intros Ho Hg. destruct o; try discriminate Ho; cbn [op_id] in Hg; cbn [c_op];
    try rewrite (entry_of_stale i g _ Hg);
    try (destruct (N.eqb_spec (id_gen id) (is_gen i)); [contradiction|]); reflexivity.
Qed.

(** An id of the current generation whose index is outside the table (forged). *)
Theorem forged_index_invalid o i g :
  is_handle_op o = true ->
  (match o with
   | CNext _ | CIterDelete _ | CIterKey _ => id_idx (op_id o) (length (g_iters g)) = None
   | _ => id_idx (op_id o) (length (g_handles g)) = None
   end) ->
  c_op o (i, g) = ((after_invalid o i, g), invalid_answer o).
Proof.
  intros Ho Hx. destruct o; try discriminate Ho; cbn [op_id] in Hx; cbn [c_op]; unfold entry_of;
    rewrite ?Hx; destruct (negb (id_gen id =? is_gen i)); reflexivity.
Qed.

(** An id of an entry that has been deleted (tombstone). *)
Theorem tombstone_invalid o i g h e :
  (match o with CRead _ | CSize _ | CWrite _ _ _ | CResize _ _ => true | _ => false end) = true ->
  id_idx (op_id o) (length (g_handles g)) = Some h ->
  nth_error (g_handles g) h = Some e -> ent_get (g_ents g) e = None ->
  c_op o (i, g) = ((after_invalid o i, g), invalid_answer o).
Proof.
  intros Ho Hh He Hd. destruct o; try discriminate Ho; cbn [op_id] in Hh; cbn [c_op]; unfold entry_of;
    rewrite Hh, He, Hd; destruct (negb (id_gen id =? is_gen i)); reflexivity.
Qed.

(** Deleting a key turns every id of that entry into a tombstone. *)
Theorem deleted_entry_ids_invalid k i g e h :
  lookup_root (nib k) (g_root g) = Some e -> snd (m_delete k g) <> RLocked ->
  nth_error (g_handles g) h = Some e ->
  let g' := snd (fst (c_op (CDelete k) (i, g))) in
  nth_error (g_handles g') h = Some e /\ ent_get (g_ents g') e = None.
Proof.
  intros Hl Hnl Hh. cbn [c_op]. rewrite m_delete_eq in *.
  destruct (g_root g) as [t|] eqn:Er; [|discriminate]. rewrite <- Er in *.
  destruct (negb (pm_no_prefix k (g_locks g))); [cbn in Hnl; congruence|].
  rewrite Hl.
  destruct (ent_get (g_ents g) e); cbn [fst snd with_ents with_root g_handles g_ents];
    (split; [exact Hh | apply ent_get_set_none]).
Qed.

(** A fresh id denotes the entry it was handed out for. *)
Theorem lookup_id_valid k i g e v :
  lookup_root (nib k) (g_root g) = Some e -> ent_get (g_ents g) e = Some v ->
  N.of_nat (length (g_handles g)) < TWO32 ->
  let r := c_op (CLookup k) (i, g) in
  snd r = XId (enc (is_gen i) (length (g_handles g)))
  /\ entry_of (fst (fst r)) (snd (fst r)) (enc (is_gen i) (length (g_handles g))) = Some (e, v).
Proof.
  intros Hl He Hb. cbn [c_op]. unfold m_get. rewrite Hl. cbn [fst snd]. split; [reflexivity|].
  unfold entry_of. rewrite enc_gen by assumption. rewrite N.eqb_refl. cbn [negb].
  cbn [with_handle g_handles g_ents]. rewrite app_length. cbn [length].
  rewrite enc_idx by (try assumption; lia).
  rewrite nth_error_app2 by lia. rewrite Nat.sub_diag. cbn [nth_error]. rewrite He. reflexivity.
Qed.

Definition touched (f : frame) : bool := is_changed (fst f) || is_touched (fst f).

(** [state_updated = true]: the generation counter moves on and the tables are empty, so
    every id handed out before the interrupt is stale. *)
Theorem resume_updated inner outer :
  touched inner = true ->
  let f := resume true inner outer in
  is_gen (fst f) = is_gen (fst outer) + 1
  /\ g_handles (snd f) = [] /\ g_iters (snd f) = []
  /\ g_root (snd f) = g_root (snd inner) /\ g_ents (snd f) = g_ents (snd inner).
Proof.
  destruct inner as [ii ig], outer as [oi og]. unfold touched, resume. cbn [fst snd]. intros ->.
  cbn. repeat split.
Qed.

Corollary resume_updated_invalidates inner outer o :
  touched inner = true -> is_handle_op o = true -> id_gen (op_id o) = is_gen (fst outer) ->
  let f := resume true inner outer in
  c_op o f = ((after_invalid o (fst f), snd f), invalid_answer o).
Proof.
  intros Ht Ho Hg. destruct (resume_updated inner outer Ht) as (G & _).
  destruct (resume true inner outer) as [i g] eqn:E. cbn [fst snd] in *.
  apply stale_id_invalid; [assumption|]. rewrite Hg, G. lia.
Qed.

(** No update (the inner call failed, or did not touch the state): the caller continues
    on exactly its own generation record and generation counter. *)
Theorem resume_not_updated commit inner outer :
  commit && touched inner = false ->
  let f := resume commit inner outer in
  snd f = snd outer /\ is_gen (fst f) = is_gen (fst outer).
Proof.
  destruct inner as [ii ig], outer as [oi og]. unfold touched, resume. cbn [fst snd]. intros ->.
  split; reflexivity.
Qed.

(** The answers of the handle operations do not depend on the flags of the instance state,
    so after a resume without update every id behaves exactly as before the interrupt. *)
Lemma c_op_flags o gen c1 t1 c2 t2 g :
  snd (c_op o (mkI gen c1 t1, g)) = snd (c_op o (mkI gen c2 t2, g))
  /\ snd (fst (c_op o (mkI gen c1 t1, g))) = snd (fst (c_op o (mkI gen c2 t2, g))).
Proof.
  destruct o; cbn [c_op i_set_changed is_gen]; unfold entry_of; cbn [is_gen];
    repeat match goal with
           | |- context [match ?x with _ => _ end] => destruct x; cbn [fst snd]
           | |- context [if ?x then _ else _] => destruct x; cbn [fst snd]
           end; split; reflexivity.
Qed.

Corollary resume_not_updated_same_answers commit inner outer o :
  commit && touched inner = false ->
  snd (c_op o (resume commit inner outer)) = snd (c_op o outer)
  /\ snd (fst (c_op o (resume commit inner outer))) = snd (fst (c_op o outer)).
Proof.
  intros H. destruct (resume_not_updated commit inner outer H) as [Hg Hi].
  destruct (resume commit inner outer) as [[g1 c1 t1] gg] eqn:E. destruct outer as [[g2 c2 t2] og].
  cbn [fst snd is_gen] in *. subst. apply c_op_flags.
Qed.

Fixpoint c_exec (ops : list cop) (st : list frame) : option (list frame) :=
  match ops with
  | [] => Some st
  | o :: r => match fst (c_step o st) with Some st' => c_exec r st' | None => None end
  end.

(** Interrupts and ends of [ops] are properly nested, starting at nesting depth [d]. *)
Fixpoint balanced (d : nat) (ops : list cop) : bool :=
  match ops with
  | [] => Nat.eqb d 0
  | CInterrupt :: r => balanced (S d) r
  | CEnd _ :: r => match d with O => false | S d' => balanced d' r end
  | _ :: r => balanced d r
  end.

Lemma c_exec_balanced ops : forall d newer base,
  balanced d ops = true -> length newer = S d ->
  exists top, c_exec ops (newer ++ base) = Some (top :: base).
Proof.
  induction ops as [|o ops IH]; intros d newer base Hb Hl.
  - cbn in Hb. apply Nat.eqb_eq in Hb. subst d.
    destruct newer as [|top [|? ?]]; try discriminate. exists top. reflexivity.
  - destruct newer as [|f newer]; [discriminate|]. cbn [length] in Hl.
    assert (Hother : forall x, fst (c_step o ((f :: newer) ++ base)) = Some (x :: newer ++ base) ->
                     balanced d ops = true -> exists top, c_exec (o :: ops) ((f :: newer) ++ base) = Some (top :: base)).
    { intros x Hs Hb'. cbn [c_exec]. rewrite Hs. apply (IH d (x :: newer) base Hb'). cbn. lia. }
    destruct o; cbn [balanced] in Hb;
      try (match goal with
           | |- context [c_exec (?o :: _) _] =>
               destruct (c_op o f) as [f' x] eqn:E;
               apply (Hother f'); [cbn [app c_step]; rewrite E; reflexivity | exact Hb]
           end).
    + cbn [c_exec app c_step fst]. apply (IH (S d) (inner_frame f :: f :: newer) base Hb). cbn. lia.
    + destruct d as [|d']; [discriminate|].
      destruct newer as [|outer newer]; [cbn in Hl; lia|].
      cbn [c_exec app c_step fst]. apply (IH d' (resume commit f outer :: newer) base Hb). cbn in *. lia.
Qed.

(** A complete re-entrant call on top of [f :: rest]: the frames [rest] are unchanged and
    the caller is resumed by [resume]. *)
Theorem reentrant_call_shape inner commit f rest :
  balanced 0 inner = true ->
  exists top,
    c_exec (CInterrupt :: inner ++ [CEnd commit]) (f :: rest) = Some (resume commit top f :: rest).
Proof.
  intros Hb. cbn [c_exec c_step fst].
  assert (X : forall ops d newer, balanced d ops = true -> length newer = S d ->
              exists top, c_exec (ops ++ [CEnd commit]) (newer ++ f :: rest)
                          = c_exec [CEnd commit] (top :: f :: rest)).
  { intros ops d newer Hb' Hl.
    destruct (c_exec_balanced ops d newer (f :: rest) Hb' Hl) as [top Ht]. exists top.
    clear - Ht. revert newer Ht. induction ops as [|o ops IH]; intros newer Ht.
    - cbn in Ht. inversion Ht. reflexivity.
    - cbn [app c_exec] in *. destruct (fst (c_step o (newer ++ f :: rest))) as [st'|]; [|discriminate].
      (* the intermediate stacks are of the form newer' ++ f :: rest; we only need the equation *)
      assert (G : forall st', c_exec ops st' = Some (top :: f :: rest) ->
                  c_exec (ops ++ [CEnd commit]) st' = c_exec [CEnd commit] (top :: f :: rest)).
      { clear. induction ops as [|o ops IH]; intros st' H.
        - cbn in H. inversion H. reflexivity.
        - cbn [app c_exec] in *. destruct (fst (c_step o st')); [apply IH; assumption | discriminate]. }
      apply G. assumption. }
  destruct (X inner 0%nat [inner_frame f] Hb eq_refl) as [top Ht].
  exists top. cbn [app] in Ht. rewrite Ht. reflexivity.
Qed.

(** Ids survive an interrupt iff the state was not updated during it. *)
Theorem migrate_iff_changed inner_ops commit f rest :
  balanced 0 inner_ops = true ->
  exists top,
    c_exec (CInterrupt :: inner_ops ++ [CEnd commit]) (f :: rest) = Some (resume commit top f :: rest)
    /\ (commit && touched top = true ->
        is_gen (fst (resume commit top f)) = is_gen (fst f) + 1
        /\ forall o, is_handle_op o = true -> id_gen (op_id o) = is_gen (fst f) ->
             c_op o (resume commit top f)
             = ((after_invalid o (fst (resume commit top f)), snd (resume commit top f)), invalid_answer o))
    /\ (commit && touched top = false ->
        snd (resume commit top f) = snd f
        /\ is_gen (fst (resume commit top f)) = is_gen (fst f)
        /\ forall o, snd (c_op o (resume commit top f)) = snd (c_op o f)
                     /\ snd (fst (c_op o (resume commit top f))) = snd (fst (c_op o f))).
Proof.
  intros Hb. destruct (reentrant_call_shape inner_ops commit f rest Hb) as [top Ht].
  exists top. split; [exact Ht|]. split.
  - intros H. apply andb_true_iff in H as [-> Htouch]. split.
    + apply (resume_updated top f Htouch).
    + intros o Ho Hg. apply resume_updated_invalidates; assumption.
  - intros H. destruct (resume_not_updated commit top f H) as [A B]. split; [exact A|]. split; [exact B|].
    intros o. apply resume_not_updated_same_answers. exact H.
Qed.
