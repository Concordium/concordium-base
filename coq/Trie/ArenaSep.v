(** The arena as a separated tree: [Tr a idx t fp] says node [idx] unfolds to the finite radix tree
    [t] of entry indices, visiting the nodes [fp] once each.  The existence of [t] is the height
    bound the depth-indexed view of [ArenaView.v] lacks, and [NoDup fp] is the disjointness of the
    children's sub-arenas that the frame lemma needs.  No assumption about generations is used. *)
From Coq Require Import NArith PeanoNat List Lia.
From CB Require Import Trie.Radix.
From CB Require Import Trie.RadixProofs.
From CB Require Import Trie.Arena.
From CB Require Import Trie.ArenaProofs.
From CB Require Import Trie.ArenaTree.
From CB Require Import Trie.ArenaView.
Import ListNotations.

Fixpoint Tr (a : arena) (idx : nat) (t : tree nat) (fp : list nat) {struct t} : Prop :=
  match t with
  | Node p ov cs =>
      p = an_path (node_at a idx) /\ ov = an_val (node_at a idx) /\
      exists fp', fp = idx :: fp' /\ TrF a (an_ch (node_at a idx)) cs fp'
  end
with TrF (a : arena) (ch : list (N * nat)) (f : forest nat) (fp : list nat) {struct f} : Prop :=
  match f with
  | FNil => ch = [] /\ fp = []
  | FCons c t r => exists i ch' fp1 fp2,
      ch = (c, i) :: ch' /\ fp = fp1 ++ fp2 /\ Tr a i t fp1 /\ TrF a ch' r fp2
  end.

Fixpoint tentries (t : tree nat) : list nat :=
  match t with
  | Node _ ov cs => (match ov with Some e => [e] | None => [] end) ++ fentries cs
  end
with fentries (f : forest nat) : list nat :=
  match f with
  | FNil => []
  | FCons _ t r => tentries t ++ fentries r
  end.

Fixpoint theight (t : tree nat) : nat :=
  match t with Node _ _ cs => S (fheight cs) end
with fheight (f : forest nat) : nat :=
  match f with FNil => 0 | FCons _ t r => Nat.max (theight t) (fheight r) end.

Lemma Tr_frame_mut a a' :
  (forall t idx fp, Tr a idx t fp -> (forall j, In j fp -> node_at a' j = node_at a j) -> Tr a' idx t fp)
  /\ (forall f ch fp, TrF a ch f fp -> (forall j, In j fp -> node_at a' j = node_at a j) -> TrF a' ch f fp).
Proof.
  apply tree_forest_ind.
  - intros p ov f IH idx fp (E1 & E2 & fp' & E3 & HF) Hfr. cbn [Tr]. subst fp.
    rewrite (Hfr idx (or_introl eq_refl)). split; [exact E1|]. split; [exact E2|]. exists fp'. split; [reflexivity|].
    apply IH; [exact HF|]. intros j Hj. apply Hfr. right. exact Hj.
  - intros ch fp H _. exact H.
  - intros c t IHt f IHf ch fp (i & ch' & fp1 & fp2 & E1 & E2 & H1 & H2) Hfr. cbn [TrF]. subst fp.
    exists i, ch', fp1, fp2. split; [exact E1|]. split; [reflexivity|]. split.
    + apply IHt; [exact H1|]. intros j Hj. apply Hfr. apply in_or_app. left. exact Hj.
    + apply IHf; [exact H2|]. intros j Hj. apply Hfr. apply in_or_app. right. exact Hj.
Qed.

Lemma Tr_frame a a' t idx fp :
  Tr a idx t fp -> (forall j, In j fp -> node_at a' j = node_at a j) -> Tr a' idx t fp.
Proof. apply (proj1 (Tr_frame_mut a a')). Qed.
Lemma TrF_frame a a' f ch fp :
  TrF a ch f fp -> (forall j, In j fp -> node_at a' j = node_at a j) -> TrF a' ch f fp.
Proof. apply (proj2 (Tr_frame_mut a a')). Qed.

Lemma Tr_head a idx t fp : Tr a idx t fp -> exists fp', fp = idx :: fp'.
Proof. destruct t as [p ov cs]. intros (_ & _ & fp' & E & _). eauto. Qed.

Lemma Tr_abs_mut a :
  (forall t idx fp, Tr a idx t fp -> forall d, theight t <= d -> abs_t d a idx = t)
  /\ (forall f ch fp, TrF a ch f fp -> forall d, fheight f <= d -> mk_forest (abs_t d a) ch = f).
Proof.
  apply tree_forest_ind.
  - intros p ov f IH idx fp (E1 & E2 & fp' & E3 & HF) d Hd. cbn [theight] in Hd.
    destruct d as [|d]; [lia|]. cbn [abs_t]. rewrite <- E1, <- E2. f_equal. apply (IH _ _ HF). lia.
  - intros ch fp (E & _) d _. subst ch. reflexivity.
  - intros c t IHt f IHf ch fp (i & ch' & fp1 & fp2 & E1 & E2 & H1 & H2) d Hd. cbn [fheight] in Hd. subst ch.
    cbn [mk_forest]. f_equal; [apply (IHt _ _ H1); lia | apply (IHf _ _ H2); lia].
Qed.

Lemma Tr_abs a t idx fp d : Tr a idx t fp -> theight t <= d -> abs_t d a idx = t.
Proof. intros H. apply (proj1 (Tr_abs_mut a) t idx fp H). Qed.

Lemma Tr_vview a t idx fp d : Tr a idx t fp -> theight t <= d -> vview d a idx = tmap (a_with_entry a) t.
Proof. intros H Hd. unfold vview. rewrite (Tr_abs a t idx fp d H Hd). reflexivity. Qed.

Lemma Tr_entries_mut a :
  EInv a ->
  (forall t idx fp, Tr a idx t fp -> Forall (fun e => e < length (a_entries a)) (tentries t))
  /\ (forall f ch fp, TrF a ch f fp -> Forall (fun e => e < length (a_entries a)) (fentries f)).
Proof.
  intros HE. apply tree_forest_ind.
  - intros p ov f IH idx fp (E1 & E2 & fp' & E3 & HF). cbn [tentries]. apply Forall_app. split; [|apply (IH _ _ HF)].
    destruct ov as [e|]; [|constructor]. constructor; [|constructor]. apply (HE idx e). symmetry. exact E2.
  - intros. constructor.
  - intros c t IHt f IHf ch fp (i & ch' & fp1 & fp2 & E1 & E2 & H1 & H2). cbn [fentries]. apply Forall_app. eauto.
Qed.

Lemma tmap_ext_mut {B} (g h : nat -> B) :
  (forall t, (forall e, In e (tentries t) -> g e = h e) -> tmap g t = tmap h t)
  /\ (forall f, (forall e, In e (fentries f) -> g e = h e) -> tmap_f g f = tmap_f h f).
Proof.
  apply tree_forest_ind.
  - intros p ov f IH H. cbn [tmap]. f_equal.
    + destruct ov as [e|]; [|reflexivity]. cbn [option_map]. f_equal. apply H. cbn [tentries]. left. reflexivity.
    + apply IH. intros e He. apply H. cbn [tentries]. apply in_or_app. right. exact He.
  - reflexivity.
  - intros c t IHt f IHf H. cbn [tmap_f]. f_equal.
    + apply IHt. intros e He. apply H. cbn [fentries]. apply in_or_app. left. exact He.
    + apply IHf. intros e He. apply H. cbn [fentries]. apply in_or_app. right. exact He.
Qed.

Definition edat (a : arena) (e : nat) : aentry := nth e (a_entries a) EDeleted.
Definition ro (x : aentry) : aentry := match x with EMutable i => EReadOnly i | y => y end.
Definition eptr (x : aentry) : option nat :=
  match x with EReadOnly i | EMutable i => Some i | EDeleted => None end.

Lemma with_entry_edat a e :
  a_with_entry a e = match eptr (edat a e) with Some i => nth_error (a_values a) i | None => None end.
Proof.
  unfold a_with_entry, edat. destruct (nth_error (a_entries a) e) as [x|] eqn:E.
  - rewrite (nth_error_nth _ _ EDeleted E). destruct x; reflexivity.
  - apply nth_error_None in E. rewrite nth_overflow by exact E. reflexivity.
Qed.

Lemma eptr_ro x : eptr (ro x) = eptr x.
Proof. destruct x; reflexivity. Qed.

Lemma ro_not_mut x i : ro x <> EMutable i.
Proof. destruct x; discriminate. Qed.

Lemma ro_entry_edat a e : ro_entry a e = ro (edat a e).
Proof. unfold ro_entry, edat, ro. destruct (nth e (a_entries a) EDeleted); reflexivity. Qed.

Lemma mig_spec a n g :
  let '(a', n') := migrate a n g in
  a_gens a' = a_gens a /\ a_values a' = a_values a /\ a_nodes a' = a_nodes a
  /\ an_path n' = an_path n /\ an_ch n' = an_ch n
  /\ match an_val n with
     | None => a_entries a' = a_entries a /\ an_val n' = None
     | Some e => a_entries a' = a_entries a ++ [ro (edat a e)] /\ an_val n' = Some (length (a_entries a))
     end.
Proof.
  rewrite migrate_eq. unfold copy_node. destruct (an_val n) as [e|]; cbn; repeat split; try reflexivity.
  rewrite ro_entry_edat. reflexivity.
Qed.

Lemma edat_app1 a a' es e : a_entries a' = a_entries a ++ es -> e < length (a_entries a) -> edat a' e = edat a e.
Proof. intros E H. unfold edat. rewrite E, app_nth1 by exact H. reflexivity. Qed.

Lemma nd_app {A} (l l' : list A) :
  NoDup (l ++ l') <-> NoDup l /\ NoDup l' /\ (forall x, In x l -> In x l' -> False).
Proof.
  induction l as [|x l IH]; cbn [app].
  - split; [intros H; split; [constructor | split; [exact H | intros x []]] | intros (_ & H & _); exact H].
  - split.
    + intros H. inversion H as [|? ? Hn Hd]; subst. apply IH in Hd. destruct Hd as (D1 & D2 & D3).
      split; [constructor; [intros X; apply Hn; apply in_or_app; left; exact X | exact D1]|].
      split; [exact D2|]. intros y [->|Hy] Hy'; [apply Hn; apply in_or_app; right; exact Hy' | eapply D3; eauto].
    + intros (H1 & H2 & H3). inversion H1 as [|? ? Hn Hd]; subst. constructor.
      * intros X. apply in_app_or in X. destruct X as [X|X]; [exact (Hn X) | apply (H3 x (or_introl eq_refl) X)].
      * apply IH. split; [exact Hd|]. split; [exact H2|]. intros y Hy. apply H3. right. exact Hy.
Qed.

(** [refresh lo l l1 hi]: [l1] is [l] with some elements replaced by the fresh indices
    [lo, lo+1, ..], in order, up to [hi]: how [make_owned] renumbers the footprint of the
    children (every head) and their entries (every value). *)
Inductive refresh : nat -> list nat -> list nat -> nat -> Prop :=
| rf_nil lo : refresh lo [] [] lo
| rf_keep lo x l l1 hi : refresh lo l l1 hi -> refresh lo (x :: l) (x :: l1) hi
| rf_new lo x l l1 hi : refresh (S lo) l l1 hi -> refresh lo (x :: l) (lo :: l1) hi.

Lemma refresh_refl lo l : refresh lo l l lo.
Proof. induction l; constructor; assumption. Qed.

Lemma refresh_app lo l l1 mid m m1 hi :
  refresh lo l l1 mid -> refresh mid m m1 hi -> refresh lo (l ++ m) (l1 ++ m1) hi.
Proof. intros R1 R2. induction R1; cbn [app]; [exact R2 | apply rf_keep, IHR1, R2 | apply rf_new, IHR1, R2]. Qed.

Lemma refresh_in lo l l1 hi :
  refresh lo l l1 hi -> lo <= hi /\ forall x, In x l1 -> In x l \/ lo <= x < hi.
Proof.
  induction 1 as [lo | lo x l l1 hi R (Hle & IH) | lo x l l1 hi R (Hle & IH)].
  - split; [apply le_n | intros x []].
  - split; [exact Hle|]. intros y [<-|Hy]; [left; left; reflexivity|].
    destruct (IH y Hy) as [Y|Y]; [left; right; exact Y | right; exact Y].
  - split; [lia|]. intros y [<-|Hy]; [right; lia|].
    destruct (IH y Hy) as [Y|Y]; [left; right; exact Y | right; lia].
Qed.

Lemma refresh_nodup lo l l1 hi :
  refresh lo l l1 hi -> NoDup l -> Forall (fun x => x < lo) l -> NoDup l1.
Proof.
  induction 1 as [lo | lo x l l1 hi R IH | lo x l l1 hi R IH]; intros Hnd Hb; [constructor | |].
  - apply NoDup_cons_iff in Hnd. destruct Hnd as (Ni & Nd). constructor; [|exact (IH Nd (Forall_inv_tail Hb))].
    intros X. destruct (proj2 (refresh_in _ _ _ _ R) x X) as [Y|Y]; [exact (Ni Y)|].
    pose proof (Forall_inv Hb) as Z. cbn beta in Z. lia.
  - apply NoDup_cons_iff in Hnd. destruct Hnd as (_ & Nd). pose proof (Forall_inv_tail Hb) as Hb'. constructor.
    + intros X. destruct (proj2 (refresh_in _ _ _ _ R) lo X) as [Y|Y]; [|lia].
      rewrite Forall_forall in Hb'. specialize (Hb' lo Y). lia.
    + apply (IH Nd). eapply Forall_impl; [|exact Hb']. cbn beta. intros; lia.
Qed.

Section Copies.
Variables a A : arena.
Let Le := length (a_entries a).

Definition eren (e e1 : nat) : Prop :=
  e1 = e \/ (Le <= e1 < length (a_entries A) /\ edat A e1 = ro (edat a e)).

Lemma eren_refl_list l : Forall2 eren l l.
Proof. induction l; constructor; [left; reflexivity | assumption]. Qed.

Lemma mk_tr g : forall f ch fp lo next pre es,
  TrF a ch f fp ->
  (forall p n', nth_error (copy_nodes (a_nodes a) g lo ch) p = Some n' -> node_at A (next + p) = n') ->
  a_entries A = pre ++ es -> length pre = lo -> Forall2 (pushed_for a) (child_vals (a_nodes a) ch) es ->
  (forall j, In j fp -> node_at A j = node_at a j) ->
  (forall e, e < Le -> edat A e = edat a e) -> a_values A = a_values a ->
  Le <= lo ->
  Forall (fun e => e < Le) (fentries f) ->
  exists f1 fp1 hi, TrF A (renumber next ch) f1 fp1
    /\ refresh next fp fp1 (next + length ch)
    /\ tmap_f (a_with_entry A) f1 = tmap_f (a_with_entry a) f
    /\ Forall2 eren (fentries f) (fentries f1)
    /\ refresh lo (fentries f) (fentries f1) hi.
Proof.
  induction f as [|c t r IH]; intros ch fp lo next pre es HT Hns EA Hpre F Hfr Hed Hv Hlo Heb.
  - destruct HT as (-> & ->).
    exists FNil, [], lo. split; [split; reflexivity|]. split; [rewrite Nat.add_0_r; constructor|].
    split; [reflexivity|]. split; constructor.
  - destruct HT as (i & ch' & fpt & fp2 & -> & -> & Ht & Hr).
    destruct t as [p ov gcs]. destruct Ht as (Ep & Ev & fpt' & -> & Hg).
    cbn [fentries tentries] in Heb. apply Forall_app in Heb. destruct Heb as (Heb1 & Heb2).
    apply Forall_app in Heb1. destruct Heb1 as (Hov & Hgcs).
    assert (WE : forall e, e < Le -> a_with_entry A e = a_with_entry a e).
    { intros e He. rewrite !with_entry_edat. rewrite (Hed e He), Hv. reflexivity. }
    cbn [copy_nodes child_vals] in Hns, F. fold (node_at a i) in Hns, F. rewrite <- Ev in Hns, F.
    set (n := copy_node g lo (node_at a i)) in *.
    set (lo' := match ov with Some _ => S lo | None => lo end) in *.
    assert (Hn0 : node_at A next = n) by (rewrite <- (Nat.add_0_r next); apply Hns; reflexivity).
    assert (Hval : match ov with
                   | Some e => an_val n = Some lo /\ edat A lo = ro (edat a e) /\ lo < length (a_entries A)
                   | None => an_val n = None end
                   /\ exists pre' es', a_entries A = pre' ++ es' /\ length pre' = lo'
                        /\ Forall2 (pushed_for a) (child_vals (a_nodes a) ch') es').
    { unfold n, copy_node, lo'. cbn [an_val]. rewrite <- Ev. destruct ov as [e|].
      - inversion F as [|? x ? es' (_ & Px) F']; subst. split.
        + split; [reflexivity|]. split; [|rewrite EA, app_length; cbn; lia].
          unfold edat at 1. rewrite EA, app_nth2, Nat.sub_diag by lia. cbn [nth].
          rewrite <- ro_entry_edat. apply Px. exact (Forall_inv Hov).
        + exists (pre ++ [x]), es'. rewrite <- app_assoc, app_length. cbn. split; [exact EA|]. split; [lia | exact F'].
      - split; [reflexivity|]. exists pre, es. auto. }
    destruct Hval as (Hval & pre' & es' & EA' & Hpre' & F').
    assert (Tn : Tr A next (Node p (an_val n) gcs) (next :: fpt')).
    { cbn [Tr]. rewrite Hn0. split; [exact Ep|]. split; [reflexivity|]. exists fpt'. split; [reflexivity|].
      apply (TrF_frame a A); [exact Hg|]. intros x Hx. apply Hfr. apply in_or_app. left. right. exact Hx. }
    assert (Vg : tmap_f (a_with_entry A) gcs = tmap_f (a_with_entry a) gcs).
    { apply (proj2 (tmap_ext_mut _ _)). intros e He. apply WE. rewrite Forall_forall in Hgcs. apply Hgcs. exact He. }
    destruct (IH ch' fp2 lo' (S next) pre' es' Hr) as (r1 & fpr & hi & T1 & RF & V1 & F1 & RE).
    { intros q n' Hq. replace (S next + q) with (next + S q) by lia. apply Hns. exact Hq. }
    { exact EA'. } { exact Hpre'. } { exact F'. }
    { intros x Hx. apply Hfr. apply in_or_app. right. exact Hx. }
    { exact Hed. } { exact Hv. } { unfold lo'. destruct ov; lia. } { exact Heb2. }
    exists (FCons c (Node p (an_val n) gcs) r1), ((next :: fpt') ++ fpr), hi.
    split; [cbn [TrF]; exists next, (renumber (S next) ch'), (next :: fpt'), fpr; auto|].
    split.
    { cbn [length app]. rewrite Nat.add_succ_r. apply rf_new. exact (refresh_app _ _ _ _ _ _ _ (refresh_refl _ fpt') RF). }
    split.
    { cbn [tmap_f tmap]. f_equal; [|exact V1]. f_equal; [|exact Vg].
      destruct ov as [e|].
      - destruct Hval as (G1' & G2' & _). rewrite G1'. cbn [option_map]. f_equal.
        rewrite !with_entry_edat. rewrite G2', eptr_ro, Hv. reflexivity.
      - rewrite Hval. reflexivity. }
    split.
    { cbn [fentries tentries]. apply Forall2_app; [|exact F1]. apply Forall2_app; [|apply eren_refl_list].
      destruct ov as [e|].
      - destruct Hval as (X1 & X2 & X3). rewrite X1. constructor; [|constructor]. right. split; [lia | exact X2].
      - rewrite Hval. constructor. }
    cbn [fentries tentries]. apply (refresh_app lo _ _ lo' _ _ hi); [|exact RE].
    unfold lo'. destruct ov as [e|].
    + destruct Hval as (X1 & _). rewrite X1. cbn [app]. apply rf_new, refresh_refl.
    + rewrite Hval. apply refresh_refl.
Qed.

End Copies.

Lemma eren_bound a A l l1 :
  length (a_entries a) <= length (a_entries A) ->
  Forall (fun e => e < length (a_entries a)) l -> Forall2 (eren a A) l l1 ->
  Forall (fun e => e < length (a_entries A)) l1.
Proof.
  intros Hle Hl F. induction F as [|e e1 l l1 [->|((_ & X) & _)] _ IH]; [constructor| |].
  - constructor; [pose proof (Forall_inv Hl); cbn in *; lia | apply IH; exact (Forall_inv_tail Hl)].
  - constructor; [exact X | apply IH; exact (Forall_inv_tail Hl)].
Qed.

(** [make_owned] keeps the separated-tree relation (new tree, new footprint, same values),
    renames entries of the children to fresh read-only copies, and touches no other node
    that existed. *)
Theorem mo_tr a idx t fp :
  Tr a idx t fp -> NoDup fp -> Forall (fun j => j < length (a_nodes a)) fp ->
  Forall (fun e => e < length (a_entries a)) (tentries t) ->
  let a1 := make_owned a idx in
  exists t1 fp1, Tr a1 idx t1 fp1 /\ NoDup fp1
    /\ Forall (fun j => j < length (a_nodes a1)) fp1
    /\ (forall j, In j fp1 -> In j fp \/ length (a_nodes a) <= j)
    /\ tmap (a_with_entry a1) t1 = tmap (a_with_entry a) t
    /\ Forall2 (eren a a1) (tentries t) (tentries t1)
    /\ (exists hi, refresh (length (a_entries a)) (tentries t) (tentries t1) hi)
    /\ (forall j, j < length (a_nodes a) -> j <> idx -> node_at a1 j = node_at a j)
    /\ length (a_nodes a) <= length (a_nodes a1)
    /\ (forall e, e < length (a_entries a) -> edat a1 e = edat a e)
    /\ length (a_entries a) <= length (a_entries a1)
    /\ a_values a1 = a_values a /\ a_gens a1 = a_gens a.
Proof.
  intros HT Hnd Hb Heb a1.
  destruct (Nat.eq_dec (an_cgen (node_at a idx)) (an_gen (node_at a idx))) as [E|E].
  { unfold a1. rewrite make_owned_unshared by exact E.
    exists t, fp. split; [exact HT|]. split; [exact Hnd|]. split; [exact Hb|]. split; [auto|]. split; [reflexivity|].
    split; [apply eren_refl_list|]. split; [eexists; apply refresh_refl|]. auto 15. }
  destruct t as [p ov cs]. destruct HT as (Ep & Ev & fp' & -> & HF).
  destruct (make_owned_spec a idx E) as (Hlt & es & G1 & V1 & EA & F & LA & Nidx & Nold & Nnew).
  fold a1 in G1, V1, EA, LA, Nidx, Nold, Nnew.
  set (n := node_at a idx) in *. set (L := length (a_nodes a)) in *. set (Le := length (a_entries a)) in *.
  pose proof (proj1 (proj1 (NoDup_cons_iff idx fp') Hnd)) as Ni. pose proof (Forall_inv_tail Hb) as Hb'.
  cbn [tentries] in Heb. apply Forall_app in Heb. destruct Heb as (Hov & Hcs).
  assert (Hed : forall e, e < Le -> edat a1 e = edat a e) by (intros e He; apply (edat_app1 a a1 es e EA He)).
  destruct (mk_tr a a1 (an_gen n) cs (an_ch n) fp' Le L (a_entries a) es HF Nnew EA eq_refl F)
    as (f1 & fp1 & hi & T1 & RF & W1 & F1 & RE).
  { intros j Hj. apply Nold; [rewrite Forall_forall in Hb'; apply Hb'; exact Hj | intros ->; exact (Ni Hj)]. }
  { exact Hed. } { exact V1. } { apply Nat.le_refl. } { exact Hcs. }
  assert (RFi : refresh L (idx :: fp') (idx :: fp1) (L + length (an_ch n))) by (apply rf_keep; exact RF).
  assert (REt : refresh Le (tentries (Node p ov cs)) (tentries (Node p ov f1)) hi)
    by exact (refresh_app _ _ _ _ _ _ _ (refresh_refl _ _) RE).
  destruct (refresh_in _ _ _ _ RFi) as (_ & D1). rewrite Forall_forall in Hb.
  exists (Node p ov f1), (idx :: fp1).
  split. { cbn [Tr]. rewrite Nidx. cbn [an_path an_val an_ch]. split; [exact Ep|]. split; [exact Ev|]. exists fp1. auto. }
  split. { apply (refresh_nodup _ _ _ _ RFi Hnd). rewrite Forall_forall. exact Hb. }
  split. { rewrite LA, Forall_forall. intros j Hj. destruct (D1 j Hj) as [Y|Y]; [specialize (Hb _ Y); lia | lia]. }
  split. { intros j Hj. destruct (D1 j Hj) as [Y|Y]; [left; exact Y | right; lia]. }
  split. { cbn [tmap]. f_equal; [|exact W1]. destruct ov as [e|]; [|reflexivity]. cbn [option_map]. f_equal.
           rewrite !with_entry_edat. rewrite Hed by (exact (Forall_inv Hov)). rewrite V1. reflexivity. }
  split. { cbn [tentries]. apply Forall2_app; [apply eren_refl_list | exact F1]. }
  split. { exists hi. exact REt. }
  split. { exact Nold. }
  split. { rewrite LA. lia. }
  split. { exact Hed. }
  split. { rewrite EA, app_length. lia. }
  split; [exact V1 | exact G1].
Qed.
