(** The laws of the codec calculus, for every schema [s] with [schema_wf s = true] (a boolean, discharged
    by computation) and every validity oracle [valid]: round trip [RT], canonical decoding [Canon],
    prefix-freedom [PFree], bounded pre-allocation [AllocOK] ([schema_codec_laws] is their conjunction),
    and the minimal size.  The laws that need well-formedness go by [schema_wf_ind], which takes [schema_wf]
    apart once. *)
From Coq Require Import NArith List Bool Lia.
From CB Require Import Common.Codec.
Import ListNotations.
Local Open Scope N_scope.
Arguments N.add : simpl never.
Arguments N.sub : simpl never.
Arguments N.mul : simpl never.
Arguments N.eqb : simpl never.
Arguments N.ltb : simpl never.
Arguments N.leb : simpl never.
Arguments N.pow : simpl never.
Arguments N.div : simpl never.
Arguments N.modulo : simpl never.
Arguments N.min : simpl never.
Arguments N.max : simpl never.
Arguments N.ldiff : simpl never.
Arguments N.lor : simpl never.
Arguments N.testbit : simpl never.
Arguments N.of_nat : simpl never.
Arguments N.to_nat : simpl never.

(** [Forall Q l] from a proof of [Q] for every element; a transparent fixpoint, so that a nested
    induction principle may pass itself as [f]. *)
Definition Forall_all {A} (Q : A -> Prop) (f : forall a, Q a) : forall l, Forall Q l :=
  fix go (l : list A) : Forall Q l :=
    match l with [] => Forall_nil _ | x :: r => Forall_cons x (f x) (go r) end.

Section SchemaInd.
  Variable P : schema -> Prop.
  Hypothesis HUInt : forall e w, P (SUInt e w).
  Hypothesis HTuple : forall ss, Forall P ss -> P (STuple ss).
  Hypothesis HSum : forall alts, Forall (fun a => P (snd a)) alts -> P (SSum alts).
  Hypothesis HBitmap : forall e w m fs, Forall (fun a => P (snd a)) fs -> P (SBitmap e w m fs).
  Hypothesis HVec : forall e w s, P s -> P (SVec e w s).
  Hypothesis HBytes : forall e w m, P (SBytes e w m).
  Hypothesis HRaw : forall n, P (SRaw n).
  Hypothesis HRefine : forall p s, P s -> P (SRefine p s).
  Hypothesis HFramed : forall h path b, P h -> P b -> P (SFramed h path b).
  Hypothesis HFramedRaw : forall h path m, P h -> P (SFramedRaw h path m).

  Fixpoint schema_ind' (s : schema) : P s :=
    match s with
    | SUInt e w => HUInt e w
    | STuple ss => HTuple ss (Forall_all P schema_ind' ss)
    | SSum alts => HSum alts (Forall_all _ (fun a => schema_ind' (snd a)) alts)
    | SBitmap e w m fs => HBitmap e w m fs (Forall_all _ (fun a => schema_ind' (snd a)) fs)
    | SVec e w s' => HVec e w s' (schema_ind' s')
    | SBytes e w m => HBytes e w m
    | SRaw n => HRaw n
    | SRefine p s' => HRefine p s' (schema_ind' s')
    | SFramed h path b => HFramed h path b (schema_ind' h) (schema_ind' b)
    | SFramedRaw h path m => HFramedRaw h path m (schema_ind' h)
    end.
End SchemaInd.

Lemma len_app {A} (a b : list A) : len (a ++ b) = len a + len b.
Proof. unfold len. rewrite app_length. lia. Qed.

Lemma len_cons {A} (a : A) (b : list A) : len (a :: b) = 1 + len b.
Proof. unfold len. cbn [length]. lia. Qed.

Lemma len_nil {A} : len (@nil A) = 0.
Proof. reflexivity. Qed.

Lemma bytes_ok_app a b : bytes_ok (a ++ b) = bytes_ok a && bytes_ok b.
Proof. apply forallb_app. Qed.

Lemma bytes_ok_rev a : bytes_ok (rev a) = bytes_ok a.
Proof.
  induction a as [|x a IH]; [reflexivity|].
  cbn [rev]. rewrite bytes_ok_app, IH. cbn [bytes_ok forallb]. rewrite andb_true_r. apply andb_comm.
Qed.

Lemma bytes_ok_app_inv a b : bytes_ok (a ++ b) = true -> bytes_ok a = true /\ bytes_ok b = true.
Proof. rewrite bytes_ok_app. apply andb_true_iff. Qed.

Lemma pow256_S w : pow256 (S w) = 256 * pow256 w.
Proof.
  unfold pow256. rewrite Nat2N.inj_succ.
  replace (8 * N.succ (N.of_nat w)) with (8 + 8 * N.of_nat w) by lia.
  rewrite N.pow_add_r. reflexivity.
Qed.

Lemma pow256_pos w : 0 < pow256 w.
Proof. unfold pow256. apply N.neq_0_lt_0, N.pow_nonzero. lia. Qed.

Lemma enc_le_length w n : length (enc_le w n) = w.
Proof. revert n; induction w as [|w IH]; intros n; cbn [enc_le length]; [reflexivity|]. now rewrite IH. Qed.

Lemma enc_uint_length e w n : length (enc_uint e w n) = w.
Proof. destruct e; cbn [enc_uint]; [rewrite rev_length|]; apply enc_le_length. Qed.

Lemma enc_uint_len e w n : len (enc_uint e w n) = N.of_nat w.
Proof. unfold len. now rewrite enc_uint_length. Qed.

Lemma dec_le_enc_le w : forall n, n < pow256 w -> dec_le (enc_le w n) = n.
Proof.
  induction w as [|w IH]; intros n Hn.
  - unfold pow256 in Hn. cbn in Hn. cbn [enc_le dec_le]. lia.
  - cbn [enc_le dec_le]. rewrite IH.
    + symmetry. rewrite N.add_comm. apply N.div_mod'.
    + rewrite pow256_S in Hn. apply N.div_lt_upper_bound; lia.
Qed.

Lemma dec_le_spec bs : bytes_ok bs = true ->
  enc_le (length bs) (dec_le bs) = bs /\ dec_le bs < pow256 (length bs).
Proof.
  induction bs as [|b bs IH]; intros H; [split; [reflexivity|apply pow256_pos]|].
  cbn [bytes_ok forallb] in H. apply andb_prop in H as [Hb%N.ltb_lt H]. destruct (IH H) as [E B].
  cbn [length enc_le dec_le]. rewrite pow256_S. split; [|lia]. f_equal.
  - rewrite (N.mul_comm 256), N.mod_add by lia. now apply N.mod_small.
  - rewrite (N.mul_comm 256), N.div_add by lia. rewrite N.div_small by exact Hb. exact E.
Qed.

Lemma enc_le_ok w : forall n, bytes_ok (enc_le w n) = true.
Proof.
  induction w as [|w IH]; intros n; [reflexivity|].
  cbn [enc_le bytes_ok forallb]. apply andb_true_iff. split; [|apply IH].
  unfold byte_ok. apply N.ltb_lt. apply N.mod_lt. lia.
Qed.

Lemma enc_uint_ok e w n : bytes_ok (enc_uint e w n) = true.
Proof. destruct e; cbn [enc_uint]; [rewrite bytes_ok_rev|]; apply enc_le_ok. Qed.

Lemma take_app h : forall r n, length h = n -> take n (h ++ r) = Some (h, r).
Proof.
  induction h as [|x h IH]; intros r n Hn; subst n; [reflexivity|].
  cbn [length take app]. now rewrite (IH r (length h) eq_refl).
Qed.

Lemma take_some n : forall bs h r, take n bs = Some (h, r) -> bs = h ++ r /\ length h = n.
Proof.
  induction n as [|n IH]; intros bs h r H; cbn [take] in H.
  - inversion H; subst. split; reflexivity.
  - destruct bs as [|b bs]; [discriminate|].
    destruct (take n bs) as [[h' t]|] eqn:E; [|discriminate].
    inversion H; subst. apply IH in E. destruct E as [E1 E2]. subst bs.
    split; [reflexivity|]. cbn [length]. now rewrite E2.
Qed.

Lemma take_n_app h r : take_n (len h) (h ++ r) = Some (h, r).
Proof.
  unfold take_n. rewrite len_app.
  destruct (N.leb_spec (len h) (len h + len r)) as [_|H]; [|lia].
  unfold len. rewrite Nat2N.id. now apply take_app.
Qed.

Lemma take_n_some n bs h r : take_n n bs = Some (h, r) -> bs = h ++ r /\ len h = n.
Proof.
  unfold take_n. destruct (n <=? len bs); [|discriminate].
  intros H. apply take_some in H. destruct H as [H1 H2]. split; [exact H1|].
  unfold len. rewrite H2. apply N2Nat.id.
Qed.

Lemma dec_uint_enc e w n rest : n < pow256 w -> dec_uint e w (enc_uint e w n ++ rest) = Some (n, rest).
Proof.
  intros Hn. unfold dec_uint. rewrite (take_app _ _ w (enc_uint_length e w n)).
  destruct e; cbn [enc_uint]; [rewrite rev_involutive|]; now rewrite dec_le_enc_le.
Qed.

Lemma dec_uint_some e w bs n r : bytes_ok bs = true -> dec_uint e w bs = Some (n, r) ->
  bs = enc_uint e w n ++ r /\ n < pow256 w /\ bytes_ok r = true.
Proof.
  intros Hok H. unfold dec_uint in H.
  destruct (take w bs) as [[h t]|] eqn:E; [|discriminate].
  apply take_some in E as [-> <-]. apply bytes_ok_app_inv in Hok as [Hh Ht].
  inversion H; subst; clear H.
  destruct e; cbn [enc_uint].
  - rewrite <- bytes_ok_rev in Hh. destruct (dec_le_spec _ Hh) as [E B]. rewrite rev_length in E, B.
    rewrite E, rev_involutive. auto.
  - destruct (dec_le_spec _ Hh) as [E B]. rewrite E. auto.
Qed.

Lemma dec_uint_len e w bs n r : dec_uint e w bs = Some (n, r) -> len bs = N.of_nat w + len r.
Proof.
  unfold dec_uint. destruct (take w bs) as [[h t]|] eqn:E; [|discriminate].
  intros H; inversion H; subst. apply take_some in E. destruct E as [E1 E2]. subst bs.
  rewrite len_app. unfold len. now rewrite E2.
Qed.

Fixpoint lookup (t : N) (alts : list (N * schema)) : option schema :=
  match alts with
  | [] => None
  | (t', s) :: rest => if t =? t' then Some s else lookup t rest
  end.

Lemma alt_apply_lookup {A} (f : schema -> A) d t alts :
  alt_apply f d t alts = match lookup t alts with Some s => f s | None => d end.
Proof.
  induction alts as [|[t' s] alts IH]; [reflexivity|].
  cbn [alt_apply lookup]. destruct (t =? t'); [reflexivity|exact IH].
Qed.

Lemma lookup_in t alts s : lookup t alts = Some s -> In (t, s) alts.
Proof.
  induction alts as [|[t' s'] alts IH]; cbn [lookup]; [discriminate|].
  destruct (N.eqb_spec t t') as [->|_].
  - intros H; inversion H; subst. now left.
  - intros H. right. now apply IH.
Qed.

Lemma lookup_Forall (P : schema -> Prop) t alts s :
  Forall (fun a => P (snd a)) alts -> lookup t alts = Some s -> P s.
Proof. intros H El. exact (proj1 (Forall_forall _ _) H _ (lookup_in _ _ _ El)). Qed.

Lemma nodupb_cons x r : nodupb (x :: r) = true -> ~ In x r /\ nodupb r = true.
Proof.
  cbn [nodupb]. intros H. apply andb_true_iff in H. destruct H as [H1 H2]. split; [|exact H2].
  intros Hin. apply negb_true_iff in H1.
  assert (existsb (N.eqb x) r = true) as E.
  { apply existsb_exists. exists x. split; [exact Hin|apply N.eqb_refl]. }
  congruence.
Qed.

Lemma bitmap_of_testbit bits : forall vs j, N.testbit (bitmap_of bits vs) j = true -> In j (opt_bits bits).
Proof.
  induction bits as [|[i|] bits IH]; intros vs j H.
  - cbn [bitmap_of] in H. now rewrite N.bits_0 in H.
  - destruct vs as [|v vs]; cbn [bitmap_of] in H; [now rewrite N.bits_0 in H|].
    cbn [opt_bits].
    destruct v; try (right; now apply (IH vs)).
    rewrite N.lor_spec, N.pow2_bits_eqb in H. apply orb_true_iff in H. destruct H as [H|H].
    + left. now apply N.eqb_eq in H.
    + right. now apply (IH vs).
  - destruct vs as [|v vs]; cbn [bitmap_of] in H; [now rewrite N.bits_0 in H|].
    cbn [opt_bits]. now apply (IH vs).
Qed.

Lemma all_bits_spec bits j : N.testbit (all_bits bits) j = true <-> In j (opt_bits bits).
Proof.
  induction bits as [|[i|] bits IH]; cbn [all_bits opt_bits In].
  - rewrite N.bits_0. now split.
  - rewrite N.lor_spec, N.pow2_bits_eqb, orb_true_iff, N.eqb_eq, IH. reflexivity.
  - exact IH.
Qed.

Lemma bits_below b k : (forall j, N.testbit b j = true -> j < k) -> b < 2 ^ k.
Proof.
  intros H. destruct (N.eq_dec b 0) as [->|Hb].
  - apply N.neq_0_lt_0, N.pow_nonzero. lia.
  - apply N.log2_lt_pow2; [lia|]. apply H. now apply N.bit_log2.
Qed.

(** [agree b bits vs]: the bitmap [b] says "present" exactly for the present optional values. *)
Fixpoint agree (b : N) (bits : list (option N)) (vs : list gval) : Prop :=
  match bits, vs with
  | [], [] => True
  | Some i :: bits', v :: vs' =>
      N.testbit b i = (match v with VSome _ => true | _ => false end) /\ agree b bits' vs'
  | None :: bits', _ :: vs' => agree b bits' vs'
  | _, _ => False
  end.

Lemma bitmap_of_cons i bits v vs j : ~ In i (opt_bits bits) ->
  N.testbit (bitmap_of (Some i :: bits) (v :: vs)) j =
  if i =? j then match v with VSome _ => true | _ => false end else N.testbit (bitmap_of bits vs) j.
Proof.
  intros Hni.
  assert (Hi : N.testbit (bitmap_of bits vs) i = false).
  { destruct (N.testbit (bitmap_of bits vs) i) eqn:E; [|reflexivity].
    apply bitmap_of_testbit in E. contradiction. }
  destruct v; cbn [bitmap_of]; try (destruct (N.eqb_spec i j) as [<-|_]; [exact Hi|reflexivity]).
  rewrite N.lor_spec, N.pow2_bits_eqb. now destruct (i =? j).
Qed.

Lemma agree_spec b bits : forall vs, nodupb (opt_bits bits) = true ->
  agree b bits vs <->
  length vs = length bits /\ forall j, In j (opt_bits bits) -> N.testbit (bitmap_of bits vs) j = N.testbit b j.
Proof.
  induction bits as [|[i|] bits IH]; intros vs Hnd; destruct vs as [|v vs]; cbn [agree length opt_bits] in *.
  2, 3, 5: split; [intros []|intros [H _]; discriminate H].
  - split; [split; [reflexivity|intros j []]|trivial].
  - apply nodupb_cons in Hnd as [Hni Hnd]. rewrite (IH vs Hnd). split.
    + intros (Hi & Hl & Hb). split; [now rewrite Hl|]. intros j Hj. rewrite (bitmap_of_cons _ _ _ _ _ Hni).
      destruct (N.eqb_spec i j) as [<-|Hij]; [now rewrite Hi|]. destruct Hj as [Hj|Hj]; [contradiction|exact (Hb j Hj)].
    + intros (Hl & Hb). split; [|split; [now injection Hl|]].
      * rewrite <- (Hb i (or_introl eq_refl)), (bitmap_of_cons _ _ _ _ _ Hni). now rewrite N.eqb_refl.
      * intros j Hj. rewrite <- (Hb j (or_intror Hj)), (bitmap_of_cons _ _ _ _ _ Hni).
        destruct (N.eqb_spec i j) as [<-|_]; [contradiction|reflexivity].
  - cbn [bitmap_of]. rewrite (IH vs Hnd). split; intros [Hl Hb]; (split; [|exact Hb]); [now rewrite Hl|now injection Hl].
Qed.

Lemma agree_length b bits : forall vs, agree b bits vs -> length vs = length bits.
Proof.
  induction bits as [|[i|] bits IH]; intros vs H; destruct vs as [|v vs]; cbn [agree] in H; try contradiction;
    [reflexivity| |]; cbn [length]; f_equal; apply IH; [now destruct H|exact H].
Qed.

Lemma bitmap_of_mask bits vs : N.ldiff (bitmap_of bits vs) (all_bits bits) = 0.
Proof.
  apply N.bits_inj. intros j. rewrite N.ldiff_spec, N.bits_0.
  destruct (N.testbit (bitmap_of bits vs) j) eqn:E; [|reflexivity].
  apply bitmap_of_testbit, all_bits_spec in E. now rewrite E.
Qed.

Lemma bitmap_of_agree b bits vs : nodupb (opt_bits bits) = true -> N.ldiff b (all_bits bits) = 0 ->
  agree b bits vs -> bitmap_of bits vs = b.
Proof.
  intros Hnd Hld Hag. apply N.bits_inj. intros j.
  destruct (in_dec N.eq_dec j (opt_bits bits)) as [Hin|Hni]; [exact (proj2 (proj1 (agree_spec b bits vs Hnd) Hag) j Hin)|].
  destruct (N.testbit (bitmap_of bits vs) j) eqn:E1; [apply bitmap_of_testbit in E1; contradiction|].
  destruct (N.testbit b j) eqn:E3; [|reflexivity].
  assert (Hz : N.testbit (N.ldiff b (all_bits bits)) j = false) by (rewrite Hld; apply N.bits_0).
  rewrite N.ldiff_spec, E3 in Hz. apply negb_false_iff, all_bits_spec in Hz. contradiction.
Qed.

Lemma Forall_mp {A} (P Q : A -> Prop) l : Forall (fun a => P a -> Q a) l -> Forall P l -> Forall Q l.
Proof.
  induction 1 as [|a l H _ IH]; intros HP; [constructor|].
  inversion_clear HP. constructor; auto.
Qed.

Lemma wf_snd_Forall {A} (l : list (A * schema)) :
  (fix go (l : list (A * schema)) : bool :=
     match l with [] => true | (_, s) :: r => schema_wf s && go r end) l = true ->
  Forall (fun a => schema_wf (snd a) = true) l.
Proof.
  induction l as [|[t s] l IH]; intros H; [constructor|].
  apply andb_prop in H as [H1 H2]. constructor; [exact H1|exact (IH H2)].
Qed.

Section SchemaWfInd.
  Variable P : schema -> Prop.
  Local Notation wf s := (schema_wf s = true).
  Hypothesis HUInt : forall e w, P (SUInt e w).
  Hypothesis HTuple : forall ss, Forall (fun s => wf s) ss -> Forall P ss -> P (STuple ss).
  Hypothesis HSum : forall alts,
    Forall (fun a => wf (snd a)) alts -> Forall (fun a => P (snd a)) alts -> P (SSum alts).
  Hypothesis HBitmap : forall e w fs,
    nodupb (opt_bits (map fst fs)) = true ->
    (forall i, In i (opt_bits (map fst fs)) -> i < 8 * N.of_nat w) ->
    Forall (fun a => wf (snd a)) fs -> Forall (fun a => P (snd a)) fs ->
    P (SBitmap e w (all_bits (map fst fs)) fs).
  Hypothesis HVec : forall e w s, 1 <= N.of_nat w -> 1 <= min_size s -> wf s -> P s -> P (SVec e w s).
  Hypothesis HBytes : forall e w m, 1 <= N.of_nat w -> P (SBytes e w m).
  Hypothesis HRaw : forall n, P (SRaw n).
  Hypothesis HRefine : forall p s, wf s -> P s -> P (SRefine p s).
  Hypothesis HFramed : forall h path b, wf h -> wf b -> P h -> P b -> P (SFramed h path b).
  Hypothesis HFramedRaw : forall h path m,
    wf h -> cap h = 0 -> 1 <= min_size h -> P h -> P (SFramedRaw h path m).

  Theorem schema_wf_ind : forall s, wf s -> P s.
  Proof.
    induction s as [e w|ss IH|alts IH|e w m fs IH|e w s IH|e w m|n|p s IH|h path b IHh IHb|h path m IHh]
      using schema_ind'; cbn [schema_wf]; intros Hwf.
    - apply HUInt.
    - assert (Hwfs : Forall (fun s => wf s) ss) by now apply Forall_forall, forallb_forall.
      apply HTuple; [exact Hwfs|exact (Forall_mp _ _ _ IH Hwfs)].
    - apply andb_prop in Hwf as [_ Hwfs%wf_snd_Forall].
      apply HSum; [exact Hwfs|exact (Forall_mp _ _ _ IH Hwfs)].
    - apply andb_prop in Hwf as [Hwf Hwfs%wf_snd_Forall]. apply andb_prop in Hwf as [Hwf ->%N.eqb_eq].
      apply andb_prop in Hwf as [Hwf Hbits]. apply andb_prop in Hwf as [_ Hnd].
      apply HBitmap; [exact Hnd| |exact Hwfs|exact (Forall_mp _ _ _ IH Hwfs)].
      intros i Hi. apply N.ltb_lt. exact (proj1 (forallb_forall _ _) Hbits i Hi).
    - apply andb_prop in Hwf as [Hwf Hs]. apply andb_prop in Hwf as [Hw%N.leb_le Hms%N.leb_le].
      apply HVec; auto.
    - apply HBytes. now apply N.leb_le.
    - apply HRaw.
    - apply HRefine; auto.
    - apply andb_prop in Hwf as [Hh Hb]. apply HFramed; auto.
    - apply andb_prop in Hwf as [Hwf Hms%N.leb_le]. apply andb_prop in Hwf as [Hh Hc%N.eqb_eq].
      apply HFramedRaw; auto.
  Qed.
End SchemaWfInd.

Section Laws.
  Variable valid : N -> list N -> bool.
  Local Notation enc := Codec.enc.
  Local Notation dec := (Codec.dec valid).
  Local Notation wt := (Codec.wt valid).
  Local Notation alloc := (Codec.alloc valid).
  Local Notation used := (Codec.used valid).
  Local Notation eval_pred := (Codec.eval_pred valid).

  Lemma wt_fields_length fs : forall vs, wt_fields wt fs vs = true -> length vs = length (map fst fs).
  Proof.
    induction fs as [|[[i|] s] fs IH]; intros vs H; destruct vs as [|v vs]; cbn [wt_fields] in H; try discriminate;
      [reflexivity| |].
    - cbn [map length]. f_equal. apply IH.
      destruct v; try discriminate; [exact H|]. apply andb_true_iff in H. now destruct H.
    - cbn [map length]. f_equal. apply IH. apply andb_true_iff in H. now destruct H.
  Qed.

  Theorem schema_min_size : forall s v, wt s v = true -> min_size s <= len (enc s v).
  Proof.
    intros s. induction s as [e w|ss IH|alts IH|e w m fs IH|e w s IH|e w m|n|p s IH|h path b IHh IHb|h path m IHh]
      using schema_ind'; intros v H; cbn [Codec.wt Codec.enc min_size] in *.
    - destruct v; try discriminate. rewrite enc_uint_len. lia.
    - destruct v as [| |vs| | |]; try discriminate.
      revert vs H. induction IH as [|s ss Hs _ IHss]; intros vs H.
      + apply N.le_0_l.
      + destruct vs as [|v vs]; cbn [wt_tuple] in H; [discriminate|].
        apply andb_true_iff in H. destruct H as [H1 H2].
        cbn [enc_tuple]. rewrite len_app. specialize (Hs v H1). specialize (IHss vs H2). lia.
    - destruct v; try discriminate. rewrite len_cons. lia.
    - destruct v; try discriminate. rewrite len_app, enc_uint_len. lia.
    - destruct v; try discriminate. rewrite len_app, enc_uint_len. lia.
    - destruct v; try discriminate. rewrite len_app, enc_uint_len. lia.
    - destruct v; try discriminate. apply andb_true_iff in H. destruct H as [H _].
      apply N.eqb_eq in H. lia.
    - apply andb_true_iff in H. destruct H as [H _]. now apply IH.
    - destruct v as [| |vs| | |]; try discriminate. destruct vs as [|hv [|bv [|? ?]]]; try discriminate.
      apply andb_true_iff in H. destruct H as [H _]. apply andb_true_iff in H. destruct H as [H _].
      rewrite len_app. specialize (IHh hv H). lia.
    - destruct v as [| |vs| | |]; try discriminate. destruct vs as [|hv [|bv vs]]; try discriminate.
      destruct bv as [|pb| | | |]; try discriminate. destruct vs; try discriminate.
      apply andb_true_iff in H. destruct H as [H _]. apply andb_true_iff in H. destruct H as [H _].
      apply andb_true_iff in H. destruct H as [H _].
      rewrite len_app. specialize (IHh hv H). lia.
  Qed.

  Lemma elems_len s vs : 1 <= min_size s -> forallb (wt s) vs = true -> len vs <= len (concat (map (enc s) vs)).
  Proof.
    intros Hm. induction vs as [|v vs IH]; intros H; [apply N.le_0_l|].
    cbn [forallb] in H. apply andb_true_iff in H. destruct H as [H1 H2].
    cbn [map concat]. rewrite len_cons, len_app. pose proof (schema_min_size s v H1). specialize (IH H2). lia.
  Qed.

  Definition RT (s : schema) : Prop :=
    forall v rest, wt s v = true -> dec s (enc s v ++ rest) = Some (v, rest).

  Lemma rt_n s : RT s -> forall vs rest, forallb (wt s) vs = true ->
    dec_n (dec s) (length vs) (concat (map (enc s) vs) ++ rest) = Some (vs, rest).
  Proof.
    intros Hs. induction vs as [|v vs IH]; intros rest H; [reflexivity|].
    cbn [forallb] in H. apply andb_prop in H as [H1 H2].
    cbn [length map concat dec_n]. rewrite <- app_assoc. rewrite (Hs v _ H1). now rewrite (IH rest H2).
  Qed.

  Lemma rt_tuple ss : Forall RT ss -> forall vs rest, wt_tuple wt ss vs = true ->
    dec_tuple dec ss (enc_tuple enc ss vs ++ rest) = Some (vs, rest).
  Proof.
    induction 1 as [|s ss Hs _ IH]; intros vs rest H; destruct vs as [|v vs]; try discriminate; [reflexivity|].
    cbn [wt_tuple] in H. apply andb_prop in H as [H1 H2].
    cbn [enc_tuple dec_tuple]. rewrite <- app_assoc. rewrite (Hs v _ H1). now rewrite (IH vs rest H2).
  Qed.

  Lemma rt_fields fs : Forall (fun a => RT (snd a)) fs ->
    forall b vs rest, wt_fields wt fs vs = true -> agree b (map fst fs) vs ->
    dec_fields dec b fs (enc_fields enc fs vs ++ rest) = Some (vs, rest).
  Proof.
    induction 1 as [|[oi s] fs Hs _ IH]; intros b vs rest Hwt Hag.
    - destruct vs; [reflexivity|discriminate].
    - cbn [snd] in Hs. destruct vs as [|v vs]; [destruct oi; discriminate|].
      destruct oi as [i|]; cbn [map fst agree] in Hag.
      + destruct Hag as [Hb Hag].
        destruct v; cbn [wt_fields] in Hwt; try discriminate.
        * cbn [dec_fields enc_fields]. rewrite Hb. now rewrite (IH b vs rest Hwt Hag).
        * apply andb_prop in Hwt as [Hw1 Hw2].
          cbn [dec_fields enc_fields]. rewrite Hb. rewrite <- app_assoc. rewrite (Hs v _ Hw1).
          now rewrite (IH b vs rest Hw2 Hag).
      + cbn [wt_fields] in Hwt. apply andb_prop in Hwt as [Hw1 Hw2].
        cbn [dec_fields enc_fields]. rewrite <- app_assoc. rewrite (Hs v _ Hw1).
        now rewrite (IH b vs rest Hw2 Hag).
  Qed.

  Theorem schema_rt : forall s, schema_wf s = true -> RT s.
  Proof.
    apply (schema_wf_ind RT); unfold RT; cbn [Codec.wt Codec.enc Codec.dec].
    - intros e w v rest H. destruct v; try discriminate. apply N.ltb_lt in H. now rewrite dec_uint_enc.
    - intros ss _ IH v rest H. destruct v as [| |vs| | |]; try discriminate.
      now rewrite (rt_tuple ss IH vs rest H).
    - intros alts _ IH v rest H. destruct v as [| | |t v| |]; try discriminate.
      rewrite alt_apply_lookup in H. cbn [app]. rewrite !alt_apply_lookup.
      destruct (lookup t alts) as [s|] eqn:El; [|discriminate].
      now rewrite (lookup_Forall RT _ _ _ IH El v rest H).
    - intros e w fs Hnd Hbits _ IH v rest H. destruct v as [| |vs| | |]; try discriminate.
      rewrite <- app_assoc. rewrite dec_uint_enc.
      + rewrite bitmap_of_mask, N.eqb_refl.
        rewrite (rt_fields fs IH _ vs rest H); [reflexivity|].
        apply agree_spec; [exact Hnd|]. split; [exact (wt_fields_length _ _ H)|reflexivity].
      + unfold pow256. apply bits_below. intros j Hj. exact (Hbits j (bitmap_of_testbit _ _ _ Hj)).
    - intros e w s _ Hms _ IH v rest H. destruct v as [| |vs| | |]; try discriminate.
      apply andb_prop in H as [Hl%N.ltb_lt Hv].
      rewrite <- app_assoc. rewrite dec_uint_enc by exact Hl.
      pose proof (elems_len s vs Hms Hv) as Hle.
      destruct (N.leb_spec (len vs) (len (concat (map (enc s) vs) ++ rest))) as [_|Hc];
        [|rewrite len_app in Hc; lia].
      unfold len at 1. rewrite Nat2N.id. now rewrite (rt_n s IH vs rest Hv).
    - intros e w m _ v rest H. destruct v as [|bs| | | |]; try discriminate.
      apply andb_prop in H as [H Hok]. apply andb_prop in H as [Hl%N.ltb_lt Hm].
      rewrite <- app_assoc. rewrite dec_uint_enc by exact Hl.
      rewrite Hm. now rewrite take_n_app.
    - intros n v rest H. destruct v as [|bs| | | |]; try discriminate.
      apply andb_prop in H as [<-%N.eqb_eq Hok]. now rewrite take_n_app.
    - intros p s _ IH v rest H. apply andb_prop in H as [H1 H2]. rewrite (IH v rest H1). now rewrite H2.
    - intros h path b _ _ IHh IHb v rest H.
      destruct v as [| |vs| | |]; try discriminate. destruct vs as [|hv [|bv [|? ?]]]; try discriminate.
      apply andb_prop in H as [H Hn]. apply andb_prop in H as [Hh Hb].
      rewrite <- app_assoc. rewrite (IHh hv _ Hh).
      destruct (get_num path hv) as [n|]; [|discriminate]. apply N.eqb_eq in Hn. subst n.
      rewrite take_n_app.
      pose proof (IHb bv [] Hb) as E. rewrite app_nil_r in E. now rewrite E.
    - intros h path m _ _ _ IHh v rest H.
      destruct v as [| |vs| | |]; try discriminate. destruct vs as [|hv [|bv vs]]; try discriminate.
      destruct bv as [|pb| | | |]; try discriminate. destruct vs; try discriminate.
      apply andb_prop in H as [H Hn]. apply andb_prop in H as [H Hm]. apply andb_prop in H as [Hh Hok].
      rewrite <- app_assoc. rewrite (IHh hv _ Hh).
      destruct (get_num path hv) as [n|]; [|discriminate]. apply N.eqb_eq in Hn. subst n.
      rewrite Hm. now rewrite take_n_app.
  Qed.

  Definition Canon (s : schema) : Prop :=
    forall bs v rest, bytes_ok bs = true -> dec s bs = Some (v, rest) ->
      bs = enc s v ++ rest /\ wt s v = true /\ bytes_ok rest = true.

  Lemma canon_step s (go : list N -> option (list gval * list N)) (g : gval -> gval) bs vs rest :
    Canon s -> bytes_ok bs = true ->
    match dec s bs with
    | None => None
    | Some (v, r) => match go r with None => None | Some (vs', r') => Some (g v :: vs', r') end
    end = Some (vs, rest) ->
    exists v r vs', vs = g v :: vs' /\ bs = enc s v ++ r /\ wt s v = true /\ bytes_ok r = true
                    /\ go r = Some (vs', rest).
  Proof.
    intros Hs Hok H. destruct (dec s bs) as [[v r]|] eqn:E; [|discriminate].
    destruct (go r) as [[vs' r']|] eqn:E2; [|discriminate]. inversion H; subst; clear H.
    destruct (Hs _ _ _ Hok E) as (H1 & H2 & H3). exists v, r, vs'. now repeat split.
  Qed.

  Lemma canon_n s : Canon s -> forall k bs vs rest, bytes_ok bs = true ->
    dec_n (dec s) k bs = Some (vs, rest) ->
    bs = concat (map (enc s) vs) ++ rest /\ forallb (wt s) vs = true /\ bytes_ok rest = true /\ length vs = k.
  Proof.
    intros Hs. induction k as [|k IH]; intros bs vs rest Hok H; cbn [dec_n] in H.
    - inversion H; subst. repeat split; try reflexivity. exact Hok.
    - apply (canon_step s _ (fun v => v)) in H as (v & r & vs' & -> & -> & Hv & Hr & E); [|exact Hs|exact Hok].
      destruct (IH _ _ _ Hr E) as (-> & H5 & H6 & H7).
      cbn [map concat forallb length]. rewrite Hv, H5, H7, <- app_assoc. now repeat split.
  Qed.

  Lemma canon_tuple ss : Forall Canon ss -> forall bs vs rest, bytes_ok bs = true ->
    dec_tuple dec ss bs = Some (vs, rest) ->
    bs = enc_tuple enc ss vs ++ rest /\ wt_tuple wt ss vs = true /\ bytes_ok rest = true.
  Proof.
    induction 1 as [|s ss Hs _ IH]; intros bs vs rest Hok H; cbn [dec_tuple] in H.
    - inversion H; subst. repeat split; try reflexivity. exact Hok.
    - apply (canon_step s _ (fun v => v)) in H as (v & r & vs' & -> & -> & Hv & Hr & E); [|exact Hs|exact Hok].
      destruct (IH _ _ _ Hr E) as (-> & H5 & H6).
      cbn [enc_tuple wt_tuple]. rewrite Hv, H5, <- app_assoc. now repeat split.
  Qed.

  Lemma canon_fields fs : Forall (fun a => Canon (snd a)) fs ->
    forall b bs vs rest, bytes_ok bs = true -> dec_fields dec b fs bs = Some (vs, rest) ->
    bs = enc_fields enc fs vs ++ rest /\ wt_fields wt fs vs = true /\ bytes_ok rest = true
    /\ agree b (map fst fs) vs.
  Proof.
    induction 1 as [|[oi s] fs Hs _ IH]; intros b bs vs rest Hok H.
    - inversion H; subst. cbn [enc_fields wt_fields map agree app]. repeat split; try reflexivity. exact Hok.
    - cbn [snd] in Hs. destruct oi as [i|]; cbn [dec_fields] in H; [destruct (N.testbit b i) eqn:Eb|].
      + apply (canon_step s _ VSome) in H as (v & r & vs' & -> & -> & Hv & Hr & E); [|exact Hs|exact Hok].
        destruct (IH _ _ _ _ Hr E) as (-> & H5 & H6 & H7).
        cbn [enc_fields wt_fields map fst agree]. rewrite Hv, H5, <- app_assoc. now repeat split.
      + destruct (dec_fields dec b fs bs) as [[vs' r']|] eqn:E2; [|discriminate].
        inversion H; subst; clear H.
        destruct (IH _ _ _ _ Hok E2) as (H4 & H5 & H6 & H7).
        cbn [enc_fields wt_fields map fst agree]. now repeat split.
      + apply (canon_step s _ (fun v => v)) in H as (v & r & vs' & -> & -> & Hv & Hr & E); [|exact Hs|exact Hok].
        destruct (IH _ _ _ _ Hr E) as (-> & H5 & H6 & H7).
        cbn [enc_fields wt_fields map fst agree]. rewrite Hv, H5, <- app_assoc. now repeat split.
  Qed.

  Theorem schema_canon : forall s, schema_wf s = true -> Canon s.
  Proof.
    apply (schema_wf_ind Canon); unfold Canon; cbn [Codec.dec].
    - intros e w bs v rest Hok H.
      destruct (dec_uint e w bs) as [[n r]|] eqn:E; [|discriminate]. inversion H; subst; clear H.
      destruct (dec_uint_some _ _ _ _ _ Hok E) as (H1 & H2 & H3).
      cbn [Codec.enc Codec.wt]. repeat split; try assumption. now apply N.ltb_lt.
    - intros ss _ IH bs v rest Hok H.
      destruct (dec_tuple dec ss bs) as [[vs r]|] eqn:E; [|discriminate]. inversion H; subst; clear H.
      exact (canon_tuple ss IH _ _ _ Hok E).
    - intros alts _ IH bs v rest Hok H. destruct bs as [|t r]; [discriminate|].
      rewrite alt_apply_lookup in H.
      destruct (lookup t alts) as [s|] eqn:El; [|discriminate].
      destruct (dec s r) as [[v' r']|] eqn:E; [|discriminate]. inversion H; subst; clear H.
      cbn [bytes_ok forallb] in Hok. apply andb_prop in Hok as [_ Hok].
      destruct (lookup_Forall Canon _ _ _ IH El _ _ _ Hok E) as (H1 & H2 & H3).
      cbn [Codec.enc Codec.wt]. rewrite !alt_apply_lookup, El. subst r. repeat split; try assumption.
    - intros e w fs Hnd _ _ IH bs v rest Hok H.
      destruct (dec_uint e w bs) as [[b r]|] eqn:E; [|discriminate].
      destruct (N.eqb_spec (N.ldiff b (all_bits (map fst fs))) 0) as [Hld|_]; [|discriminate].
      destruct (dec_fields dec b fs r) as [[vs r']|] eqn:E2; [|discriminate]. inversion H; subst; clear H.
      destruct (dec_uint_some _ _ _ _ _ Hok E) as (H1 & H2 & H3).
      destruct (canon_fields fs IH _ _ _ _ H3 E2) as (H4 & H5 & H6 & H7).
      cbn [Codec.enc Codec.wt]. rewrite (bitmap_of_agree b _ vs Hnd Hld H7).
      subst bs r. rewrite <- app_assoc. repeat split; try assumption.
    - intros e w s _ _ _ IH bs v rest Hok H.
      destruct (dec_uint e w bs) as [[n r]|] eqn:E; [|discriminate].
      destruct (n <=? len r); [|discriminate].
      destruct (dec_n (dec s) (N.to_nat n) r) as [[vs r']|] eqn:E2; [|discriminate]. inversion H; subst; clear H.
      destruct (dec_uint_some _ _ _ _ _ Hok E) as (H1 & H2 & H3).
      destruct (canon_n s IH _ _ _ _ H3 E2) as (H4 & H5 & H6 & H7).
      assert (Hl : len vs = n) by (unfold len; rewrite H7; apply N2Nat.id).
      cbn [Codec.enc Codec.wt]. rewrite Hl, H5. subst bs r. rewrite <- app_assoc.
      repeat split; try assumption. apply andb_true_iff. split; [now apply N.ltb_lt|reflexivity].
    - intros e w m _ bs v rest Hok H.
      destruct (dec_uint e w bs) as [[n r]|] eqn:E; [|discriminate].
      destruct (N.leb_spec n m) as [Hm|_]; [|discriminate].
      destruct (take_n n r) as [[hh t]|] eqn:E2; [|discriminate]. inversion H; subst; clear H.
      destruct (dec_uint_some _ _ _ _ _ Hok E) as (H1 & H2 & H3).
      apply take_n_some in E2. destruct E2 as [E3 E4]. subst r.
      apply bytes_ok_app_inv in H3. destruct H3 as [Hh Ht].
      cbn [Codec.enc Codec.wt]. rewrite E4. subst bs. rewrite <- app_assoc. repeat split; try assumption.
      rewrite Hh, andb_true_r. apply andb_true_iff. split; [now apply N.ltb_lt|now apply N.leb_le].
    - intros n bs v rest Hok H.
      destruct (take_n n bs) as [[hh t]|] eqn:E2; [|discriminate]. inversion H; subst; clear H.
      apply take_n_some in E2. destruct E2 as [E3 E4]. subst bs.
      apply bytes_ok_app_inv in Hok. destruct Hok as [Hh Ht].
      cbn [Codec.enc Codec.wt]. rewrite E4, N.eqb_refl, Hh. repeat split; try assumption.
    - intros p s _ IH bs v rest Hok H.
      destruct (dec s bs) as [[v' r]|] eqn:E; [|discriminate].
      destruct (eval_pred p v') eqn:Ep; [|discriminate]. inversion H; subst; clear H.
      destruct (IH _ _ _ Hok E) as (H1 & H2 & H3).
      cbn [Codec.enc Codec.wt]. rewrite H2, Ep. repeat split; try assumption.
    - intros h path b _ _ IHh IHb bs v rest Hok H.
      destruct (dec h bs) as [[hv r]|] eqn:E; [|discriminate].
      destruct (get_num path hv) as [n|] eqn:En; [|discriminate].
      destruct (take_n n r) as [[pb r']|] eqn:E2; [|discriminate].
      destruct (dec b pb) as [[bv [|? ?]]|] eqn:E3; try discriminate. inversion H; subst; clear H.
      destruct (IHh _ _ _ Hok E) as (H1 & H2 & H3).
      apply take_n_some in E2. destruct E2 as [E4 E5]. subst r.
      apply bytes_ok_app_inv in H3. destruct H3 as [Hpb Hr'].
      destruct (IHb _ _ _ Hpb E3) as (H4 & H5 & H6). rewrite app_nil_r in H4.
      cbn [Codec.enc Codec.wt]. rewrite H2, H5, En. subst bs pb. rewrite <- app_assoc.
      repeat split; try assumption. cbn [andb]. now apply N.eqb_eq.
    - intros h path m _ _ _ IHh bs v rest Hok H.
      destruct (dec h bs) as [[hv r]|] eqn:E; [|discriminate].
      destruct (get_num path hv) as [n|] eqn:En; [|discriminate].
      destruct (N.leb_spec n m) as [Hm|_]; [|discriminate].
      destruct (take_n n r) as [[pb r']|] eqn:E2; [|discriminate]. inversion H; subst; clear H.
      destruct (IHh _ _ _ Hok E) as (H1 & H2 & H3).
      apply take_n_some in E2. destruct E2 as [E4 E5]. subst r.
      apply bytes_ok_app_inv in H3. destruct H3 as [Hpb Hr'].
      cbn [Codec.enc Codec.wt]. rewrite H2, Hpb, En, E5, N.eqb_refl. subst bs. rewrite <- app_assoc.
      repeat split; try assumption. cbn [andb]. rewrite andb_true_r. now apply N.leb_le.
  Qed.

  Definition PFree (s : schema) : Prop :=
    forall a b r1 r2, wt s a = true -> wt s b = true -> enc s a ++ r1 = enc s b ++ r2 -> a = b /\ r1 = r2.

  Lemma RT_PFree s : RT s -> PFree s.
  Proof.
    intros Hs a b r1 r2 Ha Hb E. pose proof (Hs a r1 Ha) as E1.
    rewrite E, (Hs b r2 Hb) in E1. now inversion E1.
  Qed.

  Theorem schema_pfree : forall s, schema_wf s = true ->
    forall a b r1 r2, wt s a = true -> wt s b = true -> enc s a ++ r1 = enc s b ++ r2 -> a = b /\ r1 = r2.
  Proof. intros s Hwf. exact (RT_PFree s (schema_rt s Hwf)). Qed.

  (** [AB c a bs o]: the amount [a] reserved while decoding [bs] with outcome [o] is at most [c]
      per byte consumed (on failure: per byte of input). *)
  Definition AB {A} (c a : N) (bs : list N) (o : option (A * list N)) : Prop :=
    match o with
    | Some (_, r) => exists u, len bs = u + len r /\ a <= c * u
    | None => a <= c * len bs
    end.

  Lemma AB_weak {A} c a bs (o : option (A * list N)) : AB c a bs o -> a <= c * len bs.
  Proof.
    destruct o as [[x r]|]; cbn [AB]; [|trivial]. intros (u & H1 & H2). rewrite H1, N.mul_add_distr_l. lia.
  Qed.

  Lemma AB_map {A B} (g : A -> B) c a bs (o : option (A * list N)) :
    AB c a bs o -> AB c a bs (match o with Some (x, r) => Some (g x, r) | None => None end).
  Proof. now destruct o as [[x r]|]. Qed.

  (** The [u] bytes consumed ahead of [r] pay for the reservation made there. *)
  Lemma AB_prefix {A} c a1 a2 bs r u (o : option (A * list N)) :
    len bs = u + len r -> a1 <= c * u -> AB c a2 r o -> AB c (a1 + a2) bs o.
  Proof.
    intros E L. destruct o as [[x r']|]; cbn [AB].
    - intros (u2 & E2 & L2). exists (u + u2). split; [lia|]. rewrite N.mul_add_distr_l. lia.
    - intros L2. rewrite E, N.mul_add_distr_l. lia.
  Qed.

  Lemma AB_skip {A} c a bs r u (o : option (A * list N)) : len bs = u + len r -> AB c a r o -> AB c a bs o.
  Proof. intros E. exact (AB_prefix c 0 a bs r u o E (N.le_0_l _)). Qed.

  Lemma AB_bind {A B} c a1 (a2 : A -> list N -> N) bs (o : option (A * list N))
      (k : A -> list N -> option (B * list N)) :
    AB c a1 bs o -> (forall v r, o = Some (v, r) -> AB c (a2 v r) r (k v r)) ->
    AB c (a1 + match o with Some (v, r) => a2 v r | None => 0 end) bs
         (match o with Some (v, r) => k v r | None => None end).
  Proof.
    destruct o as [[v r]|]; cbn [AB]; intros H1 H2; [|now rewrite N.add_0_r].
    destruct H1 as (u & E & L). exact (AB_prefix c a1 _ bs r u _ E L (H2 v r eq_refl)).
  Qed.

  Definition AllocB (s : schema) : Prop :=
    forall c, cap s <= c -> forall bs, bytes_ok bs = true -> AB c (alloc s bs) bs (dec s bs).

  Lemma AB_step {B} c s (a2 : gval -> list N -> N) (k : gval -> list N -> option (B * list N)) bs :
    schema_wf s = true -> AllocB s -> cap s <= c -> bytes_ok bs = true ->
    (forall v r, bytes_ok r = true -> AB c (a2 v r) r (k v r)) ->
    AB c (alloc s bs + match dec s bs with Some (v, r) => a2 v r | None => 0 end) bs
         (match dec s bs with Some (v, r) => k v r | None => None end).
  Proof.
    intros Hwf Hs Hc Hok Hk. apply AB_bind; [exact (Hs c Hc bs Hok)|].
    intros v r E. apply Hk. now destruct (schema_canon s Hwf _ _ _ Hok E) as (_ & _ & H).
  Qed.

  Lemma AB_raw {A} c m n bs r u (g : list N -> A) : len bs = u + len r -> 1 <= u -> m <= c ->
    AB c (if n <=? m then n else 0) bs
         (if n <=? m then match take_n n r with None => None | Some (pb, r') => Some (g pb, r') end else None).
  Proof.
    intros E Hu Hm. destruct (N.leb_spec n m) as [Hn|_]; [|exact (N.le_0_l _)].
    destruct (take_n n r) as [[pb r']|] eqn:E2; cbn [AB].
    - apply take_n_some in E2 as [-> <-]. rewrite len_app in E.
      exists (u + len pb). split; [lia|]. assert (c <= c * (u + len pb)) by nia. lia.
    - assert (c <= c * len bs) by nia. lia.
  Qed.

  Lemma cap_alts_in (alts : list (N * schema)) t s : In (t, s) alts -> cap s <= cap (SSum alts).
  Proof.
    induction alts as [|[t' s'] alts IH]; intros Hin; [destruct Hin|].
    change (cap s <= N.max (cap s') (cap (SSum alts))).
    destruct Hin as [Hin|Hin]; [inversion Hin; subst; apply N.le_max_l|].
    specialize (IH Hin). lia.
  Qed.

  Lemma alloc_tuple_AB c ss : Forall (fun s => schema_wf s = true) ss -> Forall AllocB ss ->
    cap (STuple ss) <= c -> forall bs, bytes_ok bs = true ->
    AB c (alloc_tuple valid alloc ss bs) bs (dec_tuple dec ss bs).
  Proof.
    intros Hwf HA. revert HA. induction Hwf as [|s ss Hwf _ IH]; intros HA Hc bs Hok.
    - exists 0. split; [lia|apply N.le_0_l].
    - inversion_clear HA as [|? ? Hs HA'].
      change (N.max (cap s) (cap (STuple ss)) <= c) in Hc. apply N.max_lub_iff in Hc as [Hc1 Hc2].
      cbn [alloc_tuple dec_tuple]. apply AB_step; try assumption.
      intros v r Hr. exact (AB_map _ _ _ _ _ (IH HA' Hc2 r Hr)).
  Qed.

  Lemma alloc_fields_AB c b fs : Forall (fun a => schema_wf (snd a) = true) fs ->
    Forall (fun a => AllocB (snd a)) fs -> forall e w m, cap (SBitmap e w m fs) <= c ->
    forall bs, bytes_ok bs = true ->
    AB c (alloc_fields valid alloc b fs bs) bs (dec_fields dec b fs bs).
  Proof.
    intros Hwf HA e w m. revert HA. induction Hwf as [|[oi s] fs Hwf _ IH]; intros HA Hc bs Hok.
    - exists 0. split; [lia|apply N.le_0_l].
    - inversion_clear HA as [|? ? Hs HA'].
      change (N.max (cap s) (cap (SBitmap e w m fs)) <= c) in Hc. apply N.max_lub_iff in Hc as [Hc1 Hc2].
      cbn [alloc_fields dec_fields].
      destruct (match oi with Some i => N.testbit b i | None => true end).
      + apply AB_step; try assumption.
        intros v r Hr. exact (AB_map _ _ _ _ _ (IH HA' Hc2 r Hr)).
      + exact (AB_map _ _ _ _ _ (IH HA' Hc2 bs Hok)).
  Qed.

  Lemma alloc_n_AB c s : schema_wf s = true -> AllocB s -> cap s <= c -> forall k bs, bytes_ok bs = true ->
    AB c (alloc_n (alloc s) (dec s) k bs) bs (dec_n (dec s) k bs).
  Proof.
    intros Hwf Hs Hc. induction k as [|k IH]; intros bs Hok.
    - exists 0. split; [lia|apply N.le_0_l].
    - cbn [alloc_n dec_n]. apply AB_step; try assumption.
      intros v r Hr. exact (AB_map _ _ _ _ _ (IH r Hr)).
  Qed.

  Theorem schema_allocB : forall s, schema_wf s = true -> AllocB s.
  Proof.
    apply (schema_wf_ind AllocB); unfold AllocB; cbn [Codec.alloc Codec.dec].
    - intros e w c _ bs _. apply AB_map.
      destruct (dec_uint e w bs) as [[n r]|] eqn:E; [|exact (N.le_0_l _)].
      exists (N.of_nat w). split; [exact (dec_uint_len _ _ _ _ _ E)|apply N.le_0_l].
    - intros ss Hwf IH c Hc bs Hok. apply AB_map. now apply alloc_tuple_AB.
    - intros alts _ IH c Hc bs Hok. destruct bs as [|t r]; [exact (N.le_0_l _)|].
      rewrite !alt_apply_lookup.
      destruct (lookup t alts) as [s|] eqn:El; [|exact (N.le_0_l _)].
      apply andb_prop in Hok as [_ Hok].
      apply (AB_skip c _ (t :: r) r 1 _ (len_cons t r)), AB_map.
      apply (lookup_Forall AllocB _ _ _ IH El); [|exact Hok].
      pose proof (cap_alts_in _ _ _ (lookup_in _ _ _ El)). lia.
    - intros e w fs _ _ Hwf IH c Hc bs Hok.
      destruct (dec_uint e w bs) as [[b r]|] eqn:E; [|exact (N.le_0_l _)].
      destruct (N.ldiff b (all_bits (map fst fs)) =? 0); [|exact (N.le_0_l _)].
      destruct (dec_uint_some _ _ _ _ _ Hok E) as (_ & _ & Hr).
      apply (AB_skip c _ bs r _ _ (dec_uint_len _ _ _ _ _ E)), AB_map.
      exact (alloc_fields_AB c b fs Hwf IH e w _ Hc r Hr).
    - intros e w s Hw _ Hwf IH c Hc bs Hok.
      cbn [cap] in Hc. apply N.max_lub_iff in Hc as [Hc1 Hc2].
      destruct (dec_uint e w bs) as [[n r]|] eqn:E; [|exact (N.le_0_l _)].
      destruct (dec_uint_some _ _ _ _ _ Hok E) as (_ & _ & Hr). apply dec_uint_len in E.
      assert (Hcw : N.min n MAX_PREALLOC <= c * N.of_nat w).
      { pose proof (N.le_min_r n MAX_PREALLOC). assert (c <= c * N.of_nat w) by nia. lia. }
      apply (AB_prefix c _ _ bs r _ _ E Hcw).
      destruct (N.leb_spec n (len r)) as [Hn|Hn].
      + rewrite (N.min_l n (len r)) by exact Hn. apply AB_map. now apply alloc_n_AB.
      + rewrite (N.min_r n (len r)) by lia. apply (AB_weak c _ r (dec_n (dec s) (N.to_nat (len r)) r)).
        now apply alloc_n_AB.
    - intros e w m Hw c Hc bs _.
      destruct (dec_uint e w bs) as [[n r]|] eqn:E; [|exact (N.le_0_l _)].
      exact (AB_raw c m n bs r _ VBytes (dec_uint_len _ _ _ _ _ E) Hw Hc).
    - intros n c _ bs _. destruct (take_n n bs) as [[hh t]|] eqn:E2; cbn [AB]; [|apply N.le_0_l].
      apply take_n_some in E2. destruct E2 as [E3 E4]. subst bs. rewrite len_app.
      exists (len hh). split; [lia|apply N.le_0_l].
    - intros p s _ IH c Hc bs Hok. cbn [cap] in Hc. pose proof (IH c Hc bs Hok) as HA.
      destruct (dec s bs) as [[v r]|]; [destruct (eval_pred p v)|]; try exact HA.
      exact (AB_weak c _ bs (Some (v, r)) HA).
    - intros h path b Hwh _ IHh IHb c Hc bs Hok.
      cbn [cap] in Hc. apply N.max_lub_iff in Hc as [Hc1 Hc2].
      apply AB_step; try assumption. intros hv r Hr.
      destruct (get_num path hv) as [n|]; [|exact (N.le_0_l _)].
      destruct (take_n n r) as [[pb r']|] eqn:E2; [|exact (N.le_0_l _)].
      apply take_n_some in E2. destruct E2 as [E3 E4]. subst r.
      apply bytes_ok_app_inv in Hr. destruct Hr as [Hpb _].
      pose proof (AB_weak _ _ _ _ (IHb c Hc2 pb Hpb)) as HB.
      destruct (dec b pb) as [[bv [|x xs]]|]; cbn [AB]; rewrite len_app.
      + exists (len pb). split; [reflexivity|exact HB].
      + rewrite N.mul_add_distr_l. lia.
      + rewrite N.mul_add_distr_l. lia.
    - intros h path m Hwh Hc0 Hms IHh c Hc bs Hok.
      cbn [cap] in Hc. apply N.max_lub_iff in Hc as [_ Hc2].
      pose proof (IHh 0 ltac:(lia) bs Hok) as HA.
      replace (alloc h bs) with 0 by (apply AB_weak in HA; lia). rewrite N.add_0_l.
      destruct (dec h bs) as [[hv r]|] eqn:E; [|exact (N.le_0_l _)].
      destruct HA as (u & H1 & _).
      destruct (schema_canon h Hwh _ _ _ Hok E) as (C1 & C2 & _).
      pose proof (schema_min_size h hv C2) as Hmin.
      destruct (get_num path hv) as [n|]; [|exact (N.le_0_l _)].
      apply (AB_raw c m n bs r u _ H1); [|exact Hc2]. rewrite C1, len_app in H1. lia.
  Qed.

  Definition AllocOK (s : schema) : Prop :=
    forall bs, bytes_ok bs = true -> alloc s bs <= cap s * used s bs.

  Theorem schema_alloc : forall s, schema_wf s = true -> AllocOK s.
  Proof.
    intros s Hwf bs Hok. pose proof (schema_allocB s Hwf (cap s) (N.le_refl _) bs Hok) as H.
    unfold Codec.used. destruct (dec s bs) as [[v r]|]; cbn [AB] in H; [|exact H].
    destruct H as (u & H1 & H2). replace (len bs - len r) with u by lia. exact H2.
  Qed.

  Theorem schema_codec_laws : forall s, schema_wf s = true -> RT s /\ Canon s /\ PFree s /\ AllocOK s.
  Proof.
    intros s Hwf.
    exact (conj (schema_rt s Hwf) (conj (schema_canon s Hwf) (conj (schema_pfree s Hwf) (schema_alloc s Hwf)))).
  Qed.
End Laws.
