(** * C02 — Energy metering is exact, never undercharges, and bounds execution.
    Property theorems only; models in Wasm/Meter.v, Wasm/SemTrace.v, generated schedules in Gen/CostV*.v. *)
From Coq Require Import ZArith NArith List Bool.
From CB Require Import Wasm.Syntax Wasm.CostCtx Wasm.CostProofs.
From CB Require Gen.CostV0 Gen.CostV1.
Import ListNotations.
Local Open Scope N_scope.

(** ** cost_positive: in the GENERATED schedules the zero-cost opcodes are exactly the structural ones
    (V0) / the structural ones and those for which the compiler emits no instruction (V1); every
    other opcode - in particular every branch and call - costs at least 1. *)
Theorem cost_positive_v0 : forall o L cx c, CostV0.get_cost o L cx = Some c ->
  (structural o = true -> c = 0) /\ (structural o = false -> 1 <= c).
Proof. exact v0_table. Qed.
Print Assumptions cost_positive_v0.

Theorem cost_positive_v1 : forall o L cx c, CostV1.get_cost o L cx = Some c ->
  (structural o || erased o = true -> c = 0) /\ (structural o || erased o = false -> 1 <= c).
Proof. exact v1_table. Qed.
Print Assumptions cost_positive_v1.

Theorem branches_and_calls_cost_v0 : forall o L cx c,
  CostV0.get_cost o L cx = Some c -> is_branch_or_call o = true -> 1 <= c.
Proof. exact v0_total. Qed.
Print Assumptions branches_and_calls_cost_v0.

Theorem branches_and_calls_cost_v1 : forall o L cx c,
  CostV1.get_cost o L cx = Some c -> is_branch_or_call o = true -> 1 <= c.
Proof. exact v1_total. Qed.
Print Assumptions branches_and_calls_cost_v1.

Theorem taken_branch_cost : (forall a, 1 <= CostV0.cfg_branch a) /\ (forall a, 1 <= CostV1.cfg_branch a).
Proof. exact (conj v0_branch v1_branch). Qed.
Print Assumptions taken_branch_cost.

(** ** memgrow_announced: in every function body of [inject m] each [memory.grow] is immediately
    preceded by the call of import 0 ([account_memory], which returns its argument: [SemTrace.mhost]),
    so the host is told the number of pages before the memory grows. *)
From CB Require Import Wasm.Sem Wasm.Meter Wasm.SemTrace Wasm.MeterRun Wasm.MeterProofs Wasm.MeterRunProofs Wasm.SemTraceProofs.

Theorem memgrow_announced : forall cfg m m',
  inject cfg m = Some m' -> Forall (fun f => Announced (f_body f)) (m_funcs m').
Proof. exact memgrow_announced_module. Qed.
Print Assumptions memgrow_announced.

Example announced_shape :
  Announced [Basic (BConst T_i32 1%Z); Basic (BCall 0); Basic BMemoryGrow; Basic BDrop]
  /\ ~ Announced [Basic (BConst T_i32 1%Z); Basic BMemoryGrow].
Proof.
  split.
  - apply A_basic; [discriminate|]. apply A_grow. apply A_basic; [discriminate|]. constructor.
  - intro H. inversion H; subst. inversion H3; subst. congruence.
Qed.
Print Assumptions announced_shape.

(** ** budget_monotone (InterpreterEnergy model [MeterRun.pay]: tick_energy / charge_memory_alloc
    zero the remaining energy on failure): a run that does not run out of energy with budget [B]
    has, with any larger budget [B'], the same charges paid and remaining energy larger by exactly
    [B' - B]; out of energy happens exactly when the sum of the charges exceeds the budget. *)
Theorem budget_monotone : forall cs B B' rem,
  pay B cs = (true, rem) -> B <= B' -> pay B' cs = (true, rem + (B' - B)).
Proof. exact budget_monotone_pay. Qed.
Print Assumptions budget_monotone.

Theorem out_of_energy_exactly_when_need_exceeds_budget : forall cs B,
  fst (pay B cs) = false <-> B < sum_charges cs.
Proof. exact out_of_energy_iff. Qed.
Print Assumptions out_of_energy_exactly_when_need_exceeds_budget.

Theorem budget_accounting : forall cs B,
  (sum_charges cs <= B -> pay B cs = (true, B - sum_charges cs)) /\
  (B < sum_charges cs -> pay B cs = (false, 0)).
Proof. exact pay_spec. Qed.
Print Assumptions budget_accounting.

Example budget_nonvacuous : pay 10 [3; 4] = (true, 3) /\ pay 6 [3; 4] = (false, 0).
Proof. split; reflexivity. Qed.
Print Assumptions budget_nonvacuous.

(** ** the instrumented interpreter IS the reference interpreter (same fuel, same outcome):
    every statement about [SemTrace.trun] is a statement about [Sem.run] of the erased module. *)
Theorem sem_trace_erase : forall host cap m afs, m_funcs m = map erase_func afs ->
  forall fuel fi args, snd (trun host cap m afs fuel fi args) = run host cap m fuel fi args.
Proof. exact trun_erase. Qed.
Print Assumptions sem_trace_erase.

(** ** meter_prepaid and meter_exact, for ALL modules, entry points, arguments, hosts, fuel:
    on the event trace [T] of running the metered module [inject cfg m]
    - every prefix [p] of [T] satisfies  work p <= ticks p  (energy is charged BEFORE the work:
      a trap, an out-of-energy stop or any other interruption can never leave work unpaid), and
    - if the invocation returns, ticks T = work T exactly.
    [work] sums the annotations of the executed instructions: the cost the schedule gives the SOURCE
    instruction in its source context, [branch] for a taken [br_if], [invoke_after] per entered
    function ([Meter.mi], [Meter.ameter_body]).  By [sem_trace_erase] and [inject_is_erasure] the
    run is exactly [Sem.run] of [inject cfg m]. *)
From CB Require Import Wasm.MeterSafe.

Theorem meter_prepaid_exact : forall cfg m m' afs host cap fuel fi args T o,
  inject cfg m = Some m' -> ameter_funcs cfg m = Some afs ->
  trun host cap m' afs fuel fi args = (T, o) ->
  (forall p q, T = p ++ q -> work p <= ticks p) /\
  (forall r mem g, o = Done r mem g -> ticks T = work T).
Proof. exact metered_run_prepaid_exact. Qed.
Print Assumptions meter_prepaid_exact.

Theorem inject_is_erasure : forall cfg m m' afs,
  inject cfg m = Some m' -> ameter_funcs cfg m = Some afs -> m_funcs m' = map erase_func afs.
Proof. exact inject_erase. Qed.
Print Assumptions inject_is_erasure.

(** the metered run observed through the reference semantics: same outcome as [Sem.run (inject m)] *)
Theorem metered_run_is_sem_run : forall cfg m m' afs host cap fuel fi args,
  inject cfg m = Some m' -> ameter_funcs cfg m = Some afs ->
  snd (trun host cap m' afs fuel fi args) = run host cap m' fuel fi args.
Proof. exact MeterSafe.run_is_sem_run. Qed.
Print Assumptions metered_run_is_sem_run.

(** the number of executed instructions of non-zero cost in ANY PREFIX is bounded by the energy
    ticked so far (hence by the budget) *)
Theorem costed_steps_le_ticks : forall cfg m m' afs host cap fuel fi args T o,
  inject cfg m = Some m' -> ameter_funcs cfg m = Some afs ->
  trun host cap m' afs fuel fi args = (T, o) ->
  forall p q, T = p ++ q -> N.of_nat (length (works p)) <= ticks p.
Proof. exact MeterSafe.costed_steps. Qed.
Print Assumptions costed_steps_le_ticks.

(** non-vacuity: a concrete module with a loop, a br_if, a call and memory.grow is metered by both
    schedules and its run returns with ticks = work > 0 *)
Definition ex_module : module :=
  {| m_types := [ {| ft_params := []; ft_result := Some T_i32 |}; {| ft_params := [T_i32]; ft_result := Some T_i32 |} ];
     m_imports := [];
     m_funcs := [ {| f_type := 1%nat; f_locals := [T_i32];
                     f_body := [Basic (BLocalGet 0); Basic (BConst T_i32 1%Z); Basic (BBinop T_i32 Add)] |};
                  {| f_type := 0%nat; f_locals := [T_i32];
                     f_body := [Basic (BConst T_i32 3%Z); Basic (BLocalSet 0);
                                Loop None [Basic (BLocalGet 0); Basic (BConst T_i32 1%Z); Basic (BBinop T_i32 Sub);
                                           Basic (BLocalTee 0); Basic (BBrIf 0)];
                                Basic (BConst T_i32 1%Z); Basic BMemoryGrow; Basic BDrop;
                                Basic (BConst T_i32 5%Z); Basic (BCall 0)] |} ];
     m_table := None; m_elems := []; m_mem := Some {| l_min := 1; l_max := Some 4 |}; m_data := []; m_globals := [] |}.

Example metered_example :
  forall v1 : bool,
  match model_events v1 512 ex_module 200 1 [] with
  | Some (T, Done (Some (VI32 6)) _ _) => ticks T = work T /\ 0 < ticks T /\ bal 0 T = Some 0
  | _ => False
  end.
Proof. intros [|]; vm_compute; repeat split; reflexivity. Qed.
Print Assumptions metered_example.

(** ** meter_transparent: erasing the ticks and the [account_memory] call, the metered module behaves
    as the source module.  If [Sem.run m] of function [fi] ends (result / trap; not stuck, not out of
    fuel) then for all sufficiently large fuel [Sem.run (inject cfg m)] of function [fi + 1] under the
    host [mhost h] (import 0 = account_memory returning its argument, import i+1 = import i of [m])
    ends with the SAME outcome: same result value, same final memory, same globals, trap iff trap. *)
From CB Require Import Wasm.MeterSim Wasm.MeterFlat Wasm.MeterBound Wasm.CostPositive.

Theorem meter_transparent : forall cfg m m' h cap fuel fi args o,
  inject cfg m = Some m' ->
  run h cap m fuel fi args = o -> o <> OutOfFuel -> o <> Stuck ->
  exists f0, forall f, (f0 <= f)%nat -> run (mhost h) cap m' f (S fi) args = o.
Proof. exact meter_transparent_sem. Qed.
Print Assumptions meter_transparent.

(** ... and the work that [meter_prepaid_exact] sums on the metered trace IS the cost schedule summed
    over the instructions the SOURCE run executes: the source module annotated with its own costs
    ([annot_funcs]: [get_cost] of every instruction in its context, [branch] on a taken br_if,
    [invoke_after] per entered function; [annot_is_source]) produces the same sequence of non-zero
    work items, the same total, and the same host calls with the same arguments in the same order
    (the metered trace's calls of import 0 removed, the others re-indexed). *)
Theorem metered_work_is_source_work : forall cfg m m' afs_s afs_m h cap fuel fi args W o,
  inject cfg m = Some m' -> annot_funcs cfg m = Some afs_s -> ameter_funcs cfg m = Some afs_m ->
  trun h cap m afs_s fuel fi args = (W, o) -> o <> OutOfFuel -> o <> Stuck ->
  exists f0 T, (forall f, (f0 <= f)%nat -> trun (mhost h) cap m' afs_m f (S fi) args = (T, o)) /\
               works T = works W /\ work T = work W /\ src_hostcalls T = hostcalls W.
Proof. exact MeterSim.metered_work_is_source_work. Qed.
Print Assumptions metered_work_is_source_work.

Theorem annot_is_source : forall cfg m afs_s,
  annot_funcs cfg m = Some afs_s -> m_funcs m = map erase_func afs_s.
Proof. exact annot_funcs_erase. Qed.
Print Assumptions annot_is_source.

(** hence: energy ticked by the metered run = cost schedule summed over the source run *)
Theorem meter_exact_wrt_source : forall cfg m m' afs_s afs_m h cap fuel fi args W r mem g,
  inject cfg m = Some m' -> annot_funcs cfg m = Some afs_s -> ameter_funcs cfg m = Some afs_m ->
  trun h cap m afs_s fuel fi args = (W, Done r mem g) ->
  exists f0 T, (forall f, (f0 <= f)%nat -> trun (mhost h) cap m' afs_m f (S fi) args = (T, Done r mem g)) /\
               ticks T = work W.
Proof. exact MeterSim.exact_wrt_source. Qed.
Print Assumptions meter_exact_wrt_source.

(** ** flat_structured_agree: the transcription of [InstrSeqTransformer::run] on the opcode stream of
    every well-nested body equals the flattening of the structured transformer's output (both schedules
    price [End]/[Else] at 0). *)
Theorem flat_structured_agree : forall cfg m m',
  (forall L, c_cost cfg OEnd L (ctx_of_module m) = Some 0) ->
  (forall L, c_cost cfg OElse L (ctx_of_module m) = Some 0) ->
  inject cfg m = Some m' ->
  inject_flat cfg m (map (fun f => flatten_body (f_body f)) (m_funcs m)) =
  Some (map (fun f => flatten_body (f_body f)) (m_funcs m')).
Proof. exact MeterFlat.flat_structured_agree. Qed.
Print Assumptions flat_structured_agree.

Theorem flat_structured_agree_v0_v1 : forall m m',
  (inject CostV0.cfg m = Some m' ->
   inject_flat CostV0.cfg m (map (fun f => flatten_body (f_body f)) (m_funcs m)) =
   Some (map (fun f => flatten_body (f_body f)) (m_funcs m'))) /\
  (inject CostV1.cfg m = Some m' ->
   inject_flat CostV1.cfg m (map (fun f => flatten_body (f_body f)) (m_funcs m)) =
   Some (map (fun f => flatten_body (f_body f)) (m_funcs m'))).
Proof. exact CostPositive.flat_agree_v0_v1. Qed.
Print Assumptions flat_structured_agree_v0_v1.

(** ** meter_bounds_steps and metered_run_terminates_within.
    [M = module_bound afs] = 2 + the size of the largest metered function body.  For every run of a
    metered module (any fuel, any outcome - also a run cut off by lack of fuel, i.e. every fuel-cut
    prefix): the number of events (every executed source instruction emits one) is at most
    M (1 + 2 ticks).  And a run that was cut off by lack of fuel had fuel <= M (1 + 2 ticks): so under
    an energy budget B, fuel M (1 + 2B) + 1 suffices - the run ends (success or trap) or has ticked more
    than B, i.e. has been stopped by out-of-energy, within M (1 + 2B) events. *)
Theorem meter_bounds_steps : forall cfg m m' afs host cap fuel fi args T o,
  positive_cfg cfg (ctx_of_module m) ->
  inject cfg m = Some m' -> ameter_funcs cfg m = Some afs ->
  trun host cap m' afs fuel fi args = (T, o) ->
  evs T <= module_bound afs * (1 + 2 * ticks T).
Proof. exact MeterBound.bounds_steps. Qed.
Print Assumptions meter_bounds_steps.

Theorem metered_run_terminates_within : forall cfg m m' afs host cap fuel fi args T B,
  positive_cfg cfg (ctx_of_module m) ->
  inject cfg m = Some m' -> ameter_funcs cfg m = Some afs ->
  module_bound afs * (1 + 2 * B) < N.of_nat fuel ->
  trun host cap m' afs fuel fi args = (T, OutOfFuel) -> B < ticks T.
Proof. exact MeterBound.terminates_within. Qed.
Print Assumptions metered_run_terminates_within.

(** both generated schedules satisfy the positivity hypothesis *)
Theorem generated_schedules_positive : forall cx, positive_cfg CostV0.cfg cx /\ positive_cfg CostV1.cfg cx.
Proof. exact CostPositive.schedules_positive. Qed.
Print Assumptions generated_schedules_positive.

(** non-vacuity: an endless loop and an endless recursion are metered, and with fuel 2000 their runs
    are cut off by fuel only after more than 100 energy has been ticked *)
Definition spin_module : module :=
  {| m_types := [ {| ft_params := []; ft_result := None |} ];
     m_imports := [];
     m_funcs := [ {| f_type := 0%nat; f_locals := []; f_body := [Loop None [Basic (BBr 0)]] |};
                  {| f_type := 0%nat; f_locals := []; f_body := [Basic (BCall 1)] |} ];
     m_table := None; m_elems := []; m_mem := None; m_data := []; m_globals := [] |}.
Example spin_example : forall v1 : bool,
  match model_events v1 512 spin_module 2000 0 [], model_events v1 512 spin_module 2000 1 [] with
  | Some (T1, OutOfFuel), Some (T2, OutOfFuel) => 100 < ticks T1 /\ 100 < ticks T2
  | _, _ => False
  end.
Proof. intros [|]; vm_compute; split; reflexivity. Qed.
Print Assumptions spin_example.
