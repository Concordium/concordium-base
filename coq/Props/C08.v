(** C08 - Identity credentials: issuance verifies, tampering fails, anonymity revocable.
    Property theorems only; each is followed by [Print Assumptions].  The Section variables are
    universally quantified once the sections are closed: the theorems hold for EVERY field of scalars
    and EVERY module over it (nothing about BLS12-381 is used beyond that).

    PARTIAL (see design/C08.md): rejection of tampered credentials is relative to soundness of the
    sigma/range proofs, unforgeability of the PS signature and collision resistance of SHA3/SHA2;
    what is proved is completeness of the composition ([cdi_complete_partial]) and that the transcript
    binds every absorbed field ([cdi_fields_bound]: acceptance of two different statements with one
    proof exhibits a hash collision). *)
From Coq Require Import List ZArith Lia Field.
From CB Require Import Crypto.Alg Crypto.AlgPairing Crypto.Transcript Crypto.SigmaCodec Crypto.IdCdiComplete.
From CB Require Import Crypto.Shamir Crypto.ElGamalExp Crypto.IdShamirProofs Crypto.IdPipeline Crypto.IdPipelineProofs.
Import ListNotations.

Section C08_Algebra.
  Variable F : Type.
  Variables (f0 f1 : F) (fadd fmul fsub : F -> F -> F) (fopp : F -> F) (fdiv : F -> F -> F) (finv_t : F -> F).
  Hypothesis Ffield : field_theory f0 f1 fadd fmul fsub fopp fdiv finv_t (@eq F).
  Variable finv : F -> option F.                      (* [Field::inverse]: None exactly on zero *)
  Hypothesis finv_zero : finv f0 = None.
  Hypothesis finv_nonzero : forall x, x <> f0 -> finv x = Some (finv_t x).
  Variable G : Type.
  Variables (gzero : G) (gadd : G -> G -> G) (gopp : G -> G) (smul : F -> G -> G).
  Hypothesis gadd_assoc : forall a b c, gadd a (gadd b c) = gadd (gadd a b) c.
  Hypothesis gadd_comm : forall a b, gadd a b = gadd b a.
  Hypothesis gadd_0_l : forall a, gadd gzero a = a.
  Hypothesis gadd_opp : forall a, gadd a (gopp a) = gzero.
  Hypothesis smul_add_l : forall x y a, smul (fadd x y) a = gadd (smul x a) (smul y a).
  Hypothesis smul_add_r : forall x a b, smul x (gadd a b) = gadd (smul x a) (smul x b).
  Hypothesis smul_mul : forall x y a, smul (fmul x y) a = smul x (smul y a).
  Hypothesis smul_1 : forall a, smul f1 a = a.

  (** Every polynomial [secret + c1 X + .. + c_(t-1) X^(t-1)] (t = length coeffs + 1), every list of
      at least t distinct non-zero evaluation points: [reveal] of the shares is the secret. *)
  Theorem shamir_reveal : forall secret coeffs pts,
    NoDup pts -> ~ In f0 pts -> (length coeffs < length pts)%nat ->
    reveal F f0 f1 fadd fsub fmul finv (List.combine pts (share F f0 fadd fmul secret coeffs pts)) = secret.
  Proof. intros; eapply shamir_reveal_field_gen; eassumption. Qed.
  Print Assumptions shamir_reveal.

  (** The same in any module: shares [s_i * P] reconstruct [secret * P]. *)
  Theorem shamir_reveal_in_group : forall secret coeffs pts (P : G),
    NoDup pts -> ~ In f0 pts -> (length coeffs < length pts)%nat ->
    reveal_in_group F f1 fsub fmul finv G gzero gadd smul
      (List.combine pts (map (fun s => smul s P) (share F f0 fadd fmul secret coeffs pts))) = smul secret P.
  Proof. intros; eapply shamir_reveal_group_gen; eassumption. Qed.
  Print Assumptions shamir_reveal_in_group.

  (** Any t-1 shares (t-1 = length pts) are consistent with every candidate secret. *)
  Theorem shamir_fewer_unconstrained : forall pts ys s,
    NoDup pts -> ~ In f0 pts -> length ys = length pts ->
    exists coeffs, length coeffs = length pts /\ share F f0 fadd fmul s coeffs pts = ys.
  Proof. intros; eapply IdShamirProofs.shamir_fewer_unconstrained; eassumption. Qed.
  Print Assumptions shamir_fewer_unconstrained.

  (** Anonymity revocation: the credential carries, for every chosen revoker, an ElGamal encryption
      (in the exponent of [h]; [h = g] for idCredPub) of its share of [secret]; ANY sub-collection
      [sel] of at least threshold of them, decrypted with the revokers' own keys and combined with
      [reveal_id_cred_pub], gives [secret * h] - for every number of revokers, threshold, keys and
      encryption randomness. *)
  Theorem revocation_correct : forall (g h : G) secret coeffs ars ks (sel : list (revoker F * cipher G)),
    incl sel (enc_shares F f0 fadd fmul G gadd smul g h secret coeffs ars ks) ->
    NoDup (map (fun ac => ar_point F (fst ac)) sel) -> ~ In f0 (map (fun ac => ar_point F (fst ac)) sel) ->
    (length coeffs < length sel)%nat ->
    revoke_in_group F f1 fmul fsub finv G gzero gadd gopp smul sel = smul secret h.
  Proof. intros; eapply revocation_correct_subset; eassumption. Qed.
  Print Assumptions revocation_correct.

  (** PRF key: shares decrypted down to scalars, [reveal_prf_key]. *)
  Theorem revocation_correct_prf : forall secret coeffs pts,
    NoDup pts -> ~ In f0 pts -> (length coeffs < length pts)%nat ->
    revoke_scalar F f0 f1 fadd fmul fsub finv (List.combine pts (share F f0 fadd fmul secret coeffs pts)) = secret.
  Proof. intros; eapply revocation_correct_scalar; eassumption. Qed.
  Print Assumptions revocation_correct_prf.

  (** ... and each revoker recovers its share from the eight encrypted 32-bit chunks. *)
  Theorem prf_share_chunks_decrypt : forall (g h : G) (dlog : G -> N),
    (forall x, (x < 2 ^ 32)%N -> dlog (smul (f_of_N F f0 f1 fadd fmul x) h) = x) ->
    forall sk x ks, (x < 2 ^ 256)%N -> length ks = 8%nat ->
    from_chunks (dec_chunks F G gadd gopp smul dlog sk
                   (enc_chunks F f0 f1 fadd fmul G gadd smul g h (pk_of F G smul g sk) (prf_share_chunks x) ks)) = x.
  Proof. intros; eapply prf_share_decrypt; try eassumption. exact (F_R Ffield). Qed.
  Print Assumptions prf_share_chunks_decrypt.

  (** The opening used for the range proof: cmm(b) - cmm(a) commits to b - a. *)
  Theorem range_commitment_opening : forall (g h : G) a b ra rb,
    gsub G gadd gopp (hide F G gadd smul g h b rb) (hide F G gadd smul g h a ra)
    = hide F G gadd smul g h (fsub b a) (fsub rb ra).
  Proof. intros; eapply commitment_difference; eassumption. Qed.
  Print Assumptions range_commitment_opening.
End C08_Algebra.

(** The range statement that [create_credential] proves and [verify_cdi] checks
    ([prove/verify_less_than_or_equal] at width 8 on [max_accounts - cred_counter] and [cred_counter],
    values determined modulo the group order r) is true iff [cred_counter <= max_accounts], for all
    byte values (the types in the code) ... *)
Theorem counter_boundary : forall r a b, (2 ^ 9 <= r)%Z -> (0 <= a < 2 ^ 8)%Z -> (0 <= b < 2 ^ 8)%Z ->
  (range_stmt r counter_width a b <-> (a <= b)%Z).
Proof. exact counter_boundary_thm. Qed.
Print Assumptions counter_boundary.

(** ... and for all 64-bit values it additionally forces both proved values into a byte. *)
Theorem counter_boundary_u64 : forall r a b, (2 ^ 65 <= r)%Z -> (0 <= a < 2 ^ 64)%Z -> (0 <= b < 2 ^ 64)%Z ->
  (range_stmt r counter_width a b <-> (a <= b /\ a < 2 ^ 8 /\ b - a < 2 ^ 8)%Z).
Proof. exact range_stmt_u64. Qed.
Print Assumptions counter_boundary_u64.

(** The executable predicate used in the correspondence run is that statement. *)
Theorem counter_boundary_decision : forall r a b, (2 ^ 9 <= r)%Z -> (0 <= a < 2 ^ 8)%Z -> (0 <= b < 2 ^ 8)%Z ->
  range_stmt_dec r a b = counter_ok a b.
Proof. exact counter_boundary_dec. Qed.
Print Assumptions counter_boundary_decision.

Theorem counter_prover_defined : forall a b,
  (exists d, prover_difference_checked a b = Some d /\ d = (b - a)%Z) <-> (a <= b)%Z.
Proof. exact prover_difference_defined. Qed.
Print Assumptions counter_prover_defined.

Theorem revoker_points_distinct : forall r x y, (2 ^ 32 <= r)%Z -> (0 < x < 2 ^ 32)%Z -> (0 < y < 2 ^ 32)%Z ->
  (x mod r <> 0)%Z /\ (x <> y -> x mod r <> y mod r)%Z.
Proof. exact ar_points_distinct. Qed.
Print Assumptions revoker_points_distinct.

(** ([cdi_complete_partial] below discharges the three sigma-protocol hypotheses with the C07 lemmas.)
    Completeness of the composed credential proof, RELATIVE to the completeness of its parts (named
    hypotheses): com_mult (regId), com_eq_sig (provider's signature), one com_enc_eq per revoker, the
    range proof for a true statement, the account-ownership signatures.  What is proved here is the
    composition: AndAdapter(AndAdapter(com_mult, com_eq_sig), ReplicateAdapter(com_enc_eq..)) under one
    Fiat-Shamir challenge, then the threshold/length check, the range proof and the signatures. *)
Section C08_Complete.
  Variable Chal : Type.
  Variable H : list N -> list N.
  Variable chal : list N -> Chal.
  Variable bytes_eqb : list N -> list N -> bool.
  Hypothesis bytes_eqb_refl : forall x, bytes_eqb x x = true.
  Variables W1 R1 M1 Z1 W2 R2 M2 Z2 W3 R3 M3 Z3 : Type.
  Variable com_mult : sigma Chal W1 R1 M1 Z1.
  Variable com_eq_sig : sigma Chal W2 R2 M2 Z2.
  Variable com_enc_eqs : list (sigma Chal W3 R3 M3 Z3).
  Hypothesis com_mult_complete : complete Chal com_mult.
  Hypothesis com_eq_sig_complete : complete Chal com_eq_sig.
  Hypothesis com_enc_eq_complete : Forall (complete Chal) com_enc_eqs.
  Variables RangeProof SigT Msg : Type.
  Variable range_prove : Z -> Z -> RangeProof.
  Variable range_verify : RangeProof -> bool.
  Hypothesis range_complete : forall a b, counter_ok a b = true -> range_verify (range_prove a b) = true.
  Variable acc_sign : Msg -> SigT.
  Variable acc_verify : Msg -> SigT -> bool.
  Hypothesis acc_sig_complete : forall m, acc_verify m (acc_sign m) = true.

  Theorem cdi_composition_complete_abstract :
    forall (threshold : nat) prefix pub encM (w : (W1 * W2) * list W3) (rho : (R1 * R2) * list R3)
           (counter max_accounts : Z) (msg : Msg),
      s_rel Chal _ _ _ _ com_mult (fst (fst w)) -> s_rel Chal _ _ _ _ com_eq_sig (snd (fst w)) ->
      rep_rel Chal com_enc_eqs (snd w) ->
      s_rok Chal _ _ _ _ com_mult (fst (fst rho)) -> s_rok Chal _ _ _ _ com_eq_sig (snd (fst rho)) ->
      rep_rok Chal com_enc_eqs (snd rho) ->
      (counter <= max_accounts)%Z ->
      verify_cdi_shape Chal H chal bytes_eqb threshold threshold com_mult com_eq_sig com_enc_eqs prefix pub encM
        (fs_prove Chal H chal (and_adapter Chal (and_adapter Chal com_mult com_eq_sig) (replicate_adapter Chal com_enc_eqs))
                  prefix pub encM w rho)
        (range_verify (range_prove counter max_accounts)) (acc_verify msg (acc_sign msg)) = true.
  Proof. intros; eapply cdi_complete_partial_thm; eassumption. Qed.
  Print Assumptions cdi_composition_complete_abstract.

  (** A threshold different from the number of sharing-coefficient commitments is refused whatever
      the proofs are (the first check of [verify_cdi]). *)
  Theorem cdi_threshold_mismatch_rejected : forall (threshold ncoeff : nat) prefix pub encM proof rg sg,
    threshold <> ncoeff ->
    verify_cdi_shape Chal H chal bytes_eqb threshold ncoeff com_mult com_eq_sig com_enc_eqs prefix pub encM proof rg sg = false.
  Proof. intros; eapply threshold_mismatch_rejected; eassumption. Qed.
  Print Assumptions cdi_threshold_mismatch_rejected.
End C08_Complete.

(** Completeness of the credential proof with the ACTUAL C07 protocols: the statement is about
    [and_proto (and_proto com_mult com_eq_sig) (rep_proto com_enc_eq)] (SigmaGeneric.v adapters,
    Sigma_com_mult / Sigma_com_eq_sig / Sigma_com_enc_eq instances) under the legacy transcript; the
    sigma part is closed by C07's [com_mult_complete_], [ces_complete_], [com_enc_eq_complete_],
    [and_complete_], [rep_complete_], [prove_verify_complete_].  Remaining hypotheses (hence PARTIAL):
    the range proof verifies for a true statement (C11) and account-key signatures verify. *)
Section C08_CompleteC07.
  Context (K : FieldOps) (KL : FieldLaws K) (P : PairOps K) (PL : PairLaws P) (MC : ModOps K) (MLC : ModLaws MC)
          (Cd1 : CodecOps (PM1 P)) (Cd2 : CodecOps (PM2 P)) (CdT : CodecOps (PMT P)) (CdC : CodecOps MC).
  Variable H : Transcript.bytes -> Transcript.bytes.
  Variable sfb : Transcript.bytes -> K.
  Variables RangeProof SigT Msg : Type.
  Variable range_prove : Z -> Z -> RangeProof.
  Variable range_verify : RangeProof -> bool.
  Hypothesis range_complete : forall a b, counter_ok a b = true -> range_verify (range_prove a b) = true.
  Variable acc_sign : Msg -> SigT.
  Variable acc_verify : Msg -> SigT -> bool.
  Hypothesis acc_sig_complete : forall m, acc_verify m (acc_sign m) = true.

  Theorem cdi_sigma_complete :
    SigmaGeneric.complete (cdi_proto Cd1 Cd2 CdT CdC) (cdi_rel Cd1 Cd2 CdT CdC) (cdi_rok Cd1 Cd2 CdT CdC).
  Proof. exact (cdi_sigma_complete_ Cd1 Cd2 CdT CdC). Qed.
  Print Assumptions cdi_sigma_complete.

  Theorem cdi_complete_partial : forall (threshold : nat) ctx s w r (counter max_accounts : Z) (msg : Msg),
    cdi_rel Cd1 Cd2 CdT CdC s w -> cdi_rok Cd1 Cd2 CdT CdC s r -> (counter <= max_accounts)%Z ->
    exists pi st, SigmaGeneric.prove H sfb (cdi_proto Cd1 Cd2 CdT CdC) Legacy ctx s w r = Some (pi, st)
      /\ verify_cdi_c07 Cd1 Cd2 CdT CdC H sfb threshold threshold ctx s pi
           (range_verify (range_prove counter max_accounts)) (acc_verify msg (acc_sign msg)) = true.
  Proof. intros; eapply cdi_complete_c07_; eassumption. Qed.
  Print Assumptions cdi_complete_partial.
End C08_CompleteC07.

(** The transcript of [verify_cdi] (domain "credential"; cred_values; address; global_context; the
    [public] data of com_mult, com_eq_sig and of every com_enc_eq, in the order and with the legacy
    framing of the code) determines every absorbed field, given self-delimiting field encoders; so
    accepting two different statements with the same challenge exhibits an explicit hash collision. *)
Section C08_Binding.
  Variables Values Addr Ctx Cmm Key BSig PsKey Ciph Pk : Type.
  Variable enc_values : Values -> bytes.
  Variable enc_addr : option Addr -> bytes.
  Variable enc_ctx : Ctx -> bytes.
  Variable enc_cmm : Cmm -> bytes.
  Variable enc_key : Key -> bytes.
  Variable enc_bsig : BSig -> bytes.
  Variable enc_pskey : PsKey -> bytes.
  Variable enc_ciph : Ciph -> bytes.
  Variable enc_pk : Pk -> bytes.
  Hypothesis sd_values : self_delimiting enc_values.
  Hypothesis sd_addr : self_delimiting enc_addr.
  Hypothesis sd_ctx : self_delimiting enc_ctx.
  Hypothesis sd_cmm : self_delimiting enc_cmm.
  Hypothesis sd_key : self_delimiting enc_key.
  Hypothesis sd_bsig : self_delimiting enc_bsig.
  Hypothesis sd_pskey : self_delimiting enc_pskey.
  Hypothesis sd_ciph : self_delimiting enc_ciph.
  Hypothesis sd_pk : self_delimiting enc_pk.
  Variables (L_domain L_cred_values L_address L_global_context L_cmms L_cmm_key L_blinded_sig
             L_commitments L_ps_pub_key L_comm_key L_cipher L_commitment L_pub_key : bytes).
  Let tr := cdi_transcript Values Addr Ctx Cmm Key BSig PsKey Ciph Pk enc_values enc_addr enc_ctx enc_cmm enc_key
       enc_bsig enc_pskey enc_ciph enc_pk L_domain L_cred_values L_address L_global_context L_cmms L_cmm_key
       L_blinded_sig L_commitments L_ps_pub_key L_comm_key L_cipher L_commitment L_pub_key.

  Theorem cdi_transcript_determines_fields : forall p q r s,
    same_shape Values Addr Ctx Cmm Key BSig PsKey Ciph Pk p q ->
    tr p ++ r = tr q ++ s -> p = q /\ r = s.
  Proof. intros; eapply cdi_transcript_injective; eassumption. Qed.
  Print Assumptions cdi_transcript_determines_fields.

  Theorem cdi_fields_bound : forall (H : bytes -> bytes) p q (tail_p tail_q c : bytes),
    same_shape Values Addr Ctx Cmm Key BSig PsKey Ciph Pk p q -> p <> q ->
    H (tr p ++ tail_p) = c -> H (tr q ++ tail_q) = c ->
    exists x y, x <> y /\ H x = H y.
  Proof. intros H p q tp tq c Hs Hne Hp Hq. eapply cdi_fields_bound_thm with (p := p) (q := q); eassumption. Qed.
  Print Assumptions cdi_fields_bound.
End C08_Binding.

(** Acceptance by the Fiat-Shamir verifier pins the challenge to the hash of (prefix, public data,
    "point", reconstructed first message): the link between [fs_verify] and [cdi_fields_bound]. *)
Theorem fs_acceptance_is_hash : forall (Chal : Type) (H : list N -> list N) (chal : list N -> Chal)
    (bytes_eqb : list N -> list N -> bool),
  (forall x y, bytes_eqb x y = true -> x = y) ->
  forall (W R M Z : Type) (p : sigma Chal W R M Z) prefix pub (encM : M -> list N) proof,
  fs_verify Chal H chal bytes_eqb p prefix pub encM proof = true ->
  exists m, s_extract Chal W R M Z p (chal (fst proof)) (snd proof) = Some m
            /\ H (fs_input prefix pub encM m) = fst proof.
Proof. intros Chal H chal beq Hb W R M Z p prefix pub encM proof. apply fs_verify_hash. exact Hb. Qed.
Print Assumptions fs_acceptance_is_hash.

(** The commitment vector of the signature statement ([pok_sig_verifier]) determines the fields of
    the credential it is built from (given that committing with randomness zero is injective). *)
Theorem cdi_signature_statement_binds : forall (Cmm Scalar : Type) (hide0 : Scalar -> Cmm),
  (forall x y, hide0 x = hide0 y -> x = y) ->
  forall c1 p1 pp1 ars1 tg1 m1 at1 c2 p2 pp2 ars2 tg2 m2 at2,
  length ars1 = length ars2 -> Forall2 (same_kind Cmm Scalar) at1 at2 ->
  sig_commitments Cmm Scalar hide0 c1 p1 pp1 ars1 tg1 m1 at1 = sig_commitments Cmm Scalar hide0 c2 p2 pp2 ars2 tg2 m2 at2 ->
  c1 = c2 /\ p1 = p2 /\ pp1 = pp2 /\ ars1 = ars2 /\ tg1 = tg2 /\ m1 = m2 /\ at1 = at2.
Proof. exact sig_commitments_bind. Qed.
Print Assumptions cdi_signature_statement_binds.

(* ------------------------------------------------------------------------------------------ *)
(** Non-vacuity: the hypotheses are satisfiable and the model computes (Z mod r, r = BLS12-381 order). *)
Local Open Scope Z_scope.
Example shamir_reveal_nonvacuous :
  NoDup [1; 2; 4294967295] /\ ~ In 0 [1; 2; 4294967295] /\ (length [7; 9] < length [1; 2; 4294967295])%nat
  /\ c08_reveal (List.combine [1; 2; 4294967295] (c08_share 42 [7; 9] [1; 2; 4294967295])) = 42.
Proof.
  split; [repeat constructor; cbn; intuition discriminate|].
  split; [cbn; intuition discriminate|]. split; [cbn; lia | vm_compute; reflexivity].
Qed.
Print Assumptions shamir_reveal_nonvacuous.

(** With one share fewer than the threshold the reconstruction is a different value. *)
Example shamir_threshold_is_tight :
  c08_reveal (List.combine [1; 2] (c08_share 42 [7; 9] [1; 2])) <> 42.
Proof. vm_compute. discriminate. Qed.
Print Assumptions shamir_threshold_is_tight.

(** The executable instance's inverse is an inverse (samples; the instance is otherwise validated by the
    correspondence run against the implementation). *)
Example c08_inv_samples :
  forallb (fun x => match c08_inv x with Some y => (x * y) mod c08_r =? 1 | None => false end)
          [1; 2; -1; 4294967295; -4294967294; 52435875175126190479447740508185965837690552500527637822603658699938581184512] = true
  /\ c08_inv 0 = None /\ c08_inv c08_r = None
  /\ c08_lagrange [1; 2; 3] 1 = zr_lagrange c08_r [1; 2; 3] 1.
Proof. vm_compute. repeat split; reflexivity. Qed.
Print Assumptions c08_inv_samples.

Example counter_boundary_nonvacuous :
  c08_range_stmt 255 255 = true /\ c08_range_stmt 0 0 = true /\ c08_range_stmt 1 0 = false
  /\ c08_range_stmt 255 254 = false /\ c08_range_stmt 254 255 = true /\ (2 ^ 9 <= c08_r).
Proof. vm_compute. repeat split; try reflexivity. discriminate. Qed.
Print Assumptions counter_boundary_nonvacuous.

Local Close Scope Z_scope.
Example self_delimiting_nonvacuous : self_delimiting (fun n : N => [n]).
Proof. intros x y r s E. injection E as -> ->. split; reflexivity. Qed.
Print Assumptions self_delimiting_nonvacuous.

Example complete_nonvacuous :
  complete Z {| s_rel := fun _ : unit => True; s_rok := fun _ : unit => True; s_commit := fun _ : unit => tt;
                s_respond := fun _ _ _ => tt; s_extract := fun _ _ => Some tt |}.
Proof. intros w rho c _ _. destruct rho. reflexivity. Qed.
Print Assumptions complete_nonvacuous.
