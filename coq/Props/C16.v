(** C16 - property theorems only, each followed by [Print Assumptions]: closed by [exact],
    the examples by evaluation. *)
From Coq Require Import NArith ZArith List Bool.
From CB Require Import Contract.Text Contract.TextProofs Contract.TimeProofs Contract.Names Contract.NamesProofs
  Contract.CheckedArith Contract.CheckedArithProofs
  Contract.CcCodec Contract.CcCodecProofs Contract.CcTypes Contract.CcTypesProofs
  Contract.Base58 Contract.Base58Proofs.
Import ListNotations.
Local Open Scope N_scope.

(** * Textual forms parse back to the value they were printed from (all u64 values) *)

Theorem amount_parse_print : forall m, m < Text.W64 -> parse_amount (print_amount m) = Ok m.
Proof. exact amount_parse_print_all. Qed.
Print Assumptions amount_parse_print.

Theorem duration_parse_print : forall m, m < Text.W64 -> parse_duration (print_duration m) = Ok m.
Proof. exact duration_parse_print_all. Qed.
Print Assumptions duration_parse_print.

Theorem contract_address_parse_print : forall i j, i < Text.W64 -> j < Text.W64 ->
  parse_contract_address (print_contract_address (i, j)) = Ok (i, j).
Proof. exact contract_address_parse_print_all. Qed.
Print Assumptions contract_address_parse_print.

(** every u64 number of milliseconds; after the repair of [Display for Timestamp] (F5) *)
Theorem timestamp_parse_print : forall ms, ms < Text.W64 -> parse_timestamp (print_timestamp ms) = Ok ms.
Proof. exact timestamp_parse_print_all. Qed.
Print Assumptions timestamp_parse_print.

(** the proleptic Gregorian calendar behind it: civil date of a day number and back, for every day *)
Theorem calendar_roundtrip : forall z y m d, civil_from_shifted z = (y, m, d) ->
  shifted_from_civil y m d = z /\ valid_date y m d = true
  /\ (z < 3652365 -> y <= 9999) /\ (719468 <= z -> 1600 <= y).
Proof. exact civil_roundtrip. Qed.
Print Assumptions calendar_roundtrip.

(** the printer before the repair ([timestamp_millis() as i64]) is refuted: kept so that a
    regression is understood (witness 2^64 - 1 prints as 1969-12-31T23:59:59.999+00:00) *)
Theorem timestamp_roundtrip_refuted_before_fix :
  exists ms, ms < Text.W64 /\ parse_timestamp (print_timestamp_prefix ms) <> Ok ms.
Proof. exact timestamp_prefix_roundtrip_refuted. Qed.
Print Assumptions timestamp_roundtrip_refuted_before_fix.

Theorem timestamp_before_fix_witnesses :
  parse_timestamp (print_timestamp_prefix 18446744073709551615) = Err TBeforeUnixEpoch
  /\ parse_timestamp (print_timestamp_prefix 253402300800000) = Err TParseError.
Proof. exact (conj (proj2 timestamp_prefix_refuted_max) timestamp_prefix_refuted_year10000). Qed.
Print Assumptions timestamp_before_fix_witnesses.

(** * AccountAddress: Base58Check with version byte 1; the checksum function (first four
      bytes of SHA-256 of SHA-256) is abstract: any function returning four bytes *)

Theorem account_address_parse_print : forall (H4 : list N -> list N),
  (forall p, length (H4 p) = 4%nat) -> (forall p, Forall (fun d => d < 256) (H4 p)) ->
  forall a, length a = 32%nat -> Forall (fun d => d < 256) a ->
  parse_account_address H4 (print_account_address H4 a) = Some a.
Proof. exact account_address_parse_print_all. Qed.
Print Assumptions account_address_parse_print.

(** the parser accepts exactly the printed strings (so: canonical text, and every string
    with a wrong checksum, version or length is rejected) *)
Theorem account_address_accepts_exactly_printed : forall (H4 : list N -> list N),
  (forall p, length (H4 p) = 4%nat) -> (forall p, Forall (fun d => d < 256) (H4 p)) ->
  forall s a, parse_account_address H4 s = Some a <->
              s = print_account_address H4 a /\ length a = 32%nat /\ Forall (fun d => d < 256) a.
Proof. exact account_address_accepts_iff. Qed.
Print Assumptions account_address_accepts_exactly_printed.

Theorem account_address_wrong_checksum_rejected : forall (H4 : list N -> list N),
  (forall p, length (H4 p) = 4%nat) -> (forall p, Forall (fun d => d < 256) (H4 p)) ->
  forall p ck, Forall (fun d => d < 256) p -> Forall (fun d => d < 256) ck -> length ck = 4%nat ->
  ck <> H4 p -> parse_account_address H4 (b58_encode (p ++ ck)) = None.
Proof. exact account_address_rejects_checksum. Qed.
Print Assumptions account_address_wrong_checksum_rejected.

Theorem account_address_wrong_version_rejected : forall (H4 : list N -> list N),
  (forall p, length (H4 p) = 4%nat) -> (forall p, Forall (fun d => d < 256) (H4 p)) ->
  forall v a, Forall (fun d => d < 256) (v :: a) -> v <> 1 ->
  parse_account_address H4 (b58_encode ((v :: a) ++ H4 (v :: a))) = None.
Proof. exact account_address_rejects_version. Qed.
Print Assumptions account_address_wrong_version_rejected.

Theorem account_address_wrong_length_rejected : forall (H4 : list N -> list N),
  (forall p, length (H4 p) = 4%nat) -> (forall p, Forall (fun d => d < 256) (H4 p)) ->
  forall a, Forall (fun d => d < 256) a -> length a <> 32%nat ->
  parse_account_address H4 (b58_encode ((1 :: a) ++ H4 (1 :: a))) = None.
Proof. exact account_address_rejects_length. Qed.
Print Assumptions account_address_wrong_length_rejected.

(** Base58 is a bijection between byte strings and strings over the alphabet *)
Theorem base58_decode_encode : forall bs, Forall (fun d => d < 256) bs -> b58_decode (b58_encode bs) = Some bs.
Proof. exact b58_decode_encode. Qed.
Print Assumptions base58_decode_encode.

Theorem base58_encode_decode : forall s raw, b58_decode s = Some raw ->
  b58_encode raw = s /\ Forall (fun d => d < 256) raw.
Proof. exact b58_encode_decode. Qed.
Print Assumptions base58_encode_decode.

Theorem radix_conversion_inverse : forall b1 b2 ds, 2 <= b1 -> 2 <= b2 -> Forall (fun d => d < b1) ds ->
  convert b2 b1 (convert b1 b2 ds) = ds.
Proof. exact convert_inverse. Qed.
Print Assumptions radix_conversion_inverse.

(** * Hexadecimal forms: hashes (hex::decode, both cases accepted) and keys / signatures *)
Theorem hash_parse_print : forall h, length h = 32%nat -> Forall (fun d => d < 256) h ->
  parse_hash (hex_print h) = Some h.
Proof. exact hash_parse_print_all. Qed.
Print Assumptions hash_parse_print.

Theorem hash_parse_upper_case : forall h, length h = 32%nat -> Forall (fun d => d < 256) h ->
  parse_hash (hex_print_upper h) = Some h.
Proof. exact hash_parse_print_upper. Qed.
Print Assumptions hash_parse_upper_case.

Theorem hash_parse_needs_64_characters : forall s h, parse_hash s = Some h -> length s = 64%nat /\ length h = 32%nat.
Proof. exact hash_parse_length. Qed.
Print Assumptions hash_parse_needs_64_characters.

Theorem key_parse_print : forall n k, length k = n -> Forall (fun d => d < 256) k ->
  parse_key n (hex_print k) = Some k.
Proof. exact key_parse_print_all. Qed.
Print Assumptions key_parse_print.

Theorem u64_parse_print : forall n, n < Text.W64 -> parse_u64 (print_dec n) = Some n.
Proof. exact parse_u64_print_dec. Qed.
Print Assumptions u64_parse_print.

(** * Validators accept exactly the documented grammar *)

Theorem validator_iff_grammar_contract_name : forall s,
  valid_contract_name s = true <->
  (exists rest, s = INIT_PREFIX ++ rest) /\ N.of_nat (length s) <= 100
  /\ Forall (fun c => 33 <= c <= 126 /\ c <> 46) s.
Proof. exact contract_name_iff_grammar. Qed.
Print Assumptions validator_iff_grammar_contract_name.

Theorem validator_iff_grammar_receive_name : forall s,
  valid_receive_name s = true <->
  In 46 s /\ N.of_nat (length s) <= 100 /\ Forall (fun c => 33 <= c <= 126) s.
Proof. exact receive_name_iff_grammar. Qed.
Print Assumptions validator_iff_grammar_receive_name.

Theorem validator_iff_grammar_entrypoint_name : forall s,
  valid_entrypoint_name s = true <->
  N.of_nat (length s) <= 99 /\ Forall (fun c => 33 <= c <= 126) s.
Proof. exact entrypoint_name_iff_grammar. Qed.
Print Assumptions validator_iff_grammar_entrypoint_name.

Theorem receive_name_construct_parts : forall c e,
  contract_name_grammar c ->
  split_dot (construct_receive_name c e) = (skipn 5 c, e).
Proof. exact construct_receive_name_parts. Qed.
Print Assumptions receive_name_construct_parts.

Theorem receive_name_construct_valid : forall c e,
  contract_name_grammar c -> entrypoint_name_grammar e ->
  N.of_nat (length c) + N.of_nat (length e) <= 104 ->
  receive_name_grammar (construct_receive_name c e).
Proof. exact construct_receive_name_valid. Qed.
Print Assumptions receive_name_construct_valid.

(** * Checked arithmetic is exact or reports overflow *)

Theorem checked_add_exact_or_none : forall x y z,
  checked_add x y = Some z <-> z = x + y /\ z < CheckedArith.W64.
Proof. exact checked_add_spec. Qed.
Print Assumptions checked_add_exact_or_none.

Theorem checked_add_none_iff_overflow : forall x y,
  checked_add x y = None <-> CheckedArith.W64 <= x + y.
Proof. exact checked_add_none. Qed.
Print Assumptions checked_add_none_iff_overflow.

Theorem checked_sub_exact_or_none : forall x y z,
  checked_sub x y = Some z <-> y <= x /\ z + y = x.
Proof. exact checked_sub_spec. Qed.
Print Assumptions checked_sub_exact_or_none.

Theorem checked_sub_none_iff_underflow : forall x y, checked_sub x y = None <-> x < y.
Proof. exact checked_sub_none. Qed.
Print Assumptions checked_sub_none_iff_underflow.

Theorem quotient_remainder_law : forall x d q r,
  quotient_remainder x d = Some (q, r) <-> d <> 0 /\ x = q * d + r /\ r < d.
Proof. exact CheckedArithProofs.quotient_remainder_law. Qed.
Print Assumptions quotient_remainder_law.

Theorem duration_between_law : forall t o, duration_between t o + N.min t o = N.max t o.
Proof. exact duration_between_spec. Qed.
Print Assumptions duration_between_law.

Theorem euro_cent_conversion_exact : forall num den cents v, den <> 0 ->
  num * cents / (den * 100) < CheckedArith.W64 ->
  convert_euro_cent_to_amount num den cents = Some v ->
  v * (den * 100) <= num * cents < (v + 1) * (den * 100).
Proof. exact convert_euro_cent_exact. Qed.
Print Assumptions euro_cent_conversion_exact.

(** the u128 intermediates of [convert_euro_cent_to_amount] cannot overflow: it never panics *)
Theorem euro_cent_intermediates_fit : forall num den cents,
  num < CheckedArith.W64 -> den < CheckedArith.W64 -> cents < CheckedArith.W64 ->
  num * cents < W128 /\ den * 100 < W128.
Proof. exact euro_cent_no_intermediate_overflow. Qed.
Print Assumptions euro_cent_intermediates_fit.

(** the result is the floor of the rational value exactly when that floor fits into 64 bits
    ([as u64] keeps the low 64 bits otherwise: the overflow is not reported - observation) *)
Theorem euro_cent_conversion_exact_iff : forall num den cents v, den <> 0 ->
  convert_euro_cent_to_amount num den cents = Some v ->
  (v = num * cents / (den * 100) <-> num * cents / (den * 100) < CheckedArith.W64).
Proof. exact euro_cent_exact_iff. Qed.
Print Assumptions euro_cent_conversion_exact_iff.

Theorem rational_floor_law : forall a b, b <> 0 -> (a / b) * b <= a < (a / b + 1) * b.
Proof. exact floor_law. Qed.
Print Assumptions rational_floor_law.

Theorem euro_cent_conversion_monotone : forall num den c1 c2 v1 v2, den <> 0 -> c1 <= c2 ->
  num * c2 / (den * 100) < CheckedArith.W64 ->
  convert_euro_cent_to_amount num den c1 = Some v1 -> convert_euro_cent_to_amount num den c2 = Some v2 ->
  v1 <= v2.
Proof. exact euro_cent_monotone_when_fits. Qed.
Print Assumptions euro_cent_conversion_monotone.

Theorem euro_cent_conversion_truncates_silently :
  convert_euro_cent_to_amount 200 1 9223372036854775807 = Some 18446744073709551614
  /\ convert_euro_cent_to_amount 200 1 9223372036854775808 = Some 0
  /\ 200 * 9223372036854775808 / (1 * 100) = CheckedArith.W64.
Proof. exact euro_cent_truncation_witness. Qed.
Print Assumptions euro_cent_conversion_truncates_silently.

(** [convert_amount_to_euro_cent] reports ([None] = overflow panic of the checked build) exactly
    when the u128 product [micro * 100 * denominator] does not fit (or the numerator is 0) *)
Theorem amount_to_euro_cent_none_iff_u128_overflow : forall num den micro,
  convert_amount_to_euro_cent num den micro = None <-> num = 0 \/ W128 <= micro * 100 * den.
Proof. exact amount_to_euro_cent_none_iff. Qed.
Print Assumptions amount_to_euro_cent_none_iff_u128_overflow.

(** a reported overflow is a real one: the true quotient then exceeds u64 *)
Theorem amount_to_euro_cent_reported_overflow_is_real : forall num den micro,
  num <> 0 -> num < CheckedArith.W64 -> W128 <= micro * 100 * den ->
  CheckedArith.W64 <= micro * 100 * den / num.
Proof. exact amount_to_euro_cent_none_sound. Qed.
Print Assumptions amount_to_euro_cent_reported_overflow_is_real.

Theorem amount_to_euro_cent_exact_iff_fits : forall num den micro v,
  convert_amount_to_euro_cent num den micro = Some v ->
  (v = micro * 100 * den / num <-> micro * 100 * den / num < CheckedArith.W64).
Proof. exact amount_to_euro_cent_exact_iff. Qed.
Print Assumptions amount_to_euro_cent_exact_iff_fits.

Theorem amount_to_euro_cent_monotone : forall num den m1 m2 v1 v2, m1 <= m2 ->
  m2 * 100 * den / num < CheckedArith.W64 ->
  convert_amount_to_euro_cent num den m1 = Some v1 -> convert_amount_to_euro_cent num den m2 = Some v2 ->
  v1 <= v2.
Proof. exact amount_to_euro_cent_monotone_when_fits. Qed.
Print Assumptions amount_to_euro_cent_monotone.

(** ... but an overflow of the 64-bit result below the u128 limit is truncated, not reported *)
Theorem amount_to_euro_cent_truncates_silently :
  convert_amount_to_euro_cent 1 1 9223372036854775808 = Some 0
  /\ 9223372036854775808 * 100 * 1 / 1 = 50 * CheckedArith.W64.
Proof. exact amount_to_euro_cent_truncation_witness. Qed.
Print Assumptions amount_to_euro_cent_truncates_silently.

(** * Binary encodings: round trip, canonicity, shrinking, bounded pre-allocation
      ([Laws K c] = [RT c /\ Canon c /\ Shrinks c /\ AllocOK K c]) *)

Theorem codec_laws_unsigned : forall k, Laws 4096 (c_uint k).
Proof. exact (laws_uint 4096). Qed.
Print Assumptions codec_laws_unsigned.

Theorem codec_laws_signed : forall k, (0 < k)%nat -> Laws 4096 (c_sint k).
Proof. exact (laws_sint 4096). Qed.
Print Assumptions codec_laws_signed.

Theorem codec_laws_bool : Laws 4096 c_bool.
Proof. exact (laws_bool 4096). Qed.
Print Assumptions codec_laws_bool.

Theorem bool_only_0_1 : forall b rest, 2 <= b -> dec c_bool (b :: rest) = None.
Proof. exact bool_rejects_other. Qed.
Print Assumptions bool_only_0_1.

Theorem codec_laws_pair : forall {A B} (ca : codec A) (cb : codec B),
  Laws 4096 ca -> Laws 4096 cb -> Laws 4096 (c_pair ca cb).
Proof. exact (fun A B => @laws_pair A B 4096). Qed.
Print Assumptions codec_laws_pair.

Theorem codec_laws_option : forall {A} (c : codec A), Laws 4096 c -> Laws 4096 (c_option c).
Proof. exact (fun A => @laws_option A 4096). Qed.
Print Assumptions codec_laws_option.

Theorem codec_laws_vec : forall {A} (c : codec A), Laws 4096 c -> NonEmpty c -> Laws 4096 (c_vec32 c).
Proof. exact (fun A c => @laws_vec32 A 4096 c (N.le_refl _)). Qed.
Print Assumptions codec_laws_vec.

Theorem codec_laws_string : Laws 4096 c_string.
Proof. exact (laws_string 4096 (N.le_refl _)). Qed.
Print Assumptions codec_laws_string.

Theorem codec_laws_bytes : forall n, Laws 4096 (c_bytes n).
Proof. exact (laws_bytes 4096). Qed.
Print Assumptions codec_laws_bytes.

Theorem codec_laws_ordered_set : forall k ck, Laws 4096 ck -> NonEmpty ck -> Laws 4096 (c_set_ordered (S k) ck).
Proof. exact (laws_set_ordered 4096). Qed.
Print Assumptions codec_laws_ordered_set.

Theorem codec_laws_ordered_map : forall {V} k ck (cv : codec V),
  Laws 4096 ck -> NonEmpty ck -> Laws 4096 cv -> Laws 4096 (c_map_ordered (S k) ck cv).
Proof. exact (fun V => @laws_map_ordered V 4096). Qed.
Print Assumptions codec_laws_ordered_map.

(** the standard [Deserial] of BTreeSet/BTreeMap/HashSet/HashMap: no canonicity *)
Theorem codec_laws_unordered_set : forall ck, Laws 4096 ck -> NonEmpty ck -> LawsNC 4096 (c_set32 ck).
Proof. exact (fun ck => laws_set32 4096 ck (N.le_refl _)). Qed.
Print Assumptions codec_laws_unordered_set.

Theorem codec_laws_unordered_map : forall {V} ck (cv : codec V),
  Laws 4096 ck -> NonEmpty ck -> Laws 4096 cv -> LawsNC 4096 (c_map32 ck cv).
Proof. exact (fun V ck cv => @laws_map32 V 4096 ck cv (N.le_refl _)). Qed.
Print Assumptions codec_laws_unordered_map.

Theorem unordered_decoder_rejects_duplicates : forall {A} (ltb : A -> A -> bool) cv bs xs r,
  dec (c_unordered ltb cv) bs = Some (xs, r) -> strict_sorted ltb xs = true.
Proof. exact (fun A => @unordered_sound A). Qed.
Print Assumptions unordered_decoder_rejects_duplicates.

(** ordered collections reject duplicate or unordered input *)
Theorem ordered_reject_set : forall k ck xs rest, RT ck -> NonEmpty ck ->
  N.of_nat (length xs) < 256 ^ N.of_nat k -> Forall (wf ck) xs ->
  strict_sorted N.ltb xs = false ->
  dec (c_set_ordered k ck) (le_bytes k (N.of_nat (length xs)) ++ enc_elems ck xs ++ rest) = None.
Proof. exact set_ordered_reject. Qed.
Print Assumptions ordered_reject_set.

Theorem ordered_reject_map : forall {V} k ck (cv : codec V) xs rest, RT ck -> NonEmpty ck -> RT cv ->
  N.of_nat (length xs) < 256 ^ N.of_nat k -> Forall (wf (c_pair ck cv)) xs ->
  strict_sorted key_ltb xs = false ->
  dec (c_map_ordered k ck cv) (le_bytes k (N.of_nat (length xs)) ++ enc_elems (c_pair ck cv) xs ++ rest) = None.
Proof. exact (fun V => @map_ordered_reject V). Qed.
Print Assumptions ordered_reject_map.

Theorem strict_sorted_is_strictly_ascending : forall xs, strict_sorted N.ltb xs = true <->
  (forall i, (S i < length xs)%nat -> nth i xs 0 < nth (S i) xs 0).
Proof. exact strict_sorted_spec. Qed.
Print Assumptions strict_sorted_is_strictly_ascending.

Theorem vector_reserve_bounded : forall n, rsv_std n <= MAX_PREALLOCATED_CAPACITY.
Proof. exact vec_reserve_le_max. Qed.
Print Assumptions vector_reserve_bounded.

(** chain types *)
Theorem codec_laws_address : Laws 4096 c_address.
Proof. exact (laws_address 4096). Qed.
Print Assumptions codec_laws_address.

Theorem address_unknown_tag_rejected : forall t r, 2 <= t -> dec c_address (t :: r) = None.
Proof. exact address_bad_tag. Qed.
Print Assumptions address_unknown_tag_rejected.

Theorem codec_laws_account_balance : Laws 4096 c_account_balance.
Proof. exact (laws_account_balance 4096). Qed.
Print Assumptions codec_laws_account_balance.

Theorem codec_laws_exchange_rates : Laws 4096 c_exchange_rates.
Proof. exact (laws_exchange_rates 4096). Qed.
Print Assumptions codec_laws_exchange_rates.

Theorem codec_laws_threshold : Laws 4096 c_threshold.
Proof. exact (laws_threshold 4096). Qed.
Print Assumptions codec_laws_threshold.

Theorem codec_laws_contract_name : Laws 4096 c_contract_name.
Proof. exact (laws_contract_name 4096 (N.le_refl _)). Qed.
Print Assumptions codec_laws_contract_name.

Theorem codec_laws_receive_name : Laws 4096 c_receive_name.
Proof. exact (laws_receive_name 4096 (N.le_refl _)). Qed.
Print Assumptions codec_laws_receive_name.

Theorem codec_laws_entrypoint_name : Laws 4096 c_entrypoint_name.
Proof. exact (laws_entrypoint_name 4096 (N.le_refl _)). Qed.
Print Assumptions codec_laws_entrypoint_name.

Theorem codec_laws_parameter : Laws 4096 c_parameter.
Proof. exact (laws_parameter 4096 (N.le_refl _)). Qed.
Print Assumptions codec_laws_parameter.

Theorem codec_laws_attribute_value : Laws 4096 c_attribute_value.
Proof. exact (laws_attribute_value 4096). Qed.
Print Assumptions codec_laws_attribute_value.

(** the policy decoder reserves the declared u16 count: bounded by 65535 slots *)
Theorem codec_laws_policy : Laws 65535 c_policy.
Proof. exact laws_policy. Qed.
Print Assumptions codec_laws_policy.

(** * Non-vacuity *)
Example amount_max_prints : print_amount 18446744073709551615
  = [49;56;52;52;54;55;52;52;48;55;51;55;48;57;46;53;53;49;54;49;53] /\ 18446744073709551615 < Text.W64.
Proof. split; reflexivity. Qed.
Print Assumptions amount_max_prints.

Example timestamp_examples :
  print_timestamp 951782400000 = [50;48;48;48;45;48;50;45;50;57;84;48;48;58;48;48;58;48;48;43;48;48;58;48;48]
  /\ print_timestamp 18446744073709551615 = print_dec 18446744073709551615
  /\ parse_timestamp [49;57;54;57;45;49;50;45;51;49;84;50;51;58;48;48;58;48;48;45;48;49;58;48;48] = Ok 0.
Proof. repeat apply conj; vm_compute; reflexivity. Qed.
Print Assumptions timestamp_examples.

Example account_address_nonvacuous :
  let H4 := fun _ : list N => [30; 99; 119; 166] in      (* the real checksum of 01 || 0^32 *)
  print_account_address H4 (repeat 0 32)
    = [50;119;107;66;69;84;50;114;82;103;69;56;112;97;104;117;97;99;122;120;75;98;109;118;55;99;105;101;104;113;115;110;101;53;55;70;57;103;116;122;102;49;80;86;100;114;50;86;80;51]
  /\ parse_account_address H4 (print_account_address H4 (repeat 0 32)) = Some (repeat 0 32)
  /\ parse_account_address (fun _ => [30; 99; 119; 167]) (print_account_address H4 (repeat 0 32)) = None.
Proof.
  intros H4. assert (K : forall A B : Prop, A -> (A -> B) -> A /\ B) by tauto.
  (* the printed form is computed once and the two parses run on it *)
  apply K; [vm_compute; reflexivity|intros E]. rewrite E. split; vm_compute; reflexivity.
Qed.
Print Assumptions account_address_nonvacuous.

Example ordered_reject_nonvacuous :
  strict_sorted N.ltb [1; 3; 2] = false /\ strict_sorted N.ltb [1; 2; 2] = false
  /\ dec (c_set_ordered 1 c_u8) [3; 1; 3; 2] = None /\ dec (c_set_ordered 1 c_u8) [3; 1; 2; 2] = None
  /\ dec (c_set_ordered 1 c_u8) [3; 1; 2; 3; 9] = Some ([1; 2; 3], [9]).
Proof. repeat split; reflexivity. Qed.
Print Assumptions ordered_reject_nonvacuous.

Example names_nonvacuous :
  valid_contract_name (INIT_PREFIX ++ [97]) = true /\ valid_contract_name (INIT_PREFIX ++ [97; 46]) = false
  /\ valid_receive_name [97; 46; 98] = true /\ valid_entrypoint_name [] = true.
Proof. repeat split; reflexivity. Qed.
Print Assumptions names_nonvacuous.
