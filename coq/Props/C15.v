(** C15 - iterator locks and entry handles protect contract state invariants.
    Property theorems only, each followed by [Print Assumptions]: closed by [exact] or put
    together here from the lemmas of the imported files; the examples are evaluated.

    [pmap] models [PrefixesMap] (reference-counted byte trie of locked prefixes), the
    machine [m_step] of Locks.v models the lock checks of [MutableTrie::{insert,delete,
    delete_prefix,iter,delete_iter}], entries and lazily advancing iterators; [s_step] is
    its specification (iterators are snapshots; locked = under the prefix of a live
    iterator).  "Reachable" = the state after an arbitrary history from the initial state.
    Then the contract-visible handle layer (InstanceState.v) and, each part with its imports at
    its head: [PrefixesMap] as coded (SlabPrefixMap.v), handle encodings and counters with
    machine arithmetic (InstLimits.v), and the energy of the refused calls (InstEnergy.v). *)
From Coq Require Import NArith List Bool Sorted.
From CB Require Import Trie.Radix.
From CB Require Import Trie.RadixProofs.
From CB Require Import Trie.PrefixMap.
From CB Require Import Trie.PrefixMapProofs.
From CB Require Import Trie.Locks.
From CB Require Import Trie.LocksProofs.
From CB Require Import Trie.InstanceState.
From CB Require Import Trie.InstanceStateProofs.
Import ListNotations.
Local Open Scope N_scope.

(** ** The prefix map is a multiset of byte strings, for every history of
    insert / delete / check_has_no_prefix / is_or_has_prefix *)
Theorem prefixmap_refines_multiset : forall ops : list pop,
  snd (pm_run ops None) = snd (bag_run ops [])
  /\ pm_wf (fst (pm_run ops None)) = true
  /\ forall k, pm_count k (fst (pm_run ops None)) = bag_count k (fst (bag_run ops [])).
Proof.
  exact (fun ops => match pm_run_refines ops None [] PInv_init with
                    | conj a (conj b c) => conj a (conj b c) end).
Qed.
Print Assumptions prefixmap_refines_multiset.

Theorem check_has_no_prefix_spec : forall k m,
  pm_no_prefix k m = true <-> (forall p, is_prefix p k = true -> pm_count p m = 0).
Proof. exact pm_no_prefix_spec. Qed.
Print Assumptions check_has_no_prefix_spec.

Theorem is_or_has_prefix_spec : forall k m,
  pm_wf m = true ->
  (pm_iohp k m = true <->
   exists p, 0 < pm_count p m /\ (is_prefix p k = true \/ is_prefix k p = true)).
Proof. exact pm_iohp_spec. Qed.
Print Assumptions is_or_has_prefix_spec.

Theorem insert_adds_one : forall k m m' k',
  pm_wf m = true -> pm_insert k m = Some m' ->
  pm_wf m' = true
  /\ pm_count k' m' = if list_eqb k k' then pm_count k' m + 1 else pm_count k' m.
Proof. exact (fun k m m' k' H E => conj (pm_wf_insert k m m' H E) (pm_count_insert k m m' k' H E)). Qed.
Print Assumptions insert_adds_one.

Theorem delete_removes_one : forall k m k',
  pm_wf m = true ->
  snd (pm_delete k m) = negb (pm_count k m =? 0)
  /\ pm_count k' (fst (pm_delete k m)) = (if list_eqb k k' then pm_count k' m - 1 else pm_count k' m)
  /\ pm_wf (fst (pm_delete k m)) = true.
Proof. exact pm_delete_spec. Qed.
Print Assumptions delete_removes_one.

(** A count of [u32::MAX] makes the insertion fail (and only that does); the map is not
    changed and the count does not wrap. *)
Theorem refcount_overflow_is_error : forall k m,
  pm_wf m = true -> (pm_insert k m = None <-> pm_count k m = MAXC).
Proof. exact pm_insert_none. Qed.
Print Assumptions refcount_overflow_is_error.

Theorem iter_overflow_reports_too_many : forall ops g rest k t,
  m_exec ops m_init = g :: rest -> g_root g = Some t -> has_prefix (nib k) t = true ->
  pm_count k (g_locks g) = MAXC -> m_iter k g = (g, RTooMany).
Proof. exact overflow_is_error_reachable. Qed.
Print Assumptions iter_overflow_reports_too_many.

(** ** While an iterator over [p] is alive, creating or deleting a key at or under [p],
    and deleting a prefix that is above, at or under [p], is refused and the whole
    generation record (tree, entries, locks, handles, iterators) is unchanged *)
Theorem locked_refused_unchanged : forall ops g rest p k v,
  m_exec ops m_init = g :: rest -> In p (live_roots (g_iters g)) ->
  (is_prefix p k = true -> m_insert k v g = (g, RLocked) /\ m_delete k g = (g, RLocked))
  /\ (is_prefix p k = true \/ is_prefix k p = true -> m_delete_prefix k g = (g, RLocked)).
Proof. exact locked_refused_reachable. Qed.
Print Assumptions locked_refused_unchanged.

(** ** Deleting an iterator releases exactly one reference of its own prefix *)
Theorem delete_iter_releases_own_lock_only : forall ops g rest i p x,
  m_exec ops m_init = g :: rest -> nth_error (g_iters g) i = Some (Some (p, x)) ->
  exists l',
    m_deliter i g = (with_locks_iters g l' (set_nth i None (g_iters g)), RBool true)
    /\ forall q, pm_count q l' = if list_eqb p q then pm_count q (g_locks g) - 1 else pm_count q (g_locks g).
Proof. exact deliter_releases_reachable. Qed.
Print Assumptions delete_iter_releases_own_lock_only.

(** ** In every reachable state the lock map is exactly the multiset of the prefixes of
    the live iterators, and the keys under a live prefix are still there *)
Theorem locks_are_live_iterators : forall ops g rest,
  m_exec ops m_init = g :: rest ->
  exists s srest, s_exec ops s_init = s :: srest
    /\ (forall p, pm_count p (g_locks g) = s_count p s)
    /\ live_roots (g_iters g) = live_roots (s_iters s)
    /\ (forall p, In p (live_roots (s_iters s)) -> is_nil (a_iterate p (s_map s)) = false).
Proof.
  exact (fun ops g rest H =>
    match reachable_R ops g rest H with
    | ex_intro _ s (ex_intro _ srest (conj E (conj HR _))) =>
        ex_intro _ s (ex_intro _ srest
          (conj E (conj (R_locks g s HR) (conj (iter_roots_agree _ _ _ (R_iters g s HR)) (R_live g s HR)))))
    end).
Qed.
Print Assumptions locks_are_live_iterators.

(** ** An iterator yields exactly the snapshot taken at its creation.  On the
    specification machine: after [iter k] returned iterator [i] in a generation whose map
    is sorted (true in every reachable state), for EVERY list of further operations of that
    generation that does not delete iterator [i] - inserts, deletes, prefix deletes (refused
    or not), other iterators, handle use - the results of the [ONext i] operations are,
    in order, the keys under [k] at creation time in ascending order, then "exhausted"
    for ever.  By [history_refines] (Props/C03.v) the model machine, whose iterators walk
    the current tree lazily like the implementation's, returns the same for every history. *)
Theorem iterator_yields_snapshot : forall g k g1 i ops,
  StronglySorted (fun a b => lex_ltb (fst a) (fst b) = true) (s_map g) ->
  s_iter k g = (g1, RIter i) -> Forall (not_deliter i) ops ->
  sg_yields i ops g1 =
  snapshot_prefix (length (sg_yields i ops g1)) (map fst (a_iterate k (s_map g))).
Proof. exact iterator_snapshot. Qed.
Print Assumptions iterator_yields_snapshot.

(** ** A handle to a deleted entry is invalid for every later read, set and get_mut *)
Theorem handle_to_deleted_entry_invalid : forall k g e h v,
  lookup_root (nib k) (g_root g) = Some e -> snd (m_delete k g) <> RLocked ->
  nth_error (g_handles g) h = Some e ->
  let g' := fst (m_delete k g) in
  m_read h g' = (g', RVal None) /\ m_set h v g' = (g', RBool false) /\ m_mut h v g' = (g', RVal None).
Proof. exact deleted_entry_invalid. Qed.
Print Assumptions handle_to_deleted_entry_invalid.

(** ** The contract-visible handle layer (InstanceState.v: [current_generation], the
    handle and iterator tables, the u64 / u32 encodings, [migrate] on resume) *)

(** An id whose generation is not the current one is answered with the invalid encoding
    (u32::MAX, resp. the error id for [iterator_next]) by every handle operation, and the
    trie generation - tree, entries, locks, tables - is untouched (only the write operations
    set [changed], as the code does before looking at the id). *)
Theorem stale_handle_invalid : forall o i g,
  is_handle_op o = true -> id_gen (op_id o) <> is_gen i ->
  c_op o (i, g) = ((after_invalid o i, g), invalid_answer o).
Proof. exact stale_id_invalid. Qed.
Print Assumptions stale_handle_invalid.

(** The same for an id of the current generation whose index was never handed out ... *)
Theorem forged_handle_invalid : forall o i g,
  is_handle_op o = true ->
  (match o with
   | CNext _ | CIterDelete _ | CIterKey _ => id_idx (op_id o) (length (g_iters g)) = None
   | _ => id_idx (op_id o) (length (g_handles g)) = None
   end) ->
  c_op o (i, g) = ((after_invalid o i, g), invalid_answer o).
Proof. exact forged_index_invalid. Qed.
Print Assumptions forged_handle_invalid.

(** ... and for an id of a deleted entry; deleting a key makes every id of it such a
    tombstone. *)
Theorem tombstone_handle_invalid : forall o i g h e,
  (match o with CRead _ | CSize _ | CWrite _ _ _ | CResize _ _ => true | _ => false end) = true ->
  id_idx (op_id o) (length (g_handles g)) = Some h ->
  nth_error (g_handles g) h = Some e -> ent_get (g_ents g) e = None ->
  c_op o (i, g) = ((after_invalid o i, g), invalid_answer o).
Proof. exact tombstone_invalid. Qed.
Print Assumptions tombstone_handle_invalid.

Theorem delete_entry_makes_tombstones : forall k i g e h,
  lookup_root (nib k) (g_root g) = Some e -> snd (m_delete k g) <> RLocked ->
  nth_error (g_handles g) h = Some e ->
  let g' := snd (fst (c_op (CDelete k) (i, g))) in
  nth_error (g_handles g') h = Some e /\ ent_get (g_ents g') e = None.
Proof. exact deleted_entry_ids_invalid. Qed.
Print Assumptions delete_entry_makes_tombstones.

(** A freshly handed out id denotes exactly the entry it was handed out for (so "invalid"
    is not the answer to everything). *)
Theorem fresh_id_valid : forall k i g e v,
  lookup_root (nib k) (g_root g) = Some e -> ent_get (g_ents g) e = Some v ->
  N.of_nat (length (g_handles g)) < TWO32 ->
  let r := c_op (CLookup k) (i, g) in
  snd r = XId (enc (is_gen i) (length (g_handles g)))
  /\ entry_of (fst (fst r)) (snd (fst r)) (enc (is_gen i) (length (g_handles g))) = Some (e, v).
Proof. exact lookup_id_valid. Qed.
Print Assumptions fresh_id_valid.

(** Interrupts: a complete re-entrant call (any properly nested operations, ended with
    success or failure) leaves the frames below the caller untouched and resumes the caller
    by [resume] (= [InstanceState::migrate]).  If the call succeeded and touched the state,
    the generation counter moves on and EVERY id the caller was given before is answered
    as invalid; otherwise the caller continues on exactly its own generation record with
    the same counter, and every operation answers exactly as it would have before the
    interrupt. *)
Theorem migrate_invalidates_iff_changed : forall inner_ops commit f rest,
  balanced 0 inner_ops = true ->
  exists top,
    c_exec (CInterrupt :: inner_ops ++ [CEnd commit]) (f :: rest) = Some (resume commit top f :: rest)
    /\ (commit && touched top = true ->
        is_gen (fst (resume commit top f)) = is_gen (fst f) + 1
        /\ forall o, is_handle_op o = true -> id_gen (op_id o) = is_gen (fst f) ->
             c_op o (resume commit top f)
             = ((after_invalid o (fst (resume commit top f)), snd (resume commit top f)), invalid_answer o))
    /\ (commit && touched top = false ->
        snd (resume commit top f) = snd f
        /\ is_gen (fst (resume commit top f)) = is_gen (fst f)
        /\ forall o, snd (c_op o (resume commit top f)) = snd (c_op o f)
                     /\ snd (fst (c_op o (resume commit top f))) = snd (fst (c_op o f))).
Proof. exact migrate_iff_changed. Qed.
Print Assumptions migrate_invalidates_iff_changed.

Example interrupt_with_and_without_update :
  (* create a, b; iterate; interrupt: inner call creates c and fails -> ids still valid;
     interrupt: inner call creates c and succeeds -> ids invalid, new generation 1 *)
  c_run [CCreate [97]; CCreate [98]; CIter []; CNext (enc 0 0);
         CInterrupt; CCreate [99]; CEnd false;
         CRead (enc 0 0); CNext (enc 0 0);
         CInterrupt; CCreate [99]; CEnd true;
         CRead (enc 0 0); CNext (enc 0 0); CLookup [99]; CRead (enc 1 0)] c_init
  = [XId (enc 0 0); XId (enc 0 1); XId (enc 0 0); XId (enc 0 2);
     XMark; XId (enc 0 0); XMark;
     XBytes []; XId (enc 0 3);
     XMark; XId (enc 0 0); XMark;
     XInvalid; XId ID_ERR; XId (enc 1 0); XBytes []].
Proof. vm_compute. reflexivity. Qed.
Print Assumptions interrupt_with_and_without_update.

(** ** Non-vacuity *)
Example nested_and_equal_prefixes :
  m_run [OInsert [1; 2] [9]; OInsert [1; 3] [8]; OInsert [2] [7];
         OIter [1]; OIter [1]; OIter [1; 2]; OIter [];
         OInsert [1; 2; 0] []; ODelete [2]; ODeletePrefix [1; 2]; ODelIter 3; ODelete [2];
         ODelIter 0; OInsert [1; 5] []; ODelIter 1; ODelIter 2; OInsert [1; 5] [];
         ONext 0] m_init
  = [RHandle 0 false; RHandle 1 false; RHandle 2 false;
     RIter 0; RIter 1; RIter 2; RIter 3;
     RLocked; RLocked; RLocked; RBool true; RBool true;
     RBool true; RLocked; RBool true; RBool true; RHandle 3 false;
     RSkip].
Proof. vm_compute. reflexivity. Qed.
Print Assumptions nested_and_equal_prefixes.

Example iterator_is_a_snapshot_under_permitted_changes :
  m_run [OInsert [1; 1] [1]; OInsert [1; 2] [2]; OInsert [3] [3];
         OIter [1]; ONext 0; OInsert [2] []; ODelete [3]; OSet 1 [5]; ONewGen; OInsert [1; 0] []; ONormalize 0;
         ONext 0; ONext 0; ONext 0] m_init
  = [RHandle 0 false; RHandle 1 false; RHandle 2 false;
     RIter 0; RNext [1; 1] 3 (Some [1]); RHandle 4 false; RBool true; RBool true; RGens 2; RHandle 0 false; RGens 1;
     RNext [1; 2] 5 (Some [5]); RNone; RNone].
Proof. vm_compute. reflexivity. Qed.
Print Assumptions iterator_is_a_snapshot_under_permitted_changes.

Example overflow_boundary :
  pm_insert [1] (pm_set [1] MAXC (Some (pn_fresh [1]))) = None
  /\ pm_count [1] (pm_set [1] MAXC (Some (pn_fresh [1]))) = MAXC
  /\ pm_wf (pm_set [1] MAXC (Some (pn_fresh [1]))) = true.
Proof. vm_compute. repeat split. Qed.
Print Assumptions overflow_boundary.

Example iterator_yields_snapshot_nonvacuous :
  let g := fst (s_insert [1; 2] [2] (fst (s_insert [3] [3] (fst (s_insert [1; 1] [1] empty_sgen))))) in
  let g1 := fst (s_iter [1] g) in
  s_iter [1] g = (g1, RIter 0)
  /\ sg_yields 0 [ONext 0; OInsert [2] []; OInsert [1; 0] []; ODelete [3]; ONext 0; ODeletePrefix []; ONext 0; ONext 0] g1
     = [Some [1; 1]; Some [1; 2]; None; None].
Proof. vm_compute. split; reflexivity. Qed.
Print Assumptions iterator_yields_snapshot_nonvacuous.

(** * The slab-based structure the code uses, the machine limits of the handle layer, energy *)
From CB Require Import Trie.SlabPrefixMap.
From CB Require Import Trie.SlabPrefixMapProofs.

(** ** [PrefixesMap] as coded (slab of nodes, children lists of slab keys, LIFO key reuse, the descent
    loops and the unwinding loop of [delete]) refines the multiset of prefixes for every history: the
    implementation-shaped model never reaches an "Invariant violation" panic, answers exactly like the
    multiset, and its state stays the representation (footprint: no sharing, no dangling key) of a
    well-formed functional trie whose counts are the multiplicities - so every theorem above about
    [pmap] (lock checks, exact prefix specifications, overflow) holds of the slab structure. *)
Theorem slab_prefixmap_refines_multiset : forall ops : list pop,
  exists m' pm',
    sm_run ops sm_empty = Some (m', snd (bag_run ops []))
    /\ SInv m' pm' /\ pm_wf pm' = true
    /\ forall k, pm_count k pm' = bag_count k (fst (bag_run ops [])).
Proof.
  exact (fun ops => match sm_run_refines ops sm_empty None [] SInv_init PInv_init with
                    | ex_intro _ m' (ex_intro _ pm' (conj a (conj b (conj c d)))) =>
                        ex_intro _ m' (ex_intro _ pm' (conj a (conj b (conj c d))))
                    end).
Qed.
Print Assumptions slab_prefixmap_refines_multiset.

(** per-operation commutation with the functional trie (abstraction relation [SInv]) *)
Theorem slab_step_commutes : forall o m pm,
  SInv m pm -> pm_wf pm = true ->
  exists m', sm_step o m = Some (m', snd (pm_step o pm)) /\ SInv m' (fst (pm_step o pm)).
Proof. exact sm_step_ok. Qed.
Print Assumptions slab_step_commutes.

(** invariants of the slab in every represented state: root and all stored child keys denote occupied
    cells ([cell_ok]: no dangling key), no cell is shared (NoDup footprint), a reachable node without
    children has a positive count, counts fit u32, and the free stack holds distinct vacant keys. *)
Theorem slab_state_invariants : forall m pm,
  SInv m pm -> pm_wf pm = true ->
  match sm_root m with
  | None => pm = None
  | Some r => exists fp, In r fp /\ NoDup fp /\ forall x, In x fp -> cell_ok (sl_cells (sm_slab m)) fp x
  end
  /\ NoDup (sl_free (sm_slab m))
  /\ forall x, In x (sl_free (sm_slab m)) -> nth_error (sl_cells (sm_slab m)) x = Some None.
Proof. exact slab_invariants. Qed.
Print Assumptions slab_state_invariants.

Example slab_history_nonvacuous :
  let ops := [PIns [1; 2]; PIns [1]; PIns [1; 3]; PDel [1; 2]; PIns [7]; PCheck [1; 5]; PDel [1]; PIohp [1];
              PDel [1; 3]; PDel [7]; PDel [7]] in
  option_map snd (sm_run ops sm_empty) = Some (snd (bag_run ops []))
  /\ option_map (fun r => sm_dump (fst r)) (sm_run ops sm_empty) = Some (None, [], 0%nat)
  /\ option_map (fun r => sm_dump (fst r)) (sm_run [PIns [1; 2]; PIns [1; 3]; PDel [1; 2]; PIns [7]] sm_empty)
     = Some (Some 0%nat, [(0%nat, (0, [(1, 1%nat); (7, 2%nat)])); (1%nat, (0, [(3, 3%nat)]));
                          (2%nat, (1, [])); (3%nat, (1, []))], 4%nat).
Proof. vm_compute. repeat split. Qed.
Print Assumptions slab_history_nonvacuous.

From CB Require Import Gen.HostCosts.
From CB Require Import Trie.InstLimits.
From CB Require Import Trie.InstLimitsProofs.

(** ** Handle encodings and counters with machine arithmetic *)
Theorem handle_decode_encode : forall gen idx,
  gen < P32 -> idx < P32 -> h_split (h_enc gen idx) = (gen, idx).
Proof. exact h_split_enc. Qed.
Print Assumptions handle_decode_encode.

Theorem handle_encode_injective : forall g1 i1 g2 i2,
  g1 < P32 -> i1 < P32 -> g2 < P32 -> i2 < P32 -> h_enc g1 i1 = h_enc g2 i2 -> g1 = g2 /\ i1 = i2.
Proof. exact h_enc_injective. Qed.
Print Assumptions handle_encode_injective.

Theorem handle_never_a_sentinel : forall gen idx,
  gen < P32 -> idx < P32 - 1 -> h_enc gen idx <> H_NONE /\ h_enc gen idx <> H_ERR.
Proof. exact h_enc_ne_sentinels. Qed.
Print Assumptions handle_never_a_sentinel.

(** for every history of id allocations and interrupts, in both build flavours: below the limits the ids
    of the current generation are pairwise distinct, decode to (generation, position), are no sentinel *)
Theorem ids_unique_within_generation : forall checked ops c,
  c_run checked ops ctr0 = Some c ->
  (c_ents c <= P32 -> NoDup (c_eids c)) /\ (c_its c <= P32 -> NoDup (c_iids c))
  /\ (c_ents c <= P32 -> forall h, In h (c_eids c) ->
        exists i, i < c_ents c /\ h = h_enc (c_gen c) i /\ h_split h = (c_gen c, i))
  /\ (c_ents c <= P32 - 1 -> forall h, In h (c_eids c) -> h <> H_NONE /\ h <> H_ERR).
Proof. exact ids_unique_below_limit. Qed.
Print Assumptions ids_unique_within_generation.

(** what happens AT the boundaries (there is no check in the code): *)
Theorem handle_index_overflow_refuted : forall gen j,
  j < P32 ->
  h_enc gen (P32 + j) = h_enc (N.lor gen 1) j
  /\ (N.odd gen = true -> h_enc gen (P32 + j) = h_enc gen j)
  /\ (N.even gen = true -> h_enc gen (P32 + j) = h_enc (gen + 1) j).
Proof.
  exact (fun gen j H => conj (h_enc_index_overflow gen j H)
                             (conj (h_enc_index_overflow_odd gen j H) (h_enc_index_overflow_even gen j H))).
Qed.
Print Assumptions handle_index_overflow_refuted.

Theorem sentinel_collision_generations :
  h_enc 4294967295 4294967295 = H_NONE /\ h_enc 3221225471 4294967295 = H_ERR.
Proof. exact sentinel_collisions. Qed.
Print Assumptions sentinel_collision_generations.

Theorem generation_counter_overflow : forall c,
  c_gen c = U32MAXv ->
  c_step true (KMigrate true) c = None
  /\ forall idx, idx < P32 ->
       exists c', c_step false (KMigrate true) c = Some (c', None) /\ c_gen c' = c_gen ctr0
                  /\ h_split (h_enc (c_gen ctr0) idx) = (c_gen c', idx).
Proof.
  exact (fun c E => conj (gen_checked_panics c E) (fun idx H => gen_wrap_revives_handle c idx E H)).
Qed.
Print Assumptions generation_counter_overflow.

(** refusal at the size limits: nothing but the [changed] flag / nothing at all changes *)
Theorem size_limits_refuse : forall changed key_len vlen n,
  (MAX_KEY_SIZE < key_len -> create_entry_guard changed key_len = (true, false))
  /\ (MAX_ENTRY_SIZE < n -> resize_len vlen n = (0, vlen))
  /\ (vlen <= MAX_ENTRY_SIZE -> snd (resize_len vlen n) <= MAX_ENTRY_SIZE).
Proof.
  exact (fun changed key_len vlen n =>
           conj (create_guard_refuses changed key_len) (conj (resize_refused vlen n) (resize_bounded vlen n))).
Qed.
Print Assumptions size_limits_refuse.

Theorem entry_write_bounded : forall vlen off len w v',
  vlen <= MAX_ENTRY_SIZE -> write_len vlen off len = Some (w, v') ->
  v' <= MAX_ENTRY_SIZE /\ w <= len /\ vlen <= v' /\ (off <= vlen -> off + w <= v').
Proof. exact write_bounded. Qed.
Print Assumptions entry_write_bounded.

Example limits_nonvacuous :
  h_split (h_enc 7 4294967295) = (7, 4294967295)
  /\ option_map c_eids (c_run true [KEntry; KIter; KEntry; KMigrate false; KEntry] ctr0)
     = Some [h_enc 0 2; h_enc 0 1; h_enc 0 0]
  /\ option_map c_eids (c_run true [KEntry; KMigrate true; KEntry] ctr0) = Some [h_enc 1 0]
  /\ h_enc 5 (P32 + 3) = h_enc 5 3 /\ h_enc 4 (P32 + 3) = h_enc 5 3
  /\ resize_len 10 1073741825 = (0, 10) /\ resize_len 10 1073741824 = (1, 1073741824)
  /\ write_len 1073741824 1073741820 100 = Some (4, 1073741824).
Proof. vm_compute. repeat split. Qed.
Print Assumptions limits_nonvacuous.

From CB Require Import Contract.HostBase Contract.HostV0 Contract.HostV1.
From CB Require Import Trie.InstEnergy.
From CB Require Import Trie.InstEnergyProofs.

(** ** Energy of the refused paths (host-function model of C14, cost tables generated from constants.rs) *)
Theorem create_entry_locked_charges_exactly : forall ks kl (s : st H1) key,
  ks + kl < W64 -> create_entry_cost kl <= energy s -> ks + kl <= m_len (mem s) ->
  mem_slice (mem s) ks (ks + kl) = Some key -> lenN key <= MAX_KEY_SIZE ->
  locked_key (HostV1.is_locks (the_is s)) key = true ->
  exists s', run_lop LCreate ks kl s = (s', Ok (Some (refused_result LCreate)))
             /\ energy s' = energy s - refused_charge LCreate kl /\ mem s' = mem s
             /\ the_is s' = is_set_changed (the_is s).
Proof. exact create_entry_locked_charge. Qed.
Print Assumptions create_entry_locked_charges_exactly.

Theorem delete_entry_locked_charges_exactly : forall ks kl (s : st H1) key,
  ks + kl < W64 -> delete_entry_cost kl <= energy s -> ks + kl <= m_len (mem s) ->
  mem_slice (mem s) ks (ks + kl) = Some key ->
  any_live (HostV1.is_entries (the_is s)) = true ->
  locked_key (HostV1.is_locks (the_is s)) key = true ->
  exists s', run_lop LDelete ks kl s = (s', Ok (Some (refused_result LDelete)))
             /\ energy s' = energy s - refused_charge LDelete kl /\ mem s' = mem s
             /\ the_is s' = is_set_changed (the_is s).
Proof. exact delete_entry_locked_charge. Qed.
Print Assumptions delete_entry_locked_charges_exactly.

Theorem delete_prefix_locked_charges_exactly : forall ks kl (s : st H1) key,
  ks + kl < W64 -> delete_prefix_find_cost kl <= energy s -> ks + kl <= m_len (mem s) ->
  mem_slice (mem s) ks (ks + kl) = Some key ->
  any_live (HostV1.is_entries (the_is s)) = true ->
  locked_prefix (HostV1.is_locks (the_is s)) key = true ->
  exists s', run_lop LDeletePrefix ks kl s = (s', Ok (Some (refused_result LDeletePrefix)))
             /\ energy s' = energy s - refused_charge LDeletePrefix kl /\ mem s' = mem s
             /\ the_is s' = is_set_changed (the_is s)
             /\ x_lower (h_ext (hs s')) = x_lower (h_ext (hs s)).
Proof. exact delete_prefix_locked_charge. Qed.
Print Assumptions delete_prefix_locked_charges_exactly.

Theorem iterate_too_many_charges_exactly : forall ks kl (s : st H1) key,
  ks + kl < W64 -> new_iterator_cost kl <= energy s -> ks + kl <= m_len (mem s) ->
  mem_slice (mem s) ks (ks + kl) = Some key ->
  live_with_prefix key (HostV1.is_entries (the_is s)) 0 <> [] ->
  lock_add key (HostV1.is_locks (the_is s)) = None ->
  exists s', run_lop LIterate ks kl s = (s', Ok (Some (refused_result LIterate)))
             /\ energy s' = energy s - refused_charge LIterate kl /\ mem s' = mem s /\ the_is s' = the_is s.
Proof. exact iterate_too_many_charge. Qed.
Print Assumptions iterate_too_many_charges_exactly.

Theorem refused_ops_charge_before_work : forall o ks kl (s : st H1),
  ks + kl < W64 -> energy s < refused_charge o kl -> ks + kl <= m_len (mem s) ->
  exists s', run_lop o ks kl s = (s', OutOfEnergy) /\ hs s' = hs s /\ mem s' = mem s.
Proof. exact refused_ops_charge_first. Qed.
Print Assumptions refused_ops_charge_before_work.

Theorem iterator_next_invalid_charges_exactly : forall it (s : st H1),
  ITERATOR_NEXT_COST <= energy s ->
  (forall idx i, handle_iter (the_is s) it <> Some (idx, Some i)) ->
  exists s', state_iterator_next it s = (s', Ok (Some NEW_ERR))
             /\ energy s' = energy s - ITERATOR_NEXT_COST /\ mem s' = mem s /\ hs s' = hs s.
Proof. exact iterator_next_invalid_charge. Qed.
Print Assumptions iterator_next_invalid_charges_exactly.

Theorem iterator_delete_charges_exactly : forall it (s : st H1),
  DELETE_ITERATOR_BASE_COST <= energy s ->
  match handle_iter (the_is s) it with
  | Some (idx, Some i) =>
      DELETE_ITERATOR_BASE_COST + delete_iterator_cost (u32 (lenN (iter_key i))) <= energy s ->
      exists s', state_iterator_delete it s = (s', Ok (Some 1))
                 /\ energy s' = energy s - (DELETE_ITERATOR_BASE_COST + delete_iterator_cost (u32 (lenN (iter_key i))))
                 /\ HostV1.is_locks (the_is s') = remove_one (it_root i) (HostV1.is_locks (the_is s))
  | Some (_, None) =>
      exists s', state_iterator_delete it s = (s', Ok (Some 0))
                 /\ energy s' = energy s - DELETE_ITERATOR_BASE_COST /\ hs s' = hs s
  | None =>
      exists s', state_iterator_delete it s = (s', Ok (Some U32MAX))
                 /\ energy s' = energy s - DELETE_ITERATOR_BASE_COST /\ hs s' = hs s
  end.
Proof. exact iterator_delete_charge. Qed.
Print Assumptions iterator_delete_charges_exactly.

(** non-vacuity: a concrete host state (one entry [1;2], key bytes at address 1024) with a live iterator
    on [1] (resp. a lock count of u32::MAX on [1]) on which the hypotheses hold and the charges are exact *)
From CB Require Import Contract.HostRun.
Definition c15_demo0 : st H1 :=
  init_st (mkScript true false 4 1 [] [] true [] [([1; 2], [9])] [(1024, [1; 2])] [] 0 [] []) 1000000.
Definition c15_demo : st H1 := fst (state_iterator 1024 1 c15_demo0).
Definition c15_demo_max : st H1 :=
  fst (set_is (mkIS 0 (HostV1.is_entries (the_is c15_demo0)) [] [] [([1], 4294967295)] false) c15_demo0).

Example refused_charges_nonvacuous :
  snd (state_iterator 1024 1 c15_demo0) = Ok (Some (handle 0 0))
  /\ 1024 + 2 < W64 /\ create_entry_cost 2 <= energy c15_demo /\ 1024 + 2 <= m_len (mem c15_demo)
  /\ mem_slice (mem c15_demo) 1024 (1024 + 2) = Some [1; 2]
  /\ locked_key (HostV1.is_locks (the_is c15_demo)) [1; 2] = true
  /\ locked_prefix (HostV1.is_locks (the_is c15_demo)) [1; 2] = true
  /\ any_live (HostV1.is_entries (the_is c15_demo)) = true
  /\ snd (run_lop LCreate 1024 2 c15_demo) = Ok (Some U64MAX)
  /\ energy (fst (run_lop LCreate 1024 2 c15_demo)) = energy c15_demo - create_entry_cost 2
  /\ snd (run_lop LDelete 1024 2 c15_demo) = Ok (Some 0)
  /\ energy (fst (run_lop LDelete 1024 2 c15_demo)) = energy c15_demo - delete_entry_cost 2
  /\ snd (run_lop LDeletePrefix 1024 2 c15_demo) = Ok (Some 0)
  /\ energy (fst (run_lop LDeletePrefix 1024 2 c15_demo)) = energy c15_demo - delete_prefix_find_cost 2
  /\ live_with_prefix [1] (HostV1.is_entries (the_is c15_demo_max)) 0 <> []
  /\ lock_add [1] (HostV1.is_locks (the_is c15_demo_max)) = None
  /\ snd (run_lop LIterate 1024 1 c15_demo_max) = Ok (Some NEW_ERR)
  /\ energy (fst (run_lop LIterate 1024 1 c15_demo_max)) = energy c15_demo_max - new_iterator_cost 1
  /\ snd (state_iterator_next (handle 1 0) c15_demo) = Ok (Some NEW_ERR)
  /\ energy (fst (state_iterator_next (handle 1 0) c15_demo)) = energy c15_demo - ITERATOR_NEXT_COST
  /\ snd (state_iterator_delete (handle 0 0) c15_demo) = Ok (Some 1)
  /\ energy (fst (state_iterator_delete (handle 0 0) c15_demo))
     = energy c15_demo - (DELETE_ITERATOR_BASE_COST + delete_iterator_cost 1)
  /\ snd (run_lop LCreate 1024 2 (mkSt 10 (mem c15_demo) [] (hs c15_demo))) = OutOfEnergy.
Proof. vm_compute. repeat split; discriminate. Qed.
Print Assumptions refused_charges_nonvacuous.
