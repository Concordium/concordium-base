(** C03 - contract state behaves as an ordered map under every operation history.
    Property theorems only, each followed by [Print Assumptions]: closed by [exact] or put
    together here from the lemmas of the imported files; the examples are evaluated.

    Levels.  A = sorted association list [amap] (Radix.v) and the specification machine
    [s_step] (Locks.v); B = the functional radix tree (Radix.v) and the model machine
    [m_step] (Locks.v).  The theorems relate B to A for all keys, values and histories.
    C = the copy-on-write arena of the implementation (Arena.v, Arena*.v): its generation
    bookkeeping, ownership and tree-shape invariants, and the refinement of B by lookup,
    insert, [new_generation] and rollback are the second half of this file; delete and
    delete_prefix of the arena are tied to B only by the differential correspondence of the
    check (see design/C03.md). *)
From Coq Require Import NArith List Bool Sorted.
From CB Require Import Trie.Radix.
From CB Require Import Trie.RadixProofs.
From CB Require Import Trie.Locks.
From CB Require Import Trie.LocksProofs.
From CB Require Import Trie.Nibbles.
From CB Require Import Trie.NibblesProofs.
From CB Require Import Trie.Arena.
From CB Require Import Trie.ArenaProofs.
From CB Require Import Trie.ArenaCow.
From CB Require Import Trie.ArenaTree.
From CB Require Import Trie.ArenaView.
From CB Require Import Trie.ArenaEnt.
From CB Require Import Trie.ArenaSep.
From CB Require Import Trie.ArenaInsert.
From CB Require Import Trie.ArenaHist.
From CB Require Import Trie.ArenaSet.
From CB Require Import Trie.ArenaNewGen.
Import ListNotations.
Local Open Scope N_scope.

(** ** Each operation of the radix tree is the operation of the ordered map *)

Theorem lookup_insert_spec : forall (V : Type) (t : tree V) k v k',
  wfb t = true ->
  lookup k' (insert k v t) = if list_eqb k k' then Some v else lookup k' t.
Proof. exact (@lookup_insert). Qed.
Print Assumptions lookup_insert_spec.

Theorem lookup_delete_spec : forall (V : Type) (t : tree V) k k',
  wfb t = true ->
  lookup_root k' (delete k t) = if list_eqb k k' then None else lookup k' t.
Proof. exact (@lookup_delete). Qed.
Print Assumptions lookup_delete_spec.

Theorem lookup_delete_prefix_spec : forall (V : Type) (t : tree V) p k',
  wfb t = true ->
  lookup_root k' (delete_prefix p t) = if is_prefix p k' then None else lookup k' t.
Proof. exact (@lookup_delete_prefix). Qed.
Print Assumptions lookup_delete_prefix_spec.

(** ... and on the denoted sorted association list ([to_list] = in-order traversal). *)
Theorem lookup_spec : forall (V : Type) (t : tree V) k,
  wfb t = true -> a_lookup k (to_list t) = lookup k t.
Proof. exact (@a_lookup_to_list). Qed.
Print Assumptions lookup_spec.

Theorem insert_spec : forall (V : Type) (r : option (tree V)) k v,
  wfb_root r = true -> to_list (insert_root k v r) = a_insert k v (to_list_root r).
Proof. exact (@to_list_insert_root). Qed.
Print Assumptions insert_spec.

Theorem delete_spec : forall (V : Type) (t : tree V) k,
  wfb t = true -> to_list_root (delete k t) = a_delete k (to_list t).
Proof. exact (@to_list_delete). Qed.
Print Assumptions delete_spec.

Theorem delete_prefix_spec : forall (V : Type) (t : tree V) p,
  wfb t = true -> to_list_root (delete_prefix p t) = a_delete_prefix p (to_list t).
Proof. exact (@to_list_delete_prefix). Qed.
Print Assumptions delete_prefix_spec.

(** Iteration yields exactly the entries under the prefix, in strictly ascending
    lexicographic order. *)
Theorem iterate_spec : forall (V : Type) (t : tree V) p,
  wfb t = true ->
  StronglySorted (fun a b => lex_ltb a b = true) (map fst (iterate p t))
  /\ forall k v, In (k, v) (iterate p t) <-> (is_prefix p k = true /\ lookup k t = Some v).
Proof. exact (@iterate_sorted_exact). Qed.
Print Assumptions iterate_spec.

(** The denoted list is strictly sorted, and a strictly sorted list is determined by its
    lookup function (so the tree denotes exactly one ordered map). *)
Theorem to_list_sorted : forall (V : Type) (t : tree V),
  wfb t = true -> StronglySorted (fun a b => lex_ltb (fst a) (fst b) = true) (to_list t).
Proof. exact (@ksorted_to_list). Qed.
Print Assumptions to_list_sorted.

Theorem sorted_map_canonical : forall (V : Type) (l1 l2 : amap V),
  StronglySorted (fun a b => lex_ltb (fst a) (fst b) = true) l1 ->
  StronglySorted (fun a b => lex_ltb (fst a) (fst b) = true) l2 ->
  (forall k, a_lookup k l1 = a_lookup k l2) -> l1 = l2.
Proof. exact (@ksorted_ext). Qed.
Print Assumptions sorted_map_canonical.

(** ** Well-formedness (children strictly sorted, no value-less node with fewer than
    two children) is preserved by every operation *)
Theorem wf_preserved : forall (V : Type),
  (forall (r : option (tree V)) k v, wfb_root r = true -> wfb (insert_root k v r) = true)
  /\ (forall (t : tree V) k, wfb t = true -> wfb_root (delete k t) = true)
  /\ (forall (t : tree V) p, wfb t = true -> wfb_root (delete_prefix p t) = true).
Proof.
  exact (fun V => conj (@wfb_insert_root V) (conj (@wfb_delete V) (@wfb_delete_prefix V))).
Qed.
Print Assumptions wf_preserved.

(** ** Byte strings and nibble strings: [nib] is an embedding for equality, prefix and
    lexicographic order, so statements about nibble keys are statements about byte keys *)
Theorem nib_embedding : forall a b,
  list_eqb (nib a) (nib b) = list_eqb a b
  /\ is_prefix (nib a) (nib b) = is_prefix a b
  /\ lex_ltb (nib a) (nib b) = lex_ltb a b
  /\ unnib (nib a) = a.
Proof. exact (fun a b => conj (nib_eqb a b) (conj (nib_prefix a b) (conj (nib_lex a b) (unnib_nib a)))). Qed.
Print Assumptions nib_embedding.

(** ** Histories: for every list of operations (insert / get / read / set / get_mut /
    delete / delete_prefix / iter / next / delete_iter / new_generation / normalize /
    freeze / thaw, arbitrary keys and values) the outputs of the model machine are the
    outputs of the ordered-map specification machine *)
Theorem history_refines : forall ops : list op, m_run ops m_init = s_run ops s_init.
Proof. exact history_refines_all. Qed.
Print Assumptions history_refines.

(** ... and the invariants (well-formed tree, well-formed lock map) hold in every
    generation after every history. *)
Theorem wf_every_history : forall ops : list op, m_wf (m_exec ops m_init) = true.
Proof. exact wf_preserved_all. Qed.
Print Assumptions wf_every_history.

(** ** Generations.  After [new_generation], any operations that do not roll back below
    the checkpoint ([keeps]) leave the older generations literally unchanged
    ([no_leak]), and rolling back restores exactly the state at the checkpoint,
    including its handles, iterators and locks ([rollback_restores]).  Stated for the
    model and for the specification. *)
Theorem no_leak : forall ops (base : state),
  base <> [] -> Forall (keeps (length base)) ops ->
  exists newer, newer <> [] /\ m_exec (ONewGen :: ops) base = newer ++ base.
Proof. exact m_no_leak. Qed.
Print Assumptions no_leak.

Theorem rollback_restores : forall ops (base : state),
  base <> [] -> Forall (keeps (length base)) ops ->
  m_exec (ONewGen :: ops ++ [ONormalize (length base - 1)]) base = base.
Proof. exact m_rollback_restores. Qed.
Print Assumptions rollback_restores.

Theorem spec_no_leak : forall ops (base : sstate),
  base <> [] -> Forall (keeps (length base)) ops ->
  exists newer, newer <> [] /\ s_exec (ONewGen :: ops) base = newer ++ base.
Proof. exact s_no_leak. Qed.
Print Assumptions spec_no_leak.

Theorem spec_rollback_restores : forall ops (base : sstate),
  base <> [] -> Forall (keeps (length base)) ops ->
  s_exec (ONewGen :: ops ++ [ONormalize (length base - 1)]) base = base.
Proof. exact s_rollback_restores. Qed.
Print Assumptions spec_rollback_restores.

(** ** The nibble paths as the code stores them (Nibbles.v: byte vector + [last_partial],
    transcribed with the [u8] operations of the code).  Each function is the obvious
    operation on the list of nibbles - including odd nibble boundaries - and keeps the
    stored form well-formed ([st_wf]: bytes are bytes, the unused low nibble of a partial
    last byte is zero). *)
Theorem stem_push_spec : forall s c,
  st_wf s = true -> c < 16 ->
  nibbles (ms_push s c) = nibbles s ++ [c] /\ st_wf (ms_push s c) = true.
Proof. exact ms_push_spec. Qed.
Print Assumptions stem_push_spec.

Theorem stem_truncate_spec : forall s n,
  st_wf s = true -> (n <= st_len s)%nat ->
  nibbles (ms_truncate s n) = firstn n (nibbles s) /\ st_wf (ms_truncate s n) = true.
Proof. exact ms_truncate_spec. Qed.
Print Assumptions stem_truncate_spec.

Theorem stem_extend_spec : forall s t,
  st_wf s = true -> st_wf t = true ->
  nibbles (ms_extend s t) = nibbles s ++ nibbles t /\ st_wf (ms_extend s t) = true.
Proof. exact ms_extend_spec. Qed.
Print Assumptions stem_extend_spec.

Theorem stem_prepend_parts_spec : forall self first mid,
  st_wf self = true -> st_wf first = true -> mid < 16 ->
  nibbles (prepend_parts self first mid) = nibbles first ++ mid :: nibbles self
  /\ st_wf (prepend_parts self first mid) = true.
Proof. exact prepend_parts_spec. Qed.
Print Assumptions stem_prepend_parts_spec.

Theorem stem_iter_next_spec : forall s pos,
  st_wf s = true ->
  it_next (it_of s pos) =
  if Nat.ltb pos (st_len s) then (Some (nth pos (nibbles s) 0), it_of s (S pos)) else (None, it_of s pos).
Proof. exact it_next_spec. Qed.
Print Assumptions stem_iter_next_spec.

Theorem stem_last_to_stem_spec : forall s pos p,
  st_wf s = true -> (p <= st_len s)%nat ->
  nibbles (last_to_stem (it_of s pos) p) = skipn p (nibbles s)
  /\ st_wf (last_to_stem (it_of s pos) p) = true.
Proof. exact last_to_stem_spec. Qed.
Print Assumptions stem_last_to_stem_spec.

Theorem stem_consumed_to_stem_spec : forall s pos,
  st_wf s = true -> (pos <= st_len s)%nat ->
  nibbles (consumed_to_stem (it_of s pos)) = firstn (pos - 1) (nibbles s)
  /\ st_wf (consumed_to_stem (it_of s pos)) = true.
Proof. exact consumed_to_stem_spec. Qed.
Print Assumptions stem_consumed_to_stem_spec.

(** [follow_stem] on the iterators of the code classifies exactly like [follow_stem] on
    the nibble lists (the function the radix-tree model uses), and the stems the callers
    rebuild from the two iterators denote the remaining key, the remaining stem, the
    common part and the key from the checkpoint. *)
Theorem follow_stem_on_iterators : forall key kpos st,
  Forall (fun b => b < 256) key -> st_wf st = true -> (kpos <= 2 * length key)%nat ->
  let K := skipn kpos (nib key) in
  let P := nibbles st in
  let '(r, k', s') := follow_iter (it_of (mkStem key false) kpos) (stem_iter st) in
  nibbles (last_to_stem k' kpos) = K /\
  match follow_stem K P with
  | FEqual => r = IEqual
  | FKeyIsPrefix c ps => r = IKeyIsPrefix c /\ nibbles (to_stem s') = ps
  | FStemIsPrefix c kr => r = IStemIsPrefix c /\ nibbles (to_stem k') = kr
  | FDiff cm kc kr sc sr =>
      r = IDiff kc sc /\ nibbles (consumed_to_stem s') = cm
      /\ nibbles (to_stem k') = kr /\ nibbles (to_stem s') = sr
  end.
Proof. exact follow_iter_correct. Qed.
Print Assumptions follow_stem_on_iterators.

Example stem_odd_boundaries :
  let s := stem_of_nibbles [1; 2; 3] in            (* stored 0x12 0x30, partial *)
  let t := stem_of_nibbles [4; 5; 6] in
  st_wf s = true /\ st_wf t = true
  /\ ms_extend s t = mkStem [18; 52; 86] false     (* 0x12 0x34 0x56 *)
  /\ prepend_parts t s 15 = mkStem [18; 63; 69; 96] true   (* 1 2 3 f 4 5 6 *)
  /\ ms_truncate (ms_extend s t) 3 = s
  /\ fst (fst (follow_iter (iter_new [18; 63]) (stem_iter (ms_extend s t)))) = IDiff 15 4.
Proof. vm_compute. repeat split. Qed.
Print Assumptions stem_odd_boundaries.

(** ** The arena (level C: Arena.v).  The generation bookkeeping of the
    vectors: [new_generation] only appends and records the lengths as checkpoint;
    [make_owned] only appends and touches no node below a bound under the node it is
    applied to; rolling back to the generation a checkpoint was taken from restores the
    arena exactly, and so does rolling back after anything that left the vectors below the
    checkpoint alone. *)
Theorem arena_new_generation_appends : forall a,
  a_gens a <> [] ->
  let a' := a_new_generation a in
  exists g, a_gens a' = a_gens a ++ [g]
    /\ ag_nodes g = length (a_nodes a) /\ ag_values g = length (a_values a) /\ ag_entries g = length (a_entries a)
    /\ firstn (length (a_nodes a)) (a_nodes a') = a_nodes a
    /\ firstn (length (a_entries a)) (a_entries a') = a_entries a
    /\ a_values a' = a_values a.
Proof. exact new_generation_appends. Qed.
Print Assumptions arena_new_generation_appends.

Theorem arena_make_owned_copy_on_write : forall a idx cp,
  (cp <= idx)%nat -> (cp <= length (a_nodes a))%nat ->
  let a' := make_owned a idx in
  a_gens a' = a_gens a /\ a_values a' = a_values a
  /\ (exists es, a_entries a' = a_entries a ++ es)
  /\ firstn cp (a_nodes a') = firstn cp (a_nodes a)
  /\ (length (a_nodes a) <= length (a_nodes a'))%nat.
Proof. exact make_owned_shape. Qed.
Print Assumptions arena_make_owned_copy_on_write.

Theorem arena_normalize_undoes_new_generation : forall a,
  a_gens a <> [] -> a_normalize (length (a_gens a) - 1) (a_new_generation a) = a.
Proof. exact normalize_undoes_new_generation. Qed.
Print Assumptions arena_normalize_undoes_new_generation.

Theorem arena_normalize_restores_prefix : forall a b g newer,
  a_gens b = a_gens a ++ g :: newer -> a_gens a <> [] ->
  ag_nodes g = length (a_nodes a) -> ag_values g = length (a_values a) -> ag_entries g = length (a_entries a) ->
  firstn (length (a_nodes a)) (a_nodes b) = a_nodes a ->
  firstn (length (a_entries a)) (a_entries b) = a_entries a ->
  firstn (length (a_values a)) (a_values b) = a_values a ->
  a_normalize (length (a_gens a) - 1) b = a.
Proof. exact normalize_restores_prefix. Qed.
Print Assumptions arena_normalize_restores_prefix.

Example arena_copy_on_write_example :
  (* generation 0: keys 0x12, 0x13; generation 1 overwrites 0x12 and deletes 0x13; rollback *)
  let run := fix run ops s := match ops with [] => s | o :: r => run r (fst (as_step o s)) end in
  let s0 := run [OInsert [18] [1]; OInsert [19] [2]] as_init in
  let s1 := run [ONewGen; OInsert [18] [9]; ODelete [19]; OGet [18]] s0 in
  sizes (as_arena s0) = [3; 2; 2; 1]%nat
  /\ sizes (as_arena s1) = [6; 4; 3; 2]%nat
  /\ as_arena (fst (as_step (ONormalize 0) s1)) = as_arena s0.
Proof. vm_compute. repeat split. Qed.
Print Assumptions arena_copy_on_write_example.

(** ** Copy-on-write at arena level, proved (ArenaCow.v).  [SInv] is the ownership
    invariant of the arena machine: what lies above the checkpoint of the current
    generation belongs to it - children vectors tagged with the node's own generation
    only point above the checkpoint, shared ones are copied by [make_owned] before a walk
    descends, entries of such nodes and the values of their [Mutable] entries lie above
    the checkpoint, and so do the handles of the generation.
    [TInv] (ArenaTree.v) is the tree-shape invariant: counting the root pointer and the
    children vectors of the nodes above the checkpoint that are tagged with the node's own
    generation, every node index is referenced at most once; whatever is referenced lies
    inside the node vector and carries the number of the current generation; shared
    children vectors and the nodes below the checkpoint only point below the checkpoint.
    Nodes emptied by [mem::take] (the default node left behind by a collapse) are never
    referenced.  That the generation tag of the root equals the number of the current
    generation (which [new_generation] relies on) is a consequence. *)

(** Every operation other than [new_generation] / [normalize] - insert, lookup (which
    copies on the way down), read, set, get_mut, delete with its collapses, delete_prefix
    with its invalidation walk - leaves every node, value and entry below the checkpoint of
    the current generation, and all older generations, unchanged, and preserves the
    invariant. *)
Theorem arena_cow_below_checkpoint : forall o s,
  SInv s -> gen_op o = false ->
  Below (as_arena s) (as_arena (fst (as_step o s))) /\ SInv (fst (as_step o s)).
Proof.
  exact (fun o s HS Hg => match as_step_cow o s HS Hg with
                          | conj (conj _ (conj B _)) (conj S' _) => conj B S' end).
Qed.
Print Assumptions arena_cow_below_checkpoint.

Theorem arena_new_generation_invariant : forall a,
  AInv a -> a_gens a <> [] -> tag_ok a = true -> AInv (a_new_generation a).
Proof. exact new_generation_inv. Qed.
Print Assumptions arena_new_generation_invariant.

(** The tree-shape invariant is preserved by every operation other than [new_generation] /
    [normalize] ... *)
Theorem arena_tree_invariant_step : forall o s,
  SInv s -> TInv (as_arena s) -> gen_op o = false -> TInv (as_arena (fst (as_step o s))).
Proof. exact as_step_t. Qed.
Print Assumptions arena_tree_invariant_step.

(** ... it implies that the root carries the number of the current generation ... *)
Theorem arena_tree_invariant_tag : forall a, TInv a -> root_tag_ok a = true.
Proof. exact tinv_tag_ok. Qed.
Print Assumptions arena_tree_invariant_tag.

(** ... and [new_generation] establishes it for the new generation (no side condition). *)
Theorem arena_new_generation_tree_invariant : forall a,
  AInv a -> TInv a -> a_gens a <> [] -> TInv (a_new_generation a).
Proof. exact new_generation_t. Qed.
Print Assumptions arena_new_generation_tree_invariant.

(** Every state reached by any history from the initial state satisfies the ownership
    invariant, the tree-shape invariant, and has a stack of saved states (one per older
    generation) satisfying the same. *)
Theorem arena_reachable_invariant : forall ops, Reach (as_run ops as_init).
Proof. exact (fun ops => Reach_run ops as_init Reach_init). Qed.
Print Assumptions arena_reachable_invariant.

(** The assertion of the extracted runner ([!TAG]) is a lemma: in every reachable state the
    generation tag of the root is the number of the current generation; hence the checked
    run [as_exec] of ArenaCow.v is the plain run. *)
Theorem arena_root_tag_reachable : forall ops, root_tag_ok (as_arena (as_run ops as_init)) = true.
Proof. exact reachable_tag_ok. Qed.
Print Assumptions arena_root_tag_reachable.

Theorem arena_checked_run_is_run : forall pre ops,
  as_exec ops (as_run pre as_init) = Some (as_run ops (as_run pre as_init)).
Proof. exact (fun pre ops => as_exec_run ops _ (Reach_run pre as_init Reach_init)). Qed.
Print Assumptions arena_checked_run_is_run.

(** No leak: in every reachable state, after a checkpoint and any operations that do not
    roll back below it (including nested checkpoints and rollbacks), the node, value,
    entry and generation vectors of the state at the checkpoint are still a prefix of the
    current ones. *)
Theorem arena_no_leak : forall pre ops,
  let s := as_run pre as_init in
  let c := as_run (ONewGen :: ops) s in
  Forall (keeps (length (a_gens (as_arena s)))) ops ->
  firstn (length (a_nodes (as_arena s))) (a_nodes (as_arena c)) = a_nodes (as_arena s)
  /\ firstn (length (a_values (as_arena s))) (a_values (as_arena c)) = a_values (as_arena s)
  /\ firstn (length (a_entries (as_arena s))) (a_entries (as_arena c)) = a_entries (as_arena s)
  /\ firstn (length (a_gens (as_arena s))) (a_gens (as_arena c)) = a_gens (as_arena s).
Proof. exact arena_no_leak_run. Qed.
Print Assumptions arena_no_leak.

(** Rollback restores: ... and rolling back to the checkpoint gives back exactly the arena
    (all four vectors) and the handle tables of the state at the checkpoint. *)
Theorem arena_rollback_restores : forall pre ops,
  let s := as_run pre as_init in
  Forall (keeps (length (a_gens (as_arena s)))) ops ->
  as_run (ONewGen :: ops ++ [ONormalize (length (a_gens (as_arena s)) - 1)]) s = s.
Proof. exact arena_rollback_run. Qed.
Print Assumptions arena_rollback_restores.

Example arena_rollback_nonvacuous :
  let pre := [OInsert [18] [1]; OInsert [19] [2]; ONewGen; OInsert [20] []] in
  let ops := [OInsert [18] [9]; ODelete [19]; ONewGen; ODeletePrefix []; ONormalize 2; OGet [18]] in
  let s := as_run pre as_init in
  Forall (keeps (length (a_gens (as_arena s)))) ops
  /\ sizes (as_arena s) = [7; 5; 3; 2]%nat
  /\ sizes (as_arena (as_run (ONewGen :: ops) s)) = [11; 8; 4; 3]%nat
  /\ as_run (ONewGen :: ops ++ [ONormalize (length (a_gens (as_arena s)) - 1)]) s = s.
Proof. split; [repeat constructor | vm_compute; repeat split]. Qed.
Print Assumptions arena_rollback_nonvacuous.

(** ** Abstraction function and lookup.
    [abs_t d a idx] unfolds the arena below node [idx] into a radix tree of entry indices (to
    depth [d]); [vview] resolves the entries to their values.  [EInv]: the entries referenced
    by nodes exist (an assumption of the first two theorems; it holds in every reachable
    state, [arena_reachable_entries_exist], so the third theorem has no assumption).
    Insert is in the next section; delete / delete_prefix are not covered. *)

(** [make_owned] - the copying of a shared children vector, which renumbers nodes and
    entries - changes neither the view of any existing node nor the value of any existing
    entry. *)
Theorem arena_make_owned_keeps_view_partial : forall a idx,
  AInv a -> TInv a -> EInv a -> (cpn a <= idx)%nat -> (idx < length (a_nodes a))%nat ->
  (forall d j, (j < length (a_nodes a))%nat -> vview d (make_owned a idx) j = vview d a j)
  /\ (forall e, (e < length (a_entries a))%nat -> a_with_entry (make_owned a idx) e = a_with_entry a e)
  /\ EInv (make_owned a idx).
Proof. exact make_owned_view. Qed.
Print Assumptions arena_make_owned_keeps_view_partial.

(** The copying lookup of the arena returns exactly what [Radix.lookup] finds in the radix
    tree assigned to the root by the abstraction function, and leaves all views and entry
    values as they were. *)
Theorem arena_lookup_refines_radix_partial : forall a key r,
  AInv a -> TInv a -> EInv a -> cur_root a = Some r ->
  let res := a_lookup_key a key in
  option_map (a_with_entry (fst res)) (snd res) = lookup (nib key) (vview (S (length (nib key))) a r)
  /\ (forall d j, (j < length (a_nodes a))%nat -> vview d (fst res) j = vview d a j)
  /\ (forall e, (e < length (a_entries a))%nat -> a_with_entry (fst res) e = a_with_entry a e)
  /\ EInv (fst res).
Proof. exact ArenaView.arena_lookup_refines_radix_partial. Qed.
Print Assumptions arena_lookup_refines_radix_partial.

(** Every reachable state satisfies the ownership invariant, the tree-shape invariant and
    [EInv] (and so do the saved states of its older generations). *)
Theorem arena_reachable_entries_exist : forall ops, ReachE (as_run ops as_init).
Proof. exact (fun ops => ReachE_run ops as_init ReachE_init). Qed.
Print Assumptions arena_reachable_entries_exist.

(** Hence, in every state the arena machine can reach, its lookup is [Radix.lookup] on the
    abstraction of the current root and changes no view and no entry value. *)
Theorem arena_reachable_lookup_refines_radix_partial : forall ops key r,
  let a := as_arena (as_run ops as_init) in
  cur_root a = Some r ->
  let res := a_lookup_key a key in
  option_map (a_with_entry (fst res)) (snd res) = lookup (nib key) (vview (S (length (nib key))) a r)
  /\ (forall d j, (j < length (a_nodes a))%nat -> vview d (fst res) j = vview d a j)
  /\ (forall e, (e < length (a_entries a))%nat -> a_with_entry (fst res) e = a_with_entry a e).
Proof. exact reachable_lookup_refines_radix_partial. Qed.
Print Assumptions arena_reachable_lookup_refines_radix_partial.

Example arena_view_nonvacuous :
  let s := as_run [OInsert [18] [1]; OInsert [19] [2]; ONewGen] as_init in
  let a := as_arena s in
  exists r, cur_root a = Some r
    /\ lookup (nib [19]) (vview 3 a r) = Some (Some [2])
    /\ option_map (a_with_entry (fst (a_lookup_key a [19]))) (snd (a_lookup_key a [19])) = Some (Some [2])
    /\ length (a_nodes (fst (a_lookup_key a [19]))) = (length (a_nodes a) + 2)%nat.
Proof. exact view_example. Qed.
Print Assumptions arena_view_nonvacuous.

(** ** Arena (level C): the mutating operation [insert] commutes with the abstraction
    (files Trie/ArenaSep.v, ArenaInsert.v, ArenaHist.v).

    [Tr a idx t fp]: node [idx] of the arena unfolds to the finite radix tree [t] of entry
    indices, visiting exactly the node indices [fp]; [NoDup fp] is the disjointness of the
    sub-arenas of distinct children, the existence of [t] is the height bound. *)

(** The relation determines the depth-indexed view of [ArenaView.v] for every depth from the
    height of the tree on. *)
Theorem arena_sep_determines_view : forall a t idx fp d,
  Tr a idx t fp -> (theight t <= d)%nat -> vview d a idx = tmap (a_with_entry a) t.
Proof. exact Tr_vview. Qed.
Print Assumptions arena_sep_determines_view.

(** [make_owned] (copying the children of a node into its generation, which renumbers nodes
    and entries) keeps the separated-tree relation, the values of the view and the
    separation of the entries, and touches no other existing node. *)
Theorem arena_make_owned_keeps_separation : forall a idx t fp R,
  Tr a idx t fp -> NoDup fp -> Forall (fun j => (j < length (a_nodes a))%nat) fp ->
  ESep a (tentries t ++ R) ->
  let a1 := make_owned a idx in
  exists t1 fp1, Tr a1 idx t1 fp1 /\ NoDup fp1
    /\ Forall (fun j => (j < length (a_nodes a1))%nat) fp1
    /\ (forall j, In j fp1 -> In j fp \/ (length (a_nodes a) <= j)%nat)
    /\ tmap (a_with_entry a1) t1 = tmap (a_with_entry a) t
    /\ ESep a1 (tentries t1 ++ R)
    /\ (forall x, In x R -> edat a1 x = edat a x /\ a_with_entry a1 x = a_with_entry a x)
    /\ (forall j, (j < length (a_nodes a))%nat -> j <> idx -> node_at a1 j = node_at a j)
    /\ (length (a_nodes a) <= length (a_nodes a1))%nat
    /\ a_gens a1 = a_gens a.
Proof. exact mo_sep. Qed.
Print Assumptions arena_make_owned_keeps_separation.

(** [insert] of the arena (all four [follow_stem] cases, the copying walk, parent relinking,
    [set_entry_value] on an existing key) is [Radix.insert] on the view: for every arena
    satisfying the separation invariant [Sep], the view of the new root equals
    [insert_root key (Some v)] of the view before (at every depth from some bound on), the
    returned entry denotes the inserted value, the "existed" flag is "the key was present",
    and [Sep] is preserved. *)
Theorem arena_insert_refines_radix : forall a key v,
  Sep a ->
  let '(a', e, existed) := ar_insert a key v in
  Sep a' /\ a_with_entry a' e = Some v
  /\ exists r', cur_root a' = Some r'
  /\ exists D, forall d, (D <= d)%nat ->
       vview d a' r' = insert_root (nib key) (Some v) (rview d a)
       /\ existed = is_some (lookup_root (nib key) (rview d a)).
Proof. exact insert_refines. Qed.
Print Assumptions arena_insert_refines_radix.

(** The copying lookup under the same invariant: the view is unchanged, the result is
    [Radix.lookup_root] on it, [Sep] is preserved. *)
Theorem arena_lookup_refines_radix_sep : forall a key,
  Sep a ->
  let '(a', oe) := a_lookup_key a key in
  Sep a' /\ cur_root a' = cur_root a
  /\ exists D, forall d, (D <= d)%nat ->
       rview d a' = rview d a
       /\ option_map (a_with_entry a') oe = lookup_root (nib key) (rview d a).
Proof. exact lookup_refines. Qed.
Print Assumptions arena_lookup_refines_radix_sep.

(** Histories: for EVERY list of insert / lookup operations from the empty arena, the
    outputs of the arena machine (handle numbers, "existed" flags, values found) are those
    of the machine that applies [Radix.insert_root] / [Radix.lookup_root] to a radix tree of
    values, the final view is that machine's final tree, and [Sep] holds at the end. *)
Theorem arena_insert_lookup_history_refines_radix : forall ops,
  forallb ins_get_op ops = true ->
  as_outs ops as_init = r_outs ops r_init
  /\ Sep (as_arena (as_run ops as_init))
  /\ exists D, forall d, (D <= d)%nat -> rview d (as_arena (as_run ops as_init)) = fst (r_run ops r_init).
Proof. exact arena_insert_lookup_history. Qed.
Print Assumptions arena_insert_lookup_history_refines_radix.

(** Non-vacuity: [Sep] holds initially; a history with a split at an odd nibble, an
    overwrite of an existing key, a key that is a prefix of another, and lookups. *)
Example arena_sep_nonvacuous : Sep a_empty.
Proof. exact Sep_empty. Qed.
Print Assumptions arena_sep_nonvacuous.

Example arena_insert_lookup_history_nonvacuous :
  let ops := [OInsert [18; 52] [1]; OInsert [18; 63] [2]; OGet [18; 52];
              OInsert [18; 52] [3]; OGet [18; 52]; OGet [18]; OInsert [18] [4]; OGet [18]] in
  forallb ins_get_op ops = true
  /\ as_outs ops as_init =
     [RHandle 0 false; RHandle 1 false; RFound 2 (Some [1]); RHandle 3 true; RFound 4 (Some [3]); RNone;
      RHandle 5 false; RFound 6 (Some [4])].
Proof. exact insert_lookup_history_example. Qed.
Print Assumptions arena_insert_lookup_history_nonvacuous.

(** [set] / [get_mut]+overwrite on an entry of the CURRENT tree (PARTIAL: the handles of the
    arena machine are not tied to the tree): only the value denoted by that entry changes
    in the view, the tree of entry indices and [Sep] are kept, [get_mut] returns the old
    value, and a deleted entry is refused without any change. *)
Theorem arena_set_refines_radix_partial : forall a e v r t fp,
  Sep a -> cur_root a = Some r -> Tr a r t fp -> In e (tentries t) ->
  let a' := fst (a_set a e v) in
  let alive := snd (a_set a e v) in
  Sep a' /\ cur_root a' = Some r /\ Tr a' r t fp
  /\ alive = is_some (a_with_entry a e)
  /\ tmap (a_with_entry a') t = tmap (fun x => if Nat.eqb x e && alive then Some v else a_with_entry a x) t
  /\ fst (a_mut a e v) = a' /\ snd (a_mut a e v) = a_with_entry a e.
Proof. exact set_refines_partial. Qed.
Print Assumptions arena_set_refines_radix_partial.

Example arena_set_nonvacuous :
  let a := fst (fst (ar_insert (fst (fst (ar_insert a_empty [18] [1]))) [19] [2])) in
  exists r, cur_root a = Some r
    /\ abs_t 3 a r = Node [1] None (FCons 2 (Node [] (Some 0%nat) FNil) (FCons 3 (Node [] (Some 1%nat) FNil) FNil))
    /\ a_set a 1 [7] = (fst (a_set a 1 [7]), true)
    /\ vview 3 (fst (a_set a 1 [7])) r
       = Node [1] None (FCons 2 (Node [] (Some (Some [1])) FNil) (FCons 3 (Node [] (Some (Some [7])) FNil) FNil)).
Proof. exact set_example. Qed.
Print Assumptions arena_set_nonvacuous.

(** [new_generation] (the root is migrated into the new generation: a copy with a fresh
    read-only entry that shares the children vector; a checkpoint is pushed) keeps the view of
    the current root and the invariant [Sep]. *)
Theorem arena_new_generation_keeps_view : forall a,
  Sep a ->
  let a' := a_new_generation a in
  Sep a' /\ length (a_gens a') = S (length (a_gens a))
  /\ exists D, forall d, (D <= d)%nat -> rview d a' = rview d a.
Proof. exact new_generation_refines. Qed.
Print Assumptions arena_new_generation_keeps_view.

(** Histories with checkpoints (no rollback): for EVERY list of insert / lookup /
    new_generation operations from the empty arena the outputs of the arena machine equal
    those of the value-level machine [r2_step] (a checkpoint keeps the tree, restarts the
    handle numbering and reports the number of generations), the final view is that
    machine's tree and [Sep] holds.  (Lookups and inserts after a checkpoint walk through
    shared children vectors, i.e. this covers the copy-on-write path of [make_owned].) *)
Theorem arena_insert_lookup_newgen_history_refines_radix : forall ops,
  forallb ins_get_new_op ops = true ->
  as_outs ops as_init = r2_outs ops r2_init
  /\ Sep (as_arena (as_run ops as_init))
  /\ exists D, forall d, (D <= d)%nat ->
       rview d (as_arena (as_run ops as_init)) = fst (fst (r2_run ops r2_init)).
Proof. exact arena_insert_lookup_newgen_history. Qed.
Print Assumptions arena_insert_lookup_newgen_history_refines_radix.

(** [normalize]: rolling back to a checkpoint restores the view of the older generation at every
    depth (and [Sep], if it held), whatever was done in the newer generations - corollary of
    [arena_rollback_restores] (the arena is given back literally); for every reachable state.
    Non-vacuity of the hypothesis: [arena_rollback_nonvacuous] above. *)
Theorem arena_rollback_restores_view : forall pre ops d,
  let s := as_run pre as_init in
  Forall (keeps (length (a_gens (as_arena s)))) ops ->
  let s' := as_run (ONewGen :: ops ++ [ONormalize (length (a_gens (as_arena s)) - 1)]) s in
  rview d (as_arena s') = rview d (as_arena s)
  /\ (forall j, vview d (as_arena s') j = vview d (as_arena s) j)
  /\ (Sep (as_arena s) -> Sep (as_arena s')).
Proof. exact rollback_restores_view. Qed.
Print Assumptions arena_rollback_restores_view.

Example arena_newgen_history_nonvacuous :
  let ops := [OInsert [18; 52] [1]; OInsert [18; 63] [2]; ONewGen; OGet [18; 63];
              OInsert [18; 52] [3]; ONewGen; OInsert [18] [4]; OGet [18; 52]] in
  forallb ins_get_new_op ops = true
  /\ as_outs ops as_init =
     [RHandle 0 false; RHandle 1 false; RGens 2; RFound 0 (Some [2]); RHandle 1 true; RGens 3;
      RHandle 0 false; RFound 1 (Some [3])].
Proof. exact newgen_history_example. Qed.
Print Assumptions arena_newgen_history_nonvacuous.

(** ** Non-vacuity: concrete histories exercising the interesting shapes *)

(** odd-nibble split: 0x12 0x34 and 0x12 0x3f differ in the low nibble of the 2nd byte *)
Example split_at_odd_nibble :
  let t := insert_root (nib [18; 63]) 2%nat (Some (insert_root (nib [18; 52]) 1%nat None)) in
  wfb t = true
  /\ t = Node [1; 2; 3] None (FCons 4 (Node [] (Some 1%nat) FNil) (FCons 15 (Node [] (Some 2%nat) FNil) FNil))
  /\ map fst (iterate (nib [18]) t) = [nib [18; 52]; nib [18; 63]].
Proof. vm_compute. repeat split. Qed.
Print Assumptions split_at_odd_nibble.

(** father and grandfather collapse: deleting 0xab 0xc1 from {0xab 0xc1, 0xab 0xc2}
    merges the branch node with the remaining leaf, which becomes the root again *)
Example father_collapse :
  let t := insert_root (nib [171; 194]) 2%nat (Some (insert_root (nib [171; 193]) 1%nat None)) in
  delete (nib [171; 193]) t = Some (Node (nib [171; 194]) (Some 2%nat) FNil)
  /\ delete_root (nib [171; 194]) (delete (nib [171; 193]) t) = None.
Proof. vm_compute. split; reflexivity. Qed.
Print Assumptions father_collapse.

Example grandfather_collapse :
  let t := insert_root (nib [16; 32]) 3%nat (Some (insert_root (nib [16; 17]) 2%nat
             (Some (insert_root (nib [16; 16]) 1%nat None)))) in
  wfb t = true
  /\ to_list_root (delete (nib [16; 32]) t) = [(nib [16; 16], 1%nat); (nib [16; 17], 2%nat)]
  /\ wfb_root (delete (nib [16; 32]) t) = true
  /\ delete_root (nib [16; 17]) (delete (nib [16; 32]) t) = Some (Node (nib [16; 16]) (Some 1%nat) FNil).
Proof. vm_compute. repeat split. Qed.
Print Assumptions grandfather_collapse.

(** empty key, a 65-byte value, a rollback and a freeze in one history *)
Example history_with_empty_key_and_long_value :
  let v65 := repeat 7 65 in
  m_run [OInsert [] v65; OInsert [0] [1]; ONewGen; ODelete []; OGet []; ONormalize 0; OGet []; OFreeze] m_init
  = [RHandle 0 false; RHandle 1 false; RGens 2; RBool true; RNone; RGens 1; RFound 2 (Some v65);
     RDump [([], Some v65); ([0], Some [1])]].
Proof. vm_compute. reflexivity. Qed.
Print Assumptions history_with_empty_key_and_long_value.

(** the hypotheses of [rollback_restores] are satisfiable by a non-trivial history *)
Example rollback_nonvacuous :
  m_init <> [] /\ Forall (keeps (length m_init)) [OInsert [1] [2]; ONewGen; ODelete [1]; ONormalize 1; OFreeze].
Proof. split; [discriminate|]. repeat constructor. Qed.
Print Assumptions rollback_nonvacuous.
