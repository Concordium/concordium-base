(** C10 — property theorems only, each followed by [Print Assumptions]: closed by [exact] or put
    together here from the lemmas of the imported files; the examples are evaluated.
    Models: Contract/SchemaJson.v (JSON <-> bytes), Contract/CcSchemaCodec.v (schemas in binary form).
    [L : leaves] are the abstract text codecs of account addresses, timestamps and durations: every
    theorem holds for all of them. *)
From Coq Require Import String.
From Coq Require Import NArith ZArith List.
From CB Require Import Contract.CcCodec Contract.CcTypes.
From CB Require Import Contract.SchemaJson Contract.SchemaJsonProofs Contract.SchemaJsonConverse Contract.SchemaJsonContract
  Contract.CcSchemaCodec Contract.CcSchemaCodecProofs Contract.CcSchemaCodecFuel
  Contract.SchemaJsonLeb Contract.CcSchemaNew Contract.Base64 Contract.Base64Proofs Contract.SchemaJsonContractMore
  Contract.SchemaJsonLenBound.
Import ListNotations.
Local Open Scope N_scope.

(** JSON -> bytes -> JSON is exactly the documented normalisation, for every schema type (no bound on
    the nesting depth), every accepted JSON value, and with nothing left unread. *)
Theorem json_roundtrip : forall (L : leaves) t j bs,
  ty_wf t = true -> json_wf j = true ->
  from_json L t j = Some bs ->
  to_json L t bs = Some (normalize L t j, []).
Proof. exact json_roundtrip_exact. Qed.
Print Assumptions json_roundtrip.

(** The same inside a larger buffer: exactly the value's own bytes are consumed. *)
Theorem json_roundtrip_in_context : forall (L : leaves) t j bs rest,
  ty_wf t = true -> json_wf j = true ->
  from_json L t j = Some bs ->
  to_json L t (bs ++ rest) = Some (normalize L t j, rest).
Proof. exact json_roundtrip_rest. Qed.
Print Assumptions json_roundtrip_in_context.

(** Both directions are total functions: structural recursion on the schema type, no fuel, so for
    every (type, bytes) and every (type, JSON) the result is a value or an error. *)
Theorem to_json_total : forall (L : leaves) t bs,
  to_json L t bs = None \/ exists j rest, to_json L t bs = Some (j, rest).
Proof. exact (fun L t bs => match to_json L t bs as o return o = None \/ exists j rest, o = Some (j, rest) with
                            | Some (j, rest) => or_intror (ex_intro _ j (ex_intro _ rest eq_refl))
                            | None => or_introl eq_refl
                            end). Qed.
Print Assumptions to_json_total.

Theorem from_json_total : forall (L : leaves) t j,
  from_json L t j = None \/ exists bs, from_json L t j = Some bs.
Proof. exact (fun L t j => match from_json L t j as o return o = None \/ exists bs, o = Some bs with
                           | Some bs => or_intror (ex_intro _ bs eq_refl)
                           | None => or_introl eq_refl
                           end). Qed.
Print Assumptions from_json_total.

(** Non-vacuity: a type using most constructors, a well-formed JSON value it accepts in a
    non-canonical spelling, its bytes and its normal form. *)
Definition ex_ty : ty :=
  TStruct (FNamed (NFcons (str_of "amount") TU128
          (NFcons (str_of "who") (TEnum (Vcons (str_of "None") FNone (Vcons (str_of "Some") (FUnnamed (TScons TContractAddress TSnil)) Vnil)))
          (NFcons (str_of "tags") (TMap SL8 (TILeb128 2) (TByteList SL16))
          (NFcons (str_of "kind") (TTaggedEnum (TVcons 7 (str_of "A") FNone (TVcons 9 (str_of "B") (FUnnamed (TScons TBool TSnil)) TVnil)))
           NFnil))))).
Definition ex_json : json :=
  JObj [(str_of "amount", JStr (str_of "+007"));
        (str_of "who", JObj [(str_of "Some", JArr [JObj [(str_of "index", JNum 5%Z)]])]);
        (str_of "tags", JArr [JArr [JStr (str_of "-64"); JStr (str_of "AbCd")]]);
        (str_of "kind", JObj [(str_of "B", JArr [JBool true])])].
Example json_roundtrip_nonvacuous :
  ty_wf ex_ty = true /\ json_wf ex_json = true
  /\ from_json stub_leaves ex_ty ex_json
     = Some ([7; 0; 0; 0; 0; 0; 0; 0; 0; 0; 0; 0; 0; 0; 0; 0] ++ [1; 5; 0; 0; 0; 0; 0; 0; 0; 0; 0; 0; 0; 0; 0; 0; 0]
             ++ [1; 64; 2; 0; 171; 205] ++ [9; 1])
  /\ normalize stub_leaves ex_ty ex_json
     = JObj [(str_of "amount", JStr (str_of "7"));
             (str_of "who", JObj [(str_of "Some", JArr [JObj [(str_of "index", JNum 5%Z); (str_of "subindex", JNum 0%Z)]])]);
             (str_of "tags", JArr [JArr [JStr (str_of "-64"); JStr (str_of "abcd")]]);
             (str_of "kind", JObj [(str_of "B", JArr [JBool true])])].
Proof. vm_compute. repeat split; reflexivity. Qed.
Print Assumptions json_roundtrip_nonvacuous.

(** * Schemas in binary form: decode (encode x) = x with the rest of the input untouched, for Type
    (and Fields inside it), FunctionV1/V2, and modules of every version (ContractV0..V3 inside them),
    with the version prefix and without it.  [cwf_*]: names are UTF-8, counts/sizes are u32, tags u8,
    maps are in increasing key order (what the Rust values satisfy by construction). *)
Theorem schema_binary_roundtrip_type : forall t rest, cwf_ty t = true ->
  dec_ty_top (enc_ty t ++ rest) = Some (t, rest).
Proof. exact enc_dec_ty_top. Qed.
Print Assumptions schema_binary_roundtrip_type.

Theorem schema_binary_roundtrip_function_v1 : forall f rest, cwf_f1 f = true ->
  dec_f1_top (enc_f1 f ++ rest) = Some (f, rest).
Proof. exact enc_dec_f1_top. Qed.
Print Assumptions schema_binary_roundtrip_function_v1.

Theorem schema_binary_roundtrip_function_v2 : forall f rest, cwf_f2 f = true ->
  dec_f2_top (enc_f2 f ++ rest) = Some (f, rest).
Proof. exact enc_dec_f2_top. Qed.
Print Assumptions schema_binary_roundtrip_function_v2.

Theorem schema_binary_roundtrip_versioned : forall m rest, cwf_module m = true ->
  dec_versioned_top (enc_versioned m ++ rest) = Some (m, rest).
Proof. exact enc_dec_versioned_top. Qed.
Print Assumptions schema_binary_roundtrip_versioned.

Theorem schema_binary_roundtrip_unversioned : forall m rest, cwf_module m = true ->
  dec_module_top (module_version m) (enc_module_body m ++ rest) = Some (m, rest).
Proof. exact enc_dec_module_top. Qed.
Print Assumptions schema_binary_roundtrip_unversioned.

(** [VersionedModuleSchema::new] on prefixed bytes ignores the caller's version hint. *)
Theorem schema_new_reads_prefix : forall m hint, cwf_module m = true ->
  schema_new (enc_versioned m) hint = Some m.
Proof. exact schema_new_versioned. Qed.
Print Assumptions schema_new_reads_prefix.

(** Decoding is not injective (maps are read without an order check): only encode-then-decode holds. *)
Theorem schema_decoding_not_canonical :
  exists bs m, dec_versioned_top bs = Some (m, []) /\ enc_versioned m <> bs.
Proof. exact module_decoding_not_canonical. Qed.
Print Assumptions schema_decoding_not_canonical.

Definition ex_module : module_schema :=
  MV3 [(str_of "a", {| c3_init := Some {| f2_param := Some ex_ty; f2_ret := None; f2_err := Some TU8 |};
                       c3_receive := [(str_of "f", {| f2_param := None; f2_ret := Some (TList SL32 TAccountAddress); f2_err := None |});
                                      (str_of "g", {| f2_param := None; f2_ret := None; f2_err := None |})];
                       c3_event := Some (TTaggedEnum (TVcons 0 (str_of "E") FNone (TVcons 255 (str_of "F") FNone TVnil))) |});
       (str_of "b", {| c3_init := None; c3_receive := []; c3_event := None |})].
Example schema_roundtrip_nonvacuous :
  cwf_ty ex_ty = true /\ cwf_module ex_module = true
  /\ firstn 12 (enc_versioned ex_module) = [255; 255; 3; 2; 0; 0; 0; 1; 0; 0; 0; 97].
Proof. vm_compute. repeat split; reflexivity. Qed.
Print Assumptions schema_roundtrip_nonvacuous.

(** * The converse direction: bytes -> JSON -> bytes.
    [ty_distinct_fields]: no struct repeats a field name, no enum a variant name, enums have at most 65536
    variants, array sizes are u32.  [leaves_rt L]: the leaf text forms parse back (C16's theorems for the
    real codecs; [stub_leaves] satisfies it).  [bytes_ok]: the input consists of bytes. *)

(** What [to_json] prints is accepted by [from_json]; the bytes it denotes are the bytes that were read,
    exactly when the type has no LEB128 component (the only non-canonical forms [to_json] reads are LEB128
    encodings with redundant trailing groups, see [leb_padding_read_not_written]). *)
Theorem to_json_from_json : forall (L : leaves), leaves_rt L -> forall t bs j rest,
  ty_wf t = true -> ty_distinct_fields t = true -> bytes_ok bs = true ->
  to_json L t bs = Some (j, rest) ->
  exists bs' pre, from_json L t j = Some bs' /\ bs = pre ++ rest /\ (ty_no_leb t = true -> pre = bs').
Proof. exact to_json_from_json_all. Qed.
Print Assumptions to_json_from_json.

(** [to_json] returns a suffix of its input. *)
Theorem to_json_consumes_prefix : forall (L : leaves), leaves_rt L -> forall t bs j rest,
  ty_wf t = true -> ty_distinct_fields t = true -> bytes_ok bs = true ->
  to_json L t bs = Some (j, rest) -> exists pre, bs = pre ++ rest.
Proof.
  exact (fun L HL t bs j rest Hw Hd Hb H =>
           match to_json_from_json_all L HL t bs j rest Hw Hd Hb H with
           | ex_intro _ _ (ex_intro _ pre (conj _ (conj E _))) => ex_intro _ pre E
           end).
Qed.
Print Assumptions to_json_consumes_prefix.

(** Printed JSON is in normal form. *)
Theorem printed_json_is_normal : forall (L : leaves), leaves_rt L -> forall t bs j rest,
  ty_wf t = true -> ty_distinct_fields t = true -> bytes_ok bs = true ->
  to_json L t bs = Some (j, rest) -> normalize L t j = j.
Proof. exact printed_json_normal. Qed.
Print Assumptions printed_json_is_normal.

Theorem leaf_hypothesis_satisfiable : leaves_rt stub_leaves.
Proof. exact stub_leaves_rt. Qed.
Print Assumptions leaf_hypothesis_satisfiable.

Theorem leb128_padding_is_read_but_not_written :
  to_json stub_leaves (TULeb128 2) [128; 0] = Some (JStr [48], []) /\ from_json stub_leaves (TULeb128 2) (JStr [48]) = Some [0]
  /\ to_json stub_leaves (TILeb128 2) [255; 127] = Some (JStr [45; 49], []) /\ from_json stub_leaves (TILeb128 2) (JStr [45; 49]) = Some [127].
Proof. exact leb_padding_read_not_written. Qed.
Print Assumptions leb128_padding_is_read_but_not_written.

Example converse_nonvacuous :
  ty_distinct_fields ex_ty = true /\ ty_no_leb ex_ty = false
  /\ ty_no_leb (TList SL16 (TStruct (FNamed (NFcons (str_of "a") TU8 (NFcons (str_of "b") TI128 NFnil))))) = true.
Proof. vm_compute. repeat split; reflexivity. Qed.
Print Assumptions converse_nonvacuous.

(** * The bytes are the contract-side encoding: for the types with a counterpart among C16's codecs
    ([codec_of c], built from CcCodec/CcTypes combinators), [from_json] writes [enc] of the value the JSON
    denotes, and that value is well-formed for the codec. *)
Theorem bytes_are_contract_encoding : forall (L : leaves) c j bs, json_wf j = true ->
  from_json L (ty_of c) j = Some bs ->
  exists v, denote c j = Some v /\ wf (codec_of c) v /\ bs = enc (codec_of c) v.
Proof. exact bytes_are_contract_encoding_all. Qed.
Print Assumptions bytes_are_contract_encoding.

Example contract_encoding_nonvacuous :
  let c := CMap SL32 (CUint W8) (CPair (COption (CSint W64)) (CString SL32)) in
  let j := JArr [JArr [JNum 7%Z; JArr [JObj [(s_Some, JArr [JNum (-2)%Z])]; JStr [104; 105]]]] in
  json_wf j = true /\
  from_json stub_leaves (ty_of c) j
  = Some ([1; 0; 0; 0] ++ [7] ++ [1; 254; 255; 255; 255; 255; 255; 255; 255] ++ [2; 0; 0; 0; 104; 105])
  /\ denote c j = Some [(7, (Some (-2)%Z, [104; 105]))].
Proof. vm_compute. repeat split; reflexivity. Qed.
Print Assumptions contract_encoding_nonvacuous.

(** * Decoder fuel: any fuel above the input length gives the result of the entry point, whether a
    value or an error - the fuel is never what stops a schema decoder. *)
Theorem schema_decoder_fuel_type : forall f bs, (length bs < f)%nat -> dec_ty f bs = dec_ty_top bs.
Proof. exact dec_ty_fuel. Qed.
Print Assumptions schema_decoder_fuel_type.

Theorem schema_decoder_fuel_versioned : forall f bs, (length bs < f)%nat -> dec_versioned f bs = dec_versioned_top bs.
Proof. exact dec_versioned_fuel. Qed.
Print Assumptions schema_decoder_fuel_versioned.

Theorem schema_decoder_fuel_unversioned : forall f v bs, (length bs < f)%nat -> dec_module_body f v bs = dec_module_top v bs.
Proof. exact dec_module_fuel. Qed.
Print Assumptions schema_decoder_fuel_unversioned.

Theorem schema_decoder_fuel_functions : forall f bs, (length bs < f)%nat ->
  dec_f1 f bs = dec_f1_top bs /\ dec_f2 f bs = dec_f2_top bs.
Proof. exact (fun f bs H => conj (dec_f1_fuel f bs H) (dec_f2_fuel f bs H)). Qed.
Print Assumptions schema_decoder_fuel_functions.

(** Exactly one "init_" prefix is stripped from a contract name, and a receive name is split at its first dot only. *)
Example name_text_forms_strip_once :
  to_json stub_leaves (TContractName SL8) (15 :: str_of "init_init_token") = Some (JObj [(s_contract, JStr (str_of "init_token"))], [])
  /\ from_json stub_leaves (TContractName SL8) (JObj [(s_contract, JStr (str_of "init_token"))]) = Some (15 :: str_of "init_init_token")
  /\ to_json stub_leaves (TContractName SL8) (5 :: str_of "init_") = Some (JObj [(s_contract, JStr [])], [])
  /\ to_json stub_leaves (TReceiveName SL8) (13 :: str_of "init_a.b..c_d") = Some (JObj [(s_contract, JStr (str_of "init_a")); (s_func, JStr (str_of "b..c_d"))], [])
  /\ from_json stub_leaves (TReceiveName SL8) (JObj [(s_contract, JStr (str_of "init_a")); (s_func, JStr (str_of "b..c_d"))]) = Some (13 :: str_of "init_a.b..c_d").
Proof. vm_compute. repeat split; reflexivity. Qed.
Print Assumptions name_text_forms_strip_once.

(** * LEB128 schema types with a byte-count constraint: the accepted forms as an iff, for every constraint and value.
    [uleb_fixed k n] / [sleb_fixed k z] = the encoding with exactly [S k] bytes; [ufits k n] = n < 2^(7(k+1));
    [sfits k z] = -2^(7(k+1)-1) <= z < 2^(7(k+1)-1). *)
Theorem leb128_unsigned_accepts_iff : forall (L : leaves) c bs j rest, bytes_ok bs = true ->
  (to_json L (TULeb128 c) bs = Some (j, rest) <->
   exists k n, N.of_nat (S k) <= c /\ ufits k n /\ bs = uleb_fixed k n ++ rest /\ j = JStr (show_N n)).
Proof. exact uleb_to_json_iff. Qed.
Print Assumptions leb128_unsigned_accepts_iff.

Theorem leb128_signed_accepts_iff : forall (L : leaves) c bs j rest, bytes_ok bs = true ->
  (to_json L (TILeb128 c) bs = Some (j, rest) <->
   exists k z, N.of_nat (S k) <= c /\ sfits k z /\ bs = sleb_fixed k z ++ rest /\ j = JStr (show_Z z)).
Proof. exact sleb_to_json_iff. Qed.
Print Assumptions leb128_signed_accepts_iff.

(** what [serial_biguint] / [serial_bigint] write: exactly the values that fit [c] bytes, in the shortest fixed form *)
Theorem leb128_unsigned_writes_shortest : forall c n,
  ((exists g, uleb_enc c n = Some g) <-> (exists k, ufits k n /\ N.of_nat (S k) <= c)) /\
  (forall g, uleb_enc c n = Some g ->
     exists k, g = uleb_fixed k n /\ ufits k n /\ N.of_nat (S k) <= c /\ (forall k', ufits k' n -> (k <= k')%nat)).
Proof. exact (fun c n => conj (uleb_enc_iff c n) (uleb_enc_canonical c n)). Qed.
Print Assumptions leb128_unsigned_writes_shortest.

Theorem leb128_signed_writes_shortest : forall c z,
  ((exists g, sleb_enc c z = Some g) <-> (exists k, sfits k z /\ N.of_nat (S k) <= c)) /\
  (forall g, sleb_enc c z = Some g ->
     exists k, g = sleb_fixed k z /\ sfits k z /\ N.of_nat (S k) <= c /\ (forall k', sfits k' z -> (k <= k')%nat)).
Proof. exact (fun c z => conj (sleb_enc_iff c z) (sleb_enc_canonical c z)). Qed.
Print Assumptions leb128_signed_writes_shortest.

(** the padded forms, syntactically: a longer form is the shorter one with the continuation bit set on its last
    byte, then [j] groups 0x80 (0xff for a negative value) and a final 0x00 (0x7f) *)
Theorem leb128_unsigned_padded_forms : forall k j n, ufits k n ->
  uleb_fixed (k + S j) n =
  removelast (uleb_fixed k n) ++ [last (uleb_fixed k n) 0 + 128] ++ repeat 128 j ++ [0].
Proof. exact uleb_fixed_pad. Qed.
Print Assumptions leb128_unsigned_padded_forms.

Theorem leb128_signed_padded_forms : forall k j z, sfits k z ->
  sleb_fixed (k + S j) z =
  removelast (sleb_fixed k z) ++ [last (sleb_fixed k z) 0 + 128] ++ repeat (sign_cont z) j ++ [sign_last z].
Proof. exact sleb_fixed_pad. Qed.
Print Assumptions leb128_signed_padded_forms.

(** bytes -> JSON -> bytes = [uleb_strip] / [sleb_strip] of the bytes read (a function of the bytes alone that
    drops the redundant trailing groups): the result prints as the same JSON, is never longer, and is the input
    itself when it has the same length.  This is the normal form theorem for the two LEB128 types. *)
Theorem leb128_unsigned_normal_form : forall (L : leaves) c bs j rest, bytes_ok bs = true ->
  to_json L (TULeb128 c) bs = Some (j, rest) ->
  exists pre, bs = pre ++ rest /\ from_json L (TULeb128 c) j = Some (uleb_strip pre) /\
              to_json L (TULeb128 c) (uleb_strip pre ++ rest) = Some (j, rest) /\
              (length (uleb_strip pre) <= length pre)%nat /\
              (length (uleb_strip pre) = length pre -> uleb_strip pre = pre).
Proof. exact uleb_to_from_json. Qed.
Print Assumptions leb128_unsigned_normal_form.

Theorem leb128_signed_normal_form : forall (L : leaves) c bs j rest, bytes_ok bs = true ->
  to_json L (TILeb128 c) bs = Some (j, rest) ->
  exists pre, bs = pre ++ rest /\ from_json L (TILeb128 c) j = Some (sleb_strip pre) /\
              to_json L (TILeb128 c) (sleb_strip pre ++ rest) = Some (j, rest) /\
              (length (sleb_strip pre) <= length pre)%nat /\
              (length (sleb_strip pre) = length pre -> sleb_strip pre = pre).
Proof. exact sleb_to_from_json. Qed.
Print Assumptions leb128_signed_normal_form.

(** every fixed form within the constraint: printed, converted back to the shortest form of that value, which no
    other form undercuts, and stripping is idempotent *)
Theorem leb128_unsigned_all_forms : forall (L : leaves) c k n rest, N.of_nat (S k) <= c -> ufits k n ->
  let canon := uleb_strip (uleb_fixed k n) in
  to_json L (TULeb128 c) (uleb_fixed k n ++ rest) = Some (JStr (show_N n), rest) /\
  from_json L (TULeb128 c) (JStr (show_N n)) = Some canon /\
  to_json L (TULeb128 c) (canon ++ rest) = Some (JStr (show_N n), rest) /\
  (forall k', ufits k' n -> (length canon <= S k')%nat) /\
  (length canon = S k -> canon = uleb_fixed k n) /\
  uleb_strip canon = canon.
Proof. exact uleb_from_to_json. Qed.
Print Assumptions leb128_unsigned_all_forms.

Theorem leb128_signed_all_forms : forall (L : leaves) c k z rest, N.of_nat (S k) <= c -> sfits k z ->
  let canon := sleb_strip (sleb_fixed k z) in
  to_json L (TILeb128 c) (sleb_fixed k z ++ rest) = Some (JStr (show_Z z), rest) /\
  from_json L (TILeb128 c) (JStr (show_Z z)) = Some canon /\
  to_json L (TILeb128 c) (canon ++ rest) = Some (JStr (show_Z z), rest) /\
  (forall k', sfits k' z -> (length canon <= S k')%nat) /\
  (length canon = S k -> canon = sleb_fixed k z) /\
  sleb_strip canon = canon.
Proof. exact sleb_from_to_json. Qed.
Print Assumptions leb128_signed_all_forms.

(** boundary values: 2^7-1 / 2^7 under constraints 1 and 5; 2^35-1 fits 5 bytes, 2^35 does not; -64 / -65;
    a padded form of 127 with 5 bytes, of -1 with 10 bytes; nothing fits constraint 0 *)
Example leb128_nonvacuous :
  ufits 0 127 /\ ~ ufits 0 128 /\ ufits 4 (2 ^ 35 - 1) /\ ~ ufits 4 (2 ^ 35) /\ sfits 0 (-64)%Z /\ ~ sfits 0 (-65)%Z /\
  uleb_enc 1 127 = Some [127] /\ uleb_enc 1 128 = None /\ uleb_enc 5 128 = Some [128; 1] /\
  uleb_enc 5 (2 ^ 35 - 1) = Some [255; 255; 255; 255; 127] /\ uleb_enc 5 (2 ^ 35) = None /\
  uleb_enc 37 (2 ^ 259 - 1) = Some (repeat 255 36 ++ [127]) /\ uleb_enc 37 (2 ^ 259) = None /\ uleb_enc 0 0 = None /\
  sleb_enc 1 (-64)%Z = Some [64] /\ sleb_enc 1 (-65)%Z = None /\ sleb_enc 10 (-65)%Z = Some [191; 127] /\
  sleb_enc 10 (2 ^ 69 - 1)%Z = Some (repeat 255 9 ++ [63]) /\ sleb_enc 10 (2 ^ 69)%Z = None /\
  sleb_enc 10 (- 2 ^ 69)%Z = Some (repeat 128 9 ++ [64]) /\ sleb_enc 10 (- 2 ^ 69 - 1)%Z = None /\
  uleb_fixed 4 127 = [255; 128; 128; 128; 0] /\ uleb_strip [255; 128; 128; 128; 0] = [127] /\
  sleb_fixed 9 (-1)%Z = repeat 255 9 ++ [127] /\ sleb_strip (repeat 255 9 ++ [127]) = [127] /\
  to_json stub_leaves (TULeb128 5) [255; 128; 128; 128; 0; 9] = Some (JStr [49; 50; 55], [9]) /\
  to_json stub_leaves (TULeb128 4) [255; 128; 128; 128; 0; 9] = None /\
  to_json stub_leaves (TILeb128 2) [191; 127] = Some (JStr [45; 54; 53], []) /\
  sleb_strip [128; 127] = [128; 127] /\ sleb_strip [255; 0] = [255; 0] /\ sleb_strip [191; 255; 127] = [191; 127].
Proof. vm_compute. repeat split; try reflexivity; intros H; try discriminate H; destruct H as [H _]; exact (H eq_refl). Qed.
Print Assumptions leb128_nonvacuous.

(** * [VersionedModuleSchema::new] as a dispatch with its error kinds *)
Theorem schema_new_dispatch_total : forall bs v,
  ((exists m, schema_new_r bs v = NewOk m) \/ schema_new_r bs v = NewErr NewParseError \/
   schema_new_r bs v = NewErr NewMissingVersion \/ schema_new_r bs v = NewErr NewInvalidVersion) /\
  (forall m, schema_new_r bs v = NewOk m <-> schema_new bs v = Some m).
Proof. exact (fun bs v => conj (schema_new_r_total bs v) (schema_new_r_ok bs v)). Qed.
Print Assumptions schema_new_dispatch_total.

Theorem schema_new_error_kinds : forall bs v,
  (schema_new_r bs v = NewErr NewMissingVersion <-> dec_versioned_top bs = None /\ v = None) /\
  (schema_new_r bs v = NewErr NewInvalidVersion <-> dec_versioned_top bs = None /\ exists x, v = Some x /\ 3 < x) /\
  (schema_new_r bs v = NewErr NewParseError <->
     dec_versioned_top bs = None /\ exists x, v = Some x /\ x <= 3 /\ dec_module_top x bs = None).
Proof. exact schema_new_r_errors. Qed.
Print Assumptions schema_new_error_kinds.

Theorem schema_new_versioned_any_hint : forall m rest v, cwf_module m = true ->
  schema_new_r (enc_versioned m ++ rest) v = NewOk m.
Proof. exact schema_new_r_versioned. Qed.
Print Assumptions schema_new_versioned_any_hint.

(** [no_prefix_clash m]: the contract count's low 16 bits are not all ones (the unversioned bytes do not start ff ff) *)
Theorem schema_new_unversioned : forall m rest, cwf_module m = true -> no_prefix_clash m ->
  schema_new_r (enc_module_body m ++ rest) (Some (module_version m)) = NewOk m /\
  schema_new_r (enc_module_body m ++ rest) None = NewErr NewMissingVersion /\
  (forall v, 3 < v -> schema_new_r (enc_module_body m ++ rest) (Some v) = NewErr NewInvalidVersion).
Proof. exact schema_new_r_unversioned. Qed.
Print Assumptions schema_new_unversioned.

Theorem schema_new_forms_consistent : forall m1 m2 hint r1 r2,
  cwf_module m1 = true -> cwf_module m2 = true -> no_prefix_clash m1 ->
  (schema_new_r (enc_module_body m1 ++ r1) (Some (module_version m1)) = schema_new_r (enc_versioned m2 ++ r2) hint
   <-> m1 = m2).
Proof. exact schema_new_forms_agree. Qed.
Print Assumptions schema_new_forms_consistent.

Theorem schema_unversioned_needs_the_version :
  (enc_module_body (MV0 []) = enc_module_body (MV1 []) /\ MV0 [] <> MV1 [] /\
   schema_new_r (enc_module_body (MV0 [])) (Some 1) = NewOk (MV1 [])) /\
  (forall m1 m2, cwf_module m1 = true -> cwf_module m2 = true ->
     module_version m1 = module_version m2 -> enc_module_body m1 = enc_module_body m2 -> m1 = m2).
Proof. exact (conj unversioned_bytes_ambiguous unversioned_injective). Qed.
Print Assumptions schema_unversioned_needs_the_version.

Example schema_new_nonvacuous :
  let m := MV3 [([97], {| c3_init := Some {| f2_param := Some (TULeb128 5); f2_ret := None; f2_err := None |};
                          c3_receive := []; c3_event := Some TU8 |})] in
  cwf_module m = true /\ no_prefix_clash m /\
  schema_new_r (enc_module_body m) (Some 3) = NewOk m /\ schema_new_r (enc_versioned m) None = NewOk m /\
  schema_new_r (enc_module_body m) None = NewErr NewMissingVersion /\
  schema_new_r (enc_module_body m) (Some 4) = NewErr NewInvalidVersion /\
  schema_new_r (enc_module_body m) (Some 0) = NewErr NewParseError.
Proof. vm_compute. repeat split; try reflexivity. intros H; discriminate H. Qed.
Print Assumptions schema_new_nonvacuous.

(** * base64 ([STANDARD_NO_PAD]: standard alphabet, no padding, trailing bits must be zero) *)
Theorem base64_roundtrip : forall bs, b64_bytes_ok bs = true -> b64_decode (b64_encode bs) = Some bs.
Proof. exact b64_decode_encode. Qed.
Print Assumptions base64_roundtrip.

(** the decoder accepts exactly what the encoder writes: in particular any '=', a single left-over symbol and
    non-zero trailing bits are rejected *)
Theorem base64_decoder_is_canonical : forall s bs,
  b64_decode s = Some bs <-> (b64_bytes_ok bs = true /\ s = b64_encode bs).
Proof. exact b64_decode_iff. Qed.
Print Assumptions base64_decoder_is_canonical.

Theorem base64_trailing_bits : forall s bs, b64_decode_lax s = Some bs ->
  (b64_decode s = Some bs <-> s = b64_encode bs).
Proof. exact b64_noncanonical_rejected. Qed.
Print Assumptions base64_trailing_bits.

(** a schema in base64: decode, then the versioned decoder ([from_base64_str]); the second hypothesis says the
    model's encoding consists of bytes (names are lists of [N] in the model) *)
Theorem schema_base64_roundtrip : forall m, cwf_module m = true -> b64_bytes_ok (enc_versioned m) = true ->
  exists bytes, b64_decode (b64_encode (enc_versioned m)) = Some bytes /\ dec_versioned_top bytes = Some (m, []).
Proof. exact schema_b64_roundtrip. Qed.
Print Assumptions schema_base64_roundtrip.

Example base64_nonvacuous :
  b64_decode [81; 81] = Some [65] /\ b64_decode [81; 82] = None /\ b64_decode_lax [81; 82] = Some [65] /\
  b64_decode [81; 81; 61; 61] = None /\ b64_decode [81] = None /\
  b64_encode [255; 255; 3] = [47; 47; 56; 68] /\ b64_decode (b64_encode [255; 255; 3; 0]) = Some [255; 255; 3; 0].
Proof. vm_compute. repeat split; reflexivity. Qed.
Print Assumptions base64_nonvacuous.

(** * The contract-side Rust types of the harness: 21 of the 26 are instances of the fragment (corollary of
    [bytes_are_contract_encoding]); Timestamp / Duration / AccountAddress relative to the abstract text codecs. *)
Theorem contract_side_rust_types : forall (L : leaves) c, In c rust_types_in_fragment ->
  forall j bs, json_wf j = true -> from_json L (ty_of c) j = Some bs ->
  exists v, denote c j = Some v /\ wf (codec_of c) v /\ bs = enc (codec_of c) v.
Proof. exact rust_types_contract_encoding. Qed.
Print Assumptions contract_side_rust_types.

Theorem contract_side_leaf_types : forall (L : leaves) j bs,
  (from_json L TTimestamp j = Some bs ->
     exists s m, j = JStr s /\ ts_parse L s = Some m /\ wf (c_uint 8) m /\ bs = enc (c_uint 8) m) /\
  (from_json L TDuration j = Some bs ->
     exists s m, j = JStr s /\ dur_parse L s = Some m /\ wf (c_uint 8) m /\ bs = enc (c_uint 8) m) /\
  (from_json L TAccountAddress j = Some bs ->
     exists s, j = JStr s /\ acc_parse L s = Some bs /\ length bs = 32%nat).
Proof.
  exact (fun L j bs => conj (timestamp_contract_encoding L j bs)
                         (conj (duration_contract_encoding L j bs) (account_contract_encoding L j bs))).
Qed.
Print Assumptions contract_side_leaf_types.

Example contract_side_rust_types_nonvacuous :
  length rust_types_in_fragment = 21%nat /\
  from_json stub_leaves (ty_of (CMap SL32 (CUint W8) (CSint W32))) (JArr [JArr [JNum 7%Z; JNum (-2)%Z]])
  = Some [1; 0; 0; 0; 7; 254; 255; 255; 255].
Proof. vm_compute. split; reflexivity. Qed.
Print Assumptions contract_side_rust_types_nonvacuous.

(** Length prefix ([write_bytes_for_length_of_size]): a String / ByteList / List / Set / Map whose length does not
    fit the size length (2^8, 2^16, 2^32, 2^64) is an error of from_json, never bytes with a truncated length;
    when accepted, the prefix is the little-endian length. *)
Theorem from_json_length_must_fit : forall (L : leaves) s,
  (forall x, sl_bound s <= N.of_nat (length x) -> from_json L (TString s) (JStr x) = None) /\
  (forall x b, hex_decode x = Some b -> sl_bound s <= N.of_nat (length b) -> from_json L (TByteList s) (JStr x) = None) /\
  (forall e vs, sl_bound s <= N.of_nat (length vs) -> from_json L (TList s e) (JArr vs) = None) /\
  (forall e vs, sl_bound s <= N.of_nat (length vs) -> from_json L (TSet s e) (JArr vs) = None) /\
  (forall k v es, sl_bound s <= N.of_nat (length es) -> from_json L (TMap s k v) (JArr es) = None).
Proof.
  exact (fun L s => conj (from_json_string_too_long L s) (conj (from_json_bytelist_too_long L s)
          (conj (from_json_list_too_long L s) (conj (from_json_set_too_long L s) (from_json_map_too_long L s))))).
Qed.
Print Assumptions from_json_length_must_fit.

Theorem from_json_length_prefix : forall (L : leaves) s,
  (forall x b, from_json L (TString s) (JStr x) = Some b ->
     b = le (sl_bytes s) (N.of_nat (length x)) ++ x /\ N.of_nat (length x) < sl_bound s) /\
  (forall e vs b, from_json L (TList s e) (JArr vs) = Some b ->
     (exists p, b = le (sl_bytes s) (N.of_nat (length vs)) ++ p) /\ N.of_nat (length vs) < sl_bound s).
Proof. exact (fun L s => conj (from_json_string_prefix L s) (from_json_list_prefix L s)). Qed.
Print Assumptions from_json_length_prefix.

Example from_json_length_must_fit_nonvacuous :
  sl_bound SL8 = 256 /\ sl_bound SL16 = 65536 /\
  from_json stub_leaves (TList SL8 TU8) (JArr (repeat (JNum 7%Z) 255)) <> None /\
  from_json stub_leaves (TList SL8 TU8) (JArr (repeat (JNum 7%Z) 256)) = None.
Proof. vm_compute. repeat split; discriminate. Qed.
Print Assumptions from_json_length_must_fit_nonvacuous.
