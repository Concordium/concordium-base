(** C11 - property theorems only, each followed by [Print Assumptions]; closed by [exact] or assembled
    here from the lemmas of Crypto/BpProofs.v, BpTheorems.v, RangeStmtProofs.v and BpTranscriptProofs.v.

    Scope (see design/C11.md): completeness of the inner-product argument, of the range proof and of
    the set (non-)membership proofs for ALL witnesses, randomness and challenges; the exact
    arithmetic of the derived statements; the verifier as an explicit conjunction of equations.
    Soundness against arbitrary provers is computational (discrete log) and is NOT claimed. *)
From Coq Require Import ZArith List.
From CB Require Import Crypto.RangeStmt Crypto.RangeStmtProofs.
From CB Require Import Crypto.BpAlg Crypto.Ipa Crypto.RangeProof Crypto.SetProof Crypto.BpTheorems.
From CB Require Import Crypto.Transcript Crypto.BpTranscript Crypto.BpTranscriptProofs.
Import ListNotations.
Local Open Scope Z_scope.

(** * The arithmetic heart of "exactly the range" *)

Theorem bits_iff_in_range : forall v n, 0 <= v ->
  ((had_zero (bits v n) (aR_of (bits v n)) /\ idot (bits v n) (pow2s n) = v) <-> v < 2 ^ Z.of_nat n).
Proof. exact bits_iff_in_range_Z. Qed.
Print Assumptions bits_iff_in_range.

Theorem bits_iff_in_range_mod_r : forall r v n, 2 ^ 65 < r -> 0 <= v < r -> (n <= 64)%nat ->
  ((had_zero (bits v n) (aR_of (bits v n)) /\ idot (bits v n) (pow2s n) mod r = v mod r)
   <-> v < 2 ^ Z.of_nat n).
Proof. exact bits_iff_in_range_field. Qed.
Print Assumptions bits_iff_in_range_mod_r.

(** * a <= b : the pair the verifier range-checks lies in [0,2^n)^2 iff the statement is true *)
Theorem leq_statement_exact : forall r n a b,
  2 ^ 65 < r -> 0 <= n <= 64 -> 0 <= a < W64 -> 0 <= b < W64 ->
  (pair_in_range n (leq_committed r a b) <-> (a <= b /\ b - a < 2 ^ n /\ a < 2 ^ n)).
Proof. exact leq_statement_exact_l. Qed.
Print Assumptions leq_statement_exact.

Theorem leq_statement_exact_b_in_range : forall r n a b,
  2 ^ 65 < r -> 0 <= n <= 64 -> 0 <= a < W64 -> 0 <= b < 2 ^ n ->
  (pair_in_range n (leq_committed r a b) <-> a <= b).
Proof. exact leq_statement_given_b_small. Qed.
Print Assumptions leq_statement_exact_b_in_range.

(** the honest prover's tuple (u64 subtraction, wrapping build) coincides with the committed tuple and
    is in range iff the statement is true; the checked build has no tuple at all when a > b (O5) *)
Theorem leq_prover_exact : forall r n a b,
  2 ^ 65 < r -> 0 <= n <= 64 -> 0 <= a < W64 -> 0 <= b < W64 ->
  (leq_accepts_wrapping r n a b = true <-> (a <= b /\ b - a < 2 ^ n /\ a < 2 ^ n))
  /\ (forall p, leq_prover_checked a b = Some p <-> (a <= b /\ p = (b - a, a))).
Proof. intros; split; [apply leq_accepts_wrapping_iff; assumption | apply leq_prover_checked_spec]. Qed.
Print Assumptions leq_prover_exact.

Theorem leq_boundary_cases : forall r n a,
  2 ^ 65 < r -> 0 <= n <= 64 -> 0 <= a < 2 ^ n ->
  leq_accepts_wrapping r n a a = true
  /\ (a + 1 < 2 ^ n -> leq_accepts_wrapping r n (a + 1) a = false
                      /\ leq_prover_checked (a + 1) a = None
                      /\ leq_accepts_wrapping r n a (a + 1) = true).
Proof. exact leq_boundaries. Qed.
Print Assumptions leq_boundary_cases.

(** * v in [a, b) : offsets by 2^64 in the scalar field *)
Theorem in_range_statement_exact : forall r v a b,
  2 ^ 65 < r -> 0 <= v < W64 -> 0 <= a < W64 -> 0 <= b < W64 ->
  (pair_in_range 64 (in_range_committed r v a b) <-> a <= v < b).
Proof. exact in_range_statement_exact_l. Qed.
Print Assumptions in_range_statement_exact.

Theorem in_range_prover_exact : forall r v a b,
  2 ^ 65 < r -> 0 <= v < W64 -> 0 <= a < W64 -> 0 <= b < W64 ->
  (in_range_accepts r v a b = true <-> a <= v < b).
Proof. exact in_range_accepts_iff. Qed.
Print Assumptions in_range_prover_exact.

Theorem in_range_boundary_cases : forall r a b,
  2 ^ 65 < r -> 0 <= a < W64 -> 0 <= b < W64 ->
  (a < b -> in_range_accepts r a a b = true /\ in_range_accepts r (b - 1) a b = true)
  /\ in_range_accepts r b a b = false
  /\ (a = b -> forall v, 0 <= v < W64 -> in_range_accepts r v a b = false)
  /\ (0 < a -> in_range_accepts r (a - 1) a b = false).
Proof. exact in_range_boundaries. Qed.
Print Assumptions in_range_boundary_cases.

(** * padding of sets to a power of two keeps the statement *)
Theorem set_padding_preserves_membership : forall A (l : list A) v,
  (In v (pad_pow2 l) <-> In v l) /\ (~ In v (pad_pow2 l) <-> ~ In v l).
Proof. intros A l v. pose proof (pad_pow2_In A l v). tauto. Qed.
Print Assumptions set_padding_preserves_membership.

Theorem set_padding_shape : forall A (l : list A), l <> [] ->
  length (pad_pow2 l) = next_pow2 (length l) /\ is_pow2 (length (pad_pow2 l))
  /\ (length l <= length (pad_pow2 l) < 2 * length l)%nat
  /\ firstn (length l) (pad_pow2 l) = l.
Proof.
  intros A l H. destruct (pad_pow2_length A l H) as [E [P B]].
  repeat split; try assumption; try apply B. apply pad_pow2_prefix.
Qed.
Print Assumptions set_padding_shape.

(** * The protocols, over every commutative ring F and F-module G satisfying [bp_laws]
    (challenges are arbitrary elements; where the code inverts one, its inverse is a separate
    element with u * ui = 1). *)

(** inner-product argument: for vectors of length 2^k, all generators and all challenges, the honest
    transcript satisfies the verifier's check, and has one (L,R) pair per round *)
Theorem ipa_complete : forall Ops, bp_laws Ops -> forall us Gs Hs Q a b,
  inv_ok Ops us ->
  length a = Nat.pow 2 (length us) -> length b = Nat.pow 2 (length us) ->
  length Gs = Nat.pow 2 (length us) -> length Hs = Nat.pow 2 (length us) ->
  forall lr fa fb, ipa_prove Ops us Gs Hs Q a b = (lr, fa, fb) ->
  ipa_check Ops us Gs Hs Q (ipa_statement Ops a b Gs Hs Q) lr fa fb /\ length lr = length us.
Proof. intros Ops L. destruct L. intros. eapply BpProofs.ipa_prove_correct; eassumption. Qed.
Print Assumptions ipa_complete.

(** the single multi-exponentiation evaluated by [verify_inner_product_with_scalars] is the neutral
    element iff the textbook check holds for H' = c o H and P' = the given combination *)
Theorem ipa_verifier_single_multiexp : forall Ops, bp_laws Ops -> forall us c Gs Hs Q Xs eG eH eQ eX lr a b,
  length Gs = Nat.pow 2 (length us) -> length Hs = length Gs -> length c = length Gs ->
  length eG = length Gs -> length eH = length Gs ->
  (ipa_code_lhs Ops us c Gs Hs Q Xs eG eH eQ eX lr a b = o_g0 Ops
   <-> ipa_check Ops us Gs (gvmul Ops c Hs) Q
         (o_gadd Ops (o_gadd Ops (o_gadd Ops (msum Ops eG Gs) (msum Ops eH Hs)) (o_smul Ops eQ Q)) (msum Ops eX Xs))
         lr a b).
Proof. intros Ops L. destruct L. intros. eapply BpProofs.ipa_code_iff; eassumption. Qed.
Print Assumptions ipa_verifier_single_multiexp.

(** the verifier returns Ok iff an explicit conjunction of two group equations holds (and the
    challenges it inverts are invertible) - this is what "altered in any component" reduces to *)
Theorem verify_is_equations : forall Ops, bp_laws Ops -> forall Gs Hs B Bt p Vterm delta eG eH y yi x w us,
  bp_verdict Ops Gs Hs B Bt p Vterm delta eG eH y yi x w us = VOk
  <-> ((bp_eq1_lhs Ops B Bt p = bp_eq1_rhs Ops B p Vterm delta x
        /\ bp_eq2_lhs Ops Gs Hs B Bt p eG eH yi x w us = o_g0 Ops)
       /\ o_fmul Ops y yi = o_f1 Ops /\ inv_ok Ops us).
Proof. exact verdict_ok_iff_l. Qed.
Print Assumptions verify_is_equations.

(** range proof completeness: every bit width n, batch size m = length vs with n*m = 2^k, all
    blinding scalars, all challenges; commitments are to the values represented by the n low bits
    (equal to v mod 2^n by [BpExtras.fval_canonical], so to v when 0 <= v < 2^n: [fval_in_range]) *)
Theorem range_complete : forall Ops, bp_laws Ops -> forall n vs rs Gs Hs B Bt sL sR at_ st t1t t2t y yi z x w us,
  length rs = length vs ->
  length Gs = Nat.pow 2 (length us) -> length Gs = (n * length vs)%nat -> length Hs = length Gs ->
  length sL = length Gs -> length sR = length Gs ->
  o_fmul Ops y yi = o_f1 Ops -> inv_ok Ops us ->
  range_verdict Ops n (vzip (commit Ops B Bt) (map (fval Ops n) vs) rs) Gs Hs B Bt
    (range_prove Ops n vs rs Gs Hs B Bt sL sR at_ st t1t t2t y yi z x w us) y yi z x w us = VOk.
Proof. exact range_complete_p. Qed.
Print Assumptions range_complete.

(** the same against commitments to the canonical images of the values ([gen_phiZ] = the unique ring
    homomorphism Z -> F, i.e. [scalar_from_u64]), when every value is in [0, 2^n) *)
Theorem range_complete_in_range : forall Ops, bp_laws Ops -> forall n vs rs Gs Hs B Bt sL sR at_ st t1t t2t y yi z x w us,
  Forall (fun v => 0 <= v < 2 ^ Z.of_nat n) vs ->
  length rs = length vs ->
  length Gs = Nat.pow 2 (length us) -> length Gs = (n * length vs)%nat -> length Hs = length Gs ->
  length sL = length Gs -> length sR = length Gs ->
  o_fmul Ops y yi = o_f1 Ops -> inv_ok Ops us ->
  range_verdict Ops n
    (vzip (commit Ops B Bt) (map (gen_phiZ (o_f0 Ops) (o_f1 Ops) (o_fadd Ops) (o_fmul Ops) (o_fopp Ops)) vs) rs)
    Gs Hs B Bt
    (range_prove Ops n vs rs Gs Hs B Bt sL sR at_ st t1t t2t y yi z x w us) y yi z x w us = VOk.
Proof. exact range_complete_in_range_p. Qed.
Print Assumptions range_complete_in_range.

(** the value committed for arbitrary v is the image of v mod 2^n: outside the range it is not v *)
Theorem committed_value_is_low_bits : forall Ops, bp_laws Ops -> forall n v,
  fval Ops n v = gen_phiZ (o_f0 Ops) (o_f1 Ops) (o_fadd Ops) (o_fmul Ops) (o_fopp Ops) (v mod 2 ^ Z.of_nat n).
Proof. exact fval_canonical_p. Qed.
Print Assumptions committed_value_is_low_bits.

(** [verify_scalars] as coded (floor(log2 i), u_sq table, s_i = s_(i-2^lg) u_sq[k-1-lg]) equals [svec] *)
Theorem verify_scalars_iterative_is_svec : forall Ops, bp_laws Ops -> forall us,
  inv_ok Ops us -> svec_iter Ops us = svec Ops us.
Proof. intros Ops L. destruct L. intros. apply BpExtras.svec_iter_eq_svec; assumption. Qed.
Print Assumptions verify_scalars_iterative_is_svec.

(** set membership: a proof exists iff v is in the set, and it verifies (sets of every size >= 1 after
    padding; the padded length must be the number of generators = 2^k) *)
Theorem set_member_complete : forall Ops, bp_laws Ops -> forall set v vr Gs Hs B Bt sL sR at_ st t1t t2t y yi z x w us,
  In v set ->
  length Gs = Nat.pow 2 (length us) -> length Gs = length (pad_pow2 set) -> length Hs = length Gs ->
  length sL = length Gs -> length sR = length Gs ->
  o_fmul Ops y yi = o_f1 Ops -> inv_ok Ops us ->
  exists p, mem_prove Ops set v vr Gs Hs B Bt sL sR at_ st t1t t2t y yi z x w us = Some p
    /\ mem_verdict Ops set (commit Ops B Bt v vr) Gs Hs B Bt p y yi z x w us = VOk.
Proof. exact mem_complete_p. Qed.
Print Assumptions set_member_complete.

Theorem set_member_no_honest_proof_outside : forall Ops, bp_laws Ops -> forall set v vr Gs Hs B Bt sL sR at_ st t1t t2t y yi z x w us,
  ~ In v set -> mem_prove Ops set v vr Gs Hs B Bt sL sR at_ st t1t t2t y yi z x w us = None.
Proof. exact mem_no_proof_p. Qed.
Print Assumptions set_member_no_honest_proof_outside.

Theorem set_nonmember_complete : forall Ops, bp_laws Ops -> forall set v vr invs Gs Hs B Bt sL sR at_ st t1t t2t y yi z x w us,
  ~ In v set ->
  Forall2 (fun si iv => o_fmul Ops (o_fsub Ops v si) iv = o_f1 Ops) (pad_pow2 set) invs ->
  length Gs = Nat.pow 2 (length us) -> length Gs = length (pad_pow2 set) -> length Hs = length Gs ->
  length sL = length Gs -> length sR = length Gs ->
  o_fmul Ops y yi = o_f1 Ops -> inv_ok Ops us ->
  exists p, nonmem_prove Ops set v vr invs Gs Hs B Bt sL sR at_ st t1t t2t y yi z x w us = Some p
    /\ nonmem_verdict Ops set (commit Ops B Bt v vr) Gs Hs B Bt p y yi z x w us = VOk.
Proof. exact nonmem_complete_p. Qed.
Print Assumptions set_nonmember_complete.

Theorem set_nonmember_no_honest_proof_inside : forall Ops, bp_laws Ops -> forall set v vr invs Gs Hs B Bt sL sR at_ st t1t t2t y yi z x w us,
  In v set -> nonmem_prove Ops set v vr invs Gs Hs B Bt sL sR at_ st t1t t2t y yi z x w us = None.
Proof. exact nonmem_no_proof_p. Qed.
Print Assumptions set_nonmember_no_honest_proof_inside.

(** * Fiat-Shamir: every challenge is the hash of a frame that injectively contains every earlier
    prover message (both transcript implementations; [same_shape] = same labels and payload lengths,
    which holds for any two proofs checked in one context because points and scalars have fixed-width
    encodings).  Accepting an altered message with unchanged challenges therefore exhibits an explicit
    SHA3 collision. *)

(** the string hashed for u_j determines L_0..L_j and R_0..R_j *)
Theorem ipa_challenges_bind_L_and_R : forall k st lrs lrs' j,
  same_shape (ipa_items lrs j) (ipa_items lrs' j) ->
  ipa_state_at k st lrs j = ipa_state_at k st lrs' j ->
  firstn (S j) lrs = firstn (S j) lrs'.
Proof. exact ipa_challenges_bind_L_and_R_l. Qed.
Print Assumptions ipa_challenges_bind_L_and_R.

Theorem ipa_alter_gives_collision : forall (H : bytes -> bytes) k st lrs lrs' j,
  same_shape (ipa_items lrs j) (ipa_items lrs' j) ->
  firstn (S j) lrs <> firstn (S j) lrs' ->
  H (ipa_state_at k st lrs j) = H (ipa_state_at k st lrs' j) ->
  exists s s', s <> s' /\ H s = H s'.
Proof. exact ipa_alter_gives_collision_l. Qed.
Print Assumptions ipa_alter_gives_collision.

(** range / set proofs: the string hashed for u_j determines the public inputs (generators, keys, bit
    width, commitments / set), A, S, T_1, T_2, t_x, tx~, e~ and all (L,R) pairs up to round j *)
Theorem range_challenges_bind_all_commitments : forall k st pre pre' p p' j,
  List.length pre = List.length pre' ->
  same_shape (items_at pre p (SU j)) (items_at pre' p' (SU j)) ->
  state_at k st pre p (SU j) = state_at k st pre' p' (SU j) ->
  pre = pre' /\ mA p = mA p' /\ mS p = mS p' /\ mT1 p = mT1 p' /\ mT2 p = mT2 p'
  /\ mtx p = mtx p' /\ mtxt p = mtxt p' /\ met p = met p'
  /\ firstn (S j) (mlr p) = firstn (S j) (mlr p').
Proof. exact range_challenges_bind_all_commitments_l. Qed.
Print Assumptions range_challenges_bind_all_commitments.

(** y (and z) bind the public inputs, A, S; x additionally T_1, T_2; w additionally t_x, tx~, e~ *)
Theorem early_challenges_bind : forall k st pre pre' p p',
  List.length pre = List.length pre' ->
  (same_shape (items_at pre p SY) (items_at pre' p' SY) ->
   state_at k st pre p SY = state_at k st pre' p' SY ->
   pre = pre' /\ mA p = mA p' /\ mS p = mS p')
  /\ (same_shape (items_at pre p SX) (items_at pre' p' SX) ->
      state_at k st pre p SX = state_at k st pre' p' SX ->
      pre = pre' /\ mA p = mA p' /\ mS p = mS p' /\ mT1 p = mT1 p' /\ mT2 p = mT2 p')
  /\ (same_shape (items_at pre p SW) (items_at pre' p' SW) ->
      state_at k st pre p SW = state_at k st pre' p' SW ->
      pre = pre' /\ mA p = mA p' /\ mS p = mS p' /\ mT1 p = mT1 p' /\ mT2 p = mT2 p'
      /\ mtx p = mtx p' /\ mtxt p = mtxt p' /\ met p = met p').
Proof. exact early_challenges_bind_l. Qed.
Print Assumptions early_challenges_bind.

Theorem alter_gives_collision : forall (H : bytes -> bytes) k st pre pre' p p' s,
  same_shape (items_at pre p s) (items_at pre' p' s) ->
  items_at pre p s <> items_at pre' p' s ->
  H (state_at k st pre p s) = H (state_at k st pre' p' s) ->
  exists s1 s2, s1 <> s2 /\ H s1 = H s2.
Proof. exact alter_gives_collision_l. Qed.
Print Assumptions alter_gives_collision.

(** non-vacuity: two same-shape inner-product transcripts that differ only in R_0 are hashed differently *)
Example transcript_binding_nonvacuous :
  same_shape (ipa_items [([1%N], [2%N])] 0) (ipa_items [([1%N], [3%N])] 0)
  /\ ipa_state_at Legacy [] [([1%N], [2%N])] 0 <> ipa_state_at Legacy [] [([1%N], [3%N])] 0
  /\ ipa_state_at V1 [] [([1%N], [2%N])] 0 <> ipa_state_at V1 [] [([1%N], [3%N])] 0.
Proof. split; [split; reflexivity|]. split; vm_compute; discriminate. Qed.
Print Assumptions transcript_binding_nonvacuous.

(** non-vacuity of [bp_laws] and of the hypotheses of the completeness theorems: the integers as a
    module over themselves, challenges +-1 (the only units), n = 2, m = 2, values 3 and 1; the
    model verifier accepts the model proof and rejects it when t_x is off by one *)
Example laws_nonvacuous :
  bp_laws ZOps /\ inv_ok ZOps [(-1, -1); (1, 1)]
  /\ (let p := range_prove ZOps 2 [3; 1] [7; 9] [2; 3; 5; 7] [11; 13; 17; 19] 23 29
                 [1; 2; 3; 4] [5; 6; 7; 8] 31 37 41 43 (-1) (-1) 10 3 4 [(-1, -1); (1, 1)] in
      let Vs := vzip (commit ZOps 23 29) (map (fval ZOps 2) [3; 1]) [7; 9] in
      range_verdict ZOps 2 Vs [2; 3; 5; 7] [11; 13; 17; 19] 23 29 p (-1) (-1) 10 3 4 [(-1, -1); (1, 1)] = VOk
      /\ map (fval ZOps 2) [3; 1] = [3; 1]
      /\ range_verdict ZOps 2 Vs [2; 3; 5; 7] [11; 13; 17; 19] 23 29
           (mkProof ZOps (pA _ p) (pS _ p) (pT1 _ p) (pT2 _ p) (ptx _ p + 1) (ptxt _ p) (pet _ p) (plr _ p) (pa _ p) (pb _ p))
           (-1) (-1) 10 3 4 [(-1, -1); (1, 1)] = VFirst)
  /\ match mem_prove ZOps [5; 6; 7] 7 100 [2; 3; 5; 7] [11; 13; 17; 19] 23 29
                  [1; 2; 3; 4] [5; 6; 7; 8] 31 37 41 43 (-1) (-1) 10 3 4 [(-1, -1); (1, 1)] with
     | Some p => mem_verdict ZOps [5; 6; 7] (commit ZOps 23 29 7 100) [2; 3; 5; 7] [11; 13; 17; 19] 23 29 p
                   (-1) (-1) 10 3 4 [(-1, -1); (1, 1)] = VOk
     | None => False
     end.
Proof.
  split; [exact ZOps_laws|]. split; [repeat constructor|]. split.
  - vm_compute. repeat split; reflexivity.
  - vm_compute. reflexivity.
Qed.
Print Assumptions laws_nonvacuous.

(** non-vacuity: the BLS12-381 scalar order satisfies the hypothesis on r, and boundary instances *)
Example r_bls_ok :
  2 ^ 65 < 0x73eda753299d7d483339d80809a1d80553bda402fffe5bfeffffffff00000001
  /\ in_range_accepts 0x73eda753299d7d483339d80809a1d80553bda402fffe5bfeffffffff00000001 5 5 6 = true
  /\ in_range_accepts 0x73eda753299d7d483339d80809a1d80553bda402fffe5bfeffffffff00000001 6 5 6 = false
  /\ in_range_accepts 0x73eda753299d7d483339d80809a1d80553bda402fffe5bfeffffffff00000001 4 5 6 = false
  /\ leq_accepts_wrapping 0x73eda753299d7d483339d80809a1d80553bda402fffe5bfeffffffff00000001 8 255 255 = true
  /\ leq_accepts_wrapping 0x73eda753299d7d483339d80809a1d80553bda402fffe5bfeffffffff00000001 8 200 199 = false
  /\ pad_pow2 [5; 6; 7] = [5; 6; 7; 7] /\ bits 5 4 = [1; 0; 1; 0].
Proof. vm_compute. repeat split; reflexivity. Qed.
Print Assumptions r_bls_ok.
