(** * Props/C09 — validation admits only safe modules; parsing and validation are total.

    Models: [Wasm/Validate.v] (transcription of validate.rs: function level and module level),
    [Wasm/Leb128.v] (the LEB128 readers of parse.rs), [Wasm/Typing.v] (the declarative typing of
    the WebAssembly specification), [Gen/Limits.v] (generated from constants.rs on every run),
    [Wasm/Parse.v] (parse.rs), [Wasm/Imports.v] (the allowed imports and exports), and for the compiler's
    output grammar [Wasm/Compile.v] and [Wasm/Machine.v]. *)
From Coq Require Import ZArith NArith String List Bool.
From CB Require Import Common.IntN Wasm.Syntax Gen.Limits Wasm.Validate Wasm.ValidateLimits
  Wasm.Typing Wasm.ValidateProofs Wasm.ValidateComplete Wasm.Sem Wasm.TypeSound Wasm.Accepted
  Wasm.C09Examples Wasm.Leb128 Wasm.Leb128Proofs Wasm.Leb128Signed Wasm.Imports
  Wasm.Parse Wasm.ParseProofs Wasm.ParseDecode.
Import ListNotations.

(** Validation is a total function: structural recursion over the opcode list, no fuel. *)
Theorem validate_total :
  forall c ops, {h | validate_func c ops = Some h} + {validate_func c ops = None}.
Proof. intros c ops. destruct (validate_func c ops) as [h|]; [left; exists h; reflexivity|right; reflexivity]. Qed.
Print Assumptions validate_total.

(** Soundness of the validation algorithm (operand stack with unknown types, control frames):
    an accepted function body that does not continue after the [end] closing the function is a
    well-nested expression, well typed by the specification's rules in the function's context. *)
Theorem validate_sound :
  forall c ops h,
    validate_func c ops = Some h -> ends_early c ops = false ->
    exists is, structure_body (map fst ops) = Some is /\ body_ok (tctx_of c) is.
Proof. exact validate_sound_thm. Qed.
Print Assumptions validate_sound.

(** The unguarded statement is false for the faithful model, as for the implementation
    (finding KF-C09-1): the body [end; nop] is accepted but is not an expression. *)
Theorem validate_sound_refuted :
  exists c ops h, validate_func c ops = Some h /\ structure_body (map fst ops) = None /\ ends_early c ops = true.
Proof. exact validate_sound_refuted_thm. Qed.
Print Assumptions validate_sound_refuted.

Example validate_sound_hypotheses_satisfiable :
  validate_func ex_ctx ex_body = Some 1%nat /\ ends_early ex_ctx ex_body = false.
Proof. exact validate_sound_nonvacuous. Qed.
Print Assumptions validate_sound_hypotheses_satisfiable.

(** Completeness on the reachable-code fragment: a well-typed body in which the stack-polymorphic
    instructions (unreachable, br, br_table, return) occur only as the last instruction of a
    sequence (no instruction is validated in the unreachable state of a frame), with switch sizes
    within MAX_SWITCH_SIZE and sign-extension operators only if the parser admits them, in a
    context whose function type indices exist, is accepted (with alignment 0). *)
Theorem validate_complete_partial :
  forall c, Forall (fun ti => ti < length (vc_types c))%nat (vc_funcs c) ->
  forall is, body_ok (tctx_of c) is -> seq_cond (vc_signext c) is = true ->
    exists h, validate_func c (map (fun o => (o, 0%N)) (flatten_body is)) = Some h.
Proof. exact validate_complete_partial_thm. Qed.
Print Assumptions validate_complete_partial.
Example validate_complete_hypotheses_satisfiable :
  body_ok (tctx_of ex_ctx) is_live /\ seq_cond true is_live = true /\ length is_live = 3%nat /\
  Forall (fun ti => ti < length (vc_types ex_ctx))%nat (vc_funcs ex_ctx).
Proof. exact validate_complete_hypotheses. Qed.
Print Assumptions validate_complete_hypotheses_satisfiable.

(** Type soundness of the reference semantics (preservation + progress, all instructions
    including calls and call_indirect): in a well-typed module, with hosts that respect the
    types of the imports, invoking a function on arguments of its parameter types from a
    well-typed store never yields [RStuck]; a returned store is well typed and the result has
    the declared type. *)
Theorem sem_type_sound :
  forall host page_cap m fuel s fi args ft,
    module_ok m -> host_ok host m -> store_ok m s ->
    nth_error (ftypes m) fi = Some ft -> map type_of_val args = ft_params ft ->
    inv_ok m ft (invoke host page_cap m fuel s fi args).
Proof. exact invoke_safe. Qed.
Print Assumptions sem_type_sound.

Theorem run_never_stuck :
  forall host page_cap m fuel fi args ft,
    module_ok m -> segments_ok m -> host_ok host m ->
    nth_error (ftypes m) fi = Some ft -> map type_of_val args = ft_params ft ->
    run host page_cap m fuel fi args <> Stuck.
Proof. exact run_never_stuck_thm. Qed.
Print Assumptions run_never_stuck.

(** [accepted_never_stuck]: validation (model of validate.rs) + validate_sound + type soundness.
    A module accepted by [validate_module] (outside KF-C09-1), decoded as [m], instantiates, and
    no invocation with well-typed arguments ever reaches the [Stuck] outcome of the reference
    semantics - for every fuel, embedder page cap and type-respecting host. *)
Theorem accepted_never_stuck :
  forall signext vm m host page_cap fuel fi args ft,
    validate_module signext vm = true -> no_trailing signext vm -> corresponds vm m ->
    host_ok host m ->
    nth_error (ftypes m) fi = Some ft -> map type_of_val args = ft_params ft ->
    run host page_cap m fuel fi args <> Stuck.
Proof. exact accepted_never_stuck_thm. Qed.
Print Assumptions accepted_never_stuck.
Example accepted_never_stuck_hypotheses_satisfiable :
  validate_module true vm_ex = true /\ no_trailing true vm_ex /\ corresponds vm_ex m_ex /\
  host_ok no_host m_ex /\
  nth_error (ftypes m_ex) 0 = Some {| ft_params := [T_i32]; ft_result := Some T_i32 |}.
Proof. exact accepted_never_stuck_hypotheses. Qed.
Print Assumptions accepted_never_stuck_hypotheses_satisfiable.

(** Every memory instruction of an accepted body has at most the natural alignment. *)
Theorem validate_alignment_ok :
  forall c ops h, validate_func c ops = Some h -> forallb vop_align_ok ops = true.
Proof. exact validate_alignment. Qed.
Print Assumptions validate_alignment_ok.

(** Module level: every function of an accepted module has an existing type, at most
    ALLOWED_LOCALS locals, locals + maximal operand stack height within MAX_ALLOWED_STACK_HEIGHT,
    naturally aligned accesses, and (outside KF-C09-1) a well-typed body. *)
Theorem validate_module_sound :
  forall signext m, validate_module signext m = true ->
  forall f, In f (vm_funcs m) ->
  exists ft locals h,
    nth_error (vm_types m) (mf_type f) = Some ft /\
    make_locals (ft_params ft) (mf_locals f) = Some locals /\
    validate_func (func_ctx signext m ft locals) (mf_body f) = Some h /\
    (N.of_nat (length locals) + N.of_nat h <= MAX_ALLOWED_STACK_HEIGHT)%N /\
    forallb vop_align_ok (mf_body f) = true /\
    (ends_early (func_ctx signext m ft locals) (mf_body f) = false ->
     exists is, structure_body (map fst (mf_body f)) = Some is /\
                body_ok (tctx_of (func_ctx signext m ft locals)) is).
Proof. exact validate_module_sound_thm. Qed.
Print Assumptions validate_module_sound.

(** Accepted modules obey every limit of constants.rs (table and memory sizes, globals, exports,
    element and data segments inside the table / initial memory, locals and stack height). *)
Theorem validate_module_limits :
  forall signext m, validate_module signext m = true -> module_limits m.
Proof. exact validate_module_limits_thm. Qed.
Print Assumptions validate_module_limits.

(** The switch size limit is enforced on every accepted br_table. *)
Theorem validate_switch_size :
  forall c s ls d al s', vstep_basic c s (BBrTable ls d) al = Some s' ->
    (N.of_nat (length ls) <= MAX_SWITCH_SIZE)%N.
Proof. exact switch_size_checked. Qed.
Print Assumptions validate_switch_size.

(** The generated constants are consistent with the interpreter's representation choices. *)
Theorem limits_consistency :
  (MAX_NUM_GLOBALS <= 2 ^ 16 /\ MAX_SWITCH_SIZE < 2 ^ 16 /\
   MAX_INIT_MEMORY_SIZE <= MAX_NUM_PAGES /\ MAX_NUM_PAGES * PAGE_SIZE < 2 ^ 32 /\
   MAX_INIT_MEMORY_SIZE * PAGE_SIZE <= u32_max /\ PAGE_SIZE = page_size /\
   ALLOWED_LOCALS <= MAX_ALLOWED_STACK_HEIGHT /\ MAX_NUM_PAGES <= 65536)%N.
Proof. exact limits_consistent. Qed.
Print Assumptions limits_consistency.

(** The memory bound handed to the interpreter by compilation ([Module::compile]: min(declared
    max, MAX_NUM_PAGES), tied to the real artifact by the correspondence run) never exceeds
    MAX_NUM_PAGES, so memory.grow's [set_len] stays inside the preallocated buffer. *)
Theorem artifact_memory_bounded :
  forall signext m init mx,
    validate_module signext m = true -> artifact_memory m = Some (init, mx) ->
    (init <= mx /\ mx <= MAX_NUM_PAGES /\ mx * PAGE_SIZE <= MAX_NUM_PAGES * PAGE_SIZE /\
     MAX_NUM_PAGES * PAGE_SIZE < 2 ^ 32)%N.
Proof. exact artifact_memory_bounded_thm. Qed.
Print Assumptions artifact_memory_bounded.

(** ** The parser (model of parse.rs: skeleton, all sections, opcode decoder, constant
    expressions; tied to the implementation on the byte-level mutant stream). *)

(** [parse_total]: parsing is a total function of the byte string; the fuel that bounds the
    vector and opcode loops (remaining input length + 1) is never exhausted. *)
Theorem parse_total :
  forall cfg bs, parse_module cfg bs <> PFuel /\ parse_skeleton bs <> PFuel.
Proof. exact parse_total_thm. Qed.
Print Assumptions parse_total.

(** [parse_alloc_bounded]: the ghost allocation counter (pre-reservation
    min(declared, MAX_PREALLOCATED_BYTES / size) per vector + one element per parsed item + names)
    is linear in the input length: c0 = 0, c1 = 14 * (MAX_PREALLOCATED_BYTES + 64). *)
Theorem parse_alloc_bounded :
  forall cfg bs p r a, parse_module cfg bs = POk p r a ->
    (a <= 14 * (MAX_PREALLOCATED_BYTES + esz_max) * N.of_nat (length bs))%N.
Proof. exact parse_alloc_bounded_thm. Qed.
Print Assumptions parse_alloc_bounded.
(** whatever length a vector declares, its up-front reservation is at most MAX_PREALLOCATED_BYTES *)
Theorem parse_prealloc_bounded :
  forall esize declared, (prealloc esize declared <= MAX_PREALLOCATED_BYTES)%N.
Proof. exact prealloc_le. Qed.
Print Assumptions parse_prealloc_bounded.

(** [parse_sections_ordered]: an accepted skeleton has strictly increasing non-custom section ids
    (no reordering, no duplicates), all in 1..11. *)
Theorem parse_sections_ordered :
  forall bs ss r a, parse_skeleton bs = POk ss r a ->
    Sorted.StronglySorted N.lt (noncustom_ids ss) /\ Forall (fun i => 0 < i <= 11)%N (noncustom_ids ss).
Proof. exact parse_sections_ordered_thm. Qed.
Print Assumptions parse_sections_ordered.

(** the decoded module [corresponds] to what the validator saw, and an accepted module decodes *)
Theorem parse_decode_corresponds :
  forall cap p vm m, to_vmodule cap p = Some vm -> decode_module cap p = Some m -> corresponds vm m.
Proof. exact decode_corresponds. Qed.
Print Assumptions parse_decode_corresponds.
Theorem accepted_bytes_decode :
  forall cfg bs p r a vm, parse_module cfg bs = POk p r a ->
    to_vmodule (N.of_nat (length bs)) p = Some vm ->
    validate_module (cfg_signext cfg) vm = true -> no_trailing (cfg_signext cfg) vm ->
    exists m, decode_module (N.of_nat (length bs)) p = Some m.
Proof. exact accepted_decodes. Qed.
Print Assumptions accepted_bytes_decode.

(** [accepted_bytes_never_stuck]: from bytes to safe execution on the reference semantics -
    parse (model of parse.rs), validate (model of validate.rs), decode, run. *)
Theorem accepted_bytes_never_stuck :
  forall cfg bs p r a vm m host page_cap fuel fi args ft,
    parse_module cfg bs = POk p r a ->
    to_vmodule (N.of_nat (length bs)) p = Some vm ->
    validate_module (cfg_signext cfg) vm = true -> no_trailing (cfg_signext cfg) vm ->
    decode_module (N.of_nat (length bs)) p = Some m ->
    host_ok host m ->
    nth_error (ftypes m) fi = Some ft -> map type_of_val args = ft_params ft ->
    run host page_cap m fuel fi args <> Stuck.
Proof. exact accepted_bytes_never_stuck_thm. Qed.
Print Assumptions accepted_bytes_never_stuck.

Example parse_hypotheses_satisfiable :
  accepts cfg_v1 bytes_ex = true /\ accepts cfg_v0 bytes_ex = true /\
  (exists ss r a, parse_skeleton bytes_ex = POk ss r a /\ noncustom_ids ss = [1; 3; 7; 10]%N) /\
  accepts cfg_v1 (bytes_ex ++ [0x03; 0x02; 0x01; 0x00]%N) = false.
Proof. exact parse_example. Qed.
Print Assumptions parse_hypotheses_satisfiable.

(** Permitted imports and exports (transcription of the v0 / v1 ConcordiumAllowedImports, tied to
    the implementation query by query): only the listed host functions of module "concordium", with
    exactly the listed types and not duplicated, are admitted; entrypoint exports have type
    [i64] -> i32 and names of at most 100 graphic ASCII characters. *)
Theorem import_only_listed :
  forall table dup md name ft, import_ok table dup md name ft = true ->
    dup = false /\ md = "concordium"%string /\ In (name, ft_params ft, ft_result ft) table.
Proof. exact import_only_listed_thm. Qed.
Print Assumptions import_only_listed.
Theorem export_v0_entry :
  forall name ft, export_ok_v0 name ft = true ->
    ft_params ft = [T_i64] /\ ft_result ft = Some T_i32 /\
    (String.length name <= MAX_EXPORT_NAME_LEN)%nat /\ is_entry_name name = true.
Proof. exact export_v0_entry_thm. Qed.
Print Assumptions export_v0_entry.
Theorem export_v1_entry :
  forall name ft, export_ok_v1 name ft = true -> (String.length name <= MAX_EXPORT_NAME_LEN)%nat /\
    (is_entry_name name = true -> ft_params ft = [T_i64] /\ ft_result ft = Some T_i32).
Proof. exact export_v1_entry_thm. Qed.
Print Assumptions export_v1_entry.

(** LEB128 readers: round trip of the canonical encodings, bounded consumption (decoding is a
    total function reading at most 5 / 10 bytes), range of 32-bit values. *)
Theorem leb_u32_roundtrip :
  forall n rest, (n < 2 ^ 32)%N -> decode_u32 (uenc 5 n ++ rest) = Some (n, rest).
Proof. exact leb_u32_roundtrip_thm. Qed.
Print Assumptions leb_u32_roundtrip.
Theorem leb_u64_roundtrip :
  forall n rest, (n < 2 ^ 64)%N -> decode_u64 (uenc 10 n ++ rest) = Some (n, rest).
Proof. exact leb_u64_roundtrip_thm. Qed.
Print Assumptions leb_u64_roundtrip.
Theorem leb_s32_roundtrip :
  forall z rest, (- 2 ^ 31 <= z < 2 ^ 31)%Z -> decode_s32 (senc 5 z ++ rest) = Some (z, rest).
Proof. exact leb_s32_roundtrip_thm. Qed.
Print Assumptions leb_s32_roundtrip.
Theorem leb_s64_roundtrip :
  forall z rest, (- 2 ^ 63 <= z < 2 ^ 63)%Z -> decode_s64 (senc 10 z ++ rest) = Some (z, rest).
Proof. exact leb_s64_roundtrip_thm. Qed.
Print Assumptions leb_s64_roundtrip.
Theorem leb_decode_u32_bounded :
  forall bs v r, decode_u32 bs = Some (v, r) ->
    (v < 2 ^ 32)%N /\ exists pre, bs = pre ++ r /\ (1 <= length pre <= 5)%nat.
Proof. exact decode_u32_bounded. Qed.
Print Assumptions leb_decode_u32_bounded.
Theorem leb_decode_u64_bounded :
  forall bs v r, decode_u64 bs = Some (v, r) -> exists pre, bs = pre ++ r /\ (1 <= length pre <= 10)%nat.
Proof. exact decode_u64_bounded. Qed.
Print Assumptions leb_decode_u64_bounded.
Theorem leb_decode_s32_bounded :
  forall bs v r, decode_s32 bs = Some (v, r) ->
    (- 2 ^ 31 <= v < 2 ^ 31)%Z /\ exists pre, bs = pre ++ r /\ (1 <= length pre <= 5)%nat.
Proof. exact decode_s32_bounded. Qed.
Print Assumptions leb_decode_s32_bounded.
Theorem leb_decode_s64_bounded :
  forall bs v r, decode_s64 bs = Some (v, r) -> exists pre, bs = pre ++ r /\ (1 <= length pre <= 10)%nat.
Proof. exact decode_s64_bounded. Qed.
Print Assumptions leb_decode_s64_bounded.
(** a sixth byte is never accepted for a 32-bit value *)
Theorem leb_u32_too_long :
  forall b1 b2 b3 b4 b5 r, (128 <= b1 -> 128 <= b2 -> 128 <= b3 -> 128 <= b4 -> 128 <= b5 ->
    decode_u32 (b1 :: b2 :: b3 :: b4 :: b5 :: r) = None)%N.
Proof. exact leb_u32_too_long_thm. Qed.
Print Assumptions leb_u32_too_long.

(** ** Safety of the COMPILED code (the register-machine code emitted by the model of
    [Module::compile], [Wasm/Compile.v], byte-for-byte tied to the real compiler by C01's layer (i)).

    [code_safe cx nregs nconsts code] (Wasm/CompileSafe4.v): the byte string is the encoding of a list
    of fields that (d) parses completely by the instruction grammar [shaped] (= what the decoder of
    machine.rs reads after each opcode byte: every opcode has all its immediates), in which (a) every
    source operand [p] satisfies [- nconsts <= p < nregs] (register below [num_registers], or constant
    index [-(p+1)] inside the constants table: (b)), every written register [r] satisfies
    [0 <= r < nregs], and (c) every jump target (after back-patching) is the offset of an instruction
    start of that grammar and is [<= length code].

    Proved for EVERY opcode sequence on which the compiler model succeeds (all cases of
    [Handler::handle_opcode]: end, else, block, loop, if, br, br_if, br_table, return, call,
    call_indirect, unreachable, the metering tick, and every straight-line instruction), in reachable
    and unreachable code.  Hypotheses: local indices in range (validation checks that) and the context's
    return type is the function's.  PARTIAL in two respects: the grammar does not tie the number of
    br_table entries to the u16 immediate (validation's "all arms have the default's label type" is
    not available in the compiler model), and no theorem links the grammar to a [Machine.v] step. *)
From CB Require Import Wasm.Compile Wasm.CompileLemmas Wasm.BlockProofs Wasm.CompileSafe Wasm.CompileSafe2 Wasm.CompileSafe4.
Theorem compile_output_safe_partial :
  forall cx ti ft nd ops cf,
    cx_return cx = ft_result ft ->
    Forall (fun op => op_locals (Z.of_nat (length (ft_params ft) + nd)) op = true) ops ->
    compile_function cx ti ft nd ops = Some cf ->
    (0 <= cf_num_registers cf)%Z /\ (Z.of_nat (length (ft_params ft) + nd) <= cf_num_registers cf)%Z
    /\ code_safe cx (cf_num_registers cf) (Z.of_nat (length (cf_constants cf))) (cf_code cf).
Proof. exact compile_output_safe_partial_proof. Qed.
Print Assumptions compile_output_safe_partial.

(** non-vacuity (of this theorem and of [machine_operands_in_bounds_partial] below): a function with block / if / else / br / br_if / br_table / loop / call, arithmetic,
    a constant, local.set (with the last_provide_loc short cut) and a result is compiled and satisfies
    the hypotheses *)
Theorem compile_output_safe_hypotheses_satisfiable :
  let fty := {| ft_params := [T_i32]; ft_result := Some T_i32 |} in
  let cx := {| cx_func_type := fun _ => Some fty; cx_type := fun _ => Some fty; cx_return := Some T_i32 |} in
  let ops := [OBlock None; OBasic (BLocalGet 0); OBasic (BConst T_i32 1); OBasic (BBinop T_i32 Add);
              OBasic (BLocalSet 0); OBasic (BLocalGet 0); OBasic (BBrIf 0); OBasic (BBr 0); OEnd;
              OLoop None; OBasic (BLocalGet 0); OBasic (BBrTable [0%nat] 0); OEnd;
              OBasic (BLocalGet 0); OIf (Some T_i32); OBasic (BLocalGet 0); OBasic (BCall 0); OElse;
              OBasic (BConst T_i32 7); OBasic (BLocalGet 0); OBasic (BCallIndirect 0); OEnd; OEnd] in
  cx_return cx = ft_result fty
  /\ Forall (fun op => op_locals (Z.of_nat (length (ft_params fty) + 0)) op = true) ops
  /\ exists cf, compile_function cx 0 fty 0 ops = Some cf /\ Nat.ltb 60 (length (cf_code cf)) = true
       /\ (* the additional hypotheses of [machine_operands_in_bounds_partial] *)
          (cf_num_registers cf <=? 2147483648)%Z = true
       /\ (Z.of_nat (length (cf_constants cf)) <=? 2147483648)%Z = true
       /\ (Z.of_nat (length (cf_code cf)) <? 4294967296)%Z = true.
Proof.
  cbv zeta. split; [reflexivity|]. split; [repeat (constructor; [reflexivity|]); constructor|].
  eexists. split; [vm_compute; reflexivity|]. repeat split; vm_compute; reflexivity.
Qed.
Print Assumptions compile_output_safe_hypotheses_satisfiable.

(** Link to the decoder of [Wasm/Machine.v] (PARTIAL: operand slots, not a statement about
    [step]): in the code map the machine executes ([build_code (cf_code cf)], as in [decode_codes]),
    reading an operand slot of the grammar with the machine's [get_i32] returns a register below
    [num_registers] or a constant index inside the constants table; reading a written-register slot
    returns a register in [0, num_registers); reading a jump-target slot with [get_u32] returns an
    instruction start [<= length code].  Needs [num_registers <= 2^31], [#constants <= 2^31] and
    [length code < 2^32] (the i32/u32 encodings are injective only there; the compiler model has no
    such bound: it computes in unbounded [Z], where artifact.rs keeps [next_location] in an [i32] and
    converts [constants.len()] / [out.bytes.len()] with [i32::try_from] / [u32::try_from]). *)
From CB Require Import Wasm.Machine Wasm.CompileSafe5.
From Coq Require Import FMapPositive.
Theorem machine_operands_in_bounds_partial :
  forall cx ti ft nd ops cf,
    cx_return cx = ft_result ft ->
    Forall (fun op => op_locals (Z.of_nat (length (ft_params ft) + nd)) op = true) ops ->
    compile_function cx ti ft nd ops = Some cf ->
    (cf_num_registers cf <= 2147483648)%Z -> (Z.of_nat (length (cf_constants cf)) <= 2147483648)%Z ->
    (Z.of_nat (length (cf_code cf)) < 4294967296)%Z ->
    let c := build_code (cf_code cf) xH (PositiveMap.empty N) in
    exists fl, cf_code cf = enc fl /\ shaped cx fl /\
      (forall pre p post, fl = pre ++ FSrc p :: post ->
         get_i32 c (off pre) = p /\ (- Z.of_nat (length (cf_constants cf)) <= p < cf_num_registers cf)%Z) /\
      (forall pre r post, fl = pre ++ FDst r :: post ->
         get_i32 c (off pre) = r /\ (0 <= r < cf_num_registers cf)%Z) /\
      (forall pre t post, fl = pre ++ FTgt t :: post ->
         get_u32 c (off pre) = t /\ starts cx fl t /\ (0 <= t <= Z.of_nat (length (cf_code cf)))%Z).
Proof. exact machine_operands_in_bounds_proof. Qed.
Print Assumptions machine_operands_in_bounds_partial.
