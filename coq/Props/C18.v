(** C18 - property theorems only, each followed by [Print Assumptions]; closed by [exact] or assembled
    here from the lemmas of Crypto/StatementsProofs.v, StatementsCompose.v and BpTheorems.v.

    Scope (see design/C18.md): the exact scalar encoding of attribute values (injectivity, all
    collisions between kinds, agreement of the scalar order with the attribute order), decidable
    truth of atomic statements, the exact arithmetic of the in-range statement, the honest prover's
    refusal / acceptance as a function of truth (with the two completeness gaps of the implementation
    exhibited as witnesses), completeness relative to the sub-protocols (C07/C11), and injectivity
    of the transcripts and of the linking message (accept-after-alter => explicit hash collision).
    Soundness against arbitrary provers is computational and NOT claimed. *)
From Coq Require Import ZArith List Bool.
From CB Require Import Crypto.Statements Crypto.StatementsProofs.
Import ListNotations.

(** * encoding *)
Theorem encoding_closed_form : forall a, wf_attr a = true ->
  encode a = encode_closed a /\ (encode a < 2 ^ 253)%N /\ (Z.of_N (encode a) < R_BLS)%Z.
Proof.
  intros a H. split; [exact (encode_closed_eq a H)|]. split; [exact (encode_lt_2_253 a H)|].
  pose proof (enc_bounds a H) as B. pose proof r_bls_gt as R.
  apply Z.lt_trans with (2 ^ 254)%Z; [|exact R]. apply Z.lt_trans with (2 ^ 253)%Z; [apply B|reflexivity].
Qed.
Print Assumptions encoding_closed_form.

Theorem encoding_injective : forall a b,
  wf_attr a = true -> wf_attr b = true -> same_kind a b = true -> encode a = encode b -> a = b.
Proof. exact encode_injective_same_kind. Qed.
Print Assumptions encoding_injective.

Theorem encoding_collisions_exact : forall a b,
  wf_attr a = true -> wf_attr b = true -> (encode a = encode b <-> canon a = canon b).
Proof. exact encode_eq_iff_canon. Qed.
Print Assumptions encoding_collisions_exact.

Theorem encoding_order_preserving : forall a b,
  wf_attr a = true -> wf_attr b = true ->
  match a, b with
  | AStr x, AStr y =>
      ((encode a < encode b)%N <-> shortlex_lt x y)
      /\ (length x = length y -> ((encode a < encode b)%N <-> attr_cmp a b = Lt))
  | ANum _, ANum _ | ATime _, ATime _ => ((encode a < encode b)%N <-> attr_cmp a b = Lt)
  | AStr x, _ => (x <> [] -> (encode b < encode a)%N) /\ (x = [] -> (encode a <= encode b)%N)
  | _, AStr y => (y <> [] -> (encode a < encode b)%N) /\ (y = [] -> (encode b <= encode a)%N)
  | ANum n, ATime m | ATime n, ANum m => ((encode a < encode b)%N <-> (n < m)%N)
  end.
Proof.
  intros [x|n|n] [y|m|m] Ha Hb;
    try (split; [apply encode_str_order; assumption|apply encode_str_order_same_length; assumption]);
    try (apply encode_mixed_order; [assumption|assumption|reflexivity]);
    try (apply encode_num_order); try (cbn [encode]; tauto).
Qed.
Print Assumptions encoding_order_preserving.

Theorem encoding_order_differs_across_string_lengths :
  exists a b, wf_attr a = true /\ wf_attr b = true /\ attr_cmp a b = Lt /\ (encode b < encode a)%N.
Proof. exact attr_order_vs_scalar_order_refuted. Qed.
Print Assumptions encoding_order_differs_across_string_lengths.

(** * truth *)
Theorem statement_truth_decidable : forall al s,
  (holds al s = true <-> Holds al s) /\ (Holds al s \/ ~ Holds al s).
Proof. intros al s. split; [exact (holds_spec al s)|destruct (holds_decidable al s); tauto]. Qed.
Print Assumptions statement_truth_decidable.

(** * in-range arithmetic of the code *)
Theorem in_range_arith_exact : forall r v a b,
  (2 ^ 254 < r -> 0 <= v < 2 ^ 253 -> 0 <= a < 2 ^ 253 -> 0 <= b < 2 ^ 253 ->
   (range_scalars_ok r v a b = true <-> (a <= v < b /\ v - a < W64 /\ b - v <= W64))
   /\ range_verifies r v a b = range_scalars_ok r v a b)%Z.
Proof.
  intros r v a b Hr Hv Ha Hb. split; [apply range_scalars_ok_iff; assumption|].
  apply range_verifies_eq_ok.
Qed.
Print Assumptions in_range_arith_exact.

Theorem in_range_arith_exact_u64 : forall r v a b,
  (2 ^ 254 < r -> 0 <= v < W64 -> 0 <= a < W64 -> 0 <= b < W64 ->
   (range_verifies r v a b = true <-> a <= v < b))%Z.
Proof. exact range_verifies_u64. Qed.
Print Assumptions in_range_arith_exact_u64.

(** * the honest prover *)
Theorem prove_some_iff_true_exact : forall r gens al s,
  (2 ^ 254 < r)%Z -> wf_alist al = true -> wf_stmt s = true ->
  accepts r gens al s = holds al s && supported_al gens al s.
Proof. exact accepts_exact. Qed.
Print Assumptions prove_some_iff_true_exact.

Theorem prove_some_iff_true : forall r gens al ss,
  (2 ^ 254 < r)%Z -> wf_alist al = true -> forallb wf_stmt ss = true ->
  forallb (supported_al gens al) ss = true ->
  (accepts_all r gens al ss = true <-> all_hold al ss = true).
Proof. exact prove_all_iff_true_supported. Qed.
Print Assumptions prove_some_iff_true.

Theorem honest_prover_never_accepts_false : forall r gens al s,
  (2 ^ 254 < r)%Z -> wf_alist al = true -> wf_stmt s = true ->
  accepts r gens al s = true -> holds al s = true.
Proof. exact accepts_implies_holds. Qed.
Print Assumptions honest_prover_never_accepts_false.

(** the unguarded statement is refuted on the faithful model: two classes of TRUE statements for
    which the implementation yields no verifying proof (KF-C18-1, KF-C18-2) *)
Theorem prove_some_iff_true_refuted :
  (let (al, s) := gap_witness_empty_set in
   wf_alist al = true /\ wf_stmt s = true /\ holds al s = true /\ outcome_of R_BLS 256 al s = Refuse)
  /\ (let (al, s) := gap_witness_wide_range in
   wf_alist al = true /\ wf_stmt s = true /\ holds al s = true /\ outcome_of R_BLS 256 al s = ProofBad).
Proof. exact prove_iff_true_refuted. Qed.
Print Assumptions prove_some_iff_true_refuted.

Theorem range_numeric_provable_iff_true : forall r gens t v lo hi,
  (2 ^ 254 < r)%Z -> (128 <= gens)%nat ->
  is_u64_attr v = true -> is_u64_attr lo = true -> is_u64_attr hi = true ->
  (is_ok (prover_outcome r gens v (SRange t lo hi)) = true <-> (encode lo <= encode v < encode hi)%N).
Proof. exact range_numeric_exact. Qed.
Print Assumptions range_numeric_provable_iff_true.

Theorem range_boundary_cases : forall r gens t a b,
  (2 ^ 254 < r)%Z -> (128 <= gens)%nat -> (a < 2 ^ 64)%N -> (b < 2 ^ 64)%N ->
  let ok v := is_ok (prover_outcome r gens (ANum v) (SRange t (ANum a) (ANum b))) in
  ((a < b)%N -> ok a = true /\ ok (b - 1)%N = true)
  /\ ok b = false
  /\ ((0 < a)%N -> ok (a - 1)%N = false)
  /\ ((b <= a)%N -> forall v, (v < 2 ^ 64)%N -> ok v = false).
Proof. exact range_boundaries_numeric. Qed.
Print Assumptions range_boundary_cases.

Theorem set_boundary_cases : forall r gens t v, (1 <= gens)%nat ->
  prover_outcome r gens v (SInSet t []) = Refuse
  /\ holds_value v (SInSet t []) = false
  /\ prover_outcome r gens v (SNotInSet t []) = Refuse
  /\ holds_value v (SNotInSet t []) = true
  /\ (forall x, is_ok (prover_outcome r gens v (SInSet t [x])) = (encode x =? encode v)%N)
  /\ (forall x, is_ok (prover_outcome r gens v (SNotInSet t [x])) = negb (encode x =? encode v)%N).
Proof. exact set_boundaries. Qed.
Print Assumptions set_boundary_cases.

Theorem set_padding_preserves_truth : forall v set, mem_enc v (pad_pow2 set) = mem_enc v set.
Proof. exact pad_preserves_mem. Qed.
Print Assumptions set_padding_preserves_truth.

(** * completeness relative to the sub-protocols; binding; linking message.
    Everything abstract is a Section variable: universally quantified after [End]. *)
Section C18_Abstract.
  Variable r : Z.
  Variable gens : nat.
  Variable sub_verifies : stmt -> attr -> bool.
  Hypothesis dlog_complete : forall t v, sub_verifies (SReveal t) v = true.
  Hypothesis dlog_value_complete : forall t w v, encode w = encode v -> sub_verifies (SValue t w) v = true.
  Hypothesis range_complete : forall t lo hi v,
    range_scalars_ok r (Z.of_N (encode v)) (Z.of_N (encode lo)) (Z.of_N (encode hi)) = true ->
    sub_verifies (SRange t lo hi) v = true.
  Hypothesis set_member_complete : forall t set v,
    set <> [] -> (padded_len (length set) <= gens)%nat -> mem_enc (encode v) (pad_pow2 set) = true ->
    sub_verifies (SInSet t set) v = true.
  Hypothesis set_nonmember_complete : forall t set v,
    set <> [] -> (padded_len (length set) <= gens)%nat -> mem_enc (encode v) (pad_pow2 set) = false ->
    sub_verifies (SNotInSet t set) v = true.

  Theorem statement_complete : forall al s, (0 < r)%Z ->
    accepts r gens al s = true ->
    verify_model sub_verifies al s = true
    /\ (forall t, s = SReveal t -> exists v, revealed al s = Some v /\ lookup t al = Some v).
  Proof. intros al s _. exact (statement_complete_rel r gens sub_verifies dlog_complete dlog_value_complete
                  range_complete set_member_complete set_nonmember_complete al s). Qed.
  Print Assumptions statement_complete.

  Variable H : list N -> list N.
  Variables Given Requested Global PV Time Issuer Stmts Net CredId Chal Proofs : Type.
  Variable e_given : Given -> list N.
  Variable e_requested : Requested -> list N.
  Variable e_global : Global -> list N.
  Variable e_pv : PV -> list N.
  Variable e_time : Time -> list N.
  Variable e_issuer : Issuer -> list N.
  Variable e_stmts : Stmts -> list N.
  Variable e_net : Net -> list N.
  Variable e_credid : CredId -> list N.
  Variable e_chal : Chal -> list N.
  Variable e_proofs : Proofs -> list N.
  Hypothesis P_given : prefix_code e_given.
  Hypothesis P_requested : prefix_code e_requested.
  Hypothesis P_global : prefix_code e_global.
  Hypothesis P_pv : prefix_code e_pv.
  Hypothesis P_time : prefix_code e_time.
  Hypothesis P_issuer : prefix_code e_issuer.
  Hypothesis P_stmts : prefix_code e_stmts.
  Hypothesis P_net : prefix_code e_net.
  Hypothesis P_credid : prefix_code e_credid.
  Hypothesis P_chal_inj : forall x y, e_chal x = e_chal y -> x = y.
  Hypothesis P_chal_len : forall x y, length (e_chal x) = length (e_chal y).
  Hypothesis P_proofs : prefix_code e_proofs.
  Variable H512 : list N -> list N.

  Let transcript := v1_account_transcript Given Requested Global PV Time Issuer Stmts Net CredId
                      e_given e_requested e_global e_pv e_time e_issuer e_stmts e_net e_credid.

  (** every field of a v1 request / presentation enters the transcript injectively ... *)
  Theorem request_fields_bound : forall q q' t t',
    transcript q ++ t = transcript q' ++ t' -> q = q' /\ t = t'.
  Proof. exact (v1_account_transcript_injective _ _ _ _ _ _ _ _ _ _ _ _ _ _ _ _ _ _
                  P_given P_requested P_global P_pv P_time P_issuer P_stmts P_net P_credid). Qed.
  Print Assumptions request_fields_bound.

  (** ... hence accepting one proof for two different requests yields an explicit collision *)
  Theorem request_alter_yields_collision : forall q q' t t',
    q <> q' -> H (transcript q ++ t) = H (transcript q' ++ t') -> exists x y, x <> y /\ H x = H y.
  Proof. exact (v1_account_alter_collision H _ _ _ _ _ _ _ _ _ _ _ _ _ _ _ _ _ _
                  P_given P_requested P_global P_pv P_time P_issuer P_stmts P_net P_credid). Qed.
  Print Assumptions request_alter_yields_collision.

  Theorem id_statement_context_bound : forall g c cred g' c' cred' t t',
    id_transcript Global CredId Chal e_global e_credid e_chal g c cred ++ t
    = id_transcript Global CredId Chal e_global e_credid e_chal g' c' cred' ++ t' ->
    g = g' /\ c = c' /\ cred = cred' /\ t = t'.
  Proof. exact (id_transcript_injective _ _ _ _ _ P_global P_credid _ P_chal_inj P_chal_len). Qed.
  Print Assumptions id_statement_context_bound.

  Theorem web3_v0_context_bound : forall g c g' c' t t',
    web3_v0_transcript Global Chal e_global e_chal c g ++ t
    = web3_v0_transcript Global Chal e_global e_chal c' g' ++ t' -> g = g' /\ c = c' /\ t = t'.
  Proof. exact (web3_v0_transcript_injective _ _ _ P_global _ P_chal_inj P_chal_len). Qed.
  Print Assumptions web3_v0_context_bound.

  Theorem linking_message_injective : forall c p c' p',
    linking_msg Chal e_chal H512 Proofs e_proofs c p = linking_msg Chal e_chal H512 Proofs e_proofs c' p' ->
    (c = c' /\ p = p') \/ (exists x y, x <> y /\ H512 x = H512 y).
  Proof. exact (linking_msg_injective _ _ P_chal_inj P_chal_len _ _ _ P_proofs). Qed.
  Print Assumptions linking_message_injective.
End C18_Abstract.

(** * the sub-protocol hypotheses of [statement_complete], discharged by the C07 / C11 developments
    (for every field / module with the laws of Alg.v resp. every [bp_ops] with [bp_laws]) *)
From CB Require Import Crypto.Alg Crypto.Transcript Crypto.SigmaGeneric Crypto.SigmaCodec Crypto.Sigma_dlog.
From CB Require Import Crypto.BpAlg Crypto.RangeProof Crypto.SetProof Crypto.BpTheorems.
From CB Require Crypto.RangeStmt.
From CB Require Import Crypto.StatementsCompose.

Theorem statement_complete_reveal : forall (K : FieldOps) (M : ModOps K) (Cd : CodecOps M) (KL : FieldLaws K) (ML : ModLaws M)
    (H : bytes -> bytes) (sfb : bytes -> K) (g h : M) (x r : K) k ctx rho,
  let C := Gadd M (smul M x g) (smul M r h) in
  exists pi st,
    prove H sfb (dlog_proto Cd) k ctx (reveal_stmt g h C x) r rho = Some (pi, st)
    /\ verify H sfb (dlog_proto Cd) k ctx (reveal_stmt g h C x) pi = (true, st).
Proof. intros K M Cd KL ML H sfb g h x r k ctx rho. exact (reveal_complete_c07 Cd H sfb g h x r k ctx rho). Qed.
Print Assumptions statement_complete_reveal.

Theorem statement_complete_range : forall Ops, bp_laws Ops ->
  forall r v a b rs Gs Hs B Bt sL sR at_ st t1t t2t y yi z x w us,
  let vs := [fst (range_proved r v a b); snd (range_proved r v a b)] in
  length rs = 2%nat ->
  length Gs = Nat.pow 2 (length us) -> length Gs = 128%nat -> length Hs = length Gs ->
  length sL = length Gs -> length sR = length Gs ->
  o_fmul Ops y yi = o_f1 Ops -> inv_ok Ops us ->
  range_verdict Ops 64 (vzip (commit Ops B Bt) (map (fval Ops 64) vs) rs) Gs Hs B Bt
    (range_prove Ops 64 vs rs Gs Hs B Bt sL sR at_ st t1t t2t y yi z x w us) y yi z x w us = VOk
  /\ ((0 < r)%Z -> range_scalars_ok r v a b = true -> range_proved r v a b = range_scalars r v a b).
Proof.
  intros Ops L r v a b rs Gs Hs B Bt sL sR at_ st t1t t2t y yi z x w us vs H1 H2 H3 H4 H5 H6 H7 H8. split.
  - exact (range_stmt_complete_c11 Ops L r v a b rs Gs Hs B Bt sL sR at_ st t1t t2t y yi z x w us H1 H2 H3 H4 H5 H6 H7 H8).
  - intros _. exact (range_proved_eq_scalars r v a b).
Qed.
Print Assumptions statement_complete_range.

Theorem statement_complete_in_set : forall Ops, bp_laws Ops -> forall (emb : N -> o_F Ops)
    set v vr Gs Hs B Bt sL sR at_ st t1t t2t y yi z x w us,
  mem_enc (encode v) set = true ->
  length Gs = Nat.pow 2 (length us) -> length Gs = length (RangeStmt.pad_pow2 (enc_set Ops emb set)) -> length Hs = length Gs ->
  length sL = length Gs -> length sR = length Gs ->
  o_fmul Ops y yi = o_f1 Ops -> inv_ok Ops us ->
  exists p, mem_prove Ops (enc_set Ops emb set) (emb (encode v)) vr Gs Hs B Bt sL sR at_ st t1t t2t y yi z x w us = Some p
    /\ mem_verdict Ops (enc_set Ops emb set) (commit Ops B Bt (emb (encode v)) vr) Gs Hs B Bt p y yi z x w us = VOk.
Proof. intros Ops L emb. exact (set_member_stmt_complete_c11 Ops L emb). Qed.
Print Assumptions statement_complete_in_set.

Theorem statement_complete_not_in_set : forall Ops, bp_laws Ops -> forall (emb : N -> o_F Ops)
    set v vr invs Gs Hs B Bt sL sR at_ st t1t t2t y yi z x w us,
  (forall a b, emb a = emb b -> a = b) ->
  mem_enc (encode v) set = false ->
  Forall2 (fun si iv => o_fmul Ops (o_fsub Ops (emb (encode v)) si) iv = o_f1 Ops) (RangeStmt.pad_pow2 (enc_set Ops emb set)) invs ->
  length Gs = Nat.pow 2 (length us) -> length Gs = length (RangeStmt.pad_pow2 (enc_set Ops emb set)) -> length Hs = length Gs ->
  length sL = length Gs -> length sR = length Gs ->
  o_fmul Ops y yi = o_f1 Ops -> inv_ok Ops us ->
  exists p, nonmem_prove Ops (enc_set Ops emb set) (emb (encode v)) vr invs Gs Hs B Bt sL sR at_ st t1t t2t y yi z x w us = Some p
    /\ nonmem_verdict Ops (enc_set Ops emb set) (commit Ops B Bt (emb (encode v)) vr) Gs Hs B Bt p y yi z x w us = VOk.
Proof. intros Ops L emb. exact (set_nonmember_stmt_complete_c11 Ops L emb). Qed.
Print Assumptions statement_complete_not_in_set.

(** the prover's refusals, in the vocabulary of the C11 model *)
Theorem statement_false_set_refused : forall Ops, bp_laws Ops -> forall (emb : N -> o_F Ops)
    set v vr invs Gs Hs B Bt sL sR at_ st t1t t2t y yi z x w us,
  (forall a b, emb a = emb b -> a = b) ->
  (mem_enc (encode v) set = false ->
   mem_prove Ops (enc_set Ops emb set) (emb (encode v)) vr Gs Hs B Bt sL sR at_ st t1t t2t y yi z x w us = None)
  /\ (mem_enc (encode v) set = true ->
   nonmem_prove Ops (enc_set Ops emb set) (emb (encode v)) vr invs Gs Hs B Bt sL sR at_ st t1t t2t y yi z x w us = None).
Proof.
  intros Ops L emb set v vr invs Gs Hs B Bt sL sR at_ st t1t t2t y yi z x w us Hinj. split.
  - exact (set_member_stmt_refused_c11 Ops L emb set v vr Gs Hs B Bt sL sR at_ st t1t t2t y yi z x w us Hinj).
  - exact (set_nonmember_stmt_refused_c11 Ops L emb set v vr invs Gs Hs B Bt sL sR at_ st t1t t2t y yi z x w us).
Qed.
Print Assumptions statement_false_set_refused.

(** * request anchors: the presentation's claims match the anchored request *)
Theorem claims_match_ok_iff : forall rq pc,
  claims_match rq pc = MOk <->
  (In (pc_kind pc) (rq_source rq)
   /\ (exists d, In d (rq_issuers rq) /\ did_ip d = pc_issuer pc /\ did_net d = pc_net pc)
   /\ map to_requested (pc_stmts pc) = rq_stmts rq).
Proof. exact claims_match_ok_iff_. Qed.
Print Assumptions claims_match_ok_iff.

Theorem issuer_match_is_entrywise_not_fieldwise :
  (forall rq pc, issuer_allowed rq pc = true -> issuer_allowed_fieldwise rq pc = true)
  /\ (exists rq pc, issuer_allowed_fieldwise rq pc = true /\ issuer_allowed rq pc = false
                    /\ claims_match rq pc = MFailIssuer).
Proof. exact issuer_allowed_fieldwise_weaker_. Qed.
Print Assumptions issuer_match_is_entrywise_not_fieldwise.

Theorem claims_list_match_ok_iff : forall rqs pcs,
  claims_list_match rqs pcs = MOk <-> Forall2 (fun rq pc => claims_match rq pc = MOk) rqs pcs.
Proof. exact claims_list_match_ok_iff_. Qed.
Print Assumptions claims_list_match_ok_iff.

(** every credential of a presentation has to be valid at the verification time - not just the last *)
Theorem all_valid_at_iff : forall now vs,
  all_valid_at now vs = true <-> Forall (fun v => (fst v <= now < snd v)%N) vs.
Proof. exact all_valid_at_iff_. Qed.
Print Assumptions all_valid_at_iff.

Theorem all_valid_is_not_last_only :
  (forall now vs, all_valid_at now vs = true -> last_valid_at now vs = true)
  /\ (exists now vs, last_valid_at now vs = true /\ all_valid_at now vs = false).
Proof. exact all_valid_not_last_only_. Qed.
Print Assumptions all_valid_is_not_last_only.

(** identity attribute credentials: exactly [threshold] sharing-coefficient commitments *)
Theorem identity_attributes_threshold_exact : forall ip t n sg,
  identity_attributes_verdict ip t n sg = IAOk <-> (ip = true /\ t = n /\ sg = true).
Proof. exact identity_attributes_threshold_exact_. Qed.
Print Assumptions identity_attributes_threshold_exact.

Theorem identity_attributes_threshold_not_only_lower_bound :
  (forall t n, (t =? n)%N = true -> threshold_check_gt t n = true)
  /\ (exists t n, threshold_check_gt t n = true /\ t <> n
                  /\ identity_attributes_verdict true t n true = IAFailAr).
Proof. exact threshold_check_gt_weaker_. Qed.
Print Assumptions identity_attributes_threshold_not_only_lower_bound.

(** * non-vacuity *)
Local Open Scope N_scope.
Example encoding_examples :
  wf_attr (AStr [68; 75]) = true
  /\ encode (AStr [68; 75]) = (2 * 2 ^ 248 + 68 * 256 + 75)%N
  /\ encode_bytes (AStr [68; 75]) = [2;0;0;0;0;0;0;0;0;0;0;0;0;0;0;0;0;0;0;0;0;0;0;0;0;0;0;0;0;0;68;75]%N
  /\ encode (AStr []) = encode (ANum 0) /\ canon (AStr []) = canon (ATime 0)
  /\ wf_attr (AStr (repeat 255%N 31)) = true /\ (Z.of_N (encode (AStr (repeat 255%N 31))) < R_BLS)%Z.
Proof. vm_compute. repeat split; reflexivity. Qed.
Print Assumptions encoding_examples.

Example prover_examples :
  let al := [(3%N, ANum 137); (1%N, AStr [97; 97])] in
  wf_alist al = true
  /\ accepts R_BLS 256 al (SRange 3 (ANum 137) (ANum 138)) = true
  /\ accepts R_BLS 256 al (SRange 3 (ANum 80) (ANum 137)) = false
  /\ accepts R_BLS 256 al (SInSet 1 [AStr [97; 97]; AStr [102; 102]; AStr [122; 122]]) = true
  /\ accepts R_BLS 256 al (SNotInSet 1 [AStr [102; 102]]) = true
  /\ accepts R_BLS 256 al (SValue 3 (ATime 137)) = true
  /\ forallb (supported_al 256 al) [SRange 3 (ANum 80) (ANum 1237); SReveal 1] = true
  /\ (2 ^ 254 < R_BLS)%Z.
Proof. vm_compute. repeat split; reflexivity. Qed.
Print Assumptions prover_examples.

(** the hypotheses of the binding theorems are satisfiable: a fixed-width encoder is a prefix code,
    and with it two different requests have different transcripts *)
Example prefix_code_example :
  prefix_code (fun b : bool => [if b then 1 else 0]%N)
  /\ frame_v1 (v1_account [17] [0] [1] [5]%N) <> frame_v1 (v1_account [18] [0] [1] [5]%N).
Proof.
  split.
  - intros [|] [|] r1 r2 E; try reflexivity; discriminate E.
  - vm_compute. discriminate.
Qed.
Print Assumptions prefix_code_example.
