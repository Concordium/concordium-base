(** C06 - Transaction and update authorisation is exactly the threshold policy.
    Property theorems only, each followed by [Print Assumptions]; closed by [exact] or assembled here
    from the lemmas of Chain/AuthProofs.v, Chain/DigestProofs.v and Chain/TxCostProofs.v.
    Abstract parameters (universally quantified after the sections close): signature validity
    [sig_valid], signing [sign]/[pub], the hash [H].  Nothing is assumed about them except where a
    hypothesis says so ([sign_correct], decidable equality of digests). *)
From Coq Require Import NArith List Bool String Lia.
From CB Require Import Chain.Auth Chain.AuthProofs Chain.Digest Chain.DigestProofs Gen.TxCost Chain.TxCostProofs.
Import ListNotations.
Local Open Scope N_scope.

(** ------------------------------------------------------------------ acceptance = policy *)

(** [verify_data_signature] (= [verify_signature_transaction_sign_hash]) accepts exactly when: there are
    at least [account threshold] credential entries, and EVERY supplied credential entry is registered,
    carries at least that credential's threshold of signatures, and EVERY supplied signature sits at a
    registered key index and is valid for the data under that key.  (More than the thresholds is
    accepted; duplicates are impossible by the map type; an unknown or under-signed extra credential
    rejects the whole signature.) *)
Theorem verify_iff_policy : forall (PK SIG DATA : Type) (sig_valid : PK -> DATA -> SIG -> bool)
    (a : access PK) (d : DATA) (sm : sig_map SIG),
  verify_data_signature sig_valid a d sm = true <->
  (as_threshold a <= len sm /\
   forall ci cs, In (ci, cs) sm ->
     exists ck, lookup ci (as_creds a) = Some ck /\ ck_threshold ck <= len cs /\
       forall ki s, In (ki, s) cs -> exists pk, lookup ki (ck_keys ck) = Some pk /\ sig_valid pk d s = true).
Proof. exact verify_iff_policy_l. Qed.
Print Assumptions verify_iff_policy.

(** the same in map vocabulary, for signature maps that are BTreeMaps (strictly increasing keys) *)
Theorem verify_iff_policy_map : forall (PK SIG DATA : Type) (sig_valid : PK -> DATA -> SIG -> bool)
    (a : access PK) (d : DATA) (sm : sig_map SIG),
  wf_map sm = true -> (forall ci cs, In (ci, cs) sm -> wf_map cs = true) ->
  (verify_data_signature sig_valid a d sm = true <->
   (as_threshold a <= len sm /\
    forall ci cs, lookup ci sm = Some cs ->
      exists ck, lookup ci (as_creds a) = Some ck /\ ck_threshold ck <= len cs /\
        forall ki s, lookup ki cs = Some s -> exists pk, lookup ki (ck_keys ck) = Some pk /\ sig_valid pk d s = true)).
Proof. exact verify_iff_policy_map_l. Qed.
Print Assumptions verify_iff_policy_map.

(** sponsored (v1) transactions: sender policy, and sponsor policy for the sponsor signature IF ONE IS
    SUPPLIED *)
Theorem verify_v1_iff_policy : forall (PK SIG DATA : Type) (sig_valid : PK -> DATA -> SIG -> bool)
    (sender sponsor : access PK) (d : DATA) (ssig : sig_map SIG) (psig : option (sig_map SIG)),
  verify_v1 sig_valid sender sponsor d ssig psig = true <->
  (policy PK SIG DATA sig_valid sender d ssig /\ forall sg, psig = Some sg -> policy PK SIG DATA sig_valid sponsor d sg).
Proof. exact verify_v1_iff_l. Qed.
Print Assumptions verify_v1_iff_policy.

(** Transaction-level v1 verification ([AccountTransactionV1::verify_transaction_signature], with the
    guard of /repo commit 12eb729ed): acceptance is the sender policy, AND the sponsor policy for the
    sponsor signature if one is supplied, AND a sponsor signature is supplied whenever the header names
    a sponsor.  No side condition on the shape of the transaction. *)
Theorem verify_tx_v1_iff_policy : forall (PK SIG DATA : Type) (sig_valid : PK -> DATA -> SIG -> bool)
    (hs : option N) (sender sponsor : access PK) (d : DATA) (ssig : sig_map SIG) (psig : option (sig_map SIG)),
  verify_tx_v1 sig_valid hs sender sponsor d ssig psig = true <->
  (policy PK SIG DATA sig_valid sender d ssig /\
   (hs <> None -> psig <> None) /\
   forall sg, psig = Some sg -> policy PK SIG DATA sig_valid sponsor d sg).
Proof.
  intros PK SIG DATA sv hs sender sponsor d ssig psig. unfold verify_tx_v1.
  destruct hs as [a|], psig as [sg|]; try rewrite verify_v1_iff_l.
  2: { split; [discriminate|]. intros [_ [H _]]. exfalso. apply H; [discriminate|reflexivity]. }
  (* in the other three cases the guard holds outright *)
  all: split; [intros [H1 H2]; split; [exact H1|split; [congruence|exact H2]]|intros [H1 [_ H2]]; split; assumption].
Qed.
Print Assumptions verify_tx_v1_iff_policy.

(** the property's demand for sponsored transactions: a transaction that names a sponsor verifies only
    if the sponsor signed and the sponsor's signature map satisfies the sponsor's threshold policy *)
Theorem sponsored_requires_sponsor_policy : forall (PK SIG DATA : Type) (sig_valid : PK -> DATA -> SIG -> bool)
    (hs : option N) (sender sponsor : access PK) (d : DATA) (ssig : sig_map SIG) (psig : option (sig_map SIG)),
  hs <> None -> verify_tx_v1 sig_valid hs sender sponsor d ssig psig = true ->
  policy PK SIG DATA sig_valid sender d ssig /\ exists sg, psig = Some sg /\ policy PK SIG DATA sig_valid sponsor d sg.
Proof.
  intros PK SIG DATA sv hs sender sponsor d ssig psig Hn V.
  apply verify_tx_v1_iff_policy in V as [H1 [H2 H3]]. split; [exact H1|].
  destruct psig as [sg|]; [exists sg; auto|exfalso; apply (H2 Hn); reflexivity].
Qed.
Print Assumptions sponsored_requires_sponsor_policy.

(** REGRESSION WITNESS (was finding KF-C06-1, repaired by /repo commit 12eb729ed): the function WITHOUT
    the guard ([verify_tx_v1_prefix], the code before the fix) accepts a transaction whose header names
    a sponsor, carrying no sponsor signature, with the sender's signature alone - against ANY sponsor
    access structure; the repaired function rejects the same input. *)
Theorem prefix_verify_tx_v1_refuted :
  exists (header_sponsor : option N) (sender sponsor : access unit) (ssig : sig_map bool) (psig : option (sig_map bool)),
    header_sponsor <> None /\ psig = None /\ as_creds sponsor = [] /\
    verify_tx_v1_prefix (fun _ _ (b : bool) => b) header_sponsor sender sponsor tt ssig psig = true /\
    verify_tx_v1 (fun _ _ (b : bool) => b) header_sponsor sender sponsor tt ssig psig = false.
Proof.
  exists (Some 7), (mkAccess [(0, mkCred [(0, tt)] 1)] 1), (mkAccess [] 1), [(0, [(0, true)])], None.
  split; [discriminate|]. split; [reflexivity|]. split; [reflexivity|]. split; vm_compute; reflexivity.
Qed.
Print Assumptions prefix_verify_tx_v1_refuted.

(** both shapes are inhabited: named sponsor with a sufficient sponsor signature accepts; an UNNAMED
    sponsor with a sponsor signature is decided by the sponsor policy against the caller's sponsor keys *)
Example verify_tx_v1_nonvacuous :
  let a := mkAccess [(0, mkCred [(0, tt)] 1)] 1 in
  verify_tx_v1_bits true a a [(0, [(0, true)])] (Some [(0, [(0, true)])]) = true /\
  verify_tx_v1_bits true a a [(0, [(0, true)])] None = false /\
  verify_tx_v1_bits true a a [(0, [(0, true)])] (Some [(0, [(0, false)])]) = false /\
  verify_tx_v1_bits false a a [(0, [(0, true)])] None = true /\
  verify_tx_v1_bits false a a [(0, [(0, true)])] (Some [(0, [(0, true)])]) = true /\
  verify_tx_v1_bits false a a [(0, [(0, true)])] (Some [(0, [(0, false)])]) = false.
Proof. vm_compute. repeat split. Qed.
Print Assumptions verify_tx_v1_nonvacuous.

(** ------------------------------------------------------------------ completeness *)
Theorem sign_sufficient_verifies : forall (PK SIG DATA : Type) (sig_valid : PK -> DATA -> SIG -> bool)
    (SK : Type) (pub : SK -> PK) (sign : SK -> DATA -> SIG),
  (forall sk d, sig_valid (pub sk) d (sign sk d) = true) ->
  forall (a : access PK) (ks : amap (amap SK)) (d : DATA),
    (as_threshold a <= len ks /\
     forall ci kk, In (ci, kk) ks ->
       exists ck, lookup ci (as_creds a) = Some ck /\ ck_threshold ck <= len kk /\
         forall ki sk, In (ki, sk) kk -> lookup ki (ck_keys ck) = Some (pub sk)) ->
    verify_data_signature sig_valid a d (sign_map sign ks d) = true.
Proof. exact sign_sufficient_verifies_l. Qed.
Print Assumptions sign_sufficient_verifies.

(** the [AccountKeys] signer (first [threshold] credentials, first [threshold] keys of each) verifies
    against the access structure derived from the same keys, and signs with exactly [num_keys] keys *)
Theorem account_keys_sign_verifies : forall (PK SIG DATA : Type) (sig_valid : PK -> DATA -> SIG -> bool)
    (SK : Type) (pub : SK -> PK) (sign : SK -> DATA -> SIG),
  (forall sk d, sig_valid (pub sk) d (sign sk d) = true) ->
  forall (ak : account_keys SK) (d : DATA), account_keys_wf SK ak ->
    verify_data_signature sig_valid (access_of_keys pub ak) d (account_keys_sign sign ak d) = true
    /\ num_signatures (account_keys_sign sign ak d) = account_keys_num_keys ak.
Proof.
  intros PK SIG DATA sv SK pub sign Hc ak d W. split.
  - exact (account_keys_sign_verifies_l PK SIG DATA sv SK pub sign Hc ak d W).
  - exact (account_keys_num_keys_exact SIG DATA SK sign ak d W).
Qed.
Print Assumptions account_keys_sign_verifies.

(** ------------------------------------------------------------------ rejection corollaries *)
Theorem extra_unknown_credential_rejects : forall (PK SIG DATA : Type) (sig_valid : PK -> DATA -> SIG -> bool)
    (a : access PK) (d : DATA) (sm : sig_map SIG) ci cs,
  In (ci, cs) sm -> lookup ci (as_creds a) = None -> verify_data_signature sig_valid a d sm = false.
Proof. exact extra_unknown_credential_rejects_l. Qed.
Print Assumptions extra_unknown_credential_rejects.

Theorem one_invalid_signature_rejects : forall (PK SIG DATA : Type) (sig_valid : PK -> DATA -> SIG -> bool)
    (a : access PK) (d : DATA) (sm : sig_map SIG) ci cs ck ki s pk,
  In (ci, cs) sm -> lookup ci (as_creds a) = Some ck -> In (ki, s) cs -> lookup ki (ck_keys ck) = Some pk ->
  sig_valid pk d s = false -> verify_data_signature sig_valid a d sm = false.
Proof. exact one_invalid_signature_rejects_l. Qed.
Print Assumptions one_invalid_signature_rejects.

Theorem unknown_key_index_rejects : forall (PK SIG DATA : Type) (sig_valid : PK -> DATA -> SIG -> bool)
    (a : access PK) (d : DATA) (sm : sig_map SIG) ci cs ck ki s,
  In (ci, cs) sm -> lookup ci (as_creds a) = Some ck -> In (ki, s) cs -> lookup ki (ck_keys ck) = None ->
  verify_data_signature sig_valid a d sm = false.
Proof. exact unknown_key_index_rejects_l. Qed.
Print Assumptions unknown_key_index_rejects.

Theorem too_few_signatures_rejects : forall (PK SIG DATA : Type) (sig_valid : PK -> DATA -> SIG -> bool)
    (a : access PK) (d : DATA) (sm : sig_map SIG) ci cs ck,
  In (ci, cs) sm -> lookup ci (as_creds a) = Some ck -> len cs < ck_threshold ck ->
  verify_data_signature sig_valid a d sm = false.
Proof. exact too_few_signatures_rejects_l. Qed.
Print Assumptions too_few_signatures_rejects.

Theorem too_few_credentials_rejects : forall (PK SIG DATA : Type) (sig_valid : PK -> DATA -> SIG -> bool)
    (a : access PK) (d : DATA) (sm : sig_map SIG),
  len sm < as_threshold a -> verify_data_signature sig_valid a d sm = false.
Proof. exact too_few_credentials_rejects_l. Qed.
Print Assumptions too_few_credentials_rejects.

(** ------------------------------------------------------------------ chain updates *)
(** Reference acceptance rule for update instructions (rust-src has no verifier; this is the node's
    rule): at least [threshold] signatures, every signing index authorised for the update type, every
    signature valid under [keys[index]]. *)
Theorem update_verify_iff_policy : forall (PK SIG DATA : Type) (sig_valid : PK -> DATA -> SIG -> bool)
    (keys : list PK) (acc : access_structure) (d : DATA) (sigs : amap SIG),
  update_verify sig_valid keys acc d sigs = true <->
  (au_threshold acc <= len sigs /\
   forall ki s, In (ki, s) sigs ->
     In ki (au_keys acc) /\ exists pk, nth_error keys (N.to_nat ki) = Some pk /\ sig_valid pk d s = true).
Proof. exact update_verify_iff_policy_l. Qed.
Print Assumptions update_verify_iff_policy.

(** [find_authorized_keys] + [sign_update_hash]: a signer built from at least [threshold] key pairs,
    all authorised for the update type and pairwise distinct, is accepted by the rule above. *)
Theorem update_sign_sufficient_verifies : forall (PK SIG DATA : Type) (sig_valid : PK -> DATA -> SIG -> bool)
    (SK : Type) (pub : SK -> PK) (sign : SK -> DATA -> SIG),
  (forall sk d, sig_valid (pub sk) d (sign sk d) = true) ->
  forall (pk_eqb : PK -> PK -> bool), (forall x y, pk_eqb x y = true <-> x = y) ->
  forall (keys : list PK) (acc : access_structure) (actual : list SK) (m : amap SK) (d : DATA),
    len keys <= 65536 ->
    find_authorized_keys pub pk_eqb keys acc actual = Some m ->
    au_threshold acc <= len actual ->
    update_verify sig_valid keys acc d (sign_update sign m d) = true.
Proof. exact update_sign_sufficient_verifies_l. Qed.
Print Assumptions update_sign_sufficient_verifies.

(** what [find_authorized_keys] returns: one entry per supplied key pair, each at an authorised index
    that holds that key pair's public key *)
Theorem find_authorized_keys_sound : forall (PK SK : Type) (pub : SK -> PK) (pk_eqb : PK -> PK -> bool),
  (forall x y, pk_eqb x y = true <-> x = y) ->
  forall (keys : list PK) (acc : access_structure) (actual : list SK) (m : amap SK),
    find_authorized_keys pub pk_eqb keys acc actual = Some m ->
    len m = len actual /\
    forall ki sk, In (ki, sk) m ->
      In sk actual /\ In ki (au_keys acc) /\ exists j, ki = j mod 65536 /\ nth_error keys (N.to_nat j) = Some (pub sk).
Proof.
  intros PK SK pub pk_eqb Hs keys acc actual m H.
  destruct (find_authorized_from_sound PK SK pub pk_eqb Hs keys acc actual [] m H) as [L P]. split.
  - rewrite L. reflexivity.
  - intros ki sk Hin. destruct (P ki sk Hin) as [[]|R]. exact R.
Qed.
Print Assumptions find_authorized_keys_sound.

(** the threshold condition under which [AccessStructure] / [HigherLevelAccessStructure] deserialize:
    exactly 1 <= threshold <= number of keys - in particular n-of-n (and 1-of-1) structures are legal *)
Theorem access_structure_wf_iff : forall acc,
  access_structure_wf acc = true <-> 1 <= au_threshold acc <= len (au_keys acc).
Proof.
  intros acc. unfold access_structure_wf. rewrite andb_true_iff, N.ltb_lt, N.leb_le. lia.
Qed.
Print Assumptions access_structure_wf_iff.

(** n-of-n: decodable, accepted when all n authorised keys sign, rejected with n-1 signatures; (n+1)-of-n is
    not decodable and never accepted *)
Example update_n_of_n_nonvacuous :
  access_structure_wf (mkAS [0] 1) = true /\ update_verify_bits 1 (mkAS [0] 1) [(0, true)] = true /\
  access_structure_wf (mkAS [0; 1] 2) = true /\ update_verify_bits 2 (mkAS [0; 1] 2) [(0, true); (1, true)] = true /\
  update_verify_bits 2 (mkAS [0; 1] 2) [(1, true)] = false /\
  access_structure_wf (mkAS [0; 1; 2] 3) = true /\ update_verify_bits 3 (mkAS [0; 1; 2] 3) [(0, true); (1, true); (2, true)] = true /\
  update_verify_bits 3 (mkAS [0; 1; 2] 3) [(0, true); (2, true)] = false /\
  access_structure_wf (mkAS [0; 1; 2] 4) = false /\ update_verify_bits 3 (mkAS [0; 1; 2] 4) [(0, true); (1, true); (2, true)] = false /\
  access_structure_wf (mkAS [0] 2) = false /\ access_structure_wf (mkAS [] 1) = false.
Proof. vm_compute. repeat split. Qed.
Print Assumptions update_n_of_n_nonvacuous.

(** ------------------------------------------------------------------ digest binding *)
(** distinct (header, payload) give distinct hash inputs - v0, v1 (with the domain prefix) and updates *)
Theorem digest_injective_preimage :
  (forall h1 p1 h2 p2, header_wf h1 -> header_wf h2 -> (h1, p1) <> (h2, p2) -> preimage_v0 h1 p1 <> preimage_v0 h2 p2) /\
  (forall h1 p1 h2 p2, header_v1_wf h1 -> header_v1_wf h2 -> (h1, p1) <> (h2, p2) -> preimage_v1 h1 p1 <> preimage_v1 h2 p2) /\
  (forall h1 p1 h2 p2, update_header_wf h1 -> update_header_wf h2 -> (h1, p1) <> (h2, p2) ->
     preimage_update h1 p1 <> preimage_update h2 p2) /\
  (forall h p h' p', header_wf h -> h_sender h <> prefix_v1 -> preimage_v0 h p <> preimage_v1 h' p').
Proof.
  split; [|split; [|split]].
  - exact (distinct_inputs_distinct_preimages header header_wf enc_header [] enc_header_pfree).
  - exact (distinct_inputs_distinct_preimages header_v1 header_v1_wf enc_header_v1 prefix_v1 enc_header_v1_pfree).
  - exact (distinct_inputs_distinct_preimages update_header update_header_wf enc_update_header [] enc_update_header_pfree).
  - exact cross_version_disjoint.
Qed.
Print Assumptions digest_injective_preimage.

(** PARTIAL by nature ("changing any bit makes verification fail" holds only relative to the hash and
    the signature scheme): if a signature map verifies for two different (header, payload) pairs then
    either the two hash inputs are an explicit collision of [H], or some supplied signature is valid,
    under one registered key, on two different digests.  Stated for an arbitrary prefix-free header
    encoder and instantiated below for the three concrete encoders. *)
Theorem tamper_needs_collision_or_forgery_partial :
  forall (HASH HDR : Type) (H : list N -> HASH) (hash_eq_dec : forall x y : HASH, {x = y} + {x <> y})
         (wf : HDR -> Prop) (enc : HDR -> list N) (tag : list N), pfree wf enc ->
  forall (PK SIG : Type) (sig_valid : PK -> HASH -> SIG -> bool) (a : access PK) (sm : sig_map SIG) h1 p1 h2 p2,
    wf h1 -> wf h2 -> thresholds_positive PK a -> (h1, p1) <> (h2, p2) ->
    verify_data_signature sig_valid a (H (tag ++ enc h1 ++ p1)) sm = true ->
    verify_data_signature sig_valid a (H (tag ++ enc h2 ++ p2)) sm = true ->
    ((tag ++ enc h1 ++ p1) <> (tag ++ enc h2 ++ p2) /\ H (tag ++ enc h1 ++ p1) = H (tag ++ enc h2 ++ p2))
    \/ (H (tag ++ enc h1 ++ p1) <> H (tag ++ enc h2 ++ p2) /\
        exists ci cs ck ki s pk,
          In (ci, cs) sm /\ In (ki, s) cs /\ lookup ci (as_creds a) = Some ck /\ lookup ki (ck_keys ck) = Some pk /\
          sig_valid pk (H (tag ++ enc h1 ++ p1)) s = true /\ sig_valid pk (H (tag ++ enc h2 ++ p2)) s = true).
Proof. exact tamper_needs_collision_or_forgery. Qed.
Print Assumptions tamper_needs_collision_or_forgery_partial.

Theorem header_encoders_prefix_free :
  pfree header_wf enc_header /\ pfree header_v1_wf enc_header_v1 /\ pfree update_header_wf enc_update_header.
Proof. exact (conj enc_header_pfree (conj enc_header_v1_pfree enc_update_header_pfree)). Qed.
Print Assumptions header_encoders_prefix_free.

(** ------------------------------------------------------------------ declared size, energy *)
Theorem declared_size_correct : forall sender nonce expiry payload energy rest,
  h_payload_size (construct_header sender nonce expiry payload energy) = len payload /\
  split_body (construct_header sender nonce expiry payload energy) (payload ++ rest) = (payload, rest) /\
  (header_wf (construct_header sender nonce expiry payload energy) ->
   skipn 60 (enc_header (construct_header sender nonce expiry payload energy) ++ payload ++ rest) = payload ++ rest).
Proof.
  intros. split; [reflexivity|]. split; [apply split_body_constructed|apply body_after_header].
Qed.
Print Assumptions declared_size_correct.

Theorem energy_formula :
  (forall size nsigs, base_cost size nsigs = 1 * size + 100 * nsigs) /\
  (forall type_cost payload_size num_sigs,
     builder_energy type_cost payload_size num_sigs = 1 * (60 + payload_size) + 100 * num_sigs + type_cost) /\
  (forall size n1 n2, n1 < n2 -> base_cost size n1 < base_cost size n2) /\
  (forall s1 s2 n, s1 < s2 -> base_cost s1 n < base_cost s2 n) /\
  (forall size nsigs, size < 2 ^ 33 -> nsigs < 2 ^ 32 -> base_cost size nsigs < 2 ^ 64).
Proof.
  exact (conj base_cost_formula_l (conj energy_formula_l (conj base_cost_sigs_strict_l
        (conj base_cost_size_strict_l base_cost_no_overflow_l)))).
Qed.
Print Assumptions energy_formula.

Theorem documented_type_costs :
  cost_transfer = 300 /\ cost_transfer_with_memo = 300 /\
  cost_encrypted_transfer = 27000 /\ cost_encrypted_transfer_with_memo = 27000 /\
  cost_transfer_to_encrypted = 600 /\ cost_transfer_to_public = 14850 /\
  cost_add_baker = 4050 /\ cost_update_baker_keys = 4050 /\ cost_remove_baker = 300 /\
  cost_update_baker_stake = 300 /\ cost_update_baker_restake_earnings = 300 /\
  cost_register_data = 300 /\ cost_configure_delegation = 300 /\
  cost_configure_baker true = 4050 /\ cost_configure_baker false = 300 /\
  (forall e, cost_init_contract e = e) /\ (forall e, cost_update_contract e = e) /\
  (forall n, cost_transfer_with_schedule n = n * 364) /\
  (forall n, cost_transfer_with_schedule_and_memo n = n * 364) /\
  (forall s, cost_deploy_module s = s / 10) /\
  (forall c k, cost_update_credential_keys c k = 500 * c + 100 * k) /\
  (forall c ks, cost_update_credentials c ks = 500 + (500 * c + fold_right N.add 0 (map (fun k => 54000 + 100 * k) ks))) /\
  (forall ops, cost_token_update_operations ops = 300 + fold_right N.add 0 (map token_op_cost ops)) /\
  map token_op_cost ["Transfer"; "Mint"; "Burn"; "AddAllowList"; "RemoveAllowList"; "AddDenyList";
                     "RemoveDenyList"; "Pause"; "Unpause"; "SomethingElse"]%string
    = [100; 50; 50; 50; 50; 50; 50; 50; 50; 0].
Proof. exact documented_type_costs_l. Qed.
Print Assumptions documented_type_costs.

Theorem sponsored_energy : forall h sponsor n h',
  add_sponsor A (extend_header h) sponsor n = Some h' ->
  h_energy (h1_base h') = h_energy h + 2 + (32 + 100 * n) /\ h1_sponsor h' = Some sponsor /\
  h_payload_size (h1_base h') = h_payload_size h /\ h_sender (h1_base h') = h_sender h /\
  h_nonce (h1_base h') = h_nonce h /\ h_expiry (h1_base h') = h_expiry h.
Proof. exact sponsored_energy_l. Qed.
Print Assumptions sponsored_energy.

(** ------------------------------------------------------------------ non-vacuity *)
(** a 2-of-3 account whose credential 0 needs 2 of its 2 keys and credential 2 needs 1 of 2:
    an accepting signature map (with one signature more than needed), and rejecting neighbours *)
Definition ex_access : access unit :=
  mkAccess [(0, mkCred [(0, tt); (1, tt)] 2); (2, mkCred [(0, tt); (5, tt)] 1); (7, mkCred [(3, tt)] 1)] 2.
Example verify_nonvacuous :
  verify_bits ex_access [(0, [(0, true); (1, true)]); (2, [(0, true); (5, true)])] = true /\
  verify_bits ex_access [(0, [(0, true); (1, true)])] = false /\
  verify_bits ex_access [(0, [(0, true)]); (2, [(5, true)])] = false /\
  verify_bits ex_access [(0, [(0, true); (1, true)]); (2, [(5, true)]); (9, [(0, true)])] = false /\
  verify_bits ex_access [(0, [(0, true); (1, false)]); (2, [(5, true)])] = false /\
  verify_bits ex_access [(0, [(0, true); (1, true)]); (2, [(4, true)])] = false.
Proof. vm_compute. repeat split. Qed.
Print Assumptions verify_nonvacuous.

(** the hypotheses of [sign_sufficient_verifies] and [account_keys_sign_verifies] are satisfiable
    (keys are numbers, a signature is the pair (key, data), valid when it matches) *)
Example sign_sufficient_nonvacuous :
  let sv := fun (pk : N) (d : N) (s : N * N) => N.eqb (fst s) pk && N.eqb (snd s) d in
  let a := mkAccess [(0, mkCred [(0, 10); (1, 11)] 2); (3, mkCred [(4, 12)] 1)] 2 in
  let ks := [(0, [(0, 10); (1, 11)]); (3, [(4, 12)])] in
  (forall sk d, sv sk d (sk, d) = true) /\
  signer_sufficient N N (fun x : N => x) a ks /\
  verify_data_signature sv a 99 (sign_map (fun sk d => (sk, d)) ks 99) = true /\
  account_keys_wf N (mkAccountKeys [(0, mkCredData [(0, 10); (1, 11)] 2); (3, mkCredData [(4, 12)] 1)] 2).
Proof.
  cbn zeta. split; [intros; cbn [fst snd]; rewrite !N.eqb_refl; reflexivity|]. split.
  - split; [vm_compute; discriminate|]. intros ci kk [E|[E|[]]]; inversion E; subst.
    + eexists; split; [reflexivity|]. split; [vm_compute; discriminate|].
      intros ki sk [E'|[E'|[]]]; inversion E'; subst; reflexivity.
    + eexists; split; [reflexivity|]. split; [vm_compute; discriminate|].
      intros ki sk [E'|[]]; inversion E'; subst; reflexivity.
  - split; [vm_compute; reflexivity|]. split; [reflexivity|]. split; [vm_compute; discriminate|].
    intros ci cd [E|[E|[]]]; inversion E; subst; split; try reflexivity; vm_compute; discriminate.
Qed.
Print Assumptions sign_sufficient_nonvacuous.

Example update_nonvacuous :
  let acc := mkAS [1; 2; 4] 2 in
  find_authorized_ids [100; 101; 102; 103; 104] acc [104; 101] = Some [(1, 101); (4, 104)] /\
  find_authorized_ids [100; 101; 102; 103; 104] acc [104; 100] = None /\
  find_authorized_ids [100; 101; 102; 103; 104] acc [104; 104] = None /\
  update_verify_bits 5 acc [(1, true); (4, true)] = true /\
  update_verify_bits 5 acc [(1, true)] = false /\
  update_verify_bits 5 acc [(1, true); (3, true)] = false /\
  update_verify_bits 5 acc [(1, true); (4, false)] = false.
Proof. vm_compute. repeat split. Qed.
Print Assumptions update_nonvacuous.

(** two different headers, both well formed, positive thresholds: the hypotheses of the binding
    theorem are satisfiable *)
Example binding_nonvacuous :
  let h1 := mkHeader (repeat 7 32) 1 500 3 1000 in
  let h2 := mkHeader (repeat 7 32) 2 500 3 1000 in
  header_wf h1 /\ header_wf h2 /\ (h1, [1; 2; 3]) <> (h2, [1; 2; 3]) /\
  thresholds_positive unit ex_access /\ List.length (preimage_v0 h1 [1; 2; 3]) = 63%nat.
Proof.
  cbn zeta. split; [|split; [|split; [|split]]].
  - repeat split; vm_compute; reflexivity.
  - repeat split; vm_compute; reflexivity.
  - intros E. inversion E.
  - split; [vm_compute; discriminate|]. intros ci ck Hl. apply lookup_In in Hl.
    destruct Hl as [E|[E|[E|[]]]]; inversion E; vm_compute; discriminate.
  - reflexivity.
Qed.
Print Assumptions binding_nonvacuous.
