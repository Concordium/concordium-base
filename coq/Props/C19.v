(** C19 - consensus signature primitives (BLS aggregation, proof of possession, PS signatures,
    ECVRF): property theorems only, each followed by [Print Assumptions]; closed by [exact] or
    assembled here from the lemmas of the imported Crypto/*.v proof files.  Every theorem is universally quantified over the pairing setting
    [A : pops] with its laws [plaws A] (resp. over the abelian group with integer action for the
    VRF) and over all hash functions.  Unforgeability, pseudorandomness and full VRF uniqueness
    are computational and are NOT stated here; what is stated instead are the exact acceptance
    conditions (the "forgery event" made explicit) and binding as explicit hash collisions. *)
From Coq Require Import ZArith List Permutation.
From CB Require Import Crypto.PairingAlg Crypto.Bls Crypto.BlsProofs Crypto.Ps Crypto.PsProofs
  Crypto.Vrf Crypto.VrfProofs Crypto.VrfInst
  Crypto.DupSort Crypto.ParReduce Crypto.BlsPar Crypto.VrfBytes Crypto.VrfBytesProofs.
Import ListNotations.

(** an honest signature verifies under its key and message *)
Theorem bls_complete :
  forall A : pops,
  plaws A ->
  forall (Msg : Type) (H1 : Msg -> P1 A) (sk : PF A) (m : Msg),
  verify A Msg H1 (pk_of A sk) m (sign A Msg H1 sk m) = true.
Proof. exact bls_complete_l. Qed.
Print Assumptions bls_complete.

(** [verify] accepts exactly when the pairing equation holds *)
Theorem bls_verify_iff :
  forall A : pops,
  plaws A ->
  forall (Msg : Type) (H1 : Msg -> P1 A) (pk : P2 A) (m : Msg) (sig : P1 A),
  verify A Msg H1 pk m sig = true <-> pair A sig (gen2 A) = pair A (H1 m) pk.
Proof. exact verify_iff. Qed.
Print Assumptions bls_verify_iff.

(** an honest signature is accepted under (pk', m') iff sk*h(m) = sk'*h(m') in the exponent: the forgery event, explicit *)
Theorem bls_forgery_event :
  forall A : pops,
  plaws A ->
  forall (Msg : Type) (H1 : Msg -> P1 A) (sk : PF A) (m : Msg) (pk' : P2 A) (m' : Msg),
  verify A Msg H1 pk' m' (sign A Msg H1 sk m) = true <->
  fmul (PF A) sk (dl1 A (H1 m)) = fmul (PF A) (dl1 A (H1 m')) (dl2 A pk').
Proof. exact bls_forgery_event_l. Qed.
Print Assumptions bls_forgery_event.

(** same message, any other key: rejected (H1 m is not the identity) *)
Theorem bls_wrong_key_rejected :
  forall A : pops,
  plaws A ->
  forall (Msg : Type) (H1 : Msg -> P1 A) (sk : PF A) (m : Msg) (pk' : P2 A),
  H1 m <> m0 (P1 A) -> pk' <> pk_of A sk -> verify A Msg H1 pk' m (sign A Msg H1 sk m) = false.
Proof. exact bls_wrong_key_rejected_l. Qed.
Print Assumptions bls_wrong_key_rejected.

(** same key, other message accepted ==> H1 collides on the two messages *)
Theorem bls_wrong_message_is_H1_collision :
  forall A : pops,
  plaws A ->
  forall (Msg : Type) (H1 : Msg -> P1 A) (sk : PF A) (m m' : Msg),
  sk <> f0 (PF A) ->
  verify A Msg H1 (pk_of A sk) m' (sign A Msg H1 sk m) = true -> H1 m' = H1 m.
Proof. exact bls_wrong_message_collision_l. Qed.
Print Assumptions bls_wrong_message_is_H1_collision.

(** any number of signers, pairs listed in any order, signatures aggregated in any order *)
Theorem aggregate_verifies_its_multiset :
  forall A : pops,
  plaws A ->
  forall (Msg Dg : Type) (dg_eqb : Dg -> Dg -> bool),
  (forall a b : Dg, dg_eqb a b = true <-> a = b) ->
  forall (hm : Msg -> Dg) (H1 : Msg -> P1 A) (signers order : list (PF A * Msg))
    (sigs' : list (P1 A)),
  signers <> [] ->
  NoDup (map (fun s : PF A * Msg => hm (snd s)) signers) ->
  Permutation signers order ->
  Permutation (sigs_of A Msg H1 signers) sigs' ->
  verify_aggregate_sig A Msg Dg dg_eqb hm H1 (pairs_of A Msg order) (aggregate_list A sigs') =
  true.
Proof. exact aggregate_verifies_its_multiset_l. Qed.
Print Assumptions aggregate_verifies_its_multiset.

(** an honest aggregate is accepted for a claimed list iff the explicit exponent equation holds *)
Theorem aggregate_accept_iff :
  forall A : pops,
  plaws A ->
  forall (Msg Dg : Type) (dg_eqb : Dg -> Dg -> bool) (hm : Msg -> Dg) 
    (H1 : Msg -> P1 A) (signers : list (PF A * Msg)) (claimed : list (Msg * P2 A)),
  verify_aggregate_sig A Msg Dg dg_eqb hm H1 claimed
    (aggregate_list A (sigs_of A Msg H1 signers)) = true <->
  has_dup Dg dg_eqb (map (fun p : Msg * P2 A => hm (fst p)) claimed) = false /\
  claimed <> [] /\ signer_sum A Msg H1 signers = exp_sum A Msg H1 claimed.
Proof. exact aggregate_accept_iff_l. Qed.
Print Assumptions aggregate_accept_iff.

(** dropping a signer makes verification fail *)
Theorem aggregate_missing_signer_rejected :
  forall A : pops,
  plaws A ->
  forall (Msg Dg : Type) (dg_eqb : Dg -> Dg -> bool) (hm : Msg -> Dg) 
    (H1 : Msg -> P1 A) (s : PF A * Msg) (signers : list (PF A * Msg)),
  fst s <> f0 (PF A) ->
  H1 (snd s) <> m0 (P1 A) ->
  verify_aggregate_sig A Msg Dg dg_eqb hm H1 (pairs_of A Msg signers)
    (aggregate_list A (sigs_of A Msg H1 (s :: signers))) = false.
Proof. exact aggregate_missing_signer_rejected_l. Qed.
Print Assumptions aggregate_missing_signer_rejected.

(** adding a foreign (message, key) pair makes verification fail *)
Theorem aggregate_extra_pair_rejected :
  forall A : pops,
  plaws A ->
  forall (Msg Dg : Type) (dg_eqb : Dg -> Dg -> bool) (hm : Msg -> Dg) 
    (H1 : Msg -> P1 A) (p : Msg * P2 A) (signers : list (PF A * Msg)),
  dl2 A (snd p) <> f0 (PF A) ->
  H1 (fst p) <> m0 (P1 A) ->
  verify_aggregate_sig A Msg Dg dg_eqb hm H1 (p :: pairs_of A Msg signers)
    (aggregate_list A (sigs_of A Msg H1 signers)) = false.
Proof. exact aggregate_extra_pair_rejected_l. Qed.
Print Assumptions aggregate_extra_pair_rejected.

(** aggregation is insensitive to order (associative, commutative) *)
Theorem aggregate_order_irrelevant :
  forall A : pops,
  plaws A ->
  forall sigs sigs' : list (P1 A),
  Permutation sigs sigs' -> aggregate_list A sigs = aggregate_list A sigs'.
Proof. exact aggregate_perm_l. Qed.
Print Assumptions aggregate_order_irrelevant.

(** plain / hybrid / trusted-keys coincide where each is defined; rayon fold+reduce paths = sequential folds *)
Theorem aggregate_variants_agree :
  forall A : pops,
  plaws A ->
  forall (Msg Dg : Type) (dg_eqb : Dg -> Dg -> bool) (hm : Msg -> Dg) (H1 : Msg -> P1 A),
  (forall (pairs : list (Msg * P2 A)) (sig : P1 A),
   has_dup Dg dg_eqb (map (fun p : Msg * P2 A => hm (fst p)) pairs) = false ->
   pairs <> [] ->
   verify_aggregate_sig A Msg Dg dg_eqb hm H1 pairs sig =
   verify_aggregate_sig_hybrid A Msg H1 (singletons A Msg pairs) sig) /\
  (forall (m : Msg) (pks : list (P2 A)) (sig : P1 A),
   pks <> [] ->
   verify_aggregate_sig_trusted_keys A Msg H1 m pks sig =
   verify_aggregate_sig_hybrid A Msg H1 [(m, pks)] sig) /\
  (forall (groups : list (Msg * list (P2 A))) (sig : P1 A),
   verify_aggregate_sig_hybrid A Msg H1 groups sig = true <->
   dl1 A sig = exp_sum A Msg H1 (flatten A Msg groups)) /\
  (forall chunks : list (list (Msg * P2 A)),
   par_prod A Msg H1 chunks = prod_pairs A Msg H1 (concat chunks)) /\
  (forall chunks : list (list (Msg * list (P2 A))),
   par_prod_groups A Msg H1 chunks = prod_groups A Msg H1 (concat chunks)) /\
  (forall chunks : list (list (P2 A)), par_sum A chunks = sum_pks A (concat chunks)).
Proof.
  intros A L Msg Dg dg_eqb hm H1.
  split; [exact (plain_is_hybrid_singletons_l A L Msg Dg dg_eqb hm H1)|].
  split; [exact (trusted_is_hybrid_one_group_l A L Msg H1)|].
  split; [exact (hybrid_is_plain_equation_l A L Msg H1)|].
  split; [exact (par_prod_seq_l A L Msg H1)|].
  split; [exact (par_prod_groups_seq_l A L Msg H1) | exact (par_sum_seq_l A L)].
Qed.
Print Assumptions aggregate_variants_agree.

(** empty signer sets and duplicate messages are rejected *)
Theorem duplicates_and_empty_rejected :
  forall (A : pops) (Msg Dg : Type) (dg_eqb : Dg -> Dg -> bool),
  (forall a b : Dg, dg_eqb a b = true <-> a = b) ->
  forall (hm : Msg -> Dg) (H1 : Msg -> P1 A),
  (forall sig : P1 A, verify_aggregate_sig A Msg Dg dg_eqb hm H1 [] sig = false) /\
  (forall (m : Msg) (sig : P1 A), verify_aggregate_sig_trusted_keys A Msg H1 m [] sig = false) /\
  (forall (l1 l2 l3 : list (Msg * P2 A)) (m : Msg) (pk pk' : P2 A) (sig : P1 A),
   verify_aggregate_sig A Msg Dg dg_eqb hm H1 (l1 ++ (m, pk) :: l2 ++ (m, pk') :: l3) sig =
   false) /\
  (forall (pairs : list (Msg * P2 A)) (sig : P1 A),
   ~ NoDup (map (fun p : Msg * P2 A => hm (fst p)) pairs) ->
   verify_aggregate_sig A Msg Dg dg_eqb hm H1 pairs sig = false).
Proof.
  intros A Msg Dg dg_eqb E hm H1.
  split; [exact (empty_rejected_l A Msg Dg dg_eqb hm H1)|].
  split; [exact (trusted_empty_rejected_l A Msg H1)|].
  split; [exact (dup_message_rejected_l A Msg Dg dg_eqb E hm H1) | exact (dup_digest_rejected_l A Msg Dg dg_eqb E hm H1)].
Qed.
Print Assumptions duplicates_and_empty_rejected.

Theorem aggregate_same_message_trusted_keys_complete :
  forall A : pops,
  plaws A ->
  forall (Msg : Type) (H1 : Msg -> P1 A) (m : Msg) (sks : list (PF A)),
  sks <> [] ->
  verify_aggregate_sig_trusted_keys A Msg H1 m (map (pk_of A) sks)
    (aggregate_list A (map (fun sk : PF A => sign A Msg H1 sk m) sks)) = true.
Proof. exact trusted_complete_l. Qed.
Print Assumptions aggregate_same_message_trusted_keys_complete.

Theorem verify_aggregate_iff :
  forall A : pops,
  plaws A ->
  forall (Msg Dg : Type) (dg_eqb : Dg -> Dg -> bool) (hm : Msg -> Dg) 
    (H1 : Msg -> P1 A) (pairs : list (Msg * P2 A)) (sig : P1 A),
  verify_aggregate_sig A Msg Dg dg_eqb hm H1 pairs sig = true <->
  has_dup Dg dg_eqb (map (fun p : Msg * P2 A => hm (fst p)) pairs) = false /\
  pairs <> [] /\ dl1 A sig = exp_sum A Msg H1 pairs.
Proof. exact verify_aggregate_iff_l. Qed.
Print Assumptions verify_aggregate_iff.

Theorem pop_complete :
  forall A : pops,
  plaws A ->
  forall (Ctx Ch : Type) (ch_eqb : Ch -> Ch -> bool),
  (forall a b : Ch, ch_eqb a b = true <-> a = b) ->
  forall (Hc : Ctx * P2 A * P2 A * P2 A -> Ch) (ch_scalar : Ch -> PF A) 
    (ctx : Ctx) (sk w : PF A),
  pop_check A Ctx Ch ch_eqb Hc ch_scalar ctx (pk_of A sk)
    (pop_prove A Ctx Ch Hc ch_scalar ctx sk w) = true.
Proof. exact pop_complete_l. Qed.
Print Assumptions pop_complete.

Theorem pop_check_iff :
  forall (A : pops) (Ctx Ch : Type) (ch_eqb : Ch -> Ch -> bool),
  (forall a b : Ch, ch_eqb a b = true <-> a = b) ->
  forall (Hc : Ctx * P2 A * P2 A * P2 A -> Ch) (ch_scalar : Ch -> PF A) 
    (ctx : Ctx) (pk : P2 A) (ch : Ch) (resp : PF A),
  pop_check A Ctx Ch ch_eqb Hc ch_scalar ctx pk (ch, resp) = true <->
  Hc
    (ctx, pk, gen2 A,
     msub (P2 A) (msmul (P2 A) resp (gen2 A)) (msmul (P2 A) (ch_scalar ch) pk)) = ch.
Proof. exact pop_check_iff_l. Qed.
Print Assumptions pop_check_iff.

Theorem pop_binds_key_and_context :
  forall (A : pops) (Ctx Ch : Type) (ch_eqb : Ch -> Ch -> bool),
  (forall a b : Ch, ch_eqb a b = true <-> a = b) ->
  forall (Hc : Ctx * P2 A * P2 A * P2 A -> Ch) (ch_scalar : Ch -> PF A) 
    (ctx : Ctx) (pk : P2 A) (ctx' : Ctx) (pk' : P2 A) (proof : Ch * PF A),
  pop_check A Ctx Ch ch_eqb Hc ch_scalar ctx pk proof = true ->
  pop_check A Ctx Ch ch_eqb Hc ch_scalar ctx' pk' proof = true ->
  (ctx, pk) <> (ctx', pk') -> exists x y : Ctx * P2 A * P2 A * P2 A, x <> y /\ Hc x = Hc y.
Proof. exact pop_binding_l. Qed.
Print Assumptions pop_binds_key_and_context.

Theorem pop_special_soundness :
  forall A : pops,
  plaws A ->
  forall (pk P : P2 A) (c1 r1 c2 r2 : PF A),
  c1 <> c2 ->
  msub (P2 A) (msmul (P2 A) r1 (gen2 A)) (msmul (P2 A) c1 pk) = P ->
  msub (P2 A) (msmul (P2 A) r2 (gen2 A)) (msmul (P2 A) c2 pk) = P ->
  pk = pk_of A (fdiv (PF A) (fsub (PF A) r1 r2) (fsub (PF A) c1 c2)).
Proof. exact pop_extract_l. Qed.
Print Assumptions pop_special_soundness.

Theorem ps_sign_verify :
  forall A : pops,
  plaws A ->
  forall (ys : list (PF A)) (x : PF A) (ms : list (PF A)) (r : PF A) (sig : P1 A * P1 A),
  r <> f0 (PF A) ->
  ps_sign_known A (ps_keygen A ys x) ms r = Some sig ->
  ps_verify A (ps_pk_of A (ps_keygen A ys x)) sig ms = true.
Proof. exact ps_sign_verify_l. Qed.
Print Assumptions ps_sign_verify.

Theorem ps_verify_iff :
  forall A : pops,
  plaws A ->
  forall (pk : ps_pk A) (a b : P1 A) (ms : list (PF A)),
  ps_verify A pk (a, b) ms = true <->
  a <> m0 (P1 A) /\
  length ms <= length (pk_yts A pk) /\
  fmul (PF A) (dl1 A a) (fadd (PF A) (wsum2 A (pk_yts A pk) ms) (dl2 A (pk_xt A pk))) =
  fmul (PF A) (dl1 A b) (dl2 A (pk_gt A pk)).
Proof. exact ps_verify_iff_l. Qed.
Print Assumptions ps_verify_iff.

Theorem ps_blind_issue_unblind_verifies :
  forall A : pops,
  plaws A ->
  forall (ys : list (PF A)) (x mask r : PF A) (ms : list (PF A)),
  r <> f0 (PF A) ->
  length ms <= length ys ->
  ps_verify A (ps_pk_of A (ps_keygen A ys x)) (ps_issue A ys x mask r ms) ms = true.
Proof. exact ps_blind_issue_unblind_verifies_l. Qed.
Print Assumptions ps_blind_issue_unblind_verifies.

(** the unblinded signature verifies on ms' iff sum m'_i y_i = sum m_i y_i (and the length fits) *)
Theorem ps_blind_issue_valid_on_exactly :
  forall A : pops,
  plaws A ->
  forall (ys : list (PF A)) (x mask r : PF A) (ms ms' : list (PF A)),
  r <> f0 (PF A) ->
  ps_verify A (ps_pk_of A (ps_keygen A ys x)) (ps_issue A ys x mask r ms) ms' = true <->
  length ms' <= length ys /\ dot A ms' ys = dot A ms ys.
Proof. exact ps_blind_issue_unblind_iff_l. Qed.
Print Assumptions ps_blind_issue_valid_on_exactly.

Theorem ps_blind_preserves_validity :
  forall A : pops,
  plaws A ->
  forall (pk : ps_pk A) (sig : P1 A * P1 A) (ms : list (PF A)) (r t : PF A),
  r <> f0 (PF A) -> ps_verify_blinded A pk (ps_blind A sig r t) ms t = ps_verify A pk sig ms.
Proof. exact ps_blind_preserves_validity_l. Qed.
Print Assumptions ps_blind_preserves_validity.

(** OBSERVATION: a trailing zero message does not change acceptance (vectors are zero padded) *)
Theorem ps_zero_padding :
  forall A : pops,
  plaws A ->
  forall (pk : ps_pk A) (sig : P1 A * P1 A) (ms : list (PF A)),
  length ms < length (pk_yts A pk) ->
  ps_verify A pk sig (ms ++ [f0 (PF A)]) = ps_verify A pk sig ms.
Proof. exact ps_zero_padding_l. Qed.
Print Assumptions ps_zero_padding.

Theorem vrf_complete :
  forall (G : Type) (gzero : G) (gadd : G -> G -> G) (gopp : G -> G) (zmul : Z -> G -> G),
  (forall a b c : G, gadd a (gadd b c) = gadd (gadd a b) c) ->
  (forall a b : G, gadd a b = gadd b a) ->
  (forall a : G, gadd gzero a = a) ->
  (forall a : G, gadd a (gopp a) = gzero) ->
  (forall (x y : Z) (a : G), zmul (x + y)%Z a = gadd (zmul x a) (zmul y a)) ->
  (forall (x : Z) (a b : G), zmul x (gadd a b) = gadd (zmul x a) (zmul x b)) ->
  (forall (x y : Z) (a : G), zmul (x * y)%Z a = zmul x (zmul y a)) ->
  forall l : Z,
  (0 < l)%Z ->
  forall B : G,
  (forall n : Z, zmul n B = gzero <-> (l | n)%Z) ->
  forall (Msg Nonce : Type) (h2c : G -> Msg -> option G),
  (forall (Y : G) (a : Msg) (H : G), h2c Y a = Some H -> zmul l H = gzero) ->
  forall (hpoints : G * G * G * G -> Z) (noncegen : Nonce -> G -> Z) 
    (x : Z) (nonce : Nonce) (alpha : Msg) (pi : G * Z * Z),
  vrf_prove G zmul l B Msg Nonce h2c hpoints noncegen x nonce (vrf_pk_of G zmul B x) alpha =
  Some pi ->
  vrf_verify G gadd gopp zmul B Msg h2c hpoints (vrf_pk_of G zmul B x) pi alpha = true.
Proof. exact vrf_complete_l. Qed.
Print Assumptions vrf_complete.

Theorem vrf_output_deterministic :
  forall (G : Type) (zmul : Z -> G -> G) (l : Z) (B : G) (Msg Out Nonce : Type)
    (h2c : G -> Msg -> option G) (hpoints : G * G * G * G -> Z) (hout : G -> Out)
    (noncegen : Nonce -> G -> Z) (x : Z) (nonce nonce' : Nonce) (Y : G) 
    (alpha : Msg) (pi pi' : G * Z * Z),
  vrf_prove G zmul l B Msg Nonce h2c hpoints noncegen x nonce Y alpha = Some pi ->
  vrf_prove G zmul l B Msg Nonce h2c hpoints noncegen x nonce' Y alpha = Some pi' ->
  vrf_to_hash G zmul Out hout pi = vrf_to_hash G zmul Out hout pi'.
Proof. exact vrf_output_deterministic_l. Qed.
Print Assumptions vrf_output_deterministic.

Theorem vrf_verify_iff :
  forall (G : Type) (gadd : G -> G -> G) (gopp : G -> G) (zmul : Z -> G -> G) 
    (B : G) (Msg : Type) (h2c : G -> Msg -> option G) (hpoints : G * G * G * G -> Z)
    (Y gamma : G) (c s : Z) (alpha : Msg),
  vrf_verify G gadd gopp zmul B Msg h2c hpoints Y (gamma, c, s) alpha = true <->
  (exists H : G,
     h2c Y alpha = Some H /\
     c =
     hpoints
       (H, gamma, gsub G gadd gopp (zmul s B) (zmul c Y),
        gsub G gadd gopp (zmul s H) (zmul c gamma))).
Proof. exact vrf_verify_iff_l. Qed.
Print Assumptions vrf_verify_iff.

(** all Gammas satisfying the attested DLEQ relation for (Y, H) give the same output *)
Theorem vrf_unique_given_dleq :
  forall (G : Type) (gzero : G) (gadd : G -> G -> G) (gopp : G -> G) (zmul : Z -> G -> G),
  (forall a b c : G, gadd a (gadd b c) = gadd (gadd a b) c) ->
  (forall a b : G, gadd a b = gadd b a) ->
  (forall a : G, gadd gzero a = a) ->
  (forall a : G, gadd a (gopp a) = gzero) ->
  (forall (x y : Z) (a : G), zmul (x + y)%Z a = gadd (zmul x a) (zmul y a)) ->
  (forall (x : Z) (a b : G), zmul x (gadd a b) = gadd (zmul x a) (zmul x b)) ->
  (forall (x y : Z) (a : G), zmul (x * y)%Z a = zmul x (zmul y a)) ->
  forall (l : Z) (B : G),
  (forall n : Z, zmul n B = gzero <-> (l | n)%Z) ->
  forall (Out : Type) (hout : G -> Out) (Y H gamma1 : G) (c1 s1 : Z) (gamma2 : G) (c2 s2 : Z),
  zmul l H = gzero ->
  dleq G zmul B Y H gamma1 ->
  dleq G zmul B Y H gamma2 ->
  vrf_to_hash G zmul Out hout (gamma1, c1, s1) = vrf_to_hash G zmul Out hout (gamma2, c2, s2).
Proof. exact vrf_unique_given_dleq_l. Qed.
Print Assumptions vrf_unique_given_dleq.

(** a small-order component of Gamma does not change the output (this is what the cofactor multiplication is for) *)
Theorem vrf_cofactor_clears_small_order :
  forall (G : Type) (gzero : G) (gadd : G -> G -> G) (zmul : Z -> G -> G),
  (forall a b : G, gadd a b = gadd b a) ->
  (forall a : G, gadd gzero a = a) ->
  (forall (x : Z) (a b : G), zmul x (gadd a b) = gadd (zmul x a) (zmul x b)) ->
  forall (Out : Type) (hout : G -> Out) (gamma T : G) (c s c' s' : Z),
  zmul 8%Z T = gzero ->
  vrf_to_hash G zmul Out hout (gadd gamma T, c, s) =
  vrf_to_hash G zmul Out hout (gamma, c', s').
Proof. exact vrf_torsion_same_output_l. Qed.
Print Assumptions vrf_cofactor_clears_small_order.

Theorem vrf_output_function_of_public_key :
  forall (G : Type) (gzero : G) (gadd : G -> G -> G) (gopp : G -> G) (zmul : Z -> G -> G),
  (forall a b c : G, gadd a (gadd b c) = gadd (gadd a b) c) ->
  (forall a b : G, gadd a b = gadd b a) ->
  (forall a : G, gadd gzero a = a) ->
  (forall a : G, gadd a (gopp a) = gzero) ->
  (forall (x y : Z) (a : G), zmul (x + y)%Z a = gadd (zmul x a) (zmul y a)) ->
  (forall (x : Z) (a b : G), zmul x (gadd a b) = gadd (zmul x a) (zmul x b)) ->
  (forall (x y : Z) (a : G), zmul (x * y)%Z a = zmul x (zmul y a)) ->
  forall (l : Z) (B : G),
  (forall n : Z, zmul n B = gzero <-> (l | n)%Z) ->
  forall (x x' : Z) (H : G),
  zmul l H = gzero ->
  vrf_pk_of G zmul B x = vrf_pk_of G zmul B x' -> zmul 8%Z (zmul x H) = zmul 8%Z (zmul x' H).
Proof. exact vrf_output_of_key_l. Qed.
Print Assumptions vrf_output_function_of_public_key.

Theorem vrf_challenge_binds_gamma :
  forall (G : Type) (gadd : G -> G -> G) (gopp : G -> G) (zmul : Z -> G -> G) 
    (B : G) (Msg : Type) (h2c : G -> Msg -> option G) (hpoints : G * G * G * G -> Z) 
    (Y : G) (alpha : Msg) (gamma1 gamma2 : G) (c s1 s2 : Z),
  vrf_verify G gadd gopp zmul B Msg h2c hpoints Y (gamma1, c, s1) alpha = true ->
  vrf_verify G gadd gopp zmul B Msg h2c hpoints Y (gamma2, c, s2) alpha = true ->
  gamma1 <> gamma2 -> exists u v : G * G * G * G, u <> v /\ hpoints u = hpoints v.
Proof. exact vrf_challenge_binds_gamma_l. Qed.
Print Assumptions vrf_challenge_binds_gamma.

Theorem vrf_challenge_binds_key_and_input :
  forall (G : Type) (gadd : G -> G -> G) (gopp : G -> G) (zmul : Z -> G -> G) 
    (B : G) (Msg : Type) (h2c : G -> Msg -> option G) (hpoints : G * G * G * G -> Z) 
    (Y : G) (alpha : Msg) (Y' : G) (alpha' : Msg) (H H' : G) (pi : G * Z * Z),
  h2c Y alpha = Some H ->
  h2c Y' alpha' = Some H' ->
  H <> H' ->
  vrf_verify G gadd gopp zmul B Msg h2c hpoints Y pi alpha = true ->
  vrf_verify G gadd gopp zmul B Msg h2c hpoints Y' pi alpha' = true ->
  exists u v : G * G * G * G, u <> v /\ hpoints u = hpoints v.
Proof. exact vrf_challenge_binds_input_l. Qed.
Print Assumptions vrf_challenge_binds_key_and_input.

(** a public key of small order (d*Y = 0, d | 8) admits a forged proof (Gamma = 0, needs no secret) that verify accepts for EVERY input as soon as d divides the challenge, with the same output for all inputs: key validity (checked by Deserial for PublicKey) is a genuine precondition *)
Theorem vrf_small_order_key_forgeable :
  forall (G : Type) (gzero : G) (gadd : G -> G -> G) (gopp : G -> G) (zmul : Z -> G -> G),
  (forall a b c : G, gadd a (gadd b c) = gadd (gadd a b) c) ->
  (forall a b : G, gadd a b = gadd b a) ->
  (forall a : G, gadd gzero a = a) ->
  (forall a : G, gadd a (gopp a) = gzero) ->
  (forall (x : Z) (a b : G), zmul x (gadd a b) = gadd (zmul x a) (zmul x b)) ->
  (forall (x y : Z) (a : G), zmul (x * y)%Z a = zmul x (zmul y a)) ->
  forall (B : G) (Msg Out : Type) (h2c : G -> Msg -> option G) (hpoints : G * G * G * G -> Z)
    (hout : G -> Out) (Y : G) (alpha : Msg) (H : G) (k d : Z),
  h2c Y alpha = Some H ->
  zmul d Y = gzero ->
  (d | hpoints (H, gzero, zmul k B, zmul k H))%Z ->
  vrf_verify G gadd gopp zmul B Msg h2c hpoints Y
    (gzero, hpoints (H, gzero, zmul k B, zmul k H), k) alpha = true /\
  vrf_to_hash G zmul Out hout (gzero, hpoints (H, gzero, zmul k B, zmul k H), k) = hout gzero.
Proof. exact vrf_small_order_key_forgeable_l. Qed.
Print Assumptions vrf_small_order_key_forgeable.

(** for the identity key the forgery is unconditional *)
Theorem vrf_identity_key_forgeable :
  forall (G : Type) (gzero : G) (gadd : G -> G -> G) (gopp : G -> G) (zmul : Z -> G -> G),
  (forall a b c : G, gadd a (gadd b c) = gadd (gadd a b) c) ->
  (forall a b : G, gadd a b = gadd b a) ->
  (forall a : G, gadd gzero a = a) ->
  (forall a : G, gadd a (gopp a) = gzero) ->
  (forall (x : Z) (a b : G), zmul x (gadd a b) = gadd (zmul x a) (zmul x b)) ->
  (forall (x y : Z) (a : G), zmul (x * y)%Z a = zmul x (zmul y a)) ->
  (forall a : G, zmul 1%Z a = a) ->
  forall (B : G) (Msg Out : Type) (h2c : G -> Msg -> option G) (hpoints : G * G * G * G -> Z),
  (G -> Out) ->
  forall (alpha : Msg) (H : G) (k : Z),
  h2c gzero alpha = Some H ->
  vrf_verify G gadd gopp zmul B Msg h2c hpoints gzero
    (gzero, hpoints (H, gzero, zmul k B, zmul k H), k) alpha = true.
Proof. exact vrf_identity_key_forgeable_l. Qed.
Print Assumptions vrf_identity_key_forgeable.

(** for a small-order key the attested relation holds for Gamma = 0 *)
Theorem vrf_small_order_key_dleq_trivial :
  forall (G : Type) (gzero : G) (gadd : G -> G -> G) (gopp : G -> G) (zmul : Z -> G -> G),
  (forall a b c : G, gadd a (gadd b c) = gadd (gadd a b) c) ->
  (forall a b : G, gadd a b = gadd b a) ->
  (forall a : G, gadd gzero a = a) ->
  (forall a : G, gadd a (gopp a) = gzero) ->
  (forall (x y : Z) (a : G), zmul (x + y)%Z a = gadd (zmul x a) (zmul y a)) ->
  (forall (x : Z) (a b : G), zmul x (gadd a b) = gadd (zmul x a) (zmul x b)) ->
  forall B Y H : G, zmul 8%Z Y = gzero -> dleq G zmul B Y H gzero.
Proof. exact dleq_small_order_key_l. Qed.
Print Assumptions vrf_small_order_key_dleq_trivial.

(** POSITIVE, needs key validity 8*Y <> 0: no Gamma of small order satisfies the attested relation, so the output of a valid key is never the degenerate constant *)
Theorem vrf_valid_key_excludes_small_order_gamma :
  forall (G : Type) (gzero : G) (zmul : Z -> G -> G) (l : Z) (B : G),
  (forall n : Z, zmul n B = gzero <-> (l | n)%Z) ->
  forall Y H gamma : G,
  zmul 8%Z Y <> gzero ->
  (forall n : Z, zmul n H = gzero <-> (l | n)%Z) ->
  dleq G zmul B Y H gamma -> zmul 8%Z gamma <> gzero.
Proof. exact vrf_valid_key_excludes_small_order_gamma_l. Qed.
Print Assumptions vrf_valid_key_excludes_small_order_gamma.

(** ** Non-vacuity: the hypotheses are satisfiable, with concrete accepting and rejecting runs *)
Example pairing_laws_satisfiable : plaws F5P.
Proof. exact F5P_laws. Qed.
Print Assumptions pairing_laws_satisfiable.

Definition ex_H1 (m : bool) : P1 F5P := if m then V2 else V3.

Example aggregate_nonvacuous :
  let signers : list (PF F5P * bool) := [(V2, true); (V3, false)] in
  signers <> [] /\ NoDup (map (fun s : PF F5P * bool => id (snd s)) signers) /\
  Permutation signers (rev signers) /\
  verify_aggregate_sig F5P bool bool Bool.eqb id ex_H1 (pairs_of F5P bool (rev signers))
    (aggregate_list F5P (sigs_of F5P bool ex_H1 signers)) = true /\
  verify_aggregate_sig F5P bool bool Bool.eqb id ex_H1 (pairs_of F5P bool [(V2, true)])
    (aggregate_list F5P (sigs_of F5P bool ex_H1 signers)) = false.
Proof.
  cbv zeta. split; [discriminate|]. split.
  - cbn. constructor; [intros [E|[]]; discriminate | constructor; [intros [] | constructor]].
  - split; [apply Permutation_rev|]. split; reflexivity.
Qed.
Print Assumptions aggregate_nonvacuous.

Example bls_wrong_key_nonvacuous :
  ex_H1 true <> m0 (P1 F5P) /\ pk_of F5P V3 <> pk_of F5P V2 /\
  verify F5P bool ex_H1 (pk_of F5P V3) true (sign F5P bool ex_H1 V2 true) = false /\
  verify F5P bool ex_H1 (pk_of F5P V2) true (sign F5P bool ex_H1 V2 true) = true.
Proof. repeat split; try discriminate; reflexivity. Qed.
Print Assumptions bls_wrong_key_nonvacuous.

Example ps_nonvacuous :
  let ys : list (PF F5P) := [V2; V3] in
  let ms : list (PF F5P) := [V1; V2] in
  (V2 : PF F5P) <> f0 (PF F5P) /\ (length ms <= length ys)%nat /\
  ps_verify F5P (ps_pk_of F5P (ps_keygen F5P ys V4)) (ps_issue F5P ys V4 V3 V2 ms) ms = true /\
  ps_verify F5P (ps_pk_of F5P (ps_keygen F5P ys V4)) (ps_issue F5P ys V4 V3 V2 ms) [V1; V3] = false.
Proof. cbv zeta. repeat split; try discriminate; try reflexivity. Qed.
Print Assumptions ps_nonvacuous.

(** the VRF hypotheses hold for the cyclic group of order 5 (l = 5, B of exact order 5) *)
Example vrf_nonvacuous :
  let h2c := fun (_ : five) (_ : unit) => Some V2 in
  let hpoints := fun (_ : five * five * five * five) => 3%Z in
  let noncegen := fun (_ : unit) (_ : five) => 4%Z in
  forall pi,
    vrf_prove five g5_zmul 5 V1 unit unit h2c hpoints noncegen 2 tt (vrf_pk_of five g5_zmul V1 2) tt = Some pi ->
    vrf_verify five g5_add g5_opp g5_zmul V1 unit h2c hpoints (vrf_pk_of five g5_zmul V1 2) pi tt = true.
Proof.
  cbv zeta. intros pi.
  apply (vrf_complete five V0 g5_add g5_opp g5_zmul);
    first [ exact g5_zmul_add_l | exact g5_zmul_add_r | exact g5_zmul_mul | exact g5_zmul_1 | exact g5_B_order
          | (intros Y a H E; apply g5_kills)
          | (intros [] [] []; reflexivity) | (intros [] []; reflexivity) | (intros []; reflexivity) | reflexivity ].
Qed.
Print Assumptions vrf_nonvacuous.

(** the hypotheses of the forgery theorem are satisfiable (identity key in the group of order 5) *)
Example vrf_small_order_key_nonvacuous :
  let h2c := fun (_ : five) (_ : unit) => Some V2 in
  let hpoints := fun (_ : five * five * five * five) => 3%Z in
  h2c V0 tt = Some V2 /\ g5_zmul 1 V0 = V0 /\ (1 | hpoints (V2, V0, g5_zmul 4 V1, g5_zmul 4 V2))%Z /\
  vrf_verify five g5_add g5_opp g5_zmul V1 unit h2c hpoints V0 (V0, 3%Z, 4%Z) tt = true.
Proof. cbv zeta. repeat split; try reflexivity. apply Z.divide_1_l. Qed.
Print Assumptions vrf_small_order_key_nonvacuous.

(** ** has_duplicates as coded (sort, then compare neighbours) *)

(** for EVERY correct sorting function (in particular whatever [sort_unstable] does) and every list
    (lengths 0, 1, 2 included): the scan reports a duplicate iff two different positions hold the same key *)
Theorem has_duplicates_sort_and_scan_iff :
  forall (K : Type) (leb eqb : K -> K -> bool),
  (forall a b, eqb a b = true <-> a = b) ->
  (forall a b, leb a b = true -> leb b a = true -> a = b) ->
  forall (srt : list K -> list K) (l : list K),
  sorts K leb srt ->
  (has_duplicates_with K eqb srt l = true <->
   exists i j x, i < j /\ nth_error l i = Some x /\ nth_error l j = Some x).
Proof. exact has_duplicates_with_positions. Qed.
Print Assumptions has_duplicates_sort_and_scan_iff.

(** the executable instance (insertion sort) is a correct sort, hence the same statement holds for it,
    and it coincides with the quadratic model [Bls.has_dup] used by the aggregate theorems *)
Theorem has_duplicates_coded_iff :
  forall (K : Type) (leb eqb : K -> K -> bool),
  (forall a b, eqb a b = true <-> a = b) ->
  (forall a b, leb a b = true \/ leb b a = true) ->
  (forall a b c, leb a b = true -> leb b c = true -> leb a c = true) ->
  (forall a b, leb a b = true -> leb b a = true -> a = b) ->
  forall l : list K,
  (has_duplicates_coded K leb eqb l = true <->
   exists i j x, i < j /\ nth_error l i = Some x /\ nth_error l j = Some x) /\
  has_duplicates_coded K leb eqb l = has_dup K eqb l.
Proof.
  intros K leb eqb H1 H2 H3 H4 l. split.
  - exact (has_duplicates_coded_positions K leb eqb H1 H2 H3 H4 l).
  - rewrite (has_duplicates_coded_ref K leb eqb H1 H2 H3 H4 l). apply has_dup_ref_is_has_dup.
Qed.
Print Assumptions has_duplicates_coded_iff.

(** the algorithm behind the sort is irrelevant *)
Theorem has_duplicates_sort_irrelevant_thm :
  forall (K : Type) (leb eqb : K -> K -> bool),
  (forall a b, eqb a b = true <-> a = b) ->
  (forall a b, leb a b = true -> leb b a = true -> a = b) ->
  forall (srt srt' : list K -> list K) (l : list K),
  sorts K leb srt -> sorts K leb srt' -> has_duplicates_with K eqb srt l = has_duplicates_with K eqb srt' l.
Proof. exact has_duplicates_sort_irrelevant. Qed.
Print Assumptions has_duplicates_sort_irrelevant_thm.

(** ** rayon fold/reduce: every split tree, every chunk size, every threshold, every length *)
Theorem par_reduce_any_tree_is_sequential :
  forall (A T : Type) (op : T -> T -> T) (e : T) (g : A -> T),
  (forall a b c, op a (op b c) = op (op a b) c) -> (forall a, op e a = a) -> (forall a, op a e = a) ->
  (forall t : ptree A, peval A T op e g t = seqfold A T op e g (pflatten A t)) /\
  (forall (n : nat) (l : list A), 0 < n -> chunked_eval A T op e g n l = seqfold A T op e g l) /\
  (forall (n : nat) (l : list A), 0 < n -> concat (chunks_of A n l) = l) /\
  (forall (d : nat) (l : list A), peval A T op e g (msplit A d l) = seqfold A T op e g l) /\
  (forall (thr : nat) (split : list A -> ptree A) (l : list A),
     (forall l, pflatten A (split l) = l) -> thresh_eval A T op e g thr split l = seqfold A T op e g l).
Proof.
  intros A T op e g Ha Hl Hr. split; [exact (peval_seq A T op e g Ha Hl Hr)|].
  split; [exact (chunked_eval_seq A T op e g Ha Hl Hr)|]. split; [exact (chunks_of_concat A)|].
  split; [intros d l; rewrite (peval_seq A T op e g Ha Hl Hr), msplit_flatten; reflexivity|].
  exact (thresh_eval_seq A T op e g Ha Hl Hr).
Qed.
Print Assumptions par_reduce_any_tree_is_sequential.

(** the three verifiers as coded (sort-and-scan, rayon trees, "sequential below thr keys") = the sequential models,
    for every lawful pairing setting, every threshold [thr] (150 in the code) and every splitter *)
Theorem aggregate_verifiers_as_coded_agree :
  forall A : pops, plaws A ->
  forall (Msg Dg : Type) (dg_eqb dg_leb : Dg -> Dg -> bool) (hm : Msg -> Dg) (H1 : Msg -> P1 A),
  (forall (thr : nat) (split : list (P2 A) -> ptree (P2 A)) (pks : list (P2 A)),
     (forall l, pflatten (P2 A) (split l) = l) -> sum_pks_coded A thr split pks = sum_pks A pks) /\
  (forall (thr : nat) (split : list (P2 A) -> ptree (P2 A)) (t : ptree (Msg * list (P2 A))) (sig : P1 A),
     (forall l, pflatten (P2 A) (split l) = l) ->
     verify_hybrid_coded A Msg H1 thr split t sig = verify_aggregate_sig_hybrid A Msg H1 (pflatten (Msg * list (P2 A)) t) sig) /\
  (forall (thr : nat) (split : list (P2 A) -> ptree (P2 A)) (m : Msg) (pks : list (P2 A)) (sig : P1 A),
     (forall l, pflatten (P2 A) (split l) = l) ->
     verify_trusted_coded A Msg H1 thr split m pks sig = verify_aggregate_sig_trusted_keys A Msg H1 m pks sig) /\
  ((forall a b, dg_eqb a b = true <-> a = b) -> (forall a b, dg_leb a b = true -> dg_leb b a = true -> a = b) ->
   forall (srt : list Dg -> list Dg) (t : ptree (Msg * P2 A)) (sig : P1 A),
     sorts Dg dg_leb srt ->
     verify_plain_coded A Msg Dg dg_eqb hm H1 srt t sig =
     verify_aggregate_sig A Msg Dg dg_eqb hm H1 (pflatten (Msg * P2 A) t) sig).
Proof.
  intros A L Msg Dg dg_eqb dg_leb hm H1.
  split; [exact (sum_pks_coded_seq A L)|]. split; [exact (verify_hybrid_coded_seq A L Msg H1)|].
  split; [exact (verify_trusted_coded_seq A L Msg H1)|].
  intros E1 E2 srt t sig S. exact (verify_plain_coded_seq A L Msg Dg dg_eqb dg_leb hm H1 E1 E2 srt t sig S).
Qed.
Print Assumptions aggregate_verifiers_as_coded_agree.

(** non-vacuity / concrete runs of the sort-and-scan and chunked definitions *)
Example has_duplicates_nonvacuous :
  sorts nat Nat.leb (isort nat Nat.leb) /\
  has_duplicates_coded nat Nat.leb Nat.eqb [] = false /\ has_duplicates_coded nat Nat.leb Nat.eqb [7] = false /\
  has_duplicates_coded nat Nat.leb Nat.eqb [7; 7] = true /\ has_duplicates_coded nat Nat.leb Nat.eqb [7; 3] = false /\
  has_duplicates_coded nat Nat.leb Nat.eqb [5; 1; 9; 1; 4] = true /\ has_duplicates_coded nat Nat.leb Nat.eqb [5; 1; 9; 2; 4] = false.
Proof.
  split; [|repeat split; reflexivity].
  apply isort_sorts.
  - intros a b. destruct (Nat.leb_spec a b), (Nat.leb_spec b a); auto. exfalso. eapply Nat.lt_irrefl, Nat.lt_trans; eassumption.
  - intros a b c H1 H2. apply Nat.leb_le in H1, H2. apply Nat.leb_le. eapply Nat.le_trans; eassumption.
Qed.
Print Assumptions has_duplicates_nonvacuous.

Example par_reduce_nonvacuous :
  let xs := [3; 1; 4; 1; 5; 9; 2; 6; 5; 3; 5] in
  chunks_of nat 4 xs = [[3; 1; 4; 1]; [5; 9; 2; 6]; [5; 3; 5]] /\
  chunked_eval nat nat Nat.add 0 (fun x => x) 4 xs = 44 /\ seqfold nat nat Nat.add 0 (fun x => x) xs = 44 /\
  peval nat nat Nat.add 0 (fun x => x) (msplit nat 3 xs) = 44 /\
  thresh_eval nat nat Nat.add 0 (fun x => x) 11 (msplit nat 2) xs = 44 /\
  thresh_eval nat nat Nat.add 0 (fun x => x) 12 (msplit nat 2) xs = 44.
Proof. cbv zeta. repeat split; reflexivity. Qed.
Print Assumptions par_reduce_nonvacuous.

Local Open Scope Z_scope.

(** ** ECVRF on bytes (VrfBytes.v): framing, challenge truncation, proof format, completeness *)

(** the 16-byte challenge: the coded "first 16 digest bytes, zero padded, reduced mod l" is the 128-bit
    little-endian value (no reduction happens), its 16-byte encoding is injective on [0, 2^128) and
    is inverted by decoding *)
Theorem ecvrf_challenge_truncation :
  (forall d, bytes_ok d ->
     challenge_of_digest d = le_decode (firstn 16 d) /\ (0 <= challenge_of_digest d < 2 ^ 128)%Z) /\
  (forall c c', (0 <= c < 2 ^ 128)%Z -> (0 <= c' < 2 ^ 128)%Z -> le_encode 16 c = le_encode 16 c' -> c = c') /\
  (forall c, (0 <= c < 2 ^ 128)%Z -> le_decode (le_encode 16 c) = c) /\
  (forall t, bytes_ok t -> (length t <= 16)%nat -> scalar_from_canonical (t ++ repeat 0%N 16) = Some (le_decode t)).
Proof.
  split; [exact challenge_of_digest_spec|]. split; [exact challenge_encoding_injective|].
  split; [|exact challenge_field_canonical].
  intros c Hc. rewrite le_decode_encode, p256_16. apply Z.mod_small. exact Hc.
Qed.
Print Assumptions ecvrf_challenge_truncation.

(** proof format: decode inverts encode; decode accepts exactly 80+ bytes with a decompressible Gamma and s < l *)
Theorem ecvrf_proof_codec :
  forall (G : Type) (compress : G -> list N) (decompress : list N -> option G),
  (forall P, length (compress P) = 32%nat) -> (forall P, decompress (compress P) = Some P) ->
  (forall gm c s pib, (0 <= c)%Z -> (0 <= s < ed_l)%Z ->
     encode_proof G compress (gm, c, s) = Some pib -> decode_proof G decompress pib = Some (gm, c, s)) /\
  (forall bs gm c s, bytes_ok bs ->
     (decode_proof G decompress bs = Some (gm, c, s) <->
      (80 <= length bs)%nat /\ decompress (firstn 32 bs) = Some gm /\
      c = le_decode (firstn 16 (skipn 32 bs)) /\ s = le_decode (firstn 32 (skipn 48 bs)) /\ (s < ed_l)%Z)) /\
  (forall bs, bytes_ok bs -> (ed_l <= le_decode (firstn 32 (skipn 48 bs)))%Z -> decode_proof G decompress bs = None).
Proof.
  intros G compress decompress H1 H2. split; [exact (decode_encode G compress decompress H1 H2)|].
  split; [exact (decode_proof_iff G decompress) | exact (decode_rejects_large_s G decompress)].
Qed.
Print Assumptions ecvrf_proof_codec.

(** completeness on bytes: the 80 bytes made by prove (framing, truncation, encoding as coded) are
    accepted by deserialize-then-verify under the key derived from the same secret key bytes *)
Theorem ecvrf_bytes_complete :
  forall (G : Type) (gzero : G) (gadd : G -> G -> G) (gopp : G -> G) (zmul : Z -> G -> G) (geqb : G -> G -> bool),
  (forall a b c, gadd a (gadd b c) = gadd (gadd a b) c) -> (forall a b, gadd a b = gadd b a) ->
  (forall a, gadd gzero a = a) -> (forall a, gadd a (gopp a) = gzero) ->
  (forall x y a, zmul (x + y) a = gadd (zmul x a) (zmul y a)) ->
  (forall x a b, zmul x (gadd a b) = gadd (zmul x a) (zmul x b)) ->
  (forall x y a, zmul (x * y) a = zmul x (zmul y a)) ->
  forall B : G, (forall n, zmul n B = gzero <-> (ed_l | n)%Z) -> (forall P, zmul (ed_l * 8) P = gzero) ->
  forall (compress : G -> list N) (decompress : list N -> option G),
  (forall P, length (compress P) = 32%nat) -> (forall P, decompress (compress P) = Some P) ->
  forall sha512 : list N -> list N, (forall m, bytes_ok (sha512 m)) ->
  forall skb alpha pib,
  ecvrf_prove_bytes G gzero zmul geqb B compress decompress sha512 skb (pk_of_secret G zmul B compress sha512 skb) alpha = Some pib ->
  ecvrf_verify_bytes G gzero gadd gopp zmul geqb B compress decompress sha512 (pk_of_secret G zmul B compress sha512 skb) pib alpha = true.
Proof. exact ecvrf_bytes_complete_l. Qed.
Print Assumptions ecvrf_bytes_complete.

(** determinism: prove takes the secret key bytes, the key and the input and nothing else (it is a
    function), its assertion never fails ([VrfBytesProofs.prove_bytes_encodes]), and the output bytes depend only on the secret scalar and H *)
Theorem ecvrf_bytes_output_deterministic :
  forall (G : Type) (gzero : G) (zmul : Z -> G -> G) (geqb : G -> G -> bool) (B : G)
    (compress : G -> list N) (decompress : list N -> option G),
  (forall P, length (compress P) = 32%nat) -> (forall P, decompress (compress P) = Some P) ->
  forall sha512 : list N -> list N, (forall m, bytes_ok (sha512 m)) ->
  forall skb pk alpha pib,
  ecvrf_prove_bytes G gzero zmul geqb B compress decompress sha512 skb pk alpha = Some pib ->
  exists H, h2c_bytes G gzero zmul geqb decompress sha512 (fst pk) alpha = Some H /\
    ecvrf_hash_bytes G zmul compress decompress sha512 pib =
    Some (sha512 (beta_input (compress (zmul 8 (zmul (fst (expand_key (sha512 skb))) H))))).
Proof. exact ecvrf_bytes_output_l. Qed.
Print Assumptions ecvrf_bytes_output_deterministic.

(** uniqueness on bytes: two byte strings that parse to proofs whose Gammas satisfy the DLEQ relation for the
    same key and H have the same output *)
Theorem ecvrf_bytes_unique_given_dleq :
  forall (G : Type) (gzero : G) (gadd : G -> G -> G) (gopp : G -> G) (zmul : Z -> G -> G),
  (forall a b c, gadd a (gadd b c) = gadd (gadd a b) c) -> (forall a b, gadd a b = gadd b a) ->
  (forall a, gadd gzero a = a) -> (forall a, gadd a (gopp a) = gzero) ->
  (forall x y a, zmul (x + y) a = gadd (zmul x a) (zmul y a)) ->
  (forall x a b, zmul x (gadd a b) = gadd (zmul x a) (zmul x b)) ->
  (forall x y a, zmul (x * y) a = zmul x (zmul y a)) ->
  forall B : G, (forall n, zmul n B = gzero <-> (ed_l | n)%Z) ->
  forall (compress : G -> list N) (decompress : list N -> option G) (sha512 : list N -> list N),
  forall Y H pib1 pib2 gm1 c1 s1 gm2 c2 s2,
  zmul ed_l H = gzero ->
  decode_proof G decompress pib1 = Some (gm1, c1, s1) -> decode_proof G decompress pib2 = Some (gm2, c2, s2) ->
  dleq G zmul B Y H gm1 -> dleq G zmul B Y H gm2 ->
  ecvrf_hash_bytes G zmul compress decompress sha512 pib1 = ecvrf_hash_bytes G zmul compress decompress sha512 pib2.
Proof. exact ecvrf_bytes_unique_given_dleq_l. Qed.
Print Assumptions ecvrf_bytes_unique_given_dleq.

(** exact acceptance condition on bytes, with the transcript spelled out *)
Theorem ecvrf_verify_bytes_iff :
  forall (G : Type) (gzero : G) (gadd : G -> G -> G) (gopp : G -> G) (zmul : Z -> G -> G) (geqb : G -> G -> bool) (B : G)
    (compress : G -> list N) (decompress : list N -> option G) (sha512 : list N -> list N) pk pib alpha,
  ecvrf_verify_bytes G gzero gadd gopp zmul geqb B compress decompress sha512 pk pib alpha = true <->
  exists gm c s H, decode_proof G decompress pib = Some (gm, c, s) /\
    h2c_bytes G gzero zmul geqb decompress sha512 (fst pk) alpha = Some H /\
    c = challenge_of_digest (sha512 (challenge_input (compress H) (compress gm)
          (compress (gsub G gadd gopp (zmul s B) (zmul c (snd pk))))
          (compress (gsub G gadd gopp (zmul s H) (zmul c gm))))).
Proof. exact ecvrf_verify_bytes_iff_l. Qed.
Print Assumptions ecvrf_verify_bytes_iff.

(** the codec on concrete bytes (points = their encodings): an 80-byte proof with s = l - 1 is accepted and
    re-encodes to itself, s = l is rejected, 79 bytes are rejected, a set bit above 2^128 in c makes encode fail *)
Example ecvrf_codec_nonvacuous :
  let gm := repeat 9%N 32 in
  let dec := fun b : list N => Some b in
  encode_proof (list N) (fun p => p) (gm, 5%Z, (ed_l - 1)%Z) <> None /\
  (forall pib, encode_proof (list N) (fun p => p) (gm, 5%Z, (ed_l - 1)%Z) = Some pib ->
     length pib = 80%nat /\ decode_proof (list N) dec pib = Some (gm, 5%Z, (ed_l - 1)%Z) /\
     decode_proof (list N) dec (firstn 79 pib) = None) /\
  decode_proof (list N) dec (gm ++ le_encode 16 5 ++ le_encode 32 ed_l) = None /\
  encode_proof (list N) (fun p => p) (gm, (2 ^ 128)%Z, 0%Z) = None.
Proof.
  cbv zeta. split; [vm_compute; discriminate|]. split; [|split; vm_compute; reflexivity].
  intros pib E. vm_compute in E. injection E as <-. repeat split; vm_compute; reflexivity.
Qed.
Print Assumptions ecvrf_codec_nonvacuous.
