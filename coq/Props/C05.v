(** C05 -- property theorems only.  Each is closed by [exact], and followed by [Print Assumptions].

    For every chain schema term [s] (Chain/ChainSchemas.v) and every validity oracle for the opaque
    leaves:  RT (decode (encode v ++ rest) = (v, rest)), Canon (accepted bytes are the encoding of
    the decoded value, which is well typed: exactly one accepted encoding per value), PFree
    (prefix freeness), AllocOK (storage reserved ahead of the data <= cap s * bytes consumed).
    Then the ties of the hand-written terms to the ones regenerated from the Rust declarations
    (derived types, generic wrappers as functors, hand-written impls) and the full Payload table. *)
From Coq Require Import NArith List Bool.
From CB Require Import Common.Codec Common.CodecProofs Chain.ChainSchemas Chain.ChainSchemasProofs Gen.ChainSchemas Chain.GenTie Chain.ChainSchemasFull.
From CB Require Import Gen.ChainSchemasParam Chain.GenericTie Chain.ChainSchemasAll Gen.ManualImpls Chain.ManualTie.
Import ListNotations.
Local Open Scope N_scope.

Definition Laws (valid : N -> list N -> bool) (s : schema) : Prop :=
  (forall v rest, wt valid s v = true -> dec valid s (enc s v ++ rest) = Some (v, rest))
  /\ (forall bs v rest, bytes_ok bs = true -> dec valid s bs = Some (v, rest) ->
        bs = enc s v ++ rest /\ wt valid s v = true /\ bytes_ok rest = true)
  /\ (forall a b r1 r2, wt valid s a = true -> wt valid s b = true ->
        enc s a ++ r1 = enc s b ++ r2 -> a = b /\ r1 = r2)
  /\ (forall bs, bytes_ok bs = true -> alloc valid s bs <= cap s * used valid s bs).

(** The universal theorem of the calculus, in the unfolded form above. *)
Theorem codec_laws_universal : forall valid s, schema_wf s = true -> Laws valid s.
Proof. exact schema_codec_laws. Qed.
Print Assumptions codec_laws_universal.

(** Every registered chain schema (except the deliberately ill-formed pre-fix term 100). *)
Theorem chain_schemas_all_laws : forall valid id s,
  In (id, s) chain_schema_table -> id <> 100 -> Laws valid s.
Proof. exact table_laws. Qed.
Print Assumptions chain_schemas_all_laws.

Theorem amount_laws : forall valid, Laws valid s_amount.
Proof. exact (fun valid => schema_codec_laws valid s_amount (@eq_refl bool true <: schema_wf s_amount = true)). Qed.
Print Assumptions amount_laws.

Theorem account_address_laws : forall valid, Laws valid s_account_address.
Proof. exact (fun valid => schema_codec_laws valid s_account_address (@eq_refl bool true <: schema_wf s_account_address = true)). Qed.
Print Assumptions account_address_laws.

Theorem contract_address_laws : forall valid, Laws valid s_contract_address.
Proof. exact (fun valid => schema_codec_laws valid s_contract_address (@eq_refl bool true <: schema_wf s_contract_address = true)). Qed.
Print Assumptions contract_address_laws.

Theorem address_laws : forall valid, Laws valid s_address.
Proof. exact (fun valid => schema_codec_laws valid s_address (@eq_refl bool true <: schema_wf s_address = true)). Qed.
Print Assumptions address_laws.

Theorem memo_laws : forall valid, Laws valid s_memo.
Proof. exact (fun valid => schema_codec_laws valid s_memo (@eq_refl bool true <: schema_wf s_memo = true)). Qed.
Print Assumptions memo_laws.

Theorem registered_data_laws : forall valid, Laws valid s_registered_data.
Proof. exact (fun valid => schema_codec_laws valid s_registered_data (@eq_refl bool true <: schema_wf s_registered_data = true)). Qed.
Print Assumptions registered_data_laws.

Theorem ratio_laws : forall valid, Laws valid s_ratio.
Proof. exact (fun valid => schema_codec_laws valid s_ratio (@eq_refl bool true <: schema_wf s_ratio = true)). Qed.
Print Assumptions ratio_laws.

Theorem exchange_rate_laws : forall valid, Laws valid s_exchange_rate.
Proof. exact (fun valid => schema_codec_laws valid s_exchange_rate (@eq_refl bool true <: schema_wf s_exchange_rate = true)). Qed.
Print Assumptions exchange_rate_laws.

Theorem num_ratio_laws : forall valid, Laws valid s_num_ratio.
Proof. exact (fun valid => schema_codec_laws valid s_num_ratio (@eq_refl bool true <: schema_wf s_num_ratio = true)). Qed.
Print Assumptions num_ratio_laws.

Theorem payload_size_laws : forall valid, Laws valid s_payload_size.
Proof. exact (fun valid => schema_codec_laws valid s_payload_size (@eq_refl bool true <: schema_wf s_payload_size = true)). Qed.
Print Assumptions payload_size_laws.

Theorem signature_laws : forall valid, Laws valid s_signature.
Proof. exact (fun valid => schema_codec_laws valid s_signature (@eq_refl bool true <: schema_wf s_signature = true)). Qed.
Print Assumptions signature_laws.

Theorem transaction_header_laws : forall valid, Laws valid s_transaction_header.
Proof. exact (fun valid => schema_codec_laws valid s_transaction_header (@eq_refl bool true <: schema_wf s_transaction_header = true)). Qed.
Print Assumptions transaction_header_laws.

Theorem transaction_header_v1_laws : forall valid, Laws valid s_transaction_header_v1.
Proof. exact (fun valid => schema_codec_laws valid s_transaction_header_v1 (@eq_refl bool true <: schema_wf s_transaction_header_v1 = true)). Qed.
Print Assumptions transaction_header_v1_laws.

Theorem transaction_signature_laws : forall valid, Laws valid s_transaction_signature.
Proof. exact (fun valid => schema_codec_laws valid s_transaction_signature (@eq_refl bool true <: schema_wf s_transaction_signature = true)). Qed.
Print Assumptions transaction_signature_laws.

Theorem transaction_signatures_v1_laws : forall valid, Laws valid s_transaction_signatures_v1.
Proof. exact (fun valid => schema_codec_laws valid s_transaction_signatures_v1 (@eq_refl bool true <: schema_wf s_transaction_signatures_v1 = true)). Qed.
Print Assumptions transaction_signatures_v1_laws.

Theorem verify_key_laws : forall valid, Laws valid s_verify_key.
Proof. exact (fun valid => schema_codec_laws valid s_verify_key (@eq_refl bool true <: schema_wf s_verify_key = true)). Qed.
Print Assumptions verify_key_laws.

Theorem credential_public_keys_laws : forall valid, Laws valid s_credential_public_keys.
Proof. exact (fun valid => schema_codec_laws valid s_credential_public_keys (@eq_refl bool true <: schema_wf s_credential_public_keys = true)). Qed.
Print Assumptions credential_public_keys_laws.

Theorem account_access_structure_laws : forall valid, Laws valid s_account_access_structure.
Proof. exact (fun valid => schema_codec_laws valid s_account_access_structure (@eq_refl bool true <: schema_wf s_account_access_structure = true)). Qed.
Print Assumptions account_access_structure_laws.

Theorem open_status_laws : forall valid, Laws valid s_open_status.
Proof. exact (fun valid => schema_codec_laws valid s_open_status (@eq_refl bool true <: schema_wf s_open_status = true)). Qed.
Print Assumptions open_status_laws.

Theorem delegation_target_laws : forall valid, Laws valid s_delegation_target.
Proof. exact (fun valid => schema_codec_laws valid s_delegation_target (@eq_refl bool true <: schema_wf s_delegation_target = true)). Qed.
Print Assumptions delegation_target_laws.

Theorem amount_fraction_laws : forall valid, Laws valid s_amount_fraction.
Proof. exact (fun valid => schema_codec_laws valid s_amount_fraction (@eq_refl bool true <: schema_wf s_amount_fraction = true)). Qed.
Print Assumptions amount_fraction_laws.

Theorem url_text_laws : forall valid, Laws valid s_url_text.
Proof. exact (fun valid => schema_codec_laws valid s_url_text (@eq_refl bool true <: schema_wf s_url_text = true)). Qed.
Print Assumptions url_text_laws.

Theorem baker_keys_payload_laws : forall valid, Laws valid s_baker_keys_payload.
Proof. exact (fun valid => schema_codec_laws valid s_baker_keys_payload (@eq_refl bool true <: schema_wf s_baker_keys_payload = true)). Qed.
Print Assumptions baker_keys_payload_laws.

Theorem add_baker_payload_laws : forall valid, Laws valid s_add_baker_payload.
Proof. exact (fun valid => schema_codec_laws valid s_add_baker_payload (@eq_refl bool true <: schema_wf s_add_baker_payload = true)). Qed.
Print Assumptions add_baker_payload_laws.

Theorem configure_baker_laws : forall valid, Laws valid s_configure_baker.
Proof. exact (fun valid => schema_codec_laws valid s_configure_baker (@eq_refl bool true <: schema_wf s_configure_baker = true)). Qed.
Print Assumptions configure_baker_laws.

Theorem configure_delegation_laws : forall valid, Laws valid s_configure_delegation.
Proof. exact (fun valid => schema_codec_laws valid s_configure_delegation (@eq_refl bool true <: schema_wf s_configure_delegation = true)). Qed.
Print Assumptions configure_delegation_laws.

Theorem payload_laws : forall valid, Laws valid s_payload.
Proof. exact (fun valid => schema_codec_laws valid s_payload (@eq_refl bool true <: schema_wf s_payload = true)). Qed.
Print Assumptions payload_laws.

Theorem account_transaction_laws : forall valid, Laws valid s_account_transaction.
Proof. exact (fun valid => schema_codec_laws valid s_account_transaction (@eq_refl bool true <: schema_wf s_account_transaction = true)). Qed.
Print Assumptions account_transaction_laws.

Theorem account_transaction_encoded_laws : forall valid, Laws valid s_account_transaction_encoded.
Proof. exact (fun valid => schema_codec_laws valid s_account_transaction_encoded (@eq_refl bool true <: schema_wf s_account_transaction_encoded = true)). Qed.
Print Assumptions account_transaction_encoded_laws.

Theorem account_transaction_v1_encoded_laws : forall valid, Laws valid s_account_transaction_v1_encoded.
Proof. exact (fun valid => schema_codec_laws valid s_account_transaction_v1_encoded (@eq_refl bool true <: schema_wf s_account_transaction_v1_encoded = true)). Qed.
Print Assumptions account_transaction_v1_encoded_laws.

Theorem update_header_laws : forall valid, Laws valid s_update_header.
Proof. exact (fun valid => schema_codec_laws valid s_update_header (@eq_refl bool true <: schema_wf s_update_header = true)). Qed.
Print Assumptions update_header_laws.

Theorem update_instruction_signature_laws : forall valid, Laws valid s_update_instruction_signature.
Proof. exact (fun valid => schema_codec_laws valid s_update_instruction_signature (@eq_refl bool true <: schema_wf s_update_instruction_signature = true)). Qed.
Print Assumptions update_instruction_signature_laws.

Theorem update_instruction_laws : forall valid, Laws valid s_update_instruction.
Proof. exact (fun valid => schema_codec_laws valid s_update_instruction (@eq_refl bool true <: schema_wf s_update_instruction = true)). Qed.
Print Assumptions update_instruction_laws.

Theorem update_payload_laws : forall valid, Laws valid s_update_payload.
Proof. exact (fun valid => schema_codec_laws valid s_update_payload (@eq_refl bool true <: schema_wf s_update_payload = true)). Qed.
Print Assumptions update_payload_laws.

Theorem block_item_laws : forall valid, Laws valid s_block_item.
Proof. exact (fun valid => schema_codec_laws valid s_block_item (@eq_refl bool true <: schema_wf s_block_item = true)). Qed.
Print Assumptions block_item_laws.

Theorem leverage_factor_laws : forall valid, Laws valid s_leverage_factor.
Proof. exact (fun valid => schema_codec_laws valid s_leverage_factor (@eq_refl bool true <: schema_wf s_leverage_factor = true)). Qed.
Print Assumptions leverage_factor_laws.

Theorem mint_distribution_v0_laws : forall valid, Laws valid s_mint_distribution_v0.
Proof. exact (fun valid => schema_codec_laws valid s_mint_distribution_v0 (@eq_refl bool true <: schema_wf s_mint_distribution_v0 = true)). Qed.
Print Assumptions mint_distribution_v0_laws.

Theorem pool_parameters_laws : forall valid, Laws valid s_pool_parameters.
Proof. exact (fun valid => schema_codec_laws valid s_pool_parameters (@eq_refl bool true <: schema_wf s_pool_parameters = true)). Qed.
Print Assumptions pool_parameters_laws.

Theorem timeout_parameters_laws : forall valid, Laws valid s_timeout_parameters.
Proof. exact (fun valid => schema_codec_laws valid s_timeout_parameters (@eq_refl bool true <: schema_wf s_timeout_parameters = true)). Qed.
Print Assumptions timeout_parameters_laws.

Theorem threshold_u8_laws : forall valid, Laws valid s_threshold_u8.
Proof. exact (fun valid => schema_codec_laws valid s_threshold_u8 (@eq_refl bool true <: schema_wf s_threshold_u8 = true)). Qed.
Print Assumptions threshold_u8_laws.

Theorem transaction_fee_distribution_laws : forall valid, Laws valid s_transaction_fee_distribution.
Proof. exact (fun valid => schema_codec_laws valid s_transaction_fee_distribution (@eq_refl bool true <: schema_wf s_transaction_fee_distribution = true)). Qed.
Print Assumptions transaction_fee_distribution_laws.

Theorem gas_rewards_laws : forall valid, Laws valid s_gas_rewards.
Proof. exact (fun valid => schema_codec_laws valid s_gas_rewards (@eq_refl bool true <: schema_wf s_gas_rewards = true)). Qed.
Print Assumptions gas_rewards_laws.

Theorem update_keys_threshold_laws : forall valid, Laws valid s_update_keys_threshold.
Proof. exact (fun valid => schema_codec_laws valid s_update_keys_threshold (@eq_refl bool true <: schema_wf s_update_keys_threshold = true)). Qed.
Print Assumptions update_keys_threshold_laws.

Theorem access_structure_laws : forall valid, Laws valid s_access_structure.
Proof. exact (fun valid => schema_codec_laws valid s_access_structure (@eq_refl bool true <: schema_wf s_access_structure = true)). Qed.
Print Assumptions access_structure_laws.

Theorem higher_level_access_structure_laws : forall valid, Laws valid s_higher_level_access_structure.
Proof. exact (fun valid => schema_codec_laws valid s_higher_level_access_structure (@eq_refl bool true <: schema_wf s_higher_level_access_structure = true)). Qed.
Print Assumptions higher_level_access_structure_laws.

Theorem authorizations_v0_laws : forall valid, Laws valid s_authorizations_v0.
Proof. exact (fun valid => schema_codec_laws valid s_authorizations_v0 (@eq_refl bool true <: schema_wf s_authorizations_v0 = true)). Qed.
Print Assumptions authorizations_v0_laws.

Theorem root_update_laws : forall valid, Laws valid s_root_update.
Proof. exact (fun valid => schema_codec_laws valid s_root_update (@eq_refl bool true <: schema_wf s_root_update = true)). Qed.
Print Assumptions root_update_laws.

Theorem level1_update_laws : forall valid, Laws valid s_level1_update.
Proof. exact (fun valid => schema_codec_laws valid s_level1_update (@eq_refl bool true <: schema_wf s_level1_update = true)). Qed.
Print Assumptions level1_update_laws.

Theorem ar_info_laws : forall valid, Laws valid s_ar_info.
Proof. exact (fun valid => schema_codec_laws valid s_ar_info (@eq_refl bool true <: schema_wf s_ar_info = true)). Qed.
Print Assumptions ar_info_laws.

(** ** Tie to the Rust declarations: the schema terms regenerated from the source on every run
    (translators/gen_chain_schemas.py) equal the hand-written ones (fully derived types) or have the same
    byte layout (derived Serial, hand-written Deserial), and every generated term has the laws. *)
Theorem generated_schemas_match :
  g_TransactionHeader = s_transaction_header /\ g_UpdateHeader = s_update_header /\ g_GASRewards = s_gas_rewards
  /\ g_GASRewardsV1 = s_gas_rewards_v1 /\ g_CooldownParameters = s_cooldown_parameters /\ g_TimeParameters = s_time_parameters
  /\ g_PoolParameters = s_pool_parameters /\ g_CommissionRanges = s_commission_ranges /\ g_MintRate = s_mint_rate
  /\ g_FinalizationCommitteeParameters = s_finalization_committee_parameters /\ g_AuthorizationsV0 = s_authorizations_v0
  /\ g_AmountFraction = s_amount_fraction /\ g_UpdateKeysThreshold = s_update_keys_threshold
  /\ g_TransactionTime = s_transaction_time /\ g_UpdatePublicKey = s_verify_key
  /\ g_ArInfo_ArCurve = s_ar_info /\ g_Description = s_description.
Proof. exact generated_equal. Qed.
Print Assumptions generated_schemas_match.

Theorem generated_layouts_match :
  layout_of g_Memo = layout_of s_memo /\ layout_of g_RegisteredData = layout_of s_registered_data
  /\ layout_of g_PayloadSize = layout_of s_payload_size /\ layout_of g_Ratio = layout_of s_ratio
  /\ layout_of g_LeverageFactor = layout_of s_leverage_factor
  /\ layout_of g_MintDistributionV0 = layout_of s_mint_distribution_v0
  /\ layout_of g_MintDistributionV1 = layout_of s_mint_distribution_v1
  /\ layout_of g_TransactionFeeDistribution = layout_of s_transaction_fee_distribution
  /\ layout_of g_AccessStructure = layout_of s_access_structure
  /\ layout_of g_UpdateInstructionSignature = layout_of s_update_instruction_signature
  /\ layout_of g_TimeoutParameters = layout_of s_timeout_parameters /\ layout_of g_UrlText = layout_of s_url_text
  /\ layout_of g_HigherLevelAccessStructure = layout_of s_higher_level_access_structure.
Proof. exact generated_layout. Qed.
Print Assumptions generated_layouts_match.

Theorem generated_schemas_all_laws : forall valid s, In s gen_all -> Laws valid s.
Proof. exact (wf_list_laws gen_all generated_all_wf). Qed.
Print Assumptions generated_schemas_all_laws.

Theorem generated_table_all_laws : forall valid id s, In (id, s) gen_schema_table -> Laws valid s.
Proof. exact (wf_table_laws gen_schema_table generated_table_wf). Qed.
Print Assumptions generated_table_all_laws.

(** The sum types completed with the variants whose bodies are generated terms (Payload except tags 1, 2;
    UpdatePayload except tag 1; BlockItem with all four tags). *)
Theorem full_sum_types_all_laws : forall valid id s, In (id, s) full_schema_table -> Laws valid s.
Proof. exact (wf_table_laws full_schema_table full_wf). Qed.
Print Assumptions full_sum_types_all_laws.

(** ** Bare generic wrappers (SigmaProof<R>, AndResponse<R1, R2>, ReplicateResponse<R>, ReplicatePoints<P>, Secret<T>,
    ConcordiumZKProof<T>, RevealAttributeStatement<TagType>): regenerated from the Rust declarations as schema FUNCTORS
    (Gen/ChainSchemasParam.v).  For EVERY well-formed argument schema the wrapper has all the laws; a vector wrapper needs
    its element to occupy at least one byte. *)
Theorem sigma_proof_all_laws : forall valid R, schema_wf R = true -> Laws valid (gp_SigmaProof R).
Proof. exact (fun valid R W => schema_codec_laws valid _ (gp_SigmaProof_wf R W)). Qed.
Print Assumptions sigma_proof_all_laws.

Theorem and_response_all_laws : forall valid R1 R2, schema_wf R1 = true -> schema_wf R2 = true -> Laws valid (gp_AndResponse R1 R2).
Proof. exact (fun valid R1 R2 W1 W2 => schema_codec_laws valid _ (gp_AndResponse_wf R1 R2 W1 W2)). Qed.
Print Assumptions and_response_all_laws.

Theorem replicate_response_all_laws : forall valid R,
  schema_wf R = true -> (1 <=? min_size R) = true -> Laws valid (gp_ReplicateResponse R).
Proof. exact (fun valid R W M => schema_codec_laws valid _ (gp_ReplicateResponse_wf R W M)). Qed.
Print Assumptions replicate_response_all_laws.

Theorem replicate_points_all_laws : forall valid P,
  schema_wf P = true -> (1 <=? min_size P) = true -> Laws valid (gp_ReplicatePoints P).
Proof. exact (fun valid P W M => schema_codec_laws valid _ (gp_ReplicatePoints_wf P W M)). Qed.
Print Assumptions replicate_points_all_laws.

Theorem secret_wrapper_all_laws : forall valid T, schema_wf T = true -> Laws valid (gp_Secret T).
Proof. exact (fun valid T W => schema_codec_laws valid _ (gp_Secret_wf T W)). Qed.
Print Assumptions secret_wrapper_all_laws.

Theorem zk_proof_wrapper_all_laws : forall valid T, schema_wf T = true -> Laws valid (gp_ConcordiumZKProof T).
Proof. exact (fun valid T W => schema_codec_laws valid _ (gp_ConcordiumZKProof_wf T W)). Qed.
Print Assumptions zk_proof_wrapper_all_laws.

Theorem reveal_attribute_statement_all_laws : forall valid T, schema_wf T = true -> Laws valid (gp_RevealAttributeStatement T).
Proof. exact (fun valid T W => schema_codec_laws valid _ (gp_RevealAttributeStatement_wf T W)). Qed.
Print Assumptions reveal_attribute_statement_all_laws.

(** The min-size hypothesis of the vector wrappers is needed (a vector of empty elements is outside the class). *)
Theorem replicate_response_of_unit_not_wf : schema_wf (gp_ReplicateResponse SUnit) = false.
Proof. exact replicate_response_needs_min_size. Qed.
Print Assumptions replicate_response_of_unit_not_wf.

(** Non-vacuity: the instantiations translated for the chain are instances whose arguments satisfy the hypotheses. *)
Example sigma_proof_wrapper_nonvacuous :
  g_SigmaProof_DlogResponse_ArCurve = gp_SigmaProof g_Response__sigma_protocols_dlog_ArCurve
  /\ schema_wf g_Response__sigma_protocols_dlog_ArCurve = true.
Proof. exact sigma_proof_instance. Qed.
Print Assumptions sigma_proof_wrapper_nonvacuous.

Example replicate_response_wrapper_nonvacuous :
  g_ReplicateResponse_com_enc_eq_Response_ArCurve = gp_ReplicateResponse g_Response__sigma_protocols_com_enc_eq_ArCurve
  /\ schema_wf g_Response__sigma_protocols_com_enc_eq_ArCurve = true
  /\ (1 <=? min_size g_Response__sigma_protocols_com_enc_eq_ArCurve) = true.
Proof. exact replicate_response_instance. Qed.
Print Assumptions replicate_response_wrapper_nonvacuous.

(** ** Payload with ALL its variants (Chain/ChainSchemasAll.v): InitContract / Update (contract and receive names with their
    validity rules, parameters) added to the sum of [s_payload_full]; AccountTransaction<Payload> over it. *)
Theorem payload_all_variants_laws : forall valid, Laws valid s_payload_all.
Proof. exact (fun valid => wf_table_laws all_schema_table all_wf valid 53 s_payload_all (or_introl eq_refl)). Qed.
Print Assumptions payload_all_variants_laws.

Theorem all_variants_table_laws : forall valid id s, In (id, s) all_schema_table -> Laws valid s.
Proof. exact (wf_table_laws all_schema_table all_wf). Qed.
Print Assumptions all_variants_table_laws.

(** The tag table of the term is exactly the list of transaction types (22 variants, each tag once). *)
Theorem payload_all_variants_covered :
  (forall t, In t (map fst payload_alts_all) <-> In t payload_type_tags)
  /\ NoDup (map fst payload_alts_all) /\ length payload_alts_all = 22%nat.
Proof. exact payload_all_tags. Qed.
Print Assumptions payload_all_variants_covered.

Example init_contract_nonvacuous : forall valid,
  let v := VTag 1 (VList [VNum 5; VBytes (repeat 9 32); VBytes [105; 110; 105; 116; 95; 97]; VBytes [7]]) in
  wt valid s_payload_all v = true
  /\ dec valid s_payload_all (enc s_payload_all v ++ [1]) = Some (v, [1])
  /\ dec valid s_payload_all (1 :: repeat 0 8 ++ repeat 9 32 ++ [0; 5; 105; 110; 105; 116; 46; 0; 0]) = None.
Proof. exact init_contract_example. Qed.
Print Assumptions init_contract_nonvacuous.

(** ** Hand-written straight-line impls: the terms regenerated from the `impl Serial` / `impl Deserial` bodies on every run
    (translators/gen_manual_impls.py; encoder and decoder field orders checked to agree) equal the hand-written terms. *)
Theorem manual_impls_match :
  m_InitContractPayload = s_init_contract_payload /\ m_UpdateContractPayload = s_update_contract_payload
  /\ m_BakerKeysPayload = s_baker_keys_payload_g2 /\ m_AddBakerPayload = s_add_baker_payload_g2
  /\ m_PreIdentityProof = t_PreIdentityProof.
Proof. exact manual_equal. Qed.
Print Assumptions manual_impls_match.

Theorem manual_impls_baker_layout :
  layout_of s_baker_keys_payload_g2 = layout_of s_baker_keys_payload
  /\ layout_of s_add_baker_payload_g2 = layout_of s_add_baker_payload.
Proof. exact baker_keys_layout. Qed.
Print Assumptions manual_impls_baker_layout.

Theorem manual_impls_all_laws : forall valid s, In s manual_impl_all -> Laws valid s.
Proof. exact (wf_list_laws manual_impl_all manual_all_wf). Qed.
Print Assumptions manual_impls_all_laws.

(** ** Finding F4 (ConfigureBaker bitmap).  After the fix the decoder is the schema with mask
    0x01ff and is canonical: *)
Theorem configure_baker_canonical : forall valid bs v rest,
  bytes_ok bs = true -> dec valid s_configure_baker bs = Some (v, rest) ->
  bs = enc s_configure_baker v ++ rest /\ wt valid s_configure_baker v = true /\ bytes_ok rest = true.
Proof. exact (fun valid => proj1 (proj2 (schema_codec_laws valid s_configure_baker (@eq_refl bool true <: schema_wf s_configure_baker = true)))). Qed.
Print Assumptions configure_baker_canonical.

(** The decoder as it was before the fix (mask 0xffff) accepts two different byte strings for
    the same value, hence is not canonical; and its schema is not well formed. *)
Theorem configure_baker_prefix_noncanonical : forall valid,
  exists bs1 bs2 v, bs1 <> bs2
    /\ dec valid s_configure_baker_prefix bs1 = Some (v, [])
    /\ dec valid s_configure_baker_prefix bs2 = Some (v, [])
    /\ enc s_configure_baker_prefix v = bs1.
Proof. exact prefix_noncanonical. Qed.
Print Assumptions configure_baker_prefix_noncanonical.

Theorem configure_baker_prefix_not_wf : schema_wf s_configure_baker_prefix = false.
Proof. exact prefix_not_wf. Qed.
Print Assumptions configure_baker_prefix_not_wf.

(** The fixed decoder rejects the extra encoding. *)
Theorem configure_baker_rejects_undefined_bits : forall valid rest,
  dec valid s_configure_baker ([2; 0] ++ rest) = None.
Proof. exact fixed_rejects. Qed.
Print Assumptions configure_baker_rejects_undefined_bits.

(** ** Non-vacuity: well-typed values exist and accepted inputs exist. *)
Example transfer_payload_nonvacuous : forall valid,
  let v := VTag 3 (VList [VBytes (repeat 7 32); VNum 1000000]) in
  wt valid s_payload v = true
  /\ enc s_payload v = 3 :: repeat 7 32 ++ [0; 0; 0; 0; 0; 15; 66; 64]
  /\ dec valid s_payload (enc s_payload v ++ [9]) = Some (v, [9]).
Proof. exact transfer_example. Qed.
Print Assumptions transfer_payload_nonvacuous.

Example configure_delegation_nonvacuous : forall valid,
  dec valid s_payload [26; 0; 5; 0; 0; 0; 0; 0; 0; 0; 1; 1; 0; 0; 0; 0; 0; 0; 0; 42]
  = Some (VTag 26 (VList [VSome (VNum 1); VNone; VSome (VTag 1 (VNum 42))]), []).
Proof. exact delegation_example. Qed.
Print Assumptions configure_delegation_nonvacuous.

Example transaction_signature_rejects_unordered : forall valid,
  dec valid s_transaction_signature [1; 0; 2; 1; 0; 0; 0; 0; 0] = None   (* key 1 then key 0 *)
  /\ dec valid s_transaction_signature [1; 0; 2; 0; 0; 0; 1; 0; 0]
     = Some (VList [VList [VNum 0; VList [VList [VNum 0; VBytes []]; VList [VNum 1; VBytes []]]]], []).
Proof. exact signature_example. Qed.
Print Assumptions transaction_signature_rejects_unordered.
