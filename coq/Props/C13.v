(** C13 — stored artifacts and interrupted executions behave identically when resumed.
    Property theorems only, each followed by [Print Assumptions]; each is closed by [exact], except
    [step_host_decomposition], which takes the first conjunct of [ResumeProofs.step_decompose].

    Models: [Wasm/ArtifactCodec.v] (the [Output] / [Parseable] format of [Artifact], owned and
    zero-copy view), [Wasm/ArtifactView.v] (what the interpreter reads of a stored artifact),
    [Wasm/Resume.v] ([RunConfig], [run_config] returning [Interrupted], [push_value], the embedder's
    resume loop) over the register machine [Wasm/Machine.v] that C01 ties to machine.rs.

    Proved for ALL artifacts, hosts, schedules (no bounds, no axioms):
    - [artifact_roundtrip], [artifact_reserialise_identical], [artifact_output_injective],
      [borrowed_view_eq] (zero-copy parse = owned parse), [reloaded_behaves_equal],
      [borrowed_behaves_equal], [wf_artifact_decidable];
    - [resume_equiv_generic] (any deterministic step machine with a capture/resume pair that
      satisfies [capture_resume]), [run_config_captures_live_state] (the machine's RunConfig does),
      [resume_equiv], [run_deterministic] (the schedule is unobservable);
    - [direct_refines_machine]: the interruptible model with a stateless host is [Machine.mrun];
      [step_host_decomposition]: [Machine.step] consults the host only at [host_call_at];
    - [stored_and_resumed_equiv]: the three together.
    - [to_machine_of_compiled], [compiled_stored_resumed_equiv]: the stored record of a compiled module
      projects to exactly C01's [build_artifact], so the above composes with C01's layers;
    - the parser's normal form: [parse_yields_wellformed], [parse_output_normal_form],
      [reserialise_idempotent], and the exact characterisation by the strict parser
      ([strict_parser_sound], [strict_parser_canonical], [strict_parser_complete],
      [noncanonical_iff_overlong_or_unsorted], example [unsorted_exports_normalised]);
    - the v1 engine's resume layer ([Contract/V1Resume.v] over [Trie/InstanceState.v]):
      [response_word_decodable], [response_word_encoding_injective], [response_word_fails_only_on_too_many],
      [resume_preserves_or_invalidates], [migrate_is_instance_state_resume],
      [interrupt_preserves_host_fields], [call_depth_budget], [energy_across_interrupt], [energy_no_double_charge].
    Documented non-properties: [artifact_parser_not_byte_canonical] (over-long LEB128 accepted),
    [reject_code_zero_would_collide] (unreachable: the engine rejects with negative codes only),
    [stale_return_value_loc_breaks_it] (a configuration with a stale [return_value_loc] does not resume
    to the live state), [saved_frames_reset_breaks_it] (restoring with the frame budget reset does not
    give back the host component).
    Energy in the machine model [Wasm/Resume.v] is a tick SUM + the sequence of non-zero ticks.
    [Contract/V1Classify.v]: outcome classification [process_receive_result] /
    [process_init_result] ([classification_total_and_characterised], [reject_reason_is_negative_return_code],
    [receive_invalid_return_only_without_i32], [init_classification_characterised],
    [receive_and_init_differ_on_positive_codes]); the machine with the host component it drives itself
    (remaining energy, activation frames: [host_component_captured_and_restored],
    [host_component_is_engine_save_restore], [resume_equiv_with_host_component]); the engine's loop
    ([interrupted_runs_classify_as_uninterrupted]). *)
From Coq Require Import ZArith NArith List Bool.
From CB Require Import Common.IntN Wasm.Syntax Wasm.Sem Wasm.Compile Wasm.Machine
     Wasm.ArtifactCodec Wasm.ArtifactCodecProofs Wasm.ArtifactNormalForm Wasm.ArtifactView Wasm.ArtifactViewProofs
     Wasm.Resume Wasm.ResumeProofs Wasm.StoredResumedProofs
     Trie.Locks Trie.InstanceState Trie.InstanceStateProofs Contract.V1Resume Contract.V1ResumeProofs
     Contract.V1Classify Contract.V1ClassifyProofs.
Import ListNotations.

(** ** stored artifacts *)
Theorem artifact_roundtrip : forall a rest,
  wf_artifact a -> parse_artifact (output_artifact a ++ rest) = Some (a, rest).
Proof. exact artifact_roundtrip_thm. Qed.
Print Assumptions artifact_roundtrip.

(** serialising the reloaded artifact again is byte-identical *)
Theorem artifact_reserialise_identical : forall a rest, wf_artifact a ->
  exists a', parse_artifact (output_artifact a ++ rest) = Some (a', rest) /\ output_artifact a' = output_artifact a.
Proof. exact artifact_reserialise_identical_thm. Qed.
Print Assumptions artifact_reserialise_identical.

Theorem artifact_output_injective : forall a b,
  wf_artifact a -> wf_artifact b -> output_artifact a = output_artifact b -> a = b.
Proof. exact artifact_output_injective_thm. Qed.
Print Assumptions artifact_output_injective.

(** the zero-copy form: slices into the input resolve to exactly what the copying parser returns,
    on EVERY input (accepted or not) *)
Theorem borrowed_view_eq : forall bs,
  option_map (fun '(b, r) => (resolve bs b, r)) (parse_artifact_borrowed bs) = parse_artifact bs.
Proof. exact borrowed_view_eq_thm. Qed.
Print Assumptions borrowed_view_eq.

Theorem reloaded_behaves_equal : forall a rest a' rest',
  wf_artifact a -> parse_artifact (output_artifact a ++ rest) = Some (a', rest') ->
  a' = a /\ rest' = rest
  /\ (forall mhost fuel entry args,
        mrun (to_machine a') mhost fuel entry args = mrun (to_machine a) mhost fuel entry args)
  /\ (forall (H : Type) hc choose rounds fuel (h : H) st,
        m_drive H (to_machine a') hc choose rounds fuel h st = m_drive H (to_machine a) hc choose rounds fuel h st).
Proof. exact reloaded_behaves_equal_thm. Qed.
Print Assumptions reloaded_behaves_equal.

Theorem borrowed_behaves_equal : forall a rest b rest',
  wf_artifact a -> parse_artifact_borrowed (output_artifact a ++ rest) = Some (b, rest') ->
  resolve (output_artifact a ++ rest) b = a /\ rest' = rest
  /\ (forall mhost fuel entry args,
        mrun (to_machine (resolve (output_artifact a ++ rest) b)) mhost fuel entry args
        = mrun (to_machine a) mhost fuel entry args).
Proof. exact borrowed_behaves_equal_thm. Qed.
Print Assumptions borrowed_behaves_equal.

(** well-formedness is decidable and satisfiable by a non-trivial artifact (non-vacuity of the above) *)
Theorem wf_artifact_decidable : forall a, wf_artifactb a = true <-> wf_artifact a.
Proof. exact wf_artifactb_iff. Qed.
Print Assumptions wf_artifact_decidable.

Example artifact_nonvacuous :
  wf_artifact sample_artifact /\
  parse_artifact (output_artifact sample_artifact) = Some (sample_artifact, []) /\
  (length (output_artifact sample_artifact) = 131)%nat.
Proof. exact artifact_nonvacuous_ex. Qed.
Print Assumptions artifact_nonvacuous.

(** NOT a property of the code: the parser accepts over-long LEB128, so an accepted byte string
    need not be what [output] writes (canonicity holds for serialised artifacts only) *)
Example artifact_parser_not_byte_canonical :
  let bs := [255; 0x80; 0x00; 0; 0; 0; 0; 0; 0]%N in
  parse_artifact bs = Some (empty_artifact, []) /\ output_artifact empty_artifact <> bs
  /\ output_artifact empty_artifact = [255; 0; 0; 0; 0; 0; 0; 0]%N.
Proof. exact artifact_overlong_accepted_ex. Qed.
Print Assumptions artifact_parser_not_byte_canonical.

(** ** interrupted executions *)
(** generic: any step machine, any host with state, any choice of interrupting calls *)
Theorem resume_equiv_generic :
  forall (St K Q L A R Out H Ev : Type) (gstep : St -> gres St Q L Out) (gev : St -> list Ev)
         (gapply : St -> A -> St) (gdirect : St -> L -> R -> St) (gcapture : St -> L -> K)
         (gresume : K -> L -> R -> St) (hcall : H -> nat -> Q -> H * option (A * R)),
  (forall s l r, gresume (gcapture s l) l r = gdirect s l r) ->
  forall choose rounds fuel h n tr s, (fuel <= rounds)%nat ->
  drive St K Q L A R Out H Ev gstep gev gapply gdirect gcapture gresume hcall choose rounds fuel h n tr s
  = run_direct St Q L A R Out H Ev gstep gev gapply gdirect hcall fuel h n tr s.
Proof. exact drive_eq_direct. Qed.
Print Assumptions resume_equiv_generic.

(** the invariant: the captured [RunConfig], after [push_value], is the live state with the
    result register written *)
Theorem run_config_captures_live_state : forall st l r,
  resume_with (capture st l) l r = direct_answer st l r.
Proof. exact capture_resume_machine. Qed.
Print Assumptions run_config_captures_live_state.

(** non-vacuity: a configuration with a stale [return_value_loc] does NOT have that property *)
Example stale_return_value_loc_breaks_it :
  let st := {| ms_pc := 0; ms_idx := O; ms_frames := []; ms_ret := None; ms_mem := None;
               ms_regs := [0; 0]%Z; ms_base := O; ms_globals := []; ms_energy := 0%N |} in
  resume_with (capture st (Some 0%Z)) (Some 1%Z) (Some 7%Z) <> direct_answer st (Some 1%Z) (Some 7%Z).
Proof. exact stale_return_value_loc_differs. Qed.
Print Assumptions stale_return_value_loc_breaks_it.

(** for every artifact, host (with state, may write the caller's memory, may fail), every choice
    function and every start state: interrupt / push_value / run_config reaches the same outcome
    (result state incl. memory, globals, registers; trap), host state, tick sequence and call count
    as the run in which the host answers directly *)
Theorem resume_equiv : forall (H : Type) (art : artifact)
    (hc : H -> nat -> hquery -> H * option (heffect * hresponse))
    (choose : nat -> hquery -> bool) (rounds fuel : nat) (h : H) (st : mstate),
  (fuel <= rounds)%nat ->
  m_drive H art hc choose rounds fuel h st = m_run_direct H art hc fuel h st.
Proof. exact resume_equiv_thm. Qed.
Print Assumptions resume_equiv.

(** the schedule is unobservable: two runs that interrupt at different calls give the same result *)
Theorem run_deterministic : forall (H : Type) art hc c1 c2 rounds fuel (h : H) st,
  (fuel <= rounds)%nat -> m_drive H art hc c1 rounds fuel h st = m_drive H art hc c2 rounds fuel h st.
Proof. exact schedule_independent_thm. Qed.
Print Assumptions run_deterministic.

(** the interruptible model is the machine model of C01: with a stateless host that leaves the memory
    alone, the direct run is [Machine.mrun] *)
Theorem direct_refines_machine : forall art mhost fuel entry args,
  mrun art mhost fuel entry args =
  match init_state art entry args with
  | None => MTrap TBadCode
  | Some st0 => finish art entry (r_out (m_run_direct unit art (lift_host mhost) fuel tt st0))
  end.
Proof. exact direct_refines_machine_thm. Qed.
Print Assumptions direct_refines_machine.

(** [Machine.step] only consults the host at the calls [host_call_at] recognises *)
Theorem step_host_decomposition : forall art codes mhost st,
  step art mhost codes st =
  match host_call_at art codes st with
  | Some x => host_step mhost st x
  | None => step art no_host codes st
  end.
Proof. intros art codes mhost st. apply step_decompose. Qed.
Print Assumptions step_host_decomposition.

(** ** both together *)
Theorem stored_and_resumed_equiv : forall a mhost choose rounds fuel entry args,
  wf_artifact a -> (fuel <= rounds)%nat ->
  match parse_artifact (output_artifact a) with
  | Some (a', []) =>
      match init_state (to_machine a') entry args with
      | Some st0 => finish (to_machine a') entry
                      (r_out (m_drive unit (to_machine a') (lift_host mhost) choose rounds fuel tt st0))
      | None => MTrap TBadCode
      end = mrun (to_machine a) mhost fuel entry args
  | _ => False
  end.
Proof. exact stored_and_resumed_equiv_thm. Qed.
Print Assumptions stored_and_resumed_equiv.

(** ** the stored artifact of a compiled module is C01's artifact *)
Theorem to_machine_of_compiled : forall cm m elem_shift names exports code sa,
  view_okb cm m names code = true ->
  s_artifact_of cm m elem_shift names exports code = Some sa ->
  build_artifact cm m elem_shift code = Some (to_machine sa).
Proof. exact to_machine_s_artifact_of_thm. Qed.
Print Assumptions to_machine_of_compiled.

Theorem compiled_stored_resumed_equiv : forall cm m elem_shift names exports code sa art mhost choose rounds fuel entry args,
  view_okb cm m names code = true ->
  s_artifact_of cm m elem_shift names exports code = Some sa ->
  wf_artifact sa -> (fuel <= rounds)%nat ->
  build_artifact cm m elem_shift code = Some art ->
  match parse_artifact (output_artifact sa) with
  | Some (sa', []) =>
      match init_state (to_machine sa') entry args with
      | Some st0 => finish (to_machine sa') entry
                      (r_out (m_drive unit (to_machine sa') (lift_host mhost) choose rounds fuel tt st0))
      | None => MTrap TBadCode
      end = mrun art mhost fuel entry args
  | _ => False
  end.
Proof. exact compiled_stored_resumed_equiv_thm. Qed.
Print Assumptions compiled_stored_resumed_equiv.

(** ** the normal form of accepted bytes *)
(** whatever [parse_artifact] accepts (from bytes that are bytes) is a well-formed artifact *)
Theorem parse_yields_wellformed : forall bs a rest,
  bytes_ok bs -> parse_artifact bs = Some (a, rest) -> wf_artifact a /\ bytes_ok rest.
Proof. exact parse_wf_thm. Qed.
Print Assumptions parse_yields_wellformed.

(** ... so its re-serialisation is accepted with the same result, and parse-then-output is idempotent *)
Theorem parse_output_normal_form : forall bs a rest,
  bytes_ok bs -> parse_artifact bs = Some (a, rest) ->
  parse_artifact (output_artifact a ++ rest) = Some (a, rest).
Proof. exact parse_output_normal_form_thm. Qed.
Print Assumptions parse_output_normal_form.

Theorem reserialise_idempotent : forall bs a rest,
  bytes_ok bs -> parse_artifact bs = Some (a, rest) ->
  forall a' r', parse_artifact (output_artifact a) = Some (a', r') -> a' = a /\ r' = [].
Proof. exact reserialise_idempotent_strong_thm. Qed.
Print Assumptions reserialise_idempotent.

(** the exact normal form: [parse_artifact_strict] is [parse_artifact] with every LEB128 number
    required to be in its shortest form and the export list required to be strictly sorted; it accepts
    exactly the serialisations of well-formed artifacts *)
Theorem strict_parser_sound : forall bs x, parse_artifact_strict bs = Some x -> parse_artifact bs = Some x.
Proof. exact strict_sound_thm. Qed.
Print Assumptions strict_parser_sound.

Theorem strict_parser_canonical : forall bs a rest,
  parse_artifact_strict bs = Some (a, rest) -> bs = output_artifact a ++ rest.
Proof. exact strict_canonical_gen_thm. Qed.
Print Assumptions strict_parser_canonical.

Theorem strict_parser_complete : forall a rest,
  wf_artifact a -> parse_artifact_strict (output_artifact a ++ rest) = Some (a, rest).
Proof. exact strict_complete_thm. Qed.
Print Assumptions strict_parser_complete.

(** an accepted input differs from its re-serialisation exactly when it contains an over-long
    LEB128 number or exports out of order *)
Theorem noncanonical_iff_overlong_or_unsorted : forall bs a rest,
  bytes_ok bs -> parse_artifact bs = Some (a, rest) ->
  (bs = output_artifact a ++ rest <-> parse_artifact_strict bs = Some (a, rest)).
Proof. exact noncanonical_iff_not_strict_thm. Qed.
Print Assumptions noncanonical_iff_overlong_or_unsorted.

Example unsorted_exports_normalised :
  let bs := [255; 0; 0; 0; 0; 0; 2; 1; 98; 1; 1; 97; 2; 0]%N in
  let a := two_exports [([97], 2); ([98], 1)]%N in
  parse_artifact bs = Some (a, []) /\ parse_artifact_strict bs = None
  /\ output_artifact a = [255; 0; 0; 0; 0; 0; 2; 1; 97; 2; 1; 98; 1; 0]%N
  /\ parse_artifact_strict (output_artifact a) = Some (a, []).
Proof. exact strict_rejects_unsorted_ex. Qed.
Print Assumptions unsorted_exports_normalised.

(** ** the v1 engine's resume layer *)
(** the word pushed by [resume_receive] determines the kind of response, the state-updated bit, the
    parameter index and the reject code *)
Theorem response_word_decodable : forall su params r w ps,
  params <> [] -> reject_code_nonzero r ->
  response_word su params r = Some (w, ps) -> decode_word w = shape_of su params r.
Proof. exact decode_response_word. Qed.
Print Assumptions response_word_decodable.

(** distinct responses give distinct words *)
Theorem response_word_encoding_injective : forall su1 ps1 r1 su2 ps2 r2 w p1 p2,
  ps1 <> [] -> ps2 <> [] -> reject_code_nonzero r1 -> reject_code_nonzero r2 ->
  response_word su1 ps1 r1 = Some (w, p1) -> response_word su2 ps2 r2 = Some (w, p2) ->
  shape_of su1 ps1 r1 = shape_of su2 ps2 r2.
Proof. exact response_word_encoding_injective_thm. Qed.
Print Assumptions response_word_encoding_injective.

Theorem response_word_fails_only_on_too_many : forall su params r,
  response_word su params r = None <->
  (MAX_PARAM_INDEX < N.of_nat (length params))%N
   /\ match r with RSuccess _ (Some _) | RFailure (FContractReject _ _) => True | _ => False end.
Proof. exact response_word_total. Qed.
Print Assumptions response_word_fails_only_on_too_many.

(** the side condition of injectivity is needed (documented non-property; a reject code is negative) *)
Example reject_code_zero_would_collide :
  response_word false [[]] (RFailure (FContractReject 0 [1%N])) = Some (1099511627776%N, [[]; [1%N]])
  /\ response_word false [[]] (RSuccess 0 (Some [1%N])) = Some (1099511627776%N, [[]; [1%N]]).
Proof. exact reject_code_zero_collides. Qed.
Print Assumptions reject_code_zero_would_collide.

(** [InstanceState::migrate]: a handle valid at the interrupt is valid after the resume iff the
    state was not updated, and then denotes the same entry with the same contents *)
Theorem resume_preserves_or_invalidates : forall state_updated cur outer id x,
  entry_of (fst outer) (snd outer) id = Some x ->
  let f := migrate state_updated cur outer in
  (state_updated = false -> entry_of (fst f) (snd f) id = Some x)
  /\ (state_updated = true -> entry_of (fst f) (snd f) id = None)
  /\ (entry_of (fst f) (snd f) id <> None <-> state_updated = false).
Proof. exact resume_preserves_or_invalidates_thm. Qed.
Print Assumptions resume_preserves_or_invalidates.

(** it is the [resume] of the C03/C15 handle-layer model, with the flag computed there *)
Theorem migrate_is_instance_state_resume : forall commit inner outer,
  resume commit inner outer = migrate (commit && touched inner) (snd inner) outer.
Proof. exact resume_is_migrate. Qed.
Print Assumptions migrate_is_instance_state_resume.

(** every host field that survives an interrupt ([StateLessReceiveHost] conversion + [SavedHost] +
    [resume_receive]): activation frames, energy, return value unchanged; logs handed out ++ logs kept =
    logs produced; parameters grow as the word says; balance set on success only; state migrated *)
Theorem interrupt_preserves_host_fields : forall clear h su cur r h' w,
  resume_in (snd (interrupt_out clear h)) (fst (fst (interrupt_out clear h))) su cur r = Some (h', w) ->
  rh_activation_frames h' = rh_activation_frames h
  /\ rh_energy h' = rh_energy h
  /\ rh_return_value h' = rh_return_value h
  /\ snd (fst (interrupt_out clear h)) ++ rh_logs h' = rh_logs h
  /\ response_word su (rh_params h) r = Some (w, rh_params h')
  /\ rh_self_balance h' = match r with RSuccess b _ => b | RFailure _ => rh_self_balance h end
  /\ rh_frame h' = migrate su cur (rh_frame h).
Proof. exact interrupt_preserves_host_fields_thm. Qed.
Print Assumptions interrupt_preserves_host_fields.

(** the call-depth budget that must survive: [n] nested calls succeed iff [n] frames are left *)
Theorem call_depth_budget : forall h n,
  (enter_calls h n <> None <-> (n <= rh_activation_frames h)%N)
  /\ (forall h1, enter_calls h n = Some h1 -> leave_calls h1 n = h).
Proof. exact enter_leave_calls. Qed.
Print Assumptions call_depth_budget.

(** energy at the interrupt = energy at the resume: [resume_receive] charges nothing before [run_config] *)
Theorem energy_across_interrupt : forall clear h su cur r h' w,
  resume_in (snd (interrupt_out clear h)) (fst (fst (interrupt_out clear h))) su cur r = Some (h', w) ->
  rh_energy h' = rh_energy h.
Proof. exact energy_across_interrupt_thm. Qed.
Print Assumptions energy_across_interrupt.

(** and in the machine: with energy as host state charged per host call, the remaining energy after
    an interrupted run is that of the direct run (no double charge) *)
Theorem energy_no_double_charge : forall (H : Type) art (cost : hquery -> N) hc choose rounds fuel (e : N) (h : H) st,
  (fuel <= rounds)%nat ->
  fst (r_host (m_drive (N * H) art (metered_host cost hc) choose rounds fuel (e, h) st))
  = fst (r_host (m_run_direct (N * H) art (metered_host cost hc) fuel (e, h) st)).
Proof. exact energy_no_double_charge_thm. Qed.
Print Assumptions energy_no_double_charge.

(** ** outcome classification and the host component of the machine *)

(** [process_receive_result] followed by the [InvalidReturnCodeError] conversion is a total function
    (a Gallina function: deterministic by construction) with this value in every case: a non-negative
    i32 succeeds, a negative one rejects with that reason, a missing / non-i32 result is a trap that
    consumes all energy, an interrupt hands the logs out iff [should_clear_logs], a machine error is
    [OutOfEnergy] or a trap with the energy left *)
Theorem classification_total_and_characterised : forall h r,
  finalise (process_receive_result h r) =
  match r with
  | MSuccess (Some (VI32 z)) =>
      if (0 <=? i32_signed z)%Z then RRSuccess (hv_logs h) (hv_changed h) (hv_retval h) (hv_energy h)
      else RRReject (i32_signed z) (hv_retval h) (hv_energy h)
  | MSuccess _ => RRTrap 0%N
  | MInterrupted k =>
      if should_clear_logs k then RRInterrupt (hv_energy h) (hv_changed h) (hv_logs h) k []
      else RRInterrupt (hv_energy h) (hv_changed h) [] k (hv_logs h)
  | MErr true => RROutOfEnergy
  | MErr false => RRTrap (hv_energy h)
  end.
Proof. exact classify_receive_spec. Qed.
Print Assumptions classification_total_and_characterised.

(** reject reasons are exactly the negative return codes (as i32), with the host's return value and energy *)
Theorem reject_reason_is_negative_return_code : forall h r reason v e,
  finalise (process_receive_result h r) = RRReject reason v e <->
  (exists z, r = MSuccess (Some (VI32 z)) /\ reason = i32_signed z /\ (-2147483648 <= reason < 0)%Z
             /\ v = hv_retval h /\ e = hv_energy h).
Proof. exact reject_reason_rule. Qed.
Print Assumptions reject_reason_is_negative_return_code.

(** the [Err(InvalidReturnCodeError)] path of [process_receive_result] is taken exactly for a missing or
    non-i32 result: the [Err] branch of [reason_from_wasm_error_code] is unreachable from it *)
Theorem receive_invalid_return_only_without_i32 : forall h r,
  (exists v, process_receive_result h r = inl v) <->
  (r = MSuccess None \/ exists z, r = MSuccess (Some (VI64 z))).
Proof. exact receive_invalid_iff. Qed.
Print Assumptions receive_invalid_return_only_without_i32.

(** the tail of [invoke_init]: 0 succeeds, negative rejects, positive is a protocol violation
    ([Err(InvalidReturnCodeError { value: Some(n) })], which the FFI turns into a null result) *)
Theorem init_classification_characterised : forall h r,
  process_init_result h r =
  match r with
  | MSuccess (Some (VI32 z)) =>
      if (i32_signed z =? 0)%Z then inr (IRSuccess (hv_logs h) (hv_retval h) (hv_energy h))
      else if (i32_signed z <? 0)%Z then inr (IRReject (i32_signed z) (hv_retval h) (hv_energy h))
      else inl (Some (i32_signed z))
  | MSuccess _ => inl None
  | MInterrupted _ => inl None
  | MErr true => inr IROutOfEnergy
  | MErr false => inr (IRTrap (hv_energy h))
  end.
Proof. exact classify_init_spec. Qed.
Print Assumptions init_classification_characterised.

(** a POSITIVE return code: success for a receive method, protocol violation for an init method *)
Theorem receive_and_init_differ_on_positive_codes : forall h z,
  (variant_of (finalise (process_receive_result h (MSuccess (Some (VI32 z))))) = VSuccess
   /\ process_init_result h (MSuccess (Some (VI32 z))) = inl (Some (i32_signed z)))
  <-> (0 < i32_signed z)%Z.
Proof. exact receive_init_differ_exactly_on_positive. Qed.
Print Assumptions receive_and_init_differ_on_positive_codes.

Example classification_nonvacuous :
  let h := {| hv_energy := 77; hv_logs := [[1%N]]; hv_retval := [2%N]; hv_changed := false |} in
  finalise (process_receive_result h (MSuccess (Some (VI32 4294967295)))) = RRReject (-1) [2%N] 77
  /\ finalise (process_receive_result h (MSuccess (Some (VI32 2147483648)))) = RRReject (-2147483648) [2%N] 77
  /\ finalise (process_receive_result h (MSuccess (Some (VI32 1)))) = RRSuccess [[1%N]] false [2%N] 77
  /\ finalise (process_receive_result h (MSuccess None)) = RRTrap 0
  /\ finalise (process_receive_result h (MErr true)) = RROutOfEnergy
  /\ finalise (process_receive_result h (MErr false)) = RRTrap 77
  /\ process_init_result h (MSuccess (Some (VI32 1))) = inl (Some 1%Z)
  /\ process_init_result h (MSuccess (Some (VI32 0))) = inr (IRSuccess [[1%N]] [2%N] 77)
  /\ process_init_result h (MSuccess (Some (VI32 4294967295))) = inr (IRReject (-1) [2%N] 77).
Proof. exact classify_samples. Qed.
Print Assumptions classification_nonvacuous.

(** the machine with the host component the interpreter drives itself (remaining energy: [tick_energy];
    [activation_frames]: [track_call] / [track_return]): the configuration captured at an interrupt,
    with the energy handed out and the activation frames saved, resumes to exactly the live state *)
Theorem host_component_captured_and_restored : forall s l r, tresume (tcapture s l) l r = tdirect s l r.
Proof. exact t_capture_resume. Qed.
Print Assumptions host_component_captured_and_restored.

(** and that save / restore pair is the [Interrupted] branch of [process_receive_result] +
    [resume_receive] of [Contract/V1Resume.v] on these two fields *)
Theorem host_component_is_engine_save_restore : forall clear rh su cur r rh' w,
  resume_in (snd (interrupt_out clear rh)) (fst (fst (interrupt_out clear rh))) su cur r = Some (rh', w) ->
  tsave (hostc_of rh) = (fst (fst (interrupt_out clear rh)), sv_activation_frames (snd (interrupt_out clear rh)))
  /\ hostc_of rh' = trestore (tsave (hostc_of rh)).
Proof. exact tsave_is_interrupt_out. Qed.
Print Assumptions host_component_is_engine_save_restore.

Example saved_frames_reset_breaks_it :
  let h := {| hc_energy := 5%N; hc_frames := 1019%N |} in
  trestore (hc_energy h, MAX_ACTIVATION_FRAMES) <> h.
Proof. exact reset_frames_not_restored. Qed.
Print Assumptions saved_frames_reset_breaks_it.

(** the full run: interrupting at ANY subset of the dynamic host calls and resuming gives the final
    machine state or trap (incl. "too many nested functions" and out of energy), the host component at
    the end (remaining energy, activation frames), the world of the host functions (all logs, return
    value, state-changed flag), the tick trace and the number of host calls of the uninterrupted run *)
Theorem resume_equiv_with_host_component : forall art (X : Type) (hfun : X -> nat -> hquery -> N -> X * hanswer)
    choose rounds fuel w n tr s,
  (fuel <= rounds)%nat ->
  t_drive art X hfun choose rounds fuel w n tr s = t_run_direct art X hfun fuel w n tr s.
Proof. exact t_resume_equiv. Qed.
Print Assumptions resume_equiv_with_host_component.

(** the engine's loop ([invoke_receive], then [resume_receive] after every [Interrupt], every
    [run_config] result classified by [process_receive_result]; the host's [logs] field = the logs not
    yet handed out): for any artifact, host functions, interrupt kinds, schedule and number of
    interrupts, the results are [Interrupt]s followed by the classification of the uninterrupted run -
    same variant, reject reason, return value, remaining energy ([strip_logs] removes what is reported per
    section: logs and the state-changed flag, which [InstanceState::migrate] resets at every resume) - and
    on success the logs handed out with the interrupts ++ the final logs = the logs of the uninterrupted
    run, and the state changed in some section iff it changed in the uninterrupted run; the interrupted
    execution has a result iff the uninterrupted one has (the fuel is a model artefact) *)
Theorem interrupted_runs_classify_as_uninterrupted :
  forall art (X : Type) (hfun : X -> nat -> hquery -> N -> X * hanswer) entry kind_of choose rounds fuel w s,
  (fuel <= rounds)%nat ->
  match e_drive art X hfun entry kind_of choose rounds fuel w O [] s O O [] with
  | Some rs =>
      exists ints final d,
        rs = ints ++ [final]
        /\ Forall (fun r => variant_of r = VInterrupt) ints
        /\ e_direct art X hfun entry fuel w s = Some d
        /\ strip_logs final = strip_logs d
        /\ (variant_of d = VSuccess ->
            concat (map logs_of ints) ++ logs_of final = logs_of d
            /\ (existsb changed_of ints || changed_of final) = changed_of d)
  | None => e_direct art X hfun entry fuel w s = None
  end.
Proof. exact e_drive_classifies_as_direct. Qed.
Print Assumptions interrupted_runs_classify_as_uninterrupted.

(** non-vacuity: a contract calling one import; transfer (logs handed out), query (logs kept), reject *)
Example interrupted_runs_nonvacuous :
  demo_run ITransfer 0 = Some [RRInterrupt 95 true [[1; 2]%N] ITransfer []; RRSuccess [] false [9%N] 95]
  /\ demo_run IQueryExchangeRates 0
     = Some [RRInterrupt 95 true [] IQueryExchangeRates [[1; 2]%N]; RRSuccess [[1; 2]%N] false [9%N] 95]
  /\ demo_run ITransfer (-3) = Some [RRInterrupt 95 true [[1; 2]%N] ITransfer []; RRReject (-3) [9%N] 95]
  /\ demo_run ITransfer 7 = Some [RRInterrupt 95 true [[1; 2]%N] ITransfer []; RRSuccess [] false [9%N] 95]
  /\ demo_direct 0 = Some (RRSuccess [[1; 2]%N] true [9%N] 95)
  /\ demo_direct (-3) = Some (RRReject (-3) [9%N] 95).
Proof. exact demo_runs. Qed.
Print Assumptions interrupted_runs_nonvacuous.
