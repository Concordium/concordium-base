(** C20 - property theorems only, each followed by [Print Assumptions]; closed by [exact] or assembled
    here from the lemmas of the Crypto/*Proofs.v file imported above it. *)
From Coq Require Import ZArith List.
From CB Require Import Crypto.Wnaf.
From CB Require Import Crypto.WnafProofs.
Import ListNotations.
Local Open Scope Z_scope.

(** ** wNAF recoding ([GenericMultiExp::multiexp], first half) *)

(** For every window size the code admits (1 <= w < 62), every vector of 64-bit limbs whose top
    bit is clear: the digit vector encodes the integer value of the scalar. *)
Theorem wnaf_sum : forall w ls, 1 <= w < 62 -> wf_limbs ls ->
  limbs_val ls < 2 ^ (64 * Z.of_nat (length ls) - 1) ->
  digits_val (wnaf w ls) = limbs_val ls.
Proof. exact wnaf_sum_lemma. Qed.
Print Assumptions wnaf_sum.

(** The side condition of [wnaf_sum] is necessary: for the all-ones 256-bit limb vector the
    final carry is lost (the digit vector evaluates to -1 instead of 2^256 - 1).  Reduced scalars
    never have the top bit set (r < 2^255, l < 2^253). *)
Theorem wnaf_sum_top_bit_example :
  wf_limbs (to_limbs 4 (2 ^ 256 - 1)) /\
  limbs_val (to_limbs 4 (2 ^ 256 - 1)) = 2 ^ 256 - 1 /\
  digits_val (wnaf 4 (to_limbs 4 (2 ^ 256 - 1))) = -1.
Proof. split; [repeat constructor; vm_compute; intuition discriminate|split; vm_compute; reflexivity]. Qed.
Print Assumptions wnaf_sum_top_bit_example.

(** Every non-zero digit is odd and |d| < 2^w. *)
Theorem wnaf_digit_bounds : forall w ls, 1 <= w < 62 -> wf_limbs ls ->
  Forall (fun d => d = 0 \/ (Z.odd d = true /\ - 2 ^ w < d < 2 ^ w)) (wnaf w ls).
Proof. exact wnaf_digit_bounds_lemma. Qed.
Print Assumptions wnaf_digit_bounds.

(** ... hence [d / 2] indexes the table of odd multiples in range. *)
Theorem wnaf_table_index_in_range : forall (G : Type) (gadd : G -> G -> G) w ls g d,
  1 <= w < 62 -> wf_limbs ls -> In d (wnaf w ls) -> d <> 0 ->
  Z.odd d = true /\ (Z.to_nat (Z.quot (Z.abs d) 2) < length (table G gadd w g))%nat.
Proof. exact @wnaf_table_index_lemma. Qed.
Print Assumptions wnaf_table_index_in_range.

(** If the scalar is below 2^nb, every digit at an index above nb is zero: the evaluation loop
    [for j in (0..=NUM_BITS).rev()] visits every non-zero digit. *)
Theorem wnaf_top : forall w ls nb, 1 <= w < 62 -> wf_limbs ls -> 0 <= nb ->
  limbs_val ls < 2 ^ nb ->
  forall j, (Z.to_nat nb < j)%nat -> nth j (wnaf w ls) 0 = 0.
Proof. exact wnaf_top_lemma. Qed.
Print Assumptions wnaf_top.

(** ** Multi-exponentiation *)

(** In every abelian group (laws: [abelian_group_laws]), for every window size, all vectors of
    points (any length, repeated and identity points included) and all vectors of scalars that are
    below 2^NUM_BITS with NUM_BITS < 64 * limbs: [multiexp] returns the sum of the scalar
    multiples [limbs_val s_i * g_i] over the zipped inputs ([msum], [zmul]). *)
Theorem multiexp_correct : forall (G : Type) (gzero : G) (gadd gsub : G -> G -> G) (gdbl gneg : G -> G),
  abelian_group_laws gzero gadd gsub gdbl gneg ->
  forall w field_bits gs ss, 1 <= w < 62 ->
    Forall (fun s => wf_limbs s /\ limbs_val s < 2 ^ Z.of_nat field_bits
                     /\ Z.of_nat field_bits < 64 * Z.of_nat (length s)) ss ->
    multiexp G gzero gadd gsub gdbl w field_bits gs ss
    = msum G gzero gadd gneg limbs_val (combine ss gs).
Proof. exact multiexp_correct_lemma. Qed.
Print Assumptions multiexp_correct.

(** Non-vacuity: the hypotheses hold for the integers with the default window and the largest
    BLS12-381 scalar r - 1 (NUM_BITS = 255, 4 limbs), and the conclusion computes r - 1 times 5. *)
Example multiexp_correct_nonvacuous :
  abelian_group_laws 0 Z.add Z.sub (fun a => a + a) Z.opp /\
  (let s := to_limbs 4 52435875175126190479447740508185965837690552500527637822603658699938581184512 in
   wf_limbs s /\ limbs_val s < 2 ^ Z.of_nat 255 /\ Z.of_nat 255 < 64 * Z.of_nat (length s)
   /\ multiexp Z 0 Z.add Z.sub (fun a => a + a) 4 255 [5] [s]
      = 5 * 52435875175126190479447740508185965837690552500527637822603658699938581184512).
Proof.
  split.
  - unfold abelian_group_laws. repeat split; intros; ring.
  - cbv zeta. split; [repeat constructor; vm_compute; intuition discriminate|].
    split; [vm_compute; reflexivity|]. split; [vm_compute; reflexivity|]. vm_compute. reflexivity.
Qed.
Print Assumptions multiexp_correct_nonvacuous.

(** ** Pedersen commitments ([pedersen_commitment/key.rs]) as corollaries of [multiexp_correct] *)
From CB Require Import Crypto.VecCommit.

(** [VecCommitmentKey::hide_worker] (bases [gs.iter().take(values.len())] then [h]; scalars the values then
    the randomness): for at most as many values as bases the commitment is
    [sum_{i < |vs|} vs_i * gs_i + r * h] in every abelian group ([vec_commit_spec]). *)
Theorem vec_commit_correct : forall (G : Type) (gzero : G) (gadd gsub : G -> G -> G) (gdbl gneg : G -> G),
  abelian_group_laws gzero gadd gsub gdbl gneg ->
  forall w field_bits gs h vs r, 1 <= w < 62 ->
    Forall (scalar_ok field_bits) vs -> scalar_ok field_bits r ->
    (length vs <= length gs)%nat ->
    vec_commit G gzero gadd gsub gdbl w field_bits gs h vs r
    = Some (gadd (msum G gzero gadd gneg limbs_val (combine vs gs)) (zmul G gzero gadd gneg (limbs_val r) h)).
Proof. exact vec_commit_lemma. Qed.
Print Assumptions vec_commit_correct.

(** More values than bases: [None]. *)
Theorem vec_commit_too_many_values : forall (G : Type) (gzero : G) (gadd gsub : G -> G -> G) (gdbl : G -> G) w fb gs h vs r,
  (length gs < length vs)%nat -> vec_commit G gzero gadd gsub gdbl w fb gs h vs r = None.
Proof. exact vec_commit_too_many. Qed.
Print Assumptions vec_commit_too_many_values.

(** [CommitmentKey::hide_worker]: [v * g + r * h]. *)
Theorem commit_correct : forall (G : Type) (gzero : G) (gadd gsub : G -> G -> G) (gdbl gneg : G -> G),
  abelian_group_laws gzero gadd gsub gdbl gneg ->
  forall w field_bits g h v r, 1 <= w < 62 -> scalar_ok field_bits v -> scalar_ok field_bits r ->
    commit G gzero gadd gsub gdbl w field_bits g h v r
    = gadd (zmul G gzero gadd gneg (limbs_val v) g) (zmul G gzero gadd gneg (limbs_val r) h).
Proof. exact commit_lemma. Qed.
Print Assumptions commit_correct.

(** Non-vacuity and necessity of the [take]: integers, bases 1 and 10, h = 100, no values, randomness 1:
    the model gives 100 = r*h; the variant without [take] ([vec_commit_notake]) gives 1 = r*g_0. *)
Example vec_commit_without_take_refuted :
  let one := to_limbs 4 1 in
  scalar_ok 255 one /\
  vec_commit Z 0 Z.add Z.sub (fun a => a + a) 4 255 [1; 10] 100 [] one = Some 100 /\
  vec_commit_spec Z 0 Z.add Z.opp [1; 10] 100 [] one = 100 /\
  vec_commit_notake Z 0 Z.add Z.sub (fun a => a + a) 4 255 [1; 10] 100 [] one = Some 1.
Proof. exact vec_commit_notake_refuted. Qed.
Print Assumptions vec_commit_without_take_refuted.

(** ** Secret sharing ([secret_sharing::share / reveal / reveal_in_group]) *)
From Coq Require Import Qcanon.
From CB Require Import Crypto.Shamir.
From CB Require Import Crypto.ShamirProofs.

(** Over every field: for every secret, every t-1 further coefficients (degree-(t-1) sharing
    polynomial, secret as constant term, evaluated as in [share]) and every list of at least t
    shares at pairwise distinct points, [reveal] - with [lagrange] exactly as coded - returns the
    secret.  (Non-zero points are not needed for reconstruction, only for secrecy.) *)
Theorem shamir_reveal : forall (F : Type) (f0 f1 : F) (fadd fsub fmul fdiv : F -> F -> F)
    (fopp finvf : F -> F) (finv : F -> option F),
  scalar_field_laws f0 f1 fadd fsub fmul fdiv fopp finvf finv ->
  (forall x y : F, {x = y} + {x <> y}) ->
  forall (secret : F) (coeffs xs : list F),
  NoDup xs -> (S (length coeffs) <= length xs)%nat ->
  reveal F f0 f1 fadd fsub fmul finv
    (map (fun x => (x, eval_share F f0 fadd fmul secret coeffs x)) xs) = secret.
Proof. intros until 1. intros _. destruct H as (? & ? & ?). eapply shamir_reveal_lemma; eassumption. Qed.
Print Assumptions shamir_reveal.

(** The same in any module over the field (the group written additively): the shares are the
    values of a polynomial with coefficients in the module; [reveal_in_group] returns its constant
    term. *)
Theorem shamir_reveal_in_group : forall (F : Type) (f0 f1 : F) (fadd fsub fmul fdiv : F -> F -> F)
    (fopp finvf : F -> F) (finv : F -> option F),
  scalar_field_laws f0 f1 fadd fsub fmul fdiv fopp finvf finv ->
  (forall x y : F, {x = y} + {x <> y}) ->
  forall (M : Type) (gzero : M) (gadd : M -> M -> M) (smul : F -> M -> M),
  module_laws f0 f1 fadd fmul gzero gadd smul ->
  forall (m0 : M) (ms : list M) (xs : list F),
  NoDup xs -> (S (length ms) <= length xs)%nat ->
  reveal_in_group F f1 fsub fmul finv M gzero gadd smul
    (map (fun x => (x, geval F M gzero gadd smul (m0 :: ms) x)) xs) = m0.
Proof.
  intros until 1. intros _ M gzero gadd smul HM. destruct H as (? & ? & ?).
  destruct HM as (? & ? & ? & ? & ? & ? & ? & ? & ?). eapply shamir_reveal_in_group_lemma; eassumption.
Qed.
Print Assumptions shamir_reveal_in_group.

(** In the exponent: the group shares [share_i * h] of a field sharing reconstruct [secret * h]. *)
Theorem shamir_reveal_in_exponent : forall (F : Type) (f0 f1 : F) (fadd fsub fmul fdiv : F -> F -> F)
    (fopp finvf : F -> F) (finv : F -> option F),
  scalar_field_laws f0 f1 fadd fsub fmul fdiv fopp finvf finv ->
  (forall x y : F, {x = y} + {x <> y}) ->
  forall (M : Type) (gzero : M) (gadd : M -> M -> M) (smul : F -> M -> M),
  module_laws f0 f1 fadd fmul gzero gadd smul ->
  forall (h : M) (secret : F) (coeffs xs : list F),
  NoDup xs -> (S (length coeffs) <= length xs)%nat ->
  reveal_in_group F f1 fsub fmul finv M gzero gadd smul
    (map (fun x => (x, smul (eval_share F f0 fadd fmul secret coeffs x) h)) xs) = smul secret h.
Proof.
  intros until 1. intros _ M gzero gadd smul HM. destruct H as (? & ? & ?).
  destruct HM as (? & ? & ? & ? & ? & ? & ? & ? & ?). eapply shamir_reveal_exponent_lemma; eassumption.
Qed.
Print Assumptions shamir_reveal_in_exponent.

(** Fewer shares carry no information: for any t-1 shares at distinct non-zero points and ANY
    candidate secret there are t-1 coefficients of a sharing polynomial consistent with both. *)
Theorem shamir_fewer_unconstrained : forall (F : Type) (f0 f1 : F) (fadd fsub fmul fdiv : F -> F -> F)
    (fopp finvf : F -> F) (finv : F -> option F),
  scalar_field_laws f0 f1 fadd fsub fmul fdiv fopp finvf finv ->
  (forall x y : F, {x = y} + {x <> y}) ->
  forall (xs ys : list F) (s : F),
  NoDup xs -> (forall x, In x xs -> x <> f0) -> length ys = length xs ->
  exists coeffs, length coeffs = length xs /\
    forall x y, In (x, y) (combine xs ys) -> eval_share F f0 fadd fmul s coeffs x = y.
Proof. intros until 1. intros _. destruct H as (? & ? & ?). eapply shamir_fewer_unconstrained_lemma; eassumption. Qed.
Print Assumptions shamir_fewer_unconstrained.

(** ... and exactly t-1 >= 1 shares of a polynomial of degree exactly t-1 ([share] draws a
    non-zero top coefficient) at distinct non-zero points never reconstruct the secret. *)
Theorem shamir_one_fewer_differs : forall (F : Type) (f0 f1 : F) (fadd fsub fmul fdiv : F -> F -> F)
    (fopp finvf : F -> F) (finv : F -> option F),
  scalar_field_laws f0 f1 fadd fsub fmul fdiv fopp finvf finv ->
  (forall x y : F, {x = y} + {x <> y}) ->
  forall (secret : F) (coeffs xs : list F),
  NoDup xs -> (forall x, In x xs -> x <> f0) -> length xs = length coeffs -> last coeffs f0 <> f0 ->
  reveal F f0 f1 fadd fsub fmul finv
    (map (fun x => (x, eval_share F f0 fadd fmul secret coeffs x)) xs) <> secret.
Proof. intros until 1. intros _. destruct H as (? & ? & ?). eapply shamir_one_fewer_differs_lemma; eassumption. Qed.
Print Assumptions shamir_one_fewer_differs.

(** Non-vacuity: the rationals are an instance of the field and module hypotheses. *)
Example shamir_hypotheses_satisfiable :
  let finv := fun x : Qc => if Qc_eq_dec x 0%Qc then None else Some (Qcinv x) in
  scalar_field_laws 0%Qc 1%Qc Qcplus Qcminus Qcmult Qcdiv Qcopp Qcinv finv /\
  module_laws 0%Qc 1%Qc Qcplus Qcmult 0%Qc Qcplus Qcmult /\
  NoDup [1%Qc; (1 + 1)%Qc; (1 + 1 + 1)%Qc].
Proof.
  cbv zeta. split; [|split].
  - split; [exact Qcft|]. split.
    + destruct (Qc_eq_dec 0 0); [reflexivity|congruence].
    + intros x Hx. destruct (Qc_eq_dec x 0); [contradiction|reflexivity].
  - unfold module_laws. repeat split; intros; ring.
  - repeat constructor; cbn [In]; intros H; repeat destruct H as [H|H]; try discriminate; assumption.
Qed.
Print Assumptions shamir_hypotheses_satisfiable.

(** ** Scalar encodings *)
From CB Require Import Crypto.ScalarCodec.
From CB Require Import Crypto.ScalarCodecProofs.

(** 32 bytes big-endian, reject >= r: round trip, canonicity, rejection (for every modulus
    r <= 2^256, in particular [bls_r]). *)
Theorem scalar_codec_canonical : forall r : N, (r <= 2 ^ 256)%N ->
  (forall x, (x < r)%N -> scalar_decode r (scalar_encode x) = Some x) /\
  (forall bs x, bytes_ok bs -> scalar_decode r bs = Some x ->
                bs = scalar_encode x /\ (x < r)%N /\ length bs = 32%nat) /\
  (forall bs, (r <= be_val bs)%N -> scalar_decode r bs = None).
Proof.
  exact (codec_canonical be_val to_be scalar_decode to_be_length be_val_to_be to_be_be_val (fun _ _ => eq_refl)).
Qed.
Print Assumptions scalar_codec_canonical.

(** the little-endian codec of ristretto scalars *)
Theorem scalar_codec_le_canonical : forall r : N, (r <= 2 ^ 256)%N ->
  (forall x, (x < r)%N -> scalar_decode_le r (scalar_encode_le x) = Some x) /\
  (forall bs x, bytes_ok bs -> scalar_decode_le r bs = Some x ->
                bs = scalar_encode_le x /\ (x < r)%N /\ length bs = 32%nat).
Proof.
  intros r Hr.
  destruct (codec_canonical le_val to_le scalar_decode_le to_le_length le_val_to_le to_le_le_val
              (fun _ _ => eq_refl) r Hr) as (Hrt & Hcanon & _).
  split; assumption.
Qed.
Print Assumptions scalar_codec_le_canonical.

(** [scalar_from_bytes] takes exactly CAPACITY bits (254 for BLS12-381, 252 for ristretto) of the
    little-endian value of the first 32 bytes, for byte strings of every length; the
    [from_repr] inside never fails. *)
Theorem scalar_from_bytes_capacity : forall bs, bytes_ok bs ->
  bls_scalar_from_bytes bs = Some (le_val (firstn 32 bs) mod 2 ^ 254)%N /\
  ed_scalar_from_bytes bs = Some (le_val (firstn 32 bs) mod 2 ^ 252)%N.
Proof. intros bs H. split; [exact (bls_scalar_from_bytes_capacity bs H)|exact (ed_scalar_from_bytes_capacity bs H)]. Qed.
Print Assumptions scalar_from_bytes_capacity.

(** ** keygen_bls *)
(** For every 48-byte HKDF output the 31/17-byte split with the 2^248 shift computes
    OS2IP(okm) mod r; the loop returns only a non-zero scalar: the reduction of the first round
    whose reduction is non-zero. *)
Theorem keygen_bls_is_os2ip_mod_r :
  (forall okm, bytes_ok okm -> length okm = 48%nat -> keygen_round okm = Some (be_val okm mod bls_r)%N) /\
  (forall okms, (forall i, bytes_ok (okms i) /\ length (okms i) = 48%nat) ->
     forall fuel start sk, keygen_loop fuel okms start = Some sk ->
       sk <> 0%N /\ exists i, (start <= i)%nat /\ sk = (be_val (okms i) mod bls_r)%N /\
                              forall j, (start <= j < i)%nat -> (be_val (okms j) mod bls_r = 0)%N).
Proof. split; [exact keygen_round_os2ip|exact keygen_loop_spec]. Qed.
Print Assumptions keygen_bls_is_os2ip_mod_r.

(** ** Derivation paths *)
From CB Require Import Crypto.Paths.
From CB Require Import Crypto.PathsProofs.

(** [checked_harden] accepts exactly the u32 indices below 2^31 *)
Theorem checked_harden_rejects_hardened : forall i : N, (i < 2 ^ 32)%N ->
  checked_harden i = if (i <? 2 ^ 31)%N then Some (i + 2 ^ 31)%N else None.
Proof. exact checked_harden_spec_lemma. Qed.
Print Assumptions checked_harden_rejects_hardened.

(** distinct (network, key kind, indices) give distinct lists of hardened indices, hence distinct
    chains of HMAC inputs *)
Theorem paths_injective : forall n1 k1 n2 k2 p, wf_kind k1 -> wf_kind k2 ->
  path_of n1 k1 = Some p -> path_of n2 k2 = Some p -> n1 = n2 /\ k1 = k2.
Proof. exact paths_injective_lemma. Qed.
Print Assumptions paths_injective.

(** no derivation path is a proper prefix of another one *)
Theorem paths_prefix_free : forall n1 k1 n2 k2 p1 p2 q, wf_kind k1 -> wf_kind k2 ->
  path_of n1 k1 = Some p1 -> path_of n2 k2 = Some p2 -> p2 = p1 ++ q ->
  n1 = n2 /\ k1 = k2 /\ q = [].
Proof. exact paths_prefix_free_lemma. Qed.
Print Assumptions paths_prefix_free.

(** the wrappers of [CredentialContext] derive along the paths of the direct getters for the same
    (identity provider, identity, credential, tag) ... *)
Theorem context_paths_agree : forall (c : credential_context) (tag : N),
  ctx_attribute_randomness_path c tag
  = path_of (ctx_net c) (AttributeCommitmentRandomness (ctx_ip c) (ctx_id c) (ctx_cred c) tag)
  /\ ctx_cred_id_prf_path c = path_of (ctx_net c) (PrfKey (ctx_ip c) (ctx_id c)).
Proof. exact context_paths_agree_lemma. Qed.
Print Assumptions context_paths_agree.

(** ... and the order of identity provider index and identity index matters whenever they differ *)
Theorem context_paths_order_sensitive : forall n ip id cred tag p,
  u32 ip -> u32 id -> u32 cred -> (tag < 256)%N ->
  path_of n (AttributeCommitmentRandomness ip id cred tag) = Some p ->
  path_of n (AttributeCommitmentRandomness id ip cred tag) = Some p -> ip = id.
Proof. exact context_paths_order_sensitive_lemma. Qed.
Print Assumptions context_paths_order_sensitive.

Example paths_nonvacuous :
  wf_kind (AccountSigningKey 0 55 7) /\
  path_of Mainnet (AccountSigningKey 0 55 7)
  = Some [2147483692; 2147484567; 2147483648; 2147483703; 2147483648; 2147483655]%N /\
  path_of Mainnet (AccountSigningKey 0 2147483648 7) = None.
Proof. split; [cbn; unfold u32; repeat split; reflexivity|split; reflexivity]. Qed.
Print Assumptions paths_nonvacuous.

(** ** Compressed G1 point codec (model of [Deserial]/[Serial] for [ArkGroup<G1Projective>]) *)
From CB Require Import Crypto.G1Decode.
From CB Require Import Crypto.G1DecodeProofs.

(** Every byte string the decoder accepts re-encodes to itself (no non-canonical encoding is
    accepted: flags, x >= p, the unused sort flag of infinity, junk under the infinity flag). *)
Theorem g1_decode_canonical : forall bs P, g1_decode bs = Some P -> g1_encode P = bs.
Proof. exact g1_decode_canonical_lemma. Qed.
Print Assumptions g1_decode_canonical.

(** Everything the decoder returns is a valid point: reduced coordinates, on the curve
    y^2 = x^3 + 4, and it passes the subgroup check [r]P = O. *)
Theorem g1_decode_valid : forall bs P, g1_decode bs = Some P -> g1_valid P.
Proof. exact g1_decode_valid_lemma. Qed.
Print Assumptions g1_decode_valid.

(** The point at infinity has exactly one accepted encoding, c0 00 ... 00. *)
Theorem g1_infinity_unique_encoding : forall bs,
  g1_decode bs = Some G1Inf <-> bs = 192%N :: repeat 0%N 47.
Proof. exact g1_infinity_unique_lemma. Qed.
Print Assumptions g1_infinity_unique_encoding.

(** Round trip for every valid point.  Premises [g1_field_facts]: p is prime and Fermat's little
    theorem holds for p - two facts of arithmetic about the constant that are not proved in Coq. *)
Theorem g1_decode_encode : g1_field_facts -> forall P, g1_valid P -> g1_decode (g1_encode P) = Some P.
Proof. exact g1_decode_encode_lemma. Qed.
Print Assumptions g1_decode_encode.

(** Non-vacuity: the point at infinity is valid and round-trips by computation (affine
    inhabitants of [g1_valid] are exhibited by the correspondence runs, see G1DecodeProofs.v). *)
Example g1_valid_nonvacuous : g1_valid G1Inf /\ g1_decode (g1_encode G1Inf) = Some G1Inf.
Proof. split; [exact I|exact g1_decode_inf]. Qed.
Print Assumptions g1_valid_nonvacuous.
