(** C04 - the state hash is canonical; persistence preserves contents and hash.
    Property theorems only, each followed by [Print Assumptions]: closed by [exact] or put
    together here from the lemmas of the imported files; the examples are evaluated.

    Models.  [Radix.v]: the functional radix tree (shared with C03).  [MerkleHash.v]: the
    hash of a frozen tree, with [sha256] an arbitrary function.  [Persist.v]: trees
    annotated with the bookkeeping of the implementation (origin kept / dropped, value
    borrowed / owned, location in the backing store), [freeze] with the collector, the
    node record format over the [Vec<u8>] backing store, [migrate], [serialize] /
    [deserialize].  The implementation is tied to these models by the differential
    correspondence of the check (design/C04.md). *)
From Coq Require Import NArith List Bool Sorted.
From CB Require Import Common.Codec.
From CB Require Import Trie.Radix.
From CB Require Import Trie.RadixProofs.
From CB Require Import Trie.PrefixMap.
From CB Require Import Trie.Locks.
From CB Require Import Trie.LocksProofs.
From CB Require Import Trie.Canon.
From CB Require Import Trie.CanonProofs.
From CB Require Import Trie.MerkleHash.
From CB Require Import Trie.MerkleHashProofs.
From CB Require Import Trie.HashHistory.
From CB Require Import Trie.Persist.
From CB Require Import Trie.PersistProofs.
From CB Require Import Trie.PersistFreezeProofs.
From CB Require Import Trie.SerializeProofs.
From CB Require Import Trie.Nibbles.
From CB Require Import Trie.MerkleStem.
From CB Require Import Trie.PersistReach.
From CB Require Import Trie.PersistReachProofs.
From CB Require Import Trie.CacheStatus.
From CB Require Import Trie.CacheStatusProofs.
Import ListNotations.
Local Open Scope N_scope.

(** ** The well-formed radix tree of a finite map is unique *)

(** Well-formed = children strictly sorted by label, no value-less node with fewer than two
    children (so every stem is maximal).  Two well-formed trees with the same contents
    ([to_list] = the entries in key order) are equal. *)
Theorem canonical_unique : forall (V : Type) (t1 t2 : tree V),
  wfb t1 = true -> wfb t2 = true -> to_list t1 = to_list t2 -> t1 = t2.
Proof. exact (@canonical_unique_tree). Qed.
Print Assumptions canonical_unique.

(** ... also for possibly empty states, and with "same contents" read as "same lookup
    function" (a finite map, no order involved). *)
Theorem canonical_unique_map : forall (V : Type) (r1 r2 : option (tree V)),
  wfb_root r1 = true -> wfb_root r2 = true ->
  (forall k, lookup_root k r1 = lookup_root k r2) -> r1 = r2.
Proof. exact (@canonical_unique_lookup). Qed.
Print Assumptions canonical_unique_map.

(** The stem of a well-formed node is the longest common prefix of the keys below it. *)
Theorem stem_is_longest_common_prefix : forall (V : Type) p (ov : option V) cs,
  wfb (Node p ov cs) = true -> lcp_keys (map fst (to_list (Node p ov cs))) = p.
Proof. exact (@lcp_keys_node). Qed.
Print Assumptions stem_is_longest_common_prefix.

(** Building from the entries in any order gives a well-formed tree ... *)
Theorem canon_wf : forall (V : Type) (m : list (list N * V)), wfb_root (canon m) = true.
Proof. exact (@wfb_canon). Qed.
Print Assumptions canon_wf.

(** ** The hash depends on the contents only *)

(** For every two histories of the C03 machine (insert / get / set / get_mut / delete /
    delete_prefix / iterators / new_generation / normalize (rollback) / freeze / thaw, in
    any order): if the current generations end with the same contents, they freeze to
    EQUAL trees, hence to equal hashes for EVERY function [sha256] (nothing is assumed
    about it). *)
Theorem hash_history_independent : forall ops1 ops2 : list op,
  final_contents ops1 = final_contents ops2 ->
  frozen (final_gen ops1) = frozen (final_gen ops2)
  /\ forall sha256 : list N -> list N,
       hash_root sha256 (frozen (final_gen ops1)) = hash_root sha256 (frozen (final_gen ops2)).
Proof.
  exact (fun ops1 ops2 E => conj (frozen_history_independent ops1 ops2 E)
                                 (fun sha => hash_history_independent_all sha ops1 ops2 E)).
Qed.
Print Assumptions hash_history_independent.

(** The frozen tree is the canonical tree of the contents: well-formed, and its entries
    are the contents (keys as nibble strings). *)
Theorem frozen_is_canonical : forall ops : list op,
  wfb_root (frozen (final_gen ops)) = true
  /\ to_list_root (frozen (final_gen ops))
     = map (fun kv => (nib (fst kv), dflt (snd kv))) (final_contents ops).
Proof. exact frozen_spec. Qed.
Print Assumptions frozen_is_canonical.

(** ** The hash is the documented construction *)

Theorem hash_is_documented_construction : forall (sha256 : list N -> list N),
  (forall p ov cs,
     hash_node sha256 (Node p ov cs) =
     sha256 ((match ov with Some v => 1 :: sha256 (be64 (lenN v) ++ v) | None => [0] end)
             ++ le64 (lenN p) ++ pack p
             ++ sha256 (be16 (N.of_nat (flen cs)) ++ hash_children sha256 cs)))
  /\ (forall c t r, hash_children sha256 (FCons c t r) = c :: hash_node sha256 t ++ hash_children sha256 r)
  /\ hash_children sha256 FNil = []
  /\ hash_root sha256 None = sha256 empty_state_tag
  /\ (forall r, eval sha256 (pre_root r) = hash_root sha256 r).
Proof.
  exact (fun sha => conj (hash_node_unfold sha) (conj (hash_children_unfold sha)
           (conj eq_refl (conj eq_refl (eval_pre_root sha))))).
Qed.
Print Assumptions hash_is_documented_construction.
Check hash_is_documented_construction : forall (sha256 : list N -> list N),
  (forall p ov cs,
     hash_node sha256 (Node p ov cs) =
     sha256 ((match ov with Some v => 1 :: sha256 (be64 (lenN v) ++ v) | None => [0] end)
             ++ le64 (lenN p) ++ pack p
             ++ sha256 (be16 (N.of_nat (flen cs)) ++ hash_children sha256 cs)))
  /\ (forall c t r, hash_children sha256 (FCons c t r) = c :: hash_node sha256 t ++ hash_children sha256 r)
  /\ hash_children sha256 FNil = []
  /\ hash_root sha256 None = sha256 empty_state_tag
  /\ (forall r, eval sha256 (pre_root r) = hash_root sha256 r).

(** The stem bytes determine the stem (given its length in nibbles, which is hashed too). *)
Theorem stem_packing_invertible : forall ns, nibbles_ok ns = true -> unpack (length ns) (pack ns) = ns.
Proof. exact unpack_pack. Qed.
Print Assumptions stem_packing_invertible.

(** On the stored representation of C03's [Nibbles.stem] (= [Stem { data, last_partial }]):
    for a well-formed stem the hashed stem bytes are literally [st_data] and the hashed
    length is [st_len] - the two components of [Stem::to_slice]. *)
Theorem hashed_stem_is_stored_stem : forall (sha256 : list N -> list N) (s : stem) ov cs,
  st_wf s = true ->
  MerkleHash.pack (nibbles s) = st_data s /\ lenN (nibbles s) = N.of_nat (st_len s)
  /\ hash_node sha256 (Node (nibbles s) ov cs) =
     sha256 (value_part sha256 ov ++ le64 (N.of_nat (st_len s)) ++ st_data s
             ++ sha256 (be16 (N.of_nat (flen cs)) ++ hash_children sha256 cs)).
Proof.
  exact (fun sha s ov cs H => conj (proj1 (MerkleStem.hashed_stem_is_stored_stem s H))
           (conj (proj2 (MerkleStem.hashed_stem_is_stored_stem s H)) (hash_node_stored_stem sha s ov cs H))).
Qed.
Print Assumptions hashed_stem_is_stored_stem.

(** ** The annotated operations of [Persist.v] are the radix-tree operations *)
Theorem persist_model_refines_radix :
  (forall r k v, erase (a_insert_root k v r) = insert_root k v (erase_root r))
  /\ (forall t k, option_map erase (a_delete k t) = delete k (erase t))
  /\ (forall t k, option_map erase (a_delete_prefix k t) = delete_prefix k (erase t))
  /\ (forall t k v, wfb (erase t) = true -> lookup k (erase t) <> None ->
        erase (a_setval k v t) = insert k v (erase t)).
Proof.
  exact (conj erase_insert_root (conj erase_delete (conj erase_delete_prefix
          (proj1 erase_setval_mut)))).
Qed.
Print Assumptions persist_model_refines_radix.

(** ** Freeze: contents kept, unchanged origins re-used, nothing charged for them *)

Theorem freeze_preserves_contents : forall r, erase_root (fst (freeze_root r)) = erase_root r.
Proof. exact freeze_root_contents. Qed.
Print Assumptions freeze_preserves_contents.

(** Freezing a thawed state on which no modifying operation ran returns the original tree
    and calls the collector with nothing. *)
Theorem refreeze_collects_nothing : forall r,
  freeze_root (thaw (fst (freeze_root r))) = (fst (freeze_root r), 0).
Proof. exact refreeze_nothing. Qed.
Print Assumptions refreeze_collects_nothing.

(** Stronger: inside any tree, a subtree none of whose nodes or values was touched is
    returned as it is ([changed = false]) and contributes 0 to the collected size. *)
Theorem untouched_subtree_reused : forall t, all_orig t = true -> freeze t = (false, t, 0).
Proof. exact (proj1 freeze_orig_mut). Qed.
Print Assumptions untouched_subtree_reused.

(** The collector counts exactly the new data: a node is paid for (tag + stem + 9 bytes per
    child) iff it is rebuilt, i.e. iff it or something below it lost its origin or holds
    an owned value - the nodes on the modified paths; a value is paid for (length + 32) iff
    it is owned (inserted or written since the thaw). *)
Theorem collector_counts_exactly_new_data :
  (forall t, fst (fst (freeze t)) = negb (all_orig t) /\ snd (freeze t) = charge_spec t)
  /\ (forall r, snd (freeze_root r) = match r with Some t => charge_spec t | None => 0 end).
Proof. exact (conj (proj1 freeze_charge_mut) freeze_root_charge). Qed.
Print Assumptions collector_counts_exactly_new_data.

(** Thaw a state that is consistent with the backing store, apply ANY sequence of insert /
    delete / delete_prefix / get_mut+write, freeze: the frozen state is consistent with the
    store again (re-used origins keep their references, rebuilt nodes and new values have
    none) ... *)
Theorem thaw_modify_freeze_consistent : forall (sha256 : list N -> list N) st (ops : list mop) r,
  consistent_root sha256 st r ->
  consistent_root sha256 st (fst (freeze_root (fold_left (fun x o => apply_mop o x) ops (thaw r)))).
Proof. exact thaw_modify_freeze_consistent_root. Qed.
Print Assumptions thaw_modify_freeze_consistent.

(** ... hence [store_update] after the modifications writes a top record that names the root,
    following the references loads the frozen tree with the right hashes, and the states
    that result are consistent again: the store / load / modify / store chain is closed. *)
Theorem modified_state_store_roundtrip : forall (sha256 : list N -> list N),
  (forall x, length (sha256 x) = 32%nat) ->
  forall st (ops : list mop) r t' st' kept loaded top,
  consistent_root sha256 st r ->
  fst (freeze_root (fold_left (fun x o => apply_mop o x) ops (thaw r))) = Some t' ->
  tree_ok t' -> bounded st ->
  store_update sha256 (Some t') st = (st', kept, loaded, top) -> s_next st' < 2 ^ 64 ->
  erase_root kept = Some (erase t') /\ erase_root loaded = Some (erase t')
  /\ (exists x, root_ref loaded = Some x /\ load_raw st' top = Some (1 :: be64 x)
                /\ loads sha256 st' x (erase t'))
  /\ bounded st'
  /\ (match kept with Some k => consistent sha256 st' k | None => False end)
  /\ (match loaded with Some l => consistent sha256 st' l | None => False end).
Proof. exact modified_state_stores. Qed.
Print Assumptions modified_state_store_roundtrip.

(** [cache] changes neither contents nor locations (on the located trees of [Persist.v] it is
    the identity; the Disk / Memory / Cached statuses are modelled in [CacheStatus.v], see
    "Storage status" below). *)
Theorem cache_is_identity : forall r, cache r = r.
Proof. exact (fun r => eq_refl). Qed.
Print Assumptions cache_is_identity.

(** ** Storage format *)

(** What [store_update_buf] writes for a node ([Hashed<Node>]: hash, tag byte with value
    bit and inline stem length or BE32 length, stem bytes, inline value or hash+reference,
    child count, nibble+reference per child) is read back by [Loadable for Hashed<Node>]. *)
Theorem node_record_roundtrip : forall r rest, rec_ok r -> dec_rec (enc_rec r ++ rest) = Some (r, rest).
Proof. exact dec_rec_enc. Qed.
Print Assumptions node_record_roundtrip.

(** [store_update] of a state that is consistent with the backing store ([consistent]: every
    node / long value that carries a reference really is at that reference - true for a state
    in memory, and re-established by this very theorem for the state kept in memory and for
    the state [load_from_location] returns, so it covers chains of store / load / store):
    the top record names the root record, following the references from it loads the same
    tree, and the hash stored with the root (and, since [loads] holds for every stored
    subtree, with every node) is the hash of the tree.  (That [freeze] after modifications
    of a stored state yields a consistent state again: [thaw_modify_freeze_consistent].) *)
Theorem store_load_roundtrip : forall (sha256 : list N -> list N),
  (forall x, length (sha256 x) = 32%nat) ->
  forall t st st' kept loaded top,
  store_update sha256 (Some t) st = (st', kept, loaded, top) ->
  tree_ok t -> bounded st -> consistent sha256 st t -> s_next st' < 2 ^ 64 ->
  erase_root kept = Some (erase t) /\ erase_root loaded = Some (erase t)
  /\ (exists x, root_ref loaded = Some x /\ load_raw st' top = Some (1 :: be64 x)
                /\ loads sha256 st' x (erase t))
  /\ bounded st'
  /\ (match kept with Some k => consistent sha256 st' k | None => False end)
  /\ (match loaded with Some l => consistent sha256 st' l | None => False end).
Proof. exact store_update_incremental. Qed.
Print Assumptions store_load_roundtrip.

Theorem in_memory_is_consistent : forall (sha256 : list N -> list N) st t,
  in_memory t = true -> consistent sha256 st t.
Proof. exact (fun sha st => proj1 (in_memory_consistent_mut sha st)). Qed.
Print Assumptions in_memory_is_consistent.

(** The record-level store and the bytes: in a store built by [store_raw] (records below
    2^64 bytes) the byte-level loader ([Loader::load_raw]: seek, BE64 length, slice) finds
    every record at its reference. *)
Theorem store_bytes_readable : forall st, built st ->
  forall r d, load_raw st r = Some d -> read_at (flatten st) r = Some d.
Proof. exact read_at_load. Qed.
Print Assumptions store_bytes_readable.

(** [migrate] writes the whole tree to the new store; the migrated state has the same
    contents, and loading it from the new store gives the same tree with the same hashes. *)
Theorem migrate_preserves : forall (sha256 : list N -> list N),
  (forall x, length (sha256 x) = 32%nat) ->
  forall r st' r',
  migrate sha256 r empty_store = (st', r') -> root_ok r -> s_next st' < 2 ^ 64 ->
  erase_root r' = erase_root r
  /\ match r' with
     | None => r = None
     | Some t' =>
         exists x, root_ref r' = Some x
         /\ forall fuel, (theight (erase t') <= fuel)%nat ->
              load_node fuel st' x = Some (erase t', hash_node sha256 (erase t'))
     end.
Proof. exact migrate_loads. Qed.
Print Assumptions migrate_preserves.

Theorem migrate_bytes_readable : forall (sha256 : list N -> list N) r st' r',
  migrate sha256 r empty_store = (st', r') -> s_next st' < 2 ^ 64 ->
  forall x d, load_raw st' x = Some d -> read_at (flatten st') x = Some d.
Proof. exact PersistProofs.migrate_bytes_readable. Qed.
Print Assumptions migrate_bytes_readable.

(** [deserialize (serialize t) = t]: the breadth-first record stream is read back and
    reassembled into exactly the serialised tree, nothing is left over, and the hash read
    for the root is the hash of the tree - so contents and hash are preserved.  (Side
    conditions: nibbles < 16, stems / values / node count below 2^32, as the format needs.) *)
Theorem serialize_deserialize_roundtrip : forall (sha256 : list N -> list N),
  (forall x, length (sha256 x) = 32%nat) ->
  (forall t, tok t -> N.of_nat (tsize t) < 2 ^ 32 ->
     deserialize (serialize sha256 (Some t)) = Some (Some (t, hash_node sha256 t), []))
  /\ deserialize (serialize sha256 None) = Some (None, []).
Proof.
  exact (fun sha len => conj (deserialize_serialize sha len) (deserialize_serialize_empty sha)).
Qed.
Print Assumptions serialize_deserialize_roundtrip.

(** ... and record by record: what [serialize] writes for a node is what the record reader
    of [deserialize] returns. *)
Theorem serialize_record_roundtrip : forall (sha256 : list N -> list N),
  (forall x, length (sha256 x) = 32%nat) ->
  forall back p ov cs rest,
  back < 2 ^ 32 -> path_ok p -> (match ov with Some v => lenN v < 2 ^ 32 | None => True end) ->
  dec_ser_record (ser_record sha256 back (Node p ov cs) ++ rest)
  = Some (mkD back (hash_node sha256 (Node p ov cs)) p (ser_value_dec sha256 ov) (flabels cs), rest).
Proof. exact dec_ser_record_enc. Qed.
Print Assumptions serialize_record_roundtrip.

(** ** Reachable states: the side conditions are derived from the operation history *)

(** The machine [c_step] (insert / delete / delete_prefix / lookup / get_mut+write / iterate /
    new_generation / normalize / freeze / store / load / cache / serialize / migrate, in any
    order) started in the empty state.  [reach sha B s]: [s] is the state after some list of
    operations in which every INSERTED key is a byte string of at most [B / 2] bytes and every
    written value is shorter than 2^32 bytes (the keys of delete / delete_prefix / lookups are
    arbitrary), every intermediate backing store staying below 2^64 bytes.
    With [B = 2^32 - 1] (the largest stem length [write_node_path_and_value_tag] can encode:
    it writes [stem_len as u32]) the bound on inserted keys is exactly [lenN k <= 2^31 - 1]. *)
Theorem key_bound_is_u32_stem : forall k,
  key_ok (2 ^ 32 - 1) k <-> (bytes_ok k = true /\ lenN k <= 2 ^ 31 - 1).
Proof. exact key_bound_exact. Qed.
Print Assumptions key_bound_is_u32_stem.

(** In every reachable state the persistent tree and the tree the current generation freezes to
    satisfy [tree_ok] (nibbles < 16, stems < 2^32) and [tok] (also values < 2^32), the store is
    [bounded] and the frozen state is [consistent] with it - the hypotheses of
    [store_load_roundtrip], [migrate_preserves], [serialize_deserialize_roundtrip]. *)
Theorem reachable_frozen_tree_ok : forall (sha256 : list N -> list N),
  (forall x, length (sha256 x) = 32%nat) ->
  forall s, reach sha256 (2 ^ 32 - 1) s ->
  root_ok (c_pers s) /\ root_ok (c_pers (settle s))
  /\ (forall t, c_pers (settle s) = Some t -> tok (erase t))
  /\ bounded (c_store s) /\ consistent_root sha256 (c_store (settle s)) (c_pers (settle s)).
Proof. exact (fun sha len => reach_tree_ok sha len (2 ^ 32 - 1) eq_refl). Qed.
Print Assumptions reachable_frozen_tree_ok.

(** [store_load_roundtrip] without [tree_ok] / [bounded] / [consistent]: for the frozen state
    of ANY reachable machine state. *)
Theorem store_load_roundtrip_reachable : forall (sha256 : list N -> list N),
  (forall x, length (sha256 x) = 32%nat) ->
  forall s t st' kept loaded top,
  reach sha256 (2 ^ 32 - 1) s -> c_pers (settle s) = Some t ->
  store_update sha256 (Some t) (c_store (settle s)) = (st', kept, loaded, top) -> s_next st' < 2 ^ 64 ->
  erase_root kept = Some (erase t) /\ erase_root loaded = Some (erase t)
  /\ (exists x, root_ref loaded = Some x /\ load_raw st' top = Some (1 :: be64 x)
                /\ loads sha256 st' x (erase t))
  /\ bounded st'
  /\ (match kept with Some k => consistent sha256 st' k | None => False end)
  /\ (match loaded with Some l => consistent sha256 st' l | None => False end).
Proof. exact (fun sha len => store_load_reachable sha len (2 ^ 32 - 1) eq_refl). Qed.
Print Assumptions store_load_roundtrip_reachable.

(** [serialize_deserialize_roundtrip] without [tok] (the node count below 2^32 stays: parent
    distances are BE32 - a resource bound like the store size, not a property of the keys). *)
Theorem serialize_deserialize_roundtrip_reachable : forall (sha256 : list N -> list N),
  (forall x, length (sha256 x) = 32%nat) ->
  forall s t, reach sha256 (2 ^ 32 - 1) s -> c_pers (settle s) = Some t ->
  N.of_nat (tsize (erase t)) < 2 ^ 32 ->
  deserialize (serialize sha256 (Some (erase t))) = Some (Some (erase t, hash_node sha256 (erase t)), []).
Proof. exact (fun sha len => serialize_reachable sha len (2 ^ 32 - 1) eq_refl). Qed.
Print Assumptions serialize_deserialize_roundtrip_reachable.

(** [migrate_preserves] without [root_ok]. *)
Theorem migrate_preserves_reachable : forall (sha256 : list N -> list N),
  (forall x, length (sha256 x) = 32%nat) ->
  forall s st' r', reach sha256 (2 ^ 32 - 1) s ->
  migrate sha256 (c_pers (settle s)) empty_store = (st', r') -> s_next st' < 2 ^ 64 ->
  erase_root r' = erase_root (c_pers (settle s))
  /\ match r' with
     | None => c_pers (settle s) = None
     | Some t' =>
         exists x, root_ref r' = Some x
         /\ forall fuel, (theight (erase t') <= fuel)%nat ->
              load_node fuel st' x = Some (erase t', hash_node sha256 (erase t'))
     end.
Proof. exact (fun sha len => migrate_reachable sha len (2 ^ 32 - 1) eq_refl). Qed.
Print Assumptions migrate_preserves_reachable.

(** ** Storage status: [CachedRef::{Disk, Memory, Cached}] as a state machine *)

(** The status trees of [CacheStatus.v] refine the located trees: every persistence step of
    the status machine ([store_update] keeping the state, [store_update] + reload, [cache],
    [migrate], [serialize] + [deserialize]) IS the step of the C04 machine [c_step] after
    forgetting the difference between Disk and Cached ([to_a]). *)
Theorem status_machine_refines : forall (sha256 : list N -> list N) o s,
  fst (c_step sha256 (cop_of o) (mkC (ss_store s) (to_a_root (ss_root s)) None))
  = mkC (ss_store (s_step sha256 o s)) (to_a_root (ss_root (s_step sha256 o s))) None.
Proof. exact s_step_refines. Qed.
Print Assumptions status_machine_refines.

(** Caching the whole state ([PersistentState::cache]: Disk -> Cached everywhere) and one
    [load_and_cache] of a link change neither the contents, nor any location, nor the hash;
    references that were valid stay valid; after [cache] nothing is Disk. *)
Theorem cache_and_load_preserve : forall (sha256 : list N -> list N) st t,
  (to_a (s_cache t) = to_a t
   /\ erase (to_a (s_cache t)) = erase (to_a t)
   /\ hash_node sha256 (erase (to_a (s_cache t))) = hash_node sha256 (erase (to_a t))
   /\ (consistent sha256 st (to_a t) -> consistent sha256 st (to_a (s_cache t)))
   /\ no_disk (s_cache t) = true)
  /\ (to_a (s_load1 t) = to_a t
      /\ hash_node sha256 (erase (to_a (s_load1 t))) = hash_node sha256 (erase (to_a t))
      /\ (consistent sha256 st (to_a t) -> consistent sha256 st (to_a (s_load1 t)))).
Proof. exact (fun sha st t => conj (cache_preserves sha st t) (load1_preserves sha st t)). Qed.
Print Assumptions cache_and_load_preserve.

(** [good] ("below a link that has a reference nothing lives in memory only", the invariant
    the code relies on at low_level.rs 1649-1652) holds for every state purely in memory and
    is kept by every step of the status machine. *)
Theorem status_invariant : forall (sha256 : list N -> list N),
  (forall t, good (s_of_tree t) = true)
  /\ (forall o s, good_root (ss_root s) = true -> good_root (ss_root (s_step sha256 o s)) = true).
Proof. exact (fun sha => conj (proj1 good_of_tree_mut) (s_step_good sha)). Qed.
Print Assumptions status_invariant.

(** After [store_update]: in the state kept in memory every link below the root is Disk or
    Cached and no long value is Memory ([located_below]); the reloaded state is a Disk root;
    the census (what can be observed of the implementation) shows at most the root as
    Memory node. *)
Theorem store_update_settles_status : forall (sha256 : list N -> list N) t st st' k l top,
  good t = true -> s_store_update sha256 (Some t) st = (st', k, l, top) ->
  exists k0 l0, k = Some k0 /\ l = Some l0
    /\ located_below k0 = true /\ located l0 = true /\ good k0 = true /\ good l0 = true
    /\ n_mem (census k0) <= 1 /\ census l0 = mkCens 1 0 0 0 0 0 0.
Proof. exact store_update_settles. Qed.
Print Assumptions store_update_settles_status.

(** ... with valid references: both states are [consistent] with the new store (every node
    link / long value with a reference IS at that reference and loads the right subtree with
    the right hash) and have the stored contents. *)
Theorem store_update_references_valid : forall (sha256 : list N -> list N),
  (forall x, length (sha256 x) = 32%nat) ->
  forall t st st' k l top,
  s_store_update sha256 (Some t) st = (st', Some k, Some l, top) ->
  tree_ok (to_a t) -> bounded st -> consistent sha256 st (to_a t) -> s_next st' < 2 ^ 64 ->
  consistent sha256 st' (to_a k) /\ consistent sha256 st' (to_a l)
  /\ erase (to_a k) = erase (to_a t) /\ erase (to_a l) = erase (to_a t) /\ bounded st'.
Proof. exact store_update_valid. Qed.
Print Assumptions store_update_references_valid.

(** A second [store_update] writes nothing new: on a state with nothing in memory below the
    root (what [store_update] leaves) it appends the root record and the top record (Memory
    root), or the top record only (Disk / Cached root) - no child node, no value. *)
Theorem second_store_update_writes_nothing : forall (sha256 : list N -> list N) t st st2 k2 l2 top2,
  located_below t = true -> s_store_update sha256 (Some t) st = (st2, k2, l2, top2) ->
  (exists x body, s_recs st2 = (top2, 1 :: be64 x) :: (x, body) :: s_recs st)
  \/ (exists x, s_recs st2 = (top2, 1 :: be64 x) :: s_recs st).
Proof. exact second_store_writes_nothing. Qed.
Print Assumptions second_store_update_writes_nothing.

(** ** Non-vacuity *)

Definition toy_sha (l : list N) : list N := repeat (lenN l mod 251) 32.

(** two insertion orders (and an insert + delete of another key) of the same contents *)
Example same_contents_same_tree :
  let a := nib [18; 52] in let b := nib [18; 63] in let c := nib [18] in let d := nib [18; 52; 0] in
  let t1 := insert_root a [1] (Some (insert_root b [2] (Some (insert_root c [3] None)))) in
  let t2 := delete_root d (Some (insert_root c [3] (Some (insert_root d [9]
              (Some (insert_root b [2] (Some (insert_root a [1] None)))))))) in
  wfb t1 = true /\ Some t1 = t2 /\ to_list t1 = [(c, [3]); (a, [1]); (b, [2])]
  /\ hash_node toy_sha t1 = repeat 74 32.
Proof. vm_compute. repeat split. Qed.
Print Assumptions same_contents_same_tree.

(** histories with a rollback and a freeze/thaw cycle ending in the same contents *)
Example histories_with_equal_contents :
  let h1 := [OInsert [1; 2] [7]; OInsert [1] [8]; OFreeze] in
  let h2 := [OInsert [1] [0]; OThaw; ONewGen; ODelete [1]; ONormalize 0; OInsert [9] [9];
             OInsert [1; 2] [7]; ODelete [9]; OGet [1]; OSet 2 [8]] in
  final_contents h1 = final_contents h2 /\ final_contents h1 = [([1], Some [8]); ([1; 2], Some [7])]
  /\ frozen (final_gen h1) = frozen (final_gen h2).
Proof. vm_compute. repeat split. Qed.
Print Assumptions histories_with_equal_contents.

(** freeze charges the modified path only; a refreeze charges nothing *)
Example freeze_charges_the_path :
  let r0 := Some (a_insert_root (nib [171; 1]) [1] (Some (a_insert_root (nib [171; 2]) [2]
              (Some (a_insert_root (nib [16]) (repeat 7 65) None))))) in
  let '(r1, n1) := freeze_root r0 in
  let r2 := option_map (a_insert (nib [171; 1]) [5]) (thaw r1) in
  let '(r3, n3) := freeze_root r2 in
  let '(r4, n4) := freeze_root (thaw r3) in
  n1 = 207 /\ n3 = 74 /\ n4 = 0 /\ r4 = r3 /\ all_orig_root r3 = true.
Proof. vm_compute. repeat split. Qed.
Print Assumptions freeze_charges_the_path.

(** store + load, migrate, serialize + deserialize on a tree with an indirect value, an
    odd stem and a long stem (toy hash with 32-byte output) *)
Example persistence_roundtrips :
  let r0 := Some (a_insert_root (nib [171; 1]) [1] (Some (a_insert_root (nib [171; 2]) [2]
              (Some (a_insert_root (nib (repeat 16 40)) (repeat 7 65) None))))) in
  let r1 := fst (freeze_root r0) in
  let t := match erase_root r1 with Some t => t | None => Node [] None FNil end in
  let '(st, kept, loaded, top) := store_update toy_sha r1 empty_store in
  let '(st2, r2) := migrate toy_sha loaded empty_store in
  (match root_ref loaded with Some x => load_node 10 st x | None => None end) = Some (t, hash_node toy_sha t)
  /\ (match root_ref r2 with Some x => load_node 10 st2 x | None => None end) = Some (t, hash_node toy_sha t)
  /\ (match root_ref loaded with Some x => read_at (flatten st) x | None => None end)
     = (match root_ref loaded with Some x => load_raw st x | None => None end)
  /\ deserialize (serialize toy_sha (Some t)) = Some (Some (t, hash_node toy_sha t), [])
  /\ in_memory (match r1 with Some a => a | None => AN None [] None ANil end) = true
  /\ root_ok r1 /\ wfb t = true.
Proof. vm_compute. repeat split; try reflexivity; try discriminate. Qed.
Print Assumptions persistence_roundtrips.

(** a reachable state (insert, store, insert of a 40-byte key, delete, freeze) *)
Example reachable_state :
  let s := fst (c_step toy_sha CFreeze (fst (c_step toy_sha (CDelete [1])
             (fst (c_step toy_sha (CInsert (repeat 171 40) (repeat 9 70))
             (fst (c_step toy_sha CStore (fst (c_step toy_sha (CInsert [1; 2] [7]) c_init))))))))) in
  reach toy_sha (2 ^ 32 - 1) s /\ c_pers (settle s) <> None.
Proof.
  split; [|vm_compute; discriminate].
  repeat (apply reach_step; [| first [exact I | vm_compute; repeat split; discriminate] | vm_compute; reflexivity]).
  apply reach_init.
Qed.
Print Assumptions reachable_state.

(** the status machine: store, store again (root + top record only), cache, reload, ... *)
Example status_machine_run :
  good (s_of_tree status_run_tree) = true
  /\ map (fun x => cens_list (fst x))
        (s_run toy_sha_c [SoStore; SoStore; SoCache; SoLoad; SoCache; SoStore; SoMigrate; SoSerial]
               (mkS empty_store (Some (s_of_tree status_run_tree))))
     = [[2; 1; 0; 0; 0; 0; 0]; [2; 1; 0; 0; 0; 0; 0]; [0; 1; 3; 0; 0; 1; 2]; [1; 0; 0; 0; 0; 0; 0];
        [0; 0; 4; 0; 0; 1; 2]; [0; 0; 4; 0; 0; 1; 2]; [1; 0; 0; 0; 0; 0; 0]; [0; 4; 0; 0; 1; 0; 2]].
Proof. exact (conj eq_refl status_run). Qed.
Print Assumptions status_machine_run.
