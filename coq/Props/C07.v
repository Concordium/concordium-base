(** C07 - property theorems only.  Everything is quantified over ALL scalar fields [K] (with
    [FieldLaws]) and ALL [K]-modules [M] (with [ModLaws]), all hash functions [H], all
    [scalar_from_bytes] maps [sfb] and all codecs with fixed-length injective encodings ([CodecLaws]).
    NOT theorems (see design/C07.md): knowledge soundness, zero knowledge, collision resistance. *)
From Coq Require Import ZArith List String Bool.
From CB Require Import Crypto.Alg Crypto.AlgPairing Crypto.Transcript Crypto.TranscriptProofs Crypto.SigmaGeneric Crypto.SigmaCodec
  Crypto.Sigma_dlog Crypto.Sigma_dlogeq Crypto.Sigma_com_eq Crypto.Sigma_com_enc_eq Crypto.Sigma_com_mult
  Crypto.Sigma_aggregate_dlog Crypto.Sigma_enc_trans Crypto.Sigma_com_lin Crypto.Sigma_com_eq_diff Crypto.Sigma_com_ineq Crypto.Sigma_vcom_eq Crypto.Sigma_com_eq_sig Crypto.Sigma_dlogaggequal Crypto.Sigma_ps_sig_known
  Crypto.SigmaExec Crypto.SigmaExecDae Crypto.SigmaHom Crypto.SigmaAdaptersN Crypto.SigmaSS_ps_sig Crypto.SigmaSS_vcom_eq Crypto.AlgF2 Crypto.SigmaNonvac.
Import ListNotations.

(** * Generic algebra *)
Theorem sigma_complete : forall (K : FieldOps) (KL : FieldLaws K) (M : ModOps K) (ML : ModLaws M)
    sty (A : list (list M)) (w rho : list K) (c : K),
  List.length w = List.length rho ->
  m_reconstruct sty A (phi A w) c (m_respond sty c w rho) = m_commit A rho.
Proof. intros K KL M ML. exact sigma_complete_. Qed.
Print Assumptions sigma_complete.

Theorem sigma_special_sound : forall (K : FieldOps) (KL : FieldLaws K) (M : ModOps K) (ML : ModLaws M)
    sty (A : list (list M)) (y a : list M) (c c' : K) (z z' : list K),
  c <> c' -> List.length z = List.length z' -> List.length y = List.length A ->
  m_reconstruct sty A y c z = a -> m_reconstruct sty A y c' z' = a ->
  phi A (m_extract sty c c' z z') = y.
Proof. intros K KL M ML. exact sigma_special_sound_. Qed.
Print Assumptions sigma_special_sound.

Theorem response_injective : forall (K : FieldOps) (KL : FieldLaws K) (M : ModOps K) (ML : ModLaws M)
    sty (A : list (list M)) (y : list M) (c : K) (z z' : list K) (n : nat),
  (forall u v, List.length u = n -> List.length v = n -> phi A u = phi A v -> u = v) ->
  List.length z = n -> List.length z' = n -> List.length y = List.length A ->
  m_reconstruct sty A y c z = m_reconstruct sty A y c z' -> z = z'.
Proof. intros K KL M ML. exact response_injective_. Qed.
Print Assumptions response_injective.

(** the injectivity hypothesis is a genuine precondition: with the identity point as only base two
    different responses are accepted with the same commitment *)
Theorem response_not_injective_when_base_is_identity :
  forall (K : FieldOps) (KL : FieldLaws K) (M : ModOps K) (ML : ModLaws M) sty (y : M) (c : K),
  [F0 K] <> [F1 K] /\ m_reconstruct sty [[G0 M]] [y] c [F0 K] = m_reconstruct sty [[G0 M]] [y] c [F1 K].
Proof. intros K KL M ML. exact response_not_injective_degenerate. Qed.
Print Assumptions response_not_injective_when_base_is_identity.

(** * Fiat-Shamir: prove / verify *)
Theorem prove_verify_complete : forall (K : FieldOps) (H : bytes -> bytes) (sfb : bytes -> K) (P : proto K) rel rok,
  complete P rel rok ->
  forall k ctx s w r, rel s w -> rok s r ->
    exists pi st, prove H sfb P k ctx s w r = Some (pi, st) /\ verify H sfb P k ctx s pi = (true, st).
Proof. exact @prove_verify_complete_. Qed.
Print Assumptions prove_verify_complete.

Theorem verify_binds_transcript : forall (K : FieldOps) (H : bytes -> bytes) (sfb : bytes -> K) (P : proto K) k ctx s ch z,
  fst (verify H sfb P k ctx s (ch, z)) = true <->
  exists a, p_extract P s (sfb ch) z = Some a /\ ch = H (frame P k ctx s a).
Proof. exact @verify_binds_transcript_. Qed.
Print Assumptions verify_binds_transcript.

(** tamper rejection relative to collision resistance: one proof accepted for two statements (same
    context), or under two contexts of equal length, yields an explicit collision of H *)
Theorem statement_binding : forall (K : FieldOps) (H : bytes -> bytes) (sfb : bytes -> K) (P : proto K) k ok,
  public_prefix_free P k ok ->
  forall ctx s s' pi, ok s -> ok s' -> s <> s' ->
  fst (verify H sfb P k ctx s pi) = true -> fst (verify H sfb P k ctx s' pi) = true ->
  exists x x', x <> x' /\ H x = H x'.
Proof. exact @statement_binding_. Qed.
Print Assumptions statement_binding.

Theorem context_binding : forall (K : FieldOps) (H : bytes -> bytes) (sfb : bytes -> K) (P : proto K) k ctx ctx' s s' pi,
  List.length ctx = List.length ctx' -> ctx <> ctx' ->
  fst (verify H sfb P k ctx s pi) = true -> fst (verify H sfb P k ctx' s' pi) = true ->
  exists x x', x <> x' /\ H x = H x'.
Proof. exact @context_binding_. Qed.
Print Assumptions context_binding.

Theorem context_binding_v1 : forall (K : FieldOps) (P : proto K) sch, schema_prefix_free sch ->
  forall (ms ms' tail tail' : list lmsg) s s' a a',
  Forall (conforms sch) (ms ++ tail) -> Forall (conforms sch) (ms' ++ tail') ->
  p_public P V1 s ++ msg V1 (str "point") (p_ser_cm P a) = enc_lmsgs V1 tail ->
  p_public P V1 s' ++ msg V1 (str "point") (p_ser_cm P a') = enc_lmsgs V1 tail' ->
  frame P V1 (enc_lmsgs V1 ms) s a = frame P V1 (enc_lmsgs V1 ms') s' a' ->
  ms ++ tail = ms' ++ tail'.
Proof. exact @context_binding_v1_. Qed.
Print Assumptions context_binding_v1.

(** * Transcript framing *)
Theorem frame_v1_labels_injective : forall ls ls', Forall short ls -> Forall short ls' ->
  enc_labels V1 ls = enc_labels V1 ls' -> ls = ls'.
Proof. exact frame_v1_labels_injective_. Qed.
Print Assumptions frame_v1_labels_injective.

Theorem frame_v1_injective : forall sch, schema_prefix_free sch ->
  forall ms ms', Forall (conforms sch) ms -> Forall (conforms sch) ms' ->
  enc_lmsgs V1 ms = enc_lmsgs V1 ms' -> ms = ms'.
Proof. exact frame_v1_messages_injective_. Qed.
Print Assumptions frame_v1_injective.

(** KF-C07-1 *)
Theorem frame_legacy_labels_refuted :
  exists ls ls', ls <> ls' /\ enc_labels Legacy ls = enc_labels Legacy ls'.
Proof. exact frame_legacy_labels_refuted_. Qed.
Print Assumptions frame_legacy_labels_refuted.
Theorem frame_legacy_messages_refuted :
  exists m m' : lmsg, m <> m' /\ enc_lmsg Legacy m = enc_lmsg Legacy m'.
Proof. exact frame_legacy_messages_refuted_. Qed.
Print Assumptions frame_legacy_messages_refuted.

Theorem frame_legacy_fixed_schema_injective : forall k (sch : fixed_schema),
  Forall (fun s => prefix_free (snd s)) sch ->
  forall ms ms' x y, conforms_fixed sch ms -> conforms_fixed sch ms' ->
  enc_lmsgs k ms ++ x = enc_lmsgs k ms' ++ y -> ms = ms' /\ x = y.
Proof. exact frame_fixed_schema_injective_. Qed.
Print Assumptions frame_legacy_fixed_schema_injective.

(** * Adapters *)
Theorem and_complete : forall (K : FieldOps) (P1 P2 : proto K) rel1 rok1 rel2 rok2,
  complete P1 rel1 rok1 -> complete P2 rel2 rok2 ->
  complete (and_proto P1 P2) (prod_rel rel1 rel2) (prod_rel rok1 rok2).
Proof. exact @and_complete_. Qed.
Print Assumptions and_complete.
Theorem and_special_sound : forall (K : FieldOps) (P1 P2 : proto K) rel1 ex1 rel2 ex2,
  special_sound P1 rel1 ex1 -> special_sound P2 rel2 ex2 ->
  special_sound (and_proto P1 P2) (prod_rel rel1 rel2)
    (fun s c c' z z' => (ex1 (fst s) c c' (fst z) (fst z'), ex2 (snd s) c c' (snd z) (snd z'))).
Proof. exact @and_special_sound_. Qed.
Print Assumptions and_special_sound.
Theorem and_binds_both_statements : forall (K : FieldOps) (P1 P2 : proto K) k ok1 ok2,
  public_prefix_free P1 k ok1 -> public_prefix_free P2 k ok2 ->
  public_prefix_free (and_proto P1 P2) k (fun s => ok1 (fst s) /\ ok2 (snd s)).
Proof. exact @and_public_prefix_free_. Qed.
Print Assumptions and_binds_both_statements.
Theorem replicate_complete : forall (K : FieldOps) (P : proto K) rel rok,
  complete P rel rok -> complete (rep_proto P) (rep_rel rel) (rep_rok rok).
Proof. exact @rep_complete_. Qed.
Print Assumptions replicate_complete.
Theorem replicate_binds_every_instance_v1 : forall (K : FieldOps) (P : proto K) ok,
  public_prefix_free P V1 ok ->
  public_prefix_free (rep_proto P) V1 (fun ss => (N.of_nat (List.length ss) < W64)%N /\ Forall ok ss).
Proof. exact @rep_public_prefix_free_v1_. Qed.
Print Assumptions replicate_binds_every_instance_v1.

Theorem replicate_binds_every_instance_fixed_size : forall (K : FieldOps) (P : proto K) k ok n,
  public_prefix_free P k ok ->
  public_prefix_free (rep_proto P) k (fun ss => List.length ss = n /\ Forall ok ss).
Proof. exact @rep_public_prefix_free_fixed_size_. Qed.
Print Assumptions replicate_binds_every_instance_fixed_size.
(** a replicated proof with a response list of the wrong length is rejected (truncated-response attack) *)
Theorem replicate_rejects_wrong_length : forall (K : FieldOps) (P : proto K) ss c zs a,
  p_extract (rep_proto P) ss c zs = Some a -> List.length zs = List.length ss.
Proof. exact @rep_extract_length_. Qed.
Print Assumptions replicate_rejects_wrong_length.
(** the length condition is an equality: a surplus (or missing) response makes the verifier reject *)
Theorem replicate_rejects_surplus_or_missing_responses : forall (K : FieldOps) (P : proto K) ss c zs,
  List.length zs <> List.length ss -> p_extract (rep_proto P) ss c zs = None.
Proof. exact @rep_extract_wrong_length_none_. Qed.
Print Assumptions replicate_rejects_surplus_or_missing_responses.

(** context binding under V1 for contexts of any (different) lengths *)
Theorem context_binding_v1_any_length : forall (K : FieldOps) (H : bytes -> bytes) (sfb : bytes -> K) (P : proto K) sch n,
  schema_prefix_free sch -> frame_is_messages P sch n ->
  forall (ms ms' : list lmsg) s s' pi,
  Forall (conforms sch) ms -> Forall (conforms sch) ms' -> ms <> ms' ->
  fst (verify H sfb P V1 (enc_lmsgs V1 ms) s pi) = true ->
  fst (verify H sfb P V1 (enc_lmsgs V1 ms') s' pi) = true ->
  exists x x', x <> x' /\ H x = H x'.
Proof. exact @context_binding_v1_any_length_. Qed.
Print Assumptions context_binding_v1_any_length.

(** * Protocol instances: completeness, special soundness, [public] covers the statement *)
Section Instances.
  Context (K : FieldOps) (KL : FieldLaws K) (M : ModOps K) (ML : ModLaws M) (Cd : CodecOps M) (CL : CodecLaws Cd).

  Theorem dlog_complete : complete (dlog_proto Cd) dlog_rel (fun _ _ => True).
  Proof. exact (dlog_complete_ Cd). Qed.
  Theorem dlog_special_sound : special_sound (dlog_proto Cd) dlog_rel dlog_extractor.
  Proof. exact (dlog_special_sound_ Cd). Qed.
  Theorem dlog_public_covers_statement : forall k, public_prefix_free (dlog_proto Cd) k (fun _ => True).
  Proof. exact (dlog_public_prefix_free_ Cd). Qed.

  Theorem dlogeq_complete : complete (dlogeq_proto Cd) dlogeq_rel (fun _ _ => True).
  Proof. exact (dlogeq_complete_ Cd). Qed.
  Theorem dlogeq_special_sound : special_sound (dlogeq_proto Cd) dlogeq_rel (fun s => dlog_extractor (fst s)).
  Proof. exact (dlogeq_special_sound_ Cd). Qed.
  Theorem dlogeq_public_covers_statement : forall k, public_prefix_free (dlogeq_proto Cd) k (fun _ => True).
  Proof. exact (dlogeq_public_prefix_free_ Cd). Qed.

  Theorem com_eq_complete : complete (com_eq_proto Cd) com_eq_rel (fun _ _ => True).
  Proof. exact (com_eq_complete_ Cd). Qed.
  Theorem com_eq_special_sound : special_sound (com_eq_proto Cd) com_eq_rel com_eq_extractor.
  Proof. exact (com_eq_special_sound_ Cd). Qed.
  Theorem com_eq_public_covers_statement : forall k, public_prefix_free (com_eq_proto Cd) k (fun _ => True).
  Proof. exact (com_eq_public_prefix_free_ Cd). Qed.

  Theorem com_enc_eq_complete : complete (com_enc_eq_proto Cd) com_enc_eq_rel (fun _ _ => True).
  Proof. exact (com_enc_eq_complete_ Cd). Qed.
  Theorem com_enc_eq_special_sound : special_sound (com_enc_eq_proto Cd) com_enc_eq_rel com_enc_eq_extractor.
  Proof. exact (com_enc_eq_special_sound_ Cd). Qed.
  (** KF-C07-2: the field encryption_in_exponent_generator is NOT covered by [public] *)
  Theorem com_enc_eq_public_covers_statement_refuted : forall k (s : com_enc_eq_stmt M) (h' : M),
    h' <> cee_hin s ->
    let s' := mkComEncEq (cee_e1 s) (cee_e2 s) (cee_cmm s) (cee_pkg s) (cee_pkh s) (cee_ckg s) (cee_ckh s) h' in
    s <> s' /\ com_enc_eq_public Cd k s = com_enc_eq_public Cd k s'.
  Proof. exact (com_enc_eq_public_omits_generator_refuted_ Cd). Qed.
  Theorem com_enc_eq_generator_unbound_when_z2_zero : forall (s : com_enc_eq_stmt M) (h' : M) c z1 z3,
    let s' := mkComEncEq (cee_e1 s) (cee_e2 s) (cee_cmm s) (cee_pkg s) (cee_pkh s) (cee_ckg s) (cee_ckh s) h' in
    com_enc_eq_extract s c (z1, F0 K, z3) = com_enc_eq_extract s' c (z1, F0 K, z3).
  Proof. exact (com_enc_eq_generator_unbound_when_z2_zero_). Qed.
  (** guarded positive part *)
  Theorem com_enc_eq_public_covers_statement_partial : forall k (h : M),
    public_prefix_free (com_enc_eq_proto Cd) k (fun s => cee_hin s = h).
  Proof. exact (com_enc_eq_public_prefix_free_fixed_generator_ Cd). Qed.

  Theorem com_mult_complete : complete (com_mult_proto Cd) com_mult_rel (fun _ _ => True).
  Proof. exact (com_mult_complete_ Cd). Qed.
  Theorem com_mult_special_sound : special_sound (com_mult_proto Cd) com_mult_rel com_mult_extractor.
  Proof. exact (com_mult_special_sound_ Cd). Qed.
  Theorem com_mult_public_covers_statement : forall k, public_prefix_free (com_mult_proto Cd) k (fun _ => True).
  Proof. exact (com_mult_public_prefix_free_ Cd). Qed.

  Theorem aggregate_dlog_complete : complete (agg_proto Cd) agg_rel agg_rok.
  Proof. exact (agg_complete_ Cd). Qed.
  Theorem aggregate_dlog_special_sound : special_sound (agg_proto Cd) agg_rel agg_extractor.
  Proof. exact (agg_special_sound_ Cd). Qed.
  Theorem aggregate_dlog_public_covers_statement_v1 :
    public_prefix_free (agg_proto Cd) V1 (fun s => (N.of_nat (List.length (ag_coeff s)) < W64)%N).
  Proof. exact (agg_public_prefix_free_v1_ Cd). Qed.
  Theorem aggregate_dlog_public_covers_statement_legacy_fixed_size : forall n,
    public_prefix_free (agg_proto Cd) Legacy (fun s => List.length (ag_coeff s) = n).
  Proof. exact (agg_public_prefix_free_legacy_fixed_size_ Cd). Qed.
  (** the hypothesis of [context_binding_v1_any_length] holds for dlog *)
  Theorem dlog_frame_is_messages : frame_is_messages (dlog_proto Cd) (fixed_len_schema (glen Cd)) 3.
  Proof. exact (dlog_frame_is_messages_ Cd). Qed.

  Theorem aggregate_dlog_rejects_wrong_length : forall (s : agg_stmt M) c z a, agg_extract s c z = Some a ->
    List.length z = List.length (ag_coeff s).
  Proof. intros s c z a E. exact (proj2 (agg_extract_generic s c z a E)). Qed.

  Theorem enc_trans_complete : complete (enc_trans_proto Cd) enc_trans_rel enc_trans_rok.
  Proof. exact (enc_trans_complete_ Cd). Qed.
  Theorem enc_trans_special_sound : special_sound (enc_trans_proto Cd) enc_trans_rel enc_trans_extractor.
  Proof. exact (enc_trans_special_sound_ Cd). Qed.
  Theorem enc_trans_rejects_wrong_length : forall (s : enc_trans_stmt M) c zc z1 z2 a,
    enc_trans_extract s c (zc, z1, z2) = Some a ->
    List.length z1 = List.length (et_e1 s) /\ List.length z2 = List.length (et_e2 s).
  Proof. exact enc_trans_extract_length_. Qed.
  Theorem enc_trans_public_covers_statement_v1 :
    public_prefix_free (enc_trans_proto Cd) V1
      (fun s => (N.of_nat (List.length (et_e1 s)) < W64)%N /\ (N.of_nat (List.length (et_e2 s)) < W64)%N).
  Proof. exact (enc_trans_public_prefix_free_v1_ Cd). Qed.
  Theorem enc_trans_public_covers_statement_fixed_size : forall k n1 n2,
    public_prefix_free (enc_trans_proto Cd) k (fun s => List.length (et_e1 s) = n1 /\ List.length (et_e2 s) = n2).
  Proof. exact (enc_trans_public_prefix_free_fixed_size_ Cd). Qed.

  Theorem com_lin_complete : complete (com_lin_proto Cd) com_lin_rel com_lin_rok.
  Proof. exact (com_lin_complete_ Cd). Qed.
  Theorem com_lin_special_sound : special_sound (com_lin_proto Cd) com_lin_rel com_lin_extractor.
  Proof. exact (com_lin_special_sound_ Cd). Qed.
  Theorem com_lin_rejects_wrong_length : forall (s : com_lin_stmt M) c zs ss sf a, com_lin_extract s c (zs, ss, sf) = Some a ->
    List.length zs = List.length (cl_cmms s) /\ List.length ss = List.length (cl_cmms s) /\
    List.length (cl_us s) = List.length (cl_cmms s).
  Proof. exact com_lin_extract_length_. Qed.
  Theorem com_lin_public_covers_statement_v1 :
    public_prefix_free (com_lin_proto Cd) V1
      (fun s => (N.of_nat (List.length (cl_us s)) < W64)%N /\ (N.of_nat (List.length (cl_cmms s)) < W64)%N).
  Proof. exact (com_lin_public_prefix_free_v1_ Cd). Qed.
  Theorem com_lin_public_covers_statement_fixed_size : forall k n,
    public_prefix_free (com_lin_proto Cd) k (fun s => List.length (cl_us s) = n /\ List.length (cl_cmms s) = n).
  Proof. exact (com_lin_public_prefix_free_fixed_size_ Cd). Qed.

  (** com_ineq (wrapper around ComMult with its own legacy transcript prefix) *)
  Theorem com_ineq_complete : forall (H : bytes -> bytes) (sfb : bytes -> K) g h x xt v r2 rnd, x <> v ->
    exists proof, prove_com_ineq Cd H sfb g h x xt v r2 rnd = Some proof /\
                  verify_com_ineq Cd H sfb g h (Gadd M (smul M x g) (smul M xt h)) v proof = true.
  Proof. intros H sfb. exact (com_ineq_complete_ Cd H sfb). Qed.
  Theorem com_ineq_extracted_witness : forall (g h c : M) v aux x1 x2 r1 r2 r3,
    com_mult_rel (com_ineq_stmt g h c v aux) (x1, x2, r1, r2, r3) ->
    c = Gadd M (smul M (Fadd K x1 v) g) (smul M r1 h) /\ (x1 = F0 K -> g = smul M r3 h).
  Proof. exact com_ineq_extracted_witness_. Qed.
  Theorem com_ineq_context_covers_statement : forall g h c v g' h' c' v' x y,
    com_ineq_ctx Cd g h c v ++ x = com_ineq_ctx Cd g' h' c' v' ++ y -> g = g' /\ h = h' /\ c = c' /\ v = v' /\ x = y.
  Proof. exact (com_ineq_ctx_injective_ Cd). Qed.
  (** dlogaggequal.rs (private module, reached through the cfg hook; entry point in SigmaExecDae.v):
      the number of inner response vectors is not compared with the number of aggregates *)
  Theorem dlogaggequal_response_count_unchecked_refuted : forall (d : dlog_stmt M) (a : agg_stmt M) (c zc : K),
    exists cm, dae_extract (d, [a]) c (zc, []) = Some (cm, []).
  Proof. exact dlogaggequal_response_count_unchecked_refuted_. Qed.

  (** vcom_eq (model of the code after the repair 82fae784a) *)
  Theorem vcom_eq_complete : complete (vcom_proto Cd) (vcom_rel (M:=M)) vcom_rok.
  Proof. exact (vcom_complete_ Cd). Qed.
  Theorem vcom_eq_checks_every_commitment : forall (s : vcom_stmt M) c sis t tis a pts,
    vcom_extract s c (sis, t, tis) = Some (a, pts) ->
    List.length pts = List.length (vc_comms s) /\ List.length sis = List.length (vc_gis s) /\
    List.length tis = List.length (vc_comms s).
  Proof. exact vcom_extract_checks_every_commitment_. Qed.
  (** the code before the repair accepted a response keyed {1} for comms keyed {0} without ever
      looking at the commitment C_0 (fixed: known_findings.json "fixed", replayed by the check) *)
  Theorem vcom_eq_prefix_unchecked_commitment_refuted : forall (g h gb hb C C0 C0' : M) (c s0 s1 t t1 : K),
    let st X := mkVcom C [(0%N, X)] [g; g] h gb hb in
    vcom_extract_prefix (st C0) c ([s0; s1], t, [(1%N, t1)]) = vcom_extract_prefix (st C0') c ([s0; s1], t, [(1%N, t1)])
    /\ exists a, vcom_extract_prefix (st C0) c ([s0; s1], t, [(1%N, t1)]) = Some (a, [])
    /\ vcom_extract (st C0) c ([s0; s1], t, [(1%N, t1)]) = None.
  Proof. exact vcom_prefix_unchecked_commitment_refuted_. Qed.
  Theorem vcom_eq_public_covers_statement_v1 :
    public_prefix_free (vcom_proto Cd) V1
      (fun s => (N.of_nat (List.length (vc_gis s)) < W64)%N /\ (N.of_nat (List.length (vc_comms s)) < W64)%N).
  Proof. exact (vcom_public_prefix_free_v1_ Cd). Qed.
End Instances.
Print Assumptions dlog_complete.
Print Assumptions dlog_special_sound.
Print Assumptions dlog_public_covers_statement.
Print Assumptions dlogeq_complete.
Print Assumptions dlogeq_special_sound.
Print Assumptions dlogeq_public_covers_statement.
Print Assumptions com_eq_complete.
Print Assumptions com_eq_special_sound.
Print Assumptions com_eq_public_covers_statement.
Print Assumptions com_enc_eq_complete.
Print Assumptions com_enc_eq_special_sound.
Print Assumptions com_enc_eq_public_covers_statement_refuted.
Print Assumptions com_enc_eq_generator_unbound_when_z2_zero.
Print Assumptions com_enc_eq_public_covers_statement_partial.
Print Assumptions com_mult_complete.
Print Assumptions com_mult_special_sound.
Print Assumptions com_mult_public_covers_statement.
Print Assumptions aggregate_dlog_complete.
Print Assumptions aggregate_dlog_special_sound.
Print Assumptions aggregate_dlog_public_covers_statement_v1.
Print Assumptions aggregate_dlog_public_covers_statement_legacy_fixed_size.
Print Assumptions dlog_frame_is_messages.
Print Assumptions aggregate_dlog_rejects_wrong_length.
Print Assumptions enc_trans_complete.
Print Assumptions enc_trans_special_sound.
Print Assumptions enc_trans_rejects_wrong_length.
Print Assumptions enc_trans_public_covers_statement_v1.
Print Assumptions enc_trans_public_covers_statement_fixed_size.
Print Assumptions com_lin_complete.
Print Assumptions com_lin_special_sound.
Print Assumptions com_lin_rejects_wrong_length.
Print Assumptions com_lin_public_covers_statement_v1.
Print Assumptions com_lin_public_covers_statement_fixed_size.
Print Assumptions com_ineq_complete.
Print Assumptions com_ineq_extracted_witness.
Print Assumptions com_ineq_context_covers_statement.

Print Assumptions dlogaggequal_response_count_unchecked_refuted.
Print Assumptions vcom_eq_complete.
Print Assumptions vcom_eq_checks_every_commitment.
Print Assumptions vcom_eq_prefix_unchecked_commitment_refuted.
Print Assumptions vcom_eq_public_covers_statement_v1.

(** com_eq_sig: pairing groups (AlgPairing.v), commitments in a fourth module *)
Section Pairing.
  Context (K : FieldOps) (KL : FieldLaws K) (P : PairOps K) (PL : PairLaws P) (MC : ModOps K) (MLC : ModLaws MC)
          (Cd1 : CodecOps (PM1 P)) (Cd2 : CodecOps (PM2 P)) (CdT : CodecOps (PMT P)) (CdC : CodecOps MC)
          (CL1 : CodecLaws Cd1) (CL2 : CodecLaws Cd2) (CLC : CodecLaws CdC).
  Theorem com_eq_sig_complete : complete (ces_proto Cd1 Cd2 CdT CdC) ces_rel ces_rok.
  Proof. exact (ces_complete_ Cd1 Cd2 CdT CdC). Qed.
  Theorem com_eq_sig_special_sound : special_sound (ces_proto Cd1 Cd2 CdT CdC)
    (fun s w => (List.length (cs_cmts s) <= List.length (cs_ys s))%nat -> ces_rel s w) ces_extractor.
  Proof. exact (ces_special_sound_ Cd1 Cd2 CdT CdC). Qed.
  Theorem com_eq_sig_rejects_wrong_length : forall (s : ces_stmt P MC) c zr zs a,
    ces_extract s c (zr, zs) = Some a -> List.length zs = List.length (cs_cmts s).
  Proof. exact ces_extract_length_. Qed.
  Theorem com_eq_sig_public_covers_statement_v1 :
    public_prefix_free (ces_proto Cd1 Cd2 CdT CdC) V1
      (fun s => (N.of_nat (List.length (cs_cmts s)) < W64)%N /\ (N.of_nat (List.length (cs_ys s)) < W32)%N /\
                (N.of_nat (List.length (cs_yts s)) < W32)%N).
  Proof. exact (ces_public_prefix_free_v1_ Cd1 Cd2 CdT CdC). Qed.
  (** ps_sig_known: messages committed / public / known *)
  Theorem ps_sig_known_complete : complete (pss_proto Cd1 Cd2 CdT CdC) pss_rel pss_rok.
  Proof. exact (pss_complete_ Cd1 Cd2 CdT CdC). Qed.
  Theorem ps_sig_known_rejects_wrong_length : forall (s : pss_stmt P MC) c zr zs a,
    pss_extract s c (zr, zs) = Some a -> List.length zs = List.length (ps_msgs s).
  Proof. exact pss_extract_length_. Qed.
End Pairing.
Print Assumptions ps_sig_known_complete.
Print Assumptions ps_sig_known_rejects_wrong_length.
Print Assumptions com_eq_sig_complete.
Print Assumptions com_eq_sig_special_sound.
Print Assumptions com_eq_sig_rejects_wrong_length.
Print Assumptions com_eq_sig_public_covers_statement_v1.

(** com_eq_different_groups: two modules over one field *)
Section TwoGroups.
  Context (K : FieldOps) (KL : FieldLaws K) (M1 M2 : ModOps K) (ML1 : ModLaws M1) (ML2 : ModLaws M2)
          (Cd1 : CodecOps M1) (Cd2 : CodecOps M2) (CL1 : CodecLaws Cd1) (CL2 : CodecLaws Cd2).
  Theorem com_eq_different_groups_complete : complete (ced_proto Cd1 Cd2) ced_rel (fun _ _ => True).
  Proof. exact (ced_complete_ Cd1 Cd2). Qed.
  Theorem com_eq_different_groups_special_sound : special_sound (ced_proto Cd1 Cd2) ced_rel ced_extractor.
  Proof. exact (ced_special_sound_ Cd1 Cd2). Qed.
  Theorem com_eq_different_groups_public_covers_statement : forall k, public_prefix_free (ced_proto Cd1 Cd2) k (fun _ => True).
  Proof. exact (ced_public_prefix_free_ Cd1 Cd2). Qed.
End TwoGroups.
Print Assumptions com_eq_different_groups_complete.
Print Assumptions com_eq_different_groups_special_sound.
Print Assumptions com_eq_different_groups_public_covers_statement.

(** * Non-vacuity: the hypotheses are satisfiable, on the executable instance (Z mod r) *)
(** a valid dlog statement (public = 3 * coeff), its honest transcript is reproduced *)
Example nonvacuous_honest_dlog :
  match x_honest X_dlog V1 (domain V1 [99; 48; 55]%N) [15; 5]%Z [3]%Z 7%Z [100]%Z with
  | Some (cm_ok, resp_ok, rel_ok, _, _) => cm_ok && resp_ok && rel_ok = true
  | None => False
  end.
Proof. vm_compute. reflexivity. Qed.
Print Assumptions nonvacuous_honest_dlog.
(** two accepting transcripts with one commitment and different challenges exist (hypotheses of
    special soundness), and the extractor returns the witness 3 *)
Example nonvacuous_special_soundness :
  let A := [[5%Z]] in let y := [15%Z] in
  m_reconstruct (M:=ZrG) RespMinus A y 7%Z [79%Z] = m_reconstruct (M:=ZrG) RespMinus A y 2%Z [94%Z]
  /\ 7%Z <> 2%Z /\ m_extract (K:=ZrF) RespMinus 7%Z 2%Z [79%Z] [94%Z] = [3%Z].
Proof.
  split; [vm_compute; reflexivity|]. split; [discriminate|].
  cbv [m_extract]. rewrite zr_inv_2_7. vm_compute. reflexivity.
Qed.
Print Assumptions nonvacuous_special_soundness.

(** * Special soundness of vcom_eq and ps_sig_known, response injectivity, compositions of any size *)
Section VcomSS.
  Context (K : FieldOps) (KL : FieldLaws K) (M : ModOps K) (ML : ModLaws M) (Cd : CodecOps M).
  (** two accepting transcripts (one commit message, different challenges) of vcom_eq.rs yield, by the
      explicit extractor, a witness for the SAME relation [vcom_rel] as in [vcom_eq_complete]:
      C = sum x_i*g_i + r*h, every individual commitment C_i = x_i*g_bar + r_i*h_bar, key sets equal *)
  Theorem vcom_eq_special_sound : special_sound (vcom_proto Cd) (vcom_rel (M:=M)) vcom_extractor.
  Proof. exact (vcom_special_sound_ Cd). Qed.
  Theorem vcom_eq_response_injective : forall (s : vcom_stmt M) (c : K) sis t tis sis' t' tis' cm,
    (forall (u v : list K) (x y : K), List.length u = List.length (vc_gis s) -> List.length v = List.length (vc_gis s) ->
       Gadd M (msm u (vc_gis s)) (smul M x (vc_h s)) = Gadd M (msm v (vc_gis s)) (smul M y (vc_h s)) -> u = v /\ x = y) ->
    (forall x y x' y' : K, Gadd M (smul M x (vc_gbar s)) (smul M y (vc_hbar s)) =
                           Gadd M (smul M x' (vc_gbar s)) (smul M y' (vc_hbar s)) -> x = x' /\ y = y') ->
    vcom_extract s c (sis, t, tis) = Some cm -> vcom_extract s c (sis', t', tis') = Some cm ->
    sis = sis' /\ t = t' /\ forall k, aget tis k = aget tis' k.
  Proof. exact vcom_response_injective_. Qed.
End VcomSS.
Print Assumptions vcom_eq_special_sound.
Print Assumptions vcom_eq_response_injective.

Section PairingSS.
  Context (K : FieldOps) (KL : FieldLaws K) (P : PairOps K) (PL : PairLaws P) (MC : ModOps K) (MLC : ModLaws MC)
          (Cd1 : CodecOps (PM1 P)) (Cd2 : CodecOps (PM2 P)) (CdT : CodecOps (PMT P)) (CdC : CodecOps MC).
  (** ps_sig_known.rs: the extracted values satisfy [pss_rel] (the relation of [ps_sig_known_complete]):
      C_i = m_i*g + r_i*h for the committed messages and e(b,g~) = e(a, X~ + sum_i m_i*Y~_i + r'*g~) *)
  Theorem ps_sig_known_special_sound :
    special_sound (pss_proto Cd1 Cd2 CdT CdC) (pss_rel (P:=P) (MC:=MC)) pss_extractor.
  Proof. exact (pss_special_sound_ Cd1 Cd2 CdT CdC). Qed.
  (** com_eq_sig.rs: everything of [ces_rel] except the prover-side bound [|commitments| <= |ys|] follows
      unconditionally; with the bound, [ces_rel] *)
  Theorem com_eq_sig_special_sound_unconditional : forall (s : ces_stmt P MC) a c c' z z', c <> c' ->
    ces_extract s c z = Some a -> ces_extract s c' z' = Some a ->
    let w := ces_extractor s c c' z z' in
    List.length (snd w) = List.length (cs_cmts s) /\ (List.length (cs_cmts s) <= List.length (cs_yts s))%nat /\
    cs_cmts s = map (fun v => Gadd MC (smul MC (fst v) (cs_g s)) (smul MC (snd v) (cs_h s))) (snd w) /\
    pe P (cs_b s) (cs_gt s) =
      pe P (cs_a s) (Gadd (PM2 P) (cs_xt s) (Gadd (PM2 P) (msm (map fst (snd w)) (cs_yts s)) (smul (PM2 P) (fst w) (cs_gt s)))) /\
    ((List.length (cs_cmts s) <= List.length (cs_ys s))%nat -> ces_rel s w).
  Proof using KL PL MLC Cd1 Cd2 CdT CdC. exact ces_special_sound_key_length_. Qed.
  Theorem com_eq_sig_response_injective : forall (s : ces_stmt P MC) (c : K) (z z' : ces_wit) cm,
    (forall x y x' y' : K, Gadd MC (smul MC x (cs_g s)) (smul MC y (cs_h s)) =
                           Gadd MC (smul MC x' (cs_g s)) (smul MC y' (cs_h s)) -> x = x' /\ y = y') ->
    (forall x x' : K, smul (PMT P) x (pe P (cs_a s) (cs_gt s)) = smul (PMT P) x' (pe P (cs_a s) (cs_gt s)) -> x = x') ->
    ces_extract s c z = Some cm -> ces_extract s c z' = Some cm -> z = z'.
  Proof. exact ces_response_injective_. Qed.
End PairingSS.
Print Assumptions ps_sig_known_special_sound.
Print Assumptions com_eq_sig_special_sound_unconditional.
Print Assumptions com_eq_sig_response_injective.

(** compositions of ANY size.  [rep_core] = the three functions of [ReplicateAdapter] exactly as coded
    (total, also for zero protocols); [rep_proto] = guarded by the non-emptiness precondition of
    [get_challenge] *)
Theorem replicate_core_complete : forall (K : FieldOps) (P : proto K) rel rok,
  complete P rel rok -> complete (rep_core P) (Forall2 rel) (Forall2 rok).
Proof. exact @rep_core_complete_. Qed.
Print Assumptions replicate_core_complete.
Theorem replicate_core_special_sound : forall (K : FieldOps) (P : proto K) rel ex,
  special_sound P rel ex -> special_sound (rep_core P) (Forall2 rel) (rep_extractor P ex).
Proof. exact @rep_core_special_sound_. Qed.
Print Assumptions replicate_core_special_sound.
Theorem replicate_special_sound : forall (K : FieldOps) (P : proto K) rel ex,
  special_sound P rel ex -> special_sound (rep_proto P) (rep_rel rel) (rep_extractor P ex).
Proof. exact @rep_special_sound_. Qed.
Print Assumptions replicate_special_sound.
Theorem replicate_core_statement_binding_v1 : forall (K : FieldOps) (H : bytes -> bytes) (sfb : bytes -> K) (P : proto K) ok,
  public_prefix_free P V1 ok ->
  forall ctx ss ss' pi,
    (N.of_nat (List.length ss) < W64)%N -> Forall ok ss -> (N.of_nat (List.length ss') < W64)%N -> Forall ok ss' ->
    ss <> ss' ->
    fst (verify H sfb (rep_core P) V1 ctx ss pi) = true -> fst (verify H sfb (rep_core P) V1 ctx ss' pi) = true ->
    exists x x', x <> x' /\ H x = H x'.
Proof. exact @rep_statement_binding_v1_. Qed.
Print Assumptions replicate_core_statement_binding_v1.
Theorem replicate_statement_binding_v1 : forall (K : FieldOps) (H : bytes -> bytes) (sfb : bytes -> K) (P : proto K) ok,
  public_prefix_free P V1 ok ->
  forall ctx ss ss' pi,
    (N.of_nat (List.length ss) < W64)%N -> Forall ok ss -> (N.of_nat (List.length ss') < W64)%N -> Forall ok ss' ->
    ss <> ss' ->
    fst (verify H sfb (rep_proto P) V1 ctx ss pi) = true -> fst (verify H sfb (rep_proto P) V1 ctx ss' pi) = true ->
    exists x x', x <> x' /\ H x = H x'.
Proof. exact @rep_proto_statement_binding_v1_. Qed.
Print Assumptions replicate_statement_binding_v1.
Theorem replicate_zero_instances : forall (K : FieldOps) (P : proto K) c zs,
  (p_extract (rep_core P) [] c zs = Some [] <-> zs = []) /\
  (forall a, p_extract (rep_core P) [] c zs = Some a -> a = [] /\ zs = []) /\
  p_extract (rep_proto P) [] c zs = None /\
  p_commit (rep_core P) [] [] = Some [] /\ p_respond (rep_core P) [] [] [] c = Some [].
Proof. exact @rep_zero_instances_. Qed.
Print Assumptions replicate_zero_instances.
(** [first.add_prover(p1)...add_prover(pn)] for any n >= 0 *)
Theorem and_any_number_is_nested_adapter : forall (K : FieldOps) (Bs : list (@cproto K)) (A : @cproto K),
  cp (and_all A Bs) = fold_left and_proto (map cp Bs) (cp A).
Proof. exact @and_all_is_nested_adapter_. Qed.
Print Assumptions and_any_number_is_nested_adapter.
Theorem and_any_number_certified : forall (K : FieldOps) (A : @cproto K) (Bs : list (@cproto K)),
  let C := and_all A Bs in
  complete (cp C) (cp_rel C) (cp_rok C) /\ special_sound (cp C) (cp_rel C) (cp_ex C) /\
  (forall k, public_prefix_free (cp C) k (cp_ok C)) /\
  forall (H : bytes -> bytes) (sfb : bytes -> K) k ctx s s' pi, cp_ok C s -> cp_ok C s' -> s <> s' ->
    fst (verify H sfb (cp C) k ctx s pi) = true -> fst (verify H sfb (cp C) k ctx s' pi) = true ->
    exists x x', x <> x' /\ H x = H x'.
Proof. exact @and_all_certified_. Qed.
Print Assumptions and_any_number_certified.
Theorem and_shared_challenge : forall (K : FieldOps) (P1 P2 : proto K) s c z a,
  p_extract (and_proto P1 P2) s c z = Some a <->
  p_extract P1 (fst s) c (fst z) = Some (fst a) /\ p_extract P2 (snd s) c (snd z) = Some (snd a).
Proof. exact @and_extract_shared_challenge_. Qed.
Print Assumptions and_shared_challenge.
Theorem and_framing_concatenates : forall (K : FieldOps) (P1 P2 : proto K) k s a z,
  p_public (and_proto P1 P2) k s = p_public P1 k (fst s) ++ p_public P2 k (snd s) /\
  p_ser_cm (and_proto P1 P2) a = p_ser_cm P1 (fst a) ++ p_ser_cm P2 (snd a) /\
  p_ser_resp (and_proto P1 P2) z = p_ser_resp P1 (fst z) ++ p_ser_resp P2 (snd z).
Proof. exact @and_framing_concatenates_. Qed.
Print Assumptions and_framing_concatenates.

(** * Non-vacuity of the above (Z mod r "in the exponent"; F2 x F2 for the independence hypotheses) *)
(** vcom_eq: gis = [2;3], h = 5, g_bar = 7, h_bar = 11, x = [4;6], r = 9, one individual commitment at index 0 (r_0 = 13).
    Two honest responses (challenges 7 and 2, same randomness) reconstruct the same commit message, and the extractor
    returns the witness. *)
Example nonvacuous_vcom_eq_special_soundness :
  let s := @mkVcom ZrF ZrG 71%Z [(0%N, 171%Z)] [2; 3]%Z 5%Z 7%Z 11%Z in
  let w : vc_wit (K:=ZrF) := ([4; 6]%Z, 9%Z, [(0%N, 13%Z)]) in
  let r : vc_wit (K:=ZrF) := ([10; 20]%Z, 30%Z, [(0%N, 40%Z)]) in
  match vcom_respond s w r 7%Z, vcom_respond s w r 2%Z with
  | Some z, Some z' =>
    vcom_extract s 7%Z z = vcom_commit s r /\ vcom_extract s 2%Z z' = vcom_commit s r /\ vcom_commit s r <> None /\
    vcom_extractor s 7%Z 2%Z z z' = w
  | _, _ => False
  end.
Proof.
  intros s w r.
  set (z := vcom_respond s w r 7%Z). set (z' := vcom_respond s w r 2%Z).
  vm_compute in z, z'. subst z z'. cbv beta iota.
  split; [vm_compute; reflexivity|]. split; [vm_compute; reflexivity|]. split; [vm_compute; discriminate|].
  cbv [vcom_extractor exd]. rewrite zr_inv_2_7. vm_compute. reflexivity.
Qed.
Print Assumptions nonvacuous_vcom_eq_special_soundness.
(** attack corpus (model side): a response that satisfies every equation but ONE is rejected - altering t_0 changes
    only the reconstructed point of the individual commitment 0, altering t only the vector-commitment point, and
    dropping the answer for commitment 0 (or keying it 1) makes the verifier return None *)
Example vcom_eq_all_but_one_equation_rejected :
  let s := @mkVcom ZrF ZrG 71%Z [(0%N, 171%Z)] [2; 3]%Z 5%Z 7%Z 11%Z in
  let w : vc_wit (K:=ZrF) := ([4; 6]%Z, 9%Z, [(0%N, 13%Z)]) in
  let r : vc_wit (K:=ZrF) := ([10; 20]%Z, 30%Z, [(0%N, 40%Z)]) in
  match vcom_respond s w r 7%Z, vcom_commit s r with
  | Some (sis, t, tis), Some (a, pts) =>
    vcom_extract s 7%Z (sis, t, tis) = Some (a, pts) /\
    (exists p', vcom_extract s 7%Z (sis, t, [(0%N, (snd (hd (0%N, 0%Z) tis) + 1)%Z)]) = Some (a, [p']) /\ [p'] <> pts) /\
    (exists a', vcom_extract s 7%Z (sis, (t + 1)%Z, tis) = Some (a', pts) /\ a' <> a) /\
    vcom_extract s 7%Z (sis, t, []) = None /\
    vcom_extract s 7%Z (sis, t, [(1%N, snd (hd (0%N, 0%Z) tis))]) = None
  | _, _ => False
  end.
Proof.
  vm_compute. split; [reflexivity|]. split; [eexists; split; [reflexivity|discriminate]|].
  split; [eexists; split; [reflexivity|discriminate]|]. split; reflexivity.
Qed.
Print Assumptions vcom_eq_all_but_one_equation_rejected.
(** ps_sig_known: messages [committed 4 (r = 6); public 5; known 8], Y~ = [3;5;7], X~ = 11, r' = 13, a = 2, g~ = 1,
    b = a*(X~ + 93 + r'), commitment key (17, 19) *)
Example nonvacuous_ps_sig_known_special_soundness :
  let s := @mkPss ZrF ZrPair ZrG 2%Z 234%Z [MEq 182%Z; MPub 5%Z; MKnown] 1%Z 1%Z [1; 1; 1]%Z [3; 5; 7]%Z 11%Z 17%Z 19%Z in
  let w : pss_wit (K:=ZrF) := (13%Z, [VEq 4%Z 6%Z; VPub; VKnown 8%Z]) in
  let r : pss_wit (K:=ZrF) := (21%Z, [VEq 22%Z 23%Z; VPub; VKnown 24%Z]) in
  match pss_respond s w r 7%Z, pss_respond s w r 2%Z with
  | Some z, Some z' =>
    pss_extract s 7%Z z = pss_commit s r /\ pss_extract s 2%Z z' = pss_commit s r /\ pss_commit s r <> None /\
    pss_extractor s 7%Z 2%Z z z' = w
  | _, _ => False
  end.
Proof.
  intros s w r.
  set (z := pss_respond s w r 7%Z). set (z' := pss_respond s w r 2%Z).
  vm_compute in z, z'. subst z z'. cbv beta iota.
  split; [vm_compute; reflexivity|]. split; [vm_compute; reflexivity|]. split; [vm_compute; discriminate|].
  cbv [pss_extractor exv Sigma_com_eq_sig.exd map2 fst snd]. rewrite zr_inv_2_7. vm_compute. reflexivity.
Qed.
Print Assumptions nonvacuous_ps_sig_known_special_soundness.
(** attack corpus (model side): altering the randomness response of the committed message changes ONLY that
    commitment's point (the pairing equation still holds) - rejected; altering the response of the known message
    changes ONLY the pairing value - rejected *)
Example ps_sig_known_all_but_one_equation_rejected :
  let s := @mkPss ZrF ZrPair ZrG 2%Z 234%Z [MEq 182%Z; MPub 5%Z; MKnown] 1%Z 1%Z [1; 1; 1]%Z [3; 5; 7]%Z 11%Z 17%Z 19%Z in
  let w : pss_wit (K:=ZrF) := (13%Z, [VEq 4%Z 6%Z; VPub; VKnown 8%Z]) in
  let r : pss_wit (K:=ZrF) := (21%Z, [VEq 22%Z 23%Z; VPub; VKnown 24%Z]) in
  match pss_respond s w r 7%Z, pss_commit s r with
  | Some (zr, [VEq zm zrr; VPub; VKnown zk]), Some (a, cs) =>
    pss_extract s 7%Z (zr, [VEq zm zrr; VPub; VKnown zk]) = Some (a, cs) /\
    (exists cs', pss_extract s 7%Z (zr, [VEq zm (zrr + 1)%Z; VPub; VKnown zk]) = Some (a, cs') /\ cs' <> cs) /\
    (exists a', pss_extract s 7%Z (zr, [VEq zm zrr; VPub; VKnown (zk + 1)%Z]) = Some (a', cs) /\ a' <> a) /\
    pss_extract s 7%Z (zr, [VEq zm zrr; VPub]) = None
  | _, _ => False
  end.
Proof.
  vm_compute. split; [reflexivity|]. split; [eexists; split; [reflexivity|discriminate]|].
  split; [eexists; split; [reflexivity|discriminate]|]. reflexivity.
Qed.
Print Assumptions ps_sig_known_all_but_one_equation_rejected.
(** com_eq_sig: the same with two committed messages; and the injectivity hypotheses are satisfiable (F2 x F2) *)
Example com_eq_sig_all_but_one_equation_rejected :
  let s := @mkCes ZrF ZrPair ZrG 2%Z 152%Z [182; 307]%Z 1%Z 1%Z [1; 1]%Z [3; 5]%Z 11%Z 17%Z 19%Z in
  let w : ces_wit (K:=ZrF) := (13%Z, [(4, 6); (8, 9)]%Z) in
  let r : ces_wit (K:=ZrF) := (21%Z, [(22, 23); (24, 25)]%Z) in
  match ces_respond s w r 7%Z, ces_commit s r with
  | Some (zr, [(m1, r1); (m2, r2)]), Some (a, cs) =>
    ces_extract s 7%Z (zr, [(m1, r1); (m2, r2)]) = Some (a, cs) /\
    (exists cs', ces_extract s 7%Z (zr, [(m1, r1); (m2, (r2 + 1)%Z)]) = Some (a, cs') /\ cs' <> cs /\ hd 0%Z cs' = hd 0%Z cs) /\
    (exists a', ces_extract s 7%Z ((zr + 1)%Z, [(m1, r1); (m2, r2)]) = Some (a', cs) /\ a' <> a) /\
    ces_extract s 7%Z (zr, [(m1, r1)]) = None /\
    ces_extractor s 7%Z 2%Z (zr, [(m1, r1); (m2, r2)])
      (match ces_respond s w r 2%Z with Some z' => z' | None => (0%Z, []) end) = w
  | _, _ => False
  end.
Proof.
  intros s w r.
  set (z := ces_respond s w r 7%Z). set (z' := ces_respond s w r 2%Z). set (cm := ces_commit s r).
  vm_compute in z, z', cm. subst z z' cm. cbv beta iota.
  split; [vm_compute; reflexivity|].
  split; [eexists; split; [vm_compute; reflexivity|split; [vm_compute; discriminate|reflexivity]]|].
  split; [eexists; split; [vm_compute; reflexivity|vm_compute; discriminate]|].
  split; [vm_compute; reflexivity|].
  cbv [ces_extractor Sigma_com_eq_sig.exd map2 fst snd]. rewrite zr_inv_2_7. vm_compute. reflexivity.
Qed.
Print Assumptions com_eq_sig_all_but_one_equation_rejected.
Example nonvacuous_com_eq_sig_response_injective :
  let s := @mkCes F2 F2Pair F2M2 true true [(true, true)] true true [true] [true] true (true, false) (false, true) in
  (forall x y x' y' : F2, Gadd F2M2 (smul F2M2 x (cs_g s)) (smul F2M2 y (cs_h s)) =
                          Gadd F2M2 (smul F2M2 x' (cs_g s)) (smul F2M2 y' (cs_h s)) -> x = x' /\ y = y') /\
  (forall x x' : F2, smul F2M x (pe F2Pair (cs_a s) (cs_gt s)) = smul F2M x' (pe F2Pair (cs_a s) (cs_gt s)) -> x = x') /\
  ces_extract s true (true, [(true, false)]) <> None /\
  ces_extract s true (true, [(true, false)]) <> ces_extract s true (true, [(true, true)]).
Proof.
  split; [exact F2M2_independent|]. split; [exact F2_unit_faithful|]. split; vm_compute; discriminate.
Qed.
Print Assumptions nonvacuous_com_eq_sig_response_injective.
(** vcom_eq with one generator g = (1,0), h = (0,1) and key g_bar = (1,0), h_bar = (0,1) *)
Example nonvacuous_vcom_eq_response_injective :
  let s := @mkVcom F2 F2M2 (true, true) [(0%N, (true, true))] [(true, false)] (false, true) (true, false) (false, true) in
  (forall (u v : list F2) (x y : F2), List.length u = List.length (vc_gis s) -> List.length v = List.length (vc_gis s) ->
     Gadd F2M2 (msm u (vc_gis s)) (smul F2M2 x (vc_h s)) = Gadd F2M2 (msm v (vc_gis s)) (smul F2M2 y (vc_h s)) -> u = v /\ x = y) /\
  (forall x y x' y' : F2, Gadd F2M2 (smul F2M2 x (vc_gbar s)) (smul F2M2 y (vc_hbar s)) =
                          Gadd F2M2 (smul F2M2 x' (vc_gbar s)) (smul F2M2 y' (vc_hbar s)) -> x = x' /\ y = y') /\
  vcom_extract s true ([true], false, [(0%N, true)]) <> None /\
  vcom_extract s true ([true], false, [(0%N, true)]) <> vcom_extract s true ([true], false, [(0%N, false)]).
Proof.
  split.
  { intros [|u [|? ?]] [|v [|? ?]] x y Lu Lv; try discriminate. cbn.
    destruct u, v, x, y; cbn; intro E; split; try reflexivity; discriminate. }
  split; [exact F2M2_independent|]. split; vm_compute; discriminate.
Qed.
Print Assumptions nonvacuous_vcom_eq_response_injective.
(** replicate with two and with zero instances of dlog: two accepting transcripts exist and the extractor returns
    the witnesses (3 and 4); zero instances: the empty proof, the empty witness list *)
Example nonvacuous_replicate_special_soundness :
  let P := dlog_proto ZrCodec in
  let ss := [@mkDlog ZrF ZrG 15%Z 5%Z; @mkDlog ZrF ZrG 28%Z 7%Z] in
  match p_respond (rep_core P) ss [3; 4]%Z [10; 20]%Z 7%Z, p_respond (rep_core P) ss [3; 4]%Z [10; 20]%Z 2%Z with
  | Some z, Some z' =>
    p_extract (rep_core P) ss 7%Z z = p_commit (rep_core P) ss [10; 20]%Z /\
    p_extract (rep_core P) ss 2%Z z' = p_commit (rep_core P) ss [10; 20]%Z /\
    p_commit (rep_core P) ss [10; 20]%Z <> None /\
    p_extract (rep_proto P) ss 7%Z z = p_extract (rep_core P) ss 7%Z z /\
    p_extract (rep_core P) [] 7%Z [] = Some []
  | _, _ => False
  end.
Proof. vm_compute. repeat split; try reflexivity. discriminate. Qed.
Print Assumptions nonvacuous_replicate_special_soundness.
(** dlogaggequal (tied to the code through the cfg hook): an honest transcript with two aggregates (sizes 1 and 2) is
    reproduced by the executable model; and the response-count observation on the same instance: the response without
    the last inner vector is not rejected by [extract_commit_message] (it reconstructs one point fewer) *)
Example nonvacuous_honest_dlogaggequal :
  match x_honest X_dlogaggequal V1 (domain V1 [99; 48; 55]%N) [2; 15; 5; 21; 7; 50; 2; 11]%Z [2; 3; 4]%Z 7%Z [2; 100; 200]%Z with
  | Some (cm_ok, resp_ok, rel_ok, _, _) => cm_ok && resp_ok && rel_ok = true
  | None => False
  end /\
  x_verify_dae_trunc V1 [] [2; 15; 5; 21; 7; 50; 2; 11]%Z [1]%N 1 [200]%Z <> None.
Proof. split; [vm_compute; reflexivity|vm_compute; discriminate]. Qed.
Print Assumptions nonvacuous_honest_dlogaggequal.
(** the one-row protocol for an abstract homomorphism [phi : W -> M] (any response type with a subtraction and a scaling
    that [phi] respects): special soundness and response injectivity; the Pedersen row as coded in com_eq_sig.rs /
    ps_sig_known.rs / vcom_eq.rs is the instance W = K*K, phi (x,y) = x*g + y*h *)
Theorem hom_special_sound : forall (K : FieldOps) (KL : FieldLaws K) (M : ModOps K) (ML : ModLaws M)
    (W : Type) (wsub : W -> W -> W) (wscale : K -> W -> W) (phi : W -> M),
  (forall d z z', phi (wscale d (wsub z z')) = smul M d (Gsub M (phi z) (phi z'))) ->
  forall (y : M) (c c' : K) (z z' : W), c <> c' ->
  Gadd M (smul M c y) (phi z) = Gadd M (smul M c' y) (phi z') -> phi (wscale (Finv K (Fsub K c' c)) (wsub z z')) = y.
Proof. intros K KL M ML. exact hom_special_sound_. Qed.
Print Assumptions hom_special_sound.
Theorem hom_response_injective : forall (K : FieldOps) (M : ModOps K) (ML : ModLaws M) (W : Type) (phi : W -> M)
    (y : M) (c : K) (z z' : W),
  (forall u v, phi u = phi v -> u = v) -> Gadd M (smul M c y) (phi z) = Gadd M (smul M c y) (phi z') -> z = z'.
Proof. intros K M ML. exact hom_response_injective_. Qed.
Print Assumptions hom_response_injective.
Theorem pedersen_row_special_sound : forall (K : FieldOps) (KL : FieldLaws K) (M : ModOps K) (ML : ModLaws M) (g h : M)
    (C : M) (c c' : K) (z z' : K * K), c <> c' ->
  Gadd M (smul M c C) (Gadd M (smul M (fst z) g) (smul M (snd z) h)) =
  Gadd M (smul M c' C) (Gadd M (smul M (fst z') g) (smul M (snd z') h)) ->
  C = ped_phi g h (ped_scale (Finv K (Fsub K c' c)) (ped_sub z z')).
Proof. intros K KL M ML. exact ped_row_special_sound_. Qed.
Print Assumptions pedersen_row_special_sound.
(** dlogaggequal.rs (private reference module): the number of inner response vectors is not compared with the number
    of aggregates - in BOTH directions, for all statements (observed on the real code through the cfg hook: the
    truncated-response attack and the surplus-vector perturbation are accepted; compared with this model by the check) *)
Theorem dlogaggequal_surplus_responses_ignored_refuted : forall (K : FieldOps) (M : ModOps K)
    (s : dae_stmt (M:=M)) (c zc : K) (ws extra : list (list K)),
  List.length ws = List.length (snd s) -> dae_extract s c (zc, ws ++ extra) = dae_extract s c (zc, ws).
Proof. exact @dae_extract_surplus_ignored_. Qed.
Print Assumptions dlogaggequal_surplus_responses_ignored_refuted.
Theorem dlogaggequal_missing_responses_unchecked_refuted : forall (K : FieldOps) (M : ModOps K)
    (aggs more : list (agg_stmt M)) (c zc : K) (ws : list (list K)),
  List.length ws = List.length aggs -> dae_points (aggs ++ more) c zc ws = dae_points aggs c zc ws.
Proof. exact @dae_points_truncated_. Qed.
Print Assumptions dlogaggequal_missing_responses_unchecked_refuted.
