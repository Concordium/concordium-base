(** C17 - property theorems only, each followed by [Print Assumptions]; closed by [exact], the
    examples on concrete values by evaluation.
    Model: Cbor/CborCore.v (RFC 8949 items as ciborium-ll + Decoder/Encoder + value::Value),
    Cbor/CborSchema.v (derive-generated codecs), Cbor/TokenSchemas.v, Cbor/TokenAmount.v. *)
From Coq Require Import NArith ZArith List Bool String.
From CB Require Import Cbor.CborCore Cbor.CborProofs Cbor.CborTotal Cbor.CborNorm
  Cbor.CborSchema Cbor.SchemaProofs Cbor.SchemaTyping Cbor.SchemaRoundtrip Cbor.TokenSchemas Cbor.TokenRoundtrip
  Cbor.TokenAmount Cbor.TokenAmountProofs Gen.CborSchemas Cbor.GenTie
  Cbor.DecimalConv Cbor.DecimalConvProofs Cbor.AmountForms Cbor.Header Cbor.HeaderProofs Cbor.FloatBits Cbor.FloatProofs Cbor.FloatSingle Cbor.CborDepth.
Import ListNotations.
Local Open Scope N_scope.

(** ** Generic data model *)

(** Every well-formed value (any nesting depth) decodes back to itself from the front of any
    input, the rest being left untouched. *)
Theorem cbor_value_roundtrip : forall v rest, value_wfb v = true ->
  exists a, decode_prefix (encode v ++ rest) = Ok v rest a.
Proof. exact decode_encode_prefix. Qed.
Print Assumptions cbor_value_roundtrip.

Theorem cbor_value_roundtrip_top : forall v, value_wfb v = true ->
  exists a, decode_top (encode v) = Ok v [] a.
Proof. exact decode_encode_top. Qed.
Print Assumptions cbor_value_roundtrip_top.

(** For an arbitrary Rust [Value] (maps in any order) the round trip yields the same value with
    every map in the deterministic order ([norm]); [norm] is the identity exactly on sorted values. *)
Theorem cbor_value_roundtrip_any_order : forall v, value_okb v = true ->
  exists a, decode_top (encode v) = Ok (norm v) [] a.
Proof. exact decode_encode_norm. Qed.
Print Assumptions cbor_value_roundtrip_any_order.

Theorem norm_fixes_sorted : forall v, value_okb v = true -> value_sortedb v = true -> norm v = v.
Proof. exact norm_sorted_id. Qed.
Print Assumptions norm_fixes_sorted.

(** Encoding is a function (deterministic by construction); it is injective and prefix-free. *)
Theorem cbor_encode_deterministic : forall v1 v2 r1 r2, value_wfb v1 = true -> value_wfb v2 = true ->
  encode v1 ++ r1 = encode v2 ++ r2 -> v1 = v2 /\ r1 = r2.
Proof. exact encode_prefix_free. Qed.
Print Assumptions cbor_encode_deterministic.

(** The order of map entries does not influence the bytes: a value and its normal form encode alike,
    hence decode . encode is idempotent on encodings (canonical re-encoding). *)
Theorem cbor_reencode_stable : forall v, encode (norm v) = encode v.
Proof. exact encode_norm. Qed.
Print Assumptions cbor_reencode_stable.

(** Heads are minimal: whatever head the decoder accepts for an argument [n], the encoder's head
    for [n] is not longer. *)
Theorem encode_shortest : forall info r n r' m, Forall (fun b => b < 256) r ->
  pull_arg info r = Some (Some n, r') -> (List.length (head m n) + List.length r' <= 1 + List.length r)%nat.
Proof. exact head_shortest. Qed.
Print Assumptions encode_shortest.

(** The decoder is not canonical: it accepts an encoding the encoder never writes (the witness is the
    non-shortest head [24; 5] for 5). *)
Theorem decode_accepts_noncanonical_refuted :
  exists bs v, bs <> encode v /\ decode_top bs = Ok v [] 0 /\ decode_top (encode v) = Ok v [] 0.
Proof. exact noncanonical_witness. Qed.
Print Assumptions decode_accepts_noncanonical_refuted.

(** Decoding is total: the fuel (a function of the input length) never runs out. *)
Theorem cbor_decode_total : forall bs, decode_top bs <> OutOfFuel.
Proof. exact decode_top_total. Qed.
Print Assumptions cbor_decode_total.

(** Allocation is bounded linearly in the input length, on success and on every error path. *)
Theorem cbor_decode_alloc_bounded : forall bs, alloc_of (decode_top bs) <= 8256 * N.of_nat (List.length bs) + 4096.
Proof. exact decode_alloc_bounded. Qed.
Print Assumptions cbor_decode_alloc_bounded.

Theorem cbor_decode_alloc_consumed : forall bs v r a, decode_prefix bs = Ok v r a ->
  a + 32 <= 8256 * (N.of_nat (List.length bs) - N.of_nat (List.length r)).
Proof. exact decode_alloc_consumed. Qed.
Print Assumptions cbor_decode_alloc_consumed.

(** Trailing data is rejected. *)
Theorem decode_rejects_trailing : forall v b rest, value_wfb v = true ->
  exists a, decode_top (encode v ++ b :: rest) = Err a.
Proof. exact decode_trailing_rejected. Qed.
Print Assumptions decode_rejects_trailing.

Theorem decode_accepts_only_whole_input : forall bs v r a, decode_top bs = Ok v r a ->
  r = [] /\ decode_prefix bs = Ok v [] a.
Proof. exact decode_top_consumes_all. Qed.
Print Assumptions decode_accepts_only_whole_input.

(** ** Derive-generated codecs (all schemas) *)

(** Round trip for EVERY well-formed schema and every well-typed value, under both decoding options:
    [cbor_decode (cbor_encode x) = x].  ([schema_wfb]: distinct keys / variant names / tags, valid names, ...;
    [typedb]: [x] is a value of the type, embedded generic values and the catch-all map in deterministic order.) *)
Theorem schema_roundtrip : forall s x o, schema_wfb s = true -> typedb s x = true ->
  exists bs, encode_typed s x = Some bs /\ decode_typed s o bs = Some x.
Proof. exact typed_roundtrip. Qed.
Print Assumptions schema_roundtrip.

(** ... stated on items: the decoder applied to the normal form (maps in deterministic order) of what the
    encoder writes returns the value; this is where the entry sort of the map encoder is absorbed
    (the field-assignment loop is invariant under permutations of entries with distinct keys). *)
Theorem schema_roundtrip_item : forall s x o mk, schema_wfb s = true -> typedb s x = true ->
  exists v, senc s x = Some v /\ value_okb v = true /\ sdec o s mk (norm v) = Some x.
Proof. exact schema_roundtrip_norm. Qed.
Print Assumptions schema_roundtrip_item.

(** the schema terms of all protocol-level-token types are well-formed, so the theorem covers operations,
    events, reject reasons, module state, metadata and amounts *)
Theorem token_ops_roundtrip : forall name s x o, In (name, s) token_schemas -> typedb s x = true ->
  exists bs, encode_typed s x = Some bs /\ decode_typed s o bs = Some x.
Proof. exact token_types_roundtrip. Qed.
Print Assumptions token_ops_roundtrip.

(** the hand-written schema terms are the ones the translator regenerates from the Rust declarations
    (#[derive(CborSerialize, CborDeserialize)] with cbor(key, tag, map, tagged, transparent, other)) on every run *)
Theorem generated_schemas_match :
  map snd gen_schemas = map (fun p => schema_of (fst p)) gen_schemas
  /\ forallb (fun p => existsb (String.eqb (fst p)) (map fst gen_schemas)) token_schemas = true.
Proof. exact gen_tie. Qed.
Print Assumptions generated_schemas_match.

(** A missing mandatory field is an error. *)
Theorem missing_mandatory_field_rejected : forall o fields other i entries mk k s,
  In (k, s) fields -> null_of s = None ->
  (forall kx, In kx entries -> key_matches k (fst kx) = false) ->
  sdec o (SStruct fields other) mk (VMap i entries) = None.
Proof. exact struct_missing_mandatory. Qed.
Print Assumptions missing_mandatory_field_rejected.

(** An undeclared field is an error unless the type has a catch-all or the options say Ignore. *)
Theorem undeclared_field_rejected : forall fields i entries mk k x,
  In (k, x) entries -> (forall fk fs, In (fk, fs) fields -> key_matches fk k = false) ->
  sdec Fail (SStruct fields None) mk (VMap i entries) = None.
Proof. exact struct_unknown_key_fail. Qed.
Print Assumptions undeclared_field_rejected.

(** ... and with Ignore it has no influence on the result. *)
Theorem undeclared_field_ignored : forall fields i pre post mk k x,
  is_mapkey k = true -> (forall fk fs, In (fk, fs) fields -> key_matches fk k = false) ->
  sdec Ignore (SStruct fields None) mk (VMap i (pre ++ (k, x) :: post))
  = sdec Ignore (SStruct fields None) mk (VMap i (pre ++ post)).
Proof. exact struct_unknown_key_ignored. Qed.
Print Assumptions undeclared_field_ignored.

(** Unknown variants are preserved where the type is wrapped in CborMaybeKnown / CborUpward:
    decoding keeps the whole item and encoding writes it back. *)
Theorem maybe_known_preserves_unknown : forall o variants k x,
  (forall name s, In (name, s) variants -> list_eqb (bytes_of_string name) k = false) ->
  sdec o (SMaybeKnown (SEnumMap variants false)) false (VMap false [(VText k, x)])
    = Some (XUnknown (VMap false [(VText k, strip x)]))
  /\ senc (SMaybeKnown (SEnumMap variants false)) (XUnknown (VMap false [(VText k, strip x)]))
    = Some (VMap false [(VText k, strip x)]).
Proof. exact maybe_known_map_unknown. Qed.
Print Assumptions maybe_known_preserves_unknown.

Theorem maybe_known_preserves_unknown_tag : forall o variants untagged t x,
  (forall t' c s, In (t', c, s) variants -> (t' =? t) = false) ->
  sdec o (SMaybeKnown (SEnumTagged variants untagged false)) false (VTag t x)
    = Some (XUnknown (VTag t (strip x)))
  /\ senc (SMaybeKnown (SEnumTagged variants untagged false)) (XUnknown (VTag t (strip x)))
    = Some (VTag t (strip x)).
Proof. exact maybe_known_tag_unknown. Qed.
Print Assumptions maybe_known_preserves_unknown_tag.

(** without the wrapper an unknown variant is an error *)
Theorem unknown_variant_rejected : forall o variants k x,
  (forall name s, In (name, s) variants -> list_eqb (bytes_of_string name) k = false) ->
  sdec o (SEnumMap variants false) false (VMap false [(VText k, x)]) = None.
Proof. exact enum_map_unknown_rejected. Qed.
Print Assumptions unknown_variant_rejected.

(** ill-typed items are errors (scalars) *)
Theorem ill_typed_scalar_rejected : forall o mk v,
  (forall b, v <> VBool b) -> sdec o SBool mk v = None.
Proof. exact bool_ill_typed. Qed.
Print Assumptions ill_typed_scalar_rejected.

(** ** Token amounts *)

(** CBOR form: tag 4 [-decimals, value] decodes to exactly (value, decimals). *)
Theorem token_amount_cbor_roundtrip : forall o v d, v < W64 -> d < 256 ->
  decode_typed s_TokenAmount o (encode (VTag 4 (VArray false [amount_exponent d; VPos v])))
  = Some (XList [XZ (- Z.of_N d); XN v]).
Proof. exact amount_cbor_roundtrip. Qed.
Print Assumptions token_amount_cbor_roundtrip.

(** a decimal fraction whose exponent is positive or below -255 is not a token amount *)
Theorem token_amount_exponent_checked : forall o e m mk v,
  sdec o s_UnsignedDecimalFraction mk v = Some (XList [XZ e; XN m]) ->
  ((e < -255)%Z \/ (0 < e)%Z) -> sdec o s_TokenAmount mk v = None.
Proof. exact amount_exponent_rejected. Qed.
Print Assumptions token_amount_exponent_checked.

(** String form: Display's output parses back to the same amount (rust_decimal's maximal scale is 28;
    beyond it from_str rejects every string) ... *)
Theorem token_amount_display_roundtrip : forall a, amount_ok a = true -> amt_decimals a <= 28 ->
  from_str_exact (to_string a) (amt_decimals a) = Some a.
Proof. exact display_roundtrip. Qed.
Print Assumptions token_amount_display_roundtrip.

Theorem token_amount_display_beyond_scale : forall s d, 28 < d -> from_str_exact s d = None.
Proof. exact display_beyond_scale_rejected. Qed.
Print Assumptions token_amount_display_beyond_scale.

(** ... and an exact conversion from any string preserves the number it denotes
    ([same_number m sc v d] is m * 10^d = v * 10^sc), and is rejected otherwise. *)
Theorem token_amount_denotation : forall s d a neg m sc,
  parse_decimal s = Some (neg, m, sc) -> from_str_exact s d = Some a ->
  amt_decimals a = d /\ same_number m sc (amt_value a) d /\ (neg = false \/ m = 0).
Proof. exact from_str_exact_sound. Qed.
Print Assumptions token_amount_denotation.

Theorem token_amount_lossy_rejected : forall s d neg m sc,
  parse_decimal s = Some (neg, m, sc) -> d < sc -> m mod 10 ^ (sc - d) <> 0 -> from_str_exact s d = None.
Proof. exact from_str_exact_lossy. Qed.
Print Assumptions token_amount_lossy_rejected.

(** JSON form: the value string parses back to the value *)
Theorem token_amount_json_roundtrip : forall a, amount_ok a = true ->
  from_json (json_value a) (amt_decimals a) = Some a.
Proof. exact json_roundtrip. Qed.
Print Assumptions token_amount_json_roundtrip.

(** ** Token amounts <-> rust_decimal::Decimal (try_from_rust_decimal / try_to_rust_decimal as coded,
       including the digit-by-digit rescale loops of rust_decimal), for ALL decimals *)

(** Exact: an accepted conversion preserves the number: m * 10^-scale = value * 10^-decimals, not negative *)
Theorem token_amount_decimal_exact_sound : forall x d a, decimal_ok x = true -> try_from_decimal x d Exact = COk a ->
  amt_decimals a = d /\ same_number (d_m x) (d_scale x) (amt_value a) d /\ (d_neg x = false \/ d_m x = 0).
Proof. exact conv_exact_sound. Qed.
Print Assumptions token_amount_decimal_exact_sound.

(** ... and every decimal whose number is v * 10^-d (v a u64, d <= 28, not negative) converts to exactly (v, d), under both rules *)
Theorem token_amount_decimal_exact_complete : forall x d v r, decimal_ok x = true -> d <= MAX_SCALE -> v <= U64MAX ->
  (d_neg x = false \/ d_m x = 0) -> same_number (d_m x) (d_scale x) v d ->
  try_from_decimal x d r = COk {| amt_value := v; amt_decimals := d |}.
Proof. exact conv_exact_complete. Qed.
Print Assumptions token_amount_decimal_exact_complete.

(** Exact rejects every decimal that needs rounding at the requested number of decimals *)
Theorem token_amount_decimal_rounding_rejected : forall x d, decimal_ok x = true -> d < d_scale x ->
  d_m x mod 10 ^ (d_scale x - d) <> 0 -> exists e, try_from_decimal x d Exact = CErr e.
Proof. exact conv_exact_rejects_rounding. Qed.
Print Assumptions token_amount_decimal_rounding_rejected.

(** AllowRounding = round half up on the magnitude (nearest, ties away from zero): full characterisation *)
Theorem token_amount_decimal_allow_rounding : forall x d, decimal_ok x = true -> d < d_scale x ->
  try_from_decimal x d AllowRounding =
  let q := round_half_up (d_m x) (10 ^ (d_scale x - d)) in
  if (d_neg x && negb (q =? 0)) || (U64MAX <? q) then CErr EValueOverflow
  else COk {| amt_value := q; amt_decimals := d |}.
Proof. exact conv_round_spec. Qed.
Print Assumptions token_amount_decimal_allow_rounding.

(** the rounded value is within half a unit in the last place of the exact quotient *)
Theorem token_amount_rounding_nearest : forall m j, 0 < j -> let k := 10 ^ j in let q := round_half_up m k in
  2 * (q * k) <= 2 * m + k /\ 2 * m < 2 * (q * k) + k.
Proof. exact round_half_up_nearest. Qed.
Print Assumptions token_amount_rounding_nearest.

Theorem token_amount_rounding_exact_when_divisible : forall m k, 0 < k -> m mod k = 0 -> round_half_up m k * k = m.
Proof. exact round_half_up_exact. Qed.
Print Assumptions token_amount_rounding_exact_when_divisible.

Theorem token_amount_decimal_rules_agree_without_rounding : forall x d, decimal_ok x = true -> d_scale x <= d ->
  try_from_decimal x d AllowRounding = try_from_decimal x d Exact.
Proof. exact conv_round_is_exact_when_no_rounding. Qed.
Print Assumptions token_amount_decimal_rules_agree_without_rounding.

(** ranges: an accepted result always has decimals = the request <= 28 and a u64 value; more than 28 decimals is always an error *)
Theorem token_amount_decimal_ranges : forall x d r a, try_from_decimal x d r = COk a ->
  amt_decimals a = d /\ d <= MAX_SCALE /\ amt_value a <= U64MAX.
Proof. exact conv_ok_range. Qed.
Print Assumptions token_amount_decimal_ranges.

Theorem token_amount_decimal_beyond_scale : forall x d r, MAX_SCALE < d -> try_from_decimal x d r = CErr ERustDecimal.
Proof. exact conv_beyond_scale. Qed.
Print Assumptions token_amount_decimal_beyond_scale.

(** try_to_rust_decimal and back *)
Theorem token_amount_to_decimal_roundtrip : forall v d r, v <= U64MAX -> d <= MAX_SCALE ->
  let x := {| d_neg := false; d_m := v; d_scale := d |} in
  try_to_decimal {| amt_value := v; amt_decimals := d |} = Some x /\ decimal_ok x = true
  /\ try_from_decimal x d r = COk {| amt_value := v; amt_decimals := d |}.
Proof. exact to_decimal_roundtrip. Qed.
Print Assumptions token_amount_to_decimal_roundtrip.

Theorem token_amount_to_decimal_beyond_scale : forall a, MAX_SCALE < amt_decimals a -> try_to_decimal a = None.
Proof. exact to_decimal_beyond_scale. Qed.
Print Assumptions token_amount_to_decimal_beyond_scale.

(** at a fixed number of decimals the number determines the value: the representation is unique *)
Theorem token_amount_unique_at_decimals : forall v1 v2 d, same_number v1 d v2 d -> v1 = v2.
Proof. exact amount_number_unique. Qed.
Print Assumptions token_amount_unique_at_decimals.

(** CBOR decimal fraction, tag 4 [exponent, mantissa]: both ranges are enforced exactly *)
Theorem token_amount_cbor_neg_exponent_range : forall o mk k m,
  sdec o s_TokenAmount mk (VTag 4 (VArray false [VNeg k; VPos m])) =
  if (k <? 255) && (m <? 2 ^ 64) then Some (XList [XZ (- 1 - Z.of_N k); XN m]) else None.
Proof. exact amount_cbor_neg_exponent. Qed.
Print Assumptions token_amount_cbor_neg_exponent_range.

Theorem token_amount_cbor_pos_exponent_range : forall o mk n m,
  sdec o s_TokenAmount mk (VTag 4 (VArray false [VPos n; VPos m])) =
  if (n =? 0) && (m <? 2 ^ 64) then Some (XList [XZ 0; XN m]) else None.
Proof. exact amount_cbor_pos_exponent. Qed.
Print Assumptions token_amount_cbor_pos_exponent_range.

(** all three forms of one amount convert back to exactly that amount *)
Theorem token_amount_three_forms : forall o v d r, v <= U64MAX -> d <= 28 ->
  let a := {| amt_value := v; amt_decimals := d |} in
  decode_typed s_TokenAmount o (encode (VTag 4 (VArray false [amount_exponent d; VPos v])))
    = Some (XList [XZ (- Z.of_N d); XN v])
  /\ (exists x, try_to_decimal a = Some x /\ d_m x = v /\ d_scale x = d /\ d_neg x = false
                /\ try_from_decimal x d r = COk a)
  /\ from_str_exact (to_string a) d = Some a.
Proof. exact amount_three_forms. Qed.
Print Assumptions token_amount_three_forms.

(** ** Heads (ciborium-ll reader [pull] / writer [encode_hdr]) *)

(** the reader fails on the argument exactly for the reserved additional information 28..30 or a truncated argument *)
Theorem header_arg_rejected_iff : forall info r,
  pull_arg info r = None <->
  (28 <= info /\ info <> 31) \/ (24 <= info <= 27 /\ (List.length r < arg_width info)%nat).
Proof. exact pull_arg_none_iff. Qed.
Print Assumptions header_arg_rejected_iff.

(** an accepted head occupies exactly 1, 2, 3, 5 or 9 bytes, as its additional information says *)
Theorem header_consumes_exactly : forall bs h r, pull bs = Some (h, r) ->
  exists b tl, bs = b :: tl /\ List.length bs = (head_size (b mod 32) + List.length r)%nat
  /\ In (head_size (b mod 32)) [1; 2; 3; 5; 9]%nat.
Proof. exact pull_consumes. Qed.
Print Assumptions header_consumes_exactly.

(** decode (encode h) = h for every header: all 64-bit arguments, indefinite lengths, break, all simple values, all float payloads *)
Theorem header_roundtrip : forall h rest, hdr_okb h = true -> pull (encode_hdr h ++ rest) = Some (h, rest).
Proof. exact pull_encode_hdr. Qed.
Print Assumptions header_roundtrip.

(** the writer's head is the shortest accepted head carrying the header *)
Theorem header_encode_shortest : forall bs h r, Forall (fun b => b < 256) bs -> pull bs = Some (h, r) ->
  (forall w b, h <> HFloat w b) -> (List.length (encode_hdr h) + List.length r <= List.length bs)%nat.
Proof. exact encode_hdr_shortest. Qed.
Print Assumptions header_encode_shortest.

(** the reader has NO preferred-serialisation check: every argument is accepted in every width that holds it *)
Theorem header_accepts_every_width : forall m info n rest h, 24 <= info <= 27 -> m < 7 ->
  n < 256 ^ N.of_nat (arg_width info) -> hdr_of m n = Some h ->
  pull (wide_head m info n ++ rest) = Some (h, rest).
Proof. exact pull_accepts_any_width. Qed.
Print Assumptions header_accepts_every_width.

(** ** Floats as bit patterns *)

(** decode (encode f) = f bit for bit, for EVERY 64-bit pattern, NaNs with any payload included *)
Theorem float_roundtrip_bits : forall b, fdecode (fst (fencode b)) (snd (fencode b)) = b.
Proof. exact float_roundtrip. Qed.
Print Assumptions float_roundtrip_bits.

Theorem float_narrowed_only_if_representable : forall b w p, fencode b = (w, p) ->
  (w = 2 -> widen16 p = b) /\ (w = 4 -> widen32 p = b) /\ (w = 8 -> p = b).
Proof. exact fencode_narrow_only_if_representable. Qed.
Print Assumptions float_narrowed_only_if_representable.

(** every double that a half-precision pattern widens to is written in 2 bytes, as that pattern (the binary16
    instance of [cand_widen_pattern], which holds for any format) *)
Theorem float_half_shortest : forall h, h < 65536 -> is_snan16 h = false -> fencode (widen16 h) = (2, h).
Proof. exact half_shortest. Qed.
Print Assumptions float_half_shortest.

(** a signalling half NaN widens to the quiet NaN (quiet bit set, payload kept): decode is not injective there *)
Theorem float_half_snan_quieted : forall h, h < 65536 -> is_snan16 h = true -> fencode (widen16 h) = (2, h + 512).
Proof. exact half_snan_quieted. Qed.
Print Assumptions float_half_snan_quieted.

(** binary32, normal numbers (exponent field 1..254; structural proof): the double a single widens to is never written
    in 8 bytes, and when it takes 4 the payload is that single.  PARTIAL: single subnormals / infinities / NaNs are not covered
    by a theorem (diffed only), hence the name *)
Theorem float_single_shortest_partial : forall x, x < 2 ^ 32 -> 1 <= N.land (N.shiftr x 23) 255 <= 254 ->
  fst (fencode (widen32 x)) = 2 \/ fencode (widen32 x) = (4, x).
Proof. exact single_normal_not_wide. Qed.
Print Assumptions float_single_shortest_partial.

(** ** Nesting depth: the code has no explicit limit; the input length is the only bound *)

(** the nesting depth of a decoded value is at most the number of bytes it occupies (every level costs a head byte) *)
Theorem nesting_depth_bounded_by_input : forall bs v r a, decode_prefix bs = Ok v r a ->
  (depth v + List.length r <= List.length bs)%nat.
Proof. exact decode_depth_bounded. Qed.
Print Assumptions nesting_depth_bounded_by_input.

(** ... and the bound is reached up to one byte at EVERY depth: d nested one-element arrays around 0 occupy d+1 bytes and round-trip *)
Theorem nesting_no_limit : forall d, exists a,
  decode_top (encode (chain d)) = Ok (chain d) [] a /\ depth (chain d) = d /\ List.length (encode (chain d)) = S d.
Proof. exact no_depth_limit. Qed.
Print Assumptions nesting_no_limit.

(** ** Non-vacuity *)
Example roundtrip_nonvacuous :
  value_wfb (VMap false [(VPos 1, VArray false [VText [195; 169]; VNeg 23]); (VText [97], VTag 4 (VFloat 2 15360))]) = true.
Proof. reflexivity. Qed.
Print Assumptions roundtrip_nonvacuous.

Example missing_field_nonvacuous :
  decode_typed s_TokenTransfer Fail (encode (VMap false [(VText (bytes_of_string "amount"), VTag 4 (VArray false [VNeg 2; VPos 5]))])) = None
  /\ null_of s_CborHolderAccount = None.
Proof. split; reflexivity. Qed.
Print Assumptions missing_field_nonvacuous.

Example unknown_operation_nonvacuous :
  decode_typed s_TokenOperations Fail (encode (VArray false [VMap false [(VText (bytes_of_string "freeze"), VMap false [])]]))
  = Some (XList [XUnknown (VMap false [(VText (bytes_of_string "freeze"), VMap false [])])]).
Proof. reflexivity. Qed.
Print Assumptions unknown_operation_nonvacuous.

Example schema_roundtrip_nonvacuous :
  schema_wfb s_TokenModuleState = true /\
  typedb s_TokenModuleState
    (XStruct [XSome (XText [84; 75]); XNone; XNone; XSome (XBool true); XNone; XNone; XNone; XNone]
             [(VText [97], VMap false [(VPos 1, VNull); (VPos 2, VArray false [])]); (VText [122; 122], VNeg 4)]) = true /\
  typedb s_TokenOperations
    (XList [XKnown (XVariant 7 (XStruct [] [])); XUnknown (VMap false [(VText [102], VPos 1)])]) = true.
Proof. repeat split; vm_compute; reflexivity. Qed.
Print Assumptions schema_roundtrip_nonvacuous.

Example amount_nonvacuous :
  from_str_exact (to_string {| amt_value := 12300; amt_decimals := 3 |}) 3 = Some {| amt_value := 12300; amt_decimals := 3 |}
  /\ from_str_exact [49; 46; 50; 51] 1 = None.
Proof. split; reflexivity. Qed.
Print Assumptions amount_nonvacuous.

(** Display output parses back exactly, on boundary amounts (sample, not a universal statement) *)
Example amount_display_roundtrip_samples :
  forallb (fun vd => let a := {| amt_value := fst vd; amt_decimals := snd vd |} in
                     match from_str_exact (to_string a) (snd vd) with
                     | Some b => (amt_value b =? fst vd) && (amt_decimals b =? snd vd)
                     | None => false
                     end)
    [(0, 0); (0, 28); (1, 28); (5, 1); (12300, 3); (18446744073709551615, 0); (18446744073709551615, 9);
     (18446744073709551615, 28); (10, 5); (999, 2); (1000, 3); (4294967296, 10)] = true.
Proof. vm_compute. reflexivity. Qed.
Print Assumptions amount_nonvacuous.

Example decimal_conv_nonvacuous :
  decimal_ok (mk_dec false 12600 4) = true
  /\ try_from_decimal (mk_dec false 12600 4) 2 Exact = COk (mk_amt 126 2)
  /\ try_from_decimal (mk_dec false 12600 4) 1 Exact = CErr ELossOfPrecision
  /\ try_from_decimal (mk_dec false 12600 4) 1 AllowRounding = COk (mk_amt 13 1)
  /\ try_from_decimal (mk_dec false 12500 4) 1 AllowRounding = COk (mk_amt 13 1)
  /\ try_from_decimal (mk_dec false 12499 4) 1 AllowRounding = COk (mk_amt 12 1)
  /\ try_from_decimal (mk_dec true 4 2) 0 AllowRounding = COk (mk_amt 0 0)
  /\ try_from_decimal (mk_dec true 6 1) 0 AllowRounding = CErr EValueOverflow
  /\ try_from_decimal (mk_dec false 18446744073709551616 0) 0 Exact = CErr EValueOverflow
  /\ try_from_decimal (mk_dec false 79228162514264337593543950335 0) 1 Exact = CErr EValueOverflow
  /\ same_number 12600 4 126 2.
Proof. repeat split; vm_compute; reflexivity. Qed.
Print Assumptions decimal_conv_nonvacuous.

Example header_nonvacuous :
  pull [24; 5; 7] = Some (HPos 5, [7]) /\ encode_hdr (HPos 5) = [5] /\ hdr_okb (HFloat 2 15360) = true
  /\ pull [28] = None /\ pull [25; 1] = None /\ pull [31] = None /\ pull [95] = Some (HBytes None, [])
  /\ hdr_of 3 70000 = Some (HText (Some 70000)) /\ wide_head 3 27 70000 = [123; 0; 0; 0; 0; 0; 1; 17; 112].
Proof. repeat split; vm_compute; reflexivity. Qed.
Print Assumptions header_nonvacuous.

Example float_nonvacuous :
  fencode 4609434218613702656 = (2, 15872)            (* 1.5 *)
  /\ fencode 4607182418800017409 = (8, 4607182418800017409)   (* 1.0 + 1 ulp *)
  /\ fencode 3936146074321813504 = (4, 1)             (* smallest single subnormal 2^-149 *)
  /\ fencode 4499096027743125504 = (2, 1)             (* smallest half subnormal 2^-24 *)
  /\ fencode 4679235614791434240 = (2, 31743)         (* 65504 = largest finite half *)
  /\ fencode 4679237813814689792 = (4, 1199566848)    (* 65520: not a half *)
  /\ fencode 9221120237041090560 = (2, 32256)         (* quiet NaN, zero payload *)
  /\ fencode 9218868437227405313 = (8, 9218868437227405313)   (* signalling NaN: 8 bytes, payload kept *)
  /\ is_snan16 31745 = true /\ is_snan16 15360 = false
  /\ N.land (N.shiftr 1199566848 23) 255 = 142 /\ widen32 1199566848 = 4679237813814689792.
Proof. repeat split; vm_compute; reflexivity. Qed.
Print Assumptions float_nonvacuous.
