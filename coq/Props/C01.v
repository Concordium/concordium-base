(** C01 — property theorems only, each followed by [Print Assumptions].  Most are closed by [exact];
    the compiler theorems are read off [BlockTheorem.compile_fn_correct] and [StraightProofs.straight_main]
    here, and the non-vacuity examples are evaluated here.

    What is proved here (all inputs, no bounds):
    - the numeric layer of the specification ([Common/IntN.v]): every operator is total on its
      domain, closed on [0,2^N), and satisfies the WebAssembly 1.0 definitions (wrap-around
      arithmetic, the two corner cases of signed division, shift counts modulo the width,
      rotl/rotr inverse, bounds of clz/ctz/popcnt, wrap/extend laws, little-endian bytes);
    - the reference interpreter ([Wasm/Sem.v]): fuel monotonicity (an outcome other than
      out-of-fuel never changes with more fuel — so "the" outcome of a terminating run is
      well defined), memory store/load round trip, bounds and frame, memory.grow;
    - [structure_body] inverts [flatten_body] (the structured program the specification runs
      is exactly the flat program the engine compiles);
    - the faithful model of the engine ([Wasm/Compile.v], [Wasm/Machine.v]) REFUTES the
      unguarded conformance statement: witnesses for findings F1, F2 (if and loop form) and F3.
    - [numops_agree], [unops_agree], [tests_and_conversions_agree], [relops_agree]: every machine numeric
      operator = the specification operator (except rem_s at (MIN,-1), finding F3);
    - [compile_straightline_correct_partial]: the simulation for straight-line code of any length
      (all opcodes without control flow except rem_s).
    - [compile_block_correct_partial]: the simulation for whole function bodies built from the
      constructs accepted by [blocks_ok]: straight-line code, block and if-else (with or without result) /
      loop / one-armed if entered at an empty operand stack, br (also carrying a value to a value-typed
      block or if-else), unreachable and return (last in their body), br_if to result-less labels, any
      nesting depth, back edges to loop labels; forward jump targets are read from the back-patched final
      code, block results travel through the reserved register.
      [compile_loop_correct_partial] is the same statement (loops are part of [blocks_ok]).
    - [compile_fn_result_correct_partial]: the same for functions WITH a result ([blocks_ok_r]): the value
      reaches the final [end] by fall-through or by a br to the function's own label and is moved to
      register 0, where the final Return expects it.
    - [compile_dead_code_correct_partial], [compile_dead_code_fn_result_correct_partial]: the two theorems above
      for bodies WITH DEAD CODE: br / return / unreachable (and br_table) may be followed by arbitrary further
      instructions in the same body, at any nesting depth (fragment [blocks_ok_dead] / [blocks_ok_r_dead] =
      [blocks_ok] / [blocks_ok_r] of the body with the instructions after the first terminator of every live
      body removed, [strip]); [dead_code_fragment_widens]: these fragments contain [blocks_ok] / [blocks_ok_r];
      [dead_code_compiles_away]: the compiler's output for a body equals its output for the stripped body.
    NOT proved (correspondence-only, see design/C01.md): calls, br_table as a LIVE instruction, loop results,
    value-typed if-else whose then-branch ends with a jump, blocks entered with operands below them, br_if
    carrying a value (KF-C01-1). *)
From Coq Require Import ZArith NArith List Bool.
From CB Require Import Common.IntN Common.IntNProofs Wasm.Syntax Wasm.SyntaxProofs Wasm.Sem Wasm.SemProofs
     Wasm.Compile Wasm.Machine Wasm.KnownClasses Wasm.Engine Wasm.Witnesses Wasm.EngineProofs Wasm.NumOpsProofs
     Wasm.MachineLemmas Wasm.CompileLemmas Wasm.StraightProofs Wasm.StraightExample
     Wasm.BlockSim Wasm.BlockTheorem Wasm.BlockExample Wasm.BlockDead Wasm.BlockDeadTheorem Wasm.BlockDeadWiden.
From Coq Require Import FMapPositive.
Import ListNotations.
Local Open Scope Z_scope.

(** ** numeric specification *)
Theorem intn_closed : forall n x y, 0 < n -> in_range n x -> in_range n y ->
  in_range n (iadd n x y) /\ in_range n (isub n x y) /\ in_range n (imul n x y)
  /\ in_range n (ishl n x y) /\ in_range n (ishr_u n x y) /\ in_range n (ishr_s n x y)
  /\ in_range n (irotl n x y)
  /\ (forall r, idiv_u n x y = Some r -> in_range n r) /\ (forall r, irem_u n x y = Some r -> in_range n r)
  /\ (forall r, idiv_s n x y = Some r -> in_range n r) /\ (forall r, irem_s n x y = Some r -> in_range n r)
  /\ 0 <= iclz n x <= n /\ 0 <= ictz n x <= n /\ 0 <= ipopcnt n x <= n.
Proof.
  exact (fun n x y Hn Hx Hy =>
    conj (iadd_range n x y (Z.lt_le_incl _ _ Hn)) (conj (isub_range n x y (Z.lt_le_incl _ _ Hn))
    (conj (imul_range n x y (Z.lt_le_incl _ _ Hn)) (conj (ishl_range n x y (Z.lt_le_incl _ _ Hn))
    (conj (ishr_u_range n x y Hn Hx) (conj (ishr_s_range n x y (Z.lt_le_incl _ _ Hn))
    (conj (irotl_range n x y Hn Hx)
    (conj (fun r => idiv_u_range n x y r Hx Hy) (conj (fun r => irem_u_range n x y r Hx Hy)
    (conj (fun r => idiv_s_range n x y r (Z.lt_le_incl _ _ Hn)) (conj (fun r => irem_s_range n x y r (Z.lt_le_incl _ _ Hn))
    (conj (iclz_range n x Hn Hx) (conj (ictz_range n x Hn Hx) (ipopcnt_range n x Hn Hx)))))))))))))).
Qed.
Print Assumptions intn_closed.

Theorem intn_arith_spec : forall n x y, 0 <= n ->
  iadd n x y = (x + y) mod 2 ^ n /\ isub n x y = (x - y) mod 2 ^ n /\ imul n x y = (x * y) mod 2 ^ n.
Proof. exact (fun n x y Hn => conj (iadd_spec n x y) (conj (isub_spec n x y Hn) (imul_spec n x y))). Qed.
Print Assumptions intn_arith_spec.

Theorem signed_unsigned_inverse : forall n, 0 < n ->
  (forall x, in_range n x -> unsigned n (signed n x) = x /\ - half_modulus n <= signed n x < half_modulus n)
  /\ (forall y, - half_modulus n <= y < half_modulus n -> signed n (unsigned n y) = y).
Proof.
  exact (fun n Hn => conj (fun x Hx => conj (unsigned_signed n x Hn Hx) (signed_range n x Hn Hx))
                         (fun y Hy => signed_unsigned n y Hn Hy)).
Qed.
Print Assumptions signed_unsigned_inverse.

(** MIN / -1 traps, MIN rem -1 is 0, division by zero is undefined (for every width > 1) *)
Theorem signed_division_corner_cases : forall n, 1 < n ->
  idiv_s n (half_modulus n) (modulus n - 1) = None
  /\ irem_s n (half_modulus n) (modulus n - 1) = Some 0
  /\ (forall x, idiv_u n x 0 = None /\ idiv_s n x 0 = None /\ irem_u n x 0 = None /\ irem_s n x 0 = None).
Proof. exact (fun n Hn => conj (idiv_s_min_m1 n Hn) (conj (irem_s_min_m1 n Hn) (fun x => idiv_zero n x))). Qed.
Print Assumptions signed_division_corner_cases.

Theorem shift_count_mod_width : forall n x k, 0 < n ->
  ishl n x (k + n) = ishl n x k /\ ishr_u n x (k + n) = ishr_u n x k /\ ishr_s n x (k + n) = ishr_s n x k.
Proof. exact (fun n x k Hn => conj (ishl_count_mod n x k Hn) (conj (ishr_u_count_mod n x k Hn) (ishr_s_count_mod n x k Hn))). Qed.
Print Assumptions shift_count_mod_width.

Theorem rotr_rotl_inverse : forall n x k, 0 < n -> in_range n x -> irotr n (irotl n x k) k = x.
Proof. exact irotr_irotl. Qed.
Print Assumptions rotr_rotl_inverse.

Theorem rotl_formula : forall n x k, 0 < n -> in_range n x -> 0 <= k < n ->
  irotl n x k = (x mod 2 ^ (n - k)) * 2 ^ k + x / 2 ^ (n - k).
Proof. exact irotl_formula. Qed.
Print Assumptions rotl_formula.

Theorem count_ops_corner : forall n x, 0 < n -> in_range n x ->
  iclz n 0 = n /\ ictz n 0 = n /\ (half_modulus n <= x -> iclz n x = 0) /\ (x mod 2 = 1 -> ictz n x = 0).
Proof.
  exact (fun n x Hn Hx => conj (iclz_zero n) (conj (ictz_zero n)
          (conj (iclz_top_bit n x Hn Hx) (fun Ho => ictz_odd n x Ho (proj1 Hx))))).
Qed.
Print Assumptions count_ops_corner.

Theorem wrap_extend_laws : forall m n x, 0 < m <= n -> in_range m x ->
  iwrap n m (iextend_u m n x) = x /\ iwrap n m (iextend_s m n x) = x
  /\ signed n (iextend_s m n x) = signed m x /\ in_range n (iextend_u m n x) /\ in_range n (iextend_s m n x).
Proof.
  exact (fun m n x H Hx => conj (iwrap_iextend_u m n x Hx) (conj (iwrap_iextend_s m n x H Hx)
          (conj (iextend_s_signed m n x H Hx)
          (conj (iextend_u_range m n x (conj (Z.lt_le_incl _ _ (proj1 H)) (proj2 H)) Hx)
                (iextend_s_range m n x (Z.le_trans _ _ _ (Z.lt_le_incl _ _ (proj1 H)) (proj2 H))))))).
Qed.
Print Assumptions wrap_extend_laws.

Theorem sign_extension_idempotent : forall m n x, 0 < m <= n -> iextendM_s m n (iextendM_s m n x) = iextendM_s m n x.
Proof. exact iextendM_s_idem. Qed.
Print Assumptions sign_extension_idempotent.

Theorem little_endian_bytes : forall k x, 0 <= x ->
  of_bytes (bytes_of k x) = x mod 256 ^ Z.of_nat k /\ length (bytes_of k x) = k
  /\ Forall (fun b => 0 <= b < 256) (bytes_of k x).
Proof. exact (fun k x Hx => conj (of_bytes_bytes_of k x Hx) (conj (bytes_of_length k x) (bytes_of_range k x))). Qed.
Print Assumptions little_endian_bytes.

(** ** reference interpreter *)
Theorem sem_run_fuel_monotone : forall host cap m f f' fi args,
  (f <= f')%nat -> run host cap m f fi args <> OutOfFuel -> run host cap m f' fi args = run host cap m f fi args.
Proof. exact run_fuel_monotone. Qed.
Print Assumptions sem_run_fuel_monotone.

Theorem memory_store_load_roundtrip : forall mm ea k x mm',
  0 <= x -> mem_store mm ea k x = Some mm' -> mem_load mm' ea k = Some (x mod 256 ^ Z.of_nat k).
Proof. exact store_load_roundtrip. Qed.
Print Assumptions memory_store_load_roundtrip.

Theorem memory_access_traps_exactly_out_of_bounds : forall mm ea k x,
  (mem_load mm ea k = None <-> (mem_len mm < ea + N.of_nat k)%N) /\
  (mem_store mm ea k x = None <-> (mem_len mm < ea + N.of_nat k)%N).
Proof. exact load_store_bounds. Qed.
Print Assumptions memory_access_traps_exactly_out_of_bounds.

Theorem memory_store_frame : forall mm ea k x mm' a,
  mem_store mm ea k x = Some mm' -> (a < ea \/ ea + N.of_nat k <= a)%N ->
  mem_get mm' a = mem_get mm a /\ mem_pages mm' = mem_pages mm.
Proof. exact store_frame. Qed.
Print Assumptions memory_store_frame.

Theorem memory_grow_spec : forall cap mm n, 0 <= n ->
  let '(mm', r) := mem_grow cap mm n in
  ((mem_pages mm + Z.to_N n <= grow_limit cap mm)%N ->
     mem_pages mm' = (mem_pages mm + Z.to_N n)%N /\ r = Z.of_N (mem_pages mm) /\ mem_data mm' = mem_data mm) /\
  ((grow_limit cap mm < mem_pages mm + Z.to_N n)%N -> mm' = mm /\ r = 4294967295).
Proof. exact (fun cap mm n _ => mem_grow_spec cap mm n). Qed.
Print Assumptions memory_grow_spec.

Theorem structure_inverts_flatten : forall is, structure_body (flatten_body is) = Some is.
Proof. exact structure_flatten. Qed.
Print Assumptions structure_inverts_flatten.

(** ** the engine model refutes unguarded conformance (findings F1-F3) *)
Theorem f1_refuted : exists m args, disagree m args /\ known_class m = (true, false).
Proof. exact (ex_intro _ w_f1a (ex_intro _ [VI32 0] f1a_disagree)). Qed.
Print Assumptions f1_refuted.

Theorem f1_function_label_refuted : exists m args, disagree m args /\ known_class m = (true, false).
Proof. exact (ex_intro _ w_f1b (ex_intro _ [VI32 1] f1b_disagree)). Qed.
Print Assumptions f1_function_label_refuted.

Theorem f2_refuted : exists m args, disagree m args /\ known_class m = (false, true).
Proof. exact (ex_intro _ w_f2a (ex_intro _ [VI32 7; VI32 0] f2a_disagree)). Qed.
Print Assumptions f2_refuted.

Theorem f2_loop_refuted : exists m args, disagree m args /\ known_class m = (false, true).
Proof. exact (ex_intro _ w_f2b (ex_intro _ [VI32 0] f2b_disagree)). Qed.
Print Assumptions f2_loop_refuted.

Theorem rem_s_min_m1_refuted :
  (exists m args, spec_obs m 100 args = Some (ObsDone (Some (VI32 0)) 0 [] [])
                  /\ engine_run m 100 0 args = Some (MTrap TRemSOverflow) /\ known_class m = (false, false))
  /\ rs_binop 32 RemS (as_i32 2147483648) (as_i32 4294967295) 2147483648 4294967295 = inl TRemSOverflow
  /\ irem_s 32 2147483648 4294967295 = Some 0
  /\ rs_binop 64 RemS (as_i64 9223372036854775808) (as_i64 18446744073709551615) 9223372036854775808 18446744073709551615 = inl TRemSOverflow
  /\ irem_s 64 9223372036854775808 18446744073709551615 = Some 0.
Proof.
  exact (conj (ex_intro _ w_f3 (ex_intro _ [VI32 2147483648; VI32 4294967295] f3_disagree))
              (conj (proj1 rem_s_machine_vs_spec_i32) (conj (proj2 rem_s_machine_vs_spec_i32)
              (conj (proj1 rem_s_machine_vs_spec_i64) (proj2 rem_s_machine_vs_spec_i64))))).
Qed.
Print Assumptions rem_s_min_m1_refuted.

(** ** machine operators ([Machine.rs_*], transcribed from the Rust integer methods) vs the
    specification's operators ([IntN]): ALL numeric opcodes, all operands.  The only exception is
    finding F3: [rem_s] at (MIN, -1) ([rem_s_min_m1_refuted] above), excluded by [f3_operands]. *)
Theorem numops_agree : forall t op x y,
  in_range (bits t) x -> in_range (bits t) y -> (op = RemS -> ~ f3_operands (bits t) x y) ->
  match rs_binop (bits t) op (signed (bits t) x) (signed (bits t) y) x y with
  | inr r => app_binop t op x y = Some (r mod 2 ^ bits t)
  | inl _ => app_binop t op x y = None
  end.
Proof. exact rs_binop_agrees_all. Qed.
Print Assumptions numops_agree.

Theorem unops_agree :
  (forall op x, in_range 32 x -> op <> Extend32S -> app_unop T_i32 op x = Some (rs_unop32 op x mod 2 ^ 32))
  /\ (forall op x, in_range 64 x -> app_unop T_i64 op x = Some (rs_unop64 op x mod 2 ^ 64)).
Proof. exact (conj rs_unop32_agrees rs_unop64_agrees). Qed.
Print Assumptions unops_agree.

Theorem tests_and_conversions_agree : forall x,
  ((in_range 32 x -> rs_eqz32 x = ieqz 32 x) /\ (in_range 64 x -> rs_eqz64 x = ieqz 64 x))
  /\ (in_range 64 x -> rs_cvt WrapI64 x mod 2 ^ 32 = iwrap 64 32 x)
  /\ (in_range 32 x -> rs_cvt ExtendI32S x mod 2 ^ 64 = iextend_s 32 64 x)
  /\ (in_range 32 x -> rs_cvt ExtendI32U x mod 2 ^ 64 = iextend_u 32 64 x).
Proof. exact (fun x => conj (rs_eqz_agrees x) (rs_cvt_agrees x)). Qed.
Print Assumptions tests_and_conversions_agree.

Theorem relops_agree : forall t op x y, in_range (bits t) x -> in_range (bits t) y ->
  rs_relop op (signed (bits t) x) (signed (bits t) y) x y = app_relop t op x y.
Proof. exact rs_relop_all. Qed.
Print Assumptions relops_agree.

Theorem machine_views_are_signed : forall x,
  (in_range 32 x -> as_i32 x = signed 32 x) /\ (in_range 64 x -> as_i64 x = signed 64 x).
Proof. exact (fun x => conj (as_i32_signed x) (as_i64_signed x)). Qed.
Print Assumptions machine_views_are_signed.

(** ** compile_straightline_correct (DESIGN 7.C01 theorem 2) — PARTIAL in the opcode subset only.

    For every sequence [bs] of basic instructions accepted by [straight_ok] — nop, drop, select,
    consts (in range), local.get/set/tee, global.get/set, every unary/binary/relational/conversion
    operator and the sign-extension operators, memory loads and stores of every width (sign- and
    zero-extending), memory.size, memory.grow; EXCLUDED: [rem_s] (finding F3), calls and control
    instructions (and the ill-typed combinations i32.extend32_s / i32 with a 32-bit pack) — of ANY
    length, that [Compile.v]
    accepts from an empty provider stack: running the emitted bytes on [Machine.v] from any state
    related to the specification state ([rel]: registers [0,nl) represent the locals, globals and
    memory agree) reaches a state related to the specification's result: every provider on the final
    compile-time stack denotes the value at that position of the operand stack, locals, globals and
    memory agree; and the machine traps whenever the specification traps.
    The statement is about the same [compile_ops] / [step] functions that correspondence layers
    (i) and (ii) tie to artifact.rs and machine.rs. *)
Theorem compile_straightline_correct_partial :
  forall (art : artifact) (mhost : nat -> list Z -> option (option Z)) (cap : N) (cx : cctx)
         (bs : list binstr) (ret : blocktype) (nl next : Z) (v' : vstate) (sf : cstate),
    forallb straight_ok bs = true ->
    0 <= nl <= next ->
    compile_ops cx (map OBasic bs) (init_vstate ret) (init_cstate next) = Some (v', sf) ->
    c_next sf < 2147483648 -> Z.of_nat (length (c_consts sf)) < 2147483648 ->
    forall (codes : list (code_map * list Z)) (fidx : nat) (rest_code : list N),
      nth_error codes fidx
        = Some (build_code (c_out sf ++ rest_code) xH (PositiveMap.empty N), map fst (c_consts sf)) ->
      forall (st : store) (locals : list val) (M : mstate),
        rel art fidx (map fst (c_consts sf)) nl (c_next sf) cap (init_cstate next) st locals [] M ->
        sim_result art mhost codes fidx (map fst (c_consts sf)) nl (c_next sf) cap M sf
                   (straight_sem cap bs st locals []).
Proof.
  intros art mhost cap cx bs ret nl next v' sf Hok Hnl Hc Hn Hcs codes fidx rest_code Hcodes st locals M R.
  eapply (straight_main art mhost codes fidx _ (map fst (c_consts sf)) Hcodes nl (c_next sf) Hn cap cx bs
            (init_cstate next) (init_vstate ret) v' sf st locals [] M (c_out sf)); eauto.
  - apply cwf_init. exact Hnl.
  - split; [apply Z.le_refl|exact Hcs].
  - apply consts_ok_fst.
  - apply safe_last_none. reflexivity.
  - cbn. eapply code_at_prefix. apply build_code_at.
Qed.
Print Assumptions compile_straightline_correct_partial.

(** [straight_sem] is the reference interpreter on such code *)
Theorem straight_sem_is_exec_seq : forall host cap m bs fuel s locals vs,
  forallb straight_ok bs = true -> (length bs + 2 <= fuel)%nat ->
  exec_seq host cap m fuel s locals vs (map Basic bs) =
  match straight_sem cap bs s locals vs with
  | inr (s', l', vs') => RNormal s' l' vs'
  | inl true => RTrap
  | inl false => RStuck
  end.
Proof. exact exec_seq_straight. Qed.
Print Assumptions straight_sem_is_exec_seq.

(** non-vacuity of the hypotheses: register reuse, constant pooling, a preservation copy and a
    short-circuited local.set in one accepted sequence *)
Example straightline_nonvacuous :
  forallb straight_ok ex_bs = true
  /\ exists v' sf, compile_ops ex_cx (map OBasic ex_bs) (init_vstate (Some T_i32)) (init_cstate 2) = Some (v', sf)
       /\ c_stack sf = [PDyn 2] /\ c_next sf = 3
       /\ map fst (c_consts sf) = [5; 7]
       /\ firstn 9 (c_out sf) = [ICopy; 0; 0; 0; 0; 2; 0; 0; 0]%N
       /\ nth 31 (c_out sf) 0%N = 61%N /\ nth 40 (c_out sf) 0%N = 1%N
       /\ c_next sf < 2147483648 /\ Z.of_nat (length (c_consts sf)) < 2147483648.
Proof.
  split; [reflexivity|]. eexists _, _. split; [vm_compute; reflexivity|]. vm_compute. repeat split; congruence.
Qed.
Print Assumptions straightline_nonvacuous.

Example straightline_memory_nonvacuous :
  forallb straight_ok ex_bs_mem = true
  /\ exists v' sf, compile_ops ex_cx (map OBasic ex_bs_mem) (init_vstate (Some T_i32)) (init_cstate 2) = Some (v', sf)
       /\ length (c_stack sf) = 1%nat /\ map fst (c_consts sf) = [16; 1]
       /\ c_next sf < 2147483648 /\ Z.of_nat (length (c_consts sf)) < 2147483648.
Proof.
  split; [reflexivity|]. eexists _, _. split; [vm_compute; reflexivity|]. vm_compute. repeat split; congruence.
Qed.
Print Assumptions straightline_memory_nonvacuous.

(** ** Stage B: structured control without calls.
    For a function without result whose body [is] consists of the constructs accepted by [blocks_ok]
    ([Wasm/BlockTheorem.v]; [ctl_ok] in [Wasm/BlockSim.v]: instructions accepted by [straight_ok] with local indices below [nl];
    [block] and [if-else] with or without result type, [loop] and one-armed [if] without result type (an [if]
    with a result must have an else: [syn]), all entered when the operand stack is empty (the body of a
    then-branch of a value-typed if-else must reach its [else]; value-typed blocks, else-branches and
    function bodies may end with a jump); [br l] (to any
    label; to a value-typed label it carries the top of the stack into the frame's reserved register),
    [unreachable] and [return] as the last instruction of their body, and [br_if l] to result-less labels
    only - so neither
    KF-C01-1 (br_if carrying a value) nor KF-C01-2 (local.set below an open conditional region with the
    local on the stack) can occur, which is what [~ KnownClass] would exclude), compiled by
    [compile_ops] from the function-entry state including the final [end] (which back-patches the jumps
    to the function label), the machine started at pc 0 in a state related to the specification state:
    - reaches the position after the compiled body (where [Module::compile] puts the final Return)
      in a state related to the specification's final state whenever the reference interpreter
      finishes the body (normally or by a branch to the function label) - every jump went to the
      instruction after the matching [end] / at the start of the else branch;
    - traps whenever the reference interpreter traps;
    - and the reference interpreter never branches out of the body.
    Out-of-fuel and stuck (ill-typed) runs of the interpreter are not constrained: for a diverging loop the
    theorem says nothing (the induction is on the interpreter's fuel; each back edge is one more unfolding). *)
Theorem compile_block_correct_partial :
  forall (art : artifact) (mhost : nat -> list Z -> option (option Z)) (cap : N)
         (host : nat -> list val -> option memory -> host_result) (m : module) (cx : cctx)
         (is : list instr) (nl next : Z) (v' : vstate) (sF : cstate) (rest_code : list N),
    blocks_ok nl cx is = true -> 0 <= nl <= next ->
    compile_ops cx (flatten_body is) (init_vstate None) (init_fstate next) = Some (v', sF) ->
    c_next sF < 2147483648 -> Z.of_nat (length (c_consts sF)) < 2147483648 ->
    Z.of_nat (length (c_out sF ++ rest_code)) < 4294967296 ->
    forall (codes : list (code_map * list Z)) (fidx : nat),
      nth_error codes fidx
        = Some (build_code (c_out sF ++ rest_code) xH (PositiveMap.empty N), map fst (c_consts sF)) ->
      forall (st : store) (locals : list val) (M : mstate) (fuel : nat),
        rel art fidx (map fst (c_consts sF)) nl (c_next sF) cap (init_fstate next) st locals [] M ->
        match exec_instr host cap m fuel st locals [] (Block None is) with
        | RNormal st' l' vs' =>
            vs' = [] /\ exists n M', nsteps art mhost codes n M = SNext M'
                       /\ rel art fidx (map fst (c_consts sF)) nl (c_next sF) cap sF st' l' [] M' /\ frame_eq M M'
        | RReturn st' vs' =>
            exists n M', nsteps art mhost codes n M = SNext M' /\ frame_eq M M' /\ ms_idx M' = fidx
              /\ code_at (build_code (c_out sF ++ rest_code) xH (PositiveMap.empty N)) (ms_pc M') [IReturn]
              /\ Forall2 repr (ms_globals M') (s_globals st') /\ mem_rel art cap (ms_mem M') (s_mem st')
              /\ match cx_return cx with
                 | Some _ => exists v vs0, vs' = v :: vs0 /\ repr (reg M' 0) v
                 | None => True
                 end
        | RTrap => exists n e, nsteps art mhost codes n M = STrap e
        | RBr _ _ _ _ => False
        | _ => True
        end.
Proof.
  intros art mhost cap host m cx is nl next v' sF rest_code Hok Hnl Hc Hn Hcs Hlen codes fidx Hcodes st locals M fuel R.
  apply andb_true_iff in Hok. destruct Hok as [Hsyn Hok].
  pose proof (compile_fn_correct art mhost cap host m cx is None None nl next v' sF rest_code Hsyn Hok Hnl Logic.I Hc Hn Hcs Hlen
                codes fidx Hcodes st locals M fuel R) as H.
  unfold fn_outcome in H. destruct (exec_instr host cap m fuel st locals [] (Block None is)); auto.
  destruct H as (n & M' & Hn' & Fq & -> & R'). eauto 6.
Qed.
Print Assumptions compile_block_correct_partial.

(** the same statement under the name the design uses for loops: [blocks_ok] accepts [loop] without result
    entered at an empty operand stack, with back edges [br] / [br_if] to the loop label *)
Theorem compile_loop_correct_partial :
  forall (art : artifact) (mhost : nat -> list Z -> option (option Z)) (cap : N)
         (host : nat -> list val -> option memory -> host_result) (m : module) (cx : cctx)
         (is : list instr) (nl next : Z) (v' : vstate) (sF : cstate) (rest_code : list N),
    blocks_ok nl cx is = true -> 0 <= nl <= next ->
    compile_ops cx (flatten_body is) (init_vstate None) (init_fstate next) = Some (v', sF) ->
    c_next sF < 2147483648 -> Z.of_nat (length (c_consts sF)) < 2147483648 ->
    Z.of_nat (length (c_out sF ++ rest_code)) < 4294967296 ->
    forall (codes : list (code_map * list Z)) (fidx : nat),
      nth_error codes fidx
        = Some (build_code (c_out sF ++ rest_code) xH (PositiveMap.empty N), map fst (c_consts sF)) ->
      forall (st : store) (locals : list val) (M : mstate) (fuel : nat),
        rel art fidx (map fst (c_consts sF)) nl (c_next sF) cap (init_fstate next) st locals [] M ->
        match exec_instr host cap m fuel st locals [] (Block None is) with
        | RNormal st' l' vs' =>
            vs' = [] /\ exists n M', nsteps art mhost codes n M = SNext M'
                       /\ rel art fidx (map fst (c_consts sF)) nl (c_next sF) cap sF st' l' [] M' /\ frame_eq M M'
        | RReturn st' vs' =>
            exists n M', nsteps art mhost codes n M = SNext M' /\ frame_eq M M' /\ ms_idx M' = fidx
              /\ code_at (build_code (c_out sF ++ rest_code) xH (PositiveMap.empty N)) (ms_pc M') [IReturn]
              /\ Forall2 repr (ms_globals M') (s_globals st') /\ mem_rel art cap (ms_mem M') (s_mem st')
              /\ match cx_return cx with
                 | Some _ => exists v vs0, vs' = v :: vs0 /\ repr (reg M' 0) v
                 | None => True
                 end
        | RTrap => exists n e, nsteps art mhost codes n M = STrap e
        | RBr _ _ _ _ => False
        | _ => True
        end.
Proof. exact compile_block_correct_partial. Qed.
Print Assumptions compile_loop_correct_partial.

(** Functions WITH a result.  Same constructs ([blocks_ok_r] additionally replays the final [end];
    [return] carries the top of the stack into register 0), compiled from the entry state of a function with a
    result (the function frame's result location is register 0).  When the reference interpreter finishes
    the body - by fall-through or by a [br] to the function label carrying the value - the machine reaches
    the offset of the final Return with the result in register 0 and globals and memory related to the
    specification's (local 0 has been overwritten by the result, so locals are no longer related); on [return]
    it reaches a Return opcode with the returned value in register 0. *)
Theorem compile_fn_result_correct_partial :
  forall (art : artifact) (mhost : nat -> list Z -> option (option Z)) (cap : N)
         (host : nat -> list val -> option memory -> host_result) (m : module) (cx : cctx)
         (is : list instr) (t : valtype) (nl next : Z) (v' : vstate) (sF : cstate) (rest_code : list N),
    blocks_ok_r nl cx t is = true -> 0 <= nl <= next -> 0 < next ->
    compile_ops cx (flatten_body is) (init_vstate (Some t)) (init_fstate_r next) = Some (v', sF) ->
    c_next sF < 2147483648 -> Z.of_nat (length (c_consts sF)) < 2147483648 ->
    Z.of_nat (length (c_out sF ++ rest_code)) < 4294967296 ->
    forall (codes : list (code_map * list Z)) (fidx : nat),
      nth_error codes fidx
        = Some (build_code (c_out sF ++ rest_code) xH (PositiveMap.empty N), map fst (c_consts sF)) ->
      forall (st : store) (locals : list val) (M : mstate) (fuel : nat),
        rel art fidx (map fst (c_consts sF)) nl (c_next sF) cap (init_fstate_r next) st locals [] M ->
        match exec_instr host cap m fuel st locals [] (Block (Some t) is) with
        | RNormal st' l' vs' =>
            exists v, vs' = [v] /\ exists n M', nsteps art mhost codes n M = SNext M' /\ frame_eq M M'
              /\ ms_idx M' = fidx /\ ms_pc M' = cur_off sF
              /\ Forall2 repr (ms_globals M') (s_globals st') /\ mem_rel art cap (ms_mem M') (s_mem st')
              /\ repr (reg M' 0) v
        | RReturn st' vs' =>
            exists n M', nsteps art mhost codes n M = SNext M' /\ frame_eq M M' /\ ms_idx M' = fidx
              /\ code_at (build_code (c_out sF ++ rest_code) xH (PositiveMap.empty N)) (ms_pc M') [IReturn]
              /\ Forall2 repr (ms_globals M') (s_globals st') /\ mem_rel art cap (ms_mem M') (s_mem st')
              /\ match cx_return cx with
                 | Some _ => exists v vs0, vs' = v :: vs0 /\ repr (reg M' 0) v
                 | None => True
                 end
        | RTrap => exists n e, nsteps art mhost codes n M = STrap e
        | RBr _ _ _ _ => False
        | _ => True
        end.
Proof.
  intros art mhost cap host m cx is t nl next v' sF rest_code Hok Hnl Hnx Hc Hn Hcs Hlen codes fidx Hcodes st locals M fuel R.
  apply andb_true_iff in Hok. destruct Hok as [Hsyn Hlv].
  unfold flatten_body in Hlv. destruct (compile_app_inv _ _ _ _ _ _ _ Hc) as (vf & sf & Hc1 & _).
  rewrite (lvl_app nl cx _ _ _ _ _ _ Hc1) in Hlv. apply andb_true_iff in Hlv. destruct Hlv as [Hok _].
  pose proof (compile_fn_correct art mhost cap host m cx is (Some t) (Some (PLocal 0)) nl next v' sF rest_code Hsyn Hok Hnl Hnx Hc Hn Hcs Hlen
                codes fidx Hcodes st locals M fuel R) as H.
  unfold fn_outcome in H. destruct (exec_instr host cap m fuel st locals [] (Block (Some t) is)); auto.
  destruct H as (n & M' & Hn' & Fq & v & -> & W). eauto 8.
Qed.
Print Assumptions compile_fn_result_correct_partial.

(** non-vacuity for function results: the value reaches the final end by a br to the function label
    (out of an if), by fall-through, and a return with a value *)
Example fn_result_nonvacuous :
  blocks_ok_r 2 fn_cx T_i32 fn_body = true
  /\ (exists v' sF, compile_ops fn_cx (flatten_body fn_body) (init_vstate (Some T_i32)) (init_fstate_r 2) = Some (v', sF)
       /\ c_bp sF = [] /\ c_stack sF = [PLocal 0]
       /\ c_next sF < 2147483648 /\ Z.of_nat (length (c_consts sF)) < 2147483648
       /\ Z.of_nat (length (c_out sF ++ [IReturn])) < 4294967296)
  /\ (forall host cap m st,
        exec_instr host cap m 50 st [VI32 1; VI32 5] [] (Block (Some T_i32) fn_body) = RNormal st [VI32 1; VI32 5] [VI32 7]
        /\ exec_instr host cap m 50 st [VI32 0; VI32 5] [] (Block (Some T_i32) fn_body) = RNormal st [VI32 0; VI32 5] [VI32 6]
        /\ exec_instr host cap m 50 st [VI32 0; VI32 9] [] (Block (Some T_i32) fn_body) = RReturn st [VI32 42]).
Proof.
  split; [vm_compute; reflexivity|]. split.
  - eexists _, _. split; [vm_compute; reflexivity|]. vm_compute. repeat split; congruence.
  - intros host cap m st. repeat split; vm_compute; reflexivity.
Qed.
Print Assumptions fn_result_nonvacuous.

(** non-vacuity for bodies ending with a jump: a value-typed block whose body ends with a br carrying the
    value, a function body ending with return *)
Example jump_ending_nonvacuous :
  blocks_ok_r 2 fn_cx T_i32 fn_body2 = true
  /\ (exists v' sF, compile_ops fn_cx (flatten_body fn_body2) (init_vstate (Some T_i32)) (init_fstate_r 2) = Some (v', sF)
       /\ c_bp sF = []
       /\ c_next sF < 2147483648 /\ Z.of_nat (length (c_consts sF)) < 2147483648
       /\ Z.of_nat (length (c_out sF ++ [IReturn])) < 4294967296)
  /\ (forall host cap m st,
        exec_instr host cap m 50 st [VI32 3; VI32 4] [] (Block (Some T_i32) fn_body2) = RReturn st [VI32 7]).
Proof.
  split; [vm_compute; reflexivity|]. split.
  - eexists _, _. split; [vm_compute; reflexivity|]. vm_compute. repeat split; congruence.
  - intros host cap m st. vm_compute. reflexivity.
Qed.
Print Assumptions jump_ending_nonvacuous.

(** non-vacuity for block results: a value-typed block reached by fall-through and by a [br] carrying a
    value out of a nested [if]; an if-else with a result; another value-typed block inside a loop body *)
Example block_result_nonvacuous :
  blocks_ok 2 blk_cx val_body = true
  /\ (exists v' sF, compile_ops blk_cx (flatten_body val_body) (init_vstate None) (init_fstate 2) = Some (v', sF)
       /\ c_bp sF = [] /\ c_stack sF = []
       /\ c_next sF < 2147483648 /\ Z.of_nat (length (c_consts sF)) < 2147483648
       /\ Z.of_nat (length (c_out sF ++ [IReturn])) < 4294967296)
  /\ (forall host cap m st,
        exec_instr host cap m 200 st [VI32 3; VI32 0] [] (Block None val_body) = RNormal st [VI32 0; VI32 18] []
        /\ exec_instr host cap m 200 st [VI32 0; VI32 5] [] (Block None val_body) = RNormal st [VI32 0; VI32 24] []).
Proof.
  split; [vm_compute; reflexivity|]. split.
  - eexists _, _. split; [vm_compute; reflexivity|]. vm_compute. repeat split; congruence.
  - intros host cap m st. repeat split; vm_compute; reflexivity.
Qed.
Print Assumptions block_result_nonvacuous.

(** non-vacuity for loops: a counting loop (back edge [br 0], exit [br_if 1] out of loop and block) followed
    by a guarded [unreachable]; runs that iterate 4 and 0 times, one that traps, one that runs out of fuel *)
Example loops_nonvacuous :
  blocks_ok 2 blk_cx loop_body = true
  /\ (exists v' sF, compile_ops blk_cx (flatten_body loop_body) (init_vstate None) (init_fstate 2) = Some (v', sF)
       /\ c_bp sF = [] /\ c_stack sF = []
       /\ c_next sF < 2147483648 /\ Z.of_nat (length (c_consts sF)) < 2147483648
       /\ Z.of_nat (length (c_out sF ++ [IReturn])) < 4294967296)
  /\ (forall host cap m st,
        exec_instr host cap m 200 st [VI32 4; VI32 0] [] (Block None loop_body) = RNormal st [VI32 0; VI32 10] []
        /\ exec_instr host cap m 200 st [VI32 0; VI32 7] [] (Block None loop_body) = RNormal st [VI32 0; VI32 7] []
        /\ exec_instr host cap m 200 st [VI32 3; VI32 0] [] (Block None loop_body) = RReturn st []
        /\ exec_instr host cap m 200 st [VI32 20; VI32 0] [] (Block None loop_body) = RTrap
        /\ exec_instr host cap m 20 st [VI32 20; VI32 0] [] (Block None loop_body) = RFuel).
Proof.
  split; [vm_compute; reflexivity|]. split.
  - eexists _, _. split; [vm_compute; reflexivity|]. vm_compute. repeat split; congruence.
  - intros host cap m st. repeat split; vm_compute; reflexivity.
Qed.
Print Assumptions loops_nonvacuous.

(** non-vacuity: two nested blocks, a br_if out of both, an if/else whose then-branch ends with a br
    out of the if and both blocks, a one-armed if; the hypotheses hold and three runs of the reference
    interpreter end normally through three different paths *)
Example blocks_nonvacuous :
  blocks_ok 2 blk_cx blk_body = true
  /\ (exists v' sF, compile_ops blk_cx (flatten_body blk_body) (init_vstate None) (init_fstate 2) = Some (v', sF)
       /\ c_bp sF = [] /\ c_stack sF = []
       /\ c_next sF < 2147483648 /\ Z.of_nat (length (c_consts sF)) < 2147483648
       /\ Z.of_nat (length (c_out sF ++ [IReturn])) < 4294967296)
  /\ (forall host cap m st,
        exec_instr host cap m 30 st [VI32 0; VI32 1] [] (Block None blk_body) = RNormal st [VI32 7; VI32 5] []
        /\ exec_instr host cap m 30 st [VI32 0; VI32 0] [] (Block None blk_body) = RNormal st [VI32 3; VI32 5] []
        /\ exec_instr host cap m 30 st [VI32 4; VI32 0] [] (Block None blk_body) = RNormal st [VI32 4; VI32 0] []).
Proof.
  split; [vm_compute; reflexivity|]. split.
  - eexists _, _. split; [vm_compute; reflexivity|]. vm_compute. repeat split; congruence.
  - intros host cap m st. repeat split; vm_compute; reflexivity.
Qed.
Print Assumptions blocks_nonvacuous.

(** ** Dead code (the compiler's unreachable-marking path).  [strip] removes, in every body in live
    position, the instructions after the first br / br_table / return / unreachable.  The compiler skips exactly
    these instructions ([UnreachableInstruction] / [UnreachableFrame] in [handle_opcode]); what they do to the
    validator's operand height is undone by the closing end / else.  Hence (for EVERY body, no fragment
    restriction) compiling a function body gives the same compiler state - bytes, back-patch stack, provider
    stack, registers, constants - and the same validation state as compiling the stripped body. *)
Theorem dead_code_compiles_away : forall cx is v s v' s',
  v_unreach v = None -> (0 < clen v)%nat ->
  compile_ops cx (flatten_body is) v s = Some (v', s') ->
  compile_ops cx (flatten_body (strip is)) v s = Some (v', s').
Proof. exact strip_compile_body. Qed.
Print Assumptions dead_code_compiles_away.

(** ... and the reference interpreter never executes them (same result for every fuel). *)
Theorem dead_code_never_executed : forall host cap m fuel st l vs bt is,
  exec_instr host cap m fuel st l vs (Block bt (strip is)) = exec_instr host cap m fuel st l vs (Block bt is).
Proof. exact exec_strip_block. Qed.
Print Assumptions dead_code_never_executed.

(** The dead-code fragments contain [blocks_ok] / [blocks_ok_r] (a body accepted by those has no dead code). *)
Theorem dead_code_fragment_widens : forall nl cx is,
  (blocks_ok nl cx is = true -> blocks_ok_dead nl cx is = true)
  /\ (forall t, blocks_ok_r nl cx t is = true -> blocks_ok_r_dead nl cx t is = true).
Proof. exact (fun nl cx is => conj (blocks_ok_widen nl cx is) (fun t => blocks_ok_r_widen nl cx t is)). Qed.
Print Assumptions dead_code_fragment_widens.

(** [compile_block_correct_partial] for bodies with dead code: the hypothesis is [blocks_ok_dead]
    (= [blocks_ok] of the stripped body); compilation and the reference run are those of the ORIGINAL body. *)
Theorem compile_dead_code_correct_partial :
  forall (art : artifact) (mhost : nat -> list Z -> option (option Z)) (cap : N)
         (host : nat -> list val -> option memory -> host_result) (m : module) (cx : cctx)
         (is : list instr) (nl next : Z) (v' : vstate) (sF : cstate) (rest_code : list N),
    blocks_ok_dead nl cx is = true -> 0 <= nl <= next ->
    compile_ops cx (flatten_body is) (init_vstate None) (init_fstate next) = Some (v', sF) ->
    c_next sF < 2147483648 -> Z.of_nat (length (c_consts sF)) < 2147483648 ->
    Z.of_nat (length (c_out sF ++ rest_code)) < 4294967296 ->
    forall (codes : list (code_map * list Z)) (fidx : nat),
      nth_error codes fidx
        = Some (build_code (c_out sF ++ rest_code) xH (PositiveMap.empty N), map fst (c_consts sF)) ->
      forall (st : store) (locals : list val) (M : mstate) (fuel : nat),
        rel art fidx (map fst (c_consts sF)) nl (c_next sF) cap (init_fstate next) st locals [] M ->
        match exec_instr host cap m fuel st locals [] (Block None is) with
        | RNormal st' l' vs' =>
            vs' = [] /\ exists n M', nsteps art mhost codes n M = SNext M'
                       /\ rel art fidx (map fst (c_consts sF)) nl (c_next sF) cap sF st' l' [] M' /\ frame_eq M M'
        | RReturn st' vs' =>
            exists n M', nsteps art mhost codes n M = SNext M' /\ frame_eq M M' /\ ms_idx M' = fidx
              /\ code_at (build_code (c_out sF ++ rest_code) xH (PositiveMap.empty N)) (ms_pc M') [IReturn]
              /\ Forall2 repr (ms_globals M') (s_globals st') /\ mem_rel art cap (ms_mem M') (s_mem st')
              /\ match cx_return cx with
                 | Some _ => exists v vs0, vs' = v :: vs0 /\ repr (reg M' 0) v
                 | None => True
                 end
        | RTrap => exists n e, nsteps art mhost codes n M = STrap e
        | RBr _ _ _ _ => False
        | _ => True
        end.
Proof.
  intros art mhost cap host m cx is nl next v' sF rest_code Hok Hnl Hc Hn Hcs Hlen codes fidx Hcodes st locals M fuel R.
  destruct (init_vstate_ok None) as [Hu Hl].
  pose proof (strip_compile_body cx is _ _ v' sF Hu Hl Hc) as Hc2.
  rewrite <- (exec_strip_block host cap m fuel st locals [] None is).
  exact (compile_block_correct_partial art mhost cap host m cx (strip is) nl next v' sF rest_code Hok Hnl Hc2 Hn Hcs Hlen
           codes fidx Hcodes st locals M fuel R).
Qed.
Print Assumptions compile_dead_code_correct_partial.

(** [compile_fn_result_correct_partial] for bodies with dead code. *)
Theorem compile_dead_code_fn_result_correct_partial :
  forall (art : artifact) (mhost : nat -> list Z -> option (option Z)) (cap : N)
         (host : nat -> list val -> option memory -> host_result) (m : module) (cx : cctx)
         (is : list instr) (t : valtype) (nl next : Z) (v' : vstate) (sF : cstate) (rest_code : list N),
    blocks_ok_r_dead nl cx t is = true -> 0 <= nl <= next -> 0 < next ->
    compile_ops cx (flatten_body is) (init_vstate (Some t)) (init_fstate_r next) = Some (v', sF) ->
    c_next sF < 2147483648 -> Z.of_nat (length (c_consts sF)) < 2147483648 ->
    Z.of_nat (length (c_out sF ++ rest_code)) < 4294967296 ->
    forall (codes : list (code_map * list Z)) (fidx : nat),
      nth_error codes fidx
        = Some (build_code (c_out sF ++ rest_code) xH (PositiveMap.empty N), map fst (c_consts sF)) ->
      forall (st : store) (locals : list val) (M : mstate) (fuel : nat),
        rel art fidx (map fst (c_consts sF)) nl (c_next sF) cap (init_fstate_r next) st locals [] M ->
        match exec_instr host cap m fuel st locals [] (Block (Some t) is) with
        | RNormal st' l' vs' =>
            exists v, vs' = [v] /\ exists n M', nsteps art mhost codes n M = SNext M' /\ frame_eq M M'
              /\ ms_idx M' = fidx /\ ms_pc M' = cur_off sF
              /\ Forall2 repr (ms_globals M') (s_globals st') /\ mem_rel art cap (ms_mem M') (s_mem st')
              /\ repr (reg M' 0) v
        | RReturn st' vs' =>
            exists n M', nsteps art mhost codes n M = SNext M' /\ frame_eq M M' /\ ms_idx M' = fidx
              /\ code_at (build_code (c_out sF ++ rest_code) xH (PositiveMap.empty N)) (ms_pc M') [IReturn]
              /\ Forall2 repr (ms_globals M') (s_globals st') /\ mem_rel art cap (ms_mem M') (s_mem st')
              /\ match cx_return cx with
                 | Some _ => exists v vs0, vs' = v :: vs0 /\ repr (reg M' 0) v
                 | None => True
                 end
        | RTrap => exists n e, nsteps art mhost codes n M = STrap e
        | RBr _ _ _ _ => False
        | _ => True
        end.
Proof.
  intros art mhost cap host m cx is t nl next v' sF rest_code Hok Hnl Hnx Hc Hn Hcs Hlen codes fidx Hcodes st locals M fuel R.
  destruct (init_vstate_ok (Some t)) as [Hu Hl].
  pose proof (strip_compile_body cx is _ _ v' sF Hu Hl Hc) as Hc2.
  rewrite <- (exec_strip_block host cap m fuel st locals [] (Some t) is).
  exact (compile_fn_result_correct_partial art mhost cap host m cx (strip is) t nl next v' sF rest_code Hok Hnl Hnx Hc2 Hn Hcs Hlen
           codes fidx Hcodes st locals M fuel R).
Qed.
Print Assumptions compile_dead_code_fn_result_correct_partial.

(** non-vacuity: dead code after br (incl. stack-polymorphic pops from the empty stack, a whole dead
    value-typed frame with a br_if to a value-typed label inside), after return (then-branch of an if) and
    after unreachable (else-branch); the body is NOT in [blocks_ok]; the run returns / traps *)
Example dead_code_nonvacuous :
  blocks_ok_dead 2 dead_cx dead_body = true /\ blocks_ok 2 dead_cx dead_body = false
  /\ (exists v' sF, compile_ops dead_cx (flatten_body dead_body) (init_vstate None) (init_fstate 2) = Some (v', sF)
       /\ c_bp sF = [] /\ c_stack sF = []
       /\ c_next sF < 2147483648 /\ Z.of_nat (length (c_consts sF)) < 2147483648
       /\ Z.of_nat (length (c_out sF ++ [IReturn])) < 4294967296)
  /\ (forall host cap m st,
        exec_instr host cap m 30 st [VI32 0; VI32 1] [] (Block None dead_body) = RReturn st []
        /\ exec_instr host cap m 30 st [VI32 0; VI32 0] [] (Block None dead_body) = RTrap).
Proof.
  split; [vm_compute; reflexivity|]. split; [vm_compute; reflexivity|]. split.
  - eexists _, _. split; [vm_compute; reflexivity|]. vm_compute. repeat split; congruence.
  - intros host cap m st. repeat split; vm_compute; reflexivity.
Qed.
Print Assumptions dead_code_nonvacuous.

(** non-vacuity for functions with a result: dead code after a br to the function label and after return *)
Example dead_code_fn_nonvacuous :
  blocks_ok_r_dead 2 dead_fn_cx T_i32 dead_fn_body = true /\ blocks_ok_r 2 dead_fn_cx T_i32 dead_fn_body = false
  /\ (exists v' sF, compile_ops dead_fn_cx (flatten_body dead_fn_body) (init_vstate (Some T_i32)) (init_fstate_r 2) = Some (v', sF)
       /\ c_bp sF = []
       /\ c_next sF < 2147483648 /\ Z.of_nat (length (c_consts sF)) < 2147483648
       /\ Z.of_nat (length (c_out sF ++ [IReturn])) < 4294967296)
  /\ (forall host cap m st,
        exec_instr host cap m 30 st [VI32 1; VI32 5] [] (Block (Some T_i32) dead_fn_body) = RNormal st [VI32 1; VI32 5] [VI32 7]
        /\ exec_instr host cap m 30 st [VI32 0; VI32 5] [] (Block (Some T_i32) dead_fn_body) = RReturn st [VI32 5]).
Proof.
  split; [vm_compute; reflexivity|]. split; [vm_compute; reflexivity|]. split.
  - eexists _, _. split; [vm_compute; reflexivity|]. vm_compute. repeat split; congruence.
  - intros host cap m st. repeat split; vm_compute; reflexivity.
Qed.
Print Assumptions dead_code_fn_nonvacuous.

(** non-vacuity: a module outside the classes on which specification and engine model agree *)
Example outside_classes_agree :
  known_class w_plain = (false, false)
  /\ spec_obs w_plain 100 [VI32 3; VI32 4] = engine_obs w_plain 100 [VI32 3; VI32 4]
  /\ spec_obs w_plain 100 [VI32 3; VI32 4] = Some (ObsDone (Some (VI32 49)) 0 [] []).
Proof. exact plain_agree. Qed.
Print Assumptions outside_classes_agree.

Example in_range_nonvacuous : in_range 32 4294967295 /\ ~ in_range 32 4294967296 /\ iadd 32 4294967295 1 = 0.
Proof. exact in_range_example. Qed.
Print Assumptions in_range_nonvacuous.
